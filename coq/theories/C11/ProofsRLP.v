(** C11 — [be_val] inverts [be_bytes]; RLP strings are injective and prefix-free; a flat list of strings
    is injective. *)
From Coq Require Import List ZArith NArith Bool Lia.
From Kardia Require Import C11.Varint C11.ProofsVarint C11.RLPItem.
Import ListNotations.
Local Open Scope N_scope.

Lemma be_val_rev l : be_val (rev l) = fold_right (fun x a => a * 256 + x) 0 l.
Proof. rewrite <- (rev_involutive l) at 2. symmetry. apply fold_left_rev_right. Qed.

(** [be_val] ([big.Int.SetBytes]) reads back what [be_bytes] ([big.Int.Bytes]) wrote *)
Lemma be_val_be_bytes : forall n, be_val (be_bytes n) = n.
Proof.
  intros n. unfold be_bytes. rewrite be_val_rev.
  induction n as [n IH] using (well_founded_induction N.lt_wf_0).
  rewrite le_bytes_eq. destruct (N.eqb_spec n 0) as [->|Hn]; [reflexivity|].
  cbn [fold_right]. rewrite IH by (apply N.div_lt; lia). lia.
Qed.

Lemma be_bytes_inj n n' : be_bytes n = be_bytes n' -> n = n'.
Proof. intros E. rewrite <- (be_val_be_bytes n), E. apply be_val_be_bytes. Qed.

Lemma be_bytes_nonnil n : n <> 0 -> 1 <= len (be_bytes n).
Proof.
  intros Hn. unfold be_bytes, len. rewrite rev_length, le_bytes_eq.
  destruct (N.eqb_spec n 0); [contradiction|]. cbn [length]. lia.
Qed.

Lemma rlp_header_pf off n n' r r' :
  rlp_header off n ++ r = rlp_header off n' ++ r' -> n = n' /\ r = r'.
Proof.
  unfold rlp_header. intros E.
  destruct (n <? 56) eqn:L; destruct (n' <? 56) eqn:L'; cbn [app] in E; injection E as E1 E2.
  - split; [lia|assumption].
  - apply N.ltb_lt in L. apply N.ltb_ge in L'. pose proof (be_bytes_nonnil n'). lia.
  - apply N.ltb_lt in L'. apply N.ltb_ge in L. pose proof (be_bytes_nonnil n). lia.
  - assert (EL : len (be_bytes n) = len (be_bytes n')) by lia.
    apply app_eq_len in E2; [|apply len_eq; exact EL]. destruct E2 as [E2 E3].
    apply be_bytes_inj in E2. auto.
Qed.

Lemma rlp_header_head off n : exists x t, rlp_header off n = x :: t /\ off <= x.
Proof.
  unfold rlp_header. destruct (n <? 56); eexists; eexists; (split; [reflexivity|lia]).
Qed.

Lemma rlp_str_cases a :
  (exists x, a = [x] /\ x < 128 /\ rlp_str a = [x]) \/ rlp_str a = rlp_header 128 (len a) ++ a.
Proof.
  destruct a as [|x [|y a]]; cbn [rlp_str]; auto.
  destruct (x <? 128) eqn:L; [left; exists x; apply N.ltb_lt in L; auto|right; reflexivity].
Qed.

Lemma rlp_str_pf a b r r' : rlp_str a ++ r = rlp_str b ++ r' -> a = b /\ r = r'.
Proof.
  intros E.
  destruct (rlp_str_cases a) as [(x & Ea & Lx & Ra)|Ra]; destruct (rlp_str_cases b) as [(y & Eb & Ly & Rb)|Rb];
    rewrite Ra, Rb in E.
  - cbn in E. injection E as E1 E2. subst. auto.
  - destruct (rlp_header_head 128 (len b)) as (h & t & Hh & Hl). rewrite Hh in E. cbn in E.
    injection E as E1 E2. lia.
  - destruct (rlp_header_head 128 (len a)) as (h & t & Hh & Hl). rewrite Hh in E. cbn in E.
    injection E as E1 E2. lia.
  - rewrite <- !app_assoc in E. apply rlp_header_pf in E. destruct E as [L E].
    apply app_eq_len; [apply len_eq; exact L|exact E].
Qed.

Lemma rlp_str_nonnil a : rlp_str a <> [].
Proof.
  destruct (rlp_str_cases a) as [(x & _ & _ & R)|R]; rewrite R; [discriminate|].
  destruct (rlp_header_head 128 (len a)) as (h & t & Hh & _). rewrite Hh. discriminate.
Qed.

Lemma concat_rlp_strs_inj : forall l l', concat (map rlp_str l) = concat (map rlp_str l') -> l = l'.
Proof.
  induction l as [|a l IH]; destruct l' as [|b l']; cbn [map concat]; intros E.
  - reflexivity.
  - symmetry in E. apply app_eq_nil in E. destruct E as [E _]. apply rlp_str_nonnil in E. contradiction.
  - apply app_eq_nil in E. destruct E as [E _]. apply rlp_str_nonnil in E. contradiction.
  - apply rlp_str_pf in E. destruct E as [E1 E2]. subst. f_equal. auto.
Qed.

Lemma rlp_list_of_strs_inj l l' : rlp_list_of_strs l = rlp_list_of_strs l' -> l = l'.
Proof.
  unfold rlp_list_of_strs, rlp_list. cbv zeta. intros E.
  apply rlp_header_pf in E. destruct E as [_ E].
  apply concat_rlp_strs_inj. exact E.
Qed.
