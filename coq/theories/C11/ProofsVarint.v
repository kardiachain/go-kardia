(** C11 — facts about [bytes] ([bytes_eqb], [len]); varint / length-delimited / optional-field injectivity
    and prefix-freeness; injectivity of the [uint64] cast [u64].
    [varint] and [le_bytes] run on fuel; each gets its unfolding equation here ([varint_eq],
    [le_bytes_eq]), and everything else is proved from the equations by induction on the number. *)
From Coq Require Import List ZArith NArith Bool Lia.
From Kardia Require Import C11.Varint C11.Proto.
Import ListNotations.
Local Open Scope N_scope.
(* [lia] knows [/] and [mod] from here on, also in every file that requires this one *)
Ltac Zify.zify_post_hook ::= Z.to_euclidean_division_equations.

(** * facts about [bytes] *)

Lemma bytes_eqb_eq : forall a b, bytes_eqb a b = true <-> a = b.
Proof.
  induction a as [|x a IH]; destruct b as [|y b]; cbn [bytes_eqb]; split; intros E; try discriminate; auto.
  - apply andb_prop in E. destruct E as [E1 E2]. apply N.eqb_eq in E1. apply IH in E2. subst. reflexivity.
  - injection E as E1 E2. subst. rewrite N.eqb_refl. cbn. apply IH. reflexivity.
Qed.

Lemma bytes_eqb_refl a : bytes_eqb a a = true.
Proof. apply bytes_eqb_eq. reflexivity. Qed.

Lemma bytes_eqb_spec a b : reflect (a = b) (bytes_eqb a b).
Proof. apply iff_reflect. symmetry. apply bytes_eqb_eq. Qed.

Lemma len_eq a b : len a = len b -> length a = length b.
Proof. unfold len. lia. Qed.

Lemma len_app (a b : bytes) : len (a ++ b) = len a + len b.
Proof. unfold len. rewrite app_length. lia. Qed.

(** * the fuel [N.size_nat n] suffices *)

Lemma pos_lt_pow2_size_nat p : N.pos p < 2 ^ N.of_nat (Pos.size_nat p).
Proof.
  induction p as [p IH|p IH|]; cbn [Pos.size_nat].
  - rewrite Nat2N.inj_succ, N.pow_succ_r'. lia.
  - rewrite Nat2N.inj_succ, N.pow_succ_r'. lia.
  - cbn. lia.
Qed.

Lemma lt_pow_size_nat b n : 2 <= b -> n < b ^ N.of_nat (N.size_nat n).
Proof.
  intros Hb. apply N.lt_le_trans with (2 ^ N.of_nat (N.size_nat n)).
  - destruct n as [|p]; [reflexivity|apply pos_lt_pow2_size_nat].
  - apply N.pow_le_mono_l. exact Hb.
Qed.

(** fuel [f] lets [varint_fuel] emit [f + 1] bytes *)
Lemma varint_fuel_enough : forall f f' n,
  n < 128 * 128 ^ N.of_nat f -> n < 128 * 128 ^ N.of_nat f' -> varint_fuel f n = varint_fuel f' n.
Proof.
  induction f as [|f IH]; intros [|f'] n Hf Hf'; cbn [varint_fuel]; try reflexivity.
  - cbn in Hf. destruct (N.ltb_spec n 128); [reflexivity|lia].
  - cbn in Hf'. destruct (N.ltb_spec n 128); [reflexivity|lia].
  - destruct (n <? 128); [reflexivity|]. f_equal.
    rewrite Nat2N.inj_succ, N.pow_succ_r' in Hf, Hf'.
    apply IH; apply N.div_lt_upper_bound; lia.
Qed.

Lemma varint_fuel_varint f n : n < 128 * 128 ^ N.of_nat f -> varint_fuel f n = varint n.
Proof.
  intros Hf. apply varint_fuel_enough; [exact Hf|]. pose proof (lt_pow_size_nat 128 n). lia.
Qed.

Lemma varint_eq n : varint n = if n <? 128 then [n] else (n mod 128 + 128) :: varint (n / 128).
Proof.
  unfold varint at 1. pose proof (lt_pow_size_nat 128 n) as B.
  destruct (N.size_nat n) as [|f]; cbn [varint_fuel].
  - cbn in B. destruct (N.ltb_spec n 128); [reflexivity|lia].
  - destruct (n <? 128); [reflexivity|]. f_equal.
    rewrite Nat2N.inj_succ, N.pow_succ_r' in B.
    apply varint_fuel_varint. assert (n / 128 < 128 ^ N.of_nat f) by (apply N.div_lt_upper_bound; lia). lia.
Qed.

Lemma le_fuel_enough : forall f f' n,
  n < 256 ^ N.of_nat f -> n < 256 ^ N.of_nat f' -> le_fuel f n = le_fuel f' n.
Proof.
  induction f as [|f IH]; intros [|f'] n Hf Hf'; cbn [le_fuel]; try reflexivity.
  - cbn in Hf. destruct (N.eqb_spec n 0); [reflexivity|lia].
  - cbn in Hf'. destruct (N.eqb_spec n 0); [reflexivity|lia].
  - destruct (n =? 0); [reflexivity|]. f_equal.
    rewrite Nat2N.inj_succ, N.pow_succ_r' in Hf, Hf'.
    apply IH; apply N.div_lt_upper_bound; lia.
Qed.

Lemma le_bytes_eq n : le_bytes n = if n =? 0 then [] else n mod 256 :: le_bytes (n / 256).
Proof.
  unfold le_bytes at 1. pose proof (lt_pow_size_nat 256 n) as B.
  destruct (N.size_nat n) as [|f]; cbn [le_fuel].
  - cbn in B. destruct (N.eqb_spec n 0); [reflexivity|lia].
  - destruct (n =? 0); [reflexivity|]. f_equal.
    rewrite Nat2N.inj_succ, N.pow_succ_r' in B.
    apply le_fuel_enough; [apply N.div_lt_upper_bound; lia|apply lt_pow_size_nat; lia].
Qed.

(** * varint and length-delimited payloads are prefix-free *)

Lemma varint_pf : forall n n' r r', varint n ++ r = varint n' ++ r' -> n = n' /\ r = r'.
Proof.
  induction n as [n IH] using (well_founded_induction N.lt_wf_0). intros n' r r'.
  rewrite (varint_eq n), (varint_eq n').
  destruct (N.ltb_spec n 128), (N.ltb_spec n' 128); cbn [app]; intros E; injection E as E1 E2.
  - auto.
  - lia.
  - lia.
  - (* same low seven bits; the rest by induction *)
    apply IH in E2; [|apply N.div_lt; lia]. destruct E2 as [E2 E3]. split; [|exact E3].
    apply N.add_cancel_r in E1.
    rewrite (N.div_mod n 128), (N.div_mod n' 128), E1, E2 by discriminate. reflexivity.
Qed.

Lemma varint_inj n n' : varint n = varint n' -> n = n'.
Proof. intros E. apply (varint_pf n n' [] []). rewrite !app_nil_r. exact E. Qed.

Lemma varint_nonnil n : varint n <> [].
Proof. rewrite varint_eq. destruct (n <? 128); discriminate. Qed.

Lemma app_eq_len {A} : forall (a b r r' : list A),
  length a = length b -> a ++ r = b ++ r' -> a = b /\ r = r'.
Proof.
  induction a as [|x a IH]; destruct b as [|y b]; cbn; intros r r' L E; try discriminate; auto.
  injection E as E1 E2. injection L as L. destruct (IH _ _ _ L E2). subst. auto.
Qed.

Lemma ld_pf a b r r' : varint (len a) ++ a ++ r = varint (len b) ++ b ++ r' -> a = b /\ r = r'.
Proof.
  intros E. apply varint_pf in E. destruct E as [L E].
  apply app_eq_len; [apply len_eq; exact L|exact E].
Qed.

Lemma delimited_inj a b : delimited a = delimited b -> a = b.
Proof. unfold delimited. intros E. apply (ld_pf a b [] []). rewrite !app_nil_r. exact E. Qed.

(** * Optional fields: unambiguous as long as what follows does not start with the same key *)
Definition nohead (t : N) (l : bytes) : Prop := match l with [] => True | x :: _ => x <> t end.

Lemma nohead_head t l : nohead t (t :: l) -> False.
Proof. intros N. exact (N eq_refl). Qed.

Lemma nohead_nil t : nohead t []. Proof. exact I. Qed.

Lemma nohead_cons t x l : x <> t -> nohead t (x :: l). Proof. intros; exact H. Qed.

Lemma nohead_key_varint t t' n r : t' <> t -> nohead t r -> nohead t (key_varint t' n ++ r).
Proof. unfold key_varint. destruct (n =? 0); cbn; auto. Qed.

Lemma nohead_key_bytes t t' b r : t' <> t -> nohead t r -> nohead t (key_bytes t' b ++ r).
Proof. unfold key_bytes. destruct b; cbn; auto. Qed.

Lemma nohead_key_msg t t' b r : t' <> t -> nohead t (key_msg t' b ++ r).
Proof. unfold key_msg. cbn. auto. Qed.

Lemma nohead_key_optmsg t t' ob r : t' <> t -> nohead t r -> nohead t (key_optmsg t' ob ++ r).
Proof. unfold key_optmsg. destruct ob; [intros; apply nohead_key_msg; auto|cbn; auto]. Qed.

Lemma nohead_key_bytes_end t t' b : t' <> t -> nohead t (key_bytes t' b).
Proof. intros. rewrite <- (app_nil_r (key_bytes t' b)). apply nohead_key_bytes; [auto|exact I]. Qed.

Lemma nohead_key_varint_end t t' n : t' <> t -> nohead t (key_varint t' n).
Proof. intros. rewrite <- (app_nil_r (key_varint t' n)). apply nohead_key_varint; [auto|exact I]. Qed.

Lemma nohead_key_msg_end t t' b : t' <> t -> nohead t (key_msg t' b).
Proof. intros. exact H. Qed.

(** [auto n with nohead] walks down a concatenation of up to [n - 1] fields with literal keys *)
Create HintDb nohead discriminated.
#[export] Hint Resolve nohead_nil nohead_key_varint nohead_key_bytes nohead_key_msg nohead_key_optmsg
  nohead_key_bytes_end nohead_key_varint_end nohead_key_msg_end : nohead.
#[export] Hint Extern 1 (_ <> _) => discriminate : nohead.

Lemma key_varint_pf t n n' r r' :
  nohead t r -> nohead t r' -> key_varint t n ++ r = key_varint t n' ++ r' -> n = n' /\ r = r'.
Proof.
  unfold key_varint. intros Hr Hr' E.
  destruct (n =? 0) eqn:Z; destruct (n' =? 0) eqn:Z'.
  - apply N.eqb_eq in Z, Z'. subst. auto.
  - cbn in E. subst r. destruct (nohead_head _ _ Hr).
  - cbn in E. subst r'. destruct (nohead_head _ _ Hr').
  - cbn in E. injection E as E. apply varint_pf in E. exact E.
Qed.

Lemma key_bytes_pf t b b' r r' :
  nohead t r -> nohead t r' -> key_bytes t b ++ r = key_bytes t b' ++ r' -> b = b' /\ r = r'.
Proof.
  unfold key_bytes. intros Hr Hr' E.
  destruct b as [|x b]; destruct b' as [|x' b'].
  - auto.
  - cbn [app] in E. subst r. destruct (nohead_head _ _ Hr).
  - cbn [app] in E. subst r'. destruct (nohead_head _ _ Hr').
  - cbn [app] in E. injection E as E. rewrite <- !app_assoc in E. apply ld_pf in E. exact E.
Qed.

Lemma key_msg_pf t b b' r r' : key_msg t b ++ r = key_msg t b' ++ r' -> b = b' /\ r = r'.
Proof.
  unfold key_msg. cbn [app]. intros E. injection E as E. rewrite <- !app_assoc in E.
  apply ld_pf in E. exact E.
Qed.

Lemma key_optmsg_pf t ob ob' r r' :
  nohead t r -> nohead t r' -> key_optmsg t ob ++ r = key_optmsg t ob' ++ r' -> ob = ob' /\ r = r'.
Proof.
  intros Hr Hr' E. destruct ob as [b|]; destruct ob' as [b'|]; cbn [key_optmsg] in E.
  - apply key_msg_pf in E. destruct E. subst. auto.
  - cbn in E. subst r'. destruct (nohead_head _ _ Hr').
  - cbn in E. subst r. destruct (nohead_head _ _ Hr).
  - auto.
Qed.

Lemma key_varint_end_inj t n n' : key_varint t n = key_varint t n' -> n = n'.
Proof. intros E. apply (key_varint_pf t n n' [] [] I I). rewrite !app_nil_r. exact E. Qed.

Lemma key_bytes_end_inj t b b' : key_bytes t b = key_bytes t b' -> b = b'.
Proof. intros E. apply (key_bytes_pf t b b' [] [] I I). rewrite !app_nil_r. exact E. Qed.

Lemma key_msg_end_inj t b b' : key_msg t b = key_msg t b' -> b = b'.
Proof. intros E. apply (key_msg_pf t b b' [] []). rewrite !app_nil_r. exact E. Qed.

Lemma u64_inj a b :
  (-9223372036854775808 <= a < 9223372036854775808)%Z ->
  (-9223372036854775808 <= b < 9223372036854775808)%Z -> u64 a = u64 b -> a = b.
Proof.
  unfold u64. intros Ha Hb E. apply Z2N.inj in E; [|apply Z.mod_pos_bound; reflexivity..].
  (* 2^64 divides a - b, which is smaller than 2^64 in absolute value *)
  assert (D : ((a - b) mod 18446744073709551616 = 0)%Z) by (rewrite Zminus_mod, E, Z.sub_diag; reflexivity).
  apply Z.mod_divide in D; [|discriminate]. destruct D as [k D]. lia.
Qed.
