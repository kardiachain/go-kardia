(** C11 — property theorems only.  Each is closed by [exact] of a lemma (twice: of a term put together from
    lemmas) of Proofs*.v, SourceTie.v or SourceManifest.v and followed by [Print Assumptions].

    Representation: bytes are [N]; a vote carries the int32 type value, uint64 height, uint32
    round (both unbounded [N] here: the theorems hold without the range), a block id whose two
    hashes are 32-byte strings ([wf_bid], what [types.BlockID] can hold), and the time as
    [(t.Unix(), t.Nanosecond())]; sign bytes exist ([Some]) exactly for times protobuf accepts.
    The chain id is an arbitrary byte string.  Signatures are ideal: [oracle r s recid = Some
    (a, h)] iff the 65-byte string [r || s || recid] was produced by [a]'s key over the 32-byte
    hash [h]; [H] is Keccak-256 (any function: conclusions are "... or an explicit collision"). *)
From Coq Require Import List ZArith NArith Bool.
From Kardia Require Import C11.Varint C11.Proto C11.RLPItem C11.Model C11.ProofsVarint C11.ProofsRLP
  C11.ProofsSign C11.ProofsTx C11.ProofsExtra C11.ProofsCross Generated.C11Facts.
Import ListNotations.
Local Open Scope N_scope.

(** the protobuf varint is injective and prefix-free (no bound on the value) *)
Theorem C11_varint_prefix_free :
  forall n n' r r', varint n ++ r = varint n' ++ r' -> n = n' /\ r = r'.
Proof. exact varint_pf. Qed.
Print Assumptions C11_varint_prefix_free.

(** equal vote sign bytes => equal chain id, type, height, round, block id (hash, parts total,
    parts hash), seconds and nanos: i.e. the same chain and the same vote *)
Theorem C11_vote_signbytes_injective :
  forall c v c' v' b,
    int32 (v_type v) -> int32 (v_type v') -> wf_bid (v_bid v) -> wf_bid (v_bid v') ->
    vote_sign_bytes c v = Some b -> vote_sign_bytes c' v' = Some b -> c = c' /\ v = v'.
Proof. exact vote_sign_bytes_inj_wf. Qed.
Print Assumptions C11_vote_signbytes_injective.

(** the same without the 32-byte assumption (proto level, raw hash bytes): every scalar field
    and the canonical (nullable) block id encoding coincide *)
Theorem C11_vote_signbytes_injective_fields :
  forall c v c' v' b,
    int32 (v_type v) -> int32 (v_type v') ->
    vote_sign_bytes c v = Some b -> vote_sign_bytes c' v' = Some b ->
    c = c' /\ v_type v = v_type v' /\ v_height v = v_height v' /\ v_round v = v_round v' /\
    canonical_bid (v_bid v) = canonical_bid (v_bid v') /\ v_secs v = v_secs v' /\ v_nanos v = v_nanos v'.
Proof. exact vote_sign_bytes_inj. Qed.
Print Assumptions C11_vote_signbytes_injective_fields.

(** proposals: chain id, height, round, POL round, block id, time *)
Theorem C11_proposal_signbytes_injective :
  forall c p c' p' b,
    wf_bid (p_bid p) -> wf_bid (p_bid p') ->
    proposal_sign_bytes c p = Some b -> proposal_sign_bytes c' p' = Some b -> c = c' /\ p = p'.
Proof. exact proposal_sign_bytes_inj_wf. Qed.
Print Assumptions C11_proposal_signbytes_injective.

(** a vote's sign bytes are never a proposal's — for every vote type value, 32 (ProposalType)
    included: the field layouts alone separate them *)
Theorem C11_vote_vs_proposal_disjoint :
  forall c v c' p b b',
    vote_sign_bytes c v = Some b -> proposal_sign_bytes c' p = Some b' -> b <> b'.
Proof. exact vote_proposal_disjoint. Qed.
Print Assumptions C11_vote_vs_proposal_disjoint.

(** RLP of a list of byte strings determines the list (so a 6-field Homestead preimage is
    never a 9-field chain-id preimage) *)
Theorem C11_rlp_list_injective :
  forall l l', rlp_list_of_strs l = rlp_list_of_strs l' -> l = l'.
Proof. exact rlp_list_of_strs_inj. Qed.
Print Assumptions C11_rlp_list_injective.

(** equal signing-hash preimages => same signer kind and chain id, and the same nonce, price,
    gas limit, recipient, amount and payload *)
Theorem C11_tx_sighash_injective :
  forall s t s' t', wf_tx t -> wf_tx t' ->
    tx_sighash_preimage s t = tx_sighash_preimage s' t' -> s = s' /\ same_signed_fields t t'.
Proof. exact tx_sighash_injective. Qed.
Print Assumptions C11_tx_sighash_injective.

(** ValidateSignatureValues (homestead rule): exactly 1 <= r < N, 1 <= s <= N/2, v in {0,1} *)
Theorem C11_sig_values :
  forall v r s,
    validate_signature_values v r s true = true <->
    (1 <= r < secp256k1_n /\ 1 <= s <= secp256k1_half_n /\ (v = 0 \/ v = 1)).
Proof. exact sig_values. Qed.
Print Assumptions C11_sig_values.

(** any transaction for which Sender returns an address has canonical (low-s, in-range) values *)
Theorem C11_sig_values_sender :
  forall oracle H sg t a, sender oracle H sg t = SOk a ->
    1 <= t_r t < secp256k1_n /\ 1 <= t_s t <= secp256k1_half_n.
Proof. exact sender_sig_values. Qed.
Print Assumptions C11_sig_values_sender.

(** exact V range: [recoverPlain] (also the dual-event caller) accepts |V| in {27,28} only;
    HomesteadSigner accepts exactly V in {27,28}; ChainIDSigner c exactly {27,28,35+2c,36+2c}.
    In particular no V + k*256 or V + 2^64 alias of a genuine signature is accepted. *)
Theorem C11_recover_plain_v_range :
  forall oracle h r s vb a, recover_plain oracle h r s vb = SOk a -> (Z.abs vb = 27 \/ Z.abs vb = 28)%Z.
Proof. exact recover_plain_v_range. Qed.
Print Assumptions C11_recover_plain_v_range.

Theorem C11_sender_v_homestead :
  forall oracle H t a, sender oracle H Homestead t = SOk a -> t_v t = 27 \/ t_v t = 28.
Proof. exact sender_homestead_v. Qed.
Print Assumptions C11_sender_v_homestead.

Theorem C11_sender_v_chainid :
  forall oracle H c t a, sender oracle H (ChainIDSigner c) t = SOk a ->
    t_v t = 27 \/ t_v t = 28 \/ t_v t = 35 + 2 * c \/ t_v t = 36 + 2 * c.
Proof. exact sender_chainid_v. Qed.
Print Assumptions C11_sender_v_chainid.

(** a transaction whose V was produced for chain id c (non-zero) is rejected with
    ErrInvalidChainId by the signer of every other chain id *)
Theorem C11_chainid_binding :
  forall oracle H c c' recid t, c <> 0 -> recid < 2 -> c' <> c ->
    t_v t = signature_v (ChainIDSigner c) recid ->
    sender oracle H (ChainIDSigner c') t = SErrChainId.
Proof. exact chainid_binding. Qed.
Print Assumptions C11_chainid_binding.

(** ... and a protected transaction is rejected by the Homestead signer *)
Theorem C11_protected_rejected_by_homestead :
  forall oracle H t, is_protected (t_v t) = true -> sender oracle H Homestead t = SErrInvalidSig.
Proof. exact protected_rejected_by_homestead. Qed.
Print Assumptions C11_protected_rejected_by_homestead.

(** by design (stated, not a defect): an unprotected transaction (v = 27/28) is accepted by
    the chain-id signer of every chain exactly as by the Homestead signer *)
Theorem C11_unprotected_tx_not_chain_bound :
  forall oracle H c t, is_protected (t_v t) = false ->
    sender oracle H (ChainIDSigner c) t = sender oracle H Homestead t.
Proof. exact unprotected_any_chain. Qed.
Print Assumptions C11_unprotected_tx_not_chain_bound.

(** SignTx then Sender under the same signer returns the signer, for both signer kinds and
    every chain id (0 included) *)
Theorem C11_sign_then_recover :
  forall oracle H sg t a recid,
    recid < 2 -> validate_signature_values recid (t_r t) (t_s t) true = true ->
    oracle (t_r t) (t_s t) recid = Some (a, H (signtx_preimage sg t)) ->
    t_v t = signature_v sg recid ->
    sender oracle H sg t = SOk a.
Proof. exact sign_then_recover. Qed.
Print Assumptions C11_sign_then_recover.

Theorem C11_vote_sign_then_verify :
  forall oracle H chain addr v b r s recid sig,
    vote_sign_bytes chain v = Some b -> oracle r s recid = Some (addr, H b) -> recid < 2 ->
    1 <= r < secp256k1_n -> 1 <= s < secp256k1_n ->
    len sig = signature_length -> be_val (firstn 32 sig) = r -> be_val (firstn 32 (skipn 32 sig)) = s ->
    nth 64 sig 0 = recid ->
    vote_verify oracle H chain addr addr v sig = VOk.
Proof. exact vote_sign_then_verify. Qed.
Print Assumptions C11_vote_sign_then_verify.

(** remark, by design: VerifySignature sees a 65-byte string only through r, s and the recovery
    byte with bit 2 cleared (recovery bytes 4/5 alias 0/1); together with C11_binding an alias is
    accepted for the same message and signer only — the property text restricts "malleable /
    malformed values are rejected" to transactions. *)
Theorem C11_signature_recid_alias_remark :
  forall oracle addr h sig sig',
    len sig = len sig' -> firstn 32 sig = firstn 32 sig' ->
    firstn 32 (skipn 32 sig) = firstn 32 (skipn 32 sig') ->
    N.land (nth 64 sig 0) 251 = N.land (nth 64 sig' 0) 251 ->
    verify_signature oracle addr h sig = verify_signature oracle addr h sig'.
Proof. exact verify_signature_alias. Qed.
Print Assumptions C11_signature_recid_alias_remark.

(** composition: a signature string accepted for a vote is accepted for no other chain id or
    vote and under no other address, unless the two sign byte strings collide under H *)
Theorem C11_binding :
  forall oracle H chain addr vaddr v chain' addr' vaddr' v' sig,
    int32 (v_type v) -> int32 (v_type v') -> wf_bid (v_bid v) -> wf_bid (v_bid v') ->
    vote_verify oracle H chain addr vaddr v sig = VOk ->
    vote_verify oracle H chain' addr' vaddr' v' sig = VOk ->
    addr = addr' /\ vaddr = vaddr' /\
    ((chain = chain' /\ v = v') \/
     exists b b', vote_sign_bytes chain v = Some b /\ vote_sign_bytes chain' v' = Some b' /\ collision H b b').
Proof. exact vote_binding. Qed.
Print Assumptions C11_binding.

Theorem C11_binding_proposal :
  forall oracle H chain addr p chain' addr' p' sig,
    wf_bid (p_bid p) -> wf_bid (p_bid p') ->
    proposal_verify oracle H chain addr p sig = VOk ->
    proposal_verify oracle H chain' addr' p' sig = VOk ->
    addr = addr' /\
    ((chain = chain' /\ p = p') \/
     exists b b', proposal_sign_bytes chain p = Some b /\ proposal_sign_bytes chain' p' = Some b' /\ collision H b b').
Proof. exact proposal_binding. Qed.
Print Assumptions C11_binding_proposal.

(** a signature accepted for a vote is accepted for a proposal only through a collision *)
Theorem C11_binding_vote_vs_proposal :
  forall oracle H chain addr vaddr v chain' addr' p sig,
    vote_verify oracle H chain addr vaddr v sig = VOk ->
    proposal_verify oracle H chain' addr' p sig = VOk ->
    exists b b', vote_sign_bytes chain v = Some b /\ proposal_sign_bytes chain' p = Some b' /\ collision H b b'.
Proof. exact vote_proposal_binding. Qed.
Print Assumptions C11_binding_vote_vs_proposal.

(** the signature values (V, R, S) of an accepted transaction yield the same sender for any
    other transaction / signer they are attached to only if the six signed fields are the
    same (or the preimages collide under H) *)
Theorem C11_binding_tx :
  forall oracle H sg t a sg' t' a', wf_tx t -> wf_tx t' ->
    sender oracle H sg t = SOk a -> sender oracle H sg' t' = SOk a' ->
    t_v t = t_v t' -> t_r t = t_r t' -> t_s t = t_s t' ->
    a = a' /\ (same_signed_fields t t' \/
               exists hs hs', collision H (tx_sighash_preimage hs t) (tx_sighash_preimage hs' t')).
Proof. exact tx_binding. Qed.
Print Assumptions C11_binding_tx.

(** the proposer's own signature over the proposal sign bytes verifies (as setProposal checks it) *)
Theorem C11_proposal_sign_then_verify :
  forall oracle H chain addr p b r s recid sig,
    proposal_sign_bytes chain p = Some b -> oracle r s recid = Some (addr, H b) -> recid < 2 ->
    1 <= r < secp256k1_n -> 1 <= s < secp256k1_n ->
    len sig = signature_length -> be_val (firstn 32 sig) = r -> be_val (firstn 32 (skipn 32 sig)) = s ->
    nth 64 sig 0 = recid ->
    proposal_verify oracle H chain addr p sig = VOk.
Proof. exact proposal_sign_then_verify. Qed.
Print Assumptions C11_proposal_sign_then_verify.

(** malformed (r = 0, r >= N, s = 0) or malleable (s > N/2) values are rejected WITH AN ERROR
    (ErrInvalidSig, or ErrInvalidChainId when V already names another chain) by every signer,
    for every transaction content and every V *)
Theorem C11_malformed_values_rejected :
  forall oracle H sg t,
    (t_r t = 0 \/ secp256k1_n <= t_r t \/ t_s t = 0 \/ secp256k1_half_n < t_s t) ->
    sender oracle H sg t = SErrInvalidSig \/ sender oracle H sg t = SErrChainId.
Proof. exact malformed_values_rejected. Qed.
Print Assumptions C11_malformed_values_rejected.

(** the (r, N - s) twin of any accepted transaction signature is rejected under every signer,
    content and V *)
Theorem C11_high_s_twin_rejected :
  forall oracle H sg t a sg' t',
    sender oracle H sg t = SOk a -> t_r t' = t_r t -> t_s t' = secp256k1_n - t_s t ->
    sender oracle H sg' t' = SErrInvalidSig \/ sender oracle H sg' t' = SErrChainId.
Proof. exact high_s_twin_rejected. Qed.
Print Assumptions C11_high_s_twin_rejected.

(** strings SigToPub refuses (length other than 65, r or s outside [1, N-1]) verify for no
    address and no hash; and that test is exact *)
Theorem C11_rejected_string_never_verifies :
  forall oracle addr h sig, sig_to_pub_rejects sig = true -> verify_signature oracle addr h sig = false.
Proof. exact rejected_never_verifies. Qed.
Print Assumptions C11_rejected_string_never_verifies.

Theorem C11_sig_to_pub_rejects_exact :
  forall sig,
    sig_to_pub_rejects sig = false <->
    len sig = signature_length /\ 1 <= be_val (firstn 32 sig) < secp256k1_n /\
    1 <= be_val (firstn 32 (skipn 32 sig)) < secp256k1_n.
Proof. exact sig_to_pub_rejects_iff. Qed.
Print Assumptions C11_sig_to_pub_rejects_exact.

(** Vote.ValidateBasic accepts exactly: type prevote or precommit, block id nil or complete,
    non-empty signature *)
Theorem C11_vote_validate_basic :
  forall v n,
    vote_validate_basic v n = VBOk <->
    (v_type v = prevote_type \/ v_type v = precommit_type) /\
    (bid_is_zero (v_bid v) = true \/ bid_is_complete (v_bid v) = true) /\ n <> 0.
Proof. exact vote_validate_basic_ok. Qed.
Print Assumptions C11_vote_validate_basic.

(** Proposal.ValidateBasic accepts exactly: complete block id, at most MaxBlockPartsCount
    parts, non-empty signature *)
Theorem C11_proposal_validate_basic :
  forall p n,
    proposal_validate_basic p n = VBOk <->
    bid_is_complete (p_bid p) = true /\ b_total (p_bid p) <= max_block_parts_count /\ n <> 0.
Proof. exact proposal_validate_basic_ok. Qed.
Print Assumptions C11_proposal_validate_basic.

(** C11_binding for decoded votes: the type-range hypothesis is discharged by ValidateBasic *)
Theorem C11_binding_validated :
  forall oracle H chain addr vaddr v chain' addr' vaddr' v' sig n n',
    vote_validate_basic v n = VBOk -> vote_validate_basic v' n' = VBOk ->
    wf_bid (v_bid v) -> wf_bid (v_bid v') ->
    vote_verify oracle H chain addr vaddr v sig = VOk ->
    vote_verify oracle H chain' addr' vaddr' v' sig = VOk ->
    addr = addr' /\ vaddr = vaddr' /\
    ((chain = chain' /\ v = v') \/
     exists b b', vote_sign_bytes chain v = Some b /\ vote_sign_bytes chain' v' = Some b' /\ collision H b b').
Proof.
  exact (fun oracle H chain addr vaddr v chain' addr' vaddr' v' sig n n' V V' =>
           vote_binding oracle H chain addr vaddr v chain' addr' vaddr' v' sig
             (validated_vote_type v n V) (validated_vote_type v' n' V')).
Qed.
Print Assumptions C11_binding_validated.

(** MakeSigner: the chain-id signer is selected exactly from the fork block on (and stays),
    and that signer rejects a transaction signed for another non-zero chain id *)
Theorem C11_make_signer_fork_boundary :
  forall c s h, (s <= h -> make_signer (Some c) (Some s) (Some h) = ChainIDSigner c) /\
                (h < s -> make_signer (Some c) (Some s) (Some h) = Homestead).
Proof.
  exact (fun c s h => conj (fun L => make_signer_forked c (Some s) (Some h) (proj2 (is_forked_iff s h) L))
                           (fun L => make_signer_unforked (Some c) (Some s) (Some h)
                                       (proj2 (N.leb_gt s h) L))).
Qed.
Print Assumptions C11_make_signer_fork_boundary.

Theorem C11_make_signer_chain_bound :
  forall oracle H c c' s h recid t,
    s <= h -> c' <> 0 -> recid < 2 -> c <> c' ->
    t_v t = signature_v (ChainIDSigner c') recid ->
    sender oracle H (make_signer (Some c) (Some s) (Some h)) t = SErrChainId.
Proof. exact make_signer_chain_bound. Qed.
Print Assumptions C11_make_signer_chain_bound.

(** cross-domain separation (validators sign votes, proposals and transactions with one key):
    the sign bytes of a vote / proposal are never the signing preimage of a transaction.
    PARTIAL: for sign bytes shorter than 2 MiB (length varint of at most three bytes); the full
    statement is [forall c v b s t, vote_sign_bytes c v = Some b -> b <> tx_sighash_preimage s t].
    What is missing: for sign bytes of 2^49 bytes and more the two length HEADERS can coincide
    (varint fe fc fa f6 ee de be 7e = RLP long-list header of the same length), so the unbounded
    proof has to descend into the message bodies. *)
Theorem C11_vote_vs_tx_disjoint_partial :
  forall c v b s t, vote_sign_bytes c v = Some b -> len b < 2097152 -> b <> tx_sighash_preimage s t.
Proof. exact vote_tx_disjoint. Qed.
Print Assumptions C11_vote_vs_tx_disjoint_partial.

Theorem C11_proposal_vs_tx_disjoint_partial :
  forall c p b s t, proposal_sign_bytes c p = Some b -> len b < 2097152 -> b <> tx_sighash_preimage s t.
Proof. exact proposal_tx_disjoint. Qed.
Print Assumptions C11_proposal_vs_tx_disjoint_partial.

(** a 65-byte signature accepted for a vote (proposal), re-used as the (R, S, recovery id) of a
    transaction under any signer, yields a sender only through a Keccak collision between the
    sign bytes and the transaction's signing preimage (same partiality as above) *)
Theorem C11_binding_vote_vs_tx_partial :
  forall oracle H chain addr vaddr v sig sg t a,
    vote_verify oracle H chain addr vaddr v sig = VOk ->
    sender oracle H sg t = SOk a ->
    t_r t = be_val (firstn 32 sig) -> t_s t = be_val (firstn 32 (skipn 32 sig)) ->
    (t_v t + 1) mod 2 = N.land (nth 64 sig 0) 251 ->
    exists b hs, vote_sign_bytes chain v = Some b /\
      (len b < 2097152 -> collision H b (tx_sighash_preimage hs t)).
Proof. exact vote_tx_binding. Qed.
Print Assumptions C11_binding_vote_vs_tx_partial.

Theorem C11_binding_proposal_vs_tx_partial :
  forall oracle H chain addr p sig sg t a,
    proposal_verify oracle H chain addr p sig = VOk ->
    sender oracle H sg t = SOk a ->
    t_r t = be_val (firstn 32 sig) -> t_s t = be_val (firstn 32 (skipn 32 sig)) ->
    (t_v t + 1) mod 2 = N.land (nth 64 sig 0) 251 ->
    exists b hs, proposal_sign_bytes chain p = Some b /\
      (len b < 2097152 -> collision H b (tx_sighash_preimage hs t)).
Proof. exact proposal_tx_binding. Qed.
Print Assumptions C11_binding_proposal_vs_tx_partial.

(** source tie: the guards and machine arithmetic of the model are the expressions of the Go
    sources themselves, regenerated on every check (statement spelled out in SourceTie.v) *)
From Kardia Require Import C11.SourceTie.
Theorem C11_source_tie : C11_source_tie_statement.
Proof. exact C11_source_tie_proof. Qed.
Print Assumptions C11_source_tie.

(** The decision-critical functions of the anchored code have exactly the decisions the source tie knows about
    (go2coq manifests, regenerated from /repo on every check; statement in SourceManifest.v). *)
From Kardia Require Import C11.SourceManifest.
Theorem C11_source_manifest : C11_source_manifest_statement.
Proof. exact C11_source_manifest_proof. Qed.
Print Assumptions C11_source_manifest.
