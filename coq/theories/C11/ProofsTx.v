(** C11 — transaction signing hash preimage injectivity, signature-value validation, chain-id
    binding, what [recoverPlain], [Sender] and [VerifySignature] accept, sign-then-recover /
    sign-then-verify, and the composition with ideal signatures. *)
From Coq Require Import List ZArith NArith Bool Lia.
From Kardia Require Import C11.Varint C11.ProofsVarint C11.ProofsRLP C11.ProofsSign C11.Model Generated.C11Facts.
Import ListNotations.
Local Open Scope N_scope.

(** a recipient, when present, is a 20-byte address *)
Definition wf_tx (t : tx) : Prop := forall a, t_to t = Some a -> length a = 20%nat.

Definition same_signed_fields (t t' : tx) : Prop :=
  t_nonce t = t_nonce t' /\ t_price t = t_price t' /\ t_gas t = t_gas t' /\ t_to t = t_to t' /\
  t_amount t = t_amount t' /\ t_payload t = t_payload t'.

Lemma to_field_inj t t' : wf_tx t -> wf_tx t' ->
  match t_to t with None => [] | Some a => a end = match t_to t' with None => [] | Some a => a end ->
  t_to t = t_to t'.
Proof.
  intros W W' E. destruct (t_to t) as [a|] eqn:A; destruct (t_to t') as [a'|] eqn:A'.
  - subst. reflexivity.
  - specialize (W a A). subst a. discriminate.
  - specialize (W' a' A'). subst a'. discriminate.
  - reflexivity.
Qed.

Lemma base_fields_inj t t' : wf_tx t -> wf_tx t' -> base_fields t = base_fields t' -> same_signed_fields t t'.
Proof.
  unfold base_fields, same_signed_fields. intros W W' E.
  injection E as E1 E2 E3 E4 E5 E6.
  apply be_bytes_inj in E1, E2, E3, E5. apply to_field_inj in E4; auto. tauto.
Qed.

Lemma tx_sighash_injective s t s' t' : wf_tx t -> wf_tx t' ->
  tx_sighash_preimage s t = tx_sighash_preimage s' t' -> s = s' /\ same_signed_fields t t'.
Proof.
  unfold tx_sighash_preimage. intros W W' E. apply rlp_list_of_strs_inj in E.
  destruct s as [|c]; destruct s' as [|c']; cbn [sighash_fields] in E.
  - split; [reflexivity|apply base_fields_inj; auto].
  - unfold base_fields in E. cbn [app] in E. discriminate.
  - unfold base_fields in E. cbn [app] in E. discriminate.
  - assert (L : length (base_fields t) = length (base_fields t')) by reflexivity.
    apply app_eq_len in E; [|exact L]. destruct E as [E1 E2].
    injection E2 as E2. apply be_bytes_inj in E2. subst.
    split; [reflexivity|apply base_fields_inj; auto].
Qed.

Lemma n_positive : 0 < secp256k1_n. Proof. reflexivity. Qed.

Lemma half_lt_n : secp256k1_half_n < secp256k1_n.
Proof. unfold secp256k1_half_n. pose proof n_positive. apply N.div_lt; lia. Qed.

(** frontier rule (homestead = false) only widens s to the full range *)
Lemma sig_values_frontier v r s :
  validate_signature_values v r s false = true <->
  (1 <= r < secp256k1_n /\ 1 <= s < secp256k1_n /\ (v = 0 \/ v = 1)).
Proof.
  unfold validate_signature_values. cbn [andb].
  destruct (N.ltb_spec r 1); [split; [discriminate|lia]|].
  destruct (N.ltb_spec s 1); [split; [discriminate|lia]|]. cbn [orb].
  rewrite !andb_true_iff, orb_true_iff, !N.ltb_lt, !N.eqb_eq. lia.
Qed.

(** the homestead rule adds [s <= N/2] to the frontier rule *)
Lemma validate_homestead v r s :
  validate_signature_values v r s true = validate_signature_values v r s false && (s <=? secp256k1_half_n).
Proof.
  unfold validate_signature_values. destruct ((r <? 1) || (s <? 1)); [reflexivity|]. cbn [andb].
  rewrite N.leb_antisym. destruct (secp256k1_half_n <? s); cbn [negb].
  - rewrite andb_false_r. reflexivity.
  - rewrite andb_true_r. reflexivity.
Qed.

Lemma sig_values v r s :
  validate_signature_values v r s true = true <->
  (1 <= r < secp256k1_n /\ 1 <= s <= secp256k1_half_n /\ (v = 0 \/ v = 1)).
Proof.
  rewrite validate_homestead, andb_true_iff, sig_values_frontier, N.leb_le. pose proof half_lt_n. lia.
Qed.

(** * protected V values and chain-id derivation *)

Lemma is_protected_iff v : is_protected v = true <-> v <> 27 /\ v <> 28.
Proof.
  unfold is_protected. destruct (N.ltb_spec v 256).
  - rewrite andb_true_iff, !negb_true_iff, !N.eqb_neq. tauto.
  - split; [lia|reflexivity].
Qed.

Lemma unprotected_27_28 v : is_protected v = false -> v = 27 \/ v = 28.
Proof. intros P. apply not_true_iff_false in P. rewrite is_protected_iff in P. lia. Qed.

(** [deriveChainId] off 27/28 is [(v - 35) / 2]; in uint64 arithmetic when [v] fits 64 bits, so that
    below 35 the subtraction wraps *)
Lemma derive_chain_id_eq v : v <> 27 -> v <> 28 ->
  derive_chain_id v = if v <? 35 then (v + 18446744073709551616 - 35) / 2 else (v - 35) / 2.
Proof.
  intros A B. unfold derive_chain_id.
  destruct (N.ltb_spec v 18446744073709551616).
  - destruct (N.eqb_spec v 27); [contradiction|]. destruct (N.eqb_spec v 28); [contradiction|]. cbn [orb].
    destruct (N.ltb_spec v 35).
    + replace ((Z.of_N v - 35) mod 18446744073709551616)%Z with (Z.of_N (v + 18446744073709551616 - 35)) by lia.
      rewrite <- (N2Z.inj_div _ 2), N2Z.id. reflexivity.
    + replace ((Z.of_N v - 35) mod 18446744073709551616)%Z with (Z.of_N (v - 35)) by lia.
      rewrite <- (N2Z.inj_div _ 2), N2Z.id. reflexivity.
  - destruct (N.ltb_spec v 35); [lia|reflexivity].
Qed.

(** [deriveChainId] inverts [35 + 2c + recid] *)
Lemma derive_signature_v c recid : c <> 0 -> recid < 2 ->
  is_protected (signature_v (ChainIDSigner c) recid) = true /\
  derive_chain_id (signature_v (ChainIDSigner c) recid) = c.
Proof.
  intros Hc Hr. cbn [signature_v]. destruct (N.eqb_spec c 0); [contradiction|].
  split.
  - apply is_protected_iff. lia.
  - rewrite derive_chain_id_eq by lia. destruct (N.ltb_spec (recid + 35 + 2 * c) 35); lia.
Qed.

(** what [SigToPub] refuses before any curve arithmetic, exactly *)
Lemma sig_to_pub_rejects_iff sig :
  sig_to_pub_rejects sig = false <->
  len sig = signature_length /\ 1 <= be_val (firstn 32 sig) < secp256k1_n /\
  1 <= be_val (firstn 32 (skipn 32 sig)) < secp256k1_n.
Proof.
  unfold sig_to_pub_rejects.
  set (r := be_val (firstn 32 sig)). set (s := be_val (firstn 32 (skipn 32 sig))).
  destruct (N.eqb_spec (len sig) signature_length); cbn [negb orb]; [|split; [discriminate|tauto]].
  destruct (N.eqb_spec r 0); cbn [orb]; [split; [discriminate|lia]|].
  destruct (N.eqb_spec s 0); cbn [orb]; [split; [discriminate|lia]|].
  destruct (N.leb_spec secp256k1_n r); cbn [orb]; [split; [discriminate|lia]|].
  destruct (N.leb_spec secp256k1_n s); [split; [discriminate|lia]|].
  split; [lia|reflexivity].
Qed.

(** * what [recoverPlain] and [VerifySignature] accept (no hash function involved) *)
Section OracleOnly.
  Variable oracle : N -> N -> N -> option (N * bytes).

  Lemma ecrecover_ok h r s v a : ecrecover oracle h r s v = SOk a <-> oracle r s v = Some (a, h).
  Proof.
    unfold ecrecover. destruct (oracle r s v) as [[a0 h0]|]; [|split; discriminate].
    destruct (bytes_eqb_spec h h0) as [->|Nh].
    - split; intros E; injection E as ->; reflexivity.
    - split; [discriminate|]. intros E. injection E as _ Eh. congruence.
  Qed.

  (** ** [recoverPlain]: |V| = 27 or 28 selects recovery id 0 or 1; every other V is an invalid signature *)
  Lemma recover_plain_v h r s vb v : (v = 0 \/ v = 1) -> Z.abs vb = (Z.of_N v + 27)%Z ->
    recover_plain oracle h r s vb =
    if validate_signature_values v r s true then ecrecover oracle h r s v else SErrInvalidSig.
  Proof.
    intros Hv Hab. unfold recover_plain.
    destruct Hv as [-> | ->]; rewrite Hab; cbv zeta; rewrite if_negb; reflexivity.
  Qed.

  Lemma recover_plain_other h r s vb : Z.abs vb <> 27%Z -> Z.abs vb <> 28%Z ->
    recover_plain oracle h r s vb = SErrInvalidSig.
  Proof.
    intros A B. unfold recover_plain.
    destruct (Z.leb_spec 256 (Z.abs vb)); [reflexivity|].
    rewrite (Z.mod_small (Z.abs vb)) by lia.
    destruct (validate_signature_values _ r s true) eqn:V; [|reflexivity].
    (* the byte [|V| - 27] is neither 0 nor 1 *)
    exfalso. apply sig_values in V. destruct V as (_ & _ & Hv). lia.
  Qed.

  Lemma recover_plain_ok h r s vb a : recover_plain oracle h r s vb = SOk a ->
    exists v, (v = 0 \/ v = 1) /\ Z.abs vb = (Z.of_N v + 27)%Z /\
      validate_signature_values v r s true = true /\ oracle r s v = Some (a, h).
  Proof.
    intros E.
    assert (Hv : exists v, (v = 0 \/ v = 1) /\ Z.abs vb = (Z.of_N v + 27)%Z).
    { destruct (Z.eq_dec (Z.abs vb) 27); [exists 0; auto|].
      destruct (Z.eq_dec (Z.abs vb) 28); [exists 1; auto|].
      rewrite recover_plain_other in E by assumption. discriminate. }
    destruct Hv as (v & Hv & Hab). exists v.
    rewrite (recover_plain_v h r s vb v Hv Hab) in E.
    destruct (validate_signature_values v r s true); [|discriminate].
    apply ecrecover_ok in E. auto.
  Qed.

  Lemma recover_plain_fwd h r s vb a v : (v = 0 \/ v = 1) -> vb = (Z.of_N v + 27)%Z ->
    validate_signature_values v r s true = true -> oracle r s v = Some (a, h) ->
    recover_plain oracle h r s vb = SOk a.
  Proof.
    intros Hv Hvb V O. rewrite (recover_plain_v h r s vb v Hv) by lia. rewrite V. apply ecrecover_ok, O.
  Qed.

  Lemma recover_plain_v_range h r s vb a : recover_plain oracle h r s vb = SOk a ->
    (Z.abs vb = 27 \/ Z.abs vb = 28)%Z.
  Proof.
    intros E. apply recover_plain_ok in E. destruct E as (v & Hv & Hab & _). lia.
  Qed.

  (** [sig_to_addr] refuses what [SigToPub] refuses, then looks the signature up *)
  Lemma sig_to_addr_eq h sig :
    sig_to_addr oracle h sig =
    if sig_to_pub_rejects sig then None
    else let it := N.land (nth 64 sig 0) 251 in
         if it <? 2 then
           match oracle (be_val (firstn 32 sig)) (be_val (firstn 32 (skipn 32 sig))) it with
           | Some (a, h') => if bytes_eqb h h' then Some a else None
           | None => None
           end
         else None.
  Proof.
    unfold sig_to_addr, sig_to_pub_rejects. destruct (negb (len sig =? signature_length)); reflexivity.
  Qed.

  Lemma verify_signature_true addr h sig :
    verify_signature oracle addr h sig = true <->
    sig_to_pub_rejects sig = false /\ (N.land (nth 64 sig 0) 251 <? 2) = true /\
    oracle (be_val (firstn 32 sig)) (be_val (firstn 32 (skipn 32 sig))) (N.land (nth 64 sig 0) 251) = Some (addr, h).
  Proof.
    unfold verify_signature. rewrite sig_to_addr_eq. cbv zeta.
    destruct (sig_to_pub_rejects sig); [split; [discriminate|intros [R _]; discriminate]|].
    destruct (N.land (nth 64 sig 0) 251 <? 2); [|split; [discriminate|intros (_ & L & _); discriminate]].
    destruct (oracle _ _ _) as [[a0 h0]|]; [|split; [discriminate|intros (_ & _ & O); discriminate]].
    destruct (bytes_eqb_spec h h0) as [->|Nh].
    - rewrite N.eqb_eq. split; [intros ->; auto|intros (_ & _ & O); injection O as ->; reflexivity].
    - split; [discriminate|]. intros (_ & _ & O). injection O as _ Eh. congruence.
  Qed.

  (** one signature string verifies for at most one (address, hash) *)
  Lemma verify_signature_functional addr h addr' h' sig :
    verify_signature oracle addr h sig = true -> verify_signature oracle addr' h' sig = true ->
    addr = addr' /\ h = h'.
  Proof.
    intros E E'. apply verify_signature_true in E, E'.
    destruct E as (_ & _ & O), E' as (_ & _ & O'). rewrite O in O'. injection O' as A B. auto.
  Qed.

  Lemma verify_signature_fwd addr h r s recid sig :
    oracle r s recid = Some (addr, h) -> recid < 2 ->
    1 <= r < secp256k1_n -> 1 <= s < secp256k1_n ->
    len sig = signature_length -> be_val (firstn 32 sig) = r -> be_val (firstn 32 (skipn 32 sig)) = s ->
    nth 64 sig 0 = recid ->
    verify_signature oracle addr h sig = true.
  Proof.
    intros O Hr Rr Rs L Er Es Ev. apply verify_signature_true.
    assert (Hl : N.land recid 251 = recid) by (assert (recid = 0 \/ recid = 1) as [->| ->] by lia; reflexivity).
    rewrite Ev, Hl, Er, Es. split; [|split; [apply N.ltb_lt; exact Hr|exact O]].
    apply sig_to_pub_rejects_iff. rewrite Er, Es. auto.
  Qed.

  (** remark (by design, btcec masks the "compressed key" bit of the recovery byte): the outcome
      of [VerifySignature] depends on the 65-byte string only through r, s and byte 64 with bit 2
      cleared, so recovery bytes 4/5 are aliases of 0/1 for the same message and signer; by
      [verify_signature_functional] no alias verifies for any other (address, hash). *)
  Lemma verify_signature_alias addr h sig sig' :
    len sig = len sig' -> firstn 32 sig = firstn 32 sig' ->
    firstn 32 (skipn 32 sig) = firstn 32 (skipn 32 sig') ->
    N.land (nth 64 sig 0) 251 = N.land (nth 64 sig' 0) 251 ->
    verify_signature oracle addr h sig = verify_signature oracle addr h sig'.
  Proof.
    intros L R S V. unfold verify_signature, sig_to_addr. rewrite L, R, S, V. reflexivity.
  Qed.
End OracleOnly.

Section IdealProofs.
  Variable oracle : N -> N -> N -> option (N * bytes).
  Variable H : bytes -> bytes.

  Definition collision (x y : bytes) : Prop := x <> y /\ H x = H y.

  (** ** [Sender]: which (preimage, recovery id) a successful call looked up, and the V it read:
      27/28 over the Homestead preimage, or 35+2c / 36+2c over the chain-id preimage *)
  Lemma sender_ok sg t a : sender oracle H sg t = SOk a ->
    exists v hs, (v = 0 \/ v = 1) /\ validate_signature_values v (t_r t) (t_s t) true = true /\
      oracle (t_r t) (t_s t) v = Some (a, H (tx_sighash_preimage hs t)) /\
      ((hs = Homestead /\ t_v t = v + 27) \/
       (exists c, sg = ChainIDSigner c /\ hs = sg /\ t_v t = v + 35 + 2 * c)).
  Proof.
    destruct sg as [|c]; cbn [sender]; intros E.
    - apply recover_plain_ok in E. destruct E as (v & Hv & Hab & V & O).
      exists v, Homestead. repeat split; try assumption. left. split; [reflexivity|lia].
    - destruct (is_protected (t_v t)) eqn:P; cbn [negb] in E.
      + destruct (N.eqb_spec (derive_chain_id (t_v t)) c) as [D|D]; cbn [negb] in E; [|discriminate].
        apply recover_plain_ok in E. destruct E as (v & Hv & Hab & V & O).
        exists v, (ChainIDSigner c). repeat split; try assumption. right.
        exists c. split; [reflexivity|]. split; [reflexivity|].
        (* a V below 35 would derive a chain id near 2^63, and |V - 2c - 8| would not be 27 or 28 *)
        apply is_protected_iff in P. rewrite derive_chain_id_eq in D by tauto.
        destruct (N.ltb_spec (t_v t) 35); lia.
      + apply recover_plain_ok in E. destruct E as (v & Hv & Hab & V & O).
        exists v, Homestead. repeat split; try assumption. left. split; [reflexivity|lia].
  Qed.

  (** an accepted transaction has canonical values *)
  Lemma sender_sig_values sg t a : sender oracle H sg t = SOk a ->
    1 <= t_r t < secp256k1_n /\ 1 <= t_s t <= secp256k1_half_n.
  Proof.
    intros E. apply sender_ok in E. destruct E as (v & hs & _ & V & _).
    apply sig_values in V. destruct V as (R & S & _). auto.
  Qed.

  Lemma sender_homestead_v t a : sender oracle H Homestead t = SOk a -> t_v t = 27 \/ t_v t = 28.
  Proof.
    intros E. apply sender_ok in E.
    destruct E as (v & hs & Hv & _ & _ & [[_ EV]|(c & Ec & _)]); [lia|discriminate].
  Qed.

  Lemma sender_chainid_v c t a : sender oracle H (ChainIDSigner c) t = SOk a ->
    t_v t = 27 \/ t_v t = 28 \/ t_v t = 35 + 2 * c \/ t_v t = 36 + 2 * c.
  Proof.
    intros E. apply sender_ok in E.
    destruct E as (v & hs & Hv & _ & _ & [[_ EV]|(c' & Ec & _ & EV)]); [lia|].
    injection Ec as <-. lia.
  Qed.

  Lemma chainid_mismatch c t : is_protected (t_v t) = true -> derive_chain_id (t_v t) <> c ->
    sender oracle H (ChainIDSigner c) t = SErrChainId.
  Proof.
    intros P D. cbn [sender]. rewrite P. cbn [negb].
    destruct (N.eqb_spec (derive_chain_id (t_v t)) c); [contradiction|reflexivity].
  Qed.

  Lemma chainid_binding c c' recid t : c <> 0 -> recid < 2 -> c' <> c ->
    t_v t = signature_v (ChainIDSigner c) recid ->
    sender oracle H (ChainIDSigner c') t = SErrChainId.
  Proof.
    intros Hc Hr Hcc HV. destruct (derive_signature_v c recid Hc Hr) as [P D].
    apply chainid_mismatch; rewrite HV; [exact P|rewrite D; congruence].
  Qed.

  (** by design: an unprotected (v = 27/28) transaction is not chain-bound *)
  Lemma unprotected_any_chain c t : is_protected (t_v t) = false ->
    sender oracle H (ChainIDSigner c) t = sender oracle H Homestead t.
  Proof. intros P. cbn [sender]. rewrite P. reflexivity. Qed.

  Lemma protected_rejected_by_homestead t : is_protected (t_v t) = true ->
    sender oracle H Homestead t = SErrInvalidSig.
  Proof.
    intros P. apply is_protected_iff in P. cbn [sender]. apply recover_plain_other; lia.
  Qed.

  (** ** sign then recover (types.SignTx followed by Sender under the same signer) *)
  Lemma sign_then_recover sg t a recid :
    recid < 2 -> validate_signature_values recid (t_r t) (t_s t) true = true ->
    oracle (t_r t) (t_s t) recid = Some (a, H (signtx_preimage sg t)) ->
    t_v t = signature_v sg recid ->
    sender oracle H sg t = SOk a.
  Proof.
    intros Hr V O HV. assert (Hv : recid = 0 \/ recid = 1) by lia.
    destruct sg as [|c]; [|destruct (N.eqb_spec c 0) as [->|Hc]].
    - cbn [sender]. apply (recover_plain_fwd _ _ _ _ _ _ recid); auto. rewrite HV. cbn [signature_v]. lia.
    - (* chain id 0 signs and sends as Homestead *)
      rewrite unprotected_any_chain by (rewrite HV; destruct Hv; subst; reflexivity).
      cbn [sender]. apply (recover_plain_fwd _ _ _ _ _ _ recid); auto. rewrite HV. cbn. lia.
    - destruct (derive_signature_v c recid Hc Hr) as [P D]. rewrite <- HV in P, D.
      apply N.eqb_neq in Hc. cbn [sender signtx_preimage signature_v] in *. rewrite Hc in O, HV.
      rewrite P, D, N.eqb_refl. cbn [negb].
      apply (recover_plain_fwd _ _ _ _ _ _ recid); auto. lia.
  Qed.

  (** ** composition: a transaction signature is bound to the sender address and the six signed fields *)
  Lemma tx_binding sg t a sg' t' a' : wf_tx t -> wf_tx t' ->
    sender oracle H sg t = SOk a -> sender oracle H sg' t' = SOk a' ->
    t_v t = t_v t' -> t_r t = t_r t' -> t_s t = t_s t' ->
    a = a' /\ (same_signed_fields t t' \/
               exists hs hs', collision (tx_sighash_preimage hs t) (tx_sighash_preimage hs' t')).
  Proof.
    intros W W' E E' EV ER ES.
    apply sender_ok in E, E'.
    destruct E as (v & hs & Hv & _ & O & C). destruct E' as (v' & hs' & Hv' & _ & O' & C').
    rewrite <- ER, <- ES, <- EV in *.
    (* one V, one recovery id *)
    assert (Evv : v = v') by (destruct C as [[_ C]|(c & _ & _ & C)]; destruct C' as [[_ C']|(c' & _ & _ & C')]; lia).
    subst v'. rewrite O in O'. injection O' as Ea Eh. split; [exact Ea|].
    destruct (list_eq_dec N.eq_dec (tx_sighash_preimage hs t) (tx_sighash_preimage hs' t')) as [Ep|Np].
    - left. exact (proj2 (tx_sighash_injective _ _ _ _ W W' Ep)).
    - right. exists hs, hs'. split; assumption.
  Qed.

  (** ** composition for votes and proposals *)

  (** two accepted messages under one signature string are the same or collide *)
  Lemma same_sig_binding addr b addr' b' sig :
    verify_signature oracle addr (H b) sig = true -> verify_signature oracle addr' (H b') sig = true ->
    addr = addr' /\ (b = b' \/ collision b b').
  Proof.
    intros V V'. destruct (verify_signature_functional _ _ _ _ _ _ V V') as [Ea Eh]. split; [exact Ea|].
    destruct (list_eq_dec N.eq_dec b b') as [Eb|Nb]; [left; exact Eb|right; split; assumption].
  Qed.

  Lemma vote_verify_ok chain addr vaddr v sig : vote_verify oracle H chain addr vaddr v sig = VOk ->
    vaddr = addr /\ exists b, vote_sign_bytes chain v = Some b /\ verify_signature oracle addr (H b) sig = true.
  Proof.
    unfold vote_verify. intros E. destruct (vaddr =? addr) eqn:A; cbn [negb] in E; [|discriminate].
    apply N.eqb_eq in A. split; [exact A|].
    destruct (vote_sign_bytes chain v) as [b|]; [|discriminate].
    exists b. split; [reflexivity|]. destruct (verify_signature oracle addr (H b) sig); [reflexivity|discriminate].
  Qed.

  Lemma proposal_verify_ok chain addr p sig : proposal_verify oracle H chain addr p sig = VOk ->
    exists b, proposal_sign_bytes chain p = Some b /\ verify_signature oracle addr (H b) sig = true.
  Proof.
    unfold proposal_verify. intros E.
    destruct (proposal_sign_bytes chain p) as [b|]; [|discriminate].
    exists b. split; [reflexivity|]. destruct (verify_signature oracle addr (H b) sig); [reflexivity|discriminate].
  Qed.

  Lemma vote_binding chain addr vaddr v chain' addr' vaddr' v' sig :
    int32 (v_type v) -> int32 (v_type v') -> wf_bid (v_bid v) -> wf_bid (v_bid v') ->
    vote_verify oracle H chain addr vaddr v sig = VOk ->
    vote_verify oracle H chain' addr' vaddr' v' sig = VOk ->
    addr = addr' /\ vaddr = vaddr' /\
    ((chain = chain' /\ v = v') \/
     exists b b', vote_sign_bytes chain v = Some b /\ vote_sign_bytes chain' v' = Some b' /\ collision b b').
  Proof.
    intros T T' W W' E E'. apply vote_verify_ok in E, E'.
    destruct E as (A & b & S & V). destruct E' as (A' & b' & S' & V').
    destruct (same_sig_binding _ _ _ _ _ V V') as [Ea [Eb|C]]; (split; [exact Ea|]); (split; [congruence|]).
    - left. subst b'. eapply vote_sign_bytes_inj_wf; eauto.
    - right. exists b, b'. auto.
  Qed.

  Lemma proposal_binding chain addr p chain' addr' p' sig :
    wf_bid (p_bid p) -> wf_bid (p_bid p') ->
    proposal_verify oracle H chain addr p sig = VOk ->
    proposal_verify oracle H chain' addr' p' sig = VOk ->
    addr = addr' /\
    ((chain = chain' /\ p = p') \/
     exists b b', proposal_sign_bytes chain p = Some b /\ proposal_sign_bytes chain' p' = Some b' /\ collision b b').
  Proof.
    intros W W' E E'. apply proposal_verify_ok in E, E'.
    destruct E as (b & S & V). destruct E' as (b' & S' & V').
    destruct (same_sig_binding _ _ _ _ _ V V') as [Ea [Eb|C]]; (split; [exact Ea|]).
    - left. subst b'. eapply proposal_sign_bytes_inj_wf; eauto.
    - right. exists b, b'. auto.
  Qed.

  (** a signature accepted for a vote is accepted for a proposal only through a hash collision *)
  Lemma vote_proposal_binding chain addr vaddr v chain' addr' p sig :
    vote_verify oracle H chain addr vaddr v sig = VOk ->
    proposal_verify oracle H chain' addr' p sig = VOk ->
    exists b b', vote_sign_bytes chain v = Some b /\ proposal_sign_bytes chain' p = Some b' /\ collision b b'.
  Proof.
    intros E E'. apply vote_verify_ok in E. apply proposal_verify_ok in E'.
    destruct E as (A & b & S & V). destruct E' as (b' & S' & V').
    destruct (verify_signature_functional _ _ _ _ _ _ V V') as [Ea Eh].
    exists b, b'. repeat split; try assumption. eapply vote_proposal_disjoint; eauto.
  Qed.

  (** completeness: the signer's own signature over the sign bytes verifies *)
  Lemma vote_sign_then_verify chain addr v b r s recid sig :
    vote_sign_bytes chain v = Some b -> oracle r s recid = Some (addr, H b) -> recid < 2 ->
    1 <= r < secp256k1_n -> 1 <= s < secp256k1_n ->
    len sig = signature_length -> be_val (firstn 32 sig) = r -> be_val (firstn 32 (skipn 32 sig)) = s ->
    nth 64 sig 0 = recid ->
    vote_verify oracle H chain addr addr v sig = VOk.
  Proof.
    intros S O Hr Rr Rs L Er Es Ev. unfold vote_verify. rewrite N.eqb_refl. cbn [negb]. rewrite S.
    rewrite (verify_signature_fwd oracle addr (H b) r s recid sig); auto.
  Qed.

  Lemma proposal_sign_then_verify chain addr p b r s recid sig :
    proposal_sign_bytes chain p = Some b -> oracle r s recid = Some (addr, H b) -> recid < 2 ->
    1 <= r < secp256k1_n -> 1 <= s < secp256k1_n ->
    len sig = signature_length -> be_val (firstn 32 sig) = r -> be_val (firstn 32 (skipn 32 sig)) = s ->
    nth 64 sig 0 = recid ->
    proposal_verify oracle H chain addr p sig = VOk.
  Proof.
    intros S O Hr Rr Rs L Er Es Ev. unfold proposal_verify. rewrite S.
    rewrite (verify_signature_fwd oracle addr (H b) r s recid sig); auto.
  Qed.
End IdealProofs.

(** the hypotheses of [sign_then_recover] / [tx_binding] are satisfiable: with the identity as
    "hash" and an oracle knowing one signature (r = 1, s = 1, recid = 0) by address 7 over the
    chain-id-24 preimage of a concrete transaction, Sender returns 7; under chain id 25 the
    same transaction is ErrInvalidChainId; with the amount changed the sender is lost. *)
Definition ex_tx : tx :=
  {| t_nonce := 1; t_price := 1; t_gas := 21000; t_to := Some (repeat 0 19 ++ [1]); t_amount := 5;
     t_payload := []; t_v := 35 + 2 * 24; t_r := 1; t_s := 1 |}.
Definition ex_oracle (r s v : N) : option (N * bytes) :=
  if (r =? 1) && (s =? 1) && (v =? 0) then Some (7, tx_sighash_preimage (ChainIDSigner 24) ex_tx) else None.

Example sender_example :
  sender ex_oracle (fun b => b) (ChainIDSigner 24) ex_tx = SOk 7 /\
  sender ex_oracle (fun b => b) (ChainIDSigner 25) ex_tx = SErrChainId /\
  sender ex_oracle (fun b => b) Homestead ex_tx = SErrInvalidSig /\
  sender ex_oracle (fun b => b) (ChainIDSigner 24)
    {| t_nonce := 1; t_price := 1; t_gas := 21000; t_to := Some (repeat 0 19 ++ [1]); t_amount := 6;
       t_payload := []; t_v := 35 + 2 * 24; t_r := 1; t_s := 1 |} = SOther.
Proof. vm_compute. repeat split. Qed.
