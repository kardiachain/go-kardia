(** C11 — cross-domain separation: the bytes signed for a vote or a proposal (a varint
    length-delimited protobuf message) are never the bytes hashed for a transaction (an RLP
    list), as long as the sign bytes are shorter than 2 MiB.  Validators sign votes, proposals
    and transactions with the same secp256k1 key, so this is what keeps a vote signature from
    being replayed as a transaction signature (and vice versa). *)
From Coq Require Import List ZArith NArith Bool Lia.
From Kardia Require Import C11.Varint C11.Proto C11.RLPItem C11.Model C11.ProofsVarint C11.ProofsSign C11.ProofsTx.
Import ListNotations.
Local Open Scope N_scope.

(** ** the encodings of small numbers, digit by digit *)
Lemma varint_digit n : n < 128 -> varint n = [n].
Proof. intros Hn. rewrite varint_eq. destruct (N.ltb_spec n 128); [reflexivity|lia]. Qed.

Lemma varint_cons a b : a < 128 -> 1 <= b -> varint (a + 128 * b) = (a + 128) :: varint b.
Proof.
  intros Ha Hb. rewrite varint_eq. destruct (N.ltb_spec (a + 128 * b) 128); [lia|].
  replace ((a + 128 * b) mod 128) with a by lia. replace ((a + 128 * b) / 128) with b by lia. reflexivity.
Qed.

Lemma split_digit k n : k <> 0 -> exists a m, a < k /\ n = a + k * m.
Proof.
  intros Hk. exists (n mod k), (n / k). split; [apply N.mod_lt; exact Hk|].
  rewrite N.add_comm. apply N.div_mod. exact Hk.
Qed.

Lemma varint_small n : n < 2097152 ->
  (n < 128 /\ varint n = [n]) \/
  (exists a b, a < 128 /\ 1 <= b < 128 /\ n = a + 128 * b /\ varint n = [a + 128; b]) \/
  (exists a b c, a < 128 /\ b < 128 /\ 1 <= c /\ n = a + 128 * b + 16384 * c /\ varint n = [a + 128; b + 128; c]).
Proof.
  intros Hn. destruct (split_digit 128 n) as (a & m & Ha & ->); [discriminate|].
  destruct (N.eq_dec m 0) as [->|Hm]; [left; split; [lia|apply varint_digit; lia]|right].
  rewrite varint_cons by lia.
  destruct (split_digit 128 m) as (b & c & Hb & ->); [discriminate|].
  destruct (N.eq_dec c 0) as [->|Hc]; [left; exists a, b|right; exists a, b, c].
  - rewrite varint_digit by lia. rewrite N.mul_0_r, N.add_0_r in *. repeat split; lia.
  - rewrite varint_cons, varint_digit by lia. repeat split; lia.
Qed.

Lemma be_bytes_digit n : 0 < n < 256 -> be_bytes n = [n].
Proof.
  intros Hn. unfold be_bytes. rewrite le_bytes_eq. destruct (N.eqb_spec n 0); [lia|].
  rewrite N.mod_small, N.div_small by lia. reflexivity.
Qed.

Lemma be_bytes_snoc a b : 1 <= a -> b < 256 -> be_bytes (256 * a + b) = be_bytes a ++ [b].
Proof.
  intros Ha Hb. unfold be_bytes. rewrite (le_bytes_eq (256 * a + b)). destruct (N.eqb_spec (256 * a + b) 0); [lia|].
  replace ((256 * a + b) mod 256) with b by lia. replace ((256 * a + b) / 256) with a by lia. reflexivity.
Qed.

Lemma be_bytes_small n : 0 < n < 16777216 ->
  (n < 256 /\ be_bytes n = [n]) \/
  (exists a b, 1 <= a < 256 /\ b < 256 /\ n = 256 * a + b /\ be_bytes n = [a; b]) \/
  (exists a b c, 1 <= a /\ b < 256 /\ c < 256 /\ n = 65536 * a + 256 * b + c /\ be_bytes n = [a; b; c]).
Proof.
  intros Hn. destruct (split_digit 256 n) as (c & m & Hc & ->); [discriminate|].
  destruct (N.eq_dec m 0) as [->|Hm]; [left; split; [lia|apply be_bytes_digit; lia]|right].
  rewrite (N.add_comm c), be_bytes_snoc by lia.
  destruct (split_digit 256 m) as (b & a & Hb & ->); [discriminate|].
  destruct (N.eq_dec a 0) as [->|Ha]; [left; exists b, c|right; exists a, b, c].
  - rewrite N.mul_0_r, N.add_0_r in *. rewrite be_bytes_digit by lia. repeat split; lia.
  - rewrite (N.add_comm b), be_bytes_snoc, be_bytes_digit by lia. repeat split; lia.
Qed.

Lemma heads_eq (a b : bytes) :
  a = b -> nth 0 a 0 = nth 0 b 0 /\ nth 1 a 0 = nth 1 b 0 /\ nth 2 a 0 = nth 2 b 0.
Proof. intros ->. auto. Qed.

(** ** a length-delimited message shorter than 2 MiB is not an RLP list: compare the first three
    bytes (length varint of one to three bytes against the list header) and the two total lengths *)
Lemma delimited_ne_rlp_list body items : len body < 2097152 -> delimited body <> rlp_list items.
Proof.
  unfold delimited, rlp_list. set (p := concat items). set (L := len body). set (P := len p).
  intros HL E.
  assert (EL : len (varint L) + L = len (rlp_header 192 P) + P).
  { unfold L, P. rewrite <- !len_app. f_equal. exact E. }
  clearbody L P p. unfold rlp_header in E, EL.
  destruct (N.ltb_spec P 56); [|destruct (N.ltb_spec P 16777216)].
  - (* short list: one header byte, 192 + P *)
    destruct (varint_small L HL) as [[HL1 EV]|[(a & b & Ha & Hb & HL2 & EV)|(a & b & c & Ha & Hb & Hc & HL3 & EV)]];
      rewrite EV in E, EL; apply heads_eq in E; unfold len in E, EL; cbn [app nth length] in E, EL; lia.
  - (* long list whose length takes one to three bytes *)
    destruct (be_bytes_small P) as [[HP1 EP]|[(x & y & Hx & Hy & HP2 & EP)|(x & y & z & Hx & Hy & Hz & HP3 & EP)]];
      [lia|..]; rewrite EP in E, EL;
      destruct (varint_small L HL) as [[HL1 EV]|[(a & b & Ha & Hb & HL2 & EV)|(a & b & c & Ha & Hb & Hc & HL3 & EV)]];
      rewrite EV in E, EL; apply heads_eq in E; unfold len in E, EL; cbn [app nth length] in E, EL; lia.
  - (* 2^24 bytes and more: the list is longer than the message *)
    destruct (varint_small L HL) as [[HL1 EV]|[(a & b & Ha & Hb & HL2 & EV)|(a & b & c & Ha & Hb & Hc & HL3 & EV)]];
      rewrite EV in EL; unfold len in EL; cbn [length] in EL; lia.
Qed.

Lemma delimited_ne_preimage body s t :
  len (delimited body) < 2097152 -> delimited body <> tx_sighash_preimage s t.
Proof.
  intros HL. apply delimited_ne_rlp_list. unfold delimited in HL. rewrite len_app in HL. lia.
Qed.

Lemma vote_tx_disjoint c v b s t :
  vote_sign_bytes c v = Some b -> len b < 2097152 -> b <> tx_sighash_preimage s t.
Proof.
  intros S. apply vote_sign_bytes_some in S. destruct S as [_ ->]. apply delimited_ne_preimage.
Qed.

Lemma proposal_tx_disjoint c p b s t :
  proposal_sign_bytes c p = Some b -> len b < 2097152 -> b <> tx_sighash_preimage s t.
Proof.
  intros S. apply proposal_sign_bytes_some in S. destruct S as [_ ->]. apply delimited_ne_preimage.
Qed.

Section CrossBinding.
  Variable oracle : N -> N -> N -> option (N * bytes).
  Variable H : bytes -> bytes.

  (** the recovery id a successful [Sender] looked the signature up with is fixed by V's parity *)
  Lemma sender_ok_recid sg t a : sender oracle H sg t = SOk a ->
    exists hs, oracle (t_r t) (t_s t) ((t_v t + 1) mod 2) = Some (a, H (tx_sighash_preimage hs t)).
  Proof.
    intros E. apply sender_ok in E.
    destruct E as (v & hs & Hv & _ & O & [[_ EV]|(c & _ & _ & EV)]); exists hs;
      (replace ((t_v t + 1) mod 2) with v by lia); exact O.
  Qed.

  (** a 65-byte string that verifies over the hash of [b], re-used as the (R, S, recovery id) of a
      transaction: a sender comes out only if [b] and a signing preimage of the transaction have
      the same hash *)
  Lemma sig_tx_binding addr b sig sg t a :
    verify_signature oracle addr (H b) sig = true ->
    sender oracle H sg t = SOk a ->
    t_r t = be_val (firstn 32 sig) -> t_s t = be_val (firstn 32 (skipn 32 sig)) ->
    (t_v t + 1) mod 2 = N.land (nth 64 sig 0) 251 ->
    exists hs, H b = H (tx_sighash_preimage hs t).
  Proof.
    intros V E Er Es Ev. apply verify_signature_true in V. destruct V as (_ & _ & O).
    apply sender_ok_recid in E. destruct E as (hs & O').
    rewrite Er, Es, Ev, O in O'. injection O' as _ Eh. exists hs. exact Eh.
  Qed.

  (** for a vote: only through a Keccak collision between the vote sign bytes and the transaction's
      signing preimage *)
  Lemma vote_tx_binding chain addr vaddr v sig sg t a :
    vote_verify oracle H chain addr vaddr v sig = VOk ->
    sender oracle H sg t = SOk a ->
    t_r t = be_val (firstn 32 sig) -> t_s t = be_val (firstn 32 (skipn 32 sig)) ->
    (t_v t + 1) mod 2 = N.land (nth 64 sig 0) 251 ->
    exists b hs, vote_sign_bytes chain v = Some b /\
      (len b < 2097152 -> collision H b (tx_sighash_preimage hs t)).
  Proof.
    intros E E' Er Es Ev. apply vote_verify_ok in E. destruct E as (_ & b & S & V).
    destruct (sig_tx_binding addr b sig sg t a V E' Er Es Ev) as (hs & Eh).
    exists b, hs. split; [exact S|]. intros HL. split; [|exact Eh].
    exact (vote_tx_disjoint chain v b hs t S HL).
  Qed.

  Lemma proposal_tx_binding chain addr p sig sg t a :
    proposal_verify oracle H chain addr p sig = VOk ->
    sender oracle H sg t = SOk a ->
    t_r t = be_val (firstn 32 sig) -> t_s t = be_val (firstn 32 (skipn 32 sig)) ->
    (t_v t + 1) mod 2 = N.land (nth 64 sig 0) 251 ->
    exists b hs, proposal_sign_bytes chain p = Some b /\
      (len b < 2097152 -> collision H b (tx_sighash_preimage hs t)).
  Proof.
    intros E E' Er Es Ev. apply proposal_verify_ok in E. destruct E as (b & S & V).
    destruct (sig_tx_binding addr b sig sg t a V E' Er Es Ev) as (hs & Eh).
    exists b, hs. split; [exact S|]. intros HL. split; [|exact Eh].
    exact (proposal_tx_disjoint chain p b hs t S HL).
  Qed.
End CrossBinding.

(** the hypotheses of [vote_tx_binding] are jointly satisfiable when the hash collides:
    with a constant "hash" and an oracle knowing the signature (r = 1, s = 1, recid = 0) by
    address 7, the same 65 bytes verify for a vote and recover 7 from a transaction *)
Definition cross_sig : bytes := repeat 0 31 ++ [1] ++ repeat 0 31 ++ [1] ++ [0].
Definition cross_oracle (r s v : N) : option (N * bytes) :=
  if (r =? 1) && (s =? 1) && (v =? 0) then Some (7, []) else None.
Definition cross_vote : vote :=
  {| v_type := 1%Z; v_height := 5; v_round := 0;
     v_bid := {| b_hash := repeat 0 32; b_total := 0; b_phash := repeat 0 32 |}; v_secs := 0%Z; v_nanos := 0%Z |}.
Definition cross_tx : tx :=
  {| t_nonce := 1; t_price := 1; t_gas := 21000; t_to := None; t_amount := 0; t_payload := [];
     t_v := 27; t_r := 1; t_s := 1 |}.
Example cross_example :
  vote_verify cross_oracle (fun _ => []) [107; 97; 105] 7 7 cross_vote cross_sig = VOk /\
  sender cross_oracle (fun _ => []) Homestead cross_tx = SOk 7 /\
  t_r cross_tx = be_val (firstn 32 cross_sig) /\ t_s cross_tx = be_val (firstn 32 (skipn 32 cross_sig)) /\
  (t_v cross_tx + 1) mod 2 = N.land (nth 64 cross_sig 0) 251.
Proof. vm_compute. repeat split; reflexivity. Qed.
