(** C11 — strings that verify for nothing, rejection of malformed / malleable transaction values as an
    error class, stateless validation of decoded votes / proposals, and signer selection at the fork
    block. *)
From Coq Require Import List ZArith NArith Bool Lia.
From Kardia Require Import C11.Varint C11.Model C11.ProofsSign C11.ProofsTx Generated.C11Facts.
Import ListNotations.
Local Open Scope N_scope.

(** ** malformed or malleable (high-s) values *)
Definition bad_values (r s : N) : Prop :=
  r = 0 \/ secp256k1_n <= r \/ s = 0 \/ secp256k1_half_n < s.

Lemma bad_values_invalid v r s : bad_values r s -> validate_signature_values v r s true = false.
Proof.
  intros B. apply not_true_iff_false. intros V. apply sig_values in V. unfold bad_values in B. lia.
Qed.

Section Extra.
  Variable oracle : N -> N -> N -> option (N * bytes).
  Variable H : bytes -> bytes.

  Lemma rejected_never_verifies addr h sig :
    sig_to_pub_rejects sig = true -> verify_signature oracle addr h sig = false.
  Proof. intros E. unfold verify_signature. rewrite sig_to_addr_eq, E. reflexivity. Qed.

  (** a wrong length is the first thing SigToPub refuses *)
  Lemma verify_signature_bad_length addr h sig :
    len sig <> signature_length -> verify_signature oracle addr h sig = false.
  Proof.
    intros L. apply rejected_never_verifies. unfold sig_to_pub_rejects.
    destruct (N.eqb_spec (len sig) signature_length); [contradiction|reflexivity].
  Qed.

  (** ** they are REJECTED WITH AN ERROR by every signer *)
  Lemma recover_plain_bad h r s vb : bad_values r s -> recover_plain oracle h r s vb = SErrInvalidSig.
  Proof.
    intros B. unfold recover_plain. destruct (256 <=? Z.abs vb)%Z; [reflexivity|].
    rewrite (bad_values_invalid _ r s B). reflexivity.
  Qed.

  Lemma malformed_values_rejected sg t : bad_values (t_r t) (t_s t) ->
    sender oracle H sg t = SErrInvalidSig \/ sender oracle H sg t = SErrChainId.
  Proof.
    intros B. destruct sg as [|c]; cbn [sender].
    - left. apply recover_plain_bad. exact B.
    - destruct (negb (is_protected (t_v t))); [left; apply recover_plain_bad; exact B|].
      destruct (negb (derive_chain_id (t_v t) =? c)); [right; reflexivity|].
      left. apply recover_plain_bad. exact B.
  Qed.

  (** the (r, N - s) twin of an accepted transaction signature is rejected, whatever V it carries *)
  Lemma high_s_twin_rejected sg t a sg' t' :
    sender oracle H sg t = SOk a -> t_r t' = t_r t -> t_s t' = secp256k1_n - t_s t ->
    sender oracle H sg' t' = SErrInvalidSig \/ sender oracle H sg' t' = SErrChainId.
  Proof.
    intros E Er Es. apply sender_sig_values in E. destruct E as [_ [S1 S2]].
    apply malformed_values_rejected. unfold bad_values. rewrite Es.
    right. right. right. unfold secp256k1_half_n in *.
    (* N is odd, so N - s > N/2 whenever s <= N/2 *)
    assert (secp256k1_n = 2 * (secp256k1_n / 2) + 1) by reflexivity. lia.
  Qed.
End Extra.

(** ** stateless validation of decoded votes and proposals: guard by guard *)
Lemma vote_validate_basic_ok v n :
  vote_validate_basic v n = VBOk <->
  (v_type v = prevote_type \/ v_type v = precommit_type) /\
  (bid_is_zero (v_bid v) = true \/ bid_is_complete (v_bid v) = true) /\ n <> 0.
Proof.
  unfold vote_validate_basic, is_vote_type_valid.
  rewrite <- !Z.eqb_eq, <- orb_true_iff, <- N.eqb_neq.
  destruct ((v_type v =? prevote_type)%Z || (v_type v =? precommit_type)%Z); cbn [negb];
    [|split; [discriminate|intros [T _]; discriminate]].
  rewrite <- negb_orb, <- orb_true_iff.
  destruct (bid_is_zero (v_bid v) || bid_is_complete (v_bid v)); cbn [negb];
    [|split; [discriminate|intros (_ & B & _); discriminate]].
  destruct (n =? 0); [split; [discriminate|intros (_ & _ & N0); discriminate]|tauto].
Qed.

Lemma proposal_validate_basic_ok p n :
  proposal_validate_basic p n = VBOk <->
  bid_is_complete (p_bid p) = true /\ b_total (p_bid p) <= max_block_parts_count /\ n <> 0.
Proof.
  unfold proposal_validate_basic. rewrite <- N.eqb_neq, <- N.ltb_ge.
  destruct (bid_is_complete (p_bid p)); cbn [negb]; [|split; [discriminate|intros [C _]; discriminate]].
  destruct (max_block_parts_count <? b_total (p_bid p)); [split; [discriminate|intros (_ & T & _); discriminate]|].
  destruct (n =? 0); [split; [discriminate|intros (_ & _ & N0); discriminate]|tauto].
Qed.

(** a vote that passed ValidateBasic carries one of the two vote types: the range hypothesis
    of the sign-bytes injectivity theorems is discharged for every decoded vote *)
Lemma validated_vote_type v n : vote_validate_basic v n = VBOk -> int32 (v_type v).
Proof.
  intros E. apply vote_validate_basic_ok in E. destruct E as ([T|T] & _); rewrite T; unfold int32; cbv; split; congruence.
Qed.

(** a complete block id is not the nil block id (what separates a proposal's POL block id and
    a non-nil vote from a nil vote) *)
Lemma complete_not_zero b : bid_is_complete b = true -> bid_is_zero b = false.
Proof.
  unfold bid_is_complete, bid_is_zero, psh_is_zero. intros E.
  destruct (all_zero (to_hash32 (b_hash b))); [discriminate|reflexivity].
Qed.

(** ** signer selection: replay protection is in force from the fork block on, for good *)
Lemma is_forked_iff s h : is_forked (Some s) (Some h) = true <-> s <= h.
Proof. cbn [is_forked]. apply N.leb_le. Qed.

Lemma make_signer_forked c fork head :
  is_forked fork head = true -> make_signer (Some c) fork head = ChainIDSigner c.
Proof. intros F. unfold make_signer. rewrite F. reflexivity. Qed.

Lemma make_signer_unforked c fork head :
  is_forked fork head = false -> make_signer c fork head = Homestead.
Proof. intros F. unfold make_signer. rewrite F. reflexivity. Qed.

Lemma make_signer_monotone c s h h' :
  s <= h -> h <= h' -> make_signer c (Some s) (Some h') = make_signer c (Some s) (Some h).
Proof.
  intros A B. unfold make_signer.
  rewrite (proj2 (is_forked_iff s h) A), (proj2 (is_forked_iff s h')) by lia. reflexivity.
Qed.

(** the signer every node derives for a block at or after the fork rejects a transaction that
    was signed for another (non-zero) chain id *)
Lemma make_signer_chain_bound oracle H c c' s h recid t :
  s <= h -> c' <> 0 -> recid < 2 -> c <> c' ->
  t_v t = signature_v (ChainIDSigner c') recid ->
  sender oracle H (make_signer (Some c) (Some s) (Some h)) t = SErrChainId.
Proof.
  intros F Hc Hr Hcc HV. rewrite make_signer_forked by (apply is_forked_iff; exact F).
  eapply chainid_binding; eauto.
Qed.

Lemma latest_signer_for_chain_id_some c : latest_signer_for_chain_id (Some c) = ChainIDSigner c.
Proof. reflexivity. Qed.

(** the hypotheses are satisfiable / the boundary is where the Go code puts it *)
Example validate_examples :
  let z := repeat 0 32 in
  let h := 1 :: repeat 0 31 in
  let mkv ty b := {| v_type := ty; v_height := 1; v_round := 0; v_bid := b; v_secs := 0%Z; v_nanos := 0%Z |} in
  let mkp b := {| p_height := 1; p_round := 0; p_pol := 0; p_bid := b; p_secs := 0%Z; p_nanos := 0%Z |} in
  vote_validate_basic (mkv 1%Z {| b_hash := z; b_total := 0; b_phash := z |}) 65 = VBOk /\
  vote_validate_basic (mkv 32%Z {| b_hash := z; b_total := 0; b_phash := z |}) 65 = VBType /\
  vote_validate_basic (mkv 2%Z {| b_hash := h; b_total := 0; b_phash := z |}) 65 = VBBlockID /\
  vote_validate_basic (mkv 2%Z {| b_hash := h; b_total := 1; b_phash := h |}) 0 = VBNoSig /\
  proposal_validate_basic (mkp {| b_hash := h; b_total := 1601; b_phash := h |}) 65 = VBOk /\
  proposal_validate_basic (mkp {| b_hash := h; b_total := 1602; b_phash := h |}) 65 = VBParts /\
  proposal_validate_basic (mkp {| b_hash := z; b_total := 0; b_phash := z |}) 65 = VBBlockID /\
  make_signer (Some 24) (Some 10) (Some 9) = Homestead /\
  make_signer (Some 24) (Some 10) (Some 10) = ChainIDSigner 24 /\
  make_signer None (Some 0) (Some 0) = ChainIDSigner 0 /\
  make_signer (Some 24) None (Some 10) = Homestead /\
  make_signer (Some 24) (Some 10) None = Homestead.
Proof. vm_compute. repeat split; reflexivity. Qed.
