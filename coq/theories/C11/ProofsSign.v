(** C11 — injectivity of the vote / proposal sign bytes and their disjointness. *)
From Coq Require Import List ZArith NArith Bool Lia.
From Kardia Require Import C11.Varint C11.Proto C11.ProofsVarint C11.Model.
Import ListNotations.
Local Open Scope N_scope.

Definition int32 (z : Z) : Prop := (-2147483648 <= z < 2147483648)%Z.

(** the hashes a [types.BlockID] can hold: exactly 32 bytes each *)
Definition wf_bid (b : block_id) : Prop := length (b_hash b) = 32%nat /\ length (b_phash b) = 32%nat.

Lemma ts_valid_range s n : ts_valid s n = true ->
  (-9223372036854775808 <= s < 9223372036854775808)%Z /\ (-9223372036854775808 <= n < 9223372036854775808)%Z.
Proof.
  unfold ts_valid, min_valid_seconds, max_valid_seconds. intros V.
  apply andb_prop in V. destruct V as [V V4]. apply andb_prop in V. destruct V as [V V3].
  apply andb_prop in V. destruct V as [V1 V2]. lia.
Qed.

Lemma enc_ts_inj s n s' n' : ts_valid s n = true -> ts_valid s' n' = true ->
  enc_ts s n = enc_ts s' n' -> s = s' /\ n = n'.
Proof.
  intros V V' E. apply ts_valid_range in V, V'. destruct V as [Vs Vn], V' as [Vs' Vn']. unfold enc_ts in E.
  apply key_varint_pf in E; [|auto 8 with nohead..]. destruct E as [E1 E2].
  apply key_varint_end_inj in E2.
  split; apply u64_inj; assumption.
Qed.

Lemma enc_psh_inj t h t' h' : enc_psh t h = enc_psh t' h' -> t = t' /\ h = h'.
Proof.
  unfold enc_psh. intros E. apply key_varint_pf in E; [|auto 8 with nohead..]. destruct E as [E1 E2].
  apply key_bytes_end_inj in E2. auto.
Qed.

Lemma enc_cbid_inj b b' : enc_cbid b = enc_cbid b' -> b = b'.
Proof.
  unfold enc_cbid. intros E.
  apply key_bytes_pf in E; [|auto 8 with nohead..]. destruct E as [E1 E2].
  apply key_msg_end_inj, enc_psh_inj in E2. destruct E2.
  destruct b, b'; cbn in *; subst; reflexivity.
Qed.

Lemma all_zero_repeat b : all_zero b = true -> b = repeat 0 (length b).
Proof.
  induction b as [|x b IH]; cbn [all_zero forallb length repeat]; intros A; [reflexivity|].
  apply andb_prop in A. destruct A as [A1 A2]. apply N.eqb_eq in A1. subst x. f_equal. auto.
Qed.

Lemma to_hash32_id b : length b = 32%nat -> to_hash32 b = b.
Proof. intros L. unfold to_hash32. rewrite L. cbn. reflexivity. Qed.

Lemma bid_is_zero_wf b : wf_bid b -> bid_is_zero b = true ->
  b = {| b_hash := repeat 0 32; b_total := 0; b_phash := repeat 0 32 |}.
Proof.
  intros [L1 L2] Z. unfold bid_is_zero in Z. rewrite !to_hash32_id in Z by assumption.
  apply andb_prop in Z. destruct Z as [Z Z3]. apply andb_prop in Z. destruct Z as [Z1 Z2].
  apply all_zero_repeat in Z1, Z3. apply N.eqb_eq in Z2. rewrite L1 in Z1. rewrite L2 in Z3.
  destruct b; cbn in *; subst; reflexivity.
Qed.

(** for 32-byte hashes the canonical (nullable) block id determines the block id *)
Lemma canonical_bid_inj b b' : wf_bid b -> wf_bid b' -> canonical_bid b = canonical_bid b' -> b = b'.
Proof.
  intros W W' E. unfold canonical_bid in E.
  destruct (bid_is_zero b) eqn:Z; destruct (bid_is_zero b') eqn:Z'; try discriminate.
  - rewrite (bid_is_zero_wf b W Z), (bid_is_zero_wf b' W' Z'). reflexivity.
  - injection E as E. apply enc_cbid_inj. exact E.
Qed.

Lemma if_some {A} (c : bool) (x y : A) : (if c then Some x else None) = Some y -> c = true /\ y = x.
Proof. destruct c; [|discriminate]. intros E. injection E as <-. auto. Qed.

(** sign bytes exist for the times protobuf accepts, and are then the length-delimited body *)
Lemma vote_sign_bytes_some c v b : vote_sign_bytes c v = Some b ->
  ts_valid (v_secs v) (v_nanos v) = true /\ b = delimited (canonical_vote_body c v).
Proof. apply if_some. Qed.

Lemma proposal_sign_bytes_some c p b : proposal_sign_bytes c p = Some b ->
  ts_valid (p_secs p) (p_nanos p) = true /\ b = delimited (canonical_proposal_body c p).
Proof. apply if_some. Qed.

Lemma vote_sign_bytes_inj c v c' v' b :
  int32 (v_type v) -> int32 (v_type v') ->
  vote_sign_bytes c v = Some b -> vote_sign_bytes c' v' = Some b ->
  c = c' /\ v_type v = v_type v' /\ v_height v = v_height v' /\ v_round v = v_round v' /\
  canonical_bid (v_bid v) = canonical_bid (v_bid v') /\ v_secs v = v_secs v' /\ v_nanos v = v_nanos v'.
Proof.
  unfold int32. intros T T' S S'.
  apply vote_sign_bytes_some in S, S'. destruct S as [V ->], S' as [V' E].
  apply delimited_inj in E. unfold canonical_vote_body in E.
  (* field by field: each key differs from every key that can follow it *)
  apply key_varint_pf in E; [|auto 8 with nohead..]. destruct E as [E1 E].
  apply key_varint_pf in E; [|auto 8 with nohead..]. destruct E as [E2 E].
  apply key_varint_pf in E; [|auto 8 with nohead..]. destruct E as [E3 E].
  apply key_optmsg_pf in E; [|auto 8 with nohead..]. destruct E as [E4 E].
  apply key_msg_pf in E. destruct E as [E5 E].
  apply key_bytes_end_inj in E.
  apply enc_ts_inj in E5; [|assumption|assumption]. destruct E5.
  apply u64_inj in E1; [|lia|lia]. tauto.
Qed.

Lemma vote_sign_bytes_inj_wf c v c' v' b :
  int32 (v_type v) -> int32 (v_type v') -> wf_bid (v_bid v) -> wf_bid (v_bid v') ->
  vote_sign_bytes c v = Some b -> vote_sign_bytes c' v' = Some b -> c = c' /\ v = v'.
Proof.
  intros T T' W W' S S'.
  destruct (vote_sign_bytes_inj c v c' v' b T T' S S') as (E0 & E1 & E2 & E3 & E4 & E5 & E6).
  apply canonical_bid_inj in E4; [|assumption|assumption].
  split; [assumption|]. destruct v, v'; cbn in *; subst; reflexivity.
Qed.

Lemma proposal_sign_bytes_inj c p c' p' b :
  proposal_sign_bytes c p = Some b -> proposal_sign_bytes c' p' = Some b ->
  c = c' /\ p_height p = p_height p' /\ p_round p = p_round p' /\ p_pol p = p_pol p' /\
  canonical_bid (p_bid p) = canonical_bid (p_bid p') /\ p_secs p = p_secs p' /\ p_nanos p = p_nanos p'.
Proof.
  intros S S'.
  apply proposal_sign_bytes_some in S, S'. destruct S as [V ->], S' as [V' E].
  apply delimited_inj in E. unfold canonical_proposal_body in E.
  apply key_varint_pf in E; [|auto 8 with nohead..]. destruct E as [_ E].
  apply key_varint_pf in E; [|auto 8 with nohead..]. destruct E as [E2 E].
  apply key_varint_pf in E; [|auto 8 with nohead..]. destruct E as [E3 E].
  apply key_varint_pf in E; [|auto 8 with nohead..]. destruct E as [E3' E].
  apply key_optmsg_pf in E; [|auto 8 with nohead..]. destruct E as [E4 E].
  apply key_msg_pf in E. destruct E as [E5 E].
  apply key_bytes_end_inj in E.
  apply enc_ts_inj in E5; [|assumption|assumption]. tauto.
Qed.

Lemma proposal_sign_bytes_inj_wf c p c' p' b :
  wf_bid (p_bid p) -> wf_bid (p_bid p') ->
  proposal_sign_bytes c p = Some b -> proposal_sign_bytes c' p' = Some b -> c = c' /\ p = p'.
Proof.
  intros W W' S S'.
  destruct (proposal_sign_bytes_inj c p c' p' b S S') as (E0 & E1 & E2 & E3 & E4 & E5 & E6).
  apply canonical_bid_inj in E4; [|assumption|assumption].
  split; [assumption|]. destruct p, p'; cbn in *; subst; reflexivity.
Qed.

(** * a vote's sign bytes are never a proposal's (whatever the vote's type value, 32 included) *)

(** a timestamp body is empty or starts with key 0x08 / 0x10; a block-id body is never empty and starts
    with 0x0a / 0x12 *)
Lemma enc_ts_ne_cbid s n b : enc_ts s n = enc_cbid b -> False.
Proof.
  unfold enc_ts, enc_cbid, key_varint, key_bytes, key_msg.
  destruct (u64 s =? 0); destruct (u64 n =? 0); destruct (b_hash b); cbn [app]; intros E;
    try discriminate; injection E as E; lia.
Qed.

Lemma vote_proposal_disjoint c v c' p b b' :
  vote_sign_bytes c v = Some b -> proposal_sign_bytes c' p = Some b' -> b <> b'.
Proof.
  intros S S' E.
  apply vote_sign_bytes_some in S. apply proposal_sign_bytes_some in S'.
  destruct S as [_ ->], S' as [_ ->].
  apply delimited_inj in E. unfold canonical_vote_body, canonical_proposal_body in E.
  (* type, height and round are laid out alike; the layouts part at the fourth field *)
  apply key_varint_pf in E; [|auto 8 with nohead..]. destruct E as [_ E].
  apply key_varint_pf in E; [|auto 8 with nohead..]. destruct E as [_ E].
  apply key_varint_pf in E; [|auto 8 with nohead..]. destruct E as [_ E].
  unfold key_varint in E at 1.
  destruct (canonical_bid (v_bid v)) as [vb|]; cbn [key_optmsg] in E.
  - (* the vote has a block id: next key 0x22; the proposal continues with 0x20, 0x2a or 0x32 *)
    destruct (p_pol p =? 0); [destruct (canonical_bid (p_bid p))|]; unfold key_msg in E; cbn [app key_optmsg] in E;
      injection E as E; lia.
  - (* nil vote: next key 0x2a (timestamp); must be the proposal's block id *)
    destruct (p_pol p =? 0).
    + destruct (canonical_bid (p_bid p)) as [pb|] eqn:CB; cbn [key_optmsg app] in E.
      * apply key_msg_pf in E. destruct E as [E _].
        unfold canonical_bid in CB. destruct (bid_is_zero (p_bid p)); [discriminate|].
        injection CB as CB. subst pb. apply enc_ts_ne_cbid in E. exact E.
      * unfold key_msg in E. cbn [app] in E. injection E as E. lia.
    + unfold key_msg in E. cbn [app] in E. injection E as E. lia.
Qed.

(** proto-level caveat (not reachable through [types.Vote], whose hashes are [32]byte arrays):
    raw hashes of different lengths that are all zero canonicalise to the same nil block id *)
Example proto_level_zero_hash_lengths_coincide :
  let v  := {| v_type := 1; v_height := 1; v_round := 1; v_bid := {| b_hash := []; b_total := 0; b_phash := [] |}; v_secs := 0; v_nanos := 0 |} in
  let v' := {| v_type := 1; v_height := 1; v_round := 1; v_bid := {| b_hash := [0]; b_total := 0; b_phash := [] |}; v_secs := 0; v_nanos := 0 |} in
  vote_sign_bytes [] v = vote_sign_bytes [] v' /\ v <> v'.
Proof. split; [vm_compute; reflexivity|discriminate]. Qed.

(** the hypotheses are satisfiable: a concrete precommit has sign bytes *)
Example vote_sign_bytes_example :
  vote_sign_bytes [107; 97; 105]
    {| v_type := 2; v_height := 5; v_round := 1;
       v_bid := {| b_hash := repeat 0 31 ++ [7]; b_total := 1; b_phash := repeat 0 31 ++ [9] |};
       v_secs := 1600000000; v_nanos := 5 |} <> None.
Proof. vm_compute. discriminate. Qed.
