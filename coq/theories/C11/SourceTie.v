(** C11 — tie of the model's guards and machine arithmetic to the Go SOURCE.
    [Generated/C11Source.v] is produced on every check by /verif/go2coq from /repo's working tree:
    the guards and integer expressions of
      types/transaction_signing.go  ChainIDSigner.Sender / SignatureValues / Equal, deriveChainId,
                                    decodeSignature, FrontierSigner.SignatureValues
      types/transaction.go          isProtectedV, Transaction.Protected, recoverPlain, SignTx
      types/vote.go, proposal.go    Vote.Verify, Vote.ValidateBasic, Proposal.ValidateBasic
      types/canonical_types.go      CanonicalizeBlockID;  types/signable.go VerifySignature
      types/block.go, part_set.go   BlockID.IsZero / IsComplete, PartSetHeader.IsZero
      lib/crypto/crypto.go          ValidateSignatureValues;  lib/crypto/signature.go SigToPub, Sign
      configs/chain_config.go       isForked (MakeSigner's fork test)
      types/transaction_signing.go  MakeSigner, LatestSigner, LatestSignerForChainID, NewChainIDSigner, Sender (operands of the cache test only)
    and the constants MaxBlockPartsCount, SignatureLength, PrevoteType, PrecommitType, ProposalType.
    The ties say that the functions of C11/Model.v ARE these expressions, placed branch by branch
    as in the Go functions, applied to exactly the operands the Go text names (the [_atoms] lists).
    Two integer expressions are written out with the GoSem operators instead of quoting the generated
    definition, so a change of them in Go is seen by the differential run only: deriveChainId's
    [(v - 35) / 2] and SignatureValues' [sig[64] + 35] (in [signature_v]: [recid + 35 + 2 * c]).

    Atoms of type [int] that are results of [big.Int.Cmp] / [Sign] / [BitLen] / [Uint64] are
    interpreted by [ncmp] / [bitlen] / [uint64_of] below (their math/big meaning on the
    non-negative values RLP decoding yields). *)
From Coq Require Import List ZArith NArith Bool Lia String Znumtheory.
From Kardia Require Import Base.GoSem Base.Conj.
From Kardia Require Import Generated.C11Source.
From Kardia Require Import Generated.C11Facts C11.Varint C11.Model.
Import ListNotations.
Local Open Scope Z_scope.

(** ** math/big readings of the [int] / [uint64] atoms *)
Definition cmp_int (a b : Z) : Z := match a ?= b with Lt => -1 | Eq => 0 | Gt => 1 end.
(** [x.Cmp(y)] on non-negative big integers; [x.Sign()] is [ncmp x 0] *)
Definition ncmp (a b : N) : Z := cmp_int (Z.of_N a) (Z.of_N b).
(** [x.BitLen()] (of the absolute value) *)
Definition bitlen (n : N) : Z := Z.of_N (N.size n).
(** [x.Uint64()]: the low 64 bits of the absolute value *)
Definition uint64_of (n : N) : Z := Z.of_N n mod 18446744073709551616.

(** [x == nil] of a pointer *)
Definition is_nil {A} (o : option A) : bool := match o with None => true | Some _ => false end.

Lemma ncmp_lt a b : (ncmp a b <? 0) = (a <? b)%N.
Proof. unfold ncmp, cmp_int, N.ltb. rewrite N2Z.inj_compare. destruct (a ?= b)%N; reflexivity. Qed.
Lemma ncmp_gt a b : (ncmp a b >? 0) = (b <? a)%N.
Proof.
  unfold ncmp, cmp_int, N.ltb. rewrite N2Z.inj_compare, (N.compare_antisym a b).
  destruct (a ?= b)%N; reflexivity.
Qed.
Lemma ncmp_ge a b : (ncmp a b >=? 0) = (b <=? a)%N.
Proof.
  unfold ncmp, cmp_int, N.leb. rewrite N2Z.inj_compare, (N.compare_antisym a b).
  destruct (a ?= b)%N; reflexivity.
Qed.
Lemma ncmp_eq a b : (ncmp a b =? 0) = (a =? b)%N.
Proof.
  unfold ncmp, cmp_int. rewrite N2Z.inj_compare.
  destruct (N.compare_spec a b) as [E|L|G]; symmetry.
  - apply N.eqb_eq, E.
  - apply N.eqb_neq. lia.
  - apply N.eqb_neq. lia.
Qed.
Lemma ncmp_ne a b : go_neqb (ncmp a b) 0 = negb (a =? b)%N.
Proof. unfold go_neqb. rewrite ncmp_eq. reflexivity. Qed.

(** [BitLen() <= k] is [< 2^k] *)
Lemma size_le_iff n k : (N.size n <= k)%N <-> (n < 2 ^ k)%N.
Proof.
  destruct (N.eq_dec n 0) as [->|Hn].
  - split; intros _; [apply N.neq_0_lt_0, N.pow_nonzero; discriminate|apply N.le_0_l].
  - rewrite N.size_log2, N.le_succ_l by exact Hn. symmetry. apply N.log2_lt_pow2. lia.
Qed.
Lemma bitlen_le n k : (bitlen n <=? Z.of_N k) = (n <? 2 ^ k)%N.
Proof.
  unfold bitlen. rewrite ZofN_leb. apply eq_true_iff_eq. rewrite N.leb_le, N.ltb_lt. apply size_le_iff.
Qed.
Lemma bitlen_gt n k : (bitlen n >? Z.of_N k) = (2 ^ k <=? n)%N.
Proof.
  rewrite Z.gtb_ltb, Z.ltb_antisym, bitlen_le, N.ltb_antisym, negb_involutive. reflexivity.
Qed.
Lemma uint64_small n : (n < 18446744073709551616)%N -> uint64_of n = Z.of_N n.
Proof. intros H. unfold uint64_of. apply Z.mod_small. lia. Qed.

(** [uint8(x - 27)] of a uint64 [x] *)
Lemma tie_set_V x : types__recoverPlain__set_V x = (x - 27) mod 256.
Proof.
  unfold types__recoverPlain__set_V, go_conv, go_sub. cbn [wrap].
  symmetry. apply Zmod_div_mod; [lia|lia|].
  exists 72057594037927936. reflexivity.
Qed.

(** the two guards of crypto.SigToPub, as [sig_to_addr] and [sig_to_pub_rejects] place them *)
Lemma tie_sig_to_pub_len n :
  lib_crypto__SigToPub__if_len_sig_ne_SignatureLength (Z.of_N n) = negb (n =? signature_length)%N.
Proof. exact (ZofN_neqb n signature_length). Qed.
Lemma tie_sig_to_pub_range r s :
  lib_crypto__SigToPub__if_r_Sign_eq_0_or_s_Sign_eq_0_or_r_Cmp_secp256k1N_ge_0_or_s_Cmp_b70b570f
    (ncmp r 0) (ncmp s 0) (ncmp r secp256k1_n) (ncmp s secp256k1_n)
  = ((r =? 0)%N || (s =? 0)%N || (secp256k1_n <=? r)%N || (secp256k1_n <=? s)%N)%bool.
Proof.
  unfold lib_crypto__SigToPub__if_r_Sign_eq_0_or_s_Sign_eq_0_or_r_Cmp_secp256k1N_ge_0_or_s_Cmp_b70b570f.
  rewrite !ncmp_eq, !ncmp_ge. reflexivity.
Qed.

(** SignTx with a nil chain id (the Homestead signer): the chain-id-zero switch is off *)
Lemma tie_signtx_preimage_homestead t x :
  signtx_preimage Homestead t =
  if types__SignTx__if_id_ne_nil_and_id_Sign_eq_0 false x
  then tx_sighash_preimage (ChainIDSigner 0) t else tx_sighash_preimage Homestead t.
Proof. reflexivity. Qed.

(** ** the operands (what is compared, not only how) *)
Lemma tie_atoms :
  lib_crypto__ValidateSignatureValues__if_r_Cmp_common_Big1_lt_0_or_s_Cmp_common_Big1_lt_0_atoms
    = ["r.Cmp(common.Big1) : int"; "s.Cmp(common.Big1) : int"]%string
  /\ lib_crypto__ValidateSignatureValues__if_homestead_and_s_Cmp_secp256k1halfN_gt_0_atoms
    = ["homestead : bool"; "s.Cmp(secp256k1halfN) : int"]%string
  /\ lib_crypto__ValidateSignatureValues__ret_r_Cmp_secp256k1N_lt_0_and_s_Cmp_secp256k1N_lt_0_and_v_eq_0_or_v_eq_1_atoms
    = ["r.Cmp(secp256k1N) : int"; "s.Cmp(secp256k1N) : int"; "v : byte"]%string
  /\ lib_crypto__SigToPub__if_len_sig_ne_SignatureLength_atoms = ["len(sig) : int"]%string
  /\ lib_crypto__SigToPub__if_r_Sign_eq_0_or_s_Sign_eq_0_or_r_Cmp_secp256k1N_ge_0_or_s_Cmp_b70b570f_atoms
    = ["r.Sign() : int"; "s.Sign() : int"; "r.Cmp(secp256k1N) : int"; "s.Cmp(secp256k1N) : int"]%string
  /\ lib_crypto__SigToPub__assign_atoms = ["sig[64] : byte"]%string
  /\ lib_crypto__Sign__if_len_hash_ne_32_atoms = ["len(hash) : int"]%string
  /\ lib_crypto__Sign__set_v_atoms = ["sig[0] : byte"]%string
  /\ types__isProtectedV__if_V_BitLen_le_8_atoms = ["V.BitLen() : int"]%string
  /\ types__isProtectedV__ret_v_ne_27_and_v_ne_28_atoms = ["v : uint64"]%string
  /\ types__Transaction_Protected__ret_tx_data_V_ne_nil_and_isProtectedV_tx_data_V_atoms
    = ["tx.data.V != nil : bool"; "isProtectedV(tx.data.V) : bool"]%string
  /\ types__deriveChainId__if_v_BitLen_le_64_atoms = ["v.BitLen() : int"]%string
  /\ types__deriveChainId__if_v_eq_27_or_v_eq_28_atoms = ["v : uint64"]%string
  /\ types__recoverPlain__if_Vb_BitLen_gt_8_atoms = ["Vb.BitLen() : int"]%string
  /\ types__recoverPlain__set_V_atoms = ["Vb.Uint64() : uint64"]%string
  /\ types__recoverPlain__if_not_crypto_ValidateSignatureValues_V_R_S_homestead_atoms
    = ["crypto.ValidateSignatureValues(V, R, S, homestead) : bool"]%string
  /\ types__recoverPlain__if_len_pub_eq_0_or_pub_at_0_ne_4_atoms = ["len(pub) : int"; "pub[0] : byte"]%string
  /\ types__ChainIDSigner_Sender__if_not_tx_Protected_atoms = ["tx.Protected() : bool"]%string
  /\ types__ChainIDSigner_Sender__if_tx_ChainId__Cmp_s_chainId_ne_0_atoms = ["tx.ChainId().Cmp(s.chainId) : int"]%string
  /\ types__ChainIDSigner_SignatureValues__if_s_chainId_Sign_ne_0_atoms = ["s.chainId.Sign() : int"]%string
  /\ types__ChainIDSigner_Equal__ret_ok_and_signer_chainId_Cmp_s_chainId_eq_0_atoms
    = ["ok : bool"; "signer.chainId.Cmp(s.chainId) : int"]%string
  /\ types__SignTx__if_id_ne_nil_and_id_Sign_eq_0_atoms = ["id != nil : untyped bool"; "id.Sign() : int"]%string
  /\ types__decodeSignature__if_len_sig_ne_crypto_SignatureLength_atoms = ["len(sig) : int"]%string
  /\ types__FrontierSigner_SignatureValues__if_len_sig_ne_65_atoms = ["len(sig) : int"]%string
  /\ types__Vote_Verify__if_not_vote_ValidatorAddress_Equal_address_atoms = ["vote.ValidatorAddress.Equal(address) : bool"]%string
  /\ types__Vote_Verify__if_not_VerifySignature_address_crypto_Keccak256_signBytes_vote_Signature_atoms
    = ["VerifySignature(address, crypto.Keccak256(signBytes), vote.Signature) : bool"]%string
  /\ types__VerifySignature__if_signPubKey_eq_nil_or_err_ne_nil_atoms
    = ["signPubKey == nil : untyped bool"; "err != nil : untyped bool"]%string
  /\ types__Vote_ValidateBasic__if_not_IsVoteTypeValid_vote_Type_atoms = ["IsVoteTypeValid(vote.Type) : bool"]%string
  /\ types__Vote_ValidateBasic__if_not_vote_BlockID_IsZero_and_not_vote_BlockID_IsComplete_atoms
    = ["vote.BlockID.IsZero() : bool"; "vote.BlockID.IsComplete() : bool"]%string
  /\ types__Vote_ValidateBasic__if_len_vote_Signature_eq_0_atoms = ["len(vote.Signature) : int"]%string
  /\ types__Proposal_ValidateBasic__if_not_p_POLBlockID_IsComplete_atoms = ["p.POLBlockID.IsComplete() : bool"]%string
  /\ types__Proposal_ValidateBasic__if_p_POLBlockID_PartsHeader_Total_gt_MaxBlockPartsCount_atoms
    = ["p.POLBlockID.PartsHeader.Total : uint32"]%string
  /\ types__Proposal_ValidateBasic__if_len_p_Signature_eq_0_atoms = ["len(p.Signature) : int"]%string
  /\ types__CanonicalizeBlockID__if_rbid_eq_nil_or_rbid_IsZero_atoms = ["rbid == nil : bool"; "rbid.IsZero() : bool"]%string
  /\ types__BlockID_IsZero__ret_blockID_Hash_IsZero_and_blockID_PartsHeader_IsZero_atoms
    = ["blockID.Hash.IsZero() : bool"; "blockID.PartsHeader.IsZero() : bool"]%string
  /\ types__BlockID_IsComplete__ret_not_blockID_Hash_IsZero_and_not_blockID_PartsHeader_IsZero_atoms
    = ["blockID.Hash.IsZero() : bool"; "blockID.PartsHeader.IsZero() : bool"]%string
  /\ types__PartSetHeader_IsZero__ret_psh_Total_eq_0_and_psh_Hash_IsZero_atoms = ["psh.Total : uint32"; "psh.Hash.IsZero() : bool"]%string
  /\ configs__isForked__if_s_eq_nil_or_head_eq_nil_atoms = ["s == nil : untyped bool"; "head == nil : untyped bool"]%string
  /\ types__MakeSigner__case_config_IsGalaxias_blockNumber_atoms = ["config.IsGalaxias(blockNumber) : bool"]%string
  /\ types__LatestSigner__if_config_ChainID_ne_nil_atoms = ["config.ChainID != nil : untyped bool"]%string
  /\ types__LatestSigner__if_config_GalaxiasBlock_ne_nil_atoms = ["config.GalaxiasBlock != nil : untyped bool"]%string
  /\ types__LatestSignerForChainID__if_chainID_eq_nil_atoms = ["chainID == nil : untyped bool"]%string
  /\ types__NewChainIDSigner__if_chainId_eq_nil_atoms = ["chainId == nil : untyped bool"]%string
  /\ types__Sender__if_sc_ne_nil_atoms = ["sc != nil : untyped bool"]%string
  /\ types__Sender__if_sigCache_signer_Equal_signer_atoms = ["sigCache.signer.Equal(signer) : bool"]%string
  /\ types__isProtectedV__let_v_atoms = ["V.Uint64() : uint64"]%string
  /\ types__deriveChainId__let_v_atoms = ["v.Uint64() : uint64"]%string
  /\ configs__isForked__ret_mul_s_le_mul_head_atoms = ["*s : uint64"; "*head : uint64"]%string.
Proof. split_all; reflexivity. Qed.

(** ** the whole tie as one statement (quoted by Properties.v) *)
Definition C11_source_tie_statement : Prop :=
  (Z.of_N signature_length = lib_crypto__SignatureLength /\
   Z.of_N max_block_parts_count = types__MaxBlockPartsCount /\
   prevote_type = proto_kardiachain_types__PrevoteType /\
   precommit_type = proto_kardiachain_types__PrecommitType /\
   proposal_type = proto_kardiachain_types__ProposalType)
  /\ (forall v r s hs,
        validate_signature_values v r s hs =
        if lib_crypto__ValidateSignatureValues__if_r_Cmp_common_Big1_lt_0_or_s_Cmp_common_Big1_lt_0 (ncmp r 1) (ncmp s 1)
        then false
        else if lib_crypto__ValidateSignatureValues__if_homestead_and_s_Cmp_secp256k1halfN_gt_0 hs (ncmp s secp256k1_half_n)
        then false
        else lib_crypto__ValidateSignatureValues__ret_r_Cmp_secp256k1N_lt_0_and_s_Cmp_secp256k1N_lt_0_and_v_eq_0_or_v_eq_1
               (ncmp r secp256k1_n) (ncmp s secp256k1_n) (Z.of_N v))
  /\ (forall v,
        is_protected v =
        if types__isProtectedV__if_V_BitLen_le_8 (bitlen v)
        then types__isProtectedV__ret_v_ne_27_and_v_ne_28 (uint64_of v) else true)
  /\ (forall v, types__Transaction_Protected__ret_tx_data_V_ne_nil_and_isProtectedV_tx_data_V true (is_protected v) = is_protected v)
  /\ (forall v,
        derive_chain_id v =
        if types__deriveChainId__if_v_BitLen_le_64 (bitlen v)
        then if types__deriveChainId__if_v_eq_27_or_v_eq_28 (uint64_of v) then 0%N
             else Z.to_N (go_quot U64 (go_sub U64 (uint64_of v) 35) 2)
        else ((v - 35) / 2)%N)
  /\ (forall oracle h r s vb,
        recover_plain oracle h r s vb =
        if types__recoverPlain__if_Vb_BitLen_gt_8 (bitlen (Z.to_N (Z.abs vb))) then SErrInvalidSig
        else let v := Z.to_N (types__recoverPlain__set_V (Z.abs vb mod 18446744073709551616)) in
             if types__recoverPlain__if_not_crypto_ValidateSignatureValues_V_R_S_homestead (validate_signature_values v r s true)
             then SErrInvalidSig
             else ecrecover oracle h r s v)
  /\ (forall oracle H c t,
        sender oracle H (ChainIDSigner c) t =
        if types__ChainIDSigner_Sender__if_not_tx_Protected (is_protected (t_v t))
        then sender oracle H Homestead t
        else if types__ChainIDSigner_Sender__if_tx_ChainId__Cmp_s_chainId_ne_0 (ncmp (derive_chain_id (t_v t)) c)
        then SErrChainId
        else recover_plain oracle (H (tx_sighash_preimage (ChainIDSigner c) t)) (t_r t) (t_s t)
               (Z.of_N (t_v t) - Z.of_N (2 * c) - 8))
  /\ (forall c recid,
        signature_v (ChainIDSigner c) recid =
        if types__ChainIDSigner_SignatureValues__if_s_chainId_Sign_ne_0 (ncmp c 0)
        then (recid + 35 + 2 * c)%N else (recid + 27)%N)
  /\ (forall c t,
        signtx_preimage (ChainIDSigner c) t =
        if types__SignTx__if_id_ne_nil_and_id_Sign_eq_0 true (ncmp c 0)
        then tx_sighash_preimage Homestead t else tx_sighash_preimage (ChainIDSigner c) t)
  /\ (forall ok c c',
        types__ChainIDSigner_Equal__ret_ok_and_signer_chainId_Cmp_s_chainId_eq_0 ok (ncmp c' c) = (ok && (c' =? c)%N)%bool)
  /\ (forall n,
        types__decodeSignature__if_len_sig_ne_crypto_SignatureLength (Z.of_N n) = negb (n =? signature_length)%N /\
        types__FrontierSigner_SignatureValues__if_len_sig_ne_65 (Z.of_N n) = negb (n =? signature_length)%N /\
        lib_crypto__SigToPub__if_len_sig_ne_SignatureLength (Z.of_N n) = negb (n =? signature_length)%N /\
        lib_crypto__Sign__if_len_hash_ne_32 (Z.of_N n) = negb (n =? 32)%N)
  /\ (forall oracle h sig,
        sig_to_addr oracle h sig =
        if lib_crypto__SigToPub__if_len_sig_ne_SignatureLength (Z.of_N (len sig)) then None
        else
          let r := be_val (firstn 32 sig) in
          let s := be_val (firstn 32 (skipn 32 sig)) in
          let it := N.land (nth 64 sig 0%N) 251 in
          if lib_crypto__SigToPub__if_r_Sign_eq_0_or_s_Sign_eq_0_or_r_Cmp_secp256k1N_ge_0_or_s_Cmp_b70b570f
               (ncmp r 0) (ncmp s 0) (ncmp r secp256k1_n) (ncmp s secp256k1_n) then None
          else if (it <? 2)%N then
            match oracle r s it with
            | Some (a, h') => if bytes_eqb h h' then Some a else None
            | None => None
            end
          else None)
  /\ (forall sig,
        sig_to_pub_rejects sig =
        (lib_crypto__SigToPub__if_len_sig_ne_SignatureLength (Z.of_N (len sig)) ||
         lib_crypto__SigToPub__if_r_Sign_eq_0_or_s_Sign_eq_0_or_r_Cmp_secp256k1N_ge_0_or_s_Cmp_b70b570f
           (ncmp (be_val (firstn 32 sig)) 0) (ncmp (be_val (firstn 32 (skipn 32 sig))) 0)
           (ncmp (be_val (firstn 32 sig)) secp256k1_n) (ncmp (be_val (firstn 32 (skipn 32 sig))) secp256k1_n))%bool)
  /\ (forall v, 0 <= v < 256 ->
        lib_crypto__SigToPub__assign v = (v + 27) mod 256 /\
        lib_crypto__Sign__set_v (lib_crypto__SigToPub__assign v) = v)
  /\ (forall l b, types__recoverPlain__if_len_pub_eq_0_or_pub_at_0_ne_4 l b = ((l =? 0) || negb (b =? 4))%bool)
  /\ (forall oracle addr h sig,
        verify_signature oracle addr h sig =
        if types__VerifySignature__if_signPubKey_eq_nil_or_err_ne_nil
             (match sig_to_addr oracle h sig with None => true | Some _ => false end) false
        then false
        else match sig_to_addr oracle h sig with Some a => (a =? addr)%N | None => false end)
  /\ (forall oracle H chain addr vaddr v sig,
        vote_verify oracle H chain addr vaddr v sig =
        if types__Vote_Verify__if_not_vote_ValidatorAddress_Equal_address (vaddr =? addr)%N then VErrAddress
        else match vote_sign_bytes chain v with
             | None => VCrash
             | Some b =>
               if types__Vote_Verify__if_not_VerifySignature_address_crypto_Keccak256_signBytes_vote_Signature
                    (verify_signature oracle addr (H b) sig)
               then VErrSignature else VOk
             end)
  /\ (forall b,
        psh_is_zero b = types__PartSetHeader_IsZero__ret_psh_Total_eq_0_and_psh_Hash_IsZero
                          (Z.of_N (b_total b)) (all_zero (to_hash32 (b_phash b))))
  /\ (forall b,
        bid_is_zero b = types__BlockID_IsZero__ret_blockID_Hash_IsZero_and_blockID_PartsHeader_IsZero
                          (all_zero (to_hash32 (b_hash b))) (psh_is_zero b))
  /\ (forall b,
        bid_is_complete b = types__BlockID_IsComplete__ret_not_blockID_Hash_IsZero_and_not_blockID_PartsHeader_IsZero
                              (all_zero (to_hash32 (b_hash b))) (psh_is_zero b))
  /\ (forall b,
        canonical_bid b =
        if types__CanonicalizeBlockID__if_rbid_eq_nil_or_rbid_IsZero false (bid_is_zero b) then None else Some (enc_cbid b))
  /\ (forall v n,
        vote_validate_basic v n =
        if types__Vote_ValidateBasic__if_not_IsVoteTypeValid_vote_Type (is_vote_type_valid (v_type v)) then VBType
        else if types__Vote_ValidateBasic__if_not_vote_BlockID_IsZero_and_not_vote_BlockID_IsComplete
                  (bid_is_zero (v_bid v)) (bid_is_complete (v_bid v)) then VBBlockID
        else if types__Vote_ValidateBasic__if_len_vote_Signature_eq_0 (Z.of_N n) then VBNoSig
        else VBOk)
  /\ (forall t,
        is_vote_type_valid t =
        ((t =? proto_kardiachain_types__PrevoteType) || (t =? proto_kardiachain_types__PrecommitType))%bool)
  /\ (forall p n,
        proposal_validate_basic p n =
        if types__Proposal_ValidateBasic__if_not_p_POLBlockID_IsComplete (bid_is_complete (p_bid p)) then VBBlockID
        else if types__Proposal_ValidateBasic__if_p_POLBlockID_PartsHeader_Total_gt_MaxBlockPartsCount (Z.of_N (b_total (p_bid p)))
        then VBParts
        else if types__Proposal_ValidateBasic__if_len_p_Signature_eq_0 (Z.of_N n) then VBNoSig
        else VBOk)
  /\ (forall fork head,
        is_forked fork head =
        if configs__isForked__if_s_eq_nil_or_head_eq_nil
             (match fork with None => true | Some _ => false end) (match head with None => true | Some _ => false end)
        then false
        else configs__isForked__ret_mul_s_le_mul_head
               (Z.of_N (match fork with Some s => s | None => 0%N end))
               (Z.of_N (match head with Some h => h | None => 0%N end)))
  /\ (forall chain fork head,
        make_signer chain fork head =
        if types__MakeSigner__case_config_IsGalaxias_blockNumber (is_forked fork head)
        then new_chain_id_signer chain else Homestead)
  /\ (forall chain fork,
        latest_signer chain fork =
        if types__LatestSigner__if_config_ChainID_ne_nil (negb (is_nil chain))
        then if types__LatestSigner__if_config_GalaxiasBlock_ne_nil (negb (is_nil fork))
             then new_chain_id_signer chain else Homestead
        else Homestead)
  /\ (forall chain,
        latest_signer_for_chain_id chain =
        if types__LatestSignerForChainID__if_chainID_eq_nil (is_nil chain) then Homestead else new_chain_id_signer chain)
  /\ (forall chain,
        new_chain_id_signer chain =
        ChainIDSigner (if types__NewChainIDSigner__if_chainId_eq_nil (is_nil chain) then 0%N
                       else match chain with Some c => c | None => 0%N end))
  /\ (forall x, types__isProtectedV__let_v x = x /\ types__deriveChainId__let_v x = x)
  /\ (lib_crypto__ValidateSignatureValues__if_r_Cmp_common_Big1_lt_0_or_s_Cmp_common_Big1_lt_0_atoms
        = ["r.Cmp(common.Big1) : int"; "s.Cmp(common.Big1) : int"]%string
      /\ lib_crypto__ValidateSignatureValues__if_homestead_and_s_Cmp_secp256k1halfN_gt_0_atoms
        = ["homestead : bool"; "s.Cmp(secp256k1halfN) : int"]%string
      /\ lib_crypto__ValidateSignatureValues__ret_r_Cmp_secp256k1N_lt_0_and_s_Cmp_secp256k1N_lt_0_and_v_eq_0_or_v_eq_1_atoms
        = ["r.Cmp(secp256k1N) : int"; "s.Cmp(secp256k1N) : int"; "v : byte"]%string
      /\ lib_crypto__SigToPub__if_r_Sign_eq_0_or_s_Sign_eq_0_or_r_Cmp_secp256k1N_ge_0_or_s_Cmp_b70b570f_atoms
        = ["r.Sign() : int"; "s.Sign() : int"; "r.Cmp(secp256k1N) : int"; "s.Cmp(secp256k1N) : int"]%string
      /\ types__isProtectedV__if_V_BitLen_le_8_atoms = ["V.BitLen() : int"]%string
      /\ types__deriveChainId__if_v_BitLen_le_64_atoms = ["v.BitLen() : int"]%string
      /\ types__recoverPlain__if_Vb_BitLen_gt_8_atoms = ["Vb.BitLen() : int"]%string
      /\ types__recoverPlain__set_V_atoms = ["Vb.Uint64() : uint64"]%string
      /\ types__ChainIDSigner_Sender__if_tx_ChainId__Cmp_s_chainId_ne_0_atoms = ["tx.ChainId().Cmp(s.chainId) : int"]%string
      /\ types__ChainIDSigner_SignatureValues__if_s_chainId_Sign_ne_0_atoms = ["s.chainId.Sign() : int"]%string
      /\ types__SignTx__if_id_ne_nil_and_id_Sign_eq_0_atoms = ["id != nil : untyped bool"; "id.Sign() : int"]%string
      /\ types__Vote_Verify__if_not_vote_ValidatorAddress_Equal_address_atoms = ["vote.ValidatorAddress.Equal(address) : bool"]%string
      /\ types__Vote_Verify__if_not_VerifySignature_address_crypto_Keccak256_signBytes_vote_Signature_atoms
        = ["VerifySignature(address, crypto.Keccak256(signBytes), vote.Signature) : bool"]%string
      /\ types__Vote_ValidateBasic__if_not_IsVoteTypeValid_vote_Type_atoms = ["IsVoteTypeValid(vote.Type) : bool"]%string
      /\ types__Vote_ValidateBasic__if_len_vote_Signature_eq_0_atoms = ["len(vote.Signature) : int"]%string
      /\ types__Proposal_ValidateBasic__if_p_POLBlockID_PartsHeader_Total_gt_MaxBlockPartsCount_atoms
        = ["p.POLBlockID.PartsHeader.Total : uint32"]%string
      /\ types__Proposal_ValidateBasic__if_len_p_Signature_eq_0_atoms = ["len(p.Signature) : int"]%string
      /\ types__CanonicalizeBlockID__if_rbid_eq_nil_or_rbid_IsZero_atoms = ["rbid == nil : bool"; "rbid.IsZero() : bool"]%string
      /\ types__PartSetHeader_IsZero__ret_psh_Total_eq_0_and_psh_Hash_IsZero_atoms = ["psh.Total : uint32"; "psh.Hash.IsZero() : bool"]%string
      /\ types__MakeSigner__case_config_IsGalaxias_blockNumber_atoms = ["config.IsGalaxias(blockNumber) : bool"]%string
      /\ types__LatestSigner__if_config_ChainID_ne_nil_atoms = ["config.ChainID != nil : untyped bool"]%string
      /\ types__LatestSigner__if_config_GalaxiasBlock_ne_nil_atoms = ["config.GalaxiasBlock != nil : untyped bool"]%string
      /\ types__LatestSignerForChainID__if_chainID_eq_nil_atoms = ["chainID == nil : untyped bool"]%string
      /\ types__NewChainIDSigner__if_chainId_eq_nil_atoms = ["chainId == nil : untyped bool"]%string
      /\ types__Sender__if_sc_ne_nil_atoms = ["sc != nil : untyped bool"]%string
      /\ types__Sender__if_sigCache_signer_Equal_signer_atoms = ["sigCache.signer.Equal(signer) : bool"]%string
      /\ types__isProtectedV__let_v_atoms = ["V.Uint64() : uint64"]%string
      /\ types__deriveChainId__let_v_atoms = ["v.Uint64() : uint64"]%string
      /\ configs__isForked__ret_mul_s_le_mul_head_atoms = ["*s : uint64"; "*head : uint64"]%string).

Lemma C11_source_tie_proof : C11_source_tie_statement.
Proof.
  unfold C11_source_tie_statement.
  split_all.
  31-59: reflexivity.  (* the operand lists, at the end of the statement *)
  - (* constants *)
    repeat split; reflexivity.
  - (* crypto.ValidateSignatureValues: the whole function *)
    intros v r s hs.
    unfold validate_signature_values,
      lib_crypto__ValidateSignatureValues__if_r_Cmp_common_Big1_lt_0_or_s_Cmp_common_Big1_lt_0,
      lib_crypto__ValidateSignatureValues__if_homestead_and_s_Cmp_secp256k1halfN_gt_0,
      lib_crypto__ValidateSignatureValues__ret_r_Cmp_secp256k1N_lt_0_and_s_Cmp_secp256k1N_lt_0_and_v_eq_0_or_v_eq_1.
    rewrite !ncmp_lt, ncmp_gt.
    change 0 with (Z.of_N 0). change 1 with (Z.of_N 1). rewrite !ZofN_eqb. reflexivity.
  - (* isProtectedV *)
    intros v.
    unfold is_protected, types__isProtectedV__if_V_BitLen_le_8, types__isProtectedV__ret_v_ne_27_and_v_ne_28.
    change 8 with (Z.of_N 8). rewrite bitlen_le. change (2 ^ 8)%N with 256%N.
    destruct (N.ltb_spec v 256) as [H|H]; [|reflexivity].
    rewrite uint64_small by lia. unfold go_neqb.
    change 27 with (Z.of_N 27). change 28 with (Z.of_N 28). rewrite !ZofN_eqb. reflexivity.
  - (* Transaction.Protected *)
    reflexivity.
  - (* deriveChainId: both guards; the uint64 expression [(v - 35) / 2] is
       [types__deriveChainId__arg_v_minus_35_div_2 (uint64_of v)] written out *)
    intros v.
    unfold derive_chain_id, types__deriveChainId__if_v_BitLen_le_64, types__deriveChainId__if_v_eq_27_or_v_eq_28.
    change 64 with (Z.of_N 64). rewrite bitlen_le. change (2 ^ 64)%N with 18446744073709551616%N.
    destruct (N.ltb_spec v 18446744073709551616) as [H|H]; [|reflexivity].
    rewrite uint64_small by exact H.
    change 27 with (Z.of_N 27). change 28 with (Z.of_N 28). rewrite !ZofN_eqb.
    destruct ((v =? 27)%N || (v =? 28)%N)%bool; [reflexivity|].
    f_equal. unfold go_quot, go_sub. cbn [wrap].
    set (x := (Z.of_N v - 35) mod 18446744073709551616).
    assert (Hx : 0 <= x < 18446744073709551616) by (apply Z.mod_pos_bound; lia).
    rewrite Z.quot_div_nonneg by lia.
    symmetry. apply Z.mod_small.
    pose proof (Z.div_pos x 2). pose proof (Z.div_le_upper_bound x 2 x). lia.
  - (* recoverPlain: the whole function *)
    intros oracle h r s vb.
    unfold recover_plain, types__recoverPlain__if_Vb_BitLen_gt_8,
      types__recoverPlain__if_not_crypto_ValidateSignatureValues_V_R_S_homestead.
    change 8 with (Z.of_N 8). rewrite bitlen_gt. change (2 ^ 8)%N with 256%N.
    replace (256 <=? Z.to_N (Z.abs vb))%N with (256 <=? Z.abs vb).
    2:{ rewrite <- (Z2N.id (Z.abs vb)) at 1 by apply Z.abs_nonneg. apply (ZofN_leb 256). }
    rewrite tie_set_V. reflexivity.
  - (* ChainIDSigner.Sender: the whole function (the Homestead branch is HomesteadSigner.Sender) *)
    intros oracle H c t.
    unfold sender, types__ChainIDSigner_Sender__if_not_tx_Protected,
      types__ChainIDSigner_Sender__if_tx_ChainId__Cmp_s_chainId_ne_0.
    rewrite ncmp_ne. reflexivity.
  - (* ChainIDSigner.SignatureValues: the chain-id-zero switch *)
    intros c recid.
    unfold signature_v, types__ChainIDSigner_SignatureValues__if_s_chainId_Sign_ne_0.
    rewrite ncmp_ne. destruct (c =? 0)%N; reflexivity.
  - (* SignTx: the same switch *)
    intros c t.
    unfold signtx_preimage, types__SignTx__if_id_ne_nil_and_id_Sign_eq_0. rewrite ncmp_eq. reflexivity.
  - (* ChainIDSigner.Equal *)
    intros ok c c'.
    unfold types__ChainIDSigner_Equal__ret_ok_and_signer_chainId_Cmp_s_chainId_eq_0. rewrite ncmp_eq. reflexivity.
  - (* signature length guards: decodeSignature, FrontierSigner.SignatureValues, SigToPub, Sign *)
    intros n. repeat split; [exact (ZofN_neqb n 65)|exact (ZofN_neqb n 65)|apply tie_sig_to_pub_len|exact (ZofN_neqb n 32)].
  - (* crypto.SigToPub followed by the address derivation *)
    intros oracle h sig.
    unfold sig_to_addr. cbv zeta. rewrite tie_sig_to_pub_range, tie_sig_to_pub_len. reflexivity.
  - (* what crypto.SigToPub refuses *)
    intros sig.
    unfold sig_to_pub_rejects. rewrite tie_sig_to_pub_range, tie_sig_to_pub_len. reflexivity.
  - (* SigToPub's header byte [sig[64] + 27] and Sign's inverse [sig[0] - 27] *)
    intros v Hv. unfold lib_crypto__SigToPub__assign, lib_crypto__Sign__set_v, go_add, go_sub. cbn [wrap].
    split; [reflexivity|].
    rewrite Zminus_mod_idemp_l. replace (v + 27 - 27) with v by lia. apply Z.mod_small. exact Hv.
  - (* recoverPlain's format test: an uncompressed key (65 bytes, first byte 4) passes, nothing else does *)
    reflexivity.
  - (* types.VerifySignature: the whole function *)
    intros oracle addr h sig.
    unfold verify_signature, types__VerifySignature__if_signPubKey_eq_nil_or_err_ne_nil.
    destruct (sig_to_addr oracle h sig); reflexivity.
  - (* Vote.Verify: the whole function *)
    intros oracle H chain addr vaddr v sig.
    unfold vote_verify, types__Vote_Verify__if_not_vote_ValidatorAddress_Equal_address,
      types__Vote_Verify__if_not_VerifySignature_address_crypto_Keccak256_signBytes_vote_Signature.
    destruct (negb (vaddr =? addr)%N); [reflexivity|].
    destruct (vote_sign_bytes chain v) as [b|]; [|reflexivity].
    destruct (verify_signature oracle addr (H b) sig); reflexivity.
  - (* PartSetHeader.IsZero *)
    intros b.
    unfold psh_is_zero, types__PartSetHeader_IsZero__ret_psh_Total_eq_0_and_psh_Hash_IsZero.
    change 0 with (Z.of_N 0). rewrite ZofN_eqb. reflexivity.
  - (* BlockID.IsZero *)
    intros b.
    unfold bid_is_zero, psh_is_zero, types__BlockID_IsZero__ret_blockID_Hash_IsZero_and_blockID_PartsHeader_IsZero.
    rewrite andb_assoc. reflexivity.
  - (* BlockID.IsComplete *)
    reflexivity.
  - (* CanonicalizeBlockID's nil test *)
    reflexivity.
  - (* Vote.ValidateBasic: the whole function *)
    intros v n.
    unfold vote_validate_basic, types__Vote_ValidateBasic__if_not_IsVoteTypeValid_vote_Type,
      types__Vote_ValidateBasic__if_not_vote_BlockID_IsZero_and_not_vote_BlockID_IsComplete,
      types__Vote_ValidateBasic__if_len_vote_Signature_eq_0.
    change 0 with (Z.of_N 0). rewrite ZofN_eqb. reflexivity.
  - (* IsVoteTypeValid *)
    reflexivity.
  - (* Proposal.ValidateBasic: the whole function *)
    intros p n.
    unfold proposal_validate_basic, types__Proposal_ValidateBasic__if_not_p_POLBlockID_IsComplete,
      types__Proposal_ValidateBasic__if_p_POLBlockID_PartsHeader_Total_gt_MaxBlockPartsCount,
      types__Proposal_ValidateBasic__if_len_p_Signature_eq_0.
    change 1601 with (Z.of_N max_block_parts_count). rewrite ZofN_gtb.
    change 0 with (Z.of_N 0). rewrite ZofN_eqb. reflexivity.
  - (* configs.isForked (the fork test of MakeSigner) *)
    intros fork head.
    unfold is_forked, configs__isForked__if_s_eq_nil_or_head_eq_nil, configs__isForked__ret_mul_s_le_mul_head.
    destruct fork as [s|], head as [h|]; try reflexivity. cbn [orb]. rewrite ZofN_leb. reflexivity.
  - (* MakeSigner *)
    reflexivity.
  - (* LatestSigner *)
    intros [c|] [f|]; reflexivity.
  - (* LatestSignerForChainID *)
    intros [c|]; reflexivity.
  - (* NewChainIDSigner: a nil chain id is chain id 0 *)
    intros [c|]; reflexivity.
  - (* the [uint64] operand of the 27/28 tests is [V.Uint64()] (what [uint64_of] reads) *)
    split; reflexivity.
Qed.
