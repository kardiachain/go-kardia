(** C05 — when a recovery cannot sign anything conflicting, and when it must (lemmas, unbounded).

    A block re-created after a restart is built from an empty pool: it equals a block proposed
    before the crash iff that one carried no transactions (and the application state is the
    regular one).  [no_conflict_general] holds for EVERY image - any database state, any WAL, any
    rotation, any tail. *)
From Coq Require Import List Arith Bool Lia.
From Kardia Require Import C05.Model C05.ProofsRecover C05.ProofsSearch C05.ProofsRotate.
Import ListNotations.

(** * what a search returns is in the log *)
Lemma after_end_incl : forall h l r, In r (after_end h l) -> In r l.
Proof.
  induction l as [|x t IH]; intros r H; [destruct H|].
  cbn [after_end] in H. destruct (is_end h x); [right; exact H|right; apply IH; exact H].
Qed.

Lemma scan_inl_incl : forall h f last rest, scan_file h last f = inl rest -> forall r, In r rest -> In r f.
Proof.
  intros h f last rest H r Hr. rewrite scan_file_eq in H.
  destruct (has_end h f); [injection H as <-; exact (after_end_incl _ _ _ Hr)|discriminate].
Qed.

Lemma search_rev_incl : forall h rfs last newer recs, search_rev h last rfs newer = Some recs ->
  forall r, In r recs -> In r (concat (rev rfs)) \/ In r newer.
Proof.
  induction rfs as [|f older IH]; intros last newer recs H r Hr; [discriminate|].
  cbn [search_rev] in H. cbn [rev]. rewrite concat_app. cbn [concat]. rewrite app_nil_r.
  destruct (scan_file h last f) as [rest|last'] eqn:E.
  - injection H as <-. apply in_app_or in Hr. destruct Hr as [Hr|Hr]; [|right; exact Hr].
    left. apply in_or_app. right. eapply scan_inl_incl; eassumption.
  - destruct (shortcut last' h); [discriminate|].
    destruct (IH _ _ _ H r Hr) as [Hi|Hi]; [left; apply in_or_app; left; exact Hi|].
    apply in_app_or in Hi. destruct Hi as [Hi|Hi]; [left; apply in_or_app; right; exact Hi|right; exact Hi].
Qed.

Lemma search_incl : forall h fs recs, search h fs = Some recs -> forall r, In r recs -> In r (concat fs).
Proof.
  intros h fs recs H r Hr. unfold search in H.
  destruct (search_rev_incl _ _ _ _ _ H r Hr) as [Hi|[]]. rewrite rev_involutive in Hi. exact Hi.
Qed.

(** the records catchupReplay reads are records of the durable WAL or the #ENDHEIGHT 0 of OnStart *)
Lemma flatw_incl : forall wal r, In r (flatw wal) -> In r wal \/ r = REnd 0.
Proof.
  intros wal r H. destruct (flatw_cases wal) as [E|E]; rewrite E in H.
  - left. apply filter_In in H. tauto.
  - apply in_app_or in H. destruct H as [H|[H|[]]]; [left; apply filter_In in H; tauto|right; symmetry; exact H].
Qed.

Lemma first_prop_in : forall h l t, first_prop h l = Some t -> exists x, In (RProp h x t) l.
Proof.
  induction l as [|r rest IH]; intros t H; [discriminate|].
  destruct r; cbn [first_prop] in H; try (destruct (IH _ H) as [x Hx]; exists x; right; exact Hx).
  destruct (h0 =? h) eqn:E.
  - injection H as <-. apply Nat.eqb_eq in E. subst. exists r. left. reflexivity.
  - destruct (IH _ H) as [x Hx]. exists x. right. exact Hx.
Qed.

Lemma last_prop_in : forall h l t, last_prop h l = Some t -> exists x, In (RProp h x t) l.
Proof.
  induction l as [|r rest IH]; intros t H; [discriminate|].
  rewrite last_prop_cons in H. destruct (last_prop h rest) as [t'|].
  - injection H as <-. destruct (IH _ eq_refl) as [x Hx]. exists x. right. exact Hx.
  - destruct r; try discriminate. cbn in H. destruct (h0 =? h) eqn:E; [|discriminate].
    injection H as <-. apply Nat.eqb_eq in E. subst. exists r. left. reflexivity.
Qed.

(** * the signatures of a recovery, from facts about its view *)
Definition sig_shape (s : sigobs) := (s_prop s, s_ty s, s_h s, s_r s, s_nil s).

(** Regular application state, empty pool, no transactions in what was published or logged: whatever
    the replay class, the restarted node asks for one proposal, one prevote and one precommit for a
    block in round 1, each for what it had published ([rel_of _ true] is never [RelConf]). *)
Lemma sigs_view_regular : forall sc tl im v,
  sc_appfixed sc = true -> sc_newtx sc = false -> memb (cs_height im) (i_badapps im) = false ->
  wv_pubtx v = false -> match wv_logged v with Some t => t = false | None => True end ->
  exists p v1 v2 : bool,
    r_sigs (recover_view sc tl im v) =
    [mk_sig true 0 (S (cs_height im)) 1 false (rel_of p true);
     mk_sig false 1 (S (cs_height im)) 1 false (rel_of v1 true);
     mk_sig false 2 (S (cs_height im)) 1 false (rel_of v2 true)].
Proof.
  intros sc tl im v Hsc Hnew Hbad Hpub Hlog. unfold recover_view, cs_height in *.
  destruct (heights_of im) as [[hh hc] ld]. cbn [fst snd] in *.
  rewrite Hsc, Hnew, Hbad, Hpub. cbn [orb andb negb].
  destruct (if wv_fstart v then _ else _).
  1-3: exists (wv_pubp v), (wv_pubv1 v), (wv_pubv2 v); reflexivity.
  (* the replay: the logged proposal, if any, is re-signed as it was *)
  destruct (wv_logged v) as [t|]; [subst t|].
  2: exists (wv_pubp v), (wv_pubv1 v), (wv_pubv2 v); reflexivity.
  destruct (wv_lpart v).
  - exists (wv_pubp v), (wv_pubv1 v), (wv_pubv2 v). reflexivity.
  - exists (wv_pubp v), false, false. reflexivity.
Qed.

Lemma conflict_view : forall sc tl im v,
  wv_fstart v = true -> wv_pubp v = true -> wv_pubtx v = true ->
  no_conflict (recover_view sc tl im v) = false.
Proof.
  intros sc tl im v H1 H2 H3. destruct (heights_of im) as [[hh hc] ld] eqn:E.
  destruct (sigs_end_present sc tl im v _ _ _ E H1) as [_ Es].
  unfold no_conflict. rewrite Es, H2, H3. reflexivity.
Qed.

(** no proposal of the start height in the durable WAL carries transactions: neither does the last
    published one nor the first one the replay reads *)
Lemma regular_view : forall start hc wal, (forall x t, In (RProp start x t) wal -> t = false) ->
  wv_pubtx (view_of start hc wal) = false /\
  match wv_logged (view_of start hc wal) with Some t => t = false | None => True end.
Proof.
  intros start hc wal Hp. unfold view_of. cbn [wv_pubtx wv_logged]. split.
  - destruct (last_prop start wal) as [t|] eqn:E; [|reflexivity].
    destruct (last_prop_in _ _ _ E) as [x Hx]. exact (Hp _ _ Hx).
  - destruct (search start (wal_onstart (split_files wal))) as [r0|]; cbv beta iota; [exact I|].
    destruct (search hc (wal_onstart (split_files wal))) as [recs|] eqn:Es; cbv beta iota; [|exact I].
    destruct (first_prop start recs) as [t|] eqn:E; [|exact I].
    destruct (first_prop_in _ _ _ E) as [x Hx].
    assert (Hin : In (RProp start x t) (flatw wal)) by exact (search_incl _ _ _ Es _ Hx).
    destruct (flatw_incl _ _ Hin) as [Hw|Hw]; [exact (Hp _ _ Hw)|discriminate].
Qed.

(** NewBlockChain fails, or the restarted node signs as in [sigs_view_regular] *)
Lemma sigs_general : forall sc tl im,
  sc_appfixed sc = true -> sc_newtx sc = false -> memb (cs_height im) (i_badapps im) = false ->
  (forall x t, In (RProp (S (cs_height im)) x t) (i_wal im) -> t = false) ->
  recover sc tl im = fail_obs \/
  exists p v1 v2 : bool,
    r_sigs (recover sc tl im) =
    [mk_sig true 0 (S (cs_height im)) 1 false (rel_of p true);
     mk_sig false 1 (S (cs_height im)) 1 false (rel_of v1 true);
     mk_sig false 2 (S (cs_height im)) 1 false (rel_of v2 true)].
Proof.
  intros sc tl im Hsc Hnew Hbad Hp. unfold recover. fold (cs_height im).
  destruct (i_canon0 im && _); [left; reflexivity|right].
  destruct (regular_view (S (cs_height im)) (cs_height im) (i_wal im) Hp) as [Hpub Hlog].
  apply sigs_view_regular; assumption.
Qed.

Lemma no_conflict_general : forall sc tl im,
  sc_appfixed sc = true -> sc_newtx sc = false -> memb (cs_height im) (i_badapps im) = false ->
  (forall x t, In (RProp (S (cs_height im)) x t) (i_wal im) -> t = false) ->
  no_conflict (recover sc tl im) = true.
Proof.
  intros sc tl im Hsc Hnew Hbad Hp.
  destruct (sigs_general sc tl im Hsc Hnew Hbad Hp) as [E|(p & v1 & v2 & E)]; unfold no_conflict; rewrite E.
  - reflexivity.
  - destruct p, v1, v2; reflexivity.
Qed.

(** "continues like a twin", as far as the model can say it: under the same hypotheses a restarted
    node asks for one proposal, one prevote and one precommit, non-nil, in round 1 of its start height *)
Lemma twin_general : forall sc tl im,
  sc_appfixed sc = true -> sc_newtx sc = false -> memb (cs_height im) (i_badapps im) = false ->
  (forall x t, In (RProp (S (cs_height im)) x t) (i_wal im) -> t = false) ->
  r_ok (recover sc tl im) = true ->
  map sig_shape (r_sigs (recover sc tl im)) =
  [(true, 0, S (cs_height im), 1, false); (false, 1, S (cs_height im), 1, false); (false, 2, S (cs_height im), 1, false)].
Proof.
  intros sc tl im Hsc Hnew Hbad Hp Hok.
  destruct (sigs_general sc tl im Hsc Hnew Hbad Hp) as [E|(p & v1 & v2 & E)]; rewrite E in *.
  - discriminate.
  - reflexivity.
Qed.

(** flush-every-block mode, the block of the crash height carries no transactions: no crash point
    before the head batch, after any number of heights, makes the restarted node sign anything
    conflicting *)
Lemma no_conflict_empty_blocks : forall txs sc tl n i, i <= 9 -> txs (S n) = false -> sc_appfixed sc = true -> sc_newtx sc = false ->
  no_conflict (recover sc tl (crash_img txs true n i)) = true.
Proof.
  intros txs sc tl n i Hi Htx Hsc Hnew. destruct (crash_img_regular txs n i Hi) as (Hc & Hbad & Hp).
  apply no_conflict_general; [exact Hsc|exact Hnew|exact Hbad|].
  rewrite Hc. intros x t H. rewrite (Hp x t H). exact Htx.
Qed.

(** ... and with any block: no crash point before the own proposal is durable *)
Lemma no_conflict_before_proposal : forall txs sc tl n i, i <= 1 -> sc_appfixed sc = true -> sc_newtx sc = false ->
  no_conflict (recover sc tl (crash_img txs true n i)) = true.
Proof.
  intros txs sc tl n i Hi Hsc Hnew. destruct (crash_img_regular txs n i ltac:(lia)) as (Hc & Hbad & _).
  apply no_conflict_general; [exact Hsc|exact Hnew|exact Hbad|].
  rewrite Hc. intros x t H. destruct (crash_img_no_prop _ _ _ _ _ _ Hi H).
Qed.

Lemma twin_signatures : forall txs sc tl n i, i <= 9 -> txs (S n) = false -> sc_appfixed sc = true -> sc_newtx sc = false ->
  map sig_shape (r_sigs (recover sc tl (crash_img txs true n i))) =
  [(true, 0, S n, 1, false); (false, 1, S n, 1, false); (false, 2, S n, 1, false)].
Proof.
  intros txs sc tl n i Hi Htx Hsc Hnew. destruct (crash_img_regular txs n i Hi) as (Hc & Hbad & Hp).
  pose proof (twin_general sc tl (crash_img txs true n i) Hsc Hnew Hbad) as H.
  rewrite Hc in H. apply H.
  - intros x t Hx. rewrite (Hp x t Hx). exact Htx.
  - destruct (archive_before_head txs sc tl n i Hi) as [Hst _]. apply andb_prop in Hst. tauto.
Qed.

(** * the crash points after #ENDHEIGHT: every height, as soon as the block carries transactions *)
Lemma wal_upto_nonempty : forall txs n, wal_upto txs n <> [].
Proof.
  intros txs n. destruct n; [discriminate|]. cbn [wal_upto]. intro H. apply app_eq_nil in H. destruct H as [_ H]. discriminate.
Qed.

(** what the log of [S n] finished heights holds of its last height *)
Lemma wal_upto_last : forall txs n,
  has_end (S n) (wal_upto txs (S n)) = true /\ existsb (is_prop (S n)) (wal_upto txs (S n)) = true /\
  last_prop (S n) (wal_upto txs (S n)) = Some (txs (S n)).
Proof.
  intros txs n. cbn [wal_upto]. rewrite has_end_app, existsb_app, last_prop_app.
  unfold wal_height, has_end, last_prop. cbn. rewrite Nat.eqb_refl, !orb_true_r. auto.
Qed.

Lemma conflict_after_endheight : forall txs sc tl n i, 7 <= i <= 9 -> txs (S n) = true ->
  no_conflict (recover sc tl (crash_img txs true n i)) = false.
Proof.
  intros txs sc tl n i Hi Htx. unfold recover. fold (cs_height (crash_img txs true n i)).
  rewrite cs_height_archive by lia.
  destruct (crash_img_before_head txs n i ltac:(lia)) as (-> & _). rewrite andb_false_r.
  rewrite (crash_img_wal_after_end txs n i Hi).
  destruct (wal_upto_last txs n) as (Hend & Hprop & Hlast).
  apply conflict_view; unfold view_of; cbn [wv_fstart wv_pubp wv_pubtx].
  - rewrite (files_unrotated _ (notrot_wal_upto txs (S n)) (wal_upto_nonempty txs (S n))), search_single.
    unfold flat_search. rewrite Hend. reflexivity.
  - exact Hprop.
  - rewrite Hlast. exact Htx.
Qed.

(** a pool that holds a new transaction after the restart: the re-created block differs from
    every original one, so a recovery that finds #ENDHEIGHT and a published proposal conflicts
    whatever that proposal carried *)
Lemma conflict_view_newtx : forall sc tl im v,
  sc_newtx sc = true -> wv_fstart v = true -> wv_pubp v = true ->
  no_conflict (recover_view sc tl im v) = false.
Proof.
  intros sc tl im v Hn H1 H2. destruct (heights_of im) as [[hh hc] ld] eqn:E.
  destruct (sigs_end_present sc tl im v _ _ _ E H1) as [_ Es].
  unfold no_conflict. rewrite Es, H2, Hn, andb_false_r. reflexivity.
Qed.
