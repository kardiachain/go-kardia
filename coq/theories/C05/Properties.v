(** C05 — crash recovery: property theorems only, each followed by [Print Assumptions].  The proofs
    are in ProofsWal.v (WAL discipline, replay), ProofsRecover.v (consistency at the crash points,
    computed witnesses, second crash), ProofsSearch.v and ProofsRotate.v (WAL rotation),
    ProofsNoConflict.v (signatures), SourceTie.v and SourceManifest.v; [C05_example_replay] is
    evaluated here.

    PARTIAL: file-system semantics (torn writes inside a batch, directory fsync) are not
    modelled; a durable write is atomic.  Single validator.

    Vocabulary.
    - [trace_of inputs]: the WAL writes / fsyncs / "message is handled" events the receive routine
      issues for a list of inputs (own messages: Write, fsync, handle; others: Write, handle);
      [firstn n] of it is a crash after [n] events; [logical] what was written, [durable] what an
      fsync covered, [own_acted] the own messages handled (published).
    - [crash_img txs archive n i]: the durable image after [n] heights were decided, saved,
      applied and recorded and the first [i] durable writes of height [n+1] were made, for the
      pipeline the harness observes (wal-sync, own proposal, own part, own prevote, own precommit,
      block batch, #ENDHEIGHT, app-hash batch, [trie flush — flush-every-block mode only], head
      batch, consensus-state batch); [txs h]: the block of height [h] carries transactions.
    - the durable WAL of an image is a record list with [RRot] marks where the head was rotated
      (autofile.Group.RotateFile); [split_files] cuts it into the files of the group, [wal_onstart]
      is BaseWAL.OnStart (an empty head gets #ENDHEIGHT 0), [search h files] is
      BaseWAL.SearchForEndHeight (newest file first, lastHeightFound kept across files, the
      "0 < lastHeightFound < height" shortcut), [flat_search] the search of a log that was never
      rotated; [sorted_markers l]: the non-zero #ENDHEIGHT markers of [l] increase (no height was
      run twice); [norm] erases the rotation marks and the #ENDHEIGHT 0 markers.
    - [recover sc tl im]: what NewBlockChain's repair, Store.Load / genesis fallback,
      NewConsensusState and catchupReplay do on the image, and the signature requests up to the
      next commit; [stores_agree]: head height = consensus-state height; [no_conflict]: no
      signature request conflicts with a published message of the same (height, round, type).
      [sc : scen] says whether a genesis state reloaded at height 0 is the regular one
      ([sc_appfixed]) and whether the pool holds a new transaction after the restart ([sc_newtx]);
      [sc_fixed] is (true, false) (ProofsRecover.v).  [tl : tail] is the state of the WAL's last
      record at the crash; only [TTorn] is distinguished by [recover_view].
    - [cs_height im] (ProofsRotate.v): the consensus-state height [heights_of] finds on the image,
      i.e. [r_hc] of its recovery; [set_wal im w] (ProofsRotate.v): [im] with the WAL [w];
      [notrot] (ProofsSearch.v): the record is not a rotation mark; [search_ge0] (ProofsRotate.v):
      [search] with the shortcut taken on lastHeightFound >= 0; [sig_shape s] (ProofsNoConflict.v):
      (is a proposal, vote type, height, round, nil) of a signature request, its relation to what
      was published left out; [tx_all] / [tx_none] (ProofsRecover.v): every / no block carries
      transactions. *)
From Coq Require Import List Arith Bool.
From Kardia Require Import C05.Model C05.ProofsWal C05.ProofsRecover C05.ProofsSearch C05.ProofsRotate C05.ProofsNoConflict.
Import ListNotations.

(** the durable WAL is a prefix of the logical log at every crash point ... *)
Theorem C05_wal_prefix :
  forall inputs n, exists rest,
    logical (firstn n (trace_of inputs)) = durable (firstn n (trace_of inputs)) ++ rest.
Proof. intros. apply durable_prefix. Qed.
Print Assumptions C05_wal_prefix.

(** ... and contains every own message that was acted upon before the crash *)
Theorem C05_wal_own_messages_durable :
  forall inputs n m,
    In m (own_acted (firstn n (trace_of inputs))) -> In m (durable (firstn n (trace_of inputs))).
Proof. exact acted_durable. Qed.
Print Assumptions C05_wal_own_messages_durable.

(** replaying a durable prefix reproduces the state and the decisions the live node had made
    after that prefix, for any deterministic step function *)
Theorem C05_replay_deterministic :
  forall (S I O : Type) (step : S -> I -> S * list O) (log rest : list I) (s0 : S),
    let (s_live, o_live) := run S I O step s0 (log ++ rest) in
    let (s_rep, o_rep) := run S I O step s0 log in
    let (s_cont, o_cont) := run S I O step s_rep rest in
    s_live = s_cont /\ o_live = o_rep ++ o_cont.
Proof. exact replay_reproduces. Qed.
Print Assumptions C05_replay_deterministic.

(** flush-every-block mode, every crash point before the head batch (wal-sync, proposal, part,
    prevote, precommit, block batch, #ENDHEIGHT, app-hash batch, trie flush), any number of
    finished heights: head, application state and consensus state agree on height n, nothing
    is lost, the node resumes at height n+1 *)
Theorem C05_consistent_before_head :
  forall txs sc tl n i, i <= 9 ->
    let o := recover sc tl (crash_img txs true n i) in
    stores_agree o = true /\ r_hh o = n /\ r_start o = S n /\ r_fellback o = false.
Proof. exact archive_before_head. Qed.
Print Assumptions C05_consistent_before_head.

Theorem C05_consistent_pipeline_complete :
  forall txs sc tl n,
    let o := recover sc tl (crash_img txs true n 11) in
    stores_agree o = true /\ r_hh o = S n /\ r_start o = S (S n) /\ r_fellback o = false.
Proof. exact archive_complete. Qed.
Print Assumptions C05_consistent_pipeline_complete.

(** crash after the head batch and before the consensus-state batch, any n: the stores do NOT
    agree — genesis fallback, consensus restarts at height 1 under a head at n+1 *)
Theorem C05_consistent_after_head_refuted :
  forall txs sc tl n,
    let o := recover sc tl (crash_img txs true n 10) in
    stores_agree o = false /\ r_hh o = S n /\ r_start o = 1 /\ r_fellback o = true.
Proof. exact archive_after_head. Qed.
Print Assumptions C05_consistent_after_head_refuted.

(** keep-recent mode, every crash point, any n: the head is rewound to genesis and consensus
    restarts at height 1 (the stores agree on the EMPTY prefix: every block is dropped) *)
Theorem C05_consistent_keep_recent :
  forall txs sc tl n i,
    let o := recover sc tl (crash_img txs false n i) in
    stores_agree o = true /\ r_hh o = 0 /\ r_start o = 1.
Proof. exact keeprecent_any. Qed.
Print Assumptions C05_consistent_keep_recent.

(** NO CONFLICT, every image (any database state, any WAL, rotated anywhere, any tail): when the
    application state is the regular one, the pool is empty after the restart and no proposal of the restart height in the durable WAL
    carries transactions (so the block re-created from the empty pool equals it), the restarted
    node signs nothing that conflicts with what it had published *)
Theorem C05_no_conflict_general :
  forall sc tl im,
    sc_appfixed sc = true -> sc_newtx sc = false -> memb (cs_height im) (i_badapps im) = false ->
    (forall x t, In (RProp (S (cs_height im)) x t) (i_wal im) -> t = false) ->
    no_conflict (recover sc tl im) = true.
Proof. exact no_conflict_general. Qed.
Print Assumptions C05_no_conflict_general.

(** flush-every-block mode, ANY number of finished heights, every crash point before the head batch,
    every tail: no conflicting signature when the block of the crash height carries no transactions *)
Theorem C05_no_conflict_empty_blocks :
  forall txs sc tl n i, i <= 9 -> txs (S n) = false -> sc_appfixed sc = true -> sc_newtx sc = false ->
    no_conflict (recover sc tl (crash_img txs true n i)) = true.
Proof. exact no_conflict_empty_blocks. Qed.
Print Assumptions C05_no_conflict_empty_blocks.

(** ... and whatever the blocks carry: no conflicting signature before the own proposal is durable *)
Theorem C05_no_conflict_before_proposal :
  forall txs sc tl n i, i <= 1 -> sc_appfixed sc = true -> sc_newtx sc = false ->
    no_conflict (recover sc tl (crash_img txs true n i)) = true.
Proof. exact no_conflict_before_proposal. Qed.
Print Assumptions C05_no_conflict_before_proposal.

(** "continues like a twin that never crashed", as far as the model can say it: under the
    hypotheses of [C05_no_conflict_empty_blocks] the restarted node asks for exactly one proposal,
    one prevote and one precommit, non-nil, in round 1 of height n+1 *)
Theorem C05_twin_signatures :
  forall txs sc tl n i, i <= 9 -> txs (S n) = false -> sc_appfixed sc = true -> sc_newtx sc = false ->
    map sig_shape (r_sigs (recover sc tl (crash_img txs true n i))) =
    [(true, 0, S n, 1, false); (false, 1, S n, 1, false); (false, 2, S n, 1, false)].
Proof. exact twin_signatures. Qed.
Print Assumptions C05_twin_signatures.

(** REFUTED at every height: the three crash points after the #ENDHEIGHT fsync and before the head
    batch conflict as soon as the block of that height carries transactions (no block-replay
    handshake: the height is run again from an empty pool) *)
Theorem C05_no_conflict_after_endheight_every_height_refuted :
  forall txs sc tl n i, 7 <= i <= 9 -> txs (S n) = true ->
    no_conflict (recover sc tl (crash_img txs true n i)) = false.
Proof. exact conflict_after_endheight. Qed.
Print Assumptions C05_no_conflict_after_endheight_every_height_refuted.

(** witness: crash index 7 of height 3 (after the #ENDHEIGHT fsync): no replay, the height is run
    again, the new block conflicts with the published one and replaces the stored one *)
Theorem C05_no_conflict_after_endheight_refuted :
  let o := recover sc_fixed TSynced (crash_img tx_all true 2 7) in
  r_replay o = RcEndPresent /\ r_start o = 3 /\ no_conflict o = false /\ r_repl_meta o = true /\ stores_agree o = true.
Proof. exact witness_endheight. Qed.
Print Assumptions C05_no_conflict_after_endheight_refuted.

Theorem C05_no_conflict_after_apphash_and_trie_refuted :
  no_conflict (recover sc_fixed TSynced (crash_img tx_all true 2 8)) = false /\
  no_conflict (recover sc_fixed TSynced (crash_img tx_all true 2 9)) = false.
Proof. exact witness_endheight_8_9. Qed.
Print Assumptions C05_no_conflict_after_apphash_and_trie_refuted.

(** witness: crash index 10 of height 3 (after the head batch): genesis fallback and conflicts *)
Theorem C05_no_conflict_after_head_refuted :
  let o := recover sc_fixed TSynced (crash_img tx_all true 2 10) in
  r_fellback o = true /\ r_start o = 1 /\ r_hh o = 3 /\ r_replay o = RcEndPresent /\ no_conflict o = false.
Proof. exact witness_fallback. Qed.
Print Assumptions C05_no_conflict_after_head_refuted.

(** witness: keep-recent mode, crash index 0 of height 2: head rewound, height 1 decided again *)
Theorem C05_no_conflict_keep_recent_refuted :
  let o := recover sc_fixed TSynced (crash_img tx_all false 1 0) in
  r_hh o = 0 /\ r_start o = 1 /\ r_replay o = RcEndPresent /\ no_conflict o = false /\ r_repl_meta o = true.
Proof. exact witness_rewound. Qed.
Print Assumptions C05_no_conflict_keep_recent_refuted.

(** witness: crash index 2 of height 3 (own proposal durable): the replay signs a second,
    different proposal for the same height and round *)
Theorem C05_no_conflict_replayed_proposal_refuted :
  let o := recover sc_fixed TSynced (crash_img tx_all true 2 2) in
  r_replay o = RcReplayed /\ no_conflict o = false /\
  match r_sigs o with s :: _ => s_prop s = true /\ s_rel s = RelConf | [] => False end.
Proof. exact witness_resign. Qed.
Print Assumptions C05_no_conflict_replayed_proposal_refuted.

(** recovery is idempotent on the durable image: the head-pointer rewrite a recovery makes does
    not change what the next recovery does *)
Theorem C05_second_crash :
  forall sc tl im h, i_head im = Some h ->
    recover sc tl (apply_db WHeadPtr im) = recover sc tl im.
Proof. exact second_crash_headptr. Qed.
Print Assumptions C05_second_crash.

(** WAL ROTATION.  On a log whose markers increase, the search for a height >= 1 over the files
    of the group - wherever the head was rotated, however many #ENDHEIGHT 0 markers OnStart added -
    finds exactly what the search of the unrotated log finds, and reads on through all younger files *)
Theorem C05_search_rotation_invariant :
  forall h files, 1 <= h -> sorted_markers (concat files) ->
    search h files = flat_search h (concat files).
Proof. exact search_sorted. Qed.
Print Assumptions C05_search_rotation_invariant.

Theorem C05_search_unrotated : forall h f, search h [f] = flat_search h f.
Proof. exact search_single. Qed.
Print Assumptions C05_search_unrotated.

(** a restart at a height >= 2: two durable logs with the same records (rotated at other places
    or not at all, other #ENDHEIGHT 0 markers) give the same recovery - same replay class, same
    signature requests, same conflicts *)
Theorem C05_recover_rotation_invariant :
  forall sc tl im w,
    1 <= cs_height im ->
    sorted_markers (filter notrot (i_wal im)) -> sorted_markers (filter notrot w) ->
    norm w = norm (i_wal im) ->
    recover sc tl (set_wal im w) = recover sc tl im.
Proof. exact recover_rotation_invariant. Qed.
Print Assumptions C05_recover_rotation_invariant.

(** in particular on the flush-mode crash images before the head batch after n >= 1 heights: the
    recovery is the same for every WAL [w] with increasing markers and the same normal form, so the
    theorems above about [crash_img txs true n i], i <= 9, hold for every such rotation of its WAL *)
Theorem C05_pipeline_rotation_invariant :
  forall txs sc tl n i w, 1 <= n -> i <= 9 ->
    sorted_markers (filter notrot w) -> norm w = norm (i_wal (crash_img txs true n i)) ->
    recover sc tl (set_wal (crash_img txs true n i) w) = recover sc tl (crash_img txs true n i).
Proof. exact crash_img_rotation_invariant. Qed.
Print Assumptions C05_pipeline_rotation_invariant.

(** why the shortcut must test [lastHeightFound > 0]: after a rotation and a crash the head holds
    only OnStart's #ENDHEIGHT 0; the search finds every marker >= 1 of the rotated file behind it,
    the variant with [lastHeightFound >= 0] ([search_ge0]) finds none *)
Theorem C05_search_behind_fresh_head :
  forall f h, 1 <= h -> has_end h f = true ->
    search h [f; [REnd 0]] = Some (after_end h f ++ [REnd 0]) /\
    (forall older, search_ge0 h (older ++ [[REnd 0]]) = None).
Proof. intros f h Hh Hf. split; [exact (search_finds_behind_fresh_head f h Hh Hf)|intro older; exact (search_ge0_misses older h Hh)]. Qed.
Print Assumptions C05_search_behind_fresh_head.

(** REFUTED for the initial height: own proposal of height 1 durable, head rotated away, crash:
    OnStart's fresh #ENDHEIGHT 0 is found first, nothing of height 1 is replayed (the unrotated
    image replays the proposal), the node signs a second, different proposal for height 1 round 1 *)
Theorem C05_rotation_initial_height_refuted :
  let im := crash_img tx_all true 0 2 in
  let o' := recover sc_fixed TSynced (set_wal im (i_wal im ++ [RRot])) in
  wv_logged (view_of 1 0 (i_wal im)) = Some true /\
  wv_logged (view_of 1 0 (i_wal im ++ [RRot])) = None /\
  r_replay o' = RcReplayed /\ no_conflict o' = false /\
  match r_sigs o' with s :: _ => s_prop s = true /\ s_rel s = RelConf | [] => False end.
Proof. exact witness_rotation_initial_height. Qed.
Print Assumptions C05_rotation_initial_height_refuted.

(** the closed-form image [img_after] and the fold of the pipelines of heights 1..n over
    [img_after _ _ 0] agree on the head pointer *)
Theorem C05_image_head_of_chain_log :
  forall txs archive n,
    i_head (fold_left (fun im e => apply_entry e im)
              (flat_map (fun h => pipeline txs archive h) (seq 1 n)) (img_after txs archive 0))
    = i_head (img_after txs archive n).
Proof. exact image_head_of_chain_log. Qed.
Print Assumptions C05_image_head_of_chain_log.

(** a computed instance of the rotation theorems: a rotation right after the own prevote of
    height 3 changes nothing *)
Theorem C05_example_rotation :
  let im := crash_img tx_all true 2 4 in
  recover sc_fixed TSynced (set_wal im (i_wal im ++ [RRot])) = recover sc_fixed TSynced im.
Proof. exact witness_rotation_later_height. Qed.
Print Assumptions C05_example_rotation.

(** SOURCE TIE.  The model's decisions - the shortcut, marker test, file loop and reader of
    SearchForEndHeight, OnStart's height-0 marker, catchupReplay's two searches and its class,
    the catch-up loop of ConsensusState.OnStart, finalizeCommit's save guard and the call
    WriteSync(#ENDHEIGHT) after validation, updateToState's height, the index
    arithmetic of RotateFile / the group reader / checkHeadSizeLimit, Store.Load at the HEAD height
    and the genesis fallback, the order of ApplyBlock's writes, setHeadBeyondRoot's walk, SaveBlock's
    contiguity test - are the expressions /verif/go2coq regenerates from the Go source on every
    check, on the operands and calls named there (statement spelled out in SourceTie.v). *)
From Kardia Require Import C05.SourceTie.
Theorem C05_source_tie : C05_source_tie_statement.
Proof. exact C05_source_tie_proof. Qed.
Print Assumptions C05_source_tie.

(** the hypotheses are satisfiable / the definitions compute: a concrete healthy recovery *)
Theorem C05_example_replay :
  let o := recover sc_fixed TSynced (crash_img tx_none true 3 4) in
  stores_agree o = true /\ r_start o = 4 /\ r_replay o = RcReplayed /\ no_conflict o = true /\ length (r_sigs o) = 3.
Proof. vm_compute. repeat split; reflexivity. Qed.
Print Assumptions C05_example_replay.

(** The decision-critical functions of the anchored code have exactly the decisions the source tie knows about
    (go2coq manifests, regenerated from /repo on every check; statement in SourceManifest.v). *)
From Kardia Require Import C05.SourceManifest.
Theorem C05_source_manifest : C05_source_manifest_statement.
Proof. exact C05_source_manifest_proof. Qed.
Print Assumptions C05_source_manifest.
