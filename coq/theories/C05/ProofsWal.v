(** C05 — the write-ahead discipline of receiveRoutine and deterministic replay (lemmas). *)
From Coq Require Import List Arith Bool Lia.
Import ListNotations.

(** * the WAL as the receive routine uses it
    An input is a message (a number) that is either the node's own (internal queue: WriteSync
    before it is handled) or not (peer message / timeout: Write before it is handled).  The
    trace of one input is the list of events it causes, in program order. *)
Inductive ev := EvWrite (m : nat) | EvSync | EvAct (own : bool) (m : nat).

Definition trace_of_input (i : bool * nat) : list ev :=
  let (own, m) := i in
  if own then [EvWrite m; EvSync; EvAct true m] else [EvWrite m; EvAct false m].

Definition trace_of (inputs : list (bool * nat)) : list ev := flat_map trace_of_input inputs.

(** state of the WAL file: what was written, and how much of it an fsync covered *)
Definition wal_step (st : list nat * list nat) (e : ev) : list nat * list nat :=
  match e with
  | EvWrite m => (fst st ++ [m], snd st)
  | EvSync => (fst st, fst st)
  | EvAct _ _ => st
  end.
Definition wal_state (tr : list ev) : list nat * list nat := fold_left wal_step tr ([], []).
Definition logical (tr : list ev) : list nat := fst (wal_state tr).
Definition durable (tr : list ev) : list nat := snd (wal_state tr).

(** own messages acted upon in a trace *)
Definition own_acted (tr : list ev) : list nat :=
  flat_map (fun e => match e with EvAct true m => [m] | _ => [] end) tr.

(** the invariant of any event sequence: the durable part is a prefix of what was written *)
Definition prefixed (st : list nat * list nat) : Prop := exists r, fst st = snd st ++ r.

Lemma prefixed_step : forall st e, prefixed st -> prefixed (wal_step st e).
Proof.
  intros st e [r Hr]. destruct e; cbn [wal_step].
  - exists (r ++ [m]). cbn [fst snd]. rewrite Hr, app_assoc. reflexivity.
  - exists []. cbn [fst snd]. rewrite app_nil_r. reflexivity.
  - exists r. exact Hr.
Qed.

Lemma prefixed_run : forall tr st, prefixed st -> prefixed (fold_left wal_step tr st).
Proof.
  induction tr as [|e tr IH]; intros st H; cbn [fold_left]; [exact H|].
  apply IH, prefixed_step, H.
Qed.

Lemma durable_prefix : forall tr, exists r, logical tr = durable tr ++ r.
Proof. intros. apply (prefixed_run tr ([], [])). exists []. reflexivity. Qed.

(** whatever is durable stays durable *)
Lemma snd_mono : forall tr st m, prefixed st -> In m (snd st) -> In m (snd (fold_left wal_step tr st)).
Proof.
  induction tr as [|e tr IH]; intros st m Hp H; cbn [fold_left]; [exact H|].
  apply IH; [apply prefixed_step, Hp|].
  destruct e; cbn [wal_step fst snd]; try exact H.
  destruct Hp as [r Hr]. rewrite Hr. apply in_or_app. left. exact H.
Qed.

(** one input, cut anywhere: the fsync of an own message stands between its write and its handling *)
Lemma acted_durable_input : forall i st k m,
  In m (own_acted (firstn k (trace_of_input i))) ->
  In m (snd (fold_left wal_step (firstn k (trace_of_input i)) st)).
Proof.
  intros [[|] x] st k m H; cbn [trace_of_input] in *.
  - destruct k as [|[|[|k]]]; cbn [firstn] in *; rewrite ?firstn_nil in *; cbn in H; try contradiction.
    destruct H as [<-|[]]. cbn. apply in_or_app. right. left. reflexivity.
  - destruct k as [|[|k]]; cbn [firstn] in H; rewrite ?firstn_nil in H; cbn in H; contradiction.
Qed.

(** a list of inputs, cut anywhere: the message was acted upon within some input, and stays durable *)
Lemma acted_durable_gen : forall inputs st n m, prefixed st ->
  In m (own_acted (firstn n (trace_of inputs))) ->
  In m (snd (fold_left wal_step (firstn n (trace_of inputs)) st)).
Proof.
  induction inputs as [|i inputs IH]; intros st n m Hp H.
  - cbn in H. rewrite firstn_nil in H. destruct H.
  - unfold trace_of in *. cbn [flat_map] in *. rewrite firstn_app in *. rewrite fold_left_app.
    unfold own_acted in H. rewrite flat_map_app in H. apply in_app_or in H. destruct H as [H|H].
    + apply snd_mono; [apply prefixed_run; exact Hp|]. apply acted_durable_input. exact H.
    + apply IH; [apply prefixed_run; exact Hp|exact H].
Qed.

Lemma acted_durable : forall inputs n m,
  In m (own_acted (firstn n (trace_of inputs))) -> In m (durable (firstn n (trace_of inputs))).
Proof. intros. unfold durable, wal_state. apply acted_durable_gen; [exists []; reflexivity|exact H]. Qed.

(** * deterministic replay
    The node is a step function over the logged inputs; its signature requests are a function of
    the state and the input.  What a crash loses is the state; replaying the logged inputs from the
    same start state reproduces the state and the decisions, whatever prefix was durable. *)
Section Replay.
Variables (S I O : Type) (step : S -> I -> S * list O).

Fixpoint run (s : S) (l : list I) : S * list O :=
  match l with
  | [] => (s, [])
  | i :: t => let (s1, o1) := step s i in let (s2, o2) := run s1 t in (s2, o1 ++ o2)
  end.

Lemma run_app : forall l1 l2 s,
  run s (l1 ++ l2) = let (s1, o1) := run s l1 in let (s2, o2) := run s1 l2 in (s2, o1 ++ o2).
Proof.
  induction l1 as [|i t IH]; intros l2 s; cbn [run app].
  - destruct (run s l2). reflexivity.
  - destruct (step s i) as [s1 o1]. rewrite IH. destruct (run s1 t) as [s2 o2]. destruct (run s2 l2) as [s3 o3].
    rewrite app_assoc. reflexivity.
Qed.

(** the live run of [log ++ rest] passes through exactly the state, and has made exactly the
    decisions, that a replay of the durable [log] reconstructs *)
Lemma replay_reproduces : forall log rest s0,
  let (s_live, o_live) := run s0 (log ++ rest) in
  let (s_rep, o_rep) := run s0 log in
  let (s_cont, o_cont) := run s_rep rest in
  s_live = s_cont /\ o_live = o_rep ++ o_cont.
Proof.
  intros. rewrite run_app. destruct (run s0 log) as [s1 o1]. destruct (run s1 rest) as [s2 o2]. split; reflexivity.
Qed.
End Replay.
