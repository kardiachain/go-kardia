(** C05 — recovery does not depend on where the WAL was rotated (lemmas).

    [norm] erases the rotation marks and the #ENDHEIGHT 0 markers (BaseWAL.OnStart writes one into
    every empty head).  For a restart at a height >= 2 on a log with increasing markers, everything
    [recover] reads from the WAL is a function of the normalised log ([view_of_norm],
    [recover_rotation_invariant]).  Then: the search with the shortcut on lastHeightFound >= 0 and
    where it fails; the crash images of the pipeline have increasing markers and no rotation marks
    (also used by ProofsNoConflict.v), hence rotation invariance on them; two computed instances. *)
From Coq Require Import List Arith Bool Lia.
From Kardia Require Import C05.Model C05.ProofsRecover C05.ProofsSearch.
Import ListNotations.

Definition keep (r : rkind) : bool :=
  match r with RRot => false | REnd 0 => false | _ => true end.
Definition norm (l : list rkind) : list rkind := filter keep l.

Lemma norm_app : forall l1 l2, norm (l1 ++ l2) = norm l1 ++ norm l2.
Proof. intros. apply filter_app. Qed.

Lemma norm_notrot : forall l, norm (filter notrot l) = norm l.
Proof.
  unfold norm. induction l as [|r t IH]; [reflexivity|].
  destruct r as [h| | | | | | |]; cbn [filter notrot keep]; rewrite ?IH; reflexivity.
Qed.

Lemma norm_snoc0 : forall l, norm (l ++ [REnd 0]) = norm l.
Proof. intros. rewrite norm_app. cbn. apply app_nil_r. Qed.

Lemma existsb_norm : forall p l, p RRot = false -> p (REnd 0) = false -> existsb p (norm l) = existsb p l.
Proof.
  intros p l H1 H2. induction l as [|r t IH]; [reflexivity|].
  cbn [norm filter existsb]. fold (norm t).
  destruct r as [x| | | | | | |]; cbn [keep existsb]; rewrite ?IH, ?H1; try reflexivity.
  destruct x; cbn [existsb]; rewrite IH, ?H2; reflexivity.
Qed.

Lemma has_end_norm : forall h l, 1 <= h -> has_end h (norm l) = has_end h l.
Proof. intros h l Hh. apply existsb_norm; [reflexivity|]. destruct h; [lia|reflexivity]. Qed.

Lemma after_end_norm : forall h l, 1 <= h -> norm (after_end h l) = after_end h (norm l).
Proof.
  intros h l Hh. induction l as [|r t IH]; [reflexivity|].
  cbn [after_end norm filter]. fold (norm t).
  destruct r as [x| | | | | | |]; cbn [is_end keep after_end]; try exact IH.
  destruct x.
  - destruct h; [lia|]. cbn [Nat.eqb]. exact IH.
  - cbn [after_end is_end]. destruct (S x =? h); [reflexivity|exact IH].
Qed.

Lemma first_prop_norm : forall s l, first_prop s (norm l) = first_prop s l.
Proof.
  intros s l. induction l as [|r t IH]; [reflexivity|].
  cbn [norm filter]. fold (norm t).
  destruct r as [x| | | | | | |]; cbn [keep first_prop]; rewrite ?IH; try reflexivity.
  destruct x; cbn [first_prop]; exact IH.
Qed.

Lemma last_prop_norm : forall s l, last_prop s (norm l) = last_prop s l.
Proof.
  intros s l. induction l as [|r t IH]; [reflexivity|].
  rewrite (last_prop_cons s r t), <- IH. cbn [norm filter]. fold (norm t).
  destruct (keep r) eqn:K; [apply last_prop_cons|].
  destruct r as [[|x]| | | | | | |]; try discriminate; destruct (last_prop s (norm t)); reflexivity.
Qed.

(** * the view of the WAL as a function of the normalised log *)
Definition view_norm (start hc : nat) (nw : list rkind) : walview :=
  let fstart := has_end start nw in
  let fhc := has_end hc nw in
  let recs := if fstart then [] else if fhc then after_end hc nw else [] in
  let logged := first_prop start recs in
  let ltx := match logged with Some t => t | None => false end in
  {| wv_fstart := fstart; wv_fhc := fhc; wv_logged := logged;
     wv_lpart := existsb (is_part start ltx) recs;
     wv_lv1 := existsb (is_vote 1 start) recs; wv_lv2 := existsb (is_vote 2 start) recs;
     wv_pubp := existsb (is_prop start) nw;
     wv_pubtx := match last_prop start nw with Some t => t | None => false end;
     wv_pubv1 := existsb (is_vote 1 start) nw; wv_pubv2 := existsb (is_vote 2 start) nw |}.

Lemma sorted_snoc0 : forall l, sorted_markers l -> sorted_markers (l ++ [REnd 0]).
Proof.
  intros l H. apply sorted_app. repeat split; [exact H| |].
  - cbn. constructor; constructor.
  - intros x y _ [Hy|[]]. left. symmetry. exact Hy.
Qed.

Lemma split_files_nonempty : forall wal, split_files wal <> [].
Proof. intros wal. destruct (split_files_cons wal) as [f [fs E]]. rewrite E. discriminate. Qed.

(** the flat log catchupReplay searches: the files of the group after BaseWAL.OnStart *)
Definition flatw (wal : list rkind) : list rkind := concat (wal_onstart (split_files wal)).

Lemma flatw_cases : forall wal, flatw wal = filter notrot wal \/ flatw wal = filter notrot wal ++ [REnd 0].
Proof.
  intros wal. unfold flatw. rewrite <- concat_split_files.
  apply concat_onstart. apply split_files_nonempty.
Qed.

Lemma flatw_norm : forall wal, norm (flatw wal) = norm wal.
Proof.
  intros wal. destruct (flatw_cases wal) as [E|E]; rewrite E, ?norm_snoc0; apply norm_notrot.
Qed.

Lemma flatw_sorted : forall wal, sorted_markers (filter notrot wal) -> sorted_markers (flatw wal).
Proof.
  intros wal H. destruct (flatw_cases wal) as [E|E]; rewrite E; [exact H|apply sorted_snoc0; exact H].
Qed.

Lemma search_flatw : forall h wal, 1 <= h -> sorted_markers (filter notrot wal) ->
  search h (wal_onstart (split_files wal)) = flat_search h (flatw wal).
Proof. intros h wal Hh Hs. apply search_sorted; [exact Hh|]. apply flatw_sorted. exact Hs. Qed.

Lemma is_part_rot : forall s tx, is_part s tx RRot = false /\ is_part s tx (REnd 0) = false.
Proof. split; reflexivity. Qed.

Lemma view_of_norm : forall start hc wal, 1 <= start -> 1 <= hc -> sorted_markers (filter notrot wal) ->
  view_of start hc wal = view_norm start hc (norm wal).
Proof.
  intros start hc wal Hs Hc Hsort. unfold view_of, view_norm.
  rewrite (search_flatw start wal Hs Hsort), (search_flatw hc wal Hc Hsort). unfold flat_search.
  rewrite <- (has_end_norm start (flatw wal) Hs), <- (has_end_norm hc (flatw wal) Hc), !flatw_norm.
  rewrite !(existsb_norm _ wal) by reflexivity. rewrite last_prop_norm.
  destruct (has_end start (norm wal)) eqn:E1; [destruct (has_end hc (norm wal)); reflexivity|].
  destruct (has_end hc (norm wal)) eqn:E2; [|reflexivity].
  set (recs := after_end hc (flatw wal)).
  assert (En : norm recs = after_end hc (norm wal)).
  { unfold recs. rewrite (after_end_norm hc _ Hc), flatw_norm. reflexivity. }
  rewrite <- En. rewrite first_prop_norm. rewrite !(existsb_norm _ recs) by reflexivity. reflexivity.
Qed.

(** * recover on an image whose WAL was rotated differently *)
Definition set_wal (im : image) (w : list rkind) : image :=
  {| i_blocks := i_blocks im; i_txblocks := i_txblocks im; i_apps := i_apps im; i_tries := i_tries im;
     i_pending := i_pending im; i_head := i_head im; i_cstates := i_cstates im; i_canon0 := i_canon0 im;
     i_badapps := i_badapps im; i_wal := w |}.

Lemma heights_set_wal : forall im w, heights_of (set_wal im w) = heights_of im.
Proof.
  intros im w. unfold heights_of. cbn [set_wal i_head i_cstates].
  destruct (i_head im) as [h|]; [|reflexivity].
  rewrite (rewind_ext (set_wal im w) im h) by (intro y; reflexivity). reflexivity.
Qed.

Lemma recover_view_set_wal : forall sc tl im w v, recover_view sc tl (set_wal im w) v = recover_view sc tl im v.
Proof. intros. apply recover_view_ext; [apply heights_set_wal|reflexivity..]. Qed.

Definition cs_height (im : image) : nat := snd (fst (heights_of im)).

Lemma recover_norm : forall sc tl im, 1 <= cs_height im -> sorted_markers (filter notrot (i_wal im)) ->
  recover sc tl im =
  if i_canon0 im && match i_head im with None => true | Some _ => false end then fail_obs
  else recover_view sc tl im (view_norm (S (cs_height im)) (cs_height im) (norm (i_wal im))).
Proof.
  intros sc tl im Hc Hs. unfold recover. fold (cs_height im).
  rewrite view_of_norm by (try lia; exact Hs). reflexivity.
Qed.

(** two logs with the same normal form (the same records, rotated at other places or not at all,
    with other #ENDHEIGHT 0 markers of OnStart): the same recovery *)
Lemma recover_rotation_invariant : forall sc tl im w,
  1 <= cs_height im ->
  sorted_markers (filter notrot (i_wal im)) -> sorted_markers (filter notrot w) ->
  norm w = norm (i_wal im) ->
  recover sc tl (set_wal im w) = recover sc tl im.
Proof.
  intros sc tl im w Hc Hs1 Hs2 Hn.
  assert (Hc' : cs_height (set_wal im w) = cs_height im) by (unfold cs_height; rewrite heights_set_wal; reflexivity).
  rewrite (recover_norm sc tl im Hc Hs1).
  rewrite (recover_norm sc tl (set_wal im w)) by (rewrite ?Hc'; assumption).
  rewrite Hc'. cbn [set_wal i_canon0 i_head i_wal]. rewrite Hn, recover_view_set_wal. reflexivity.
Qed.

(** * a variant: the shortcut taken on [lastHeightFound >= 0]
    [search_ge0] is [search] with the comparison of the shortcut changed; one rotation followed by
    a crash (the head holds only OnStart's #ENDHEIGHT 0) makes it miss every marker >= 1. *)
Definition shortcut_ge0 (last : option nat) (h : nat) : bool :=
  match last with Some l => l <? h | None => false end.

Fixpoint search_rev_ge0 (h : nat) (last : option nat) (rfiles : list (list rkind)) (newer : list rkind) : option (list rkind) :=
  match rfiles with
  | [] => None
  | f :: older =>
    match scan_file h last f with
    | inl rest => Some (rest ++ newer)
    | inr last' => if shortcut_ge0 last' h then None else search_rev_ge0 h last' older (f ++ newer)
    end
  end.
Definition search_ge0 (h : nat) (files : list (list rkind)) : option (list rkind) :=
  search_rev_ge0 h None (rev files) [].

Lemma search_ge0_misses : forall older h, 1 <= h ->
  search_ge0 h (older ++ [[REnd 0]]) = None.
Proof.
  intros older h Hh. unfold search_ge0. rewrite rev_app_distr. cbn [rev app search_rev_ge0 scan_file].
  destruct h; [lia|]. reflexivity.
Qed.

Lemma search_finds_behind_fresh_head : forall f h, 1 <= h -> has_end h f = true ->
  search h [f; [REnd 0]] = Some (after_end h f ++ [REnd 0]).
Proof.
  intros f h Hh Hf. unfold search. cbn [rev app search_rev scan_file].
  destruct h; [lia|]. cbn [Nat.eqb shortcut Nat.ltb Nat.leb andb].
  rewrite scan_file_eq, Hf. reflexivity.
Qed.

(** * the pipeline images have increasing markers and no rotation marks *)
Lemma markers_wal_upto : forall txs n, markers (wal_upto txs n) = seq 0 (S n).
Proof.
  intros txs n. induction n as [|n IH]; [reflexivity|].
  cbn [wal_upto]. rewrite markers_app, IH. cbn [wal_height markers].
  replace (S (S n)) with (S n + 1) by lia. rewrite seq_app. reflexivity.
Qed.

Lemma fop_seq : forall k a, ForallOrdPairs mk_ok (seq a k).
Proof.
  induction k as [|k IH]; intros a; cbn [seq]; constructor; [|apply IH].
  apply Forall_forall. intros y Hy. apply in_seq in Hy. right. lia.
Qed.

Lemma crash_img_sorted : forall txs archive n i, sorted_markers (i_wal (crash_img txs archive n i)).
Proof.
  intros. destruct (crash_img_wal_prefix txs archive n i) as [rest E].
  assert (H : sorted_markers (wal_upto txs (S n))).
  { unfold sorted_markers. rewrite markers_wal_upto. apply fop_seq. }
  rewrite E in H. apply sorted_app in H. tauto.
Qed.

Lemma notrot_wal_upto : forall txs n, forallb notrot (wal_upto txs n) = true.
Proof.
  intros txs n. induction n as [|n IH]; [reflexivity|].
  cbn [wal_upto]. rewrite forallb_app, IH. reflexivity.
Qed.

Lemma crash_img_notrot : forall txs archive n i, forallb notrot (i_wal (crash_img txs archive n i)) = true.
Proof.
  intros. destruct (crash_img_wal_prefix txs archive n i) as [rest E].
  pose proof (notrot_wal_upto txs (S n)) as H. rewrite E, forallb_app in H. apply andb_prop in H. tauto.
Qed.

Lemma filter_notrot_id : forall l, forallb notrot l = true -> filter notrot l = l.
Proof.
  induction l as [|r t IH]; intros H; [reflexivity|].
  cbn [forallb] in H. apply andb_prop in H. destruct H as [Hr Ht]. cbn [filter]. rewrite Hr, (IH Ht). reflexivity.
Qed.

(** consensus-state height of the flush-every-block crash images before the head batch *)
Lemma cs_height_archive : forall txs n i, i <= 9 -> cs_height (crash_img txs true n i) = n.
Proof.
  intros txs n i Hi. destruct (crash_img_before_head txs n i Hi) as (Hh & Hs & Hm & _).
  unfold cs_height. rewrite (heights_loaded _ n Hh Hs Hm). reflexivity.
Qed.

(** what [no_conflict_general] asks of an image, on those images: no block was re-applied, and the
    proposals of the crash height in the WAL are those of the chain *)
Lemma crash_img_regular : forall txs n i, i <= 9 ->
  let im := crash_img txs true n i in
  cs_height im = n /\ memb (cs_height im) (i_badapps im) = false /\
  (forall x t, In (RProp (S n) x t) (i_wal im) -> t = txs (S n)).
Proof.
  intros txs n i Hi. cbv zeta. destruct (crash_img_before_head txs n i Hi) as (_ & _ & _ & Hbad).
  rewrite Hbad. repeat split; [exact (cs_height_archive txs n i Hi)|].
  intros x t H. exact (crash_img_prop_tx _ _ _ _ _ _ _ H).
Qed.

(** rotation invariance on the images of the commit pipeline *)
Lemma crash_img_rotation_invariant : forall txs sc tl n i w, 1 <= n -> i <= 9 ->
  sorted_markers (filter notrot w) -> norm w = norm (i_wal (crash_img txs true n i)) ->
  recover sc tl (set_wal (crash_img txs true n i) w) = recover sc tl (crash_img txs true n i).
Proof.
  intros txs sc tl n i w Hn Hi Hs Hw. apply recover_rotation_invariant; try assumption.
  - rewrite cs_height_archive by exact Hi. exact Hn.
  - rewrite filter_notrot_id by apply crash_img_notrot. apply crash_img_sorted.
Qed.

(** height 1 (the initial height) IS sensitive to a rotation: own proposal durable (crash index 2
    of height 1), then the head is rotated away; OnStart's marker shadows the one in wal.000 *)
Lemma witness_rotation_initial_height :
  let im := crash_img tx_all true 0 2 in
  let o := recover sc_fixed TSynced im in
  let o' := recover sc_fixed TSynced (set_wal im (i_wal im ++ [RRot])) in
  wv_logged (view_of 1 0 (i_wal im)) = Some true /\
  wv_logged (view_of 1 0 (i_wal im ++ [RRot])) = None /\
  r_replay o' = RcReplayed /\ no_conflict o' = false /\
  match r_sigs o' with s :: _ => s_prop s = true /\ s_rel s = RelConf | [] => False end.
Proof. vm_compute. repeat split; reflexivity. Qed.

(** the same rotation at height 3 changes nothing (an instance of [crash_img_rotation_invariant],
    kept as a computation) *)
Lemma witness_rotation_later_height :
  let im := crash_img tx_all true 2 4 in
  recover sc_fixed TSynced (set_wal im (i_wal im ++ [RRot])) = recover sc_fixed TSynced im.
Proof. vm_compute. reflexivity. Qed.
