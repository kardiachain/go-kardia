(** C05 — tie of the model's decisions to the Go SOURCE.

    [Generated/C05Source.v] is produced on every check by /verif/go2coq from /repo's working tree
    (spec go2coq/specs/C05.json): every guard, integer assignment and call binding of
      consensus/replay.go   catchupReplay
      consensus/state.go    finalizeCommit, OnStart, updateToState
      consensus/wal.go      BaseWAL.SearchForEndHeight, BaseWAL.OnStart, BaseWAL.WriteSync
      lib/autofile/group.go checkHeadSizeLimit, RotateFile, readGroupInfo, filePathForIndex,
                            GroupReader.Read, GroupReader.openFile
      kai/state/cstate      dbStore.Load, LoadStateFromDBOrGenesisDoc, loadStateAtHeight, saveState,
                            BlockExecutor.ApplyBlock, updateState
      mainchain/blockchain  NewBlockChain, loadLastState, setHeadBeyondRoot, writeHeadBlock,
                            writeBlockWithState, writeBlockAndSetHead, BlockOperations.SaveBlock,
                            CommitAndValidateBlockTxs
    as Gallina over [Z] with explicit machine-integer wraps (Base/GoSem.v).  The lemmas below and
    the conjuncts of [C05_source_tie_statement] say that C05/Model.v ([search], [scan_file],
    [shortcut], [wal_onstart], [view_of], [recover_view], [heights_of], [rewind]) and the pipeline of ProofsRecover.v decide with exactly those expressions
    on exactly those operands ([_atoms] lists: Go operand text and type; [bind_] atoms: the call that
    produces a compared value).  Heights are [nat] in the model, [Z.of_nat] of them here.
    An edit of the Go source that changes a comparison, a constant, an operand or one of the tied
    calls changes the generated file and re-opens these obligations: e.g. [lastHeightFound > 0] to
    [>= 0] renames the shortcut guard; [cs.wal.WriteSync(endMsg)] to [cs.wal.Write(endMsg)] changes
    the call text tied for finalizeCommit. *)
From Coq Require Import String List ZArith Bool Lia Arith.
From Kardia Require Import Base.GoSem Base.Conj.
From Kardia Require Import Generated.C05Source.
From Kardia Require Import C05.Model C05.ProofsRecover C05.ProofsSearch.
Import ListNotations.
Local Open Scope Z_scope.

Definition zh (h : nat) : Z := Z.of_nat h.
(** lastHeightFound: -1 until a marker was seen *)
Definition zlast (last : option nat) : Z := match last with None => -1 | Some l => Z.of_nat l end.


(** * consensus/wal.go BaseWAL.SearchForEndHeight *)
(** the early exit at the end of a file *)
Lemma src_shortcut : forall last h,
  shortcut last h =
  consensus__BaseWAL_SearchForEndHeight__if_lastHeightFound_gt_0_and_lastHeightFound_lt_height (zlast last) (zh h).
Proof.
  intros [l|] h; unfold shortcut, zlast, zh,
    consensus__BaseWAL_SearchForEndHeight__if_lastHeightFound_gt_0_and_lastHeightFound_lt_height.
  - rewrite Z.gtb_ltb, <- !Zofnat_ltb. reflexivity.
  - reflexivity.
Qed.

Lemma src_search_index_step : forall i : nat, (1 <= i)%nat -> Z.of_nat i <= 9223372036854775807 ->
  consensus__BaseWAL_SearchForEndHeight__set_index_op (Z.of_nat i) = Z.of_nat (i - 1).
Proof. intros i Hi Hr. unfold consensus__BaseWAL_SearchForEndHeight__set_index_op. gosem. lia. Qed.

Lemma src_search_atoms :
  consensus__BaseWAL_SearchForEndHeight__if_lastHeightFound_gt_0_and_lastHeightFound_lt_height_atoms
    = ["lastHeightFound : int64"; "height : int64"]%string /\
  consensus__BaseWAL_SearchForEndHeight__if_m_Height_eq_height_atoms = ["m.Height : int64"; "height : int64"]%string /\
  consensus__BaseWAL_SearchForEndHeight__for_index_ge_min_atoms = ["index : int"; "min : int"]%string /\
  consensus__BaseWAL_SearchForEndHeight__forinit_index_atoms = ["max : int"]%string /\
  consensus__BaseWAL_SearchForEndHeight__let_min_atoms = ["wal.group.MinIndex() : int"]%string /\
  consensus__BaseWAL_SearchForEndHeight__let_max_atoms = ["wal.group.MaxIndex() : int"]%string /\
  consensus__BaseWAL_SearchForEndHeight__bind_gr_err_atoms = ["wal.group.NewReader(index)"]%string /\
  consensus__BaseWAL_SearchForEndHeight__bind_msg_err_atoms = ["dec.Decode()"]%string.
Proof. split_all; reflexivity. Qed.

(** * consensus/wal.go BaseWAL.OnStart *)
Lemma src_onstart_older : forall f g fs, wal_onstart (f :: g :: fs) = f :: wal_onstart (g :: fs).
Proof. reflexivity. Qed.

Lemma src_onstart_atoms :
  consensus__BaseWAL_OnStart__if_size_eq_0_atoms = ["size : int64"]%string /\
  consensus__BaseWAL_OnStart__bind_size_err_atoms = ["wal.group.Head.Size()"]%string /\
  consensus__BaseWAL_OnStart__bind_err_atoms = ["wal.WriteSync(EndHeightMessage{0})"]%string /\
  consensus__BaseWAL_WriteSync__bind_err_atoms = ["wal.Write(msg)"]%string /\
  consensus__BaseWAL_WriteSync__bind_err_2_atoms = ["wal.FlushAndSync()"]%string.
Proof. repeat split; reflexivity. Qed.

(** * consensus/replay.go catchupReplay *)
Lemma src_not_below_initial : forall hc : nat,
  consensus__ConsensusState_catchupReplay__if_csHeight_lt_cs_state_InitialHeight (zh (S hc)) 1 = false.
Proof. intros. unfold consensus__ConsensusState_catchupReplay__if_csHeight_lt_cs_state_InitialHeight, zh. apply Z.ltb_ge. lia. Qed.

(** the class of the replay: [if found] after the search for the start height ("wal should not
    contain #ENDHEIGHT"), [if !found] after the search for the previous one ("cannot replay height");
    ([negb (hc =? 0)] is the model's: the WAL of a node always holds #ENDHEIGHT 0) *)
Definition replay_class (v : walview) (hc : nat) : rclass :=
  if consensus__ConsensusState_catchupReplay__if_found (wv_fstart v) then RcEndPresent
  else if consensus__ConsensusState_catchupReplay__if_not_found (wv_fhc v) && negb (hc =? 0)%nat then RcNoMarker
  else RcReplayed.

Lemma src_catchup_atoms :
  consensus__ConsensusState_catchupReplay__bind_gr_found_err_atoms =
    ["cs.wal.SearchForEndHeight(int64(csHeight), &WALSearchOptions{IgnoreDataCorruptionErrors: true})"]%string /\
  consensus__ConsensusState_catchupReplay__bind_gr_found_err_2_atoms =
    ["cs.wal.SearchForEndHeight(int64(endHeight), &WALSearchOptions{IgnoreDataCorruptionErrors: true})"]%string /\
  consensus__ConsensusState_catchupReplay__if_found_atoms = ["found : bool"]%string /\
  consensus__ConsensusState_catchupReplay__if_not_found_atoms = ["found : bool"]%string /\
  consensus__ConsensusState_catchupReplay__set_endHeight_atoms = ["csHeight : uint64"]%string /\
  consensus__ConsensusState_catchupReplay__if_csHeight_eq_cs_state_InitialHeight_atoms = ["csHeight : uint64"; "cs.state.InitialHeight : uint64"]%string /\
  consensus__ConsensusState_catchupReplay__if_csHeight_lt_cs_state_InitialHeight_atoms = ["csHeight : uint64"; "cs.state.InitialHeight : uint64"]%string /\
  consensus__ConsensusState_catchupReplay__bind_msg_err_atoms = ["dec.Decode()"]%string /\
  consensus__ConsensusState_catchupReplay__bind_err_2_atoms = ["cs.readReplayMessage(msg, nil)"]%string.
Proof. split_all; reflexivity. Qed.

(** * consensus/state.go OnStart: the catch-up loop
    [err == nil] => start; not a data-corruption error => "Proceeding to start State anyway";
    corruption and a repair already attempted => fail; corruption => repair, once more.
    The model: the classes RcEndPresent / RcNoMarker are errors that are not corruption: the node
    starts ([r_ok], no panic in OnStart) and signs from scratch. *)
Inductive onstart_act := OsStart | OsStartAnyway | OsFail | OsRepair.
Definition onstart_decide (err_nil corrupt attempted : bool) : onstart_act :=
  if consensus__ConsensusState_OnStart__case_err_eq_nil err_nil then OsStart
  else if consensus__ConsensusState_OnStart__case_not_IsDataCorruptionError_err corrupt then OsStartAnyway
  else if consensus__ConsensusState_OnStart__case_repairAttempted attempted then OsFail
  else OsRepair.

(** a replay error that is not corruption never stops the start: the restarted node signs *)
Lemma src_onstart_anyway : forall sc im v, wv_fstart v = true ->
  onstart_decide false false false = OsStartAnyway /\
  r_ok (recover_view sc TSynced im v) = true /\ r_onstart_panic (recover_view sc TSynced im v) = false /\
  List.length (r_sigs (recover_view sc TSynced im v)) = 3%nat.
Proof.
  intros sc im v H. split; [reflexivity|]. destruct (heights_of im) as [[hh hc] ld] eqn:E.
  destruct (recover_view_fields sc TSynced im v _ _ _ E) as (-> & _).
  destruct (sigs_end_present sc TSynced im v _ _ _ E H) as [-> ->]. repeat split.
Qed.

Lemma src_onstart_loop_atoms :
  consensus__ConsensusState_OnStart__if_cs_doWALCatchup_atoms = ["cs.doWALCatchup : bool"]%string /\
  consensus__ConsensusState_OnStart__let_repairAttempted = false /\
  consensus__ConsensusState_OnStart__let_repairAttempted_2 = true /\
  consensus__ConsensusState_OnStart__bind_err_2_atoms = ["cs.catchupReplay(cs.Height)"]%string /\
  consensus__ConsensusState_OnStart__case_err_eq_nil_atoms = ["err == nil : bool"]%string /\
  consensus__ConsensusState_OnStart__case_not_IsDataCorruptionError_err_atoms = ["IsDataCorruptionError(err) : bool"]%string /\
  consensus__ConsensusState_OnStart__case_repairAttempted_atoms = ["repairAttempted : bool"]%string /\
  consensus__ConsensusState_OnStart__bind_err_3_atoms = ["cs.wal.Stop()"]%string /\
  consensus__ConsensusState_OnStart__bind_err_4_atoms = ["kos.CopyFile(cs.config.WalFile(), corruptedFile)"]%string.
Proof. split_all; reflexivity. Qed.

(** * consensus/state.go finalizeCommit *)
(** finalizeCommit acts only for the current height in the commit step (8 = cstypes.RoundStepCommit) *)
Lemma src_finalize_guard : forall h x step : nat,
  consensus__ConsensusState_finalizeCommit__if_cs_Height_ne_height_or_cs_Step_ne_cstypes_RoundStepCommit (zh h) (zh x) (zh step) = false
  <-> h = x /\ step = 8%nat.
Proof.
  intros. unfold consensus__ConsensusState_finalizeCommit__if_cs_Height_ne_height_or_cs_Step_ne_cstypes_RoundStepCommit, go_neqb, zh.
  rewrite orb_false_iff, !negb_false_iff, !Z.eqb_eq. lia.
Qed.

(** the order of the pipeline's WAL fsync: the block is validated, THEN [#ENDHEIGHT] is written with
    [WriteSync] (its own fsync: the 7th durable write of [pipeline]), THEN the block is applied
    (ApplyBlock: app-hash batch, trie flush, head batch, consensus-state batch).  Tied here: the
    1st and 2nd call bindings to [err] (validation, WriteSync) and the copy of the state that
    ApplyBlock is then called on; the ApplyBlock call itself ([bind_stateCopy_err] in the generated
    file) is not tied. *)
Lemma src_finalize_calls :
  consensus__ConsensusState_finalizeCommit__bind_err_atoms = ["cs.blockExec.ValidateBlock(cs.state, block)"]%string /\
  consensus__ConsensusState_finalizeCommit__bind_err_2_atoms = ["cs.wal.WriteSync(endMsg)"]%string /\
  consensus__ConsensusState_finalizeCommit__bind_stateCopy_atoms = ["cs.state.Copy()"]%string /\
  consensus__ConsensusState_finalizeCommit__bind_blockID_ok_atoms = ["cs.Votes.Precommits(cs.CommitRound).TwoThirdsMajority()"]%string /\
  consensus__ConsensusState_finalizeCommit__if_cs_blockOperations_Height_lt_block_Height_atoms = ["cs.blockOperations.Height() : uint64"; "block.Height() : uint64"]%string.
Proof. repeat split; reflexivity. Qed.

(** * consensus/state.go updateToState: the height the restarted node is in *)
Lemma src_recover_start : forall sc tl im v,
  r_start (recover_view sc tl im v) = S (r_hc (recover_view sc tl im v)).
Proof.
  intros. destruct (heights_of im) as [[hh hc] ld] eqn:E.
  destruct (recover_view_fields sc tl im v _ _ _ E) as (_ & _ & -> & -> & _). reflexivity.
Qed.

(** the sanity tests of updateToState hold along the model's runs: the state handed over is one
    height ahead *)
Lemma src_update_guards : forall h : nat, (1 <= h)%nat -> Z.of_nat (S h) <= 18446744073709551615 ->
  consensus__ConsensusState_updateToState__if_cs_state_LastBlockHeight_gt_0_and_cs_state_LastBlockHeight_p_73787044 (zh h) (zh (S h)) = false /\
  consensus__ConsensusState_updateToState__if_state_LastBlockHeight_le_cs_state_LastBlockHeight (zh (S h)) (zh h) = false /\
  consensus__ConsensusState_updateToState__if_height_eq_1 (zh (S h)) = false.
Proof.
  intros h H1 H2. unfold zh,
    consensus__ConsensusState_updateToState__if_cs_state_LastBlockHeight_gt_0_and_cs_state_LastBlockHeight_p_73787044,
    consensus__ConsensusState_updateToState__if_state_LastBlockHeight_le_cs_state_LastBlockHeight,
    consensus__ConsensusState_updateToState__if_height_eq_1.
  repeat split.
  - gosem. unfold go_neqb. replace (Z.of_nat h + 1) with (Z.of_nat (S h)) by lia. rewrite Z.eqb_refl. apply andb_false_r.
  - apply Z.leb_gt. lia.
  - apply Z.eqb_neq. lia.
Qed.

Lemma src_update_atoms :
  consensus__ConsensusState_updateToState__set_height_atoms = ["state.LastBlockHeight : uint64"]%string /\
  consensus__ConsensusState_updateToState__if_state_LastBlockHeight_le_cs_state_LastBlockHeight_atoms = ["state.LastBlockHeight : uint64"; "cs.state.LastBlockHeight : uint64"]%string /\
  consensus__ConsensusState_updateToState__if_cs_state_LastBlockHeight_gt_0_and_cs_state_LastBlockHeight_p_73787044_atoms = ["cs.state.LastBlockHeight : uint64"; "cs.Height : uint64"]%string.
Proof. repeat split; reflexivity. Qed.

(** * lib/autofile/group.go *)
(** a rotation: flush, fsync, close, rename to the index [maxIndex] (of [maxIndex+1] files), then
    [maxIndex++]; no new head.  In the model: an [RRot] mark, everything before it durable. *)
Lemma src_rotate_calls :
  lib_autofile__Group_RotateFile__bind_err_atoms = ["g.headBuf.Flush()"]%string /\
  lib_autofile__Group_RotateFile__bind_err_2_atoms = ["g.Head.Sync()"]%string /\
  lib_autofile__Group_RotateFile__bind_err_3_atoms = ["g.Head.closeFile()"]%string /\
  lib_autofile__Group_RotateFile__bind_indexPath_atoms = ["filePathForIndex(headPath, g.maxIndex, g.maxIndex+1)"]%string /\
  lib_autofile__Group_RotateFile__bind_err_4_atoms = ["os.Rename(headPath, indexPath)"]%string.
Proof. repeat split; reflexivity. Qed.

Fixpoint count_rot (wal : list rkind) : nat :=
  match wal with [] => 0 | RRot :: t => S (count_rot t) | _ :: t => count_rot t end.

Lemma length_split_files : forall wal, List.length (split_files wal) = S (count_rot wal).
Proof.
  induction wal as [|r t IH]; [reflexivity|].
  destruct (split_files_cons t) as [f [fs E]].
  destruct r; cbn [split_files count_rot]; rewrite ?E in *; cbn [List.length] in *; lia.
Qed.

(** reopening a rotated group: the head's index is the highest numbered file + 1; no numbered file:
    the head is file 0 *)
Lemma src_group_info : forall wal, (1 <= count_rot wal)%nat -> Z.of_nat (count_rot wal) < 9223372036854775807 ->
  lib_autofile__Group_readGroupInfo__if_minIndex_eq_minus_1 0 = false /\
  lib_autofile__Group_readGroupInfo__set_maxIndex_op (Z.of_nat (count_rot wal - 1)) = Z.of_nat (List.length (split_files wal) - 1).
Proof.
  intros wal H1 H2. split; [reflexivity|].
  unfold lib_autofile__Group_readGroupInfo__set_maxIndex_op. rewrite length_split_files. gosem. lia.
Qed.

(** a log without [RRot]: [split_files] gives one file, the head, with index 0 *)
Lemma src_group_info_single : lib_autofile__Group_readGroupInfo__if_minIndex_eq_minus_1 (-1) = true.
Proof. reflexivity. Qed.

Lemma src_head_path : forall i n : nat, lib_autofile__filePathForIndex__if_index_eq_maxIndex (Z.of_nat i) (Z.of_nat n) = (i =? n)%nat.
Proof. intros. unfold lib_autofile__filePathForIndex__if_index_eq_maxIndex. apply Zofnat_eqb. Qed.

Lemma src_group_atoms :
  lib_autofile__Group_checkHeadSizeLimit__if_size_ge_limit_atoms = ["size : int64"; "limit : int64"]%string /\
  lib_autofile__Group_checkHeadSizeLimit__let_limit_atoms = ["g.HeadSizeLimit() : int64"]%string /\
  lib_autofile__Group_checkHeadSizeLimit__bind_size_err_atoms = ["g.Head.Size()"]%string /\
  lib_autofile__Group_RotateFile__set_maxIndex_op_atoms = ["g.maxIndex : int"]%string /\
  lib_autofile__GroupReader_openFile__if_index_gt_gr_Group_maxIndex_atoms = ["index : int"; "gr.Group.maxIndex : int"]%string /\
  lib_autofile__GroupReader_Read__arg_gr_curIndex_plus_1_atoms = ["gr.curIndex : int"]%string /\
  lib_autofile__GroupReader_Read__bind_err1_atoms = ["gr.openFile(gr.curIndex + 1)"]%string /\
  lib_autofile__filePathForIndex__if_index_eq_maxIndex_atoms = ["index : int"; "maxIndex : int"]%string.
Proof. split_all; reflexivity. Qed.

(** * kai/state/cstate/store.go *)
Lemma src_store_atoms :
  kai_state_cstate__dbStore_Load__bind_head_atoms = ["rawdb.ReadHeadBlock(s.db)"]%string /\
  kai_state_cstate__dbStore_Load__bind_state_atoms = ["loadStateAtHeight(s.db, head.Height())"]%string /\
  kai_state_cstate__dbStore_LoadStateFromDBOrGenesisDoc__bind_state_atoms = ["s.Load()"]%string /\
  kai_state_cstate__dbStore_LoadStateFromDBOrGenesisDoc__if_state_IsEmpty_atoms = ["state.IsEmpty() : bool"]%string /\
  kai_state_cstate__dbStore_LoadStateFromDBOrGenesisDoc__bind_state_err_atoms = ["MakeGenesisState(genesisDoc)"]%string /\
  kai_state_cstate__loadStateAtHeight__bind_sp_atoms = ["rawdb.ReadConsensusStateHeight(db, height)"]%string /\
  kai_state_cstate__loadStateAtHeight__if_sp_eq_nil_atoms = ["sp == nil : untyped bool"]%string /\
  kai_state_cstate__loadStateAtHeight__put_state_LastBlockHeight_atoms = ["blockMeta.Header.Height : uint64"]%string.
Proof. split_all; reflexivity. Qed.

(** the record of height 0 is the one with the validator sets of genesis *)
Lemma src_save_state_genesis : forall h : nat,
  kai_state_cstate__saveState__if_state_LastBlockHeight_eq_0 (zh h) = (h =? 0)%nat.
Proof. intros. unfold kai_state_cstate__saveState__if_state_LastBlockHeight_eq_0, zh. change 0 with (Z.of_nat 0). apply Zofnat_eqb. Qed.

(** * kai/state/cstate/execution.go ApplyBlock: validate, run the block on the chain (app-hash batch,
    trie flush, head batch: BlockOperations.CommitAndValidateBlockTxs), then the new consensus state *)
Lemma src_apply_calls :
  kai_state_cstate__BlockExecutor_ApplyBlock__bind_err_atoms = ["blockExec.ValidateBlock(state, block)"]%string /\
  kai_state_cstate__BlockExecutor_ApplyBlock__bind_valUpdates_appHash_err_atoms = ["blockExec.bc.CommitAndValidateBlockTxs(block, commitInfo, byzVals)"]%string /\
  kai_state_cstate__BlockExecutor_ApplyBlock__bind_state_err_atoms = ["updateState(blockExec.logger, state, blockID, block.Header(), valUpdates)"]%string /\
  kai_state_cstate__updateState__set_lastHeightValsChanged_atoms = ["header.Height : uint64"]%string.
Proof. repeat split; reflexivity. Qed.

(** the model has one validator and no validator change: nothing in it depends on this constant *)
Lemma src_vals_changed : forall h : nat, Z.of_nat h + 2 <= 18446744073709551615 ->
  kai_state_cstate__updateState__set_lastHeightValsChanged (zh h) = zh (h + 2).
Proof. intros h H. unfold kai_state_cstate__updateState__set_lastHeightValsChanged, zh. gosem. lia. Qed.

(** * mainchain/blockchain/blockchain.go *)
(** setHeadBeyondRoot is called with [beyondRoot] = true, so its stop test adds nothing to
    [has_state]: [rewind] tests [has_state] alone *)
Lemma src_rewind_stop : forall x,
  mainchain_blockchain__BlockChain_setHeadBeyondRoot__if_beyondRoot_or_newHeadBlock_Height_eq_0 true x = true.
Proof. reflexivity. Qed.

(** the repair runs iff the head has no state; [heights_of] rewinds always, which is the same by
    [rewind_hit] *)
Lemma src_repair_guard : forall im h,
  mainchain_blockchain__NewBlockChain__if_not_bc_HasState_root (has_state im h) = negb (has_state im h).
Proof. reflexivity. Qed.

Lemma src_chain_atoms :
  mainchain_blockchain__NewBlockChain__bind_err_2_atoms = ["bc.loadLastState()"]%string /\
  mainchain_blockchain__NewBlockChain__bind_err_3_atoms = ["bc.setHeadBeyondRoot(head.Height(), common.Hash{}, true)"]%string /\
  mainchain_blockchain__NewBlockChain__bind_root_atoms = ["rawdb.ReadAppHash(bc.db, head.Height())"]%string /\
  mainchain_blockchain__NewBlockChain__if_not_bc_HasState_root_atoms = ["bc.HasState(root) : bool"]%string /\
  mainchain_blockchain__BlockChain_setHeadBeyondRoot__bind_appHash_atoms = ["rawdb.ReadAppHash(bc.db, newHeadBlock.Height())"]%string /\
  mainchain_blockchain__BlockChain_setHeadBeyondRoot__if_not_bc_HasState_appHash_atoms = ["bc.HasState(appHash) : bool"]%string /\
  mainchain_blockchain__BlockChain_setHeadBeyondRoot__bind_parent_atoms = ["bc.GetBlock(newHeadBlock.LastBlockHash(), newHeadBlock.Height()-1)"]%string /\
  mainchain_blockchain__BlockChain_setHeadBeyondRoot__if_beyondRoot_or_newHeadBlock_Height_eq_0_atoms = ["beyondRoot : bool"; "newHeadBlock.Height() : uint64"]%string /\
  mainchain_blockchain__BlockChain_setHeadBeyondRoot__if_parent_ne_nil_atoms = ["parent != nil : untyped bool"]%string /\
  mainchain_blockchain__BlockChain_writeBlockWithState__if_bc_cacheConfig_TrieDirtyDisabled_atoms = ["bc.cacheConfig.TrieDirtyDisabled : bool"]%string /\
  mainchain_blockchain__BlockChain_writeBlockWithState__bind_root_err_atoms = ["state.Commit(true)"]%string /\
  mainchain_blockchain__BlockChain_writeBlockWithState__bind_err_atoms = ["blockBatch.Write()"]%string /\
  mainchain_blockchain__BlockChain_writeBlockAndSetHead__bind_err_atoms = ["bc.writeBlockWithState(block, blockInfo, state)"]%string /\
  mainchain_blockchain__BlockChain_writeHeadBlock__bind_err_atoms = ["batch.Write()"]%string /\
  mainchain_blockchain__BlockOperations_SaveBlock__set_w_atoms = ["bo.Height() : uint64"]%string /\
  mainchain_blockchain__BlockOperations_SaveBlock__put_bo_height_atoms = ["height : uint64"]%string.
Proof. split_all; reflexivity. Qed.

(** * the statement quoted in Properties.v *)
Definition C05_source_tie_statement : Prop :=
  (* SearchForEndHeight *)
  (forall last h, shortcut last h =
     consensus__BaseWAL_SearchForEndHeight__if_lastHeightFound_gt_0_and_lastHeightFound_lt_height (zlast last) (zh h))
  /\ (forall h last x t, scan_file h last (REnd x :: t) =
        if consensus__BaseWAL_SearchForEndHeight__if_m_Height_eq_height (zh x) (zh h) then inl t else scan_file h (Some x) t)
  /\ (forall h last f older newer, search_rev h last (f :: older) newer =
        match scan_file h last f with
        | inl rest => Some (rest ++ newer)
        | inr last' =>
          if consensus__BaseWAL_SearchForEndHeight__if_lastHeightFound_gt_0_and_lastHeightFound_lt_height (zlast last') (zh h)
          then None else search_rev h last' older (f ++ newer)
        end)
  /\ (forall n j : nat, (1 <= n)%nat ->
        consensus__BaseWAL_SearchForEndHeight__for_index_ge_min
          (consensus__BaseWAL_SearchForEndHeight__forinit_index (Z.of_nat (n - 1)) - Z.of_nat j) 0 = (j <? n)%nat)
  (* BaseWAL.OnStart *)
  /\ (forall f, wal_onstart [f] = [if consensus__BaseWAL_OnStart__if_size_eq_0 (Z.of_nat (List.length f)) then [REnd 0] else f])
  /\ consensus__BaseWAL_OnStart__bind_err_atoms = ["wal.WriteSync(EndHeightMessage{0})"]%string
  (* catchupReplay *)
  /\ (forall hc : nat, Z.of_nat (S hc) <= 18446744073709551615 ->
        zh hc = if consensus__ConsensusState_catchupReplay__if_csHeight_eq_cs_state_InitialHeight (zh (S hc)) 1
                then consensus__ConsensusState_catchupReplay__let_endHeight
                else consensus__ConsensusState_catchupReplay__set_endHeight (zh (S hc)))
  /\ (forall sc im v, r_replay (recover_view sc TSynced im v) = replay_class v (snd (fst (heights_of im))))
  /\ (forall start hc wal,
        wv_fstart (view_of start hc wal) = (if search start (wal_onstart (split_files wal)) then true else false) /\
        wv_fhc (view_of start hc wal) = (if search hc (wal_onstart (split_files wal)) then true else false))
  /\ consensus__ConsensusState_catchupReplay__bind_gr_found_err_atoms =
       ["cs.wal.SearchForEndHeight(int64(csHeight), &WALSearchOptions{IgnoreDataCorruptionErrors: true})"]%string
  /\ consensus__ConsensusState_catchupReplay__bind_gr_found_err_2_atoms =
       ["cs.wal.SearchForEndHeight(int64(endHeight), &WALSearchOptions{IgnoreDataCorruptionErrors: true})"]%string
  (* OnStart *)
  /\ (onstart_decide true false false = OsStart /\ onstart_decide false false false = OsStartAnyway /\
      onstart_decide false false true = OsStartAnyway /\
      onstart_decide false true false = OsRepair /\ onstart_decide false true true = OsFail)
  /\ consensus__ConsensusState_OnStart__bind_err_2_atoms = ["cs.catchupReplay(cs.Height)"]%string
  (* finalizeCommit *)
  /\ (forall sc tl im v, let o := recover_view sc tl im v in
        r_repl_meta o = r_repl_canon o &&
          consensus__ConsensusState_finalizeCommit__if_cs_blockOperations_Height_lt_block_Height (zh (r_hh o)) (zh (r_start o)))
  /\ consensus__ConsensusState_finalizeCommit__bind_err_atoms = ["cs.blockExec.ValidateBlock(cs.state, block)"]%string
  /\ consensus__ConsensusState_finalizeCommit__bind_err_2_atoms = ["cs.wal.WriteSync(endMsg)"]%string
  /\ (forall txs archive h,
        nth_error (pipeline txs archive h) 5 = Some (EDb (WBlock h (txs h))) /\
        nth_error (pipeline txs archive h) 6 = Some (EWal [RStep; REnd h]) /\
        nth_error (pipeline txs archive h) 7 = Some (EDb (WBinfo h)))
  (* updateToState *)
  /\ (forall hc : nat, Z.of_nat (S hc) <= 18446744073709551615 ->
        zh (S hc) = consensus__ConsensusState_updateToState__set_height (zh hc))
  (* autofile group *)
  /\ (lib_autofile__Group_RotateFile__bind_err_atoms = ["g.headBuf.Flush()"]%string /\
      lib_autofile__Group_RotateFile__bind_err_2_atoms = ["g.Head.Sync()"]%string /\
      lib_autofile__Group_RotateFile__bind_err_4_atoms = ["os.Rename(headPath, indexPath)"]%string)
  /\ (forall wal, Z.of_nat (count_rot wal) < 9223372036854775807 ->
        Z.of_nat (count_rot (wal ++ [RRot])) = lib_autofile__Group_RotateFile__set_maxIndex_op (Z.of_nat (count_rot wal)) /\
        lib_autofile__Group_RotateFile__arg_g_maxIndex_plus_1 (Z.of_nat (count_rot wal)) = Z.of_nat (List.length (split_files wal)))
  /\ (forall j n : nat, Z.of_nat j < 9223372036854775807 ->
        lib_autofile__GroupReader_openFile__if_index_gt_gr_Group_maxIndex
          (lib_autofile__GroupReader_Read__arg_gr_curIndex_plus_1 (Z.of_nat j)) (Z.of_nat n) = (n <? S j)%nat)
  /\ (forall size limit : nat,
        (negb (lib_autofile__Group_checkHeadSizeLimit__if_limit_eq_0 (Z.of_nat limit)) &&
         lib_autofile__Group_checkHeadSizeLimit__if_size_ge_limit (Z.of_nat size) (Z.of_nat limit))%bool
        = (negb (limit =? 0)%nat && (limit <=? size)%nat)%bool)
  (* consensus-state store *)
  /\ (forall im, heights_of im =
        let hh := match i_head im with None => 0%nat | Some h => rewind im h end in
        let loaded := memb hh (i_cstates im) in
        (hh, (if kai_state_cstate__dbStore_LoadStateFromDBOrGenesisDoc__if_state_IsEmpty (negb loaded) then 0%nat else hh),
         kai_state_cstate__dbStore_Load__if_state_ne_nil loaded))
  /\ kai_state_cstate__dbStore_Load__bind_state_atoms = ["loadStateAtHeight(s.db, head.Height())"]%string
  (* ApplyBlock and the chain *)
  /\ (forall txs archive h, skipn 7 (pipeline txs archive h) =
        [EDb (WBinfo h)] ++ (if mainchain_blockchain__BlockChain_writeBlockWithState__if_bc_cacheConfig_TrieDirtyDisabled archive then [EDb WTrie] else [])
        ++ [EDb (WHead h false); EDb (WCState h)])
  /\ kai_state_cstate__BlockExecutor_ApplyBlock__bind_valUpdates_appHash_err_atoms = ["blockExec.bc.CommitAndValidateBlockTxs(block, commitInfo, byzVals)"]%string
  /\ (forall im h, Z.of_nat h <= 18446744073709551615 ->
        rewind im h =
        if mainchain_blockchain__BlockChain_setHeadBeyondRoot__if_not_bc_HasState_appHash (has_state im h)
        then (if mainchain_blockchain__BlockChain_setHeadBeyondRoot__if_parent_ne_nil (1 <=? h)%nat
              then rewind im (Z.to_nat (mainchain_blockchain__BlockChain_setHeadBeyondRoot__arg_newHeadBlock_Height_minus_1 (zh h)))
              else 0%nat)
        else h)
  /\ (forall n : nat, (n <= 128)%nat ->
        mainchain_blockchain__BlockChain_writeBlockWithState__if_current_le_TriesInMemory (zh n) = true)
  /\ (forall hh x : nat, Z.of_nat hh < 18446744073709551615 ->
        mainchain_blockchain__BlockOperations_SaveBlock__if_g_ne_w (zh x) (mainchain_blockchain__BlockOperations_SaveBlock__set_w (zh hh))
        = negb (x =? S hh)%nat).

Lemma C05_source_tie_proof : C05_source_tie_statement.
Proof.
  unfold C05_source_tie_statement. split_all.
  (* SearchForEndHeight: the early exit at the end of a file *)
  - exact src_shortcut.
  (* found: [m.Height == height]; otherwise lastHeightFound = m.Height *)
  - intros. unfold consensus__BaseWAL_SearchForEndHeight__if_m_Height_eq_height, zh. cbn [scan_file].
    rewrite <- Zofnat_eqb. reflexivity.
  (* one file of the loop: found => the reader (it reads on through the younger files); end of the
     file => the early exit, else the next older file *)
  - intros. cbn [search_rev]. destruct (scan_file h last f); [reflexivity|]. rewrite src_shortcut. reflexivity.
  (* [for index := max; index >= min; index--] over a group whose files are 0 .. n-1 (the model has
     no pruning: min = 0, max = n-1): iteration j runs iff there is a j-th file from the head
     backwards; the model's [search_rev] walks [rev files] *)
  - intros n j Hn. unfold consensus__BaseWAL_SearchForEndHeight__for_index_ge_min,
      consensus__BaseWAL_SearchForEndHeight__forinit_index.
    rewrite Z.geb_leb. destruct (Z.leb_spec 0 (Z.of_nat (n - 1) - Z.of_nat j)); destruct (Nat.ltb_spec j n); try reflexivity; lia.
  (* BaseWAL.OnStart: #ENDHEIGHT 0 is written, with an fsync, iff the head is empty (the model counts
     records: a file without records is a file of size 0) *)
  - intros [|r t]; reflexivity.
  - reflexivity.
  (* catchupReplay.  The height searched second: [endHeight := csHeight - 1; if csHeight ==
     InitialHeight { endHeight = 0 }] (InitialHeight = 1): the model's [hc] for the start height [S hc] *)
  - intros hc Hr. unfold consensus__ConsensusState_catchupReplay__if_csHeight_eq_cs_state_InitialHeight,
      consensus__ConsensusState_catchupReplay__let_endHeight, consensus__ConsensusState_catchupReplay__set_endHeight, zh.
    destruct (Z.eqb_spec (Z.of_nat (S hc)) 1); [lia|]. gosem. lia.
  - intros sc im v. destruct (heights_of im) as [[hh hc] ld] eqn:E.
    destruct (recover_view_fields sc TSynced im v _ _ _ E) as (_ & _ & _ & _ & _ & _ & ->). reflexivity.
  (* what is searched: the markers of the start height and of the previous height, in the files of
     the group as BaseWAL.OnStart left them *)
  - intros. unfold view_of. cbn [wv_fstart wv_fhc]. split; destruct (search _ _); reflexivity.
  - reflexivity.
  - reflexivity.
  - repeat split; reflexivity.
  - reflexivity.
  (* finalizeCommit.  The block is saved (again) iff [cs.blockOperations.Height() < block.Height()]:
     BlockOperations starts at the head height [hh]; the stored block meta of the start height is
     replaced only then *)
  - intros sc tl im v. cbv zeta. destruct (heights_of im) as [[hh hc] ld] eqn:E.
    destruct (recover_view_fields sc tl im v _ _ _ E) as (_ & -> & _ & -> & _ & -> & _).
    unfold consensus__ConsensusState_finalizeCommit__if_cs_blockOperations_Height_lt_block_Height, zh.
    rewrite Zofnat_ltb. reflexivity.
  - reflexivity.
  - reflexivity.
  (* the #ENDHEIGHT record of height h is a durable write of its own, after the block batch and
     before the application's batches *)
  - intros. repeat split; reflexivity.
  - intros hc H. unfold consensus__ConsensusState_updateToState__set_height, zh. gosem. lia.
  - repeat split; reflexivity.
  (* [count_rot] is g.maxIndex: a rotation increments it, and the group then has maxIndex + 1
     files: the index arithmetic of RotateFile and of readGroupInfo (head = highest numbered file + 1) *)
  - intros wal H. assert (E : count_rot (wal ++ [RRot]) = S (count_rot wal)).
    { induction wal as [|r t IH]; [reflexivity|]. destruct r; cbn [app count_rot] in *; rewrite ?IH; try reflexivity; lia. }
    unfold lib_autofile__Group_RotateFile__set_maxIndex_op, lib_autofile__Group_RotateFile__arg_g_maxIndex_plus_1.
    rewrite E, length_split_files. split; gosem; lia.
  (* the reader goes on into file j+1 unless [index > maxIndex]; the head is the file [index == maxIndex] *)
  - intros j n Hj. unfold lib_autofile__GroupReader_openFile__if_index_gt_gr_Group_maxIndex, lib_autofile__GroupReader_Read__arg_gr_curIndex_plus_1.
    rewrite Z.gtb_ltb. gosem.
    destruct (Z.ltb_spec (Z.of_nat n) (Z.of_nat j + 1)); destruct (Nat.ltb_spec n (S j)); try reflexivity; lia.
  (* the head is rotated iff the limit is set and [size >= limit] *)
  - intros. unfold lib_autofile__Group_checkHeadSizeLimit__if_limit_eq_0, lib_autofile__Group_checkHeadSizeLimit__if_size_ge_limit.
    rewrite Z.geb_leb. change 0 with (Z.of_nat 0). rewrite Zofnat_eqb. f_equal.
    destruct (Z.leb_spec (Z.of_nat limit) (Z.of_nat size)); destruct (Nat.leb_spec limit size); try reflexivity; lia.
  (* the consensus state is looked up AT THE HEAD HEIGHT; none => genesis *)
  - intros. unfold heights_of, kai_state_cstate__dbStore_LoadStateFromDBOrGenesisDoc__if_state_IsEmpty, kai_state_cstate__dbStore_Load__if_state_ne_nil.
    cbv zeta. destruct (memb _ (i_cstates im)); reflexivity.
  - reflexivity.
  (* the model's pipeline: app-hash batch, [trie flush], head batch, consensus-state batch *)
  - intros. unfold pipeline, mainchain_blockchain__BlockChain_writeBlockWithState__if_bc_cacheConfig_TrieDirtyDisabled.
    destruct archive; reflexivity.
  - reflexivity.
  (* NewBlockChain repairs iff the head has no state; setHeadBeyondRoot is called with the empty root
     ([beyondRoot] true from the start: it stops at the first block WITH state); while
     [!bc.HasState(appHash)] it goes to the parent ([Height() - 1]) if there is one ([parent != nil]: the
     block store is contiguous, so iff the height is >= 1), else to genesis: the model's [rewind] *)
  - intros im h Hr. unfold mainchain_blockchain__BlockChain_setHeadBeyondRoot__if_not_bc_HasState_appHash,
      mainchain_blockchain__BlockChain_setHeadBeyondRoot__if_parent_ne_nil,
      mainchain_blockchain__BlockChain_setHeadBeyondRoot__arg_newHeadBlock_Height_minus_1, zh.
    destruct h as [|h]; cbn [rewind Nat.leb]; destruct (has_state im _); cbn [negb]; try reflexivity.
    gosem. replace (Z.of_nat (S h) - 1) with (Z.of_nat h) by lia. rewrite Nat2Z.id. reflexivity.
  (* keep-recent mode: no state is flushed while [current <= TriesInMemory] (128): the range in which
     the model's keep-recent images (only the genesis state on disk) are what the code produces *)
  - intros n H. unfold mainchain_blockchain__BlockChain_writeBlockWithState__if_current_le_TriesInMemory, zh.
    apply Z.leb_le. lia.
  (* SaveBlock only takes the next block: [g != w] with [w = bo.Height() + 1] *)
  - intros hh x H. unfold mainchain_blockchain__BlockOperations_SaveBlock__if_g_ne_w, mainchain_blockchain__BlockOperations_SaveBlock__set_w, go_neqb, zh.
    gosem. f_equal. rewrite <- Zofnat_eqb. f_equal. lia.
Qed.
