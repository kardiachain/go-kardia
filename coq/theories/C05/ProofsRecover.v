(** C05 — recovery on the crash images of the commit pipeline (lemmas).

    The chain and the pipeline in closed form; [rewind]; the three outcomes of [heights_of] and
    [recover] read through them ([recover_loaded], [recover_fallback], [recover_rewound], for any
    image); the crash points of the pipeline, database side and WAL side; computed witnesses for
    the crash points where a property fails; the second crash. *)
From Coq Require Import List Arith Bool Lia.
From Kardia Require Import C05.Model.
Import ListNotations.

(** * the chain after n finished heights and the pipeline of the next height, as observed *)
Section Chain.
Variable txs : nat -> bool.

Definition wal_height (h : nat) : list rkind :=
  [RStep; RTimeout h 1 1; RStep; RProp h 1 (txs h); RPart h 1 (txs h); RStep; RVote 1 h 1 false;
   RStep; RVote 2 h 1 false; RStep; REnd h].

Fixpoint wal_upto (n : nat) : list rkind :=
  match n with 0 => [REnd 0] | S k => wal_upto k ++ wal_height (S k) end.

(** durable state after [n] heights were decided, saved, applied and recorded.
    [archive] = cacheConfig.TrieDirtyDisabled: the state root of every block is written
    (flush-every-block mode); false: keep-recent mode, only the genesis root is on disk (what the
    code does for the first 128 heights) *)
Definition img_after (archive : bool) (n : nat) : image :=
  {| i_blocks := seq 1 n; i_txblocks := map (fun h => (h, txs h)) (seq 1 n);
     i_apps := seq 0 (S n); i_tries := if archive then seq 0 (S n) else [0];
     i_pending := None; i_head := Some n; i_cstates := seq 0 (S n); i_canon0 := true;
     i_badapps := []; i_wal := wal_upto n |}.

(** the ordered durable writes of height [h] (harness: pipeline-order oracle).  Crash index i =
    after the first i writes: 1 timeout, 2 proposal, 3 part, 4 prevote, 5 precommit, 6 block batch,
    7 #ENDHEIGHT, 8 app-hash batch, 9 trie flush, 10 head batch, 11 consensus-state batch;
    keep-recent mode has no trie flush: 9 head batch, 10 consensus-state batch *)
Definition pipeline (archive : bool) (h : nat) : list entry :=
  [EWal [RStep; RTimeout h 1 1]; EWal [RStep; RProp h 1 (txs h)]; EWal [RPart h 1 (txs h)];
   EWal [RStep; RVote 1 h 1 false]; EWal [RStep; RVote 2 h 1 false];
   EDb (WBlock h (txs h)); EWal [RStep; REnd h]; EDb (WBinfo h)]
  ++ (if archive then [EDb WTrie] else []) ++ [EDb (WHead h false); EDb (WCState h)].

(** crash after the first [i] durable writes of height [n+1] *)
Definition crash_img (archive : bool) (n i : nat) : image :=
  fold_left (fun im e => apply_entry e im) (firstn i (pipeline archive (S n))) (img_after archive n).
End Chain.

Lemma memb_app : forall h l1 l2, memb h (l1 ++ l2) = memb h l1 || memb h l2.
Proof. induction l1 as [|x t IH]; intros l2; cbn; [reflexivity|]. rewrite IH, orb_assoc. reflexivity. Qed.

Lemma memb_In : forall h l, memb h l = true <-> In h l.
Proof.
  induction l as [|x t IH]; cbn; [split; [discriminate|tauto]|].
  rewrite orb_true_iff, IH, Nat.eqb_eq. tauto.
Qed.

Lemma memb_snoc : forall h l, memb h (l ++ [h]) = true.
Proof. intros. rewrite memb_app. cbn. rewrite Nat.eqb_refl. apply orb_true_r. Qed.

Lemma memb_self_seq0 : forall n, memb n (seq 0 (S n)) = true.
Proof. intros. apply memb_In, in_seq. lia. Qed.

Lemma memb_succ_seq0 : forall n, memb (S n) (seq 0 (S n)) = false.
Proof. intros. destruct (memb (S n) (seq 0 (S n))) eqn:E; [|reflexivity]. apply memb_In, in_seq in E. lia. Qed.

(** the last published proposal: the one of the later part of a log if there is one *)
Lemma last_prop_acc : forall h l acc,
  fold_left (fun acc r => match r with RProp x _ t => if x =? h then Some t else acc | _ => acc end) l acc =
  match last_prop h l with Some t => Some t | None => acc end.
Proof.
  unfold last_prop. induction l as [|r t IH]; intros acc; [reflexivity|].
  cbn [fold_left]. rewrite IH, (IH (match r with RProp _ _ _ => _ | _ => None end)).
  destruct (fold_left _ t None); [reflexivity|]. destruct r; try reflexivity. destruct (h0 =? h); reflexivity.
Qed.

Lemma last_prop_app : forall h l1 l2, last_prop h (l1 ++ l2) =
  match last_prop h l2 with Some t => Some t | None => last_prop h l1 end.
Proof. intros. unfold last_prop at 1. rewrite fold_left_app. apply last_prop_acc. Qed.

Lemma last_prop_cons : forall h r l, last_prop h (r :: l) =
  match last_prop h l with Some t => Some t | None => last_prop h [r] end.
Proof. intros. apply (last_prop_app h [r] l). Qed.

(** * setHeadBeyondRoot *)
Lemma rewind_hit : forall im h, has_state im h = true -> rewind im h = h.
Proof. intros im h H. destruct h; cbn [rewind]; rewrite H; reflexivity. Qed.

Lemma rewind_zero : forall im h,
  (forall x, memb x (i_tries im) = true -> x = 0) -> has_state im 0 = true -> rewind im h = 0.
Proof.
  intros im h Ht H0. induction h as [|h IH]; cbn [rewind].
  - rewrite H0. reflexivity.
  - destruct (has_state im (S h)) eqn:E; [|exact IH].
    unfold has_state in E. apply andb_prop in E. destruct E as [_ E]. apply Ht in E. discriminate.
Qed.

Lemma rewind_ext : forall im' im x, (forall y, has_state im' y = has_state im y) -> rewind im' x = rewind im x.
Proof. intros im' im x Hs. induction x as [|x IH]; cbn [rewind]; rewrite Hs; [reflexivity|]. rewrite IH. reflexivity. Qed.

Lemma rewind_idem : forall im h, rewind im (rewind im h) = rewind im h.
Proof.
  intros im h. induction h as [|h IH]; cbn [rewind].
  - destruct (has_state im 0) eqn:E; cbn [rewind]; rewrite E; reflexivity.
  - destruct (has_state im (S h)) eqn:E; [apply rewind_hit; exact E|exact IH].
Qed.

(** * the three outcomes of the repair and Store.Load *)
Lemma heights_loaded : forall im h,
  i_head im = Some h -> has_state im h = true -> memb h (i_cstates im) = true -> heights_of im = (h, h, true).
Proof. intros im h Hh Hs Hm. unfold heights_of. rewrite Hh, (rewind_hit _ _ Hs), Hm. reflexivity. Qed.

Lemma heights_fallback : forall im h,
  i_head im = Some h -> has_state im h = true -> memb h (i_cstates im) = false -> heights_of im = (h, 0, false).
Proof. intros im h Hh Hs Hm. unfold heights_of. rewrite Hh, (rewind_hit _ _ Hs), Hm. reflexivity. Qed.

Lemma heights_rewound : forall im h,
  i_head im = Some h -> (forall x, memb x (i_tries im) = true -> x = 0) -> has_state im 0 = true ->
  memb 0 (i_cstates im) = true -> heights_of im = (0, 0, true).
Proof. intros im h Hh Ht H0 Hm. unfold heights_of. rewrite Hh, (rewind_zero _ _ Ht H0), Hm. reflexivity. Qed.

(** every field of [recover_view] but the signatures and the panic flag, from [heights_of] *)
Lemma recover_view_fields : forall sc tl im v hh hc ld, heights_of im = (hh, hc, ld) ->
  let o := recover_view sc tl im v in
  r_ok o = true /\ r_hh o = hh /\ r_hc o = hc /\ r_start o = S hc /\ r_fellback o = negb ld && negb (hh =? 0) /\
  r_repl_meta o = r_repl_canon o && (hh <? S hc) /\
  r_replay o = (if match tl with TTorn => wv_lv2 v | _ => false end then RcNoMarker
                else if wv_fstart v then RcEndPresent
                else if negb (wv_fhc v) && negb (hc =? 0) then RcNoMarker else RcReplayed).
Proof.
  intros sc tl im v hh hc ld H. cbv zeta.
  (* open the one copy of [recover_view] in the equation, not those under the projections *)
  remember (recover_view sc tl im v) as o eqn:Eo. unfold recover_view in Eo. rewrite H in Eo.
  match type of Eo with context [let '(s, p) := ?X in _] => destruct X as [s p] end.
  subst o. repeat split; reflexivity.
Qed.

(** #ENDHEIGHT of the start height is in the WAL: no replay, the height is run from scratch;
    [same]: a block re-created now equals the one published before the crash *)
Lemma sigs_end_present : forall sc tl im v hh hc ld, heights_of im = (hh, hc, ld) -> wv_fstart v = true ->
  let same := negb (wv_pubtx v) && negb (sc_newtx sc) &&
              ((sc_appfixed sc || negb (S hc =? 1) || negb ld) && negb (memb hc (i_badapps im))) in
  r_onstart_panic (recover_view sc tl im v) = false /\
  r_sigs (recover_view sc tl im v) =
  [mk_sig true 0 (S hc) 1 false (rel_of (wv_pubp v) same);
   mk_sig false 1 (S hc) 1 false (rel_of (wv_pubv1 v) same);
   mk_sig false 2 (S hc) 1 false (rel_of (wv_pubv2 v) same)].
Proof.
  intros sc tl im v hh hc ld H Hf. unfold recover_view. rewrite H, Hf. split; reflexivity.
Qed.

(** a head pointer is all NewBlockChain needs to succeed *)
Lemma recover_heights : forall sc tl im h0 hh hc ld, i_head im = Some h0 -> heights_of im = (hh, hc, ld) ->
  let o := recover sc tl im in
  stores_agree o = (hh =? hc) /\ r_hh o = hh /\ r_start o = S hc /\ r_fellback o = negb ld && negb (hh =? 0).
Proof.
  intros sc tl im h0 hh hc ld Hh H. cbv zeta. unfold recover. rewrite Hh, andb_false_r.
  destruct (recover_view_fields sc tl im (view_of (S (snd (fst (heights_of im)))) (snd (fst (heights_of im))) (i_wal im)) _ _ _ H)
    as (Hok & Hhh & Hhc & Hst & Hfb & _).
  unfold stores_agree. rewrite Hok, Hhh, Hhc. repeat split; assumption.
Qed.

Lemma recover_loaded : forall sc tl im h,
  i_head im = Some h -> has_state im h = true -> memb h (i_cstates im) = true ->
  stores_agree (recover sc tl im) = true /\ r_hh (recover sc tl im) = h /\ r_start (recover sc tl im) = S h
  /\ r_fellback (recover sc tl im) = false.
Proof.
  intros sc tl im h Hh Hs Hm.
  pose proof (recover_heights sc tl im h h h true Hh (heights_loaded im h Hh Hs Hm)) as H.
  rewrite Nat.eqb_refl in H. exact H.
Qed.

Lemma recover_fallback : forall sc tl im h,
  i_head im = Some (S h) -> has_state im (S h) = true -> memb (S h) (i_cstates im) = false ->
  stores_agree (recover sc tl im) = false /\ r_hh (recover sc tl im) = S h /\ r_start (recover sc tl im) = 1
  /\ r_fellback (recover sc tl im) = true.
Proof.
  intros sc tl im h Hh Hs Hm. exact (recover_heights sc tl im (S h) (S h) 0 false Hh (heights_fallback im (S h) Hh Hs Hm)).
Qed.

Lemma recover_rewound : forall sc tl im h,
  i_head im = Some h ->
  (forall x, memb x (i_tries im) = true -> x = 0) -> has_state im 0 = true -> memb 0 (i_cstates im) = true ->
  stores_agree (recover sc tl im) = true /\ r_hh (recover sc tl im) = 0 /\ r_start (recover sc tl im) = 1.
Proof.
  intros sc tl im h Hh Ht H0 Hm.
  destruct (recover_heights sc tl im h 0 0 true Hh (heights_rewound im h Hh Ht H0 Hm)) as (H1 & H2 & H3 & _).
  repeat split; assumption.
Qed.

(** what every write of a list preserves holds at each of its crash points *)
Lemma crash_inv : forall (P : image -> Prop) (l : list entry),
  (forall e im, In e l -> P im -> P (apply_entry e im)) ->
  forall i im, P im -> P (fold_left (fun im e => apply_entry e im) (firstn i l) im).
Proof.
  intros P l Hstep i. revert l Hstep. induction i as [|i IH]; intros [|e l] Hstep im H; try exact H.
  cbn [firstn fold_left]. apply IH; [intros e' im' He'; apply Hstep; right; exact He'|].
  apply Hstep; [left; reflexivity|exact H].
Qed.

(** flush-every-block mode, crash before the head batch (indices 0..9): head, state and
    consensus-state record are those of height n, and no block was re-applied *)
Lemma crash_img_before_head : forall txs n i, i <= 9 ->
  let im := crash_img txs true n i in
  i_head im = Some n /\ has_state im n = true /\ memb n (i_cstates im) = true /\ i_badapps im = [].
Proof.
  intros txs n i Hi. cbv zeta. unfold crash_img, has_state.
  replace (firstn i (pipeline txs true (S n))) with (firstn i (firstn 9 (pipeline txs true (S n))))
    by (rewrite firstn_firstn, Nat.min_l by exact Hi; reflexivity).
  apply crash_inv.
  - (* the first nine writes leave the head and the records alone and only add app hashes and roots;
       the app-hash batch is that of a height above the head *)
    intros e im He (Hh & Hs & Hc & Hb). apply andb_prop in Hs. destruct Hs as [Ha Hr].
    assert (Hn : (S n <=? n) = false) by (apply Nat.leb_gt; lia).
    cbn [pipeline app firstn] in He.
    repeat (destruct He as [<-|He];
      [cbn [apply_entry apply_db add_wal i_head i_tries i_apps i_cstates i_badapps];
       rewrite ?memb_app, ?Ha, ?Hr, ?Hc, ?Hh, ?Hn; auto|]).
    destruct He.
  - cbn -[seq memb]. rewrite !memb_self_seq0. auto.
Qed.

Lemma archive_before_head : forall txs sc tl n i, i <= 9 ->
  let o := recover sc tl (crash_img txs true n i) in
  stores_agree o = true /\ r_hh o = n /\ r_start o = S n /\ r_fellback o = false.
Proof.
  intros txs sc tl n i Hi. destruct (crash_img_before_head txs n i Hi) as (Hh & Hs & Hm & _).
  exact (recover_loaded sc tl _ n Hh Hs Hm).
Qed.

(** flush-every-block mode, crash after the head batch and before the consensus-state batch *)
Lemma archive_after_head : forall txs sc tl n,
  let o := recover sc tl (crash_img txs true n 10) in
  stores_agree o = false /\ r_hh o = S n /\ r_start o = 1 /\ r_fellback o = true.
Proof.
  intros. cbv zeta. apply recover_fallback; unfold has_state; cbn -[seq memb];
    [reflexivity|rewrite !memb_snoc; reflexivity|apply memb_succ_seq0].
Qed.

(** flush-every-block mode, the whole pipeline done *)
Lemma archive_complete : forall txs sc tl n,
  let o := recover sc tl (crash_img txs true n 11) in
  stores_agree o = true /\ r_hh o = S n /\ r_start o = S (S n) /\ r_fellback o = false.
Proof.
  intros. cbv zeta. apply recover_loaded; unfold has_state; cbn -[seq memb];
    [reflexivity|rewrite !memb_snoc; reflexivity|apply memb_snoc].
Qed.

(** keep-recent mode: at every crash point only the genesis root is on disk *)
Lemma crash_img_keeprecent : forall txs n i,
  let im := crash_img txs false n i in
  (exists h, i_head im = Some h) /\ (forall x, memb x (i_tries im) = true -> x = 0) /\
  has_state im 0 = true /\ memb 0 (i_cstates im) = true.
Proof.
  intros txs n i. cbv zeta. unfold crash_img, has_state. apply crash_inv.
  - (* no write of the pipeline removes an entry or adds a root *)
    intros e im He (Hh & Ht & Hs & Hc). apply andb_prop in Hs. destruct Hs as [Ha Hr].
    cbn [pipeline app] in He.
    repeat (destruct He as [<-|He];
      [cbn [apply_entry apply_db add_wal i_head i_tries i_apps i_cstates];
       rewrite ?memb_app, ?Ha, ?Hr, ?Hc; eauto|]).
    destruct He.
  - cbn -[seq memb]. repeat split; [eexists; reflexivity|intros [|x] H; [reflexivity|discriminate]].
Qed.

(** ... so the head is rewound to genesis and the node starts at height 1 *)
Lemma keeprecent_any : forall txs sc tl n i,
  let o := recover sc tl (crash_img txs false n i) in
  stores_agree o = true /\ r_hh o = 0 /\ r_start o = 1.
Proof.
  intros txs sc tl n i. destruct (crash_img_keeprecent txs n i) as ([h Hh] & Ht & H0 & Hm).
  exact (recover_rewound sc tl _ h Hh Ht H0 Hm).
Qed.

(** * the WAL of a crash image: a prefix of the log of one more finished height *)
Definition wal_of (e : entry) : list rkind := match e with EWal r => r | EDb _ => [] end.

Lemma i_wal_apply_db : forall w im, i_wal (apply_db w im) = i_wal im.
Proof. intros w im. destruct w; reflexivity. Qed.

Lemma i_wal_fold : forall es im,
  i_wal (fold_left (fun im e => apply_entry e im) es im) = i_wal im ++ flat_map wal_of es.
Proof.
  induction es as [|e es IH]; intros im; cbn [fold_left flat_map]; [rewrite app_nil_r; reflexivity|].
  rewrite IH. destruct e; cbn [apply_entry wal_of].
  - rewrite i_wal_apply_db. reflexivity.
  - cbn [add_wal i_wal]. rewrite <- app_assoc. reflexivity.
Qed.

Lemma i_wal_crash_img : forall txs archive n i,
  i_wal (crash_img txs archive n i) = wal_upto txs n ++ flat_map wal_of (firstn i (pipeline txs archive (S n))).
Proof. intros. unfold crash_img. rewrite i_wal_fold. reflexivity. Qed.

Lemma wal_of_pipeline : forall txs archive h, flat_map wal_of (pipeline txs archive h) = wal_height txs h.
Proof. intros. destruct archive; reflexivity. Qed.

Lemma crash_img_wal_prefix : forall txs archive n i,
  exists rest, wal_upto txs (S n) = i_wal (crash_img txs archive n i) ++ rest.
Proof.
  intros. exists (flat_map wal_of (skipn i (pipeline txs archive (S n)))).
  rewrite i_wal_crash_img, <- app_assoc, <- flat_map_app, firstn_skipn, wal_of_pipeline. reflexivity.
Qed.

(** from the #ENDHEIGHT fsync to the head batch the prefix is the whole log *)
Lemma crash_img_wal_after_end : forall txs n i, 7 <= i <= 9 ->
  i_wal (crash_img txs true n i) = wal_upto txs (S n).
Proof.
  intros txs n i Hi. rewrite i_wal_crash_img.
  assert (E : i = 7 \/ i = 8 \/ i = 9) by lia. destruct E as [->|[->| ->]]; reflexivity.
Qed.

Lemma in_wal_upto_height : forall txs n h x t, In (RProp h x t) (wal_upto txs n) -> 1 <= h <= n /\ t = txs h.
Proof.
  intros txs n. induction n as [|n IH]; intros h x t H.
  - cbn in H. destruct H as [H|[]]. discriminate.
  - cbn [wal_upto] in H. apply in_app_or in H. destruct H as [H|H].
    + apply IH in H. destruct H as [H1 H2]. split; [lia|exact H2].
    + cbn in H. repeat (destruct H as [H|H]; try discriminate). 2: destruct H.
      injection H as <- <- <-. split; [lia|reflexivity].
Qed.

(** the proposals in the WAL of a crash image are those of the chain ... *)
Lemma crash_img_prop_tx : forall txs archive n i h x t,
  In (RProp h x t) (i_wal (crash_img txs archive n i)) -> t = txs h.
Proof.
  intros txs archive n i h x t H. destruct (crash_img_wal_prefix txs archive n i) as [rest E].
  apply (in_wal_upto_height txs (S n) h x). rewrite E. apply in_or_app. left. exact H.
Qed.

(** ... and the one of the crash height is not among them before the second durable write *)
Lemma crash_img_no_prop : forall txs archive n i x t, i <= 1 ->
  ~ In (RProp (S n) x t) (i_wal (crash_img txs archive n i)).
Proof.
  intros txs archive n i x t Hi H. rewrite i_wal_crash_img in H. apply in_app_or in H. destruct H as [H|H].
  - apply in_wal_upto_height in H. lia.
  - destruct i as [|[|i]]; [destruct H|destruct H as [H|[H|[]]]; discriminate|lia].
Qed.

(** * the closed-form image and the fold of the observed log agree on the head pointer *)
Lemma head_after_pipeline : forall txs archive h im,
  i_head (fold_left (fun im e => apply_entry e im) (pipeline txs archive h) im) = Some h.
Proof. intros txs archive h im. unfold pipeline. destruct archive; reflexivity. Qed.

Lemma image_head_of_chain_log : forall txs archive n,
  i_head (fold_left (fun im e => apply_entry e im)
            (flat_map (fun h => pipeline txs archive h) (seq 1 n)) (img_after txs archive 0))
  = i_head (img_after txs archive n).
Proof.
  intros txs archive n. destruct n as [|n]; [reflexivity|].
  replace (S n) with (n + 1) at 1 by lia. rewrite seq_app, flat_map_app, fold_left_app.
  cbn [seq flat_map]. rewrite app_nil_r, head_after_pipeline. cbn [img_after i_head]. f_equal; lia.
Qed.

(** * witnesses for the crash points where the property fails (closed computations) *)
Definition sc_fixed : scen := {| sc_appfixed := true; sc_newtx := false |}.
Definition tx_all : nat -> bool := fun _ => true.
Definition tx_none : nat -> bool := fun _ => false.

(** crash index 7 of height 3 (after the #ENDHEIGHT fsync, before the app-hash batch), two heights
    done; the conflict at indices 7, 8, 9 is an instance of ProofsNoConflict.conflict_after_endheight,
    kept here as a computation *)
Lemma witness_endheight :
  let o := recover sc_fixed TSynced (crash_img tx_all true 2 7) in
  r_replay o = RcEndPresent /\ r_start o = 3 /\ no_conflict o = false /\ r_repl_meta o = true /\ stores_agree o = true.
Proof. vm_compute. repeat split; reflexivity. Qed.

Lemma witness_endheight_8_9 :
  no_conflict (recover sc_fixed TSynced (crash_img tx_all true 2 8)) = false /\
  no_conflict (recover sc_fixed TSynced (crash_img tx_all true 2 9)) = false.
Proof. vm_compute. split; reflexivity. Qed.

(** crash index 10 of height 3 (after the head batch, before the consensus-state batch) *)
Lemma witness_fallback :
  let o := recover sc_fixed TSynced (crash_img tx_all true 2 10) in
  r_fellback o = true /\ r_start o = 1 /\ r_hh o = 3 /\ r_replay o = RcEndPresent /\ no_conflict o = false.
Proof. vm_compute. repeat split; reflexivity. Qed.

(** keep-recent mode, crash index 0 of height 2 (right after height 1 was recorded) *)
Lemma witness_rewound :
  let o := recover sc_fixed TSynced (crash_img tx_all false 1 0) in
  r_hh o = 0 /\ r_start o = 1 /\ r_replay o = RcEndPresent /\ no_conflict o = false /\ r_repl_meta o = true.
Proof. vm_compute. repeat split; reflexivity. Qed.

(** replay re-signs a different proposal: crash index 2 of height 3 (own proposal fsynced) *)
Lemma witness_resign :
  let o := recover sc_fixed TSynced (crash_img tx_all true 2 2) in
  r_replay o = RcReplayed /\ no_conflict o = false /\
  match r_sigs o with s :: _ => s_prop s = true /\ s_rel s = RelConf | [] => False end.
Proof. vm_compute. repeat split; reflexivity. Qed.

(** without transactions the re-created block is the logged one: no conflict at any crash point
    before the head batch in flush mode, after 0..4 finished heights *)
Definition all_ok (archive : bool) (txs : nat -> bool) (n i : nat) : bool :=
  no_conflict (recover sc_fixed TSynced (crash_img txs archive n i)).

Lemma no_conflict_empty_blocks_small :
  forallb (fun n => forallb (fun i => all_ok true tx_none n i) (seq 0 10)) (seq 0 5) = true.
Proof. vm_compute. reflexivity. Qed.

(** with transactions: no conflict at the two crash points before the own proposal is durable *)
Lemma no_conflict_before_proposal_small :
  forallb (fun n => all_ok true tx_all n 0 && all_ok true tx_all n 1) (seq 0 5) = true.
Proof. vm_compute. reflexivity. Qed.

(** * second crash: recovery is idempotent on the durable image.
    The only database write a recovery makes to the chain pointers before consensus starts is
    the head-pointer rewrite of setHeadBeyondRoot; recovering again from the image that
    contains it gives the same answer. *)
Lemma heights_headptr : forall im h, i_head im = Some h -> heights_of (apply_db WHeadPtr im) = heights_of im.
Proof.
  intros im h Hh. unfold heights_of. cbn [apply_db i_head i_cstates]. rewrite Hh.
  rewrite (rewind_ext _ im) by (intro y; reflexivity). rewrite rewind_idem. reflexivity.
Qed.

(** beside the WAL view, [recover_view] reads an image through [heights_of] and three of its fields *)
Lemma recover_view_ext : forall sc tl im' im v,
  heights_of im' = heights_of im -> i_blocks im' = i_blocks im -> i_txblocks im' = i_txblocks im ->
  i_badapps im' = i_badapps im -> recover_view sc tl im' v = recover_view sc tl im v.
Proof. intros sc tl im' im v H1 H2 H3 H4. unfold recover_view. rewrite H1, H2, H3, H4. reflexivity. Qed.

Lemma second_crash_headptr : forall sc tl im h, i_head im = Some h ->
  recover sc tl (apply_db WHeadPtr im) = recover sc tl im.
Proof.
  intros sc tl im h Hh. unfold recover. rewrite (heights_headptr im h Hh).
  rewrite (recover_view_ext sc tl (apply_db WHeadPtr im) im) by (exact (heights_headptr im h Hh) || reflexivity).
  cbn [apply_db i_canon0 i_head i_wal]. rewrite Hh. reflexivity.
Qed.
