(** C05 — BaseWAL.SearchForEndHeight over a rotated WAL group (lemmas).

    The search goes through the files of the group newest first, each file front to back, keeps
    lastHeightFound ACROSS files and gives up at the end of a file when
    [0 < lastHeightFound < height].  Main result: on a log whose non-zero markers increase
    (what a node that never re-ran a height has written, with any number of #ENDHEIGHT 0
    markers that BaseWAL.OnStart put into empty heads), the search for a height >= 1 does not
    depend on where the log was cut into files: it finds what the search of the unrotated log
    finds, and the reader goes on through all younger files. *)
From Coq Require Import List Arith Bool Lia.
From Kardia Require Import C05.Model.
Import ListNotations.

Fixpoint markers (l : list rkind) : list nat :=
  match l with
  | [] => []
  | REnd x :: t => x :: markers t
  | _ :: t => markers t
  end.

Lemma markers_app : forall l1 l2, markers (l1 ++ l2) = markers l1 ++ markers l2.
Proof.
  induction l1 as [|r t IH]; intros l2; [reflexivity|].
  destruct r; cbn [app markers]; rewrite ?IH; reflexivity.
Qed.

Lemma has_end_markers : forall h l, has_end h l = true <-> In h (markers l).
Proof.
  intros h l. induction l as [|r t IH]; cbn [has_end existsb markers].
  - split; [discriminate|intros []].
  - fold (has_end h t). destruct r; cbn [is_end orb markers]; try exact IH.
    rewrite orb_true_iff, IH, Nat.eqb_eq. cbn [In]. tauto.
Qed.

Lemma has_end_app : forall h l1 l2, has_end h (l1 ++ l2) = has_end h l1 || has_end h l2.
Proof. intros. unfold has_end. apply existsb_app. Qed.

Lemma after_end_app : forall h l1 l2,
  after_end h (l1 ++ l2) = if has_end h l1 then after_end h l1 ++ l2 else after_end h l2.
Proof.
  induction l1 as [|r t IH]; intros l2; [reflexivity|].
  cbn [app after_end has_end existsb]. destruct (is_end h r); [reflexivity|apply IH].
Qed.

(** the markers of a log increase, #ENDHEIGHT 0 markers aside: for every two markers x ... y,
    y = 0 or x < y *)
Definition mk_ok (x y : nat) : Prop := y = 0 \/ x < y.
Definition sorted_markers (l : list rkind) : Prop := ForallOrdPairs mk_ok (markers l).

Lemma fop_app : forall (R : nat -> nat -> Prop) a b,
  ForallOrdPairs R (a ++ b) <->
  ForallOrdPairs R a /\ ForallOrdPairs R b /\ (forall x y, In x a -> In y b -> R x y).
Proof.
  intros R a b. induction a as [|x a IH]; cbn [app].
  - split.
    + intros H. repeat split; [constructor|exact H|intros x y []].
    + intros [_ [H _]]. exact H.
  - split.
    + intros H. inversion H as [|x' l' Hx Hl]; subst. apply IH in Hl. destruct Hl as [Ha [Hb Hab]].
      apply Forall_app in Hx. destruct Hx as [Hxa Hxb].
      repeat split; [constructor; assumption|exact Hb|].
      intros u v [Hu|Hu] Hv; [subst u; rewrite Forall_forall in Hxb; apply Hxb; exact Hv|apply Hab; assumption].
    + intros [Ha [Hb Hab]]. inversion Ha as [|x' l' Hx Hl]; subst. constructor.
      * apply Forall_app. split; [exact Hx|]. apply Forall_forall. intros v Hv. apply Hab; [left; reflexivity|exact Hv].
      * apply IH. repeat split; [exact Hl|exact Hb|]. intros u v Hu Hv. apply Hab; [right; exact Hu|exact Hv].
Qed.

Lemma sorted_app : forall l1 l2, sorted_markers (l1 ++ l2) <->
  sorted_markers l1 /\ sorted_markers l2 /\ (forall x y, In x (markers l1) -> In y (markers l2) -> mk_ok x y).
Proof. intros. unfold sorted_markers. rewrite markers_app. apply fop_app. Qed.

(** a non-zero marker occurs at most once in a sorted log *)
Lemma sorted_unique : forall l1 l2 h, 1 <= h -> sorted_markers (l1 ++ l2) ->
  has_end h l2 = true -> has_end h l1 = false.
Proof.
  intros l1 l2 h Hh Hs H2. destruct (has_end h l1) eqn:H1; [|reflexivity].
  apply sorted_app in Hs. destruct Hs as [_ [_ Hx]].
  apply has_end_markers in H1. apply has_end_markers in H2.
  destruct (Hx h h H1 H2); lia.
Qed.

(** lastHeightFound after a file in which the marker is not found *)
Fixpoint lastm (last : option nat) (f : list rkind) : option nat :=
  match f with
  | [] => last
  | REnd x :: t => lastm (Some x) t
  | _ :: t => lastm last t
  end.

Lemma scan_file_eq : forall h f last,
  scan_file h last f = if has_end h f then inl (after_end h f) else inr (lastm last f).
Proof.
  induction f as [|r t IH]; intros last; [reflexivity|].
  destruct r; cbn [scan_file after_end lastm has_end existsb is_end orb]; try apply IH.
  fold (has_end h t). destruct (h0 =? h); [reflexivity|apply IH].
Qed.

(** lastHeightFound never stops a search for [h] when it is unset, 0, or above [h] *)
Definition good_last (h : nat) (last : option nat) : Prop :=
  match last with None => True | Some l => l = 0 \/ h < l end.

Lemma good_no_shortcut : forall h last, good_last h last -> shortcut last h = false.
Proof.
  intros h [l|] H; [|reflexivity]. cbn [shortcut]. destruct H as [H|H].
  - subst l. reflexivity.
  - apply andb_false_iff. right. apply Nat.ltb_ge. lia.
Qed.

Lemma lastm_good : forall h f last, good_last h last ->
  (forall y, In y (markers f) -> y = 0 \/ h < y) -> good_last h (lastm last f).
Proof.
  induction f as [|r t IH]; intros last Hl Hm; [exact Hl|].
  destruct r; cbn [lastm markers] in *; try (apply IH; [exact Hl|exact Hm]).
  apply IH; [cbn; apply Hm; left; reflexivity|intros y Hy; apply Hm; right; exact Hy].
Qed.

Lemma search_rev_none : forall h rfs last newer,
  (forall f, In f rfs -> has_end h f = false) -> search_rev h last rfs newer = None.
Proof.
  induction rfs as [|f older IH]; intros last newer H; [reflexivity|].
  cbn [search_rev]. rewrite scan_file_eq, (H f (or_introl eq_refl)).
  destruct (shortcut _ h); [reflexivity|]. apply IH. intros g Hg. apply H. right. exact Hg.
Qed.

Lemma has_end_concat_false : forall h fs, has_end h (concat fs) = false -> forall f, In f fs -> has_end h f = false.
Proof.
  induction fs as [|g fs IH]; intros H f Hf; [destruct Hf|].
  cbn [concat] in H. rewrite has_end_app in H. apply orb_false_iff in H. destruct H as [H1 H2].
  destruct Hf as [Hf|Hf]; [subst; exact H1|apply IH; assumption].
Qed.

Lemma search_rev_sorted : forall h, 1 <= h -> forall rfs last newer,
  good_last h last -> sorted_markers (concat (rev rfs)) ->
  search_rev h last rfs newer =
  match flat_search h (concat (rev rfs)) with Some recs => Some (recs ++ newer) | None => None end.
Proof.
  intros h Hh. induction rfs as [|f older IH]; intros last newer Hl Hs; [reflexivity|].
  cbn [rev] in *. rewrite concat_app in *. cbn [concat] in *. rewrite app_nil_r in *.
  set (A := concat (rev older)) in *.
  cbn [search_rev]. unfold flat_search. rewrite scan_file_eq, has_end_app.
  destruct (has_end h f) eqn:Hf.
  - (* the marker is in this file: it is in no older one *)
    rewrite after_end_app, (sorted_unique _ _ _ Hh Hs Hf). reflexivity.
  - rewrite orb_false_r.
    destruct (has_end h A) eqn:HA.
    + (* the marker is in an older file: every marker of this file comes after it *)
      assert (Hm : forall y, In y (markers f) -> y = 0 \/ h < y).
      { intros y Hy. apply sorted_app in Hs. destruct Hs as [_ [_ Hx]].
        apply Hx; [apply has_end_markers; exact HA|exact Hy]. }
      rewrite (good_no_shortcut _ _ (lastm_good _ _ _ Hl Hm)).
      rewrite IH; [|exact (lastm_good _ _ _ Hl Hm)|apply sorted_app in Hs; tauto].
      unfold flat_search. fold A. rewrite after_end_app, HA, <- app_assoc. reflexivity.
    + (* the marker is nowhere *)
      destruct (shortcut _ h); [reflexivity|].
      apply search_rev_none. intros g Hg. apply (has_end_concat_false h (rev older)); [exact HA|].
      apply in_rev. rewrite rev_involutive. exact Hg.
Qed.

(** the search of a sorted group = the search of the unrotated log *)
Lemma search_sorted : forall h fs, 1 <= h -> sorted_markers (concat fs) ->
  search h fs = flat_search h (concat fs).
Proof.
  intros h fs Hh Hs. unfold search.
  rewrite (search_rev_sorted h Hh (rev fs) None []); [|exact I|rewrite rev_involutive; exact Hs].
  rewrite rev_involutive. destruct (flat_search h (concat fs)); [rewrite app_nil_r|]; reflexivity.
Qed.

Definition notrot (r : rkind) : bool := match r with RRot => false | _ => true end.

Lemma split_files_cons : forall wal, exists f fs, split_files wal = f :: fs.
Proof.
  induction wal as [|r t [f [fs IH]]]; [exists [], []; reflexivity|].
  destruct r; cbn [split_files]; rewrite ?IH; eauto.
Qed.

Lemma concat_split_files : forall wal, concat (split_files wal) = filter notrot wal.
Proof.
  induction wal as [|r t IH]; [reflexivity|].
  destruct (split_files_cons t) as [f [fs E]].
  destruct r; cbn [split_files filter notrot]; rewrite ?E; cbn [concat app]; try (rewrite <- IH, E; reflexivity).
Qed.

Lemma split_files_norot : forall wal, forallb notrot wal = true -> split_files wal = [wal].
Proof.
  induction wal as [|r t IH]; intros H; [reflexivity|].
  cbn [forallb] in H. apply andb_prop in H. destruct H as [Hr Ht].
  destruct r; cbn [split_files]; try (rewrite (IH Ht); reflexivity). discriminate.
Qed.

(** BaseWAL.OnStart only ever adds a #ENDHEIGHT 0 *)
Lemma concat_onstart : forall fs, fs <> [] ->
  concat (wal_onstart fs) = concat fs \/ concat (wal_onstart fs) = concat fs ++ [REnd 0].
Proof.
  induction fs as [|f fs IH]; intros H; [contradiction|].
  destruct fs as [|g fs].
  - cbn [wal_onstart concat]. destruct f; [right|left]; reflexivity.
  - change (wal_onstart (f :: g :: fs)) with (f :: wal_onstart (g :: fs)). cbn [concat].
    destruct (IH ltac:(discriminate)) as [E|E]; rewrite E; [left; reflexivity|right].
    cbn [concat]. rewrite app_assoc. reflexivity.
Qed.

Lemma onstart_single : forall r t, wal_onstart [r :: t] = [r :: t].
Proof. reflexivity. Qed.

(** a durable log without rotation marks is the one file of its group, and OnStart leaves it alone *)
Lemma files_unrotated : forall wal, forallb notrot wal = true -> wal <> [] -> wal_onstart (split_files wal) = [wal].
Proof.
  intros wal Hr Hne. rewrite (split_files_norot wal Hr). destruct wal; [contradiction|apply onstart_single].
Qed.

(** a group that was never rotated: the search is the search of its one file *)
Lemma search_single : forall h f, search h [f] = flat_search h f.
Proof.
  intros h f. unfold search, flat_search. cbn [rev app search_rev]. rewrite scan_file_eq.
  destruct (has_end h f); [rewrite app_nil_r; reflexivity|]. destruct (shortcut _ h); reflexivity.
Qed.
