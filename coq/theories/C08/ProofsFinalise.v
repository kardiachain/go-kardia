(** C08 proofs: Finalise, IntermediateRoot and Commit, field by field.
    Each of the three is a few record updates on top of the previous one, and every record update
    mentions its argument once per field.  A conversion between two fields of [commit de s] with all
    three definitions open compares those towers level by level, which takes the checker minutes.
    Every lemma here opens ONE definition, puts a variable [s1] for the state below it and computes
    the field ([ss]) while [s1] is still a variable: the conversion is then checked under the binder
    and never sees the state below.  The other files use these equations instead of unfolding. *)
From Coq Require Import List ZArith NArith Bool.
From Kardia Require Import C08.Model C08.ProofsEqv.
Import ListNotations.
Local Open Scope N_scope.

(* Conversion order only, and meant for every file that imports this one: where the checker meets
   one of the three opposite another constant it unfolds the other one first.  Without this,
   [ss_st (with_st ss (intermediate_root de s))] against [intermediate_root de s]
   (ProofsSnapBridge.handover_content) is decided by unfolding [intermediate_root] on both sides. *)
Strategy 1000 [finalise intermediate_root commit].

(** what the three have in common: the journal and the revision stack are dropped; the revision
    counter, the crash flag, the access list and the log counter are not touched *)
Definition finalised (s s' : state) : Prop :=
  st_journal s' = nil /\ st_revs s' = nil /\ st_nextrev s' = st_nextrev s /\ st_crashed s' = st_crashed s /\
  st_aladdrs s' = st_aladdrs s /\ st_alslots s' = st_alslots s /\ st_logsize s' = st_logsize s.

Lemma finalise_finalised : forall de s, finalised s (finalise de s).
Proof.
  intros de s. unfold finalised, finalise, clear_journal_and_refund. ss.
  destruct (st_journal s) eqn:J; ss; auto 10.
Qed.

Lemma finalise_trie : forall de s, st_trie (finalise de s) = st_trie s.
Proof. intros de s. unfold finalise, clear_journal_and_refund. ss. destruct (st_journal s); reflexivity. Qed.

Lemma finalise_objs : forall de s a,
  st_objs (finalise de s) a =
  if N.ltb 0 (st_dirties s a) then
    match st_objs s a with
    | Some o => if o_suicided o || (de && obj_empty o) then Some (seto_deleted o true) else Some (obj_finalise o)
    | None => None
    end
  else st_objs s a.
Proof. intros de s a. unfold finalise, clear_journal_and_refund. ss. destruct (st_journal s); reflexivity. Qed.

Lemma finalise_destruct : forall de s a,
  st_destruct (finalise de s) a =
  if N.ltb 0 (st_dirties s a) then
    match st_objs s a with
    | Some o => if o_suicided o || (de && obj_empty o) then true else st_destruct s a
    | None => st_destruct s a
    end
  else st_destruct s a.
Proof. intros de s a. unfold finalise, clear_journal_and_refund. ss. destruct (st_journal s); reflexivity. Qed.

Lemma finalise_pending : forall de s a,
  st_pending (finalise de s) a = (N.ltb 0 (st_dirties s a) && is_some (st_objs s a)) || st_pending s a.
Proof. intros de s a. unfold finalise, clear_journal_and_refund. ss. destruct (st_journal s); reflexivity. Qed.

Lemma intermediate_root_finalised : forall de s, finalised s (intermediate_root de s).
Proof.
  intros de s. unfold intermediate_root.
  generalize (finalise_finalised de s). generalize (finalise de s). intros s1 H. unfold finalised in *. ss. exact H.
Qed.

Lemma intermediate_root_objs : forall de s a,
  st_objs (intermediate_root de s) a =
  if st_pending (finalise de s) a then
    match st_objs (finalise de s) a with
    | Some o => if o_deleted o then Some o else Some (obj_update_trie o)
    | None => None
    end
  else st_objs (finalise de s) a.
Proof. intros de s a. unfold intermediate_root. generalize (finalise de s). intro s1. ss. reflexivity. Qed.

Lemma intermediate_root_trie : forall de s a,
  st_trie (intermediate_root de s) a =
  if st_pending (finalise de s) a then
    match st_objs (finalise de s) a with
    | Some o => if o_deleted o then None else Some (o_data (obj_update_trie o))
    | None => st_trie s a
    end
  else st_trie s a.
Proof.
  intros de s a. rewrite <- (finalise_trie de s). unfold intermediate_root. generalize (finalise de s). intro s1.
  ss. destruct (st_pending s1 a); [|reflexivity]. destruct (st_objs s1 a) as [o|]; [|reflexivity].
  destruct (o_deleted o) eqn:E; [|change (o_deleted (obj_update_trie o)) with (o_deleted o)]; rewrite E; reflexivity.
Qed.

Lemma intermediate_root_pending : forall de s a, st_pending (intermediate_root de s) a = false.
Proof. reflexivity. Qed.

Lemma intermediate_root_destruct : forall de s, st_destruct (intermediate_root de s) = st_destruct (finalise de s).
Proof. intros de s. unfold intermediate_root. generalize (finalise de s). intro s1. ss. reflexivity. Qed.

Lemma intermediate_root_dirtyset : forall de s, st_dirtyset (intermediate_root de s) = st_dirtyset (finalise de s).
Proof. intros de s. unfold intermediate_root. generalize (finalise de s). intro s1. ss. reflexivity. Qed.

Lemma commit_finalised : forall de s, finalised s (fst (commit de s)).
Proof.
  intros de s. unfold commit.
  generalize (intermediate_root_finalised de s). generalize (intermediate_root de s). intros s1 H. unfold finalised in *. ss. exact H.
Qed.

Lemma commit_objs : forall de s a,
  st_objs (fst (commit de s)) a =
  if st_dirtyset (intermediate_root de s) a then
    match st_objs (intermediate_root de s) a with
    | Some o => if o_deleted o then Some o else Some (obj_update_trie (seto_dirtycode o false))
    | None => None
    end
  else st_objs (intermediate_root de s) a.
Proof. intros de s a. unfold commit. generalize (intermediate_root de s). intro s1. ss. reflexivity. Qed.

(** the content Commit returns is the account trie IntermediateRoot left, which is also the account
    trie of the StateDB afterwards *)
Lemma commit_trie : forall de s, snd (commit de s) = st_trie (intermediate_root de s).
Proof. intros de s. unfold commit. generalize (intermediate_root de s). intro s1. ss. reflexivity. Qed.

Lemma commit_content : forall de s, snd (commit de s) = st_trie (fst (commit de s)).
Proof. intros de s. unfold commit. generalize (intermediate_root de s). intro s1. ss. reflexivity. Qed.

Lemma step_commit : forall de s, fst (step s (OCommit de)) = fst (commit de s).
Proof. intros de s. unfold step. destruct (commit de s). reflexivity. Qed.

Definition finalising (o : op) : bool :=
  match o with OFinalise _ | OIntermediateRoot _ | OCommit _ => true | _ => false end.

Lemma step_finalised : forall s o, finalising o = true -> finalised s (fst (step s o)).
Proof.
  intros s o H. destruct o; try discriminate.
  - apply finalise_finalised.
  - apply intermediate_root_finalised.
  - rewrite step_commit. apply commit_finalised.
Qed.
