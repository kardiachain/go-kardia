(** C08 — tie of the model's decisions to the Go SOURCE.
    [Generated/C08Source.v] is produced on every check by /verif/go2coq from /repo's working tree: every
    guard, counter update and flag store of
      kai/state/statedb.go      Snapshot, RevertToSnapshot, Finalise, IntermediateRoot, Commit, CreateAccount /
                                createObject, Suicide, AddRefund / SubRefund, Empty, getStateObject,
                                GetOrNewStateObject, clearJournalAndRefund, AddLog
      kai/state/state_object.go empty, AddBalance / SubBalance, SetState, GetState, GetCommittedState, touch, updateTrie
      kai/state/journal.go      journal.revert / append / dirty, resetObjectChange / suicideChange / addLogChange revert
      kai/state/snapshot        diffLayer.AccountRLP / accountRLP / Storage / storage / flatten, Tree.Cap / cap, diffToDisk
    as functions of their atoms.  The lemmas below say that the decisions of C08/Model.v and C08/ModelSnap.v
    ARE these expressions on these operands: each lemma rewrites a model definition into a form in which
    every branch is taken by the generated guard applied to the model's own data; the [_atoms] lists pin
    what the Go code compares.  Dropping or editing a guard in the Go source renames or changes the
    generated definition and this file no longer compiles. *)
From Coq Require Import List ZArith NArith Bool Lia String.
From Kardia Require Import Base.Int64 Base.GoSem Base.Conj.
From Kardia Require Import Generated.C08Source.
From Kardia Require Import C08.Model C08.ModelSnap C08.ProofsEqv C08.ProofsFinalise.
Import ListNotations.
Local Open Scope Z_scope.

(** big.Int.Sign as the Go int it returns *)
Definition sign_int (a : Z) : Z := match a ?= 0 with Lt => -1 | Eq => 0 | Gt => 1 end.

Lemma sign_int_zero a : Z.eqb (sign_int a) 0 = Z.eqb a 0.
Proof. unfold sign_int. destruct (Z.compare_spec a 0) as [H|H|H]; subst; cbn; auto; symmetry; apply Z.eqb_neq; lia. Qed.


(** ---------------------------------------------------------------- state_object.go *)

(** stateObject.empty: nonce == 0 && balance.Sign() == 0 && codehash == emptyCodeHash *)
Lemma tie_empty o :
  obj_empty o =
  kai_state__stateObject_empty__ret_s_data_Nonce_eq_0_and_s_data_Balance_Sign_eq_0_and_bytes_Equ_d1151db1
    (Z.of_N (ac_nonce (o_data o))) (sign_int (ac_balance (o_data o))) (N.eqb (ac_code (o_data o)) 0).
Proof.
  unfold obj_empty, kai_state__stateObject_empty__ret_s_data_Nonce_eq_0_and_s_data_Balance_Sign_eq_0_and_bytes_Equ_d1151db1.
  rewrite sign_int_zero. rewrite <- (ZofN_eqb (ac_nonce (o_data o)) 0). reflexivity.
Qed.
Lemma tie_empty_atoms :
  kai_state__stateObject_empty__ret_s_data_Nonce_eq_0_and_s_data_Balance_Sign_eq_0_and_bytes_Equ_d1151db1_atoms =
  ["s.data.Nonce : uint64"; "s.data.Balance.Sign() : int"; "bytes.Equal(s.data.CodeHash, types.EmptyCodeHash.Bytes()) : bool"]%string.
Proof. reflexivity. Qed.

(** stateObject.touch: the RIPEMD special case *)
Lemma tie_touch s a :
  touch s a =
  let s1 := jappend s (JTouch a) in
  if kai_state__stateObject_touch__if_s_address_eq_ripemd (N.eqb a ripemd)
  then set_dirties s1 (tupd (st_dirties s1) a (st_dirties s1 a + 1)%N) else s1.
Proof. reflexivity. Qed.
Lemma tie_touch_atoms : kai_state__stateObject_touch__if_s_address_eq_ripemd_atoms = ["s.address == ripemd : untyped bool"]%string.
Proof. reflexivity. Qed.

(** AddBalance / SubBalance: the zero-amount early exits; the touch only for an empty object *)
Lemma tie_add_balance s a amount :
  add_balance s a amount =
  let (s1, o) := get_or_new s a in
  if kai_state__stateObject_AddBalance__if_amount_Sign_eq_0 (sign_int amount)
  then (if kai_state__stateObject_AddBalance__if_s_empty (obj_empty o) then touch s1 a else s1)
  else obj_set_balance s1 a o (ac_balance (o_data o) + amount).
Proof.
  unfold add_balance, kai_state__stateObject_AddBalance__if_amount_Sign_eq_0, kai_state__stateObject_AddBalance__if_s_empty.
  rewrite sign_int_zero. reflexivity.
Qed.
Lemma tie_sub_balance s a amount :
  sub_balance s a amount =
  let (s1, o) := get_or_new s a in
  if kai_state__stateObject_SubBalance__if_amount_Sign_eq_0 (sign_int amount) then s1
  else obj_set_balance s1 a o (ac_balance (o_data o) - amount).
Proof.
  unfold sub_balance, kai_state__stateObject_SubBalance__if_amount_Sign_eq_0. rewrite sign_int_zero. reflexivity.
Qed.
Lemma tie_balance_atoms :
  kai_state__stateObject_AddBalance__if_amount_Sign_eq_0_atoms = ["amount.Sign() : int"]%string /\
  kai_state__stateObject_AddBalance__if_s_empty_atoms = ["s.empty() : bool"]%string /\
  kai_state__stateObject_SubBalance__if_amount_Sign_eq_0_atoms = ["amount.Sign() : int"]%string.
Proof. repeat split; reflexivity. Qed.

(** SetState: no journal entry and no write when the value is unchanged *)
Lemma tie_set_state s a k v :
  set_state s a k v =
  let (s1, o) := get_or_new s a in
  let (oc, prev) := obj_get_state (st_destruct s1 a) o k in
  let o1 := match oc with Some o' => o' | None => o end in
  let s2 := match oc with Some o' => put_obj s1 a o' | None => s1 end in
  if kai_state__stateObject_SetState__if_prev_eq_value (N.eqb prev v) then s2
  else put_obj (jappend s2 (JStorage a k prev)) a (seto_dirty o1 (fupd (o_dirty o1) k v)).
Proof. reflexivity. Qed.
Lemma tie_set_state_atoms : kai_state__stateObject_SetState__if_prev_eq_value_atoms = ["prev == value : untyped bool"]%string.
Proof. reflexivity. Qed.

(** GetState / GetCommittedState: dirty, pending, cached, then the destruct short-circuit, then the load *)
Lemma tie_get_state d o k :
  obj_get_state d o k =
  if kai_state__stateObject_GetState__if_dirty (is_some (o_dirty o k))
  then (None, match o_dirty o k with Some v => v | None => 0%N end)
  else obj_get_committed d o k.
Proof. unfold obj_get_state, kai_state__stateObject_GetState__if_dirty. destruct (o_dirty o k); reflexivity. Qed.

Lemma tie_get_committed d o k :
  obj_get_committed d o k =
  if kai_state__stateObject_GetCommittedState__if_pending (is_some (o_pending o k))
  then (None, match o_pending o k with Some v => v | None => 0%N end)
  else if kai_state__stateObject_GetCommittedState__if_cached (is_some (o_origin o k))
  then (None, match o_origin o k with Some v => v | None => 0%N end)
  else if kai_state__stateObject_GetCommittedState__if_destructed d then (None, 0%N)
  else let v := ac_storage (o_data o) k in (Some (seto_origin o (fupd (o_origin o) k v)), v).
Proof.
  unfold obj_get_committed, kai_state__stateObject_GetCommittedState__if_pending,
    kai_state__stateObject_GetCommittedState__if_cached, kai_state__stateObject_GetCommittedState__if_destructed.
  destruct (o_pending o k); [reflexivity|]. destruct (o_origin o k); [reflexivity|]. destruct d; reflexivity.
Qed.
Lemma tie_get_committed_atoms :
  kai_state__stateObject_GetState__if_dirty_atoms = ["dirty : bool"]%string /\
  kai_state__stateObject_GetCommittedState__if_pending_atoms = ["pending : bool"]%string /\
  kai_state__stateObject_GetCommittedState__if_cached_atoms = ["cached : bool"]%string /\
  kai_state__stateObject_GetCommittedState__if_destructed_atoms = ["destructed : bool"]%string /\
  kai_state__stateObject_GetCommittedState__if_s_db_snap_eq_nil_or_err_ne_nil_atoms = ["s.db.snap == nil : untyped bool"; "err != nil : untyped bool"]%string.
Proof. split_all; reflexivity. Qed.

(** updateTrie: a pending value equal to the origin value is skipped (trie and snapshot data alike) *)
Lemma tie_update_trie_skip o m k :
  snap_update_trie o m k =
  match o_pending (obj_finalise o) k with
  | Some v => if kai_state__stateObject_updateTrie__if_value_eq_s_originStorage_at_key (N.eqb v (originz (obj_finalise o) k))
              then m k else Some v
  | None => m k
  end.
Proof. reflexivity. Qed.
Lemma tie_update_trie_atoms :
  kai_state__stateObject_updateTrie__if_value_eq_s_originStorage_at_key_atoms = ["value == s.originStorage[key] : untyped bool"]%string /\
  kai_state__stateObject_updateTrie__if_len_s_pendingStorage_eq_0_atoms = ["len(s.pendingStorage) : int"]%string /\
  kai_state__stateObject_updateTrie__if_s_db_snap_ne_nil_atoms = ["s.db.snap != nil : untyped bool"]%string.
Proof. repeat split; reflexivity. Qed.

(** ---------------------------------------------------------------- statedb.go *)

(** getStateObject: obj != nil && !obj.deleted *)
Lemma tie_get_obj s a :
  get_obj s a =
  let (s1, r) := get_deleted s a in
  if kai_state__StateDB_getStateObject__if_obj_ne_nil_and_not_obj_deleted (is_some r)
       (match r with Some o => o_deleted o | None => false end)
  then (s1, r) else (s1, None).
Proof.
  unfold get_obj, kai_state__StateDB_getStateObject__if_obj_ne_nil_and_not_obj_deleted.
  destruct (get_deleted s a) as [s1 [o|]]; cbn; [destruct (o_deleted o)|]; reflexivity.
Qed.

(** GetOrNewStateObject *)
Lemma tie_get_or_new s a :
  get_or_new s a =
  let (s1, r) := get_obj s a in
  if kai_state__StateDB_GetOrNewStateObject__if_stateObject_eq_nil (negb (is_some r))
  then (let '(s2, o, _) := create_object s1 a in (s2, o))
  else (s1, match r with Some o => o | None => new_object empty_account end).
Proof.
  unfold get_or_new, kai_state__StateDB_GetOrNewStateObject__if_stateObject_eq_nil.
  destruct (get_obj s a) as [s1 [o|]]; reflexivity.
Qed.

(** createObject: prev == nil -> createObjectChange; else mark destructed (unless it already is) and
    journal a resetObjectChange; the previous object is returned only if it was not deleted *)
Lemma tie_create_object s a :
  create_object s a =
  let (s1, prev) := get_deleted s a in
  let newobj := new_object empty_account in
  let s2 :=
    if kai_state__StateDB_createObject__if_prev_eq_nil (negb (is_some prev))
    then jappend s1 (JCreateObject a)
    else match prev with
         | Some p =>
           let pd := st_destruct s1 a in
           let s1' := if kai_state__StateDB_createObject__if_not_prevdestruct pd
                      then set_destruct s1 (tupd (st_destruct s1) a true) else s1 in
           jappend s1' (JResetObject a p pd)
         | None => s1
         end in
  (put_obj s2 a newobj,
   newobj,
   if kai_state__StateDB_createObject__if_prev_ne_nil_and_not_prev_deleted (is_some prev)
        (match prev with Some p => o_deleted p | None => false end)
   then prev else None).
Proof.
  unfold create_object, kai_state__StateDB_createObject__if_prev_eq_nil, kai_state__StateDB_createObject__if_not_prevdestruct,
    kai_state__StateDB_createObject__if_prev_ne_nil_and_not_prev_deleted.
  destruct (get_deleted s a) as [s1 [p|]]; cbn [is_some negb andb].
  - destruct (st_destruct s1 a); destruct (o_deleted p); reflexivity.
  - reflexivity.
Qed.
Lemma tie_create_object_atoms :
  kai_state__StateDB_createObject__if_prev_eq_nil_atoms = ["prev == nil : untyped bool"]%string /\
  kai_state__StateDB_createObject__if_not_prevdestruct_atoms = ["prevdestruct : bool"]%string /\
  kai_state__StateDB_createObject__if_prev_ne_nil_and_not_prev_deleted_atoms = ["prev != nil : bool"; "prev.deleted : bool"]%string /\
  kai_state__StateDB_getStateObject__if_obj_ne_nil_and_not_obj_deleted_atoms = ["obj != nil : bool"; "obj.deleted : bool"]%string.
Proof. repeat split; reflexivity. Qed.

(** CreateAccount: the balance is carried over iff createObject returned a predecessor *)
Lemma tie_create_account s a :
  create_account s a =
  let '(s1, newobj, prev) := create_object s a in
  if kai_state__StateDB_CreateAccount__if_prev_ne_nil (is_some prev)
  then put_obj s1 a (seto_data newobj (setac_balance (o_data newobj)
                      (match prev with Some p => ac_balance (o_data p) | None => 0 end)))
  else s1.
Proof.
  unfold create_account, kai_state__StateDB_CreateAccount__if_prev_ne_nil.
  destruct (create_object s a) as [[s1 newobj] [p|]]; reflexivity.
Qed.

(** Suicide: nothing happens (and false is returned) for a missing object *)
Lemma tie_suicide s a :
  suicide s a =
  let (s1, r) := get_obj s a in
  if kai_state__StateDB_Suicide__if_stateObject_eq_nil (negb (is_some r)) then (s1, false)
  else match r with
       | Some o => (put_obj (jappend s1 (JSuicide a (o_suicided o) (ac_balance (o_data o)))) a
                            (seto_suicided (seto_data o (setac_balance (o_data o) 0)) true), true)
       | None => (s1, false)
       end.
Proof.
  unfold suicide, kai_state__StateDB_Suicide__if_stateObject_eq_nil. destruct (get_obj s a) as [s1 [o|]]; reflexivity.
Qed.

(** Empty: so == nil || so.empty() *)
Lemma tie_empty_getter s a :
  snd (read s (QEmpty a)) =
  AB (kai_state__StateDB_Empty__ret_so_eq_nil_or_so_empty
        (negb (is_some (snd (get_obj s a)))) (match snd (get_obj s a) with Some o => obj_empty o | None => false end)).
Proof.
  unfold read, kai_state__StateDB_Empty__ret_so_eq_nil_or_so_empty. destruct (get_obj s a) as [s1 [o|]]; reflexivity.
Qed.

(** AddRefund / SubRefund: uint64 arithmetic and the panic test [gas > s.refund] *)
Lemma tie_add_refund s g :
  Z.of_N (st_refund (add_refund s g)) = kai_state__StateDB_AddRefund__set_refund_op (Z.of_N (st_refund s)) (Z.of_N g).
Proof.
  unfold add_refund, kai_state__StateDB_AddRefund__set_refund_op, go_add, wrap, jappend; cbn [dirtied]; ss.
  rewrite N2Z.inj_mod, N2Z.inj_add. reflexivity.
Qed.
Lemma tie_sub_refund_guard s g :
  snd (sub_refund s g) = kai_state__StateDB_SubRefund__if_gas_gt_s_refund (Z.of_N g) (Z.of_N (st_refund s)).
Proof.
  unfold sub_refund, kai_state__StateDB_SubRefund__if_gas_gt_s_refund, jappend; cbn [dirtied]; ss.
  rewrite Z.gtb_ltb. destruct (N.ltb (st_refund s) g) eqn:E; cbn [snd].
  - apply N.ltb_lt in E. symmetry. apply Z.ltb_lt. lia.
  - apply N.ltb_ge in E. symmetry. apply Z.ltb_ge. lia.
Qed.
Lemma tie_sub_refund s g : snd (sub_refund s g) = false -> (Z.of_N (st_refund s) < 18446744073709551616) ->
  Z.of_N (st_refund (fst (sub_refund s g))) = kai_state__StateDB_SubRefund__set_refund_op (Z.of_N (st_refund s)) (Z.of_N g).
Proof.
  unfold sub_refund, kai_state__StateDB_SubRefund__set_refund_op, go_sub, jappend; cbn [dirtied]; ss.
  destruct (N.ltb (st_refund s) g) eqn:E; cbn [fst snd]; [discriminate|]. intros _ Hb. ss.
  apply N.ltb_ge in E. rewrite wrap_id by (unfold in_range; lia). lia.
Qed.
Lemma tie_refund_atoms :
  kai_state__StateDB_SubRefund__if_gas_gt_s_refund_atoms = ["gas : uint64"; "s.refund : uint64"]%string /\
  kai_state__StateDB_SubRefund__set_refund_op_atoms = ["s.refund : uint64"; "gas : uint64"]%string /\
  kai_state__StateDB_AddRefund__set_refund_op_atoms = ["s.refund : uint64"; "gas : uint64"]%string.
Proof. repeat split; reflexivity. Qed.

(** Snapshot: the id is nextRevisionId, then nextRevisionId + 1 (Go int; no wrap below 2^63) *)
Lemma tie_snapshot s : (Z.of_N (st_nextrev s) < 9223372036854775807) ->
  snd (snapshot s) = st_nextrev s /\
  Z.of_N (st_nextrev (fst (snapshot s))) = kai_state__StateDB_Snapshot__set_nextRevisionId_op (Z.of_N (st_nextrev s)).
Proof.
  intro H. split; [reflexivity|]. unfold snapshot, kai_state__StateDB_Snapshot__set_nextRevisionId_op, go_add; ss.
  rewrite wrap_id by (unfold in_range; lia). lia.
Qed.

(** RevertToSnapshot: the sort.Search predicate and the validity test *)
Lemma tie_search_pred id revid :
  N.leb revid id = kai_state__StateDB_RevertToSnapshot__ret_s_validRevisions_at_i__id_ge_revid (Z.of_N id) (Z.of_N revid).
Proof.
  unfold kai_state__StateDB_RevertToSnapshot__ret_s_validRevisions_at_i__id_ge_revid. rewrite Z.geb_leb.
  destruct (N.leb revid id) eqn:E.
  - apply N.leb_le in E. symmetry. apply Z.leb_le. lia.
  - apply N.leb_gt in E. symmetry. apply Z.leb_gt. lia.
Qed.

Lemma search_rev_le revs revid : forall i, (search_rev revs revid i <= i + List.length revs)%nat.
Proof.
  induction revs as [|[id j] t IH]; intro i; simpl; [lia|].
  destruct (N.leb revid id); [lia|]. specialize (IH (S i)). lia.
Qed.

(** the panic test: idx == len(validRevisions) || validRevisions[idx].id != revid *)
Lemma tie_revert_guard s revid :
  let idx := search_rev (st_revs s) revid O in
  snd (revert_to s revid) =
  kai_state__StateDB_RevertToSnapshot__if_idx_eq_len_s_validRevisions_or_s_validRevisions_at_idx__id_ne_revid
    (Z.of_nat idx) (Z.of_nat (List.length (st_revs s)))
    (Z.of_N (fst (nth idx (st_revs s) (0%N, O)))) (Z.of_N revid).
Proof.
  intro idx. unfold revert_to. fold idx.
  unfold kai_state__StateDB_RevertToSnapshot__if_idx_eq_len_s_validRevisions_or_s_validRevisions_at_idx__id_ne_revid, go_neqb.
  pose proof (search_rev_le (st_revs s) revid O) as Hle. fold idx in Hle. cbn [plus] in Hle.
  destruct (nth_error (st_revs s) idx) as [[id jidx]|] eqn:E.
  - assert (Hlt : (idx < List.length (st_revs s))%nat) by (apply nth_error_Some; congruence).
    rewrite (nth_error_nth _ _ _ E). cbn [fst].
    replace (Z.of_nat idx =? Z.of_nat (List.length (st_revs s))) with false by (symmetry; apply Z.eqb_neq; lia).
    cbn [orb]. rewrite ZofN_eqb. destruct (N.eqb id revid); reflexivity.
  - apply nth_error_None in E. assert (idx = List.length (st_revs s)) by lia.
    replace (Z.of_nat idx =? Z.of_nat (List.length (st_revs s))) with true by (symmetry; apply Z.eqb_eq; lia). reflexivity.
Qed.
Lemma tie_revert_atoms :
  kai_state__StateDB_RevertToSnapshot__ret_s_validRevisions_at_i__id_ge_revid_atoms = ["s.validRevisions[i].id : int"; "revid : int"]%string /\
  kai_state__StateDB_RevertToSnapshot__if_idx_eq_len_s_validRevisions_or_s_validRevisions_at_idx__id_ne_revid_atoms =
    ["idx : int"; "len(s.validRevisions) : int"; "s.validRevisions[idx].id : int"; "revid : int"]%string.
Proof. split; reflexivity. Qed.

(** Finalise: an object in journal.dirties is deleted iff obj.suicided || (deleteEmptyObjects && obj.empty());
    the flag written is [true]; objects not in stateObjects are skipped *)
Lemma tie_finalise de s a :
  st_objs (finalise de s) a =
  if N.ltb 0 (st_dirties s a) then
    if kai_state__StateDB_Finalise__if_not_exist (is_some (st_objs s a)) then None
    else match st_objs s a with
         | Some o =>
           if kai_state__StateDB_Finalise__if_obj_suicided_or_deleteEmptyObjects_and_obj_empty (o_suicided o) de (obj_empty o)
           then Some (seto_deleted o kai_state__StateDB_Finalise__put_obj_deleted) else Some (obj_finalise o)
         | None => None
         end
  else st_objs s a.
Proof.
  rewrite finalise_objs. unfold kai_state__StateDB_Finalise__if_not_exist,
    kai_state__StateDB_Finalise__if_obj_suicided_or_deleteEmptyObjects_and_obj_empty, kai_state__StateDB_Finalise__put_obj_deleted.
  destruct (N.ltb 0 (st_dirties s a)); [|reflexivity]. destruct (st_objs s a); reflexivity.
Qed.
Lemma tie_finalise_atoms :
  kai_state__StateDB_Finalise__if_obj_suicided_or_deleteEmptyObjects_and_obj_empty_atoms =
    ["obj.suicided : bool"; "deleteEmptyObjects : bool"; "obj.empty() : bool"]%string /\
  kai_state__StateDB_Finalise__if_not_exist_atoms = ["exist : bool"]%string /\
  kai_state__StateDB_Finalise__if_s_snap_ne_nil_atoms = ["s.snap != nil : untyped bool"]%string.
Proof. repeat split; reflexivity. Qed.

(** clearJournalAndRefund: only when the journal has entries; the refund is then 0 *)
Lemma tie_clear_journal s :
  clear_journal_and_refund s =
  set_revs (if kai_state__StateDB_clearJournalAndRefund__if_len_s_journal_entries_gt_0 (Z.of_nat (List.length (st_journal s)))
            then set_refund (set_dirties (set_journal s nil) (fun _ => 0%N)) (Z.to_N kai_state__StateDB_clearJournalAndRefund__put_s_refund)
            else s) nil.
Proof.
  unfold clear_journal_and_refund, kai_state__StateDB_clearJournalAndRefund__if_len_s_journal_entries_gt_0,
    kai_state__StateDB_clearJournalAndRefund__put_s_refund.
  destruct (st_journal s); reflexivity.
Qed.

(** IntermediateRoot / Commit: deleted objects are removed from the trie, the others updated *)
Lemma tie_intermediate_root_objs de s a :
  st_objs (intermediate_root de s) a =
  if st_pending (finalise de s) a then
    match st_objs (finalise de s) a with
    | Some o => if kai_state__StateDB_IntermediateRoot__if_not_obj_deleted (o_deleted o) then Some (obj_update_trie o) else Some o
    | None => None
    end
  else st_objs (finalise de s) a.
Proof.
  rewrite intermediate_root_objs. unfold kai_state__StateDB_IntermediateRoot__if_not_obj_deleted.
  destruct (st_pending (finalise de s) a); [|reflexivity].
  destruct (st_objs (finalise de s) a) as [o|]; [destruct (o_deleted o)|]; reflexivity.
Qed.
Lemma tie_commit_objs de s a :
  st_objs (fst (commit de s)) a =
  if st_dirtyset (intermediate_root de s) a then
    match st_objs (intermediate_root de s) a with
    | Some o => if kai_state__StateDB_Commit__if_not_obj_deleted (o_deleted o)
                then Some (obj_update_trie (seto_dirtycode o kai_state__StateDB_Commit__put_obj_dirtyCode)) else Some o
    | None => None
    end
  else st_objs (intermediate_root de s) a.
Proof.
  rewrite commit_objs. unfold kai_state__StateDB_Commit__if_not_obj_deleted, kai_state__StateDB_Commit__put_obj_dirtyCode.
  destruct (st_dirtyset (intermediate_root de s) a); [|reflexivity].
  destruct (st_objs (intermediate_root de s) a) as [o|]; [destruct (o_deleted o)|]; reflexivity.
Qed.
(** Commit hands its data to the snapshot tree iff it is attached (s.snap != nil) *)
Lemma tie_commit_handover de ss :
  is_some (snd (scommit de ss)) = kai_state__StateDB_Commit__if_s_snap_ne_nil (is_some (ss_snap ss)).
Proof.
  unfold scommit, kai_state__StateDB_Commit__if_s_snap_ne_nil. destruct (commit de (ss_st ss)). destruct (ss_snap ss); reflexivity.
Qed.

(** AddLog: Index = logSize, then logSize + 1 (uint) *)
Lemma tie_add_log s p :
  Z.of_N (st_logsize (add_log s p)) = kai_state__StateDB_AddLog__set_logSize_op (Z.of_N (st_logsize s)).
Proof.
  unfold add_log, kai_state__StateDB_AddLog__set_logSize_op, go_add, wrap, jappend; cbn [dirtied]; ss.
  rewrite N2Z.inj_mod, N2Z.inj_add. reflexivity.
Qed.

(** ---------------------------------------------------------------- journal.go *)

(** journal.append / journal.dirty: dirties[addr]++ *)
Lemma tie_jappend_dirties s e a : dirtied e = Some a -> (Z.of_N (st_dirties s a) < 9223372036854775807) ->
  Z.of_N (st_dirties (jappend s e) a) = kai_state__journal_append__set_x_op (Z.of_N (st_dirties s a)).
Proof.
  intros H Hb. unfold jappend, kai_state__journal_append__set_x_op, go_add. rewrite H. ss. unfold tupd. rewrite N.eqb_refl.
  rewrite wrap_id by (unfold in_range; lia). lia.
Qed.
Lemma tie_jappend_guard s e :
  jappend s e =
  let s1 := set_journal s (e :: st_journal s) in
  if kai_state__journal_append__if_addr_ne_nil (is_some (dirtied e))
  then match dirtied e with Some a => set_dirties s1 (tupd (st_dirties s1) a (st_dirties s1 a + 1)%N) | None => s1 end
  else s1.
Proof. unfold jappend, kai_state__journal_append__if_addr_ne_nil. destruct (dirtied e); reflexivity. Qed.
Lemma tie_ripemd_dirty d : (Z.of_N d < 9223372036854775807) -> Z.of_N (d + 1) = kai_state__journal_dirty__set_x_op (Z.of_N d).
Proof. intro H. unfold kai_state__journal_dirty__set_x_op, go_add. rewrite wrap_id by (unfold in_range; lia). lia. Qed.

(** journal.revert: dirties[addr]--, and the entry is deleted when it reaches 0 (0 = absent in the model) *)
Lemma tie_undo_dirty s e a : dirtied e = Some a -> (0 < st_dirties s a)%N -> Z.of_N (st_dirties s a) < 9223372036854775807 ->
  Z.of_N (st_dirties (undo_dirty e s) a) = kai_state__journal_revert__set_x_op (Z.of_N (st_dirties s a)) /\
  kai_state__journal_revert__if_j_dirties_at_mul_addr_eq_0 (Z.of_N (st_dirties (undo_dirty e s) a)) = N.eqb (st_dirties (undo_dirty e s) a) 0.
Proof.
  intros H Hp Hb. unfold undo_dirty, kai_state__journal_revert__set_x_op, kai_state__journal_revert__if_j_dirties_at_mul_addr_eq_0, go_sub.
  rewrite H. ss. unfold tupd. rewrite N.eqb_refl. split.
  - rewrite wrap_id by (unfold in_range; lia). rewrite N2Z.inj_pred by lia. lia.
  - change 0 with (Z.of_N 0). apply ZofN_eqb.
Qed.

(** the loop [for i := len(j.entries) - 1; i >= snapshot; i--] runs len - snapshot times: the model's
    [rewind (List.length journal - jidx)] *)
Fixpoint src_revert_iters (fuel : nat) (i snapshot : Z) : nat :=
  match fuel with
  | O => O
  | S f => if kai_state__journal_revert__for_i_ge_snapshot i snapshot
           then S (src_revert_iters f (kai_state__journal_revert__set_i_op i) snapshot) else O
  end.

Lemma src_revert_iters_spec : forall fuel i snapshot,
  0 <= snapshot -> -1 <= i < 9223372036854775807 -> (Z.to_nat (i + 1 - snapshot) <= fuel)%nat ->
  src_revert_iters fuel i snapshot = Z.to_nat (i + 1 - snapshot).
Proof.
  induction fuel as [|f IH]; intros i sn Hs Hi Hf.
  - cbn. lia.
  - cbn [src_revert_iters]. unfold kai_state__journal_revert__for_i_ge_snapshot, kai_state__journal_revert__set_i_op, go_sub.
    rewrite Z.geb_leb. destruct (Z.leb sn i) eqn:E.
    + apply Z.leb_le in E. rewrite wrap_id by (unfold in_range; lia). rewrite IH by lia.
      replace (i + 1 - sn) with (Z.succ (i - 1 + 1 - sn)) by lia. rewrite Z2Nat.inj_succ by lia. reflexivity.
    + apply Z.leb_gt in E. replace (Z.to_nat (i + 1 - sn)) with O by lia. reflexivity.
Qed.

Lemma tie_revert_loop (len jidx : nat) : (jidx <= len)%nat -> Z.of_nat len < 9223372036854775807 ->
  src_revert_iters len (kai_state__journal_revert__set_i (Z.of_nat len)) (Z.of_nat jidx) = (len - jidx)%nat.
Proof.
  intros Hle Hb. unfold kai_state__journal_revert__set_i, go_sub. rewrite wrap_id by (unfold in_range; lia).
  rewrite src_revert_iters_spec by lia. lia.
Qed.
Lemma tie_revert_loop_atoms :
  kai_state__journal_revert__for_i_ge_snapshot_atoms = ["i : int"; "snapshot : int"]%string /\
  kai_state__journal_revert__set_i_atoms = ["len(j.entries) : int"]%string /\
  kai_state__journal_revert__set_i_op_atoms = ["i : int"]%string /\
  kai_state__journal_revert__set_x_op_atoms = ["j.dirties[*addr] : int"]%string /\
  kai_state__journal_revert__if_j_dirties_at_mul_addr_eq_0_atoms = ["j.dirties[*addr] : int"]%string.
Proof. split_all; reflexivity. Qed.

(** resetObjectChange.revert: the destruct mark is removed iff it was not there before;
    the saved account blob comes back iff it was there; for prevStorage the guard is only listed
    among the atoms: the model restores the saved map, which is empty when Go's was nil *)
Lemma tie_undo_reset a prev pd s :
  undo (JResetObject a prev pd) s =
  let s1 := put_obj s a prev in
  if kai_state__resetObjectChange_revert__if_not_ch_prevdestruct pd
  then set_destruct s1 (tupd (st_destruct s1) a false) else s1.
Proof. unfold undo, kai_state__resetObjectChange_revert__if_not_ch_prevdestruct. destruct pd; reflexivity. Qed.
Lemma tie_unreset a ss pa ps rest : ss_saved ss = (pa, ps) :: rest ->
  ss_acc (snap_unreset a ss) =
  (if kai_state__resetObjectChange_revert__if_ch_prevAccount_ne_nil (is_some pa)
   then match pa with Some x => fupd (ss_acc ss) a x | None => ss_acc ss end else ss_acc ss).
Proof.
  intro H. unfold snap_unreset, kai_state__resetObjectChange_revert__if_ch_prevAccount_ne_nil. rewrite H. destruct pa; reflexivity.
Qed.
Lemma tie_undo_reset_atoms :
  kai_state__resetObjectChange_revert__if_not_ch_prevdestruct_atoms = ["ch.prevdestruct : bool"]%string /\
  kai_state__resetObjectChange_revert__if_ch_prevAccount_ne_nil_atoms = ["ch.prevAccount != nil : untyped bool"]%string /\
  kai_state__resetObjectChange_revert__if_ch_prevStorage_ne_nil_atoms = ["ch.prevStorage != nil : untyped bool"]%string.
Proof. repeat split; reflexivity. Qed.

(** suicideChange.revert: only if the object is still there; the flag restored is ch.prev *)
Lemma tie_undo_suicide a p b s :
  undo (JSuicide a p b) s =
  let (s1, r) := get_obj s a in
  if kai_state__suicideChange_revert__if_obj_ne_nil (is_some r)
  then match r with
       | Some o => put_obj s1 a (seto_data (seto_suicided o (kai_state__suicideChange_revert__put_obj_suicided p)) (setac_balance (o_data o) b))
       | None => s1 end
  else s1.
Proof.
  unfold undo, with_live, kai_state__suicideChange_revert__if_obj_ne_nil, kai_state__suicideChange_revert__put_obj_suicided.
  destruct (get_obj s a) as [s1 [o|]]; reflexivity.
Qed.

(** addLogChange.revert: logSize-- *)
Lemma tie_undo_log th s : st_logs s th <> nil ->
  Z.of_N (st_logsize (undo (JAddLog th) s)) = wrap U64 (kai_state__addLogChange_revert__set_logSize_op (Z.of_N (st_logsize s)) ) .
Proof.
  intro H. unfold undo, kai_state__addLogChange_revert__set_logSize_op, go_sub.
  destruct (st_logs s th) eqn:E; [congruence|]. ss.
  rewrite N2Z.inj_mod, N2Z.inj_add. unfold wrap.
  rewrite Zmod_mod. change (Z.of_N two64) with 18446744073709551616. change (Z.of_N (two64 - 1)) with 18446744073709551615.
  replace (Z.of_N (st_logsize s) + 18446744073709551615) with (Z.of_N (st_logsize s) - 1 + 1 * 18446744073709551616) by lia.
  rewrite Z_mod_plus_full. reflexivity.
Qed.

(** ---------------------------------------------------------------- kai/state/snapshot *)

Local Open Scope N_scope.

(** diffLayer.AccountRLP: hit = bloom(account); if !hit { hit = bloom(destruct) }; if !hit -> origin (the disk layer) *)
Lemma tie_snap_account fp s a l t : sn_diffs s = l :: t ->
  snap_account fp s a =
  let h1 := kai_state_snapshot__diffLayer_AccountRLP__let_hit (bloom fp (l :: t) (BAccount a)) in
  let h2 := if kai_state_snapshot__diffLayer_AccountRLP__if_not_hit h1
            then kai_state_snapshot__diffLayer_AccountRLP__let_hit_2 (bloom fp (l :: t) (BDestruct a)) else h1 in
  let use_origin := kai_state_snapshot__diffLayer_AccountRLP__if_not_hit_2 h2 in
  let (d, r) := if kai_state_snapshot__diffLayer_AccountRLP__if_origin_ne_nil use_origin
                then disk_account (sn_disk s) a else walk_account (l :: t) (sn_disk s) a in
  (with_disk s d, r).
Proof.
  intro H. unfold snap_account. rewrite H.
  unfold kai_state_snapshot__diffLayer_AccountRLP__let_hit, kai_state_snapshot__diffLayer_AccountRLP__if_not_hit,
    kai_state_snapshot__diffLayer_AccountRLP__let_hit_2, kai_state_snapshot__diffLayer_AccountRLP__if_not_hit_2,
    kai_state_snapshot__diffLayer_AccountRLP__if_origin_ne_nil.
  destruct (bloom fp (l :: t) (BAccount a)); destruct (bloom fp (l :: t) (BDestruct a)); reflexivity.
Qed.

(** diffLayer.Storage: the same with the slot's bloom key — BOTH probes *)
Lemma tie_snap_storage fp s a k l t : sn_diffs s = l :: t ->
  snap_storage fp s a k =
  let h1 := kai_state_snapshot__diffLayer_Storage__let_hit (bloom fp (l :: t) (BStorage a k)) in
  let h2 := if kai_state_snapshot__diffLayer_Storage__if_not_hit h1
            then kai_state_snapshot__diffLayer_Storage__let_hit_2 (bloom fp (l :: t) (BDestruct a)) else h1 in
  let use_origin := kai_state_snapshot__diffLayer_Storage__if_not_hit_2 h2 in
  let (d, r) := if kai_state_snapshot__diffLayer_Storage__if_origin_ne_nil use_origin
                then disk_storage (sn_disk s) a k else walk_storage (l :: t) (sn_disk s) a k in
  (with_disk s d, r).
Proof.
  intro H. unfold snap_storage. rewrite H.
  unfold kai_state_snapshot__diffLayer_Storage__let_hit, kai_state_snapshot__diffLayer_Storage__if_not_hit,
    kai_state_snapshot__diffLayer_Storage__let_hit_2, kai_state_snapshot__diffLayer_Storage__if_not_hit_2,
    kai_state_snapshot__diffLayer_Storage__if_origin_ne_nil.
  destruct (bloom fp (l :: t) (BStorage a k)); destruct (bloom fp (l :: t) (BDestruct a)); reflexivity.
Qed.
Lemma tie_bloom_atoms :
  kai_state_snapshot__diffLayer_AccountRLP__let_hit_atoms = ["dl.diffed.Contains(accountBloomHasher(hash)) : bool"]%string /\
  kai_state_snapshot__diffLayer_AccountRLP__let_hit_2_atoms = ["dl.diffed.Contains(destructBloomHasher(hash)) : bool"]%string /\
  kai_state_snapshot__diffLayer_Storage__let_hit_atoms = ["dl.diffed.Contains(storageBloomHasher{accountHash, storageHash}) : bool"]%string /\
  kai_state_snapshot__diffLayer_Storage__let_hit_2_atoms = ["dl.diffed.Contains(destructBloomHasher(accountHash)) : bool"]%string /\
  kai_state_snapshot__diffLayer_Storage__if_not_hit_atoms = ["hit : bool"]%string /\
  kai_state_snapshot__diffLayer_Storage__if_not_hit_2_atoms = ["hit : bool"]%string /\
  kai_state_snapshot__diffLayer_AccountRLP__if_not_hit_atoms = ["hit : bool"]%string /\
  kai_state_snapshot__diffLayer_AccountRLP__if_not_hit_2_atoms = ["hit : bool"]%string.
Proof. split_all; reflexivity. Qed.

(** diffLayer.accountRLP / storage: own data, then own destruct marker, then the parent (diff layer or disk) *)
Lemma tie_walk_account l t d a :
  walk_account (l :: t) d a =
  if kai_state_snapshot__diffLayer_accountRLP__if_ok (is_some (dl_acc l a)) then (d, dl_acc l a)
  else if kai_state_snapshot__diffLayer_accountRLP__if_ok_2 (dl_destruct l a) then (d, None)
  else walk_account t d a.
Proof.
  cbn [walk_account]. unfold kai_state_snapshot__diffLayer_accountRLP__if_ok, kai_state_snapshot__diffLayer_accountRLP__if_ok_2.
  destruct (dl_acc l a); reflexivity.
Qed.
Lemma tie_walk_storage l t d a k :
  walk_storage (l :: t) d a k =
  if kai_state_snapshot__diffLayer_storage__if_ok (is_some (dl_sto l a k)) && kai_state_snapshot__diffLayer_storage__if_ok_2 (is_some (dl_sto l a k))
  then (d, match dl_sto l a k with Some v => v | None => 0 end)
  else if kai_state_snapshot__diffLayer_storage__if_ok_3 (dl_destruct l a) then (d, 0)
  else walk_storage t d a k.
Proof.
  cbn [walk_storage]. unfold kai_state_snapshot__diffLayer_storage__if_ok, kai_state_snapshot__diffLayer_storage__if_ok_2,
    kai_state_snapshot__diffLayer_storage__if_ok_3.
  destruct (dl_sto l a k); reflexivity.
Qed.

(** diffLayer.flatten: a parent that is not a diff layer ends the recursion; the storage of an account
    the parent does not have is adopted, otherwise merged slot by slot — the same function either way *)
Lemma tie_flatten l t :
  flatten (l :: t) =
  if kai_state_snapshot__diffLayer_flatten__if_not_ok (is_some (flatten t))
  then Some l else match flatten t with Some p => Some (merge l p) | None => Some l end.
Proof.
  cbn [flatten]. unfold kai_state_snapshot__diffLayer_flatten__if_not_ok. destruct (flatten t); reflexivity.
Qed.
(** [if _, ok := parent.storageData[accountHash]; !ok { adopt } else { merge }] *)
Lemma tie_merge_storage c p a k (parent_has : bool) :
  (parent_has = false -> forall x, (if dl_destruct c a then None else dl_sto p a x) = None) ->
  dl_sto (merge c p) a k =
  if kai_state_snapshot__diffLayer_flatten__if_not_ok_2 parent_has
  then dl_sto c a k
  else match dl_sto c a k with Some v => Some v | None => if dl_destruct c a then None else dl_sto p a k end.
Proof.
  intro H. unfold kai_state_snapshot__diffLayer_flatten__if_not_ok_2. destruct parent_has; cbn [negb]; [reflexivity|].
  cbn. destruct (dl_sto c a k); auto; try (apply H; reflexivity).
Qed.
Lemma tie_merge_adopt c p a : (forall k, (if dl_destruct c a then None else dl_sto p a k) = None) ->
  forall k, dl_sto (merge c p) a k = dl_sto c a k.
Proof. intros H k. cbn. destruct (dl_sto c a k); auto. Qed.
Lemma tie_flatten_atoms :
  kai_state_snapshot__diffLayer_flatten__if_not_ok_atoms = ["ok : bool"]%string /\
  kai_state_snapshot__diffLayer_flatten__if_parent_stale_Swap_true_atoms = ["parent.stale.Swap(true) : bool"]%string /\
  kai_state_snapshot__diffLayer_flatten__if_not_ok_2_atoms = ["ok : bool"]%string.
Proof. repeat split; reflexivity. Qed.

(** Tree.Cap / cap: layers == 0 flattens everything onto disk; otherwise the loop
    [for i := 0; i < layers-1; i++] dives layers-1 parents; the accumulator stays in memory iff it is
    below the limit AND the disk layer has no generator abort channel *)
Local Open Scope Z_scope.
Lemma tie_cap_zero s layers :
  snap_cap s layers =
  if kai_state_snapshot__Tree_Cap__if_layers_eq_0 (Z.of_nat layers)
  then match flatten (sn_diffs s) with None => s | Some b => mkSnap nil (diff_to_disk b (sn_disk s)) end
  else match flatten (skipn layers (sn_diffs s)) with
       | None => s
       | Some f =>
         if kai_state_snapshot__Tree_cap__if_flattened_parent__mul_diskLayer__genAbort_eq_nil (negb (dk_gen (sn_disk s)))
         then mkSnap (firstn layers (sn_diffs s) ++ [f]) (sn_disk s)
         else mkSnap (firstn layers (sn_diffs s)) (diff_to_disk f (sn_disk s))
       end.
Proof.
  unfold snap_cap, kai_state_snapshot__Tree_Cap__if_layers_eq_0, kai_state_snapshot__Tree_cap__if_flattened_parent__mul_diskLayer__genAbort_eq_nil.
  destruct layers as [|m]; [reflexivity|]. cbn [Z.of_nat Z.eqb].
  destruct (flatten (skipn (S m) (sn_diffs s))); [|reflexivity]. destruct (dk_gen (sn_disk s)); reflexivity.
Qed.

Fixpoint src_cap_dives (fuel : nat) (i layers : Z) : nat :=
  match fuel with
  | O => O
  | S f => if kai_state_snapshot__Tree_cap__for_i_lt_layers_minus_1 i layers
           then S (src_cap_dives f (kai_state_snapshot__Tree_cap__set_i_op i) layers) else O
  end.

Lemma src_cap_dives_spec : forall fuel i layers,
  0 <= i -> 1 <= layers < 9223372036854775807 -> (Z.to_nat (layers - 1 - i) <= fuel)%nat ->
  src_cap_dives fuel i layers = Z.to_nat (layers - 1 - i).
Proof.
  induction fuel as [|f IH]; intros i L Hi HL Hf.
  - cbn. lia.
  - cbn [src_cap_dives]. unfold kai_state_snapshot__Tree_cap__for_i_lt_layers_minus_1, kai_state_snapshot__Tree_cap__set_i_op, go_sub, go_add.
    rewrite (wrap_id I64 (L - 1)) by (unfold in_range; lia).
    destruct (Z.ltb i (L - 1)) eqn:E.
    + apply Z.ltb_lt in E. rewrite wrap_id by (unfold in_range; lia). rewrite IH by lia.
      replace (L - 1 - i) with (Z.succ (L - 1 - (i + 1))) by lia. rewrite Z2Nat.inj_succ by lia. reflexivity.
    + apply Z.ltb_ge in E. replace (Z.to_nat (L - 1 - i)) with O by lia. reflexivity.
Qed.

(** the number of parents the loop walks down is layers - 1: the kept prefix [firstn layers] has the
    capped layer plus those *)
Lemma tie_cap_loop (layers : nat) : (1 <= layers)%nat -> Z.of_nat layers < 9223372036854775807 ->
  S (src_cap_dives layers kai_state_snapshot__Tree_cap__forinit_i (Z.of_nat layers)) = layers.
Proof.
  intros H1 Hb. unfold kai_state_snapshot__Tree_cap__forinit_i. rewrite src_cap_dives_spec by lia. lia.
Qed.
Lemma tie_cap_atoms :
  kai_state_snapshot__Tree_Cap__if_layers_eq_0_atoms = ["layers : int"]%string /\
  kai_state_snapshot__Tree_cap__for_i_lt_layers_minus_1_atoms = ["i : int"; "layers : int"]%string /\
  kai_state_snapshot__Tree_cap__if_flattened_memory_lt_aggregatorMemoryLimit_atoms = ["flattened.memory : uint64"; "aggregatorMemoryLimit : uint64"]%string /\
  kai_state_snapshot__Tree_cap__if_flattened_parent__mul_diskLayer__genAbort_eq_nil_atoms = ["flattened.parent.(*diskLayer).genAbort == nil : untyped bool"]%string.
Proof. repeat split; reflexivity. Qed.

(** diffToDisk: a slot with data is written, an empty one deleted (0 = no entry in the model) *)
Lemma tie_diff_to_disk_slot b d a k v : dl_sto b a k = Some v ->
  dk_sto (diff_to_disk b d) a k =
  (if kai_state_snapshot__diffToDisk__if_len_data_gt_0 (Z.of_N v) then v else 0%N).
Proof.
  intro H. cbn. rewrite H. unfold kai_state_snapshot__diffToDisk__if_len_data_gt_0. rewrite Z.gtb_ltb.
  destruct v; reflexivity.
Qed.

(** ---------------------------------------------------------------- the statement quoted in Properties.v
    (the conjunction of the statements of the lemmas above, each taken verbatim) *)
Local Notation "'stmt' x" := ltac:(let t := type of x in exact t) (at level 0, x at level 0, only parsing).

Definition C08_source_tie_statement : Prop :=
  (* state_object.go *)
  stmt tie_empty /\ stmt tie_empty_atoms /\ stmt tie_touch /\ stmt tie_touch_atoms /\
  stmt tie_add_balance /\ stmt tie_sub_balance /\ stmt tie_balance_atoms /\
  stmt tie_set_state /\ stmt tie_set_state_atoms /\ stmt tie_get_state /\ stmt tie_get_committed /\ stmt tie_get_committed_atoms /\
  stmt tie_update_trie_skip /\ stmt tie_update_trie_atoms /\
  (* statedb.go *)
  stmt tie_get_obj /\ stmt tie_get_or_new /\ stmt tie_create_object /\ stmt tie_create_object_atoms /\ stmt tie_create_account /\
  stmt tie_suicide /\ stmt tie_empty_getter /\
  stmt tie_add_refund /\ stmt tie_sub_refund_guard /\ stmt tie_sub_refund /\ stmt tie_refund_atoms /\
  stmt tie_snapshot /\ stmt tie_search_pred /\ stmt tie_revert_guard /\ stmt tie_revert_atoms /\
  stmt tie_finalise /\ stmt tie_finalise_atoms /\ stmt tie_clear_journal /\
  stmt tie_intermediate_root_objs /\ stmt tie_commit_objs /\ stmt tie_commit_handover /\ stmt tie_add_log /\
  (* journal.go *)
  stmt tie_jappend_dirties /\ stmt tie_jappend_guard /\ stmt tie_ripemd_dirty /\ stmt tie_undo_dirty /\
  stmt tie_revert_loop /\ stmt tie_revert_loop_atoms /\
  stmt tie_undo_reset /\ stmt tie_unreset /\ stmt tie_undo_reset_atoms /\ stmt tie_undo_suicide /\ stmt tie_undo_log /\
  (* kai/state/snapshot *)
  stmt tie_snap_account /\ stmt tie_snap_storage /\ stmt tie_bloom_atoms /\
  stmt tie_walk_account /\ stmt tie_walk_storage /\
  stmt tie_flatten /\ stmt tie_merge_storage /\ stmt tie_merge_adopt /\ stmt tie_flatten_atoms /\
  stmt tie_cap_zero /\ stmt tie_cap_loop /\ stmt tie_cap_atoms /\ stmt tie_diff_to_disk_slot.

Lemma C08_source_tie_proof : C08_source_tie_statement.
Proof.
  unfold C08_source_tie_statement. split_all.
  - exact tie_empty.
  - exact tie_empty_atoms.
  - exact tie_touch.
  - exact tie_touch_atoms.
  - exact tie_add_balance.
  - exact tie_sub_balance.
  - exact tie_balance_atoms.
  - exact tie_set_state.
  - exact tie_set_state_atoms.
  - exact tie_get_state.
  - exact tie_get_committed.
  - exact tie_get_committed_atoms.
  - exact tie_update_trie_skip.
  - exact tie_update_trie_atoms.
  - exact tie_get_obj.
  - exact tie_get_or_new.
  - exact tie_create_object.
  - exact tie_create_object_atoms.
  - exact tie_create_account.
  - exact tie_suicide.
  - exact tie_empty_getter.
  - exact tie_add_refund.
  - exact tie_sub_refund_guard.
  - exact tie_sub_refund.
  - exact tie_refund_atoms.
  - exact tie_snapshot.
  - exact tie_search_pred.
  - exact tie_revert_guard.
  - exact tie_revert_atoms.
  - exact tie_finalise.
  - exact tie_finalise_atoms.
  - exact tie_clear_journal.
  - exact tie_intermediate_root_objs.
  - exact tie_commit_objs.
  - exact tie_commit_handover.
  - exact tie_add_log.
  - exact tie_jappend_dirties.
  - exact tie_jappend_guard.
  - exact tie_ripemd_dirty.
  - exact tie_undo_dirty.
  - exact tie_revert_loop.
  - exact tie_revert_loop_atoms.
  - exact tie_undo_reset.
  - exact tie_unreset.
  - exact tie_undo_reset_atoms.
  - exact tie_undo_suicide.
  - exact tie_undo_log.
  - exact tie_snap_account.
  - exact tie_snap_storage.
  - exact tie_bloom_atoms.
  - exact tie_walk_account.
  - exact tie_walk_storage.
  - exact tie_flatten.
  - exact tie_merge_storage.
  - exact tie_merge_adopt.
  - exact tie_flatten_atoms.
  - exact tie_cap_zero.
  - exact tie_cap_loop.
  - exact tie_cap_atoms.
  - exact tie_diff_to_disk_slot.
Qed.
