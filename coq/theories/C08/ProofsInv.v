(** C08 proofs: step invariants that are carried along every operation and every journal revert:
    the origin cache of every object agrees with its storage trie ([coh]), also for the objects
    remembered by resetObjectChange entries, and journal.dirties counts at least the journal's
    entries per address ([JD]). *)
From Coq Require Import List ZArith NArith Bool Lia.
From Kardia Require Import C08.Model C08.ProofsEqv.
Import ListNotations.
Local Open Scope N_scope.

Definition coh (o : obj) : Prop := forall k v, o_origin o k = Some v -> v = ac_storage (o_data o) k.

Definition hits (a : N) (e : entry) : N :=
  match dirtied e with Some x => if N.eqb x a then 1 else 0 | None => 0 end.
Fixpoint jcount (a : N) (j : list entry) : N :=
  match j with nil => 0 | e :: t => hits a e + jcount a t end.

Definition JD (s : state) : Prop := forall a, jcount a (st_journal s) <= st_dirties s a.
Definition jcoh (j : list entry) : Prop := forall a p pd, In (JResetObject a p pd) j -> coh p.
Definition SI (s : state) : Prop :=
  JD s /\ (forall a o, st_objs s a = Some o -> coh o) /\ jcoh (st_journal s).

(** [coh] looks at the origin cache and the storage content only *)
Lemma coh_same : forall o o', o_origin o' = o_origin o ->
  (forall k, ac_storage (o_data o') k = ac_storage (o_data o) k) -> coh o -> coh o'.
Proof. intros o o' Ho Hs H k v Hk. rewrite Ho in Hk. rewrite Hs. exact (H k v Hk). Qed.

Lemma coh_new : forall d, coh (new_object d).
Proof. intros d k v H; discriminate. Qed.

Lemma SI_frame : forall s s', st_journal s' = st_journal s -> st_dirties s' = st_dirties s ->
  st_objs s' = st_objs s -> SI s -> SI s'.
Proof. intros s s' J D O (A & B & C); unfold SI, JD; rewrite J, D, O; auto. Qed.

Lemma SI_put : forall s a o, SI s -> coh o -> SI (put_obj s a o).
Proof.
  intros s a o (A & B & C) H; split; [exact A|split; [|exact C]].
  intros x o' Hx; ss. unfold fupd in Hx. destruct (N.eqb x a); [inversion Hx; subst; auto | eauto].
Qed.

Lemma jcount_app : forall a l1 l2, jcount a (l1 ++ l2) = jcount a l1 + jcount a l2.
Proof. induction l1; intros; cbn [app jcount]; [reflexivity|]. rewrite IHl1. lia. Qed.

Lemma SI_jappend : forall s e, SI s -> (forall a p pd, e = JResetObject a p pd -> coh p) -> SI (jappend s e).
Proof.
  intros s e (A & B & C) H; unfold jappend, hits; split; [|split].
  - intro x. specialize (A x). unfold JD, jappend.
    destruct (dirtied e) as [y|] eqn:Ed; ss; cbn [jcount]; unfold hits; rewrite Ed; unfold tupd.
    + destruct (N.eqb y x) eqn:E1.
      * apply N.eqb_eq in E1; subst. rewrite N.eqb_refl. lia.
      * rewrite N.eqb_sym, E1. lia.
    + lia.
  - destruct (dirtied e); ss; exact B.
  - intros a p pd Hin. destruct (dirtied e); ss; (destruct Hin as [Hin|Hin]; [eapply H; eauto | eapply C; eauto]).
Qed.

Lemma SI_glob : forall s s' es, SI s -> st_objs s' = st_objs s -> st_dirties s' = st_dirties s ->
  st_journal s' = es ++ st_journal s -> Forall (fun e => dirtied e = None) es -> SI s'.
Proof.
  intros s s' es (A & B & C) O D J F. rewrite Forall_forall in F. split; [|split].
  - intro a. unfold JD in *. rewrite J, D, jcount_app.
    assert (Z : jcount a es = 0).
    { clear J. induction es as [|e t IH]; [reflexivity|]. cbn [jcount]. unfold hits. rewrite (F e) by (left; auto).
      rewrite IH; [reflexivity|]. intros x Hx; apply F; right; auto. }
    rewrite Z. apply A.
  - rewrite O; exact B.
  - intros a p pd Hin. rewrite J in Hin. apply in_app_or in Hin. destruct Hin as [Hin|Hin]; [|eapply C; eauto].
    apply F in Hin. discriminate.
Qed.

Lemma peek_coh : forall s x o, (forall a o, st_objs s a = Some o -> coh o) -> peek s x = Some o -> coh o.
Proof.
  intros s x o B H; unfold peek in H. destruct (st_objs s x) eqn:E; [inversion H; subst; eauto|].
  destruct (st_trie s x); [|discriminate]. inversion H; subst. apply coh_new.
Qed.

Lemma SI_only_objs : forall s s', only_objs s s' -> SI s -> SI s'.
Proof.
  intros s s' [H Hp] (A & B & C).
  assert (J : st_journal s' = st_journal s) by (rewrite H; reflexivity).
  assert (D : st_dirties s' = st_dirties s) by (rewrite H; reflexivity).
  split; [unfold JD; rewrite J, D; exact A|split; [|rewrite J; exact C]].
  intros a o Ho. apply (peek_coh s a o B). rewrite <- Hp. unfold peek. rewrite Ho. reflexivity.
Qed.

Lemma with_live_objs : forall s a f b x o,
  st_objs (with_live s a f b) x = Some o ->
  (exists o0, live s a = Some o0 /\ x = a /\ o = f o0) \/ peek s x = Some o.
Proof.
  intros s a f b x o. unfold with_live.
  destruct (get_obj_load s a) as ([Hd Hp] & Hr). destruct (get_obj s a) as [s1 r]; ss; subst r.
  assert (X : forall y oy, st_objs s1 y = Some oy -> peek s y = Some oy).
  { intros y oy Hy. rewrite <- Hp. unfold peek. rewrite Hy. reflexivity. }
  destruct (live s a) as [o0|].
  - ss. unfold fupd. eqb x a.
    + intro H; inversion H; subst. left; exists o0; auto.
    + intro H; right; auto.
  - destruct b; ss; intro H; right; auto.
Qed.

Lemma live_coh : forall s x o, (forall a o, st_objs s a = Some o -> coh o) -> live s x = Some o -> coh o.
Proof.
  intros s x o B H; unfold live in H. destruct (peek s x) eqn:E; [|discriminate].
  destruct (o_deleted o0); [discriminate|]. inversion H; subst. eapply peek_coh; eauto.
Qed.

Lemma undo_objs_coh : forall e s,
  (forall a o, st_objs s a = Some o -> coh o) -> (forall a p pd, e = JResetObject a p pd -> coh p) ->
  forall a o, st_objs (undo e s) a = Some o -> coh o.
Proof.
  intros e s B R.
  assert (W : forall a f b, (forall o, coh o -> coh (f o)) ->
              forall x o, st_objs (with_live s a f b) x = Some o -> coh o).
  { intros a f b Hf x o H. apply with_live_objs in H. destruct H as [(o0 & L & _ & ->)|H].
    - apply Hf. eapply live_coh; eauto.
    - eapply peek_coh; eauto. }
  destruct e; unfold undo; try exact B;
    try (apply W; intro o; apply coh_same; reflexivity).
  - intros x o; ss. unfold fdel. destruct (N.eqb x a); [discriminate|apply B].
  - intros x o. assert (Y : st_objs (put_obj s a prev) x = Some o -> coh o).
    { ss. unfold fupd. destruct (N.eqb x a); [intro H; inversion H; subst; eapply R; eauto | apply B]. }
    destruct prevdestruct; ss; exact Y.
  - intros x o. destruct (st_logs s txhash); ss; apply B.
  - intros x o. destruct (delete_slot_al_cases s a k) as [-> | (ad & sl & ->)]; apply B.
Qed.

Lemma pop1_SI : forall e j s, st_journal s = e :: j -> SI s -> SI (pop1 e j s).
Proof.
  intros e j s J (A & B & C). unfold pop1.
  assert (Cj : jcoh j) by (intros a p pd Hin; eapply C; rewrite J; right; eauto).
  assert (Ce : forall a p pd, e = JResetObject a p pd -> coh p) by (intros a p pd ->; eapply C; rewrite J; left; eauto).
  destruct (pop1_journal e j s) as (Jp & _).
  destruct (undo_frame e (set_journal s j)) as (_ & D & _). ss.
  split; [|split].
  - intro a. specialize (A a). rewrite J in A. cbn [jcount] in A. unfold hits in A.
    fold (pop1 e j s). rewrite Jp. unfold pop1, undo_dirty. destruct (dirtied e) as [y|] eqn:Ed.
    + ss. rewrite D. ss. unfold tupd. destruct (N.eqb a y) eqn:E1.
      * apply N.eqb_eq in E1; subst y. rewrite N.eqb_refl in A. lia.
      * rewrite N.eqb_sym in E1. rewrite E1 in A. lia.
    + rewrite D. ss. lia.
  - assert (X : forall a o, st_objs (undo e (set_journal s j)) a = Some o -> coh o)
      by (apply undo_objs_coh; ss; auto).
    unfold undo_dirty. destruct (dirtied e); ss; exact X.
  - fold (pop1 e j s). rewrite Jp. exact Cj.
Qed.

Lemma pop1_pt : forall e j s, pt (pop1 e j s) = pt s.
Proof.
  intros; unfold pop1, undo_dirty. destruct (undo_frame e (set_journal s j)) as (_ & _ & P).
  destruct (dirtied e); unfold pt in *; ss; exact P.
Qed.

Lemma rewind_SI : forall n s, SI s -> SI (rewind n s) /\ pt (rewind n s) = pt s.
Proof.
  induction n; intros s H; [auto|].
  destruct (st_journal s) as [|e j] eqn:E.
  - cbn [rewind]. rewrite E. auto.
  - rewrite (rewind_S _ _ _ _ E). destruct (IHn (pop1 e j s) (pop1_SI e j s E H)) as (A & B).
    split; auto. rewrite B. apply pop1_pt.
Qed.

Lemma SI_touch : forall s a, SI s -> SI (touch s a).
Proof.
  intros s a H. unfold touch.
  assert (X : SI (jappend s (JTouch a))) by (apply SI_jappend; auto; intros; discriminate).
  destruct (N.eqb a ripemd); [|exact X].
  destruct X as (A & B & C). split; [|split; [exact B | exact C]].
  intro x. specialize (A x). unfold JD in *. ss. unfold tupd. destruct (N.eqb x a) eqn:E.
  - apply N.eqb_eq in E; subst. lia.
  - exact A.
Qed.

Lemma obj_get_committed_coh : forall d o k o', fst (obj_get_committed d o k) = Some o' -> coh o -> coh o'.
Proof.
  intros d o k o'; unfold obj_get_committed.
  destruct (o_pending o k); ss; [discriminate|]. destruct (o_origin o k) eqn:Eo; ss; [discriminate|].
  destruct d; ss; [discriminate|]. intro H; inversion H; subst; clear H. intros Hc k' v'; ss. unfold fupd.
  destruct (N.eqb k' k) eqn:E; [apply N.eqb_eq in E; subst; intro X; inversion X; reflexivity | apply Hc].
Qed.

Lemma obj_get_state_coh : forall d o k o', fst (obj_get_state d o k) = Some o' -> coh o -> coh o'.
Proof.
  intros d o k o'; unfold obj_get_state. destruct (o_dirty o k); ss; [discriminate|]. apply obj_get_committed_coh.
Qed.
