(** C08 proofs: every setter and every getter extends the journal by entries whose reverts bring
    the state back (up to [eqv]) — the one-step "undo . apply = id". *)
From Coq Require Import List ZArith NArith Bool Lia.
From Kardia Require Import C08.Model C08.ProofsEqv C08.ProofsFinalise C08.ProofsInv.
Import ListNotations.
Local Open Scope N_scope.

Definition undos (es : list entry) (s : state) : state := fold_left (fun t e => undo e t) es s.

Lemma undos_eqv : forall es s1 s2, eqv s1 s2 -> eqv (undos es s1) (undos es s2).
Proof. induction es; intros; cbn; auto. apply IHes. apply undo_eqv; auto. Qed.

Lemma pop1_undo : forall e j s, eqv (pop1 e j s) (undo e s).
Proof.
  intros; unfold pop1. eapply eqv_trans; [apply undo_dirty_eqv|]. apply undo_eqv. apply set_journal_eqv.
Qed.

Lemma rewind_undos : forall es s j, st_journal s = es ++ j -> eqv (rewind (length es) s) (undos es s).
Proof.
  induction es as [|e es IH]; intros s j H; [apply eqv_refl|].
  cbn [length app] in *. rewrite (rewind_S _ _ _ _ H). cbn [undos fold_left].
  eapply eqv_trans; [apply (IH _ j); apply pop1_journal|].
  apply undos_eqv. apply pop1_undo.
Qed.

(** shape invariants the reverts rely on: no empty slot set in the access list (DeleteSlot
    truncates the slice when a set becomes empty) and logSize within uint64 *)
Definition NE (l : list (list N)) : Prop := Forall (fun sm => sm <> nil) l.
(** every index stored in accessList.addresses points into accessList.slots *)
Definition al_ok (s : state) : Prop :=
  forall a idx, st_aladdrs s a = Some (Some idx) -> nth_error (st_alslots s) idx <> None.
(** [wfU] is stable under journal reverts; [al_ok] is re-established after a revert from the
    state the revert returns to *)
Definition wfU (s : state) : Prop := NE (st_alslots s) /\ st_logsize s < two64.
Definition wfK (s : state) : Prop := wfU s /\ al_ok s.

Lemma wfK_frame : forall s s', st_alslots s' = st_alslots s -> st_aladdrs s' = st_aladdrs s ->
  st_logsize s' = st_logsize s -> wfK s -> wfK s'.
Proof. intros s s' A B C [[H1 H2] H3]; unfold wfK, wfU, al_ok; rewrite A, B, C; auto. Qed.

(** [ext s0 s1]: s1 is s0 plus journalled changes whose reverts give s0 back; the revision
    bookkeeping and [pt] are untouched, and [wfK] and [SI] are carried along (so that a proof of
    [ext] for a setter has these seven obligations, see [ext_intro]) *)
Definition ext (s0 s1 : state) : Prop :=
  st_revs s1 = st_revs s0 /\ st_nextrev s1 = st_nextrev s0 /\ (wfK s0 -> wfK s1) /\
  pt s1 = pt s0 /\ (SI s0 -> SI s1) /\
  exists es, st_journal s1 = es ++ st_journal s0 /\ eqv (rewind (length es) s1) s0.

Lemma ext_intro : forall s0 s1 es,
  st_revs s1 = st_revs s0 -> st_nextrev s1 = st_nextrev s0 -> (wfK s0 -> wfK s1) ->
  st_journal s1 = es ++ st_journal s0 -> eqv (undos es s1) s0 ->
  pt s1 = pt s0 -> (SI s0 -> SI s1) -> ext s0 s1.
Proof.
  intros s0 s1 es R N W J E P I; split; [|split; [|split; [|split; [|split]]]]; auto. exists es; split; auto.
  eapply eqv_trans; [apply (rewind_undos _ _ _ J)|exact E].
Qed.

Lemma ext_refl : forall s, ext s s.
Proof. intro s; apply (ext_intro s s nil); auto. apply eqv_refl. Qed.

(** journal suffixes that rewind to the state before them compose *)
Lemma rewind_compose : forall s0 s1 s2 es1 es2,
  st_journal s1 = es1 ++ st_journal s0 -> eqv (rewind (length es1) s1) s0 ->
  st_journal s2 = es2 ++ st_journal s1 -> eqv (rewind (length es2) s2) s1 ->
  st_journal s2 = (es2 ++ es1) ++ st_journal s0 /\ eqv (rewind (length (es2 ++ es1)) s2) s0.
Proof.
  intros s0 s1 s2 es1 es2 J1 E1 J2 E2. split; [rewrite J2, J1, app_assoc; reflexivity|].
  rewrite app_length, rewind_add. eapply eqv_trans; [|exact E1]. apply rewind_eqv; [exact E2|].
  exact (rewind_journal_app es2 _ s2 J2).
Qed.

Lemma ext_trans : forall s0 s1 s2, ext s0 s1 -> ext s1 s2 -> ext s0 s2.
Proof.
  intros s0 s1 s2 (R1 & N1 & W1 & P1 & I1 & es1 & J1 & E1) (R2 & N2 & W2 & P2 & I2 & es2 & J2 & E2).
  split; [|split; [|split; [|split; [|split]]]]; try congruence; auto.
  exists (es2 ++ es1). exact (rewind_compose s0 s1 s2 es1 es2 J1 E1 J2 E2).
Qed.

(** a step that only changes [eqv]-invisible things *)
Lemma ext_silent : forall s s', ctl s' = ctl s -> (wfK s -> wfK s') -> eqv s' s ->
  pt s' = pt s -> (SI s -> SI s') -> ext s s'.
Proof.
  intros s s' C W E P I; unfold ctl in C; injection C as J R N.
  apply (ext_intro s s' nil); auto.
Qed.

Lemma ext_only_objs : forall s s', only_objs s s' -> ext s s'.
Proof.
  intros s s' H. apply ext_silent; [apply only_objs_glob; auto | | apply eqv_sym, only_objs_eqv; auto | | apply SI_only_objs; auto].
  - destruct (only_objs_glob _ _ H) as (G & _). unglob G. apply wfK_frame; congruence.
  - destruct H as [H _]. rewrite H. reflexivity.
Qed.

Definition has (s : state) (a : N) (o : obj) : Prop := st_objs s a = Some o /\ o_deleted o = false.

Lemma has_peek : forall s a o, has s a o -> peek s a = Some o /\ live s a = Some o.
Proof. intros s a o [H D]; unfold live, peek; rewrite H, D; auto. Qed.

Lemma jappend_fields : forall s e,
  st_journal (jappend s e) = e :: st_journal s /\ glob (jappend s e) = glob s /\
  st_objs (jappend s e) = st_objs s /\ st_revs (jappend s e) = st_revs s /\ st_nextrev (jappend s e) = st_nextrev s.
Proof. intros s e; unfold jappend, glob. destruct (dirtied e); ss; auto 10. Qed.

Lemma jappend_peek : forall s e x, peek (jappend s e) x = peek s x.
Proof.
  intros; unfold peek. destruct (jappend_fields s e) as (_ & G & O & _). apply glob_inv in G. destruct G as (T & _).
  rewrite O, T. reflexivity.
Qed.

Lemma get_obj_spec : forall s a,
  only_objs s (fst (get_obj s a)) /\ snd (get_obj s a) = live s a /\
  forall o, snd (get_obj s a) = Some o -> has (fst (get_obj s a)) a o.
Proof.
  intros s a. rewrite get_obj_state. split; [apply get_deleted_state|]. split; [apply get_obj_res|].
  intros o H. pose proof (get_deleted_loaded s a) as L. rewrite get_deleted_res in L.
  rewrite get_obj_res in H. unfold live in H.
  destruct (peek s a) as [o'|]; [|discriminate]. destruct (o_deleted o') eqn:D; [discriminate|].
  inversion H; subst. split; auto.
Qed.

(** one journalled change of one live object *)
Lemma ext_field : forall s a o e o' f b,
  has s a o -> (forall t, undo e t = with_live t a f b) -> o_deleted o' = false ->
  obj_eqv (st_destruct s a) (f o') o ->
  o_origin o' = o_origin o -> (forall k, ac_storage (o_data o') k = ac_storage (o_data o) k) ->
  ext s (put_obj (jappend s e) a o').
Proof.
  intros s a o e o' f b Hh Hu Hd He Hor Hst.
  pose proof (coh_same o o' Hor Hst) as Hco.
  (* [e] is not a resetObjectChange: undone on an empty StateDB that would leave an object *)
  assert (Hne : forall a0 p pd, e <> JResetObject a0 p pd).
  { intros a0 p pd ->. specialize (Hu (new_state fempty)).
    apply (f_equal (fun t => st_objs t a0)) in Hu. unfold undo, with_live in Hu.
    destruct pd, b; cbn in Hu; unfold fupd, fempty in Hu; rewrite N.eqb_refl in Hu; discriminate. }
  destruct (jappend_fields s e) as (J & G & O & R & N).
  apply (ext_intro s _ [e]); [ss; auto | ss; auto | | ss; rewrite J; reflexivity | | | ].
  3: { unfold pt; ss. unglob G. unfold jappend. destruct (dirtied e); ss; reflexivity. }
  3: { intro HI. apply SI_put; [apply SI_jappend; auto; intros; subst; exfalso; eapply Hne; eauto|].
       apply Hco. destruct HI as (_ & B & _). eapply B. apply Hh. }
  - unglob G. apply wfK_frame; ss; congruence.
  - cbn [undos fold_left]. rewrite Hu.
    destruct (with_live_spec (put_obj (jappend s e) a o') a f b) as (G' & _ & P).
    eapply (eqv_frame s s); [apply eqv_refl | | reflexivity | |].
    3: { rewrite with_live_crashed. unfold live. rewrite peek_put, N.eqb_refl, Hd. ss.
         unfold jappend. destruct (dirtied e); reflexivity. }
    + rewrite G', <- G. unfold glob; ss; reflexivity.
    + intro x; rewrite P. destruct (has_peek _ _ _ Hh) as (Pk & _).
      eqb x a.
      * unfold live. rewrite peek_put, N.eqb_refl, Hd, Pk. cbn. exact He.
      * rewrite peek_put. apply N.eqb_neq in E; rewrite E. rewrite jappend_peek.
        apply opt_rel_refl, obj_eqv_refl.
Qed.

Ltac sj := unfold jappend; cbn [dirtied]; ss.
Ltac wkf := (apply wfK_frame; sj; reflexivity).

(** createObject over a live or deleted predecessor, whatever object ends up stored *)
Lemma reset_undo_eqv : forall s1 a p t,
  st_objs s1 a = Some p ->
  glob t = glob (if st_destruct s1 a then s1 else set_destruct s1 (tupd (st_destruct s1) a true)) ->
  (forall x, x <> a -> st_objs t x = st_objs s1 x) ->
  st_crashed t = st_crashed s1 ->
  eqv (undo (JResetObject a p (st_destruct s1 a)) t) s1.
Proof.
  intros s1 a p t Hl G Hx Hcr. unfold undo.
  destruct (st_destruct s1 a) eqn:Da; unglob G; constructor; ss; try congruence; try (intros; congruence).
  - intro x; unfold peek; ss; unfold fupd. eqb x a; [rewrite Hl | rewrite Hx by auto; replace (st_trie t) with (st_trie s1) by congruence];
      apply opt_rel_refl, obj_eqv_refl.
  - intro x; unfold tupd. match goal with H : st_destruct t = _ |- _ => rewrite H end. unfold tupd.
    eqb x a; auto.
  - intro x; unfold peek; ss; unfold fupd. eqb x a; [rewrite Hl | rewrite Hx by auto; replace (st_trie t) with (st_trie s1) by congruence];
      apply opt_rel_refl, obj_eqv_refl.
Qed.

Lemma create_undo_eqv : forall s1 a, peek s1 a = None ->
  eqv (undo (JCreateObject a) (put_obj (jappend s1 (JCreateObject a)) a (new_object empty_account))) s1.
Proof.
  intros s1 a Hp. unfold undo; sj; constructor; ss; auto.
  intro x; unfold peek in *; ss; unfold fdel, fupd. eqb x a.
  - destruct (st_objs s1 a); [discriminate|]. rewrite Hp. exact I.
  - apply opt_rel_refl, obj_eqv_refl.
Qed.

Lemma create_object_spec : forall s a,
  ext s (fst (fst (create_object s a))) /\ has (fst (fst (create_object s a))) a (snd (fst (create_object s a))) /\
  snd (fst (create_object s a)) = new_object empty_account.
Proof.
  intros s a; unfold create_object.
  pose proof (get_deleted_res s a) as Hr. pose proof (get_deleted_state s a) as Hs.
  pose proof (get_deleted_loaded s a) as Hl.
  destruct (get_deleted s a) as [s1 prev]; ss. subst prev.
  pose proof Hs as [_ Hp].
  assert (E1 : ext s s1) by (apply ext_only_objs; auto).
  split; [|split; [split; ss; [unfold fupd; rewrite N.eqb_refl|]; reflexivity | reflexivity]].
  eapply ext_trans; [exact E1|].
  destruct (peek s a) as [p|] eqn:Pk.
  - specialize (Hl p eq_refl).
    apply (ext_intro s1 _ [JResetObject a p (st_destruct s1 a)]).
    + destruct (st_destruct s1 a); sj; reflexivity.
    + destruct (st_destruct s1 a); sj; reflexivity.
    + destruct (st_destruct s1 a); wkf.
    + destruct (st_destruct s1 a); sj; reflexivity.
    + cbn [undos fold_left]. apply reset_undo_eqv; auto.
      * intros x Hx. apply N.eqb_neq in Hx. destruct (st_destruct s1 a); sj; unfold fupd; rewrite Hx; reflexivity.
      * destruct (st_destruct s1 a); sj; reflexivity.
    + destruct (st_destruct s1 a); unfold pt; sj; reflexivity.
    + intro HI. apply SI_put; [|apply coh_new].
      assert (Cp : coh p) by (destruct HI as (_ & B & _); eauto).
      apply SI_jappend; [|intros a0 p0 pd0 Heq; inversion Heq; subst; exact Cp].
      destruct (st_destruct s1 a); [exact HI|]. eapply SI_frame; [| | |exact HI]; reflexivity.
  - apply (ext_intro s1 _ [JCreateObject a]); [sj; reflexivity | sj; reflexivity | wkf | sj; reflexivity | | unfold pt; sj; reflexivity | ].
    + cbn [undos fold_left]. apply create_undo_eqv. rewrite Hp; auto.
    + intro HI. apply SI_put; [|apply coh_new]. apply SI_jappend; auto. intros; discriminate.
Qed.

Lemma get_or_new_spec : forall s a,
  ext s (fst (get_or_new s a)) /\ has (fst (get_or_new s a)) a (snd (get_or_new s a)).
Proof.
  intros s a; unfold get_or_new.
  destruct (get_obj_spec s a) as (H1 & H2 & H3).
  destruct (get_obj s a) as [s1 r]; ss. destruct r as [o|].
  - ss. split; [apply ext_only_objs; auto | apply H3; reflexivity].
  - destruct (create_object_spec s1 a) as (A & B & _).
    destruct (create_object s1 a) as [[s2 o] pv]; ss. split; auto.
    eapply ext_trans; [apply ext_only_objs; eauto | exact A].
Qed.

(** replacing a live object by an indistinguishable one is invisible *)
Lemma ext_put_eqv : forall s a o o', has s a o -> obj_eqv (st_destruct s a) o' o -> (coh o -> coh o') ->
  ext s (put_obj s a o').
Proof.
  intros s a o o' Hh He Hco. apply ext_silent; [reflexivity| wkf | | reflexivity |
    intro HI; apply SI_put; auto; apply Hco; destruct HI as (_ & B & _); eapply B; apply Hh].
  eapply (eqv_frame s s); [apply eqv_refl | reflexivity | reflexivity | | reflexivity].
  intro x; rewrite peek_put. eqb x a.
  - destruct (has_peek _ _ _ Hh) as (P & _). rewrite P. exact He.
  - apply opt_rel_refl, obj_eqv_refl.
Qed.

Lemma ext_set_balance : forall s a o v, has s a o -> ext s (obj_set_balance s a o v).
Proof.
  intros s a o v Hh; unfold obj_set_balance.
  eapply (ext_field s a o _ _ (fun o' => seto_data o' (setac_balance (o_data o') (ac_balance (o_data o)))) true);
    [exact Hh | reflexivity | apply Hh | constructor; ss; auto | reflexivity | reflexivity].
Qed.

Lemma ext_touch : forall s a, ext s (touch s a).
Proof.
  intros s a. apply (ext_intro s _ [JTouch a]).
  - unfold touch. destruct (N.eqb a ripemd); sj; reflexivity.
  - unfold touch. destruct (N.eqb a ripemd); sj; reflexivity.
  - unfold touch. destruct (N.eqb a ripemd); wkf.
  - unfold touch. destruct (N.eqb a ripemd); sj; reflexivity.
  - cbn [undos fold_left undo]. unfold touch. destruct (N.eqb a ripemd); sj; constructor; ss; auto;
      intro x; apply opt_rel_refl, obj_eqv_refl.
  - unfold touch, pt. destruct (N.eqb a ripemd); sj; reflexivity.
  - intro HI. apply SI_touch; auto.
Qed.

Lemma add_balance_ext : forall s a v, ext s (add_balance s a v).
Proof.
  intros s a v; unfold add_balance. destruct (get_or_new_spec s a) as (E & Hh).
  destruct (get_or_new s a) as [s1 o]; ss.
  destruct (Z.eqb v 0).
  - destruct (obj_empty o); [eapply ext_trans; [exact E | apply ext_touch] | exact E].
  - eapply ext_trans; [exact E | apply ext_set_balance; auto].
Qed.

Lemma sub_balance_ext : forall s a v, ext s (sub_balance s a v).
Proof.
  intros s a v; unfold sub_balance. destruct (get_or_new_spec s a) as (E & Hh).
  destruct (get_or_new s a) as [s1 o]; ss.
  destruct (Z.eqb v 0); [exact E|]. eapply ext_trans; [exact E | apply ext_set_balance; auto].
Qed.

Lemma set_balance_ext : forall s a v, ext s (set_balance s a v).
Proof.
  intros s a v; unfold set_balance. destruct (get_or_new_spec s a) as (E & Hh).
  destruct (get_or_new s a) as [s1 o]; ss. eapply ext_trans; [exact E | apply ext_set_balance; auto].
Qed.

Lemma set_nonce_ext : forall s a n, ext s (set_nonce s a n).
Proof.
  intros s a n; unfold set_nonce. destruct (get_or_new_spec s a) as (E & Hh).
  destruct (get_or_new s a) as [s1 o]; ss. eapply ext_trans; [exact E|].
  eapply (ext_field s1 a o _ _ (fun o' => seto_data o' (setac_nonce (o_data o') (ac_nonce (o_data o)))) true);
    [exact Hh | reflexivity | apply Hh | constructor; ss; auto | reflexivity | reflexivity].
Qed.

Lemma set_code_ext : forall s a c, ext s (set_code s a c).
Proof.
  intros s a c; unfold set_code. destruct (get_or_new_spec s a) as (E & Hh).
  destruct (get_or_new s a) as [s1 o]; ss. eapply ext_trans; [exact E|].
  eapply (ext_field s1 a o _ _ (fun o' => seto_dirtycode (seto_data o' (setac_code (o_data o') (ac_code (o_data o)))) true) true);
    [exact Hh | reflexivity | apply Hh | constructor; ss; auto | reflexivity | reflexivity].
Qed.

Lemma set_state_ext : forall s a k v, ext s (set_state s a k v).
Proof.
  intros s a k v; unfold set_state. destruct (get_or_new_spec s a) as (E & Hh).
  destruct (get_or_new s a) as [s1 o]; ss.
  pose proof (obj_get_state_val (st_destruct s1 a) o k) as Hv.
  pose proof (obj_get_state_obj (st_destruct s1 a) o k) as Ho.
  pose proof (obj_get_state_coh (st_destruct s1 a) o k) as Hcoh.
  destruct (obj_get_state (st_destruct s1 a) o k) as [oc prev]; ss. subst prev.
  (* the state after the cache fill *)
  set (o1 := match oc with Some o' => o' | None => o end).
  set (s2 := match oc with Some o' => put_obj s1 a o' | None => s1 end).
  assert (Ho1 : obj_eqv (st_destruct s1 a) o o1).
  { unfold o1; destruct oc; [apply Ho; reflexivity | apply obj_eqv_refl]. }
  assert (E2 : ext s1 s2).
  { unfold s2; destruct oc; [|apply ext_refl].
    eapply ext_put_eqv; [exact Hh | apply obj_eqv_sym; apply Ho; reflexivity | apply Hcoh; reflexivity]. }
  assert (H2 : has s2 a o1).
  { unfold s2, o1; destruct oc; [|exact Hh]. split; ss; [unfold fupd; rewrite N.eqb_refl; reflexivity|].
    rewrite <- (oe_deleted _ _ _ (Ho o0 eq_refl)). apply Hh. }
  assert (D2 : st_destruct s2 a = st_destruct s1 a) by (unfold s2; destruct oc; reflexivity).
  destruct (N.eqb (state_val (st_destruct s1 a) o k) v).
  - eapply ext_trans; eauto.
  - eapply ext_trans; [exact E|]. eapply ext_trans; [exact E2|].
    eapply (ext_field s2 a o1 _ _ (fun o' => seto_dirty o' (fupd (o_dirty o') k (state_val (st_destruct s1 a) o k))) true);
      [exact H2 | reflexivity | ss; apply H2 | | reflexivity | reflexivity].
    rewrite D2. constructor; ss; auto.
    intro k'; unfold state_val at 1; ss. unfold fupd. eqb k' k.
    + apply (oe_state _ _ _ Ho1).
    + reflexivity.
Qed.

Lemma create_account_ext : forall s a, ext s (create_account s a).
Proof.
  intros s a; unfold create_account.
  pose proof (create_object_spec s a) as (A & B & C).
  unfold create_object in *.
  pose proof (get_deleted_res s a) as Hr. pose proof (get_deleted_state s a) as Hs.
  pose proof (get_deleted_loaded s a) as Hl.
  destruct (get_deleted s a) as [s1 prev]; ss. subst prev.
  destruct (peek s a) as [p|] eqn:Pk; [|exact A].
  destruct (o_deleted p); [exact A|].
  specialize (Hl p eq_refl).
  eapply ext_trans; [apply ext_only_objs; eauto|].
  apply (ext_intro s1 _ [JResetObject a p (st_destruct s1 a)]).
  - destruct (st_destruct s1 a); sj; reflexivity.
  - destruct (st_destruct s1 a); sj; reflexivity.
  - destruct (st_destruct s1 a); wkf.
  - destruct (st_destruct s1 a); sj; reflexivity.
  - cbn [undos fold_left]. apply reset_undo_eqv; auto.
    + intros x Hx. apply N.eqb_neq in Hx. destruct (st_destruct s1 a); sj; unfold fupd; rewrite !Hx; reflexivity.
    + destruct (st_destruct s1 a); sj; reflexivity.
  - destruct (st_destruct s1 a); unfold pt; sj; reflexivity.
  - intro HI. assert (Cp : coh p) by (destruct HI as (_ & Bo & _); eauto).
    apply SI_put; [apply SI_put; [|apply coh_new]|intros kk vv Hk; discriminate].
    apply SI_jappend; [|intros a0 p0 pd0 Heq; inversion Heq; subst; exact Cp].
    destruct (st_destruct s1 a); [exact HI|]. eapply SI_frame; [| | |exact HI]; reflexivity.
Qed.

Lemma suicide_ext : forall s a, ext s (fst (suicide s a)).
Proof.
  intros s a; unfold suicide. destruct (get_obj_spec s a) as (H1 & H2 & H3).
  destruct (get_obj s a) as [s1 r]; ss. destruct r as [o|]; ss; [|apply ext_only_objs; auto].
  eapply ext_trans; [apply ext_only_objs; eauto|]. specialize (H3 o eq_refl).
  eapply (ext_field s1 a o _ _ (fun o' => seto_data (seto_suicided o' (o_suicided o)) (setac_balance (o_data o') (ac_balance (o_data o)))) false);
    [exact H3 | reflexivity | apply H3 | constructor; ss; auto | reflexivity | reflexivity].
Qed.

Lemma refl_objs : forall s x, opt_rel (obj_eqv (st_destruct s x)) (peek s x) (peek s x).
Proof. intros; apply opt_rel_refl, obj_eqv_refl. Qed.

Ltac pk := (intro; unfold peek; ss; apply opt_rel_refl, obj_eqv_refl).
(** the fields a change to the refund counter, the logs, the preimages, the access list or the
    transient storage leaves alone *)
Definition spared (s : state) := (st_objs s, st_dirties s, st_revs s, st_nextrev s, pt s).

(** a journalled change of that kind: the entries [es] dirty no address *)
Lemma ext_global : forall s s' es,
  st_journal s' = es ++ st_journal s -> Forall (fun e => dirtied e = None) es -> spared s' = spared s ->
  (wfK s -> wfK s') -> eqv (undos es s') s -> ext s s'.
Proof.
  intros s s' es J F K W E. injection K as Ho Hd Hr Hn Hp Ht.
  apply (ext_intro s s' es Hr Hn W J E); [unfold pt; congruence|]. intro HI. exact (SI_glob s s' es HI Ho Hd J F).
Qed.

Lemma add_refund_ext : forall s g, ext s (add_refund s g).
Proof.
  intros s g; unfold add_refund. apply (ext_global s _ [JRefund (st_refund s)]); [reflexivity | repeat constructor | reflexivity | wkf |].
  cbn [undos fold_left undo]; sj. constructor; ss; auto; try pk.
Qed.

Lemma sub_refund_ext : forall s g, ext s (fst (sub_refund s g)).
Proof.
  intros s g; unfold sub_refund.
  destruct (N.ltb (st_refund (jappend s (JRefund (st_refund s)))) g); ss;
  (apply (ext_global s _ [JRefund (st_refund s)]); [reflexivity | repeat constructor | reflexivity | wkf |];
   cbn [undos fold_left undo]; sj; constructor; ss; auto; try pk).
Qed.

Lemma two64_pos : two64 <> 0. Proof. discriminate. Qed.

Lemma log_roundtrip : forall x, x < two64 -> ((x + 1) mod two64 + (two64 - 1)) mod two64 = x.
Proof.
  intros x H. unfold two64 in *.
  destruct (N.eq_dec (x + 1) 18446744073709551616) as [E|E].
  - rewrite E, N.mod_same by discriminate. cbn [N.add]. rewrite N.mod_small by lia. lia.
  - rewrite (N.mod_small (x + 1)) by lia.
    replace (x + 1 + (18446744073709551616 - 1)) with (x + 1 * 18446744073709551616) by lia.
    rewrite N.mod_add by discriminate. apply N.mod_small; lia.
Qed.

Lemma undo_addlog_snoc : forall t th l x, st_logs t th = l ++ [x] ->
  undo (JAddLog th) t = set_logsize (set_logs t (tupd (st_logs t) th l)) ((st_logsize t + (two64 - 1)) mod two64).
Proof.
  intros t th l x H; unfold undo. rewrite H. rewrite removelast_last.
  destruct (l ++ [x]) eqn:E; [destruct l; discriminate|]. reflexivity.
Qed.

Lemma add_log_ext : forall s p, st_logsize s < two64 -> ext s (add_log s p).
Proof.
  intros s p Hw; unfold add_log. apply (ext_global s _ [JAddLog (st_thash s)]); [reflexivity | repeat constructor | reflexivity | |].
  { unfold wfK, wfU, al_ok; sj. intros [[? ?] ?]; repeat split; auto. apply N.mod_lt. discriminate. }
  cbn [undos fold_left]. sj.
  erewrite undo_addlog_snoc; [|ss; unfold tupd; rewrite N.eqb_refl; reflexivity].
  ss. constructor; ss; auto; try pk.
  - intro t; unfold tupd. eqb t (st_thash s); reflexivity.
  - apply log_roundtrip; auto.
Qed.

Lemma add_preimage_ext : forall s h p, ext s (add_preimage s h p).
Proof.
  intros s h p; unfold add_preimage. destruct (st_preimages s h) eqn:Ep; [apply ext_refl|].
  apply (ext_global s _ [JAddPreimage h]); [reflexivity | repeat constructor | reflexivity | wkf |].
  cbn [undos fold_left undo]; sj. constructor; ss; auto; try pk.
  intro x; unfold fdel, fupd. eqb x h; auto.
Qed.

Lemma set_transient_ext : forall s a k v, ext s (set_transient_state s a k v).
Proof.
  intros s a k v; unfold set_transient_state. destruct (N.eqb (st_transient s a k) v); [apply ext_refl|].
  apply (ext_global s _ [JTransient a k (st_transient s a k)]); [reflexivity | repeat constructor | reflexivity | wkf |].
  cbn [undos fold_left undo]; sj. constructor; ss; auto; try pk.
  intros x y. rewrite N.eqb_refl. eqb x a; [|reflexivity]. unfold tupd. eqb y k; reflexivity.
Qed.

Lemma add_address_al_ext : forall s a, ext s (add_address_al s a).
Proof.
  intros s a; unfold add_address_al. destruct (st_aladdrs s a) eqn:Ea; [apply ext_refl|].
  apply (ext_global s _ [JALAddr a]); [reflexivity | repeat constructor | reflexivity | |].
  { unfold wfK, wfU, al_ok; sj. intros [[? ?] Hk]; repeat split; auto.
    intros x idx; unfold fupd. destruct (N.eqb x a); [discriminate|apply Hk]. }
  cbn [undos fold_left undo]; sj. constructor; ss; auto; try pk.
  intro x; unfold fdel, fupd. eqb x a; auto.
Qed.

Lemma nth_error_list_set : forall (V : Type) (l : list V) i v x, nth_error l i = Some x -> nth_error (list_set l i v) i = Some v.
Proof. induction l; destruct i; cbn; intros; try discriminate; eauto. Qed.

Lemma list_set_list_set : forall (V : Type) (l : list V) i v x, nth_error l i = Some x -> list_set (list_set l i v) i x = l.
Proof.
  induction l; destruct i; cbn; intros; try discriminate; auto.
  - inversion H; reflexivity.
  - f_equal; eauto.
Qed.

Lemma remove_n_notin : forall k l, mem k l = false -> remove_n k l = l.
Proof.
  induction l; cbn; intro H; [reflexivity|]. apply orb_false_iff in H. destruct H as [H1 H2].
  rewrite N.eqb_sym, H1. cbn. f_equal; auto.
Qed.

Lemma remove_n_snoc : forall k l, mem k l = false -> remove_n k (l ++ [k]) = l.
Proof.
  intros k l H. unfold remove_n. rewrite filter_app. cbn. rewrite N.eqb_refl. cbn. rewrite app_nil_r.
  apply remove_n_notin; auto.
Qed.

Lemma delete_slot_al_spec : forall t a k idx sm,
  st_aladdrs t a = Some (Some idx) -> nth_error (st_alslots t) idx = Some sm ->
  delete_slot_al t a k =
  match remove_n k sm with
  | nil => set_aladdrs (set_alslots t (firstn idx (st_alslots t))) (fupd (st_aladdrs t) a None)
  | _ :: _ => set_alslots t (list_set (st_alslots t) idx (remove_n k sm))
  end.
Proof. intros t a k idx sm H1 H2; unfold delete_slot_al. rewrite H1, H2. reflexivity. Qed.

Lemma remove_n_single : forall k, remove_n k [k] = nil.
Proof. intro k; cbn. rewrite N.eqb_refl. reflexivity. Qed.

Lemma NE_snoc : forall l k, NE l -> NE (l ++ [[k]]).
Proof. intros l k H; unfold NE in *. apply Forall_app; split; auto. constructor; [discriminate|constructor]. Qed.

Lemma NE_list_set : forall l i v, NE l -> v <> nil -> NE (list_set l i v).
Proof.
  unfold NE; induction l; destruct i; cbn; intros v H Hv; auto; inversion H; subst; constructor; auto.
Qed.

Lemma NE_firstn : forall l n, NE l -> NE (firstn n l).
Proof.
  unfold NE; induction l; destruct n; cbn; intro H; auto. inversion H; subst. constructor; auto.
Qed.

Lemma list_set_length : forall (V : Type) (l : list V) i v, length (list_set l i v) = length l.
Proof. induction l; destruct i; cbn; intros; auto. Qed.

Lemma al_ok_list_set : forall s i v, al_ok s -> al_ok (set_alslots s (list_set (st_alslots s) i v)).
Proof.
  intros s i v H a idx Ha; ss. specialize (H a idx Ha). rewrite nth_error_Some in *. rewrite list_set_length. exact H.
Qed.

Lemma al_ok_snoc : forall s a v (F : state -> state),
  al_ok s -> (forall t, st_aladdrs (F t) = st_aladdrs t) -> (forall t, st_alslots (F t) = st_alslots t) ->
  al_ok (F (set_alslots (set_aladdrs s (fupd (st_aladdrs s) a (Some (length (st_alslots s))))) (st_alslots s ++ [v]))).
Proof.
  intros s a v F H F1 F2 x idx. rewrite F1, F2; ss. unfold fupd. rewrite nth_error_Some, app_length. cbn [length].
  destruct (N.eqb x a).
  - intro E; inversion E; subst. lia.
  - intro E. specialize (H x idx E). rewrite nth_error_Some in H. lia.
Qed.

(** a new slot set at the end of accessList.slots, then [F] (the journal appends) *)
Lemma wfK_fresh_slot : forall s a k (F : state -> state),
  (forall t, st_aladdrs (F t) = st_aladdrs t) -> (forall t, st_alslots (F t) = st_alslots t) ->
  (forall t, st_logsize (F t) = st_logsize t) -> wfK s ->
  wfK (F (set_alslots (set_aladdrs s (fupd (st_aladdrs s) a (Some (length (st_alslots s))))) (st_alslots s ++ [[k]]))).
Proof.
  intros s a k F F1 F2 F3 [[Hn Hl] Hk]. split; [split|].
  - rewrite F2; ss. apply NE_snoc; exact Hn.
  - rewrite F3; ss. exact Hl.
  - apply al_ok_snoc; auto.
Qed.

Lemma add_slot_al_ext : forall s a k, NE (st_alslots s) -> al_ok s -> ext s (add_slot_al s a k).
Proof.
  intros s a k Hne Hok; unfold add_slot_al.
  assert (Fn : nth_error (st_alslots s ++ [[k]]) (length (st_alslots s)) = Some [k]).
  { rewrite nth_error_app2 by lia. rewrite Nat.sub_diag. reflexivity. }
  assert (Ff : firstn (length (st_alslots s)) (st_alslots s ++ [[k]]) = st_alslots s).
  { rewrite firstn_app, Nat.sub_diag, firstn_all. cbn. apply app_nil_r. }
  destruct (st_aladdrs s a) as [[idx|]|] eqn:Ea.
  - destruct (nth_error (st_alslots s) idx) as [sm|] eqn:En.
    + destruct (mem k sm) eqn:Em; [apply ext_refl|].
      apply (ext_global s _ [JALSlot a k]); [reflexivity | repeat constructor | reflexivity | |].
      { unfold wfK, wfU; sj. intros [[? ?] Hk]; repeat split; auto; [apply NE_list_set; auto; destruct sm; discriminate|].
        apply (al_ok_list_set s idx (sm ++ [k]) Hk). }
      cbn [undos fold_left undo].
      erewrite delete_slot_al_spec; [| sj; exact Ea | sj; eapply nth_error_list_set; eauto].
      rewrite remove_n_snoc by auto.
      assert (sm <> nil).
      { unfold NE in Hne. rewrite Forall_forall in Hne. apply Hne. eapply nth_error_In; eauto. }
      destruct sm as [|x sm']; [congruence|]. sj.
      constructor; ss; auto; try pk. eapply list_set_list_set; eauto.
    + exfalso. exact (Hok a idx Ea En).
  - apply (ext_global s _ [JALSlot a k]); [reflexivity | repeat constructor | reflexivity | |].
    { apply (wfK_fresh_slot s a k (fun t => jappend t (JALSlot a k))); intro t; sj; reflexivity. }
    cbn [undos fold_left undo].
    erewrite delete_slot_al_spec; [| sj; unfold fupd; rewrite N.eqb_refl; reflexivity | sj; exact Fn].
    rewrite remove_n_single. sj. rewrite Ff.
    constructor; ss; auto; try pk.
    intro x; unfold fupd. eqb x a; auto.
  - apply (ext_global s _ [JALSlot a k; JALAddr a]); [reflexivity | repeat constructor | reflexivity | |].
    { apply (wfK_fresh_slot s a k (fun t => jappend (jappend t (JALAddr a)) (JALSlot a k))); intro t; sj; reflexivity. }
    cbn [undos fold_left undo].
    erewrite delete_slot_al_spec; [| sj; unfold fupd; rewrite N.eqb_refl; reflexivity | sj; exact Fn].
    rewrite remove_n_single. sj. rewrite Ff.
    constructor; ss; auto; try pk.
    intro x; unfold fdel, fupd. eqb x a; auto.
Qed.

Lemma read_ext : forall s q, ext s (fst (read s q)).
Proof.
  intros s q.
  assert (A : forall a (f : option obj -> answer), ext s (fst (let (s1, r) := get_obj s a in (s1, f r)))).
  { intros a f. destruct (get_obj_spec s a) as (H1 & _). destruct (get_obj s a); ss. apply ext_only_objs; auto. }
  assert (B : forall c a k, ext s (fst (read_slot c s a k))).
  { intros c a k; unfold read_slot. destruct (get_obj_spec s a) as (H1 & H2 & H3).
    destruct (get_obj s a) as [s1 r]; ss. destruct r as [o|]; ss; [|apply ext_only_objs; auto].
    specialize (H3 o eq_refl).
    pose proof (obj_get_state_obj (st_destruct s1 a) o k) as Ho1.
    pose proof (obj_get_committed_obj (st_destruct s1 a) o k) as Ho2.
    pose proof (obj_get_state_coh (st_destruct s1 a) o k) as Hc1.
    pose proof (obj_get_committed_coh (st_destruct s1 a) o k) as Hc2.
    eapply ext_trans; [apply ext_only_objs; eauto|].
    destruct c.
    - destruct (obj_get_committed (st_destruct s1 a) o k) as [[o'|] v]; ss; [|apply ext_refl].
      eapply ext_put_eqv; [exact H3 | apply obj_eqv_sym; auto | apply Hc2; reflexivity].
    - destruct (obj_get_state (st_destruct s1 a) o k) as [[o'|] v]; ss; [|apply ext_refl].
      eapply ext_put_eqv; [exact H3 | apply obj_eqv_sym; auto | apply Hc1; reflexivity]. }
  destruct q; unfold read; auto; apply ext_refl.
Qed.

(** operations that neither touch the revision stack nor clear the journal *)
Definition plain (o : op) : bool :=
  match o with
  | OSnapshot | ORevert _ | OFinalise _ | OIntermediateRoot _ | OCommit _ => false
  | _ => true
  end.

Lemma op_cases : forall o, plain o = true \/ o = OSnapshot \/ (exists id, o = ORevert id) \/ finalising o = true.
Proof. destruct o; cbn; eauto. Qed.

Lemma step_ext : forall s o, wfK s -> plain o = true -> ext s (fst (step s o)).
Proof.
  intros s o [[Hne Hls] Hok] Hp; destruct o; try discriminate; unfold step; ss.
  - apply create_account_ext.
  - apply add_balance_ext.
  - apply sub_balance_ext.
  - apply set_balance_ext.
  - apply set_nonce_ext.
  - apply set_code_ext.
  - apply set_state_ext.
  - pose proof (suicide_ext s a). destruct (suicide s a); ss; auto.
  - apply add_refund_ext.
  - pose proof (sub_refund_ext s g). destruct (sub_refund s g); ss; auto.
  - apply add_log_ext; auto.
  - apply add_preimage_ext.
  - apply add_address_al_ext.
  - apply add_slot_al_ext; auto.
  - apply set_transient_ext.
  - apply ext_silent; [reflexivity| wkf | | reflexivity | intro HI; eapply SI_frame; [| | |exact HI]; reflexivity].
    constructor; ss; auto; try pk.
  - apply read_ext.
Qed.
