(** C08 proofs: the statements of Properties.v about the StateDB proper, from the invariants of
    ProofsUndo.v and ProofsRevert.v. *)
From Coq Require Import List ZArith NArith Bool.
From Kardia Require Import C08.Model C08.ProofsEqv C08.ProofsFinalise C08.ProofsUndo C08.ProofsRevert.
Import ListNotations.
Local Open Scope N_scope.

(** one step: the journal entries an operation appends undo it on every observable *)
Lemma undo_apply : forall s o,
  wf s -> plain o = true ->
  exists es, st_journal (fst (step s o)) = es ++ st_journal s /\
             forall q, ask (rewind (length es) (fst (step s o))) q = ask s q.
Proof.
  intros s o [Hk _] Hp. destruct (step_ext s o Hk Hp) as (_ & _ & _ & _ & _ & es & J & E).
  exists es; split; auto. intro q; apply ask_eqv; auto.
Qed.

(** each single journal entry: its revert is a function of the observable state only
    (two indistinguishable states stay indistinguishable) *)
Lemma undo_congruence : forall e s1 s2, eqv s1 s2 -> forall q, ask (undo e s1) q = ask (undo e s2) q.
Proof. intros e s1 s2 H q; apply ask_eqv, undo_eqv; auto. Qed.

Lemma revert_exact : forall s ops,
  wf s ->
  let s1 := fst (snapshot s) in
  let id := snd (snapshot s) in
  let sN := run ops s1 in
  In id (map fst (st_revs sN)) ->
  snd (revert_to sN id) = false /\ forall q, ask (fst (revert_to sN id)) q = ask s q.
Proof.
  intros s ops Hw s1 id sN Hin.
  destruct (revert_exact_eqv s Hw ops Hin) as (A & B). split; auto.
  intro q; apply ask_eqv; auto.
Qed.

(** the invariant [wf] holds in every state a harness (or the node) can reach *)
Inductive reachable : state -> Prop :=
| r_new : forall c, reachable (new_state c)
| r_step : forall s o, reachable s -> reachable (fst (step s o))
| r_copy : forall s, reachable s -> reachable (copy s).

Lemma wf_reachable : forall s, reachable s -> wf s.
Proof. induction 1; auto using new_state_wf, step_wf, copy_wf. Qed.

Lemma no_internal_crash : forall s, reachable s -> st_crashed s = false.
Proof. intros s H. apply wf_reachable in H. destruct H as (_ & _ & _ & _ & _ & C). exact C. Qed.

(** the hypotheses of [revert_exact] are satisfiable, with a nested snapshot that is reverted
    inside and a snapshot id that is still valid at the end *)
Definition example_ops : list op :=
  [OSetState 1 0 7; OSnapshot; OSuicide 1; OAddSlotAL 1 2; ORevert 1; OAddBalance 3 0; OAddLog 4].
Definition example_s : state := run [OSetBalance 1 5; OSetState 1 0 9] (new_state fempty).

Lemma example_valid :
  In (snd (snapshot example_s)) (map fst (st_revs (run example_ops (fst (snapshot example_s))))).
Proof. vm_compute. auto. Qed.

(** copies: the model's states are values, so work on a copy cannot reach the original.
    Interleavings over the pair (original, copy) factor into the two separate runs. *)
Inductive side := OnOriginal | OnCopy.

Fixpoint run2 (l : list (side * op)) (w : state * state) : state * state :=
  match l with
  | nil => w
  | (OnOriginal, o) :: t => run2 t (fst (step (fst w) o), snd w)
  | (OnCopy, o) :: t => run2 t (fst w, fst (step (snd w) o))
  end.

Definition pick (sd : side) (l : list (side * op)) : list op :=
  map snd (filter (fun x => match fst x, sd with OnOriginal, OnOriginal | OnCopy, OnCopy => true | _, _ => false end) l).

Lemma copy_independent : forall l s,
  run2 l (s, copy s) = (run (pick OnOriginal l) s, run (pick OnCopy l) (copy s)).
Proof.
  assert (G : forall l a b, run2 l (a, b) = (run (pick OnOriginal l) a, run (pick OnCopy l) b)).
  { induction l as [|[[|] o] t IH]; intros a b; cbn [run2 fst snd]; [reflexivity| |]; rewrite IH; reflexivity. }
  intros; apply G.
Qed.

(** a fresh Copy shows the same observables as the original, provided the objects that Copy
    does not carry over (clean ones) agree with the account trie *)
Definition kept (s : state) (a : N) : bool :=
  (N.ltb 0 (st_dirties s a) && is_some (st_objs s a)) || st_pending s a || st_dirtyset s a.

Definition clean_unkept (s : state) : Prop :=
  forall a o, st_objs s a = Some o -> kept s a = false ->
    opt_rel (obj_eqv (st_destruct s a)) (Some o) (option_map new_object (st_trie s a)).

Lemma copy_observables : forall s, st_crashed s = false -> clean_unkept s -> forall q, ask (copy s) q = ask s q.
Proof.
  intros s Hcr Hc q. apply ask_eqv. constructor; cbn [copy st_trie st_destruct st_refund st_logs st_logsize
    st_preimages st_aladdrs st_alslots st_transient st_crashed]; auto.
  intro a. unfold peek; cbn [copy st_objs st_trie st_destruct]. fold (kept s a).
  destruct (kept s a) eqn:K.
  - destruct (st_objs s a); [cbn; apply obj_eqv_refl|]. apply opt_rel_refl, obj_eqv_refl.
  - destruct (st_objs s a) as [o|] eqn:Eo; [|apply opt_rel_refl, obj_eqv_refl].
    specialize (Hc a o Eo K). destruct (st_trie s a); cbn in *; [apply obj_eqv_sym; auto | tauto].
Qed.

(** read-back: a StateDB opened on committed content returns exactly that content *)
Lemma readback_fresh : forall c a k,
  ask (new_state c) (QExist a) = AB (is_some (c a)) /\
  ask (new_state c) (QBalance a) = AZ (match c a with Some d => ac_balance d | None => 0%Z end) /\
  ask (new_state c) (QNonce a) = AN (match c a with Some d => ac_nonce d | None => 0 end) /\
  ask (new_state c) (QCodeHash a) = AON (match c a with Some d => Some (ac_code d) | None => None end) /\
  ask (new_state c) (QState a k) = AN (match c a with Some d => ac_storage d k | None => 0 end) /\
  ask (new_state c) (QCommitted a k) = AN (match c a with Some d => ac_storage d k | None => 0 end).
Proof.
  intros c a k. unfold ask, read, read_slot, get_obj, get_deleted, new_state; cbn [st_objs st_trie fempty].
  destruct (c a) as [d|]; cbn; auto 10.
Qed.

(** the RIPEMD exception: a touch inside a reverted snapshot changes the finalised content *)
Definition ripemd_world : state := new_state (fupd fempty ripemd empty_account).
Definition with_reverted_touch : list op := [OSnapshot; OAddBalance ripemd 0; ORevert 0; OIntermediateRoot true].
Definition surviving_only : list op := [OIntermediateRoot true].

Lemma ripemd_exception :
  (forall q, ask (fst (revert_to (run [OAddBalance ripemd 0] (fst (snapshot ripemd_world))) (snd (snapshot ripemd_world)))) q
             = ask ripemd_world q) /\
  is_some (st_trie (run with_reverted_touch ripemd_world) ripemd) = false /\
  is_some (st_trie (run surviving_only ripemd_world) ripemd) = true.
Proof.
  split; [|split; vm_compute; reflexivity].
  intro q.
  pose proof (revert_exact ripemd_world [OAddBalance ripemd 0] (new_state_wf _)) as H. cbn zeta in H.
  destruct H as (_ & H); [vm_compute; auto|]. exact (H q).
Qed.

Lemma r_commit : forall de s, reachable s -> reachable (fst (commit de s)).
Proof.
  intros de s H. rewrite <- step_commit. apply r_step, H.
Qed.

(** Copy in the middle of a transaction (journal not empty): the copy keeps the dirty objects but
    not the journal, so its Finalise neither deletes a self-destructed account nor clears the
    flag; a later copy of that state then differs from it on HasSuicided. *)
Definition midtx_s : state := run [OSetBalance 1 5; OFinalise false; OSuicide 1] (new_state fempty).
Definition midtx_c : state := fst (commit true (copy midtx_s)).

Lemma copy_midtx_refuted :
  reachable midtx_c /\
  st_journal midtx_s <> nil /\
  ask midtx_c (QSuicided 1) = AB true /\ ask (copy midtx_c) (QSuicided 1) = AB false /\
  is_some (snd (commit true (copy midtx_s)) 1) = true /\ is_some (snd (commit true midtx_s) 1) = false.
Proof.
  split.
  - unfold midtx_c. apply r_commit, r_copy. unfold midtx_s. cbn [run]. repeat apply r_step. apply r_new.
  - split; [vm_compute; discriminate|]. repeat split; vm_compute; reflexivity.
Qed.
