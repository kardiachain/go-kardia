(** C08 proofs: the cache-coherence invariant [SI] holds in every reachable state. *)
From Coq Require Import List ZArith NArith Bool Lia.
From Kardia Require Import C08.Model C08.ProofsEqv C08.ProofsFinalise C08.ProofsInv C08.ProofsUndo C08.ProofsRevert C08.Proofs.
Import ListNotations.
Local Open Scope N_scope.

Lemma coh_finalise : forall o, coh o -> coh (obj_finalise o).
Proof. intro o. apply coh_same; reflexivity. Qed.

Lemma coh_update_trie : forall o, coh o -> coh (obj_update_trie o).
Proof.
  intros o H k v. unfold obj_update_trie, obj_finalise, originz. ss.
  destruct (match o_dirty o k with Some v0 => Some v0 | None => o_pending o k end) as [w|].
  - destruct (N.eqb w (match o_origin o k with Some v0 => v0 | None => 0 end)).
    + intro Hk. apply (H k v Hk).
    + intro Hk; inversion Hk; reflexivity.
  - intro Hk. apply (H k v Hk).
Qed.

Lemma SI_nil : forall s, st_journal s = nil -> (forall a o, st_objs s a = Some o -> coh o) -> SI s.
Proof.
  intros s J B. split; [|split; [exact B|]].
  - intro a. rewrite J. cbn. lia.
  - rewrite J. intros a p pd [].
Qed.

Lemma finalise_SI : forall de s, SI s -> SI (finalise de s).
Proof.
  intros de s (_ & B & _). apply SI_nil; [apply finalise_finalised|].
  intros a o. rewrite finalise_objs. destruct (N.ltb 0 (st_dirties s a)); [|apply B].
  destruct (st_objs s a) as [o0|] eqn:E; [|discriminate]. specialize (B a o0 E).
  destruct (o_suicided o0 || (de && obj_empty o0)); intro H; inversion H; subst.
  - exact (coh_same o0 _ eq_refl (fun _ => eq_refl) B).
  - apply coh_finalise; auto.
Qed.

Lemma intermediate_root_SI : forall de s, SI s -> SI (intermediate_root de s).
Proof.
  intros de s H. pose proof (finalise_SI de s H) as (_ & B & _).
  apply SI_nil; [apply intermediate_root_finalised|].
  intros a o. rewrite intermediate_root_objs. destruct (st_pending (finalise de s) a); [|apply B].
  destruct (st_objs (finalise de s) a) as [o0|] eqn:E; [|discriminate]. specialize (B a o0 E).
  destruct (o_deleted o0); intro X; inversion X; subst; auto. apply coh_update_trie; auto.
Qed.

Lemma commit_SI : forall de s, SI s -> SI (fst (commit de s)).
Proof.
  intros de s H. pose proof (intermediate_root_SI de s H) as (_ & B & _).
  apply SI_nil; [apply commit_finalised|].
  intros a o. rewrite commit_objs. destruct (st_dirtyset (intermediate_root de s) a); [|apply B].
  destruct (st_objs (intermediate_root de s) a) as [o0|] eqn:E; [|discriminate]. specialize (B a o0 E).
  destruct (o_deleted o0); intro X; inversion X; subst; auto. apply coh_update_trie.
  exact (coh_same o0 _ eq_refl (fun _ => eq_refl) B).
Qed.

Lemma copy_SI : forall s, SI s -> SI (copy s).
Proof.
  intros s (_ & B & _). apply SI_nil; [reflexivity|].
  intros a o; cbn [copy st_objs].
  match goal with |- (if ?c then _ else _) = _ -> _ => destruct c end; [apply B | discriminate].
Qed.

Lemma step_SI : forall s o, wf s -> SI s -> SI (fst (step s o)).
Proof.
  intros s o Hw H. destruct (op_cases o) as [Hp | [-> | [[id ->] | Hf]]].
  - destruct Hw as [Hk _]. destruct (step_ext s o Hk Hp) as (_ & _ & _ & _ & I & _). auto.
  - unfold step, snapshot; cbn [fst]. eapply SI_frame; [| | |exact H]; reflexivity.
  - unfold step. destruct (revert_to_cases s id) as [X | (idx & j & _ & X)]; rewrite X; cbn [fst]; auto.
    destruct (rewind_SI (length (st_journal s) - j) s H) as (A & _).
    eapply SI_frame; [| | |exact A]; reflexivity.
  - destruct o; try discriminate.
    + exact (finalise_SI de s H).
    + exact (intermediate_root_SI de s H).
    + rewrite step_commit. exact (commit_SI de s H).
Qed.

Lemma new_state_SI : forall c, SI (new_state c).
Proof. intro c. apply SI_nil; [reflexivity|]. intros a o H; discriminate. Qed.

(** every reachable state: origin caches (of live, deleted and journalled objects) agree with the
    storage tries, and journal.dirties covers the journal *)
Lemma cache_coherent : forall s, reachable s -> SI s.
Proof.
  induction 1.
  - apply new_state_SI.
  - apply step_SI; auto. apply wf_reachable; auto.
  - apply copy_SI; auto.
Qed.
