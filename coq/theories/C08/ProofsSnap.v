(** C08 proofs: the snapshot layers (ModelSnap.v).  Reading an account or a slot through a
    chain of diff layers over the disk layer — with ANY bloom filter that contains at least what was
    added — returns the overlay of the layers' data in order; flatten, diffToDisk and Cap do not
    change what a chain stands for; the clean cache stays in step with the database. *)
From Coq Require Import List ZArith NArith Bool.
From Kardia Require Import C08.Model C08.ModelSnap C08.ModelSnapHeap.
Import ListNotations.
Local Open Scope N_scope.

Definition over_acc1 (l : dlayer) (base : N -> option account) (a : N) : option account :=
  match dl_acc l a with
  | Some x => Some x
  | None => if dl_destruct l a then None else base a
  end.
Definition over_sto1 (l : dlayer) (base : N -> N -> N) (a k : N) : N :=
  match dl_sto l a k with
  | Some v => v
  | None => if dl_destruct l a then 0 else base a k
  end.

Fixpoint over_acc (ds : list dlayer) (base : N -> option account) (a : N) : option account :=
  match ds with
  | nil => base a
  | l :: t => over_acc1 l (over_acc t base) a
  end.
Fixpoint over_sto (ds : list dlayer) (base : N -> N -> N) (a k : N) : N :=
  match ds with
  | nil => base a k
  | l :: t => over_sto1 l (over_sto t base) a k
  end.

Definition view_acc (s : snap) (a : N) : option account := over_acc (sn_diffs s) (dk_acc (sn_disk s)) a.
Definition view_sto (s : snap) (a k : N) : N := over_sto (sn_diffs s) (dk_sto (sn_disk s)) a k.

(** the clean cache never disagrees with the database *)
Definition coherent (d : disk) : Prop :=
  (forall a r, dk_cacc d a = Some r -> r = dk_acc d a) /\
  (forall a k v, dk_csto d a k = Some v -> v = dk_sto d a k).

(** same database content (a read may only fill the cache) *)
Definition same_data (d d' : disk) : Prop :=
  dk_acc d' = dk_acc d /\ dk_sto d' = dk_sto d /\ dk_root d' = dk_root d /\ dk_gen d' = dk_gen d.

Lemma same_data_refl : forall d, same_data d d.
Proof. intro d; repeat split. Qed.

Lemma over_acc_ext : forall ds b1 b2, (forall a, b1 a = b2 a) -> forall a, over_acc ds b1 a = over_acc ds b2 a.
Proof.
  induction ds as [|l t IH]; intros b1 b2 H a; cbn [over_acc]; auto.
  unfold over_acc1. destruct (dl_acc l a); auto. destruct (dl_destruct l a); auto.
Qed.
Lemma over_sto_ext : forall ds b1 b2, (forall a k, b1 a k = b2 a k) -> forall a k, over_sto ds b1 a k = over_sto ds b2 a k.
Proof.
  induction ds as [|l t IH]; intros b1 b2 H a k; cbn [over_sto]; auto.
  unfold over_sto1. destruct (dl_sto l a k); auto. destruct (dl_destruct l a); auto.
Qed.

Lemma over_acc_app : forall k t b a, over_acc (k ++ t) b a = over_acc k (over_acc t b) a.
Proof.
  induction k as [|l k IH]; intros t b a; cbn [app over_acc]; auto.
  unfold over_acc1. destruct (dl_acc l a); auto. destruct (dl_destruct l a); auto.
Qed.
Lemma over_sto_app : forall k t b a x, over_sto (k ++ t) b a x = over_sto k (over_sto t b) a x.
Proof.
  induction k as [|l k IH]; intros t b a x; cbn [app over_sto]; auto.
  unfold over_sto1. destruct (dl_sto l a x); auto. destruct (dl_destruct l a); auto.
Qed.

Lemma disk_account_spec : forall d a, coherent d ->
  snd (disk_account d a) = dk_acc d a /\ coherent (fst (disk_account d a)) /\ same_data d (fst (disk_account d a)).
Proof.
  intros d a [Ha Hs]. unfold disk_account. destruct (dk_cacc d a) as [r|] eqn:E; cbn [fst snd].
  - split; [exact (Ha a r E)|]. split; [split; auto|apply same_data_refl].
  - split; [reflexivity|]. split; [|repeat split].
    split; cbn; auto. intros x r. unfold fupd. destruct (N.eqb x a) eqn:Ex.
    + apply N.eqb_eq in Ex; subst x. intro H; inversion H; reflexivity.
    + apply Ha.
Qed.

Lemma disk_storage_spec : forall d a k, coherent d ->
  snd (disk_storage d a k) = dk_sto d a k /\ coherent (fst (disk_storage d a k)) /\ same_data d (fst (disk_storage d a k)).
Proof.
  intros d a k [Ha Hs]. unfold disk_storage. destruct (dk_csto d a k) as [v|] eqn:E; cbn [fst snd].
  - split; [exact (Hs a k v E)|]. split; [split; auto|apply same_data_refl].
  - split; [reflexivity|]. split; [|repeat split].
    split; cbn; auto. intros x y v. destruct (N.eqb x a) eqn:Ex.
    + apply N.eqb_eq in Ex; subst x. unfold fupd. destruct (N.eqb y k) eqn:Ey.
      * apply N.eqb_eq in Ey; subst y. intro H; inversion H; reflexivity.
      * apply Hs.
    + apply Hs.
Qed.

Lemma walk_account_spec : forall ds d a, coherent d ->
  snd (walk_account ds d a) = over_acc ds (dk_acc d) a /\
  coherent (fst (walk_account ds d a)) /\ same_data d (fst (walk_account ds d a)).
Proof.
  induction ds as [|l t IH]; intros d a Hc; cbn [walk_account over_acc].
  - apply disk_account_spec; auto.
  - unfold over_acc1. destruct (dl_acc l a); [cbn; split; auto; split; auto; apply same_data_refl|].
    destruct (dl_destruct l a); [cbn; split; auto; split; auto; apply same_data_refl|]. apply IH; auto.
Qed.

Lemma walk_storage_spec : forall ds d a k, coherent d ->
  snd (walk_storage ds d a k) = over_sto ds (dk_sto d) a k /\
  coherent (fst (walk_storage ds d a k)) /\ same_data d (fst (walk_storage ds d a k)).
Proof.
  induction ds as [|l t IH]; intros d a k Hc; cbn [walk_storage over_sto].
  - apply disk_storage_spec; auto.
  - unfold over_sto1. destruct (dl_sto l a k); [cbn; split; auto; split; auto; apply same_data_refl|].
    destruct (dl_destruct l a); [cbn; split; auto; split; auto; apply same_data_refl|]. apply IH; auto.
Qed.

(** a bloom miss on both probes means that no layer knows the item: the walk would end in the disk
    layer anyway — for every filter that contains what was added *)
Lemma bloom_false : forall fp ds b, bloom fp ds b = false -> forall l, In l ds -> layer_has l b = false.
Proof.
  intros fp ds b H l Hin. unfold bloom in H. apply orb_false_iff in H. destruct H as [_ H].
  destruct (layer_has l b) eqn:E; auto.
  assert (existsb (fun l0 => layer_has l0 b) ds = true) by (apply existsb_exists; exists l; auto). congruence.
Qed.

Lemma walk_account_miss : forall fp ds d a,
  bloom fp ds (BAccount a) = false -> bloom fp ds (BDestruct a) = false ->
  walk_account ds d a = disk_account d a.
Proof.
  intros fp ds d a HA HD. pose proof (bloom_false _ _ _ HA) as A. pose proof (bloom_false _ _ _ HD) as D. clear HA HD.
  induction ds as [|l t IH]; cbn [walk_account]; auto.
  pose proof (A l (or_introl eq_refl)) as A1. pose proof (D l (or_introl eq_refl)) as D1. cbn [layer_has] in A1, D1.
  destruct (dl_acc l a); [discriminate|]. rewrite D1. apply IH; intros; [apply A|apply D]; right; auto.
Qed.

Lemma walk_storage_miss : forall fp ds d a k,
  bloom fp ds (BStorage a k) = false -> bloom fp ds (BDestruct a) = false ->
  walk_storage ds d a k = disk_storage d a k.
Proof.
  intros fp ds d a k HA HD. pose proof (bloom_false _ _ _ HA) as A. pose proof (bloom_false _ _ _ HD) as D. clear HA HD.
  induction ds as [|l t IH]; cbn [walk_storage]; auto.
  pose proof (A l (or_introl eq_refl)) as A1. pose proof (D l (or_introl eq_refl)) as D1. cbn [layer_has] in A1, D1.
  destruct (dl_sto l a k); [discriminate|]. rewrite D1. apply IH; intros; [apply A|apply D]; right; auto.
Qed.

(** Snapshot.Account / Snapshot.Storage are the walk, whatever else the bloom filter contains *)
Lemma snap_account_walk : forall fp s a,
  snap_account fp s a = (with_disk s (fst (walk_account (sn_diffs s) (sn_disk s) a)),
                         snd (walk_account (sn_diffs s) (sn_disk s) a)).
Proof.
  intros fp s a. unfold snap_account. destruct (sn_diffs s) as [|l t] eqn:E.
  - cbn [walk_account]. destruct (disk_account (sn_disk s) a); reflexivity.
  - destruct (bloom fp (l :: t) (BAccount a) || bloom fp (l :: t) (BDestruct a)) eqn:H.
    + destruct (walk_account (l :: t) (sn_disk s) a); reflexivity.
    + apply orb_false_iff in H. destruct H as [H1 H2].
      rewrite (walk_account_miss fp (l :: t) (sn_disk s) a H1 H2).
      destruct (disk_account (sn_disk s) a); reflexivity.
Qed.

Lemma snap_storage_walk : forall fp s a k,
  snap_storage fp s a k = (with_disk s (fst (walk_storage (sn_diffs s) (sn_disk s) a k)),
                           snd (walk_storage (sn_diffs s) (sn_disk s) a k)).
Proof.
  intros fp s a k. unfold snap_storage. destruct (sn_diffs s) as [|l t] eqn:E.
  - cbn [walk_storage]. destruct (disk_storage (sn_disk s) a k); reflexivity.
  - destruct (bloom fp (l :: t) (BStorage a k) || bloom fp (l :: t) (BDestruct a)) eqn:H.
    + destruct (walk_storage (l :: t) (sn_disk s) a k); reflexivity.
    + apply orb_false_iff in H. destruct H as [H1 H2].
      rewrite (walk_storage_miss fp (l :: t) (sn_disk s) a k H1 H2).
      destruct (disk_storage (sn_disk s) a k); reflexivity.
Qed.

Lemma bloom_irrelevant : forall fp1 fp2 s a k,
  snap_account fp1 s a = snap_account fp2 s a /\ snap_storage fp1 s a k = snap_storage fp2 s a k.
Proof. intros; rewrite !snap_account_walk, !snap_storage_walk; auto. Qed.

(** reading returns what the chain stands for, and leaves that unchanged *)
Definition same_snap (s s' : snap) : Prop := sn_diffs s' = sn_diffs s /\ same_data (sn_disk s) (sn_disk s').

Lemma same_snap_view : forall s s', same_snap s s' ->
  (forall a, view_acc s' a = view_acc s a) /\ (forall a k, view_sto s' a k = view_sto s a k).
Proof.
  intros s s' (D & A & S & _). unfold view_acc, view_sto. rewrite D, A, S. auto.
Qed.

Lemma snap_account_spec : forall fp s a, coherent (sn_disk s) ->
  snd (snap_account fp s a) = view_acc s a /\
  coherent (sn_disk (fst (snap_account fp s a))) /\ same_snap s (fst (snap_account fp s a)).
Proof.
  intros fp s a Hc. rewrite snap_account_walk. cbn [fst snd with_disk sn_disk sn_diffs].
  destruct (walk_account_spec (sn_diffs s) (sn_disk s) a Hc) as (V & C & S).
  split; [exact V|]. split; [exact C|]. split; [reflexivity|exact S].
Qed.

Lemma snap_storage_spec : forall fp s a k, coherent (sn_disk s) ->
  snd (snap_storage fp s a k) = view_sto s a k /\
  coherent (sn_disk (fst (snap_storage fp s a k))) /\ same_snap s (fst (snap_storage fp s a k)).
Proof.
  intros fp s a k Hc. rewrite snap_storage_walk. cbn [fst snd with_disk sn_disk sn_diffs].
  destruct (walk_storage_spec (sn_diffs s) (sn_disk s) a k Hc) as (V & C & S).
  split; [exact V|]. split; [exact C|]. split; [reflexivity|exact S].
Qed.

Lemma snap_read_spec : forall fp s a k, coherent (sn_disk s) ->
  (snd (snap_account fp s a) = view_acc s a /\
   coherent (sn_disk (fst (snap_account fp s a))) /\ same_snap s (fst (snap_account fp s a))) /\
  (snd (snap_storage fp s a k) = view_sto s a k /\
   coherent (sn_disk (fst (snap_storage fp s a k))) /\ same_snap s (fst (snap_storage fp s a k))).
Proof. intros fp s a k H. split; [exact (snap_account_spec fp s a H) | exact (snap_storage_spec fp s a k H)]. Qed.

Lemma merge_acc : forall l p b a, over_acc1 (merge l p) b a = over_acc1 l (over_acc1 p b) a.
Proof.
  intros l p b a. unfold over_acc1, merge; cbn.
  destruct (dl_acc l a); auto. destruct (dl_destruct l a); cbn; auto.
Qed.
Lemma merge_sto : forall l p b a k, over_sto1 (merge l p) b a k = over_sto1 l (over_sto1 p b) a k.
Proof.
  intros l p b a k. unfold over_sto1, merge; cbn.
  destruct (dl_sto l a k); auto. destruct (dl_destruct l a); cbn; auto.
Qed.

Lemma flatten_none : forall ds, flatten ds = None -> ds = nil.
Proof. destruct ds as [|l t]; auto. cbn. destruct (flatten t); discriminate. Qed.

Lemma flatten_acc : forall ds f b, flatten ds = Some f -> forall a, over_acc1 f b a = over_acc ds b a.
Proof.
  induction ds as [|l t IH]; intros f b H a; [discriminate|]. cbn [flatten] in H. cbn [over_acc].
  destruct (flatten t) as [p|] eqn:E.
  - inversion H; subst f. rewrite merge_acc. unfold over_acc1 at 1 3.
    destruct (dl_acc l a); auto. destruct (dl_destruct l a); auto.
  - inversion H; subst f. apply flatten_none in E; subst t. reflexivity.
Qed.
Lemma flatten_sto : forall ds f b, flatten ds = Some f -> forall a k, over_sto1 f b a k = over_sto ds b a k.
Proof.
  induction ds as [|l t IH]; intros f b H a k; [discriminate|]. cbn [flatten] in H. cbn [over_sto].
  destruct (flatten t) as [p|] eqn:E.
  - inversion H; subst f. rewrite merge_sto. unfold over_sto1 at 1 3.
    destruct (dl_sto l a k); auto. destruct (dl_destruct l a); auto.
  - inversion H; subst f. apply flatten_none in E; subst t. reflexivity.
Qed.

Lemma flatten_root : forall ds f, flatten ds = Some f -> exists l t, ds = l :: t /\ dl_root f = dl_root l.
Proof.
  intros [|l t] f H; [discriminate|]. exists l, t; split; auto. cbn in H.
  destruct (flatten t); inversion H; reflexivity.
Qed.

Lemma diff_to_disk_spec : forall b d, coherent d ->
  coherent (diff_to_disk b d) /\
  (forall a, dk_acc (diff_to_disk b d) a = over_acc1 b (dk_acc d) a) /\
  (forall a k, dk_sto (diff_to_disk b d) a k = over_sto1 b (dk_sto d) a k).
Proof.
  intros b d [Ha Hs]. split; [|split].
  - split; cbn.
    + intros a r. destruct (dl_acc b a) as [x|]; [intro H; inversion H; reflexivity|].
      destruct (dl_destruct b a); [intro H; inversion H; reflexivity|apply Ha].
    + intros a k v. destruct (dl_sto b a k) as [x|]; [intro H; inversion H; reflexivity|].
      destruct (dl_destruct b a); [|apply Hs].
      destruct (N.eqb (dk_sto d a k) 0) eqn:E; [|discriminate].
      intro H. apply Hs in H. apply N.eqb_eq in E. congruence.
  - intro a; cbn. unfold over_acc1. destruct (dl_acc b a); auto.
  - intros a k; cbn. unfold over_sto1. destruct (dl_sto b a k); auto.
Qed.

(** a flattened chain merged onto the disk layer stands for the chain over the old disk layer *)
Lemma flatten_to_disk : forall ds f d, flatten ds = Some f -> coherent d ->
  coherent (diff_to_disk f d) /\
  (forall a, dk_acc (diff_to_disk f d) a = over_acc ds (dk_acc d) a) /\
  (forall a k, dk_sto (diff_to_disk f d) a k = over_sto ds (dk_sto d) a k).
Proof.
  intros ds f d F Hc. destruct (diff_to_disk_spec f d Hc) as (C & A & S). split; [exact C|]. split.
  - intro a. rewrite A. apply flatten_acc; auto.
  - intros a k. rewrite S. apply flatten_sto; auto.
Qed.

Lemma snap_cap_spec : forall s layers, coherent (sn_disk s) ->
  coherent (sn_disk (snap_cap s layers)) /\
  (forall a, view_acc (snap_cap s layers) a = view_acc s a) /\
  (forall a k, view_sto (snap_cap s layers) a k = view_sto s a k).
Proof.
  intros s layers Hc. unfold snap_cap. destruct layers as [|m].
  - destruct (flatten (sn_diffs s)) as [b|] eqn:F; [|auto]. exact (flatten_to_disk _ b _ F Hc).
  - set (n := S m). destruct (flatten (skipn n (sn_diffs s))) as [f|] eqn:F; [|auto].
    assert (Hsplit : sn_diffs s = firstn n (sn_diffs s) ++ skipn n (sn_diffs s)) by (symmetry; apply firstn_skipn).
    destruct (dk_gen (sn_disk s)).
    + destruct (flatten_to_disk _ f _ F Hc) as (C & A & S).
      split; [exact C|]. unfold view_acc, view_sto; cbn [sn_diffs sn_disk]. split.
      * intro a. rewrite Hsplit at 2. rewrite over_acc_app. apply over_acc_ext. exact A.
      * intros a k. rewrite Hsplit at 2. rewrite over_sto_app. apply over_sto_ext. exact S.
    + split; [exact Hc|]. unfold view_acc, view_sto; cbn [sn_diffs sn_disk]. split.
      * intro a. rewrite Hsplit at 2. rewrite !over_acc_app. apply over_acc_ext. intro x. cbn [over_acc]. apply flatten_acc; auto.
      * intros a k. rewrite Hsplit at 2. rewrite !over_sto_app. apply over_sto_ext. intros x y. cbn [over_sto]. apply flatten_sto; auto.
Qed.

(** the entry Cap additionally writes into the tree's map (flattened accumulator / new disk layer)
    stands for exactly what the layers it replaces stood for *)
Definition below (s : snap) (layers : nat) : list dlayer :=
  match layers with O => sn_diffs s | S _ => skipn layers (sn_diffs s) end.

Lemma snap_cap_regs_spec : forall s layers r t, coherent (sn_disk s) -> In (r, t) (snap_cap_regs s layers) ->
  coherent (sn_disk t) /\
  (forall a, view_acc t a = over_acc (below s layers) (dk_acc (sn_disk s)) a) /\
  (forall a k, view_sto t a k = over_sto (below s layers) (dk_sto (sn_disk s)) a k).
Proof.
  intros s layers r t Hc Hin. unfold snap_cap_regs in Hin. unfold below.
  destruct layers as [|m].
  - destruct (flatten (sn_diffs s)) as [b|] eqn:F; [|destruct Hin].
    destruct Hin as [H|[]]. inversion H; subst r t. exact (flatten_to_disk _ b _ F Hc).
  - set (n := S m) in *. destruct (flatten (skipn n (sn_diffs s))) as [f|] eqn:F; [|destruct Hin].
    destruct (dk_gen (sn_disk s)).
    + destruct Hin as [H|[]]. inversion H; subst r t. exact (flatten_to_disk _ f _ F Hc).
    + destruct Hin as [H|[]]. inversion H; subst r t. split; [exact Hc|].
      unfold view_acc, view_sto; cbn [sn_diffs sn_disk over_acc over_sto]. split.
      * intro a. apply flatten_acc; auto.
      * intros a k. apply flatten_sto; auto.
Qed.

(** [built s va vs]: [s] was made from an empty disk layer by Tree.Update, Tree.Cap and reads;
    [va]/[vs] is the overlay of the updates' data, in order (the destruct markers wipe an account
    and all its storage, then the block's accounts and slots are written) *)
Inductive built : snap -> (N -> option account) -> (N -> N -> N) -> Prop :=
| built_empty : forall r, built (mkSnap nil (empty_disk r)) (fun _ => None) (fun _ _ => 0)
| built_update : forall s va vs r de ac st, built s va vs ->
    built (snap_update s r de ac st) (over_acc1 (mkDL r de ac st) va) (over_sto1 (mkDL r de ac st) vs)
| built_cap : forall s va vs layers, built s va vs -> built (snap_cap s layers) va vs
| built_read_account : forall s va vs fp a, built s va vs -> built (fst (snap_account fp s a)) va vs
| built_read_storage : forall s va vs fp a k, built s va vs -> built (fst (snap_storage fp s a k)) va vs.

Lemma built_inv : forall s va vs, built s va vs ->
  coherent (sn_disk s) /\ (forall a, view_acc s a = va a) /\ (forall a k, view_sto s a k = vs a k).
Proof.
  induction 1 as [r|s va vs r de ac st B (C & A & S)|s va vs layers B (C & A & S)
                 |s va vs fp a B (C & A & S)|s va vs fp a k B (C & A & S)].
  - split; [split; cbn; intros; discriminate|]. split; reflexivity.
  - split; [exact C|]. unfold view_acc, view_sto; cbn [snap_update sn_diffs sn_disk over_acc over_sto]. split.
    + intro a. unfold over_acc1. cbn. destruct (ac a); auto. destruct (de a); auto. apply A.
    + intros a k. unfold over_sto1. cbn. destruct (st a k); auto. destruct (de a); auto. apply S.
  - destruct (snap_cap_spec s layers C) as (C' & A' & S'). split; [exact C'|]. split.
    + intro a. rewrite A'. apply A.
    + intros a k. rewrite S'. apply S.
  - destruct (snap_account_spec fp s a C) as (_ & C' & SS). destruct (same_snap_view _ _ SS) as (A' & S').
    split; [exact C'|]. split; intros; [rewrite A'; apply A|rewrite S'; apply S].
  - destruct (snap_storage_spec fp s a k C) as (_ & C' & SS). destruct (same_snap_view _ _ SS) as (A' & S').
    split; [exact C'|]. split; intros; [rewrite A'; apply A|rewrite S'; apply S].
Qed.

Lemma built_read : forall s va vs, built s va vs -> forall fp a k,
  snd (snap_account fp s a) = va a /\ snd (snap_storage fp s a k) = vs a k.
Proof.
  intros s va vs B fp a k. destruct (built_inv s va vs B) as (C & A & S).
  destruct (snap_account_spec fp s a C) as (V1 & _). destruct (snap_storage_spec fp s a k C) as (V2 & _).
  rewrite V1, V2. auto.
Qed.

(** disk layer: contract 1 with slot 0 = 42; on top a block that destructed the contract and re-created
    it without writing slot 0 *)
Definition probe_disk : disk :=
  mkDisk 1 (fupd fempty 1 (mkAccount 1 0%Z 0 (fun k => if N.eqb k 0 then 42 else 0)))
         (fun a k => if N.eqb a 1 && N.eqb k 0 then 42 else 0) fempty (fun _ => fempty) false.
Definition probe_layer : dlayer :=
  mkDL 2 (fun a => N.eqb a 1) (fupd fempty 1 (mkAccount 1 0%Z 0 (fun _ => 0))) (fun _ => fempty).
Definition probe_snap : snap := mkSnap [probe_layer] probe_disk.

Lemma probe_needed :
  coherent (sn_disk probe_snap) /\
  view_sto probe_snap 1 0 = 0 /\
  snd (snap_storage (fun _ => false) probe_snap 1 0) = 0 /\
  snd (snap_storage_noprobe (fun _ => false) probe_snap 1 0) = 42.
Proof.
  split; [split; cbn; intros; discriminate|]. repeat split; reflexivity.
Qed.

(** with Go's sharing (ModelSnapHeap.v): the layer object of block b3 answers 0 for slot 0 of contract 1
    (as its root's content says); after Cap flattened b2..b4 the SAME object — never marked stale —
    answers 1, block b4's value.  On values (this file) flatten cannot do that: [snap_cap_spec]. *)
Lemma flatten_aliasing :
  h_storage 10 alias_heap 1 1 0 = Some 0 /\
  let h' := fst (h_flatten 10 alias_heap 2) in
  option_map hl_stale (nth_error (hh_layers h') 1) = Some false /\
  h_storage 10 h' 1 1 0 = Some 1.
Proof. vm_compute. repeat split. Qed.
