(** C08 proofs: RevertToSnapshot restores every observable, for arbitrary operation
    sequences with arbitrarily nested snapshots/reverts in between. *)
From Coq Require Import List ZArith NArith Bool Lia.
From Kardia Require Import C08.Model C08.ProofsEqv C08.ProofsFinalise C08.ProofsUndo.
Import ListNotations.
Local Open Scope N_scope.

(** revision ids strictly ascending, all in [lo, hi) *)
Fixpoint asc (lo : N) (l : list (N * nat)) (hi : N) : Prop :=
  match l with
  | nil => lo <= hi
  | (i, _) :: t => lo <= i /\ asc (i + 1) t hi
  end.

Lemma asc_le : forall l lo hi, asc lo l hi -> lo <= hi.
Proof. induction l as [|[i j] t IH]; cbn; intros lo hi H; [auto|]. destruct H as [H1 H2]. apply IH in H2. lia. Qed.

Lemma asc_weaken : forall l lo lo' hi hi', asc lo l hi -> lo' <= lo -> hi <= hi' -> asc lo' l hi'.
Proof.
  induction l as [|[i j] t IH]; cbn; intros lo lo' hi hi' H A B; [lia|].
  destruct H as [H1 H2]. split; [lia|]. eapply IH; eauto. lia.
Qed.

Lemma asc_snoc : forall l lo hi j, asc lo l hi -> asc lo (l ++ [(hi, j)]) (hi + 1).
Proof.
  induction l as [|[i j'] t IH]; cbn; intros lo hi j H; [split; lia|].
  destruct H as [H1 H2]. split; auto.
Qed.

Lemma asc_firstn : forall n l lo hi, asc lo l hi -> asc lo (firstn n l) hi.
Proof.
  induction n; intros l lo hi H; cbn; [eapply asc_le; eauto|].
  destruct l as [|[i j] t]; cbn in *; auto. destruct H; split; auto.
Qed.

Lemma asc_In : forall l lo hi i, asc lo l hi -> In i (map fst l) -> lo <= i < hi.
Proof.
  induction l as [|[i' j] t IH]; cbn; intros lo hi i H Hi; [tauto|].
  destruct H as [H1 H2]. destruct Hi as [->|Hi].
  - apply asc_le in H2. lia.
  - apply (IH _ _ _ H2) in Hi. lia.
Qed.

Lemma asc_app : forall l1 l2 lo hi, asc lo (l1 ++ l2) hi -> exists mid, asc lo l1 mid /\ asc mid l2 hi.
Proof.
  induction l1 as [|[i j] t IH]; cbn; intros l2 lo hi H.
  - exists lo; split; [lia|auto].
  - destruct H as [H1 H2]. destruct (IH _ _ _ H2) as (mid & A & B). exists mid; auto.
Qed.

(** sort.Search finds the entry with the requested id *)
Lemma search_found : forall l1 lo hi id j l2 n,
  asc lo (l1 ++ (id, j) :: l2) hi -> search_rev (l1 ++ (id, j) :: l2) id n = (n + length l1)%nat.
Proof.
  induction l1 as [|[i j'] t IH]; cbn [app search_rev length]; intros lo hi id j l2 n H.
  - rewrite N.leb_refl. lia.
  - cbn in H. destruct H as [H1 H2].
    assert (i < id).
    { destruct (asc_app _ _ _ _ H2) as (mid & A & B). cbn in B. apply asc_le in A. lia. }
    replace (N.leb id i) with false by (symmetry; apply N.leb_gt; auto).
    rewrite (IH _ _ _ _ _ _ H2). lia.
Qed.

Lemma In_firstn : forall (A : Type) n (l : list A) x, In x (firstn n l) -> In x l.
Proof. induction n; destruct l; cbn; intros; try tauto. destruct H; auto. Qed.

Lemma set_revs_eqv : forall t r, eqv (set_revs t r) t.
Proof. intros; constructor; ss; auto; pk. Qed.

Lemma undo_wfU : forall e s, wfU s -> wfU (undo e s).
Proof.
  intros e s [Hn Hl].
  assert (W : forall a f b, wfU (with_live s a f b)).
  { intros a f b. destruct (with_live_spec s a f b) as (G & _). unglob G. unfold wfU. split; congruence. }
  destruct e; unfold undo; auto; try (split; ss; auto; fail).
  - destruct prevdestruct; split; ss; auto.
  - split.
    + destruct (st_logs s txhash); ss; auto.
    + ss. apply N.mod_lt. discriminate.
  - unfold delete_slot_al.
    destruct (st_aladdrs s a) as [[idx|]|]; try (split; ss; auto; fail).
    destruct (nth_error (st_alslots s) idx); try (split; ss; auto; fail).
    destruct (remove_n k l) eqn:Er; split; ss; auto.
    + apply NE_firstn; auto.
    + apply NE_list_set; auto. discriminate.
Qed.

Lemma rewind_wfU : forall n s, wfU s -> wfU (rewind n s).
Proof.
  induction n; intros s H; [exact H|]. cbn [rewind].
  destruct (st_journal s) as [|e j]; auto. apply IHn.
  assert (X : forall t, wfU t -> wfU (undo_dirty e t)).
  { intros t [? ?]; unfold undo_dirty. destruct (dirtied e); split; ss; auto. }
  apply X. apply undo_wfU. destruct H; split; ss; auto.
Qed.

Lemma al_ok_eqv : forall s1 s2, eqv s1 s2 -> al_ok s1 -> al_ok s2.
Proof.
  intros s1 s2 H K a idx Ha. rewrite <- (ev_aladdrs _ _ H) in Ha. rewrite <- (ev_alslots _ _ H). eauto.
Qed.

(** what RevertToSnapshot does, given what its search returns *)
Lemma revert_to_spec : forall s revid,
  let idx := search_rev (st_revs s) revid O in
  match nth_error (st_revs s) idx with
  | Some (id, jidx) =>
    if N.eqb id revid
    then revert_to s revid = (set_revs (rewind (length (st_journal s) - jidx) s) (firstn idx (st_revs s)), false)
    else revert_to s revid = (s, true)
  | None => revert_to s revid = (s, true)
  end.
Proof.
  intros s revid idx; unfold revert_to. fold idx.
  destruct (nth_error (st_revs s) idx) as [[id jidx]|]; [|reflexivity].
  destruct (N.eqb id revid); cbn [negb]; [|reflexivity].
  destruct (rewind_journal (length (st_journal s) - jidx) s) as (_ & R & _). rewrite R. reflexivity.
Qed.

(** either the documented panic, or the journal is rewound to the index recorded for the revision
    and the revision stack is cut there *)
Lemma revert_to_cases : forall s revid,
  revert_to s revid = (s, true) \/
  exists idx jidx, nth_error (st_revs s) idx = Some (revid, jidx) /\
    revert_to s revid = (set_revs (rewind (length (st_journal s) - jidx) s) (firstn idx (st_revs s)), false).
Proof.
  intros s revid. pose proof (revert_to_spec s revid) as H. cbn zeta in H.
  destruct (nth_error (st_revs s) (search_rev (st_revs s) revid 0)) as [[i j]|] eqn:En; [|auto].
  destruct (N.eqb i revid) eqn:Ei; [|auto]. apply N.eqb_eq in Ei; subst i. right; eauto.
Qed.

(** journal indices of the valid revisions: within the journal, non-decreasing *)
Definition jbound (s : state) : Prop := Forall (fun r => (snd r <= length (st_journal s))%nat) (st_revs s).
Definition jsorted (l : list (N * nat)) : Prop :=
  forall i j r1 r2, (i < j)%nat -> nth_error l i = Some r1 -> nth_error l j = Some r2 -> (snd r1 <= snd r2)%nat.
(** access list well indexed and no crash *)
Definition PK (t : state) : Prop := al_ok t /\ st_crashed t = false.
(** reverting to any valid revision lands in such a state *)
Definition hist (s : state) : Prop :=
  Forall (fun r => PK (rewind (length (st_journal s) - snd r) s)) (st_revs s).

Definition wf (s : state) : Prop :=
  wfK s /\ asc 0 (st_revs s) (st_nextrev s) /\ jbound s /\ jsorted (st_revs s) /\ hist s /\ st_crashed s = false.

Lemma PK_eqv : forall s1 s2, eqv s1 s2 -> PK s1 -> PK s2.
Proof. intros s1 s2 H [A B]; split; [eapply al_ok_eqv; eauto | rewrite <- (ev_crashed _ _ H); auto]. Qed.

(** the crash flag is sticky *)
Lemma undo_sticky : forall e s, st_crashed s = true -> st_crashed (undo e s) = true.
Proof.
  intros e s H.
  assert (W : forall a f b, st_crashed (with_live s a f b) = true)
    by (intros a f b; rewrite with_live_crashed, H; destruct (live s a); [|destruct b]; reflexivity).
  destruct e; unfold undo; auto.
  - destruct prevdestruct; ss; auto.
  - destruct (st_logs s txhash); ss; auto.
  - destruct (delete_slot_al_cases s a k) as [-> | (ad & sl & ->)]; ss; auto.
Qed.

Lemma rewind_sticky : forall n s, st_crashed (rewind n s) = false -> st_crashed s = false.
Proof.
  induction n; intros s H; [exact H|]. cbn [rewind] in H. destruct (st_journal s) as [|e j]; auto.
  apply IHn in H. destruct (st_crashed s) eqn:E; auto.
  assert (X : st_crashed (undo e (set_journal s j)) = true) by (apply undo_sticky; ss; auto).
  unfold undo_dirty in H. destruct (dirtied e); ss; congruence.
Qed.

Lemma nth_error_firstn_lt : forall (A : Type) n (l : list A) m, (m < n)%nat -> nth_error (firstn n l) m = nth_error l m.
Proof.
  induction n; intros l m H; [lia|]. destruct l; [destruct m; reflexivity|]. destruct m; [reflexivity|].
  cbn. apply IHn. lia.
Qed.

Lemma jsorted_firstn : forall n l, jsorted l -> jsorted (firstn n l).
Proof.
  intros n l H i j r1 r2 Hij H1 H2.
  assert (A : forall m r, nth_error (firstn n l) m = Some r -> nth_error l m = Some r).
  { intros m r Hm. assert (m < n)%nat.
    { destruct (Nat.lt_ge_cases m n); auto.
      assert (X : nth_error (firstn n l) m = None) by (apply nth_error_None; rewrite firstn_length; lia). congruence. }
    rewrite nth_error_firstn_lt in Hm by auto. exact Hm. }
  eapply H; eauto.
Qed.

Lemma PK_rewind_eqv : forall n s1 s2, eqv s1 s2 -> st_journal s1 = st_journal s2 ->
  PK (rewind n s2) -> PK (rewind n s1).
Proof. intros n s1 s2 E J K. eapply PK_eqv; [apply eqv_sym, rewind_eqv; eauto | exact K]. Qed.

Lemma snapshot_wf : forall s, wf s -> wf (fst (snapshot s)).
Proof.
  intros s (Hk & Ha & Hb & Hs & Hh & Hc). unfold snapshot; cbn [fst].
  assert (E : eqv (set_revs (set_nextrev s (st_nextrev s + 1)) (st_revs s ++ [(st_nextrev s, length (st_journal s))])) s)
    by (constructor; ss; auto; pk).
  split; [apply (wfK_frame s); auto|]. split; [ss; apply asc_snoc; auto|]. split; [|split; [|split; [|exact Hc]]].
  - unfold jbound in *; ss. apply Forall_app; split; auto.
  - ss. intros i j r1 r2 Hij H1 H2.
    destruct (Nat.lt_ge_cases j (length (st_revs s))) as [Hj|Hj].
    + rewrite nth_error_app1 in H1 by lia. rewrite nth_error_app1 in H2 by lia. exact (Hs i j r1 r2 Hij H1 H2).
    + rewrite nth_error_app2 in H2 by lia.
      destruct (j - length (st_revs s))%nat eqn:Ej; [|destruct n; discriminate]. inversion H2; subst. cbn [snd].
      rewrite nth_error_app1 in H1 by lia.
      unfold jbound in Hb. rewrite Forall_forall in Hb. apply (Hb r1). eapply nth_error_In; eauto.
  - unfold hist in *; ss. apply Forall_app; split.
    + rewrite Forall_forall in *. intros r Hr. eapply PK_rewind_eqv; [exact E | reflexivity | apply Hh; auto].
    + constructor; [|constructor]. cbn [snd]. rewrite Nat.sub_diag. cbn [rewind].
      eapply PK_eqv; [apply eqv_sym; exact E | split; [apply Hk | exact Hc]].
Qed.

Lemma revert_wf : forall s id, wf s -> wf (fst (revert_to s id)).
Proof.
  intros s id Hw. pose proof Hw as (Hk & Ha & Hb & Hs & Hh & Hc).
  destruct (revert_to_cases s id) as [E | (idx & j & En & E)]; rewrite E; auto.
  cbn [fst].
  set (k := (length (st_journal s) - j)%nat).
  destruct (rewind_journal k s) as (RJ & RR & RN).
  assert (Hj : (j <= length (st_journal s))%nat).
  { unfold jbound in Hb. rewrite Forall_forall in Hb. apply (Hb (id, j)). eapply nth_error_In; eauto. }
  assert (Hal : PK (rewind k s)).
  { unfold hist in Hh. rewrite Forall_forall in Hh. apply (Hh (id, j)). eapply nth_error_In; eauto. }
  assert (Hlen : length (st_journal (rewind k s)) = j) by (rewrite RJ, skipn_length; unfold k; lia).
  assert (Hlt : forall r, In r (firstn idx (st_revs s)) -> (snd r <= j)%nat /\ In r (st_revs s)).
  { intros r Hr. apply In_nth_error in Hr. destruct Hr as [m Hm].
    assert (m < idx)%nat.
    { destruct (Nat.lt_ge_cases m idx); auto.
      assert (X : nth_error (firstn idx (st_revs s)) m = None) by (apply nth_error_None; rewrite firstn_length; lia). congruence. }
    rewrite nth_error_firstn_lt in Hm by auto.
    split; [apply (Hs m idx r (id, j)); auto | eapply nth_error_In; eauto]. }
  split; [|split; [|split; [|split; [|split; [|exact (proj2 Hal)]]]]].
  - destruct Hk as [Hu _]. pose proof (rewind_wfU k s Hu) as [K1 K2].
    split; [split; [exact K1 | exact K2]|]. intros a0 i0 Ha0. exact (proj1 Hal a0 i0 Ha0).
  - change (asc 0 (firstn idx (st_revs s)) (st_nextrev (rewind k s))). rewrite RN. apply asc_firstn; auto.
  - unfold jbound. change (Forall (fun r => (snd r <= length (st_journal (rewind k s)))%nat) (firstn idx (st_revs s))).
    rewrite Hlen. rewrite Forall_forall. intros r Hr. apply Hlt; auto.
  - change (jsorted (firstn idx (st_revs s))). apply jsorted_firstn; auto.
  - unfold hist.
    change (Forall (fun r => PK (rewind (length (st_journal (rewind k s)) - snd r)
                                    (set_revs (rewind k s) (firstn idx (st_revs s))))) (firstn idx (st_revs s))).
    rewrite Hlen. rewrite Forall_forall. intros r Hr. destruct (Hlt r Hr) as [L1 L2].
    eapply PK_rewind_eqv; [apply set_revs_eqv | reflexivity |].
    rewrite <- rewind_add. replace (k + (j - snd r))%nat with (length (st_journal s) - snd r)%nat by (unfold k; lia).
    unfold hist in Hh. rewrite Forall_forall in Hh. apply Hh; auto.
Qed.

Lemma clear_wf : forall s', wfK s' -> st_revs s' = nil -> st_crashed s' = false -> wf s'.
Proof.
  intros s' K R C. unfold wf, jbound, hist. rewrite R. split; [exact K|]. split; [cbn; apply N.le_0_l|].
  split; [constructor|]. split; [|split; [constructor|exact C]].
  intros i j r1 r2 _ H1. destruct i; discriminate.
Qed.

Lemma finalised_wf : forall s s', wf s -> finalised s s' -> wf s'.
Proof.
  intros s s' (Hk & _ & _ & _ & _ & Hc) (_ & R & _ & C & A & L & G).
  apply clear_wf; [apply (wfK_frame s); auto | exact R | congruence].
Qed.

Lemma plain_wf : forall s o, wf s -> plain o = true -> wf (fst (step s o)).
Proof.
  intros s o (Hk & Ha & Hb & Hs & Hh & Hc) Hp.
  destruct (step_ext s o Hk Hp) as (R & N & W & _ & _ & es & J & E).
  split; [auto|]. split; [rewrite R, N; auto|]. split; [|split; [|split]].
  4: { apply (rewind_sticky (length es)). rewrite (ev_crashed _ _ E). exact Hc. }
  - unfold jbound in *. rewrite R, J, app_length. rewrite Forall_forall in *. intros r Hr. specialize (Hb r Hr). lia.
  - rewrite R; auto.
  - unfold hist in *. rewrite R, J, app_length. rewrite Forall_forall in *. intros r Hr.
    unfold jbound in Hb. rewrite Forall_forall in Hb. specialize (Hb r Hr).
    replace (length es + length (st_journal s) - snd r)%nat with (length es + (length (st_journal s) - snd r))%nat by lia.
    rewrite rewind_add. eapply PK_rewind_eqv; [exact E | | apply Hh; auto].
    exact (rewind_journal_app es _ _ J).
Qed.

Lemma step_wf : forall s o, wf s -> wf (fst (step s o)).
Proof.
  intros s o Hw. destruct (op_cases o) as [Hp | [-> | [[id ->] | Hf]]].
  - apply plain_wf; auto.
  - exact (snapshot_wf s Hw).
  - pose proof (revert_wf s id Hw) as X. unfold step. destruct (revert_to s id); exact X.
  - exact (finalised_wf _ _ Hw (step_finalised s o Hf)).
Qed.

Lemma run_wf : forall ops s, wf s -> wf (run ops s).
Proof. induction ops; intros s H; cbn [run]; auto. apply IHops, step_wf; auto. Qed.

Lemma new_state_wf : forall c, wf (new_state c).
Proof.
  intro c. apply clear_wf; [|reflexivity|reflexivity].
  split; [split; cbn; [constructor | reflexivity]|]. intros a idx H; discriminate.
Qed.

Lemma copy_wf : forall s, wf s -> wf (copy s).
Proof.
  intros s ([[Hn Hl] Hok] & _). apply clear_wf; [|reflexivity|reflexivity].
  split; [split; auto|]. intros a idx H. exact (Hok a idx H).
Qed.

Section Revert.
  Variable s0 : state.
  Hypothesis wf0 : wf s0.

  (** [s0]: the state on which Snapshot() is called; it returns [st_nextrev s0].  [rest] are the
      younger revisions; that their journal indices lie above the snapshot's is what lets
      [good_revert] keep a journal suffix when one of them is reverted to *)
  Definition Good (s : state) : Prop :=
    wf s /\ st_nextrev s0 < st_nextrev s /\
    exists es rest,
      st_journal s = es ++ st_journal s0 /\ eqv (rewind (length es) s) s0 /\
      st_revs s = st_revs s0 ++ (st_nextrev s0, length (st_journal s0)) :: rest /\
      Forall (fun r => (length (st_journal s0) <= snd r)%nat) rest.

  (** the snapshot has been invalidated (reverted past, or journal cleared) and can never come back *)
  Definition Dead (s : state) : Prop :=
    wf s /\ st_nextrev s0 < st_nextrev s /\ ~ In (st_nextrev s0) (map fst (st_revs s)).

  Lemma good_init : Good (fst (snapshot s0)).
  Proof.
    split; [apply snapshot_wf; auto|]. unfold snapshot; ss. split; [lia|].
    exists nil, nil. split; [reflexivity|split; [|split; [reflexivity|constructor]]]. cbn [length rewind]. constructor; ss; auto; pk.
  Qed.

  Lemma good_plain : forall s o, Good s -> plain o = true -> Good (fst (step s o)).
  Proof.
    intros s o (Hw & Hn & es & rest & J & E & R & F) Hp.
    pose proof (step_wf s o Hw) as Hw'.
    destruct Hw as (Hk & _). destruct (step_ext s o Hk Hp) as (R' & N' & _ & _ & _ & es' & J' & E').
    split; auto. split; [rewrite N'; auto|].
    destruct (rewind_compose s0 s _ es es' J E J' E') as (J2 & E2).
    exists (es' ++ es), rest. split; [exact J2|]. split; [exact E2|]. split; [rewrite R'; exact R | exact F].
  Qed.

  Lemma good_snapshot : forall s, Good s -> Good (fst (snapshot s)).
  Proof.
    intros s (Hw & Hn & es & rest & J & E & R & F).
    split; [apply snapshot_wf; auto|]. unfold snapshot; ss. split; [lia|].
    exists es, (rest ++ [(st_nextrev s, length (st_journal s))]). split; [|split; [|split]]; auto.
    - eapply eqv_trans; [|exact E]. apply rewind_eqv; [|reflexivity].
      constructor; ss; auto; pk.
    - rewrite R, <- app_assoc. reflexivity.
    - apply Forall_app; split; auto. constructor; [|constructor]. cbn [snd]. rewrite J, app_length. lia.
  Qed.

  Lemma ids_below : forall i, In i (map fst (st_revs s0)) -> i < st_nextrev s0.
  Proof. intros i H. destruct wf0 as (_ & A & _). apply (asc_In _ _ _ _ A H). Qed.

  Lemma good_revert : forall s i, Good s -> Good (fst (revert_to s i)) \/ Dead (fst (revert_to s i)).
  Proof.
    intros s i G. pose proof G as (Hw & Hn & es & rest & J & E & R & F).
    pose proof (revert_wf s i Hw) as Hw'.
    destruct (revert_to_cases s i) as [H | (idx & jidx & En & H)]; rewrite H in *; cbn [fst] in *; auto.
    set (k := (length (st_journal s) - jidx)%nat) in *.
    destruct (rewind_journal k s) as (RJ & RR & RN).
    destruct (Nat.le_gt_cases idx (length (st_revs s0))) as [Hle|Hgt].
    - (* the target is the snapshot itself or older: it is gone for good *)
      right. split; auto. split; [ss; rewrite RN; auto|]. ss.
      rewrite R, firstn_app. replace (idx - length (st_revs s0))%nat with O by lia. cbn [firstn]. rewrite app_nil_r.
      intro Hi.
      assert (In (st_nextrev s0) (map fst (st_revs s0))).
      { apply in_map_iff in Hi. destruct Hi as (x & Hx1 & Hx2). apply in_map_iff. exists x; split; auto.
        eapply In_firstn; eauto. }
      apply ids_below in H0. lia.
    - (* a younger snapshot: still Good, with a shorter journal suffix *)
      left. split; auto. split; [ss; rewrite RN; auto|].
      assert (Hm : nth_error rest (idx - length (st_revs s0) - 1) = Some (i, jidx)).
      { rewrite R in En. rewrite nth_error_app2 in En by lia.
        destruct (idx - length (st_revs s0))%nat as [|m] eqn:Ed; [lia|]. cbn in En.
        replace (S m - 1)%nat with m by lia. exact En. }
      assert (Hj : (length (st_journal s0) <= jidx)%nat).
      { rewrite Forall_forall in F. apply (F (i, jidx)). eapply nth_error_In; eauto. }
      assert (Hk : (k <= length es)%nat) by (unfold k; rewrite J, app_length; lia).
      exists (skipn k es), (firstn (idx - length (st_revs s0) - 1) rest). split; [|split; [|split]].
      + ss. rewrite RJ, J, skipn_app. replace (k - length es)%nat with O by lia. reflexivity.
      + eapply eqv_trans; [apply rewind_eqv; [apply set_revs_eqv | reflexivity]|].
        rewrite <- rewind_add. rewrite skipn_length. replace (k + (length es - k))%nat with (length es) by lia. exact E.
      + ss. rewrite R, firstn_app. rewrite firstn_all2 by lia. f_equal.
        destruct (idx - length (st_revs s0))%nat as [|m] eqn:Ed; [lia|]. cbn [firstn]. f_equal. f_equal. lia.
      + rewrite Forall_forall in *. intros x Hx. apply F. eapply In_firstn; eauto.
  Qed.

  (** Finalise, IntermediateRoot and Commit drop every revision *)
  Lemma finalised_dead : forall s s', wf s -> st_nextrev s0 < st_nextrev s -> finalised s s' -> Dead s'.
  Proof.
    intros s s' Hw Hn F. split; [exact (finalised_wf s s' Hw F)|].
    destruct F as (_ & R & N & _). rewrite R, N. split; [exact Hn | intros []].
  Qed.

  Lemma dead_step : forall s o, Dead s -> Dead (fst (step s o)).
  Proof.
    intros s o (Hw & Hn & Hi). destruct (op_cases o) as [Hp | [-> | [[id ->] | Hf]]];
      [| | | exact (finalised_dead _ _ Hw Hn (step_finalised s o Hf))].
    all: split; [apply step_wf; exact Hw|].
    - destruct Hw as (Hk & _). destruct (step_ext s o Hk Hp) as (R & N & _). rewrite R, N. auto.
    - unfold step, snapshot; ss. split; [lia|]. rewrite map_app, in_app_iff. cbn. intros [H|[H|[]]]; [tauto|lia].
    - unfold step. destruct (revert_to_cases s id) as [H | (idx & j & _ & H)]; rewrite H; cbn [fst]; auto.
      destruct (rewind_journal (length (st_journal s) - j) s) as (_ & RR & RN). ss. rewrite RN. split; auto.
      intro X. apply Hi. apply in_map_iff in X. destruct X as (x & X1 & X2). apply in_map_iff. exists x; split; auto.
      eapply In_firstn; eauto.
  Qed.

  Lemma good_step : forall s o, Good s -> Good (fst (step s o)) \/ Dead (fst (step s o)).
  Proof.
    intros s o G. destruct (op_cases o) as [Hp | [-> | [[id ->] | Hf]]].
    - left; apply good_plain; auto.
    - left. exact (good_snapshot s G).
    - pose proof (good_revert s id G) as X. unfold step. destruct (revert_to s id); exact X.
    - right. destruct G as (Hw & Hn & _). exact (finalised_dead _ _ Hw Hn (step_finalised s o Hf)).
  Qed.

  Lemma run_inv : forall ops s, Good s \/ Dead s -> Good (run ops s) \/ Dead (run ops s).
  Proof.
    induction ops as [|o t IH]; intros s H; cbn [run]; auto. apply IH.
    destruct H as [H|H]; [apply good_step; auto | right; apply dead_step; auto].
  Qed.

  (** RevertToSnapshot(id of the snapshot) from a [Good] state rewinds exactly the entries journalled since *)
  Lemma good_revert_to : forall s, Good s ->
    exists es, st_journal s = es ++ st_journal s0 /\ eqv (rewind (length es) s) s0 /\
      revert_to s (st_nextrev s0) =
      (set_revs (rewind (length es) s) (firstn (length (st_revs s0)) (st_revs s)), false).
  Proof.
    intros s (Hw & Hn & es & rest & J & E & R & F). exists es. split; [exact J|]. split; [exact E|].
    pose proof (revert_to_spec s (st_nextrev s0)) as H. cbn zeta in H.
    destruct Hw as (_ & Ha & _). rewrite R in Ha.
    assert (S : search_rev (st_revs s) (st_nextrev s0) 0 = length (st_revs s0)).
    { rewrite R. erewrite search_found by eauto. reflexivity. }
    assert (Nth : nth_error (st_revs s) (length (st_revs s0)) = Some (st_nextrev s0, length (st_journal s0))).
    { rewrite R, nth_error_app2 by lia. rewrite Nat.sub_diag. reflexivity. }
    rewrite S, Nth, N.eqb_refl in H. rewrite H.
    replace (length (st_journal s) - length (st_journal s0))%nat with (length es) by (rewrite J, app_length; lia).
    reflexivity.
  Qed.

  Lemma good_revert_exact : forall s, Good s ->
    snd (revert_to s (st_nextrev s0)) = false /\ eqv (fst (revert_to s (st_nextrev s0))) s0.
  Proof.
    intros s G. destruct (good_revert_to s G) as (es & _ & E & H). rewrite H. split; [reflexivity|].
    eapply eqv_trans; [apply set_revs_eqv | exact E].
  Qed.

  (** the theorem, on states *)
  Theorem revert_exact_eqv : forall ops,
    let s1 := fst (snapshot s0) in
    let sN := run ops s1 in
    In (st_nextrev s0) (map fst (st_revs sN)) ->
    snd (revert_to sN (st_nextrev s0)) = false /\ eqv (fst (revert_to sN (st_nextrev s0))) s0.
  Proof.
    intros ops s1 sN Hin.
    destruct (run_inv ops s1 (or_introl good_init)) as [G|(_ & _ & D)].
    - apply good_revert_exact; auto.
    - contradiction.
  Qed.
End Revert.
