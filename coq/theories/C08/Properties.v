(** C08 — property theorems only.  Each is closed by [exact] of a lemma proved in Proofs*.v, SourceTie.v or
    SourceManifest.v (the examples by computation) and followed by [Print Assumptions].
    Reading guide: [ask s q] is the answer of getter [q] (Exist, Empty, GetBalance, GetNonce,
    GetCodeHash, GetCode, HasSuicided, GetState, GetCommittedState, GetRefund, GetLogs, Preimages,
    AddressInAccessList, SlotInAccessList, GetTransientState) on state [s]; [wf] is an invariant of
    every reachable state (C08_wf_reachable). *)
From Coq Require Import List ZArith NArith Bool.
From Kardia Require Import C08.Model C08.ProofsEqv C08.ProofsInv C08.ProofsUndo C08.ProofsRevert C08.Proofs C08.ProofsCoh.
From Kardia Require Import C08.ModelSnap C08.ModelSnapHeap C08.ProofsSnap C08.ProofsSnapDB C08.ProofsSnapBridge C08.SourceTie.
Import ListNotations.
Local Open Scope N_scope.

(** every setter and every getter: undoing the journal entries it appended restores all observables *)
Theorem C08_undo_apply : forall s o,
  wf s -> plain o = true ->
  exists es, st_journal (fst (step s o)) = es ++ st_journal s /\
             forall q, ask (rewind (length es) (fst (step s o))) q = ask s q.
Proof. exact undo_apply. Qed.
Print Assumptions C08_undo_apply.

(** each journal entry's revert depends on the observable state only *)
Theorem C08_undo_congruence : forall e s1 s2, eqv s1 s2 -> forall q, ask (undo e s1) q = ask (undo e s2) q.
Proof. exact undo_congruence. Qed.
Print Assumptions C08_undo_congruence.

(** RevertToSnapshot(id) restores every observable to its value at Snapshot(), for arbitrary
    operation sequences in between — setters, getters, further (nested) snapshots and reverts,
    Finalise/IntermediateRoot/Commit — whenever id is still a valid revision (otherwise the Go
    code panics); the call does not panic. *)
Theorem C08_revert_exact : forall s ops,
  wf s ->
  let s1 := fst (snapshot s) in
  let id := snd (snapshot s) in
  let sN := run ops s1 in
  In id (map fst (st_revs sN)) ->
  snd (revert_to sN id) = false /\ forall q, ask (fst (revert_to sN id)) q = ask s q.
Proof. exact revert_exact. Qed.
Print Assumptions C08_revert_exact.

Theorem C08_wf_reachable : forall s, reachable s -> wf s.
Proof. exact wf_reachable. Qed.
Print Assumptions C08_wf_reachable.

(** the hypotheses of C08_revert_exact are satisfiable (nested snapshot reverted inside) *)
Example C08_revert_exact_example :
  reachable example_s /\
  In (snd (snapshot example_s)) (map fst (st_revs (run example_ops (fst (snapshot example_s))))).
Proof. split; [repeat constructor | exact example_valid]. Qed.
Print Assumptions C08_revert_exact_example.

(** operations on a copy and on the original do not influence each other (in the model states
    are values; the harness checks that the implementation's copies behave like that) *)
Theorem C08_copy_independent : forall l s,
  run2 l (s, copy s) = (run (pick OnOriginal l) s, run (pick OnCopy l) (copy s)).
Proof. exact copy_independent. Qed.
Print Assumptions C08_copy_independent.

(** PARTIAL: a fresh copy shows the observables of the original if the objects Copy leaves
    behind agree with the account trie ([clean_unkept]; its reachability is in Open.v) *)
Theorem C08_copy_observables_partial : forall s, st_crashed s = false -> clean_unkept s -> forall q, ask (copy s) q = ask s q.
Proof. exact copy_observables. Qed.
Print Assumptions C08_copy_observables_partial.

(** PARTIAL read-back: a StateDB opened on committed content returns exactly that content, and
    Commit returns the account trie of the committing state (the link "content = what the
    setters wrote" needs that the clean objects Copy leaves behind agree with the account trie,
    [clean_unkept], see Open.v) *)
Theorem C08_readback_partial : forall c a k,
  ask (new_state c) (QExist a) = AB (is_some (c a)) /\
  ask (new_state c) (QBalance a) = AZ (match c a with Some d => ac_balance d | None => 0%Z end) /\
  ask (new_state c) (QNonce a) = AN (match c a with Some d => ac_nonce d | None => 0 end) /\
  ask (new_state c) (QCodeHash a) = AON (match c a with Some d => Some (ac_code d) | None => None end) /\
  ask (new_state c) (QState a k) = AN (match c a with Some d => ac_storage d k | None => 0 end) /\
  ask (new_state c) (QCommitted a k) = AN (match c a with Some d => ac_storage d k | None => 0 end).
Proof. exact readback_fresh. Qed.
Print Assumptions C08_readback_partial.

Theorem C08_commit_content : forall de s, snd (commit de s) = st_trie (fst (commit de s)).
Proof. exact ProofsFinalise.commit_content. Qed.
Print Assumptions C08_commit_content.

(** REFUTED as stated in the property text (known finding): a touch of the existing empty RIPEMD
    account inside a reverted snapshot is invisible to every getter after the revert, yet it
    changes the finalised content — the account is deleted by IntermediateRoot(true) — whereas
    the history with the reverted segment erased keeps it. *)
Theorem C08_ripemd_exception :
  (forall q, ask (fst (revert_to (run [OAddBalance ripemd 0] (fst (snapshot ripemd_world))) (snd (snapshot ripemd_world)))) q
             = ask ripemd_world q) /\
  is_some (st_trie (run with_reverted_touch ripemd_world) ripemd) = false /\
  is_some (st_trie (run surviving_only ripemd_world) ripemd) = true.
Proof. exact ripemd_exception. Qed.
Print Assumptions C08_ripemd_exception.

(** no reachable state has hit a nil dereference / index panic inside the package — neither in a
    forward operation nor in any journal revert ([reachable] allows every operation, including the
    two documented API panics, which leave the flag untouched) *)
Theorem C08_no_internal_crash : forall s, reachable s -> st_crashed s = false.
Proof. exact no_internal_crash. Qed.
Print Assumptions C08_no_internal_crash.

(** cache coherence of every reachable state: the originStorage cache of every live, deleted or
    journalled (resetObjectChange.prev) object agrees with the object's storage trie, and
    journal.dirties counts at least the journal entries of every address *)
Theorem C08_cache_coherent : forall s, reachable s -> SI s.
Proof. exact cache_coherent. Qed.
Print Assumptions C08_cache_coherent.

(** REFUTED for copies taken in the middle of a transaction: the copy of a state with a pending
    self-destruct commits the account (the original deletes it), keeps the suicided flag on a
    live object, and a copy of THAT state differs from it on HasSuicided *)
Theorem C08_copy_midtx_refuted :
  reachable midtx_c /\
  st_journal midtx_s <> nil /\
  ask midtx_c (QSuicided 1) = AB true /\ ask (copy midtx_c) (QSuicided 1) = AB false /\
  is_some (snd (commit true (copy midtx_s)) 1) = true /\ is_some (snd (commit true midtx_s) 1) = false.
Proof. exact copy_midtx_refuted. Qed.
Print Assumptions C08_copy_midtx_refuted.

(** ------------------------------------------------------------------------------------------------
    Reading committed state back through the snapshot layers (ModelSnap.v: diff layers over the disk
    layer, kai/state/snapshot/{difflayer,disklayer}.go, Tree.Update/Cap/diffToDisk).
    [built s va vs]: the chain [s] was made from an empty disk layer by any sequence of Tree.Update
    (a block's destruct set, accounts, slots), Tree.Cap (flatten / diffToDisk, any depth) and reads;
    [va]/[vs] is the overlay of the blocks' data in order. *)

(** every account and every slot read through the chain — whatever the bloom filter contains beyond
    what was added to it — is the overlay of the blocks written so far *)
Theorem C08_snapshot_layers_read_content : forall s va vs, built s va vs -> forall fp a k,
  snd (snap_account fp s a) = va a /\ snd (snap_storage fp s a k) = vs a k.
Proof. exact built_read. Qed.
Print Assumptions C08_snapshot_layers_read_content.

(** the hypothesis is satisfiable: two blocks, the second destructs what the first created, capped to depth 1 and to disk *)
Example C08_snapshot_layers_example :
  exists va vs, built (snap_cap (snap_cap (snap_update (snap_update (mkSnap nil (empty_disk 0)) 1 (fun _ => false)
                   (fupd fempty 1 empty_account) (fun a => if N.eqb a 1 then fupd fempty 0 42 else fempty))
                   2 (fun a => N.eqb a 1) fempty (fun _ => fempty)) 1) 0) va vs /\ vs 1 0 = 0.
Proof. eexists; eexists; split; [repeat constructor|reflexivity]. Qed.
Print Assumptions C08_snapshot_layers_example.

(** false positives of the bloom filter never change an answer (nor the cache the read fills) *)
Theorem C08_snapshot_bloom_irrelevant : forall fp1 fp2 s a k,
  snap_account fp1 s a = snap_account fp2 s a /\ snap_storage fp1 s a k = snap_storage fp2 s a k.
Proof. exact bloom_irrelevant. Qed.
Print Assumptions C08_snapshot_bloom_irrelevant.

(** a read returns what the chain stands for, keeps the clean cache in step with the database and
    changes nothing else *)
Theorem C08_snapshot_read_spec : forall fp s a k, coherent (sn_disk s) ->
  (snd (snap_account fp s a) = view_acc s a /\
   coherent (sn_disk (fst (snap_account fp s a))) /\ same_snap s (fst (snap_account fp s a))) /\
  (snd (snap_storage fp s a k) = view_sto s a k /\
   coherent (sn_disk (fst (snap_storage fp s a k))) /\ same_snap s (fst (snap_storage fp s a k))).
Proof. exact snap_read_spec. Qed.
Print Assumptions C08_snapshot_read_spec.

(** Tree.Cap with any number of layers (flatten of the layers below, accumulator kept in memory or
    merged onto disk by diffToDisk) changes no account and no slot of the capped root *)
Theorem C08_snapshot_cap_preserves : forall s layers, coherent (sn_disk s) ->
  coherent (sn_disk (snap_cap s layers)) /\
  (forall a, view_acc (snap_cap s layers) a = view_acc s a) /\
  (forall a k, view_sto (snap_cap s layers) a k = view_sto s a k).
Proof. exact snap_cap_spec. Qed.
Print Assumptions C08_snapshot_cap_preserves.

(** the layer Cap puts into the tree for the flattened root (accumulator or new disk layer) stands
    for exactly what the layers it replaces stood for *)
Theorem C08_snapshot_cap_registrations : forall s layers r t, coherent (sn_disk s) -> In (r, t) (snap_cap_regs s layers) ->
  coherent (sn_disk t) /\
  (forall a, view_acc t a = over_acc (below s layers) (dk_acc (sn_disk s)) a) /\
  (forall a k, view_sto t a k = over_sto (below s layers) (dk_sto (sn_disk s)) a k).
Proof. exact snap_cap_regs_spec. Qed.
Print Assumptions C08_snapshot_cap_registrations.

(** REFUTED (a variant, not the code): diffLayer.Storage without the probe for the account's destruct
    marker returns the old incarnation's slot from the disk layer (42) where the chain stands for 0 —
    the probe that AccountRLP and Storage both make is necessary *)
Theorem C08_storage_without_destruct_probe_refuted :
  coherent (sn_disk probe_snap) /\
  view_sto probe_snap 1 0 = 0 /\
  snd (snap_storage (fun _ => false) probe_snap 1 0) = 0 /\
  snd (snap_storage_noprobe (fun _ => false) probe_snap 1 0) = 42.
Proof. exact probe_needed. Qed.
Print Assumptions C08_storage_without_destruct_probe_refuted.

(** REFUTED as stated in the property text (known finding, inherited from go-ethereum): with the
    sharing Go's flatten has (ModelSnapHeap.v) the layer object of block b3, which is never marked
    stale, answers 0 for slot 0 of contract 1 before Cap and 1 — block b4's value — after Cap has
    flattened b2..b4: a StateDB still attached to it reads what was NOT written at its root *)
Theorem C08_flatten_aliasing_refuted :
  h_storage 10 alias_heap 1 1 0 = Some 0 /\
  let h' := fst (h_flatten 10 alias_heap 2) in
  option_map hl_stale (nth_error (hh_layers h') 1) = Some false /\
  h_storage 10 h' 1 1 0 = Some 1.
Proof. exact flatten_aliasing. Qed.
Print Assumptions C08_flatten_aliasing_refuted.

(** ------------------------------------------------------------------------------------------------
    The StateDB's own snapshot data (snapAccounts, snapStorage, and the copies kept in the journal's
    resetObjectChange entries), [sstep] = every StateDB operation with that bookkeeping. *)

(** the bookkeeping never changes the StateDB proper: states and answers are those of [step] *)
Theorem C08_snapdata_projection : forall ss o,
  ss_st (fst (sstep ss o)) = fst (step (ss_st ss) o) /\ snd (sstep ss o) = snd (step (ss_st ss) o).
Proof. exact sstep_projects. Qed.
Print Assumptions C08_snapdata_projection.

(** a StateDB that is not attached to a snapshot layer keeps no snapshot data *)
Theorem C08_snapdata_detached : forall ss o, ss_snap ss = None ->
  ss_snap (fst (sstep ss o)) = None /\
  (ss_acc (fst (sstep ss o)) = ss_acc ss /\ ss_sto (fst (sstep ss o)) = ss_sto ss /\ ss_saved (fst (sstep ss o)) = ss_saved ss
   \/ exists de, o = OCommit de).
Proof. exact detached_keeps_nothing. Qed.
Print Assumptions C08_snapdata_detached.

(** RevertToSnapshot(id) restores snapAccounts, snapStorage and the saved blobs to their values at
    Snapshot(), for arbitrary operation sequences in between (nested snapshots and reverts,
    createObject over existing objects, ...) whenever id is still valid: what Commit later hands to
    the snapshot tree does not depend on reverted operations *)
Theorem C08_snapdata_revert_exact : forall ss0 p0 ops,
  sreachable ss0 -> ss_snap ss0 = Some p0 ->
  let id := st_nextrev (ss_st ss0) in
  let ssN := srun ops (fst (sstep ss0 OSnapshot)) in
  In id (map fst (st_revs (ss_st ssN))) ->
  ceqv (fst (sstep ssN (ORevert id))) ss0.
Proof. exact snap_revert_exact_reachable. Qed.
Print Assumptions C08_snapdata_revert_exact.

(** the hypotheses are satisfiable, non-vacuously: the reverted segment deletes snapshot data that the revert brings back *)
Example C08_snapdata_revert_exact_example :
  sreachable sexample_ss0 /\ ss_snap sexample_ss0 = Some 0 /\
  is_some (ss_acc sexample_ss0 1) = true /\ ss_sto sexample_ss0 1 0 = Some 7 /\
  let ssN := srun sexample_ops (fst (sstep sexample_ss0 OSnapshot)) in
  In (st_nextrev (ss_st sexample_ss0)) (map fst (st_revs (ss_st ssN))) /\
  is_some (ss_acc ssN 1) = false /\ ss_sto ssN 1 0 = None.
Proof. exact sexample_valid. Qed.
Print Assumptions C08_snapdata_revert_exact_example.

(** ------------------------------------------------------------------------------------------------
    From the StateDB to the snapshot tree.  [Sync base ss] (ProofsSnapBridge.v): every address either
    agrees between the account trie and the snapshot data laid over [base] (the content of the layer
    the StateDB is attached to), or has had its snapshot data cleared and is due to be rewritten by the
    next Finalise; live objects' storage roots agree with the flat storage; deleted objects have no
    snapshot data; pending addresses have objects; objects that are neither pending nor journal-dirty
    have nothing to flush. *)

(** PARTIAL (the hypothesis [Sync] is proved for a freshly opened StateDB only, see Open.v): what Commit
    hands to Tree.Update (stateObjectsDestruct, snapAccounts, snapStorage), laid over the parent
    layer's content, is the committed content — every account, and every slot of the flat storage
    (nothing dangling under absent accounts) *)
Theorem C08_snapshot_handover_partial : forall base ss de p, Sync base ss -> ss_snap ss = Some p ->
  exists ss' h, scommit de ss = (ss', snd (commit de (ss_st ss)), Some h) /\ ho_parent h = p /\
    forall a, over_acc1 (handover_layer h) base a = snd (commit de (ss_st ss)) a /\
              forall k, over_sto1 (handover_layer h) (flat base) a k = flat (snd (commit de (ss_st ss))) a k.
Proof. exact handover_content. Qed.
Print Assumptions C08_snapshot_handover_partial.

(** the hypothesis is satisfiable: a StateDB just opened on the layer's root *)
Theorem C08_sync_new : forall base l, Sync base (snew_state base l).
Proof. exact sync_new. Qed.
Print Assumptions C08_sync_new.

(** PARTIAL towards "[Sync] holds in every reachable state": Snapshot, Finalise and IntermediateRoot —
    the operations that rewrite the snapshot data wholesale (deletion of destructed accounts' data,
    updateStateObject, updateTrie) — keep it; setters, getters, RevertToSnapshot and Copy are open *)
Theorem C08_sync_block_ops_partial : forall base ss o p, Sync base ss -> ss_snap ss = Some p ->
  match o with OSnapshot | OFinalise _ | OIntermediateRoot _ => True | _ => False end ->
  Sync base (fst (sstep ss o)) /\ ss_snap (fst (sstep ss o)) = Some p.
Proof. exact sync_sstep_block_ops. Qed.
Print Assumptions C08_sync_block_ops_partial.

(** ------------------------------------------------------------------------------------------------
    SOURCE TIE: the decisions of Model.v / ModelSnap.v are the expressions go2coq regenerates from the
    Go sources on every check (Generated/C08Source.v): stateObject.empty, the zero-amount exits of
    AddBalance/SubBalance, SetState's no-op test, the dirty/pending/cached/destructed chain of
    GetState/GetCommittedState, updateTrie's skip test, touch's RIPEMD case, getStateObject,
    createObject/CreateAccount, Suicide, Empty, AddRefund/SubRefund (uint64 arithmetic and the panic
    test), Snapshot, RevertToSnapshot's search predicate and validity test, Finalise's deletion test,
    clearJournalAndRefund, IntermediateRoot/Commit's deleted tests, journal.append/dirty/revert (counter
    arithmetic, loop bounds = length - journalIndex), resetObjectChange/suicideChange/addLogChange
    reverts, diffLayer.AccountRLP/Storage (both bloom probes), accountRLP/storage walks, flatten,
    Tree.Cap/cap (layers == 0, the dive loop = layers - 1 parents, the genAbort test), diffToDisk's
    write-or-delete test; with the atoms (what is compared) pinned. *)
Theorem C08_source_tie : C08_source_tie_statement.
Proof. exact C08_source_tie_proof. Qed.
Print Assumptions C08_source_tie.

(** The decision-critical functions of the anchored code have exactly the decisions the source tie knows about
    (go2coq manifests, regenerated from /repo on every check; statement in SourceManifest.v). *)
From Kardia Require Import C08.SourceManifest.
Theorem C08_source_manifest : C08_source_manifest_statement.
Proof. exact C08_source_manifest_proof. Qed.
Print Assumptions C08_source_manifest.
