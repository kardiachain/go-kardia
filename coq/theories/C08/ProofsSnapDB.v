(** C08 proofs: the StateDB's snapshot bookkeeping (ModelSnap.v: snapAccounts, snapStorage,
    prevAccount/prevStorage of the journalled resetObjectChange entries).
    - it never changes what the StateDB answers (the projection to Model.v's [step] is exact);
    - a StateDB without snapshot layer keeps none of it;
    - RevertToSnapshot restores it exactly, for arbitrarily nested snapshots: what Commit hands to the
      snapshot tree does not depend on reverted operations. *)
From Coq Require Import List ZArith NArith Bool Lia.
From Kardia Require Import C08.Model C08.ModelSnap C08.ProofsEqv C08.ProofsFinalise C08.ProofsUndo C08.ProofsRevert C08.Proofs.
Import ListNotations.
Local Open Scope N_scope.

(** the bookkeeping of the entries [es], as a function of the entry list instead of two journals:
    [cfwd] forwards (what [snap_after_plain] folds, oldest entry first), [crew] backwards (what
    [snap_after_revert] folds, newest first) *)
Definition cfwd (es : list entry) (ss : sstate) : sstate :=
  fold_right (fun e acc => match e with JResetObject a _ _ => snap_reset a acc | _ => acc end) ss es.
Definition crew (es : list entry) (ss : sstate) : sstate :=
  fold_left (fun acc e => match e with JResetObject a _ _ => snap_unreset a acc | _ => acc end) es ss.

Lemma snap_after_plain_cfwd : forall b ss, snap_after_plain b ss = cfwd (new_entries b (st_journal (ss_st ss))) ss.
Proof. reflexivity. Qed.
Lemma snap_after_revert_crew : forall b ss, snap_after_revert b ss = crew (new_entries (st_journal (ss_st ss)) b) ss.
Proof. reflexivity. Qed.

Lemma reset_ctl : forall a ss, ss_st (snap_reset a ss) = ss_st ss /\ ss_snap (snap_reset a ss) = ss_snap ss.
Proof. intros; split; reflexivity. Qed.
Lemma unreset_ctl : forall a ss, ss_st (snap_unreset a ss) = ss_st ss /\ ss_snap (snap_unreset a ss) = ss_snap ss.
Proof. intros a ss; unfold snap_unreset. destruct (ss_saved ss) as [|[pa ps] rest]; split; reflexivity. Qed.

Lemma cfwd_cons : forall e es ss,
  cfwd (e :: es) ss = match e with JResetObject a _ _ => snap_reset a (cfwd es ss) | _ => cfwd es ss end.
Proof. reflexivity. Qed.
Lemma crew_cons : forall e es ss,
  crew (e :: es) ss = crew es (match e with JResetObject a _ _ => snap_unreset a ss | _ => ss end).
Proof. reflexivity. Qed.

Lemma cfwd_ctl : forall es ss, ss_st (cfwd es ss) = ss_st ss /\ ss_snap (cfwd es ss) = ss_snap ss.
Proof.
  induction es as [|e es IH]; intro ss; [auto|]. rewrite cfwd_cons. destruct e; apply IH.
Qed.
Lemma crew_ctl : forall es ss, ss_st (crew es ss) = ss_st ss /\ ss_snap (crew es ss) = ss_snap ss.
Proof.
  induction es as [|e es IH]; intro ss; [auto|]. rewrite crew_cons. destruct e; try apply IH.
  destruct (IH (snap_unreset a ss)) as (A & B). destruct (unreset_ctl a ss) as (C & D). rewrite A, B; auto.
Qed.

Lemma crew_app : forall e1 e2 ss, crew (e1 ++ e2) ss = crew e2 (crew e1 ss).
Proof. intros; unfold crew; apply fold_left_app. Qed.

Lemma sstep_projects : forall ss o,
  ss_st (fst (sstep ss o)) = fst (step (ss_st ss) o) /\ snd (sstep ss o) = snd (step (ss_st ss) o).
Proof.
  intros ss o. unfold sstep. destruct (step (ss_st ss) o) as [s' ans] eqn:E. cbn [fst snd].
  assert (P : forall b, ss_st (snap_after_plain b (with_st ss s')) = s').
  { intro b. rewrite snap_after_plain_cfwd. destruct (cfwd_ctl (new_entries b (st_journal (ss_st (with_st ss s')))) (with_st ss s')) as (A & _). rewrite A. reflexivity. }
  assert (R : forall b, ss_st (snap_after_revert b (with_st ss s')) = s').
  { intro b. rewrite snap_after_revert_crew. destruct (crew_ctl (new_entries (st_journal (ss_st (with_st ss s'))) b) (with_st ss s')) as (A & _). rewrite A. reflexivity. }
  destruct o; cbn [fst snd]; try (destruct (ss_snap ss); cbn [fst snd]; split; auto; fail).
  (* Commit *)
  unfold scommit. unfold step in E. destruct (commit de (ss_st ss)) as [s1 c]. inversion E; subst s' ans.
  destruct (ss_snap ss); cbn [fst snd ss_st]; auto.
Qed.

(** a StateDB without snapshot layer keeps no snapshot data *)
Lemma detached_keeps_nothing : forall ss o, ss_snap ss = None ->
  ss_snap (fst (sstep ss o)) = None /\
  (ss_acc (fst (sstep ss o)) = ss_acc ss /\ ss_sto (fst (sstep ss o)) = ss_sto ss /\ ss_saved (fst (sstep ss o)) = ss_saved ss
   \/ exists de, o = OCommit de).
Proof.
  intros ss o H. unfold sstep. destruct (step (ss_st ss) o) as [s' ans]. rewrite H.
  destruct o; cbn [fst]; try (split; [exact H|left; repeat split]; fail).
  split; [|right; eexists; reflexivity]. unfold scommit. destruct (commit de (ss_st ss)). rewrite H. reflexivity.
Qed.

(** the same snapshot data pointwise (the maps are functions, so not Leibniz-equal) *)
Definition saved_eq (p q : option account * fmap N) : Prop := fst p = fst q /\ forall k, snd p k = snd q k.

Definition ceqv (x y : sstate) : Prop :=
  (forall a, ss_acc x a = ss_acc y a) /\ (forall a k, ss_sto x a k = ss_sto y a k) /\
  Forall2 saved_eq (ss_saved x) (ss_saved y).

Lemma saved_eq_refl : forall p, saved_eq p p.
Proof. intro p; split; auto. Qed.
Lemma Forall2_saved_refl : forall l, Forall2 saved_eq l l.
Proof. induction l; constructor; auto using saved_eq_refl. Qed.
Lemma ceqv_refl : forall x, ceqv x x.
Proof. intro x; repeat split; auto using Forall2_saved_refl. Qed.

Lemma Forall2_saved_trans : forall l1 l2 l3, Forall2 saved_eq l1 l2 -> Forall2 saved_eq l2 l3 -> Forall2 saved_eq l1 l3.
Proof.
  intros l1 l2 l3 H1. revert l3. induction H1 as [|p q l1 l2 Hpq Hl IH]; intros l3 H2.
  - inversion H2; constructor.
  - inversion H2 as [|q' r l2' l3' Hqr Hl' E1 E2]; subst. constructor.
    + destruct Hpq as (A & B). destruct Hqr as (C & D). split; [congruence|]. intro k. rewrite B. apply D.
    + apply IH; auto.
Qed.
Lemma ceqv_trans : forall x y z, ceqv x y -> ceqv y z -> ceqv x z.
Proof.
  intros x y z (A & B & C) (A' & B' & C'). split; [|split].
  - intro a. rewrite A; auto.
  - intros a k. rewrite B; auto.
  - eapply Forall2_saved_trans; eauto.
Qed.

Lemma unreset_ceqv : forall a x y, ceqv x y -> ceqv (snap_unreset a x) (snap_unreset a y).
Proof.
  intros a x y (A & B & C). unfold snap_unreset.
  destruct (ss_saved x) as [|[pa ps] lx] eqn:Ex; destruct (ss_saved y) as [|[qa qs] ly] eqn:Ey; inversion C; subst.
  - split; [|split]; auto. rewrite Ex, Ey. constructor.
  - match goal with H : saved_eq _ _ |- _ => destruct H as (P1 & P2) end. cbn [fst snd] in P1, P2. subst qa.
    split; [|split]; cbn [ss_acc ss_sto ss_saved]; auto.
    + intro b. destruct pa; auto. unfold fupd. destruct (N.eqb b a); auto.
    + intros b k. destruct (N.eqb b a); auto.
Qed.

Lemma crew_ceqv : forall es x y, ceqv x y -> ceqv (crew es x) (crew es y).
Proof.
  induction es as [|e es IH]; intros x y H; [exact H|]. rewrite !crew_cons.
  apply IH. destruct e; auto. apply unreset_ceqv; auto.
Qed.

(** undoing a createObject's bookkeeping right after doing it is exact *)
Lemma unreset_reset : forall a x, ceqv (snap_unreset a (snap_reset a x)) x.
Proof.
  intros a x. unfold snap_unreset, snap_reset. cbn [ss_saved ss_acc ss_sto ss_st ss_snap].
  split; [|split]; cbn [ss_acc ss_sto ss_saved].
  - intro b. destruct (ss_acc x a) as [v|] eqn:E.
    + unfold fupd, fdel. destruct (N.eqb b a) eqn:Eb; auto. apply N.eqb_eq in Eb; subst b. auto.
    + unfold fdel. destruct (N.eqb b a) eqn:Eb; auto. apply N.eqb_eq in Eb; subst b. auto.
  - intros b k. destruct (N.eqb b a) eqn:Eb; auto. apply N.eqb_eq in Eb; subst b. auto.
  - apply Forall2_saved_refl.
Qed.

Lemma crew_cfwd : forall es x, ceqv (crew es (cfwd es x)) x.
Proof.
  induction es as [|e es IH]; intro x; [apply ceqv_refl|]. rewrite cfwd_cons, crew_cons.
  destruct e; try apply IH.
  eapply ceqv_trans; [apply crew_ceqv; apply unreset_reset|]. apply IH.
Qed.

Lemma new_entries_app : forall (es j : list entry), new_entries j (es ++ j) = es.
Proof.
  intros es j. unfold new_entries. rewrite app_length. replace (length es + length j - length j)%nat with (length es) by lia.
  rewrite firstn_app, Nat.sub_diag, firstn_all. cbn. apply app_nil_r.
Qed.
Lemma new_entries_same : forall (j : list entry), new_entries j j = nil.
Proof. intro j. exact (new_entries_app nil j). Qed.

(** Snapshot() journals nothing *)
Lemma sstep_snapshot : forall ss p, ss_snap ss = Some p ->
  fst (sstep ss OSnapshot) = with_st ss (fst (snapshot (ss_st ss))).
Proof.
  intros ss p Sn. unfold sstep, step, snapshot. rewrite Sn. cbn [fst].
  rewrite snap_after_plain_cfwd. cbn [with_st ss_st]. ss. rewrite new_entries_same. reflexivity.
Qed.

Fixpoint srun (ops : list op) (ss : sstate) : sstate :=
  match ops with
  | nil => ss
  | o :: t => srun t (fst (sstep ss o))
  end.

Lemma srun_projects : forall ops ss, ss_st (srun ops ss) = run ops (ss_st ss).
Proof.
  induction ops as [|o t IH]; intro ss; cbn [srun run]; auto.
  rewrite IH. destruct (sstep_projects ss o) as (A & _). rewrite A. reflexivity.
Qed.

Section SRevert.
  Variable ss0 : sstate.
  Variable p0 : N.
  Hypothesis wf0 : wf (ss_st ss0).
  Hypothesis att0 : ss_snap ss0 = Some p0.
  Let s0 := ss_st ss0.

  (** the snapshot is still valid, and undoing the bookkeeping of the entries journalled since then
      gives back the snapshot data of [ss0] *)
  Definition SGood (ss : sstate) : Prop :=
    Good s0 (ss_st ss) /\ ss_snap ss = Some p0 /\
    ceqv (crew (new_entries (st_journal s0) (st_journal (ss_st ss))) ss) ss0.

  Lemma good_journal : forall s, Good s0 s -> exists es, st_journal s = es ++ st_journal s0.
  Proof. intros s (_ & _ & es & rest & J & _). exists es; auto. Qed.

  (** [crew] only looks at the snapshot data *)
  Lemma crew_with_st : forall es ss s', ceqv (crew es (with_st ss s')) (crew es ss).
  Proof.
    intros es ss s'. apply crew_ceqv. repeat split; auto using Forall2_saved_refl.
  Qed.

  (** a step that appends [es'] to the journal *)
  Lemma sgood_append : forall ss s' es', SGood ss -> Good s0 s' ->
    st_journal s' = es' ++ st_journal (ss_st ss) -> SGood (cfwd es' (with_st ss s')).
  Proof.
    intros ss s' es' (G & Sn & C) G' J'.
    destruct (good_journal _ G) as (es & J).
    destruct (cfwd_ctl es' (with_st ss s')) as (St & Snp). unfold SGood. rewrite St, Snp. cbn [with_st ss_st ss_snap].
    split; [exact G'|]. split; [exact Sn|].
    rewrite J', J, app_assoc, new_entries_app, crew_app.
    eapply ceqv_trans; [apply crew_ceqv; apply crew_cfwd|].
    eapply ceqv_trans; [apply crew_with_st|]. rewrite J, new_entries_app in C. exact C.
  Qed.

  Lemma sstep_plain_shape : forall ss o, plain o = true -> ss_snap ss = Some p0 ->
    fst (sstep ss o) = snap_after_plain (st_journal (ss_st ss)) (with_st ss (fst (step (ss_st ss) o))).
  Proof.
    intros ss o Hp Sn. unfold sstep. destruct (step (ss_st ss) o) as [s' ans]. rewrite Sn.
    destruct o; try discriminate; reflexivity.
  Qed.

  Lemma sgood_plain : forall ss o, SGood ss -> plain o = true -> SGood (fst (sstep ss o)).
  Proof.
    intros ss o SG Hp. pose proof SG as (G & Sn & C).
    rewrite (sstep_plain_shape ss o Hp Sn), snap_after_plain_cfwd. cbn [with_st ss_st].
    pose proof (good_plain s0 (ss_st ss) o G Hp) as G'.
    destruct G as (Hw & _). destruct Hw as (Hk & _).
    destruct (step_ext (ss_st ss) o Hk Hp) as (_ & _ & _ & _ & _ & es' & J' & _).
    rewrite J', new_entries_app. apply sgood_append; auto.
  Qed.

  Lemma sgood_init : SGood (fst (sstep ss0 OSnapshot)).
  Proof.
    rewrite (sstep_snapshot ss0 p0 att0). unfold SGood. cbn [with_st ss_st ss_snap].
    split; [exact (good_init s0 wf0)|]. split; [exact att0|].
    change (st_journal (fst (snapshot (ss_st ss0)))) with (st_journal s0). rewrite new_entries_same.
    repeat split; auto using Forall2_saved_refl.
  Qed.

  Lemma sgood_snapshot : forall ss, SGood ss -> SGood (fst (sstep ss OSnapshot)).
  Proof.
    intros ss SG. pose proof SG as (G & Sn & C). rewrite (sstep_snapshot ss p0 Sn).
    exact (sgood_append ss _ nil SG (good_snapshot s0 (ss_st ss) G) eq_refl).
  Qed.

  (** RevertToSnapshot: the journal afterwards is a suffix of the journal before *)
  Lemma revert_journal : forall s i, exists k, (k <= length (st_journal s))%nat /\
    st_journal (fst (revert_to s i)) = skipn k (st_journal s).
  Proof.
    intros s i. destruct (revert_to_cases s i) as [H | (idx & j & _ & H)]; rewrite H; cbn [fst].
    - exists O. split; [lia | reflexivity].
    - exists (length (st_journal s) - j)%nat. split; [lia|]. apply (rewind_journal _ s).
  Qed.

  Lemma sstep_revert_shape : forall ss i, ss_snap ss = Some p0 ->
    fst (sstep ss (ORevert i)) =
    crew (new_entries (st_journal (fst (revert_to (ss_st ss) i))) (st_journal (ss_st ss)))
         (with_st ss (fst (revert_to (ss_st ss) i))).
  Proof.
    intros ss i Sn. unfold sstep, step. destruct (revert_to (ss_st ss) i) as [s' p]. rewrite Sn. cbn [fst].
    rewrite snap_after_revert_crew. reflexivity.
  Qed.

  Lemma skipn_app_le : forall (A : Type) k (l1 l2 : list A), (k <= length l1)%nat -> skipn k (l1 ++ l2) = skipn k l1 ++ l2.
  Proof. intros A k l1 l2 H. rewrite skipn_app. replace (k - length l1)%nat with O by lia. reflexivity. Qed.

  Lemma sgood_revert : forall ss i, SGood ss ->
    SGood (fst (sstep ss (ORevert i))) \/ Dead s0 (ss_st (fst (sstep ss (ORevert i)))).
  Proof.
    intros ss i SG. pose proof SG as (G & Sn & C).
    destruct (sstep_projects ss (ORevert i)) as (A & _).
    assert (A' : ss_st (fst (sstep ss (ORevert i))) = fst (revert_to (ss_st ss) i)).
    { rewrite A. unfold step. destruct (revert_to (ss_st ss) i); reflexivity. }
    destruct (good_revert s0 wf0 (ss_st ss) i G) as [G'|D]; [left|right; rewrite A'; exact D].
    rewrite (sstep_revert_shape ss i Sn).
    destruct (good_journal _ G) as (es & J). destruct (good_journal _ G') as (es2 & J2).
    destruct (revert_journal (ss_st ss) i) as (k & Kle & K). rewrite J in K. rewrite J, app_length in Kle.
    assert (Hk : (k <= length es)%nat).
    { assert (L : length (st_journal (fst (revert_to (ss_st ss) i))) = (length es + length (st_journal s0) - k)%nat)
        by (rewrite K, skipn_length, app_length; reflexivity).
      rewrite J2, app_length in L. clear - L Kle. lia. }
    rewrite skipn_app_le in K by exact Hk.
    assert (E2 : es2 = skipn k es) by (rewrite J2 in K; apply app_inv_tail in K; exact K).
    set (s' := fst (revert_to (ss_st ss) i)) in *.
    assert (NE : new_entries (st_journal s') (st_journal (ss_st ss)) = firstn k es).
    { unfold new_entries. rewrite K, J, !app_length, skipn_length.
      replace (length es + length (st_journal s0) - (length es - k + length (st_journal s0)))%nat with k by lia.
      rewrite firstn_app. replace (k - length es)%nat with O by lia. cbn [firstn]. apply app_nil_r. }
    rewrite NE. destruct (crew_ctl (firstn k es) (with_st ss s')) as (St & Snp).
    unfold SGood. rewrite St, Snp. cbn [with_st ss_st ss_snap]. split; [exact G'|]. split; [exact Sn|].
    rewrite J2, new_entries_app, E2, <- crew_app, firstn_skipn.
    eapply ceqv_trans; [apply crew_with_st|]. rewrite J, new_entries_app in C. exact C.
  Qed.

  Lemma dead_sstep : forall ss o, Dead s0 (ss_st ss) -> Dead s0 (ss_st (fst (sstep ss o))).
  Proof. intros ss o D. destruct (sstep_projects ss o) as (A & _). rewrite A. apply dead_step; auto. Qed.

  Lemma sgood_step : forall ss o, SGood ss -> SGood (fst (sstep ss o)) \/ Dead s0 (ss_st (fst (sstep ss o))).
  Proof.
    intros ss o SG. destruct (op_cases o) as [Hp | [-> | [[id ->] | Hf]]].
    - left; apply sgood_plain; auto.
    - left; apply sgood_snapshot; auto.
    - apply sgood_revert; auto.
    - right. destruct (sstep_projects ss o) as (A & _). rewrite A.
      destruct SG as ((Hw & Hn & _) & _). exact (finalised_dead s0 _ _ Hw Hn (step_finalised _ o Hf)).
  Qed.

  Lemma srun_inv : forall ops ss, SGood ss \/ Dead s0 (ss_st ss) -> SGood (srun ops ss) \/ Dead s0 (ss_st (srun ops ss)).
  Proof.
    induction ops as [|o t IH]; intros ss H; cbn [srun]; auto. apply IH.
    destruct H as [H|H]; [apply sgood_step; auto | right; apply dead_sstep; auto].
  Qed.

  (** the theorem: Snapshot(); any operations; RevertToSnapshot(id) while id is still valid *)
  Theorem snap_revert_exact : forall ops,
    let ss1 := fst (sstep ss0 OSnapshot) in
    let ssN := srun ops ss1 in
    In (st_nextrev s0) (map fst (st_revs (ss_st ssN))) ->
    ceqv (fst (sstep ssN (ORevert (st_nextrev s0)))) ss0.
  Proof.
    intros ops ss1 ssN Hin.
    destruct (srun_inv ops ss1 (or_introl sgood_init)) as [SG|(_ & _ & D)]; [|contradiction].
    fold ssN in SG. pose proof SG as (G & Sn & C).
    rewrite (sstep_revert_shape ssN _ Sn).
    destruct (good_journal _ G) as (es & J).
    (* the journal after the revert is the journal at Snapshot() *)
    assert (JR : st_journal (fst (revert_to (ss_st ssN) (st_nextrev s0))) = st_journal s0).
    { destruct (good_revert_to s0 (ss_st ssN) G) as (es' & J' & _ & H). rewrite H. cbn [fst]. ss.
      exact (rewind_journal_app es' _ _ J'). }
    rewrite JR. eapply ceqv_trans; [apply crew_with_st|]. exact C.
  Qed.
End SRevert.

Inductive sreachable : sstate -> Prop :=
| sr_new : forall c layer, sreachable (snew_state c layer)
| sr_step : forall ss o, sreachable ss -> sreachable (fst (sstep ss o))
| sr_copy : forall ss, sreachable ss -> sreachable (scopy ss).

Lemma sreachable_reachable : forall ss, sreachable ss -> reachable (ss_st ss).
Proof.
  induction 1 as [c layer|ss o H IH|ss H IH].
  - apply r_new.
  - destruct (sstep_projects ss o) as (A & _). rewrite A. apply r_step; auto.
  - apply r_copy; auto.
Qed.

Lemma sreachable_wf : forall ss, sreachable ss -> wf (ss_st ss).
Proof. intros ss H. apply wf_reachable, sreachable_reachable; auto. Qed.

Lemma srun_reachable : forall ops ss, sreachable ss -> sreachable (srun ops ss).
Proof. induction ops as [|o t IH]; intros ss H; cbn [srun]; auto. apply IH, sr_step; auto. Qed.

(** the theorem for reachable, attached StateDBs *)
Theorem snap_revert_exact_reachable : forall ss0 p0 ops,
  sreachable ss0 -> ss_snap ss0 = Some p0 ->
  let id := st_nextrev (ss_st ss0) in
  let ssN := srun ops (fst (sstep ss0 OSnapshot)) in
  In id (map fst (st_revs (ss_st ssN))) ->
  ceqv (fst (sstep ssN (ORevert id))) ss0.
Proof. intros ss0 p0 ops R A. exact (snap_revert_exact ss0 p0 (sreachable_wf ss0 R) A ops). Qed.

(** the hypotheses are satisfiable and the statement is not vacuous: a StateDB attached to layer 0
    that has snapshot data for contract 1 (written by an IntermediateRoot); the reverted segment
    re-creates the contract (which deletes that data) and nests a reverted snapshot *)
Definition sexample_ss0 : sstate :=
  srun [OSetNonce 1 1; OSetState 1 0 7; OIntermediateRoot false] (snew_state fempty (Some 0)).
Definition sexample_ops : list op :=
  [OCreateAccount 1; OSnapshot; OSetState 1 1 9; OCreateAccount 1; ORevert 1; OSetNonce 1 5].

Lemma sexample_valid :
  sreachable sexample_ss0 /\ ss_snap sexample_ss0 = Some 0 /\
  is_some (ss_acc sexample_ss0 1) = true /\ ss_sto sexample_ss0 1 0 = Some 7 /\
  let ssN := srun sexample_ops (fst (sstep sexample_ss0 OSnapshot)) in
  In (st_nextrev (ss_st sexample_ss0)) (map fst (st_revs (ss_st ssN))) /\
  is_some (ss_acc ssN 1) = false /\ ss_sto ssN 1 0 = None.
Proof.
  split; [unfold sexample_ss0; apply srun_reachable, sr_new|].
  vm_compute. repeat split; auto.
Qed.
