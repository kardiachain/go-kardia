(** C08 proofs: the observational equivalence [eqv] (what survives a journal revert); the getters
    respect it, and every journal-entry revert is a congruence for it. *)
From Coq Require Import List ZArith NArith Bool.
From Kardia Require Import C08.Model.
Import ListNotations.
Local Open Scope N_scope.

(** simplification restricted to the model's projections/setters (never unfolds numbers) *)
Ltac ss :=
  cbn [st_trie st_objs st_pending st_dirtyset st_destruct st_refund st_thash st_txindex st_logs st_logsize
       st_preimages st_aladdrs st_alslots st_transient st_journal st_dirties st_revs st_nextrev st_crashed
       set_trie set_objs set_pending set_dirtyset set_destruct set_refund set_thash set_txindex set_logs set_logsize
       set_preimages set_aladdrs set_alslots set_transient set_journal set_dirties set_revs set_nextrev set_crashed
       set_transient_raw put_obj
       o_data o_origin o_pending o_dirty o_dirtycode o_suicided o_deleted
       seto_data seto_origin seto_pending seto_dirty seto_dirtycode seto_suicided seto_deleted
       ac_nonce ac_balance ac_code ac_storage setac_nonce setac_balance setac_code setac_storage
       new_object empty_account fst snd] in *.

Ltac eqb x y :=
  let H := fresh "E" in
  destruct (N.eqb x y) eqn:H; [apply N.eqb_eq in H; try subst | apply N.eqb_neq in H].

(** getDeletedStateObject without the caching side effect *)
Definition peek (s : state) (a : N) : option obj :=
  match st_objs s a with
  | Some o => Some o
  | None => option_map new_object (st_trie s a)
  end.

(** getStateObject without the caching side effect *)
Definition live (s : state) (a : N) : option obj :=
  match peek s a with
  | Some o => if o_deleted o then None else Some o
  | None => None
  end.

Definition committed_val (d : bool) (o : obj) (k : N) : N :=
  match o_pending o k with
  | Some v => v
  | None => match o_origin o k with
            | Some v => v
            | None => if d then 0 else ac_storage (o_data o) k
            end
  end.

Definition state_val (d : bool) (o : obj) (k : N) : N :=
  match o_dirty o k with Some v => v | None => committed_val d o k end.

(** two objects that no getter can tell apart ([d]: the address is in stateObjectsDestruct) *)
Record obj_eqv (d : bool) (o1 o2 : obj) : Prop := {
  oe_nonce : ac_nonce (o_data o1) = ac_nonce (o_data o2);
  oe_balance : ac_balance (o_data o1) = ac_balance (o_data o2);
  oe_code : ac_code (o_data o1) = ac_code (o_data o2);
  oe_suicided : o_suicided o1 = o_suicided o2;
  oe_deleted : o_deleted o1 = o_deleted o2;
  oe_committed : forall k, committed_val d o1 k = committed_val d o2 k;
  oe_state : forall k, state_val d o1 k = state_val d o2 k;
  oe_storage : forall k, ac_storage (o_data o1) k = ac_storage (o_data o2) k;
  oe_pending : forall k, o_pending o1 k = o_pending o2 k }.

Definition opt_rel {A : Type} (R : A -> A -> Prop) (x y : option A) : Prop :=
  match x, y with
  | Some a, Some b => R a b
  | None, None => True
  | _, _ => False
  end.

(** two states that no getter can tell apart, now or after undoing journal entries.
    Not compared: the transaction context (thash/txIndex are not journalled by design), journal, dirties, revisions, nextRevisionId, pending/dirty sets,
    the exact shape of the storage caches, dirtyCode. (The crash flag IS compared: two equivalent
    states crash on the same reverts.) *)
Record eqv (s1 s2 : state) : Prop := {
  ev_trie : st_trie s1 = st_trie s2;
  ev_destruct : forall a, st_destruct s1 a = st_destruct s2 a;
  ev_objs : forall a, opt_rel (obj_eqv (st_destruct s1 a)) (peek s1 a) (peek s2 a);
  ev_refund : st_refund s1 = st_refund s2;
  ev_logs : forall t, st_logs s1 t = st_logs s2 t;
  ev_logsize : st_logsize s1 = st_logsize s2;
  ev_preimages : forall h, st_preimages s1 h = st_preimages s2 h;
  ev_aladdrs : forall a, st_aladdrs s1 a = st_aladdrs s2 a;
  ev_alslots : st_alslots s1 = st_alslots s2;
  ev_transient : forall a k, st_transient s1 a k = st_transient s2 a k;
  ev_crashed : st_crashed s1 = st_crashed s2 }.

Lemma obj_eqv_refl : forall d o, obj_eqv d o o.
Proof. intros; constructor; auto. Qed.

Lemma obj_eqv_sym : forall d o1 o2, obj_eqv d o1 o2 -> obj_eqv d o2 o1.
Proof. intros d o1 o2 [? ? ? ? ? ? ? ? ?]; constructor; auto. Qed.

Lemma obj_eqv_trans : forall d o1 o2 o3, obj_eqv d o1 o2 -> obj_eqv d o2 o3 -> obj_eqv d o1 o3.
Proof.
  intros d o1 o2 o3 [? ? ? ? ? Hc1 Hs1 Ht1 Hp1] [? ? ? ? ? Hc2 Hs2 Ht2 Hp2]; constructor; try congruence.
  all: intro k; first [rewrite Hc1; apply Hc2 | rewrite Hs1; apply Hs2 | rewrite Ht1; apply Ht2 | rewrite Hp1; apply Hp2].
Qed.

Lemma opt_rel_refl : forall A (R : A -> A -> Prop), (forall x, R x x) -> forall o, opt_rel R o o.
Proof. intros A R H [x|]; cbn; auto. Qed.

Lemma eqv_refl : forall s, eqv s s.
Proof. intro s; constructor; auto. intro a; apply opt_rel_refl; apply obj_eqv_refl. Qed.

Lemma eqv_sym : forall s1 s2, eqv s1 s2 -> eqv s2 s1.
Proof.
  intros s1 s2 [? Hd Ho ? ? ? ? ? ? ? ?]; constructor; auto.
  intro a; specialize (Ho a); rewrite <- Hd.
  destruct (peek s1 a), (peek s2 a); cbn in *; auto using obj_eqv_sym.
Qed.

Lemma eqv_trans : forall s1 s2 s3, eqv s1 s2 -> eqv s2 s3 -> eqv s1 s3.
Proof.
  intros s1 s2 s3 [? Hd1 Ho1 ? Hl1 ? Hp1 Ha1 ? Ht1 ?] [? Hd2 Ho2 ? Hl2 ? Hp2 Ha2 ? Ht2 ?].
  constructor;
    [ congruence | intro a; rewrite Hd1; apply Hd2 | | congruence
    | intro t; rewrite Hl1; apply Hl2 | congruence | intro h; rewrite Hp1; apply Hp2
    | intro a; rewrite Ha1; apply Ha2 | congruence | intros a k; rewrite Ht1; apply Ht2 | congruence ].
  intro a; specialize (Ho1 a); specialize (Ho2 a); rewrite <- Hd1 in Ho2.
  destruct (peek s1 a), (peek s2 a), (peek s3 a); cbn in *; try tauto; eauto using obj_eqv_trans.
Qed.

Lemma get_deleted_res : forall s a, snd (get_deleted s a) = peek s a.
Proof.
  intros s a; unfold get_deleted, peek.
  destruct (st_objs s a); [reflexivity|]. destruct (st_trie s a); reflexivity.
Qed.

(** loading changes only the live set, and only by caching what [peek] already sees *)
Definition only_objs (s s' : state) : Prop :=
  s' = set_objs s (st_objs s') /\ forall x, peek s' x = peek s x.

Lemma only_objs_refl : forall s, only_objs s s.
Proof. intro s; split; [destruct s; reflexivity | auto]. Qed.

Lemma get_deleted_state : forall s a, only_objs s (fst (get_deleted s a)).
Proof.
  intros s a; unfold get_deleted.
  destruct (st_objs s a) eqn:Eo; [apply only_objs_refl|].
  destruct (st_trie s a) eqn:Et; [|apply only_objs_refl].
  split; [reflexivity|].
  intro x; unfold peek; ss. unfold fupd. eqb x a.
  - rewrite Eo, Et; reflexivity.
  - reflexivity.
Qed.

Lemma get_obj_res : forall s a, snd (get_obj s a) = live s a.
Proof.
  intros s a; unfold get_obj, live. rewrite <- get_deleted_res.
  destruct (get_deleted s a) as [s1 [o|]]; ss; [destruct (o_deleted o)|]; reflexivity.
Qed.

Lemma get_obj_state : forall s a, fst (get_obj s a) = fst (get_deleted s a).
Proof.
  intros s a; unfold get_obj. destruct (get_deleted s a) as [s1 [o|]]; ss; [destruct (o_deleted o)|]; reflexivity.
Qed.

(** getStateObject as a whole: it returns [live] and loads at most *)
Lemma get_obj_load : forall s a, only_objs s (fst (get_obj s a)) /\ snd (get_obj s a) = live s a.
Proof. intros s a. rewrite get_obj_state. split; [apply get_deleted_state | apply get_obj_res]. Qed.

Lemma only_objs_eqv : forall s s', only_objs s s' -> eqv s s'.
Proof.
  intros s s' [H Hp]. rewrite H. constructor; ss; auto.
  intro a. rewrite <- H. rewrite Hp. apply opt_rel_refl, obj_eqv_refl.
Qed.

Lemma get_deleted_loaded : forall s a o, snd (get_deleted s a) = Some o -> st_objs (fst (get_deleted s a)) a = Some o.
Proof.
  intros s a o; unfold get_deleted.
  destruct (st_objs s a) eqn:Eo; ss; [congruence|].
  destruct (st_trie s a); ss; [|discriminate].
  intro H; inversion H; subst. unfold fupd; rewrite N.eqb_refl; reflexivity.
Qed.

Lemma obj_get_committed_val : forall d o k, snd (obj_get_committed d o k) = committed_val d o k.
Proof.
  intros; unfold obj_get_committed, committed_val.
  destruct (o_pending o k); [reflexivity|]. destruct (o_origin o k); [reflexivity|]. destruct d; reflexivity.
Qed.

Lemma obj_get_state_val : forall d o k, snd (obj_get_state d o k) = state_val d o k.
Proof.
  intros; unfold obj_get_state, state_val. destruct (o_dirty o k); [reflexivity|]. apply obj_get_committed_val.
Qed.

Lemma obj_get_committed_obj : forall d o k o', fst (obj_get_committed d o k) = Some o' -> obj_eqv d o o'.
Proof.
  intros d o k o'; unfold obj_get_committed.
  destruct (o_pending o k) eqn:Ep; ss; [discriminate|].
  destruct (o_origin o k) eqn:Eo; ss; [discriminate|].
  destruct d; ss; [discriminate|]. intro H; inversion H; subst; clear H.
  assert (Hc : forall k', committed_val false o k' =
                          committed_val false (seto_origin o (fupd (o_origin o) k (ac_storage (o_data o) k))) k').
  { intro k'; unfold committed_val; ss. destruct (o_pending o k'); [reflexivity|].
    unfold fupd. eqb k' k; [rewrite Eo; reflexivity | reflexivity]. }
  constructor; ss; auto.
  intro k'; unfold state_val; ss. destruct (o_dirty o k'); auto.
Qed.

Lemma obj_get_state_obj : forall d o k o', fst (obj_get_state d o k) = Some o' -> obj_eqv d o o'.
Proof.
  intros d o k o'; unfold obj_get_state. destruct (o_dirty o k); ss; [discriminate|]. apply obj_get_committed_obj.
Qed.

(** the fields no object operation writes: what [eqv] compares except the objects and the crash
    flag, plus the transaction context *)
Definition glob (s : state) :=
  (st_trie s, st_destruct s, st_refund s, st_thash s, st_txindex s, st_logs s, st_logsize s,
   st_preimages s, st_aladdrs s, st_alslots s, st_transient s).

(** what the revision machinery reads *)
Definition ctl (s : state) := (st_journal s, st_revs s, st_nextrev s).

(** not touched by plain operations or reverts *)
Definition pt (s : state) := (st_pending s, st_trie s).

Lemma glob_inv : forall s s', glob s' = glob s ->
  st_trie s' = st_trie s /\ st_destruct s' = st_destruct s /\ st_refund s' = st_refund s /\
  st_thash s' = st_thash s /\ st_txindex s' = st_txindex s /\ st_logs s' = st_logs s /\
  st_logsize s' = st_logsize s /\ st_preimages s' = st_preimages s /\ st_aladdrs s' = st_aladdrs s /\
  st_alslots s' = st_alslots s /\ st_transient s' = st_transient s.
Proof. unfold glob; intros s s' H; inversion H; auto 12. Qed.

Ltac unglob H :=
  apply glob_inv in H; destruct H as (? & ? & ? & ? & ? & ? & ? & ? & ? & ? & ?).

Lemma only_objs_glob : forall s s', only_objs s s' -> glob s' = glob s /\ ctl s' = ctl s /\ st_crashed s' = st_crashed s.
Proof. intros s s' [H _]; rewrite H; unfold glob, ctl; ss; auto. Qed.

Lemma eqv_frame : forall s1 s2 s1' s2',
  eqv s1 s2 -> glob s1' = glob s1 -> glob s2' = glob s2 ->
  (forall x, opt_rel (obj_eqv (st_destruct s1 x)) (peek s1' x) (peek s2' x)) ->
  st_crashed s1' = st_crashed s2' ->
  eqv s1' s2'.
Proof.
  intros s1 s2 s1' s2' [? ? ? ? ? ? ? ? ? ? ?] G1 G2 Hp Hc. unglob G1. unglob G2.
  constructor; try congruence.
  all: try (intros; congruence).
  intro a. replace (st_destruct s1' a) with (st_destruct s1 a) by congruence. apply Hp.
Qed.

Lemma peek_put : forall s a o x, peek (put_obj s a o) x = if N.eqb x a then Some o else peek s x.
Proof. intros; unfold peek; ss; unfold fupd. destruct (N.eqb x a); reflexivity. Qed.

Lemma live_eqv : forall s1 s2 a, eqv s1 s2 ->
  opt_rel (obj_eqv (st_destruct s1 a)) (live s1 a) (live s2 a).
Proof.
  intros s1 s2 a H; unfold live. pose proof (ev_objs _ _ H a) as Ho.
  destruct (peek s1 a) as [o1|], (peek s2 a) as [o2|]; cbn in *; try tauto.
  rewrite <- (oe_deleted _ _ _ Ho). destruct (o_deleted o1); cbn; auto.
Qed.

Lemma with_live_spec : forall s a f b,
  glob (with_live s a f b) = glob s /\ ctl (with_live s a f b) = ctl s /\
  forall x, peek (with_live s a f b) x =
            if N.eqb x a then match live s a with Some o => Some (f o) | None => peek s a end else peek s x.
Proof.
  intros s a f b; unfold with_live.
  destruct (get_obj_load s a) as (Hd & Hr). destruct (get_obj s a) as [s1 r]; ss; subst r.
  destruct (only_objs_glob _ _ Hd) as (G & C & _). destruct Hd as [_ Hp].
  destruct (live s a) as [o|].
  - repeat split.
    + rewrite <- G; unfold glob; ss; reflexivity.
    + rewrite <- C; unfold ctl; ss; reflexivity.
    + intro x; rewrite peek_put. destruct (N.eqb x a); auto.
  - assert (X : forall s0 : state, glob (if b then set_crashed s0 true else s0) = glob s0 /\
                           ctl (if b then set_crashed s0 true else s0) = ctl s0 /\
                           forall x, peek (if b then set_crashed s0 true else s0) x = peek s0 x).
    { intro s0; destruct b; unfold glob, ctl, peek; ss; auto. }
    destruct (X s1) as (G' & C' & P'). repeat split; try congruence.
    intro x; rewrite P', Hp. eqb x a; reflexivity.
Qed.

Lemma with_live_crashed : forall s a f b,
  st_crashed (with_live s a f b) =
  match live s a with Some _ => st_crashed s | None => if b then true else st_crashed s end.
Proof.
  intros s a f b; unfold with_live.
  destruct (get_obj_load s a) as (Hd & Hr). destruct (get_obj s a) as [s1 r]; ss; subst r.
  destruct (only_objs_glob _ _ Hd) as (_ & _ & C).
  destruct (live s a); [ss; exact C | destruct b; ss; auto].
Qed.

Lemma ask_acct : forall s a (f : option obj -> answer),
  snd (let (s1, r) := get_obj s a in (s1, f r)) = f (live s a).
Proof. intros; rewrite <- get_obj_res. destruct (get_obj s a); reflexivity. Qed.

Lemma ask_slot : forall c s a k,
  snd (read_slot c s a k) =
  AN (match live s a with
      | Some o => (if c then committed_val else state_val) (st_destruct s a) o k
      | None => 0 end).
Proof.
  intros c s a k; unfold read_slot.
  destruct (get_obj_load s a) as (Hd & Hr). destruct (get_obj s a) as [s1 r]; ss; subst r.
  destruct (only_objs_glob _ _ Hd) as (G & _). unglob G.
  destruct (live s a) as [o|]; [|reflexivity].
  replace (st_destruct s1 a) with (st_destruct s a) by congruence.
  destruct c.
  - rewrite <- obj_get_committed_val. destruct (obj_get_committed (st_destruct s a) o k); reflexivity.
  - rewrite <- obj_get_state_val. destruct (obj_get_state (st_destruct s a) o k); reflexivity.
Qed.

Lemma al_contains_eqv : forall s1 s2 a k, eqv s1 s2 -> al_contains s1 a k = al_contains s2 a k.
Proof.
  intros s1 s2 a k H; unfold al_contains. rewrite (ev_aladdrs _ _ H), (ev_alslots _ _ H). reflexivity.
Qed.

Lemma ask_eqv : forall s1 s2 q, eqv s1 s2 -> ask s1 q = ask s2 q.
Proof.
  intros s1 s2 q H; unfold ask, read.
  assert (L : forall a, opt_rel (obj_eqv (st_destruct s1 a)) (live s1 a) (live s2 a)) by (intro; apply live_eqv; auto).
  destruct q; try (rewrite !ask_acct; specialize (L a);
                   destruct (live s1 a) as [o1|], (live s2 a) as [o2|]; cbn in L; try tauto;
                   try reflexivity; destruct L; unfold obj_empty; congruence).
  - unfold read. rewrite !ask_slot. specialize (L a). rewrite <- (ev_destruct _ _ H).
    destruct (live s1 a) as [o1|], (live s2 a) as [o2|]; cbn in L; try tauto. rewrite (oe_state _ _ _ L); reflexivity.
  - rewrite !ask_slot. specialize (L a). rewrite <- (ev_destruct _ _ H).
    destruct (live s1 a) as [o1|], (live s2 a) as [o2|]; cbn in L; try tauto. rewrite (oe_committed _ _ _ L); reflexivity.
  - cbn [snd]. rewrite (ev_refund _ _ H); reflexivity.
  - cbn [snd]. rewrite (ev_logs _ _ H); reflexivity.
  - cbn [snd]. rewrite (ev_preimages _ _ H); reflexivity.
  - cbn [snd]. rewrite (ev_aladdrs _ _ H); reflexivity.
  - cbn [snd]. rewrite (al_contains_eqv _ _ _ _ H); reflexivity.
  - cbn [snd]. rewrite (ev_transient _ _ H); reflexivity.
Qed.

Lemma committed_val_dirty : forall d o m k, committed_val d (seto_dirty o m) k = committed_val d o k.
Proof. reflexivity. Qed.

(** the field updates performed by the reverts preserve object equivalence *)
Lemma f_balance_eqv : forall d p o1 o2, obj_eqv d o1 o2 ->
  obj_eqv d (seto_data o1 (setac_balance (o_data o1) p)) (seto_data o2 (setac_balance (o_data o2) p)).
Proof. intros d p o1 o2 [? ? ? ? ? Hc Hs ? ?]; constructor; ss; auto. Qed.

Lemma f_nonce_eqv : forall d p o1 o2, obj_eqv d o1 o2 ->
  obj_eqv d (seto_data o1 (setac_nonce (o_data o1) p)) (seto_data o2 (setac_nonce (o_data o2) p)).
Proof. intros d p o1 o2 [? ? ? ? ? Hc Hs ? ?]; constructor; ss; auto. Qed.

Lemma f_code_eqv : forall d p b o1 o2, obj_eqv d o1 o2 ->
  obj_eqv d (seto_dirtycode (seto_data o1 (setac_code (o_data o1) p)) b)
            (seto_dirtycode (seto_data o2 (setac_code (o_data o2) p)) b).
Proof. intros d p b o1 o2 [? ? ? ? ? Hc Hs ? ?]; constructor; ss; auto. Qed.

Lemma f_suicide_eqv : forall d p b o1 o2, obj_eqv d o1 o2 ->
  obj_eqv d (seto_data (seto_suicided o1 p) (setac_balance (o_data o1) b))
            (seto_data (seto_suicided o2 p) (setac_balance (o_data o2) b)).
Proof. intros d p b o1 o2 [? ? ? ? ? Hc Hs ? ?]; constructor; ss; auto. Qed.

Lemma f_storage_eqv : forall d k p o1 o2, obj_eqv d o1 o2 ->
  obj_eqv d (seto_dirty o1 (fupd (o_dirty o1) k p)) (seto_dirty o2 (fupd (o_dirty o2) k p)).
Proof.
  intros d k p o1 o2 [? ? ? ? ? Hc Hs ? ?]; constructor; ss; auto.
  intro k'; specialize (Hs k'); specialize (Hc k'); unfold state_val in *; ss. unfold fupd.
  destruct (N.eqb k' k); [reflexivity|]. exact Hs.
Qed.

Lemma with_live_eqv : forall s1 s2 a f b,
  eqv s1 s2 -> (forall d o1 o2, obj_eqv d o1 o2 -> obj_eqv d (f o1) (f o2)) ->
  eqv (with_live s1 a f b) (with_live s2 a f b).
Proof.
  intros s1 s2 a f b H Hf.
  destruct (with_live_spec s1 a f b) as (G1 & _ & P1). destruct (with_live_spec s2 a f b) as (G2 & _ & P2).
  pose proof (live_eqv _ _ a H) as L.
  apply (eqv_frame s1 s2 _ _ H G1 G2).
  - intro x; rewrite P1, P2. eqb x a.
    + destruct (live s1 a) as [o1|], (live s2 a) as [o2|]; cbn in L |- *; try tauto; auto.
      apply (ev_objs _ _ H).
    + apply (ev_objs _ _ H).
  - rewrite !with_live_crashed, (ev_crashed _ _ H).
    destruct (live s1 a) as [o1|], (live s2 a) as [o2|]; cbn in L; try tauto; reflexivity.
Qed.

Lemma undo_eqv : forall e s1 s2, eqv s1 s2 -> eqv (undo e s1) (undo e s2).
Proof.
  intros e s1 s2 H; destruct e; unfold undo.
  - (* createObject *)
    apply (eqv_frame s1 s2 _ _ H); [reflexivity | reflexivity | | ss; apply (ev_crashed _ _ H)].
    intro x; unfold peek; ss; unfold fdel. eqb x a.
    + rewrite (ev_trie _ _ H). apply opt_rel_refl, obj_eqv_refl.
    + apply (ev_objs _ _ H).
  - (* resetObject *)
    assert (X : eqv (put_obj s1 a prev) (put_obj s2 a prev)).
    { apply (eqv_frame s1 s2 _ _ H); [reflexivity | reflexivity | | ss; apply (ev_crashed _ _ H)].
      intro x; rewrite !peek_put. eqb x a; [cbn; apply obj_eqv_refl | apply (ev_objs _ _ H)]. }
    destruct prevdestruct; [exact X|].
    destruct X as [? Hd Ho ? ? ? ? ? ? ? ?]. constructor; ss; auto.
    + intro x; unfold tupd. destruct (N.eqb x a); auto.
    + intro x; specialize (Ho x). unfold peek in *; ss. unfold tupd, fupd in *.
      eqb x a; [cbn; apply obj_eqv_refl | exact Ho].
  - apply with_live_eqv; auto using f_suicide_eqv.
  - apply with_live_eqv; auto using f_balance_eqv.
  - apply with_live_eqv; auto using f_nonce_eqv.
  - apply with_live_eqv; auto using f_storage_eqv.
  - apply with_live_eqv; auto using f_code_eqv.
  - destruct H; constructor; ss; auto.
  - (* addLog *)
    assert (X : forall s s', eqv s s' ->
              eqv (set_logsize s ((st_logsize s + (two64 - 1)) mod two64)) (set_logsize s' ((st_logsize s' + (two64 - 1)) mod two64))).
    { intros s s' E; rewrite (ev_logsize _ _ E); destruct E; constructor; ss; auto. }
    apply X. rewrite (ev_logs _ _ H). destruct (st_logs s2 txhash).
    + destruct H; constructor; ss; auto.
    + destruct H as [? ? ? ? Hl ? ? ? ? ? ?]; constructor; ss; auto.
      intro t; unfold tupd. destruct (N.eqb t txhash); auto.
  - destruct H as [? ? ? ? ? ? Hp ? ? ? ?]; constructor; ss; auto.
    intro h'; unfold fdel. destruct (N.eqb h' h); auto.
  - exact H.
  - destruct H as [? ? ? ? ? ? ? Ha ? ? ?]; constructor; ss; auto.
    intro x; unfold fdel. destruct (N.eqb x a); auto.
  - (* access-list slot *)
    unfold delete_slot_al. rewrite (ev_aladdrs _ _ H), (ev_alslots _ _ H).
    assert (C : forall s s', eqv s s' -> eqv (set_crashed s true) (set_crashed s' true))
      by (intros s s' E; destruct E; constructor; ss; auto).
    destruct (st_aladdrs s2 a) as [[idx|]|]; auto.
    destruct (nth_error (st_alslots s2) idx); auto.
    destruct (remove_n k l).
    + destruct H as [? ? ? ? ? ? ? Ha Hs ? ?]; constructor; ss; auto; try congruence.
      intro x; unfold fupd. destruct (N.eqb x a); auto.
    + destruct H as [? ? ? ? ? ? ? Ha Hs ? ?]; constructor; ss; auto; try congruence.
  - destruct H as [? ? ? ? ? ? ? ? ? Ht ?]; constructor; ss; auto.
    intros x y. destruct (N.eqb x a); auto. unfold tupd. destruct (N.eqb y k); auto.
Qed.

(** DeleteSlot: an index panic, or new contents for the two parts of the access list *)
Lemma delete_slot_al_cases : forall s a k,
  delete_slot_al s a k = set_crashed s true \/
  exists addrs slots, delete_slot_al s a k = set_aladdrs (set_alslots s slots) addrs.
Proof.
  intros s a k. unfold delete_slot_al. destruct (st_aladdrs s a) as [[idx|]|]; auto.
  destruct (nth_error (st_alslots s) idx); auto. destruct (remove_n k l); right; eauto.
  exists (st_aladdrs s). eexists. reflexivity.
Qed.

(** no revert touches the journal, the revisions, journal.dirties, the pending set or the trie *)
Lemma undo_frame : forall e s,
  ctl (undo e s) = ctl s /\ st_dirties (undo e s) = st_dirties s /\ pt (undo e s) = pt s.
Proof.
  intros e s.
  assert (W : forall a f b, ctl (with_live s a f b) = ctl s /\
                            st_dirties (with_live s a f b) = st_dirties s /\ pt (with_live s a f b) = pt s).
  { intros a f b. split; [apply with_live_spec|]. unfold with_live. destruct (get_obj_load s a) as ([Hd _] & _).
    destruct (get_obj s a) as [s1 r]; ss. rewrite Hd. destruct r; [|destruct b]; unfold pt; ss; auto. }
  destruct e; unfold undo; auto; try (repeat split; reflexivity).
  - destruct prevdestruct; repeat split; reflexivity.
  - destruct (st_logs s txhash); repeat split; reflexivity.
  - destruct (delete_slot_al_cases s a k) as [-> | (ad & sl & ->)]; repeat split; reflexivity.
Qed.

Lemma undo_dirty_ctl : forall e s, ctl (undo_dirty e s) = ctl s.
Proof. intros e s; unfold undo_dirty. destruct (dirtied e); reflexivity. Qed.

Lemma undo_dirty_eqv : forall e s, eqv (undo_dirty e s) s.
Proof. intros e s; unfold undo_dirty. destruct (dirtied e); [|apply eqv_refl]. constructor; ss; auto. intro a; apply opt_rel_refl, obj_eqv_refl. Qed.

Lemma set_journal_eqv : forall s j, eqv (set_journal s j) s.
Proof. intros; constructor; ss; auto. intro a; apply opt_rel_refl, obj_eqv_refl. Qed.

Definition pop1 (e : entry) (j : list entry) (s : state) : state := undo_dirty e (undo e (set_journal s j)).

Lemma pop1_journal : forall e j s, st_journal (pop1 e j s) = j /\ st_revs (pop1 e j s) = st_revs s /\ st_nextrev (pop1 e j s) = st_nextrev s.
Proof.
  intros; unfold pop1.
  pose proof (undo_dirty_ctl e (undo e (set_journal s j))) as H1. destruct (undo_frame e (set_journal s j)) as (H2 & _).
  unfold ctl in *. rewrite H2 in H1. injection H1 as A B C. rewrite A, B, C. ss. auto.
Qed.

Lemma pop1_eqv : forall e j s1 s2, eqv s1 s2 -> eqv (pop1 e j s1) (pop1 e j s2).
Proof.
  intros; unfold pop1.
  eapply eqv_trans; [apply undo_dirty_eqv|]. eapply eqv_trans; [|apply eqv_sym, undo_dirty_eqv].
  apply undo_eqv. eapply eqv_trans; [apply set_journal_eqv|]. eapply eqv_trans; [eassumption|apply eqv_sym, set_journal_eqv].
Qed.

Lemma rewind_S : forall n s e j, st_journal s = e :: j -> rewind (S n) s = rewind n (pop1 e j s).
Proof. intros n s e j H; cbn [rewind]. rewrite H. reflexivity. Qed.

Lemma rewind_journal : forall n s, st_journal (rewind n s) = skipn n (st_journal s) /\
  st_revs (rewind n s) = st_revs s /\ st_nextrev (rewind n s) = st_nextrev s.
Proof.
  induction n; intro s; [cbn; auto|].
  destruct (st_journal s) as [|e j] eqn:E.
  - cbn [rewind]. rewrite E. cbn. rewrite E. auto.
  - rewrite (rewind_S _ _ _ _ E). destruct (IHn (pop1 e j s)) as (A & B & C).
    destruct (pop1_journal e j s) as (A' & B' & C'). rewrite A, B, C, A', B', C'. cbn. auto.
Qed.

Lemma rewind_journal_app : forall es j s, st_journal s = es ++ j -> st_journal (rewind (length es) s) = j.
Proof.
  intros es j s J. destruct (rewind_journal (length es) s) as (A & _).
  rewrite A, J, skipn_app, skipn_all, Nat.sub_diag. reflexivity.
Qed.

Lemma rewind_eqv : forall n s1 s2, eqv s1 s2 -> st_journal s1 = st_journal s2 -> eqv (rewind n s1) (rewind n s2).
Proof.
  induction n; intros s1 s2 H J; [exact H|].
  destruct (st_journal s1) as [|e j] eqn:E.
  - cbn [rewind]. rewrite E, <- J. exact H.
  - rewrite (rewind_S _ _ _ _ E). symmetry in J. rewrite (rewind_S _ _ _ _ J).
    apply IHn; [apply pop1_eqv; auto|].
    destruct (pop1_journal e j s1) as (A & _). destruct (pop1_journal e j s2) as (B & _). congruence.
Qed.

Lemma rewind_add : forall n m s, rewind (n + m) s = rewind m (rewind n s).
Proof.
  induction n; intros m s; [reflexivity|].
  destruct (st_journal s) as [|e j] eqn:E.
  - cbn [rewind plus]. rewrite E. destruct m; cbn [rewind]; [|rewrite E]; reflexivity.
  - cbn [plus]. rewrite !(rewind_S _ _ _ _ E). apply IHn.
Qed.
