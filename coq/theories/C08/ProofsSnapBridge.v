(** C08 proofs: from the StateDB to the snapshot tree.  What Commit hands to Tree.Update
    (stateObjectsDestruct, snapAccounts, snapStorage), laid over the content of the layer the StateDB
    is attached to, IS the committed content — accounts and flat storage — provided the StateDB's
    snapshot data is in step with its account trie and objects ([Sync], below).  [Sync] holds for a
    freshly opened StateDB and is kept by Snapshot, Finalise and IntermediateRoot; that setters, getters,
    RevertToSnapshot and Copy keep it is the open part (Open.v), exercised by the harness on every
    Commit (oracle snap-layer-read). *)
From Coq Require Import List ZArith NArith Bool.
From Kardia Require Import C08.Model C08.ModelSnap C08.ProofsEqv C08.ProofsFinalise C08.ProofsSnap C08.ProofsSnapDB.
Import ListNotations.
Local Open Scope N_scope.

(** flat storage of a content: the storage-trie content of existing accounts, nothing elsewhere *)
Definition flat (c : fmap account) (a k : N) : N := match c a with Some d => ac_storage d k | None => 0 end.

Section Bridge.
  Variable base : fmap account.   (* content of the layer the StateDB is attached to *)

  (** the account / the slot as the snapshot data says it will be *)
  Definition dv (ss : sstate) (a : N) : option account :=
    match ss_acc ss a with
    | Some d => Some d
    | None => if st_destruct (ss_st ss) a then None else base a
    end.
  Definition fv (ss : sstate) (a k : N) : N :=
    match ss_sto ss a k with
    | Some v => v
    | None => if st_destruct (ss_st ss) a then 0 else flat base a k
    end.

  Definition Agree (ss : sstate) (a : N) : Prop :=
    st_trie (ss_st ss) a = dv ss a /\ forall k, flat (st_trie (ss_st ss)) a k = fv ss a k.
  Definition Cleared (ss : sstate) (a : N) : Prop :=
    ss_acc ss a = None /\ (forall k, ss_sto ss a k = None) /\ st_destruct (ss_st ss) a = true.
  (** the next Finalise / IntermediateRoot will write the account *)
  Definition Due (s : state) (a : N) : Prop :=
    (st_pending s a = true \/ N.ltb 0 (st_dirties s a) = true) /\ st_objs s a <> None.

  (** every address either agrees between the account trie and the snapshot data laid over [base], or
      has had its snapshot data cleared and is due to be rewritten; live objects' storage agrees with
      the flat storage; deleted objects have no snapshot data; pending addresses have objects;
      objects that are neither pending nor journal-dirty have nothing to flush *)
  Record Sync (ss : sstate) : Prop := {
    sy_agree : forall a, Agree ss a \/ (Cleared ss a /\ Due (ss_st ss) a);
    sy_live : forall a o, st_objs (ss_st ss) a = Some o -> o_deleted o = false ->
                forall k, ac_storage (o_data o) k = fv ss a k;
    sy_dead : forall a o, st_objs (ss_st ss) a = Some o -> o_deleted o = true -> Cleared ss a;
    sy_pending : forall a, st_pending (ss_st ss) a = true -> st_objs (ss_st ss) a <> None;
    sy_flushed : forall a o, st_objs (ss_st ss) a = Some o -> o_deleted o = false -> st_pending (ss_st ss) a = false ->
                   N.ltb 0 (st_dirties (ss_st ss) a) = false ->
                   forall k, o_pending o k = None /\ (forall v, o_dirty o k = Some v -> v = originz o k) }.

  (** a StateDB just opened on the layer's root *)
  Lemma sync_new : forall l, Sync (snew_state base l).
  Proof.
    intro l. constructor; cbn; try discriminate.
    intro a. left. split; [reflexivity|]. intro k. reflexivity.
  Qed.

  (** nothing of the object is left to write *)
  Definition flushed (o : obj) : Prop :=
    forall k, o_pending o k = None /\ (forall v, o_dirty o k = Some v -> v = originz o k).

  (** updateTrie on such an object records nothing *)
  Lemma snap_update_trie_flushed : forall o m, flushed o -> forall k, snap_update_trie o m k = m k.
  Proof.
    intros o m H k. destruct (H k) as (Hp & Hd). unfold snap_update_trie, obj_finalise, originz in *. ss.
    destruct (o_dirty o k) as [v|] eqn:E; [|rewrite Hp; reflexivity].
    rewrite (Hd v eq_refl). destruct (o_origin o k); rewrite N.eqb_refl; reflexivity.
  Qed.

  Lemma update_trie_pending : forall o k, o_pending (obj_update_trie o) k = None.
  Proof. reflexivity. Qed.
  Lemma update_trie_dirty : forall o k, o_dirty (obj_update_trie o) k = None.
  Proof. reflexivity. Qed.
  Lemma finalise_obj_dirty : forall o k, o_dirty (obj_finalise o) k = None.
  Proof. reflexivity. Qed.

  (** the storage content updateTrie writes and the slots it records for the snapshot move together *)
  Lemma update_trie_storage : forall o m base_v k,
    ac_storage (o_data o) k = (match m k with Some v => v | None => base_v end) ->
    ac_storage (o_data (obj_update_trie o)) k =
    (match snap_update_trie o m k with Some v => v | None => base_v end).
  Proof.
    intros o m bv k H. unfold obj_update_trie, snap_update_trie. ss.
    destruct (o_pending (obj_finalise o) k) as [v|]; auto.
    destruct (N.eqb v (originz (obj_finalise o) k)); auto.
  Qed.

  (** the snapshot data and the destruct mark of one address are the same in two StateDBs *)
  Definition same_at (ss ss' : sstate) (a : N) : Prop :=
    ss_acc ss' a = ss_acc ss a /\ (forall k, ss_sto ss' a k = ss_sto ss a k) /\
    st_destruct (ss_st ss') a = st_destruct (ss_st ss) a.

  Lemma same_at_fv : forall ss ss' a k, same_at ss ss' a -> fv ss' a k = fv ss a k.
  Proof. intros ss ss' a k (_ & Hs & Hd). unfold fv. rewrite Hs, Hd. reflexivity. Qed.

  Lemma same_at_cleared : forall ss ss' a, same_at ss ss' a -> Cleared ss a -> Cleared ss' a.
  Proof.
    intros ss ss' a (Ha & Hs & Hd) (C1 & C2 & C3). unfold Cleared. rewrite Ha, Hd.
    split; [exact C1|]. split; [|exact C3]. intro k. rewrite Hs. apply C2.
  Qed.

  Lemma same_at_agree : forall ss ss' a, same_at ss ss' a -> st_trie (ss_st ss') a = st_trie (ss_st ss) a ->
    Agree ss a -> Agree ss' a.
  Proof.
    intros ss ss' a Sm Ht (A1 & A2). split.
    - destruct Sm as (Ha & _ & Hd). unfold dv. rewrite Ht, Ha, Hd. exact A1.
    - intro k. rewrite (same_at_fv _ _ _ k Sm). unfold flat. rewrite Ht. exact (A2 k).
  Qed.

  Lemma finalise_dirtyset : forall de s a,
    st_dirtyset (finalise de s) a = (N.ltb 0 (st_dirties s a) && is_some (st_objs s a)) || st_dirtyset s a.
  Proof.
    intros de s a. unfold finalise, clear_journal_and_refund. ss. destruct (st_journal s); reflexivity.
  Qed.

  Lemma finalise_dirties : forall de s a,
    st_dirties (finalise de s) a = match st_journal s with nil => st_dirties s a | _ => 0 end.
  Proof.
    intros de s a. unfold finalise, clear_journal_and_refund. ss. destruct (st_journal s); reflexivity.
  Qed.

  (** after Finalise an address that is still owed a write is pending *)
  Lemma finalise_due : forall de s a, Due (finalise de s) a -> st_pending (finalise de s) a = true.
  Proof.
    intros de s a ([Hp|Hd] & Ho); [exact Hp|].
    rewrite finalise_dirties in Hd. rewrite finalise_objs in Ho. rewrite finalise_pending.
    destruct (st_journal s); [|discriminate]. rewrite Hd in *.
    destruct (st_objs s a); [reflexivity | congruence].
  Qed.

  (** what Finalise does at one address *)
  Inductive fin_at (ss ss1 : sstate) (a : N) : Prop :=
  | fin_killed : forall o,
      st_objs (ss_st ss) a = Some o ->
      st_objs (ss_st ss1) a = Some (seto_deleted o true) -> st_pending (ss_st ss1) a = true ->
      Cleared ss1 a -> fin_at ss ss1 a
  | fin_moved : forall o,
      st_objs (ss_st ss) a = Some o ->
      st_objs (ss_st ss1) a = Some (obj_finalise o) -> st_pending (ss_st ss1) a = true ->
      same_at ss ss1 a -> fin_at ss ss1 a
  | fin_untouched :
      st_objs (ss_st ss1) a = st_objs (ss_st ss) a -> st_pending (ss_st ss1) a = st_pending (ss_st ss) a ->
      same_at ss ss1 a ->
      (N.ltb 0 (st_dirties (ss_st ss) a) = false \/ st_objs (ss_st ss) a = None) -> fin_at ss ss1 a.

  Lemma fin_cases : forall ss de a,
    fin_at ss (snap_after_finalise de (ss_st ss) (with_st ss (finalise de (ss_st ss)))) a.
  Proof.
    intros ss de a.
    pose proof (finalise_objs de (ss_st ss) a) as Ho. pose proof (finalise_pending de (ss_st ss) a) as Hp.
    pose proof (finalise_destruct de (ss_st ss) a) as Hd.
    destruct (N.ltb 0 (st_dirties (ss_st ss) a)) eqn:Ed;
      [destruct (st_objs (ss_st ss) a) as [o|] eqn:Eo;
         [destruct (o_suicided o || (de && obj_empty o)) eqn:Ek; [apply (fin_killed _ _ a o) | apply (fin_moved _ _ a o)]|]|].
    all: try apply fin_untouched; unfold same_at, Cleared;
      cbn [snap_after_finalise ss_acc ss_sto ss_st with_st]; unfold snap_kills; rewrite ?Ed, ?Eo, ?Ek; auto.
  Qed.

  (** that step, whatever the states are *)
  Lemma sync_finalise_step : forall ss ss1,
    Sync ss -> (forall a, st_trie (ss_st ss1) a = st_trie (ss_st ss) a) -> (forall a, fin_at ss ss1 a) -> Sync ss1.
  Proof.
    intros ss ss1 [Sag Slive Sdead Spend Sflush] Htr FC. constructor.
    - intro a. destruct (FC a) as [o Eo Ho Hp C | o Eo Ho Hp Sm | Ho Hp Sm Hn].
      + right. split; [exact C|]. split; [left; exact Hp | rewrite Ho; discriminate].
      + destruct (Sag a) as [A | (C & _)]; [left; exact (same_at_agree _ _ _ Sm (Htr a) A)|].
        right. split; [exact (same_at_cleared _ _ _ Sm C)|]. split; [left; exact Hp | rewrite Ho; discriminate].
      + destruct (Sag a) as [A | (C & ([D1|D1] & D2))]; [left; exact (same_at_agree _ _ _ Sm (Htr a) A) | |].
        * right. split; [exact (same_at_cleared _ _ _ Sm C)|]. split; [left; rewrite Hp; exact D1 | rewrite Ho; exact D2].
        * destruct Hn as [Hn|Hn]; congruence.
    - intros a o' Ho' Hdel' k. destruct (FC a) as [o Eo Ho Hp C | o Eo Ho Hp Sm | Ho Hp Sm Hn]; rewrite Ho in Ho'.
      + inversion Ho'; subst o'. discriminate Hdel'.
      + inversion Ho'; subst o'. rewrite (same_at_fv _ _ _ k Sm). exact (Slive a o Eo Hdel' k).
      + rewrite (same_at_fv _ _ _ k Sm). exact (Slive a o' Ho' Hdel' k).
    - intros a o' Ho' Hdel'. destruct (FC a) as [o Eo Ho Hp C | o Eo Ho Hp Sm | Ho Hp Sm Hn]; [exact C | |]; rewrite Ho in Ho'.
      + inversion Ho'; subst o'. exact (same_at_cleared _ _ _ Sm (Sdead a o Eo Hdel')).
      + exact (same_at_cleared _ _ _ Sm (Sdead a o' Ho' Hdel')).
    - intros a Hp'. destruct (FC a) as [o Eo Ho Hp C | o Eo Ho Hp Sm | Ho Hp Sm Hn]; rewrite Ho; try discriminate.
      apply Spend. rewrite <- Hp. exact Hp'.
    - intros a o' Ho' Hdel' Hp' Hdirt k. destruct (FC a) as [o Eo Ho Hp C | o Eo Ho Hp Sm | Ho Hp Sm Hn]; try congruence.
      rewrite Ho in Ho'. destruct Hn as [Hn|Hn]; [|congruence].
      rewrite Hp in Hp'. exact (Sflush a o' Ho' Hdel' Hp' Hn k).
  Qed.

  Lemma sync_finalise : forall ss de, Sync ss ->
    Sync (snap_after_finalise de (ss_st ss) (with_st ss (finalise de (ss_st ss)))).
  Proof.
    intros ss de SY. apply (sync_finalise_step ss _ SY); [|intro a; apply fin_cases].
    intro a. cbn [snap_after_finalise ss_st with_st]. rewrite finalise_trie. reflexivity.
  Qed.

  (** what the second half of IntermediateRoot (updateStateObject / deleteStateObject for the pending
      addresses) does at one address; [ss1] is the StateDB after the Finalise *)
  Inductive ir_at (ss1 ss2 : sstate) (a : N) : Prop :=
  | ir_written : forall o,
      st_objs (ss_st ss1) a = Some o -> o_deleted o = false ->
      st_objs (ss_st ss2) a = Some (obj_update_trie o) -> st_trie (ss_st ss2) a = Some (o_data (obj_update_trie o)) ->
      ss_acc ss2 a = Some (o_data (obj_update_trie o)) ->
      (forall k, ss_sto ss2 a k = snap_update_trie o (ss_sto ss1 a) k) ->
      st_destruct (ss_st ss2) a = st_destruct (ss_st ss1) a -> ir_at ss1 ss2 a
  | ir_deleted : forall o,
      st_objs (ss_st ss1) a = Some o -> o_deleted o = true ->
      st_objs (ss_st ss2) a = Some o -> st_trie (ss_st ss2) a = None -> same_at ss1 ss2 a -> ir_at ss1 ss2 a
  | ir_untouched :
      st_pending (ss_st ss1) a = false ->
      st_objs (ss_st ss2) a = st_objs (ss_st ss1) a -> st_trie (ss_st ss2) a = st_trie (ss_st ss1) a ->
      same_at ss1 ss2 a -> ir_at ss1 ss2 a.

  Lemma ir_cases : forall de s ss a,
    (st_pending (finalise de s) a = true -> st_objs (finalise de s) a <> None) ->
    ir_at (snap_after_finalise de s (with_st ss (finalise de s)))
          (snap_after_ir de s (with_st ss (intermediate_root de s))) a.
  Proof.
    intros de s ss a Hp.
    pose proof (intermediate_root_objs de s a) as Ho. pose proof (intermediate_root_trie de s a) as Ht.
    rewrite <- (finalise_trie de s) in Ht.
    pose proof (f_equal (fun f => f a) (intermediate_root_destruct de s)) as Hd.
    destruct (st_pending (finalise de s) a) eqn:Ep;
      [destruct (st_objs (finalise de s) a) as [o|] eqn:Eo; [|exfalso; apply Hp; reflexivity];
       destruct (o_deleted o) eqn:Edel; [apply (ir_deleted _ _ a o) | apply (ir_written _ _ a o)]
      |apply ir_untouched].
    all: unfold same_at; cbn [snap_after_ir snap_after_finalise ss_acc ss_sto ss_st with_st];
      rewrite ?Ep, ?Eo, ?Edel; auto.
  Qed.

  (** that step, whatever the states are: every address then agrees, and nothing is left to flush *)
  Lemma sync_ir_step : forall ss1 ss2,
    Sync ss1 -> (forall a, Due (ss_st ss1) a -> st_pending (ss_st ss1) a = true) ->
    (forall a, st_pending (ss_st ss2) a = false) -> (forall a, ir_at ss1 ss2 a) ->
    Sync ss2 /\ (forall a, Agree ss2 a) /\
    (forall a o, st_objs (ss_st ss2) a = Some o -> o_deleted o = false -> flushed o).
  Proof.
    intros ss1 ss2 [Sag Slive Sdead Spend Sflush] Hdue Hp IC.
    assert (AG : forall a, Agree ss2 a).
    { intro a. destruct (IC a) as [o Ho Hdel Ho2 Ht Ha Hs Hd | o Ho Hdel Ho2 Ht Sm | Hp1 Ho2 Ht Sm].
      - unfold Agree, dv, fv, flat. rewrite Ht, Ha, Hd. split; [reflexivity|].
        intro k. rewrite Hs. apply update_trie_storage. exact (Slive a o Ho Hdel k).
      - destruct (same_at_cleared _ _ _ Sm (Sdead a o Ho Hdel)) as (C1 & C2 & C3).
        unfold Agree, dv, fv, flat. rewrite Ht, C1, C3. split; [reflexivity|]. intro k. rewrite C2. reflexivity.
      - destruct (Sag a) as [A | (_ & D)]; [exact (same_at_agree _ _ _ Sm Ht A)|].
        rewrite (Hdue a D) in Hp1. discriminate. }
    assert (FL : forall a o, st_objs (ss_st ss2) a = Some o -> o_deleted o = false -> flushed o).
    { intros a o Ho' Hdel'.
      destruct (IC a) as [o1 Ho Hdel Ho2 Ht Ha Hs Hd | o1 Ho Hdel Ho2 Ht Sm | Hp1 Ho2 Ht Sm]; rewrite Ho2 in Ho'.
      - inversion Ho'; subst o. intro k. split; [reflexivity | discriminate].
      - congruence.
      - refine (Sflush a o Ho' Hdel' Hp1 _). destruct (N.ltb 0 (st_dirties (ss_st ss1) a)) eqn:E; [|reflexivity].
        rewrite Hdue in Hp1; [discriminate|]. split; [right; exact E | rewrite Ho'; discriminate]. }
    split; [|split; [exact AG | exact FL]]. constructor.
    - intro a. left. apply AG.
    - intros a o Ho' Hdel' k.
      destruct (IC a) as [o1 Ho Hdel Ho2 Ht Ha Hs Hd | o1 Ho Hdel Ho2 Ht Sm | Hp1 Ho2 Ht Sm]; rewrite Ho2 in Ho'.
      + inversion Ho'; subst o. unfold fv. rewrite Hs, Hd. apply update_trie_storage. exact (Slive a o1 Ho Hdel k).
      + congruence.
      + rewrite (same_at_fv _ _ _ k Sm). exact (Slive a o Ho' Hdel' k).
    - intros a o Ho' Hdel'.
      destruct (IC a) as [o1 Ho Hdel Ho2 Ht Ha Hs Hd | o1 Ho Hdel Ho2 Ht Sm | Hp1 Ho2 Ht Sm]; rewrite Ho2 in Ho'.
      + inversion Ho'; subst o. cbn in Hdel'. congruence.
      + inversion Ho'; subst o. exact (same_at_cleared _ _ _ Sm (Sdead a o1 Ho Hdel)).
      + exact (same_at_cleared _ _ _ Sm (Sdead a o Ho' Hdel')).
    - intros a Hp'. rewrite Hp in Hp'. discriminate.
    - intros a o Ho' Hdel' _ _. exact (FL a o Ho' Hdel').
  Qed.

  Lemma ir_sync : forall ss de, Sync ss ->
    let ss2 := snap_after_ir de (ss_st ss) (with_st ss (intermediate_root de (ss_st ss))) in
    Sync ss2 /\ (forall a, Agree ss2 a) /\
    (forall a o, st_objs (intermediate_root de (ss_st ss)) a = Some o -> o_deleted o = false -> flushed o).
  Proof.
    intros ss de SY ss2. pose proof (sync_finalise ss de SY) as SY1.
    apply (sync_ir_step (snap_after_finalise de (ss_st ss) (with_st ss (finalise de (ss_st ss)))) ss2 SY1).
    - exact (finalise_due de (ss_st ss)).
    - exact (intermediate_root_pending de (ss_st ss)).
    - intro a. apply ir_cases. exact (sy_pending _ SY1 a).
  Qed.

  Lemma sync_ir : forall ss de, Sync ss ->
    Sync (snap_after_ir de (ss_st ss) (with_st ss (intermediate_root de (ss_st ss)))).
  Proof. intros ss de SY. apply (ir_sync ss de SY). Qed.

  Lemma snap_after_ir_st : forall de s ss, ss_st (snap_after_ir de s ss) = ss_st ss.
  Proof. reflexivity. Qed.

  (** the snapshot data IntermediateRoot computes does not depend on the state it is stored with *)
  Lemma snap_after_ir_with_st : forall de s ss t t' a,
    ss_acc (snap_after_ir de s (with_st ss t)) a = ss_acc (snap_after_ir de s (with_st ss t')) a /\
    ss_sto (snap_after_ir de s (with_st ss t)) a = ss_sto (snap_after_ir de s (with_st ss t')) a.
  Proof.
    intros de s ss t t' a. unfold snap_after_ir. generalize (finalise de s). intro s1.
    cbn [ss_acc ss_sto snap_after_finalise with_st]. split; reflexivity.
  Qed.

  (** Commit's own updateTrie round after an IntermediateRoot that left every object flushed *)
  Lemma snap_after_commit_flushed : forall de s ss,
    (forall a o, st_objs (intermediate_root de s) a = Some o -> o_deleted o = false -> flushed o) ->
    forall a, ss_acc (snap_after_commit de s ss) a = ss_acc (snap_after_ir de s ss) a /\
              forall k, ss_sto (snap_after_commit de s ss) a k = ss_sto (snap_after_ir de s ss) a k.
  Proof.
    intros de s ss. unfold snap_after_commit. generalize (snap_after_ir de s ss) (intermediate_root de s).
    intros ss1 s1 FL a. cbn [ss_acc ss_sto]. split; [reflexivity|]. intro k.
    destruct (st_objs s1 a) as [o|] eqn:Eo; [|rewrite andb_false_r; reflexivity].
    destruct (o_deleted o) eqn:Edel; [rewrite andb_false_r; reflexivity|].
    destruct (st_dirtyset s1 a); [|reflexivity].
    exact (snap_update_trie_flushed (seto_dirtycode o false) _ (FL a o Eo Edel) k).
  Qed.

  Definition handover_layer (h : handover) : dlayer := mkDL 0 (ho_destructs h) (ho_accs h) (ho_stos h).

  (** Commit's own updateTrie round finds every object flushed by the IntermediateRoot before it, so
      the hand-over is the snapshot data IntermediateRoot left, and [Agree] at every address says
      that this data laid over [base] is the new account trie *)
  Lemma handover_content : forall ss de p, Sync ss -> ss_snap ss = Some p ->
    exists ss' h, scommit de ss = (ss', snd (commit de (ss_st ss)), Some h) /\ ho_parent h = p /\
      forall a, over_acc1 (handover_layer h) base a = snd (commit de (ss_st ss)) a /\
                forall k, over_sto1 (handover_layer h) (flat base) a k = flat (snd (commit de (ss_st ss))) a k.
  Proof.
    intros ss de p SY At. unfold scommit. rewrite At.
    pose proof (commit_trie de (ss_st ss)) as Ec. destruct (commit de (ss_st ss)) as [s' c]. cbn [snd] in *. subst c.
    eexists; eexists; split; [reflexivity|]. split; [reflexivity|].
    destruct (ir_sync ss de SY) as (_ & AG & FL). intro a. destruct (AG a) as (A1 & A2).
    unfold dv in A1. unfold fv in A2. rewrite snap_after_ir_st in A1, A2. cbn [ss_st with_st] in A1, A2.
    unfold handover_layer, over_acc1, over_sto1. cbn [dl_acc dl_sto dl_destruct ho_destructs ho_accs ho_stos].
    destruct (snap_after_commit_flushed de (ss_st ss) (with_st ss s') FL a) as (Ea & Es).
    destruct (snap_after_ir_with_st de (ss_st ss) ss s' (intermediate_root de (ss_st ss)) a) as (Wa & Ws).
    rewrite Ea, Wa. split; [symmetry; exact A1|]. intro k. rewrite Es, Ws. symmetry. exact (A2 k).
  Qed.

  (** Snapshot() touches the revision stack only *)
  Lemma sync_frame : forall ss ss', 
    st_trie (ss_st ss') = st_trie (ss_st ss) -> st_objs (ss_st ss') = st_objs (ss_st ss) ->
    st_pending (ss_st ss') = st_pending (ss_st ss) -> st_destruct (ss_st ss') = st_destruct (ss_st ss) ->
    st_dirties (ss_st ss') = st_dirties (ss_st ss) -> ss_acc ss' = ss_acc ss -> ss_sto ss' = ss_sto ss ->
    Sync ss -> Sync ss'.
  Proof.
    intros ss ss' Ht Ho Hp Hd Hdi Ha Hs [Sag Slive Sdead Spend Sflush].
    constructor; unfold Agree, Cleared, Due, dv, fv, flat in *; rewrite ?Ht, ?Ho, ?Hp, ?Hd, ?Hdi, ?Ha, ?Hs; auto.
  Qed.

  (** on [sstep], for a StateDB attached to a layer: Snapshot, Finalise and IntermediateRoot keep [Sync] *)
  Lemma sync_sstep_block_ops : forall ss o p, Sync ss -> ss_snap ss = Some p ->
    match o with OSnapshot | OFinalise _ | OIntermediateRoot _ => True | _ => False end ->
    Sync (fst (sstep ss o)) /\ ss_snap (fst (sstep ss o)) = Some p.
  Proof.
    intros ss o p SY At Ho. destruct o; try contradiction; [|unfold sstep..].
    - rewrite (sstep_snapshot ss p At). split; [apply (sync_frame ss); auto; reflexivity | exact At].
    - unfold step. cbn [fst]. rewrite At. cbn [fst]. split; [apply sync_finalise; auto|exact At].
    - unfold step. cbn [fst]. rewrite At. cbn [fst]. split; [apply sync_ir; auto|exact At].
  Qed.
End Bridge.
