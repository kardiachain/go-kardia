(** C14 — PruneState: what it deletes, exactly; what it leaves alone (frame lemmas); which
    records it protects; and the two refutations (round trip of priorities; pruning with a
    recurring membership). *)
From Coq Require Import List ZArith NArith Bool Lia.
From Kardia Require Import C14.Model C14.Proofs.
Import ListNotations.
Local Open Scope N_scope.

Lemma get_del_some {V} k k' (l : list (N * V)) v : get k (del k' l) = Some v -> get k l = Some v.
Proof.
  destruct (N.eq_dec k' k) as [->|E].
  - now rewrite get_del_eq.
  - now rewrite get_del_neq.
Qed.

(** [from == 0] -> from = 1 *)
Definition from1 (from : N) : N := if N.eqb from 0 then 1 else from.
(** heights whose state record PruneState(from, to) does not touch *)
Definition kept (from to h : N) : Prop := h < from1 from \/ to <= h.

Lemma from1_pos from : 1 <= from1 from.
Proof. unfold from1. destruct (N.eqb_spec from 0); lia. Qed.

Lemma heights_In from to h : In h (heights from to) <-> from <= h < to.
Proof.
  unfold heights. rewrite in_map_iff. split.
  - intros (j & <- & Hj). apply in_seq in Hj. lia.
  - intros Hh. exists (N.to_nat (h - from)). split; [lia|]. apply in_seq. lia.
Qed.

(** first loop: the state records of the heights in [hs] go, their LastValidatorsInfoHash values
    are collected *)
Lemma prune_fold hs : forall cs cache n cs1 cache1 n1,
  fold_left prune_step hs (cs, cache, n) = (cs1, cache1, n1) ->
  (forall h, ~ In h hs -> get h cs1 = get h cs) /\
  (forall k, In k cache1 <->
             In k cache \/ exists i r, In i hs /\ get i cs = Some r /\ r_last r = k).
Proof.
  induction hs as [|i t IH]; intros cs cache n cs1 cache1 n1 F; cbn [fold_left] in F.
  { injection F as <- <- <-. split; [reflexivity|].
    intros k. split; [now left | now intros [Hk|(i & r & [] & _)]]. }
  unfold prune_step at 2 in F. destruct (get i cs) as [r|] eqn:G; apply IH in F; destruct F as (A & C); split.
  - intros h Hn. rewrite A by (intros Hin; apply Hn; now right).
    apply get_del_neq. intros ->. apply Hn. now left.
  - intros k. rewrite C. cbn [In]. split.
    + intros [[<-|Hc]|(j & r' & Hj & Gj & Ej)].
      * right. exists i, r. auto.
      * now left.
      * right. exists j, r'. apply get_del_some in Gj. auto.
    + intros [Hc|(j & r' & Hj & Gj & Ej)]; [now left; right|].
      (* the record of [i] itself is in the cache now, every other one is still in the table *)
      destruct (N.eq_dec i j) as [<-|Ne]; [left; left; congruence|].
      right. exists j, r'. rewrite get_del_neq by exact Ne. destruct Hj; [contradiction | auto].
  - intros h Hn. apply A. intros Hin; apply Hn; now right.
  - intros k. rewrite C. cbn [In]. split.
    + intros [Hc|(j & r' & Hj & Gj & Ej)]; [now left|]. right. exists j, r'. auto.
    + intros [Hc|(j & r' & [<-|Hj] & Gj & Ej)]; [now left | congruence |]. right. exists j, r'. auto.
Qed.

Lemma unprotect_In cache o k : In k (unprotect cache o) <->
  In k cache /\ forall r, o = Some r -> ~ In k (rec_keys r).
Proof.
  unfold unprotect. destruct o as [r|].
  - rewrite filter_In, negb_true_iff, <- not_true_iff_false, existsb_exists.
    split; intros (Hc & Hn); (split; [exact Hc|]).
    + intros r' [= <-] Hk. apply Hn. exists k. split; [exact Hk | apply N.eqb_refl].
    + intros (x & Hx & Ex). apply N.eqb_eq in Ex. subst x. exact (Hn r eq_refl Hx).
  - split; [intros Hc; split; [exact Hc | discriminate] | now intros (Hc & _)].
Qed.

(** last loop: the records under the keys in [ks] go, the others stay *)
Lemma del_fold_spec ks : forall acc k, ~ In k ks ->
  get k (fst (fold_left del_step ks acc)) = get k (fst acc).
Proof.
  induction ks as [|j t IH]; intros [vi n] k Hn; cbn [fold_left fst]; auto.
  unfold del_step at 2. destruct (get j vi) eqn:G.
  - rewrite IH by (intros X; apply Hn; now right). cbn [fst].
    apply get_del_neq. intros ->. apply Hn. now left.
  - rewrite IH by (intros X; apply Hn; now right). reflexivity.
Qed.

Lemma del_fold_gone ks : forall acc k, In k ks -> get k (fst (fold_left del_step ks acc)) = None.
Proof.
  induction ks as [|j t IH]; intros [vi n] k Hk; [destruct Hk|]. cbn [fold_left].
  destruct (in_dec N.eq_dec k t) as [Hin|Hnot]; [now apply IH|].
  destruct Hk as [->|Hk]; [|contradiction].
  rewrite del_fold_spec by exact Hnot. unfold del_step.
  destruct (get k vi) eqn:G; cbn [fst]; [apply get_del_eq|exact G].
Qed.

(** PruneState in terms of its two loops *)
Lemma doomed_eq d from to cs1 cache n :
  fold_left prune_step (heights (from1 from) to) (d_cs d, [], 0) = (cs1, cache, n) ->
  doomed d from to = unprotect (unprotect cache (get 0 cs1)) (get to cs1).
Proof. unfold doomed. fold (from1 from). now intros ->. Qed.

Lemma prune_eq d from to d' a b : prune d from to = (d', a, b) ->
  d_pi d' = d_pi d /\ d_bm d' = d_bm d /\ d_ah d' = d_ah d /\ d_head d' = d_head d /\
  d_cs d' = fst (fst (fold_left prune_step (heights (from1 from) to) (d_cs d, [], 0))) /\
  d_vi d' = fst (fold_left del_step (doomed d from to) (d_vi d, 0)).
Proof.
  unfold prune, doomed. fold (from1 from).
  destruct (fold_left prune_step _ _) as [[cs1 cache] n].
  destruct (fold_left del_step _ _) as [vi1 m]. now intros [= <- <- <-].
Qed.

Theorem prune_frame d from to d' a b : prune d from to = (d', a, b) ->
  d_pi d' = d_pi d /\ d_bm d' = d_bm d /\ d_ah d' = d_ah d /\ d_head d' = d_head d /\
  (forall h, kept from to h -> get h (d_cs d') = get h (d_cs d)) /\
  (forall k, ~ In k (doomed d from to) -> get k (d_vi d') = get k (d_vi d)).
Proof.
  intros Hp. destruct (prune_eq _ _ _ _ _ _ Hp) as (Epi & Ebm & Eah & Ehd & Ecs & Evi).
  rewrite Ecs, Evi. repeat split; auto.
  - intros h Hk. destruct (fold_left prune_step _ _) as [[cs1 cache] n] eqn:F.
    apply (prune_fold _ _ _ _ _ _ _ F). rewrite heights_In. unfold kept in Hk. lia.
  - intros k Hk. now apply del_fold_spec.
Qed.

(** PruneState deletes the record under [k] iff [k] is the LastValidatorsInfoHash of a pruned
    height and neither the genesis record nor the record of height [to] names it *)
Theorem doomed_iff d from to k : In k (doomed d from to) <->
  ((exists i r, from1 from <= i < to /\ get i (d_cs d) = Some r /\ r_last r = k) /\
   (forall r, get 0 (d_cs d) = Some r -> ~ In k (rec_keys r)) /\
   (forall r, get to (d_cs d) = Some r -> ~ In k (rec_keys r))).
Proof.
  pose proof (from1_pos from) as Hf.
  destruct (fold_left prune_step (heights (from1 from) to) (d_cs d, [], 0)) as [[cs1 cache] n] eqn:F.
  rewrite (doomed_eq _ _ _ _ _ _ F). destruct (prune_fold _ _ _ _ _ _ _ F) as (A & C).
  rewrite (A 0), (A to), !unprotect_In, C by (rewrite heights_In; lia). split.
  - intros (([[]|(i & r & Hi & G & E)] & P0) & Pto). apply heights_In in Hi.
    split; [exists i, r|]; auto.
  - intros ((i & r & Hi & G & E) & P0 & Pto). apply heights_In in Hi.
    split; [split|]; auto. right. exists i, r. auto.
Qed.

Corollary doomed_spec d from to k : In k (doomed d from to) ->
  (exists i r, from1 from <= i < to /\ get i (d_cs d) = Some r /\ r_last r = k) /\
  (forall r, get 0 (d_cs d) = Some r -> ~ In k (rec_keys r)) /\
  (forall r, get to (d_cs d) = Some r -> ~ In k (rec_keys r)).
Proof. apply doomed_iff. Qed.

Theorem doomed_deleted d from to d' a b k : prune d from to = (d', a, b) ->
  In k (doomed d from to) -> get k (d_vi d') = None.
Proof.
  intros Hp Hk. destruct (prune_eq _ _ _ _ _ _ Hp) as (_ & _ & _ & _ & _ & ->).
  now apply del_fold_gone.
Qed.

(** a kept height whose three keys are not deleted loads exactly as before *)
Theorem prune_safe_cond d from to d' a b h r : prune d from to = (d', a, b) ->
  kept from to h -> get h (d_cs d) = Some r ->
  (forall k, In k (rec_keys r) -> ~ In k (doomed d from to)) ->
  load_at d' h = load_at d h /\ load_validators d' h = load_validators d h /\
  load_params d' h = load_params d h.
Proof.
  intros Hp Hk G Hnd. destruct (prune_frame _ _ _ _ _ _ Hp) as (Epi & Ebm & Eah & Ehd & Ecs & Evi).
  apply loads_at_ext; [now apply Ecs | now rewrite Ebm | now rewrite Eah |].
  rewrite G. intros r' [= <-]. split; [|now rewrite Epi]. intros k Hkin. now apply Evi, Hnd.
Qed.

(** the genesis state and the state at [to] are always safe *)
Theorem prune_safe_protected d from to d' a b h r : prune d from to = (d', a, b) ->
  h = 0 \/ h = to -> get h (d_cs d) = Some r ->
  load_at d' h = load_at d h /\ load_validators d' h = load_validators d h /\
  load_params d' h = load_params d h.
Proof.
  intros Hp Hh G. apply (prune_safe_cond d from to d' a b h r Hp); auto.
  - unfold kept. pose proof (from1_pos from). destruct Hh as [->| ->]; lia.
  - intros k Hk Hd. destruct (doomed_spec d from to k Hd) as (_ & P0 & Pto).
    destruct Hh as [->| ->]; [apply (P0 r G Hk) | apply (Pto r G Hk)].
Qed.

(** pruning everything below the head of a database whose head state is [to]: Load is unchanged *)
Corollary prune_below_head_safe d from d' a b n r : d_head d = Some n ->
  prune d from n = (d', a, b) -> get n (d_cs d) = Some r -> load d' = load d.
Proof.
  intros Hh Hp G. unfold load.
  destruct (prune_frame _ _ _ _ _ _ Hp) as (_ & _ & _ & Ehd & _). rewrite Ehd, Hh.
  apply (prune_safe_protected d from n d' a b n r Hp); auto.
Qed.

Section Loads.
Variable H : list (N * Z) -> N.
Variable PK : N -> N -> N.

(** every field except LastBlockTotalTx (never set by updateState, filled from the header by Load) *)
Definition state_eq (l s : cstate) : Prop :=
  chain_id l = chain_id s /\ initial_height l = initial_height s /\ last_height l = last_height s /\
  last_bid l = last_bid s /\ last_time l = last_time s /\ app_hash l = app_hash s /\
  params l = params s /\ lhvc l = lhvc s /\ lhcpc l = lhcpc s /\
  next_vals l = next_vals s /\ vals l = vals s /\ last_vals l = last_vals s.

Lemma state_eq_vals l s : state_eq l s -> vals l = vals s.
Proof. intros He. apply He. Qed.

Lemma state_eq_last_vals l s : state_eq l s -> last_vals l = last_vals s.
Proof. intros He. apply He. Qed.

(** the two statements of the property text; Properties.v repeats them word for word
    (C14_roundtrip_full_statement, C14_prune_safe_full_statement) *)
Definition roundtrip_full_statement : Prop :=
  forall g gb xs, genesis_ok g gb -> chain_wf g xs ->
    exists d l, boot_chain H PK g gb xs = Some (d, final_state g xs) /\ load d = LOk l /\
                state_eq l (final_state g xs).

Definition prune_safe_full_statement : Prop :=
  forall g gb xs d from to d' a b h, genesis_ok g gb -> chain_wf g xs ->
    boot_chain H PK g gb xs = Some (d, final_state g xs) ->
    prune d from to = (d', a, b) -> kept from to h ->
    load_at d' h = load_at d h /\ load_validators d' h = load_validators d h.

End Loads.

Definition mkv (a : N) (p q : Z) : validator := {| v_addr := a; v_power := p; v_prio := q |}.

(** static set {1:10, 2:20, 3:30}: NewValidatorSet(...) and its CopyIncrementProposerPriority(1),
    the values MakeGenesisState produces (printed by the real code) *)
Definition w_vals : valset :=
  {| vs_vals := [mkv 3 30 (-30); mkv 2 20 20; mkv 1 10 10]; vs_prop := mkv 3 30 (-30); vs_total := 60 |}.
Definition w_next : valset :=
  {| vs_vals := [mkv 3 30 0; mkv 2 20 (-20); mkv 1 10 20]; vs_prop := mkv 2 20 (-20); vs_total := 60 |}.
Definition w_bid (n : N) : blockid := {| b_hash := 1000 + n; b_total := 1; b_phash := 2000 + n |}.
Definition w_gb : block := {| k_height := 0; k_bid := w_bid 0; k_time := 1600000000; k_ntx := 0; k_app := 0 |}.
Definition w_g : cstate :=
  {| chain_id := 1; initial_height := 1; last_height := 0; last_total_tx := 0; last_bid := bid_zero;
     last_time := 1600000000; next_vals := w_next; vals := w_vals; last_vals := None;
     lhvc := 1; lhcpc := 1; app_hash := 0; params := 1 |}.

Lemma w_genesis_ok : genesis_ok w_g w_gb.
Proof. unfold genesis_ok, wfset. cbn. repeat split; auto. discriminate. Qed.

(** Save then Load of the genesis state alone already loses the priorities and the proposer of
    Validators: they come back as NextValidators', for EVERY hash function *)
Theorem roundtrip_refuted : forall H PK, ~ roundtrip_full_statement H PK.
Proof.
  intros H PK F. destruct (F w_g w_gb [] w_genesis_ok I) as (d & l & Hb & Hl & Hs).
  unfold boot_chain, save_chain, save in Hb. cbn in Hb. injection Hb as <-.
  unfold load, load_at, read_set in Hl. cbn in Hl.
  rewrite !N.eqb_refl in Hl. cbn in Hl. injection Hl as <-.
  apply state_eq_vals in Hs. cbn in Hs. discriminate.
Qed.

(** an explicit hash for the prune witness: positional encoding of the (address, power) list;
    the three memberships of the witness get three different keys *)
Fixpoint H0 (l : list (N * Z)) : N :=
  match l with
  | [] => 1
  | (a, p) :: t => (H0 t * 1000 + a) * 1000 + Z.to_N p
  end.
Definition PK0 (p lhc : N) : N := p * 1000 + lhc.

Definition sA : valset := {| vs_vals := [mkv 3 30 0; mkv 2 20 0; mkv 1 10 0]; vs_prop := mkv 3 30 0; vs_total := 60 |}.
Definition sB : valset :=
  {| vs_vals := [mkv 3 30 0; mkv 2 20 0; mkv 1 10 0; mkv 4 5 0]; vs_prop := mkv 3 30 0; vs_total := 65 |}.
Definition sC : valset :=
  {| vs_vals := [mkv 3 30 0; mkv 2 20 0; mkv 1 10 0; mkv 5 7 0; mkv 4 5 0]; vs_prop := mkv 3 30 0; vs_total := 72 |}.
Definition w_blk (n : N) : block :=
  {| k_height := n; k_bid := w_bid n; k_time := 1600000000 + n; k_ntx := 0; k_app := 7000 + n |}.
Definition w_step (n : N) (ch : bool) (vs : valset) : cstep := {| c_blk := w_blk n; c_changed := ch; c_next := vs |}.
(** +val4 at block 1, +val5 at block 3, -val5 at block 6 *)
Definition w_chain : list cstep :=
  [w_step 1 true sB; w_step 2 false sB; w_step 3 true sC; w_step 4 false sC; w_step 5 false sC;
   w_step 6 true sB; w_step 7 false sB; w_step 8 false sB].
Definition w_g2 : cstate :=
  {| chain_id := 1; initial_height := 1; last_height := 0; last_total_tx := 0; last_bid := bid_zero;
     last_time := 1600000000; next_vals := sA; vals := sA; last_vals := None;
     lhvc := 1; lhcpc := 1; app_hash := 0; params := 1 |}.

Lemma w_genesis2_ok : genesis_ok w_g2 w_gb.
Proof. unfold genesis_ok, wfset. cbn. repeat split; auto. discriminate. Qed.
Lemma w_chain_wf : chain_wf w_g2 w_chain.
Proof. unfold wfset. cbn. repeat split; auto. Qed.

Lemma w_keys_distinct : H0 (keylist sA) <> H0 (keylist sB) /\ H0 (keylist sB) <> H0 (keylist sC) /\
                        H0 (keylist sA) <> H0 (keylist sC).
Proof. vm_compute. repeat split; discriminate. Qed.

(** save heights 0..8, PruneState(1,5): LoadValidators(8) (kept, above [to]) fails although it
    worked before, and so does Load at the head.  Evaluated in one piece, so that the database
    itself is never written out. *)
Lemma w_prune_breaks :
  match boot_chain H0 PK0 w_g2 w_gb w_chain with
  | Some (d, _) => load_validators (fst (fst (prune d 1 5))) 8 <> load_validators d 8
  | None => False
  end.
Proof. vm_compute. discriminate. Qed.

Theorem prune_safe_refuted : ~ prune_safe_full_statement H0 PK0.
Proof.
  intros F. pose proof w_prune_breaks as E.
  destruct (boot_chain_inv H0 PK0 _ _ _ w_genesis2_ok w_chain_wf) as (d & _ & Hb & _).
  rewrite Hb in E.
  destruct (prune d 1 5) as [[d' a] b] eqn:Hp.
  destruct (F _ _ _ _ _ _ _ _ _ 8 w_genesis2_ok w_chain_wf Hb Hp) as (_ & Hv); [right; lia|].
  exact (E Hv).
Qed.
