(** C14 — Save followed by Load for ANY state (hand-built ones included: records without an
    initial height, arbitrary "last height changed" markers, any well-formed sets, any height),
    a refused and a repeated Save; prune safety at the level of chains, for any range; the
    big-endian height suffix of the state-record key is injective below 2^64. *)
From Coq Require Import List ZArith NArith Bool Lia.
From Kardia Require Import C14.Model C14.Proofs C14.ProofsPrune.
Import ListNotations.
Local Open Scope N_scope.

Section Saves.
Variable H : list (N * Z) -> N.
Variable PK : N -> N -> N.

Notation valset_key := (valset_key H).
Notation okey := (okey H).
Notation save := (save H PK).
Notation rec_of := (rec_of H PK).

(** a refused Save is no operation of the machine: the database and the node's state stay *)
Theorem refused_save_step m s : m_cur m = Some s -> last_height s <> 0 -> last_vals s = None ->
  step H PK m OSave = (m, ObSave None).
Proof.
  intros Hc Hh Hl. unfold step. rewrite Hc.
  assert (E : save (m_db m) s = None) by (apply save_refused_iff; auto).
  now rewrite E.
Qed.

(** saving the same state a second time changes no lookup *)
Lemma get_app_twice {V} k (a l : list (N * V)) : get k (a ++ a ++ l) = get k (a ++ l).
Proof. rewrite !get_app. now destruct (get k a). Qed.

Theorem resave_same_loads d s d1 d2 : save d s = Some d1 -> save d1 s = Some d2 ->
  (forall h, load_at d2 h = load_at d1 h) /\ (forall h, load_validators d2 h = load_validators d1 h) /\
  (forall h, load_params d2 h = load_params d1 h) /\ load d2 = load d1.
Proof.
  intros S1 S2. apply save_some in S1. apply save_some in S2. subst d1 d2.
  apply loads_ext; try reflexivity; intros k; cbn [saved d_cs d_vi d_pi].
  - exact (get_app_twice k [_] _).
  - apply get_app_twice.
  - exact (get_app_twice k [_] _).
Qed.

(** Whatever the state is (hand-built ones included) and whatever the database holds: if Save
    accepts it, the block meta of its height is in the block store, its current and next sets are
    well formed and — above height 0 — the records of its last and current set are there (they
    were written when those sets were the next set), then Load at that height returns the chain
    id, the initial height (1 for a record without one), the height, the next set exactly
    (priorities, proposer, cached total), both "last height changed" markers and the params as
    saved, the membership of the current and last set, and block id / time / tx count / app hash
    from the block store. *)
Theorem save_load_any d s d' m : save d s = Some d' ->
  get (last_height s) (d_bm d) = Some m -> m_height m = last_height s ->
  wfset (vals s) -> wfset (next_vals s) ->
  (0 < last_height s -> exists X, last_vals s = Some X /\ wfset X /\ has H (d_vi d) X /\
                                  has H (d_vi d) (vals s)) ->
  exists l, load_at d' (last_height s) = LOk l /\
    chain_id l = chain_id s /\
    initial_height l = (if N.eqb (initial_height s) 0 then 1 else initial_height s) /\
    last_height l = last_height s /\ last_total_tx l = m_ntx m /\
    last_bid l = (if N.ltb 0 (last_height s) then m_bid m else bid_zero) /\
    last_time l = m_time m /\
    app_hash l = (if N.ltb 0 (last_height s)
                  then match get (last_height s) (d_ah d) with Some a => a | None => 0 end else 0) /\
    params l = params s /\ lhvc l = lhvc s /\ lhcpc l = lhcpc s /\
    next_vals l = next_vals s /\
    (keylist (vals l) = keylist (vals s) \/ collision H) /\
    match last_vals l with
    | None => last_height s = 0
    | Some Y => exists X, last_vals s = Some X /\ (keylist Y = keylist X \/ collision H)
    end.
Proof.
  intros S Gm Hm Wv Wn Hpos. apply save_some in S. subst d'.
  set (d' := saved H PK d s).
  assert (Gr : get (last_height s) (d_cs d') = Some (rec_of s)) by apply get_put_eq.
  assert (Gp : get (PK (params s) (lhcpc s)) (d_pi d') = Some {| pi_params := params s; pi_lhc := lhcpc s |})
    by apply get_put_eq.
  assert (Rn : read_set d' (valset_key (next_vals s)) = inr (next_vals s, lhvc s)).
  { apply read_stored; [apply get_put_eq | exact Wn]. }
  destruct (N.eq_dec (last_height s) 0) as [E0|N0].
  - (* genesis: the current set is written below the next one *)
    destruct (read_has H d' (vals s)) as (cv & lc & Rv & Kv & Wc).
    { cbn [d' saved d_vi]. unfold written. rewrite E0. cbn [N.eqb app].
      apply has_put; [|exact Wn]. apply has_holds. exists (vals s). split; [now apply holds_put_self | reflexivity]. }
    eexists. split; [exact (load_at_rec H PK d' s m None _ _ _ _ _ Gr Gm Hm E0 Rv Rn Gp)|].
    cbn. repeat split; auto. now apply key_eq_keylist.
  - (* above: only the next set is written, over the records of the last and the current set *)
    assert (Hp : 0 < last_height s) by lia.
    destruct (Hpos Hp) as (X & EX & WX & HX & HV).
    assert (Evi : d_vi d' = put (valset_key (next_vals s))
                              {| vi_set := Some (next_vals s); vi_lhc := lhvc s |} (d_vi d)).
    { cbn [d' saved d_vi]. unfold written. now rewrite (proj2 (N.eqb_neq _ 0) N0). }
    destruct (read_has H d' X) as (lv & ll & Rl & Kl & Wl); [rewrite Evi; now apply has_put|].
    destruct (read_has H d' (vals s)) as (cv & lc & Rv & Kv & Wc); [rewrite Evi; now apply has_put|].
    eexists. split.
    { exact (load_at_rec H PK d' s m (Some lv) _ _ _ _ _ Gr Gm Hm
               (conj Hp (ex_intro _ X (ex_intro _ ll (conj EX Rl)))) Rv Rn Gp). }
    cbn. repeat split; auto.
    + now apply key_eq_keylist.
    + exists X. split; [exact EX|]. now apply key_eq_keylist.
Qed.

(** For every chain, every range and every kept height h: if no set that was LastValidators at a
    pruned height has the key of one of the three sets of state h (h other than 0 and [to], which
    PruneState protects itself), then Load / LoadValidators / LoadConsensusParams at h return
    what they returned before.  (With recurring memberships the hypothesis fails and so does the
    conclusion: C14_prune_safe_refuted.) *)
Theorem prune_safe_chain g gb xs d from to d' a b :
  genesis_ok g gb -> chain_wf g xs -> boot_chain H PK g gb xs = Some (d, final_state g xs) ->
  prune d from to = (d', a, b) ->
  forall sh, In sh (states g xs) -> kept from to (last_height sh) ->
    (last_height sh <> 0 -> last_height sh <> to ->
     forall sp X, In sp (states g xs) -> from1 from <= last_height sp < to -> last_vals sp = Some X ->
       valset_key X <> okey (last_vals sh) /\ valset_key X <> valset_key (vals sh) /\
       valset_key X <> valset_key (next_vals sh)) ->
    load_at d' (last_height sh) = load_at d (last_height sh) /\
    load_validators d' (last_height sh) = load_validators d (last_height sh) /\
    load_params d' (last_height sh) = load_params d (last_height sh).
Proof.
  intros Hg Hw Hb Hp sh Hsh Hk Hnr.
  destruct (boot_chain_inv H PK g gb xs Hg Hw) as (d0 & ss & Hb0 & I & Hin).
  rewrite Hb in Hb0. injection Hb0 as <-.
  destruct (i_all _ _ _ _ _ _ I sh (proj2 (Hin sh) Hsh)) as (Gsh & _).
  destruct (N.eq_dec (last_height sh) 0) as [E0|N0].
  { apply (prune_safe_protected d from to d' a b _ (rec_of sh) Hp); auto. }
  destruct (N.eq_dec (last_height sh) to) as [Et|Nt].
  { apply (prune_safe_protected d from to d' a b _ (rec_of sh) Hp); auto. }
  apply (prune_safe_cond d from to d' a b _ (rec_of sh) Hp Hk Gsh).
  intros k Hkin Hd.
  (* a doomed key is the LastValidatorsInfoHash of a pruned record, which is the record of a
     state [sp] of the chain *)
  destruct (doomed_spec d from to k Hd) as ((i & r & Hi & Gi & Er) & _ & _).
  destruct (i_named _ _ _ _ _ _ I i r Gi) as (sp & Hsp & Ehi & Erec).
  pose proof (from1_pos from) as Hf.
  destruct (i_all _ _ _ _ _ _ I sp Hsp) as (_ & Hl & _).
  destruct Hl as (X & EX & _); [lia|].
  assert (Ek : k = valset_key X) by now rewrite <- Er, Erec, (rec_of_last H PK _ _ EX).
  destruct (Hnr N0 Nt sp X (proj1 (Hin sp) Hsp)) as (A1 & A2 & A3); [lia|exact EX|].
  unfold rec_keys, Proofs.rec_of in Hkin. cbn [r_last r_vals r_next In] in Hkin.
  destruct Hkin as [E|[E|[E|[]]]]; congruence.
Qed.

(** ranges that start at the bottom *)
Theorem prune_safe_without_recurrence_proof :
  forall g gb xs d from to d' a b, genesis_ok g gb -> chain_wf g xs ->
    boot_chain H PK g gb xs = Some (d, final_state g xs) ->
    prune d from to = (d', a, b) -> from <= 1 ->
    (forall sp sh X, In sp (states g xs) -> In sh (states g xs) ->
        1 <= last_height sp < to -> to < last_height sh -> last_vals sp = Some X ->
        valset_key X <> okey (last_vals sh) /\ valset_key X <> valset_key (vals sh) /\
        valset_key X <> valset_key (next_vals sh)) ->
    forall sh, In sh (states g xs) -> kept from to (last_height sh) ->
      load_at d' (last_height sh) = load_at d (last_height sh) /\
      load_validators d' (last_height sh) = load_validators d (last_height sh).
Proof.
  intros g gb xs d from to d' a b Hg Hw Hb Hp Hfrom Hnr sh Hsh Hk.
  assert (F1 : from1 from = 1).
  { unfold from1. destruct (N.eqb_spec from 0); lia. }
  destruct (prune_safe_chain g gb xs d from to d' a b Hg Hw Hb Hp sh Hsh Hk) as (A & B & _); auto.
  intros N0 Nt sp X Hsp Hr EX. apply (Hnr sp sh X); auto; try lia.
  unfold kept in Hk. rewrite F1 in *. lia.
Qed.

End Saves.

Definition decode_be (l : list N) : N := fold_left (fun acc b => acc * 256 + b) l 0.

Lemma decode_be_app l x : decode_be (l ++ [x]) = decode_be l * 256 + x.
Proof. unfold decode_be. now rewrite fold_left_app. Qed.

Lemma decode_bytes_be n : forall h, decode_be (bytes_be n h) = h mod 256 ^ N.of_nat n.
Proof.
  induction n as [|n IH]; intros h.
  - cbn. now rewrite N.mod_1_r.
  - cbn [bytes_be]. rewrite decode_be_app, IH.
    rewrite Nat2N.inj_succ, N.pow_succ_r'.
    rewrite N.mod_mul_r by (try apply N.pow_nonzero; lia). lia.
Qed.

Theorem be64_injective h1 h2 : h1 < 2 ^ 64 -> h2 < 2 ^ 64 -> be64 h1 = be64 h2 -> h1 = h2.
Proof.
  intros B1 B2 E. apply (f_equal decode_be) in E. unfold be64 in E.
  rewrite !decode_bytes_be in E. change (256 ^ N.of_nat 8) with (2 ^ 64) in E.
  now rewrite !N.mod_small in E.
Qed.

(** ... and beyond 2^64 it is not (the parameter of the Go function is a uint64, so this cannot
    happen there; a key built from fewer bytes would make it happen below 2^64) *)
Example be64_wraps : be64 (2 ^ 64) = be64 0.
Proof. vm_compute. reflexivity. Qed.

Lemma be64_length h : length (be64 h) = 8%nat.
Proof.
  unfold be64. generalize 8%nat. intros n. revert h.
  induction n as [|n IH]; intros h; cbn [bytes_be]; auto.
  rewrite app_length, IH. cbn. lia.
Qed.
