(** C14 — tie of the store model to the Go SOURCE.
    [Generated/C14Source.v] is produced on every check by /verif/go2coq from /repo's working tree:
    every guard, stored constant and stored integer operand of saveState, saveValidatorsInfo,
    dbStore.PruneState / Load / LoadValidators / LoadConsensusParams / LoadStateFromDBOrGenesisDoc,
    loadStateAtHeight, LatestBlockState.ToProto, StateFromProto, MakeGenesisState, updateState
    (kai/state/cstate) and ValidatorSet.Hash / ToProto / ValidateBasic / IsNilOrEmpty,
    ValidatorSetFromProto, Validator.ValidateBasic, ValidatorFromProto (types).

    For [valset_key], [from_proto], [okey], [save], [read_set], [load_at], [load], the OBoot case of
    [step], [load_validators], [load_params], [prune_step], [unprotect], [del_step] and [from1] a
    twin [..._src] is written here whose every decision and every stored integer IS the generated
    expression applied to the model's own operands, and the model function is proved equal to its
    twin; the three Go loops are tied as the lists of indices they visit ([loop_src]: [heights]
    for PruneState), of [update_state] the field [lhvc], of MakeGenesisState the initial height.
    ([save_vinfo], [prune] / [doomed] as compositions of the tied steps, [write_block], the other
    cases of [step], [run], [get] / [put] / [del] and [be64] have no twin.)  The [_atoms] facts say
    WHAT each expression reads (field, getter, nil test).  A Go edit that flips a comparison, changes a constant (the 1 that
    replaces a zero InitialHeight / a zero [from]), swaps an operand (e.g. which getter feeds
    totalVotingPower) or renames/removes a guard re-opens these obligations.

    Not in the translated subset (so not tied here; the correspondence run covers them): which
    32-byte hash goes into which field of the state record and is read back from which field,
    the struct literals of updateState / Validator.ToProto, the byte-slice key constructors of
    rawdb/schema.go (the height suffix is compared byte for byte in the run, Model.be64). *)
From Coq Require Import List ZArith NArith Bool Lia String.
From Kardia Require Import Base.GoSem Base.Conj.
From Kardia Require Import Generated.C14Source.
From Kardia Require Import C14.Model C14.ProofsPrune.
Import ListNotations.
Local Open Scope N_scope.

(** uint64 operands of the model are [N]; the source expressions are over [Z] *)

Lemma N_eqb0 a : (Z.of_N a =? 0)%Z = (a =? 0).
Proof. exact (ZofN_eqb a 0). Qed.
Lemma N_gtb0 a : (Z.of_N a >? 0)%Z = (0 <? a).
Proof. exact (ZofN_gtb a 0). Qed.
Lemma N_ltbZ a b : (Z.of_N a <? Z.of_N b)%Z = (a <? b).
Proof. exact (ZofN_ltb a b). Qed.

Definition is_some {A} (o : option A) : bool := negb (is_none o).
Definition is_inl {A B} (x : A + B) : bool := match x with inl _ => true | inr _ => false end.
Definition u64 (z : Z) : Prop := (0 <= z < 18446744073709551616)%Z.

(** uint64 addition that does not wrap *)
Lemma go_add_N n k : (0 <= k)%Z -> u64 (Z.of_N n + k) -> Z.to_N (go_add U64 (Z.of_N n) k) = n + Z.to_N k.
Proof. intros Hk Hb. unfold go_add. rewrite wrap_id by (unfold in_range, u64 in *; lia). lia. Qed.

Section Tie.
Variable H : list (N * Z) -> N.
Variable PK : N -> N -> N.

Definition len (vs : valset) : Z := Z.of_nat (List.length (vs_vals vs)).

(** Hash(): [len(vs.Validators) == 0] -> zero hash *)
Definition valset_key_src (vs : valset) : N :=
  if types__ValidatorSet_Hash__if_len_vs_Validators_eq_0 (len vs) then 0 else H (keylist vs).
Lemma tie_valset_key vs : valset_key H vs = valset_key_src vs.
Proof.
  unfold valset_key, valset_key_src, types__ValidatorSet_Hash__if_len_vs_Validators_eq_0, len.
  destruct (vs_vals vs); reflexivity.
Qed.

(** IsNilOrEmpty() of a non-nil set *)
Definition is_nil_or_empty_src (vs : valset) : bool :=
  types__ValidatorSet_IsNilOrEmpty__ret_vs_eq_nil_or_len_vs_Validators_eq_0 false (len vs).
(** Validator.ValidateBasic() returns an error: nil / negative power / address not hex (the
    Address type is 20 bytes, its Hex() is always a hex address: the atom is [true]) *)
Definition validator_bad_src (v : validator) : bool :=
  types__Validator_ValidateBasic__if_v_eq_nil false
  || types__Validator_ValidateBasic__if_v_VotingPower_lt_0 (v_power v)
  || types__Validator_ValidateBasic__if_not_common_IsHexAddress_v_Address_Hex true.
(** ValidatorSet.ValidateBasic() as called at the end of ValidatorSetFromProto *)
Definition from_proto_src (vs : valset) : option valset :=
  if types__ValidatorSet_ValidateBasic__if_vs_IsNilOrEmpty (is_nil_or_empty_src vs) then None
  else if existsb validator_bad_src (vs_vals vs) then None
  else if validator_bad_src (vs_prop vs) then None
  else Some vs.

Lemma validator_bad_spec v : validator_bad_src v = negb (0 <=? v_power v)%Z.
Proof.
  unfold validator_bad_src, types__Validator_ValidateBasic__if_v_eq_nil,
    types__Validator_ValidateBasic__if_v_VotingPower_lt_0,
    types__Validator_ValidateBasic__if_not_common_IsHexAddress_v_Address_Hex.
  cbn [negb orb]. rewrite orb_false_r. now rewrite Z.leb_antisym, negb_involutive.
Qed.

Lemma forallb_not_bad l :
  forallb (fun v => (0 <=? v_power v)%Z) l = negb (existsb validator_bad_src l).
Proof.
  induction l as [|v t IH]; [reflexivity|]. cbn [forallb existsb].
  rewrite IH, validator_bad_spec, negb_orb, negb_involutive. reflexivity.
Qed.

Lemma tie_from_proto vs : from_proto vs = from_proto_src vs.
Proof.
  unfold from_proto, from_proto_src, types__ValidatorSet_ValidateBasic__if_vs_IsNilOrEmpty,
    is_nil_or_empty_src, types__ValidatorSet_IsNilOrEmpty__ret_vs_eq_nil_or_len_vs_Validators_eq_0, len.
  destruct (vs_vals vs) as [|v t] eqn:E; [reflexivity|].
  cbn [List.length orb]. change (Z.of_nat (S (List.length t)) =? 0)%Z with false. cbn iota.
  rewrite forallb_not_bad, validator_bad_spec.
  destruct (existsb validator_bad_src (v :: t)); cbn [negb andb]; [reflexivity|].
  destruct (0 <=? v_power (vs_prop vs))%Z; reflexivity.
Qed.

(** a Go counting loop as the list of the indices it visits; guard and step are the generated
    expressions *)
Fixpoint loop_src (guard : Z -> Z -> bool) (next : Z -> Z) (fuel : nat) (i t : Z) : list Z :=
  match fuel with
  | O => []
  | S f => if guard i t then i :: loop_src guard next f (next i) t else []
  end.

(** [for i := a; i < t; i++] at integer type [ty] visits a, a+1, .., t-1 *)
Lemma loop_count ty (n : nat) : forall i, in_range ty i -> in_range ty (i + Z.of_nat n) ->
  loop_src Z.ltb (fun j => go_add ty j 1) (S n) i (i + Z.of_nat n)%Z
  = map (fun k => (i + Z.of_nat k)%Z) (seq 0 n).
Proof.
  induction n as [|n IH]; intros i Hi Ht.
  - cbn [loop_src seq map]. now rewrite Z.add_0_r, Z.ltb_irrefl.
  - change (loop_src Z.ltb (fun j => go_add ty j 1) (S (S n)) i (i + Z.of_nat (S n))%Z)
      with (if (i <? i + Z.of_nat (S n))%Z
            then i :: loop_src Z.ltb (fun j => go_add ty j 1) (S n) (go_add ty i 1) (i + Z.of_nat (S n))%Z
            else []).
    rewrite (proj2 (Z.ltb_lt _ _)) by lia.
    assert (Hi1 : in_range ty (i + 1)) by (destruct ty; unfold in_range in *; lia).
    unfold go_add at 2. rewrite (wrap_id _ _ Hi1).
    replace (i + Z.of_nat (S n))%Z with (i + 1 + Z.of_nat n)%Z in * by lia. rewrite (IH _ Hi1 Ht).
    cbn [seq map]. rewrite <- seq_shift, map_map. f_equal; [lia|].
    apply map_ext. intros k. lia.
Qed.

(** saveValidatorsInfo: [valSet != nil] -> the set's hash and the set in the record, else the
    zero hash and a record without a set *)
Definition okey_src (o : option valset) : N :=
  if kai_state_cstate__saveValidatorsInfo__if_valSet_ne_nil (is_some o)
  then match o with Some vs => valset_key_src vs | None => 0 end else 0.
Lemma tie_okey o : okey H o = okey_src o.
Proof. destruct o as [vs|]; cbn; [apply tie_valset_key|reflexivity]. Qed.

(** ToProto: [state.LastBlockHeight == 0] -> zero hash, else LastValidators.Hash() (a nil
    dereference without LastValidators); saveState: [state.LastBlockHeight == 0] -> the three
    sets are written *)
Definition save_src (d : db) (s : cstate) : option db :=
  let h := Z.of_N (last_height s) in
  if negb (kai_state_cstate__LatestBlockState_ToProto__if_state_LastBlockHeight_eq_0 h)
     && is_none (last_vals s) then None else
  let '(k_last, k_vals, vi1) :=
    if kai_state_cstate__saveState__if_state_LastBlockHeight_eq_0 h then
      let '(kl, vi') := save_vinfo H (d_vi d) (lhvc s) (last_vals s) in
      let '(kv, vi'') := save_vinfo H vi' (lhvc s) (Some (vals s)) in
      (kl, kv, vi'')
    else (okey_src (last_vals s), valset_key_src (vals s), d_vi d) in
  let '(k_next, vi2) := save_vinfo H vi1 (lhvc s) (Some (next_vals s)) in
  let k_par := PK (params s) (lhcpc s) in
  Some {| d_cs := put (last_height s)
                      {| r_chain := chain_id s;
                         r_ih := Z.to_N (kai_state_cstate__LatestBlockState_ToProto__put_sm_InitialHeight
                                           (Z.of_N (initial_height s)));
                         r_last := k_last; r_vals := k_vals; r_next := k_next; r_params := k_par |} (d_cs d);
          d_vi := vi2;
          d_pi := put k_par {| pi_params := params s; pi_lhc := lhcpc s |} (d_pi d);
          d_bm := d_bm d; d_ah := d_ah d; d_head := d_head d |}.

Lemma tie_save d s : save H PK d s = save_src d s.
Proof.
  unfold save, save_src, kai_state_cstate__LatestBlockState_ToProto__if_state_LastBlockHeight_eq_0,
    kai_state_cstate__saveState__if_state_LastBlockHeight_eq_0,
    kai_state_cstate__LatestBlockState_ToProto__put_sm_InitialHeight.
  rewrite N_eqb0, N2Z.id, <- tie_okey, <- tie_valset_key. reflexivity.
Qed.

(** ReadConsensusValidatorsInfo + ValidatorSetFromProto: a missing record is dereferenced,
    [vp == nil] and a set ValidateBasic refuses are errors (panic(err)) *)
Definition read_set_src (d : db) (k : N) : pclass + (valset * N) :=
  match get k (d_vi d) with
  | None => inl PNil
  | Some r =>
    if types__ValidatorSetFromProto__if_vp_eq_nil (is_none (vi_set r)) then inl PBadSet else
    match vi_set r with
    | None => inl PBadSet
    | Some vs => match from_proto_src vs with
                 | None => inl PBadSet
                 | Some x => inr (x, vi_lhc r)
                 end
    end
  end.
Lemma tie_read_set d k : read_set d k = read_set_src d k.
Proof.
  unfold read_set, read_set_src, types__ValidatorSetFromProto__if_vp_eq_nil.
  destruct (get k (d_vi d)) as [r|]; [|reflexivity].
  destruct (vi_set r) as [vs|]; cbn [is_none]; [|reflexivity]. now rewrite tie_from_proto.
Qed.

Definition load_at_src (d : db) (h : N) : lres :=
  let sp := get h (d_cs d) in
  if kai_state_cstate__loadStateAtHeight__if_sp_eq_nil (is_none sp) then LEmpty else
  match sp with
  | None => LEmpty
  | Some r =>
    (* StateFromProto stores pb.InitialHeight; a zero is replaced by the constant 1 *)
    let ih0 := kai_state_cstate__StateFromProto__put_state_InitialHeight (Z.of_N (r_ih r)) in
    let ih := if kai_state_cstate__loadStateAtHeight__if_state_InitialHeight_eq_0 ih0
              then kai_state_cstate__loadStateAtHeight__put_state_InitialHeight else ih0 in
    let bm := get h (d_bm d) in
    if kai_state_cstate__loadStateAtHeight__if_blockMeta_eq_nil (is_none bm) then LPanic PNoMeta else
    match bm with
    | None => LPanic PNoMeta
    | Some m =>
      let lbh := kai_state_cstate__loadStateAtHeight__put_state_LastBlockHeight (Z.of_N (m_height m)) in
      let ntx := kai_state_cstate__loadStateAtHeight__put_state_LastBlockTotalTx (Z.of_N (m_ntx m)) in
      let bid := if kai_state_cstate__loadStateAtHeight__if_height_gt_0 (Z.of_N h) then m_bid m else bid_zero in
      let app := if kai_state_cstate__loadStateAtHeight__if_height_gt_0_2 (Z.of_N h)
                 then match get h (d_ah d) with Some a => a | None => 0 end else 0 in
      let lastv : pclass + option valset :=
        if kai_state_cstate__loadStateAtHeight__if_state_LastBlockHeight_gt_0 lbh then
          match read_set_src d (r_last r) with inl c => inl c | inr (x, _) => inr (Some x) end
        else inr None in
      match lastv with
      | inl c => LPanic c
      | inr lv =>
        match read_set_src d (r_vals r) with
        | inl c => LPanic c
        | inr (cv, _) =>
          match read_set_src d (r_next r) with
          | inl c => LPanic c
          | inr (nv, nlhc) =>
            let cp := get (r_params r) (d_pi d) in
            if kai_state_cstate__loadStateAtHeight__if_cparams_eq_nil (is_none cp) then LPanic PNoParams else
            match cp with
            | None => LPanic PNoParams
            | Some p =>
              LOk {| chain_id := r_chain r; initial_height := Z.to_N ih;
                     last_height := Z.to_N lbh; last_total_tx := Z.to_N ntx;
                     last_bid := bid; last_time := m_time m;
                     next_vals := nv; vals := cv; last_vals := lv;
                     lhvc := Z.to_N (kai_state_cstate__loadStateAtHeight__put_state_LastHeightValidatorsChanged
                                       (Z.of_N nlhc));
                     lhcpc := Z.to_N (kai_state_cstate__loadStateAtHeight__put_state_LastHeightConsensusParamsChanged
                                        (Z.of_N (pi_lhc p)));
                     app_hash := app; params := pi_params p |}
            end
          end
        end
      end
    end
  end.

Lemma tie_load_at d h : load_at d h = load_at_src d h.
Proof.
  unfold load_at, load_at_src,
    kai_state_cstate__loadStateAtHeight__if_sp_eq_nil,
    kai_state_cstate__StateFromProto__put_state_InitialHeight,
    kai_state_cstate__loadStateAtHeight__if_state_InitialHeight_eq_0,
    kai_state_cstate__loadStateAtHeight__put_state_InitialHeight,
    kai_state_cstate__loadStateAtHeight__if_blockMeta_eq_nil,
    kai_state_cstate__loadStateAtHeight__put_state_LastBlockHeight,
    kai_state_cstate__loadStateAtHeight__put_state_LastBlockTotalTx,
    kai_state_cstate__loadStateAtHeight__if_height_gt_0,
    kai_state_cstate__loadStateAtHeight__if_height_gt_0_2,
    kai_state_cstate__loadStateAtHeight__if_state_LastBlockHeight_gt_0,
    kai_state_cstate__loadStateAtHeight__if_cparams_eq_nil,
    kai_state_cstate__loadStateAtHeight__put_state_LastHeightValidatorsChanged,
    kai_state_cstate__loadStateAtHeight__put_state_LastHeightConsensusParamsChanged.
  destruct (get h (d_cs d)) as [r|]; cbn [is_none]; [|reflexivity].
  destruct (get h (d_bm d)) as [m|]; cbn [is_none]; [|reflexivity].
  rewrite !N_gtb0, N_eqb0, <- !tie_read_set.
  destruct (0 <? m_height m).
  - destruct (read_set d (r_last r)) as [c|[x l]]; [reflexivity|].
    destruct (read_set d (r_vals r)) as [c|[cv l2]]; [reflexivity|].
    destruct (read_set d (r_next r)) as [c|[nv nl]]; [reflexivity|].
    destruct (get (r_params r) (d_pi d)) as [p|]; cbn [is_none]; [|reflexivity].
    rewrite !N2Z.id. destruct (r_ih r =? 0); rewrite ?N2Z.id; reflexivity.
  - destruct (read_set d (r_vals r)) as [c|[cv l2]]; [reflexivity|].
    destruct (read_set d (r_next r)) as [c|[nv nl]]; [reflexivity|].
    destruct (get (r_params r) (d_pi d)) as [p|]; cbn [is_none]; [|reflexivity].
    rewrite !N2Z.id. destruct (r_ih r =? 0); rewrite ?N2Z.id; reflexivity.
Qed.

Definition is_lempty (r : lres) : bool := match r with LEmpty => true | _ => false end.
(** Load(): [state != nil] -> the state, else the empty state *)
Definition load_src (d : db) : lres :=
  match d_head d with
  | None => LPanic PNil
  | Some h => let r := load_at_src d h in
              if kai_state_cstate__dbStore_Load__if_state_ne_nil (negb (is_lempty r)) then r else LEmpty
  end.
Lemma tie_load d : load d = load_src d.
Proof.
  unfold load, load_src, kai_state_cstate__dbStore_Load__if_state_ne_nil.
  destruct (d_head d) as [h|]; [|reflexivity]. rewrite tie_load_at.
  destruct (load_at_src d h); reflexivity.
Qed.

(** LoadStateFromDBOrGenesisDoc: [state.IsEmpty()] -> MakeGenesisState + Save *)
Definition boot_src (m : machine) (g : cstate) : machine * obs :=
  match load_src (m_db m) with
  | LPanic c => (m, ObBoot (LPanic c))
  | r =>
    if kai_state_cstate__dbStore_LoadStateFromDBOrGenesisDoc__if_state_IsEmpty (is_lempty r) then
      match save_src (m_db m) g with
      | Some d' => ({| m_db := d'; m_cur := Some g |}, ObBoot (LOk g))
      | None => (m, ObBoot (LPanic PNil))
      end
    else match r with
         | LOk s => ({| m_db := m_db m; m_cur := Some s |}, ObBoot (LOk s))
         | _ => (m, ObBoot r)
         end
  end.
(** LoadValidators: [cstate == nil] -> ErrNoConsensusStateForHeight, [valInfo == nil] ->
    ErrNoValSetForHeight, otherwise ValidatorSetFromProto of the record named by
    LastValidatorsInfoHash *)
Definition load_validators_src (d : db) (h : N) : vres :=
  let cs := get h (d_cs d) in
  if kai_state_cstate__dbStore_LoadValidators__if_cstate_eq_nil (is_none cs) then VNoState else
  match cs with
  | None => VNoState
  | Some r =>
    let vi := get (r_last r) (d_vi d) in
    if kai_state_cstate__dbStore_LoadValidators__if_valInfo_eq_nil (is_none vi) then VNoSet else
    match vi with
    | None => VNoSet
    | Some vi => match read_set_src d (r_last r) with
                 | inl _ => VInvalid
                 | inr (x, _) => VOk x
                 end
    end
  end.
(** LoadConsensusParams: [params == nil] -> error *)
Definition load_params_src (d : db) (h : N) : pres :=
  match get h (d_cs d) with
  | None => PPanic
  | Some r =>
    let p := get (r_params r) (d_pi d) in
    if kai_state_cstate__dbStore_LoadConsensusParams__if_params_eq_nil (is_none p) then PErr else
    match p with None => PErr | Some p => POk (pi_params p) end
  end.
(** [from == 0] -> from = 1 *)
Definition from1_src (from : N) : N :=
  if kai_state_cstate__dbStore_PruneState__if_from_eq_0 (Z.of_N from)
  then Z.to_N kai_state_cstate__dbStore_PruneState__let_from else from.
(** first loop body: [state != nil] -> remember LastValidatorsInfoHash, delete (memorydb / a
    batch-less Delete never fails: [err != nil] is false), prunedStates++ *)
Definition prune_step_src (acc : list (N * srec) * list N * N) (i : N) : list (N * srec) * list N * N :=
  let '(cs, cache, n) := acc in
  let st := get i cs in
  if kai_state_cstate__dbStore_PruneState__if_state_ne_nil (is_some st) then
    match st with
    | None => acc
    | Some r =>
      if kai_state_cstate__dbStore_PruneState__if_err_ne_nil false then (del i cs, r_last r :: cache, n)
      else (del i cs, r_last r :: cache,
            Z.to_N (kai_state_cstate__dbStore_PruneState__set_prunedStates_op (Z.of_N n)))
    end
  else acc.
(** [genesisState != nil] / [nextState != nil]: the three hashes of that record leave the cache *)
Definition unprotect_src (guard : bool -> bool) (cache : list N) (o : option srec) : list N :=
  if guard (is_some o) then
    match o with
    | None => cache
    | Some r => filter (fun k => negb (existsb (N.eqb k) (rec_keys r))) cache
    end
  else cache.
(** last loop body: [valInfo != nil] -> delete, prunedValInfos++ *)
Definition del_step_src (acc : list (N * vinfo) * N) (k : N) : list (N * vinfo) * N :=
  let '(vi, n) := acc in
  let r := get k vi in
  if kai_state_cstate__dbStore_PruneState__if_valInfo_ne_nil (is_some r) then
    match r with
    | None => acc
    | Some _ => (del k vi, Z.to_N (kai_state_cstate__dbStore_PruneState__set_prunedValInfos_op (Z.of_N n)))
    end
  else acc.
End Tie.

Lemma tie_atoms :
  (types__ValidatorSet_Hash__if_len_vs_Validators_eq_0_atoms = ["len(vs.Validators) : int"]
   /\ types__ValidatorSet_IsNilOrEmpty__ret_vs_eq_nil_or_len_vs_Validators_eq_0_atoms
        = ["vs == nil : bool"; "len(vs.Validators) : int"]
   /\ types__ValidatorSet_ValidateBasic__if_vs_IsNilOrEmpty_atoms = ["vs.IsNilOrEmpty() : bool"]
   /\ types__Validator_ValidateBasic__if_v_eq_nil_atoms = ["v == nil : untyped bool"]
   /\ types__Validator_ValidateBasic__if_v_VotingPower_lt_0_atoms = ["v.VotingPower : int64"]
   /\ types__Validator_ValidateBasic__if_not_common_IsHexAddress_v_Address_Hex_atoms
        = ["common.IsHexAddress(v.Address.Hex()) : bool"]
   /\ types__ValidatorSetFromProto__if_vp_eq_nil_atoms = ["vp == nil : untyped bool"]
   /\ types__ValidatorSet_ToProto__put_vp_TotalVotingPower_atoms = ["vs.totalVotingPower : int64"]
   /\ types__ValidatorSetFromProto__put_vals_totalVotingPower_atoms = ["vp.GetTotalVotingPower() : int64"]
   /\ types__ValidatorFromProto__put_v_VotingPower_atoms = ["vp.GetVotingPower() : int64"]
   /\ types__ValidatorFromProto__put_v_ProposerPriority_atoms = ["vp.GetProposerPriority() : int64"]
   /\ types__ValidatorSet_ToProto__for_i_lt_len_vs_Validators_atoms = ["i : int"; "len(vs.Validators) : int"]
   /\ types__ValidatorSetFromProto__for_i_lt_len_vp_Validators_atoms = ["i : int"; "len(vp.Validators) : int"])%string
  /\
  (kai_state_cstate__saveValidatorsInfo__if_valSet_ne_nil_atoms = ["valSet != nil : untyped bool"]
   /\ kai_state_cstate__saveState__if_state_LastBlockHeight_eq_0_atoms = ["state.LastBlockHeight : uint64"]
   /\ kai_state_cstate__LatestBlockState_ToProto__if_state_LastBlockHeight_eq_0_atoms = ["state.LastBlockHeight : uint64"]
   /\ kai_state_cstate__LatestBlockState_ToProto__put_sm_InitialHeight_atoms = ["state.InitialHeight : uint64"]
   /\ kai_state_cstate__StateFromProto__put_state_InitialHeight_atoms = ["pb.InitialHeight : uint64"])%string
  /\
  (kai_state_cstate__loadStateAtHeight__if_sp_eq_nil_atoms = ["sp == nil : untyped bool"]
   /\ kai_state_cstate__loadStateAtHeight__if_state_InitialHeight_eq_0_atoms = ["state.InitialHeight : uint64"]
   /\ kai_state_cstate__loadStateAtHeight__put_state_InitialHeight_atoms = []
   /\ kai_state_cstate__loadStateAtHeight__if_blockMeta_eq_nil_atoms = ["blockMeta == nil : untyped bool"]
   /\ kai_state_cstate__loadStateAtHeight__put_state_LastBlockHeight_atoms = ["blockMeta.Header.Height : uint64"]
   /\ kai_state_cstate__loadStateAtHeight__put_state_LastBlockTotalTx_atoms = ["blockMeta.Header.NumTxs : uint64"]
   /\ kai_state_cstate__loadStateAtHeight__if_height_gt_0_atoms = ["height : uint64"]
   /\ kai_state_cstate__loadStateAtHeight__if_height_gt_0_2_atoms = ["height : uint64"]
   /\ kai_state_cstate__loadStateAtHeight__if_state_LastBlockHeight_gt_0_atoms = ["state.LastBlockHeight : uint64"]
   /\ kai_state_cstate__loadStateAtHeight__put_state_LastHeightValidatorsChanged_atoms
        = ["nValsInfo.LastHeightChanged : uint64"]
   /\ kai_state_cstate__loadStateAtHeight__if_cparams_eq_nil_atoms = ["cparams == nil : untyped bool"]
   /\ kai_state_cstate__loadStateAtHeight__put_state_LastHeightConsensusParamsChanged_atoms
        = ["cparams.LastHeightChanged : uint64"]
   /\ kai_state_cstate__dbStore_Load__if_state_ne_nil_atoms = ["state != nil : untyped bool"]
   /\ kai_state_cstate__dbStore_LoadStateFromDBOrGenesisDoc__if_state_IsEmpty_atoms = ["state.IsEmpty() : bool"]
   /\ kai_state_cstate__dbStore_LoadValidators__if_cstate_eq_nil_atoms = ["cstate == nil : untyped bool"]
   /\ kai_state_cstate__dbStore_LoadValidators__if_valInfo_eq_nil_atoms = ["valInfo == nil : untyped bool"]
   /\ kai_state_cstate__dbStore_LoadConsensusParams__if_params_eq_nil_atoms = ["params == nil : untyped bool"])%string
  /\
  (kai_state_cstate__dbStore_PruneState__if_from_eq_0_atoms = ["from : uint64"]
   /\ kai_state_cstate__dbStore_PruneState__let_from_atoms = []
   /\ kai_state_cstate__dbStore_PruneState__forinit_i_atoms = ["from : uint64"]
   /\ kai_state_cstate__dbStore_PruneState__for_i_lt_to_atoms = ["i : uint64"; "to : uint64"]
   /\ kai_state_cstate__dbStore_PruneState__set_i_op_atoms = ["i : uint64"]
   /\ kai_state_cstate__dbStore_PruneState__if_state_ne_nil_atoms = ["state != nil : untyped bool"]
   /\ kai_state_cstate__dbStore_PruneState__set_prunedStates_op_atoms = ["prunedStates : uint64"]
   /\ kai_state_cstate__dbStore_PruneState__if_genesisState_ne_nil_atoms = ["genesisState != nil : untyped bool"]
   /\ kai_state_cstate__dbStore_PruneState__if_nextState_ne_nil_atoms = ["nextState != nil : untyped bool"]
   /\ kai_state_cstate__dbStore_PruneState__if_valInfo_ne_nil_atoms = ["valInfo != nil : untyped bool"]
   /\ kai_state_cstate__dbStore_PruneState__set_prunedValInfos_op_atoms = ["prunedValInfos : uint64"]
   /\ kai_state_cstate__updateState__if_len_validatorUpdates_gt_0_atoms = ["len(validatorUpdates) : int"]
   /\ kai_state_cstate__updateState__set_lastHeightValsChanged_atoms = ["header.Height : uint64"]
   /\ kai_state_cstate__MakeGenesisState__if_genDoc_InitialHeight_eq_0_atoms = ["genDoc.InitialHeight : uint64"]
   /\ kai_state_cstate__MakeGenesisState__put_genDoc_InitialHeight_atoms = [])%string.
Proof. split_all; split_all; reflexivity. Qed.

Definition C14_source_tie_statement : Prop :=
  (forall H vs, valset_key H vs = valset_key_src H vs) /\
  (forall vs, from_proto vs = from_proto_src vs) /\
  (forall (vs : valset) (v : validator),
     types__ValidatorSetFromProto__put_vals_totalVotingPower
       (types__ValidatorSet_ToProto__put_vp_TotalVotingPower (vs_total vs)) = vs_total vs /\
     types__ValidatorFromProto__put_v_VotingPower (v_power v) = v_power v /\
     types__ValidatorFromProto__put_v_ProposerPriority (v_prio v) = v_prio v) /\
  (forall vs, (len vs < 9223372036854775807)%Z ->
     loop_src types__ValidatorSet_ToProto__for_i_lt_len_vs_Validators types__ValidatorSet_ToProto__set_i_op
              (S (List.length (vs_vals vs))) types__ValidatorSet_ToProto__forinit_i (len vs)
     = map Z.of_nat (seq 0 (List.length (vs_vals vs))) /\
     loop_src types__ValidatorSetFromProto__for_i_lt_len_vp_Validators types__ValidatorSetFromProto__set_i_op
              (S (List.length (vs_vals vs))) types__ValidatorSetFromProto__forinit_i (len vs)
     = map Z.of_nat (seq 0 (List.length (vs_vals vs)))) /\
  (forall H o, okey H o = okey_src H o) /\
  (forall H PK d s, save H PK d s = save_src H PK d s) /\
  (forall d k, read_set d k = read_set_src d k) /\
  (forall d h, load_at d h = load_at_src d h) /\
  (forall d, load d = load_src d) /\
  (forall H PK m g, step H PK m (OBoot g) = boot_src H PK m g) /\
  (forall d h, load_validators d h = load_validators_src d h) /\
  (forall d h, load_params d h = load_params_src d h) /\
  (forall from, from1 from = from1_src from) /\
  (forall from to, u64 (Z.of_N to) ->
     map Z.of_N (heights from to) =
     loop_src kai_state_cstate__dbStore_PruneState__for_i_lt_to kai_state_cstate__dbStore_PruneState__set_i_op
              (S (N.to_nat (to - from))) (kai_state_cstate__dbStore_PruneState__forinit_i (Z.of_N from)) (Z.of_N to)) /\
  (forall acc i, u64 (Z.of_N (snd acc) + 1) -> prune_step acc i = prune_step_src acc i) /\
  (forall cache o,
     unprotect cache o = unprotect_src kai_state_cstate__dbStore_PruneState__if_genesisState_ne_nil cache o /\
     unprotect cache o = unprotect_src kai_state_cstate__dbStore_PruneState__if_nextState_ne_nil cache o) /\
  (forall acc k, u64 (Z.of_N (snd acc) + 1) -> del_step acc k = del_step_src acc k) /\
  (forall s b nvs nupd, u64 (Z.of_N (k_height b) + 2) ->
     lhvc (update_state s b (kai_state_cstate__updateState__if_len_validatorUpdates_gt_0 nupd) nvs) =
     if (0 <? nupd)%Z then Z.to_N (kai_state_cstate__updateState__set_lastHeightValsChanged (Z.of_N (k_height b)))
     else lhvc s) /\
  (forall ih : N,
     Z.to_N (if kai_state_cstate__MakeGenesisState__if_genDoc_InitialHeight_eq_0 (Z.of_N ih)
             then kai_state_cstate__MakeGenesisState__put_genDoc_InitialHeight else Z.of_N ih) <> 0) /\
  (types__ValidatorSet_Hash__if_len_vs_Validators_eq_0_atoms = ["len(vs.Validators) : int"]%string
   /\ types__Validator_ValidateBasic__if_v_VotingPower_lt_0_atoms = ["v.VotingPower : int64"]%string
   /\ types__ValidatorSetFromProto__put_vals_totalVotingPower_atoms = ["vp.GetTotalVotingPower() : int64"]%string
   /\ types__ValidatorSet_ToProto__put_vp_TotalVotingPower_atoms = ["vs.totalVotingPower : int64"]%string
   /\ types__ValidatorFromProto__put_v_VotingPower_atoms = ["vp.GetVotingPower() : int64"]%string
   /\ types__ValidatorFromProto__put_v_ProposerPriority_atoms = ["vp.GetProposerPriority() : int64"]%string
   /\ kai_state_cstate__saveState__if_state_LastBlockHeight_eq_0_atoms = ["state.LastBlockHeight : uint64"]%string
   /\ kai_state_cstate__LatestBlockState_ToProto__if_state_LastBlockHeight_eq_0_atoms = ["state.LastBlockHeight : uint64"]%string
   /\ kai_state_cstate__loadStateAtHeight__if_state_InitialHeight_eq_0_atoms = ["state.InitialHeight : uint64"]%string
   /\ kai_state_cstate__loadStateAtHeight__put_state_LastBlockHeight_atoms = ["blockMeta.Header.Height : uint64"]%string
   /\ kai_state_cstate__loadStateAtHeight__if_height_gt_0_atoms = ["height : uint64"]%string
   /\ kai_state_cstate__loadStateAtHeight__if_height_gt_0_2_atoms = ["height : uint64"]%string
   /\ kai_state_cstate__loadStateAtHeight__if_state_LastBlockHeight_gt_0_atoms = ["state.LastBlockHeight : uint64"]%string
   /\ kai_state_cstate__loadStateAtHeight__put_state_LastHeightValidatorsChanged_atoms
        = ["nValsInfo.LastHeightChanged : uint64"]%string
   /\ kai_state_cstate__loadStateAtHeight__put_state_LastHeightConsensusParamsChanged_atoms
        = ["cparams.LastHeightChanged : uint64"]%string
   /\ kai_state_cstate__dbStore_PruneState__if_from_eq_0_atoms = ["from : uint64"]%string
   /\ kai_state_cstate__dbStore_PruneState__forinit_i_atoms = ["from : uint64"]%string
   /\ kai_state_cstate__dbStore_PruneState__for_i_lt_to_atoms = ["i : uint64"; "to : uint64"]%string
   /\ kai_state_cstate__updateState__set_lastHeightValsChanged_atoms = ["header.Height : uint64"]%string).

Lemma C14_source_tie_proof : C14_source_tie_statement.
Proof.
  (* the last conjunct, what the expressions read, is a conjunction of its own: closed facts *)
  unfold C14_source_tie_statement. split_all; try exact eq_refl.
  - exact tie_valset_key.
  - exact tie_from_proto.
  - (* the proto round trip of the integer fields: ToProto stores [vs.totalVotingPower],
       ValidatorSetFromProto stores [vp.GetTotalVotingPower()], ValidatorFromProto stores
       [vp.GetVotingPower()] and [vp.GetProposerPriority()] — each unchanged, which is why the
       model keeps the set as it is in the record *)
    repeat split.
  - (* both conversion loops visit every index 0 .. len-1 once *)
    intros vs Hb. unfold len in Hb.
    split; refine (loop_count I64 _ 0 _ _); unfold in_range; lia.
  - exact tie_okey.
  - exact tie_save.
  - exact tie_read_set.
  - exact tie_load_at.
  - exact tie_load.
  - intros H PK m g.
    unfold step, boot_src, kai_state_cstate__dbStore_LoadStateFromDBOrGenesisDoc__if_state_IsEmpty.
    rewrite <- tie_load, <- tie_save. destruct (load (m_db m)); reflexivity.
  - intros d h.
    unfold load_validators, load_validators_src, kai_state_cstate__dbStore_LoadValidators__if_cstate_eq_nil,
      kai_state_cstate__dbStore_LoadValidators__if_valInfo_eq_nil.
    destruct (get h (d_cs d)) as [r|]; cbn [is_none]; [|reflexivity].
    rewrite <- tie_read_set. unfold read_set.
    destruct (get (r_last r) (d_vi d)) as [vi|]; cbn [is_none]; [|reflexivity].
    destruct (vi_set vi) as [vs|]; [|reflexivity]. destruct (from_proto vs); reflexivity.
  - intros d h.
    unfold load_params, load_params_src, kai_state_cstate__dbStore_LoadConsensusParams__if_params_eq_nil.
    destruct (get h (d_cs d)) as [r|]; [|reflexivity].
    destruct (get (r_params r) (d_pi d)); reflexivity.
  - intros from.
    unfold from1, from1_src, kai_state_cstate__dbStore_PruneState__if_from_eq_0,
      kai_state_cstate__dbStore_PruneState__let_from. now rewrite N_eqb0.
  - (* [for i := from; i < to; i++]: exactly the heights the model walks *)
    intros from to Hto. unfold heights. rewrite map_map.
    destruct (N.le_gt_cases from to) as [Hle|Hgt].
    + replace (Z.of_N to) with (Z.of_N from + Z.of_nat (N.to_nat (to - from)))%Z in * by lia.
      etransitivity; [|symmetry; refine (loop_count U64 _ (Z.of_N from) _ _)].
      * apply map_ext. intros k. lia.
      * unfold in_range, u64 in *. lia.
      * unfold in_range, u64 in *. lia.
    + replace (to - from) with 0 by lia. cbn [N.to_nat seq map loop_src].
      unfold kai_state_cstate__dbStore_PruneState__for_i_lt_to, kai_state_cstate__dbStore_PruneState__forinit_i.
      now rewrite (proj2 (Z.ltb_ge _ _)) by lia.
  - intros [[cs cache] n] i. cbn [snd]. intros Hn.
    unfold prune_step, prune_step_src, kai_state_cstate__dbStore_PruneState__if_state_ne_nil,
      kai_state_cstate__dbStore_PruneState__if_err_ne_nil, kai_state_cstate__dbStore_PruneState__set_prunedStates_op.
    destruct (get i cs) as [r|]; cbn [is_some is_none negb]; [|reflexivity].
    now rewrite go_add_N by (assumption || lia).
  - intros cache o. destruct o; split; reflexivity.
  - intros [vi n] k. cbn [snd]. intros Hn.
    unfold del_step, del_step_src, kai_state_cstate__dbStore_PruneState__if_valInfo_ne_nil,
      kai_state_cstate__dbStore_PruneState__set_prunedValInfos_op.
    destruct (get k vi) as [r|]; cbn [is_some is_none negb]; [|reflexivity].
    now rewrite go_add_N by (assumption || lia).
  - (* updateState: [len(validatorUpdates) > 0] -> lastHeightValsChanged = header.Height + 2 (uint64) *)
    intros s b nvs nupd Hb.
    unfold update_state, kai_state_cstate__updateState__if_len_validatorUpdates_gt_0,
      kai_state_cstate__updateState__set_lastHeightValsChanged. cbn [lhvc].
    rewrite Z.gtb_ltb. destruct (0 <? nupd)%Z; [|reflexivity]. now rewrite go_add_N by (assumption || lia).
  - (* MakeGenesisState: [genDoc.InitialHeight == 0] -> 1, so a genesis state never has a zero
       initial height (genesis_ok) *)
    intros ih.
    unfold kai_state_cstate__MakeGenesisState__if_genDoc_InitialHeight_eq_0,
      kai_state_cstate__MakeGenesisState__put_genDoc_InitialHeight.
    rewrite N_eqb0. destruct (N.eqb_spec ih 0); [discriminate|]. now rewrite N2Z.id.
Qed.
