(** C14 — what Load returns after a chain was saved, exactly.
    The known finding (validator records keyed by address+power only) loses the priorities and the
    proposer of Validators / LastValidators exactly when a LATER record is written under the same
    key.  [loaded_as s] is the state that comes back; the partial round trip, the full round trip
    when the three sets of the final state have three different keys ([state_eq], the property as
    stated), and the overwritten current set of a static membership are read off it.  So the full
    statement fails only through key reuse between the sets of one state (a membership that
    stays, or returns within two blocks), and C14_roundtrip_refuted's witness is of that kind. *)
From Coq Require Import List ZArith NArith Bool Lia.
From Kardia Require Import C14.Model C14.Proofs C14.ProofsPrune.
Import ListNotations.
Local Open Scope N_scope.

Section Exact.
Variable H : list (N * Z) -> N.
Variable PK : N -> N -> N.

Notation valset_key := (valset_key H).

(** [loaded_as s] is the state Load returns after the chain ending in [s] was saved: everything
    as saved except that a set whose record key is shared with a set written later comes back as
    that later set — the next set in place of the current one when their keys agree; the next
    set, else the current set, in place of the last one. *)
Definition loaded_as (s : cstate) : cstate :=
  let kn := valset_key (next_vals s) in
  let kv := valset_key (vals s) in
  {| chain_id := chain_id s; initial_height := initial_height s; last_height := last_height s;
     last_total_tx := last_total_tx s; last_bid := last_bid s; last_time := last_time s;
     next_vals := next_vals s;
     vals := if N.eqb kv kn then next_vals s else vals s;
     last_vals := match last_vals s with
                  | None => None
                  | Some X => Some (if N.eqb (valset_key X) kn then next_vals s
                                    else if N.eqb (valset_key X) kv then vals s else X)
                  end;
     lhvc := lhvc s; lhcpc := lhcpc s; app_hash := app_hash s; params := params s |}.

Lemma load_characterised p0 d s ss : inv H PK p0 d s ss ->
  exists l, load d = LOk l /\ state_eq l (loaded_as s).
Proof.
  intros [Ihead (m & Gm & Hmh & Hmb & Hmt) Iapp (Wv & Wn & Hih & Hz) Inext Ivals Ilast Ipar Iin _ Iall _].
  destruct (Iall s Iin) as (Hc & Hl & _).
  destruct (read_holds _ _ _ Ivals) as (lc & Rv).
  pose proof (read_stored d _ _ _ Inext Wn) as Rn.
  assert (Eih : (if N.eqb (initial_height s) 0 then 1 else initial_height s) = initial_height s).
  { destruct (N.eqb_spec (initial_height s) 0); congruence. }
  unfold load. rewrite Ihead.
  destruct (N.eq_dec (last_height s) 0) as [E0|N0].
  - destruct (Hz E0) as (Hb0 & Hl0 & Ha0).
    assert (Hlt : N.ltb 0 (last_height s) = false) by now rewrite E0.
    eexists. split; [exact (load_at_rec H PK d s m None _ _ _ _ _ Hc Gm Hmh E0 Rv Rn Ipar)|].
    unfold state_eq, loaded_as. cbn. rewrite Hl0, Hlt. repeat split; auto.
  - assert (Hpos : 0 < last_height s) by lia.
    destruct (Hl Hpos) as (X & HX & _). destruct (Ilast X HX) as (_ & Hh).
    destruct (read_holds _ _ _ Hh) as (ll & Rl).
    eexists. split.
    { exact (load_at_rec H PK d s m (Some _) _ _ _ _ _ Hc Gm Hmh
               (conj Hpos (ex_intro _ X (ex_intro _ ll (conj HX Rl)))) Rv Rn Ipar). }
    unfold state_eq, loaded_as. cbn. rewrite HX, (Iapp Hpos), (proj2 (N.ltb_lt _ _) Hpos).
    repeat split; auto.
Qed.

(** the chain theorem: what Load returns, and that the three sets of the final state are well formed *)
Lemma chain_load g gb xs : genesis_ok g gb -> chain_wf g xs ->
  exists d l, boot_chain H PK g gb xs = Some (d, final_state g xs) /\ load d = LOk l /\
              state_eq l (loaded_as (final_state g xs)) /\
              wfset (vals (final_state g xs)) /\ wfset (next_vals (final_state g xs)) /\
              (forall X, last_vals (final_state g xs) = Some X -> wfset X).
Proof.
  intros Hg Hw. destruct (boot_chain_inv H PK g gb xs Hg Hw) as (d & ss & Hb & I & _).
  destruct (load_characterised _ _ _ _ I) as (l & Hl & He). exists d, l.
  destruct (i_wf _ _ _ _ _ _ I) as (Wv & Wn & _).
  repeat (split; [assumption|]). intros X HX. apply (i_last _ _ _ _ _ _ I X HX).
Qed.

Theorem roundtrip_characterised g gb xs : genesis_ok g gb -> chain_wf g xs ->
  exists d l, boot_chain H PK g gb xs = Some (d, final_state g xs) /\ load d = LOk l /\
              state_eq l (loaded_as (final_state g xs)).
Proof.
  intros Hg Hw. destruct (chain_load g gb xs Hg Hw) as (d & l & Hb & Hl & He & _). now exists d, l.
Qed.

(** when the three sets have three keys, nothing was overwritten *)
Lemma loaded_as_fresh s : valset_key (vals s) <> valset_key (next_vals s) ->
  (forall X, last_vals s = Some X ->
     valset_key X <> valset_key (vals s) /\ valset_key X <> valset_key (next_vals s)) ->
  loaded_as s = s.
Proof.
  intros Kv Kl. unfold loaded_as. rewrite (proj2 (N.eqb_neq _ _) Kv).
  destruct s as [ci ih lh lt lb ltm nv cv [X|] lc lp ah pa]; cbn in *; [|reflexivity].
  destruct (Kl X eq_refl) as (K1 & K2).
  now rewrite (proj2 (N.eqb_neq _ _) K1), (proj2 (N.eqb_neq _ _) K2).
Qed.

Theorem roundtrip_full_fresh g gb xs : genesis_ok g gb -> chain_wf g xs ->
  valset_key (vals (final_state g xs)) <> valset_key (next_vals (final_state g xs)) ->
  (forall X, last_vals (final_state g xs) = Some X ->
     valset_key X <> valset_key (vals (final_state g xs)) /\
     valset_key X <> valset_key (next_vals (final_state g xs))) ->
  exists d l, boot_chain H PK g gb xs = Some (d, final_state g xs) /\ load d = LOk l /\
              state_eq l (final_state g xs).
Proof.
  intros Hg Hw Kv Kl. destruct (roundtrip_characterised g gb xs Hg Hw) as (d & l & Hb & Hl & He).
  rewrite (loaded_as_fresh _ Kv Kl) in He. now exists d, l.
Qed.

(** ... and when the current set has the key of the next set, Load returns the NEXT set in its
    place (the record was overwritten by Save itself) *)
Theorem roundtrip_vals_overwritten g gb xs : genesis_ok g gb -> chain_wf g xs ->
  valset_key (vals (final_state g xs)) = valset_key (next_vals (final_state g xs)) ->
  exists d l, boot_chain H PK g gb xs = Some (d, final_state g xs) /\ load d = LOk l /\
              vals l = next_vals (final_state g xs).
Proof.
  intros Hg Hw Ek. destruct (roundtrip_characterised g gb xs Hg Hw) as (d & l & Hb & Hl & He).
  exists d, l. split; [exact Hb|]. split; [exact Hl|].
  rewrite (state_eq_vals _ _ He). cbn [loaded_as vals]. now rewrite Ek, N.eqb_refl.
Qed.

(** what Load restores of a saved state [s] whatever the keys of its sets are: everything but
    LastBlockTotalTx (as in [state_eq]) and the priorities and the proposer of Validators and
    LastValidators *)
Definition restored (s l : cstate) : Prop :=
  chain_id l = chain_id s /\ initial_height l = initial_height s /\ last_height l = last_height s /\
  last_bid l = last_bid s /\ last_time l = last_time s /\ app_hash l = app_hash s /\
  params l = params s /\ lhvc l = lhvc s /\ lhcpc l = lhcpc s /\
  next_vals l = next_vals s /\
  (keylist (vals l) = keylist (vals s) \/ collision H) /\
  match last_vals s, last_vals l with
  | None, None => True
  | Some a, Some b => keylist b = keylist a \/ collision H
  | _, _ => False
  end.

(** a set that comes back in place of another has its key: same addresses and powers, or a
    collision *)
Lemma restored_loaded_as s l : wfset (vals s) -> wfset (next_vals s) ->
  (forall X, last_vals s = Some X -> wfset X) -> state_eq l (loaded_as s) -> restored s l.
Proof.
  intros Wv Wn Wl He. unfold restored.
  rewrite (state_eq_vals _ _ He), (state_eq_last_vals _ _ He). cbn [loaded_as vals last_vals].
  repeat split; try apply He.
  - destruct (N.eqb_spec (valset_key (vals s)) (valset_key (next_vals s))); [|now left].
    apply key_eq_keylist; auto.
  - destruct (last_vals s) as [X|]; [|exact I]. specialize (Wl X eq_refl).
    destruct (N.eqb_spec (valset_key X) (valset_key (next_vals s))); [now apply key_eq_keylist|].
    destruct (N.eqb_spec (valset_key X) (valset_key (vals s))); [now apply key_eq_keylist | now left].
Qed.

Theorem roundtrip_partial g gb xs : genesis_ok g gb -> chain_wf g xs ->
  exists d l, boot_chain H PK g gb xs = Some (d, final_state g xs) /\ load d = LOk l /\
              restored (final_state g xs) l.
Proof.
  intros Hg Hw. destruct (chain_load g gb xs Hg Hw) as (d & l & Hb & Hl & He & Wv & Wn & Wl).
  exists d, l. split; [exact Hb|]. split; [exact Hl|]. now apply restored_loaded_as.
Qed.

End Exact.

(** the hypotheses are satisfiable: genesis sA, +val4 at block 1, +val5 at block 2 — the final
    state has LastValidators sA, Validators sB, NextValidators sC: three different keys *)
Definition w_fresh_chain : list cstep := [w_step 1 true sB; w_step 2 true sC].
Lemma w_fresh_ok : genesis_ok w_g2 w_gb /\ chain_wf w_g2 w_fresh_chain /\
  valset_key H0 (vals (final_state w_g2 w_fresh_chain)) <> valset_key H0 (next_vals (final_state w_g2 w_fresh_chain)) /\
  (forall X, last_vals (final_state w_g2 w_fresh_chain) = Some X ->
     valset_key H0 X <> valset_key H0 (vals (final_state w_g2 w_fresh_chain)) /\
     valset_key H0 X <> valset_key H0 (next_vals (final_state w_g2 w_fresh_chain))).
Proof.
  split; [exact w_genesis2_ok|]. split; [unfold wfset; cbn; repeat split; auto|].
  split; [vm_compute; discriminate|].
  intros X [= <-]. vm_compute. split; discriminate.
Qed.
