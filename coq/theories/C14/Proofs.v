(** C14 — lemmas about the store model: key-value families, what Save writes and what the loads
    read, chains of states produced by updateState, the invariant kept by Save along a chain, what
    LoadValidators / LoadConsensusParams return on such a database. *)
From Coq Require Import List ZArith NArith Bool Lia.
From Kardia Require Import C14.Model.
Import ListNotations.
Local Open Scope N_scope.

Lemma get_put_eq {V} k (v : V) l : get k (put k v l) = Some v.
Proof. unfold put; cbn [get]. now rewrite N.eqb_refl. Qed.

Lemma get_put_neq {V} k k' (v : V) l : k' <> k -> get k (put k' v l) = get k l.
Proof. intros Hn; unfold put; cbn [get]. destruct (N.eqb_spec k' k); congruence. Qed.

Lemma get_del_eq {V} k (l : list (N * V)) : get k (del k l) = None.
Proof.
  induction l as [|[k' v] t IH]; cbn [del get]; auto.
  destruct (N.eqb_spec k' k) as [E|E]; auto. cbn [get]. destruct (N.eqb_spec k' k); congruence.
Qed.

Lemma get_del_neq {V} k k' (l : list (N * V)) : k' <> k -> get k (del k' l) = get k l.
Proof.
  intros Hn. induction l as [|[k2 v] t IH]; cbn [del get]; auto.
  destruct (N.eqb_spec k2 k') as [E|E].
  - subst. destruct (N.eqb_spec k' k); congruence.
  - cbn [get]. destruct (N.eqb_spec k2 k); auto.
Qed.

Lemma get_app {V} k (a l : list (N * V)) :
  get k (a ++ l) = match get k a with Some v => Some v | None => get k l end.
Proof.
  induction a as [|[k' v] t IH]; cbn [app get]; [reflexivity|]. destruct (N.eqb k' k); auto.
Qed.

Record cstep := { c_blk : block; c_changed : bool; c_next : valset }.

Definition upd (s : cstate) (x : cstep) : cstate :=
  update_state s (c_blk x) (c_changed x) (c_next x).

(** the states of a chain, genesis first *)
Fixpoint states (s : cstate) (xs : list cstep) : list cstate :=
  match xs with
  | [] => [s]
  | x :: t => s :: states (upd s x) t
  end.

Definition final_state (g : cstate) (xs : list cstep) : cstate := fold_left upd xs g.

(** a validator set that ValidatorSetFromProto accepts: non-empty, no negative power *)
Definition wfset (vs : valset) : Prop := from_proto vs = Some vs.

(** blocks are applied at consecutive heights; every new next-set is well formed *)
Fixpoint chain_wf (s : cstate) (xs : list cstep) : Prop :=
  match xs with
  | [] => True
  | x :: t => k_height (c_blk x) = last_height s + 1 /\ wfset (c_next x) /\ chain_wf (upd s x) t
  end.

(** MakeGenesisState + the genesis block [gb] written by Genesis.Commit *)
Definition genesis_ok (g : cstate) (gb : block) : Prop :=
  last_height g = 0 /\ k_height gb = 0 /\ last_vals g = None /\ last_bid g = bid_zero /\
  initial_height g <> 0 /\ k_time gb = last_time g /\ app_hash g = 0 /\
  wfset (vals g) /\ wfset (next_vals g).

Lemma states_head s xs : In s (states s xs).
Proof. destruct xs; cbn [states]; now left. Qed.

Lemma upd_params s x : params (upd s x) = params s.
Proof. reflexivity. Qed.

(** the set entitled to sign height h (LastValidators of state h) is the Validators of state
    h-1, and Validators of state h is NextValidators of state h-1 *)
Lemma upd_sets s x : last_vals (upd s x) = Some (vals s) /\ vals (upd s x) = next_vals s /\
                     next_vals (upd s x) = c_next x.
Proof. repeat split. Qed.

Lemma read_stored d k Y l :
  get k (d_vi d) = Some {| vi_set := Some Y; vi_lhc := l |} -> wfset Y -> read_set d k = inr (Y, l).
Proof. intros G W. unfold read_set. rewrite G. cbn [vi_set vi_lhc]. unfold wfset in W. now rewrite W. Qed.

(** loadStateAtHeight once the state record, the block meta, the validator records it names and
    the params record are found *)
Lemma load_at_ok d h r m lv cv lc nv nl p :
  get h (d_cs d) = Some r -> get h (d_bm d) = Some m ->
  match lv with
  | Some X => 0 < m_height m /\ exists ll, read_set d (r_last r) = inr (X, ll)
  | None => m_height m = 0
  end ->
  read_set d (r_vals r) = inr (cv, lc) -> read_set d (r_next r) = inr (nv, nl) ->
  get (r_params r) (d_pi d) = Some p ->
  load_at d h =
  LOk {| chain_id := r_chain r; initial_height := if N.eqb (r_ih r) 0 then 1 else r_ih r;
         last_height := m_height m; last_total_tx := m_ntx m;
         last_bid := if N.ltb 0 h then m_bid m else bid_zero; last_time := m_time m;
         next_vals := nv; vals := cv; last_vals := lv; lhvc := nl; lhcpc := pi_lhc p;
         app_hash := if N.ltb 0 h then match get h (d_ah d) with Some a => a | None => 0 end else 0;
         params := pi_params p |}.
Proof.
  intros Gr Gm Hl Rv Rn Gp. unfold load_at. rewrite Gr, Gm, Rv, Rn, Gp. destruct lv as [X|].
  - destruct Hl as (Hpos & ll & Rl). apply N.ltb_lt in Hpos. now rewrite Hpos, Rl.
  - now rewrite Hl.
Qed.

(** the loads at a height depend on the database only through the lookups they make *)
Lemma loads_at_ext d1 d2 h :
  get h (d_cs d2) = get h (d_cs d1) -> get h (d_bm d2) = get h (d_bm d1) ->
  get h (d_ah d2) = get h (d_ah d1) ->
  (forall r, get h (d_cs d1) = Some r ->
     (forall k, In k (rec_keys r) -> get k (d_vi d2) = get k (d_vi d1)) /\
     get (r_params r) (d_pi d2) = get (r_params r) (d_pi d1)) ->
  load_at d2 h = load_at d1 h /\ load_validators d2 h = load_validators d1 h /\
  load_params d2 h = load_params d1 h.
Proof.
  intros Ecs Ebm Eah Hr. unfold load_at, load_validators, load_params.
  rewrite Ecs, Ebm, Eah. destruct (get h (d_cs d1)) as [r|]; [|auto].
  destruct (Hr r eq_refl) as (Evi & Epi).
  assert (R : forall k, In k (rec_keys r) -> read_set d2 k = read_set d1 k).
  { intros k Hk. unfold read_set. now rewrite (Evi k Hk). }
  now rewrite !R, (Evi (r_last r)), Epi by (cbn; auto).
Qed.

Lemma loads_ext d1 d2 :
  (forall k, get k (d_cs d2) = get k (d_cs d1)) -> (forall k, get k (d_vi d2) = get k (d_vi d1)) ->
  (forall k, get k (d_pi d2) = get k (d_pi d1)) -> d_bm d2 = d_bm d1 -> d_ah d2 = d_ah d1 ->
  d_head d2 = d_head d1 ->
  (forall h, load_at d2 h = load_at d1 h) /\ (forall h, load_validators d2 h = load_validators d1 h) /\
  (forall h, load_params d2 h = load_params d1 h) /\ load d2 = load d1.
Proof.
  intros Ecs Evi Epi Ebm Eah Ehd.
  assert (A : forall h, load_at d2 h = load_at d1 h /\ load_validators d2 h = load_validators d1 h /\
                        load_params d2 h = load_params d1 h).
  { intros h. apply loads_at_ext; auto; now rewrite ?Ebm, ?Eah. }
  split; [apply A|]. split; [apply A|]. split; [apply A|].
  unfold load. rewrite Ehd. destruct (d_head d1); [apply A | reflexivity].
Qed.

Section Chain.
Variable H : list (N * Z) -> N.
Variable PK : N -> N -> N.

Notation valset_key := (valset_key H).
Notation okey := (okey H).
Notation save := (save H PK).

(** write every block, then save the state it produces — the order ApplyBlock uses *)
Fixpoint save_chain (d : db) (s : cstate) (xs : list cstep) : option (db * cstate) :=
  match xs with
  | [] => Some (d, s)
  | x :: t => match save (write_block d (c_blk x)) (upd s x) with
              | Some d' => save_chain d' (upd s x) t
              | None => None
              end
  end.

Definition boot_chain (g : cstate) (gb : block) (xs : list cstep) : option (db * cstate) :=
  match save (write_block empty_db gb) g with
  | Some d => save_chain d g xs
  | None => None
  end.

(** an explicit collision of the hash behind ValidatorSet.Hash() *)
Definition collision : Prop := exists a b : list (N * Z), a <> b /\ H a = H b.

Lemma keylist_dec (a b : list (N * Z)) : {a = b} + {a <> b}.
Proof. decide equality. decide equality; [apply Z.eq_dec | apply N.eq_dec]. Qed.

Lemma wfset_nonempty vs : wfset vs -> vs_vals vs <> [].
Proof. unfold wfset, from_proto. destruct (vs_vals vs); congruence. Qed.

Lemma key_eq_keylist a b :
  wfset a -> wfset b -> valset_key a = valset_key b -> keylist a = keylist b \/ collision.
Proof.
  intros Wa Wb E. apply wfset_nonempty in Wa. apply wfset_nonempty in Wb.
  unfold Model.valset_key in E.
  destruct (vs_vals a) eqn:Ea; [congruence|]. destruct (vs_vals b) eqn:Eb; [congruence|].
  destruct (keylist_dec (keylist a) (keylist b)) as [K|K]; [now left|].
  right. exists (keylist a), (keylist b). split; auto.
Qed.

(** the record under [k] holds the well-formed set [Y].  A record is shared by all sets with its
    key (same addresses and powers): the set written last stands in it ([holds_put]). *)
Definition holds (vi : list (N * vinfo)) (k : N) (Y : valset) : Prop :=
  exists l, get k vi = Some {| vi_set := Some Y; vi_lhc := l |} /\ wfset Y.

Lemma holds_put vi k Y Z l : holds vi k Y -> wfset Z ->
  holds (put (valset_key Z) {| vi_set := Some Z; vi_lhc := l |} vi) k
        (if N.eqb k (valset_key Z) then Z else Y).
Proof.
  intros (l' & G & W) WZ. destruct (N.eqb_spec k (valset_key Z)) as [->|E].
  - exists l. now rewrite get_put_eq.
  - exists l'. now rewrite get_put_neq by auto.
Qed.

Lemma holds_put_self vi Z l : wfset Z ->
  holds (put (valset_key Z) {| vi_set := Some Z; vi_lhc := l |} vi) (valset_key Z) Z.
Proof. intros W. exists l. now rewrite get_put_eq. Qed.

Lemma read_holds d k Y : holds (d_vi d) k Y -> exists l, read_set d k = inr (Y, l).
Proof. intros (l & G & W). exists l. now apply read_stored. Qed.

(** the record under the key of [X] holds a well-formed set with the same key *)
Definition has (vi : list (N * vinfo)) (X : valset) : Prop :=
  exists vs' l, get (valset_key X) vi = Some {| vi_set := Some vs'; vi_lhc := l |} /\
                valset_key vs' = valset_key X /\ wfset vs'.

Lemma has_holds vi X :
  has vi X <-> exists Y, holds vi (valset_key X) Y /\ valset_key Y = valset_key X.
Proof.
  split.
  - intros (Y & l & G & K & W). exists Y. split; [now exists l | exact K].
  - intros (Y & (l & G & W) & K). now exists Y, l.
Qed.

Lemma has_put vi X Y l : has vi X -> wfset Y ->
  has (put (valset_key Y) {| vi_set := Some Y; vi_lhc := l |} vi) X.
Proof.
  intros (Y0 & Hh & K)%has_holds WY. apply has_holds. eexists. split; [apply holds_put; [exact Hh | exact WY]|].
  destruct (N.eqb_spec (valset_key X) (valset_key Y)); congruence.
Qed.

Lemma read_has d X : has (d_vi d) X ->
  exists vs' l, read_set d (valset_key X) = inr (vs', l) /\ valset_key vs' = valset_key X /\ wfset vs'.
Proof. intros (vs' & l & G & K & W). exists vs', l. split; [now apply read_stored | auto]. Qed.

Definition rec_of (s : cstate) : srec :=
  {| r_chain := chain_id s; r_ih := initial_height s; r_last := okey (last_vals s);
     r_vals := valset_key (vals s); r_next := valset_key (next_vals s);
     r_params := PK (params s) (lhcpc s) |}.

Lemma rec_of_last s X : last_vals s = Some X -> r_last (rec_of s) = valset_key X.
Proof. intros E. cbn [rec_of r_last]. now rewrite E. Qed.

(** [load_at_ok] at the height of [s], for a database whose state record there is the record of [s] *)
Lemma load_at_rec d s m lv cv lc nv nl p :
  get (last_height s) (d_cs d) = Some (rec_of s) -> get (last_height s) (d_bm d) = Some m ->
  m_height m = last_height s ->
  match lv with
  | Some Y => 0 < last_height s /\
              exists X ll, last_vals s = Some X /\ read_set d (valset_key X) = inr (Y, ll)
  | None => last_height s = 0
  end ->
  read_set d (valset_key (vals s)) = inr (cv, lc) ->
  read_set d (valset_key (next_vals s)) = inr (nv, nl) ->
  get (PK (params s) (lhcpc s)) (d_pi d) = Some p ->
  load_at d (last_height s) =
  LOk {| chain_id := chain_id s;
         initial_height := if N.eqb (initial_height s) 0 then 1 else initial_height s;
         last_height := last_height s; last_total_tx := m_ntx m;
         last_bid := if N.ltb 0 (last_height s) then m_bid m else bid_zero; last_time := m_time m;
         next_vals := nv; vals := cv; last_vals := lv; lhvc := nl; lhcpc := pi_lhc p;
         app_hash := if N.ltb 0 (last_height s)
                     then match get (last_height s) (d_ah d) with Some a => a | None => 0 end else 0;
         params := pi_params p |}.
Proof.
  intros Gr Gm Hm Hl Rv Rn Gp.
  assert (Hl' : match lv with
                | Some Y => 0 < m_height m /\ exists ll, read_set d (r_last (rec_of s)) = inr (Y, ll)
                | None => m_height m = 0
                end).
  { rewrite Hm. destruct lv as [Y|]; [|exact Hl]. destruct Hl as (Hpos & X & ll & EX & Rl).
    split; [exact Hpos|]. exists ll. now rewrite (rec_of_last _ _ EX). }
  rewrite (load_at_ok d _ _ m lv _ _ _ _ _ Gr Gm Hl' Rv Rn Gp). cbn [rec_of r_chain r_ih]. now rewrite Hm.
Qed.

(** the validator records of [s], newest first: genesis writes last, current, next; any other
    height only next *)
Definition written (s : cstate) : list (N * vinfo) :=
  (valset_key (next_vals s), {| vi_set := Some (next_vals s); vi_lhc := lhvc s |}) ::
  (if N.eqb (last_height s) 0
   then [(valset_key (vals s), {| vi_set := Some (vals s); vi_lhc := lhvc s |});
         (okey (last_vals s), {| vi_set := last_vals s; vi_lhc := lhvc s |})]
   else []).

Definition saved (d : db) (s : cstate) : db :=
  {| d_cs := put (last_height s) (rec_of s) (d_cs d);
     d_vi := written s ++ d_vi d;
     d_pi := put (PK (params s) (lhcpc s)) {| pi_params := params s; pi_lhc := lhcpc s |} (d_pi d);
     d_bm := d_bm d; d_ah := d_ah d; d_head := d_head d |}.

Lemma save_eq d s :
  save d s = if negb (N.eqb (last_height s) 0) && is_none (last_vals s) then None else Some (saved d s).
Proof. unfold Model.save, saved, written, rec_of. destruct (N.eqb (last_height s) 0); reflexivity. Qed.

Lemma save_some d s d' : save d s = Some d' -> d' = saved d s.
Proof. rewrite save_eq. destruct (_ && _); [discriminate | now intros [= <-]]. Qed.

Lemma save_refused_iff d s : save d s = None <-> (last_height s <> 0 /\ last_vals s = None).
Proof.
  rewrite save_eq. destruct (N.eqb_spec (last_height s) 0) as [E|E]; cbn [negb andb].
  - split; [discriminate | intros (C & _); contradiction].
  - destruct (last_vals s); cbn [is_none].
    + split; [discriminate | intros (_ & C); discriminate].
    + split; auto.
Qed.

(** what holds for a state [si] that was saved at some point.  Params never change along a chain
    ([p0]); the params record of [si] is only known to hold [p0], not to be the one [si] wrote: a
    later state with another LastHeightConsensusParamsChanged may have the same [PK] value. *)
Definition saved_ok (p0 : N) (d : db) (si : cstate) : Prop :=
  get (last_height si) (d_cs d) = Some (rec_of si) /\
  (0 < last_height si -> exists X, last_vals si = Some X /\ wfset X /\ has (d_vi d) X) /\
  (exists p, get (PK (params si) (lhcpc si)) (d_pi d) = Some p /\ pi_params p = p0) /\
  params si = p0.

(** the invariant after saving [s] as the head; [ss] = all states saved so far.  [i_vals] and
    [i_last] say which sets stand under the keys of the current and the last set of [s]: the sets
    Load returns (ProofsExact.loaded_as). *)
Record inv (p0 : N) (d : db) (s : cstate) (ss : list cstate) : Prop := {
  i_head : d_head d = Some (last_height s);
  i_meta : exists m, get (last_height s) (d_bm d) = Some m /\ m_height m = last_height s /\
                     (0 < last_height s -> m_bid m = last_bid s) /\ m_time m = last_time s;
  i_app : 0 < last_height s -> get (last_height s) (d_ah d) = Some (app_hash s);
  i_wf : wfset (vals s) /\ wfset (next_vals s) /\ initial_height s <> 0 /\
         (last_height s = 0 -> last_bid s = bid_zero /\ last_vals s = None /\ app_hash s = 0);
  i_next : get (valset_key (next_vals s)) (d_vi d) =
           Some {| vi_set := Some (next_vals s); vi_lhc := lhvc s |};
  i_vals : holds (d_vi d) (valset_key (vals s))
             (if N.eqb (valset_key (vals s)) (valset_key (next_vals s)) then next_vals s else vals s);
  i_last : forall X, last_vals s = Some X -> wfset X /\
           holds (d_vi d) (valset_key X)
             (if N.eqb (valset_key X) (valset_key (next_vals s)) then next_vals s
              else if N.eqb (valset_key X) (valset_key (vals s)) then vals s else X);
  i_par : get (PK (params s) (lhcpc s)) (d_pi d) = Some {| pi_params := params s; pi_lhc := lhcpc s |};
  i_in : In s ss;
  i_le : forall si, In si ss -> last_height si <= last_height s;
  i_all : forall si, In si ss -> saved_ok p0 d si;
  i_named : forall h r, get h (d_cs d) = Some r ->
            exists si, In si ss /\ last_height si = h /\ r = rec_of si }.

Lemma inv_has_vals p0 d s ss : inv p0 d s ss -> has (d_vi d) (vals s).
Proof.
  intros I. apply has_holds. eexists. split; [exact (i_vals _ _ _ _ I)|].
  destruct (N.eqb_spec (valset_key (vals s)) (valset_key (next_vals s))); auto.
Qed.

Lemma save_genesis g gb : genesis_ok g gb ->
  exists d, save (write_block empty_db gb) g = Some d /\ inv (params g) d g [g].
Proof.
  intros (Hh & Hb & Hl & Hbid & Hih & Ht & Ha & Wv & Wn).
  exists (saved (write_block empty_db gb) g). split; [rewrite save_eq, Hh; reflexivity|].
  constructor; unfold saved_ok; cbn [saved write_block empty_db d_head d_bm d_ah d_vi d_pi d_cs];
    unfold written; rewrite ?Hh, ?Hb; cbn [N.eqb app].
  - reflexivity.
  - eexists. rewrite get_put_eq. split; [reflexivity|]. cbn. repeat split; auto. lia.
  - lia.
  - repeat split; auto.
  - apply get_put_eq.
  - apply holds_put; [apply holds_put_self|]; auto.
  - intros X HX. congruence.
  - apply get_put_eq.
  - now left.
  - intros si [<-|[]]. lia.
  - intros si [<-|[]]. rewrite Hh. split; [apply get_put_eq|]. split; [lia|]. split; [|reflexivity].
    eexists. rewrite get_put_eq. split; reflexivity.
  - intros h r. unfold put; cbn [get]. destruct (N.eqb_spec 0 h) as [<-|]; [|discriminate].
    intros [= <-]. exists g. split; [now left | auto].
Qed.

(** above height 0 Save puts one validator record (the next set) and one state record, at a
    height above all saved ones ([i_le]): [holds] / [has] move through [holds_put] / [has_put],
    every older [saved_ok] survives by [get_put_neq] *)
Lemma save_step p0 d s ss x :
  inv p0 d s ss -> k_height (c_blk x) = last_height s + 1 -> wfset (c_next x) ->
  exists d', save (write_block d (c_blk x)) (upd s x) = Some d' /\ inv p0 d' (upd s x) (upd s x :: ss).
Proof.
  intros I Hk Wn. pose proof (inv_has_vals _ _ _ _ I) as Hv.
  destruct I as [Ihead Imeta Iapp (Wv & Wnx & Hih & _) Inext Ivals Ilast Ipar Iin Ile Iall Inamed].
  destruct (Iall s Iin) as (_ & _ & _ & Hp).
  set (s' := upd s x).
  assert (Hh : last_height s' = last_height s + 1) by exact Hk.
  assert (Hne : N.eqb (last_height s') 0 = false) by (apply N.eqb_neq; lia).
  exists (saved (write_block d (c_blk x)) s'). split; [rewrite save_eq, Hne; reflexivity|].
  assert (Hnew : forall si, In si ss -> last_height s' <> last_height si).
  { intros si Hi. specialize (Ile si Hi). lia. }
  constructor; unfold saved_ok; cbn [saved write_block d_head d_bm d_ah d_vi d_pi d_cs];
    unfold written; rewrite ?Hne; cbn [app].
  - reflexivity.
  - eexists. rewrite get_put_eq. split; [reflexivity|]. cbn. auto.
  - intros _. apply get_put_eq.
  - split; [exact Wnx|]. split; [exact Wn|]. split; [exact Hih|]. intros Hc. lia.
  - apply get_put_eq.
  - apply holds_put; [exists (lhvc s)|]; auto.
  - intros X [= <-]. split; [exact Wv|]. apply holds_put; auto.
  - apply get_put_eq.
  - now left.
  - intros si [<-|Hi]; [lia|]. specialize (Ile si Hi). lia.
  - intros si [<-|Hi].
    + split; [apply get_put_eq|]. split.
      { intros _. exists (vals s). split; [reflexivity|]. split; [exact Wv|]. now apply has_put. }
      split; [|exact Hp]. eexists. rewrite get_put_eq. split; [reflexivity|]. exact Hp.
    + destruct (Iall si Hi) as (Hc & Hl & (p & Hg & Hpp) & Hpe).
      split; [rewrite get_put_neq by auto; exact Hc|]. split.
      { intros Hpos. destruct (Hl Hpos) as (X & HX & WX & HhX). exists X. split; [exact HX|]. split; [exact WX|]. now apply has_put. }
      split; [|exact Hpe].
      destruct (N.eq_dec (PK (params s') (lhcpc s')) (PK (params si) (lhcpc si))) as [E|E].
      * eexists. rewrite E, get_put_eq. split; [reflexivity|]. exact Hp.
      * exists p. now rewrite get_put_neq.
  - intros h r. destruct (N.eq_dec (last_height s') h) as [<-|E].
    + rewrite get_put_eq. intros [= <-]. exists s'. split; [now left | auto].
    + rewrite get_put_neq by auto. intros G. destruct (Inamed h r G) as (si & Hi & E1 & E2).
      exists si. split; [now right | auto].
Qed.

Lemma save_chain_inv p0 xs : forall d s ss, inv p0 d s ss -> chain_wf s xs ->
  exists d' ss', save_chain d s xs = Some (d', final_state s xs) /\ inv p0 d' (final_state s xs) ss' /\
                 (forall si, In si ss' <-> In si ss \/ In si (states s xs)).
Proof.
  induction xs as [|x t IH]; intros d s ss I Hw; cbn [save_chain final_state fold_left states].
  - exists d, ss. split; [reflexivity|]. split; [exact I|].
    intros si. cbn [In]. split; [now left | intros [Hi|[<-|[]]]; [exact Hi | exact (i_in _ _ _ _ I)]].
  - destruct Hw as (Hk & Wn & Hw).
    destruct (save_step p0 d s ss x I Hk Wn) as (d1 & Hs & I1).
    destruct (IH d1 (upd s x) (upd s x :: ss) I1 Hw) as (d' & ss' & Hc & I' & Hiff).
    exists d', ss'. rewrite Hs. split; [exact Hc|]. split; [exact I'|].
    intros si. rewrite Hiff. cbn [In]. split.
    + intros [[<-|Hi]|Hi]; [right; right; apply states_head | now left | now right; right].
    + intros [Hi|[<-|Hi]]; [left; now right | left; right; exact (i_in _ _ _ _ I) | now right].
Qed.

Lemma boot_chain_inv g gb xs : genesis_ok g gb -> chain_wf g xs ->
  exists d ss, boot_chain g gb xs = Some (d, final_state g xs) /\
               inv (params g) d (final_state g xs) ss /\
               (forall si, In si ss <-> In si (states g xs)).
Proof.
  intros Hg Hw. destruct (save_genesis g gb Hg) as (d0 & Hs & I0).
  destruct (save_chain_inv (params g) xs d0 g [g] I0 Hw) as (d & ss & Hc & I & Hiff).
  exists d, ss. unfold boot_chain. rewrite Hs. split; [exact Hc|]. split; [exact I|].
  intros si. rewrite Hiff. cbn [In].
  split; [intros [[<-|[]]|Hi]; [apply states_head | exact Hi] | now right].
Qed.

Lemma load_validators_of_inv p0 d s ss si : inv p0 d s ss -> In si ss -> 0 < last_height si ->
  exists X vs, last_vals si = Some X /\ load_validators d (last_height si) = VOk vs /\
               (keylist vs = keylist X \/ collision).
Proof.
  intros I Hi Hpos. destruct (i_all _ _ _ _ I si Hi) as (Hc & Hl & _).
  destruct (Hl Hpos) as (X & HX & WX & (vs' & l & G & K & W)).
  exists X, vs'. split; [exact HX|]. unfold load_validators. rewrite Hc.
  cbn [rec_of r_last]. rewrite HX. cbn [Model.okey]. rewrite G. cbn [vi_set].
  unfold wfset in W. rewrite W. split; [reflexivity|]. apply key_eq_keylist; auto.
Qed.

Lemma load_params_of_inv p0 d s ss si : inv p0 d s ss -> In si ss ->
  load_params d (last_height si) = POk p0.
Proof.
  intros I Hi. destruct (i_all _ _ _ _ I si Hi) as (Hc & _ & (p & G & Hp) & _).
  unfold load_params. rewrite Hc. cbn [rec_of r_params]. rewrite G. congruence.
Qed.

Theorem load_validators_chain g gb xs : genesis_ok g gb -> chain_wf g xs ->
  exists d, boot_chain g gb xs = Some (d, final_state g xs) /\
    forall sh, In sh (states g xs) -> 0 < last_height sh ->
      exists X vs, last_vals sh = Some X /\ load_validators d (last_height sh) = VOk vs /\
                   (keylist vs = keylist X \/ collision).
Proof.
  intros Hg Hw. destruct (boot_chain_inv g gb xs Hg Hw) as (d & ss & Hb & I & Hin).
  exists d. split; [exact Hb|]. intros sh Hi.
  apply (load_validators_of_inv _ _ _ _ sh I). now apply Hin.
Qed.

Theorem load_params_chain g gb xs : genesis_ok g gb -> chain_wf g xs ->
  exists d, boot_chain g gb xs = Some (d, final_state g xs) /\
    forall sh, In sh (states g xs) -> load_params d (last_height sh) = POk (params g).
Proof.
  intros Hg Hw. destruct (boot_chain_inv g gb xs Hg Hw) as (d & ss & Hb & I & Hin).
  exists d. split; [exact Hb|]. intros sh Hi.
  apply (load_params_of_inv _ _ _ _ sh I). now apply Hin.
Qed.

End Chain.
