(** C20 — packet layer.  The authentication step ([identity]); the packet size bound; the
    receiver: reassembly seen one channel at a time ([chan_run]), exactly once under any
    interleaving, capacity errors; the sender: one sendPacketMsg as a relation between channel
    states ([rel], [send_step]), draining to exhaustion ([drain_spec], [sender_emits_all]), and the
    empty-message defect by computation; examples showing the hypotheses satisfiable. *)
From Coq Require Import List ZArith NArith Bool Arith Lia.
From Kardia Require Import Generated.C20Facts C20.Model C20.Spec.
Import ListNotations.

Lemma identity : forall ch claimed s r,
  verify_auth ch claimed s = HOk r -> r = claimed /\ s = SigOf claimed ch.
Proof.
  intros ch claimed s r H. unfold verify_auth in H.
  destruct s as [signer msg|]; [|discriminate].
  destruct (signer =? claimed)%N eqn:E1; destruct (msg =? ch)%N eqn:E2;
    cbn [andb] in H; try discriminate.
  apply N.eqb_eq in E1. apply N.eqb_eq in E2. subst. inversion H. split; reflexivity.
Qed.

Lemma varint_fuel_mono : forall f v w, (v <= w)%N ->
  length (varint_fuel f v) <= length (varint_fuel f w).
Proof.
  induction f as [|f IH]; intros v w Hvw; cbn [varint_fuel]; [lia|].
  destruct (v <? 128)%N eqn:Ev; destruct (w <? 128)%N eqn:Ew; cbn [length]; try lia.
  - apply N.ltb_lt in Ew. apply N.ltb_ge in Ev. lia.
  - apply le_n_S. apply IH. apply N.div_le_mono; lia.
Qed.

Lemma varint_mono : forall v w, (v <= w)%N -> length (varint v) <= length (varint w).
Proof. intros. unfold varint. apply varint_fuel_mono. assumption. Qed.

Lemma varint_small : forall v, (v < 128)%N -> varint v = [v].
Proof.
  intros v H. unfold varint. cbn [varint_fuel].
  apply N.ltb_lt in H. rewrite H. reflexivity.
Qed.

Lemma u64_of_int32_of_N : forall id, u64_of_int32 (Z.of_N id) = id.
Proof.
  intros id. unfold u64_of_int32.
  destruct (Z.of_N id <? 0)%Z eqn:E.
  - apply Z.ltb_lt in E. lia.
  - apply N2Z.id.
Qed.

Lemma enc_msg_length : forall ch eof data,
  length (enc_msg ch eof data) =
  length (if (ch =? 0)%Z then [] else 8%N :: varint (u64_of_int32 ch)) +
  (length (if eof then [16%N; 1%N] else []) +
   length (match data with [] => [] | _ => 26%N :: varint (N.of_nat (length data)) ++ data end)).
Proof. intros. unfold enc_msg. rewrite !app_length. reflexivity. Qed.

Lemma varint_byte_len : forall v, (v < 256)%N -> length (varint v) <= 2.
Proof.
  intros v H. change 2 with (length (varint 255)). apply varint_mono. lia.
Qed.

Lemma enc_msg_ref_length : forall maxp, 0 < maxp ->
  length (enc_msg 255 true (repeat 0%N maxp)) = 6 + length (varint (N.of_nat maxp)) + maxp.
Proof.
  intros maxp H. rewrite enc_msg_length.
  change (255 =? 0)%Z with false. cbv iota.
  change (u64_of_int32 255) with 255%N.
  change (varint 255) with [255%N; 1%N].
  destruct maxp as [|k]; [lia|].
  cbn [repeat]. change (0%N :: repeat 0%N k) with (repeat 0%N (S k)).
  cbn [length]. rewrite app_length. rewrite repeat_length. cbn [length]. lia.
Qed.

Lemma enc_msg_len_le : forall maxp id eof data,
  0 < maxp -> (id < 256)%N -> length data <= maxp ->
  length (enc_msg (Z.of_N id) eof data) <= length (enc_msg 255 true (repeat 0%N maxp)).
Proof.
  intros maxp id eof data Hp Hid Hd.
  rewrite enc_msg_ref_length by assumption. rewrite enc_msg_length.
  assert (H1 : length (if (Z.of_N id =? 0)%Z then [] else 8%N :: varint (u64_of_int32 (Z.of_N id))) <= 3).
  { destruct (Z.of_N id =? 0)%Z; cbn [length]; [lia|].
    rewrite u64_of_int32_of_N. pose proof (varint_byte_len id Hid). lia. }
  assert (H2 : length (if eof then [16%N; 1%N] else []) <= 2).
  { destruct eof; cbn [length]; lia. }
  assert (H3 : length (match data with [] => [] | _ => 26%N :: varint (N.of_nat (length data)) ++ data end)
               <= 1 + length (varint (N.of_nat maxp)) + maxp).
  { destruct data as [|b t]; [cbn [length]; lia|].
    set (d := b :: t) in *. cbn [length]. rewrite app_length.
    assert (length (varint (N.of_nat (length d))) <= length (varint (N.of_nat maxp))).
    { apply varint_mono. lia. }
    lia. }
  lia.
Qed.

(** every byte-sized channel id fits (the limit is computed with ChannelID 0xff) *)
Lemma packet_fits : forall maxp id eof data,
  0 < maxp -> (id < 256)%N -> length data <= maxp ->
  length (enc_packet (PktMsg (Z.of_N id) eof data)) <= max_packet_msg_size maxp.
Proof.
  intros maxp id eof data Hp Hid Hd.
  unfold max_packet_msg_size, enc_packet.
  pose proof (enc_msg_len_le maxp id eof data Hp Hid Hd) as Hle.
  set (m := enc_msg (Z.of_N id) eof data) in *.
  set (m0 := enc_msg 255 true (repeat 0%N maxp)) in *.
  cbn [length]. rewrite !app_length.
  assert (length (varint (N.of_nat (length m))) <= length (varint (N.of_nat (length m0)))).
  { apply varint_mono. lia. }
  lia.
Qed.

(** 7 = the tag byte of the packet, then the [6 +] of [enc_msg_ref_length]; what is used of it is
    that ping and pong (2 bytes) are within the limit *)
Lemma max_packet_msg_size_ge : forall maxp, 0 < maxp -> 7 <= max_packet_msg_size maxp.
Proof.
  intros maxp Hp. unfold max_packet_msg_size, enc_packet.
  cbn [length]. rewrite app_length. rewrite enc_msg_ref_length by assumption. lia.
Qed.

(** the generated constant is the limit computed from the default payload size *)
Lemma max_size_default_fits :
  N.of_nat (max_packet_msg_size default_max_packet_msg_payload_size) = max_packet_msg_size_default.
Proof. vm_compute. reflexivity. Qed.

(** Feeding one channel's packets to recvPacketMsg starting from [recving = r]:
    the messages delivered, and the final [recving] ([None]: stopped by a capacity error). *)
Fixpoint chan_run (cap : N) (r : bytes) (ps : list packet) : list bytes * option bytes :=
  match ps with
  | [] => ([], Some r)
  | PktMsg _ eof data :: rest =>
      if (cap <? N.of_nat (length r + length data))%N then ([], None)
      else if eof then let '(ms, o) := chan_run cap [] rest in ((r ++ data) :: ms, o)
           else chan_run cap (r ++ data) rest
  | _ :: rest => chan_run cap r rest
  end.

Definition evl (ev : option mevent) : list mevent :=
  match ev with Some e => [e] | None => [] end.

Lemma proj_cons_msg : forall id ch eof data rest,
  proj id (PktMsg ch eof data :: rest) =
  if (byte_of_int32 ch =? id)%N then PktMsg ch eof data :: proj id rest else proj id rest.
Proof. reflexivity. Qed.

Lemma proj_cons_other : forall id p rest,
  pkt_ch p <> Some id -> proj id (p :: rest) = proj id rest.
Proof.
  intros id p rest H. unfold proj. cbn [filter]. destruct (pkt_ch p) as [c|]; [|reflexivity].
  destruct (N.eqb_spec c id); [congruence | reflexivity].
Qed.

Lemma events_of_app : forall id a b, events_of id (a ++ b) = events_of id a ++ events_of id b.
Proof. intros. unfold events_of. apply flat_map_app. Qed.

Lemma events_of_one : forall id c m,
  events_of id [Deliver c m] = if (c =? id)%N then [m] else [].
Proof. intros. unfold events_of. cbn [flat_map]. apply app_nil_r. Qed.

Lemma find_chan_some : forall id cs i c,
  find_chan id cs = Some (i, c) -> In c cs /\ ch_id (desc c) = id.
Proof.
  induction cs as [|c0 t IH]; intros i c H; cbn [find_chan] in H; [discriminate|].
  destruct (ch_id (desc c0) =? id)%N eqn:E.
  - inversion H; subst. split; [now left | now apply N.eqb_eq].
  - destruct (find_chan id t) as [[i' c']|] eqn:F; [|discriminate].
    inversion H; subst. destruct (IH _ _ eq_refl) as [Hin Hid]. split; [now right | exact Hid].
Qed.

Lemma find_chan_upd : forall id cs i c c', find_chan id cs = Some (i, c) -> desc c' = desc c ->
  forall id', find_chan id' (upd_nth i (fun _ => c') cs) =
              if (id' =? id)%N then Some (i, c') else find_chan id' cs.
Proof.
  induction cs as [|c0 t IH]; intros i c c' H Hd id'; cbn [find_chan] in H; [discriminate|].
  destruct (ch_id (desc c0) =? id)%N eqn:E.
  - inversion H; subst i c. cbn [upd_nth find_chan]. rewrite Hd.
    apply N.eqb_eq in E. rewrite E.
    destruct (id' =? id)%N eqn:E'.
    + apply N.eqb_eq in E'. subst id'. rewrite N.eqb_refl. reflexivity.
    + rewrite N.eqb_sym. rewrite E'. reflexivity.
  - destruct (find_chan id t) as [[i0 c1]|] eqn:F; [|discriminate].
    inversion H; subst i c. cbn [upd_nth find_chan].
    rewrite (IH i0 c1 c' eq_refl Hd id').
    destruct (id' =? id)%N eqn:E'.
    + apply N.eqb_eq in E'. subst id'. rewrite E. reflexivity.
    + reflexivity.
Qed.

(** what a successful iteration of recvRoutine does to the receiver state *)
Lemma recv_packet_inv : forall maxsize cs p cs' ev,
  recv_packet maxsize cs p = inl (cs', ev) ->
  length (enc_packet p) <= maxsize /\
  match p with
  | PktMsg ch eof data =>
      exists i c, find_chan (byte_of_int32 ch) cs = Some (i, c) /\
        (N.of_nat (length (recving c) + length data) <= ch_recvcap (desc c))%N /\
        cs' = upd_nth i (fun _ => upd_recving c (if eof then [] else recving c ++ data)) cs /\
        ev = if eof then Some (Deliver (byte_of_int32 ch) (recving c ++ data)) else None
  | _ => cs' = cs /\ ev = None
  end.
Proof.
  intros maxsize cs p cs' ev H. unfold recv_packet in H.
  destruct (maxsize <? length (enc_packet p)) eqn:Es; [discriminate|].
  apply Nat.ltb_ge in Es. split; [assumption|].
  destruct p as [| |ch eof data].
  - inversion H. split; reflexivity.
  - inversion H. split; reflexivity.
  - destruct (find_chan (byte_of_int32 ch) cs) as [[i c]|] eqn:F; [|discriminate].
    unfold recv_packet_msg in H.
    destruct (ch_recvcap (desc c) <? N.of_nat (length (recving c) + length data))%N eqn:Ec;
      [discriminate|].
    apply N.ltb_ge in Ec. exists i, c. split; [reflexivity|]. split; [assumption|].
    destruct eof; inversion H; split; reflexivity.
Qed.

(** a packet that is not addressed to channel [id] leaves that channel alone *)
Lemma recv_packet_other : forall maxsize cs p cs' ev id,
  recv_packet maxsize cs p = inl (cs', ev) -> pkt_ch p <> Some id ->
  find_chan id cs' = find_chan id cs /\ events_of id (evl ev) = [].
Proof.
  intros maxsize cs p cs' ev id H Hne. apply recv_packet_inv in H. destruct H as [_ H].
  destruct p as [| |ch eof data]; [now destruct H as [-> ->] ..|].
  destruct H as (i0 & c0 & F0 & _ & -> & ->). cbn [pkt_ch] in Hne.
  assert (E : (id =? byte_of_int32 ch)%N = false) by (apply N.eqb_neq; congruence).
  split.
  - rewrite (find_chan_upd _ cs i0 c0 (upd_recving c0 _) F0 eq_refl id), E. reflexivity.
  - destruct eof; [|reflexivity]. cbn [evl]. now rewrite events_of_one, N.eqb_sym, E.
Qed.

Lemma recv_packet_step : forall maxsize cs p cs' ev,
  recv_packet maxsize cs p = inl (cs', ev) ->
  forall id,
  match find_chan id cs with
  | None => find_chan id cs' = None
  | Some (i, c) =>
      exists c', find_chan id cs' = Some (i, c') /\ desc c' = desc c /\
        forall rest,
          chan_run (ch_recvcap (desc c)) (recving c) (proj id (p :: rest)) =
          let '(ms, o) := chan_run (ch_recvcap (desc c)) (recving c') (proj id rest) in
          (events_of id (evl ev) ++ ms, o)
  end.
Proof.
  intros maxsize cs p cs' ev H id.
  assert (Hdec : pkt_ch p = Some id \/ pkt_ch p <> Some id).
  { destruct (pkt_ch p) as [c|]; [|right; discriminate].
    destruct (N.eq_dec c id) as [->|Hc]; [now left | right; congruence]. }
  destruct Hdec as [Ha|Hne].
  - destruct p as [| |ch eof data]; try discriminate Ha. cbn [pkt_ch] in Ha. inversion Ha as [Hid].
    apply recv_packet_inv in H. destruct H as [_ (i0 & c0 & F0 & Hcap & -> & ->)].
    rewrite Hid in *. rewrite F0.
    set (c0' := upd_recving c0 (if eof then [] else recving c0 ++ data)).
    exists c0'. split; [|split; [reflexivity|]].
    { rewrite (find_chan_upd id cs i0 c0 c0' F0 eq_refl id), N.eqb_refl. reflexivity. }
    intros rest. rewrite proj_cons_msg, Hid, N.eqb_refl. cbn [chan_run].
    apply N.ltb_ge in Hcap. rewrite Hcap.
    destruct eof.
    + cbn [evl]. rewrite events_of_one. rewrite N.eqb_refl.
      unfold c0'. cbn [upd_recving recving].
      destruct (chan_run (ch_recvcap (desc c0)) [] (proj id rest)). reflexivity.
    + cbn [evl events_of flat_map app].
      unfold c0'. cbn [upd_recving recving].
      destruct (chan_run (ch_recvcap (desc c0)) (recving c0 ++ data) (proj id rest)).
      reflexivity.
  - destruct (recv_packet_other _ _ _ _ _ _ H Hne) as (-> & Hev).
    destruct (find_chan id cs) as [[i c]|]; [|reflexivity].
    exists c. split; [reflexivity|]. split; [reflexivity|]. intros rest.
    rewrite proj_cons_other, Hev by exact Hne. cbn [app].
    now destruct (chan_run (ch_recvcap (desc c)) (recving c) (proj id rest)).
Qed.

Lemma recv_stream_cons_ok : forall maxsize cs p rest cs' ev,
  recv_packet maxsize cs p = inl (cs', ev) ->
  recv_stream maxsize cs (p :: rest) =
  (evl ev ++ fst (recv_stream maxsize cs' rest), snd (recv_stream maxsize cs' rest)).
Proof.
  intros maxsize cs p rest cs' ev H. cbn [recv_stream]. rewrite H.
  destruct (recv_stream maxsize cs' rest) as [evs r]. destruct ev; reflexivity.
Qed.

(** every channel's deliveries are an initial part of what the channel alone would
    deliver; without error they are exactly that *)
Lemma recv_stream_chan : forall maxsize stream cs evs r,
  recv_stream maxsize cs stream = (evs, r) ->
  forall id i c, find_chan id cs = Some (i, c) ->
    (exists k, events_of id evs =
               firstn k (fst (chan_run (ch_recvcap (desc c)) (recving c) (proj id stream)))) /\
    (r = None -> exists r',
       chan_run (ch_recvcap (desc c)) (recving c) (proj id stream) = (events_of id evs, Some r')).
Proof.
  intros maxsize stream. induction stream as [|p rest IH]; intros cs evs r H id i c F.
  - cbn [recv_stream] in H. inversion H; subst. split.
    + exists 0. reflexivity.
    + intros _. exists (recving c). reflexivity.
  - destruct (recv_packet maxsize cs p) as [[cs' ev]|e] eqn:Hp.
    + rewrite (recv_stream_cons_ok _ _ _ _ _ _ Hp) in H.
      destruct (recv_stream maxsize cs' rest) as [evs' r'] eqn:Hr.
      cbn [fst snd] in H. inversion H; subst evs r. clear H.
      pose proof (recv_packet_step _ _ _ _ _ Hp id) as S. rewrite F in S.
      destruct S as (c' & F' & Hd & Hrun).
      rewrite Hrun. rewrite <- Hd.
      destruct (IH cs' evs' r' Hr id i c' F') as [[k Hk] Hnone].
      destruct (chan_run (ch_recvcap (desc c')) (recving c') (proj id rest)) as [ms o] eqn:Hc.
      cbn [fst] in *. rewrite events_of_app. split.
      * exists (length (events_of id (evl ev)) + k).
        rewrite firstn_app_2. rewrite Hk. reflexivity.
      * intros Hn. destruct (Hnone Hn) as [r2 Hr2]. inversion Hr2; subst.
        exists r2. reflexivity.
    + cbn [recv_stream] in H. rewrite Hp in H. inversion H; subst. split.
      * exists 0. reflexivity.
      * discriminate.
Qed.

(** progress: packets within the size limit, of known channels, each channel's own run
    free of capacity errors — then the receiver reports no error *)
Lemma recv_stream_progress : forall maxsize stream cs,
  (forall p, In p stream -> length (enc_packet p) <= maxsize) ->
  (forall p id, In p stream -> pkt_ch p = Some id -> find_chan id cs <> None) ->
  (forall id i c, find_chan id cs = Some (i, c) ->
     snd (chan_run (ch_recvcap (desc c)) (recving c) (proj id stream)) <> None) ->
  snd (recv_stream maxsize cs stream) = None.
Proof.
  intros maxsize stream. induction stream as [|p rest IH]; intros cs Hsz Hkn Hrun.
  - reflexivity.
  - assert (Hp : exists cs' ev, recv_packet maxsize cs p = inl (cs', ev)).
    { unfold recv_packet.
      assert (Hs : length (enc_packet p) <= maxsize) by (apply Hsz; left; reflexivity).
      apply Nat.ltb_ge in Hs. rewrite Hs.
      destruct p as [| |ch eof data]; [eexists; eexists; reflexivity ..|].
      destruct (find_chan (byte_of_int32 ch) cs) as [[i c]|] eqn:F.
      - pose proof (Hrun _ _ _ F) as R. rewrite proj_cons_msg in R. rewrite N.eqb_refl in R.
        cbn [chan_run] in R. unfold recv_packet_msg.
        destruct (ch_recvcap (desc c) <? N.of_nat (length (recving c) + length data))%N.
        + exfalso. apply R. reflexivity.
        + destruct eof; eexists; eexists; reflexivity.
      - exfalso. apply (Hkn (PktMsg ch eof data) (byte_of_int32 ch)); [left; reflexivity|reflexivity|assumption]. }
    destruct Hp as (cs' & ev & Hp).
    rewrite (recv_stream_cons_ok _ _ _ _ _ _ Hp). cbn [snd].
    pose proof (recv_packet_step _ _ _ _ _ Hp) as S.
    apply IH.
    + intros q Hq. apply Hsz. right. assumption.
    + intros q id Hq Hc. specialize (S id).
      pose proof (Hkn q id (or_intror Hq) Hc) as K.
      destruct (find_chan id cs) as [[i c]|]; [|congruence].
      destruct S as (c' & F' & _). rewrite F'. discriminate.
    + intros id i2 c2 F2. specialize (S id).
      destruct (find_chan id cs) as [[i c]|] eqn:F; [|congruence].
      destruct S as (c' & F' & Hd & Hr). rewrite F' in F2. inversion F2; subst i2 c2.
      pose proof (Hrun _ _ _ F) as R. rewrite Hr in R. rewrite Hd.
      destruct (chan_run (ch_recvcap (desc c)) (recving c') (proj id rest)) as [ms o].
      exact R.
Qed.

(** One message's packets at the head of a channel's stream: the message is delivered whole if
    it fits the capacity, and the run stops with the capacity error otherwise. *)
Lemma chan_run_packetise_fuel : forall maxp id cap, 0 < maxp ->
  forall f m r rest, length m < f ->
  chan_run cap r (packetise_fuel f id maxp m ++ rest) =
  if (cap <? N.of_nat (length r + length m))%N then ([], None)
  else let '(ms, o) := chan_run cap [] rest in ((r ++ m) :: ms, o).
Proof.
  intros maxp id cap Hp. induction f as [|f IH]; intros m r rest Hf; [lia|].
  cbn [packetise_fuel]. destruct (Nat.leb_spec (length m) maxp) as [E|E]; [reflexivity|].
  cbn [app chan_run]. rewrite IH by (rewrite skipn_length; lia).
  rewrite <- app_assoc, firstn_skipn.
  assert (Hl : length (firstn maxp m) = maxp) by (apply firstn_length_le; lia).
  replace (length (r ++ firstn maxp m) + length (skipn maxp m)) with (length r + length m)
    by (rewrite app_length, skipn_length; lia).
  destruct (N.ltb_spec cap (N.of_nat (length r + length (firstn maxp m)))) as [H1|H1];
    [|reflexivity].
  now rewrite (proj2 (N.ltb_lt _ _)) by lia.
Qed.

Lemma chan_run_packetise : forall maxp id cap m rest, 0 < maxp ->
  chan_run cap [] (packetise id maxp m ++ rest) =
  if (cap <? N.of_nat (length m))%N then ([], None)
  else let '(ms, o) := chan_run cap [] rest in (m :: ms, o).
Proof.
  intros maxp id cap m rest Hp. unfold packetise.
  now rewrite chan_run_packetise_fuel by (assumption || lia).
Qed.

Lemma packets_of_cons : forall id maxp m t,
  packets_of id maxp (m :: t) = packetise id maxp m ++ packets_of id maxp t.
Proof. reflexivity. Qed.

Lemma chan_run_packets_of : forall maxp id cap, 0 < maxp ->
  forall msgs, (forall m, In m msgs -> (N.of_nat (length m) <= cap)%N) ->
  forall rest, chan_run cap [] (packets_of id maxp msgs ++ rest) =
               let '(ms, o) := chan_run cap [] rest in (msgs ++ ms, o).
Proof.
  intros maxp id cap Hp. induction msgs as [|m t IH]; intros Hall rest.
  - cbn [packets_of map concat app]. destruct (chan_run cap [] rest); reflexivity.
  - rewrite packets_of_cons, <- app_assoc, chan_run_packetise by assumption.
    rewrite (proj2 (N.ltb_ge _ _)) by (apply Hall; now left).
    rewrite IH by (intros m' Hm'; apply Hall; right; assumption).
    destruct (chan_run cap [] rest). reflexivity.
Qed.

Lemma chan_run_prefix_over : forall maxp id cap, 0 < maxp ->
  forall pre rest, chan_run cap [] rest = ([], None) ->
  exists k, chan_run cap [] (packets_of id maxp pre ++ rest) = (firstn k pre, None).
Proof.
  intros maxp id cap Hp. induction pre as [|m t IH]; intros rest Hrest.
  - exists 0. exact Hrest.
  - rewrite packets_of_cons, <- app_assoc, chan_run_packetise by assumption.
    destruct (cap <? N.of_nat (length m))%N; [now exists 0|].
    destruct (IH rest Hrest) as [k Hk]. exists (S k). now rewrite Hk.
Qed.

Lemma in_packetise_fuel : forall id maxp f m p, In p (packetise_fuel f id maxp m) ->
  exists eof data, p = PktMsg (Z.of_N id) eof data /\ length data <= maxp.
Proof.
  intros id maxp. induction f as [|f IH]; intros m p H; cbn [packetise_fuel] in H; [destruct H|].
  destruct (length m <=? maxp) eqn:E.
  - destruct H as [<-|[]]. apply Nat.leb_le in E. exists true, m. split; [reflexivity|assumption].
  - destruct H as [<-|H].
    + exists false, (firstn maxp m). split; [reflexivity|]. rewrite firstn_length. lia.
    + eapply IH. eassumption.
Qed.

Lemma in_packets_of : forall id maxp msgs p, In p (packets_of id maxp msgs) ->
  exists eof data, p = PktMsg (Z.of_N id) eof data /\ length data <= maxp.
Proof.
  intros id maxp msgs p H. unfold packets_of in H. apply in_concat in H.
  destruct H as (l & Hl & Hp). apply in_map_iff in Hl. destruct Hl as (m & <- & _).
  unfold packetise in Hp. eapply in_packetise_fuel. eassumption.
Qed.

Lemma find_chan_new : forall descs d, NoDup (map ch_id descs) -> In d descs ->
  exists i, find_chan (ch_id d) (map new_chan descs) = Some (i, new_chan d).
Proof.
  induction descs as [|d0 t IH]; intros d Hnd Hin; [destruct Hin|].
  cbn [map] in Hnd. inversion Hnd as [|x l Hnotin Hnd']; subst.
  cbn [map find_chan]. cbn [new_chan desc].
  destruct (ch_id d0 =? ch_id d)%N eqn:E.
  - apply N.eqb_eq in E. destruct Hin as [->|Hin]; [exists 0; reflexivity|].
    exfalso. apply Hnotin. rewrite E. apply in_map. assumption.
  - destruct Hin as [->|Hin]; [rewrite N.eqb_refl in E; discriminate|].
    destruct (IH d Hnd' Hin) as [i Hi]. rewrite Hi. exists (S i). reflexivity.
Qed.

Lemma find_chan_new_inv : forall descs id i c, find_chan id (map new_chan descs) = Some (i, c) ->
  exists d, In d descs /\ c = new_chan d /\ ch_id d = id.
Proof.
  intros descs id i c F. destruct (find_chan_some _ _ _ _ F) as [Hin Hid].
  apply in_map_iff in Hin. destruct Hin as (d & <- & Hd). exists d.
  split; [assumption|]. split; [reflexivity|]. exact Hid.
Qed.

(** [recv_stream_chan] reduces the multiplexed run to [chan_run] on [proj id stream],
    [chan_run_packets_of] evaluates that, [recv_stream_progress] gives [None]. *)
Lemma msg_exactly_once : forall maxp descs (msgs : N -> list bytes) stream,
  0 < maxp ->
  NoDup (map ch_id descs) ->
  (forall d, In d descs -> (ch_id d < 256)%N) ->
  (forall d m, In d descs -> In m (msgs (ch_id d)) -> (N.of_nat (length m) <= ch_recvcap d)%N) ->
  known_channels descs stream ->
  (forall d, In d descs -> proj (ch_id d) stream = packets_of (ch_id d) maxp (msgs (ch_id d))) ->
  exists evs,
    recv_stream (max_packet_msg_size maxp) (map new_chan descs) stream = (evs, None) /\
    forall d, In d descs -> events_of (ch_id d) evs = msgs (ch_id d).
Proof.
  intros maxp descs msgs stream Hp Hnd Hid Hcap Hkn Hproj.
  assert (Hrun : forall d, In d descs ->
            chan_run (ch_recvcap d) [] (proj (ch_id d) stream) = (msgs (ch_id d), Some [])).
  { intros d Hd. rewrite (Hproj d Hd).
    rewrite <- (app_nil_r (packets_of (ch_id d) maxp (msgs (ch_id d)))).
    rewrite chan_run_packets_of; [|assumption|intros m Hm; apply Hcap; assumption].
    cbn [chan_run]. rewrite app_nil_r. reflexivity. }
  assert (Hok : snd (recv_stream (max_packet_msg_size maxp) (map new_chan descs) stream) = None).
  { apply recv_stream_progress.
    - intros p Hin. pose proof (max_packet_msg_size_ge maxp Hp) as Hge.
      destruct p as [| |ch eof data]; [cbn [enc_packet length]; lia ..|].
      destruct (Hkn _ _ Hin eq_refl) as (d & Hd & Hc).
      assert (Hin' : In (PktMsg ch eof data) (proj (ch_id d) stream)).
      { unfold proj. apply filter_In. split; [assumption|].
        cbn [pkt_ch]. apply N.eqb_eq. symmetry. assumption. }
      rewrite (Hproj d Hd) in Hin'. apply in_packets_of in Hin'.
      destruct Hin' as (eof' & data' & Heq & Hlen). rewrite Heq.
      apply packet_fits; [assumption|apply Hid; assumption|assumption].
    - intros p id Hin Hc. destruct (Hkn _ _ Hin Hc) as (d & Hd & <-).
      destruct (find_chan_new descs d Hnd Hd) as [i Hi]. rewrite Hi. discriminate.
    - intros id i c F. apply find_chan_new_inv in F. destruct F as (d & Hd & -> & <-).
      cbn [new_chan desc recving]. rewrite (Hrun d Hd). cbn [snd]. discriminate. }
  destruct (recv_stream (max_packet_msg_size maxp) (map new_chan descs) stream) as [evs r] eqn:Hr.
  cbn [snd] in Hok. subst r. exists evs. split; [reflexivity|].
  intros d Hd. destruct (find_chan_new descs d Hnd Hd) as [i Hi].
  destruct (recv_stream_chan _ _ _ _ _ Hr _ _ _ Hi) as [_ Hnone].
  destruct (Hnone eq_refl) as [r' Hr']. cbn [new_chan desc recving] in Hr'.
  rewrite (Hrun d Hd) in Hr'. inversion Hr'. reflexivity.
Qed.

Lemma oversize : forall maxp descs d stream pre m post evs r,
  0 < maxp ->
  NoDup (map ch_id descs) ->
  In d descs ->
  (ch_id d < 256)%N ->
  (ch_recvcap d < N.of_nat (length m))%N ->
  proj (ch_id d) stream = packets_of (ch_id d) maxp pre ++ packetise (ch_id d) maxp m ++ post ->
  recv_stream (max_packet_msg_size maxp) (map new_chan descs) stream = (evs, r) ->
  r <> None /\ exists k, events_of (ch_id d) evs = firstn k pre.
Proof.
  (* the bound on the channel id is not used *)
  intros maxp descs d stream pre m post evs r Hp Hnd Hd _ Hover Hproj Hr.
  destruct (find_chan_new descs d Hnd Hd) as [i Hi].
  destruct (recv_stream_chan _ _ _ _ _ Hr _ _ _ Hi) as [[k Hk] Hnone].
  cbn [new_chan desc recving] in Hk, Hnone. rewrite Hproj in Hk, Hnone.
  assert (Hm : chan_run (ch_recvcap d) [] (packetise (ch_id d) maxp m ++ post) = ([], None)).
  { rewrite chan_run_packetise by assumption. now rewrite (proj2 (N.ltb_lt _ _)). }
  destruct (chan_run_prefix_over maxp (ch_id d) (ch_recvcap d) Hp pre _ Hm) as [k' Hk'].
  rewrite Hk' in Hk, Hnone. cbn [fst] in Hk. split.
  - intros Hn. destruct (Hnone Hn) as [r' Hr']. discriminate.
  - exists (Nat.min k k'). rewrite Hk. apply firstn_firstn.
Qed.

(** sendSomePacketMsgs/sendRoutine: call sendPacketMsg until it reports "exhausted";
    result: final channels, packets written (in order), whether exhaustion was reached
    within the fuel *)
Fixpoint drain (fuel : nat) (maxp : nat) (cs : list chan) : list chan * list packet * bool :=
  match fuel with
  | O => (cs, [], false)
  | S f =>
      let '(cs1, op, exhausted) := send_packet_msg maxp cs in
      if exhausted then (cs1, [], true)
      else let '(cs2, ps, done) := drain f maxp cs1 in
           (cs2, match op with Some p => p :: ps | None => ps end, done)
  end.

Definition ex_d1 : chdesc := {| ch_id := 1; ch_prio := 1; ch_sendcap := 10; ch_recvcap := 1000 |}.
Definition ex_d2 : chdesc := {| ch_id := 2; ch_prio := 1; ch_sendcap := 10; ch_recvcap := 1000 |}.
Definition ex_msg10 : bytes := [1; 2; 3; 4; 5; 6; 7; 8; 9; 10]%N.

(** A 10-byte message is queued on channel 1 and the empty message on channel 2 (both
    accepted).  Draining the sender to exhaustion emits the packet of channel 1 only: the
    empty message has been dequeued by isSendPending and then forgotten, it is never sent;
    sendQueueSize of channel 2 stays 1 for ever, so CanSend is false for ever. *)
Lemma empty_msg_lost_refuted :
  let '(c1, ok1) := try_send (new_chan ex_d1) ex_msg10 in
  let '(c2, ok2) := try_send (new_chan ex_d2) [] in
  let '(cs', ps, exhausted) := drain 100 1024 [c1; c2] in
  ok1 = true /\ ok2 = true /\ exhausted = true /\
  ps = [PktMsg 1 true ex_msg10] /\
  proj 2 ps = [] /\
  map queue cs' = [[]; []] /\ map sending cs' = [[]; []] /\
  map qsize cs' = [0%Z; 1%Z] /\
  map can_send cs' = [true; false] /\
  (* and it stays so: a further drain emits nothing *)
  drain 100 1024 cs' = (cs', [], true).
Proof. vm_compute. repeat split; reflexivity. Qed.

(** the empty message alone is sent (as one packet with EOF and no data) *)
Lemma empty_msg_alone_sent :
  let c1 := new_chan ex_d1 in
  let '(c2, ok2) := try_send (new_chan ex_d2) [] in
  let '(cs', ps, exhausted) := drain 100 1024 [c1; c2] in
  ok2 = true /\ exhausted = true /\ ps = [PktMsg 2 true []] /\
  map qsize cs' = [0%Z; 0%Z] /\ map can_send cs' = [true; true].
Proof. vm_compute. repeat split; reflexivity. Qed.

Lemma upd_nth_length : forall A (f : A -> A) l i, length (upd_nth i f l) = length l.
Proof.
  intros A f. induction l as [|x t IH]; intros i; destruct i; cbn [upd_nth length];
    try reflexivity. rewrite IH. reflexivity.
Qed.

Lemma nth_error_upd_nth_eq : forall A (f : A -> A) l i x,
  nth_error l i = Some x -> nth_error (upd_nth i f l) i = Some (f x).
Proof.
  intros A f. induction l as [|y t IH]; intros i x H; destruct i; cbn [nth_error] in H; try discriminate.
  - inversion H. reflexivity.
  - cbn [upd_nth nth_error]. apply IH. assumption.
Qed.

Lemma nth_error_upd_nth_neq : forall A (f : A -> A) l i j,
  j <> i -> nth_error (upd_nth i f l) j = nth_error l j.
Proof.
  intros A f. induction l as [|y t IH]; intros i j H;
    destruct i; destruct j; cbn [upd_nth nth_error]; try reflexivity; try lia.
  apply IH. lia.
Qed.

Lemma byte_of_int32_of_N : forall id, (id < 256)%N -> byte_of_int32 (Z.of_N id) = id.
Proof.
  intros id H. unfold byte_of_int32. rewrite Z.mod_small by lia. apply N2Z.id.
Qed.

Definition cid (c : chan) : N := ch_id (desc c).
(** no empty message is queued: isSendPending cannot tell a dequeued empty message from "nothing
    in progress" *)
Definition good (c : chan) : Prop := forall m, In m (queue c) -> m <> [].
Definition idle (c : chan) : Prop := queue c = [] /\ sending c = [].
(** messages counted in sendQueueSize: the one in progress and the queued ones *)
Definition owed (c : chan) : Z :=
  ((match sending c with [] => 0 | _ => 1 end) + Z.of_nat (length (queue c)))%Z.
Definition bal (c : chan) : Z := (qsize c - owed c)%Z.
(** the packets of the message in progress, none if there is none *)
Definition cur (maxp : nat) (id : N) (s : bytes) : list packet :=
  match s with [] => [] | _ => packetise id maxp s end.
(** the packets the channel still has to emit *)
Definition pend (maxp : nat) (c : chan) : list packet :=
  cur maxp (cid c) (sending c) ++ packets_of (cid c) maxp (queue c).
(** the channel after isSendPending, and after sendPacketMsg has added [n] to recentlySent *)
Definition isp (c : chan) : chan := snd (is_send_pending c).
Definition bump (n : Z) (c : chan) : chan :=
  upd_send c (queue c) (qsize c) (sending c) (recently_sent c + n)%Z.

(** [c1] is a later state of [c] that has emitted [ps]: what [c] still had to emit is [ps]
    followed by what [c1] still has to; the descriptor, and the offset of sendQueueSize from the
    messages it counts, are those of [c]; no empty message is queued *)
Definition rel (maxp : nat) (c c1 : chan) (ps : list packet) : Prop :=
  desc c1 = desc c /\ good c1 /\ bal c1 = bal c /\ pend maxp c = ps ++ pend maxp c1.

Lemma rel_refl maxp c : good c -> rel maxp c c [].
Proof. intros Hg. split; [reflexivity|]. split; [exact Hg|]. split; reflexivity. Qed.

Lemma rel_desc maxp c c1 ps : rel maxp c c1 ps -> desc c1 = desc c.
Proof. now intros (D & _). Qed.

Lemma rel_good maxp c c1 ps : rel maxp c c1 ps -> good c1.
Proof. now intros (_ & G & _). Qed.

Lemma rel_bal maxp c c1 ps : rel maxp c c1 ps -> bal c1 = bal c.
Proof. now intros (_ & _ & B & _). Qed.

Lemma rel_pend maxp c c1 ps : rel maxp c c1 ps -> pend maxp c = ps ++ pend maxp c1.
Proof. now intros (_ & _ & _ & P). Qed.

Lemma rel_cid maxp c c1 ps : rel maxp c c1 ps -> cid c1 = cid c.
Proof. intros R. unfold cid. now rewrite (rel_desc _ _ _ _ R). Qed.

Lemma packetise_fuel_indep : forall id maxp, 0 < maxp -> forall f f' m,
  length m < f -> length m < f' -> packetise_fuel f id maxp m = packetise_fuel f' id maxp m.
Proof.
  intros id maxp Hp. induction f as [|f IH]; intros f' m H H'; [lia|].
  destruct f' as [|f']; [lia|]. cbn [packetise_fuel].
  destruct (length m <=? maxp) eqn:E; [reflexivity|].
  apply Nat.leb_gt in E. f_equal. apply IH; rewrite skipn_length; lia.
Qed.

Lemma isp_rel : forall maxp c, good c ->
  rel maxp c (isp c) [] /\
  (fst (is_send_pending c) = true -> sending (isp c) <> []) /\
  (fst (is_send_pending c) = false -> idle c /\ isp c = c).
Proof.
  intros maxp c Hg. unfold isp, is_send_pending.
  destruct (sending c) as [|b s] eqn:Es.
  - destruct (queue c) as [|m q] eqn:Eq; cbn [fst snd].
    + split; [|split].
      * now apply rel_refl.
      * discriminate.
      * intros _. split; [split; assumption|reflexivity].
    + assert (Hm : m <> []) by (apply Hg; rewrite Eq; left; reflexivity).
      split; [|split].
      * split; [reflexivity|]. split; [|split].
        -- intros m' Hm'. cbn [upd_send queue] in Hm'. apply Hg. rewrite Eq. right. assumption.
        -- unfold bal, owed. cbn [upd_send queue sending qsize]. rewrite Es, Eq.
           destruct m as [|b t]; [congruence|]. cbn [length]. lia.
        -- unfold pend, cid. cbn [upd_send queue sending desc app]. rewrite Es, Eq.
           destruct m as [|b t]; [congruence|]. reflexivity.
      * intros _. cbn [upd_send sending]. assumption.
      * discriminate.
  - cbn [fst snd]. split; [|split].
    + now apply rel_refl.
    + intros _. rewrite Es. discriminate.
    + discriminate.
Qed.

Lemma cur_ne : forall maxp id s, s <> [] -> cur maxp id s = packetise id maxp s.
Proof. intros maxp id [|b t] H; [congruence|reflexivity]. Qed.

Lemma owed_ne : forall c, sending c <> [] -> owed c = (1 + Z.of_nat (length (queue c)))%Z.
Proof. intros c H. unfold owed. destruct (sending c); [congruence|reflexivity]. Qed.

Lemma owed_nil : forall c, sending c = [] -> owed c = Z.of_nat (length (queue c)).
Proof. intros c H. unfold owed. rewrite H. lia. Qed.

Lemma next_rel : forall maxp c n p c', 0 < maxp -> good c -> sending c <> [] ->
  next_packet maxp c = (p, c') ->
  rel maxp c (bump n c') [p] /\ exists eof data, p = PktMsg (Z.of_N (cid c)) eof data.
Proof.
  intros maxp c n p c' Hp Hg Hs H. unfold next_packet in H. cbv zeta in H.
  destruct (length (sending c) <=? maxp) eqn:E; inversion H; subst p c'; clear H.
  - apply Nat.leb_le in E. rewrite Nat.min_r by assumption. rewrite firstn_all.
    split; [|eexists; eexists; reflexivity].
    split; [reflexivity|]. split; [exact Hg|]. split.
    + unfold bal. rewrite (owed_ne c Hs). rewrite owed_nil by reflexivity.
      unfold bump. cbn [upd_send queue qsize]. lia.
    + unfold pend. rewrite (cur_ne _ _ _ Hs). unfold cid, bump.
      cbn [upd_send queue sending desc cur app]. unfold packetise. cbn [packetise_fuel].
      apply Nat.leb_le in E. rewrite E. reflexivity.
  - apply Nat.leb_gt in E. rewrite Nat.min_l by lia.
    split; [|eexists; eexists; reflexivity].
    assert (Hsk : length (skipn maxp (sending c)) = length (sending c) - maxp) by apply skipn_length.
    assert (Hne2 : skipn maxp (sending c) <> []).
    { intros Heq. rewrite Heq in Hsk. cbn [length] in Hsk. lia. }
    split; [reflexivity|]. split; [exact Hg|]. split.
    + unfold bal. rewrite (owed_ne c Hs).
      rewrite (owed_ne (bump n (upd_send c (queue c) (qsize c) (skipn maxp (sending c)) (recently_sent c))) Hne2).
      unfold bump. cbn [upd_send queue qsize]. lia.
    + unfold pend. rewrite (cur_ne _ _ _ Hs). unfold cid, bump.
      cbn [upd_send queue sending desc]. rewrite (cur_ne _ _ _ Hne2).
      unfold packetise at 1. cbn [packetise_fuel].
      apply Nat.leb_gt in E. rewrite E. cbn [app]. f_equal. f_equal.
      unfold packetise. apply Nat.leb_gt in E.
      apply packetise_fuel_indep; [assumption|lia|lia].
Qed.

Lemma rel_trans : forall maxp a b c ps qs,
  rel maxp a b ps -> rel maxp b c qs -> rel maxp a c (ps ++ qs).
Proof.
  intros maxp a b c ps qs (D1 & G1 & B1 & P1) (D2 & G2 & B2 & P2).
  split; [congruence|]. split; [assumption|]. split; [congruence|].
  rewrite P1, P2. apply app_assoc.
Qed.

(** one comparison of the least-ratio loop: the candidate kept after looking at channel [idx] is
    the one before, or [idx] itself, which is then pending.  No theorem depends on which pending
    channel wins, so nothing is proved of the float32 functions: [ratio] is any value. *)
Lemma best_step : forall (best best' : option (nat * f32)) idx (pending : bool) ratio,
  best' = (if pending then
             match best with
             | None => Some (idx, ratio)
             | Some (_, br) => if f32_lt ratio br then Some (idx, ratio) else best
             end
           else best) ->
  (best' = None -> best = None /\ pending = false) /\
  (forall j br, best' = Some (j, br) ->
     (exists br0, best = Some (j, br0)) \/ (j = idx /\ pending = true)).
Proof.
  intros best best' idx pending ratio ->. destruct pending; [|split].
  - destruct best as [[bi bbr]|]; [destruct (f32_lt ratio bbr)|]; split; try discriminate.
    + intros j br E. inversion E; subst. now right.
    + intros j br E. inversion E; subst. left. now exists br.
    + intros j br E. inversion E; subst. now right.
  - intros ->. now split.
  - intros j br ->. left. now exists br.
Qed.

Lemma select_loop_spec : forall cs idx best cs1 r, select_loop cs idx best = (cs1, r) ->
  cs1 = map isp cs /\
  match r with
  | Some i => (exists br, best = Some (i, br)) \/
              (idx <= i /\ exists c, nth_error cs (i - idx) = Some c /\ fst (is_send_pending c) = true)
  | None => best = None /\ forall c, In c cs -> fst (is_send_pending c) = false
  end.
Proof.
  induction cs as [|c rest IH]; intros idx best cs1 r H; cbn [select_loop] in H.
  - inversion H; subst. split; [reflexivity|]. destruct best as [[i br]|].
    + left. eexists. reflexivity.
    + split; [reflexivity|]. intros c [].
  - destruct (is_send_pending c) as [pending c'] eqn:Hc. cbv zeta in H.
    match type of H with context [select_loop rest (S idx) ?b] => remember b as best' eqn:Hb end.
    apply best_step in Hb. destruct Hb as [Hnone Hsome].
    destruct (select_loop rest (S idx) best') as [rest' r'] eqn:Hr.
    inversion H; subst cs1 r. clear H.
    apply IH in Hr. destruct Hr as [-> Hr]. split.
    { cbn [map]. change (isp c) with (snd (is_send_pending c)). rewrite Hc. reflexivity. }
    destruct r' as [i|].
    + destruct Hr as [[br Hbr]|[Hle (c2 & Hn & Hp2)]].
      * destruct (Hsome _ _ Hbr) as [[br0 E]|[-> Ep]]; [left; now exists br0|].
        right. split; [lia|]. exists c. rewrite Nat.sub_diag. split; [reflexivity|]. now rewrite Hc.
      * right. split; [lia|]. exists c2.
        replace (i - idx) with (S (i - S idx)) by lia. now split.
    + destruct Hr as [Hn Hall]. destruct (Hnone Hn) as [-> ->]. split; [reflexivity|].
      intros c2 [<-|Hin]; [now rewrite Hc | now apply Hall].
Qed.

Lemma send_cases : forall maxp cs cs' op ex, send_packet_msg maxp cs = (cs', op, ex) ->
  (ex = true /\ op = None /\ cs' = map isp cs /\
   forall c, In c cs -> fst (is_send_pending c) = false) \/
  (ex = false /\ exists i ci n p c',
     nth_error cs i = Some ci /\ fst (is_send_pending ci) = true /\
     next_packet maxp (isp ci) = (p, c') /\ op = Some p /\
     cs' = upd_nth i (fun _ => bump n c') (map isp cs)).
Proof.
  intros maxp cs cs' op ex H. unfold send_packet_msg in H.
  destruct (select_loop cs 0 None) as [cs1 sel] eqn:Hs.
  apply select_loop_spec in Hs. destruct Hs as [-> Hs].
  destruct sel as [i|].
  - destruct Hs as [[br Hbr]|[_ (ci & Hi & Hpend)]]; [discriminate|].
    rewrite Nat.sub_0_r in Hi.
    rewrite (map_nth_error isp _ _ Hi) in H.
    destruct (next_packet maxp (isp ci)) as [p c'] eqn:Hn.
    inversion H; subst. right. split; [reflexivity|].
    eexists i, ci, _, p, c'. repeat split; eassumption.
  - destruct Hs as [_ Hall]. inversion H; subst. left. repeat split. assumption.
Qed.

Lemma idle_pend : forall maxp c, idle c -> pend maxp c = [].
Proof. intros maxp c [Hq Hs]. unfold pend. rewrite Hq, Hs. reflexivity. Qed.

(** the packets still to emit; [send_step] lowers it by one, hence the fuel bound of [drain_spec] *)
Fixpoint total (maxp : nat) (cs : list chan) : nat :=
  match cs with [] => 0 | c :: t => length (pend maxp c) + total maxp t end.

Lemma total_map_isp : forall maxp cs, (forall c, In c cs -> good c) ->
  total maxp (map isp cs) = total maxp cs.
Proof.
  intros maxp. induction cs as [|c t IH]; intros Hg; [reflexivity|].
  cbn [map total]. rewrite IH by (intros; apply Hg; right; assumption).
  destruct (isp_rel maxp c (Hg c (or_introl eq_refl))) as [R _].
  now rewrite (rel_pend _ _ _ _ R).
Qed.

Lemma total_upd : forall maxp y l i x, nth_error l i = Some x ->
  length (pend maxp x) = S (length (pend maxp y)) ->
  S (total maxp (upd_nth i (fun _ => y) l)) = total maxp l.
Proof.
  intros maxp y. induction l as [|z t IH]; intros i x H Hl; destruct i; cbn [nth_error] in H;
    try discriminate.
  - inversion H; subst. cbn [upd_nth total]. lia.
  - cbn [upd_nth total]. rewrite <- (IH _ _ H Hl). lia.
Qed.

Lemma total_not_sending : forall maxp cs, (forall c, In c cs -> sending c = []) ->
  total maxp cs =
  length (concat (map (fun c => packets_of (ch_id (desc c)) maxp (queue c)) cs)).
Proof.
  intros maxp. induction cs as [|c t IH]; intros Hs; [reflexivity|].
  cbn [total map concat]. rewrite app_length.
  rewrite IH by (intros; apply Hs; right; assumption).
  unfold pend. rewrite (Hs c (or_introl eq_refl)). reflexivity.
Qed.

(** [l'] has, position by position, an [R]-related element for every element of [l] *)
Definition pointwise {A} (R : A -> A -> Prop) (l l' : list A) : Prop :=
  length l' = length l /\
  forall j x, nth_error l j = Some x -> exists x', nth_error l' j = Some x' /\ R x x'.

Lemma pointwise_map : forall A B (R : A -> A -> Prop) (g : A -> B) l l',
  pointwise R l l' -> (forall x x', R x x' -> g x' = g x) -> map g l' = map g l.
Proof.
  intros A B R g. induction l as [|x t IH]; intros l' [Hlen Hall] Hg.
  - destruct l'; [reflexivity|discriminate].
  - destruct l' as [|x' t']; [discriminate|]. cbn [map].
    destruct (Hall 0 x eq_refl) as (y & Hy & HR). cbn [nth_error] in Hy. inversion Hy; subst y.
    rewrite (Hg _ _ HR). f_equal. apply IH; [|exact Hg]. split.
    + cbn [length] in Hlen. lia.
    + intros j z Hz. apply (Hall (S j) z). exact Hz.
Qed.

Lemma pointwise_in : forall A (R : A -> A -> Prop) l l' x',
  pointwise R l l' -> In x' l' -> exists x, In x l /\ R x x'.
Proof.
  intros A R l l' x' [Hlen Hall] Hin. apply In_nth_error in Hin. destruct Hin as [j Hj].
  assert (Hlt : j < length l) by (rewrite <- Hlen; apply nth_error_Some; congruence).
  destruct (nth_error l j) as [x|] eqn:Hx; [|apply nth_error_None in Hx; lia].
  destruct (Hall j x Hx) as (y & Hy & HR). rewrite Hj in Hy. inversion Hy; subst y.
  exists x. split; [eapply nth_error_In; exact Hx | exact HR].
Qed.

Lemma proj_app id ps qs : proj id (ps ++ qs) = proj id ps ++ proj id qs.
Proof. apply filter_app. Qed.

(** One sendPacketMsg over channels with distinct byte ids and no empty message queued: either
    nothing is pending anywhere, or one packet is written; every channel is then a later state
    of itself, having emitted that packet if it is addressed to it and nothing otherwise. *)
Lemma send_step : forall maxp cs cs1 op ex, 0 < maxp ->
  NoDup (map cid cs) -> (forall c, In c cs -> (cid c < 256)%N) -> (forall c, In c cs -> good c) ->
  send_packet_msg maxp cs = (cs1, op, ex) ->
  (ex = true /\ op = None /\ cs1 = cs /\ forall c, In c cs -> idle c) \/
  (ex = false /\ exists p, op = Some p /\ S (total maxp cs1) = total maxp cs /\
     pointwise (fun c c1 => rel maxp c c1 (proj (cid c) [p])) cs cs1).
Proof.
  intros maxp cs cs1 op ex Hp Hnd H256 Hgood Hs. apply send_cases in Hs.
  destruct Hs as [(-> & -> & -> & Hnp)|(-> & i & ci & n & p & c' & Hi & Hpend & Hnext & -> & ->)].
  - left. split; [reflexivity|]. split; [reflexivity|].
    assert (Hidle : forall c, In c cs -> idle c /\ isp c = c).
    { intros c Hc. now apply (isp_rel maxp c (Hgood c Hc)), Hnp. }
    split; [|intros c Hc; now apply Hidle].
    rewrite <- (map_id cs) at 2. apply map_ext_in. intros c Hc. now apply Hidle.
  - right. split; [reflexivity|]. exists p. split; [reflexivity|].
    assert (Hini : In ci cs) by (eapply nth_error_In; eassumption).
    destruct (isp_rel maxp ci (Hgood ci Hini)) as (R1 & Hne & _). specialize (Hne Hpend).
    destruct (next_rel maxp (isp ci) n p c' Hp (rel_good _ _ _ _ R1) Hne Hnext)
      as (R2 & eof & data & Hpk).
    pose proof (rel_trans _ _ _ _ _ _ R1 R2) as R. cbn [app] in R.
    assert (Hi1 : nth_error (map isp cs) i = Some (isp ci)) by (apply map_nth_error; assumption).
    split.
    { rewrite <- (total_map_isp maxp cs Hgood). apply (total_upd maxp _ _ _ _ Hi1).
      now rewrite (rel_pend _ _ _ _ R2). }
    split; [now rewrite upd_nth_length, map_length|].
    intros j c Hj. assert (Hinc : In c cs) by (eapply nth_error_In; eassumption).
    (* the packet carries the id of channel i *)
    pose proof (rel_cid _ _ _ _ R1) as Hcid1.
    rewrite Hcid1 in Hpk. rewrite Hpk, proj_cons_msg, byte_of_int32_of_N, <- Hpk by now apply H256.
    destruct (Nat.eq_dec j i) as [->|Hji].
    + rewrite Hi in Hj. inversion Hj; subst c. rewrite N.eqb_refl.
      exists (bump n c'). split; [|exact R].
      apply (nth_error_upd_nth_eq _ (fun _ => bump n c') _ _ _ Hi1).
    + exists (isp c). split.
      { rewrite nth_error_upd_nth_neq by assumption. now apply map_nth_error. }
      replace (cid ci =? cid c)%N with false; [apply (isp_rel maxp c (Hgood c Hinc))|].
      (* distinct positions carry distinct ids *)
      symmetry. apply N.eqb_neq. intros Heq. apply Hji.
      apply (proj1 (NoDup_nth_error (map cid cs)) Hnd j i).
      * rewrite map_length. apply nth_error_Some. congruence.
      * now rewrite (map_nth_error cid _ _ Hj), (map_nth_error cid _ _ Hi), Heq.
Qed.

(** Calling sendPacketMsg until it reports "exhausted", with more fuel than packets to emit:
    exhaustion is reached; every channel ends idle, a later state of itself that has emitted
    exactly what the packets written show for its id. *)
Lemma drain_spec : forall maxp, 0 < maxp -> forall fuel cs,
  NoDup (map cid cs) -> (forall c, In c cs -> (cid c < 256)%N) -> (forall c, In c cs -> good c) ->
  total maxp cs < fuel ->
  exists cs' ps, drain fuel maxp cs = (cs', ps, true) /\
    pointwise (fun c c' => idle c' /\ rel maxp c c' (proj (cid c) ps)) cs cs'.
Proof.
  intros maxp Hp. induction fuel as [|fuel IH]; intros cs Hnd H256 Hgood Htot; [lia|].
  cbn [drain]. destruct (send_packet_msg maxp cs) as [[cs1 op] ex] eqn:Hs.
  destruct (send_step maxp cs cs1 op ex Hp Hnd H256 Hgood Hs)
    as [(-> & -> & -> & Hidle)|(-> & p & -> & Htot1 & Hall1)].
  - exists cs, []. split; [reflexivity|]. split; [reflexivity|].
    intros j c Hj. assert (Hin : In c cs) by (eapply nth_error_In; eassumption).
    exists c. split; [exact Hj|]. split; [now apply Hidle | now apply rel_refl, Hgood].
  - assert (Hinv : forall c1, In c1 cs1 -> exists c, In c cs /\ cid c1 = cid c /\ good c1).
    { intros c1 Hc1. destruct (pointwise_in _ _ _ _ _ Hall1 Hc1) as (c & Hc & HR).
      exists c. split; [exact Hc|]. split; [eapply rel_cid | eapply rel_good]; exact HR. }
    destruct (IH cs1) as (cs' & ps' & Hd & Hlen & Hall).
    + rewrite (pointwise_map _ _ _ cid _ _ Hall1); [exact Hnd|]. intros c c1. apply rel_cid.
    + intros c1 Hc1. destruct (Hinv c1 Hc1) as (c & Hc & -> & _). now apply H256.
    + intros c1 Hc1. destruct (Hinv c1 Hc1) as (c & _ & _ & Hg). exact Hg.
    + lia.
    + rewrite Hd. exists cs', (p :: ps'). split; [reflexivity|].
      split; [rewrite Hlen; apply Hall1|].
      intros j c Hj. destruct (proj2 Hall1 j c Hj) as (c1 & Hj1 & R1).
      destruct (Hall j c1 Hj1) as (c2 & Hj2 & Hidle & R2).
      exists c2. split; [exact Hj2|]. split; [exact Hidle|].
      rewrite (rel_cid _ _ _ _ R1) in R2. change (p :: ps') with ([p] ++ ps').
      rewrite proj_app. exact (rel_trans _ _ _ _ _ _ R1 R2).
Qed.

(** Sender completeness for non-empty messages.

    Channels with distinct byte ids, nothing in progress, every queued message non-empty:
    calling sendPacketMsg until exhaustion (any fuel above the number of packets to emit)
    does reach exhaustion; whatever the interleaving chosen by the least-ratio selection,
    the packets written, projected on each channel, are exactly the packets of that channel's
    queued messages in order; every queue ends empty with nothing in progress, and
    sendQueueSize has gone down by the number of messages that were queued. *)
Lemma sender_emits_all : forall maxp cs fuel,
  0 < maxp ->
  NoDup (map (fun c => ch_id (desc c)) cs) ->
  (forall c, In c cs -> (ch_id (desc c) < 256)%N) ->
  (forall c m, In c cs -> In m (queue c) -> m <> []) ->
  (forall c, In c cs -> sending c = []) ->
  length (concat (map (fun c => packets_of (ch_id (desc c)) maxp (queue c)) cs)) < fuel ->
  exists cs' ps,
    drain fuel maxp cs = (cs', ps, true) /\
    map desc cs' = map desc cs /\
    (forall c', In c' cs' -> queue c' = [] /\ sending c' = []) /\
    (forall c, In c cs ->
       proj (ch_id (desc c)) ps = packets_of (ch_id (desc c)) maxp (queue c)) /\
    (forall j c c', nth_error cs j = Some c -> nth_error cs' j = Some c' ->
       qsize c' = (qsize c - Z.of_nat (length (queue c)))%Z).
Proof.
  intros maxp cs fuel Hp Hnd H256 Hne Hns Hfuel.
  (* [cid c] is [ch_id (desc c)], spelled out in the statement *)
  destruct (drain_spec maxp Hp fuel cs Hnd H256) as (cs' & ps & Hd & Hall).
  { intros c Hc m Hm. eapply Hne; eassumption. }
  { rewrite total_not_sending; assumption. }
  exists cs', ps. split; [assumption|]. split; [|split; [|split]].
  - apply (pointwise_map _ _ _ desc _ _ Hall). intros c c' (_ & R). exact (rel_desc _ _ _ _ R).
  - intros c' Hin. destruct (pointwise_in _ _ _ _ _ Hall Hin) as (c & _ & I & _). exact I.
  - intros c Hin. apply In_nth_error in Hin. destruct Hin as [j Hj].
    destruct (proj2 Hall j c Hj) as (c' & _ & I & R). apply rel_pend in R. rename R into P.
    unfold pend at 1 in P. rewrite (Hns c (nth_error_In _ _ Hj)), (idle_pend maxp c' I), app_nil_r in P.
    symmetry. exact P.
  - intros j c c' Hj Hj'. destruct (proj2 Hall j c Hj) as (c2 & Hc2 & [Iq Is] & R).
    rewrite Hj' in Hc2. inversion Hc2; subst c2. pose proof (rel_bal _ _ _ _ R) as B.
    unfold bal in B. rewrite (owed_nil c' Is) in B. rewrite Iq in B.
    rewrite (owed_nil c (Hns c (nth_error_In _ _ Hj))) in B. cbn [length] in B. lia.
Qed.

(** [known_channels] for a concrete stream, by evaluation *)
Lemma known_channels_check : forall descs ps,
  forallb (fun p => match pkt_ch p with
                    | Some c => existsb (fun d => (ch_id d =? c)%N) descs
                    | None => true
                    end) ps = true ->
  known_channels descs ps.
Proof.
  intros descs ps H p c Hin Hc. rewrite forallb_forall in H. specialize (H p Hin).
  rewrite Hc in H. apply existsb_exists in H. destruct H as (d & Hd & E).
  exists d. split; [exact Hd | now apply N.eqb_eq].
Qed.

(** The hypotheses of the theorems are satisfiable. *)

Definition ex_msgs (id : N) : list bytes :=
  if (id =? 1)%N then [ex_msg10; [7%N]]
  else if (id =? 2)%N then [[]; [5; 5; 5; 5; 5]%N] else [].

(** two channels, payload 4, interleaved with each other and with ping/pong *)
Definition ex_stream : list packet :=
  [PktPing;
   PktMsg 1 false [1; 2; 3; 4]%N;
   PktMsg 2 true [];
   PktMsg 2 false [5; 5; 5; 5]%N;
   PktMsg 1 false [5; 6; 7; 8]%N;
   PktPong;
   PktMsg 1 true [9; 10]%N;
   PktMsg 2 true [5%N];
   PktMsg 1 true [7%N]].

Example msg_exactly_once_example :
  exists evs,
    recv_stream (max_packet_msg_size 4) (map new_chan [ex_d1; ex_d2]) ex_stream = (evs, None) /\
    forall d, In d [ex_d1; ex_d2] -> events_of (ch_id d) evs = ex_msgs (ch_id d).
Proof.
  apply msg_exactly_once.
  - lia.
  - constructor; [intros [H|[]]; discriminate|]. constructor; [intros []|]. constructor.
  - intros d [<-|[<-|[]]]; reflexivity.
  - intros d m [<-|[<-|[]]] Hm; vm_compute in Hm; destruct Hm as [<-|[<-|[]]];
      vm_compute; discriminate.
  - apply known_channels_check. reflexivity.
  - intros d [<-|[<-|[]]]; vm_compute; reflexivity.
Qed.

Example oversize_example :
  let d := {| ch_id := 1; ch_prio := 1; ch_sendcap := 10; ch_recvcap := 3 |} in
  let stream := packets_of 1 2 [[9%N]] ++ [PktPing] ++ packetise 1 2 [1; 2; 3; 4; 5]%N in
  forall evs r,
    recv_stream (max_packet_msg_size 2) (map new_chan [d; ex_d2]) stream = (evs, r) ->
    r <> None /\ exists k, events_of 1 evs = firstn k [[9%N]].
Proof.
  intros d stream evs r H.
  apply (oversize 2 [d; ex_d2] d stream [[9%N]] [1; 2; 3; 4; 5]%N [] evs r).
  - lia.
  - constructor; [intros [H0|[]]; discriminate|]. constructor; [intros []|]. constructor.
  - left. reflexivity.
  - reflexivity.
  - reflexivity.
  - vm_compute. reflexivity.
  - exact H.
Qed.

Example sender_emits_all_example :
  let '(c1, _) := try_send (new_chan ex_d1) ex_msg10 in
  let '(c2, _) := try_send (new_chan ex_d2) [5; 5; 5; 5; 5]%N in
  exists cs' ps,
    drain 10 4 [c1; c2] = (cs', ps, true) /\
    proj 1 ps = packets_of 1 4 [ex_msg10] /\ proj 2 ps = packets_of 2 4 [[5; 5; 5; 5; 5]%N] /\
    map qsize cs' = [0%Z; 0%Z].
Proof.
  (* the run is evaluated alone: normalising the whole goal would expand [proj] and the byte
     arithmetic under the binders into very large terms *)
  do 2 eexists. split; [vm_compute; reflexivity|]. repeat split; reflexivity.
Qed.
