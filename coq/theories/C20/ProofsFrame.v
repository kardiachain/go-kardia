(** C20 — frame layer: the reader against a session (ProofsFrameBase.v, re-exported here): over its
    genuine frames followed by anything that does not open, and over an arbitrary wire.  The
    theorems about a wire that agrees with the session on its first j frames, and about the genuine
    stream, follow; they are then read off for the sessions that [write_many] produces. *)
From Coq Require Import List ZArith NArith Bool Arith Lia.
From Kardia Require Import Generated.C20Facts C20.Model C20.Spec.
From Kardia Require Export C20.ProofsFrameBase.
Import ListNotations.

Local Opaque data_len_size data_max_size total_frame_size aead_size_overhead aead_nonce_size
  sealed_size.

Lemma delivered_ok d rs : delivered (ROk d :: rs) = d ++ delivered rs.
Proof. reflexivity. Qed.

Lemma delivered_err e rs : delivered (RErr e :: rs) = delivered rs.
Proof. reflexivity. Qed.

(** a read delivers the first [n] bytes of the pending plaintext [buf ++ more] *)
Lemma prefix_more (buf more : bytes) n rs :
  (exists rest, skipn n buf ++ more = delivered rs ++ rest) ->
  exists rest, buf ++ more = delivered (ROk (firstn n buf) :: rs) ++ rest.
Proof.
  intros (rest & E). exists rest.
  now rewrite delivered_ok, <- app_assoc, <- E, app_assoc, firstn_skipn.
Qed.

(** what a read that ends at the tail of the agreed prefix may report *)
Definition tail_case (tail : bytes) (e : rerr) : Prop :=
  (tail = [] /\ e = REof) \/
  (tail <> [] /\ length tail < sealed_size /\ e = RUnexpectedEof) \/
  (sealed_size <= length tail /\ e = RDecrypt).

(** What a run of reads that stops at the first error reports, when [pending] is the genuine
    plaintext not yet delivered and [tail] is what follows the genuine frames on the wire: a prefix
    of [pending]; an error only once all of it is delivered, and then the one [tail_case] names;
    with positive buffers, an error or at least one byte per read. *)
Definition reads_ok (pending tail : bytes) (caps : list nat) (rs : list rres) : Prop :=
  (exists rest, pending = delivered rs ++ rest) /\
  (forall e, In (RErr e) rs -> delivered rs = pending /\ tail_case tail e) /\
  (Forall (fun c => 0 < c) caps -> (exists e, In (RErr e) rs) \/ length caps <= length (delivered rs)).

Lemma reads_ok_nil pending tail : reads_ok pending tail [] [].
Proof.
  split; [now exists pending|]. split; [intros e []|]. intros _. right. apply Nat.le_refl.
Qed.

Lemma reads_ok_err tail e cap caps : tail_case tail e -> reads_ok [] tail (cap :: caps) [RErr e].
Proof.
  intros Ht. split; [now exists []|]. split.
  - intros e' [E|[]]. inversion E; subst e'. now split.
  - intros _. left. exists e. now left.
Qed.

Lemma reads_ok_more (buf more tail : bytes) cap caps rs :
  buf <> [] ->
  reads_ok (skipn (Nat.min cap (length buf)) buf ++ more) tail caps rs ->
  reads_ok (buf ++ more) tail (cap :: caps) (ROk (firstn (Nat.min cap (length buf)) buf) :: rs).
Proof.
  intros Hne (H1 & H2 & H3). split; [now apply prefix_more|]. split.
  - intros e [He|He]; [discriminate He|]. destruct (H2 e He) as (Hd & Ht). split; [|exact Ht].
    now rewrite delivered_ok, Hd, app_assoc, firstn_skipn.
  - intros HF. inversion HF as [|? ? Hcap HF']; subst.
    destruct (H3 HF') as [(e & He)|Hlen]; [left; exists e; now right|right].
    rewrite delivered_ok, app_length, firstn_length.
    destruct buf; [congruence|]. cbn [length] in *. lia.
Qed.

Section Reader.
  Variable key : Type.
  Variable seal : key -> nonce -> bytes -> bytes.
  Variable open_ : key -> nonce -> bytes -> option bytes.
  Variable pad : nat -> bytes.
  Hypothesis AE : aead_ok key seal open_.
  Hypothesis PD : pad_ok pad.

  Lemma read_buf st wire cap x l :
    recv_buffer st = x :: l ->
    read key open_ st wire cap =
    (set_recv key st (recv_nonce st) (skipn (Nat.min cap (length (x :: l))) (x :: l)), wire,
     ROk (firstn (Nat.min cap (length (x :: l))) (x :: l))).
  Proof. intros H. unfold read. rewrite H. reflexivity. Qed.

  Lemma read_short st wire cap :
    recv_buffer st = [] -> length wire < sealed_size ->
    read key open_ st wire cap =
    (st, [], RErr (match wire with [] => REof | _ => RUnexpectedEof end)).
  Proof.
    intros H Hs. unfold read. rewrite H. apply Nat.ltb_lt in Hs. rewrite Hs. reflexivity.
  Qed.

  Lemma read_nodec st wire cap :
    recv_buffer st = [] -> sealed_size <= length wire ->
    open_ (recv_key st) (recv_nonce st) (firstn sealed_size wire) = None ->
    read key open_ st wire cap = (st, skipn sealed_size wire, RErr RDecrypt).
  Proof.
    intros H Hs Ho. unfold read. rewrite H. apply Nat.ltb_ge in Hs. rewrite Hs.
    cbv zeta. rewrite Ho. reflexivity.
  Qed.

  Lemma read_genuine st wire cap c ch :
    recv_buffer st = [] -> recv_nonce st = nonce_of c -> (c < max_u64)%N ->
    length ch <= data_max_size -> sealed_size <= length wire ->
    open_ (recv_key st) (nonce_of c) (firstn sealed_size wire) = Some (mk_frame pad ch) ->
    read key open_ st wire cap =
    (set_recv key st (nonce_of (c + 1)) (skipn (Nat.min cap (length ch)) ch),
     skipn sealed_size wire, ROk (firstn (Nat.min cap (length ch)) ch)).
  Proof.
    intros Hb Hn Hc Hl Hs Ho. unfold read. rewrite Hb, Hn.
    apply Nat.ltb_ge in Hs. rewrite Hs. cbv zeta.
    rewrite Ho, incr_nonce_of by exact Hc.
    rewrite (mk_frame_declen pad) by exact Hl. rewrite mk_frame_chunk.
    destruct (N.ltb_spec (N.of_nat data_max_size) (N.of_nat (length ch))); [lia|].
    reflexivity.
  Qed.

  (** a genuine sealed frame at the head of the wire *)
  Lemma read_genuine_head st rest cap c ch :
    recv_buffer st = [] -> recv_nonce st = nonce_of c -> (c < max_u64)%N ->
    length ch <= data_max_size ->
    read key open_ st (seal (recv_key st) (nonce_of c) (mk_frame pad ch) ++ rest) cap =
    (set_recv key st (nonce_of (c + 1)) (skipn (Nat.min cap (length ch)) ch),
     rest, ROk (firstn (Nat.min cap (length ch)) ch)).
  Proof.
    intros Hb Hn Hc Hl.
    pose proof (sealed_frame_length key seal open_ pad AE PD (recv_key st) (nonce_of c) ch Hl)
      as Hlen.
    rewrite (read_genuine st _ cap c ch Hb Hn Hc Hl).
    - now rewrite skipn_app_exact.
    - rewrite app_length. lia.
    - rewrite firstn_app_exact by exact Hlen. apply (aead_open_seal _ _ _ AE).
  Qed.

  (** a read whose next block is missing, cut short or does not open fails and leaves the state
      as it is; what it took is the front of the wire *)
  Lemma read_fails st wire cap :
    recv_buffer st = [] ->
    (length wire < sealed_size \/
     open_ (recv_key st) (recv_nonce st) (firstn sealed_size wire) = None) ->
    exists pre w e,
      wire = pre ++ w /\ read key open_ st wire cap = (st, w, RErr e) /\ tail_case wire e.
  Proof.
    intros Hbuf Ht. destruct (Nat.lt_ge_cases (length wire) sealed_size) as [Hs|Hs].
    - exists wire, []. rewrite (read_short st wire cap Hbuf Hs). eexists.
      split; [now rewrite app_nil_r|]. split; [reflexivity|].
      destruct wire; [left; auto | right; left]. split; [discriminate | auto].
    - destruct Ht as [Ht|Ht]; [lia|].
      exists (firstn sealed_size wire), (skipn sealed_size wire).
      rewrite (read_nodec st wire cap Hbuf Hs Ht). eexists.
      split; [now rewrite firstn_skipn|]. split; [reflexivity|]. right; right. auto.
  Qed.

  (** The reader that stops at the first error, over the genuine frames of [cs1] followed by
      [tail]. *)
  Lemma run_genuine k tail : forall caps b c cs1 b' w' rs,
    recv_key b = k -> recv_nonce b = nonce_of c ->
    (c + N.of_nat (length cs1) <= max_u64)%N ->
    (forall ch, In ch cs1 -> 0 < length ch <= data_max_size) ->
    (length tail < sealed_size \/
     open_ k (nonce_of (c + N.of_nat (length cs1))) (firstn sealed_size tail) = None) ->
    read_until_err key open_ b
      (concat (seal_seq key seal k c (map (mk_frame pad) cs1)) ++ tail) caps = (b', w', rs) ->
    reads_ok (recv_buffer b ++ concat cs1) tail caps rs.
  Proof.
    induction caps as [|cap caps IH]; intros b c cs1 b' w' rs Hk Hn Hb Hcs Ht Hr;
      cbn [read_until_err] in Hr.
    - inversion Hr. apply reads_ok_nil.
    - destruct (recv_buffer b) as [|x l] eqn:Hbuf; [destruct cs1 as [|ch cs2]|].
      + (* no genuine frame left: the read looks at the tail *)
        cbn [length] in Ht. change (N.of_nat 0) with 0%N in Ht.
        rewrite N.add_0_r, <- Hk, <- Hn in Ht.
        destruct (read_fails b tail cap Hbuf Ht) as (pre & w & e & _ & E & Hcase).
        cbn [map seal_seq concat app] in Hr. rewrite E in Hr. inversion Hr.
        now apply reads_ok_err.
      + (* a genuine frame *)
        assert (Hch : 0 < length ch <= data_max_size) by (apply Hcs; now left).
        cbn [length] in Hb, Ht. rewrite Nat2N.inj_succ in Hb, Ht.
        cbn [map seal_seq concat] in Hr. rewrite <- app_assoc, <- Hk in Hr.
        rewrite (read_genuine_head b _ cap c ch Hbuf Hn) in Hr by lia.
        cbv beta iota in Hr. rewrite Hk in Hr.
        destruct (read_until_err key open_ _ _ caps) as [[b2 w2] rs2] eqn:E.
        inversion Hr; subst b2 w2 rs.
        apply IH with (c := (c + 1)%N) (cs1 := cs2) in E;
          [ | exact Hk | reflexivity | lia | intros ch' H'; apply Hcs; now right | ].
        * cbn [app concat]. apply reads_ok_more; [|exact E]. intros ->. cbn [length] in Hch. lia.
        * now replace (c + 1 + N.of_nat (length cs2))%N
            with (c + N.succ (N.of_nat (length cs2)))%N by lia.
      + (* bytes left over from the previous frame *)
        rewrite (read_buf b _ cap x l Hbuf) in Hr. cbv beta iota in Hr.
        destruct (read_until_err key open_ _ _ caps) as [[b2 w2] rs2] eqn:E.
        inversion Hr; subst b2 w2 rs.
        apply IH with (c := c) (cs1 := cs1) in E;
          [ | exact Hk | exact Hn | exact Hb | exact Hcs | exact Ht ].
        apply reads_ok_more; [discriminate | exact E].
  Qed.

  Lemma forgery_prepend k c fs x w :
    forgery key seal k c fs w -> forgery key seal k c fs (x ++ w).
  Proof.
    intros (i & p & pre & post & -> & Hn). exists i, p, (x ++ pre), post.
    split; [now rewrite app_assoc | exact Hn].
  Qed.

  Lemma forgery_shift k c f fs x w :
    forgery key seal k (c + 1) fs w -> forgery key seal k c (f :: fs) (x ++ w).
  Proof.
    intros (i & p & pre & post & -> & Hn). exists (S i), p, (x ++ pre), post.
    split; [|exact Hn].
    rewrite <- app_assoc.
    replace (c + N.of_nat (S i))%N with (c + 1 + N.of_nat i)%N by lia. reflexivity.
  Qed.

  (** a block at position [i] that opens to something the writer did not seal there *)
  Lemma forgery_at k c fs pre w i p :
    firstn sealed_size w = seal k (nonce_of (c + N.of_nat i)) p -> nth_error fs i <> Some p ->
    forgery key seal k c fs (pre ++ w).
  Proof.
    intros Hw Hn. exists i, p, pre, (skipn sealed_size w). split; [|exact Hn].
    now rewrite <- Hw, firstn_skipn.
  Qed.

  Lemma forgery_head k c fs w p :
    firstn sealed_size w = seal k (nonce_of c) p -> nth_error fs 0 <> Some p ->
    forgery key seal k c fs w.
  Proof.
    intros Hw Hn. apply (forgery_at k c fs [] w 0 p); [|exact Hn].
    change (N.of_nat 0) with 0%N. now rewrite N.add_0_r.
  Qed.

  (** The reader that ignores errors, over an arbitrary wire. *)
  Lemma run_tamper k : forall caps b c cs1 wire b' w' rs,
    recv_key b = k -> recv_nonce b = nonce_of c ->
    (c + N.of_nat (length cs1) <= max_u64)%N ->
    (forall ch, In ch cs1 -> 0 < length ch <= data_max_size) ->
    read_many key open_ b wire caps = (b', w', rs) ->
    (exists rest, recv_buffer b ++ concat cs1 = delivered rs ++ rest) \/
    forgery key seal k c (map (mk_frame pad) cs1) wire.
  Proof.
    induction caps as [|cap caps IH]; intros b c cs1 wire b' w' rs Hk Hn Hb Hcs Hr;
      cbn [read_many] in Hr.
    - inversion Hr; subst. left. now exists (recv_buffer b' ++ concat cs1).
    - destruct (recv_buffer b) as [|x l] eqn:Hbuf.
      + assert (Hfail : length wire < sealed_size \/
                        open_ k (nonce_of c) (firstn sealed_size wire) = None ->
                        (exists rest, [] ++ concat cs1 = delivered rs ++ rest) \/
                        forgery key seal k c (map (mk_frame pad) cs1) wire).
        { (* the read fails: state unchanged, the rest of the wire is read on *)
          intros Hf. rewrite <- Hk, <- Hn in Hf.
          destruct (read_fails b wire cap Hbuf Hf) as (pre & w & e & -> & E & _).
          rewrite E in Hr. cbv beta iota in Hr.
          destruct (read_many key open_ b w caps) as [[b2 w2] rs2] eqn:E2.
          inversion Hr; subst b2 w2 rs. rewrite delivered_err.
          apply IH with (c := c) (cs1 := cs1) in E2; auto.
          rewrite Hbuf in E2. destruct E2 as [E2|E2]; [now left | right; now apply forgery_prepend]. }
        destruct (Nat.lt_ge_cases (length wire) sealed_size) as [Hs|Hs]; [now apply Hfail; left|].
        destruct (open_ k (nonce_of c) (firstn sealed_size wire)) as [p|] eqn:Ho;
          [|now apply Hfail; right].
        (* the block opens: either it is the genuine next frame, or a forgery *)
        pose proof (aead_open_auth _ _ _ AE _ _ _ _ Ho) as Hblk.
        destruct cs1 as [|ch cs2].
        * right. apply (forgery_head k c _ wire p Hblk). discriminate.
        * destruct (list_eq_dec N.eq_dec (mk_frame pad ch) p) as [Ep|Ep].
          -- subst p. cbn [length] in Hb. rewrite Nat2N.inj_succ in Hb.
             assert (Hch : 0 < length ch <= data_max_size) by (apply Hcs; now left).
             rewrite <- Hk in Ho.
             rewrite (read_genuine b wire cap c ch Hbuf Hn) in Hr by (auto; lia).
             cbv beta iota in Hr.
             destruct (read_many key open_ _ _ caps) as [[b2 w2] rs2] eqn:E.
             inversion Hr; subst b2 w2 rs.
             apply IH with (c := (c + 1)%N) (cs1 := cs2) in E;
               [ | exact Hk | reflexivity | lia | intros ch' H'; apply Hcs; now right ].
             destruct E as [E|E].
             ++ left. cbn [app concat]. now apply prefix_more.
             ++ right. rewrite <- (firstn_skipn sealed_size wire).
                cbn [map]. now apply forgery_shift.
          -- right. apply (forgery_head k c _ wire p Hblk). cbn [map nth_error].
             intros H; inversion H; contradiction.
      + (* bytes left over from the previous frame *)
        rewrite (read_buf b _ cap x l Hbuf) in Hr. cbv beta iota in Hr.
        destruct (read_many key open_ _ _ caps) as [[b2 w2] rs2] eqn:E.
        inversion Hr; subst b2 w2 rs.
        apply IH with (c := c) (cs1 := cs1) in E; auto.
        destruct E as [E|E]; [left|now right]. now apply prefix_more.
  Qed.

  (** The reader, at the start of the session [k], [c0], [cs], over a wire that carries the first
      [j] frames of the session and then [tail]. *)
  Lemma session_prefix : forall (b : conn key) k c0 cs j tail caps b' w' rs,
    recv_key b = k -> recv_nonce b = nonce_of c0 -> recv_buffer b = [] ->
    (c0 + N.of_nat (length cs) <= max_u64)%N ->
    (forall ch, In ch cs -> 0 < length ch <= data_max_size) ->
    j <= length cs ->
    (length tail < sealed_size \/
     open_ k (nonce_of (c0 + N.of_nat j)) (firstn sealed_size tail) = None) ->
    read_until_err key open_ b
      (concat (firstn j (seal_seq key seal k c0 (map (mk_frame pad) cs))) ++ tail) caps = (b', w', rs) ->
    reads_ok (concat (firstn j cs)) tail caps rs.
  Proof.
    intros b k c0 cs j tail caps b' w' rs Hk Hrn Hbuf Hb Hcs Hj Ht Hr.
    rewrite (firstn_seal_seq key seal), firstn_map in Hr.
    apply (run_genuine k tail) with (c := c0) (cs1 := firstn j cs) in Hr.
    - rewrite Hbuf in Hr. exact Hr.
    - exact Hk.
    - exact Hrn.
    - rewrite firstn_length_le by lia. lia.
    - intros ch Hch. apply Hcs. eapply in_firstn_in; exact Hch.
    - rewrite firstn_length_le by lia. exact Ht.
  Qed.

  (** ... where [tail] does not begin with frame [j] of the session: unless that block is a
      forgery, the read that reaches it fails *)
  Lemma session_detected : forall (b : conn key) k c0 cs j tail caps b' w' rs,
    recv_key b = k -> recv_nonce b = nonce_of c0 -> recv_buffer b = [] ->
    (c0 + N.of_nat (length cs) <= max_u64)%N ->
    (forall ch, In ch cs -> 0 < length ch <= data_max_size) ->
    j <= length cs ->
    (forall f, nth_error (seal_seq key seal k c0 (map (mk_frame pad) cs)) j = Some f ->
               firstn sealed_size tail <> f) ->
    read_until_err key open_ b
      (concat (firstn j (seal_seq key seal k c0 (map (mk_frame pad) cs))) ++ tail) caps = (b', w', rs) ->
    forgery key seal k c0 (map (mk_frame pad) cs)
            (concat (firstn j (seal_seq key seal k c0 (map (mk_frame pad) cs))) ++ tail) \/
    ((exists rest, concat (firstn j cs) = delivered rs ++ rest) /\
     (forall e, In (RErr e) rs -> delivered rs = concat (firstn j cs) /\ tail_case tail e)).
  Proof.
    intros b k c0 cs j tail caps b' w' rs Hk Hrn Hbuf Hb Hcs Hj Hdiff Hr.
    destruct (open_ k (nonce_of (c0 + N.of_nat j)) (firstn sealed_size tail)) as [p|] eqn:Ho.
    - (* the block at position j opens, to something other than frame j *)
      left. pose proof (aead_open_auth _ _ _ AE _ _ _ _ Ho) as Hblk.
      apply (forgery_at _ _ _ _ _ j p Hblk).
      intros Hnth. apply (Hdiff (seal k (nonce_of (c0 + N.of_nat j)) p)); [|exact Hblk].
      rewrite (seal_seq_nth key seal), Hnth. reflexivity.
    - right. destruct (session_prefix b k c0 cs j tail caps b' w' rs Hk Hrn Hbuf Hb Hcs Hj
                         (or_intror Ho) Hr) as (H1 & H2 & _). split; assumption.
  Qed.

  (** ... and over exactly the frames of the session *)
  Lemma session_exact : forall (b : conn key) k c0 cs caps b' w' rs,
    recv_key b = k -> recv_nonce b = nonce_of c0 -> recv_buffer b = [] ->
    (c0 + N.of_nat (length cs) <= max_u64)%N ->
    (forall ch, In ch cs -> 0 < length ch <= data_max_size) ->
    read_until_err key open_ b
      (concat (seal_seq key seal k c0 (map (mk_frame pad) cs))) caps = (b', w', rs) ->
    (exists rest, concat cs = delivered rs ++ rest) /\
    (forall e, In (RErr e) rs -> e = REof /\ delivered rs = concat cs) /\
    (Forall (fun c => 0 < c) caps -> length (concat cs) < length caps -> In (RErr REof) rs).
  Proof.
    intros b k c0 cs caps b' w' rs Hk Hrn Hbuf Hb Hcs Hr.
    pose proof sealed_size_pos as Hss.
    rewrite <- (app_nil_r (concat _)) in Hr.
    apply (run_genuine k []) with (c := c0) (cs1 := cs) in Hr;
      [ | exact Hk | exact Hrn | exact Hb | exact Hcs | left; exact Hss ].
    rewrite Hbuf in Hr. cbn [app] in Hr. destruct Hr as (H1 & H2 & H3).
    assert (H2' : forall e, In (RErr e) rs -> e = REof /\ delivered rs = concat cs).
    { intros e He. destruct (H2 e He) as (Hd & [(_ & ->)|[(Hne & _)|(Hl & _)]]).
      - auto.
      - now elim Hne.
      - cbn [length] in Hl. lia. }
    split; [exact H1|]. split; [exact H2'|].
    intros HF Hlt. destruct (H3 HF) as [(e & He)|Hge].
    - destruct (H2' e He) as (-> & _). exact He.
    - destruct H1 as (rest & H1). rewrite H1, app_length in Hlt. lia.
  Qed.

  Theorem tamper_safety : forall a b c0 ws a' out w caps b' w' rs,
    paired key a b c0 ->
    (c0 + N.of_nat (length (chunks_of ws)) <= max_u64)%N ->
    write_many key seal pad a ws = (a', out) ->
    read_many key open_ b w caps = (b', w', rs) ->
    (exists rest, concat ws = delivered rs ++ rest) \/
    forgery key seal (send_key a) c0 (frames_of pad ws) w.
  Proof.
    intros a b c0 ws a' out w caps b' w' rs (Hk & Hsn & Hrn & Hbuf) Hb Hw Hr.
    apply (run_tamper (send_key a)) with (c := c0) (cs1 := chunks_of ws) in Hr;
      [ | now symmetry | exact Hrn | exact Hb | apply chunks_of_bounds ].
    rewrite Hbuf, chunks_of_concat in Hr. exact Hr.
  Qed.

  Theorem stream_exact : forall a b c0 ws a' out caps b' w' rs,
    paired key a b c0 ->
    (c0 + N.of_nat (length (chunks_of ws)) <= max_u64)%N ->
    write_many key seal pad a ws = (a', out) ->
    read_until_err key open_ b (concat out) caps = (b', w', rs) ->
    (exists rest, concat ws = delivered rs ++ rest) /\
    (forall e, In (RErr e) rs -> e = REof /\ delivered rs = concat ws) /\
    (Forall (fun c => 0 < c) caps -> length (concat ws) < length caps -> In (RErr REof) rs).
  Proof.
    intros a b c0 ws a' out caps b' w' rs (Hk & Hsn & Hrn & Hbuf) Hb Hw Hr.
    rewrite (write_many_spec key seal pad ws a a' out c0 Hsn Hb Hw) in Hr.
    rewrite <- (chunks_of_concat ws).
    exact (session_exact b _ c0 _ caps b' w' rs (eq_sym Hk) Hrn Hbuf Hb (chunks_of_bounds ws) Hr).
  Qed.

  Theorem tamper_detected : forall a b c0 ws a' out j tail caps b' w' rs,
    paired key a b c0 ->
    (c0 + N.of_nat (length (chunks_of ws)) <= max_u64)%N ->
    write_many key seal pad a ws = (a', out) ->
    j <= length out ->
    (forall f, nth_error out j = Some f -> firstn sealed_size tail <> f) ->
    read_until_err key open_ b (concat (firstn j out) ++ tail) caps = (b', w', rs) ->
    forgery key seal (send_key a) c0 (frames_of pad ws) (concat (firstn j out) ++ tail) \/
    ((exists rest, concat (firstn j (chunks_of ws)) = delivered rs ++ rest) /\
     (forall e, In (RErr e) rs ->
        delivered rs = concat (firstn j (chunks_of ws)) /\ tail_case tail e)).
  Proof.
    intros a b c0 ws a' out j tail caps b' w' rs (Hk & Hsn & Hrn & Hbuf) Hb Hw Hj.
    rewrite (write_many_out_length key seal pad a ws a' out c0 Hsn Hb Hw) in Hj.
    rewrite (write_many_spec key seal pad ws a a' out c0 Hsn Hb Hw).
    exact (session_detected b _ c0 _ j tail caps b' w' rs (eq_sym Hk) Hrn Hbuf Hb
             (chunks_of_bounds ws) Hj).
  Qed.
End Reader.
