(** C20 — MultiplexTransport.upgrade: the ID a peer is accepted under is tied to the key that
    signed this session's challenge (ideal signatures), to the dialed ID on outbound
    connections, and to nothing the far end merely says about itself.  Also the protoio
    length check. *)
From Coq Require Import List ZArith NArith Bool Arith.
From Kardia Require Import C20.Model C20.ProofsPacket.
Import ListNotations.

(** accepted under ID x  ==>  the far end's auth message carried the ideal signature of [claimed]
    over THIS session's challenge, x is the ID of that key, x is what the NodeInfo says, x is the
    dialed ID (outbound), x is not our own ID, and the NodeInfo passed validation/compatibility *)
Lemma upgrade_identity : forall idof self dialed ch claimed s ni x,
  upgrade idof self dialed ch claimed s ni = UpOk x ->
  s = SigOf claimed ch /\ x = idof claimed /\
  (forall d, dialed = Some d -> d = x) /\ x <> self /\
  exists i, ni = Some i /\ ni_id i = x /\ ni_valid i = true /\ ni_compat i = true.
Proof.
  intros idof self dialed ch claimed s ni x H. unfold upgrade in H.
  destruct (verify_auth ch claimed s) as [k|] eqn:Hv; [|discriminate].
  apply identity in Hv. destruct Hv as (-> & ->). cbv zeta in H.
  destruct (match dialed with Some d => negb (idof claimed =? d)%N | None => false end) eqn:Hd;
    [discriminate|].
  destruct ni as [i|]; [|discriminate].
  destruct (ni_valid i) eqn:Ev; cbn [negb] in H; [|discriminate].
  destruct (N.eqb_spec (idof claimed) (ni_id i)) as [Ei|Ei]; cbn [negb] in H; [|discriminate].
  destruct (N.eqb_spec self (ni_id i)) as [Es|Es]; [discriminate|].
  destruct (ni_compat i) eqn:Ec; cbn [negb] in H; [|discriminate].
  inversion H; subst x.
  split; [reflexivity|]. split; [now symmetry|]. split; [|split; [congruence | exists i; auto]].
  intros d ->. apply negb_false_iff, N.eqb_eq in Hd. congruence.
Qed.

(** the far end holds key m and signs honestly, its NodeInfo claims an ID that is not the ID of m:
    never accepted, whatever was dialed *)
Lemma upgrade_impostor_refused : forall idof self dialed ch m i,
  ni_id i <> idof m ->
  exists r, upgrade idof self dialed ch m (SigOf m ch) (Some i) = UpRej r.
Proof.
  intros idof self dialed ch m i Hne.
  destruct (upgrade idof self dialed ch m (SigOf m ch) (Some i)) as [x|r] eqn:E; [|now exists r].
  apply upgrade_identity in E. destruct E as (_ & -> & _ & _ & j & Hj & Hid & _).
  inversion Hj; subst j. now elim Hne.
Qed.

(** an honest far end is accepted: the hypotheses of [upgrade_identity] are satisfiable *)
Lemma upgrade_honest : forall idof self dialed ch k i,
  ni_id i = idof k -> ni_valid i = true -> ni_compat i = true -> idof k <> self ->
  (dialed = None \/ dialed = Some (idof k)) ->
  upgrade idof self dialed ch k (SigOf k ch) (Some i) = UpOk (idof k).
Proof.
  intros idof self dialed ch k i Hid Hv Hc Hs Hd. unfold upgrade, verify_auth.
  rewrite !N.eqb_refl. cbn [andb]. cbv zeta.
  assert (E : match dialed with Some d => negb (idof k =? d)%N | None => false end = false).
  { destruct Hd as [->| ->]; [reflexivity|]. now rewrite N.eqb_refl. }
  rewrite E, Hv, Hc, Hid, N.eqb_refl. cbn [negb].
  destruct (N.eqb_spec self (idof k)) as [Es|Es]; [now elim Hs|reflexivity].
Qed.

(** a failed secret-connection authentication is an authentication failure of the upgrade *)
Lemma upgrade_bad_signature : forall idof self dialed ch claimed s ni,
  s <> SigOf claimed ch -> upgrade idof self dialed ch claimed s ni = UpRej RejAuth.
Proof.
  intros idof self dialed ch claimed s ni Hs. unfold upgrade.
  destruct (verify_auth ch claimed s) as [k|] eqn:Hv; [|reflexivity].
  apply identity in Hv. now elim Hs.
Qed.

Lemma len_refused_above : forall maxsize len,
  (N.of_nat maxsize < len)%N -> len_refused maxsize len = true.
Proof.
  intros maxsize len H. unfold len_refused. apply orb_true_iff. right. now apply N.ltb_lt.
Qed.

(** a packet stream followed by a length prefix above the limit (in particular every value that
    is negative as a Go int): what was complete before is delivered, then the receiver stops
    with the size error *)
Lemma declared_length_refused : forall maxsize cs ps len evs,
  recv_stream maxsize cs ps = (evs, None) ->
  (N.of_nat maxsize < len \/ 9223372036854775807 < len)%N ->
  recv_stream_then_len maxsize cs ps len = (evs, Some MTooBig).
Proof.
  intros maxsize cs ps len evs H Hl. unfold recv_stream_then_len. rewrite H.
  replace (len_refused maxsize len) with true; [reflexivity|]. symmetry.
  destruct Hl as [Hl|Hl]; [now apply len_refused_above|].
  unfold len_refused. apply orb_true_iff. left. now apply N.ltb_lt.
Qed.
