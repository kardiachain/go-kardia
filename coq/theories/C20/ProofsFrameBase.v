(** C20 — frame layer: constants, nonces, chunking, frames and sealed sequences, the writer,
    the syntactic decomposition of a wire, and a concrete AEAD instance.

    What the reader theorems are about is a session: a key [k], a first counter [c0] and a list of
    chunks [cs] within the size bounds, on the wire as [seal_seq k c0 (map (mk_frame pad) cs)].
    [write_many_spec] says that a sequence of Write calls produces the session of its chunks. *)
From Coq Require Import List ZArith NArith Bool Arith Lia.
From Kardia Require Import Generated.C20Facts C20.Model C20.Spec.
Import ListNotations.

(** All that the frame-layer proofs use of the generated constants (beside [sealed_size_eq]); the
    constants are made opaque in each of the frame files. *)
Lemma facts_fit :
  data_len_size = 4 /\ total_frame_size = data_max_size + data_len_size /\
  aead_nonce_size = 12 /\ 0 < data_max_size /\ (N.of_nat data_max_size < 2^32)%N.
Proof.
  split; [reflexivity|]. split; [reflexivity|]. split; [reflexivity|].
  split; [apply Nat.ltb_lt; reflexivity | reflexivity].
Qed.

Lemma data_len_size_eq : data_len_size = 4.
Proof. apply facts_fit. Qed.

Lemma total_frame_size_eq : total_frame_size = data_max_size + data_len_size.
Proof. apply facts_fit. Qed.

Lemma aead_nonce_size_eq : aead_nonce_size = 12.
Proof. apply facts_fit. Qed.

Lemma data_max_size_pos : 0 < data_max_size.
Proof. apply facts_fit. Qed.

Lemma data_max_size_u32 : (N.of_nat data_max_size < 2^32)%N.
Proof. apply facts_fit. Qed.

Lemma sealed_size_eq : sealed_size = total_frame_size + aead_size_overhead.
Proof. reflexivity. Qed.

Lemma sealed_size_pos : 0 < sealed_size.
Proof. rewrite sealed_size_eq, total_frame_size_eq. pose proof data_max_size_pos. lia. Qed.

Local Opaque data_len_size data_max_size total_frame_size aead_size_overhead aead_nonce_size
  sealed_size.

Lemma firstn_app_exact {A} n (l1 l2 : list A) : length l1 = n -> firstn n (l1 ++ l2) = l1.
Proof.
  intros <-. rewrite firstn_app, Nat.sub_diag, firstn_O, firstn_all. apply app_nil_r.
Qed.

Lemma skipn_app_exact {A} n (l1 l2 : list A) : length l1 = n -> skipn n (l1 ++ l2) = l2.
Proof.
  intros <-. rewrite skipn_app, Nat.sub_diag, skipn_all. reflexivity.
Qed.

Lemma in_firstn_in {A} (x : A) : forall n l, In x (firstn n l) -> In x l.
Proof.
  induction n as [|n IH]; intros l H; [destruct H|].
  destruct l as [|y l]; [destruct H|]. cbn [firstn] in H.
  destruct H as [H|H]; [now left | right; auto].
Qed.

Lemma le_encode_length n v : length (le_encode n v) = n.
Proof. revert v; induction n as [|n IH]; intros v; cbn [le_encode length]; auto. Qed.

Lemma le_decode_encode n v : (v < 256 ^ N.of_nat n)%N -> le_decode (le_encode n v) = v.
Proof.
  revert v; induction n as [|n IH]; intros v Hv.
  - change (256 ^ N.of_nat 0)%N with 1%N in Hv. cbn [le_encode le_decode]. lia.
  - cbn [le_encode le_decode]. rewrite IH.
    + pose proof (N.div_mod v 256). lia.
    + rewrite Nat2N.inj_succ, N.pow_succ_r' in Hv. apply N.div_lt_upper_bound; lia.
Qed.

Lemma max_u64_lt : (max_u64 < 256 ^ N.of_nat 8)%N.
Proof. reflexivity. Qed.

Lemma skipn4_nonce_of c : skipn 4 (nonce_of c) = le_encode 8 c.
Proof. reflexivity. Qed.

Lemma firstn4_nonce_of c : firstn 4 (nonce_of c) = repeat 0%N 4.
Proof. reflexivity. Qed.

Lemma nonce_of_inj : forall a b,
  (a <= max_u64)%N -> (b <= max_u64)%N -> nonce_of a = nonce_of b -> a = b.
Proof.
  intros a b Ha Hb H. pose proof max_u64_lt as Hm.
  unfold nonce_of in H. apply app_inv_head in H.
  apply (f_equal le_decode) in H.
  rewrite !le_decode_encode in H by lia. exact H.
Qed.

Lemma nonce_of_distinct c0 n i j :
  (c0 + N.of_nat n <= max_u64)%N -> i < j -> j < n ->
  nonce_of (c0 + N.of_nat i) <> nonce_of (c0 + N.of_nat j).
Proof. intros Hb Hij Hj E. apply nonce_of_inj in E; lia. Qed.

Lemma incr_nonce_of : forall c,
  (c < max_u64)%N -> incr_nonce (nonce_of c) = Some (nonce_of (c + 1)).
Proof.
  intros c Hc. pose proof max_u64_lt as Hm.
  unfold incr_nonce. cbv zeta.
  rewrite skipn4_nonce_of, firstn4_nonce_of, le_decode_encode by lia.
  destruct (N.eqb_spec c max_u64) as [E|E]; [lia | reflexivity].
Qed.

Lemma incr_nonce_max : incr_nonce (nonce_of max_u64) = None.
Proof.
  unfold incr_nonce. cbv zeta.
  rewrite skipn4_nonce_of, le_decode_encode by exact max_u64_lt.
  rewrite N.eqb_refl. reflexivity.
Qed.

Lemma zero_nonce_of : zero_nonce = nonce_of 0.
Proof.
  unfold zero_nonce. rewrite aead_nonce_size_eq. reflexivity.
Qed.

(** the chunks of the loop, given enough fuel: they make up the data, and each is non-empty and
    at most [data_max_size] long *)
Lemma chunk_loop_spec : forall fuel d, length d <= fuel ->
  concat (chunk_loop fuel d) = d /\
  forall c, In c (chunk_loop fuel d) -> 0 < length c <= data_max_size.
Proof.
  pose proof data_max_size_pos as Hpos.
  induction fuel as [|f IH]; intros d Hd.
  - destruct d as [|x l]; [split; [reflexivity | intros c []] | cbn [length] in Hd; lia].
  - destruct d as [|x l]; [split; [reflexivity | intros c []]|].
    cbn [chunk_loop]. destruct (Nat.ltb_spec data_max_size (length (x :: l))) as [E|E].
    + destruct (IH (skipn data_max_size (x :: l))) as [IHc IHb]; [rewrite skipn_length; lia|].
      split.
      * cbn [concat]. rewrite IHc. apply firstn_skipn.
      * intros c [<-|Hin]; [rewrite firstn_length; lia | now apply IHb].
    + split; [cbn [concat]; apply app_nil_r|]. intros c [<-|[]]. cbn [length] in *. lia.
Qed.

Lemma chunks_concat : forall d, concat (chunks d) = d.
Proof. intros d. now apply chunk_loop_spec. Qed.

Lemma chunks_bounds : forall d c, In c (chunks d) -> 0 < length c <= data_max_size.
Proof. intros d. now apply chunk_loop_spec. Qed.

Lemma chunks_nonempty : forall d, d <> [] -> chunks d <> [].
Proof. intros d H E. apply H. now rewrite <- (chunks_concat d), E. Qed.

Lemma chunks_of_cons d ws : chunks_of (d :: ws) = chunks d ++ chunks_of ws.
Proof. reflexivity. Qed.

Lemma chunks_of_concat : forall ws, concat (chunks_of ws) = concat ws.
Proof.
  induction ws as [|d ws IH]; [reflexivity|].
  rewrite chunks_of_cons, concat_app, chunks_concat, IH. reflexivity.
Qed.

Lemma chunks_of_bounds : forall ws c, In c (chunks_of ws) -> 0 < length c <= data_max_size.
Proof.
  intros ws c Hin. unfold chunks_of in Hin. apply in_concat in Hin.
  destruct Hin as (l & Hl & Hc). apply in_map_iff in Hl. destruct Hl as (d & <- & _).
  eapply chunks_bounds; eassumption.
Qed.

Section Writer.
  Variable key : Type.
  Variable seal : key -> nonce -> bytes -> bytes.
  Variable open_ : key -> nonce -> bytes -> option bytes.
  Variable pad : nat -> bytes.
  Hypothesis AE : aead_ok key seal open_.
  Hypothesis PD : pad_ok pad.

  Lemma mk_frame_length ch :
    length ch <= data_max_size -> length (mk_frame pad ch) = total_frame_size.
  Proof.
    intros H. unfold mk_frame. rewrite !app_length, le_encode_length, PD.
    rewrite total_frame_size_eq. lia.
  Qed.

  (** decoding the header of a genuine frame gives the chunk length ... *)
  Lemma mk_frame_declen ch :
    length ch <= data_max_size ->
    le_decode (firstn data_len_size (mk_frame pad ch)) = N.of_nat (length ch).
  Proof.
    intros H. unfold mk_frame. rewrite firstn_app_exact by apply le_encode_length.
    apply le_decode_encode.
    rewrite data_len_size_eq. pose proof data_max_size_u32 as Hm.
    change (256 ^ N.of_nat 4)%N with (2 ^ 32)%N. lia.
  Qed.

  (** ... and cutting that many bytes after the header gives the chunk back *)
  Lemma mk_frame_chunk ch :
    firstn (N.to_nat (N.of_nat (length ch))) (skipn data_len_size (mk_frame pad ch)) = ch.
  Proof.
    unfold mk_frame. rewrite skipn_app_exact by apply le_encode_length.
    rewrite Nat2N.id. apply firstn_app_exact. reflexivity.
  Qed.

  Lemma seal_seq_length k : forall fs c, length (seal_seq key seal k c fs) = length fs.
  Proof. induction fs as [|f fs IH]; intros c; cbn [seal_seq length]; auto. Qed.

  Lemma seal_seq_app k : forall l1 l2 c,
    seal_seq key seal k c (l1 ++ l2) =
    seal_seq key seal k c l1 ++ seal_seq key seal k (c + N.of_nat (length l1)) l2.
  Proof.
    induction l1 as [|f l1 IH]; intros l2 c.
    - cbn [app seal_seq length]. change (N.of_nat 0) with 0%N. now rewrite N.add_0_r.
    - cbn [app seal_seq length]. rewrite IH. cbn [app]. do 3 f_equal. lia.
  Qed.

  Lemma seal_seq_nth k : forall fs c i,
    nth_error (seal_seq key seal k c fs) i =
    option_map (seal k (nonce_of (c + N.of_nat i))) (nth_error fs i).
  Proof.
    induction fs as [|f fs IH]; intros c i.
    - destruct i; reflexivity.
    - destruct i as [|i]; cbn [seal_seq nth_error option_map].
      + change (N.of_nat 0) with 0%N. now rewrite N.add_0_r.
      + rewrite IH. do 3 f_equal. lia.
  Qed.

  Lemma firstn_seal_seq k : forall j fs c,
    firstn j (seal_seq key seal k c fs) = seal_seq key seal k c (firstn j fs).
  Proof.
    induction j as [|j IH]; intros fs c; [reflexivity|].
    destruct fs as [|f fs]; [reflexivity|].
    cbn [seal_seq firstn]. now rewrite IH.
  Qed.

  Lemma sealed_length k c cs : length (seal_seq key seal k c (map (mk_frame pad) cs)) = length cs.
  Proof. now rewrite seal_seq_length, map_length. Qed.

  Lemma sealed_frame_length k n ch :
    length ch <= data_max_size -> length (seal k n (mk_frame pad ch)) = sealed_size.
  Proof.
    intros H. now rewrite (aead_seal_len _ _ _ AE), mk_frame_length, sealed_size_eq.
  Qed.

  Lemma seal_seq_frame_size : forall k cs c f,
    (forall ch, In ch cs -> 0 < length ch <= data_max_size) ->
    In f (seal_seq key seal k c (map (mk_frame pad) cs)) -> length f = sealed_size.
  Proof.
    induction cs as [|ch cs IH]; intros c f Hcs Hin; [destruct Hin|].
    cbn [map seal_seq] in Hin. destruct Hin as [<-|Hin].
    - apply sealed_frame_length, Hcs. now left.
    - eapply IH; [|exact Hin]. intros ch' H'. apply Hcs. now right.
  Qed.

  Lemma write_chunks_spec k : forall cs c n,
    (c + N.of_nat (length cs) <= max_u64)%N ->
    write_chunks key seal pad k (nonce_of c) cs n =
    (nonce_of (c + N.of_nat (length cs)),
     seal_seq key seal k c (map (mk_frame pad) cs),
     WOk (n + length (concat cs))).
  Proof.
    induction cs as [|ch cs IH]; intros c n Hb.
    - cbn [write_chunks length map seal_seq concat].
      change (N.of_nat 0) with 0%N. now rewrite N.add_0_r, Nat.add_0_r.
    - cbn [length] in Hb. rewrite Nat2N.inj_succ in Hb.
      cbn [write_chunks map seal_seq concat].
      rewrite incr_nonce_of by lia. rewrite IH by lia.
      cbn [length]. rewrite Nat2N.inj_succ, app_length, Nat.add_assoc.
      replace (c + 1 + N.of_nat (length cs))%N with (c + N.succ (N.of_nat (length cs)))%N by lia.
      reflexivity.
  Qed.

  Lemma write_spec a d c0 :
    send_nonce a = nonce_of c0 ->
    (c0 + N.of_nat (length (chunks d)) <= max_u64)%N ->
    write key seal pad a d =
    ({| send_key := send_key a; recv_key := recv_key a;
        send_nonce := nonce_of (c0 + N.of_nat (length (chunks d)));
        recv_nonce := recv_nonce a; recv_buffer := recv_buffer a |},
     seal_seq key seal (send_key a) c0 (map (mk_frame pad) (chunks d)),
     WOk (length d)).
  Proof.
    intros Hn Hb. unfold write. rewrite Hn, write_chunks_spec by exact Hb.
    rewrite chunks_concat. reflexivity.
  Qed.

  Lemma write_ok : forall a d a' out r c0,
    send_nonce a = nonce_of c0 ->
    (c0 + N.of_nat (length (chunks d)) <= max_u64)%N ->
    write key seal pad a d = (a', out, r) -> r = WOk (length d).
  Proof.
    intros a d a' out r c0 Hn Hb Hw. rewrite (write_spec a d c0 Hn Hb) in Hw.
    now inversion Hw.
  Qed.

  Lemma write_panics_at_max : forall a d,
    send_nonce a = nonce_of max_u64 -> d <> [] -> write key seal pad a d = (a, [], WPanic 0).
  Proof.
    intros a d Hn Hd. unfold write. rewrite Hn.
    destruct (chunks d) as [|ch cs] eqn:E; [now apply chunks_nonempty in E|].
    cbn [write_chunks]. rewrite incr_nonce_max. rewrite <- Hn. destruct a; reflexivity.
  Qed.

  Lemma write_many_spec : forall ws a a' out c0,
    send_nonce a = nonce_of c0 ->
    (c0 + N.of_nat (length (chunks_of ws)) <= max_u64)%N ->
    write_many key seal pad a ws = (a', out) ->
    out = seal_seq key seal (send_key a) c0 (frames_of pad ws).
  Proof.
    induction ws as [|d ws IH]; intros a a' out c0 Hn Hb Hw; cbn [write_many] in Hw.
    - now inversion Hw.
    - rewrite chunks_of_cons, app_length, Nat2N.inj_add in Hb.
      rewrite (write_spec a d c0 Hn) in Hw by lia.
      destruct (write_many key seal pad _ ws) as [a2 out2] eqn:E. inversion Hw; subst a' out.
      apply IH with (c0 := (c0 + N.of_nat (length (chunks d)))%N) in E; [| reflexivity | lia].
      subst out2. unfold frames_of.
      now rewrite chunks_of_cons, map_app, seal_seq_app, map_length.
  Qed.

  Lemma write_many_out_length : forall a ws a' out c0,
    send_nonce a = nonce_of c0 ->
    (c0 + N.of_nat (length (chunks_of ws)) <= max_u64)%N ->
    write_many key seal pad a ws = (a', out) ->
    length out = length (chunks_of ws).
  Proof.
    intros a ws a' out c0 Hn Hb Hw. rewrite (write_many_spec ws a a' out c0 Hn Hb Hw).
    apply sealed_length.
  Qed.

  Lemma write_many_out_nth : forall a ws a' out c0 i,
    send_nonce a = nonce_of c0 ->
    (c0 + N.of_nat (length (chunks_of ws)) <= max_u64)%N ->
    write_many key seal pad a ws = (a', out) ->
    nth_error out i =
    option_map (seal (send_key a) (nonce_of (c0 + N.of_nat i))) (nth_error (frames_of pad ws) i).
  Proof.
    intros a ws a' out c0 i Hn Hb Hw.
    rewrite (write_many_spec ws a a' out c0 Hn Hb Hw). apply seal_seq_nth.
  Qed.

  Lemma write_many_out_len : forall a ws a' out c0 f,
    send_nonce a = nonce_of c0 ->
    (c0 + N.of_nat (length (chunks_of ws)) <= max_u64)%N ->
    write_many key seal pad a ws = (a', out) ->
    In f out -> length f = sealed_size.
  Proof.
    intros a ws a' out c0 f Hn Hb Hw. rewrite (write_many_spec ws a a' out c0 Hn Hb Hw).
    unfold frames_of. apply seal_seq_frame_size, chunks_of_bounds.
  Qed.

  Lemma nonce_unique : forall a ws a' out c0,
    send_nonce a = nonce_of c0 ->
    (c0 + N.of_nat (length (chunks_of ws)) <= max_u64)%N ->
    write_many key seal pad a ws = (a', out) ->
    forall i j, i < j -> j < length out ->
    nonce_of (c0 + N.of_nat i) <> nonce_of (c0 + N.of_nat j).
  Proof.
    intros a ws a' out c0 Hn Hb Hw i j Hij Hj.
    rewrite (write_many_out_length a ws a' out c0 Hn Hb Hw) in Hj.
    now apply (nonce_of_distinct c0 (length (chunks_of ws))).
  Qed.
End Writer.

(** Cutting an arbitrary wire at the first block that differs from the genuine sequence. *)

Lemma tamper_decompose : forall (out : list bytes) (w : bytes),
  (forall f, In f out -> length f = sealed_size) ->
  exists j tail, j <= length out /\ w = concat (firstn j out) ++ tail /\
                 (forall f, nth_error out j = Some f -> firstn sealed_size tail <> f).
Proof.
  induction out as [|f out IH]; intros w Hlen.
  - exists 0, w. split; [reflexivity|]. split; [reflexivity|]. intros f H; discriminate H.
  - destruct (list_eq_dec N.eq_dec (firstn sealed_size w) f) as [E|E].
    + destruct (IH (skipn sealed_size w)) as (j & tail & Hj & Hw & Hd).
      { intros g Hg. apply Hlen. now right. }
      exists (S j), tail. split; [cbn [length]; lia|]. split.
      * cbn [firstn concat]. rewrite <- app_assoc, <- Hw, <- E. symmetry. apply firstn_skipn.
      * exact Hd.
    + exists 0, w. split; [lia|]. split; [reflexivity|].
      intros g H. cbn [nth_error] in H. inversion H; subst g. exact E.
Qed.

(** The hypotheses are satisfiable: a (non-secure, but lawful) AEAD whose tag is the
    nonce cut/padded to [aead_size_overhead] bytes. *)

Definition ex_tag (n : nonce) : bytes :=
  firstn aead_size_overhead (n ++ repeat 0%N aead_size_overhead).
Definition ex_seal (_ : unit) (n : nonce) (p : bytes) : bytes := p ++ ex_tag n.
Definition ex_open (_ : unit) (n : nonce) (c : bytes) : option bytes :=
  let m := length c - aead_size_overhead in
  if length c <? aead_size_overhead then None
  else if list_eq_dec N.eq_dec (skipn m c) (ex_tag n) then Some (firstn m c) else None.
Definition ex_pad (n : nat) : bytes := repeat 0%N n.

Lemma ex_tag_length n : length (ex_tag n) = aead_size_overhead.
Proof. unfold ex_tag. rewrite firstn_length, app_length, repeat_length. lia. Qed.

Lemma aead_ok_satisfiable : aead_ok unit ex_seal ex_open /\ pad_ok ex_pad.
Proof.
  split; [constructor|].
  - intros k n p. unfold ex_open, ex_seal. cbv zeta.
    rewrite app_length, ex_tag_length.
    destruct (length p + aead_size_overhead <? aead_size_overhead) eqn:E;
      [apply Nat.ltb_lt in E; lia|].
    replace (length p + aead_size_overhead - aead_size_overhead) with (length p) by lia.
    rewrite skipn_app_exact, firstn_app_exact by reflexivity.
    destruct (list_eq_dec N.eq_dec (ex_tag n) (ex_tag n)) as [Et|Et]; [reflexivity | now elim Et].
  - intros k n c p. unfold ex_open, ex_seal. cbv zeta.
    destruct (length c <? aead_size_overhead); [discriminate|].
    destruct (list_eq_dec N.eq_dec _ _) as [E|E]; [|discriminate].
    intros H; inversion H; subst p. rewrite <- E. symmetry. apply firstn_skipn.
  - intros k n p. unfold ex_seal. now rewrite app_length, ex_tag_length.
  - intros n. apply repeat_length.
Qed.
