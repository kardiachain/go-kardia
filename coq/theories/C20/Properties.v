(** C20 — property theorems only (PARTIAL property: the AEAD is a Section variable with the
    hypotheses [aead_ok]; unforgeability is not assumed, it appears as the explicit alternative
    [forgery] in the conclusions; signatures are ideal; goroutine scheduling is not modelled).
    Each theorem is closed by [exact] of a lemma proved in ProofsFrameBase.v, ProofsFrame.v,
    ProofsFault.v, ProofsPacket.v or ProofsUpgrade.v and followed by [Print Assumptions]. *)
From Coq Require Import List ZArith NArith Bool Arith.
From Kardia Require Import Generated.C20Facts C20.Model C20.Spec C20.ProofsFrame C20.ProofsPacket
  C20.ProofsFault C20.ProofsUpgrade.
Import ListNotations.

(* ------------------------------------------------------------------ frame layer *)

(** The hypotheses on the AEAD are satisfiable (a concrete instance is exhibited). *)
Theorem C20_aead_hypotheses_satisfiable : aead_ok unit ex_seal ex_open /\ pad_ok ex_pad.
Proof. exact aead_ok_satisfiable. Qed.
Print Assumptions C20_aead_hypotheses_satisfiable.

(** For any chunking of the written bytes into Write calls and any read buffer sizes: the bytes
    read are a prefix of the bytes written (once, in order); the only error ever returned is EOF,
    and only after every byte has been delivered; with positive buffers reading gets there. *)
Theorem C20_stream_exact :
  forall (key : Type) (seal : key -> nonce -> bytes -> bytes)
         (open_ : key -> nonce -> bytes -> option bytes) (pad : nat -> bytes),
    aead_ok key seal open_ -> pad_ok pad ->
    forall (a b : conn key) (c0 : N) (ws : list bytes) (a' : conn key) (out : list bytes)
           (caps : list nat) (b' : conn key) (w' : bytes) (rs : list rres),
      paired key a b c0 ->
      (c0 + N.of_nat (length (chunks_of ws)) <= max_u64)%N ->
      write_many key seal pad a ws = (a', out) ->
      read_until_err key open_ b (concat out) caps = (b', w', rs) ->
      (exists rest, concat ws = delivered rs ++ rest) /\
      (forall e, In (RErr e) rs -> e = REof /\ delivered rs = concat ws) /\
      (Forall (fun c => 0 < c) caps -> length (concat ws) < length caps -> In (RErr REof) rs).
Proof. exact stream_exact. Qed.
Print Assumptions C20_stream_exact.

(** Send nonces never repeat: the i-th frame of a session is sealed under counter c0+i and these
    12-byte nonces are pairwise different as long as the counter stays within 64 bits ... *)
Theorem C20_nonce_unique :
  forall (key : Type) (seal : key -> nonce -> bytes -> bytes) (pad : nat -> bytes)
         (a : conn key) (ws : list bytes) (a' : conn key) (out : list bytes) (c0 : N),
    send_nonce a = nonce_of c0 ->
    (c0 + N.of_nat (length (chunks_of ws)) <= max_u64)%N ->
    write_many key seal pad a ws = (a', out) ->
    forall i j, i < j -> j < length out ->
      nonce_of (c0 + N.of_nat i) <> nonce_of (c0 + N.of_nat j).
Proof. exact nonce_unique. Qed.
Print Assumptions C20_nonce_unique.

Theorem C20_frame_nonce :
  forall (key : Type) (seal : key -> nonce -> bytes -> bytes) (pad : nat -> bytes)
         (a : conn key) (ws : list bytes) (a' : conn key) (out : list bytes) (c0 : N) (i : nat),
    send_nonce a = nonce_of c0 ->
    (c0 + N.of_nat (length (chunks_of ws)) <= max_u64)%N ->
    write_many key seal pad a ws = (a', out) ->
    nth_error out i =
    option_map (seal (send_key a) (nonce_of (c0 + N.of_nat i))) (nth_error (frames_of pad ws) i).
Proof. exact write_many_out_nth. Qed.
Print Assumptions C20_frame_nonce.

(** ... and at the last counter value the writer panics instead of wrapping around: nothing is
    sent, the state is unchanged. *)
Theorem C20_nonce_overflow_panics :
  forall (key : Type) (seal : key -> nonce -> bytes -> bytes) (pad : nat -> bytes)
         (a : conn key) (d : bytes),
    send_nonce a = nonce_of max_u64 -> d <> [] -> write key seal pad a d = (a, [], WPanic 0).
Proof. exact write_panics_at_max. Qed.
Print Assumptions C20_nonce_overflow_panics.

(** Whatever byte string reaches the reader (any edit of the frame sequence, any injected
    bytes) and however long the caller goes on reading, even across errors: everything
    delivered is a prefix of what was written — or the wire contains a forgery. *)
Theorem C20_tamper_never_delivers_altered_bytes :
  forall (key : Type) (seal : key -> nonce -> bytes -> bytes)
         (open_ : key -> nonce -> bytes -> option bytes) (pad : nat -> bytes),
    aead_ok key seal open_ ->
    forall (a b : conn key) (c0 : N) (ws : list bytes) (a' : conn key) (out : list bytes)
           (w : bytes) (caps : list nat) (b' : conn key) (w' : bytes) (rs : list rres),
      paired key a b c0 ->
      (c0 + N.of_nat (length (chunks_of ws)) <= max_u64)%N ->
      write_many key seal pad a ws = (a', out) ->
      read_many key open_ b w caps = (b', w', rs) ->
      (exists rest, concat ws = delivered rs ++ rest) \/
      forgery key seal (send_key a) c0 (frames_of pad ws) w.
Proof. exact tamper_safety. Qed.
Print Assumptions C20_tamper_never_delivers_altered_bytes.

(** Every byte string decomposes as (the first j genuine frames) ++ (a tail that does not start
    with genuine frame j); flip, replace, drop, duplicate, swap, replay, insert and cut are all
    instances, with j the position of the first affected frame. *)
Theorem C20_tamper_decompose :
  forall (out : list bytes) (w : bytes),
    (forall f, In f out -> length f = sealed_size) ->
    exists j tail, j <= length out /\ w = concat (firstn j out) ++ tail /\
                   (forall f, nth_error out j = Some f -> firstn sealed_size tail <> f).
Proof. exact tamper_decompose. Qed.
Print Assumptions C20_tamper_decompose.

(** ... and then the reader delivers exactly bytes of those j frames, in order, and the read
    that reaches the first affected position fails (decrypt error; EOF / unexpected EOF if the
    stream was cut there) — unless the AEAD was forged. *)
Theorem C20_tamper_detected :
  forall (key : Type) (seal : key -> nonce -> bytes -> bytes)
         (open_ : key -> nonce -> bytes -> option bytes) (pad : nat -> bytes),
    aead_ok key seal open_ -> pad_ok pad ->
    forall (a b : conn key) (c0 : N) (ws : list bytes) (a' : conn key) (out : list bytes)
           (j : nat) (tail : bytes) (caps : list nat) (b' : conn key) (w' : bytes) (rs : list rres),
      paired key a b c0 ->
      (c0 + N.of_nat (length (chunks_of ws)) <= max_u64)%N ->
      write_many key seal pad a ws = (a', out) ->
      j <= length out ->
      (forall f, nth_error out j = Some f -> firstn sealed_size tail <> f) ->
      read_until_err key open_ b (concat (firstn j out) ++ tail) caps = (b', w', rs) ->
      forgery key seal (send_key a) c0 (frames_of pad ws) (concat (firstn j out) ++ tail) \/
      ((exists rest, concat (firstn j (chunks_of ws)) = delivered rs ++ rest) /\
       (forall e, In (RErr e) rs ->
          delivered rs = concat (firstn j (chunks_of ws)) /\
          ((tail = [] /\ e = REof) \/
           (tail <> [] /\ length tail < sealed_size /\ e = RUnexpectedEof) \/
           (sealed_size <= length tail /\ e = RDecrypt)))).
Proof. exact tamper_detected. Qed.
Print Assumptions C20_tamper_detected.

(** Every genuine sealed frame has the constant wire size (so frame boundaries are fixed). *)
Theorem C20_frame_size :
  forall (key : Type) (seal : key -> nonce -> bytes -> bytes)
         (open_ : key -> nonce -> bytes -> option bytes) (pad : nat -> bytes),
    aead_ok key seal open_ -> pad_ok pad ->
    forall (a : conn key) (ws : list bytes) (a' : conn key) (out : list bytes) (c0 : N) (f : bytes),
      send_nonce a = nonce_of c0 ->
      (c0 + N.of_nat (length (chunks_of ws)) <= max_u64)%N ->
      write_many key seal pad a ws = (a', out) -> In f out -> length f = sealed_size.
Proof. exact write_many_out_len. Qed.
Print Assumptions C20_frame_size.

(* ------------------------------------------------------------------ frame layer, write errors *)

(** ONE Write whose conn.Write fails at its frame j: the caller gets the error and the byte count
    of the chunks before that frame; j+1 frames were handed to the conn, the i-th of them sealed
    under counter c0+i; the send nonce stands at c0+j+1 — the failing frame has consumed its
    nonce whatever became of its bytes, so the next Write cannot reuse it. *)
Theorem C20_write_error_nonce_discipline :
  forall (key : Type) (seal : key -> nonce -> bytes -> bytes) (pad : nat -> bytes)
         (a : conn key) (d : bytes) (j : nat) (c0 : N),
    send_nonce a = nonce_of c0 ->
    j < length (chunks d) ->
    (c0 + N.of_nat (S j) <= max_u64)%N ->
    exists a' out,
      write_f key seal pad a d (Some j) = (a', out, WFErr (length (concat (firstn j (chunks d))))) /\
      send_nonce a' = nonce_of (c0 + N.of_nat (S j)) /\
      length out = S j /\
      (forall i, i <= j ->
         nth_error out i =
         option_map (fun ch => seal (send_key a) (nonce_of (c0 + N.of_nat i)) (mk_frame pad ch))
                    (nth_error (chunks d) i)).
Proof. exact write_fault_discipline. Qed.
Print Assumptions C20_write_error_nonce_discipline.

(** Any number of Write calls, any of them failing at any frame, the caller writing on: the i-th
    frame ever handed to the conn is sealed under counter c0+i and the send nonce ends at
    c0 + (number of frames sealed) ... *)
Theorem C20_write_error_frame_nonce :
  forall (key : Type) (seal : key -> nonce -> bytes -> bytes) (pad : nat -> bytes)
         (a : conn key) (ws : list (bytes * option nat)) (a' : conn key) (out : list bytes) (c0 : N),
    send_nonce a = nonce_of c0 ->
    (c0 + N.of_nat (length (chunks_of_f ws)) <= max_u64)%N ->
    write_many_f key seal pad a ws = (a', out) ->
    send_nonce a' = nonce_of (c0 + N.of_nat (length out)) /\
    forall i, nth_error out i =
              option_map (seal (send_key a) (nonce_of (c0 + N.of_nat i)))
                         (nth_error (frames_of_f pad ws) i).
Proof. exact fault_frame_nonce. Qed.
Print Assumptions C20_write_error_frame_nonce.

(** ... and no two of these frames share a nonce. *)
Theorem C20_write_error_nonce_unique :
  forall (key : Type) (seal : key -> nonce -> bytes -> bytes) (pad : nat -> bytes)
         (a : conn key) (ws : list (bytes * option nat)) (a' : conn key) (out : list bytes) (c0 : N),
    send_nonce a = nonce_of c0 ->
    (c0 + N.of_nat (length (chunks_of_f ws)) <= max_u64)%N ->
    write_many_f key seal pad a ws = (a', out) ->
    forall i j, i < j -> j < length out ->
      nonce_of (c0 + N.of_nat i) <> nonce_of (c0 + N.of_nat j).
Proof. exact fault_nonce_unique. Qed.
Print Assumptions C20_write_error_nonce_unique.

(** The tamper theorems hold for such a writer with "the frames sealed" (failed ones included) in
    place of "the frames written": whatever reaches the reader, only bytes of sealed chunks are
    delivered, once and in order — or the wire contains a forgery; *)
Theorem C20_write_error_tamper_never_delivers_altered_bytes :
  forall (key : Type) (seal : key -> nonce -> bytes -> bytes)
         (open_ : key -> nonce -> bytes -> option bytes) (pad : nat -> bytes),
    aead_ok key seal open_ ->
    forall (a b : conn key) (c0 : N) (ws : list (bytes * option nat)) (a' : conn key)
           (out : list bytes) (w : bytes) (caps : list nat) (b' : conn key) (w' : bytes)
           (rs : list rres),
      paired key a b c0 ->
      (c0 + N.of_nat (length (chunks_of_f ws)) <= max_u64)%N ->
      write_many_f key seal pad a ws = (a', out) ->
      read_many key open_ b w caps = (b', w', rs) ->
      (exists rest, concat (chunks_of_f ws) = delivered rs ++ rest) \/
      forgery key seal (send_key a) c0 (frames_of_f pad ws) w.
Proof. exact fault_tamper_safety. Qed.
Print Assumptions C20_write_error_tamper_never_delivers_altered_bytes.

(** a wire that agrees with the sealed frames on the first j and then differs (the frame whose
    write failed was lost or cut, or it arrived and a later one was dropped, swapped, replayed)
    delivers exactly the chunks of those j frames and the read that reaches position j fails; *)
Theorem C20_write_error_tamper_detected :
  forall (key : Type) (seal : key -> nonce -> bytes -> bytes)
         (open_ : key -> nonce -> bytes -> option bytes) (pad : nat -> bytes),
    aead_ok key seal open_ -> pad_ok pad ->
    forall (a b : conn key) (c0 : N) (ws : list (bytes * option nat)) (a' : conn key)
           (out : list bytes) (j : nat) (tail : bytes) (caps : list nat) (b' : conn key)
           (w' : bytes) (rs : list rres),
      paired key a b c0 ->
      (c0 + N.of_nat (length (chunks_of_f ws)) <= max_u64)%N ->
      write_many_f key seal pad a ws = (a', out) ->
      j <= length out ->
      (forall f, nth_error out j = Some f -> firstn sealed_size tail <> f) ->
      read_until_err key open_ b (concat (firstn j out) ++ tail) caps = (b', w', rs) ->
      forgery key seal (send_key a) c0 (frames_of_f pad ws) (concat (firstn j out) ++ tail) \/
      ((exists rest, concat (firstn j (chunks_of_f ws)) = delivered rs ++ rest) /\
       (forall e, In (RErr e) rs ->
          delivered rs = concat (firstn j (chunks_of_f ws)) /\
          ((tail = [] /\ e = REof) \/
           (tail <> [] /\ length tail < sealed_size /\ e = RUnexpectedEof) \/
           (sealed_size <= length tail /\ e = RDecrypt)))).
Proof. exact fault_tamper_detected. Qed.
Print Assumptions C20_write_error_tamper_detected.

(** and when every sealed frame arrives unchanged, every sealed byte is delivered once, in order,
    the only error being EOF after the last one: a reported write error alone desynchronises
    nothing. *)
Theorem C20_write_error_stream_exact :
  forall (key : Type) (seal : key -> nonce -> bytes -> bytes)
         (open_ : key -> nonce -> bytes -> option bytes) (pad : nat -> bytes),
    aead_ok key seal open_ -> pad_ok pad ->
    forall (a b : conn key) (c0 : N) (ws : list (bytes * option nat)) (a' : conn key)
           (out : list bytes) (caps : list nat) (b' : conn key) (w' : bytes) (rs : list rres),
      paired key a b c0 ->
      (c0 + N.of_nat (length (chunks_of_f ws)) <= max_u64)%N ->
      write_many_f key seal pad a ws = (a', out) ->
      read_until_err key open_ b (concat out) caps = (b', w', rs) ->
      (exists rest, concat (chunks_of_f ws) = delivered rs ++ rest) /\
      (forall e, In (RErr e) rs -> e = REof /\ delivered rs = concat (chunks_of_f ws)).
Proof. exact fault_stream_exact. Qed.
Print Assumptions C20_write_error_stream_exact.

(* ------------------------------------------------------------------ handshake (ideal signatures) *)

(** The authentication step accepts the remote identity K only if the received signature is the
    ideal signature of K over this session's challenge. *)
Theorem C20_identity :
  forall ch claimed s r, verify_auth ch claimed s = HOk r -> r = claimed /\ s = SigOf claimed ch.
Proof. exact identity. Qed.
Print Assumptions C20_identity.

(* ------------------------------------------------------------------ transport upgrade *)

(** MultiplexTransport.upgrade accepts a peer under ID x only if the far end's auth message
    carried the (ideal) signature of key [claimed] over THIS session's challenge and x is the ID
    of that key; x is then also the dialed ID on an outbound connection, the ID the NodeInfo
    reports, and not our own ID.  (idof = PubKeyToID, any function.) *)
Theorem C20_upgrade_identity :
  forall (idof : N -> N) self dialed ch claimed s ni x,
    upgrade idof self dialed ch claimed s ni = UpOk x ->
    s = SigOf claimed ch /\ x = idof claimed /\
    (forall d, dialed = Some d -> d = x) /\ x <> self /\
    exists i, ni = Some i /\ ni_id i = x /\ ni_valid i = true /\ ni_compat i = true.
Proof. exact upgrade_identity. Qed.
Print Assumptions C20_upgrade_identity.

(** In particular a far end that holds key m (and signs honestly) but whose NodeInfo announces an
    ID other than the ID of m is refused, whatever ID was dialed ... *)
Theorem C20_upgrade_impostor_refused :
  forall (idof : N -> N) self dialed ch m i,
    ni_id i <> idof m ->
    exists r, upgrade idof self dialed ch m (SigOf m ch) (Some i) = UpRej r.
Proof. exact upgrade_impostor_refused. Qed.
Print Assumptions C20_upgrade_impostor_refused.

(** ... while an honest far end is accepted under the ID of its key (the hypotheses of
    C20_upgrade_identity are satisfiable). *)
Theorem C20_upgrade_honest_accepted :
  forall (idof : N -> N) self dialed ch k i,
    ni_id i = idof k -> ni_valid i = true -> ni_compat i = true -> idof k <> self ->
    (dialed = None \/ dialed = Some (idof k)) ->
    upgrade idof self dialed ch k (SigOf k ch) (Some i) = UpOk (idof k).
Proof. exact upgrade_honest. Qed.
Print Assumptions C20_upgrade_honest_accepted.

(* ------------------------------------------------------------------ packet layer *)

(** An honest packet (payload within the negotiated maximum, any byte-sized channel id) never
    exceeds the receiver's protoio size limit ... *)
Theorem C20_packet_fits :
  forall maxp id eof data,
    0 < maxp -> (id < 256)%N -> length data <= maxp ->
    length (enc_packet (PktMsg (Z.of_N id) eof data)) <= max_packet_msg_size maxp.
Proof. exact packet_fits. Qed.
Print Assumptions C20_packet_fits.

(** ... and the model's encoding reproduces the code's own _maxPacketMsgSize (regenerated fact). *)
Theorem C20_max_size_matches_code :
  N.of_nat (max_packet_msg_size default_max_packet_msg_payload_size) = max_packet_msg_size_default.
Proof. exact max_size_default_fits. Qed.
Print Assumptions C20_max_size_matches_code.

(** Any interleaving of the channels' packet streams that preserves per-channel order (pings and
    pongs anywhere) delivers every message exactly once, intact, in per-channel order, and
    raises no error. *)
Theorem C20_msg_exactly_once :
  forall maxp descs (msgs : N -> list bytes) stream,
    0 < maxp -> NoDup (map ch_id descs) ->
    (forall d, In d descs -> (ch_id d < 256)%N) ->
    (forall d m, In d descs -> In m (msgs (ch_id d)) -> (N.of_nat (length m) <= ch_recvcap d)%N) ->
    known_channels descs stream ->
    (forall d, In d descs -> proj (ch_id d) stream = packets_of (ch_id d) maxp (msgs (ch_id d))) ->
    exists evs,
      recv_stream (max_packet_msg_size maxp) (map new_chan descs) stream = (evs, None) /\
      forall d, In d descs -> events_of (ch_id d) evs = msgs (ch_id d).
Proof. exact msg_exactly_once. Qed.
Print Assumptions C20_msg_exactly_once.

(** A message longer than the channel's receive capacity stops the receiver with an error;
    neither it nor anything after it on that channel is delivered, and what was delivered before
    is a prefix of the earlier messages. *)
Theorem C20_oversize :
  forall maxp descs d stream pre m post evs r,
    0 < maxp -> NoDup (map ch_id descs) -> In d descs -> (ch_id d < 256)%N ->
    (ch_recvcap d < N.of_nat (length m))%N ->
    proj (ch_id d) stream = packets_of (ch_id d) maxp pre ++ packetise (ch_id d) maxp m ++ post ->
    recv_stream (max_packet_msg_size maxp) (map new_chan descs) stream = (evs, r) ->
    r <> None /\ exists k, events_of (ch_id d) evs = firstn k pre.
Proof. exact oversize. Qed.
Print Assumptions C20_oversize.

(** A length prefix above the receiver's limit — in particular every value that is negative as a
    Go int — after a packet stream: everything complete before it is delivered, then the
    receiver stops with the size error (nothing is allocated or read for it). *)
Theorem C20_declared_length_refused :
  forall maxsize cs ps len evs,
    recv_stream maxsize cs ps = (evs, None) ->
    (N.of_nat maxsize < len \/ 9223372036854775807 < len)%N ->
    recv_stream_then_len maxsize cs ps len = (evs, Some MTooBig).
Proof. exact declared_length_refused. Qed.
Print Assumptions C20_declared_length_refused.

(** Sender side: with non-empty messages, running sendPacketMsg until it reports "exhausted"
    emits, for every channel, exactly the packetisation of its queued messages in order —
    whatever the least-ratio selection picks — and sendQueueSize returns to its base value. *)
Theorem C20_sender_emits_all :
  forall maxp cs fuel,
    0 < maxp ->
    NoDup (map (fun c => ch_id (desc c)) cs) ->
    (forall c, In c cs -> (ch_id (desc c) < 256)%N) ->
    (forall c m, In c cs -> In m (queue c) -> m <> []) ->
    (forall c, In c cs -> sending c = []) ->
    length (concat (map (fun c => packets_of (ch_id (desc c)) maxp (queue c)) cs)) < fuel ->
    exists cs' ps,
      drain fuel maxp cs = (cs', ps, true) /\
      map desc cs' = map desc cs /\
      (forall c', In c' cs' -> queue c' = [] /\ sending c' = []) /\
      (forall c, In c cs -> proj (ch_id (desc c)) ps = packets_of (ch_id (desc c)) maxp (queue c)) /\
      (forall j c c', nth_error cs j = Some c -> nth_error cs' j = Some c' ->
         qsize c' = (qsize c - Z.of_nat (length (queue c)))%Z).
Proof. exact sender_emits_all. Qed.
Print Assumptions C20_sender_emits_all.

(** REFUTED for zero-length messages (known finding empty-msg-lost): channels 1 and 2, ten bytes
    queued on channel 1 and the empty message on channel 2; both are accepted, the sender drains
    to "exhausted", only channel 1's packet was emitted, channel 2's sendQueueSize stays 1
    (CanSend false) and further draining emits nothing. *)
Theorem C20_empty_msg_lost_refuted :
  let '(c1, ok1) := try_send (new_chan ex_d1) ex_msg10 in
  let '(c2, ok2) := try_send (new_chan ex_d2) [] in
  let '(cs', ps, exhausted) := drain 100 1024 [c1; c2] in
  ok1 = true /\ ok2 = true /\ exhausted = true /\
  ps = [PktMsg 1 true ex_msg10] /\ proj 2 ps = [] /\
  map queue cs' = [[]; []] /\ map sending cs' = [[]; []] /\
  map qsize cs' = [0%Z; 1%Z] /\ map can_send cs' = [true; false] /\
  drain 100 1024 cs' = (cs', [], true).
Proof. exact empty_msg_lost_refuted. Qed.
Print Assumptions C20_empty_msg_lost_refuted.

(** ... whereas a zero-length message alone is sent. *)
Theorem C20_empty_msg_alone_sent :
  let c1 := new_chan ex_d1 in
  let '(c2, ok2) := try_send (new_chan ex_d2) [] in
  let '(cs', ps, exhausted) := drain 100 1024 [c1; c2] in
  ok2 = true /\ exhausted = true /\ ps = [PktMsg 2 true []] /\
  map qsize cs' = [0%Z; 0%Z] /\ map can_send cs' = [true; true].
Proof. exact empty_msg_alone_sent. Qed.
Print Assumptions C20_empty_msg_alone_sent.

(* ------------------------------------------------------------------ source tie *)

(** The model's frame sizes, the chunking loop of Write, the chunk-length and buffer tests of Read,
    incrNonce, canSend / isSendPending / nextPacketMsg (EOF test and flags) / recvPacketMsg
    (capacity test), one step of sendPacketMsg's least-ratio loop, recvRoutine's unknown-channel
    test, protoio's declared-length test and the identity comparisons of
    MultiplexTransport.upgrade ARE the expressions go2coq translates from the current Go sources
    (Generated/C20Source.v), on the operands pinned in SourceTie.v (statement spelled out there). *)
From Kardia Require Import C20.SourceTie.
Theorem C20_source_tie : C20_source_tie_statement.
Proof. exact C20_source_tie_proof. Qed.
Print Assumptions C20_source_tie.

(** The decision-critical functions of the anchored code have exactly the decisions the source tie knows about
    (go2coq manifests, regenerated from /repo on every check; statement in SourceManifest.v). *)
From Kardia Require Import C20.SourceManifest.
Theorem C20_source_manifest : C20_source_manifest_statement.
Proof. exact C20_source_manifest_proof. Qed.
Print Assumptions C20_source_manifest.
