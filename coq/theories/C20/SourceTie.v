(** C20 — tie of the model's sizes, chunking tests, nonce arithmetic, packetiser / reassembler
    guards, protoio length check and upgrade identity comparisons to the Go SOURCE.
    [Generated/C20Source.v] is produced on every check by /verif/go2coq from /repo's working tree:
    the frame constants of lib/p2p/conn, every guard / integer expression of
    SecretConnection.Write / Read, incrNonce, Channel.canSend / isSendPending / nextPacketMsg /
    recvPacketMsg, MConnection.sendSomePacketMsgs / sendPacketMsg / recvRoutine,
    ChannelDescriptor.FillDefaults (lib/p2p/conn), varintReader.ReadMsg (lib/protoio) and
    MultiplexTransport.upgrade (lib/p2p/transport.go).  The statement says that the functions of
    C20/Model.v compute exactly the expressions it lists, on exactly these operands (the [_atoms]
    lists are part of it: what is compared, not only how).  Placement of the guards inside the Go methods
    is validated by the correspondence run. *)
From Coq Require Import String List ZArith NArith Bool Arith Lia.
From Kardia Require Import Base.Int64 Base.GoSem Base.Conj.
From Kardia Require Import Generated.C20Source.
From Kardia Require Import Generated.C20Facts C20.Model.
Import ListNotations.

(** Comparisons on [Z.of_nat] / [Z.of_N] images (what the source computes) against the model's
    comparisons on [nat] / [N]: [Zofnat_ltb], [Zofnat_leb], [ZofN_ltb] of Base/GoSem. *)

(** FillDefaults replaces a capacity exactly when it is 0 (the values it stores are in the statement
    below) *)
Lemma src_fill_defaults :
  (forall x, lib_p2p_conn__ChannelDescriptor_FillDefaults__if_chDesc_SendQueueCapacity_eq_0 x = Z.eqb x 0) /\
  (forall x, lib_p2p_conn__ChannelDescriptor_FillDefaults__if_chDesc_RecvBufferCapacity_eq_0 x = Z.eqb x 0) /\
  (forall x, lib_p2p_conn__ChannelDescriptor_FillDefaults__if_chDesc_RecvMessageCapacity_eq_0 x = Z.eqb x 0).
Proof. repeat split; reflexivity. Qed.

(** operands of the tied expressions whose operand lists are not part of the statement below;
    like [src_fill_defaults] this is checked against the generated file on every build and is
    used by nothing else *)
Lemma src_atoms :
  lib_p2p_conn__SecretConnection_Write__for_0_lt_len_data_atoms = ["len(data) : int"]%string /\
  lib_p2p_conn__SecretConnection_Write__set_n_op_atoms = ["n : int"; "len(chunk) : int"]%string /\
  lib_p2p_conn__SecretConnection_Read__if_0_lt_len_sc_recvBuffer_atoms = ["len(sc.recvBuffer) : int"]%string /\
  lib_p2p_conn__SecretConnection_Read__arg_len_chunk_minus_n_atoms = ["len(chunk) : int"; "n : int"]%string /\
  lib_p2p_conn__incrNonce__set_counter_op_atoms = ["counter : uint64"]%string /\
  lib_p2p_conn__Channel_canSend__ret_ch_loadSendQueueSize_lt_defaultSendQueueCapacity_atoms = ["ch.loadSendQueueSize() : int"]%string /\
  lib_p2p_conn__Channel_isSendPending__if_len_ch_sendQueue_eq_0_atoms = ["len(ch.sendQueue) : int"]%string /\
  lib_p2p_conn__Channel_recvPacketMsg__if_packet_EOF_atoms = ["packet.EOF : bool"]%string /\
  lib_p2p_conn__MConnection_sendPacketMsg__if_not_channel_isSendPending_atoms = ["channel.isSendPending() : bool"]%string /\
  lib_p2p_conn__MConnection_sendSomePacketMsgs__for_i_lt_numBatchPacketMsgs_atoms = ["i : int"]%string /\
  lib_p2p_conn__MConnection_recvRoutine__if_not_ok_or_channel_eq_nil_atoms = ["ok : bool"; "channel == nil : bool"]%string /\
  lib_protoio__varintReader_ReadMsg__let_length_atoms = ["length64 : uint64"]%string.
Proof. split_all; reflexivity. Qed.

Definition C20_source_tie_statement : Prop :=
  (* constants *)
  (Z.of_nat data_len_size = lib_p2p_conn__dataLenSize /\
   Z.of_nat data_max_size = lib_p2p_conn__dataMaxSize /\
   Z.of_nat total_frame_size = lib_p2p_conn__totalFrameSize /\
   Z.of_nat aead_size_overhead = lib_p2p_conn__aeadSizeOverhead /\
   Z.of_nat aead_nonce_size = lib_p2p_conn__aeadNonceSize /\
   Z.of_nat aead_key_size = lib_p2p_conn__aeadKeySize /\
   Z.of_nat sealed_size = (lib_p2p_conn__totalFrameSize + lib_p2p_conn__aeadSizeOverhead)%Z /\
   (lib_p2p_conn__totalFrameSize = lib_p2p_conn__dataMaxSize + lib_p2p_conn__dataLenSize)%Z /\
   Z.of_nat default_max_packet_msg_payload_size = lib_p2p_conn__defaultMaxPacketMsgPayloadSize /\
   Z.of_nat num_batch_packet_msgs = lib_p2p_conn__numBatchPacketMsgs /\
   Z.of_N default_send_queue_capacity = lib_p2p_conn__defaultSendQueueCapacity /\
   Z.of_N default_recv_buffer_capacity = lib_p2p_conn__defaultRecvBufferCapacity /\
   Z.of_N default_recv_message_capacity = lib_p2p_conn__defaultRecvMessageCapacity)
  /\ (lib_p2p_conn__ChannelDescriptor_FillDefaults__put_chDesc_SendQueueCapacity = Z.of_N default_send_queue_capacity /\
      lib_p2p_conn__ChannelDescriptor_FillDefaults__put_chDesc_RecvBufferCapacity = Z.of_N default_recv_buffer_capacity /\
      lib_p2p_conn__ChannelDescriptor_FillDefaults__put_chDesc_RecvMessageCapacity = Z.of_N default_recv_message_capacity)
  (* Write: loop condition, split test, byte count *)
  /\ (forall f (data : bytes),
        chunk_loop (S f) data =
        if lib_p2p_conn__SecretConnection_Write__for_0_lt_len_data (Z.of_nat (length data)) then
          if lib_p2p_conn__SecretConnection_Write__if_dataMaxSize_lt_len_data (Z.of_nat (length data))
          then firstn data_max_size data :: chunk_loop f (skipn data_max_size data)
          else [data]
        else [])
  /\ (forall n l, in_range I64 (Z.of_nat (n + l)) ->
        lib_p2p_conn__SecretConnection_Write__set_n_op (Z.of_nat n) (Z.of_nat l) = Z.of_nat (n + l))
  (* Read: buffered branch, chunk length test, what stays buffered *)
  /\ (forall buf : bytes,
        lib_p2p_conn__SecretConnection_Read__if_0_lt_len_sc_recvBuffer (Z.of_nat (length buf)) =
        match buf with [] => false | _ => true end)
  /\ (forall clen : N,
        lib_p2p_conn__SecretConnection_Read__if_chunkLength_gt_dataMaxSize (Z.of_N clen) =
        (N.of_nat data_max_size <? clen)%N)
  /\ (forall cap (chunk : bytes), in_range I64 (Z.of_nat (length chunk)) ->
        let n := Nat.min cap (length chunk) in
        lib_p2p_conn__SecretConnection_Read__if_n_lt_len_chunk (Z.of_nat n) (Z.of_nat (length chunk)) =
          match skipn n chunk with [] => false | _ => true end /\
        Z.of_nat (length (skipn n chunk)) =
          lib_p2p_conn__SecretConnection_Read__arg_len_chunk_minus_n (Z.of_nat (length chunk)) (Z.of_nat n))
  (* incrNonce *)
  /\ (forall n : nonce, (le_decode (skipn 4 n) <= max_u64)%N ->
        incr_nonce n =
        let c := lib_p2p_conn__incrNonce__let_counter (Z.of_N (le_decode (skipn 4 n))) in
        if lib_p2p_conn__incrNonce__if_counter_eq_math_MaxUint64 c then None
        else Some (firstn 4 n ++ le_encode 8 (Z.to_N (lib_p2p_conn__incrNonce__set_counter_op c))))
  (* Channel *)
  /\ (forall c, can_send c =
        lib_p2p_conn__Channel_canSend__ret_ch_loadSendQueueSize_lt_defaultSendQueueCapacity (qsize c))
  /\ (forall c, is_send_pending c =
        if lib_p2p_conn__Channel_isSendPending__if_len_ch_sending_eq_0 (Z.of_nat (length (sending c))) then
          if lib_p2p_conn__Channel_isSendPending__if_len_ch_sendQueue_eq_0 (Z.of_nat (length (queue c)))
          then (false, c)
          else match queue c with
               | m :: q => (true, upd_send c q (qsize c) m (recently_sent c))
               | [] => (false, c)
               end
        else (true, c))
  /\ (forall maxp c, next_packet maxp c =
        let s := sending c in
        let k := Nat.min maxp (length s) in
        if lib_p2p_conn__Channel_nextPacketMsg__if_len_ch_sending_le_maxSize (Z.of_nat (length s)) (Z.of_nat maxp)
        then (PktMsg (Z.of_N (ch_id (desc c))) lib_p2p_conn__Channel_nextPacketMsg__put_packet_EOF (firstn k s),
              upd_send c (queue c) (qsize c - 1)%Z [] (recently_sent c))
        else (PktMsg (Z.of_N (ch_id (desc c))) lib_p2p_conn__Channel_nextPacketMsg__put_packet_EOF_2 (firstn k s),
              upd_send c (queue c) (qsize c) (skipn k s) (recently_sent c)))
  /\ (forall c data eof, recv_packet_msg c data eof =
        if lib_p2p_conn__Channel_recvPacketMsg__if_recvCap_lt_recvReceived
             (Z.of_N (ch_recvcap (desc c))) (Z.of_nat (length (recving c) + length data))
        then inr MCapacity
        else let r := recving c ++ data in
             if lib_p2p_conn__Channel_recvPacketMsg__if_packet_EOF eof
             then inl (upd_recving c [], Some r) else inl (upd_recving c r, None))
  (* MConnection *)
  /\ (forall c rest idx best, select_loop (c :: rest) idx best =
        let '(pending, c') := is_send_pending c in
        let best' :=
          if lib_p2p_conn__MConnection_sendPacketMsg__if_not_channel_isSendPending pending then best
          else
            let ratio := f32_div (f32_of_int (recently_sent c')) (f32_of_int (ch_prio (desc c'))) in
            match best with
            | None => Some (idx, ratio)
            | Some (_, br) =>
                if lib_p2p_conn__MConnection_sendPacketMsg__if_ratio_lt_leastRatio (f32_lt ratio br)
                then Some (idx, ratio) else best
            end in
        let '(rest', r) := select_loop rest (S idx) best' in
        (c' :: rest', r))
  /\ (forall i, lib_p2p_conn__MConnection_sendSomePacketMsgs__for_i_lt_numBatchPacketMsgs (Z.of_nat i) =
                (i <? num_batch_packet_msgs))
  /\ (forall id cs,
        lib_p2p_conn__MConnection_recvRoutine__if_not_ok_or_channel_eq_nil
          (match find_chan id cs with Some _ => true | None => false end) false =
        match find_chan id cs with None => true | Some _ => false end)
  (* protoio *)
  /\ (forall maxsize (len : N), (len < 2 ^ 64)%N -> (Z.of_nat maxsize <= 9223372036854775807)%Z ->
        lib_protoio__varintReader_ReadMsg__if_length_lt_0_or_length_gt_r_maxSize
          (lib_protoio__varintReader_ReadMsg__let_length (Z.of_N len)) (Z.of_nat maxsize) =
        len_refused maxsize len)
  (* upgrade *)
  /\ (forall idof self dialed ch claimed s ni,
        upgrade idof self dialed ch claimed s ni =
        match verify_auth ch claimed s with
        | HFail => UpRej RejAuth
        | HOk k =>
            let conn_id := idof k in
            if (lib_p2p__MultiplexTransport_upgrade__if_dialedAddr_ne_nil
                  (match dialed with Some _ => true | None => false end) &&
                lib_p2p__MultiplexTransport_upgrade__if_connID_ne_dialedID
                  (match dialed with Some d => negb (conn_id =? d)%N | None => false end))%bool
            then UpRej RejAuth
            else match ni with
                 | None => UpRej RejAuth
                 | Some i =>
                     if negb (ni_valid i) then UpRej RejInvalid
                     else if lib_p2p__MultiplexTransport_upgrade__if_connID_ne_nodeInfo_ID
                               (negb (conn_id =? ni_id i)%N) then UpRej RejAuth
                     else if lib_p2p__MultiplexTransport_upgrade__if_mt_nodeInfo_ID_eq_nodeInfo_ID
                               (self =? ni_id i)%N then UpRej RejSelf
                     else if negb (ni_compat i) then UpRej RejIncompat
                     else UpOk (ni_id i)
                 end
        end)
  (* operands *)
  /\ (lib_p2p_conn__SecretConnection_Write__if_dataMaxSize_lt_len_data_atoms = ["len(data) : int"]%string /\
      lib_p2p_conn__SecretConnection_Read__if_chunkLength_gt_dataMaxSize_atoms = ["chunkLength : uint32"]%string /\
      lib_p2p_conn__SecretConnection_Read__if_n_lt_len_chunk_atoms = ["n : int"; "len(chunk) : int"]%string /\
      lib_p2p_conn__incrNonce__let_counter_atoms = ["binary.LittleEndian.Uint64(nonce[4:]) : uint64"]%string /\
      lib_p2p_conn__incrNonce__if_counter_eq_math_MaxUint64_atoms = ["counter : uint64"]%string /\
      lib_p2p_conn__Channel_nextPacketMsg__if_len_ch_sending_le_maxSize_atoms = ["len(ch.sending) : int"; "maxSize : int"]%string /\
      lib_p2p_conn__Channel_recvPacketMsg__if_recvCap_lt_recvReceived_atoms = ["recvCap : int"; "recvReceived : int"]%string /\
      lib_p2p_conn__Channel_isSendPending__if_len_ch_sending_eq_0_atoms = ["len(ch.sending) : int"]%string /\
      lib_p2p_conn__MConnection_sendPacketMsg__if_ratio_lt_leastRatio_atoms = ["ratio < leastRatio : untyped bool"]%string /\
      lib_protoio__varintReader_ReadMsg__if_length_lt_0_or_length_gt_r_maxSize_atoms = ["length : int"; "r.maxSize : int"]%string /\
      lib_p2p__MultiplexTransport_upgrade__if_dialedAddr_ne_nil_atoms = ["dialedAddr != nil : untyped bool"]%string /\
      lib_p2p__MultiplexTransport_upgrade__if_connID_ne_dialedID_atoms = ["connID != dialedID : untyped bool"]%string /\
      lib_p2p__MultiplexTransport_upgrade__if_connID_ne_nodeInfo_ID_atoms = ["connID != nodeInfo.ID() : untyped bool"]%string /\
      lib_p2p__MultiplexTransport_upgrade__if_mt_nodeInfo_ID_eq_nodeInfo_ID_atoms = ["mt.nodeInfo.ID() == nodeInfo.ID() : untyped bool"]%string).

Lemma C20_source_tie_proof : C20_source_tie_statement.
Proof.
  unfold C20_source_tie_statement. split_all.
  (* the operand lists, which close the statement *)
  18-31: reflexivity.
  - (* the constants *)
    split_all; reflexivity.
  - (* FillDefaults stores exactly these defaults when the field is 0 *)
    repeat split; reflexivity.
  - (* the model's chunking loop IS the source's loop condition and split test *)
    intros f data.
    unfold lib_p2p_conn__SecretConnection_Write__for_0_lt_len_data,
      lib_p2p_conn__SecretConnection_Write__if_dataMaxSize_lt_len_data.
    change 1024%Z with (Z.of_nat data_max_size). rewrite Zofnat_ltb.
    destruct data; reflexivity.
  - (* Write's byte count n += len(chunk) *)
    intros n l H. unfold lib_p2p_conn__SecretConnection_Write__set_n_op, go_add.
    rewrite <- Nat2Z.inj_add. now apply wrap_id.
  - (* Read's "0 < len(sc.recvBuffer)" branch *)
    intros buf. destruct buf; reflexivity.
  - (* the model's "chunkLength is greater than dataMaxSize" test *)
    intros clen. unfold lib_p2p_conn__SecretConnection_Read__if_chunkLength_gt_dataMaxSize.
    rewrite Z.gtb_ltb. change 1024%Z with (Z.of_N (N.of_nat data_max_size)). apply ZofN_ltb.
  - (* what stays in recvBuffer after copying n = min(cap, len chunk) bytes *)
    intros cap chunk Hr. set (n := Nat.min cap (length chunk)).
    pose proof (skipn_length n chunk) as Hl.
    assert (Hn : n <= length chunk) by apply Nat.le_min_r.
    split.
    + unfold lib_p2p_conn__SecretConnection_Read__if_n_lt_len_chunk.
      destruct (skipn n chunk) as [|x r]; cbn [length] in Hl; [apply Z.ltb_ge | apply Z.ltb_lt]; lia.
    + unfold lib_p2p_conn__SecretConnection_Read__arg_len_chunk_minus_n, go_sub.
      rewrite wrap_id; [lia|]. unfold in_range in *. lia.
  - (* incrNonce: the overflow test and counter + 1 *)
    intros n Hc. unfold incr_nonce, lib_p2p_conn__incrNonce__let_counter,
      lib_p2p_conn__incrNonce__if_counter_eq_math_MaxUint64, lib_p2p_conn__incrNonce__set_counter_op, go_add.
    cbv zeta. set (c := le_decode (skipn 4 n)) in *. unfold max_u64 in *.
    destruct (N.eqb_spec c 18446744073709551615) as [E|E];
      destruct (Z.eqb_spec (Z.of_N c) 18446744073709551615) as [E'|E']; try lia; [reflexivity|].
    rewrite wrap_id by (unfold in_range; lia).
    replace (Z.of_N c + 1)%Z with (Z.of_N (c + 1)) by lia. now rewrite N2Z.id.
  - (* canSend *)
    reflexivity.
  - (* isSendPending: the two emptiness tests *)
    intros c. unfold is_send_pending. destruct (sending c); destruct (queue c); reflexivity.
  - (* the EOF decision of nextPacketMsg and the EOF flags it stores *)
    intros maxp c. unfold lib_p2p_conn__Channel_nextPacketMsg__if_len_ch_sending_le_maxSize.
    cbv zeta. rewrite Zofnat_leb. reflexivity.
  - (* the capacity test and the EOF branch of recvPacketMsg *)
    intros c data eof. unfold lib_p2p_conn__Channel_recvPacketMsg__if_recvCap_lt_recvReceived.
    rewrite <- nat_N_Z, ZofN_ltb. reflexivity.
  - (* one step of the least-ratio selection loop of sendPacketMsg *)
    intros c rest idx best. cbn [select_loop].
    destruct (is_send_pending c) as [[|] c']; reflexivity.
  - (* the batch bound of sendSomePacketMsgs *)
    intros i. unfold lib_p2p_conn__MConnection_sendSomePacketMsgs__for_i_lt_numBatchPacketMsgs.
    change 10%Z with (Z.of_nat num_batch_packet_msgs). apply Zofnat_ltb.
  - (* recvRoutine's "unknown channel" test against the model's channel lookup *)
    intros id cs. destruct (find_chan id cs); reflexivity.
  - (* ReadMsg's conversion of the declared length to a Go int and its refusal test are the
       model's [len_refused] (for every uint64 length and every limit that is a Go int) *)
    intros maxsize len Hl Hm. change (2 ^ 64)%N with 18446744073709551616%N in Hl.
    unfold lib_protoio__varintReader_ReadMsg__if_length_lt_0_or_length_gt_r_maxSize,
      lib_protoio__varintReader_ReadMsg__let_length, go_conv, len_refused.
    destruct (N.ltb_spec 9223372036854775807 len) as [Hb|Hb].
    + (* negative as a Go int *)
      assert (E : wrap I64 (Z.of_N len) = (Z.of_N len - 18446744073709551616)%Z).
      { unfold wrap.
        replace (Z.of_N len + 9223372036854775808)%Z
          with ((Z.of_N len - 9223372036854775808) + 1 * 18446744073709551616)%Z by lia.
        rewrite Z_mod_plus_full, Z.mod_small by lia. lia. }
      rewrite E. rewrite (proj2 (Z.ltb_lt _ _)) by lia. reflexivity.
    + rewrite wrap_id by (unfold in_range; lia).
      rewrite (proj2 (Z.ltb_ge _ _)) by lia. cbn [orb].
      rewrite Z.gtb_ltb, <- nat_N_Z. apply ZofN_ltb.
  - (* the model's upgrade decides with exactly the source's identity comparisons, in the source's
       order: (dialedAddr != nil && connID != dialedID), then connID != nodeInfo.ID(), then
       mt.nodeInfo.ID() == nodeInfo.ID() *)
    intros idof self dialed ch claimed s ni. unfold upgrade.
    destruct (verify_auth ch claimed s); [|reflexivity]. destruct dialed; reflexivity.
Qed.
