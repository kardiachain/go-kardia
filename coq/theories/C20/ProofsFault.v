(** C20 — frame layer: the nonce discipline when the underlying conn.Write fails.

    SecretConnection.Write seals a frame and advances the send nonce BEFORE it hands the frame
    to the conn; when the conn reports an error, Write returns and the caller may write again.
    Every frame ever handed to the conn — whether or not its write was reported as successful,
    whatever part of it reached the far end — is therefore sealed under its own counter, and
    everything the reader theorems say about "the frames written" holds for "the frames sealed":
    [write_many_f_spec] says that such a writer produces the session of the chunks it sealed. *)
From Coq Require Import List ZArith NArith Bool Arith Lia.
From Kardia Require Import Generated.C20Facts C20.Model C20.Spec C20.ProofsFrame.
Import ListNotations.

Local Opaque data_len_size data_max_size total_frame_size aead_size_overhead aead_nonce_size
  sealed_size.

(** the chunks sealed by one call *)
Definition cut (fail : option nat) (cs : list bytes) : list bytes :=
  match fail with None => cs | Some j => firstn (S j) cs end.

Lemma sealed_chunks_cut d fl : sealed_chunks (d, fl) = cut fl (chunks d).
Proof. destruct fl; reflexivity. Qed.

Lemma chunks_of_f_cons d fl ws :
  chunks_of_f ((d, fl) :: ws) = cut fl (chunks d) ++ chunks_of_f ws.
Proof. unfold chunks_of_f. cbn [map concat]. now rewrite sealed_chunks_cut. Qed.

Lemma cut_in fl cs c : In c (cut fl cs) -> In c cs.
Proof. destruct fl as [j|]; cbn [cut]; [apply in_firstn_in | auto]. Qed.

Lemma chunks_of_f_bounds : forall ws c, In c (chunks_of_f ws) -> 0 < length c <= data_max_size.
Proof.
  induction ws as [|[d fl] ws IH]; intros c Hin; [destruct Hin|].
  rewrite chunks_of_f_cons in Hin. apply in_app_or in Hin. destruct Hin as [Hin|Hin].
  - apply cut_in in Hin. eapply chunks_bounds; exact Hin.
  - auto.
Qed.

(** the result a failing / non-failing call reports *)
Definition wf_result (fail : option nat) (cs : list bytes) (n : nat) : wfres :=
  match fail with
  | Some j => if j <? length cs then WFErr (n + length (concat (firstn j cs)))
              else WFOk (n + length (concat cs))
  | None => WFOk (n + length (concat cs))
  end.

Lemma cut_nil fl : cut fl [] = [].
Proof. destruct fl; reflexivity. Qed.

Lemma wf_result_nil fl n : wf_result fl [] n = WFOk n.
Proof. destruct fl as [j|]; cbn [wf_result length concat]; rewrite Nat.add_0_r; reflexivity. Qed.

(** a frame whose conn.Write does not fail: the rest of the call fails one frame earlier, or not
    at all *)
Lemma cut_cons fl ch cs :
  fl <> Some 0 -> cut fl (ch :: cs) = ch :: cut (option_map Nat.pred fl) cs.
Proof. destruct fl as [[|j]|]; [congruence | reflexivity | reflexivity]. Qed.

Lemma wf_result_cons fl ch cs n :
  fl <> Some 0 -> wf_result fl (ch :: cs) n = wf_result (option_map Nat.pred fl) cs (n + length ch).
Proof.
  destruct fl as [[|j]|]; [congruence | | ]; intros _; cbn [option_map Nat.pred wf_result length].
  - change (S j <? S (length cs)) with (j <? length cs).
    destruct (j <? length cs); cbn [firstn concat]; now rewrite app_length, Nat.add_assoc.
  - cbn [concat]. now rewrite app_length, Nat.add_assoc.
Qed.

Section Fault.
  Variable key : Type.
  Variable seal : key -> nonce -> bytes -> bytes.
  Variable open_ : key -> nonce -> bytes -> option bytes.
  Variable pad : nat -> bytes.
  Hypothesis AE : aead_ok key seal open_.
  Hypothesis PD : pad_ok pad.

  Lemma write_chunks_f_spec k : forall cs c n fail,
    (c + N.of_nat (length (cut fail cs)) <= max_u64)%N ->
    write_chunks_f key seal pad k (nonce_of c) cs n fail =
    (nonce_of (c + N.of_nat (length (cut fail cs))),
     seal_seq key seal k c (map (mk_frame pad) (cut fail cs)),
     wf_result fail cs n).
  Proof.
    induction cs as [|ch cs IH]; intros c n fail Hb.
    - cbn [write_chunks_f]. rewrite cut_nil, wf_result_nil. cbn [length map seal_seq].
      change (N.of_nat 0) with 0%N. now rewrite N.add_0_r.
    - destruct fail as [[|j]|].
      { (* the conn.Write of this very frame fails *)
        cbn [cut firstn length] in Hb. cbn [write_chunks_f]. rewrite incr_nonce_of by lia.
        cbn [cut firstn length map seal_seq wf_result concat].
        change (0 <? S (length cs)) with true. cbv iota. now rewrite Nat.add_0_r. }
      (* this frame goes out, with or without a failure further on *)
      all: rewrite cut_cons, wf_result_cons in * by discriminate.
      all: cbn [length] in Hb; rewrite Nat2N.inj_succ in Hb.
      all: cbn [write_chunks_f]; rewrite incr_nonce_of, IH by lia.
      all: cbn [length map seal_seq]; now rewrite Nat2N.inj_succ, <- N.add_assoc, N.add_1_l.
  Qed.

  Lemma write_f_spec a d fl c0 :
    send_nonce a = nonce_of c0 ->
    (c0 + N.of_nat (length (cut fl (chunks d))) <= max_u64)%N ->
    write_f key seal pad a d fl =
    ({| send_key := send_key a; recv_key := recv_key a;
        send_nonce := nonce_of (c0 + N.of_nat (length (cut fl (chunks d))));
        recv_nonce := recv_nonce a; recv_buffer := recv_buffer a |},
     seal_seq key seal (send_key a) c0 (map (mk_frame pad) (cut fl (chunks d))),
     wf_result fl (chunks d) 0).
  Proof.
    intros Hn Hb. unfold write_f. rewrite Hn, write_chunks_f_spec by exact Hb. reflexivity.
  Qed.

  (** without a failure, [write_f] is [write] *)
  Lemma write_f_none a d c0 :
    send_nonce a = nonce_of c0 ->
    (c0 + N.of_nat (length (chunks d)) <= max_u64)%N ->
    let '(a1, out1, r1) := write_f key seal pad a d None in
    let '(a2, out2, r2) := write key seal pad a d in
    a1 = a2 /\ out1 = out2 /\ r1 = WFOk (length d) /\ r2 = WOk (length d).
  Proof.
    intros Hn Hb. rewrite (write_f_spec a d None c0 Hn) by exact Hb.
    rewrite (write_spec key seal pad a d c0 Hn Hb).
    cbn [cut wf_result]. rewrite chunks_concat. auto.
  Qed.

  (** ONE failing call: the nonce has advanced by the number of frames sealed, the failing one
      included; the caller is told the bytes of the chunks before it; nothing after it is sealed *)
  Lemma write_fault_discipline : forall a d j c0,
    send_nonce a = nonce_of c0 ->
    j < length (chunks d) ->
    (c0 + N.of_nat (S j) <= max_u64)%N ->
    exists a' out,
      write_f key seal pad a d (Some j) = (a', out, WFErr (length (concat (firstn j (chunks d))))) /\
      send_nonce a' = nonce_of (c0 + N.of_nat (S j)) /\
      length out = S j /\
      (forall i, i <= j ->
         nth_error out i =
         option_map (fun ch => seal (send_key a) (nonce_of (c0 + N.of_nat i)) (mk_frame pad ch))
                    (nth_error (chunks d) i)).
  Proof.
    intros a d j c0 Hn Hj Hb.
    assert (Hlen : length (cut (Some j) (chunks d)) = S j).
    { cbn [cut]. rewrite firstn_length_le by lia. reflexivity. }
    rewrite (write_f_spec a d (Some j) c0 Hn) by (rewrite Hlen; exact Hb).
    eexists. eexists. split.
    - cbn [wf_result]. apply Nat.ltb_lt in Hj. rewrite Hj. reflexivity.
    - cbn [send_nonce]. rewrite Hlen. split; [reflexivity|]. split.
      + rewrite (seal_seq_length key seal), map_length. exact Hlen.
      + intros i Hi. rewrite (seal_seq_nth key seal). cbn [cut].
        rewrite nth_error_map.
        assert (E : nth_error (firstn (S j) (chunks d)) i = nth_error (chunks d) i).
        { rewrite <- (firstn_skipn (S j) (chunks d)) at 2.
          rewrite nth_error_app1; [reflexivity|]. rewrite firstn_length_le by lia. lia. }
        rewrite E. destruct (nth_error (chunks d) i); reflexivity.
  Qed.

  Lemma write_many_f_spec : forall ws a a' out c0,
    send_nonce a = nonce_of c0 ->
    (c0 + N.of_nat (length (chunks_of_f ws)) <= max_u64)%N ->
    write_many_f key seal pad a ws = (a', out) ->
    out = seal_seq key seal (send_key a) c0 (frames_of_f pad ws) /\
    send_nonce a' = nonce_of (c0 + N.of_nat (length (chunks_of_f ws))).
  Proof.
    induction ws as [|[d fl] ws IH]; intros a a' out c0 Hn Hb Hw; cbn [write_many_f] in Hw.
    - inversion Hw; subst a' out. cbn [chunks_of_f map concat length].
      change (N.of_nat 0) with 0%N. now rewrite N.add_0_r.
    - rewrite chunks_of_f_cons, app_length, Nat2N.inj_add in *.
      rewrite (write_f_spec a d fl c0 Hn) in Hw by lia.
      destruct (write_many_f key seal pad _ ws) as [a2 out2] eqn:E. inversion Hw; subst a' out.
      apply IH with (c0 := (c0 + N.of_nat (length (cut fl (chunks d))))%N) in E;
        [| reflexivity | cbn [send_nonce]; lia].
      destruct E as (-> & ->). unfold frames_of_f.
      now rewrite chunks_of_f_cons, map_app, (seal_seq_app key seal), map_length, N.add_assoc.
  Qed.

  Lemma write_many_f_out_length : forall a ws a' out c0,
    send_nonce a = nonce_of c0 ->
    (c0 + N.of_nat (length (chunks_of_f ws)) <= max_u64)%N ->
    write_many_f key seal pad a ws = (a', out) ->
    length out = length (chunks_of_f ws).
  Proof.
    intros a ws a' out c0 Hn Hb Hw. destruct (write_many_f_spec ws a a' out c0 Hn Hb Hw) as (-> & _).
    apply (sealed_length key seal).
  Qed.

  (** any number of calls, any of them failing anywhere: the i-th frame ever handed to the conn is
      sealed under counter c0+i, the send nonce ends at c0 + (number of frames sealed) ... *)
  Theorem fault_frame_nonce : forall a ws a' out c0,
    send_nonce a = nonce_of c0 ->
    (c0 + N.of_nat (length (chunks_of_f ws)) <= max_u64)%N ->
    write_many_f key seal pad a ws = (a', out) ->
    send_nonce a' = nonce_of (c0 + N.of_nat (length out)) /\
    forall i, nth_error out i =
              option_map (seal (send_key a) (nonce_of (c0 + N.of_nat i)))
                         (nth_error (frames_of_f pad ws) i).
  Proof.
    intros a ws a' out c0 Hn Hb Hw.
    rewrite (write_many_f_out_length a ws a' out c0 Hn Hb Hw).
    destruct (write_many_f_spec ws a a' out c0 Hn Hb Hw) as (-> & ->).
    split; [reflexivity|]. intros i. apply (seal_seq_nth key seal).
  Qed.

  (** ... and these nonces are pairwise different *)
  Theorem fault_nonce_unique : forall a ws a' out c0,
    send_nonce a = nonce_of c0 ->
    (c0 + N.of_nat (length (chunks_of_f ws)) <= max_u64)%N ->
    write_many_f key seal pad a ws = (a', out) ->
    forall i j, i < j -> j < length out ->
    nonce_of (c0 + N.of_nat i) <> nonce_of (c0 + N.of_nat j).
  Proof.
    intros a ws a' out c0 Hn Hb Hw i j Hij Hj.
    rewrite (write_many_f_out_length a ws a' out c0 Hn Hb Hw) in Hj.
    now apply (nonce_of_distinct c0 (length (chunks_of_f ws))).
  Qed.

  (** whatever reaches the reader, however long it reads: only bytes of sealed chunks, once, in
      order — or a forgery *)
  Theorem fault_tamper_safety : forall a b c0 ws a' out w caps b' w' rs,
    paired key a b c0 ->
    (c0 + N.of_nat (length (chunks_of_f ws)) <= max_u64)%N ->
    write_many_f key seal pad a ws = (a', out) ->
    read_many key open_ b w caps = (b', w', rs) ->
    (exists rest, concat (chunks_of_f ws) = delivered rs ++ rest) \/
    forgery key seal (send_key a) c0 (frames_of_f pad ws) w.
  Proof.
    intros a b c0 ws a' out w caps b' w' rs (Hk & Hsn & Hrn & Hbuf) Hb Hw Hr.
    apply (run_tamper key seal open_ pad AE (send_key a)) with (c := c0) (cs1 := chunks_of_f ws) in Hr;
      [ | now symmetry | exact Hrn | exact Hb | apply chunks_of_f_bounds ].
    rewrite Hbuf in Hr. exact Hr.
  Qed.

  (** the wire agrees with the sealed frames on the first j and then differs (a frame whose write
      "failed" was lost, cut, kept while a later one was dropped, ...): exactly the chunks of
      those j frames are delivered and the read that reaches position j fails *)
  Theorem fault_tamper_detected : forall a b c0 ws a' out j tail caps b' w' rs,
    paired key a b c0 ->
    (c0 + N.of_nat (length (chunks_of_f ws)) <= max_u64)%N ->
    write_many_f key seal pad a ws = (a', out) ->
    j <= length out ->
    (forall f, nth_error out j = Some f -> firstn sealed_size tail <> f) ->
    read_until_err key open_ b (concat (firstn j out) ++ tail) caps = (b', w', rs) ->
    forgery key seal (send_key a) c0 (frames_of_f pad ws) (concat (firstn j out) ++ tail) \/
    ((exists rest, concat (firstn j (chunks_of_f ws)) = delivered rs ++ rest) /\
     (forall e, In (RErr e) rs ->
        delivered rs = concat (firstn j (chunks_of_f ws)) /\ tail_case tail e)).
  Proof.
    intros a b c0 ws a' out j tail caps b' w' rs (Hk & Hsn & Hrn & Hbuf) Hb Hw Hj.
    rewrite (write_many_f_out_length a ws a' out c0 Hsn Hb Hw) in Hj.
    destruct (write_many_f_spec ws a a' out c0 Hsn Hb Hw) as (-> & _).
    exact (session_detected key seal open_ pad AE PD b _ c0 _ j tail caps b' w' rs (eq_sym Hk) Hrn
             Hbuf Hb (chunks_of_f_bounds ws) Hj).
  Qed.

  (** every sealed frame forwarded unchanged: every sealed byte is delivered once, in order, and
      the only error is EOF after the last one — a reported write error by itself loses nothing
      and desynchronises nothing *)
  Theorem fault_stream_exact : forall a b c0 ws a' out caps b' w' rs,
    paired key a b c0 ->
    (c0 + N.of_nat (length (chunks_of_f ws)) <= max_u64)%N ->
    write_many_f key seal pad a ws = (a', out) ->
    read_until_err key open_ b (concat out) caps = (b', w', rs) ->
    (exists rest, concat (chunks_of_f ws) = delivered rs ++ rest) /\
    (forall e, In (RErr e) rs -> e = REof /\ delivered rs = concat (chunks_of_f ws)).
  Proof.
    intros a b c0 ws a' out caps b' w' rs (Hk & Hsn & Hrn & Hbuf) Hb Hw Hr.
    destruct (write_many_f_spec ws a a' out c0 Hsn Hb Hw) as (-> & _).
    destruct (session_exact key seal open_ pad AE PD b _ c0 _ caps b' w' rs (eq_sym Hk) Hrn Hbuf
                Hb (chunks_of_f_bounds ws) Hr) as (H1 & H2 & _).
    split; assumption.
  Qed.
End Fault.
