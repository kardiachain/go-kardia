(** C06 — the overlay of a block (ModelSnap.v): its invariant, and why the snapshot flag of the
    backend cannot be observed. *)
From Coq Require Import List ZArith NArith Bool.
From Kardia Require Import C06.Model C06.ModelSnap C06.ProofsMap.
Import ListNotations.

Lemma mem_set a b s : mem a (fm_set b tt s) = N.eqb a b || mem a s.
Proof. unfold mem. rewrite get_set. destruct (N.eqb a b); reflexivity. Qed.

Lemma mem_cons a b u s : mem a ((b, u) :: s) = N.eqb a b || mem a s.
Proof. unfold mem. cbn [fm_get]. destruct (N.eqb a b); reflexivity. Qed.

Lemma mem_notin a (s : fmap unit) : ~ In a (keys s) -> mem a s = false.
Proof. intros NI. unfold mem. rewrite (get_none s a NI). reflexivity. Qed.

Lemma mem_nil a : mem a [] = false.
Proof. reflexivity. Qed.

Lemma mem_in a (s : fmap unit) : mem a s = true <-> In a (map fst s).
Proof.
  unfold mem. split.
  - destruct (fm_get a s) eqn:E; [intros _; apply (get_in _ _ _ E)|discriminate].
  - intros I. apply in_get_iff in I. destruct (fm_get a s); [reflexivity|congruence].
Qed.

Definition mark (c : bool) (a : N) (s : fmap unit) : fmap unit := if c then fm_set a tt s else s.

Lemma mem_mark c a b s : mem b (mark c a s) = N.eqb b a && c || mem b s.
Proof. destruct c; cbn [mark]; [rewrite mem_set|]; destruct (N.eqb b a); reflexivity. Qed.

Definition bk_wf (bk : backend) : Prop := forall a k, bk_acc bk a = None -> bk_slot bk a k = 0%N.

(** What an object at address [a] must satisfy with respect to the destruct set.  The second clause is what
    makes the two read paths agree: a fresh object that is not marked destructed was created over nothing,
    so the snapshot, asked by address, answers 0 as the empty storage trie does (with [bk_wf]). *)
Definition ok_obj (bk : backend) (ds : fmap unit) (a : N) (o : sobj) : Prop :=
  (mem a ds = true -> so_fresh o = true \/ so_deleted o = true) /\
  (so_fresh o = true -> mem a ds = false -> bk_acc bk a = None) /\
  (so_deleted o = true -> mem a ds = true) /\
  sorted (so_slots o).

Record inv (bk : backend) (st : core) : Prop := {
  inv_obj : forall a o, fm_get a (live st) = Some o -> ok_obj bk (destr st) a o;
  inv_destr : forall a, mem a (destr st) = true -> fm_get a (live st) <> None;
  inv_track : forall a, mem a (destr st) = true -> mem a (dirt st) = true \/ mem a (pend st) = true;
  inv_dirt : forall a, mem a (dirt st) = true -> fm_get a (live st) <> None;
  inv_pend : forall a, mem a (pend st) = true -> fm_get a (live st) <> None;
  inv_sorted : sorted (pend st) }.

Lemma inv_core0 bk : inv bk core0.
Proof.
  split; cbn; try discriminate; try (intros; discriminate); exact I.
Qed.

Section Inv.
  Variable bk : backend.

  Lemma ok_loaded ds a x : mem a ds = false -> ok_obj bk ds a (loaded x).
  Proof.
    intros M. unfold ok_obj, loaded; cbn. rewrite M. repeat split; try discriminate.
  Qed.

  Lemma ok_fresh ds a : (mem a ds = false -> bk_acc bk a = None) -> ok_obj bk ds a fresh_obj.
  Proof. intros B. unfold ok_obj, fresh_obj; cbn. repeat split; try discriminate; auto. Qed.

  Lemma get_deleted_ok st a o : inv bk st -> get_deleted bk st a = Some o -> ok_obj bk (destr st) a o.
  Proof.
    intros I. unfold get_deleted. destruct (fm_get a (live st)) as [o'|] eqn:E.
    - intros [= <-]. apply (inv_obj _ _ I _ _ E).
    - destruct (bk_acc bk a) as [x|]; [|discriminate]. cbn. intros [= <-].
      apply ok_loaded. destruct (mem a (destr st)) eqn:M; [|reflexivity].
      exfalso. apply (inv_destr _ _ I _ M), E.
  Qed.

  Lemma get_obj_ok st a o : inv bk st -> get_obj bk st a = Some o -> ok_obj bk (destr st) a o.
  Proof.
    intros I. unfold get_obj. destruct (get_deleted bk st a) as [o'|] eqn:E; [|discriminate].
    destruct (so_deleted o'); [discriminate|]. intros [= <-]. apply (get_deleted_ok _ _ _ I E).
  Qed.

  (** flags and slots of the modified copies *)
  Definition same_flags (o o' : sobj) : Prop :=
    so_fresh o' = so_fresh o /\ so_deleted o' = so_deleted o /\ (sorted (so_slots o) -> sorted (so_slots o')).

  Lemma ok_same_flags ds a o o' : same_flags o o' -> ok_obj bk ds a o -> ok_obj bk ds a o'.
  Proof.
    intros (F & D & S) (A & B & C & E). unfold ok_obj. rewrite F, D. repeat split; auto.
  Qed.

  Lemma sf_balance o v : same_flags o (with_balance o v).
  Proof. repeat split; auto. Qed.
  Lemma sf_nonce o v : same_flags o (with_nonce o v).
  Proof. repeat split; auto. Qed.
  Lemma sf_code o v : same_flags o (with_code o v).
  Proof. repeat split; auto. Qed.
  Lemma sf_suicided o : same_flags o (with_suicided o).
  Proof. repeat split; auto. Qed.
  Lemma sf_slot o k v : same_flags o (with_slot o k v).
  Proof. repeat split; auto. cbn. apply sorted_set. Qed.
  Lemma sf_refl o : same_flags o o.
  Proof. repeat split; auto. Qed.

  (** The one way the overlay changes at an address: the object at [a] is replaced by an acceptable one,
      and [a] may join the destruct set (it must then be tracked), the dirtied set, the pending set. *)
  Lemma set_obj_inv st a o (dd dt dp : bool) :
    inv bk st -> ok_obj bk (mark dd a (destr st)) a o -> (dd = true -> dt || dp = true) ->
    inv bk {| live := fm_set a o (live st); destr := mark dd a (destr st);
              dirt := mark dt a (dirt st); pend := mark dp a (pend st) |}.
  Proof.
    intros I K T. split; cbn [live destr dirt pend].
    - intros b ob. rewrite get_set. destruct (N.eqb_spec b a) as [->|D].
      + intros [= <-]. exact K.
      + intros G. unfold ok_obj. rewrite mem_mark. destruct (N.eqb_spec b a); [congruence|].
        apply (inv_obj _ _ I _ _ G).
    - intros b. rewrite mem_mark, get_set. destruct (N.eqb b a); [discriminate|]. apply (inv_destr _ _ I).
    - intros b. rewrite !mem_mark. destruct (N.eqb_spec b a) as [->|]; cbn [andb]; [|apply (inv_track _ _ I)].
      intros M. apply orb_true_iff in M as [M|M].
      + apply T, orb_true_iff in M as [X|X]; rewrite X; [left|right]; reflexivity.
      + destruct (inv_track _ _ I _ M) as [H|H]; rewrite H; [left|right]; apply orb_true_r.
    - intros b. rewrite mem_mark, get_set. destruct (N.eqb b a); [discriminate|]. apply (inv_dirt _ _ I).
    - intros b. rewrite mem_mark, get_set. destruct (N.eqb b a); [discriminate|]. apply (inv_pend _ _ I).
    - destruct dp; [apply sorted_set|]; apply (inv_sorted _ _ I).
  Qed.

  Lemma put_inv st a o : inv bk st -> ok_obj bk (destr st) a o -> inv bk (put st a o).
  Proof. intros I K. refine (set_obj_inv st a o false true false I K _). discriminate. Qed.

  Lemma create_object_inv st a : inv bk st ->
    inv bk (fst (create_object bk st a)) /\ ok_obj bk (destr (fst (create_object bk st a))) a fresh_obj.
  Proof.
    intros I. unfold create_object. destruct (get_deleted bk st a) as [p|] eqn:E; cbn [fst snd live destr].
    - assert (K : ok_obj bk (fm_set a tt (destr st)) a fresh_obj).
      { apply ok_fresh. rewrite mem_set, N.eqb_refl. discriminate. }
      split; [|exact K]. refine (set_obj_inv st a fresh_obj true true false I K _). reflexivity.
    - (* nothing at [a], neither in the overlay nor below *)
      assert (K : ok_obj bk (destr st) a fresh_obj).
      { apply ok_fresh. intros _. unfold get_deleted in E.
        destruct (fm_get a (live st)); [discriminate|]. destruct (bk_acc bk a); [discriminate|reflexivity]. }
      split; [apply put_inv; assumption|exact K].
  Qed.

  Lemma get_or_new_inv st a : inv bk st ->
    inv bk (fst (get_or_new bk st a)) /\
    ok_obj bk (destr (fst (get_or_new bk st a))) a (snd (get_or_new bk st a)).
  Proof.
    intros I. unfold get_or_new. destruct (get_obj bk st a) as [o|] eqn:E; cbn [fst snd].
    - split; [exact I|apply (get_obj_ok _ _ _ I E)].
    - apply create_object_inv, I.
  Qed.

  (** every mutator has the shape: [get_or_new], then leave the state or put a copy with the same flags *)
  Lemma mutator_inv st a (body : core -> sobj -> core) : inv bk st ->
    (forall st1 o, inv bk st1 -> (forall o', same_flags o o' -> inv bk (put st1 a o')) -> inv bk (body st1 o)) ->
    inv bk (let '(st1, o) := get_or_new bk st a in body st1 o).
  Proof.
    intros I B. destruct (get_or_new_inv st a I) as [I1 K].
    destruct (get_or_new bk st a) as [st1 o]. cbn [fst snd] in *.
    apply B; [exact I1|]. intros o' F. apply put_inv; [exact I1|apply (ok_same_flags _ _ _ _ F K)].
  Qed.

  Lemma add_balance_inv st a v : inv bk st -> inv bk (add_balance bk st a v).
  Proof.
    intros I. apply mutator_inv; [exact I|]. intros st1 o I1 P.
    destruct (Z.eqb v 0); [destruct (so_empty o); [apply P, sf_refl|exact I1]|apply P, sf_balance].
  Qed.

  Lemma sub_balance_inv st a v : inv bk st -> inv bk (sub_balance bk st a v).
  Proof.
    intros I. apply mutator_inv; [exact I|]. intros st1 o I1 P.
    destruct (Z.eqb v 0); [exact I1|apply P, sf_balance].
  Qed.

  Lemma set_nonce_inv st a n : inv bk st -> inv bk (set_nonce bk st a n).
  Proof. intros I. apply mutator_inv; [exact I|]. intros st1 o _ P. apply P, sf_nonce. Qed.

  Lemma set_code_inv st a h : inv bk st -> inv bk (set_code bk st a h).
  Proof. intros I. apply mutator_inv; [exact I|]. intros st1 o _ P. apply P, sf_code. Qed.

  Lemma set_state_inv st a k v : inv bk st -> inv bk (set_state bk st a k v).
  Proof.
    intros I. apply mutator_inv; [exact I|]. intros st1 o I1 P.
    destruct (N.eqb (obj_state bk st1 a o k) v); [exact I1|apply P, sf_slot].
  Qed.

  Lemma suicide_inv st a : inv bk st -> inv bk (suicide bk st a).
  Proof.
    intros I. unfold suicide. destruct (get_obj bk st a) as [o|] eqn:E; [|exact I].
    apply put_inv; [exact I|]. apply (ok_same_flags _ _ o), (get_obj_ok _ _ _ I E). apply sf_suicided.
  Qed.

  (** the balance CreateAccount carries over goes into the fresh object without a journal entry *)
  Lemma create_account_inv st a : inv bk st -> inv bk (create_account bk st a).
  Proof.
    intros I. unfold create_account. destruct (create_object_inv st a I) as [I1 K].
    destruct (create_object bk st a) as [st1 [p|]]; cbn [fst snd] in *; [|exact I1].
    refine (set_obj_inv st1 a _ false false false I1 _ _); [|discriminate].
    apply (ok_same_flags _ _ fresh_obj); [apply sf_balance|exact K].
  Qed.

  Lemma finalise_one_inv st a : inv bk st -> inv bk (finalise_one st a).
  Proof.
    intros I. unfold finalise_one. destruct (fm_get a (live st)) as [o|] eqn:E; [|exact I].
    destruct (so_suicided o || so_empty o).
    - refine (set_obj_inv st a (with_deleted o) true false true I _ _); [|reflexivity].
      destruct (inv_obj _ _ I _ _ E) as (_ & _ & _ & S).
      unfold ok_obj. cbn [mark]. rewrite mem_set, N.eqb_refl. cbn. repeat split; auto; discriminate.
    - split; cbn [live destr dirt pend].
      + apply (inv_obj _ _ I).
      + apply (inv_destr _ _ I).
      + intros b M. rewrite mem_set. destruct (inv_track _ _ I _ M) as [H|H]; rewrite H; [left; reflexivity|right; apply orb_true_r].
      + apply (inv_dirt _ _ I).
      + intros b. rewrite mem_set. destruct (N.eqb_spec b a) as [->|D]; [intros _; congruence|]. cbn. apply (inv_pend _ _ I).
      + apply sorted_set, (inv_sorted _ _ I).
  Qed.

  Lemma finalise_one_dirt st a : dirt (finalise_one st a) = dirt st.
  Proof. unfold finalise_one. destruct (fm_get a (live st)); [destruct (_ || _)|]; reflexivity. Qed.

  Lemma finalise_one_pend_mono st a b : mem b (pend st) = true -> mem b (pend (finalise_one st a)) = true.
  Proof.
    unfold finalise_one. destruct (fm_get a (live st)); [destruct (_ || _)|]; cbn [pend]; try rewrite mem_set; intros ->; auto using orb_true_r.
  Qed.

  Lemma finalise_one_pend st a : fm_get a (live st) <> None -> mem a (pend (finalise_one st a)) = true.
  Proof.
    unfold finalise_one. destruct (fm_get a (live st)); [|congruence]. intros _.
    destruct (_ || _); cbn [pend]; rewrite mem_set, N.eqb_refl; reflexivity.
  Qed.

  Lemma finalise_fold l : forall st, inv bk st -> (forall a, In a l -> mem a (dirt st) = true) ->
    let st' := fold_left finalise_one l st in
    inv bk st' /\ dirt st' = dirt st /\
    (forall a, In a l -> mem a (pend st') = true) /\
    (forall a, mem a (pend st) = true -> mem a (pend st') = true).
  Proof.
    induction l as [|a t IH]; intros st I D; cbn [fold_left].
    - cbn zeta. split; [exact I|]. split; [reflexivity|]. split; [intros b []|auto].
    - assert (I1 := finalise_one_inv st a I).
      destruct (IH (finalise_one st a) I1) as (I2 & D2 & P2 & M2).
      { intros b Hb. rewrite finalise_one_dirt. apply D. right. exact Hb. }
      cbn zeta in *. split; [exact I2|]. split; [rewrite D2; apply finalise_one_dirt|]. split.
      + intros b [<-|Hb]; [|apply P2, Hb]. apply M2, finalise_one_pend.
        apply (inv_dirt _ _ I). apply D. left. reflexivity.
      + intros b Hb. apply M2, finalise_one_pend_mono, Hb.
  Qed.

  Lemma finalise_inv st : inv bk st -> inv bk (finalise st) /\ dirt (finalise st) = [].
  Proof.
    intros I. unfold finalise.
    destruct (finalise_fold (map fst (dirt st)) st I) as (I2 & D2 & P2 & M2).
    { intros a Ha. apply mem_in, Ha. }
    cbn zeta in *. split; [|reflexivity].
    set (st1 := fold_left finalise_one (map fst (dirt st)) st) in *.
    split; cbn [live destr dirt pend].
    - apply (inv_obj _ _ I2).
    - apply (inv_destr _ _ I2).
    - intros a M. right. destruct (inv_track _ _ I2 _ M) as [H|H]; [|exact H].
      apply P2. apply mem_in. rewrite <- D2. exact H.
    - intros a M. discriminate.
    - apply (inv_pend _ _ I2).
    - apply (inv_sorted _ _ I2).
  Qed.

  Definition xinv (x : xstate) : Prop := inv bk (fst (fst x)) /\ Forall (inv bk) (snd (fst x)).

  Lemma step_inv x o : xinv x -> xinv (step bk x o).
  Proof.
    destruct x as [[st stack] out]. intros [I F]. cbn [fst snd] in *.
    destruct o; cbn [step]; unfold xinv; cbn [fst snd];
      try (split; [|exact F]).
    - apply create_account_inv, I.
    - apply add_balance_inv, I.
    - apply sub_balance_inv, I.
    - destruct (Z.leb v (balance_of bk st a)); cbn [fst snd]; split; auto.
      apply add_balance_inv, sub_balance_inv, I.
    - apply set_nonce_inv, I.
    - apply set_code_inv, I.
    - apply set_state_inv, I.
    - apply suicide_inv, add_balance_inv, I.
    - split; [exact I|constructor; assumption].
    - destruct (nth_error stack k) as [s|] eqn:E; cbn [fst snd]; [|split; assumption].
      split; [apply nth_error_In in E; rewrite Forall_forall in F; apply F, E|].
      rewrite <- (firstn_skipn (S k) stack) in F. apply Forall_app in F. apply F.
    - split; [apply finalise_inv, I|constructor].
    - exact I.
    - exact I.
  Qed.

  Lemma xinv_init out : xinv (core0, [], out).
  Proof. split; [apply inv_core0|constructor]. Qed.

  Lemma run_block_inv ops : inv bk (fst (run_block bk ops)) /\ dirt (fst (run_block bk ops)) = [].
  Proof.
    unfold run_block.
    pose proof (fold_left_pres (step bk) xinv step_inv ops _ (xinv_init [])) as X.
    destruct (fold_left (step bk) ops (core0, [], [])) as [[st stack] out]. cbn [fst snd] in *.
    apply finalise_inv, X.
  Qed.
End Inv.

(** two backends that answer alike run alike (whatever their snapshot flags) *)

Definition bk_same (b1 b2 : backend) : Prop :=
  (forall a, bk_acc b1 a = bk_acc b2 a) /\ (forall a k, bk_slot b1 a k = bk_slot b2 a k).

Section Same.
  Variables b1 b2 : backend.
  Hypothesis SAME : bk_same b1 b2.
  Hypothesis WF : bk_wf b1.

  Lemma same_get_deleted st a : get_deleted b1 st a = get_deleted b2 st a.
  Proof. unfold get_deleted. rewrite (proj1 SAME a). reflexivity. Qed.

  Lemma same_get_obj st a : get_obj b1 st a = get_obj b2 st a.
  Proof. unfold get_obj. rewrite same_get_deleted. reflexivity. Qed.

  Lemma same_create_object st a : create_object b1 st a = create_object b2 st a.
  Proof. unfold create_object, put. rewrite same_get_deleted. reflexivity. Qed.

  Lemma same_get_or_new st a : get_or_new b1 st a = get_or_new b2 st a.
  Proof. unfold get_or_new. rewrite same_get_obj, same_create_object. reflexivity. Qed.

  Lemma same_committed st a o k : ok_obj b1 (destr st) a o ->
    committed b1 st a o k = committed b2 st a o k.
  Proof.
    intros (A & B & C & S). unfold committed. destruct (mem a (destr st)) eqn:M; [reflexivity|].
    rewrite <- (proj2 SAME a k).
    assert (Z : so_fresh o = true -> bk_slot b1 a k = 0%N).
    { intros F. apply WF, B; [exact F|reflexivity]. }
    destruct (bk_snap b1), (bk_snap b2), (so_fresh o); try reflexivity; rewrite Z; reflexivity.
  Qed.

  Lemma same_obj_state st a o k : ok_obj b1 (destr st) a o ->
    obj_state b1 st a o k = obj_state b2 st a o k.
  Proof. intros K. unfold obj_state. rewrite (same_committed _ _ _ _ K). reflexivity. Qed.

  Lemma same_balance_of st a : balance_of b1 st a = balance_of b2 st a.
  Proof. unfold balance_of. rewrite same_get_obj. reflexivity. Qed.

  Lemma same_add_balance st a v : add_balance b1 st a v = add_balance b2 st a v.
  Proof. unfold add_balance. rewrite same_get_or_new. reflexivity. Qed.

  Lemma same_sub_balance st a v : sub_balance b1 st a v = sub_balance b2 st a v.
  Proof. unfold sub_balance. rewrite same_get_or_new. reflexivity. Qed.

  Lemma same_step x o : xinv b1 x -> step b1 x o = step b2 x o.
  Proof.
    destruct x as [[st stack] out]. intros [I S]. cbn [fst snd] in *.
    destruct o; cbn [step]; try reflexivity.
    - unfold create_account. rewrite same_create_object. reflexivity.
    - rewrite same_add_balance. reflexivity.
    - rewrite same_sub_balance. reflexivity.
    - rewrite same_balance_of, same_sub_balance, same_add_balance. reflexivity.
    - unfold set_nonce. rewrite same_get_or_new. reflexivity.
    - unfold set_code. rewrite same_get_or_new. reflexivity.
    - unfold set_state. rewrite <- same_get_or_new.
      destruct (get_or_new_inv b1 st a I) as [I1 K].
      destruct (get_or_new b1 st a) as [st1 o]. cbn [fst snd] in *.
      rewrite (same_obj_state _ _ _ _ K). reflexivity.
    - rewrite same_balance_of, same_add_balance. unfold suicide. rewrite same_get_obj. reflexivity.
    - unfold read_acc. rewrite same_get_obj. reflexivity.
    - unfold read_slot. rewrite <- same_get_obj. destruct (get_obj b1 st a) as [o|] eqn:E; [|reflexivity].
      rewrite (same_obj_state _ _ _ _ (get_obj_ok b1 _ _ _ I E)). reflexivity.
  Qed.

  Lemma same_steps ops : forall x, xinv b1 x -> fold_left (step b1) ops x = fold_left (step b2) ops x.
  Proof.
    induction ops as [|o t IH]; intros x X; cbn [fold_left]; [reflexivity|].
    rewrite <- (same_step x o X). apply IH, step_inv, X.
  Qed.

  Lemma same_run_block ops : run_block b1 ops = run_block b2 ops.
  Proof.
    unfold run_block. rewrite same_steps; [reflexivity|apply xinv_init].
  Qed.
End Same.
