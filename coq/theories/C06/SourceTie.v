(** C06 — tie of the model's decisions and arithmetic to the Go SOURCE.
    [Generated/C06Source.v] is produced on every check by /verif/go2coq from /repo's working tree:
    every guard / integer expression of
      kai/state/cstate: validateBlock, calculateValidatorSetUpdates, updateState;
      mainchain/blockchain: BlockOperations.CreateProposalBlock, commitBlock, ApplyTransaction;
      types: bloomValues, Bloom.add;
      kai/state: StateDB.Finalise, IntermediateRoot, createObject, getStateObject,
                 stateObject.GetCommittedState, AddBalance, SubBalance, empty, updateTrie,
                 resetObjectChange.revert;
      kai/state/snapshot: diffLayer.flatten, Tree.Cap, Tree.cap, diffToDisk.
    [C06_source_tie_statement] says of the guards and expressions it names (not of every generated one:
    none of commitBlock's, one of IntermediateRoot's) that the model (Model.v, ModelValset.v, ModelSnap.v)
    takes exactly these decisions on exactly these operands (the [_atoms] lists): where possible as an
    equality that mentions the model's own definition ([validate_block st b = src_validate st b],
    [finalise_one], [get_obj], [create_object], [committed], [commit_one], [receipts_from], ...),
    otherwise guard by guard against the expression the model uses at that place.  A few more ties
    of the same kind stand as lemmas of their own. *)
From Coq Require Import List ZArith NArith Bool Lia String.
From Kardia Require Import Base.Int64 Base.GoSem Base.Conj.
From Kardia Require Import Generated.C06Source.
From Kardia Require Import Generated.C06Facts C06.Model C06.ModelValset C06.ModelSnap C06.ProofsMap C06.ProofsFlush
     C06.ProofsSnapInv C06.ProofsSnapView.
Import ListNotations.
Local Open Scope Z_scope.

(** big.Int.Sign as the Go int it returns *)
Definition sign_int (a : Z) : Z := match a ?= 0 with Lt => -1 | Eq => 0 | Gt => 1 end.

Lemma sign_int_eq0 v : Z.eqb (sign_int v) 0 = Z.eqb v 0.
Proof. unfold sign_int. destruct (Z.compare_spec v 0); destruct (Z.eqb_spec v 0); try reflexivity; lia. Qed.

Lemma ofN_succ_u64 a : Z.of_N a < 18446744073709551615 -> go_add U64 (Z.of_N a) 1 = Z.of_N (a + 1).
Proof. intros H. unfold go_add. rewrite wrap_id by (unfold in_range; lia). lia. Qed.

(** the control flow of cstate/validation.go validateBlock, every condition being the generated one *)
Definition src_validate (st : cstate) (b : blockv) : verdict :=
  let h := Z.of_N (b_height b) in
  let l := Z.of_N (s_last_height st) in
  let i := Z.of_N (s_initial_height st) in
  let rest :=
    if kai_state_cstate__validateBlock__if_numEvidence_gt_maxNumEvidence (b_evidence b) (b_max_evidence b) then VEvidence
    else if kai_state_cstate__validateBlock__if_not_state_Validators_HasAddress_block_ProposerAddress (b_proposer_in b) then VProposer
    else VOk in
  let time :=
    if kai_state_cstate__validateBlock__case_block_Height_gt_state_InitialHeight h i then
      if kai_state_cstate__validateBlock__if_not_block_Time__After_state_LastBlockTime (Z.ltb (s_last_time st) (b_time b)) then VTimeNotAfter
      else if kai_state_cstate__validateBlock__if_not_block_Time__Equal_medianTime (Z.eqb (b_time b) (b_median b)) then VTimeMedian
      else rest
    else if kai_state_cstate__validateBlock__case_block_Height_eq_state_InitialHeight h i then
      if kai_state_cstate__validateBlock__if_not_block_Time__Equal_genesisTime (Z.eqb (b_time b) (s_last_time st)) then VTimeGenesis
      else rest
    else VHeightLow in
  if negb (b_basic_ok b) then VBasic
  else if kai_state_cstate__validateBlock__if_block_Height_ne_state_LastBlockHeight_plus_1 h l then VHeight
  else if kai_state_cstate__validateBlock__if_state_LastBlockHeight_eq_0_and_block_Height_ne_state_InitialHeight l h i then VHeight
  else if kai_state_cstate__validateBlock__if_state_LastBlockHeight_gt_0_and_block_Height_ne_state_LastBlo_85dde98c l h then VHeight
  else if kai_state_cstate__validateBlock__if_not_block_Header__LastBlockID_Equal_state_LastBlockID
            (N.eqb (b_last_block_id b) (s_last_block_id st)) then VLastID
  else if kai_state_cstate__validateBlock__if_not_block_AppHash__Equal_state_AppHash
            (N.eqb (b_app_hash b) (s_app_hash st)) then VAppHash
  else if kai_state_cstate__validateBlock__if_not_block_Header__ValidatorsHash_Equal_state_Validators_Hash
            (N.eqb (b_vals_hash b) (s_vals_hash st)) then VValHash
  else if kai_state_cstate__validateBlock__if_not_block_Header__NextValidatorsHash_Equal_state_NextValidators_Hash
            (N.eqb (b_next_vals_hash b) (s_next_vals_hash st)) then VNextValHash
  else if kai_state_cstate__validateBlock__if_block_LastCommit_eq_nil (b_commit_nil b) then VNilCommit
  else if kai_state_cstate__validateBlock__if_block_Height_eq_state_InitialHeight h i then
    if kai_state_cstate__validateBlock__if_len_block_LastCommit__Signatures_ne_0 (Z.of_N (b_commit_sigs b)) then VCommitSig
    else time
  else if negb (b_commit_ok b) then VCommit
  else time.

Lemma validate_atoms :
  kai_state_cstate__validateBlock__if_block_Height_ne_state_LastBlockHeight_plus_1_atoms = ["block.Height() : uint64"; "state.LastBlockHeight : uint64"]%string
  /\ kai_state_cstate__validateBlock__if_state_LastBlockHeight_eq_0_and_block_Height_ne_state_InitialHeight_atoms
     = ["state.LastBlockHeight : uint64"; "block.Height() : uint64"; "state.InitialHeight : uint64"]%string
  /\ kai_state_cstate__validateBlock__if_not_block_Header__LastBlockID_Equal_state_LastBlockID_atoms = ["block.Header().LastBlockID.Equal(state.LastBlockID) : bool"]%string
  /\ kai_state_cstate__validateBlock__if_not_block_AppHash__Equal_state_AppHash_atoms = ["block.AppHash().Equal(state.AppHash) : bool"]%string
  /\ kai_state_cstate__validateBlock__if_not_block_Header__ValidatorsHash_Equal_state_Validators_Hash_atoms = ["block.Header().ValidatorsHash.Equal(state.Validators.Hash()) : bool"]%string
  /\ kai_state_cstate__validateBlock__if_not_block_Header__NextValidatorsHash_Equal_state_NextValidators_Hash_atoms = ["block.Header().NextValidatorsHash.Equal(state.NextValidators.Hash()) : bool"]%string
  /\ kai_state_cstate__validateBlock__if_block_LastCommit_eq_nil_atoms = ["block.LastCommit() == nil : untyped bool"]%string
  /\ kai_state_cstate__validateBlock__if_block_Height_eq_state_InitialHeight_atoms = ["block.Height() : uint64"; "state.InitialHeight : uint64"]%string
  /\ kai_state_cstate__validateBlock__if_len_block_LastCommit__Signatures_ne_0_atoms = ["len(block.LastCommit().Signatures) : int"]%string
  /\ kai_state_cstate__validateBlock__case_block_Height_gt_state_InitialHeight_atoms = ["block.Height() : uint64"; "state.InitialHeight : uint64"]%string
  /\ kai_state_cstate__validateBlock__if_not_block_Time__After_state_LastBlockTime_atoms = ["block.Time().After(state.LastBlockTime) : bool"]%string
  /\ kai_state_cstate__validateBlock__if_not_block_Time__Equal_medianTime_atoms = ["block.Time().Equal(medianTime) : bool"]%string
  /\ kai_state_cstate__validateBlock__if_not_block_Time__Equal_genesisTime_atoms = ["block.Time().Equal(genesisTime) : bool"]%string
  /\ kai_state_cstate__validateBlock__if_numEvidence_gt_maxNumEvidence_atoms = ["numEvidence : int64"; "maxNumEvidence : int64"]%string
  /\ kai_state_cstate__validateBlock__if_not_state_Validators_HasAddress_block_ProposerAddress_atoms = ["state.Validators.HasAddress(block.ProposerAddress()) : bool"]%string.
Proof.
  (* [exact eq_refl] yields [eq_refl c] for a conjunct [c = "..."]; [reflexivity] would copy the string into the term *)
  split_all; exact eq_refl.
Qed.

Lemma proposal_atoms :
  mainchain_blockchain__BlockOperations_CreateProposalBlock__if_height_eq_1_atoms = ["height : uint64"]%string.
Proof. reflexivity. Qed.

(** the pre-scan: `if _, dup := seen[val.Address]; dup { return vals }` *)
Lemma tie_dup seen v t :
  has_dup_addr seen (v :: t) =
  if kai_state_cstate__calculateValidatorSetUpdates__if_dup (existsb (N.eqb (v_addr v)) seen) then true
  else has_dup_addr (v_addr v :: seen) t.
Proof. reflexivity. Qed.
Lemma calc_atoms :
  kai_state_cstate__calculateValidatorSetUpdates__if_len_vals_eq_0_atoms = ["len(vals) : int"]%string
  /\ kai_state_cstate__calculateValidatorSetUpdates__if_dup_atoms = ["dup : bool"]%string
  /\ kai_state_cstate__calculateValidatorSetUpdates__if_not_found_or_oldPower_ne_val_VotingPower_atoms
     = ["found : bool"; "oldPower : int64"; "val.VotingPower : int64"]%string.
Proof. split_all; exact eq_refl. Qed.

Lemma update_state_atoms :
  kai_state_cstate__updateState__if_len_validatorUpdates_gt_0_atoms = ["len(validatorUpdates) : int"]%string
  /\ kai_state_cstate__updateState__set_lastHeightValsChanged_atoms = ["header.Height : uint64"]%string.
Proof. split_all; exact eq_refl. Qed.

Lemma tie_receipt_gas (ba bt : N -> list N) cum st g logs t :
  map r_gas (firstn 1 (receipts_from ba bt cum (Applied st g logs :: t))) = [mainchain_blockchain__ApplyTransaction__put_receipt_GasUsed g].
Proof. reflexivity. Qed.
(** NewReceipt: status 0 for a failed execution, 1 otherwise (the status the model's [Applied] carries) *)
Lemma tie_receipt_status :
  types__NewReceipt__put_r_Status = 0 /\ types__NewReceipt__put_r_Status_2 = 1 /\
  types__NewReceipt__if_failed true = true /\ types__NewReceipt__if_failed false = false.
Proof. repeat split; reflexivity. Qed.
(** CreateProposalBlock: the block gas limits *)
Lemma tie_gas_limits :
  mainchain_blockchain__BlockOperations_CreateProposalBlock__put_header_GasLimit = 200000000
  /\ mainchain_blockchain__BlockOperations_CreateProposalBlock__put_header_GasLimit_2 = 100000000.
Proof. split; reflexivity. Qed.
Lemma gas_atoms :
  mainchain_blockchain__ApplyTransaction__assign_op_atoms = ["*usedGas : uint64"; "result.UsedGas : uint64"]%string
  /\ mainchain_blockchain__ApplyTransaction__put_receipt_GasUsed_atoms = ["result.UsedGas : uint64"]%string
  /\ types__NewReceipt__if_failed_atoms = ["failed : bool"]%string.
Proof. split_all; exact eq_refl. Qed.

(** bloomValues: with x the big-endian uint16 at an even offset of the Keccak hash, the byte that
    is ORed into is number [BloomByteLength - ((x & 0x7ff) >> 3) - 1] *)
Lemma tie_bloom_index x : in_range U16 x ->
  types__bloomValues__set_i1 x = 255 - (x mod bloom_bit_length) / 8.
Proof.
  intros H. unfold types__bloomValues__set_i1, go_sub, go_conv, go_shr, go_and, bloom_bit_length.
  change 2047 with (Z.ones 11). rewrite Z.land_ones by lia. change (2 ^ 11) with 2048. change (2 ^ 3) with 8.
  unfold in_range in H.
  assert (0 <= x mod 2048 < 2048) by (apply Z.mod_pos_bound; lia).
  assert (0 <= x mod 2048 / 8 < 256) by (split; [apply Z.div_pos; lia|apply Z.div_lt_upper_bound; lia]).
  rewrite (wrap_id U16 (x mod 2048)) by (unfold in_range; lia).
  rewrite (wrap_id U16) by (unfold in_range; lia).
  rewrite (wrap_id U64 (x mod 2048 / 8)) by (unfold in_range; lia).
  rewrite (wrap_id U64 (256 - _)) by (unfold in_range; lia).
  rewrite wrap_id by (unfold in_range; lia). lia.
Qed.
Lemma bloom_atoms :
  types__bloomValues__set_i1_atoms = ["binary.BigEndian.Uint16(hashbuf) : uint16"]%string
  /\ types__bloomValues__set_i2_atoms = ["binary.BigEndian.Uint16(hashbuf[2:]) : uint16"]%string
  /\ types__bloomValues__set_i3_atoms = ["binary.BigEndian.Uint16(hashbuf[4:]) : uint16"]%string
  /\ types__bloomValues__set_v1_atoms = ["1 << (hashbuf[1] & 0x7) : byte"]%string
  /\ types__bloomValues__set_v2_atoms = ["1 << (hashbuf[3] & 0x7) : byte"]%string
  /\ types__bloomValues__set_v3_atoms = ["1 << (hashbuf[5] & 0x7) : byte"]%string
  /\ types__Bloom_add__assign_op_atoms = ["b[i1] : byte"; "v1 : byte"]%string
  /\ types__Bloom_add__assign_op_2_atoms = ["b[i2] : byte"; "v2 : byte"]%string
  /\ types__Bloom_add__assign_op_3_atoms = ["b[i3] : byte"; "v3 : byte"]%string.
Proof. split_all; exact eq_refl. Qed.

Lemma tie_finalise_deleted o : so_deleted (with_deleted o) = kai_state__StateDB_Finalise__put_obj_deleted.
Proof. reflexivity. Qed.
Lemma tie_finalise_missing st a : fm_get a (live st) = None ->
  kai_state__StateDB_Finalise__if_not_exist false = true /\ finalise_one st a = st.
Proof. intros E. split; [reflexivity|]. unfold finalise_one. rewrite E. reflexivity. Qed.

Lemma tie_create_account bk st a :
  create_account bk st a =
  let st1 := fst (create_object bk st a) in
  if kai_state__StateDB_CreateAccount__if_prev_ne_nil (match snd (create_object bk st a) with Some _ => true | None => false end)
  then {| live := fm_set a (with_balance fresh_obj (match snd (create_object bk st a) with Some p => so_balance p | None => 0 end)) (live st1);
          destr := destr st1; dirt := dirt st1; pend := pend st1 |}
  else st1.
Proof. unfold create_account. destruct (create_object bk st a) as [st1 [p|]]; reflexivity. Qed.

Lemma mem_rm a b (s : fmap unit) : mem b (fm_rm a s) = if N.eqb b a then false else mem b s.
Proof. unfold mem. rewrite get_rm. destruct (N.eqb b a); reflexivity. Qed.

(** resetObjectChange.revert: `if !ch.prevdestruct { delete(s.stateObjectsDestruct, addr) }` takes
    the set back to what it was before createObject marked the address — the model's restore of
    the saved set (without the guard a reverted createObject leaves a destructed mark on an account the
    flush does not touch: ProofsSnapChain.ex_stale_view_breaks) *)
Lemma tie_revert_destruct ds0 a b :
  mem b (if kai_state__resetObjectChange_revert__if_not_ch_prevdestruct (mem a ds0)
         then fm_rm a (fm_set a tt ds0) else fm_set a tt ds0) = mem b ds0.
Proof.
  unfold kai_state__resetObjectChange_revert__if_not_ch_prevdestruct. destruct (mem a ds0) eqn:M; cbn [negb].
  - rewrite mem_set. destruct (N.eqb_spec b a) as [->|]; [rewrite M|]; reflexivity.
  - rewrite mem_rm, mem_set.
    destruct (N.eqb_spec b a) as [->|]; [rewrite M|]; reflexivity.
Qed.

(** GetState / GetCommittedState above the committed value: the dirty, then the pending slots
    (one map in the model) *)
Lemma tie_obj_state bk st a o k :
  obj_state bk st a o k =
  if kai_state__stateObject_GetState__if_dirty (match fm_get k (so_slots o) with Some _ => true | None => false end)
  then match fm_get k (so_slots o) with Some v => v | None => 0%N end
  else if kai_state__stateObject_GetCommittedState__if_pending false then 0%N
  else committed bk st a o k.
Proof. unfold obj_state. destruct (fm_get k (so_slots o)); reflexivity. Qed.

Lemma statedb_atoms :
  kai_state__StateDB_Finalise__if_obj_suicided_or_deleteEmptyObjects_and_obj_empty_atoms = ["obj.suicided : bool"; "deleteEmptyObjects : bool"; "obj.empty() : bool"]%string
  /\ kai_state__StateDB_Finalise__if_not_exist_atoms = ["exist : bool"]%string
  /\ kai_state__stateObject_empty__ret_s_data_Nonce_eq_0_and_s_data_Balance_Sign_eq_0_and_bytes_Equ_d1151db1_atoms
     = ["s.data.Nonce : uint64"; "s.data.Balance.Sign() : int"; "bytes.Equal(s.data.CodeHash, types.EmptyCodeHash.Bytes()) : bool"]%string
  /\ kai_state__StateDB_getStateObject__if_obj_ne_nil_and_not_obj_deleted_atoms = ["obj != nil : bool"; "obj.deleted : bool"]%string
  /\ kai_state__StateDB_createObject__if_prev_ne_nil_and_not_prev_deleted_atoms = ["prev != nil : bool"; "prev.deleted : bool"]%string
  /\ kai_state__StateDB_createObject__if_not_prevdestruct_atoms = ["prevdestruct : bool"]%string
  /\ kai_state__resetObjectChange_revert__if_not_ch_prevdestruct_atoms = ["ch.prevdestruct : bool"]%string
  /\ kai_state__stateObject_AddBalance__if_amount_Sign_eq_0_atoms = ["amount.Sign() : int"]%string
  /\ kai_state__stateObject_SubBalance__if_amount_Sign_eq_0_atoms = ["amount.Sign() : int"]%string
  /\ kai_state__stateObject_GetCommittedState__if_s_db_snap_eq_nil_or_err_ne_nil_atoms = ["s.db.snap == nil : untyped bool"; "err != nil : untyped bool"]%string
  /\ kai_state__StateDB_IntermediateRoot__if_not_obj_deleted_atoms = ["obj.deleted : bool"]%string
  /\ kai_state__stateObject_updateTrie__if_len_s_pendingStorage_eq_0_atoms = ["len(s.pendingStorage) : int"]%string.
Proof. split_all; exact eq_refl. Qed.

Lemma tie_cap_keeps n (ls : list layer) dk b : (n <= List.length ls)%nat -> flatten_all (skipn n ls) = Some b ->
  List.length (fst (cap n ls dk)) = n.
Proof. intros L E. unfold cap. rewrite E. cbn [fst]. apply firstn_length_le, L. Qed.

(** Tree.cap's loop `for i := 0; i < layers-1; i++`, run with the generated init, guard and step:
    exactly layers-1 descents *)
Fixpoint cap_descents (fuel : nat) (i layers : Z) : nat :=
  match fuel with
  | O => O
  | S f => if kai_state_snapshot__Tree_cap__for_i_lt_layers_minus_1 i layers
           then S (cap_descents f (kai_state_snapshot__Tree_cap__set_i_op i) layers) else O
  end.
Lemma cap_descents_spec layers : 1 <= layers <= 9223372036854775807 -> forall f i,
  0 <= i <= layers - 1 -> (Z.to_nat (layers - 1 - i) <= f)%nat ->
  cap_descents f i layers = Z.to_nat (layers - 1 - i).
Proof.
  intros R. induction f as [|f IH]; intros i Hi Hf.
  - cbn [cap_descents]. lia.
  - cbn [cap_descents]. unfold kai_state_snapshot__Tree_cap__for_i_lt_layers_minus_1, go_sub.
    rewrite (wrap_id I64 (layers - 1)) by (unfold in_range; lia).
    destruct (Z.ltb_spec i (layers - 1)) as [L|L].
    + unfold kai_state_snapshot__Tree_cap__set_i_op, go_add. rewrite (wrap_id I64 (i + 1)) by (unfold in_range; lia).
      rewrite IH by lia. lia.
    + lia.
Qed.
(** the aggressive cap while the generator runs; the cycle guard of Tree.Update *)
Lemma tie_cap_misc :
  kai_state_snapshot__Tree_Cap__let_layers = 8 /\
  kai_state_snapshot__Tree_Update__if_blockRoot_eq_parentRoot_atoms = ["blockRoot == parentRoot : untyped bool"]%string.
Proof. split; reflexivity. Qed.

Lemma snapshot_atoms :
  kai_state_snapshot__Tree_Cap__if_layers_eq_0_atoms = ["layers : int"]%string
  /\ kai_state_snapshot__Tree_cap__for_i_lt_layers_minus_1_atoms = ["i : int"; "layers : int"]%string
  /\ kai_state_snapshot__Tree_cap__if_flattened_memory_lt_aggregatorMemoryLimit_atoms = ["flattened.memory : uint64"; "aggregatorMemoryLimit : uint64"]%string
  /\ kai_state_snapshot__diffLayer_flatten__if_not_ok_atoms = ["ok : bool"]%string
  /\ kai_state_snapshot__diffToDisk__if_len_data_gt_0_atoms = ["len(data) : int"]%string.
Proof. split_all; exact eq_refl. Qed.

Definition C06_source_tie_statement : Prop :=
  (forall st b, Z.of_N (s_last_height st) < 18446744073709551615 -> validate_block st b = src_validate st b)
  /\ (forall st sigs cok med nev maxev pin,
        b_time (create_proposal_block st sigs cok med nev maxev pin) =
        if mainchain_blockchain__BlockOperations_CreateProposalBlock__if_height_eq_1 (Z.of_N (s_last_height st + 1))
        then s_last_time st else med)
  /\ (forall last vals, kai_state_cstate__calculateValidatorSetUpdates__if_len_vals_eq_0 (Z.of_nat (List.length vals)) = true ->
        calculate_updates last vals = [])
  /\ (forall m v, is_update m v =
        kai_state_cstate__calculateValidatorSetUpdates__if_not_found_or_oldPower_ne_val_VotingPower
          (match amap_get (v_addr v) m with Some _ => true | None => false end)
          (match amap_get (v_addr v) m with Some p => p | None => 0 end) (v_power v))
  /\ (forall ups : list validator, kai_state_cstate__updateState__if_len_validatorUpdates_gt_0 (Z.of_nat (List.length ups)) =
        match ups with [] => false | _ => true end)
  /\ (forall h, 0 <= h < 18446744073709551614 -> kai_state_cstate__updateState__set_lastHeightValsChanged h = h + 2)
  /\ (forall (ba bt : N -> list N) cum st g logs t,
        map r_cum (receipts_from ba bt cum (Applied st g logs :: t)) =
        mainchain_blockchain__ApplyTransaction__assign_op cum g ::
        map r_cum (receipts_from ba bt (mainchain_blockchain__ApplyTransaction__assign_op cum g) t))
  /\ (forall x, in_range U16 x -> 8 * (255 - types__bloomValues__set_i1 x) + x mod 8 = x mod bloom_bit_length)
  /\ (forall x, types__bloomValues__set_i2 x = types__bloomValues__set_i1 x /\ types__bloomValues__set_i3 x = types__bloomValues__set_i1 x)
  /\ (forall b v, in_range U8 b -> in_range U8 v -> types__Bloom_add__assign_op b v = Z.lor b v)
  /\ (forall o, so_empty o =
        kai_state__stateObject_empty__ret_s_data_Nonce_eq_0_and_s_data_Balance_Sign_eq_0_and_bytes_Equ_d1151db1
          (Z.of_N (so_nonce o)) (sign_int (so_balance o)) (N.eqb (so_code o) 0))
  /\ (forall st a o, fm_get a (live st) = Some o ->
        finalise_one st a =
        if kai_state__StateDB_Finalise__if_obj_suicided_or_deleteEmptyObjects_and_obj_empty (so_suicided o) true (so_empty o)
        then {| live := fm_set a (with_deleted o) (live st); destr := fm_set a tt (destr st); dirt := dirt st; pend := fm_set a tt (pend st) |}
        else {| live := live st; destr := destr st; dirt := dirt st; pend := fm_set a tt (pend st) |})
  /\ (forall bk st a, get_obj bk st a =
        match get_deleted bk st a with
        | Some o => if kai_state__StateDB_getStateObject__if_obj_ne_nil_and_not_obj_deleted true (so_deleted o) then Some o else None
        | None => if kai_state__StateDB_getStateObject__if_obj_ne_nil_and_not_obj_deleted false false then Some fresh_obj else None
        end)
  /\ (forall bk st a, snd (create_object bk st a) =
        match get_deleted bk st a with
        | Some p => if kai_state__StateDB_createObject__if_prev_ne_nil_and_not_prev_deleted true (so_deleted p) then Some p else None
        | None => if kai_state__StateDB_createObject__if_prev_ne_nil_and_not_prev_deleted false false then Some fresh_obj else None
        end)
  /\ (forall ds a b, mem b (fm_set a tt ds) =
        mem b (if kai_state__StateDB_createObject__if_not_prevdestruct (mem a ds) then fm_set a tt ds else ds))
  /\ (forall ds0 a b,
        mem b (if kai_state__resetObjectChange_revert__if_not_ch_prevdestruct (mem a ds0)
               then fm_rm a (fm_set a tt ds0) else fm_set a tt ds0) = mem b ds0)
  /\ (forall bk st a v, add_balance bk st a v =
        let '(st1, o) := get_or_new bk st a in
        if kai_state__stateObject_AddBalance__if_amount_Sign_eq_0 (sign_int v)
        then (if kai_state__stateObject_AddBalance__if_s_empty (so_empty o) then put st1 a o else st1)
        else put st1 a (with_balance o (so_balance o + v)))
  /\ (forall bk st a v, sub_balance bk st a v =
        let '(st1, o) := get_or_new bk st a in
        if kai_state__stateObject_SubBalance__if_amount_Sign_eq_0 (sign_int v) then st1 else put st1 a (with_balance o (so_balance o - v)))
  /\ (forall bk st a o k, committed bk st a o k =
        if kai_state__stateObject_GetCommittedState__if_destructed (mem a (destr st)) then 0%N
        else
          let v := if kai_state__stateObject_GetCommittedState__if_s_db_snap_ne_nil (bk_snap bk) then bk_slot bk a k else 0%N in
          if kai_state__stateObject_GetCommittedState__if_s_db_snap_eq_nil_or_err_ne_nil (negb (bk_snap bk)) false
          then (if so_fresh o then 0%N else bk_slot bk a k) else v)
  /\ (forall bk st a k v, set_state bk st a k v =
        let '(st1, o) := get_or_new bk st a in
        if kai_state__stateObject_SetState__if_prev_eq_value (N.eqb (obj_state bk st1 a o k) v) then st1 else put st1 a (with_slot o k v))
  /\ (forall bk st a, create_object bk st a =
        if kai_state__StateDB_createObject__if_prev_eq_nil (match get_deleted bk st a with None => true | Some _ => false end)
        then (put st a fresh_obj, None)
        else ({| live := fm_set a fresh_obj (live st); destr := fm_set a tt (destr st); dirt := fm_set a tt (dirt st); pend := pend st |},
              snd (create_object bk st a)))
  /\ (forall m kv, set_slot m kv =
        if kai_state__stateObject_updateTrie__if_value_eq_common_Hash (N.eqb (snd kv) 0) then fm_del (fst kv) m else fm_set (fst kv) (snd kv) m)
  /\ (forall l t dk a, look_acc (l :: t) dk a =
        if kai_state_snapshot__diffLayer_accountRLP__if_ok (match fm_get a (l_accts l) with Some _ => true | None => false end)
        then fm_get a (l_accts l)
        else if kai_state_snapshot__diffLayer_accountRLP__if_ok_2 (mem a (l_destr l)) then None else look_acc t dk a)
  /\ (forall l t dk a k, look_slot (l :: t) dk a k =
        if kai_state_snapshot__diffLayer_storage__if_ok (match fm_get a (l_stor l) with Some _ => true | None => false end)
           && kai_state_snapshot__diffLayer_storage__if_ok_2 (match stor_get (l_stor l) a k with Some _ => true | None => false end)
        then match stor_get (l_stor l) a k with Some v => v | None => 0%N end
        else if kai_state_snapshot__diffLayer_storage__if_ok_3 (mem a (l_destr l)) then 0%N else look_slot t dk a k)
  /\ (forall layers, 1 <= layers <= 4611686018427387904 ->
        cap_descents (Z.to_nat layers) kai_state_snapshot__Tree_cap__forinit_i layers = Z.to_nat (layers - 1))
  /\ (forall c d, commit_one c d =
        if kai_state__StateDB_IntermediateRoot__if_not_obj_deleted (d_deleted d)
        then fm_set (d_addr d) (new_account c d) c else fm_del (d_addr d) c)
  /\ (forall m : fmap N, kai_state__stateObject_updateTrie__if_len_s_pendingStorage_eq_0 (Z.of_nat (List.length m)) =
        match m with [] => true | _ => false end)
  /\ (forall ls dk, kai_state_snapshot__Tree_Cap__if_layers_eq_0 (Z.of_nat 0) = true /\
        cap 0 ls dk = match flatten_all ls with None => (ls, dk) | Some b => ([], diff_to_disk b dk) end)
  /\ (forall n, kai_state_snapshot__Tree_Cap__if_layers_eq_0 (Z.of_nat (S n)) = false)
  /\ (forall i layers, (1 <= layers)%nat -> Z.of_nat layers <= 9223372036854775807 ->
        kai_state_snapshot__Tree_cap__for_i_lt_layers_minus_1 (Z.of_nat i) (Z.of_nat layers) = (i <? layers - 1)%nat)
  /\ (forall l, kai_state_snapshot__diffLayer_flatten__if_not_ok false = true /\ flatten_all [l] = Some l)
  /\ (forall n, kai_state_snapshot__diffToDisk__if_len_data_gt_0 (Z.of_nat n) = negb (Nat.eqb n 0))
  /\ (kai_state_cstate__validateBlock__if_block_Height_ne_state_LastBlockHeight_plus_1_atoms = ["block.Height() : uint64"; "state.LastBlockHeight : uint64"]%string
      /\ kai_state_cstate__validateBlock__if_numEvidence_gt_maxNumEvidence_atoms = ["numEvidence : int64"; "maxNumEvidence : int64"]%string
      /\ mainchain_blockchain__BlockOperations_CreateProposalBlock__if_height_eq_1_atoms = ["height : uint64"]%string
      /\ kai_state_cstate__calculateValidatorSetUpdates__if_not_found_or_oldPower_ne_val_VotingPower_atoms = ["found : bool"; "oldPower : int64"; "val.VotingPower : int64"]%string
      /\ mainchain_blockchain__ApplyTransaction__assign_op_atoms = ["*usedGas : uint64"; "result.UsedGas : uint64"]%string
      /\ types__bloomValues__set_i1_atoms = ["binary.BigEndian.Uint16(hashbuf) : uint16"]%string
      /\ kai_state__StateDB_Finalise__if_obj_suicided_or_deleteEmptyObjects_and_obj_empty_atoms = ["obj.suicided : bool"; "deleteEmptyObjects : bool"; "obj.empty() : bool"]%string
      /\ kai_state__resetObjectChange_revert__if_not_ch_prevdestruct_atoms = ["ch.prevdestruct : bool"]%string
      /\ kai_state__StateDB_createObject__if_not_prevdestruct_atoms = ["prevdestruct : bool"]%string
      /\ kai_state__stateObject_GetCommittedState__if_s_db_snap_eq_nil_or_err_ne_nil_atoms = ["s.db.snap == nil : untyped bool"; "err != nil : untyped bool"]%string
      /\ kai_state_snapshot__Tree_cap__for_i_lt_layers_minus_1_atoms = ["i : int"; "layers : int"]%string
      /\ kai_state_snapshot__diffToDisk__if_len_data_gt_0_atoms = ["len(data) : int"]%string
      /\ kai_state__stateObject_GetCommittedState__if_destructed_atoms = ["destructed : bool"]%string
      /\ kai_state__stateObject_GetCommittedState__if_pending_atoms = ["pending : bool"]%string
      /\ kai_state__stateObject_GetState__if_dirty_atoms = ["dirty : bool"]%string
      /\ kai_state__stateObject_SetState__if_prev_eq_value_atoms = ["prev == value : untyped bool"]%string
      /\ kai_state__StateDB_createObject__if_prev_eq_nil_atoms = ["prev == nil : untyped bool"]%string
      /\ kai_state__StateDB_CreateAccount__if_prev_ne_nil_atoms = ["prev != nil : untyped bool"]%string
      /\ kai_state__stateObject_AddBalance__if_s_empty_atoms = ["s.empty() : bool"]%string
      /\ kai_state__stateObject_updateTrie__if_value_eq_common_Hash_atoms = ["value == common.Hash{} : untyped bool"]%string
      /\ kai_state_cstate__calculateValidatorSetUpdates__if_dup_atoms = ["dup : bool"]%string
      /\ kai_state_cstate__validateBlock__if_block_LastCommit_eq_nil_atoms = ["block.LastCommit() == nil : untyped bool"]%string
      /\ types__NewReceipt__if_failed_atoms = ["failed : bool"]%string
      /\ types__NewReceipt__put_r_Status = 0 /\ types__NewReceipt__put_r_Status_2 = 1
      /\ kai_state__StateDB_Finalise__put_obj_deleted = true
      /\ kai_state_snapshot__Tree_Cap__let_layers = 8).

Lemma C06_source_tie_proof : C06_source_tie_statement.
Proof.
  unfold C06_source_tie_statement.
  split_all.
  (* the constants that close the statement *)
  33-59: exact eq_refl.
  - (* validateBlock: the model's chain of tests is [src_validate] *)
    intros st b R. unfold src_validate, validate_block.
    unfold kai_state_cstate__validateBlock__if_block_Height_ne_state_LastBlockHeight_plus_1,
      kai_state_cstate__validateBlock__if_state_LastBlockHeight_eq_0_and_block_Height_ne_state_InitialHeight,
      kai_state_cstate__validateBlock__if_state_LastBlockHeight_gt_0_and_block_Height_ne_state_LastBlo_85dde98c,
      kai_state_cstate__validateBlock__if_not_block_Header__LastBlockID_Equal_state_LastBlockID,
      kai_state_cstate__validateBlock__if_not_block_AppHash__Equal_state_AppHash,
      kai_state_cstate__validateBlock__if_not_block_Header__ValidatorsHash_Equal_state_Validators_Hash,
      kai_state_cstate__validateBlock__if_not_block_Header__NextValidatorsHash_Equal_state_NextValidators_Hash,
      kai_state_cstate__validateBlock__if_block_LastCommit_eq_nil,
      kai_state_cstate__validateBlock__if_block_Height_eq_state_InitialHeight,
      kai_state_cstate__validateBlock__if_len_block_LastCommit__Signatures_ne_0,
      kai_state_cstate__validateBlock__case_block_Height_gt_state_InitialHeight,
      kai_state_cstate__validateBlock__if_not_block_Time__After_state_LastBlockTime,
      kai_state_cstate__validateBlock__if_not_block_Time__Equal_medianTime,
      kai_state_cstate__validateBlock__case_block_Height_eq_state_InitialHeight,
      kai_state_cstate__validateBlock__if_not_block_Time__Equal_genesisTime,
      kai_state_cstate__validateBlock__if_numEvidence_gt_maxNumEvidence,
      kai_state_cstate__validateBlock__if_not_state_Validators_HasAddress_block_ProposerAddress, go_neqb.
    rewrite (ofN_succ_u64 _ R). change 0 with (Z.of_N 0). rewrite !ZofN_eqb, !ZofN_gtb.
    rewrite (Z.gtb_ltb (b_evidence b) (b_max_evidence b)).
    destruct (b_basic_ok b); cbn [negb]; [|reflexivity].
    destruct (N.eqb (b_height b) (s_last_height st + 1)); cbn [negb andb]; [|reflexivity].
    rewrite !andb_false_r.
    destruct (N.eqb (s_last_height st) 0); cbn [andb];
      destruct (N.eqb (b_height b) (s_initial_height st)) eqn:HI; cbn [negb andb]; try reflexivity;
      destruct (N.eqb (b_last_block_id b) (s_last_block_id st)); cbn [negb]; try reflexivity;
      destruct (N.eqb (b_app_hash b) (s_app_hash st)); cbn [negb]; try reflexivity;
      destruct (N.eqb (b_vals_hash b) (s_vals_hash st)); cbn [negb]; try reflexivity;
      destruct (N.eqb (b_next_vals_hash b) (s_next_vals_hash st)); cbn [negb]; try reflexivity;
      destruct (b_commit_nil b); try reflexivity;
      destruct (N.eqb (b_commit_sigs b) 0); cbn [negb]; try reflexivity;
      destruct (b_commit_ok b); cbn [negb]; try reflexivity.
  - (* CreateProposalBlock: genesis time for height 1 (the literal 1), the commit's median time otherwise *)
    intros st sigs cok med nev maxev pin.
    unfold mainchain_blockchain__BlockOperations_CreateProposalBlock__if_height_eq_1. cbn [create_proposal_block b_time].
    change 1 with (Z.of_N 1). rewrite ZofN_eqb. reflexivity.
  - (* calculateValidatorSetUpdates: `if len(vals) == 0 { return nil }` *)
    intros last vals. unfold kai_state_cstate__calculateValidatorSetUpdates__if_len_vals_eq_0.
    destruct vals; [reflexivity|]. cbn [List.length]. intros H. apply Z.eqb_eq in H. lia.
  - (* `oldPower, found := last[addr]; if !found || oldPower != val.VotingPower` *)
    intros m v.
    unfold is_update, kai_state_cstate__calculateValidatorSetUpdates__if_not_found_or_oldPower_ne_val_VotingPower, go_neqb.
    destruct (amap_get (v_addr v) m); reflexivity.
  - (* updateState: the change set is applied only when it is not empty ... *)
    intros ups. unfold kai_state_cstate__updateState__if_len_validatorUpdates_gt_0. destruct ups; [reflexivity|].
    cbn [List.length]. rewrite Z.gtb_ltb. apply Z.ltb_lt. lia.
  - (* ... and the height from which the new set counts is header.Height + 1 + 1 *)
    intros h H. unfold kai_state_cstate__updateState__set_lastHeightValsChanged, go_add. apply wrap_id. unfold in_range. lia.
  - (* ApplyTransaction: `*usedGas += result.UsedGas` is the accumulation of [receipts_from] *)
    reflexivity.
  - (* bloomValues: together with bit (x & 7) of byte i1 (the low three bits of the second byte of x) this is bit
       [x mod bloom_bit_length] of the bloom read as a big-endian number — the position the model's bloom sets
       (bits_addr / bits_topic, instantiated by the driver as the 11 low bits of the same uint16) *)
    intros x H. rewrite (tie_bloom_index x H). unfold bloom_bit_length.
    assert (E : x mod 8 = (x mod 2048) mod 8).
    { pose proof (Z.div_mod x 2048 ltac:(lia)) as D1. pose proof (Z.div_mod (x mod 2048) 8 ltac:(lia)) as D2.
      pose proof (Z.mod_pos_bound (x mod 2048) 8 ltac:(lia)) as B2.
      symmetry. apply (Z.mod_unique_pos x 8 (256 * (x / 2048) + x mod 2048 / 8)); lia. }
    rewrite E. pose proof (Z.div_mod (x mod 2048) 8). lia.
  - (* the three byte indices are computed alike *)
    intros x. split; reflexivity.
  - (* Bloom.add: `b[i] |= v` on bytes does not wrap *)
    intros b v Hb Hv. unfold types__Bloom_add__assign_op, go_or. apply wrap_id. unfold in_range in *.
    split; [apply Z.lor_nonneg; lia|].
    assert (Z.lor b v < 2 ^ 8); [|lia].
    destruct (Z.eq_dec (Z.lor b v) 0) as [->|NZ]; [lia|].
    apply Z.log2_lt_pow2; [pose proof (Z.lor_nonneg b v); lia|].
    rewrite Z.log2_lor by lia.
    apply Z.max_lub_lt.
    + destruct (Z.eq_dec b 0) as [->|]; [cbn; lia|]. apply Z.log2_lt_pow2; lia.
    + destruct (Z.eq_dec v 0) as [->|]; [cbn; lia|]. apply Z.log2_lt_pow2; lia.
  - (* stateObject.empty *)
    intros o.
    unfold so_empty, kai_state__stateObject_empty__ret_s_data_Nonce_eq_0_and_s_data_Balance_Sign_eq_0_and_bytes_Equ_d1151db1.
    rewrite sign_int_eq0. pose proof (ZofN_eqb (so_nonce o) 0) as E. cbn [Z.of_N] in E. rewrite E. reflexivity.
  - (* Finalise(true): `obj.suicided || (deleteEmptyObjects && obj.empty())` decides between
       "deleted, marked destructed, pending" and "pending" *)
    intros st a o E. unfold finalise_one. rewrite E. reflexivity.
  - (* getStateObject: `obj != nil && !obj.deleted`; for a missing object the guard is false and the value the
       statement writes in that branch is arbitrary *)
    intros bk st a. unfold get_obj. destruct (get_deleted bk st a) as [o|]; [destruct (so_deleted o)|]; reflexivity.
  - (* createObject: the overwritten object is returned `if prev != nil && !prev.deleted` (false for a missing
       one, as above) ... *)
    intros bk st a. unfold create_object. destruct (get_deleted bk st a) as [p|]; [destruct (so_deleted p)|]; reflexivity.
  - (* ... and the destruct mark is added `if !prevdestruct` (a set insertion either way) *)
    intros ds a b. unfold kai_state__StateDB_createObject__if_not_prevdestruct.
    destruct (mem a ds) eqn:M; cbn [negb]; [|reflexivity].
    rewrite mem_set. destruct (N.eqb_spec b a) as [->|]; [rewrite M|]; reflexivity.
  - exact tie_revert_destruct.
  - (* AddBalance / SubBalance: `amount.Sign() == 0` *)
    intros bk st a v. unfold add_balance. rewrite <- (sign_int_eq0 v). reflexivity.
  - intros bk st a v. unfold sub_balance. rewrite <- (sign_int_eq0 v). reflexivity.
  - (* GetCommittedState: the snapshot answers unless `s.db.snap == nil || err != nil` *)
    intros bk st a o k.
    unfold committed, kai_state__stateObject_GetCommittedState__if_s_db_snap_eq_nil_or_err_ne_nil,
      kai_state__stateObject_GetCommittedState__if_destructed, kai_state__stateObject_GetCommittedState__if_s_db_snap_ne_nil.
    destruct (mem a (destr st)); [reflexivity|]. destruct (bk_snap bk); reflexivity.
  - (* SetState: `if prev == value { return }` *)
    reflexivity.
  - (* createObject: `if prev == nil` chooses between createObjectChange and resetObjectChange *)
    intros bk st a. unfold create_object. destruct (get_deleted bk st a); reflexivity.
  - (* updateTrie: `if value == (common.Hash{}) { DeleteStorage } else { UpdateStorage }` *)
    reflexivity.
  - (* diffLayer.accountRLP / storage: own data, then own destruct set, then the parent *)
    intros l t dk a. cbn [look_acc].
    unfold kai_state_snapshot__diffLayer_accountRLP__if_ok, kai_state_snapshot__diffLayer_accountRLP__if_ok_2.
    destruct (fm_get a (l_accts l)); reflexivity.
  - intros l t dk a k. cbn [look_slot].
    unfold kai_state_snapshot__diffLayer_storage__if_ok, kai_state_snapshot__diffLayer_storage__if_ok_2,
      kai_state_snapshot__diffLayer_storage__if_ok_3, stor_get.
    destruct (fm_get a (l_stor l)) as [m|]; [destruct (fm_get k m)|]; reflexivity.
  - (* Tree.cap: the loop makes layers-1 descents (for every int [layers] >= 1; the statement asks for less) *)
    intros layers R.
    rewrite (cap_descents_spec layers ltac:(lia)); unfold kai_state_snapshot__Tree_cap__forinit_i; [f_equal; lia|lia|lia].
  - (* IntermediateRoot: `if obj.deleted { deleteStateObject } else { updateStateObject }` *)
    intros c d. rewrite commit_one_eq. unfold kai_state__StateDB_IntermediateRoot__if_not_obj_deleted.
    destruct (d_deleted d); reflexivity.
  - (* updateTrie: nothing is written (and no snapshot storage entry made) `if len(s.pendingStorage) == 0` *)
    intros m. unfold kai_state__stateObject_updateTrie__if_len_s_pendingStorage_eq_0. destruct m; [reflexivity|].
    cbn [List.length]. apply Z.eqb_neq. lia.
  - (* Tree.Cap(root, layers): `layers == 0` flattens everything, the head included, into the disk layer *)
    split; reflexivity.
  - intros n. unfold kai_state_snapshot__Tree_Cap__if_layers_eq_0. apply Z.eqb_neq. lia.
  - (* Tree.cap: `for i := 0; i < layers-1; i++ { diff = parent }` goes down layers-1 parents from the
       head, so [layers] diff layers stay above what is flattened: the model's [firstn layers] *)
    intros i layers L R. unfold kai_state_snapshot__Tree_cap__for_i_lt_layers_minus_1, go_sub.
    rewrite wrap_id by (unfold in_range; lia).
    destruct (Nat.ltb_spec i (layers - 1)); [apply Z.ltb_lt|apply Z.ltb_ge]; lia.
  - (* diffLayer.flatten: `if !ok { return dl }` — a layer directly above the disk layer is the bottom *)
    split; reflexivity.
  - (* diffToDisk: a slot is written `if len(data) > 0` and deleted otherwise (the model's value 0) *)
    intros n. unfold kai_state_snapshot__diffToDisk__if_len_data_gt_0. rewrite Z.gtb_ltb.
    destruct n; [reflexivity|]. cbn [Nat.eqb negb]. apply Z.ltb_lt. lia.
Qed.
