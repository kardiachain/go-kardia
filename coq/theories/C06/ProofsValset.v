(** C06 (b) — own copy of the C12 lemmas about the insertion sort of the model and about
    processChanges, then: order independence of updateWithChangeSet. *)
From Coq Require Import List ZArith NArith Bool Lia Permutation Sorted.
From Kardia Require Import C06.ModelValset Generated.C06Facts.
Import ListNotations.
Local Open Scope Z_scope.

Lemma insert_by_perm {A} (lt : A -> A -> bool) x l : Permutation (insert_by lt x l) (x :: l).
Proof.
  induction l as [|h t IH]; cbn [insert_by]; [reflexivity|].
  destruct (lt h x); [|reflexivity].
  rewrite IH. apply perm_swap.
Qed.

Lemma sort_by_perm {A} (lt : A -> A -> bool) l : Permutation (sort_by lt l) l.
Proof.
  induction l as [|h t IH]; cbn [sort_by fold_right]; [reflexivity|].
  fold (sort_by lt t). rewrite insert_by_perm. now constructor.
Qed.

Lemma sort_by_nil_inv {A} (lt : A -> A -> bool) l : sort_by lt l = [] -> l = [].
Proof. intros H. apply Permutation_nil. rewrite <- H. apply sort_by_perm. Qed.

Lemma nodup_addr_perm l l' : Permutation l l' -> NoDup (map v_addr l) -> NoDup (map v_addr l').
Proof. intros P. apply Permutation_NoDup, Permutation_map, P. Qed.

Definition addr_le (a b : validator) : Prop := (v_addr a <= v_addr b)%N.
Definition addr_slt (a b : validator) : Prop := (v_addr a < v_addr b)%N.

Lemma insert_addr_sorted x l :
  StronglySorted addr_le l -> StronglySorted addr_le (insert_by addr_lt x l).
Proof.
  induction l as [|h t IH]; intros S; cbn [insert_by].
  - constructor; constructor.
  - destruct (StronglySorted_inv S) as [St Fh].
    unfold addr_lt at 1. destruct (N.ltb_spec (v_addr h) (v_addr x)) as [L|L].
    + constructor; [apply IH; assumption|].
      rewrite Forall_forall. intros y Hy.
      apply (Permutation_in _ (insert_by_perm addr_lt x t)) in Hy.
      destruct Hy as [<-|Hy]; [unfold addr_le; lia|].
      rewrite Forall_forall in Fh. now apply Fh.
    + constructor; [assumption|].
      constructor; [exact L|].
      rewrite Forall_forall in *. intros y Hy. specialize (Fh y Hy). unfold addr_le in *. lia.
Qed.

Lemma sort_addr_sorted l : StronglySorted addr_le (sort_by addr_lt l).
Proof.
  induction l as [|h t IH]; cbn [sort_by fold_right]; [constructor|].
  apply insert_addr_sorted, IH.
Qed.

Lemma sorted_nodup_strict l :
  StronglySorted addr_le l -> NoDup (map v_addr l) -> StronglySorted addr_slt l.
Proof.
  induction l as [|h t IH]; intros S N; [constructor|].
  apply StronglySorted_inv in S as [St Fh]. apply NoDup_cons_iff in N as [Nh Nt].
  constructor; [now apply IH|].
  rewrite Forall_forall in *. intros y Hy. specialize (Fh y Hy).
  unfold addr_le, addr_slt in *.
  assert (v_addr h <> v_addr y) as D.
  { intros E. apply Nh. rewrite E. now apply in_map. }
  lia.
Qed.

Lemma strict_sorted_nodup l : StronglySorted addr_slt l -> NoDup (map v_addr l).
Proof.
  induction l as [|h t IH]; intros S; cbn [map]; [constructor|].
  apply StronglySorted_inv in S as [St Fh]. constructor; [|now apply IH].
  rewrite in_map_iff. intros (y & E & Hy). rewrite Forall_forall in Fh.
  specialize (Fh y Hy). unfold addr_slt in Fh. lia.
Qed.

Lemma strict_sorted_perm_eq l1 : forall l2,
  StronglySorted addr_slt l1 -> StronglySorted addr_slt l2 -> Permutation l1 l2 -> l1 = l2.
Proof.
  induction l1 as [|a t1 IH]; intros l2 S1 S2 P.
  - apply Permutation_nil in P. now subst.
  - destruct l2 as [|b t2]; [apply Permutation_sym, Permutation_nil in P; discriminate|].
    apply StronglySorted_inv in S1 as [St1 F1]. apply StronglySorted_inv in S2 as [St2 F2].
    rewrite Forall_forall in F1, F2.
    assert (a = b) as ->.
    { assert (In a (b :: t2)) as Ha by (eapply Permutation_in; [exact P|now left]).
      assert (In b (a :: t1)) as Hb by (eapply Permutation_in; [apply Permutation_sym; exact P|now left]).
      destruct Ha as [Ha|Ha]; [now subst|].
      destruct Hb as [Hb|Hb]; [now subst|].
      specialize (F1 b Hb). specialize (F2 a Ha). unfold addr_slt in *. lia. }
    f_equal. apply IH; try assumption. now apply Permutation_cons_inv in P.
Qed.

Lemma sort_addr_perm_eq l1 l2 :
  Permutation l1 l2 -> NoDup (map v_addr l1) -> sort_by addr_lt l1 = sort_by addr_lt l2.
Proof.
  intros P N.
  assert (Permutation (sort_by addr_lt l1) (sort_by addr_lt l2)) as PS.
  { rewrite !sort_by_perm. exact P. }
  apply strict_sorted_perm_eq; [| |exact PS]; (apply sorted_nodup_strict; [apply sort_addr_sorted|]).
  - apply (nodup_addr_perm l1); [apply Permutation_sym, sort_by_perm|exact N].
  - apply (nodup_addr_perm l1); [rewrite sort_by_perm; exact P|exact N].
Qed.

(** processChanges accepts exactly the well-formed change sets.  The zero address is excluded because the
    scan starts with it as prevAddr: a change for address 0 counts as a duplicate. *)
Definition valid_change (c : validator) : Prop :=
  v_addr c <> 0%N /\ 0 <= v_power c <= max_total_voting_power.
Definition valid_changes (cs : list validator) : Prop :=
  NoDup (map v_addr cs) /\ Forall valid_change cs.

Lemma scan_ok_strict l : forall prev ups rems,
  StronglySorted addr_le l -> (forall x, In x l -> (prev <= v_addr x)%N) ->
  process_scan prev l = ScanOk ups rems ->
  StronglySorted addr_slt l /\ (forall x, In x l -> (prev < v_addr x)%N) /\
  Forall (fun c => 0 <= v_power c <= max_total_voting_power) l /\
  ups = filter (fun c => negb (v_power c =? 0)) l /\ rems = filter (fun c => v_power c =? 0) l.
Proof.
  induction l as [|c t IH]; intros prev ups rems S Hp H; cbn [process_scan] in H.
  - injection H as <- <-. repeat split; try constructor. intros x [].
  - apply StronglySorted_inv in S as [St Fc].
    destruct (N.eqb_spec (v_addr c) prev) as [E|NE]; [discriminate|].
    destruct (Z.ltb_spec (v_power c) 0) as [L0|L0]; [discriminate|].
    destruct (Z.ltb_spec max_total_voting_power (v_power c)) as [L1|L1]; [discriminate|].
    destruct (process_scan (v_addr c) t) as [e|ups' rems'] eqn:R; [discriminate|].
    rewrite Forall_forall in Fc.
    destruct (IH (v_addr c) ups' rems' St) as (S' & Hlt & Fp & Eu & Er); [exact Fc|exact R|].
    assert ((prev < v_addr c)%N) as Lc.
    { specialize (Hp c (or_introl eq_refl)). lia. }
    split; [|split; [|split]].
    + constructor; [exact S'|]. rewrite Forall_forall. intros y Hy. apply Hlt, Hy.
    + intros x [<-|Hx]; [exact Lc|]. specialize (Hlt x Hx). lia.
    + constructor; [lia|exact Fp].
    + subst ups' rems'. cbn [filter]. destruct (v_power c =? 0); cbn [negb]; injection H as <- <-; split; reflexivity.
Qed.

Lemma process_ok_valid cs ups rems :
  process_changes cs = ScanOk ups rems ->
  valid_changes cs /\
  ups = filter (fun c => negb (v_power c =? 0)) (sort_by addr_lt cs) /\
  rems = filter (fun c => v_power c =? 0) (sort_by addr_lt cs).
Proof.
  unfold process_changes. intros H.
  destruct (scan_ok_strict _ 0%N ups rems (sort_addr_sorted cs)) as (S & Hlt & Fp & Eu & Er);
    [intros; lia|exact H|].
  split; [|split; assumption].
  split.
  - apply (nodup_addr_perm _ _ (sort_by_perm addr_lt cs)), strict_sorted_nodup, S.
  - rewrite Forall_forall in *. intros c Hc.
    assert (In c (sort_by addr_lt cs)) as Hs by (eapply Permutation_in; [apply Permutation_sym, sort_by_perm|exact Hc]).
    split; [specialize (Hlt c Hs); intros E; rewrite E in Hlt; now apply N.lt_irrefl in Hlt|apply Fp, Hs].
Qed.

Lemma scan_valid_ok l : forall prev,
  StronglySorted addr_slt l -> (forall x, In x l -> (prev < v_addr x)%N) ->
  Forall (fun c => 0 <= v_power c <= max_total_voting_power) l ->
  exists ups rems, process_scan prev l = ScanOk ups rems.
Proof.
  induction l as [|c t IH]; intros prev S Hp F; cbn [process_scan]; [eauto|].
  apply StronglySorted_inv in S as [St Fc]. apply Forall_cons_iff in F as [Fc0 Ft].
  rewrite Forall_forall in Fc.
  destruct (N.eqb_spec (v_addr c) prev) as [E|NE].
  { specialize (Hp c (or_introl eq_refl)). lia. }
  destruct (Z.ltb_spec (v_power c) 0) as [L0|L0]; [lia|].
  destruct (Z.ltb_spec max_total_voting_power (v_power c)) as [L1|L1]; [lia|].
  destruct (IH (v_addr c) St Fc Ft) as (u & r & ->).
  destruct (v_power c =? 0); eauto.
Qed.

Lemma process_valid_ok cs : valid_changes cs -> exists ups rems, process_changes cs = ScanOk ups rems.
Proof.
  intros [N F]. unfold process_changes.
  assert (Permutation (sort_by addr_lt cs) cs) as P by apply sort_by_perm.
  apply scan_valid_ok.
  - apply sorted_nodup_strict; [apply sort_addr_sorted|].
    apply (nodup_addr_perm _ _ (Permutation_sym P) N).
  - intros x Hx. apply (Permutation_in _ P) in Hx. rewrite Forall_forall in F.
    destruct (F x Hx) as [NZ _]. lia.
  - rewrite Forall_forall in *. intros x Hx. apply (Permutation_in _ P) in Hx. apply F, Hx.
Qed.

Lemma process_perm cs cs' ups rems :
  Permutation cs cs' -> process_changes cs = ScanOk ups rems -> process_changes cs' = ScanOk ups rems.
Proof.
  intros P H. destruct (process_ok_valid _ _ _ H) as ([N _] & _ & _).
  unfold process_changes in *. rewrite <- (sort_addr_perm_eq cs cs' P N). exact H.
Qed.

Lemma valid_changes_perm cs cs' : Permutation cs cs' -> valid_changes cs -> valid_changes cs'.
Proof.
  intros P [N F]. split; [apply (nodup_addr_perm _ _ P N)|apply (Permutation_Forall P F)].
Qed.

Lemma scan_err_not_ok l : forall prev, process_scan prev l <> ScanErr UOk.
Proof.
  induction l as [|c t IH]; intros prev; cbn [process_scan]; [discriminate|].
  destruct (N.eqb (v_addr c) prev); [discriminate|].
  destruct (v_power c <? 0); [discriminate|].
  destruct (max_total_voting_power <? v_power c); [discriminate|].
  specialize (IH (v_addr c)). destruct (process_scan (v_addr c) t); [congruence|].
  destruct (v_power c =? 0); discriminate.
Qed.

Lemma process_err_not_ok cs : process_changes cs <> ScanErr UOk.
Proof. apply scan_err_not_ok. Qed.

Lemma update_scan_err s c t b e :
  process_changes (c :: t) = ScanErr e -> update_with_change_set s (c :: t) b = Some (s, e).
Proof. intros E. unfold update_with_change_set. rewrite E. reflexivity. Qed.

(** Two orders of a change set give the same result, or the scan refuses both, possibly with different
    error classes, and the set is the one the caller passed.  (The later error returns hand back the set
    with a zero [TotalVotingPower()] cache filled, alike for both orders.) *)
Lemma update_perm s cs cs' b :
  Permutation cs cs' ->
  update_with_change_set s cs b = update_with_change_set s cs' b \/
  (exists e e', update_with_change_set s cs b = Some (s, e) /\
                update_with_change_set s cs' b = Some (s, e') /\ e <> UOk /\ e' <> UOk).
Proof.
  intros P.
  destruct cs as [|c t].
  { apply Permutation_nil in P. subst. now left. }
  destruct cs' as [|c' t'].
  { apply Permutation_sym, Permutation_nil in P. discriminate. }
  destruct (process_changes (c :: t)) as [e|ups rems] eqn:E.
  - destruct (process_changes (c' :: t')) as [e'|ups' rems'] eqn:E'.
    + right. exists e, e'. rewrite (update_scan_err _ _ _ _ _ E), (update_scan_err _ _ _ _ _ E').
      repeat split; intros ->; eapply process_err_not_ok; eassumption.
    + apply (process_perm _ _ _ _ (Permutation_sym P)) in E'. congruence.
  - left. unfold update_with_change_set. rewrite E, (process_perm _ _ _ _ P E). reflexivity.
Qed.

(** with the error classes collapsed (consensus only sees "applied" or "rejected, set unchanged") *)
Lemma update_order_free s cs cs' : Permutation cs cs' -> update s cs = update s cs'.
Proof.
  intros P. unfold update.
  destruct (update_perm s cs cs' true P) as [E|(e & e' & E & E' & NE & NE')].
  - rewrite E. reflexivity.
  - rewrite E, E'. destruct e; [congruence|..]; (destruct e'; [congruence|..]; reflexivity).
Qed.
