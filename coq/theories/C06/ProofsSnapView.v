(** C06 — the snapshot layers say what the tries say: after Commit (the new diff layer), after
    flatten, after diffToDisk, after Cap, for the generated disk layer. *)
From Coq Require Import List ZArith NArith Bool.
From Kardia Require Import C06.Model C06.ModelSnap C06.ProofsMap C06.ProofsFlush C06.ProofsSnapInv.
Import ListNotations.

Lemma existsb_keys a (s : fmap unit) : existsb (N.eqb a) (map fst s) = mem a s.
Proof. apply eq_iff_eq_true. rewrite existsb_in, mem_in. reflexivity. Qed.

(** an association list built from the keys of a set, at most one entry per key *)
Lemma get_flat_map_single {V} (g : N -> option V) (h : N -> list (N * V)) (s : fmap unit) a :
  (forall b, h b = match g b with Some x => [(b, x)] | None => [] end) -> sorted s ->
  fm_get a (flat_map h (map fst s)) = if mem a s then g a else None.
Proof.
  intros H. induction s as [|[b u] t IH]; intros S; cbn [map fst flat_map]; [reflexivity|].
  pose proof (mem_notin b t (sorted_head_notin _ _ _ S)) as NI. destruct S as [_ S].
  rewrite H, mem_cons. destruct (N.eqb_spec a b) as [->|D]; cbn [orb].
  - destruct (g b) as [x|]; cbn [app fm_get]; [rewrite N.eqb_refl; reflexivity|].
    rewrite (IH S), NI. reflexivity.
  - destruct (g b) as [x|]; cbn [app fm_get]; [|apply IH, S].
    destruct (N.eqb_spec a b); [congruence|]. apply IH, S.
Qed.

Lemma keys_flat_map_single {V} (h : N -> list (N * V)) l x :
  (forall b e, In e (h b) -> fst e = b) -> In x (map fst (flat_map h l)) -> In x l.
Proof.
  intros H. induction l as [|b t IH]; cbn [flat_map]; [tauto|].
  rewrite map_app, in_app_iff. intros [I|I]; [left|right; apply IH, I].
  apply in_map_iff in I as (e & <- & He). symmetry. apply (H b e He).
Qed.

(** ... is canonical when the key list is that of a canonical map *)
Lemma sorted_flat_map_keys {U V} (h : N -> list (N * V)) (m : fmap U) :
  (forall b, h b = [] \/ exists x, h b = [(b, x)]) -> sorted m -> sorted (flat_map h (map fst m)).
Proof.
  intros H. induction m as [|[k u] t IH]; intros S; cbn [map fst flat_map]; [exact I|].
  destruct S as [F S]. destruct (H k) as [->|[x ->]]; cbn [app]; [apply IH, S|].
  split; [|apply IH, S]. intros k' Hk. apply F, (keys_flat_map_single h _ k'); [|exact Hk].
  intros b e He. destruct (H b) as [E|[x0 E]]; rewrite E in He; [destruct He|].
  destruct He as [<-|[]]. reflexivity.
Qed.

(** the flush of a family of dirty objects, at most one for each key of a set *)
Lemma get_commit_family (g : N -> option sobj) (s : fmap unit) : sorted s -> forall c a, sorted c ->
  fm_get a (commit_updates (flat_map (fun b => match g b with Some o => [to_dirty b o] | None => [] end) (map fst s)) c) =
  match (if mem a s then g a else None) with
  | Some o => if so_deleted o then None else Some (new_account c (to_dirty a o))
  | None => fm_get a c
  end.
Proof.
  induction s as [|[b u] t IH]; intros SS c a S; cbn [map fst flat_map]; [reflexivity|].
  pose proof (mem_notin b t (sorted_head_notin _ _ _ SS)) as NI. destruct SS as [_ SS].
  rewrite commit_updates_app, mem_cons. destruct (g b) as [o|] eqn:G.
  - change (commit_updates [to_dirty b o] c) with (commit_one c (to_dirty b o)).
    rewrite (IH SS _ a (sorted_commit_one _ _ S)), (get_commit_one _ _ a S). cbn [to_dirty d_addr d_deleted].
    destruct (N.eqb_spec a b) as [->|D]; cbn [orb].
    + rewrite NI, G. reflexivity.
    + destruct (if mem a t then g a else None) as [o'|]; [|reflexivity].
      rewrite (new_account_commit_other c (to_dirty b o) (to_dirty a o') S D). reflexivity.
  - change (commit_updates [] c) with c. rewrite (IH SS c a S).
    destruct (N.eqb_spec a b) as [->|D]; cbn [orb]; [|reflexivity].
    rewrite NI, G. reflexivity.
Qed.

(** the snapshot tree (layers over a disk layer) describes the state [c] *)
Definition view_ok (ls : list layer) (dk : disk) (c : content) : Prop :=
  bk_same (bk_layers ls dk) (bk_content c).

Lemma bk_same_refl b : bk_same b b.
Proof. split; reflexivity. Qed.
Lemma bk_same_trans b1 b2 b3 : bk_same b1 b2 -> bk_same b2 b3 -> bk_same b1 b3.
Proof. intros [A1 S1] [A2 S2]. split; intros; [rewrite A1; apply A2|rewrite S1; apply S2]. Qed.
Lemma bk_same_sym b1 b2 : bk_same b1 b2 -> bk_same b2 b1.
Proof. intros [A S]. split; intros; [rewrite A|rewrite S]; reflexivity. Qed.

Lemma bk_content_wf c : bk_wf (bk_content c).
Proof.
  intros a k. cbn. unfold storage_of. destruct (fm_get a c); [discriminate|reflexivity].
Qed.

Lemma bk_same_wf b1 b2 : bk_same b1 b2 -> bk_wf b2 -> bk_wf b1.
Proof. intros [A S] W a k H. rewrite S. apply W. rewrite <- A. exact H. Qed.

(** the lookups of the layer built by Commit *)
Section LayerOf.
  Variable st : core.
  Hypothesis SP : sorted (pend st).

  Lemma get_layer_accts a :
    fm_get a (l_accts (layer_of st)) =
    if mem a (pend st) then
      match fm_get a (live st) with
      | Some o => if so_deleted o then None else Some (so_nonce o, so_balance o, so_code o)
      | None => None
      end
    else None.
  Proof.
    cbn [layer_of l_accts].
    rewrite (get_flat_map_single
               (fun b => match fm_get b (live st) with
                         | Some o => if so_deleted o then None else Some (so_nonce o, so_balance o, so_code o)
                         | None => None end)); [reflexivity|intros b; destruct (fm_get b (live st)) as [o|]; [destruct (so_deleted o)|]; reflexivity|exact SP].
  Qed.

  Lemma get_layer_stor a :
    fm_get a (l_stor (layer_of st)) =
    if mem a (pend st) then
      match fm_get a (live st) with
      | Some o => if so_deleted o then None else match so_slots o with [] => None | s => Some s end
      | None => None
      end
    else None.
  Proof.
    cbn [layer_of l_stor].
    rewrite (get_flat_map_single
               (fun b => match fm_get b (live st) with
                         | Some o => if so_deleted o then None else match so_slots o with [] => None | s => Some s end
                         | None => None end));
      [reflexivity|intros b; destruct (fm_get b (live st)) as [o|]; [destruct (so_deleted o); [|destruct (so_slots o)]|]; reflexivity|exact SP].
  Qed.

  Lemma stor_get_layer a k :
    stor_get (l_stor (layer_of st)) a k =
    if mem a (pend st) then
      match fm_get a (live st) with
      | Some o => if so_deleted o then None else fm_get k (so_slots o)
      | None => None
      end
    else None.
  Proof.
    unfold stor_get. rewrite get_layer_stor. destruct (mem a (pend st)); [|reflexivity].
    destruct (fm_get a (live st)) as [o|]; [|reflexivity].
    destruct (so_deleted o); [reflexivity|]. destruct (so_slots o); reflexivity.
  Qed.

  Lemma sorted_layer_stor : sorted (l_stor (layer_of st)).
  Proof.
    cbn [layer_of l_stor]. apply sorted_flat_map_keys; [|exact SP].
    intros b. destruct (fm_get b (live st)) as [o|]; [|left; reflexivity].
    destruct (so_deleted o); [left; reflexivity|]. destruct (so_slots o) as [|e s]; [left; reflexivity|].
    right. eexists. reflexivity.
  Qed.

  Lemma get_pending c a : sorted c ->
    fm_get a (commit_updates (pending_objs st) c) =
    if mem a (pend st) then
      match fm_get a (live st) with
      | Some o => if so_deleted o then None else Some (new_account c (to_dirty a o))
      | None => fm_get a c
      end
    else fm_get a c.
  Proof.
    intros S. unfold pending_objs. rewrite (get_commit_family _ _ SP c a S).
    destruct (mem a (pend st)); [|reflexivity]. destruct (fm_get a (live st)); reflexivity.
  Qed.
End LayerOf.

(** at the end of a block an address is pending with an acceptable live object, or neither pending nor destructed *)
Lemma pending_cases bk st a : inv bk st -> dirt st = [] ->
  (mem a (pend st) = true /\ exists o, fm_get a (live st) = Some o /\ ok_obj bk (destr st) a o) \/
  (mem a (pend st) = false /\ mem a (destr st) = false).
Proof.
  intros I D. destruct (mem a (pend st)) eqn:P.
  - left. split; [reflexivity|]. destruct (fm_get a (live st)) as [o|] eqn:L; [|destruct (inv_pend _ _ I a P L)].
    exists o. split; [reflexivity|apply (inv_obj _ _ I a o L)].
  - right. split; [reflexivity|]. destruct (mem a (destr st)) eqn:M; [|reflexivity].
    destruct (inv_track _ _ I a M) as [H|H]; [rewrite D in H; discriminate|congruence].
Qed.

(** the layer Commit hands to the snapshot tree describes the state Commit flushes *)
Theorem view_commit ls dk c st :
  wf_content c -> view_ok ls dk c -> inv (bk_layers ls dk) st -> dirt st = [] ->
  view_ok (layer_of st :: ls) dk (commit_updates (pending_objs st) c).
Proof.
  intros WF [VA VS] I D.
  pose proof (inv_sorted _ _ I) as SP. pose proof WF as [SC _].
  split.
  - intros a. cbn [bk_layers bk_content bk_acc look_acc].
    rewrite (get_layer_accts st SP a), (get_pending st SP c a SC).
    change (l_destr (layer_of st)) with (destr st).
    destruct (pending_cases _ st a I D) as [(-> & o & -> & A & B & C & S)|[-> ->]]; [|apply VA].
    destruct (so_deleted o) eqn:DL; [rewrite (C eq_refl)|]; reflexivity.
  - intros a k. cbn [bk_layers bk_content bk_slot look_slot].
    rewrite (stor_get_layer st SP a k). unfold storage_of at 1.
    rewrite (get_pending st SP c a SC).
    change (l_destr (layer_of st)) with (destr st).
    destruct (pending_cases _ st a I D) as [(-> & o & -> & A & B & C & S)|[-> ->]]; [|apply VS].
    destruct (so_deleted o) eqn:DL; [rewrite (C eq_refl); reflexivity|].
    cbn [new_account a_storage to_dirty d_slots d_reset d_addr]. unfold slot_of, slots_list.
    rewrite get_apply_slots; [|destruct (so_fresh o); [exact Logic.I|apply wf_storage_of, WF]|exact S].
    destruct (fm_get k (so_slots o)) as [v|]; [apply eq_sym, slot_of_val|].
    destruct (mem a (destr st)) eqn:M.
    + destruct (A eq_refl) as [F|F]; [|congruence]. rewrite F. reflexivity.
    + destruct (so_fresh o) eqn:F.
      * cbn [fm_get]. apply (bk_same_wf _ _ (conj VA VS) (bk_content_wf c)). apply B; reflexivity.
      * apply VS.
Qed.

Lemma get_rm {V} (m : fmap V) a k : fm_get a (fm_rm k m) = if N.eqb a k then None else fm_get a m.
Proof.
  unfold fm_rm. induction m as [|[k0 v0] t IH]; cbn [filter fm_get fst].
  - destruct (N.eqb a k); reflexivity.
  - destruct (N.eqb_spec k0 k) as [->|D]; cbn [negb].
    + rewrite IH. destruct (N.eqb_spec a k); reflexivity.
    + cbn [fm_get]. rewrite IH. destruct (N.eqb_spec a k0) as [->|D']; [|reflexivity].
      destruct (N.eqb_spec k0 k); [congruence|reflexivity].
Qed.

Lemma get_fold_rm {V} dks : forall (m : fmap V) a,
  fm_get a (fold_right (fun b m0 => fm_rm b m0) m dks) = if existsb (N.eqb a) dks then None else fm_get a m.
Proof.
  induction dks as [|b t IH]; intros m a; cbn [fold_right existsb]; [reflexivity|].
  rewrite get_rm, IH. destruct (N.eqb a b); reflexivity.
Qed.

Lemma mem_fold_set dks : forall s a,
  mem a (fold_right (fun b m => fm_set b tt m) s dks) = existsb (N.eqb a) dks || mem a s.
Proof.
  induction dks as [|b t IH]; intros s a; cbn [fold_right existsb]; [reflexivity|].
  rewrite mem_set, IH. destruct (N.eqb a b); reflexivity.
Qed.

(** a map built entry by entry, each step binding one key whatever the map holds: the first entry for a key decides *)
Lemma get_fold_bind {U V} (step : N * U -> fmap V -> fmap V) (val : U -> option V) :
  (forall kv m a, fm_get a (step kv m) = if N.eqb a (fst kv) then val (snd kv) else fm_get a m) ->
  forall top base a,
  fm_get a (fold_right step base top) = match fm_get a top with Some u => val u | None => fm_get a base end.
Proof.
  intros H. induction top as [|[k u] t IH]; intros base a; cbn [fold_right fm_get]; [reflexivity|].
  rewrite H. cbn [fst snd]. destruct (N.eqb a k); [reflexivity|apply IH].
Qed.

(** ... and when the value bound is made from the entry and the old binding, for duplicate-free entries *)
Lemma get_fold_step {V} (step : N * V -> fmap V -> fmap V) (F : V -> option V -> V) :
  (forall kv m a, fm_get a (step kv m) =
                  if N.eqb a (fst kv) then Some (F (snd kv) (fm_get (fst kv) m)) else fm_get a m) ->
  forall top base a, NoDup (map fst top) ->
  fm_get a (fold_right step base top) =
  match fm_get a top with Some s => Some (F s (fm_get a base)) | None => fm_get a base end.
Proof.
  intros H. induction top as [|[b s] t IH]; intros base a ND; cbn [fold_right fm_get map fst]; [reflexivity|].
  apply NoDup_cons_iff in ND as [NI ND']. rewrite H. cbn [fst snd].
  destruct (N.eqb_spec a b) as [->|D]; [|apply IH, ND'].
  rewrite (IH base b ND'), (get_none t b NI). reflexivity.
Qed.

Lemma get_overlay {V} (top base : fmap V) a :
  fm_get a (overlay top base) = match fm_get a top with Some x => Some x | None => fm_get a base end.
Proof. apply (get_fold_bind _ Some). intros kv m k. apply get_set. Qed.

Lemma sorted_rm {V} (m : fmap V) k : sorted m -> sorted (fm_rm k m).
Proof.
  unfold fm_rm. induction m as [|[k0 v0] t IH]; intros S; cbn [filter]; [exact I|].
  destruct S as [F S]. destruct (negb (N.eqb (fst (k0, v0)) k)); [|apply IH, S].
  cbn [sorted]. split; [|apply IH, S]. intros k' Hk. apply F.
  unfold keys in *. apply in_map_iff in Hk as (e & <- & He). apply filter_In in He as [He _].
  apply in_map, He.
Qed.

Lemma sorted_fold_rm {V} dks : forall (m : fmap V), sorted m -> sorted (fold_right (fun b m0 => fm_rm b m0) m dks).
Proof. induction dks as [|b t IH]; intros m S; cbn [fold_right]; [exact S|]. apply sorted_rm, IH, S. Qed.

Definition wf_layer (l : layer) : Prop := sorted (l_stor l).

(** the storage of the child written over the storage of the parent *)
Definition flat_step (asl : N * fmap N) (m : fmap (fmap N)) : fmap (fmap N) :=
  match fm_get (fst asl) m with
  | None => fm_set (fst asl) (snd asl) m
  | Some ps => fm_set (fst asl) (merge_slots (snd asl) ps) m
  end.

Lemma get_flat_step asl m a :
  fm_get a (flat_step asl m) =
  if N.eqb a (fst asl)
  then Some (match fm_get (fst asl) m with None => snd asl | Some ps => merge_slots (snd asl) ps end)
  else fm_get a m.
Proof. unfold flat_step. destruct (fm_get (fst asl) m); apply get_set. Qed.

Lemma sorted_flat_fold top : forall stor1, sorted stor1 -> sorted (fold_right flat_step stor1 top).
Proof.
  induction top as [|[b s] t IH]; intros stor1 S; cbn [fold_right]; [exact S|].
  unfold flat_step. destruct (fm_get _ _); apply sorted_set, IH, S.
Qed.

Lemma flatten_stor l p : l_stor (flatten l p) =
  fold_right flat_step (fold_right (fun a m => fm_rm a m) (l_stor p) (map fst (l_destr l))) (l_stor l).
Proof. reflexivity. Qed.

Lemma wf_flatten l p : wf_layer p -> wf_layer (flatten l p).
Proof. intros W. unfold wf_layer. rewrite flatten_stor. apply sorted_flat_fold, sorted_fold_rm, W. Qed.

(** flattening a layer into its parent changes no lookup *)
Theorem look_flatten l p ls dk : wf_layer l ->
  bk_same (bk_layers (flatten l p :: ls) dk) (bk_layers (l :: p :: ls) dk).
Proof.
  intros W. split.
  - intros a. cbn [bk_layers bk_acc look_acc flatten l_accts l_destr].
    rewrite get_overlay, get_fold_rm, mem_fold_set, existsb_keys.
    destruct (fm_get a (l_accts l)); [reflexivity|].
    destruct (mem a (l_destr l)); [reflexivity|]. cbn [orb].
    destruct (fm_get a (l_accts p)); reflexivity.
  - intros a k. cbn [bk_layers bk_slot look_slot]. unfold stor_get at 1.
    rewrite flatten_stor.
    rewrite (get_fold_step flat_step (fun s ps => match ps with None => s | Some ps => merge_slots s ps end)
               get_flat_step _ _ a (sorted_nodup _ W)), get_fold_rm, existsb_keys.
    cbn [flatten l_destr]. rewrite mem_fold_set, existsb_keys.
    unfold stor_get.
    destruct (fm_get a (l_stor l)) as [s|].
    + destruct (mem a (l_destr l)); cbn [orb].
      * destruct (fm_get k s); reflexivity.
      * destruct (fm_get a (l_stor p)) as [ps|].
        -- unfold merge_slots. rewrite get_overlay. destruct (fm_get k s); [reflexivity|].
           destruct (fm_get k ps); reflexivity.
        -- destruct (fm_get k s); reflexivity.
    + destruct (mem a (l_destr l)); cbn [orb]; [reflexivity|].
      destruct (fm_get a (l_stor p)) as [ps|]; reflexivity.
Qed.

Lemma get_disk_slots slots base k :
  fm_get k (disk_slots slots base) = match fm_get k slots with Some v => slot_val v | None => fm_get k base end.
Proof.
  apply (get_fold_bind _ slot_val). intros [k0 v0] m a. cbn [fst snd]. unfold slot_val.
  destruct (N.eqb v0 0); [apply get_rm|apply get_set].
Qed.

Definition disk_step (asl : N * fmap N) (m : fmap (fmap N)) : fmap (fmap N) :=
  fm_set (fst asl) (disk_slots (snd asl) (match fm_get (fst asl) m with Some b => b | None => [] end)) m.

(** writing the bottom layer to disk changes no lookup *)
Theorem look_diff_to_disk l dk : wf_layer l ->
  bk_same (bk_layers [] (diff_to_disk l dk)) (bk_layers [l] dk).
Proof.
  intros W. split.
  - intros a. cbn [bk_layers bk_acc look_acc diff_to_disk dk_accts].
    rewrite get_overlay, get_fold_rm, existsb_keys.
    destruct (fm_get a (l_accts l)); [reflexivity|]. destruct (mem a (l_destr l)); reflexivity.
  - intros a k. cbn [bk_layers bk_slot look_slot diff_to_disk dk_stor]. unfold stor_get.
    change (fold_right _ ?s (l_stor l)) with (fold_right disk_step s (l_stor l)).
    rewrite (get_fold_step disk_step (fun s b => disk_slots s (match b with Some b => b | None => [] end))
               (fun asl m a => get_set m a (fst asl) _) _ _ a (sorted_nodup _ W)), get_fold_rm, existsb_keys.
    destruct (fm_get a (l_stor l)) as [s|].
    + rewrite get_disk_slots. destruct (fm_get k s) as [v|]; [apply slot_of_val|].
      destruct (mem a (l_destr l)); [reflexivity|].
      destruct (fm_get a (dk_stor dk)); reflexivity.
    + destruct (mem a (l_destr l)); [reflexivity|]. reflexivity.
Qed.

(** lookups through a stack only depend on the lookups of its lower part *)
Lemma look_app pre : forall r1 d1 r2 d2,
  bk_same (bk_layers r1 d1) (bk_layers r2 d2) ->
  bk_same (bk_layers (pre ++ r1) d1) (bk_layers (pre ++ r2) d2).
Proof.
  induction pre as [|l t IH]; intros r1 d1 r2 d2 H; [exact H|].
  destruct (IH _ _ _ _ H) as [A S]. cbn in A, S. split.
  - intros a. cbn. rewrite A. reflexivity.
  - intros a k. cbn. rewrite S. reflexivity.
Qed.

Lemma look_flatten_all t : forall b dk, Forall wf_layer t -> flatten_all t = Some b ->
  wf_layer b /\ bk_same (bk_layers [b] dk) (bk_layers t dk).
Proof.
  induction t as [|l t IH]; intros b dk F E; cbn [flatten_all] in E; [discriminate|].
  apply Forall_cons_iff in F as [Wl Ft].
  destruct (flatten_all t) as [p|] eqn:Et.
  - injection E as <-. destruct (IH p dk Ft eq_refl) as [Wp Sp]. split; [apply wf_flatten, Wp|].
    apply (bk_same_trans _ _ _ (look_flatten l p [] dk Wl)).
    apply (look_app [l] [p] dk t dk Sp).
  - injection E as <-. destruct t; [|cbn in Et; destruct (flatten_all t); discriminate].
    split; [exact Wl|apply bk_same_refl].
Qed.

(** Cap changes no lookup *)
Theorem look_cap n ls dk : Forall wf_layer ls ->
  Forall wf_layer (fst (cap n ls dk)) /\
  bk_same (bk_layers (fst (cap n ls dk)) (snd (cap n ls dk))) (bk_layers ls dk).
Proof.
  intros F. unfold cap. destruct (flatten_all (skipn n ls)) as [b|] eqn:E; cbn [fst snd].
  - rewrite <- (firstn_skipn n ls) in F. apply Forall_app in F as [Ff Fs].
    destruct (look_flatten_all _ b dk Fs E) as [Wb Sb].
    split; [exact Ff|].
    + rewrite <- (firstn_skipn n ls) at 2.
      pose proof (look_app (firstn n ls) [] (diff_to_disk b dk) [b] dk (look_diff_to_disk b dk Wb)) as H1.
      rewrite app_nil_r in H1. apply (bk_same_trans _ _ _ H1).
      apply look_app, Sb.
  - split; [exact F|apply bk_same_refl].
Qed.

Lemma get_disk_stor c : sorted c -> forall a,
  fm_get a (dk_stor (disk_of_content c)) =
  match fm_get a c with
  | Some acc => match a_storage acc with [] => None | s => Some s end
  | None => None
  end.
Proof.
  cbn [disk_of_content dk_stor].
  induction c as [|[b acc] t IH]; intros S a; cbn [flat_map fm_get fst snd]; [reflexivity|].
  pose proof (sorted_head_notin _ _ _ S) as NI. destruct S as [_ S].
  destruct (a_storage acc) as [|e s] eqn:ES; cbn [app fm_get fst].
  - rewrite (IH S a). destruct (N.eqb_spec a b) as [->|D]; [|reflexivity].
    rewrite (get_none _ _ NI), ES. reflexivity.
  - destruct (N.eqb_spec a b) as [->|D]; [rewrite ES; reflexivity|]. apply IH, S.
Qed.

Theorem view_genesis c : sorted c -> view_ok [] (disk_of_content c) c.
Proof.
  intros SC. split.
  - intros a. cbn [bk_layers bk_content bk_acc look_acc disk_of_content dk_accts].
    clear SC. induction c as [|[b acc] t IH]; cbn [map fm_get fst snd]; [reflexivity|].
    destruct (N.eqb a b); [reflexivity|exact IH].
  - intros a k. cbn [bk_layers bk_content bk_slot look_slot].
    unfold stor_get, storage_of, slot_of. rewrite (get_disk_stor c SC a).
    destruct (fm_get a c) as [acc|]; [|reflexivity].
    destruct (a_storage acc); reflexivity.
Qed.
