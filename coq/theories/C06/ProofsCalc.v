(** C06 (b) — calculateValidatorSetUpdates (as repaired by 530b44a): its output is the same
    change set (up to order) whatever the order of the report, hence the validator set consensus
    ends up with is the same; a report that repeats an address is always rejected. *)
From Coq Require Import List ZArith NArith Bool Lia Permutation.
From Kardia Require Import C06.ModelValset C06.ProofsMap C06.ProofsValset.
Import ListNotations.
Local Open Scope Z_scope.

Lemma amap_get_del_other a b m : a <> b -> amap_get a (amap_del b m) = amap_get a m.
Proof.
  intros D. induction m as [|[k p] t IH]; cbn [amap_del amap_get]; [reflexivity|].
  destruct (N.eqb_spec b k) as [E|E].
  - rewrite IH. destruct (N.eqb_spec a k); [congruence|reflexivity].
  - cbn [amap_get]. rewrite IH. reflexivity.
Qed.

Lemma amap_del_comm a b m : amap_del a (amap_del b m) = amap_del b (amap_del a m).
Proof.
  induction m as [|[k p] t IH]; cbn [amap_del]; [reflexivity|].
  destruct (N.eqb_spec b k) as [E|E], (N.eqb_spec a k) as [E'|E']; cbn [amap_del].
  - exact IH.
  - destruct (N.eqb_spec b k); [exact IH|congruence].
  - destruct (N.eqb_spec a k); [exact IH|congruence].
  - destruct (N.eqb_spec a k); [congruence|]. destruct (N.eqb_spec b k); [congruence|]. f_equal. exact IH.
Qed.

Definition del_all (vals : list validator) (m : amap) : amap :=
  fold_left (fun m v => amap_del (v_addr v) m) vals m.

Lemma calc_scan_nodup vals : forall m, NoDup (map v_addr vals) ->
  calc_scan m vals = (filter (is_update m) vals, del_all vals m).
Proof.
  induction vals as [|v t IH]; intros m ND; cbn [calc_scan filter del_all fold_left map]; [reflexivity|].
  cbn [map] in ND. inversion ND as [|? ? NI ND']; subst.
  rewrite (IH (amap_del (v_addr v) m) ND'). fold (del_all t (amap_del (v_addr v) m)).
  assert (filter (is_update (amap_del (v_addr v) m)) t = filter (is_update m) t) as ->.
  { apply filter_ext_in. intros x Hx. unfold is_update. rewrite amap_get_del_other; [reflexivity|].
    intros E. apply NI. rewrite <- E. apply in_map, Hx. }
  destruct (is_update m v); reflexivity.
Qed.

Lemma filter_perm {A} (f : A -> bool) l l' : Permutation l l' -> Permutation (filter f l) (filter f l').
Proof.
  induction 1 as [|x l l' P IH|x y l|l l' l'' P1 IH1 P2 IH2]; cbn [filter].
  - constructor.
  - destruct (f x); [constructor|]; exact IH.
  - destruct (f x), (f y); try reflexivity. apply perm_swap.
  - etransitivity; eassumption.
Qed.

Lemma del_all_perm vals vals' m : Permutation vals vals' -> del_all vals m = del_all vals' m.
Proof.
  intros P. unfold del_all.
  apply (fold_left_perm_all (fun m v => amap_del (v_addr v) m) (fun _ => True)); auto.
  intros a x y _. apply amap_del_comm.
Qed.

Lemma has_dup_spec vals : forall seen, has_dup_addr seen vals = false <->
  NoDup (map v_addr vals) /\ (forall a, In a seen -> ~ In a (map v_addr vals)).
Proof.
  induction vals as [|v t IH]; intros seen; cbn [has_dup_addr map].
  - split; [intros _; split; [constructor|intros a _ []]|reflexivity].
  - destruct (existsb (N.eqb (v_addr v)) seen) eqn:E.
    + split; [discriminate|]. intros [_ DJ]. apply existsb_in in E. destruct (DJ _ E). now left.
    + apply not_true_iff_false in E. rewrite existsb_in in E. rewrite IH. split.
      * intros [ND DJ]. split; [constructor; [apply DJ; now left|exact ND]|].
        intros a Ha [<-|Ht]; [exact (E Ha)|]. apply (DJ a); [now right|exact Ht].
      * intros [ND DJ]. inversion ND as [|? ? NI ND']; subst. split; [exact ND'|].
        intros a [<-|Ha] I; [exact (NI I)|]. apply (DJ a Ha). now right.
Qed.

Lemma has_dup_nodup vals : has_dup_addr [] vals = false <-> NoDup (map v_addr vals).
Proof. rewrite has_dup_spec. split; [intros [ND _]; exact ND|intros ND; split; [exact ND|intros a []]]. Qed.

Lemma has_dup_perm vals vals' : Permutation vals vals' -> has_dup_addr [] vals = has_dup_addr [] vals'.
Proof.
  intros P. destruct (has_dup_addr [] vals') eqn:E'.
  - apply not_false_iff_true. intros E.
    apply has_dup_nodup, (nodup_addr_perm _ _ P), has_dup_nodup in E. congruence.
  - apply has_dup_nodup, (nodup_addr_perm _ _ (Permutation_sym P)), has_dup_nodup, E'.
Qed.

Lemma calculate_updates_perm last vals vals' :
  Permutation vals vals' ->
  Permutation (calculate_updates last vals) (calculate_updates last vals').
Proof.
  intros P. unfold calculate_updates.
  destruct vals as [|v t].
  { apply Permutation_nil in P. subst. constructor. }
  destruct vals' as [|v' t'].
  { apply Permutation_sym, Permutation_nil in P. discriminate. }
  rewrite <- (has_dup_perm _ _ P).
  destruct (has_dup_addr [] (v :: t)) eqn:E; [exact P|].
  pose proof (proj1 (has_dup_nodup _) E) as ND. pose proof (nodup_addr_perm _ _ P ND) as ND'.
  rewrite (calc_scan_nodup (v :: t) _ ND), (calc_scan_nodup (v' :: t') _ ND').
  rewrite (del_all_perm _ _ _ P).
  apply Permutation_app_tail, filter_perm, P.
Qed.

(** what ApplyBlock hands to consensus does not depend on the order of the report *)
Lemma apply_reported_order_free s vals vals' :
  Permutation vals vals' -> apply_reported s vals = apply_reported s vals'.
Proof.
  intros P. unfold apply_reported. apply update_order_free, calculate_updates_perm; assumption.
Qed.

(** a report that repeats an address is always rejected *)
Lemma update_dup_rejected s cs : ~ NoDup (map v_addr cs) -> update s cs = UpdErr.
Proof.
  intros H. destruct cs as [|c t]; [exfalso; apply H; constructor|].
  destruct (process_changes (c :: t)) as [e|ups rems] eqn:E.
  - unfold update. rewrite (update_scan_err _ _ _ _ _ E).
    destruct e; try reflexivity. destruct (process_err_not_ok _ E).
  - destruct H. apply (process_ok_valid _ _ _ E).
Qed.

Lemma apply_reported_dup_rejected s vals : ~ NoDup (map v_addr vals) -> apply_reported s vals = UpdErr.
Proof.
  intros H. unfold apply_reported, calculate_updates.
  destruct vals as [|v t]; [exfalso; apply H; constructor|].
  destruct (has_dup_addr [] (v :: t)) eqn:E.
  - apply update_dup_rejected, H.
  - exfalso. apply H, has_dup_nodup, E.
Qed.

(** ... and not on the order in which Go's map iteration emits the removals either: any
    permutation of the computed change set gives the same result *)
Lemma apply_changes_order_free s vals cs :
  Permutation (calculate_updates (vs_vals s) vals) cs -> update s cs = apply_reported s vals.
Proof. intros P. unfold apply_reported. symmetry. apply update_order_free, P. Qed.

Definition ex_set : vset :=
  {| vs_vals := [ {| v_addr := 10; v_power := 10; v_prio := 0 |}; {| v_addr := 20; v_power := 5; v_prio := 0 |} ];
     vs_proposer := None; vs_total := 15 |}.
Definition rep (a : N) (p : Z) : validator := {| v_addr := a; v_power := p; v_prio := 0 |}.

(** a report that lists address 10 twice is rejected in both orders; without the pre-scan of 530b44a
    [10:10, 10:7, 20:5] is accepted (as 10:7) and [10:7, 10:10, 20:5] rejected *)
Example dup_report_rejected :
  apply_reported ex_set [rep 10 10; rep 10 7; rep 20 5] = UpdErr /\
  apply_reported ex_set [rep 10 7; rep 10 10; rep 20 5] = UpdErr.
Proof.
  split; apply apply_reported_dup_rejected; intros ND; inversion ND as [|? ? NI _]; apply NI; left; reflexivity.
Qed.

(** the hypotheses of the positive statement are satisfiable, on a report that changes a power,
    adds a validator and drops one *)
Example ex_reorder :
  NoDup (map v_addr [rep 30 4; rep 10 12]) /\
  apply_reported ex_set [rep 30 4; rep 10 12] = apply_reported ex_set [rep 10 12; rep 30 4] /\
  (exists s', apply_reported ex_set [rep 30 4; rep 10 12] = UpdOk s' /\ map v_addr (vs_vals s') = [10%N; 30%N]).
Proof.
  split; [repeat constructor; cbn; intuition lia|]. split.
  - apply apply_reported_order_free. apply perm_swap.
  - eexists. split; [vm_compute; reflexivity|reflexivity].
Qed.
