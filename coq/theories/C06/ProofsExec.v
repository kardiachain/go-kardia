(** C06 (c) — receipts, cumulative gas and bloom are functions of the list of per-transaction
    results; skipped transactions leave no trace; the bloom does not even depend on the order of
    the logs; and (d) the proposer's own block passes validateBlock. *)
From Coq Require Import List ZArith NArith Bool Lia Permutation.
From Kardia Require Import Base.Int64 C06.Model C06.ProofsMap.
Import ListNotations.
Local Open Scope Z_scope.

Section BloomFacts.
  Variables bits_addr bits_topic : N -> list N.

  Lemma bloom_add_comm b x y : sorted b -> bloom_add (bloom_add b x) y = bloom_add (bloom_add b y) x.
  Proof.
    intros S. unfold bloom_add. destruct (N.eq_dec x y) as [->|D]; [reflexivity|].
    apply set_set_comm; assumption.
  Qed.

  Lemma bloom_bits_perm ps ps' : Permutation ps ps' -> fold_left bloom_add ps [] = fold_left bloom_add ps' [].
  Proof.
    intros P. apply (fold_left_perm_all bloom_add sorted); auto.
    - intros a x. apply sorted_set.
    - intros a x y. apply bloom_add_comm.
    - exact I.
  Qed.

  Lemma bloom_logs_perm logs logs' :
    Permutation logs logs' -> bloom_of_logs bits_addr bits_topic logs = bloom_of_logs bits_addr bits_topic logs'.
  Proof. intros P. unfold bloom_of_logs. apply bloom_bits_perm, Permutation_flat_map, P. Qed.

  Definition logs_of (r : txres) : list log := match r with Skipped => [] | Applied _ _ l => l end.
  Definition gas_of (r : txres) : Z := match r with Skipped => 0 | Applied _ g _ => g end.
  Definition is_applied (r : txres) : bool := match r with Skipped => false | Applied _ _ _ => true end.

  Lemma receipts_skip cum rs :
    receipts_from bits_addr bits_topic cum (filter is_applied rs) = receipts_from bits_addr bits_topic cum rs.
  Proof.
    revert cum. induction rs as [|[|st g l] t IH]; intros cum; cbn [filter is_applied receipts_from]; auto.
    f_equal. apply IH.
  Qed.

  Lemma receipts_logs cum rs :
    flat_map r_logs (receipts_from bits_addr bits_topic cum rs) = flat_map logs_of rs.
  Proof.
    revert cum. induction rs as [|[|st g l] t IH]; intros cum; cbn [receipts_from flat_map logs_of r_logs]; auto.
    rewrite IH. reflexivity.
  Qed.

  (** skipped (rejected and reverted) transactions leave no trace in the results of the block *)
  Lemma exec_skip rs :
    exec_summary bits_addr bits_topic (filter is_applied rs) = exec_summary bits_addr bits_topic rs.
  Proof. unfold exec_summary. rewrite receipts_skip. reflexivity. Qed.

  (** the block bloom is the bloom of all logs of the applied transactions — in any order *)
  Lemma exec_bloom rs logs :
    Permutation logs (flat_map logs_of rs) ->
    snd (exec_summary bits_addr bits_topic rs) = bloom_of_logs bits_addr bits_topic logs.
  Proof. intros P. unfold exec_summary. cbn [snd]. rewrite receipts_logs. symmetry. apply bloom_logs_perm, P. Qed.

  (** every receipt's own bloom is the bloom of its logs, its status and gas are the transaction's *)
  Lemma receipts_pointwise cum rs :
    map (fun r => (r_status r, r_gas r, r_logs r, r_bloom r)) (receipts_from bits_addr bits_topic cum rs) =
    flat_map (fun r => match r with
                       | Skipped => []
                       | Applied st g l => [(st, g, l, bloom_of_logs bits_addr bits_topic l)]
                       end) rs.
  Proof.
    revert cum. induction rs as [|[|st g l] t IH]; intros cum; cbn [receipts_from flat_map map]; auto.
    cbn [app r_status r_gas r_logs r_bloom]. f_equal. apply IH.
  Qed.

  (** cumulative gas: the exact running sum as long as it stays below 2^64 (the block gas limit
      does that: gas used <= GasPool <= header.GasLimit, C09) *)
  Definition total_gas (rs : list txres) : Z := fold_right (fun r acc => gas_of r + acc) 0 rs.

  Lemma total_gas_cons r t : total_gas (r :: t) = gas_of r + total_gas t.
  Proof. reflexivity. Qed.

  Lemma total_gas_nonneg rs : Forall (fun r => 0 <= gas_of r) rs -> 0 <= total_gas rs.
  Proof. induction 1 as [|r t H F IH]; [cbn; lia|rewrite total_gas_cons; lia]. Qed.

  Lemma last_cons {A} (l : list A) : forall x d, last (x :: l) d = last l x.
  Proof.
    induction l as [|y t IH]; intros x d; [reflexivity|].
    change (last (x :: y :: t) d) with (last (y :: t) d). rewrite (IH y d), (IH y x). reflexivity.
  Qed.

  Lemma gas_last cum rs :
    Forall (fun r => 0 <= gas_of r) rs -> 0 <= cum -> cum + total_gas rs < two64 ->
    last (map r_cum (receipts_from bits_addr bits_topic cum rs)) cum = cum + total_gas rs.
  Proof.
    revert cum. induction rs as [|[|st g l] t IH]; intros cum F C B; inversion F as [|? ? G F']; subst.
    - cbn. lia.
    - cbn [receipts_from]. rewrite total_gas_cons in *. cbn [gas_of] in *. rewrite IH by (auto; lia). lia.
    - rewrite total_gas_cons in B. cbn [gas_of] in B, G.
      pose proof (total_gas_nonneg t F') as TN.
      cbn [receipts_from map r_cum].
      assert (wrapu64 (cum + g) = cum + g) as W by (apply wrapu64_id; lia).
      rewrite W, last_cons, total_gas_cons. cbn [gas_of].
      rewrite (IH (cum + g) F') by lia. lia.
  Qed.

  Lemma gas_used_total rs :
    Forall (fun r => 0 <= gas_of r) rs -> total_gas rs < two64 ->
    snd (fst (exec_summary bits_addr bits_topic rs)) = total_gas rs.
  Proof.
    intros F B. unfold exec_summary, gas_used. cbn [fst snd].
    rewrite (gas_last 0 rs F); lia.
  Qed.
End BloomFacts.

Lemma own_block_valid st sigs cok med nev maxev pin :
  s_initial_height st = 1%N ->
  (s_last_height st = 0%N -> sigs = 0%N) ->
  (s_last_height st <> 0%N -> cok = true /\ s_last_time st < med) ->
  nev <= maxev -> pin = true ->
  validate_block st (create_proposal_block st sigs cok med nev maxev pin) = VOk.
Proof.
  intros HI H0 H1 HE ->.
  assert (EV : (maxev <? nev) = false) by (apply Z.ltb_ge, HE).
  unfold validate_block, create_proposal_block.
  cbn [b_height b_last_block_id b_app_hash b_vals_hash b_next_vals_hash b_time b_basic_ok b_commit_nil
       b_commit_sigs b_commit_ok b_median b_evidence b_max_evidence b_proposer_in negb].
  rewrite HI, EV, !N.eqb_refl. cbn [negb andb].
  destruct (N.eq_dec (s_last_height st) 0) as [Z|NZ].
  - rewrite Z, (H0 Z). cbn. rewrite Z.eqb_refl. reflexivity.
  - (* a later block: the tests on the height and the time, as booleans *)
    destruct (H1 NZ) as [-> LT].
    assert (L1 : (s_last_height st =? 0)%N = false) by (apply N.eqb_neq, NZ).
    assert (L2 : (0 <? s_last_height st)%N = true) by (apply N.ltb_lt, N.neq_0_lt_0, NZ).
    assert (L3 : (s_last_height st + 1 =? 1)%N = false) by (apply N.eqb_neq; lia).
    assert (L4 : (1 <? s_last_height st + 1)%N = true) by (apply N.ltb_lt; lia).
    assert (L5 : (s_last_time st <? med) = true) by (apply Z.ltb_lt, LT).
    rewrite L1, L2, L3, L4, L5, Z.eqb_refl. reflexivity.
Qed.

(** the hypotheses are satisfiable (first block, and a later block) *)
Example own_block_examples :
  let st0 := {| s_last_height := 0; s_initial_height := 1; s_last_block_id := 0; s_app_hash := 0;
                s_vals_hash := 11; s_next_vals_hash := 12; s_last_time := 1000 |} in
  let st7 := {| s_last_height := 7; s_initial_height := 1; s_last_block_id := 5; s_app_hash := 6;
                s_vals_hash := 11; s_next_vals_hash := 12; s_last_time := 1000 |} in
  validate_block st0 (create_proposal_block st0 0 false 0 0 3 true) = VOk /\
  validate_block st7 (create_proposal_block st7 4 true 1500 1 3 true) = VOk.
Proof. split; vm_compute; reflexivity. Qed.

(** quirks of the code as it is: CreateProposalBlock compares the height with the literal 1, and
    validateBlock wants the first block at LastBlockHeight+1 = 1 AND at InitialHeight: a chain
    whose genesis says initial_height = 5 rejects every first block, including the proposer's *)
Lemma initial_height_quirk :
  let st := {| s_last_height := 0; s_initial_height := 5; s_last_block_id := 0; s_app_hash := 0;
               s_vals_hash := 11; s_next_vals_hash := 12; s_last_time := 1000 |} in
  validate_block st (create_proposal_block st 0 false 0 0 3 true) = VHeight.
Proof. vm_compute. reflexivity. Qed.

(** the proposer caps the evidence with ConsensusParams.Evidence.MaxBytes, the validators with
    ConsensusParams.Block.MaxBytes: with more evidence than the validators' cap the own block is
    rejected (hypothesis [nev <= maxev] above is needed) *)
Lemma evidence_cap_needed :
  let st := {| s_last_height := 0; s_initial_height := 1; s_last_block_id := 0; s_app_hash := 0;
               s_vals_hash := 11; s_next_vals_hash := 12; s_last_time := 1000 |} in
  validate_block st (create_proposal_block st 0 false 0 4 3 true) = VEvidence.
Proof. vm_compute. reflexivity. Qed.
