(** C06 — property theorems only.  Each is closed by [exact] of a lemma proved in Proofs*.v and
    followed by [Print Assumptions].

    The property is PARTIAL by construction: cache warmth, the prefetcher, the trie node database and
    its GC mode, and of the snapshot tree the bloom filters, staleness, the iterators, the generator
    and the journal file are runtime artefacts with no counterpart in the model (the world state IS
    its content); that they do not influence the result is what the harness samples on the real code
    (every cache configuration, re-opened and copied databases, fresh processes).  What is proved
    here is (a)-(d) why the order in which Go enumerates its maps cannot matter, at the places where
    the code ranges over a map or consumes a list whose order is unspecified; (e) that the DATA of
    the snapshot tree (diff layers, destruct sets, flatten, diffToDisk, Cap, the generated disk
    layer) and the StateDB overlay that feeds it say what the tries say; (f) the tie of the model's
    decisions to the Go source.

    Vocabulary.  [content]: canonical finite map address -> account (nonce, balance, code,
    storage as canonical finite map); [wf_content]: keys strictly ascending at both levels;
    [dirty]: one entry of stateObjectsPending (deleted flag, re-created flag, account fields,
    pendingStorage as a list); [wf_dirty]: addresses pairwise distinct, slot keys of each object
    pairwise distinct (they are keys of Go maps); [reordering ds ds']: [ds'] lists the same
    objects in any order, each with its slots in any order; [commit_updates]: the loops of
    IntermediateRoot over the pending objects. *)
From Coq Require Import List ZArith NArith Bool Permutation.
From Kardia Require Import Base.Int64 C06.Model C06.ModelValset C06.ModelSnap C06.ProofsMap C06.ProofsFlush
     C06.ProofsValset C06.ProofsCalc C06.ProofsExec C06.ProofsSnapInv C06.ProofsSnapView C06.ProofsSnapChain.
Import ListNotations.
Local Open Scope Z_scope.

(** (a) The state after the flush — hence its root, for ANY function [root] of the content —
    does not depend on the order in which the dirty objects and their dirty slots are enumerated. *)
Theorem C06_root_order_free :
  forall (H : Type) (root : content -> H) c ds ds',
    wf_content c -> wf_dirty ds -> reordering ds ds' ->
    commit_updates ds c = commit_updates ds' c /\
    root (commit_updates ds c) = root (commit_updates ds' c).
Proof. intros H root. exact (root_order_free root). Qed.
Print Assumptions C06_root_order_free.

(** well-formedness is an invariant of the flush (so the statement applies block after block) *)
Theorem C06_flush_preserves_wf :
  forall ds c, wf_content c -> wf_content (commit_updates ds c).
Proof. exact wf_commit_updates. Qed.
Print Assumptions C06_flush_preserves_wf.

(** the two runs the model driver performs for every block of the harness (reported order;
    permuted objects with reversed slots) agree *)
Theorem C06_flush_runs_agree :
  forall idx ds c, wf_content c -> wf_dirty ds -> Permutation ds (permute idx ds) ->
    fst (flush_both idx ds c) = snd (flush_both idx ds c).
Proof. exact flush_both_agree. Qed.
Print Assumptions C06_flush_runs_agree.

(** ... whenever the index list the harness sends is a permutation of 0..n-1 (it always is) *)
Theorem C06_permute_is_permutation :
  forall (A : Type) (idx : list nat) (l : list A),
    Permutation idx (seq 0 (length l)) -> Permutation l (permute idx l).
Proof. exact permute_is_permutation. Qed.
Print Assumptions C06_permute_is_permutation.

Theorem C06_flush_runs_agree_idx :
  forall idx ds c, wf_content c -> wf_dirty ds -> Permutation idx (seq 0 (length ds)) ->
    fst (flush_both idx ds c) = snd (flush_both idx ds c).
Proof. exact flush_both_agree_idx. Qed.
Print Assumptions C06_flush_runs_agree_idx.

(** (b) UpdateWithChangeSet (error classes collapsed to "rejected, set unchanged"): any
    permutation of the change set gives the same validator set, priorities included. *)
Theorem C06_valset_order_free :
  forall s cs cs', Permutation cs cs' -> update s cs = update s cs'.
Proof. exact update_order_free. Qed.
Print Assumptions C06_valset_order_free.

(** calculateValidatorSetUpdates + UpdateWithChangeSet (code as repaired by 530b44a): the order
    in which the application reports its validators does not matter, for ANY report ... *)
Theorem C06_reported_order_free :
  forall s vals vals', Permutation vals vals' -> apply_reported s vals = apply_reported s vals'.
Proof. exact apply_reported_order_free. Qed.
Print Assumptions C06_reported_order_free.

(** ... a report that lists an address twice being rejected in every order (without the pre-scan of
    530b44a one order is accepted and another rejected) *)
Theorem C06_reported_duplicates_rejected :
  forall s vals, ~ NoDup (map v_addr vals) -> apply_reported s vals = UpdErr.
Proof. exact apply_reported_dup_rejected. Qed.
Print Assumptions C06_reported_duplicates_rejected.

(** ... nor does the order in which `for valAddr := range last` emits the removals (any
    permutation of the computed change set) *)
Theorem C06_removal_order_free :
  forall s vals cs, Permutation (calculate_updates (vs_vals s) vals) cs ->
    update s cs = apply_reported s vals.
Proof. exact apply_changes_order_free. Qed.
Print Assumptions C06_removal_order_free.

(** (c) Receipts, gas used and bloom are a function of the list of per-transaction results in
    which rejected transactions leave no trace ... *)
Theorem C06_exec_function :
  forall (bits_addr bits_topic : N -> list N) rs,
    exec_summary bits_addr bits_topic (filter is_applied rs) = exec_summary bits_addr bits_topic rs.
Proof. exact exec_skip. Qed.
Print Assumptions C06_exec_function.

(** ... receipt by receipt: status, gas and logs are the transaction's, the receipt bloom is the
    bloom of its logs ... *)
Theorem C06_exec_receipts :
  forall (bits_addr bits_topic : N -> list N) cum rs,
    map (fun r => (r_status r, r_gas r, r_logs r, r_bloom r)) (receipts_from bits_addr bits_topic cum rs) =
    flat_map (fun r => match r with
                       | Skipped => []
                       | Applied st g l => [(st, g, l, bloom_of_logs bits_addr bits_topic l)]
                       end) rs.
Proof. exact receipts_pointwise. Qed.
Print Assumptions C06_exec_receipts.

(** ... the block bloom is the bloom of the logs of the applied transactions, in ANY order (so
    it is order-sensitive through nothing at all) ... *)
Theorem C06_exec_bloom_order_free :
  forall (bits_addr bits_topic : N -> list N) rs logs,
    Permutation logs (flat_map logs_of rs) ->
    snd (exec_summary bits_addr bits_topic rs) = bloom_of_logs bits_addr bits_topic logs.
Proof. exact exec_bloom. Qed.
Print Assumptions C06_exec_bloom_order_free.

(** ... and the gas used is the exact sum of the gas of the applied transactions while that
    sum is below 2^64 (uint64 accumulation never wraps under a block gas limit). *)
Theorem C06_exec_gas_is_sum :
  forall (bits_addr bits_topic : N -> list N) rs,
    Forall (fun r => 0 <= gas_of r) rs -> total_gas rs < two64 ->
    snd (fst (exec_summary bits_addr bits_topic rs)) = total_gas rs.
Proof. exact gas_used_total. Qed.
Print Assumptions C06_exec_gas_is_sum.

(** (d) PARTIAL (header fields only; Block.ValidateBasic, VerifyCommit, MedianTime, evidence
    checks enter as data): the block CreateProposalBlock builds from a state is accepted by
    validateBlock against the same state, provided the chain starts at height 1, the proposer
    is a validator, it includes a valid commit of the previous block whose median time is later
    than the previous block's time (empty commit for the first block), and no more evidence than
    the validators' cap. *)
Theorem C06_own_block_valid_partial :
  forall st sigs cok med nev maxev pin,
    s_initial_height st = 1%N ->
    (s_last_height st = 0%N -> sigs = 0%N) ->
    (s_last_height st <> 0%N -> cok = true /\ s_last_time st < med) ->
    nev <= maxev -> pin = true ->
    validate_block st (create_proposal_block st sigs cok med nev maxev pin) = VOk.
Proof. exact own_block_valid. Qed.
Print Assumptions C06_own_block_valid_partial.

(** the two side conditions are needed with the code as it is *)
Theorem C06_own_block_initial_height_quirk :
  let st := {| s_last_height := 0; s_initial_height := 5; s_last_block_id := 0; s_app_hash := 0;
               s_vals_hash := 11; s_next_vals_hash := 12; s_last_time := 1000 |} in
  validate_block st (create_proposal_block st 0 false 0 0 3 true) = VHeight.
Proof. exact initial_height_quirk. Qed.
Print Assumptions C06_own_block_initial_height_quirk.

Theorem C06_own_block_evidence_cap_needed :
  let st := {| s_last_height := 0; s_initial_height := 1; s_last_block_id := 0; s_app_hash := 0;
               s_vals_hash := 11; s_next_vals_hash := 12; s_last_time := 1000 |} in
  validate_block st (create_proposal_block st 0 false 0 4 3 true) = VEvidence.
Proof. exact evidence_cap_needed. Qed.
Print Assumptions C06_own_block_evidence_cap_needed.

Local Close Scope Z_scope.

(** (e) Snapshot configuration (ModelSnap.v: the StateDB overlay of a block with createObject's
    reset branch, the destruct set, Snapshot / RevertToSnapshot, Finalise, Commit; the diff layers
    with their lookup order, flatten, diffToDisk, Cap, the generated disk layer).

    Vocabulary.  [chain_snap keep n blocks]: a node that keeps snapshots executes the blocks (lists
    of StateDB operations as the KVM issues them, reverts included): every read of the parent state
    goes through the diff layers down to the disk layer, Commit flushes into the tries and pushes
    the layer (destructs, accounts, storage), Cap keeps [keep] layers and flattens the rest into
    the disk layer.  [chain_trie c blocks]: a node without snapshots, every read goes to the tries.
    Both return, per block, the state content and the values read.  [genesis_node c]: tries [c],
    no diff layer, the disk layer generated from [c].  [bk_same b1 b2]: the two parent views answer
    every account and slot lookup alike; [bk_wf b]: no slot of an absent account reads non-zero;
    [view_ok ls dk c]: the layers [ls] over the disk layer [dk] are [bk_same] as the tries of [c];
    [wf_layer l]: the layer's storage entries have ascending addresses; [node_ok n]: canonical
    content, well-formed layers, [view_ok]; [final_snap keep n blocks]: the snapshot node after the
    chain; [inv bk st]: the invariant of the overlay [st] over the parent view [bk] (ProofsSnapInv.v).

    For EVERY chain of blocks, every Cap depth and every (canonical) genesis state the two nodes
    compute the same state after every block and return the same reads: the result of block
    execution does not depend on whether the node keeps snapshots. *)
Theorem C06_snapshot_config_free :
  forall keep c blocks, wf_content c ->
    chain_snap keep (genesis_node c) blocks = chain_trie c blocks.
Proof. exact chain_config_free. Qed.
Print Assumptions C06_snapshot_config_free.

(** ... from any consistent node, not only from genesis (re-opened nodes, any layer stack) *)
Theorem C06_snapshot_config_free_from :
  forall keep blocks n, node_ok n -> chain_snap keep n blocks = chain_trie (n_content n) blocks.
Proof. exact chain_agree. Qed.
Print Assumptions C06_snapshot_config_free_from.

(** ... and the snapshot node stays consistent: after any chain, looking an account or a slot up
    through its layers gives what its tries hold *)
Theorem C06_snapshot_view_invariant :
  forall keep blocks n, node_ok n ->
    view_ok (n_layers (final_snap keep n blocks)) (n_disk (final_snap keep n blocks))
            (n_content (final_snap keep n blocks)).
Proof. exact chain_view. Qed.
Print Assumptions C06_snapshot_view_invariant.

(** one block: the diff layer Commit hands to snapshot.Tree.Update describes exactly the state the
    same Commit flushes into the tries — for ANY overlay reachable by the operations (the
    invariant [inv]) *)
Theorem C06_snapshot_layer_of_commit :
  forall ls dk c st, wf_content c -> view_ok ls dk c -> inv (bk_layers ls dk) st -> dirt st = [] ->
    view_ok (layer_of st :: ls) dk (commit_updates (pending_objs st) c).
Proof. exact view_commit. Qed.
Print Assumptions C06_snapshot_layer_of_commit.

(** the invariant holds after any list of operations, on any backend; in particular every address
    left in stateObjectsDestruct at the end of a block is one of the pending objects: a
    "destructed" mark never covers an account the flush leaves alone (what a missing restore in
    resetObjectChange.revert breaks: ProofsSnapChain.ex_stale_view_breaks) *)
Theorem C06_overlay_invariant :
  forall bk ops, inv bk (fst (run_block bk ops)) /\ dirt (fst (run_block bk ops)) = [].
Proof. exact run_block_inv. Qed.
Print Assumptions C06_overlay_invariant.

Theorem C06_destruct_set_tracked :
  forall bk ops a, mem a (destr (fst (run_block bk ops))) = true ->
    mem a (pend (fst (run_block bk ops))) = true /\ fm_get a (live (fst (run_block bk ops))) <> None.
Proof. exact destruct_tracked. Qed.
Print Assumptions C06_destruct_set_tracked.

(** two parent views that answer every account and slot lookup alike give the same run of a
    block, whether the reads are served by snap.Storage (by address, whatever the object's root)
    or by the object's own storage trie (empty for a re-created object) *)
Theorem C06_overlay_read_path_free :
  forall b1 b2 ops, bk_same b1 b2 -> bk_wf b1 -> run_block b1 ops = run_block b2 ops.
Proof. intros b1 b2 ops S W. exact (same_run_block b1 b2 S W ops). Qed.
Print Assumptions C06_overlay_read_path_free.

(** the snapshot tree below the head: flattening a layer into its parent, writing the bottom
    layer to disk, Cap at any depth and generating the disk layer from a state change no lookup *)
Theorem C06_snapshot_flatten_free :
  forall l p ls dk, wf_layer l -> bk_same (bk_layers (flatten l p :: ls) dk) (bk_layers (l :: p :: ls) dk).
Proof. exact look_flatten. Qed.
Print Assumptions C06_snapshot_flatten_free.

Theorem C06_snapshot_disk_free :
  forall l dk, wf_layer l -> bk_same (bk_layers [] (diff_to_disk l dk)) (bk_layers [l] dk).
Proof. exact look_diff_to_disk. Qed.
Print Assumptions C06_snapshot_disk_free.

Theorem C06_snapshot_cap_free :
  forall n ls dk, Forall wf_layer ls ->
    Forall wf_layer (fst (cap n ls dk)) /\
    bk_same (bk_layers (fst (cap n ls dk)) (snd (cap n ls dk))) (bk_layers ls dk).
Proof. exact look_cap. Qed.
Print Assumptions C06_snapshot_cap_free.

Theorem C06_snapshot_generated_disk_layer :
  forall c, sorted c -> view_ok [] (disk_of_content c) c.
Proof. exact view_genesis. Qed.
Print Assumptions C06_snapshot_generated_disk_layer.

(** (f) Source tie: the guards and integer expressions of validateBlock, CreateProposalBlock,
    calculateValidatorSetUpdates, updateState, ApplyTransaction (cumulative gas), bloomValues /
    Bloom.add, StateDB.Finalise / IntermediateRoot / createObject / getStateObject,
    stateObject.GetCommittedState / AddBalance / SubBalance / empty / updateTrie,
    resetObjectChange.revert, snapshot diffLayer.flatten / Tree.Cap / Tree.cap / diffToDisk are
    translated from /repo's Go source on every check (Generated/C06Source.v); the decisions the
    model takes ARE those expressions on those operands (statement spelled out in SourceTie.v). *)
From Kardia Require Import C06.SourceTie.
Theorem C06_source_tie : C06_source_tie_statement.
Proof. exact C06_source_tie_proof. Qed.
Print Assumptions C06_source_tie.

(** The decision-critical functions of the anchored code have exactly the decisions the source tie knows about
    (go2coq manifests, regenerated from /repo on every check; statement in SourceManifest.v). *)
From Kardia Require Import C06.SourceManifest.
Theorem C06_source_manifest : C06_source_manifest_statement.
Proof. exact C06_source_manifest_proof. Qed.
Print Assumptions C06_source_manifest.
