(** C06 (a) — the flush of the dirty objects does not depend on the enumeration order of
    Go's maps: neither of stateObjectsPending nor of the objects' pendingStorage. *)
From Coq Require Import List ZArith NArith Bool Lia Permutation.
From Kardia Require Import C06.Model C06.ProofsMap.
Import ListNotations.

(** well-formed content: canonical at both levels *)
Definition wf_content (c : content) : Prop :=
  sorted c /\ forall a acc, In (a, acc) c -> sorted (a_storage acc).

Lemma sorted_set_slot m kv : sorted m -> sorted (set_slot m kv).
Proof. intros S. unfold set_slot. destruct (N.eqb (snd kv) 0); [apply sorted_del|apply sorted_set]; exact S. Qed.

Definition slot_val (v : N) : option N := if N.eqb v 0 then None else Some v.

Lemma get_set_slot m k kv : sorted m ->
  fm_get k (set_slot m kv) = if N.eqb k (fst kv) then slot_val (snd kv) else fm_get k m.
Proof.
  intros S. unfold set_slot, slot_val. destruct (N.eqb (snd kv) 0).
  - apply get_del, S.
  - apply get_set.
Qed.

Lemma set_slot_comm m x y : sorted m -> fst x <> fst y ->
  set_slot (set_slot m x) y = set_slot (set_slot m y) x.
Proof.
  apply (upd_comm set_slot fst (fun _ x => slot_val (snd x)) sorted_set_slot (fun m x k => get_set_slot m k x)).
  reflexivity.
Qed.

Lemma sorted_apply_slots slots base : sorted base -> sorted (apply_slots slots base).
Proof. apply fold_left_pres. intros a x. apply sorted_set_slot. Qed.

Lemma apply_slots_perm slots slots' base :
  sorted base -> NoDup (map fst slots) -> Permutation slots slots' ->
  apply_slots slots base = apply_slots slots' base.
Proof.
  intros S ND P. unfold apply_slots.
  apply (fold_left_perm set_slot fst sorted); auto.
  - intros a x. apply sorted_set_slot.
  - intros a x y. apply set_slot_comm.
Qed.

Lemma slot_of_val v : match slot_val v with Some v' => v' | None => 0%N end = v.
Proof. unfold slot_val. destruct (N.eqb_spec v 0); congruence. Qed.

Lemma get_apply_slots slots : forall base k, sorted base -> sorted slots ->
  fm_get k (apply_slots slots base) =
  match fm_get k slots with Some v => slot_val v | None => fm_get k base end.
Proof.
  induction slots as [|[k0 v0] t IH]; intros base k SB SS; [reflexivity|].
  change (apply_slots ((k0, v0) :: t) base) with (apply_slots t (set_slot base (k0, v0))).
  pose proof (sorted_head_notin _ _ _ SS) as NI. destruct SS as [_ SS].
  rewrite (IH _ k (sorted_set_slot _ _ SB) SS). cbn [fm_get].
  rewrite (get_set_slot base k (k0, v0) SB). cbn [fst snd].
  destruct (N.eqb_spec k k0) as [->|D]; [|reflexivity].
  rewrite (get_none _ _ NI). reflexivity.
Qed.

Definition new_account (c : content) (d : dirty) : account :=
  {| a_nonce := d_nonce d; a_balance := d_balance d; a_code := d_code d;
     a_storage := apply_slots (d_slots d) (if d_reset d then [] else storage_of c (d_addr d)) |}.

Lemma commit_one_eq c d :
  commit_one c d = if d_deleted d then fm_del (d_addr d) c else fm_set (d_addr d) (new_account c d) c.
Proof. reflexivity. Qed.

Lemma sorted_commit_one c d : sorted c -> sorted (commit_one c d).
Proof. intros S. rewrite commit_one_eq. destruct (d_deleted d); [apply sorted_del|apply sorted_set]; exact S. Qed.

Lemma get_commit_one c d k : sorted c ->
  fm_get k (commit_one c d) =
  if N.eqb k (d_addr d) then (if d_deleted d then None else Some (new_account c d)) else fm_get k c.
Proof.
  intros S. rewrite commit_one_eq. destruct (d_deleted d).
  - apply get_del, S.
  - apply get_set.
Qed.

Lemma storage_of_commit_other c d a : sorted c -> a <> d_addr d ->
  storage_of (commit_one c d) a = storage_of c a.
Proof.
  intros S D. unfold storage_of. rewrite (get_commit_one c d a S).
  destruct (N.eqb_spec a (d_addr d)); [congruence|reflexivity].
Qed.

Lemma new_account_commit_other c d1 d2 : sorted c -> d_addr d2 <> d_addr d1 ->
  new_account (commit_one c d1) d2 = new_account c d2.
Proof.
  intros S D. unfold new_account. rewrite (storage_of_commit_other c d1 (d_addr d2) S D). reflexivity.
Qed.

Lemma commit_one_comm c d1 d2 : sorted c -> d_addr d1 <> d_addr d2 ->
  commit_one (commit_one c d1) d2 = commit_one (commit_one c d2) d1.
Proof.
  apply (upd_comm commit_one d_addr (fun c d => if d_deleted d then None else Some (new_account c d))
                  sorted_commit_one (fun c d k => get_commit_one c d k)).
  intros c0 x y S D. rewrite (new_account_commit_other c0 y x S D). reflexivity.
Qed.

Lemma commit_updates_app ds1 ds2 c : commit_updates (ds1 ++ ds2) c = commit_updates ds2 (commit_updates ds1 c).
Proof. apply fold_left_app. Qed.

Lemma sorted_commit_updates ds c : sorted c -> sorted (commit_updates ds c).
Proof. apply fold_left_pres. intros a x. apply sorted_commit_one. Qed.

Lemma commit_updates_perm ds ds' c :
  sorted c -> NoDup (map d_addr ds) -> Permutation ds ds' ->
  commit_updates ds c = commit_updates ds' c.
Proof.
  intros S ND P. unfold commit_updates.
  apply (fold_left_perm commit_one d_addr sorted); auto.
  - intros a x. apply sorted_commit_one.
  - intros a x y. apply commit_one_comm.
Qed.

Definition same_upto_slots (d d' : dirty) : Prop :=
  d_addr d = d_addr d' /\ d_deleted d = d_deleted d' /\ d_reset d = d_reset d' /\
  d_nonce d = d_nonce d' /\ d_balance d = d_balance d' /\ d_code d = d_code d' /\
  Permutation (d_slots d) (d_slots d').

Lemma wf_storage_of c a : wf_content c -> sorted (storage_of c a).
Proof.
  intros [S W]. unfold storage_of. destruct (fm_get a c) as [acc|] eqn:E; [|exact I].
  apply (W a acc), get_in_pair, E.
Qed.

Lemma wf_commit_one c d : wf_content c -> wf_content (commit_one c d).
Proof.
  intros WF. pose proof WF as [S W]. split; [apply sorted_commit_one, S|].
  intros a acc H. rewrite commit_one_eq in H. destruct (d_deleted d).
  - apply (W a acc), (in_del _ _ _ H).
  - apply in_set in H. destruct H as [H|H]; [|apply (W a acc), H].
    injection H as _ ->. cbn [new_account a_storage].
    apply sorted_apply_slots. destruct (d_reset d); [exact I|apply wf_storage_of, WF].
Qed.

Lemma commit_one_slots c d d' :
  wf_content c -> NoDup (map fst (d_slots d)) -> same_upto_slots d d' -> commit_one c d = commit_one c d'.
Proof.
  intros WF ND (Ea & Ed & Er & En & Eb & Ec & P).
  rewrite !commit_one_eq. unfold new_account. rewrite <- Ea, <- Ed, <- Er, <- En, <- Eb, <- Ec.
  destruct (d_deleted d); [reflexivity|].
  rewrite (apply_slots_perm (d_slots d) (d_slots d')); [reflexivity| |exact ND|exact P].
  destruct (d_reset d); [exact I|apply wf_storage_of, WF].
Qed.

Lemma commit_updates_slots ds ds1 : Forall2 same_upto_slots ds ds1 ->
  Forall (fun d => NoDup (map fst (d_slots d))) ds -> forall c, wf_content c ->
  commit_updates ds c = commit_updates ds1 c.
Proof.
  induction 1 as [|d d1 t t1 E _ IH]; intros F c WF; [reflexivity|].
  apply Forall_cons_iff in F as [ND F].
  change (commit_updates t (commit_one c d) = commit_updates t1 (commit_one c d1)).
  rewrite (commit_one_slots c d d1 WF ND E). apply IH; [exact F|apply wf_commit_one, WF].
Qed.

(** the full statement: any reordering of the objects and, inside every object, of its slots *)
Definition wf_dirty (ds : list dirty) : Prop :=
  NoDup (map d_addr ds) /\ Forall (fun d => NoDup (map fst (d_slots d))) ds.

Definition reordering (ds ds' : list dirty) : Prop :=
  exists ds1, Forall2 same_upto_slots ds ds1 /\ Permutation ds1 ds'.

Lemma same_upto_slots_addrs ds ds1 : Forall2 same_upto_slots ds ds1 -> map d_addr ds = map d_addr ds1.
Proof. induction 1 as [|d d1 t t1 [E _] _ IH]; cbn [map]; [reflexivity|]. rewrite E, IH. reflexivity. Qed.

Lemma commit_order_free c ds ds' :
  wf_content c -> wf_dirty ds -> reordering ds ds' -> commit_updates ds c = commit_updates ds' c.
Proof.
  intros WF [ND F] (ds1 & F2 & P).
  rewrite (commit_updates_slots ds ds1 F2 F c WF).
  apply commit_updates_perm; [apply WF| |exact P].
  rewrite <- (same_upto_slots_addrs ds ds1 F2). exact ND.
Qed.

(** hence the root, whatever function of the content it is *)
Lemma root_order_free {H : Type} (root : content -> H) c ds ds' :
  wf_content c -> wf_dirty ds -> reordering ds ds' ->
  commit_updates ds c = commit_updates ds' c /\ root (commit_updates ds c) = root (commit_updates ds' c).
Proof. intros WF WD R. pose proof (commit_order_free c ds ds' WF WD R) as E. split; [exact E|rewrite E; reflexivity]. Qed.

Lemma wf_commit_updates ds c : wf_content c -> wf_content (commit_updates ds c).
Proof. apply fold_left_pres. intros a x. apply wf_commit_one. Qed.

Lemma permute_perm {A} (idx idx' : list nat) (l : list A) :
  Permutation idx idx' -> Permutation (permute idx l) (permute idx' l).
Proof. intros P. unfold permute. apply Permutation_flat_map, P. Qed.

Lemma permute_seq {A} (l : list A) : forall pre, permute (seq (length pre) (length l)) (pre ++ l) = l.
Proof.
  unfold permute. induction l as [|x t IH]; intros pre; cbn [length seq flat_map]; [reflexivity|].
  rewrite nth_error_app2 by lia. rewrite Nat.sub_diag. cbn [nth_error app]. f_equal.
  specialize (IH (pre ++ [x])). rewrite <- app_assoc in IH. cbn [app] in IH.
  rewrite app_length in IH. cbn [length] in IH. rewrite Nat.add_1_r in IH. exact IH.
Qed.

Lemma permute_is_permutation : forall (A : Type) (idx : list nat) (l : list A),
    Permutation idx (seq 0 (length l)) -> Permutation l (permute idx l).
Proof.
  intros A idx l P. pose proof (permute_seq l []) as E. cbn [app length] in E.
  rewrite (permute_perm _ _ l P), E. reflexivity.
Qed.

Lemma same_upto_rev d : same_upto_slots d (rev_slots d).
Proof. unfold same_upto_slots, rev_slots; cbn. repeat split; try reflexivity. apply Permutation_rev. Qed.

Lemma Forall2_map_rev ds : Forall2 same_upto_slots ds (map rev_slots ds).
Proof. induction ds as [|d t IH]; cbn [map]; constructor; [apply same_upto_rev|exact IH]. Qed.

(** if the index list makes [permute idx ds] a permutation of [ds], both runs of [flush_both] agree; the driver
    checks nothing, the harness sends a permutation of 0..n-1 *)
Lemma flush_both_agree idx ds c :
  wf_content c -> wf_dirty ds -> Permutation ds (permute idx ds) ->
  fst (flush_both idx ds c) = snd (flush_both idx ds c).
Proof.
  intros WF WD P. unfold flush_both. cbn [fst snd].
  apply commit_order_free; [exact WF|exact WD|].
  exists (map rev_slots ds). split; [apply Forall2_map_rev|].
  apply Permutation_map, P.
Qed.

Lemma flush_both_agree_idx idx ds c :
  wf_content c -> wf_dirty ds -> Permutation idx (seq 0 (length ds)) ->
  fst (flush_both idx ds c) = snd (flush_both idx ds c).
Proof. intros WF WD P. apply flush_both_agree; [exact WF|exact WD|apply permute_is_permutation, P]. Qed.

(** the hypotheses are satisfiable, on a case with a deletion, a re-creation and slot clears *)
Definition ex_content : content :=
  [ (5%N, {| a_nonce := 1; a_balance := 100; a_code := 0; a_storage := [] |});
    (9%N, {| a_nonce := 1; a_balance := 7; a_code := 77; a_storage := [(3%N, 4%N); (8%N, 1%N)] |});
    (12%N, {| a_nonce := 0; a_balance := 1; a_code := 0; a_storage := [] |}) ].

Definition ex_dirty : list dirty :=
  [ {| d_addr := 9; d_deleted := false; d_reset := false; d_nonce := 1; d_balance := 9; d_code := 77;
       d_slots := [(8%N, 0%N); (2%N, 6%N); (3%N, 5%N)] |};
    {| d_addr := 12; d_deleted := true; d_reset := false; d_nonce := 0; d_balance := 0; d_code := 0; d_slots := [] |};
    {| d_addr := 7; d_deleted := false; d_reset := true; d_nonce := 1; d_balance := 3; d_code := 5;
       d_slots := [(1%N, 1%N)] |};
    {| d_addr := 5; d_deleted := false; d_reset := false; d_nonce := 2; d_balance := 50; d_code := 0; d_slots := [] |} ].

Example ex_wf : wf_content ex_content /\ wf_dirty ex_dirty.
Proof.
  split; split.
  - cbn. intuition (subst; reflexivity).
  - intros a acc [H|[H|[H|[]]]]; injection H as <- <-; cbn; intuition (subst; reflexivity).
  - cbn. repeat constructor; cbn; intuition discriminate.
  - repeat constructor; cbn; intuition discriminate.
Qed.

Example ex_flush :
  flush_both [2; 0; 3; 1]%nat ex_dirty ex_content =
  (let r := [ (5%N, {| a_nonce := 2; a_balance := 50; a_code := 0; a_storage := [] |});
              (7%N, {| a_nonce := 1; a_balance := 3; a_code := 5; a_storage := [(1%N, 1%N)] |});
              (9%N, {| a_nonce := 1; a_balance := 9; a_code := 77; a_storage := [(2%N, 6%N); (3%N, 5%N)] |}) ] in
   (r, r)).
Proof. vm_compute. reflexivity. Qed.
