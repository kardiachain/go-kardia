(** C06 — chains of blocks: a node that keeps snapshots (reads through the layers, adds a layer
    per block, caps the tree) and a node that reads its tries compute the same states and the same
    reads, block after block. *)
From Coq Require Import List ZArith NArith Bool.
From Kardia Require Import C06.Model C06.ModelSnap C06.ProofsMap C06.ProofsFlush C06.ProofsSnapInv C06.ProofsSnapView.
Import ListNotations.

Definition node_ok (n : node) : Prop :=
  wf_content (n_content n) /\ Forall wf_layer (n_layers n) /\
  view_ok (n_layers n) (n_disk n) (n_content n).

Lemma apply_block_agree keep n ops : node_ok n ->
  node_ok (fst (apply_block_snap keep n ops)) /\
  n_content (fst (apply_block_snap keep n ops)) = fst (apply_block_trie (n_content n) ops) /\
  snd (apply_block_snap keep n ops) = snd (apply_block_trie (n_content n) ops).
Proof.
  intros (WF & FL & V). unfold apply_block_snap, apply_block_trie.
  pose proof (run_block_inv (bk_layers (n_layers n) (n_disk n)) ops) as [I D].
  assert (WB : bk_wf (bk_layers (n_layers n) (n_disk n))) by (apply (bk_same_wf _ _ V), bk_content_wf).
  rewrite <- (same_run_block _ _ V WB ops).
  destruct (run_block (bk_layers (n_layers n) (n_disk n)) ops) as [st out]. cbn [fst snd] in *.
  unfold commit.
  assert (FL' : Forall wf_layer (layer_of st :: n_layers n)).
  { constructor; [apply sorted_layer_stor, (inv_sorted _ _ I)|exact FL]. }
  pose proof (look_cap keep _ (n_disk n) FL') as [FC SC].
  destruct (cap keep (layer_of st :: n_layers n) (n_disk n)) as [ls dk]. cbn [fst snd] in *.
  split; [|split; reflexivity].
  split; [apply wf_commit_updates, WF|]. split; [exact FC|].
  apply (bk_same_trans _ _ _ SC). apply view_commit; assumption.
Qed.

Theorem chain_agree keep blocks : forall n, node_ok n ->
  chain_snap keep n blocks = chain_trie (n_content n) blocks.
Proof.
  induction blocks as [|b t IH]; intros n OK; cbn [chain_snap chain_trie]; [reflexivity|].
  destruct (apply_block_agree keep n b OK) as (OK' & EC & EO).
  destruct (apply_block_snap keep n b) as [n' out]. destruct (apply_block_trie (n_content n) b) as [c' out'].
  cbn [fst snd] in *. subst. f_equal. apply IH, OK'.
Qed.

Lemma genesis_ok c : wf_content c -> node_ok (genesis_node c).
Proof.
  intros WF. split; [exact WF|]. split; [constructor|]. apply view_genesis, WF.
Qed.

Theorem chain_config_free keep c blocks : wf_content c ->
  chain_snap keep (genesis_node c) blocks = chain_trie c blocks.
Proof. intros WF. apply (chain_agree keep blocks (genesis_node c)), genesis_ok, WF. Qed.

(** the node that keeps snapshots stays consistent: after any chain its layers describe its tries *)
Fixpoint final_snap (keep : nat) (n : node) (blocks : list (list op)) : node :=
  match blocks with
  | [] => n
  | b :: t => final_snap keep (fst (apply_block_snap keep n b)) t
  end.

Theorem chain_view keep blocks : forall n, node_ok n ->
  view_ok (n_layers (final_snap keep n blocks)) (n_disk (final_snap keep n blocks)) (n_content (final_snap keep n blocks)).
Proof.
  induction blocks as [|b t IH]; intros n OK; cbn [final_snap]; [apply OK|].
  apply IH, (apply_block_agree keep n b OK).
Qed.

(** what the diff layer needs from the journal: at the end of a block every address in
    stateObjectsDestruct is among the pending objects (so a destructed mark never stands for an
    account the flush leaves alone) *)
Theorem destruct_tracked bk ops a :
  mem a (destr (fst (run_block bk ops))) = true ->
  mem a (pend (fst (run_block bk ops))) = true /\ fm_get a (live (fst (run_block bk ops))) <> None.
Proof.
  intros M. destruct (run_block_inv bk ops) as [I D].
  destruct (inv_track _ _ I a M) as [H|H]; [rewrite D in H; discriminate|].
  split; [exact H|apply (inv_pend _ _ I a H)].
Qed.

(** the hypotheses are satisfiable, on the scenario that needs resetObjectChange.revert's restore of
    the destruct set: block 1 funds the
    address a later creation will use, block 2 runs that creation and rolls it back, block 3 pays
    the address again; a transfer of 5 then of 3 *)
Definition ex_blocks : list (list op) :=
  [ [OAdd 1 100; OTransfer 1 9 5; OFinalise];
    [ONonce 1 1; OSnap; OCreate 9; ONonce 9 1; OTransfer 1 9 7; OStore 9 0 4; ORevert 0; OFinalise; OReadAcc 9];
    [OTransfer 1 9 3; OFinalise; OReadAcc 9; OReadSlot 9 0] ].

Example ex_chain :
  map snd (chain_snap 1 (genesis_node []) ex_blocks) =
  [ []; [RAcc (Some (0%N, 5%Z, 0%N))]; [RAcc (Some (0%N, 8%Z, 0%N)); RSlot 0] ] /\
  chain_snap 1 (genesis_node []) ex_blocks = chain_trie [] ex_blocks.
Proof. split; vm_compute; reflexivity. Qed.

(** without the restore of the destruct set on revert the layer of block 2
    would say "destructed" for an account the flush leaves alone: the view breaks *)
Definition ex_stale_layer : layer :=
  {| l_destr := [(9%N, tt)]; l_accts := [(1%N, (1%N, 95%Z, 0%N))]; l_stor := [] |}.

Example ex_stale_view_breaks :
  let n1 := fst (apply_block_snap 128 (genesis_node []) (nth 0 ex_blocks [])) in
  look_acc (ex_stale_layer :: n_layers n1) (n_disk n1) 9 = None /\
  option_map fields (fm_get 9%N (n_content n1)) = Some (0%N, 5%Z, 0%N).
Proof. split; vm_compute; reflexivity. Qed.
