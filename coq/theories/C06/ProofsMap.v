(** C06 — facts about the canonical finite maps of the model, and the generic
    "a fold of pairwise commuting updates does not depend on the order" lemma. *)
From Coq Require Import List ZArith NArith Bool Lia Permutation.
From Kardia Require Import C06.Model.
Import ListNotations.

Section FMapFacts.
  Context {V : Type}.
  Implicit Types (m : fmap V).

  Definition keys m : list N := map fst m.

  (** strictly ascending keys *)
  Fixpoint sorted m : Prop :=
    match m with
    | [] => True
    | (k, _) :: t => (forall k', In k' (keys t) -> (k < k')%N) /\ sorted t
    end.

  Lemma in_get_iff m k : In k (keys m) <-> fm_get k m <> None.
  Proof.
    induction m as [|[k' v] t IH]; cbn [fm_get keys map fst]; [split; [intros []|congruence]|].
    destruct (N.eqb_spec k k') as [->|D]; [split; [discriminate|left; reflexivity]|].
    rewrite <- IH. split; [intros [E|I]; [congruence|exact I]|right; assumption].
  Qed.

  Lemma get_none m k : ~ In k (keys m) -> fm_get k m = None.
  Proof. rewrite in_get_iff. destruct (fm_get k m); [intros H; destruct H; discriminate|reflexivity]. Qed.

  Lemma get_in m k v : fm_get k m = Some v -> In k (keys m).
  Proof. intros H. apply in_get_iff. rewrite H. discriminate. Qed.

  Lemma get_in_pair m k v : fm_get k m = Some v -> In (k, v) m.
  Proof.
    induction m as [|[k' v'] t IH]; cbn [fm_get]; [discriminate|].
    destruct (N.eqb_spec k k') as [E|E]; intros H.
    - left. congruence.
    - right. apply IH, H.
  Qed.

  Lemma get_set m k k' v : fm_get k (fm_set k' v m) = if N.eqb k k' then Some v else fm_get k m.
  Proof.
    induction m as [|[k0 v0] t IH]; cbn [fm_set fm_get]; [reflexivity|].
    destruct (N.ltb_spec k' k0) as [L|L]; cbn [fm_get]; [reflexivity|].
    destruct (N.eqb_spec k' k0) as [E|E]; cbn [fm_get].
    - subst. destruct (N.eqb_spec k k0); reflexivity.
    - rewrite IH. destruct (N.eqb_spec k k0) as [E0|E0]; [|reflexivity].
      destruct (N.eqb_spec k k'); [congruence|reflexivity].
  Qed.

  Lemma sorted_head_notin k v t : sorted ((k, v) :: t) -> ~ In k (keys t).
  Proof. intros [F _] I. specialize (F k I). lia. Qed.

  Lemma sorted_nodup m : sorted m -> NoDup (map fst m).
  Proof.
    induction m as [|[k v] t IH]; intros S; cbn [map fst]; [constructor|].
    constructor; [apply (sorted_head_notin _ _ _ S)|apply IH, S].
  Qed.

  Lemma get_del m k k' : sorted m -> fm_get k (fm_del k' m) = if N.eqb k k' then None else fm_get k m.
  Proof.
    induction m as [|[k0 v0] t IH]; intros S; cbn [fm_del fm_get].
    - destruct (N.eqb k k'); reflexivity.
    - pose proof (sorted_head_notin _ _ _ S) as NI. destruct S as [F S].
      destruct (N.eqb_spec k' k0) as [E|E]; cbn [fm_get].
      + subst. destruct (N.eqb_spec k k0) as [E0|E0]; [|reflexivity].
        subst. apply get_none, NI.
      + rewrite (IH S). destruct (N.eqb_spec k k0) as [E0|E0]; [|reflexivity].
        destruct (N.eqb_spec k k'); [congruence|reflexivity].
  Qed.

  Lemma in_set m k v e : In e (fm_set k v m) -> e = (k, v) \/ In e m.
  Proof.
    induction m as [|[k0 v0] t IH]; cbn [fm_set]; intros H.
    - destruct H as [H|[]]. left. congruence.
    - destruct (N.ltb_spec k k0) as [L|L].
      + destruct H as [H|H]; [left; congruence|right; exact H].
      + destruct (N.eqb_spec k k0) as [E|E].
        * destruct H as [H|H]; [left; congruence|right; right; exact H].
        * destruct H as [H|H]; [right; left; exact H|].
          destruct (IH H) as [H'|H']; [left; exact H'|right; right; exact H'].
  Qed.

  Lemma in_del m k e : In e (fm_del k m) -> In e m.
  Proof.
    induction m as [|[k0 v0] t IH]; cbn [fm_del]; intros H; [exact H|].
    destruct (N.eqb_spec k k0) as [E|E]; [right; exact H|].
    destruct H as [H|H]; [left; exact H|right; apply IH, H].
  Qed.

  Lemma keys_set m k v x : In x (keys (fm_set k v m)) -> x = k \/ In x (keys m).
  Proof.
    intros H. apply in_map_iff in H as (e & <- & H).
    destruct (in_set _ _ _ _ H) as [->|H']; [left; reflexivity|right; apply in_map, H'].
  Qed.

  Lemma keys_del m k x : In x (keys (fm_del k m)) -> In x (keys m).
  Proof. intros H. apply in_map_iff in H as (e & <- & H). apply in_map, (in_del _ _ _ H). Qed.

  Lemma sorted_set m k v : sorted m -> sorted (fm_set k v m).
  Proof.
    induction m as [|[k0 v0] t IH]; intros S; cbn [fm_set].
    - cbn. split; [intros ? []|exact I].
    - destruct S as [F S]. destruct (N.ltb_spec k k0) as [L|L].
      + cbn [sorted]. split; [|split; assumption].
        intros x Hx. cbn [keys map fst] in Hx. destruct Hx as [<-|Hx]; [exact L|].
        specialize (F x Hx). lia.
      + destruct (N.eqb_spec k k0) as [E|E].
        * subst. cbn [sorted]. split; assumption.
        * cbn [sorted]. split; [|apply IH, S].
          intros x Hx. apply keys_set in Hx. destruct Hx as [->|Hx]; [lia|apply F, Hx].
  Qed.

  Lemma sorted_del m k : sorted m -> sorted (fm_del k m).
  Proof.
    induction m as [|[k0 v0] t IH]; intros S; cbn [fm_del]; [exact S|].
    destruct S as [F S]. destruct (N.eqb_spec k k0) as [E|E]; [exact S|].
    cbn [sorted]. split; [|apply IH, S].
    intros x Hx. apply keys_del in Hx. apply F, Hx.
  Qed.

  (** canonicity: a sorted map is determined by its lookups *)
  Lemma fmap_ext m1 : forall m2, sorted m1 -> sorted m2 ->
    (forall k, fm_get k m1 = fm_get k m2) -> m1 = m2.
  Proof.
    induction m1 as [|[k1 v1] t1 IH]; intros [|[k2 v2] t2] S1 S2 H.
    - reflexivity.
    - specialize (H k2). cbn [fm_get] in H. rewrite N.eqb_refl in H. discriminate.
    - specialize (H k1). cbn [fm_get] in H. rewrite N.eqb_refl in H. discriminate.
    - pose proof (sorted_head_notin _ _ _ S1) as N1. pose proof (sorted_head_notin _ _ _ S2) as N2.
      destruct S1 as [F1 S1]. destruct S2 as [F2 S2].
      assert (k1 = k2) as ->.
      { pose proof (H k1) as A. pose proof (H k2) as B. cbn [fm_get] in A, B.
        rewrite N.eqb_refl in A, B.
        destruct (N.eqb_spec k1 k2) as [E|E]; [exact E|].
        destruct (N.eqb_spec k2 k1) as [E'|E']; [congruence|].
        symmetry in A. apply get_in in A. apply get_in in B.
        specialize (F2 _ A). specialize (F1 _ B). lia. }
      assert (v1 = v2) as ->.
      { specialize (H k2). cbn [fm_get] in H. rewrite N.eqb_refl in H. congruence. }
      f_equal. apply IH; [assumption|assumption|].
      intros k. destruct (N.eq_dec k k2) as [->|D].
      + rewrite (get_none _ _ N1), (get_none _ _ N2). reflexivity.
      + specialize (H k). cbn [fm_get] in H.
        destruct (N.eqb_spec k k2); [congruence|exact H].
  Qed.

  (** Updates that rebind one key each, described by lookup ([val m x] is what [u m x] binds [key x] to), commute
      at different keys when what the one binds does not depend on the other: as maps, hence — canonicity — as lists. *)
  Lemma upd_comm {X} (u : fmap V -> X -> fmap V) (key : X -> N) (val : fmap V -> X -> option V) :
    (forall m x, sorted m -> sorted (u m x)) ->
    (forall m x k, sorted m -> fm_get k (u m x) = if N.eqb k (key x) then val m x else fm_get k m) ->
    (forall m x y, sorted m -> key x <> key y -> val (u m y) x = val m x) ->
    forall m x y, sorted m -> key x <> key y -> u (u m x) y = u (u m y) x.
  Proof.
    intros Pres Get Ind m x y S D. apply fmap_ext; [apply Pres, Pres, S|apply Pres, Pres, S|].
    intros k. rewrite !Get by (try apply Pres; exact S).
    rewrite (Ind m y x S) by congruence. rewrite (Ind m x y S D).
    destruct (N.eqb_spec k (key y)), (N.eqb_spec k (key x)); congruence.
  Qed.

  Lemma set_set_comm m k1 v1 k2 v2 : sorted m -> k1 <> k2 ->
    fm_set k2 v2 (fm_set k1 v1 m) = fm_set k1 v1 (fm_set k2 v2 m).
  Proof.
    intros S D.
    apply (upd_comm (fun m x => fm_set (fst x) (snd x) m) fst (fun _ x => Some (snd x))) with (x := (k1, v1)) (y := (k2, v2));
      auto using sorted_set, get_set.
  Qed.

  Lemma set_set_same m k v1 v2 : sorted m -> fm_set k v2 (fm_set k v1 m) = fm_set k v2 m.
  Proof.
    intros S. apply fmap_ext; [repeat apply sorted_set; exact S|apply sorted_set; exact S|].
    intros x. rewrite !get_set. destruct (N.eqb_spec x k); reflexivity.
  Qed.
End FMapFacts.

Lemma existsb_in x l : existsb (N.eqb x) l = true <-> In x l.
Proof.
  rewrite existsb_exists. split.
  - intros (y & I & E). apply N.eqb_eq in E. subst. exact I.
  - intros I. exists x. split; [exact I|apply N.eqb_refl].
Qed.

Lemma fold_left_perm {A B} (f : A -> B -> A) (key : B -> N) (P : A -> Prop) :
  (forall a x, P a -> P (f a x)) ->
  (forall a x y, P a -> key x <> key y -> f (f a x) y = f (f a y) x) ->
  forall l l', Permutation l l' -> NoDup (map key l) ->
  forall a, P a -> fold_left f l a = fold_left f l' a.
Proof.
  intros Pres Comm l l' Perm.
  induction Perm as [|x l l' Perm IH|x y l|l l' l'' P1 IH1 P2 IH2]; intros ND a Pa.
  - reflexivity.
  - cbn [fold_left]. apply NoDup_cons_iff in ND as [_ ND]. apply IH; [exact ND|apply Pres, Pa].
  - cbn [fold_left]. apply NoDup_cons_iff in ND as [NI _].
    rewrite (Comm a y x Pa); [reflexivity|]. intros E. apply NI. left. symmetry. exact E.
  - rewrite (IH1 ND a Pa). apply IH2; [|exact Pa].
    eapply Permutation_NoDup; [apply Permutation_map; exact P1|exact ND].
Qed.

(** the same when every pair commutes (no distinctness needed) *)
Lemma fold_left_perm_all {A B} (f : A -> B -> A) (P : A -> Prop) :
  (forall a x, P a -> P (f a x)) ->
  (forall a x y, P a -> f (f a x) y = f (f a y) x) ->
  forall l l', Permutation l l' -> forall a, P a -> fold_left f l a = fold_left f l' a.
Proof.
  intros Pres Comm l l' Perm.
  induction Perm as [|x l l' Perm IH|x y l|l l' l'' P1 IH1 P2 IH2]; intros a Pa.
  - reflexivity.
  - cbn [fold_left]. apply IH, Pres, Pa.
  - cbn [fold_left]. rewrite (Comm a y x Pa). reflexivity.
  - rewrite (IH1 a Pa). apply IH2, Pa.
Qed.

Lemma fold_left_pres {A B} (f : A -> B -> A) (P : A -> Prop) :
  (forall a x, P a -> P (f a x)) -> forall l a, P a -> P (fold_left f l a).
Proof. intros Pres l. induction l as [|x t IH]; intros a Pa; cbn [fold_left]; [exact Pa|apply IH, Pres, Pa]. Qed.
