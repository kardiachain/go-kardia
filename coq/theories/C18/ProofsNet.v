(** C18 — the PEX address decoder (limits of the port field, round trip) and the
    HeightVoteSet round bookkeeping (SetRound after peers have opened rounds never panics). *)
From Coq Require Import List ZArith NArith Bool Lia.
From Kardia Require Import C18.Model Generated.C18Facts.
Import ListNotations.
Local Open Scope Z_scope.

Definition addr_wf (a : bool * Z) : Prop := fst a = true /\ 0 <= snd a <= max_port.

Lemma addr_roundtrip : forall port, 0 <= port <= max_port -> addr_from_proto (addr_to_proto port) = Some port.
Proof.
  intros port H. unfold addr_from_proto, addr_to_proto, port_ok, max_port in *. cbn [fst snd negb].
  destruct (port <? 65536) eqn:E; [|apply Z.ltb_ge in E; lia].
  f_equal. apply Z.mod_small. lia.
Qed.

Lemma addr_from_proto_some : forall a, addr_wf a -> addr_from_proto a = Some (snd a).
Proof.
  intros [ok port] [H1 H2]. cbn in *. subst ok. apply (addr_roundtrip port H2).
Qed.

Lemma addr_from_proto_inv : forall a p, 0 <= snd a -> addr_from_proto a = Some p -> addr_wf a /\ p = snd a.
Proof.
  intros [ok port] p Hp. unfold addr_from_proto, port_ok, addr_wf, max_port. cbn [fst snd].
  destruct ok; cbn [negb]; [|discriminate].
  destruct (port <? 65536) eqn:E; [|discriminate].
  apply Z.ltb_lt in E. cbn in Hp. intros H. inversion H. rewrite Z.mod_small by lia. split; [split; [reflexivity|lia]|reflexivity].
Qed.

Lemma addrs_from_proto_wf : forall l, Forall addr_wf l -> addrs_from_proto l = Some (map snd l).
Proof.
  induction l as [|a t IH]; intros H; [reflexivity|].
  inversion H as [|? ? Ha Ht]; subst. cbn [addrs_from_proto map].
  rewrite (addr_from_proto_some a Ha), (IH Ht). reflexivity.
Qed.

Lemma addrs_from_proto_inv : forall l r, Forall (fun a => 0 <= snd a) l -> addrs_from_proto l = Some r -> Forall addr_wf l.
Proof.
  induction l as [|a t IH]; intros r Hp H; [constructor|].
  inversion Hp as [|? ? Hpa Hpt]; subst. cbn [addrs_from_proto] in H.
  destruct (addr_from_proto a) as [p|] eqn:Ea; [|discriminate].
  destruct (addrs_from_proto t) as [r'|] eqn:Et; [|discriminate].
  constructor; [exact (proj1 (addr_from_proto_inv a p Hpa Ea))|exact (IH r' Hpt eq_refl)].
Qed.

(** a list is taken exactly when it was asked for and every address is well-formed (the wire port
    is a uint32: non-negative) *)
Lemma pex_addrs_accepted_iff : forall l sol, Forall (fun a => 0 <= snd a) l ->
    (pex_receive (PAddrs l sol) = ShAcc <-> sol = true /\ Forall addr_wf l).
Proof.
  intros l sol Hp. cbn [pex_receive]. split.
  - destruct (addrs_from_proto l) as [r|] eqn:E; [|discriminate].
    destruct sol; [|discriminate]. intros _. split; [reflexivity|exact (addrs_from_proto_inv l r Hp E)].
  - intros [Hs Hw]. subst sol. rewrite (addrs_from_proto_wf l Hw). reflexivity.
Qed.

Lemma pex_never_else : forall m, pex_receive m = ShRej \/ pex_receive m = ShAcc \/ pex_receive m = ShRun.
Proof.
  destruct m as [| |l sol]; cbn; auto. destruct (addrs_from_proto l); [destruct sol|]; auto.
Qed.

(** the highest port is a port *)
Example pex_port_65535 : pex_receive (PAddrs [(true, 65535); (true, 26656)] true) = ShAcc.
Proof. reflexivity. Qed.
Example pex_port_65536 : pex_receive (PAddrs [(true, 26656); (true, 65536)] true) = ShRej.
Proof. reflexivity. Qed.

Definition hvs_inv (h : HVS) : Prop := 1 <= hv_round h < two32.

(** what enterNewRound guarantees about the argument of SetRound: never more than one below
    hvs.round, at least 1, and not the value at which the uint32 loop counter wraps *)
Definition hvs_pre (h : HVS) (o : hvs_op) : Prop :=
  match o with
  | HAdd _ _ _ => True
  | HSet round => 1 <= round < two32 - 1 /\ (hv_round h = 1 \/ hv_round h - 1 <= round)
  end.

(** whole histories: votes of any peers for any rounds interleaved with round changes *)
Fixpoint hvs_run (h : HVS) (ops : list hvs_op) : res HVS :=
  match ops with
  | [] => Ok h
  | o :: t => do h' <- hvs_step h o; hvs_run h' t
  end.

(** the discipline of the caller, along the history *)
Fixpoint hvs_disciplined (h : HVS) (ops : list hvs_op) : Prop :=
  match ops with
  | [] => True
  | o :: t => hvs_pre h o /\ forall h', hvs_step h o = Ok h' -> hvs_disciplined h' t
  end.

Lemma zmem_In : forall x l, zmem x l = true <-> In x l.
Proof.
  intros x l. unfold zmem. rewrite existsb_exists. split.
  - intros [y [Hy E]]. apply Z.eqb_eq in E. subst. exact Hy.
  - intros H. exists x. split; [exact H|apply Z.eqb_refl].
Qed.

(** the loop of SetRound over [n] rounds from [r] never panics, touches neither hvs.round nor the
    catch-up table, and leaves exactly the old rounds and [r .. r+n-1] tracked *)
Lemma hvs_fill_ok : forall n r h, exists h',
    hvs_fill n r h = Ok h' /\ hv_round h' = hv_round h /\ hv_catchup h' = hv_catchup h /\
    (forall q, In q (hv_rounds h) -> In q (hv_rounds h')) /\
    (forall q, r <= q < r + Z.of_nat n -> In q (hv_rounds h')) /\
    (forall q, In q (hv_rounds h') -> In q (hv_rounds h) \/ r <= q < r + Z.of_nat n).
Proof.
  induction n as [|n IH]; intros r h.
  - exists h. cbn [hvs_fill]. repeat split; auto; intros; lia.
  - cbn [hvs_fill]. destruct (zmem r (hv_rounds h)) eqn:E.
    + destruct (IH (r + 1) h) as [h' [H1 [H2 [H3 [H4 [H5 H6]]]]]]. exists h'. repeat split; auto.
      * intros q Hq. destruct (Z.eq_dec q r) as [->|Hne]; [apply H4; apply zmem_In; exact E|apply H5; lia].
      * intros q Hq. destruct (H6 q Hq) as [|]; [left; assumption|right; lia].
    + unfold hvs_add_round. rewrite E. cbn [bind].
      set (h1 := {| hv_round := hv_round h; hv_rounds := r :: hv_rounds h; hv_catchup := hv_catchup h |}).
      destruct (IH (r + 1) h1) as [h' [H1 [H2 [H3 [H4 [H5 H6]]]]]]. exists h'. repeat split; auto.
      * intros q Hq. apply H4. right. exact Hq.
      * intros q Hq. destruct (Z.eq_dec q r) as [->|Hne]; [apply H4; left; reflexivity|apply H5; lia].
      * intros q Hq. destruct (H6 q Hq) as [[<-|Hin]|]; [right; lia|left; exact Hin|right; lia].
Qed.

(** SetRound in the situations enterNewRound creates: no panic, whatever rounds peers have opened;
    afterwards every round from hvs.round-1 (before) to the new round is tracked and nothing is lost *)
Lemma hvs_set_round_ok : forall h round, hvs_inv h -> hvs_pre h (HSet round) ->
    exists h', hvs_set_round h round = Ok h' /\ hvs_inv h' /\ hv_round h' = round /\
      hv_catchup h' = hv_catchup h /\
      (forall q, In q (hv_rounds h) -> In q (hv_rounds h')) /\
      (forall q, hv_round h - 1 <= q <= round -> In q (hv_rounds h')).
Proof.
  intros h round [Hi1 Hi2] Hp. cbn [hvs_pre] in Hp. destruct Hp as [[Hr1 Hr2] Hd]. unfold hvs_set_round.
  assert (Hnr : (hv_round h - 1) mod two32 = hv_round h - 1) by (apply Z.mod_small; lia).
  rewrite Hnr.
  assert (Hg : negb (hv_round h =? 1) && (round <? hv_round h - 1) = false).
  { destruct Hd as [->|Hle]; [reflexivity|]. apply andb_false_iff. right. apply Z.ltb_ge. exact Hle. }
  rewrite Hg.
  assert (Hw : (round =? two32 - 1) = false) by (apply Z.eqb_neq; lia). rewrite Hw.
  destruct (hvs_fill_ok (Z.to_nat (round - (hv_round h - 1) + 1)) (hv_round h - 1) h) as [h1 [H1 [H2 [H3 [H4 [H5 _]]]]]].
  rewrite H1. cbn [bind]. eexists. split; [reflexivity|]. cbn [hv_round hv_rounds hv_catchup].
  split; [unfold hvs_inv; cbn [hv_round]; lia|].
  split; [reflexivity|]. split; [exact H3|]. split; [exact H4|].
  intros q Hq. apply H5.
  destruct Hd as [E|Hle].
  - rewrite E in *. rewrite Z2Nat.id by lia. lia.
  - rewrite Z2Nat.id by lia. lia.
Qed.

(** AddVote never panics: a round is only made when it is missing *)
Lemma hvs_add_vote_ok : forall h t r peer, exists h' c,
    hvs_add_vote h t r peer = Ok (h', c) /\ hv_round h' = hv_round h /\
    (forall q, In q (hv_rounds h) -> In q (hv_rounds h')) /\
    (c = HVVoteSet -> In r (hv_rounds h')).
Proof.
  intros h t r peer. unfold hvs_add_vote.
  destruct (type_valid t); cbn [negb].
  2:{ exists h, HVErrType. repeat split; auto. discriminate. }
  destruct (zmem r (hv_rounds h)) eqn:E.
  { exists h, HVVoteSet. repeat split; auto. intros _. apply zmem_In. exact E. }
  destruct (len (alookup peer (hv_catchup h)) <? 2).
  - unfold hvs_add_round. rewrite E. cbn [bind hv_round hv_rounds hv_catchup].
    eexists. exists HVVoteSet. split; [reflexivity|]. cbn [hv_round hv_rounds]. repeat split; auto.
    + intros q Hq. right. exact Hq.
    + intros _. left. reflexivity.
  - exists h, HVUnwanted. repeat split; auto. discriminate.
Qed.

Lemma hvs_step_ok : forall h o, hvs_inv h -> hvs_pre h o -> exists h', hvs_step h o = Ok h' /\ hvs_inv h'.
Proof.
  intros h [t r peer|round] Hi Hp; cbn [hvs_step].
  - destruct (hvs_add_vote_ok h t r peer) as [h' [c [H1 [H2 _]]]]. rewrite H1. cbn [bind fst].
    exists h'. split; [reflexivity|]. unfold hvs_inv in *. rewrite H2. exact Hi.
  - destruct (hvs_set_round_ok h round Hi Hp) as [h' [H1 [H2 _]]]. exists h'. split; assumption.
Qed.

Lemma hvs_run_ok : forall ops h, hvs_inv h -> hvs_disciplined h ops -> exists h', hvs_run h ops = Ok h' /\ hvs_inv h'.
Proof.
  induction ops as [|o t IH]; intros h Hi Hd.
  - exists h. split; [reflexivity|exact Hi].
  - destruct Hd as [Hp Hn]. destruct (hvs_step_ok h o Hi Hp) as [h1 [H1 H2]].
    cbn [hvs_run]. rewrite H1. cbn [bind]. apply IH; [exact H2|exact (Hn h1 H1)].
Qed.

Lemma hvs_new_inv : hvs_inv hvs_new.
Proof. unfold hvs_inv, hvs_new, two32. cbn. lia. Qed.

(** the node: every observation with hvs.round moved forward by enterNewRound is a legal SetRound *)
Lemma node_observe_ok : forall n h hr, hvs_inv (nh_hvs n) -> 2 <= hr < two32 - 1 ->
    (nh_height n = h -> hv_round (nh_hvs n) - 1 <= hr) ->
    exists n', node_observe n h hr = Ok n' /\ hvs_inv (nh_hvs n') /\ hv_round (nh_hvs n') = hr.
Proof.
  intros n h hr Hi Hr Hm. unfold node_observe.
  (* the set the round change works on: the node's, or a new one for a new height *)
  set (b := if nh_height n =? h then n else {| nh_height := h; nh_hvs := hvs_new |}).
  assert (Hb : hvs_inv (nh_hvs b) /\ (hv_round (nh_hvs b) = 1 \/ hv_round (nh_hvs b) - 1 <= hr)).
  { unfold b. destruct (nh_height n =? h) eqn:E; [|split; [exact hvs_new_inv|left; reflexivity]].
    apply Z.eqb_eq in E. split; [exact Hi|right; exact (Hm E)]. }
  destruct Hb as [Hbi Hbp]. destruct (hv_round (nh_hvs b) =? hr) eqn:E2.
  - apply Z.eqb_eq in E2. exists b. auto.
  - destruct (hvs_set_round_ok (nh_hvs b) hr Hbi) as [h' [H1 [H2 [H3 _]]]]; [split; [lia|exact Hbp]|].
    rewrite H1. cbn [bind]. eexists. split; [reflexivity|]. cbn [nh_hvs]. split; assumption.
Qed.

Lemma node_vote_ok : forall n t h r peer, hvs_inv (nh_hvs n) ->
    exists n', node_vote n t h r peer = Ok n' /\ hvs_inv (nh_hvs n') /\ nh_height n' = nh_height n /\
               hv_round (nh_hvs n') = hv_round (nh_hvs n).
Proof.
  intros n t h r peer Hi. unfold node_vote. destruct (nh_height n =? h).
  - destruct (hvs_add_vote_ok (nh_hvs n) t r peer) as [h' [c [H1 [H2 _]]]]. rewrite H1. cbn [bind fst].
    eexists. split; [reflexivity|]. cbn [nh_hvs nh_height]. unfold hvs_inv in *. rewrite H2. auto.
  - exists n. auto.
Qed.

(** the situation of seeded breakage a1, as a closed example: a peer's vote opens round 3 while the
    node tracks rounds up to 2; entering round 2 (SetRound 3) must step over it *)
Example hvs_catchup_then_set_round :
  exists h1 h2 h3, hvs_set_round hvs_new 2 = Ok h1 /\ hvs_add_vote h1 prevote_type 3 7 = Ok (h2, HVVoteSet) /\
                   hvs_set_round h2 3 = Ok h3 /\ hv_rounds h3 = [3; 2; 0; 1].
Proof. do 3 eexists. repeat split; vm_compute; reflexivity. Qed.

(** without the membership test in the loop (the seeded variant) the same history panics *)
Fixpoint hvs_fill_unchecked (n : nat) (r : Z) (h : HVS) : res HVS :=
  match n with
  | O => Ok h
  | S k => do h' <- hvs_add_round h r; hvs_fill_unchecked k (r + 1) h'
  end.
Example hvs_unchecked_fill_panics :
  hvs_fill_unchecked 1 3 {| hv_round := 2; hv_rounds := [3; 2; 0; 1]; hv_catchup := [(7, [3])] |} = RCrash.
Proof. reflexivity. Qed.
