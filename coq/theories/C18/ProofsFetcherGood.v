(** C18 — the fetcher: the index part of GOOD is kept by Notify, the wait and timeout triggers and
    the deliveries that answer no request; with Drop (ProofsFetcherEmpty.v) that is every event but
    a direct reply. *)
From Coq Require Import List ZArith Bool Lia.
From Kardia Require Import C18.ModelFetcher C18.ProofsFetcher C18.ProofsFetcherDrop C18.ProofsFetcherEmpty Generated.C18Facts.
Import ListNotations.
Local Open Scope Z_scope.

(** GOOD without IC and IA: the index facts *)
Record REST (s : Fetcher) : Prop := {
  r_r1 : R1 s; r_r2 : R2 s; r_w1 : W1 s; r_nw : NW s; r_na : NA s; r_fw : FW s }.

Lemma REST_reads : reads_trackers REST.
Proof.
  intros s s' Ewl Ewt Ews Ean Ead _ _ Eal [H1 H2 Hw Hnw Hna Hfw].
  constructor; unfold R1, R2, W1, NW, NA, FW; rewrite ?Ewl, ?Ewt, ?Ews, ?Ean, ?Ead, ?Eal; assumption.
Qed.

Definition grows (idx idx' : zmap zset) : Prop :=
  forall q hs h, zm_get q idx = Some hs -> In h hs -> exists hs', zm_get q idx' = Some hs' /\ In h hs'.

Lemma indexed_grows : forall tbl idx idx', grows idx idx' -> indexed tbl idx -> indexed tbl idx'.
Proof. intros tbl idx idx' G H h ps p E Hin. destruct (H h ps p E Hin) as [hs [E1 H1]]. exact (G p hs h E1 H1). Qed.

Lemma grows_add : forall k x m, grows m (zm_add_to k x m).
Proof. intros k x m q hs h. apply add_to_keeps. Qed.

(** [p] under [h] and [h] under [p] at once *)
Lemma indexed_add : forall h p tbl idx, indexed tbl idx -> indexed (zm_add_to h p tbl) (zm_add_to p h idx).
Proof.
  intros h p tbl idx H h' ps q E Hin. rewrite get_add_to in E. destruct (h =? h') eqn:Eh.
  - apply Z.eqb_eq in Eh. subst h'. inversion E; subst ps. apply In_zs_add in Hin. destruct Hin as [->|Hin]; [apply add_to_has|].
    destruct (zm_get h tbl) as [a|] eqn:E0; [|destruct Hin]. destruct (H h a q E0 Hin) as [hs [E1 X1]]. exact (grows_add p h idx q hs h E1 X1).
  - destruct (H h' ps q E Hin) as [hs [E1 X1]]. exact (grows_add p h idx q hs h' E1 X1).
Qed.

Lemma indexed_new : forall h p tbl idx, indexed tbl idx -> indexed (zm_set h [p] tbl) (zm_add_to p h idx).
Proof.
  intros h p tbl idx H h' ps q E Hin. destruct (Z.eq_dec h h') as [<-|Hne].
  - rewrite zm_get_set_eq in E. inversion E; subst ps. destruct Hin as [<-|[]]. apply add_to_has.
  - rewrite zm_get_set_ne in E by assumption. destruct (H h' ps q E Hin) as [hs [E1 X1]]. exact (grows_add p h idx q hs h' E1 X1).
Qed.

(** [h] gone from both sides *)
Lemma indexed_purge : forall h tbl idx, indexed tbl idx -> indexed (zm_del h tbl) (zm_purge h idx).
Proof.
  intros h tbl idx H h' ps p E Hin. rewrite get_del_if in E. destruct (h =? h') eqn:Eh; [discriminate|].
  destruct (H h' ps p E Hin) as [hs [E1 X1]]. eapply purge_keeps; [exact E1|exact X1|]. intros ->. now rewrite Z.eqb_refl in Eh.
Qed.

(** a peer that lists nothing can leave the index *)
Lemma indexed_del_empty : forall q tbl idx, (forall hs h, zm_get q idx = Some hs -> ~ In h hs) ->
    indexed tbl idx -> indexed tbl (zm_del q idx).
Proof.
  intros q tbl idx Hno H h ps p E Hin. destruct (H h ps p E Hin) as [hs [E1 X1]].
  destruct (Z.eq_dec q p) as [<-|Hne]; [destruct (Hno hs h E1 X1)|]. rewrite zm_get_del_ne by assumption. eauto.
Qed.

(** the pair ([h], [p]) leaves both sides *)
Lemma indexed_del_pair : forall h p tbl idx, indexed tbl idx -> indexed (zm_del_from_norm h p tbl) (zm_del_from p h idx).
Proof.
  intros h p tbl idx H h' ps q E Hin. apply get_del_from_norm_some in E. destruct (h =? h') eqn:Eh.
  - apply Z.eqb_eq in Eh. subst h'. destruct E as [ps0 [E0 ->]]. apply In_zs_del in Hin. destruct Hin as [Hin Hq].
    destruct (H h ps0 q E0 Hin) as [hs [E1 X1]]. eapply del_from_keeps; [exact E1|exact X1|left; exact Hq].
  - apply Z.eqb_neq in Eh. destruct (H h' ps q E Hin) as [hs [E1 X1]].
    eapply del_from_keeps; [exact E1|exact X1|right; congruence].
Qed.

(** with [h] gone from the table nobody has to list it *)
Lemma indexed_del_key : forall h p tbl idx, indexed tbl idx -> indexed (zm_del h tbl) (zm_del_from p h idx).
Proof.
  intros h p tbl idx H h' ps q E Hin. rewrite get_del_if in E. destruct (h =? h') eqn:Eh; [discriminate|]. apply Z.eqb_neq in Eh.
  destruct (H h' ps q E Hin) as [hs [E1 X1]]. eapply del_from_keeps; [exact E1|exact X1|right; congruence].
Qed.

(** an entry of one table moves to another *)
Lemma indexed_move : forall h a tbl tbl' idx, indexed tbl idx -> indexed tbl' idx -> zm_get h tbl' = Some a ->
    indexed (zm_set h a tbl) idx.
Proof.
  intros h a tbl tbl' idx H H' Ea h' ps q E Hin. rewrite get_set_if in E. destruct (h =? h') eqn:Eh; [|eauto].
  apply Z.eqb_eq in Eh. subst h'. inversion E; subst ps. eauto.
Qed.

Lemma notify_one_REST : forall origin s hash, REST s -> REST (notify_one origin s hash).
Proof.
  intros origin s hash [H1 H2 Hw Hnw Hna Hfw]. unfold notify_one.
  destruct (zm_has hash (f_alternates s)).
  { constructor; try assumption.
    - exact (indexed_grows _ _ _ (grows_add origin hash _) H1).
    - exact (indexed_add hash origin _ _ H2). }
  destruct (zm_has hash (f_announced s)).
  { constructor; try assumption.
    - exact (indexed_add hash origin _ _ H1).
    - exact (indexed_grows _ _ _ (grows_add origin hash _) H2).
    - intros h. fsimp. rewrite get_add_to. destruct (hash =? h); [intros X; inversion X; eapply zs_add_not_nil; eassumption|apply Hna]. }
  destruct (zm_has hash (f_waitlist s)); constructor; try assumption.
  - exact (indexed_add hash origin _ _ Hw).
  - intros h. fsimp. rewrite get_add_to. destruct (hash =? h); [intros X; inversion X; eapply zs_add_not_nil; eassumption|apply Hnw].
  - intros h X. fsimp. unfold zm_has. rewrite get_add_to. destruct (hash =? h); [reflexivity|apply (Hfw h X)].
  - exact (indexed_new hash origin _ _ Hw).
  - intros h. fsimp. destruct (Z.eq_dec hash h) as [<-|Hne]; [rewrite zm_get_set_eq; discriminate|].
    rewrite zm_get_set_ne by assumption. apply Hnw.
  - intros h X. fsimp. fsimp_in X. destruct (Z.eq_dec hash h) as [<-|Hne]; [apply zm_has_set_eq|].
    rewrite zm_has_set_ne by assumption. rewrite zm_has_set_ne in X by assumption. apply (Hfw h X).
Qed.

(** rescheduling keeps REST: origins only move from queued to alternate sets of the same hash *)
Lemma later_REST : forall s s', later s s' -> f_announces s' = f_announces s -> REST s -> REST s'.
Proof.
  intros s s' L A [H1 H2 Hw Hnw Hna Hfw]. constructor.
  - intros h ps p E Hin. destruct (l_sub _ _ L h ps p (or_introl E) Hin) as [ps0 [[E0|E0] Hin0]]; rewrite A; eauto.
  - intros h ps p E Hin. destruct (l_sub _ _ L h ps p (or_intror E) Hin) as [ps0 [[E0|E0] Hin0]]; rewrite A; eauto.
  - intros h ps p E Hin. rewrite (l_wl _ _ L) in E. rewrite (l_ws _ _ L). eauto.
  - intros h. rewrite (l_wl _ _ L). apply Hnw.
  - apply (l_na _ _ L). exact Hna.
  - intros h. rewrite (l_wt _ _ L), (l_wl _ _ L). apply Hfw.
Qed.

Lemma schedule_REST : forall w k s, REST s -> okf True REST (schedule_fetches w k s).
Proof.
  intros w k s H. eapply okf_imp; [apply (schedule_later w k s s), after_sched_refl|].
  intros s' (L & A & _). exact (later_REST s s' L A H).
Qed.

(** what the loop of the wait trigger over the peers [l] waiting for [hash] does to [t] *)
Record WP (hash : Z) (t t' : Fetcher) (l : list Z) : Prop := {
  wp_wl : f_waitlist t' = f_waitlist t; wp_wt : f_waittime t' = f_waittime t;
  wp_ad : f_announced t' = f_announced t; wp_al : f_alternates t' = f_alternates t;
  wp_grow : grows (f_announces t) (f_announces t');
  wp_new : forall p, In p l -> exists hs, zm_get p (f_announces t') = Some hs /\ In hash hs;
  wp_ws : forall q hs h, zm_get q (f_waitslots t) = Some hs -> In h hs -> h <> hash ->
                         exists hs', zm_get q (f_waitslots t') = Some hs' /\ In h hs' }.

Lemma wait_peer_WP : forall hash l t (a : zset), WP hash t (fst (fold_left (wait_peer hash) l (t, a))) l.
Proof.
  intros hash l. induction l as [|p r IH]; intros t a; cbn [fold_left].
  - constructor; try reflexivity; [intros q hs h E Hin; eauto|intros p []|intros q hs h E Hin _; eauto].
  - unfold wait_peer at 2.
    set (t1 := w_waitslots (zm_del_from_norm p hash (f_waitslots t)) (w_announces (zm_add_to p hash (f_announces t)) t)).
    specialize (IH t1 (zs_add p a)). destruct IH as [A B C D G N W].
    assert (G1 : grows (f_announces t) (f_announces t1)) by apply grows_add.
    constructor; try (etransitivity; [eassumption|reflexivity]).
    + intros q hs h E Hin. destruct (G1 q hs h E Hin) as [hs1 [E1 H1]]. exact (G q hs1 h E1 H1).
    + intros q [<-|Hin]; [|exact (N q Hin)].
      assert (X : exists hs, zm_get p (f_announces t1) = Some hs /\ In hash hs) by (unfold t1; fsimp; apply add_to_has).
      destruct X as [hs [E1 H1]]. exact (G p hs hash E1 H1).
    + intros q hs h E Hin Hne.
      assert (X : exists hs1, zm_get q (f_waitslots t1) = Some hs1 /\ In h hs1)
        by (unfold t1; fsimp; eapply del_from_norm_keeps; [exact E|exact Hin|right; exact Hne]).
      destruct X as [hs1 [E1 H1]]. exact (W q hs1 h E1 H1 Hne).
Qed.

Lemma wait_one_REST : forall s (a : zset) hash, REST s -> okf True REST (fst (wait_one (FOk s, a) hash)).
Proof.
  intros s a hash H. unfold wait_one.
  destruct (zm_get hash (f_waittime s)) as [inst|] eqn:Et; [|exact H].
  destruct (arrive_timeout <? _); [|exact H].
  destruct (zm_has hash (f_announced s)) eqn:Ead; [exact I|].
  destruct H as [H1 H2 Hw Hnw Hna Hfw].
  assert (Hwl : zm_has hash (f_waitlist s) = true) by (apply Hfw; apply zm_has_get; eauto).
  apply zm_has_get in Hwl. destruct Hwl as [peers Ep]. rewrite Ep.
  set (s1 := w_announced (zm_set hash peers (f_announced s)) s).
  match goal with |- context [fold_left (wait_peer hash) peers ?acc] =>
    pose proof (wait_peer_WP hash peers s1 a) as W;
    change (fold_left (wait_peer hash) peers acc) with (fold_left (wait_peer hash) peers (s1, a)) end.
  destruct (fold_left (wait_peer hash) peers (s1, a)) as [s2 act]. cbn [fst] in *.
  destruct W as [A B C D G N Ws]. cbn [okf]. constructor.
  - intros h ps p E Hin. fsimp_in E. fsimp. rewrite C in E. unfold s1 in E. fsimp_in E.
    destruct (Z.eq_dec hash h) as [<-|Hne].
    + rewrite zm_get_set_eq in E. inversion E; subst ps. exact (N p Hin).
    + rewrite zm_get_set_ne in E by assumption. destruct (H1 h ps p E Hin) as [hs [E1 X1]]. exact (G p hs h E1 X1).
  - intros h ps p E Hin. fsimp_in E. fsimp. rewrite D in E. destruct (H2 h ps p E Hin) as [hs [E1 X1]]. exact (G p hs h E1 X1).
  - intros h ps p E Hin. fsimp_in E. fsimp. rewrite A in E.
    destruct (Z.eq_dec hash h) as [<-|Hne]; [rewrite zm_get_del_eq in E; discriminate|].
    rewrite zm_get_del_ne in E by assumption. destruct (Hw h ps p E Hin) as [hs [E1 X1]].
    apply (Ws p hs h E1 X1). congruence.
  - intros h. fsimp. rewrite A. destruct (Z.eq_dec hash h) as [<-|Hne]; [rewrite zm_get_del_eq; discriminate|].
    rewrite zm_get_del_ne by assumption. apply Hnw.
  - intros h. fsimp. rewrite C. unfold s1. fsimp. destruct (Z.eq_dec hash h) as [<-|Hne].
    + rewrite zm_get_set_eq. intros X. inversion X; subst peers. exact (Hnw hash Ep).
    + rewrite zm_get_set_ne by assumption. apply Hna.
  - intros h. fsimp. rewrite A, B. destruct (Z.eq_dec hash h) as [<-|Hne]; [rewrite zm_has_del_eq; discriminate|].
    rewrite !zm_has_del_ne by assumption. apply Hfw.
Qed.

Lemma timeout_hash_REST : forall peer stolen s hash, REST s -> okf True REST (timeout_hash peer stolen s hash).
Proof.
  intros peer stolen s hash H. unfold timeout_hash.
  destruct (zs_mem hash stolen); [exact H|].
  destruct (zm_has hash (f_announced s)); [exact I|].
  destruct H as [H1 H2 Hw Hnw Hna Hfw]. cbn [okf].
  (* the alternates of the hash go back to the queue, then the peer leaves them *)
  set (s1 := match zm_get hash (f_alternates s) with Some a => w_announced (zm_set hash a (f_announced s)) s | None => s end).
  assert (K : forall T (g : Fetcher -> T), (forall v s, g (w_announced v s) = g s) -> g s1 = g s)
    by (intros T g Hg; unfold s1; destruct (zm_get hash (f_alternates s)); [apply Hg|reflexivity]).
  assert (Q : indexed (f_announced s1) (f_announces s) /\ forall h, hash <> h -> zm_get h (f_announced s1) = zm_get h (f_announced s)).
  { unfold s1. destruct (zm_get hash (f_alternates s)) as [a|] eqn:Ea; [|split; [exact H1|reflexivity]].
    split; [exact (indexed_move hash a _ _ _ H1 H2 Ea)|intros h Hne; now apply zm_get_set_ne]. }
  destruct Q as [Q1 Q2].
  constructor; unfold R1, R2, W1, NW, NA, FW; fsimp;
    rewrite ?(K _ f_announces), ?(K _ f_alternates), ?(K _ f_waitlist), ?(K _ f_waittime), ?(K _ f_waitslots) by reflexivity;
    try assumption.
  - exact (indexed_del_pair hash peer _ _ Q1).
  - exact (indexed_del_key hash peer _ _ H2).
  - intros h. destruct (Z.eq_dec hash h) as [<-|Hne]; [apply del_from_norm_key_nonempty|].
    rewrite get_del_from_norm_ne, Q2 by assumption. apply Hna.
Qed.

Lemma timeout_req_REST : forall s peer, REST s -> okf True REST (timeout_req s peer).
Proof.
  intros s peer H. unfold timeout_req.
  destruct (zm_get peer (f_requests s)) as [req|]; [|exact H].
  destruct (fetch_timeout <? _); [|exact H].
  apply okf_bind; [apply okf_ffold; [apply timeout_hash_REST|exact H]|].
  intros s1 [H1 H2 Hw Hnw Hna Hfw]. cbn [okf].
  destruct (set_len peer (f_announces s1) =? 0) eqn:El; [|constructor; assumption].
  apply Z.eqb_eq in El.
  assert (Hno : forall hs h, zm_get peer (f_announces s1) = Some hs -> ~ In h hs).
  { intros hs h E Hin. unfold set_len in El. rewrite E in El. destruct hs; [destruct Hin|]. unfold zlen in El. cbn [length] in El. lia. }
  constructor; try assumption; [exact (indexed_del_empty peer _ _ Hno H1)|exact (indexed_del_empty peer _ _ Hno H2)].
Qed.

Lemma purge_nonempty : forall x (m : zmap zset) h, zm_get h (zm_purge x m) <> Some [].
Proof. intros x m h E. destruct (purge_sub x h m [] E) as [N _]. apply N. reflexivity. Qed.

Lemma cleanup_hash_REST : forall origin direct s hash, REST s -> okf True REST (cleanup_hash origin direct s hash).
Proof.
  intros origin direct s hash [H1 H2 Hw Hnw Hna Hfw]. unfold cleanup_hash.
  assert (Hdel : forall m : zmap zset, (forall h, zm_get h m <> Some []) -> forall h, zm_get h (zm_del hash m) <> Some []).
  { intros m Hm h. rewrite get_del_if. destruct (hash =? h); [discriminate|apply Hm]. }
  destruct (zm_has hash (f_waitlist s)).
  - cbn [okf]. constructor; try assumption.
    + exact (indexed_purge hash _ _ Hw).
    + exact (Hdel _ Hnw).
    + intros h. unfold zm_has. fsimp. rewrite !get_del_if. destruct (hash =? h); [discriminate|apply Hfw].
  - assert (R : REST (w_alternates (zm_del hash (f_alternates s))
                        (w_announced (zm_del hash (f_announced s)) (w_announces (zm_purge hash (f_announces s)) s)))).
    { constructor; try assumption.
      - exact (indexed_purge hash _ _ H1).
      - exact (indexed_purge hash _ _ H2).
      - exact (Hdel _ Hna). }
    destruct R as [A B C D E F]. fsimp.
    destruct (zm_get hash (f_fetching s)) as [o|]; [|constructor; assumption].
    destruct (negb (o =? origin) || negb direct); [|constructor; assumption].
    destruct (zm_get o (f_requests s)); [constructor; assumption|exact I].
Qed.

(** every event except a direct reply (whose partial-delivery path needs the stage-disjointness
    facts as well) keeps the index facts *)
Definition not_direct (e : fev) : Prop := match e with EEnqueue _ _ true => False | _ => True end.

Lemma REST_of_GOOD : forall s, GOOD s -> REST s.
Proof. intros s G. constructor; [exact (g_r1 s G)|exact (g_r2 s G)|exact (g_w1 s G)|exact (g_nw s G)|exact (g_na s G)|exact (g_fw s G)]. Qed.

Lemma fstep_GOOD : forall k s e, not_direct e -> GOOD s ->
    match fstep k s e with FOk s' => GOOD s' | FCrash => True end.
Proof.
  intros k s e Hnd G.
  pose proof (fstep_IC k s e (g_ic s G)) as Hc. pose proof (fstep_IA k s e (g_ia s G)) as Ha.
  assert (Hr : okf True REST (fstep k s e)).
  { pose proof (REST_of_GOOD s G) as R. destruct e as [p hs|p txs direct|p|d]; cbn [fstep].
    - destruct (notify_filter s hs); [exact R|].
      apply ev_notify_ok; [exact REST_reads|exact schedule_REST|exact notify_one_REST|exact R].
    - destruct direct; [destruct Hnd|]. apply ev_broadcast_ok; [exact cleanup_hash_REST|].
      apply enqueue_pool_ok; [exact REST_reads|exact R].
    - destruct (ev_drop p k s) as [s'|] eqn:E; [|exact I]. destruct (ev_drop_good p k s s' G E) as [G' _]. apply REST_of_GOOD. exact G'.
    - apply ev_advance_ok; [exact REST_reads|exact schedule_REST|exact wait_one_REST|exact timeout_req_REST|exact R]. }
  destruct (fstep k s e) as [s'|]; [|exact I]. cbn in Hc, Ha, Hr. destruct Hr as [A B C D E F].
  constructor; assumption.
Qed.
