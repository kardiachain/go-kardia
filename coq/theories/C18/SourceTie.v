(** C18 — tie of the model's validators, bounds and limits to the Go SOURCE.
    [Generated/C18Source.v] is produced on every check by /verif/go2coq from /repo's working tree
    (spec go2coq/specs/C18.json): every guard / integer expression / single-atom condition / field
    store / loop header / switch arm of the message validators (consensus/manager.go ValidateBasic
    methods, MsgFromProto, types Vote/Proposal/Part/PartSetHeader/BlockID, merkle proof, bit array),
    of ConsensusManager.Receive and the PeerState handlers, HeightVoteSet (SetRound / addRound /
    AddVote), the bit-array operations, the block-sync ValidateMsg / Receive, the tx-pool decoder and
    reactor, the whole TxFetcher (Notify / Enqueue / Drop / loop / timers / scheduleFetches), the
    evidence and PEX reactors, NetAddressFromProto, the connection's recvPacketMsg and SigToPub.
    Part 1 states that the MODEL (Model.v, ModelFetcher.v) computes exactly these expressions on
    these operands; part 2 pins every translated expression and every operand list, also of the code
    the model abstracts.  An edit of a guard, an operand, a constant, a loop header or a store in the
    Go source changes the generated file and re-opens these obligations. *)
From Coq Require Import List ZArith NArith Bool Lia String.
From Kardia Require Import Base.Int64 Base.GoSem Base.Conj.
From Kardia Require Import Generated.C18Source.
From Kardia Require Import Generated.C18Facts C18.Model C18.ModelFetcher.
Import ListNotations.
Local Open Scope Z_scope.

(** a condition that is a single atom: the atom is pinned, and its polarity *)
Definition pinned1 (f : bool -> bool) (atoms : list string) (positive : bool) (a : string) : Prop :=
  atoms = [a] /\ forall b, f b = if positive then b else negb b.

Definition u64 (z : Z) : Prop := 0 <= z < 18446744073709551616.
Definition u32 (z : Z) : Prop := 0 <= z < 4294967296.

(** * Part 1: the model's expressions are the source's.  The ties that [C18_source_tie_statement]
    collects are proved with it, at the end of the file; the others stand here. *)

(** ** constants *)
Lemma src_consts :
  consensus__StateChannel = chan_state /\ consensus__DataChannel = chan_data /\ consensus__VoteChannel = chan_vote /\
  consensus__VoteSetBitsChannel = chan_vsb /\ consensus__maxMsgSize = max_msg_size /\
  types__MaxBlockPartsCount = max_block_parts_count /\ types__MaxVotesCount = max_votes_count /\
  types__BlockPartSizeBytes = block_part_size_bytes /\ blockchain__MaxMsgSize = bc_max_msg_size /\
  lib_merkle__Size = merkle_size /\
  mainchain_fetcher__maxTxAnnounces = max_tx_announces /\ mainchain_fetcher__maxTxRetrievals = max_tx_retrievals /\
  mainchain_fetcher__txArriveTimeout = tx_arrive_timeout_ms * 1000000 /\
  mainchain_fetcher__txGatherSlack = tx_gather_slack_ms * 1000000 /\ mainchain_fetcher__gatherSlack = tx_gather_slack_ms * 1000000.
Proof. repeat split; reflexivity. Qed.

(** ** ConsensusManager.Receive: the channel switch and the height tests *)
Lemma src_channel_switch ch :
  consensus__ConsensusManager_Receive__case_chID_eq_StateChannel ch = (ch =? chan_state) /\
  consensus__ConsensusManager_Receive__case_chID_eq_DataChannel ch = (ch =? chan_data) /\
  consensus__ConsensusManager_Receive__case_chID_eq_VoteChannel ch = (ch =? chan_vote) /\
  consensus__ConsensusManager_Receive__case_chID_eq_VoteSetBitsChannel ch = (ch =? chan_vsb).
Proof. repeat split; reflexivity. Qed.

(** the node's own array is consulted for a VoteSetBits message of the node's height only *)
Lemma src_vsb_height e h : (e_height e =? h) = consensus__ConsensusManager_Receive__if_height_eq_msg_Height (e_height e) h.
Proof. reflexivity. Qed.

(** EnsureVoteBitArrays(height-1, ...): the model's [e_height e - 1] is the uint64 subtraction *)
Lemma src_height_minus_1 h : 1 <= h -> u64 h -> consensus__ConsensusManager_Receive__arg_height_minus_1 h = h - 1.
Proof. unfold u64, consensus__ConsensusManager_Receive__arg_height_minus_1. intros. gosolve. Qed.

(** ** the validators of the messages (ValidateBasic), as [from_proto] applies them *)

Lemma src_pol_size_zero size : (size =? 0) = consensus__ProposalPOLMessage_ValidateBasic__if_m_ProposalPOL_Size_eq_0 size.
Proof. reflexivity. Qed.

(** PartSetHeader.IsZero and BlockID.IsZero *)
Lemma src_blockid_zero b :
  psh_zero b = types__PartSetHeader_IsZero__ret_psh_Total_eq_0_and_psh_Hash_IsZero (b_total b) (b_pshash_zero b) /\
  bid_zero b = types__BlockID_IsZero__ret_blockID_Hash_IsZero_and_blockID_PartsHeader_IsZero (b_hash_zero b) (psh_zero b).
Proof. split; reflexivity. Qed.

(** Vote.ValidateBasic as [from_proto] applies it *)
Lemma src_vote_validate b siglen :
  (negb (bid_zero b) && negb (bid_complete b))%bool =
    types__Vote_ValidateBasic__if_not_vote_BlockID_IsZero_and_not_vote_BlockID_IsComplete (bid_zero b) (bid_complete b) /\
  (siglen =? 0) = types__Vote_ValidateBasic__if_len_vote_Signature_eq_0 siglen.
Proof. split; reflexivity. Qed.

(** ** PeerState *)
Lemma src_set_has_part p h r :
  (negb (p_height p =? h) || negb (p_round p =? r))%bool =
  consensus__PeerState_SetHasProposalBlockPart__if_ps_PRS_Height_ne_height_or_ps_PRS_Round_ne_round (p_height p) h (p_round p) r.
Proof. reflexivity. Qed.
Lemma src_apply_nvb p h r ic :
  negb (p_height p =? h) = consensus__PeerState_ApplyNewValidBlockMessage__if_ps_PRS_Height_ne_msg_Height (p_height p) h /\
  (negb (p_round p =? r) && negb ic)%bool = consensus__PeerState_ApplyNewValidBlockMessage__if_ps_PRS_Round_ne_msg_Round_and_not_msg_IsCommit (p_round p) r ic.
Proof. split; reflexivity. Qed.
Lemma src_apply_pol p h polr :
  negb (p_height p =? h) = consensus__PeerState_ApplyProposalPOLMessage__if_ps_PRS_Height_ne_msg_Height (p_height p) h /\
  negb (p_polround p =? polr) = consensus__PeerState_ApplyProposalPOLMessage__if_ps_PRS_ProposalPOLRound_ne_msg_ProposalPOLRound (p_polround p) polr.
Proof. split; reflexivity. Qed.
Lemma src_apply_hv p h : negb (p_height p =? h) = consensus__PeerState_ApplyHasVoteMessage__if_ps_PRS_Height_ne_msg_Height (p_height p) h.
Proof. reflexivity. Qed.
Lemma src_pick_vote v : (vs_size v =? 0) = consensus__PeerState_PickVoteToSend__if_votes_Size_eq_0 (vs_size v).
Proof. reflexivity. Qed.

Lemma src_ensure_arrays p h : u64 h ->
  (p_height p =? h) = consensus__PeerState_ensureVoteBitArrays__if_ps_PRS_Height_eq_height (p_height p) h /\
  (p_height p =? as_uint (h + 1)) = consensus__PeerState_ensureVoteBitArrays__if_ps_PRS_Height_eq_height_plus_1 (p_height p) h.
Proof. intros H. split; reflexivity. Qed.

Lemma src_ensure_catchup p h r :
  negb (p_height p =? h) = consensus__PeerState_ensureCatchupCommitRound__if_ps_PRS_Height_ne_height (p_height p) h /\
  (p_ccr p =? r) = consensus__PeerState_ensureCatchupCommitRound__if_ps_PRS_CatchupCommitRound_eq_round (p_ccr p) r /\
  (r =? p_round p) = consensus__PeerState_ensureCatchupCommitRound__if_round_eq_ps_PRS_Round r (p_round p).
Proof. repeat split; reflexivity. Qed.

(** ApplyNewRoundStepMessage: the guards of [apply_nrs] *)
Lemma src_apply_nrs p h r s lcr : u64 (p_height p) ->
  (compare_hrs h r s (p_height p) (p_round p) (p_step p) <=? 0) =
    consensus__PeerState_ApplyNewRoundStepMessage__if_CompareHRS_msg_Height_msg_Round_msg_Step_ps_PRS_Height_ps_PR_3ef4ef0e
      (compare_hrs h r s (p_height p) (p_round p) (p_step p)) /\
  (negb (p_height p =? h) || negb (p_round p =? r))%bool =
    consensus__PeerState_ApplyNewRoundStepMessage__if_psHeight_ne_msg_Height_or_psRound_ne_msg_Round (p_height p) h (p_round p) r /\
  ((p_height p =? h) && negb (p_round p =? r) && (r =? p_ccr p))%bool =
    consensus__PeerState_ApplyNewRoundStepMessage__if_psHeight_eq_msg_Height_and_psRound_ne_msg_Round_and_msg_Roun_329e9b89
      (p_height p) h (p_round p) r (p_ccr p) /\
  negb (p_height p =? h) = consensus__PeerState_ApplyNewRoundStepMessage__if_psHeight_ne_msg_Height (p_height p) h /\
  ((as_uint (p_height p + 1) =? h) && (p_round p =? lcr))%bool =
    consensus__PeerState_ApplyNewRoundStepMessage__if_psHeight_plus_1_eq_msg_Height_and_psRound_eq_msg_LastCommitRound
      (p_height p) h (p_round p) lcr.
Proof. intros H. repeat split; reflexivity. Qed.

(** ** HeightVoteSet *)
Lemma src_hvs_new : hv_round hvs_new = consensus_types__NewHeightVoteSet__put_hvs_round.
Proof. reflexivity. Qed.

(** SetRound: r++ in the loop, and the store of the new round *)
Lemma src_set_round_incr r round : 0 <= r <= round -> round < two32 - 1 ->
  consensus_types__HeightVoteSet_SetRound__set_r_op r = r + 1.
Proof. unfold two32, consensus_types__HeightVoteSet_SetRound__set_r_op. intros. gosolve. Qed.
Lemma src_set_round_put round : consensus_types__HeightVoteSet_SetRound__put_hvs_round round = round.
Proof. reflexivity. Qed.

(** ** BitArray *)
Definition i63 (z : Z) : Prop := -9223372036854775808 <= z < 9223372036854775807 - 63.

(** (bits+63)/64 stays an int64, so neither the sum nor the quotient wraps *)
Lemma words_for_i64 bits : i63 bits -> in_range I64 (Z.quot (bits + 63) 64).
Proof. unfold i63, in_range. intros H. Z.quot_rem_to_equations. lia. Qed.

Lemma src_words_for_copy bits : i63 bits -> words_for bits = lib_common__BitArray_copyBits__arg_bits_plus_63_div_64 bits.
Proof.
  intros H. pose proof (words_for_i64 bits H).
  unfold i63, words_for, lib_common__BitArray_copyBits__arg_bits_plus_63_div_64 in *. gosem. reflexivity.
Qed.

Lemma src_new_bitarray bits : (bits <=? 0) = lib_common__NewBitArray__if_bits_le_0 bits.
Proof. reflexivity. Qed.

(** int(bA.Bits) is [as_int]; the index guard of getIndex *)
Lemma src_as_int u : u64 u -> as_int u = go_conv I64 u.
Proof.
  unfold u64, as_int, two63, two64, go_conv, wrap. intros H.
  destruct (Z.ltb_spec u 9223372036854775808).
  - rewrite Z.mod_small by lia. lia.
  - replace (u + 9223372036854775808) with (u - 9223372036854775808 + 1 * 18446744073709551616) by lia.
    rewrite Z.mod_add by lia. rewrite Z.mod_small by lia. lia.
Qed.
Lemma src_index_guard_get b i : u64 (ba_bits b) ->
  (as_int (ba_bits b) <=? i) = lib_common__BitArray_getIndex__if_i_ge_int_bA_Bits i (ba_bits b).
Proof. intros H. unfold lib_common__BitArray_getIndex__if_i_ge_int_bA_Bits. rewrite <- (src_as_int _ H). symmetry. apply Z.geb_leb. Qed.

(** ValidateBasic (8b6016a): bits <= MaxInt32 *)
Lemma src_ba_valid_bits b : (ba_bits b <=? max_int32) = negb (lib_common__BitArray_ValidateBasic__if_bA_Bits_gt_math_MaxInt32 (ba_bits b)).
Proof.
  unfold lib_common__BitArray_ValidateBasic__if_bA_Bits_gt_math_MaxInt32, max_int32. rewrite Z.gtb_ltb, Z.leb_antisym. reflexivity.
Qed.

(** FromProto: Bits := uint(pb.Bits) *)
Lemma src_from_wbits w : ba_bits (from_wbits (Some w)) = lib_common__BitArray_FromProto__put_bA_Bits (wb_bits w).
Proof. reflexivity. Qed.

(** Sub: which branch *)
Lemma src_sub_branch a o : (ba_bits o <? ba_bits a) = lib_common__BitArray_Sub__if_bA_Bits_gt_o_Bits (ba_bits a) (ba_bits o).
Proof. unfold lib_common__BitArray_Sub__if_bA_Bits_gt_o_Bits. now rewrite Z.gtb_ltb. Qed.

(** ** block sync: ValidateMsg on a NoBlockResponse *)
Lemma src_bc_valid_noblock h : bc_valid (BNoBlock h) = negb (blockchain__ValidateMsg__if_msg_Height_lt_1_2 h).
Proof. apply Z.leb_antisym. Qed.

(** ** tx pool: the other three decoders refuse an empty list as well *)
Lemma src_tx_empty n :
  (n =? 0) = mainchain_tx_pool__decodeMsg__if_len_hashes_eq_0 n /\
  (n =? 0) = mainchain_tx_pool__decodeMsg__if_len_txs_eq_0_2 n /\ (n =? 0) = mainchain_tx_pool__decodeMsg__if_len_hashes_eq_0_2 n.
Proof. repeat split; reflexivity. Qed.

(** ** the tx fetcher (times: the model counts milliseconds, the source nanoseconds) *)
Definition ms (t : Z) : Z := t * 1000000.
Definition tms (t : Z) : Prop := 0 <= t < 1000000000000.

(** Notify: the slots a peer has used *)
Lemma src_announce_used a b : 0 <= a < 4294967296 -> 0 <= b < 4294967296 ->
  mainchain_fetcher__TxFetcher_loop__set_used a b = a + b /\ mainchain_fetcher__TxFetcher_loop__set_want a b = a + b.
Proof. unfold mainchain_fetcher__TxFetcher_loop__set_used, mainchain_fetcher__TxFetcher_loop__set_want. intros. split; gosolve. Qed.
Lemma src_idle_wait (s : Fetcher) :
  is_nil (f_waittime s) = mainchain_fetcher__TxFetcher_loop__set_idleWait (zlen (f_waittime s)).
Proof. unfold mainchain_fetcher__TxFetcher_loop__set_idleWait, zlen. destruct (f_waittime s); reflexivity. Qed.

(** the timers: txArriveTimeout - (now - earliest), txFetchTimeout - (now - earliest) *)
Lemma src_wait_timer now e : tms now -> tms e ->
  ms (arrive_timeout - (now - e)) = mainchain_fetcher__TxFetcher_rescheduleWait__arg_txArriveTimeout_minus_time_Duration_now_minus_earliest (ms now) (ms e).
Proof.
  unfold tms, ms, arrive_timeout, tx_arrive_timeout_ms, mainchain_fetcher__TxFetcher_rescheduleWait__arg_txArriveTimeout_minus_time_Duration_now_minus_earliest.
  intros. gosem. lia.
Qed.
Lemma src_timeout_timer now e : tms now -> tms e ->
  ms (fetch_timeout - (now - e)) =
  mainchain_fetcher__TxFetcher_rescheduleTimeout__arg_txFetchTimeout_minus_time_Duration_now_minus_earliest (ms tx_fetch_timeout_ms) (ms now) (ms e).
Proof.
  unfold tms, ms, fetch_timeout, tx_fetch_timeout_ms, mainchain_fetcher__TxFetcher_rescheduleTimeout__arg_txFetchTimeout_minus_time_Duration_now_minus_earliest.
  intros. gosem. lia.
Qed.

(** the delivery loop: a delivery is "stolen" when the hash is in flight from somebody else or the
    delivery is a broadcast; the partial-delivery cutoff *)
Lemma src_stolen o origin direct :
  (negb (o =? origin) || negb direct)%bool =
  mainchain_fetcher__TxFetcher_loop__if_ok_and_origin_ne_delivery_origin_or_not_delivery_direct true (negb (o =? origin)) direct.
Proof. reflexivity. Qed.
Lemma src_cutoff i c : (i <? c) = mainchain_fetcher__TxFetcher_loop__if_i_lt_cutoff i c.
Proof. reflexivity. Qed.

(** ** PEX and addresses *)
Lemma src_port_atoms :
  lib_p2p__NetAddressFromProto__if_pb_Port_ge_1_shl_16_atoms = ["pb.Port : uint32"]%string /\
  pinned1 lib_p2p__NetAddressFromProto__if_ip_eq_nil lib_p2p__NetAddressFromProto__if_ip_eq_nil_atoms true "ip == nil : untyped bool" /\
  lib_p2p__NetAddressFromProto__bind_ip_atoms = ["net.ParseIP(pb.IP)"]%string /\
  pinned1 lib_p2p_pex__Reactor_ReceiveAddrs__if_not_r_requestsSent_Has_id lib_p2p_pex__Reactor_ReceiveAddrs__if_not_r_requestsSent_Has_id_atoms false "r.requestsSent.Has(id) : bool".
Proof. unfold pinned1. repeat split. Qed.

(** * Part 2: every translated expression and operand list, pinned *)
Definition pins_consensus__MsgFromProto : Prop :=
  pinned1 consensus__MsgFromProto__if_msg_eq_nil consensus__MsgFromProto__if_msg_eq_nil_atoms true "msg == nil : untyped bool" /\
  pinned1 consensus__MsgFromProto__if_err_ne_nil consensus__MsgFromProto__if_err_ne_nil_atoms true "err != nil : untyped bool" /\
  pinned1 consensus__MsgFromProto__if_err_ne_nil_2 consensus__MsgFromProto__if_err_ne_nil_2_atoms true "err != nil : untyped bool" /\
  pinned1 consensus__MsgFromProto__if_err_ne_nil_3 consensus__MsgFromProto__if_err_ne_nil_3_atoms true "err != nil : untyped bool" /\
  pinned1 consensus__MsgFromProto__if_err_ne_nil_4 consensus__MsgFromProto__if_err_ne_nil_4_atoms true "err != nil : untyped bool" /\
  pinned1 consensus__MsgFromProto__if_err_ne_nil_5 consensus__MsgFromProto__if_err_ne_nil_5_atoms true "err != nil : untyped bool" /\
  pinned1 consensus__MsgFromProto__if_err_ne_nil_6 consensus__MsgFromProto__if_err_ne_nil_6_atoms true "err != nil : untyped bool" /\
  pinned1 consensus__MsgFromProto__if_err_ne_nil_7 consensus__MsgFromProto__if_err_ne_nil_7_atoms true "err != nil : untyped bool" /\
  consensus__MsgFromProto__bind_pbPartSetHeader_err_atoms = ["types.PartSetHeaderFromProto(&msg.NewValidBlock.BlockPartSetHeader)"]%string /\
  consensus__MsgFromProto__bind_pbBits_atoms = ["new(common.BitArray)"]%string /\
  consensus__MsgFromProto__bind_pbP_err_atoms = ["types.ProposalFromProto(&msg.Proposal.Proposal)"]%string /\
  consensus__MsgFromProto__bind_pbBits_2_atoms = ["new(common.BitArray)"]%string /\
  consensus__MsgFromProto__bind_parts_err_atoms = ["types.PartFromProto(&msg.BlockPart.Part)"]%string /\
  consensus__MsgFromProto__bind_vote_err_atoms = ["types.VoteFromProto(msg.Vote.Vote)"]%string /\
  consensus__MsgFromProto__bind_bi_err_atoms = ["types.BlockIDFromProto(&msg.VoteSetMaj23.BlockID)"]%string /\
  consensus__MsgFromProto__bind_bi_err_2_atoms = ["types.BlockIDFromProto(&msg.VoteSetBits.BlockID)"]%string /\
  consensus__MsgFromProto__bind_bits_atoms = ["new(common.BitArray)"]%string /\
  consensus__MsgFromProto__bind_err_atoms = ["pb.ValidateBasic()"]%string.
Lemma pins_consensus__MsgFromProto_ok : pins_consensus__MsgFromProto. Proof. hnf; split_all; repeat split. Qed.

Definition pins_consensus__ConsensusManager_Receive : Prop :=
  pinned1 consensus__ConsensusManager_Receive__if_not_conR_IsRunning consensus__ConsensusManager_Receive__if_not_conR_IsRunning_atoms false "conR.IsRunning() : bool" /\
  pinned1 consensus__ConsensusManager_Receive__if_err_ne_nil consensus__ConsensusManager_Receive__if_err_ne_nil_atoms true "err != nil : untyped bool" /\
  pinned1 consensus__ConsensusManager_Receive__if_err_ne_nil_2 consensus__ConsensusManager_Receive__if_err_ne_nil_2_atoms true "err != nil : untyped bool" /\
  pinned1 consensus__ConsensusManager_Receive__if_not_ok consensus__ConsensusManager_Receive__if_not_ok_atoms false "ok : bool" /\
  (forall x1, consensus__ConsensusManager_Receive__case_chID_eq_StateChannel x1 = (Z.eqb x1 32)) /\
  consensus__ConsensusManager_Receive__case_chID_eq_StateChannel_atoms = ["chID : byte"]%string /\
  (forall x1, consensus__ConsensusManager_Receive__case_chID_eq_DataChannel x1 = (Z.eqb x1 33)) /\
  consensus__ConsensusManager_Receive__case_chID_eq_DataChannel_atoms = ["chID : byte"]%string /\
  (forall x1, consensus__ConsensusManager_Receive__case_chID_eq_VoteChannel x1 = (Z.eqb x1 34)) /\
  consensus__ConsensusManager_Receive__case_chID_eq_VoteChannel_atoms = ["chID : byte"]%string /\
  (forall x1, consensus__ConsensusManager_Receive__case_chID_eq_VoteSetBitsChannel x1 = (Z.eqb x1 35)) /\
  consensus__ConsensusManager_Receive__case_chID_eq_VoteSetBitsChannel_atoms = ["chID : byte"]%string /\
  pinned1 consensus__ConsensusManager_Receive__if_err_ne_nil_3 consensus__ConsensusManager_Receive__if_err_ne_nil_3_atoms true "err != nil : untyped bool" /\
  (forall x1 x2, consensus__ConsensusManager_Receive__if_height_ne_msg_Height x1 x2 = (go_neqb x1 x2)) /\
  consensus__ConsensusManager_Receive__if_height_ne_msg_Height_atoms = ["height : uint64"; "msg.Height : uint64"]%string /\
  pinned1 consensus__ConsensusManager_Receive__if_err_ne_nil_4 consensus__ConsensusManager_Receive__if_err_ne_nil_4_atoms true "err != nil : untyped bool" /\
  (forall x1, consensus__ConsensusManager_Receive__case_msg_Type_eq_kproto_PrevoteType x1 = (Z.eqb x1 1)) /\
  consensus__ConsensusManager_Receive__case_msg_Type_eq_kproto_PrevoteType_atoms = ["msg.Type : github.com/kardiachain/go-kardia/proto/kardiachain/types.SignedMsgType"]%string /\
  (forall x1, consensus__ConsensusManager_Receive__case_msg_Type_eq_kproto_PrecommitType x1 = (Z.eqb x1 2)) /\
  consensus__ConsensusManager_Receive__case_msg_Type_eq_kproto_PrecommitType_atoms = ["msg.Type : github.com/kardiachain/go-kardia/proto/kardiachain/types.SignedMsgType"]%string /\
  (forall x1, consensus__ConsensusManager_Receive__let_valSize x1 = x1) /\
  consensus__ConsensusManager_Receive__let_valSize_atoms = ["cs.Validators.Size() : int"]%string /\
  (forall x1, consensus__ConsensusManager_Receive__let_lastCommitSize x1 = x1) /\
  consensus__ConsensusManager_Receive__let_lastCommitSize_atoms = ["cs.LastCommit.Size() : int"]%string /\
  (forall x1, consensus__ConsensusManager_Receive__arg_height_minus_1 x1 = (go_sub U64 x1 1)) /\
  consensus__ConsensusManager_Receive__arg_height_minus_1_atoms = ["height : uint64"]%string /\
  (forall x1 x2, consensus__ConsensusManager_Receive__if_height_eq_msg_Height x1 x2 = (Z.eqb x1 x2)) /\
  consensus__ConsensusManager_Receive__if_height_eq_msg_Height_atoms = ["height : uint64"; "msg.Height : uint64"]%string /\
  (forall x1, consensus__ConsensusManager_Receive__case_msg_Type_eq_kproto_PrevoteType_2 x1 = (Z.eqb x1 1)) /\
  consensus__ConsensusManager_Receive__case_msg_Type_eq_kproto_PrevoteType_2_atoms = ["msg.Type : github.com/kardiachain/go-kardia/proto/kardiachain/types.SignedMsgType"]%string /\
  (forall x1, consensus__ConsensusManager_Receive__case_msg_Type_eq_kproto_PrecommitType_2 x1 = (Z.eqb x1 2)) /\
  consensus__ConsensusManager_Receive__case_msg_Type_eq_kproto_PrecommitType_2_atoms = ["msg.Type : github.com/kardiachain/go-kardia/proto/kardiachain/types.SignedMsgType"]%string /\
  consensus__ConsensusManager_Receive__bind_msg_err_atoms = ["decodeMsg(msgBytes)"]%string /\
  consensus__ConsensusManager_Receive__bind_err_atoms = ["msg.ValidateBasic()"]%string /\
  consensus__ConsensusManager_Receive__bind_err_2_atoms = ["msg.ValidateHeight(initialHeight)"]%string /\
  consensus__ConsensusManager_Receive__bind_err_3_atoms = ["votes.SetPeerMaj23(msg.Round, msg.Type, ps.peer.ID(), msg.BlockID)"]%string /\
  consensus__ConsensusManager_Receive__bind_ourVotes_atoms = ["votes.Prevotes(msg.Round).BitArrayByBlockID(msg.BlockID)"]%string /\
  consensus__ConsensusManager_Receive__bind_ourVotes_2_atoms = ["votes.Precommits(msg.Round).BitArrayByBlockID(msg.BlockID)"]%string /\
  consensus__ConsensusManager_Receive__bind_ourVotes_3_atoms = ["votes.Prevotes(msg.Round).BitArrayByBlockID(msg.BlockID)"]%string /\
  consensus__ConsensusManager_Receive__bind_ourVotes_4_atoms = ["votes.Precommits(msg.Round).BitArrayByBlockID(msg.BlockID)"]%string.
Lemma pins_consensus__ConsensusManager_Receive_ok : pins_consensus__ConsensusManager_Receive. Proof. hnf; split_all; repeat split. Qed.

Definition pins_consensus__NewRoundStepMessage_ValidateBasic : Prop :=
  pinned1 consensus__NewRoundStepMessage_ValidateBasic__if_not_m_Step_IsValid consensus__NewRoundStepMessage_ValidateBasic__if_not_m_Step_IsValid_atoms false "m.Step.IsValid() : bool".
Lemma pins_consensus__NewRoundStepMessage_ValidateBasic_ok : pins_consensus__NewRoundStepMessage_ValidateBasic. Proof. hnf; split_all; repeat split. Qed.

Definition pins_consensus__NewRoundStepMessage_ValidateHeight : Prop :=
  (forall x1 x2, consensus__NewRoundStepMessage_ValidateHeight__if_m_Height_lt_initialHeight x1 x2 = (Z.ltb x1 x2)) /\
  consensus__NewRoundStepMessage_ValidateHeight__if_m_Height_lt_initialHeight_atoms = ["m.Height : uint64"; "initialHeight : uint64"]%string /\
  (forall x1 x2 x3, consensus__NewRoundStepMessage_ValidateHeight__if_m_Height_eq_initialHeight_and_m_LastCommitRound_ne_0 x1 x2 x3 = (andb (Z.eqb x1 x2) (go_neqb x3 0))) /\
  consensus__NewRoundStepMessage_ValidateHeight__if_m_Height_eq_initialHeight_and_m_LastCommitRound_ne_0_atoms = ["m.Height : uint64"; "initialHeight : uint64"; "m.LastCommitRound : uint32"]%string /\
  (forall x1 x2 x3, consensus__NewRoundStepMessage_ValidateHeight__if_m_Height_gt_initialHeight_and_m_LastCommitRound_eq_0 x1 x2 x3 = (andb (Z.gtb x1 x2) (Z.eqb x3 0))) /\
  consensus__NewRoundStepMessage_ValidateHeight__if_m_Height_gt_initialHeight_and_m_LastCommitRound_eq_0_atoms = ["m.Height : uint64"; "initialHeight : uint64"; "m.LastCommitRound : uint32"]%string.
Lemma pins_consensus__NewRoundStepMessage_ValidateHeight_ok : pins_consensus__NewRoundStepMessage_ValidateHeight. Proof. hnf; split_all; repeat split. Qed.

Definition pins_consensus__NewValidBlockMessage_ValidateBasic : Prop :=
  pinned1 consensus__NewValidBlockMessage_ValidateBasic__if_err_ne_nil consensus__NewValidBlockMessage_ValidateBasic__if_err_ne_nil_atoms true "err != nil : untyped bool" /\
  pinned1 consensus__NewValidBlockMessage_ValidateBasic__if_err_ne_nil_2 consensus__NewValidBlockMessage_ValidateBasic__if_err_ne_nil_2_atoms true "err != nil : untyped bool" /\
  (forall x1, consensus__NewValidBlockMessage_ValidateBasic__if_m_BlockParts_Size_eq_0 x1 = (Z.eqb x1 0)) /\
  consensus__NewValidBlockMessage_ValidateBasic__if_m_BlockParts_Size_eq_0_atoms = ["m.BlockParts.Size() : int"]%string /\
  (forall x1 x2, consensus__NewValidBlockMessage_ValidateBasic__if_m_BlockParts_Size_ne_int_m_BlockPartsHeader_Total x1 x2 = (go_neqb x1 (go_conv I64 x2))) /\
  consensus__NewValidBlockMessage_ValidateBasic__if_m_BlockParts_Size_ne_int_m_BlockPartsHeader_Total_atoms = ["m.BlockParts.Size() : int"; "m.BlockPartsHeader.Total : uint32"]%string /\
  (forall x1, consensus__NewValidBlockMessage_ValidateBasic__if_m_BlockParts_Size_gt_types_MaxBlockPartsCount x1 = (Z.gtb x1 1601)) /\
  consensus__NewValidBlockMessage_ValidateBasic__if_m_BlockParts_Size_gt_types_MaxBlockPartsCount_atoms = ["m.BlockParts.Size() : int"]%string /\
  consensus__NewValidBlockMessage_ValidateBasic__bind_err_atoms = ["m.BlockPartsHeader.ValidateBasic()"]%string /\
  consensus__NewValidBlockMessage_ValidateBasic__bind_err_2_atoms = ["m.BlockParts.ValidateBasic()"]%string.
Lemma pins_consensus__NewValidBlockMessage_ValidateBasic_ok : pins_consensus__NewValidBlockMessage_ValidateBasic. Proof. hnf; split_all; repeat split. Qed.

Definition pins_consensus__ProposalPOLMessage_ValidateBasic : Prop :=
  pinned1 consensus__ProposalPOLMessage_ValidateBasic__if_err_ne_nil consensus__ProposalPOLMessage_ValidateBasic__if_err_ne_nil_atoms true "err != nil : untyped bool" /\
  (forall x1, consensus__ProposalPOLMessage_ValidateBasic__if_m_ProposalPOL_Size_eq_0 x1 = (Z.eqb x1 0)) /\
  consensus__ProposalPOLMessage_ValidateBasic__if_m_ProposalPOL_Size_eq_0_atoms = ["m.ProposalPOL.Size() : int"]%string /\
  (forall x1, consensus__ProposalPOLMessage_ValidateBasic__if_m_ProposalPOL_Size_gt_types_MaxVotesCount x1 = (Z.gtb x1 10000)) /\
  consensus__ProposalPOLMessage_ValidateBasic__if_m_ProposalPOL_Size_gt_types_MaxVotesCount_atoms = ["m.ProposalPOL.Size() : int"]%string /\
  consensus__ProposalPOLMessage_ValidateBasic__bind_err_atoms = ["m.ProposalPOL.ValidateBasic()"]%string.
Lemma pins_consensus__ProposalPOLMessage_ValidateBasic_ok : pins_consensus__ProposalPOLMessage_ValidateBasic. Proof. hnf; split_all; repeat split. Qed.

Definition pins_consensus__BlockPartMessage_ValidateBasic : Prop :=
  pinned1 consensus__BlockPartMessage_ValidateBasic__if_err_ne_nil consensus__BlockPartMessage_ValidateBasic__if_err_ne_nil_atoms true "err != nil : untyped bool" /\
  consensus__BlockPartMessage_ValidateBasic__bind_err_atoms = ["m.Part.ValidateBasic()"]%string.
Lemma pins_consensus__BlockPartMessage_ValidateBasic_ok : pins_consensus__BlockPartMessage_ValidateBasic. Proof. hnf; split_all; repeat split. Qed.

Definition pins_consensus__HasVoteMessage_ValidateBasic : Prop :=
  pinned1 consensus__HasVoteMessage_ValidateBasic__if_not_types_IsVoteTypeValid_m_Type consensus__HasVoteMessage_ValidateBasic__if_not_types_IsVoteTypeValid_m_Type_atoms false "types.IsVoteTypeValid(m.Type) : bool".
Lemma pins_consensus__HasVoteMessage_ValidateBasic_ok : pins_consensus__HasVoteMessage_ValidateBasic. Proof. hnf; split_all; repeat split. Qed.

Definition pins_consensus__VoteSetMaj23Message_ValidateBasic : Prop :=
  pinned1 consensus__VoteSetMaj23Message_ValidateBasic__if_not_types_IsVoteTypeValid_m_Type consensus__VoteSetMaj23Message_ValidateBasic__if_not_types_IsVoteTypeValid_m_Type_atoms false "types.IsVoteTypeValid(m.Type) : bool" /\
  pinned1 consensus__VoteSetMaj23Message_ValidateBasic__if_err_ne_nil consensus__VoteSetMaj23Message_ValidateBasic__if_err_ne_nil_atoms true "err != nil : untyped bool" /\
  consensus__VoteSetMaj23Message_ValidateBasic__bind_err_atoms = ["m.BlockID.ValidateBasic()"]%string.
Lemma pins_consensus__VoteSetMaj23Message_ValidateBasic_ok : pins_consensus__VoteSetMaj23Message_ValidateBasic. Proof. hnf; split_all; repeat split. Qed.

Definition pins_consensus__VoteSetBitsMessage_ValidateBasic : Prop :=
  pinned1 consensus__VoteSetBitsMessage_ValidateBasic__if_not_types_IsVoteTypeValid_m_Type consensus__VoteSetBitsMessage_ValidateBasic__if_not_types_IsVoteTypeValid_m_Type_atoms false "types.IsVoteTypeValid(m.Type) : bool" /\
  pinned1 consensus__VoteSetBitsMessage_ValidateBasic__if_err_ne_nil consensus__VoteSetBitsMessage_ValidateBasic__if_err_ne_nil_atoms true "err != nil : untyped bool" /\
  pinned1 consensus__VoteSetBitsMessage_ValidateBasic__if_err_ne_nil_2 consensus__VoteSetBitsMessage_ValidateBasic__if_err_ne_nil_2_atoms true "err != nil : untyped bool" /\
  (forall x1, consensus__VoteSetBitsMessage_ValidateBasic__if_m_Votes_Size_gt_types_MaxVotesCount x1 = (Z.gtb x1 10000)) /\
  consensus__VoteSetBitsMessage_ValidateBasic__if_m_Votes_Size_gt_types_MaxVotesCount_atoms = ["m.Votes.Size() : int"]%string /\
  consensus__VoteSetBitsMessage_ValidateBasic__bind_err_atoms = ["m.BlockID.ValidateBasic()"]%string /\
  consensus__VoteSetBitsMessage_ValidateBasic__bind_err_2_atoms = ["m.Votes.ValidateBasic()"]%string.
Lemma pins_consensus__VoteSetBitsMessage_ValidateBasic_ok : pins_consensus__VoteSetBitsMessage_ValidateBasic. Proof. hnf; split_all; repeat split. Qed.

Definition pins_consensus__PeerState_SetHasProposal : Prop :=
  (forall x1 x2 x3 x4, consensus__PeerState_SetHasProposal__if_ps_PRS_Height_ne_proposal_Height_or_ps_PRS_Round_ne_proposal_Round x1 x2 x3 x4 = (orb (go_neqb x1 x2) (go_neqb x3 x4))) /\
  consensus__PeerState_SetHasProposal__if_ps_PRS_Height_ne_proposal_Height_or_ps_PRS_Round_ne_proposal_Round_atoms = ["ps.PRS.Height : uint64"; "proposal.Height : uint64"; "ps.PRS.Round : uint32"; "proposal.Round : uint32"]%string /\
  pinned1 consensus__PeerState_SetHasProposal__if_ps_PRS_Proposal consensus__PeerState_SetHasProposal__if_ps_PRS_Proposal_atoms true "ps.PRS.Proposal : bool" /\
  pinned1 consensus__PeerState_SetHasProposal__if_ps_PRS_ProposalBlockParts_ne_nil consensus__PeerState_SetHasProposal__if_ps_PRS_ProposalBlockParts_ne_nil_atoms true "ps.PRS.ProposalBlockParts != nil : untyped bool" /\
  (forall x1, consensus__PeerState_SetHasProposal__put_ps_PRS_ProposalPOLRound x1 = x1) /\
  consensus__PeerState_SetHasProposal__put_ps_PRS_ProposalPOLRound_atoms = ["proposal.POLRound : uint32"]%string /\
  consensus__PeerState_SetHasProposal__put_ps_PRS_Proposal_atoms = []%string.
Lemma pins_consensus__PeerState_SetHasProposal_ok : pins_consensus__PeerState_SetHasProposal. Proof. hnf; split_all; repeat split. Qed.

Definition pins_consensus__PeerState_SetHasProposalBlockPart : Prop :=
  (forall x1 x2 x3 x4, consensus__PeerState_SetHasProposalBlockPart__if_ps_PRS_Height_ne_height_or_ps_PRS_Round_ne_round x1 x2 x3 x4 = (orb (go_neqb x1 x2) (go_neqb x3 x4))) /\
  consensus__PeerState_SetHasProposalBlockPart__if_ps_PRS_Height_ne_height_or_ps_PRS_Round_ne_round_atoms = ["ps.PRS.Height : uint64"; "height : uint64"; "ps.PRS.Round : uint32"; "round : uint32"]%string.
Lemma pins_consensus__PeerState_SetHasProposalBlockPart_ok : pins_consensus__PeerState_SetHasProposalBlockPart. Proof. hnf; split_all; repeat split. Qed.

Definition pins_consensus__PeerState_PickVoteToSend : Prop :=
  (forall x1, consensus__PeerState_PickVoteToSend__if_votes_Size_eq_0 x1 = (Z.eqb x1 0)) /\
  consensus__PeerState_PickVoteToSend__if_votes_Size_eq_0_atoms = ["votes.Size() : int"]%string /\
  (forall x1, consensus__PeerState_PickVoteToSend__let_height x1 = x1) /\
  consensus__PeerState_PickVoteToSend__let_height_atoms = ["votes.GetHeight() : uint64"]%string /\
  (forall x1, consensus__PeerState_PickVoteToSend__let_round x1 = x1) /\
  consensus__PeerState_PickVoteToSend__let_round_atoms = ["votes.GetRound() : uint32"]%string /\
  (forall x1, consensus__PeerState_PickVoteToSend__let_signedMsgType x1 = x1) /\
  consensus__PeerState_PickVoteToSend__let_signedMsgType_atoms = ["votes.Type() : github.com/kardiachain/go-kardia/proto/kardiachain/types.SignedMsgType"]%string /\
  (forall x1, consensus__PeerState_PickVoteToSend__let_size x1 = x1) /\
  consensus__PeerState_PickVoteToSend__let_size_atoms = ["votes.Size() : int"]%string /\
  pinned1 consensus__PeerState_PickVoteToSend__if_votes_IsCommit consensus__PeerState_PickVoteToSend__if_votes_IsCommit_atoms true "votes.IsCommit() : bool" /\
  pinned1 consensus__PeerState_PickVoteToSend__if_psVotes_eq_nil consensus__PeerState_PickVoteToSend__if_psVotes_eq_nil_atoms true "psVotes == nil : untyped bool" /\
  pinned1 consensus__PeerState_PickVoteToSend__if_ok consensus__PeerState_PickVoteToSend__if_ok_atoms true "ok : bool" /\
  consensus__PeerState_PickVoteToSend__bind_psVotes_atoms = ["ps.getVoteBitArray(height, round, signedMsgType)"]%string /\
  consensus__PeerState_PickVoteToSend__bind_index_ok_atoms = ["votes.BitArray().Sub(psVotes).PickRandom()"]%string.
Lemma pins_consensus__PeerState_PickVoteToSend_ok : pins_consensus__PeerState_PickVoteToSend. Proof. hnf; split_all; repeat split. Qed.

Definition pins_consensus__PeerState_ApplyNewValidBlockMessage : Prop :=
  (forall x1 x2, consensus__PeerState_ApplyNewValidBlockMessage__if_ps_PRS_Height_ne_msg_Height x1 x2 = (go_neqb x1 x2)) /\
  consensus__PeerState_ApplyNewValidBlockMessage__if_ps_PRS_Height_ne_msg_Height_atoms = ["ps.PRS.Height : uint64"; "msg.Height : uint64"]%string /\
  (forall x1 x2 x3, consensus__PeerState_ApplyNewValidBlockMessage__if_ps_PRS_Round_ne_msg_Round_and_not_msg_IsCommit x1 x2 x3 = (andb (go_neqb x1 x2) (negb x3))) /\
  consensus__PeerState_ApplyNewValidBlockMessage__if_ps_PRS_Round_ne_msg_Round_and_not_msg_IsCommit_atoms = ["ps.PRS.Round : uint32"; "msg.Round : uint32"; "msg.IsCommit : bool"]%string.
Lemma pins_consensus__PeerState_ApplyNewValidBlockMessage_ok : pins_consensus__PeerState_ApplyNewValidBlockMessage. Proof. hnf; split_all; repeat split. Qed.

Definition pins_consensus__PeerState_getVoteBitArray : Prop :=
  pinned1 consensus__PeerState_getVoteBitArray__if_not_types_IsVoteTypeValid_signedMsgType consensus__PeerState_getVoteBitArray__if_not_types_IsVoteTypeValid_signedMsgType_atoms false "types.IsVoteTypeValid(signedMsgType) : bool" /\
  (forall x1 x2, consensus__PeerState_getVoteBitArray__if_ps_PRS_Height_eq_height x1 x2 = (Z.eqb x1 x2)) /\
  consensus__PeerState_getVoteBitArray__if_ps_PRS_Height_eq_height_atoms = ["ps.PRS.Height : uint64"; "height : uint64"]%string /\
  (forall x1 x2, consensus__PeerState_getVoteBitArray__if_ps_PRS_Round_eq_round x1 x2 = (Z.eqb x1 x2)) /\
  consensus__PeerState_getVoteBitArray__if_ps_PRS_Round_eq_round_atoms = ["ps.PRS.Round : uint32"; "round : uint32"]%string /\
  (forall x1, consensus__PeerState_getVoteBitArray__case_signedMsgType_eq_kproto_PrevoteType x1 = (Z.eqb x1 1)) /\
  consensus__PeerState_getVoteBitArray__case_signedMsgType_eq_kproto_PrevoteType_atoms = ["signedMsgType : github.com/kardiachain/go-kardia/proto/kardiachain/types.SignedMsgType"]%string /\
  (forall x1, consensus__PeerState_getVoteBitArray__case_signedMsgType_eq_kproto_PrecommitType x1 = (Z.eqb x1 2)) /\
  consensus__PeerState_getVoteBitArray__case_signedMsgType_eq_kproto_PrecommitType_atoms = ["signedMsgType : github.com/kardiachain/go-kardia/proto/kardiachain/types.SignedMsgType"]%string /\
  (forall x1 x2, consensus__PeerState_getVoteBitArray__if_ps_PRS_CatchupCommitRound_eq_round x1 x2 = (Z.eqb x1 x2)) /\
  consensus__PeerState_getVoteBitArray__if_ps_PRS_CatchupCommitRound_eq_round_atoms = ["ps.PRS.CatchupCommitRound : uint32"; "round : uint32"]%string /\
  (forall x1, consensus__PeerState_getVoteBitArray__case_signedMsgType_eq_kproto_PrevoteType_2 x1 = (Z.eqb x1 1)) /\
  consensus__PeerState_getVoteBitArray__case_signedMsgType_eq_kproto_PrevoteType_2_atoms = ["signedMsgType : github.com/kardiachain/go-kardia/proto/kardiachain/types.SignedMsgType"]%string /\
  (forall x1, consensus__PeerState_getVoteBitArray__case_signedMsgType_eq_kproto_PrecommitType_2 x1 = (Z.eqb x1 2)) /\
  consensus__PeerState_getVoteBitArray__case_signedMsgType_eq_kproto_PrecommitType_2_atoms = ["signedMsgType : github.com/kardiachain/go-kardia/proto/kardiachain/types.SignedMsgType"]%string /\
  (forall x1 x2, consensus__PeerState_getVoteBitArray__if_ps_PRS_ProposalPOLRound_eq_round x1 x2 = (Z.eqb x1 x2)) /\
  consensus__PeerState_getVoteBitArray__if_ps_PRS_ProposalPOLRound_eq_round_atoms = ["ps.PRS.ProposalPOLRound : uint32"; "round : uint32"]%string /\
  (forall x1, consensus__PeerState_getVoteBitArray__case_signedMsgType_eq_kproto_PrevoteType_3 x1 = (Z.eqb x1 1)) /\
  consensus__PeerState_getVoteBitArray__case_signedMsgType_eq_kproto_PrevoteType_3_atoms = ["signedMsgType : github.com/kardiachain/go-kardia/proto/kardiachain/types.SignedMsgType"]%string /\
  (forall x1, consensus__PeerState_getVoteBitArray__case_signedMsgType_eq_kproto_PrecommitType_3 x1 = (Z.eqb x1 2)) /\
  consensus__PeerState_getVoteBitArray__case_signedMsgType_eq_kproto_PrecommitType_3_atoms = ["signedMsgType : github.com/kardiachain/go-kardia/proto/kardiachain/types.SignedMsgType"]%string /\
  (forall x1 x2, consensus__PeerState_getVoteBitArray__if_ps_PRS_Height_eq_height_plus_1 x1 x2 = (Z.eqb x1 (go_add U64 x2 1))) /\
  consensus__PeerState_getVoteBitArray__if_ps_PRS_Height_eq_height_plus_1_atoms = ["ps.PRS.Height : uint64"; "height : uint64"]%string /\
  (forall x1 x2, consensus__PeerState_getVoteBitArray__if_ps_PRS_LastCommitRound_eq_round x1 x2 = (Z.eqb x1 x2)) /\
  consensus__PeerState_getVoteBitArray__if_ps_PRS_LastCommitRound_eq_round_atoms = ["ps.PRS.LastCommitRound : uint32"; "round : uint32"]%string /\
  (forall x1, consensus__PeerState_getVoteBitArray__case_signedMsgType_eq_kproto_PrevoteType_4 x1 = (Z.eqb x1 1)) /\
  consensus__PeerState_getVoteBitArray__case_signedMsgType_eq_kproto_PrevoteType_4_atoms = ["signedMsgType : github.com/kardiachain/go-kardia/proto/kardiachain/types.SignedMsgType"]%string /\
  (forall x1, consensus__PeerState_getVoteBitArray__case_signedMsgType_eq_kproto_PrecommitType_4 x1 = (Z.eqb x1 2)) /\
  consensus__PeerState_getVoteBitArray__case_signedMsgType_eq_kproto_PrecommitType_4_atoms = ["signedMsgType : github.com/kardiachain/go-kardia/proto/kardiachain/types.SignedMsgType"]%string.
Lemma pins_consensus__PeerState_getVoteBitArray_ok : pins_consensus__PeerState_getVoteBitArray. Proof. hnf; split_all; repeat split. Qed.

Definition pins_consensus__PeerState_ensureCatchupCommitRound : Prop :=
  (forall x1 x2, consensus__PeerState_ensureCatchupCommitRound__if_ps_PRS_Height_ne_height x1 x2 = (go_neqb x1 x2)) /\
  consensus__PeerState_ensureCatchupCommitRound__if_ps_PRS_Height_ne_height_atoms = ["ps.PRS.Height : uint64"; "height : uint64"]%string /\
  (forall x1 x2, consensus__PeerState_ensureCatchupCommitRound__if_ps_PRS_CatchupCommitRound_eq_round x1 x2 = (Z.eqb x1 x2)) /\
  consensus__PeerState_ensureCatchupCommitRound__if_ps_PRS_CatchupCommitRound_eq_round_atoms = ["ps.PRS.CatchupCommitRound : uint32"; "round : uint32"]%string /\
  (forall x1, consensus__PeerState_ensureCatchupCommitRound__put_ps_PRS_CatchupCommitRound x1 = x1) /\
  consensus__PeerState_ensureCatchupCommitRound__put_ps_PRS_CatchupCommitRound_atoms = ["round : uint32"]%string /\
  (forall x1 x2, consensus__PeerState_ensureCatchupCommitRound__if_round_eq_ps_PRS_Round x1 x2 = (Z.eqb x1 x2)) /\
  consensus__PeerState_ensureCatchupCommitRound__if_round_eq_ps_PRS_Round_atoms = ["round : uint32"; "ps.PRS.Round : uint32"]%string.
Lemma pins_consensus__PeerState_ensureCatchupCommitRound_ok : pins_consensus__PeerState_ensureCatchupCommitRound. Proof. hnf; split_all; repeat split. Qed.

Definition pins_consensus__PeerState_ensureVoteBitArrays : Prop :=
  (forall x1 x2, consensus__PeerState_ensureVoteBitArrays__if_ps_PRS_Height_eq_height x1 x2 = (Z.eqb x1 x2)) /\
  consensus__PeerState_ensureVoteBitArrays__if_ps_PRS_Height_eq_height_atoms = ["ps.PRS.Height : uint64"; "height : uint64"]%string /\
  pinned1 consensus__PeerState_ensureVoteBitArrays__if_ps_PRS_Prevotes_eq_nil consensus__PeerState_ensureVoteBitArrays__if_ps_PRS_Prevotes_eq_nil_atoms true "ps.PRS.Prevotes == nil : untyped bool" /\
  pinned1 consensus__PeerState_ensureVoteBitArrays__if_ps_PRS_Precommits_eq_nil consensus__PeerState_ensureVoteBitArrays__if_ps_PRS_Precommits_eq_nil_atoms true "ps.PRS.Precommits == nil : untyped bool" /\
  pinned1 consensus__PeerState_ensureVoteBitArrays__if_ps_PRS_CatchupCommit_eq_nil consensus__PeerState_ensureVoteBitArrays__if_ps_PRS_CatchupCommit_eq_nil_atoms true "ps.PRS.CatchupCommit == nil : untyped bool" /\
  pinned1 consensus__PeerState_ensureVoteBitArrays__if_ps_PRS_ProposalPOL_eq_nil consensus__PeerState_ensureVoteBitArrays__if_ps_PRS_ProposalPOL_eq_nil_atoms true "ps.PRS.ProposalPOL == nil : untyped bool" /\
  (forall x1 x2, consensus__PeerState_ensureVoteBitArrays__if_ps_PRS_Height_eq_height_plus_1 x1 x2 = (Z.eqb x1 (go_add U64 x2 1))) /\
  consensus__PeerState_ensureVoteBitArrays__if_ps_PRS_Height_eq_height_plus_1_atoms = ["ps.PRS.Height : uint64"; "height : uint64"]%string /\
  pinned1 consensus__PeerState_ensureVoteBitArrays__if_ps_PRS_LastCommit_eq_nil consensus__PeerState_ensureVoteBitArrays__if_ps_PRS_LastCommit_eq_nil_atoms true "ps.PRS.LastCommit == nil : untyped bool".
Lemma pins_consensus__PeerState_ensureVoteBitArrays_ok : pins_consensus__PeerState_ensureVoteBitArrays. Proof. hnf; split_all; repeat split. Qed.

Definition pins_consensus__PeerState_setHasVote : Prop :=
  pinned1 consensus__PeerState_setHasVote__if_psVotes_ne_nil consensus__PeerState_setHasVote__if_psVotes_ne_nil_atoms true "psVotes != nil : untyped bool" /\
  consensus__PeerState_setHasVote__bind_psVotes_atoms = ["ps.getVoteBitArray(height, round, signedMsgType)"]%string.
Lemma pins_consensus__PeerState_setHasVote_ok : pins_consensus__PeerState_setHasVote. Proof. hnf; split_all; repeat split. Qed.

Definition pins_consensus__PeerState_ApplyNewRoundStepMessage : Prop :=
  (forall x1, consensus__PeerState_ApplyNewRoundStepMessage__if_CompareHRS_msg_Height_msg_Round_msg_Step_ps_PRS_Height_ps_PR_3ef4ef0e x1 = (Z.leb x1 0)) /\
  consensus__PeerState_ApplyNewRoundStepMessage__if_CompareHRS_msg_Height_msg_Round_msg_Step_ps_PRS_Height_ps_PR_3ef4ef0e_atoms = ["CompareHRS(msg.Height, msg.Round, msg.Step, ps.PRS.Height, ps.PRS.Round, ps.PRS.Step) : int"]%string /\
  (forall x1 x2, consensus__PeerState_ApplyNewRoundStepMessage__set_startTime x1 x2 = (go_sub I64 x1 (go_conv I64 x2))) /\
  consensus__PeerState_ApplyNewRoundStepMessage__set_startTime_atoms = ["time.Now().Unix() : int64"; "msg.SecondsSinceStartTime : uint64"]%string /\
  (forall x1, consensus__PeerState_ApplyNewRoundStepMessage__put_ps_PRS_Height x1 = x1) /\
  consensus__PeerState_ApplyNewRoundStepMessage__put_ps_PRS_Height_atoms = ["msg.Height : uint64"]%string /\
  (forall x1, consensus__PeerState_ApplyNewRoundStepMessage__put_ps_PRS_Round x1 = x1) /\
  consensus__PeerState_ApplyNewRoundStepMessage__put_ps_PRS_Round_atoms = ["msg.Round : uint32"]%string /\
  (forall x1, consensus__PeerState_ApplyNewRoundStepMessage__put_ps_PRS_Step x1 = x1) /\
  consensus__PeerState_ApplyNewRoundStepMessage__put_ps_PRS_Step_atoms = ["msg.Step : github.com/kardiachain/go-kardia/consensus/types.RoundStepType"]%string /\
  (forall x1, consensus__PeerState_ApplyNewRoundStepMessage__put_ps_PRS_StartTime x1 = (go_conv U64 x1)) /\
  consensus__PeerState_ApplyNewRoundStepMessage__put_ps_PRS_StartTime_atoms = ["startTime : int64"]%string /\
  (forall x1 x2 x3 x4, consensus__PeerState_ApplyNewRoundStepMessage__if_psHeight_ne_msg_Height_or_psRound_ne_msg_Round x1 x2 x3 x4 = (orb (go_neqb x1 x2) (go_neqb x3 x4))) /\
  consensus__PeerState_ApplyNewRoundStepMessage__if_psHeight_ne_msg_Height_or_psRound_ne_msg_Round_atoms = ["psHeight : uint64"; "msg.Height : uint64"; "psRound : uint32"; "msg.Round : uint32"]%string /\
  (forall x1 x2 x3 x4 x5, consensus__PeerState_ApplyNewRoundStepMessage__if_psHeight_eq_msg_Height_and_psRound_ne_msg_Round_and_msg_Roun_329e9b89 x1 x2 x3 x4 x5 = (andb (andb (Z.eqb x1 x2) (go_neqb x3 x4)) (Z.eqb x4 x5))) /\
  consensus__PeerState_ApplyNewRoundStepMessage__if_psHeight_eq_msg_Height_and_psRound_ne_msg_Round_and_msg_Roun_329e9b89_atoms = ["psHeight : uint64"; "msg.Height : uint64"; "psRound : uint32"; "msg.Round : uint32"; "psCatchupCommitRound : uint32"]%string /\
  (forall x1 x2, consensus__PeerState_ApplyNewRoundStepMessage__if_psHeight_ne_msg_Height x1 x2 = (go_neqb x1 x2)) /\
  consensus__PeerState_ApplyNewRoundStepMessage__if_psHeight_ne_msg_Height_atoms = ["psHeight : uint64"; "msg.Height : uint64"]%string /\
  (forall x1 x2 x3 x4, consensus__PeerState_ApplyNewRoundStepMessage__if_psHeight_plus_1_eq_msg_Height_and_psRound_eq_msg_LastCommitRound x1 x2 x3 x4 = (andb (Z.eqb (go_add U64 x1 1) x2) (Z.eqb x3 x4))) /\
  consensus__PeerState_ApplyNewRoundStepMessage__if_psHeight_plus_1_eq_msg_Height_and_psRound_eq_msg_LastCommitRound_atoms = ["psHeight : uint64"; "msg.Height : uint64"; "psRound : uint32"; "msg.LastCommitRound : uint32"]%string /\
  (forall x1, consensus__PeerState_ApplyNewRoundStepMessage__put_ps_PRS_LastCommitRound x1 = x1) /\
  consensus__PeerState_ApplyNewRoundStepMessage__put_ps_PRS_LastCommitRound_atoms = ["msg.LastCommitRound : uint32"]%string /\
  (forall x1, consensus__PeerState_ApplyNewRoundStepMessage__put_ps_PRS_LastCommitRound_2 x1 = x1) /\
  consensus__PeerState_ApplyNewRoundStepMessage__put_ps_PRS_LastCommitRound_2_atoms = ["msg.LastCommitRound : uint32"]%string /\
  consensus__PeerState_ApplyNewRoundStepMessage__put_ps_PRS_Proposal_atoms = []%string /\
  consensus__PeerState_ApplyNewRoundStepMessage__put_ps_PRS_ProposalPOLRound_atoms = []%string /\
  consensus__PeerState_ApplyNewRoundStepMessage__put_ps_PRS_CatchupCommitRound_atoms = []%string.
Lemma pins_consensus__PeerState_ApplyNewRoundStepMessage_ok : pins_consensus__PeerState_ApplyNewRoundStepMessage. Proof. hnf; split_all; repeat split. Qed.

Definition pins_consensus__PeerState_ApplyHasVoteMessage : Prop :=
  (forall x1 x2, consensus__PeerState_ApplyHasVoteMessage__if_ps_PRS_Height_ne_msg_Height x1 x2 = (go_neqb x1 x2)) /\
  consensus__PeerState_ApplyHasVoteMessage__if_ps_PRS_Height_ne_msg_Height_atoms = ["ps.PRS.Height : uint64"; "msg.Height : uint64"]%string.
Lemma pins_consensus__PeerState_ApplyHasVoteMessage_ok : pins_consensus__PeerState_ApplyHasVoteMessage. Proof. hnf; split_all; repeat split. Qed.

Definition pins_consensus__PeerState_ApplyVoteSetBitsMessage : Prop :=
  pinned1 consensus__PeerState_ApplyVoteSetBitsMessage__if_votes_ne_nil consensus__PeerState_ApplyVoteSetBitsMessage__if_votes_ne_nil_atoms true "votes != nil : untyped bool" /\
  pinned1 consensus__PeerState_ApplyVoteSetBitsMessage__if_ourVotes_eq_nil consensus__PeerState_ApplyVoteSetBitsMessage__if_ourVotes_eq_nil_atoms true "ourVotes == nil : untyped bool" /\
  consensus__PeerState_ApplyVoteSetBitsMessage__bind_votes_atoms = ["ps.getVoteBitArray(msg.Height, msg.Round, msg.Type)"]%string /\
  consensus__PeerState_ApplyVoteSetBitsMessage__bind_otherVotes_atoms = ["votes.Sub(ourVotes)"]%string /\
  consensus__PeerState_ApplyVoteSetBitsMessage__bind_hasVotes_atoms = ["otherVotes.Or(msg.Votes)"]%string.
Lemma pins_consensus__PeerState_ApplyVoteSetBitsMessage_ok : pins_consensus__PeerState_ApplyVoteSetBitsMessage. Proof. hnf; split_all; repeat split. Qed.

Definition pins_consensus__PeerState_ApplyProposalPOLMessage : Prop :=
  (forall x1 x2, consensus__PeerState_ApplyProposalPOLMessage__if_ps_PRS_Height_ne_msg_Height x1 x2 = (go_neqb x1 x2)) /\
  consensus__PeerState_ApplyProposalPOLMessage__if_ps_PRS_Height_ne_msg_Height_atoms = ["ps.PRS.Height : uint64"; "msg.Height : uint64"]%string /\
  (forall x1 x2, consensus__PeerState_ApplyProposalPOLMessage__if_ps_PRS_ProposalPOLRound_ne_msg_ProposalPOLRound x1 x2 = (go_neqb x1 x2)) /\
  consensus__PeerState_ApplyProposalPOLMessage__if_ps_PRS_ProposalPOLRound_ne_msg_ProposalPOLRound_atoms = ["ps.PRS.ProposalPOLRound : uint32"; "msg.ProposalPOLRound : uint32"]%string.
Lemma pins_consensus__PeerState_ApplyProposalPOLMessage_ok : pins_consensus__PeerState_ApplyProposalPOLMessage. Proof. hnf; split_all; repeat split. Qed.

Definition pins_consensus__CompareHRS : Prop :=
  (forall x1 x2, consensus__CompareHRS__if_h1_lt_h2 x1 x2 = (Z.ltb x1 x2)) /\
  consensus__CompareHRS__if_h1_lt_h2_atoms = ["h1 : uint64"; "h2 : uint64"]%string /\
  (forall x1 x2, consensus__CompareHRS__if_h1_gt_h2 x1 x2 = (Z.gtb x1 x2)) /\
  consensus__CompareHRS__if_h1_gt_h2_atoms = ["h1 : uint64"; "h2 : uint64"]%string /\
  (forall x1 x2, consensus__CompareHRS__if_r1_lt_r2 x1 x2 = (Z.ltb x1 x2)) /\
  consensus__CompareHRS__if_r1_lt_r2_atoms = ["r1 : uint32"; "r2 : uint32"]%string /\
  (forall x1 x2, consensus__CompareHRS__if_r1_gt_r2 x1 x2 = (Z.gtb x1 x2)) /\
  consensus__CompareHRS__if_r1_gt_r2_atoms = ["r1 : uint32"; "r2 : uint32"]%string /\
  (forall x1 x2, consensus__CompareHRS__if_s1_lt_s2 x1 x2 = (Z.ltb x1 x2)) /\
  consensus__CompareHRS__if_s1_lt_s2_atoms = ["s1 : github.com/kardiachain/go-kardia/consensus/types.RoundStepType"; "s2 : github.com/kardiachain/go-kardia/consensus/types.RoundStepType"]%string /\
  (forall x1 x2, consensus__CompareHRS__if_s1_gt_s2 x1 x2 = (Z.gtb x1 x2)) /\
  consensus__CompareHRS__if_s1_gt_s2_atoms = ["s1 : github.com/kardiachain/go-kardia/consensus/types.RoundStepType"; "s2 : github.com/kardiachain/go-kardia/consensus/types.RoundStepType"]%string.
Lemma pins_consensus__CompareHRS_ok : pins_consensus__CompareHRS. Proof. hnf; split_all; repeat split. Qed.

Definition pins_consensus_types__NewHeightVoteSet : Prop :=
  (forall x1, consensus_types__NewHeightVoteSet__put_hvs_height x1 = x1) /\
  consensus_types__NewHeightVoteSet__put_hvs_height_atoms = ["height : uint64"]%string /\
  consensus_types__NewHeightVoteSet__put_hvs_round_atoms = []%string.
Lemma pins_consensus_types__NewHeightVoteSet_ok : pins_consensus_types__NewHeightVoteSet. Proof. hnf; split_all; repeat split. Qed.

Definition pins_consensus_types__HeightVoteSet_addRound : Prop :=
  pinned1 consensus_types__HeightVoteSet_addRound__if_ok consensus_types__HeightVoteSet_addRound__if_ok_atoms true "ok : bool" /\
  consensus_types__HeightVoteSet_addRound__bind_prevotes_atoms = ["types.NewVoteSet(hvs.chainID, hvs.height, round, kproto.PrevoteType, hvs.valSet)"]%string /\
  consensus_types__HeightVoteSet_addRound__bind_precommits_atoms = ["types.NewVoteSet(hvs.chainID, hvs.height, round, kproto.PrecommitType, hvs.valSet)"]%string.
Lemma pins_consensus_types__HeightVoteSet_addRound_ok : pins_consensus_types__HeightVoteSet_addRound. Proof. hnf; split_all; repeat split. Qed.

Definition pins_consensus_types__HeightVoteSet_SetRound : Prop :=
  (forall x1, consensus_types__HeightVoteSet_SetRound__set_newRound x1 = (go_sub U32 x1 1)) /\
  consensus_types__HeightVoteSet_SetRound__set_newRound_atoms = ["hvs.round : uint32"]%string /\
  (forall x1 x2 x3, consensus_types__HeightVoteSet_SetRound__if_hvs_round_ne_1_and_round_lt_newRound x1 x2 x3 = (andb (go_neqb x1 1) (Z.ltb x2 x3))) /\
  consensus_types__HeightVoteSet_SetRound__if_hvs_round_ne_1_and_round_lt_newRound_atoms = ["hvs.round : uint32"; "round : uint32"; "newRound : uint32"]%string /\
  (forall x1 x2, consensus_types__HeightVoteSet_SetRound__for_r_le_round x1 x2 = (Z.leb x1 x2)) /\
  consensus_types__HeightVoteSet_SetRound__for_r_le_round_atoms = ["r : uint32"; "round : uint32"]%string /\
  (forall x1, consensus_types__HeightVoteSet_SetRound__forinit_r x1 = x1) /\
  consensus_types__HeightVoteSet_SetRound__forinit_r_atoms = ["newRound : uint32"]%string /\
  (forall x1, consensus_types__HeightVoteSet_SetRound__set_r_op x1 = (go_add U32 x1 1)) /\
  consensus_types__HeightVoteSet_SetRound__set_r_op_atoms = ["r : uint32"]%string /\
  pinned1 consensus_types__HeightVoteSet_SetRound__if_ok consensus_types__HeightVoteSet_SetRound__if_ok_atoms true "ok : bool" /\
  (forall x1, consensus_types__HeightVoteSet_SetRound__put_hvs_round x1 = x1) /\
  consensus_types__HeightVoteSet_SetRound__put_hvs_round_atoms = ["round : uint32"]%string.
Lemma pins_consensus_types__HeightVoteSet_SetRound_ok : pins_consensus_types__HeightVoteSet_SetRound. Proof. hnf; split_all; repeat split. Qed.

Definition pins_consensus_types__HeightVoteSet_AddVote : Prop :=
  pinned1 consensus_types__HeightVoteSet_AddVote__if_not_types_IsVoteTypeValid_vote_Type consensus_types__HeightVoteSet_AddVote__if_not_types_IsVoteTypeValid_vote_Type_atoms false "types.IsVoteTypeValid(vote.Type) : bool" /\
  pinned1 consensus_types__HeightVoteSet_AddVote__if_voteSet_eq_nil consensus_types__HeightVoteSet_AddVote__if_voteSet_eq_nil_atoms true "voteSet == nil : untyped bool" /\
  (forall x1, consensus_types__HeightVoteSet_AddVote__if_len_rndz_lt_2 x1 = (Z.ltb x1 2)) /\
  consensus_types__HeightVoteSet_AddVote__if_len_rndz_lt_2_atoms = ["len(rndz) : int"]%string /\
  consensus_types__HeightVoteSet_AddVote__bind_voteSet_atoms = ["hvs.getVoteSet(vote.Round, vote.Type)"]%string /\
  consensus_types__HeightVoteSet_AddVote__bind_voteSet_2_atoms = ["hvs.getVoteSet(vote.Round, vote.Type)"]%string.
Lemma pins_consensus_types__HeightVoteSet_AddVote_ok : pins_consensus_types__HeightVoteSet_AddVote. Proof. hnf; split_all; repeat split. Qed.

Definition pins_consensus_types__HeightVoteSet_getVoteSet : Prop :=
  pinned1 consensus_types__HeightVoteSet_getVoteSet__if_not_ok consensus_types__HeightVoteSet_getVoteSet__if_not_ok_atoms false "ok : bool" /\
  (forall x1, consensus_types__HeightVoteSet_getVoteSet__case_signedMsgType_eq_kproto_PrevoteType x1 = (Z.eqb x1 1)) /\
  consensus_types__HeightVoteSet_getVoteSet__case_signedMsgType_eq_kproto_PrevoteType_atoms = ["signedMsgType : github.com/kardiachain/go-kardia/proto/kardiachain/types.SignedMsgType"]%string /\
  (forall x1, consensus_types__HeightVoteSet_getVoteSet__case_signedMsgType_eq_kproto_PrecommitType x1 = (Z.eqb x1 2)) /\
  consensus_types__HeightVoteSet_getVoteSet__case_signedMsgType_eq_kproto_PrecommitType_atoms = ["signedMsgType : github.com/kardiachain/go-kardia/proto/kardiachain/types.SignedMsgType"]%string.
Lemma pins_consensus_types__HeightVoteSet_getVoteSet_ok : pins_consensus_types__HeightVoteSet_getVoteSet. Proof. hnf; split_all; repeat split. Qed.

Definition pins_consensus_types__RoundStepType_IsValid : Prop :=
  (forall x1, consensus_types__RoundStepType_IsValid__ret_uint32_rs_ge_0x01_and_uint32_rs_le_0x08 x1 = (andb (Z.geb (go_conv U32 x1) 1) (Z.leb (go_conv U32 x1) 8))) /\
  consensus_types__RoundStepType_IsValid__ret_uint32_rs_ge_0x01_and_uint32_rs_le_0x08_atoms = ["rs : github.com/kardiachain/go-kardia/consensus/types.RoundStepType"]%string.
Lemma pins_consensus_types__RoundStepType_IsValid_ok : pins_consensus_types__RoundStepType_IsValid. Proof. hnf; split_all; repeat split. Qed.

Definition pins_lib_common__NewBitArray : Prop :=
  (forall x1, lib_common__NewBitArray__if_bits_le_0 x1 = (Z.leb x1 0)) /\
  lib_common__NewBitArray__if_bits_le_0_atoms = ["bits : int"]%string /\
  (forall x1, lib_common__NewBitArray__arg_bits_plus_63_div_64 x1 = (go_quot I64 (go_add I64 x1 63) 64)) /\
  lib_common__NewBitArray__arg_bits_plus_63_div_64_atoms = ["bits : int"]%string.
Lemma pins_lib_common__NewBitArray_ok : pins_lib_common__NewBitArray. Proof. hnf; split_all; repeat split. Qed.

Definition pins_lib_common__BitArray_Size : Prop :=
  pinned1 lib_common__BitArray_Size__if_bA_eq_nil lib_common__BitArray_Size__if_bA_eq_nil_atoms true "bA == nil : untyped bool".
Lemma pins_lib_common__BitArray_Size_ok : pins_lib_common__BitArray_Size. Proof. hnf; split_all; repeat split. Qed.

Definition pins_lib_common__BitArray_getIndex : Prop :=
  (forall x1 x2, lib_common__BitArray_getIndex__if_i_ge_int_bA_Bits x1 x2 = (Z.geb x1 (go_conv I64 x2))) /\
  lib_common__BitArray_getIndex__if_i_ge_int_bA_Bits_atoms = ["i : int"; "bA.Bits : uint"]%string /\
  (forall x1 x2, lib_common__BitArray_getIndex__ret_bA_Elems_at_i_div_64_band_uint64_1_shl_uint_i_mod_64_gt_0 x1 x2 = (Z.gtb (go_and U64 x1 x2) 0)) /\
  lib_common__BitArray_getIndex__ret_bA_Elems_at_i_div_64_band_uint64_1_shl_uint_i_mod_64_gt_0_atoms = ["bA.Elems[i/64] : uint64"; "uint64(1) << uint(i%64) : uint64"]%string.
Lemma pins_lib_common__BitArray_getIndex_ok : pins_lib_common__BitArray_getIndex. Proof. hnf; split_all; repeat split. Qed.

Definition pins_lib_common__BitArray_setIndex : Prop :=
  (forall x1 x2, lib_common__BitArray_setIndex__if_i_ge_int_bA_Bits x1 x2 = (Z.geb x1 (go_conv I64 x2))) /\
  lib_common__BitArray_setIndex__if_i_ge_int_bA_Bits_atoms = ["i : int"; "bA.Bits : uint"]%string /\
  pinned1 lib_common__BitArray_setIndex__if_v lib_common__BitArray_setIndex__if_v_atoms true "v : bool" /\
  (forall x1 x2, lib_common__BitArray_setIndex__assign_op x1 x2 = (go_or U64 x1 x2)) /\
  lib_common__BitArray_setIndex__assign_op_atoms = ["bA.Elems[i/64] : uint64"; "uint64(1) << uint(i%64) : uint64"]%string /\
  (forall x1 x2, lib_common__BitArray_setIndex__assign_op_2 x1 x2 = (go_and U64 x1 x2)) /\
  lib_common__BitArray_setIndex__assign_op_2_atoms = ["bA.Elems[i/64] : uint64"; "^(uint64(1) << uint(i%64)) : uint64"]%string.
Lemma pins_lib_common__BitArray_setIndex_ok : pins_lib_common__BitArray_setIndex. Proof. hnf; split_all; repeat split. Qed.

Definition pins_lib_common__BitArray_copyBits : Prop :=
  (forall x1, lib_common__BitArray_copyBits__arg_bits_plus_63_div_64 x1 = (go_quot I64 (go_add I64 x1 63) 64)) /\
  lib_common__BitArray_copyBits__arg_bits_plus_63_div_64_atoms = ["bits : int"]%string /\
  lib_common__BitArray_copyBits__bind_c_atoms = ["make([]uint64, (bits+63)/64)"]%string.
Lemma pins_lib_common__BitArray_copyBits_ok : pins_lib_common__BitArray_copyBits. Proof. hnf; split_all; repeat split. Qed.

Definition pins_lib_common__BitArray_Or : Prop :=
  (forall x1 x2, lib_common__BitArray_Or__if_bA_eq_nil_and_o_eq_nil x1 x2 = (andb x1 x2)) /\
  lib_common__BitArray_Or__if_bA_eq_nil_and_o_eq_nil_atoms = ["bA == nil : untyped bool"; "o == nil : untyped bool"]%string /\
  (forall x1 x2, lib_common__BitArray_Or__if_bA_eq_nil_and_o_ne_nil x1 x2 = (andb x1 x2)) /\
  lib_common__BitArray_Or__if_bA_eq_nil_and_o_ne_nil_atoms = ["bA == nil : untyped bool"; "o != nil : untyped bool"]%string /\
  pinned1 lib_common__BitArray_Or__if_o_eq_nil lib_common__BitArray_Or__if_o_eq_nil_atoms true "o == nil : untyped bool" /\
  (forall x1 x2 x3, lib_common__BitArray_Or__for_i_lt_len_c_Elems_and_i_lt_len_o_Elems x1 x2 x3 = (andb (Z.ltb x1 x2) (Z.ltb x1 x3))) /\
  lib_common__BitArray_Or__for_i_lt_len_c_Elems_and_i_lt_len_o_Elems_atoms = ["i : int"; "len(c.Elems) : int"; "len(o.Elems) : int"]%string /\
  (forall x1, lib_common__BitArray_Or__set_i_op x1 = (go_add I64 x1 1)) /\
  lib_common__BitArray_Or__set_i_op_atoms = ["i : int"]%string /\
  (forall x1 x2, lib_common__BitArray_Or__assign_op x1 x2 = (go_or U64 x1 x2)) /\
  lib_common__BitArray_Or__assign_op_atoms = ["c.Elems[i] : uint64"; "o.Elems[i] : uint64"]%string /\
  lib_common__BitArray_Or__bind_c_atoms = ["bA.copyBits(MaxInt(int(bA.Bits), int(o.Bits)))"]%string /\
  lib_common__BitArray_Or__forinit_i_atoms = []%string /\
  lib_common__BitArray_Or__let_i_atoms = []%string.
Lemma pins_lib_common__BitArray_Or_ok : pins_lib_common__BitArray_Or. Proof. hnf; split_all; repeat split. Qed.

Definition pins_lib_common__BitArray_and : Prop :=
  (forall x1 x2, lib_common__BitArray_and__for_i_lt_len_c_Elems x1 x2 = (Z.ltb x1 x2)) /\
  lib_common__BitArray_and__for_i_lt_len_c_Elems_atoms = ["i : int"; "len(c.Elems) : int"]%string /\
  (forall x1, lib_common__BitArray_and__set_i_op x1 = (go_add I64 x1 1)) /\
  lib_common__BitArray_and__set_i_op_atoms = ["i : int"]%string /\
  (forall x1 x2, lib_common__BitArray_and__assign_op x1 x2 = (go_and U64 x1 x2)) /\
  lib_common__BitArray_and__assign_op_atoms = ["c.Elems[i] : uint64"; "o.Elems[i] : uint64"]%string /\
  lib_common__BitArray_and__bind_c_atoms = ["bA.copyBits(MinInt(int(bA.Bits), int(o.Bits)))"]%string /\
  lib_common__BitArray_and__forinit_i_atoms = []%string /\
  lib_common__BitArray_and__let_i_atoms = []%string.
Lemma pins_lib_common__BitArray_and_ok : pins_lib_common__BitArray_and. Proof. hnf; split_all; repeat split. Qed.

Definition pins_lib_common__BitArray_And : Prop :=
  (forall x1 x2, lib_common__BitArray_And__if_bA_eq_nil_or_o_eq_nil x1 x2 = (orb x1 x2)) /\
  lib_common__BitArray_And__if_bA_eq_nil_or_o_eq_nil_atoms = ["bA == nil : untyped bool"; "o == nil : untyped bool"]%string.
Lemma pins_lib_common__BitArray_And_ok : pins_lib_common__BitArray_And. Proof. hnf; split_all; repeat split. Qed.

Definition pins_lib_common__BitArray_Not : Prop :=
  pinned1 lib_common__BitArray_Not__if_bA_eq_nil lib_common__BitArray_Not__if_bA_eq_nil_atoms true "bA == nil : untyped bool" /\
  (forall x1 x2, lib_common__BitArray_Not__for_i_lt_len_c_Elems x1 x2 = (Z.ltb x1 x2)) /\
  lib_common__BitArray_Not__for_i_lt_len_c_Elems_atoms = ["i : int"; "len(c.Elems) : int"]%string /\
  (forall x1, lib_common__BitArray_Not__set_i_op x1 = (go_add I64 x1 1)) /\
  lib_common__BitArray_Not__set_i_op_atoms = ["i : int"]%string /\
  lib_common__BitArray_Not__bind_c_atoms = ["bA.copy()"]%string /\
  lib_common__BitArray_Not__forinit_i_atoms = []%string /\
  lib_common__BitArray_Not__let_i_atoms = []%string.
Lemma pins_lib_common__BitArray_Not_ok : pins_lib_common__BitArray_Not. Proof. hnf; split_all; repeat split. Qed.

Definition pins_lib_common__BitArray_Sub : Prop :=
  (forall x1 x2, lib_common__BitArray_Sub__if_bA_eq_nil_or_o_eq_nil x1 x2 = (orb x1 x2)) /\
  lib_common__BitArray_Sub__if_bA_eq_nil_or_o_eq_nil_atoms = ["bA == nil : untyped bool"; "o == nil : untyped bool"]%string /\
  (forall x1 x2, lib_common__BitArray_Sub__if_bA_Bits_gt_o_Bits x1 x2 = (Z.gtb x1 x2)) /\
  lib_common__BitArray_Sub__if_bA_Bits_gt_o_Bits_atoms = ["bA.Bits : uint"; "o.Bits : uint"]%string /\
  (forall x1 x2, lib_common__BitArray_Sub__for_i_lt_len_o_Elems_minus_1 x1 x2 = (Z.ltb x1 (go_sub I64 x2 1))) /\
  lib_common__BitArray_Sub__for_i_lt_len_o_Elems_minus_1_atoms = ["i : int"; "len(o.Elems) : int"]%string /\
  (forall x1, lib_common__BitArray_Sub__set_i_op x1 = (go_add I64 x1 1)) /\
  lib_common__BitArray_Sub__set_i_op_atoms = ["i : int"]%string /\
  (forall x1 x2, lib_common__BitArray_Sub__assign_op x1 x2 = (go_and U64 x1 x2)) /\
  lib_common__BitArray_Sub__assign_op_atoms = ["c.Elems[i] : uint64"; "^c.Elems[i] : uint64"]%string /\
  (forall x1, lib_common__BitArray_Sub__set_i x1 = (go_sub I64 x1 1)) /\
  lib_common__BitArray_Sub__set_i_atoms = ["len(o.Elems) : int"]%string /\
  (forall x1, lib_common__BitArray_Sub__if_i_ge_0 x1 = (Z.geb x1 0)) /\
  lib_common__BitArray_Sub__if_i_ge_0_atoms = ["i : int"]%string /\
  (forall x1 x2, lib_common__BitArray_Sub__for_idx_lt_int_o_Bits x1 x2 = (Z.ltb x1 (go_conv I64 x2))) /\
  lib_common__BitArray_Sub__for_idx_lt_int_o_Bits_atoms = ["idx : int"; "o.Bits : uint"]%string /\
  (forall x1, lib_common__BitArray_Sub__set_idx x1 = (go_mul I64 x1 64)) /\
  lib_common__BitArray_Sub__set_idx_atoms = ["i : int"]%string /\
  (forall x1, lib_common__BitArray_Sub__set_idx_op x1 = (go_add I64 x1 1)) /\
  lib_common__BitArray_Sub__set_idx_op_atoms = ["idx : int"]%string /\
  (forall x1 x2, lib_common__BitArray_Sub__arg_c_getIndex_idx_and_not_o_GetIndex_idx x1 x2 = (andb x1 (negb x2))) /\
  lib_common__BitArray_Sub__arg_c_getIndex_idx_and_not_o_GetIndex_idx_atoms = ["c.getIndex(idx) : bool"; "o.GetIndex(idx) : bool"]%string /\
  lib_common__BitArray_Sub__bind_c_atoms = ["bA.copy()"]%string /\
  lib_common__BitArray_Sub__forinit_i_atoms = []%string /\
  lib_common__BitArray_Sub__let_i_atoms = []%string.
Lemma pins_lib_common__BitArray_Sub_ok : pins_lib_common__BitArray_Sub. Proof. hnf; split_all; repeat split. Qed.

Definition pins_lib_common__BitArray_Update : Prop :=
  (forall x1 x2, lib_common__BitArray_Update__if_bA_eq_nil_or_o_eq_nil x1 x2 = (orb x1 x2)) /\
  lib_common__BitArray_Update__if_bA_eq_nil_or_o_eq_nil_atoms = ["bA == nil : untyped bool"; "o == nil : untyped bool"]%string.
Lemma pins_lib_common__BitArray_Update_ok : pins_lib_common__BitArray_Update. Proof. hnf; split_all; repeat split. Qed.

Definition pins_lib_common__BitArray_PickRandom : Prop :=
  pinned1 lib_common__BitArray_PickRandom__if_bA_eq_nil lib_common__BitArray_PickRandom__if_bA_eq_nil_atoms true "bA == nil : untyped bool" /\
  (forall x1, lib_common__BitArray_PickRandom__let_length x1 = x1) /\
  lib_common__BitArray_PickRandom__let_length_atoms = ["len(bA.Elems) : int"]%string /\
  (forall x1, lib_common__BitArray_PickRandom__if_length_eq_0 x1 = (Z.eqb x1 0)) /\
  lib_common__BitArray_PickRandom__if_length_eq_0_atoms = ["length : int"]%string /\
  (forall x1, lib_common__BitArray_PickRandom__let_randElemStart x1 = x1) /\
  lib_common__BitArray_PickRandom__let_randElemStart_atoms = ["RandIntn(length) : int"]%string /\
  (forall x1 x2, lib_common__BitArray_PickRandom__for_i_lt_length x1 x2 = (Z.ltb x1 x2)) /\
  lib_common__BitArray_PickRandom__for_i_lt_length_atoms = ["i : int"; "length : int"]%string /\
  (forall x1, lib_common__BitArray_PickRandom__set_i_op x1 = (go_add I64 x1 1)) /\
  lib_common__BitArray_PickRandom__set_i_op_atoms = ["i : int"]%string /\
  (forall x1 x2 x3, lib_common__BitArray_PickRandom__set_elemIdx x1 x2 x3 = (go_rem I64 (go_add I64 x1 x2) x3)) /\
  lib_common__BitArray_PickRandom__set_elemIdx_atoms = ["i : int"; "randElemStart : int"; "length : int"]%string /\
  (forall x1 x2, lib_common__BitArray_PickRandom__if_elemIdx_lt_length_minus_1 x1 x2 = (Z.ltb x1 (go_sub I64 x2 1))) /\
  lib_common__BitArray_PickRandom__if_elemIdx_lt_length_minus_1_atoms = ["elemIdx : int"; "length : int"]%string /\
  (forall x1, lib_common__BitArray_PickRandom__if_bA_Elems_at_elemIdx_gt_0 x1 = (Z.gtb x1 0)) /\
  lib_common__BitArray_PickRandom__if_bA_Elems_at_elemIdx_gt_0_atoms = ["bA.Elems[elemIdx] : uint64"]%string /\
  (forall x1, lib_common__BitArray_PickRandom__let_randBitStart x1 = x1) /\
  lib_common__BitArray_PickRandom__let_randBitStart_atoms = ["RandIntn(64) : int"]%string /\
  (forall x1, lib_common__BitArray_PickRandom__for_j_lt_64 x1 = (Z.ltb x1 64)) /\
  lib_common__BitArray_PickRandom__for_j_lt_64_atoms = ["j : int"]%string /\
  (forall x1, lib_common__BitArray_PickRandom__set_j_op x1 = (go_add I64 x1 1)) /\
  lib_common__BitArray_PickRandom__set_j_op_atoms = ["j : int"]%string /\
  (forall x1 x2, lib_common__BitArray_PickRandom__set_bitIdx x1 x2 = (go_rem I64 (go_add I64 x1 x2) 64)) /\
  lib_common__BitArray_PickRandom__set_bitIdx_atoms = ["j : int"; "randBitStart : int"]%string /\
  (forall x1 x2, lib_common__BitArray_PickRandom__if_bA_Elems_at_elemIdx_band_uint64_1_shl_uint_bitIdx_gt_0 x1 x2 = (Z.gtb (go_and U64 x1 x2) 0)) /\
  lib_common__BitArray_PickRandom__if_bA_Elems_at_elemIdx_band_uint64_1_shl_uint_bitIdx_gt_0_atoms = ["bA.Elems[elemIdx] : uint64"; "uint64(1) << uint(bitIdx) : uint64"]%string /\
  (forall x1 x2, lib_common__BitArray_PickRandom__ret_64_mul_elemIdx_plus_bitIdx x1 x2 = (go_add I64 (go_mul I64 64 x1) x2)) /\
  lib_common__BitArray_PickRandom__ret_64_mul_elemIdx_plus_bitIdx_atoms = ["elemIdx : int"; "bitIdx : int"]%string /\
  (forall x1, lib_common__BitArray_PickRandom__set_elemBits x1 = (go_rem U64 x1 64)) /\
  lib_common__BitArray_PickRandom__set_elemBits_atoms = ["bA.Bits : uint"]%string /\
  (forall x1, lib_common__BitArray_PickRandom__if_elemBits_eq_0 x1 = (Z.eqb x1 0)) /\
  lib_common__BitArray_PickRandom__if_elemBits_eq_0_atoms = ["elemBits : uint"]%string /\
  (forall x1, lib_common__BitArray_PickRandom__let_randBitStart_2 x1 = x1) /\
  lib_common__BitArray_PickRandom__let_randBitStart_2_atoms = ["RandIntn(int(elemBits)) : int"]%string /\
  (forall x1 x2, lib_common__BitArray_PickRandom__for_j_lt_int_elemBits x1 x2 = (Z.ltb x1 (go_conv I64 x2))) /\
  lib_common__BitArray_PickRandom__for_j_lt_int_elemBits_atoms = ["j : int"; "elemBits : uint"]%string /\
  (forall x1, lib_common__BitArray_PickRandom__set_j_op_2 x1 = (go_add I64 x1 1)) /\
  lib_common__BitArray_PickRandom__set_j_op_2_atoms = ["j : int"]%string /\
  (forall x1 x2 x3, lib_common__BitArray_PickRandom__set_bitIdx_2 x1 x2 x3 = (go_rem I64 (go_add I64 x1 x2) (go_conv I64 x3))) /\
  lib_common__BitArray_PickRandom__set_bitIdx_2_atoms = ["j : int"; "randBitStart : int"; "elemBits : uint"]%string /\
  (forall x1 x2, lib_common__BitArray_PickRandom__if_bA_Elems_at_elemIdx_band_uint64_1_shl_uint_bitIdx_gt_0_2 x1 x2 = (Z.gtb (go_and U64 x1 x2) 0)) /\
  lib_common__BitArray_PickRandom__if_bA_Elems_at_elemIdx_band_uint64_1_shl_uint_bitIdx_gt_0_2_atoms = ["bA.Elems[elemIdx] : uint64"; "uint64(1) << uint(bitIdx) : uint64"]%string /\
  (forall x1 x2, lib_common__BitArray_PickRandom__ret_64_mul_elemIdx_plus_bitIdx_2 x1 x2 = (go_add I64 (go_mul I64 64 x1) x2)) /\
  lib_common__BitArray_PickRandom__ret_64_mul_elemIdx_plus_bitIdx_2_atoms = ["elemIdx : int"; "bitIdx : int"]%string /\
  lib_common__BitArray_PickRandom__forinit_i_atoms = []%string /\
  lib_common__BitArray_PickRandom__let_i_atoms = []%string /\
  lib_common__BitArray_PickRandom__forinit_j_atoms = []%string /\
  lib_common__BitArray_PickRandom__let_j_atoms = []%string /\
  lib_common__BitArray_PickRandom__let_elemBits_atoms = []%string /\
  lib_common__BitArray_PickRandom__forinit_j_2_atoms = []%string /\
  lib_common__BitArray_PickRandom__let_j_2_atoms = []%string.
Lemma pins_lib_common__BitArray_PickRandom_ok : pins_lib_common__BitArray_PickRandom. Proof. hnf; split_all; repeat split. Qed.

Definition pins_lib_common__BitArray_ValidateBasic : Prop :=
  pinned1 lib_common__BitArray_ValidateBasic__if_bA_eq_nil lib_common__BitArray_ValidateBasic__if_bA_eq_nil_atoms true "bA == nil : untyped bool" /\
  (forall x1, lib_common__BitArray_ValidateBasic__if_bA_Bits_gt_math_MaxInt32 x1 = (Z.gtb x1 2147483647)) /\
  lib_common__BitArray_ValidateBasic__if_bA_Bits_gt_math_MaxInt32_atoms = ["bA.Bits : uint"]%string /\
  (forall x1 x2, lib_common__BitArray_ValidateBasic__if_len_bA_Elems_ne_expected x1 x2 = (go_neqb x1 x2)) /\
  lib_common__BitArray_ValidateBasic__if_len_bA_Elems_ne_expected_atoms = ["len(bA.Elems) : int"; "expected : int"]%string /\
  (forall x1, lib_common__BitArray_ValidateBasic__set_expected x1 = (go_quot I64 (go_add I64 (go_conv I64 x1) 63) 64)) /\
  lib_common__BitArray_ValidateBasic__set_expected_atoms = ["bA.Bits : uint"]%string.
Lemma pins_lib_common__BitArray_ValidateBasic_ok : pins_lib_common__BitArray_ValidateBasic. Proof. hnf; split_all; repeat split. Qed.

Definition pins_lib_common__BitArray_FromProto : Prop :=
  pinned1 lib_common__BitArray_FromProto__if_protoBitArray_eq_nil lib_common__BitArray_FromProto__if_protoBitArray_eq_nil_atoms true "protoBitArray == nil : untyped bool" /\
  (forall x1, lib_common__BitArray_FromProto__put_bA_Bits x1 = (go_conv U64 x1)) /\
  lib_common__BitArray_FromProto__put_bA_Bits_atoms = ["protoBitArray.Bits : int64"]%string /\
  (forall x1, lib_common__BitArray_FromProto__if_len_protoBitArray_Elems_gt_0 x1 = (Z.gtb x1 0)) /\
  lib_common__BitArray_FromProto__if_len_protoBitArray_Elems_gt_0_atoms = ["len(protoBitArray.Elems) : int"]%string.
Lemma pins_lib_common__BitArray_FromProto_ok : pins_lib_common__BitArray_FromProto. Proof. hnf; split_all; repeat split. Qed.

Definition pins_types__Part_ValidateBasic : Prop :=
  (forall x1, types__Part_ValidateBasic__if_len_part_Bytes_gt_BlockPartSizeBytes x1 = (Z.gtb x1 65536)) /\
  types__Part_ValidateBasic__if_len_part_Bytes_gt_BlockPartSizeBytes_atoms = ["len(part.Bytes) : int"]%string.
Lemma pins_types__Part_ValidateBasic_ok : pins_types__Part_ValidateBasic. Proof. hnf; split_all; repeat split. Qed.

Definition pins_types__PartSetHeader_ValidateBasic : Prop :=
  pinned1 types__PartSetHeader_ValidateBasic__if_err_ne_nil types__PartSetHeader_ValidateBasic__if_err_ne_nil_atoms true "err != nil : untyped bool" /\
  types__PartSetHeader_ValidateBasic__bind_err_atoms = ["ValidateHash(psh.Hash)"]%string.
Lemma pins_types__PartSetHeader_ValidateBasic_ok : pins_types__PartSetHeader_ValidateBasic. Proof. hnf; split_all; repeat split. Qed.

Definition pins_types__PartSet_AddPart : Prop :=
  pinned1 types__PartSet_AddPart__if_ps_eq_nil types__PartSet_AddPart__if_ps_eq_nil_atoms true "ps == nil : untyped bool" /\
  (forall x1 x2, types__PartSet_AddPart__if_part_Index_ge_ps_total x1 x2 = (Z.geb x1 x2)) /\
  types__PartSet_AddPart__if_part_Index_ge_ps_total_atoms = ["part.Index : uint32"; "ps.total : uint32"]%string /\
  pinned1 types__PartSet_AddPart__if_ps_parts_at_part_Index_ne_nil types__PartSet_AddPart__if_ps_parts_at_part_Index_ne_nil_atoms true "ps.parts[part.Index] != nil : untyped bool" /\
  (forall x1 x2 x3 x4, types__PartSet_AddPart__if_part_Proof_Index_ne_uint64_part_Index_or_part_Proof_Total_ne_9efbf145 x1 x2 x3 x4 = (orb (go_neqb x1 (go_conv U64 x2)) (go_neqb x3 (go_conv U64 x4)))) /\
  types__PartSet_AddPart__if_part_Proof_Index_ne_uint64_part_Index_or_part_Proof_Total_ne_9efbf145_atoms = ["part.Proof.Index : uint64"; "part.Index : uint32"; "part.Proof.Total : uint64"; "ps.total : uint32"]%string /\
  (forall x1, types__PartSet_AddPart__set_count_op x1 = (go_add U32 x1 1)) /\
  types__PartSet_AddPart__set_count_op_atoms = ["ps.count : uint32"]%string.
Lemma pins_types__PartSet_AddPart_ok : pins_types__PartSet_AddPart. Proof. hnf; split_all; repeat split. Qed.

Definition pins_types__PartSet_AddPart__if_part_Proof_Verify_ps_Hash : Prop :=
  pinned1 types__PartSet_AddPart__if_part_Proof_Verify_ps_Hash__Bytes_part_Bytes_ne_nil types__PartSet_AddPart__if_part_Proof_Verify_ps_Hash__Bytes_part_Bytes_ne_nil_atoms true "part.Proof.Verify(ps.Hash().Bytes(), part.Bytes) != nil : untyped bool".
Lemma pins_types__PartSet_AddPart__if_part_Proof_Verify_ps_Hash_ok : pins_types__PartSet_AddPart__if_part_Proof_Verify_ps_Hash. Proof. hnf; split_all; repeat split. Qed.

Definition pins_types__Vote_ValidateBasic : Prop :=
  pinned1 types__Vote_ValidateBasic__if_not_IsVoteTypeValid_vote_Type types__Vote_ValidateBasic__if_not_IsVoteTypeValid_vote_Type_atoms false "IsVoteTypeValid(vote.Type) : bool" /\
  pinned1 types__Vote_ValidateBasic__if_err_ne_nil types__Vote_ValidateBasic__if_err_ne_nil_atoms true "err != nil : untyped bool" /\
  (forall x1 x2, types__Vote_ValidateBasic__if_not_vote_BlockID_IsZero_and_not_vote_BlockID_IsComplete x1 x2 = (andb (negb x1) (negb x2))) /\
  types__Vote_ValidateBasic__if_not_vote_BlockID_IsZero_and_not_vote_BlockID_IsComplete_atoms = ["vote.BlockID.IsZero() : bool"; "vote.BlockID.IsComplete() : bool"]%string /\
  (forall x1, types__Vote_ValidateBasic__if_len_vote_Signature_eq_0 x1 = (Z.eqb x1 0)) /\
  types__Vote_ValidateBasic__if_len_vote_Signature_eq_0_atoms = ["len(vote.Signature) : int"]%string /\
  types__Vote_ValidateBasic__bind_err_atoms = ["vote.BlockID.ValidateBasic()"]%string.
Lemma pins_types__Vote_ValidateBasic_ok : pins_types__Vote_ValidateBasic. Proof. hnf; split_all; repeat split. Qed.

Definition pins_types__Proposal_ValidateBasic : Prop :=
  pinned1 types__Proposal_ValidateBasic__if_err_ne_nil types__Proposal_ValidateBasic__if_err_ne_nil_atoms true "err != nil : untyped bool" /\
  pinned1 types__Proposal_ValidateBasic__if_not_p_POLBlockID_IsComplete types__Proposal_ValidateBasic__if_not_p_POLBlockID_IsComplete_atoms false "p.POLBlockID.IsComplete() : bool" /\
  (forall x1, types__Proposal_ValidateBasic__if_p_POLBlockID_PartsHeader_Total_gt_MaxBlockPartsCount x1 = (Z.gtb x1 1601)) /\
  types__Proposal_ValidateBasic__if_p_POLBlockID_PartsHeader_Total_gt_MaxBlockPartsCount_atoms = ["p.POLBlockID.PartsHeader.Total : uint32"]%string /\
  (forall x1, types__Proposal_ValidateBasic__if_len_p_Signature_eq_0 x1 = (Z.eqb x1 0)) /\
  types__Proposal_ValidateBasic__if_len_p_Signature_eq_0_atoms = ["len(p.Signature) : int"]%string /\
  types__Proposal_ValidateBasic__bind_err_atoms = ["p.POLBlockID.ValidateBasic()"]%string.
Lemma pins_types__Proposal_ValidateBasic_ok : pins_types__Proposal_ValidateBasic. Proof. hnf; split_all; repeat split. Qed.

Definition pins_types__BlockID_ValidateBasic : Prop :=
  pinned1 types__BlockID_ValidateBasic__if_err_ne_nil types__BlockID_ValidateBasic__if_err_ne_nil_atoms true "err != nil : untyped bool" /\
  types__BlockID_ValidateBasic__bind_err_atoms = ["blockID.PartsHeader.ValidateBasic()"]%string.
Lemma pins_types__BlockID_ValidateBasic_ok : pins_types__BlockID_ValidateBasic. Proof. hnf; split_all; repeat split. Qed.

Definition pins_types__BlockID_IsZero : Prop :=
  (forall x1 x2, types__BlockID_IsZero__ret_blockID_Hash_IsZero_and_blockID_PartsHeader_IsZero x1 x2 = (andb x1 x2)) /\
  types__BlockID_IsZero__ret_blockID_Hash_IsZero_and_blockID_PartsHeader_IsZero_atoms = ["blockID.Hash.IsZero() : bool"; "blockID.PartsHeader.IsZero() : bool"]%string.
Lemma pins_types__BlockID_IsZero_ok : pins_types__BlockID_IsZero. Proof. hnf; split_all; repeat split. Qed.

Definition pins_types__BlockID_IsComplete : Prop :=
  (forall x1 x2, types__BlockID_IsComplete__ret_not_blockID_Hash_IsZero_and_not_blockID_PartsHeader_IsZero x1 x2 = (andb (negb x1) (negb x2))) /\
  types__BlockID_IsComplete__ret_not_blockID_Hash_IsZero_and_not_blockID_PartsHeader_IsZero_atoms = ["blockID.Hash.IsZero() : bool"; "blockID.PartsHeader.IsZero() : bool"]%string.
Lemma pins_types__BlockID_IsComplete_ok : pins_types__BlockID_IsComplete. Proof. hnf; split_all; repeat split. Qed.

Definition pins_types__PartSetHeader_IsZero : Prop :=
  (forall x1 x2, types__PartSetHeader_IsZero__ret_psh_Total_eq_0_and_psh_Hash_IsZero x1 x2 = (andb (Z.eqb x1 0) x2)) /\
  types__PartSetHeader_IsZero__ret_psh_Total_eq_0_and_psh_Hash_IsZero_atoms = ["psh.Total : uint32"; "psh.Hash.IsZero() : bool"]%string.
Lemma pins_types__PartSetHeader_IsZero_ok : pins_types__PartSetHeader_IsZero. Proof. hnf; split_all; repeat split. Qed.

Definition pins_types__IsVoteTypeValid : Prop :=
  (forall x1, types__IsVoteTypeValid__case_t_eq_kproto_PrevoteType x1 = (Z.eqb x1 1)) /\
  types__IsVoteTypeValid__case_t_eq_kproto_PrevoteType_atoms = ["t : github.com/kardiachain/go-kardia/proto/kardiachain/types.SignedMsgType"]%string /\
  (forall x1, types__IsVoteTypeValid__case_t_eq_kproto_PrecommitType x1 = (Z.eqb x1 2)) /\
  types__IsVoteTypeValid__case_t_eq_kproto_PrecommitType_atoms = ["t : github.com/kardiachain/go-kardia/proto/kardiachain/types.SignedMsgType"]%string.
Lemma pins_types__IsVoteTypeValid_ok : pins_types__IsVoteTypeValid. Proof. hnf; split_all; repeat split. Qed.

Definition pins_blockchain__ValidateMsg : Prop :=
  pinned1 blockchain__ValidateMsg__if_pb_eq_nil blockchain__ValidateMsg__if_pb_eq_nil_atoms true "pb == nil : untyped bool" /\
  (forall x1, blockchain__ValidateMsg__if_msg_Height_lt_1 x1 = (Z.ltb x1 1)) /\
  blockchain__ValidateMsg__if_msg_Height_lt_1_atoms = ["msg.Height : uint64"]%string /\
  pinned1 blockchain__ValidateMsg__if_err_ne_nil blockchain__ValidateMsg__if_err_ne_nil_atoms true "err != nil : untyped bool" /\
  (forall x1, blockchain__ValidateMsg__if_msg_Height_lt_1_2 x1 = (Z.ltb x1 1)) /\
  blockchain__ValidateMsg__if_msg_Height_lt_1_2_atoms = ["msg.Height : uint64"]%string /\
  (forall x1 x2, blockchain__ValidateMsg__if_msg_Base_gt_msg_Height x1 x2 = (Z.gtb x1 x2)) /\
  blockchain__ValidateMsg__if_msg_Base_gt_msg_Height_atoms = ["msg.Base : uint64"; "msg.Height : uint64"]%string /\
  blockchain__ValidateMsg__bind_err_atoms = ["types.BlockFromProto(msg.Block, trie.NewStackTrie(nil))"]%string.
Lemma pins_blockchain__ValidateMsg_ok : pins_blockchain__ValidateMsg. Proof. hnf; split_all; repeat split. Qed.

Definition pins_blockchain__BlockchainReactor_Receive : Prop :=
  pinned1 blockchain__BlockchainReactor_Receive__if_err_ne_nil blockchain__BlockchainReactor_Receive__if_err_ne_nil_atoms true "err != nil : untyped bool" /\
  pinned1 blockchain__BlockchainReactor_Receive__if_err_ne_nil_2 blockchain__BlockchainReactor_Receive__if_err_ne_nil_2_atoms true "err != nil : untyped bool" /\
  pinned1 blockchain__BlockchainReactor_Receive__if_err_ne_nil_3 blockchain__BlockchainReactor_Receive__if_err_ne_nil_3_atoms true "err != nil : untyped bool" /\
  pinned1 blockchain__BlockchainReactor_Receive__if_block_ne_nil blockchain__BlockchainReactor_Receive__if_block_ne_nil_atoms true "block != nil : untyped bool" /\
  pinned1 blockchain__BlockchainReactor_Receive__if_err_ne_nil_4 blockchain__BlockchainReactor_Receive__if_err_ne_nil_4_atoms true "err != nil : untyped bool" /\
  pinned1 blockchain__BlockchainReactor_Receive__if_err_ne_nil_5 blockchain__BlockchainReactor_Receive__if_err_ne_nil_5_atoms true "err != nil : untyped bool" /\
  pinned1 blockchain__BlockchainReactor_Receive__if_err_ne_nil_6 blockchain__BlockchainReactor_Receive__if_err_ne_nil_6_atoms true "err != nil : untyped bool" /\
  blockchain__BlockchainReactor_Receive__bind_msg_err_atoms = ["DecodeMsg(msgBytes)"]%string /\
  blockchain__BlockchainReactor_Receive__bind_err_atoms = ["ValidateMsg(msg)"]%string /\
  blockchain__BlockchainReactor_Receive__bind_err_2_atoms = ["r.io.sendStatusResponse(r.store.Base(), r.store.Height(), src.ID())"]%string /\
  blockchain__BlockchainReactor_Receive__bind_block_atoms = ["r.store.LoadBlock(msg.Height)"]%string /\
  blockchain__BlockchainReactor_Receive__bind_err_3_atoms = ["r.io.sendBlockToPeer(block, src.ID())"]%string /\
  blockchain__BlockchainReactor_Receive__bind_peerID_atoms = ["src.ID()"]%string /\
  blockchain__BlockchainReactor_Receive__bind_err_4_atoms = ["r.io.sendBlockNotFound(msg.Height, peerID)"]%string /\
  blockchain__BlockchainReactor_Receive__bind_bi_err_atoms = ["types.BlockFromProto(msg.Block, trie.NewStackTrie(nil))"]%string.
Lemma pins_blockchain__BlockchainReactor_Receive_ok : pins_blockchain__BlockchainReactor_Receive. Proof. hnf; split_all; repeat split. Qed.

Definition pins_mainchain_tx_pool__decodeMsg : Prop :=
  pinned1 mainchain_tx_pool__decodeMsg__if_err_ne_nil mainchain_tx_pool__decodeMsg__if_err_ne_nil_atoms true "err != nil : untyped bool" /\
  (forall x1, mainchain_tx_pool__decodeMsg__if_len_txs_eq_0 x1 = (Z.eqb x1 0)) /\
  mainchain_tx_pool__decodeMsg__if_len_txs_eq_0_atoms = ["len(txs) : int"]%string /\
  pinned1 mainchain_tx_pool__decodeMsg__if_err_ne_nil_2 mainchain_tx_pool__decodeMsg__if_err_ne_nil_2_atoms true "err != nil : untyped bool" /\
  (forall x1, mainchain_tx_pool__decodeMsg__if_len_hashes_eq_0 x1 = (Z.eqb x1 0)) /\
  mainchain_tx_pool__decodeMsg__if_len_hashes_eq_0_atoms = ["len(hashes) : int"]%string /\
  (forall x1, mainchain_tx_pool__decodeMsg__if_len_txs_eq_0_2 x1 = (Z.eqb x1 0)) /\
  mainchain_tx_pool__decodeMsg__if_len_txs_eq_0_2_atoms = ["len(txs) : int"]%string /\
  pinned1 mainchain_tx_pool__decodeMsg__if_err_ne_nil_3 mainchain_tx_pool__decodeMsg__if_err_ne_nil_3_atoms true "err != nil : untyped bool" /\
  (forall x1, mainchain_tx_pool__decodeMsg__if_len_hashes_eq_0_2 x1 = (Z.eqb x1 0)) /\
  mainchain_tx_pool__decodeMsg__if_len_hashes_eq_0_2_atoms = ["len(hashes) : int"]%string /\
  mainchain_tx_pool__decodeMsg__bind_err_atoms = ["msg.Unmarshal(bz)"]%string /\
  mainchain_tx_pool__decodeMsg__bind_txs_atoms = ["msg.Txs.GetTxs()"]%string /\
  mainchain_tx_pool__decodeMsg__bind_decoded_atoms = ["make([]*types.Transaction, len(txs))"]%string /\
  mainchain_tx_pool__decodeMsg__bind_err_2_atoms = ["rlp.DecodeBytes(txBytes, tx)"]%string /\
  mainchain_tx_pool__decodeMsg__bind_decoded_2_atoms = ["make(NewPooledTransactionHashes, len(hashes))"]%string /\
  mainchain_tx_pool__decodeMsg__bind_pooledTransactions_atoms = ["make(PooledTransactions, len(txs))"]%string /\
  mainchain_tx_pool__decodeMsg__bind_err_3_atoms = ["rlp.DecodeBytes(txBytes, tx)"]%string /\
  mainchain_tx_pool__decodeMsg__bind_decoded_3_atoms = ["make(RequestPooledTransactionHashes, len(hashes))"]%string.
Lemma pins_mainchain_tx_pool__decodeMsg_ok : pins_mainchain_tx_pool__decodeMsg. Proof. hnf; split_all; repeat split. Qed.

Definition pins_mainchain_tx_pool__Reactor_Receive : Prop :=
  pinned1 mainchain_tx_pool__Reactor_Receive__if_err_ne_nil mainchain_tx_pool__Reactor_Receive__if_err_ne_nil_atoms true "err != nil : untyped bool" /\
  pinned1 mainchain_tx_pool__Reactor_Receive__if_p_eq_nil mainchain_tx_pool__Reactor_Receive__if_p_eq_nil_atoms true "p == nil : untyped bool" /\
  pinned1 mainchain_tx_pool__Reactor_Receive__if_err_ne_nil_2 mainchain_tx_pool__Reactor_Receive__if_err_ne_nil_2_atoms true "err != nil : untyped bool" /\
  pinned1 mainchain_tx_pool__Reactor_Receive__if_err_ne_nil_3 mainchain_tx_pool__Reactor_Receive__if_err_ne_nil_3_atoms true "err != nil : untyped bool" /\
  pinned1 mainchain_tx_pool__Reactor_Receive__if_err_ne_nil_4 mainchain_tx_pool__Reactor_Receive__if_err_ne_nil_4_atoms true "err != nil : untyped bool" /\
  mainchain_tx_pool__Reactor_Receive__bind_msg_err_atoms = ["decodeMsg(msgBytes)"]%string /\
  mainchain_tx_pool__Reactor_Receive__bind_peerID_atoms = ["string(src.ID())"]%string /\
  mainchain_tx_pool__Reactor_Receive__bind_p_atoms = ["txR.peers.Peer(src.ID())"]%string /\
  mainchain_tx_pool__Reactor_Receive__bind_err_atoms = ["txR.txFetcher.Enqueue(peerID, m.Txs, false)"]%string /\
  mainchain_tx_pool__Reactor_Receive__bind_err_2_atoms = ["txR.txFetcher.Enqueue(peerID, m, true)"]%string /\
  mainchain_tx_pool__Reactor_Receive__bind_err_3_atoms = ["txR.txFetcher.Notify(peerID, m)"]%string.
Lemma pins_mainchain_tx_pool__Reactor_Receive_ok : pins_mainchain_tx_pool__Reactor_Receive. Proof. hnf; split_all; repeat split. Qed.

Definition pins_mainchain_tx_pool__Reactor_RemovePeer : Prop :=
  pinned1 mainchain_tx_pool__Reactor_RemovePeer__if_err_ne_nil mainchain_tx_pool__Reactor_RemovePeer__if_err_ne_nil_atoms true "err != nil : untyped bool" /\
  pinned1 mainchain_tx_pool__Reactor_RemovePeer__if_err_ne_nil_2 mainchain_tx_pool__Reactor_RemovePeer__if_err_ne_nil_2_atoms true "err != nil : untyped bool" /\
  mainchain_tx_pool__Reactor_RemovePeer__bind_err_atoms = ["txR.peers.Unregister(peer.ID())"]%string /\
  mainchain_tx_pool__Reactor_RemovePeer__bind_err_2_atoms = ["txR.txFetcher.Drop(string(peer.ID()))"]%string.
Lemma pins_mainchain_tx_pool__Reactor_RemovePeer_ok : pins_mainchain_tx_pool__Reactor_RemovePeer. Proof. hnf; split_all; repeat split. Qed.

Definition pins_mainchain_tx_pool__Reactor_fetchTx : Prop :=
  pinned1 mainchain_tx_pool__Reactor_fetchTx__if_p_eq_nil mainchain_tx_pool__Reactor_fetchTx__if_p_eq_nil_atoms true "p == nil : untyped bool" /\
  mainchain_tx_pool__Reactor_fetchTx__bind_p_atoms = ["txR.peers.Peer(p2p.ID(peer))"]%string.
Lemma pins_mainchain_tx_pool__Reactor_fetchTx_ok : pins_mainchain_tx_pool__Reactor_fetchTx. Proof. hnf; split_all; repeat split. Qed.

Definition pins_mainchain_fetcher__TxFetcher_Notify : Prop :=
  pinned1 mainchain_fetcher__TxFetcher_Notify__case_f_hasTx_hash mainchain_fetcher__TxFetcher_Notify__case_f_hasTx_hash_atoms true "f.hasTx(hash) : bool" /\
  (forall x1, mainchain_fetcher__TxFetcher_Notify__set_duplicate_op x1 = (go_add I64 x1 1)) /\
  mainchain_fetcher__TxFetcher_Notify__set_duplicate_op_atoms = ["duplicate : int64"]%string /\
  pinned1 mainchain_fetcher__TxFetcher_Notify__case_f_underpriced_Contains_hash mainchain_fetcher__TxFetcher_Notify__case_f_underpriced_Contains_hash_atoms true "f.underpriced.Contains(hash) : bool" /\
  (forall x1, mainchain_fetcher__TxFetcher_Notify__set_underpriced_op x1 = (go_add I64 x1 1)) /\
  mainchain_fetcher__TxFetcher_Notify__set_underpriced_op_atoms = ["underpriced : int64"]%string /\
  (forall x1, mainchain_fetcher__TxFetcher_Notify__if_len_unknowns_eq_0 x1 = (Z.eqb x1 0)) /\
  mainchain_fetcher__TxFetcher_Notify__if_len_unknowns_eq_0_atoms = ["len(unknowns) : int"]%string /\
  mainchain_fetcher__TxFetcher_Notify__bind_unknowns_atoms = ["append(unknowns, hash)"]%string.
Lemma pins_mainchain_fetcher__TxFetcher_Notify_ok : pins_mainchain_fetcher__TxFetcher_Notify. Proof. hnf; split_all; repeat split. Qed.

Definition pins_mainchain_fetcher__TxFetcher_Enqueue : Prop :=
  pinned1 mainchain_fetcher__TxFetcher_Enqueue__if_direct mainchain_fetcher__TxFetcher_Enqueue__if_direct_atoms true "direct : bool" /\
  (forall x1 x2, mainchain_fetcher__TxFetcher_Enqueue__if_errors_Is_err_ErrUnderpriced_or_errors_Is_err_ErrReplaceUnderpriced x1 x2 = (orb x1 x2)) /\
  mainchain_fetcher__TxFetcher_Enqueue__if_errors_Is_err_ErrUnderpriced_or_errors_Is_err_ErrReplaceUnderpriced_atoms = ["errors.Is(err, ErrUnderpriced) : bool"; "errors.Is(err, ErrReplaceUnderpriced) : bool"]%string /\
  (forall x1, mainchain_fetcher__TxFetcher_Enqueue__for_f_underpriced_Cardinality_ge_maxTxUnderpricedSetSize x1 = (Z.geb x1 32768)) /\
  mainchain_fetcher__TxFetcher_Enqueue__for_f_underpriced_Cardinality_ge_maxTxUnderpricedSetSize_atoms = ["f.underpriced.Cardinality() : int"]%string /\
  pinned1 mainchain_fetcher__TxFetcher_Enqueue__if_errors_Is_err_ErrBlacklistedSender mainchain_fetcher__TxFetcher_Enqueue__if_errors_Is_err_ErrBlacklistedSender_atoms true "errors.Is(err, ErrBlacklistedSender) : bool" /\
  pinned1 mainchain_fetcher__TxFetcher_Enqueue__case_err_eq_nil mainchain_fetcher__TxFetcher_Enqueue__case_err_eq_nil_atoms true "err == nil : bool" /\
  pinned1 mainchain_fetcher__TxFetcher_Enqueue__case_errors_Is_err_ErrAlreadyKnown mainchain_fetcher__TxFetcher_Enqueue__case_errors_Is_err_ErrAlreadyKnown_atoms true "errors.Is(err, ErrAlreadyKnown) : bool" /\
  (forall x1, mainchain_fetcher__TxFetcher_Enqueue__set_duplicate_op x1 = (go_add I64 x1 1)) /\
  mainchain_fetcher__TxFetcher_Enqueue__set_duplicate_op_atoms = ["duplicate : int64"]%string /\
  (forall x1 x2, mainchain_fetcher__TxFetcher_Enqueue__case_errors_Is_err_ErrUnderpriced_or_errors_Is_err_ErrReplaceUnderpriced x1 x2 = (orb x1 x2)) /\
  mainchain_fetcher__TxFetcher_Enqueue__case_errors_Is_err_ErrUnderpriced_or_errors_Is_err_ErrReplaceUnderpriced_atoms = ["errors.Is(err, ErrUnderpriced) : bool"; "errors.Is(err, ErrReplaceUnderpriced) : bool"]%string /\
  (forall x1, mainchain_fetcher__TxFetcher_Enqueue__set_underpriced_op x1 = (go_add I64 x1 1)) /\
  mainchain_fetcher__TxFetcher_Enqueue__set_underpriced_op_atoms = ["underpriced : int64"]%string /\
  (forall x1, mainchain_fetcher__TxFetcher_Enqueue__set_otherreject_op x1 = (go_add I64 x1 1)) /\
  mainchain_fetcher__TxFetcher_Enqueue__set_otherreject_op_atoms = ["otherreject : int64"]%string /\
  pinned1 mainchain_fetcher__TxFetcher_Enqueue__if_direct_2 mainchain_fetcher__TxFetcher_Enqueue__if_direct_2_atoms true "direct : bool" /\
  mainchain_fetcher__TxFetcher_Enqueue__bind_errs_atoms = ["f.addTxs(txs)"]%string /\
  mainchain_fetcher__TxFetcher_Enqueue__bind_added_atoms = ["append(added, txs[i].Hash())"]%string.
Lemma pins_mainchain_fetcher__TxFetcher_Enqueue_ok : pins_mainchain_fetcher__TxFetcher_Enqueue. Proof. hnf; split_all; repeat split. Qed.

Definition pins_mainchain_fetcher__TxFetcher_loop : Prop :=
  (forall x1 x2, mainchain_fetcher__TxFetcher_loop__set_used x1 x2 = (go_add I64 x1 x2)) /\
  mainchain_fetcher__TxFetcher_loop__set_used_atoms = ["len(f.waitslots[ann.origin]) : int"; "len(f.announces[ann.origin]) : int"]%string /\
  (forall x1, mainchain_fetcher__TxFetcher_loop__if_used_ge_maxTxAnnounces x1 = (Z.geb x1 4096)) /\
  mainchain_fetcher__TxFetcher_loop__if_used_ge_maxTxAnnounces_atoms = ["used : int"]%string /\
  (forall x1 x2, mainchain_fetcher__TxFetcher_loop__set_want x1 x2 = (go_add I64 x1 x2)) /\
  mainchain_fetcher__TxFetcher_loop__set_want_atoms = ["used : int"; "len(ann.hashes) : int"]%string /\
  (forall x1, mainchain_fetcher__TxFetcher_loop__if_want_gt_maxTxAnnounces x1 = (Z.gtb x1 4096)) /\
  mainchain_fetcher__TxFetcher_loop__if_want_gt_maxTxAnnounces_atoms = ["want : int"]%string /\
  (forall x1, mainchain_fetcher__TxFetcher_loop__arg_int64_want_minus_maxTxAnnounces x1 = (go_conv I64 (go_sub I64 x1 4096))) /\
  mainchain_fetcher__TxFetcher_loop__arg_int64_want_minus_maxTxAnnounces_atoms = ["want : int"]%string /\
  (forall x1, mainchain_fetcher__TxFetcher_loop__set_idleWait x1 = (Z.eqb x1 0)) /\
  mainchain_fetcher__TxFetcher_loop__set_idleWait_atoms = ["len(f.waittime) : int"]%string /\
  pinned1 mainchain_fetcher__TxFetcher_loop__if_f_alternates_at_hash_ne_nil mainchain_fetcher__TxFetcher_loop__if_f_alternates_at_hash_ne_nil_atoms true "f.alternates[hash] != nil : untyped bool" /\
  pinned1 mainchain_fetcher__TxFetcher_loop__if_announces_ne_nil mainchain_fetcher__TxFetcher_loop__if_announces_ne_nil_atoms true "announces != nil : untyped bool" /\
  pinned1 mainchain_fetcher__TxFetcher_loop__if_f_announced_at_hash_ne_nil mainchain_fetcher__TxFetcher_loop__if_f_announced_at_hash_ne_nil_atoms true "f.announced[hash] != nil : untyped bool" /\
  pinned1 mainchain_fetcher__TxFetcher_loop__if_announces_ne_nil_2 mainchain_fetcher__TxFetcher_loop__if_announces_ne_nil_2_atoms true "announces != nil : untyped bool" /\
  pinned1 mainchain_fetcher__TxFetcher_loop__if_f_waitlist_at_hash_ne_nil mainchain_fetcher__TxFetcher_loop__if_f_waitlist_at_hash_ne_nil_atoms true "f.waitlist[hash] != nil : untyped bool" /\
  pinned1 mainchain_fetcher__TxFetcher_loop__if_waitslots_ne_nil mainchain_fetcher__TxFetcher_loop__if_waitslots_ne_nil_atoms true "waitslots != nil : untyped bool" /\
  (forall x1, mainchain_fetcher__TxFetcher_loop__let_assign x1 = x1) /\
  mainchain_fetcher__TxFetcher_loop__let_assign_atoms = ["f.clock.Now() : github.com/kardiachain/go-kardia/lib/mclock.AbsTime"]%string /\
  pinned1 mainchain_fetcher__TxFetcher_loop__if_waitslots_ne_nil_2 mainchain_fetcher__TxFetcher_loop__if_waitslots_ne_nil_2_atoms true "waitslots != nil : untyped bool" /\
  (forall x1 x2, mainchain_fetcher__TxFetcher_loop__if_idleWait_and_len_f_waittime_gt_0 x1 x2 = (andb x1 (Z.gtb x2 0))) /\
  mainchain_fetcher__TxFetcher_loop__if_idleWait_and_len_f_waittime_gt_0_atoms = ["idleWait : bool"; "len(f.waittime) : int"]%string /\
  (forall x1 x2, mainchain_fetcher__TxFetcher_loop__if_not_oldPeer_and_len_f_announces_at_ann_origin_gt_0 x1 x2 = (andb (negb x1) (Z.gtb x2 0))) /\
  mainchain_fetcher__TxFetcher_loop__if_not_oldPeer_and_len_f_announces_at_ann_origin_gt_0_atoms = ["oldPeer : bool"; "len(f.announces[ann.origin]) : int"]%string /\
  pinned1 mainchain_fetcher__TxFetcher_loop__if_f_announced_at_hash_ne_nil_2 mainchain_fetcher__TxFetcher_loop__if_f_announced_at_hash_ne_nil_2_atoms true "f.announced[hash] != nil : untyped bool" /\
  pinned1 mainchain_fetcher__TxFetcher_loop__if_announces_ne_nil_3 mainchain_fetcher__TxFetcher_loop__if_announces_ne_nil_3_atoms true "announces != nil : untyped bool" /\
  (forall x1, mainchain_fetcher__TxFetcher_loop__if_len_f_waitslots_at_peer_eq_0 x1 = (Z.eqb x1 0)) /\
  mainchain_fetcher__TxFetcher_loop__if_len_f_waitslots_at_peer_eq_0_atoms = ["len(f.waitslots[peer]) : int"]%string /\
  (forall x1, mainchain_fetcher__TxFetcher_loop__if_len_f_waittime_gt_0 x1 = (Z.gtb x1 0)) /\
  mainchain_fetcher__TxFetcher_loop__if_len_f_waittime_gt_0_atoms = ["len(f.waittime) : int"]%string /\
  (forall x1, mainchain_fetcher__TxFetcher_loop__if_len_actives_gt_0 x1 = (Z.gtb x1 0)) /\
  mainchain_fetcher__TxFetcher_loop__if_len_actives_gt_0_atoms = ["len(actives) : int"]%string /\
  pinned1 mainchain_fetcher__TxFetcher_loop__if_req_stolen_ne_nil mainchain_fetcher__TxFetcher_loop__if_req_stolen_ne_nil_atoms true "req.stolen != nil : untyped bool" /\
  pinned1 mainchain_fetcher__TxFetcher_loop__if_ok mainchain_fetcher__TxFetcher_loop__if_ok_atoms true "ok : bool" /\
  pinned1 mainchain_fetcher__TxFetcher_loop__if_ok_2 mainchain_fetcher__TxFetcher_loop__if_ok_2_atoms true "ok : bool" /\
  pinned1 mainchain_fetcher__TxFetcher_loop__if_f_alternates_at_hash_ne_nil_2 mainchain_fetcher__TxFetcher_loop__if_f_alternates_at_hash_ne_nil_2_atoms true "f.alternates[hash] != nil : untyped bool" /\
  (forall x1, mainchain_fetcher__TxFetcher_loop__if_len_f_announced_at_hash_eq_0 x1 = (Z.eqb x1 0)) /\
  mainchain_fetcher__TxFetcher_loop__if_len_f_announced_at_hash_eq_0_atoms = ["len(f.announced[hash]) : int"]%string /\
  (forall x1, mainchain_fetcher__TxFetcher_loop__if_len_f_announces_at_peer_eq_0 x1 = (Z.eqb x1 0)) /\
  mainchain_fetcher__TxFetcher_loop__if_len_f_announces_at_peer_eq_0_atoms = ["len(f.announces[peer]) : int"]%string /\
  pinned1 mainchain_fetcher__TxFetcher_loop__if_ok_3 mainchain_fetcher__TxFetcher_loop__if_ok_3_atoms true "ok : bool" /\
  (forall x1, mainchain_fetcher__TxFetcher_loop__if_len_txset_eq_0 x1 = (Z.eqb x1 0)) /\
  mainchain_fetcher__TxFetcher_loop__if_len_txset_eq_0_atoms = ["len(txset) : int"]%string /\
  (forall x1, mainchain_fetcher__TxFetcher_loop__if_len_txset_eq_0_2 x1 = (Z.eqb x1 0)) /\
  mainchain_fetcher__TxFetcher_loop__if_len_txset_eq_0_2_atoms = ["len(txset) : int"]%string /\
  (forall x1 x2 x3, mainchain_fetcher__TxFetcher_loop__if_ok_and_origin_ne_delivery_origin_or_not_delivery_direct x1 x2 x3 = (andb x1 (orb x2 (negb x3)))) /\
  mainchain_fetcher__TxFetcher_loop__if_ok_and_origin_ne_delivery_origin_or_not_delivery_direct_atoms = ["ok : bool"; "origin != delivery.origin : bool"; "delivery.direct : bool"]%string /\
  pinned1 mainchain_fetcher__TxFetcher_loop__if_stolen_eq_nil mainchain_fetcher__TxFetcher_loop__if_stolen_eq_nil_atoms true "stolen == nil : untyped bool" /\
  pinned1 mainchain_fetcher__TxFetcher_loop__if_delivery_direct mainchain_fetcher__TxFetcher_loop__if_delivery_direct_atoms true "delivery.direct : bool" /\
  pinned1 mainchain_fetcher__TxFetcher_loop__if_req_eq_nil mainchain_fetcher__TxFetcher_loop__if_req_eq_nil_atoms true "req == nil : untyped bool" /\
  (forall x1, mainchain_fetcher__TxFetcher_loop__let_cutoff x1 = x1) /\
  mainchain_fetcher__TxFetcher_loop__let_cutoff_atoms = ["len(req.hashes) : int"]%string /\
  pinned1 mainchain_fetcher__TxFetcher_loop__if_ok_4 mainchain_fetcher__TxFetcher_loop__if_ok_4_atoms true "ok : bool" /\
  pinned1 mainchain_fetcher__TxFetcher_loop__if_req_stolen_ne_nil_2 mainchain_fetcher__TxFetcher_loop__if_req_stolen_ne_nil_2_atoms true "req.stolen != nil : untyped bool" /\
  pinned1 mainchain_fetcher__TxFetcher_loop__if_ok_5 mainchain_fetcher__TxFetcher_loop__if_ok_5_atoms true "ok : bool" /\
  pinned1 mainchain_fetcher__TxFetcher_loop__if_not_ok mainchain_fetcher__TxFetcher_loop__if_not_ok_atoms false "ok : bool" /\
  (forall x1 x2, mainchain_fetcher__TxFetcher_loop__if_i_lt_cutoff x1 x2 = (Z.ltb x1 x2)) /\
  mainchain_fetcher__TxFetcher_loop__if_i_lt_cutoff_atoms = ["i : int"; "cutoff : int"]%string /\
  (forall x1, mainchain_fetcher__TxFetcher_loop__if_len_f_announces_at_delivery_origin_eq_0 x1 = (Z.eqb x1 0)) /\
  mainchain_fetcher__TxFetcher_loop__if_len_f_announces_at_delivery_origin_eq_0_atoms = ["len(f.announces[delivery.origin]) : int"]%string /\
  (forall x1, mainchain_fetcher__TxFetcher_loop__if_len_f_alternates_at_hash_gt_0 x1 = (Z.gtb x1 0)) /\
  mainchain_fetcher__TxFetcher_loop__if_len_f_alternates_at_hash_gt_0_atoms = ["len(f.alternates[hash]) : int"]%string /\
  pinned1 mainchain_fetcher__TxFetcher_loop__if_ok_6 mainchain_fetcher__TxFetcher_loop__if_ok_6_atoms true "ok : bool" /\
  pinned1 mainchain_fetcher__TxFetcher_loop__if_ok_7 mainchain_fetcher__TxFetcher_loop__if_ok_7_atoms true "ok : bool" /\
  (forall x1, mainchain_fetcher__TxFetcher_loop__if_len_f_waitlist_at_hash_eq_0 x1 = (Z.eqb x1 0)) /\
  mainchain_fetcher__TxFetcher_loop__if_len_f_waitlist_at_hash_eq_0_atoms = ["len(f.waitlist[hash]) : int"]%string /\
  (forall x1, mainchain_fetcher__TxFetcher_loop__if_len_f_waitlist_gt_0 x1 = (Z.gtb x1 0)) /\
  mainchain_fetcher__TxFetcher_loop__if_len_f_waitlist_gt_0_atoms = ["len(f.waitlist) : int"]%string /\
  pinned1 mainchain_fetcher__TxFetcher_loop__if_request_ne_nil mainchain_fetcher__TxFetcher_loop__if_request_ne_nil_atoms true "request != nil : untyped bool" /\
  pinned1 mainchain_fetcher__TxFetcher_loop__if_request_stolen_ne_nil mainchain_fetcher__TxFetcher_loop__if_request_stolen_ne_nil_atoms true "request.stolen != nil : untyped bool" /\
  pinned1 mainchain_fetcher__TxFetcher_loop__if_ok_8 mainchain_fetcher__TxFetcher_loop__if_ok_8_atoms true "ok : bool" /\
  (forall x1, mainchain_fetcher__TxFetcher_loop__if_len_f_alternates_at_hash_eq_0 x1 = (Z.eqb x1 0)) /\
  mainchain_fetcher__TxFetcher_loop__if_len_f_alternates_at_hash_eq_0_atoms = ["len(f.alternates[hash]) : int"]%string /\
  pinned1 mainchain_fetcher__TxFetcher_loop__if_ok_9 mainchain_fetcher__TxFetcher_loop__if_ok_9_atoms true "ok : bool" /\
  (forall x1, mainchain_fetcher__TxFetcher_loop__if_len_f_announced_at_hash_eq_0_2 x1 = (Z.eqb x1 0)) /\
  mainchain_fetcher__TxFetcher_loop__if_len_f_announced_at_hash_eq_0_2_atoms = ["len(f.announced[hash]) : int"]%string /\
  pinned1 mainchain_fetcher__TxFetcher_loop__if_alts_ne_nil mainchain_fetcher__TxFetcher_loop__if_alts_ne_nil_atoms true "alts != nil : untyped bool" /\
  pinned1 mainchain_fetcher__TxFetcher_loop__if_request_ne_nil_2 mainchain_fetcher__TxFetcher_loop__if_request_ne_nil_2_atoms true "request != nil : untyped bool" /\
  (forall x1 x2, mainchain_fetcher__TxFetcher_loop__arg_int64_len_f_announces_minus_len_f_requests x1 x2 = (go_conv I64 (go_sub I64 x1 x2))) /\
  mainchain_fetcher__TxFetcher_loop__arg_int64_len_f_announces_minus_len_f_requests_atoms = ["len(f.announces) : int"; "len(f.requests) : int"]%string /\
  pinned1 mainchain_fetcher__TxFetcher_loop__if_f_step_ne_nil mainchain_fetcher__TxFetcher_loop__if_f_step_ne_nil_atoms true "f.step != nil : untyped bool" /\
  mainchain_fetcher__TxFetcher_loop__bind_actives_atoms = ["make(map[string]struct{})"]%string /\
  mainchain_fetcher__TxFetcher_loop__bind_delivered_atoms = ["make(map[common.Hash]struct{})"]%string.
Lemma pins_mainchain_fetcher__TxFetcher_loop_ok : pins_mainchain_fetcher__TxFetcher_loop. Proof. hnf; split_all; repeat split. Qed.

Definition pins_mainchain_fetcher__TxFetcher_loop__if_time_Duration_f_clock_Now_minus_instance_plus_txGatherSlack : Prop :=
  (forall x1 x2, mainchain_fetcher__TxFetcher_loop__if_time_Duration_f_clock_Now_minus_instance_plus_txGatherSlack__ad1ffaf4 x1 x2 = (Z.gtb (go_add I64 (go_conv I64 (go_sub I64 x1 x2)) 100000000) 500000000)) /\
  mainchain_fetcher__TxFetcher_loop__if_time_Duration_f_clock_Now_minus_instance_plus_txGatherSlack__ad1ffaf4_atoms = ["f.clock.Now() : github.com/kardiachain/go-kardia/lib/mclock.AbsTime"; "instance : github.com/kardiachain/go-kardia/lib/mclock.AbsTime"]%string.
Lemma pins_mainchain_fetcher__TxFetcher_loop__if_time_Duration_f_clock_Now_minus_instance_plus_txGatherSlack_ok : pins_mainchain_fetcher__TxFetcher_loop__if_time_Duration_f_clock_Now_minus_instance_plus_txGatherSlack. Proof. hnf; split_all; repeat split. Qed.

Definition pins_mainchain_fetcher__TxFetcher_loop__if_time_Duration_f_clock_Now_minus_req_time_plus_txGatherSlack : Prop :=
  (forall x1 x2 x3, mainchain_fetcher__TxFetcher_loop__if_time_Duration_f_clock_Now_minus_req_time_plus_txGatherSlack__0c5cb80d x1 x2 x3 = (Z.gtb (go_add I64 (go_conv I64 (go_sub I64 x1 x2)) 100000000) x3)) /\
  mainchain_fetcher__TxFetcher_loop__if_time_Duration_f_clock_Now_minus_req_time_plus_txGatherSlack__0c5cb80d_atoms = ["f.clock.Now() : github.com/kardiachain/go-kardia/lib/mclock.AbsTime"; "req.time : github.com/kardiachain/go-kardia/lib/mclock.AbsTime"; "txFetchTimeout : time.Duration"]%string.
Lemma pins_mainchain_fetcher__TxFetcher_loop__if_time_Duration_f_clock_Now_minus_req_time_plus_txGatherSlack_ok : pins_mainchain_fetcher__TxFetcher_loop__if_time_Duration_f_clock_Now_minus_req_time_plus_txGatherSlack. Proof. hnf; split_all; repeat split. Qed.

Definition pins_mainchain_fetcher__TxFetcher_rescheduleWait : Prop :=
  pinned1 mainchain_fetcher__TxFetcher_rescheduleWait__if_mul_timer_ne_nil mainchain_fetcher__TxFetcher_rescheduleWait__if_mul_timer_ne_nil_atoms true "*timer != nil : untyped bool" /\
  (forall x1, mainchain_fetcher__TxFetcher_rescheduleWait__let_now x1 = x1) /\
  mainchain_fetcher__TxFetcher_rescheduleWait__let_now_atoms = ["f.clock.Now() : github.com/kardiachain/go-kardia/lib/mclock.AbsTime"]%string /\
  (forall x1 x2, mainchain_fetcher__TxFetcher_rescheduleWait__if_earliest_gt_instance x1 x2 = (Z.gtb x1 x2)) /\
  mainchain_fetcher__TxFetcher_rescheduleWait__if_earliest_gt_instance_atoms = ["earliest : github.com/kardiachain/go-kardia/lib/mclock.AbsTime"; "instance : github.com/kardiachain/go-kardia/lib/mclock.AbsTime"]%string /\
  (forall x1 x2, mainchain_fetcher__TxFetcher_rescheduleWait__if_txArriveTimeout_minus_time_Duration_now_minus_earliest_lt_gatherSlack x1 x2 = (Z.ltb (go_sub I64 500000000 (go_conv I64 (go_sub I64 x1 x2))) 100000000)) /\
  mainchain_fetcher__TxFetcher_rescheduleWait__if_txArriveTimeout_minus_time_Duration_now_minus_earliest_lt_gatherSlack_atoms = ["now : github.com/kardiachain/go-kardia/lib/mclock.AbsTime"; "earliest : github.com/kardiachain/go-kardia/lib/mclock.AbsTime"]%string /\
  (forall x1 x2, mainchain_fetcher__TxFetcher_rescheduleWait__arg_txArriveTimeout_minus_time_Duration_now_minus_earliest x1 x2 = (go_sub I64 500000000 (go_conv I64 (go_sub I64 x1 x2)))) /\
  mainchain_fetcher__TxFetcher_rescheduleWait__arg_txArriveTimeout_minus_time_Duration_now_minus_earliest_atoms = ["now : github.com/kardiachain/go-kardia/lib/mclock.AbsTime"; "earliest : github.com/kardiachain/go-kardia/lib/mclock.AbsTime"]%string.
Lemma pins_mainchain_fetcher__TxFetcher_rescheduleWait_ok : pins_mainchain_fetcher__TxFetcher_rescheduleWait. Proof. hnf; split_all; repeat split. Qed.

Definition pins_mainchain_fetcher__TxFetcher_rescheduleTimeout : Prop :=
  pinned1 mainchain_fetcher__TxFetcher_rescheduleTimeout__if_mul_timer_ne_nil mainchain_fetcher__TxFetcher_rescheduleTimeout__if_mul_timer_ne_nil_atoms true "*timer != nil : untyped bool" /\
  (forall x1, mainchain_fetcher__TxFetcher_rescheduleTimeout__let_now x1 = x1) /\
  mainchain_fetcher__TxFetcher_rescheduleTimeout__let_now_atoms = ["f.clock.Now() : github.com/kardiachain/go-kardia/lib/mclock.AbsTime"]%string /\
  pinned1 mainchain_fetcher__TxFetcher_rescheduleTimeout__if_req_hashes_eq_nil mainchain_fetcher__TxFetcher_rescheduleTimeout__if_req_hashes_eq_nil_atoms true "req.hashes == nil : untyped bool" /\
  (forall x1 x2, mainchain_fetcher__TxFetcher_rescheduleTimeout__if_earliest_gt_req_time x1 x2 = (Z.gtb x1 x2)) /\
  mainchain_fetcher__TxFetcher_rescheduleTimeout__if_earliest_gt_req_time_atoms = ["earliest : github.com/kardiachain/go-kardia/lib/mclock.AbsTime"; "req.time : github.com/kardiachain/go-kardia/lib/mclock.AbsTime"]%string /\
  (forall x1 x2 x3, mainchain_fetcher__TxFetcher_rescheduleTimeout__if_txFetchTimeout_minus_time_Duration_now_minus_earliest_lt_gatherSlack x1 x2 x3 = (Z.ltb (go_sub I64 x1 (go_conv I64 (go_sub I64 x2 x3))) 100000000)) /\
  mainchain_fetcher__TxFetcher_rescheduleTimeout__if_txFetchTimeout_minus_time_Duration_now_minus_earliest_lt_gatherSlack_atoms = ["txFetchTimeout : time.Duration"; "now : github.com/kardiachain/go-kardia/lib/mclock.AbsTime"; "earliest : github.com/kardiachain/go-kardia/lib/mclock.AbsTime"]%string /\
  (forall x1 x2 x3, mainchain_fetcher__TxFetcher_rescheduleTimeout__arg_txFetchTimeout_minus_time_Duration_now_minus_earliest x1 x2 x3 = (go_sub I64 x1 (go_conv I64 (go_sub I64 x2 x3)))) /\
  mainchain_fetcher__TxFetcher_rescheduleTimeout__arg_txFetchTimeout_minus_time_Duration_now_minus_earliest_atoms = ["txFetchTimeout : time.Duration"; "now : github.com/kardiachain/go-kardia/lib/mclock.AbsTime"; "earliest : github.com/kardiachain/go-kardia/lib/mclock.AbsTime"]%string.
Lemma pins_mainchain_fetcher__TxFetcher_rescheduleTimeout_ok : pins_mainchain_fetcher__TxFetcher_rescheduleTimeout. Proof. hnf; split_all; repeat split. Qed.

Definition pins_mainchain_fetcher__TxFetcher_scheduleFetches : Prop :=
  pinned1 mainchain_fetcher__TxFetcher_scheduleFetches__if_actives_eq_nil mainchain_fetcher__TxFetcher_scheduleFetches__if_actives_eq_nil_atoms true "actives == nil : untyped bool" /\
  (forall x1, mainchain_fetcher__TxFetcher_scheduleFetches__if_len_actives_eq_0 x1 = (Z.eqb x1 0)) /\
  mainchain_fetcher__TxFetcher_scheduleFetches__if_len_actives_eq_0_atoms = ["len(actives) : int"]%string /\
  (forall x1, mainchain_fetcher__TxFetcher_scheduleFetches__set_idle x1 = (Z.eqb x1 0)) /\
  mainchain_fetcher__TxFetcher_scheduleFetches__set_idle_atoms = ["len(f.requests) : int"]%string /\
  pinned1 mainchain_fetcher__TxFetcher_scheduleFetches__if_f_requests_at_peer_ne_nil mainchain_fetcher__TxFetcher_scheduleFetches__if_f_requests_at_peer_ne_nil_atoms true "f.requests[peer] != nil : untyped bool" /\
  (forall x1, mainchain_fetcher__TxFetcher_scheduleFetches__if_len_f_announces_at_peer_eq_0 x1 = (Z.eqb x1 0)) /\
  mainchain_fetcher__TxFetcher_scheduleFetches__if_len_f_announces_at_peer_eq_0_atoms = ["len(f.announces[peer]) : int"]%string /\
  pinned1 mainchain_fetcher__TxFetcher_scheduleFetches__if_not_ok mainchain_fetcher__TxFetcher_scheduleFetches__if_not_ok_atoms false "ok : bool" /\
  pinned1 mainchain_fetcher__TxFetcher_scheduleFetches__if_ok mainchain_fetcher__TxFetcher_scheduleFetches__if_ok_atoms true "ok : bool" /\
  (forall x1, mainchain_fetcher__TxFetcher_scheduleFetches__if_len_hashes_ge_maxTxRetrievals x1 = (Z.geb x1 256)) /\
  mainchain_fetcher__TxFetcher_scheduleFetches__if_len_hashes_ge_maxTxRetrievals_atoms = ["len(hashes) : int"]%string /\
  (forall x1, mainchain_fetcher__TxFetcher_scheduleFetches__if_len_hashes_gt_0 x1 = (Z.gtb x1 0)) /\
  mainchain_fetcher__TxFetcher_scheduleFetches__if_len_hashes_gt_0_atoms = ["len(hashes) : int"]%string /\
  pinned1 mainchain_fetcher__TxFetcher_scheduleFetches__if_err_ne_nil mainchain_fetcher__TxFetcher_scheduleFetches__if_err_ne_nil_atoms true "err != nil : untyped bool" /\
  (forall x1 x2, mainchain_fetcher__TxFetcher_scheduleFetches__if_idle_and_len_f_requests_gt_0 x1 x2 = (andb x1 (Z.gtb x2 0))) /\
  mainchain_fetcher__TxFetcher_scheduleFetches__if_idle_and_len_f_requests_gt_0_atoms = ["idle : bool"; "len(f.requests) : int"]%string /\
  mainchain_fetcher__TxFetcher_scheduleFetches__bind_actives_atoms = ["make(map[string]struct{})"]%string /\
  mainchain_fetcher__TxFetcher_scheduleFetches__bind_hashes_atoms = ["make([]common.Hash, 0, maxTxRetrievals)"]%string /\
  mainchain_fetcher__TxFetcher_scheduleFetches__bind_hashes_2_atoms = ["append(hashes, hash)"]%string /\
  mainchain_fetcher__TxFetcher_scheduleFetches__bind_err_atoms = ["f.fetchTxs(peer, hashes)"]%string.
Lemma pins_mainchain_fetcher__TxFetcher_scheduleFetches_ok : pins_mainchain_fetcher__TxFetcher_scheduleFetches. Proof. hnf; split_all; repeat split. Qed.

Definition pins_types_evidence__Reactor_Receive : Prop :=
  pinned1 types_evidence__Reactor_Receive__if_err_ne_nil types_evidence__Reactor_Receive__if_err_ne_nil_atoms true "err != nil : untyped bool" /\
  types_evidence__Reactor_Receive__bind_evis_err_atoms = ["decodeMsg(msgBytes)"]%string /\
  types_evidence__Reactor_Receive__bind_err_atoms = ["evR.evpool.AddEvidence(ev)"]%string.
Lemma pins_types_evidence__Reactor_Receive_ok : pins_types_evidence__Reactor_Receive. Proof. hnf; split_all; repeat split. Qed.

Definition pins_types_evidence__decodeMsg : Prop :=
  pinned1 types_evidence__decodeMsg__if_err_ne_nil types_evidence__decodeMsg__if_err_ne_nil_atoms true "err != nil : untyped bool" /\
  (forall x1 x2, types_evidence__decodeMsg__for_i_lt_len_lm_Evidence x1 x2 = (Z.ltb x1 x2)) /\
  types_evidence__decodeMsg__for_i_lt_len_lm_Evidence_atoms = ["i : int"; "len(lm.Evidence) : int"]%string /\
  (forall x1, types_evidence__decodeMsg__set_i_op x1 = (go_add I64 x1 1)) /\
  types_evidence__decodeMsg__set_i_op_atoms = ["i : int"]%string /\
  pinned1 types_evidence__decodeMsg__if_err_ne_nil_2 types_evidence__decodeMsg__if_err_ne_nil_2_atoms true "err != nil : untyped bool" /\
  pinned1 types_evidence__decodeMsg__if_err_ne_nil_3 types_evidence__decodeMsg__if_err_ne_nil_3_atoms true "err != nil : untyped bool" /\
  types_evidence__decodeMsg__bind_err_atoms = ["lm.Unmarshal(bz)"]%string /\
  types_evidence__decodeMsg__bind_evis_atoms = ["make([]types.Evidence, len(lm.Evidence))"]%string /\
  types_evidence__decodeMsg__forinit_i_atoms = []%string /\
  types_evidence__decodeMsg__let_i_atoms = []%string /\
  types_evidence__decodeMsg__bind_ev_err_atoms = ["types.EvidenceFromProto(lm.Evidence[i])"]%string /\
  types_evidence__decodeMsg__bind_err_2_atoms = ["ev.ValidateBasic()"]%string.
Lemma pins_types_evidence__decodeMsg_ok : pins_types_evidence__decodeMsg. Proof. hnf; split_all; repeat split. Qed.

Definition pins_lib_p2p_pex__Reactor_Receive : Prop :=
  pinned1 lib_p2p_pex__Reactor_Receive__if_err_ne_nil lib_p2p_pex__Reactor_Receive__if_err_ne_nil_atoms true "err != nil : untyped bool" /\
  (forall x1 x2, lib_p2p_pex__Reactor_Receive__if_r_config_SeedMode_and_not_src_IsOutbound x1 x2 = (andb x1 (negb x2))) /\
  lib_p2p_pex__Reactor_Receive__if_r_config_SeedMode_and_not_src_IsOutbound_atoms = ["r.config.SeedMode : bool"; "src.IsOutbound() : bool"]%string /\
  pinned1 lib_p2p_pex__Reactor_Receive__if_v_ne_nil lib_p2p_pex__Reactor_Receive__if_v_ne_nil_atoms true "v != nil : untyped bool" /\
  pinned1 lib_p2p_pex__Reactor_Receive__if_err_ne_nil_2 lib_p2p_pex__Reactor_Receive__if_err_ne_nil_2_atoms true "err != nil : untyped bool" /\
  pinned1 lib_p2p_pex__Reactor_Receive__if_err_ne_nil_3 lib_p2p_pex__Reactor_Receive__if_err_ne_nil_3_atoms true "err != nil : untyped bool" /\
  pinned1 lib_p2p_pex__Reactor_Receive__if_err_ne_nil_4 lib_p2p_pex__Reactor_Receive__if_err_ne_nil_4_atoms true "err != nil : untyped bool" /\
  pinned1 lib_p2p_pex__Reactor_Receive__if_err_eq_ErrUnsolicitedList lib_p2p_pex__Reactor_Receive__if_err_eq_ErrUnsolicitedList_atoms true "err == ErrUnsolicitedList : untyped bool" /\
  lib_p2p_pex__Reactor_Receive__bind_msg_err_atoms = ["decodeMsg(msgBytes)"]%string /\
  lib_p2p_pex__Reactor_Receive__bind_id_atoms = ["string(src.ID())"]%string /\
  lib_p2p_pex__Reactor_Receive__bind_v_atoms = ["r.lastReceivedRequests.Get(id)"]%string /\
  lib_p2p_pex__Reactor_Receive__bind_err_atoms = ["r.receiveRequest(src)"]%string /\
  lib_p2p_pex__Reactor_Receive__bind_addrs_err_atoms = ["p2p.NetAddressesFromProto(msg.Addrs)"]%string /\
  lib_p2p_pex__Reactor_Receive__bind_err_2_atoms = ["r.ReceiveAddrs(addrs, src)"]%string.
Lemma pins_lib_p2p_pex__Reactor_Receive_ok : pins_lib_p2p_pex__Reactor_Receive. Proof. hnf; split_all; repeat split. Qed.

Definition pins_lib_p2p_pex__Reactor_ReceiveAddrs : Prop :=
  pinned1 lib_p2p_pex__Reactor_ReceiveAddrs__if_not_r_requestsSent_Has_id lib_p2p_pex__Reactor_ReceiveAddrs__if_not_r_requestsSent_Has_id_atoms false "r.requestsSent.Has(id) : bool" /\
  pinned1 lib_p2p_pex__Reactor_ReceiveAddrs__if_err_ne_nil lib_p2p_pex__Reactor_ReceiveAddrs__if_err_ne_nil_atoms true "err != nil : untyped bool" /\
  pinned1 lib_p2p_pex__Reactor_ReceiveAddrs__if_seedAddr_Equals_srcAddr lib_p2p_pex__Reactor_ReceiveAddrs__if_seedAddr_Equals_srcAddr_atoms true "seedAddr.Equals(srcAddr) : bool" /\
  pinned1 lib_p2p_pex__Reactor_ReceiveAddrs__if_err_ne_nil_2 lib_p2p_pex__Reactor_ReceiveAddrs__if_err_ne_nil_2_atoms true "err != nil : untyped bool" /\
  pinned1 lib_p2p_pex__Reactor_ReceiveAddrs__if_srcIsSeed lib_p2p_pex__Reactor_ReceiveAddrs__if_srcIsSeed_atoms true "srcIsSeed : bool" /\
  pinned1 lib_p2p_pex__Reactor_ReceiveAddrs__if_err_ne_nil_3 lib_p2p_pex__Reactor_ReceiveAddrs__if_err_ne_nil_3_atoms true "err != nil : untyped bool" /\
  lib_p2p_pex__Reactor_ReceiveAddrs__bind_id_atoms = ["string(src.ID())"]%string /\
  lib_p2p_pex__Reactor_ReceiveAddrs__bind_srcAddr_err_atoms = ["src.NodeInfo().NetAddress()"]%string /\
  lib_p2p_pex__Reactor_ReceiveAddrs__let_srcIsSeed_atoms = []%string /\
  lib_p2p_pex__Reactor_ReceiveAddrs__let_srcIsSeed_2_atoms = []%string /\
  lib_p2p_pex__Reactor_ReceiveAddrs__bind_err_atoms = ["r.book.AddAddress(netAddr, srcAddr)"]%string /\
  lib_p2p_pex__Reactor_ReceiveAddrs__bind_err_2_atoms = ["r.dialPeer(addr)"]%string.
Lemma pins_lib_p2p_pex__Reactor_ReceiveAddrs_ok : pins_lib_p2p_pex__Reactor_ReceiveAddrs. Proof. hnf; split_all; repeat split. Qed.

Definition pins_lib_p2p_pex__Reactor_receiveRequest : Prop :=
  pinned1 lib_p2p_pex__Reactor_receiveRequest__if_v_eq_nil lib_p2p_pex__Reactor_receiveRequest__if_v_eq_nil_atoms true "v == nil : untyped bool" /\
  pinned1 lib_p2p_pex__Reactor_receiveRequest__if_lastReceived_Equal_time_Time lib_p2p_pex__Reactor_receiveRequest__if_lastReceived_Equal_time_Time_atoms true "lastReceived.Equal(time.Time{}) : bool" /\
  (forall x1, lib_p2p_pex__Reactor_receiveRequest__let_minInterval x1 = x1) /\
  lib_p2p_pex__Reactor_receiveRequest__let_minInterval_atoms = ["r.minReceiveRequestInterval() : time.Duration"]%string /\
  (forall x1 x2, lib_p2p_pex__Reactor_receiveRequest__if_now_Sub_lastReceived_lt_minInterval x1 x2 = (Z.ltb x1 x2)) /\
  lib_p2p_pex__Reactor_receiveRequest__if_now_Sub_lastReceived_lt_minInterval_atoms = ["now.Sub(lastReceived) : time.Duration"; "minInterval : time.Duration"]%string /\
  lib_p2p_pex__Reactor_receiveRequest__bind_id_atoms = ["string(src.ID())"]%string /\
  lib_p2p_pex__Reactor_receiveRequest__bind_v_atoms = ["r.lastReceivedRequests.Get(id)"]%string /\
  lib_p2p_pex__Reactor_receiveRequest__bind_lastReceived_atoms = ["time.Now()"]%string /\
  lib_p2p_pex__Reactor_receiveRequest__bind_now_atoms = ["time.Now()"]%string.
Lemma pins_lib_p2p_pex__Reactor_receiveRequest_ok : pins_lib_p2p_pex__Reactor_receiveRequest. Proof. hnf; split_all; repeat split. Qed.

Definition pins_lib_p2p_pex__Reactor_RequestAddrs : Prop :=
  pinned1 lib_p2p_pex__Reactor_RequestAddrs__if_exists lib_p2p_pex__Reactor_RequestAddrs__if_exists_atoms true "exists : bool" /\
  lib_p2p_pex__Reactor_RequestAddrs__bind_id_atoms = ["string(p.ID())"]%string /\
  lib_p2p_pex__Reactor_RequestAddrs__bind_exists_atoms = ["r.requestsSent.GetOrSet(id, struct{}{})"]%string.
Lemma pins_lib_p2p_pex__Reactor_RequestAddrs_ok : pins_lib_p2p_pex__Reactor_RequestAddrs. Proof. hnf; split_all; repeat split. Qed.

Definition pins_lib_p2p__NetAddressFromProto : Prop :=
  pinned1 lib_p2p__NetAddressFromProto__if_ip_eq_nil lib_p2p__NetAddressFromProto__if_ip_eq_nil_atoms true "ip == nil : untyped bool" /\
  (forall x1, lib_p2p__NetAddressFromProto__if_pb_Port_ge_1_shl_16 x1 = (Z.geb x1 65536)) /\
  lib_p2p__NetAddressFromProto__if_pb_Port_ge_1_shl_16_atoms = ["pb.Port : uint32"]%string /\
  lib_p2p__NetAddressFromProto__bind_ip_atoms = ["net.ParseIP(pb.IP)"]%string.
Lemma pins_lib_p2p__NetAddressFromProto_ok : pins_lib_p2p__NetAddressFromProto. Proof. hnf; split_all; repeat split. Qed.

Definition pins_lib_p2p__NetAddressesFromProto : Prop :=
  pinned1 lib_p2p__NetAddressesFromProto__if_err_ne_nil lib_p2p__NetAddressesFromProto__if_err_ne_nil_atoms true "err != nil : untyped bool" /\
  lib_p2p__NetAddressesFromProto__bind_nas_atoms = ["make([]*NetAddress, 0, len(pbs))"]%string /\
  lib_p2p__NetAddressesFromProto__bind_na_err_atoms = ["NetAddressFromProto(pb)"]%string /\
  lib_p2p__NetAddressesFromProto__bind_nas_2_atoms = ["append(nas, na)"]%string.
Lemma pins_lib_p2p__NetAddressesFromProto_ok : pins_lib_p2p__NetAddressesFromProto. Proof. hnf; split_all; repeat split. Qed.

Definition pins_lib_p2p_conn__Channel_recvPacketMsg : Prop :=
  (forall x1, lib_p2p_conn__Channel_recvPacketMsg__let_recvCap x1 = x1) /\
  lib_p2p_conn__Channel_recvPacketMsg__let_recvCap_atoms = ["ch.desc.RecvMessageCapacity : int"]%string /\
  (forall x1 x2, lib_p2p_conn__Channel_recvPacketMsg__set_recvReceived x1 x2 = (go_add I64 x1 x2)) /\
  lib_p2p_conn__Channel_recvPacketMsg__set_recvReceived_atoms = ["len(ch.recving) : int"; "len(packet.Data) : int"]%string /\
  (forall x1 x2, lib_p2p_conn__Channel_recvPacketMsg__if_recvCap_lt_recvReceived x1 x2 = (Z.ltb x1 x2)) /\
  lib_p2p_conn__Channel_recvPacketMsg__if_recvCap_lt_recvReceived_atoms = ["recvCap : int"; "recvReceived : int"]%string /\
  pinned1 lib_p2p_conn__Channel_recvPacketMsg__if_packet_EOF lib_p2p_conn__Channel_recvPacketMsg__if_packet_EOF_atoms true "packet.EOF : bool".
Lemma pins_lib_p2p_conn__Channel_recvPacketMsg_ok : pins_lib_p2p_conn__Channel_recvPacketMsg. Proof. hnf; split_all; repeat split. Qed.

Definition pins_lib_p2p_conn__MConnection_recvRoutine : Prop :=
  pinned1 lib_p2p_conn__MConnection_recvRoutine__if_err_ne_nil lib_p2p_conn__MConnection_recvRoutine__if_err_ne_nil_atoms true "err != nil : untyped bool" /\
  pinned1 lib_p2p_conn__MConnection_recvRoutine__if_c_IsRunning lib_p2p_conn__MConnection_recvRoutine__if_c_IsRunning_atoms true "c.IsRunning() : bool" /\
  pinned1 lib_p2p_conn__MConnection_recvRoutine__if_err_eq_io_EOF lib_p2p_conn__MConnection_recvRoutine__if_err_eq_io_EOF_atoms true "err == io.EOF : untyped bool" /\
  (forall x1 x2, lib_p2p_conn__MConnection_recvRoutine__if_not_ok_or_channel_eq_nil x1 x2 = (orb (negb x1) x2)) /\
  lib_p2p_conn__MConnection_recvRoutine__if_not_ok_or_channel_eq_nil_atoms = ["ok : bool"; "channel == nil : bool"]%string /\
  pinned1 lib_p2p_conn__MConnection_recvRoutine__if_err_ne_nil_2 lib_p2p_conn__MConnection_recvRoutine__if_err_ne_nil_2_atoms true "err != nil : untyped bool" /\
  pinned1 lib_p2p_conn__MConnection_recvRoutine__if_c_IsRunning_2 lib_p2p_conn__MConnection_recvRoutine__if_c_IsRunning_2_atoms true "c.IsRunning() : bool" /\
  pinned1 lib_p2p_conn__MConnection_recvRoutine__if_msgBytes_ne_nil lib_p2p_conn__MConnection_recvRoutine__if_msgBytes_ne_nil_atoms true "msgBytes != nil : untyped bool" /\
  lib_p2p_conn__MConnection_recvRoutine__bind_protoReader_atoms = ["protoio.NewDelimitedReader(c.bufConnReader, c._maxPacketMsgSize)"]%string /\
  lib_p2p_conn__MConnection_recvRoutine__bind_err_atoms = ["protoReader.ReadMsg(&packet)"]%string /\
  lib_p2p_conn__MConnection_recvRoutine__bind_err_2_atoms = ["fmt.Errorf('unknown channel %X', pkt.PacketMsg.ChannelID)"]%string /\
  lib_p2p_conn__MConnection_recvRoutine__bind_msgBytes_err_atoms = ["channel.recvPacketMsg(*pkt.PacketMsg)"]%string /\
  lib_p2p_conn__MConnection_recvRoutine__bind_err_3_atoms = ["fmt.Errorf('unknown message type %v', reflect.TypeOf(packet))"]%string.
Lemma pins_lib_p2p_conn__MConnection_recvRoutine_ok : pins_lib_p2p_conn__MConnection_recvRoutine. Proof. hnf; split_all; repeat split. Qed.

Definition pins_lib_crypto__SigToPub : Prop :=
  (forall x1, lib_crypto__SigToPub__if_len_sig_ne_SignatureLength x1 = (go_neqb x1 65)) /\
  lib_crypto__SigToPub__if_len_sig_ne_SignatureLength_atoms = ["len(sig) : int"]%string /\
  (forall x1 x2 x3 x4, lib_crypto__SigToPub__if_r_Sign_eq_0_or_s_Sign_eq_0_or_r_Cmp_secp256k1N_ge_0_or_s_Cmp_b70b570f x1 x2 x3 x4 = (orb (orb (orb (Z.eqb x1 0) (Z.eqb x2 0)) (Z.geb x3 0)) (Z.geb x4 0))) /\
  lib_crypto__SigToPub__if_r_Sign_eq_0_or_s_Sign_eq_0_or_r_Cmp_secp256k1N_ge_0_or_s_Cmp_b70b570f_atoms = ["r.Sign() : int"; "s.Sign() : int"; "r.Cmp(secp256k1N) : int"; "s.Cmp(secp256k1N) : int"]%string /\
  (forall x1, lib_crypto__SigToPub__assign x1 = (go_add U8 x1 27)) /\
  lib_crypto__SigToPub__assign_atoms = ["sig[64] : byte"]%string /\
  lib_crypto__SigToPub__bind_btcsig_atoms = ["make([]byte, 65)"]%string /\
  lib_crypto__SigToPub__bind_pub_err_atoms = ["btcec.RecoverCompact(btcec.S256(), btcsig, hash)"]%string.
Lemma pins_lib_crypto__SigToPub_ok : pins_lib_crypto__SigToPub. Proof. hnf; split_all; repeat split. Qed.

Definition pins_lib_merkle__SimpleProof_ValidateBasic : Prop :=
  (forall x1, lib_merkle__SimpleProof_ValidateBasic__if_len_sp_LeafHash_ne_Size x1 = (go_neqb x1 32)) /\
  lib_merkle__SimpleProof_ValidateBasic__if_len_sp_LeafHash_ne_Size_atoms = ["len(sp.LeafHash) : int"]%string /\
  (forall x1, lib_merkle__SimpleProof_ValidateBasic__if_len_auntHash_ne_Size x1 = (go_neqb x1 32)) /\
  lib_merkle__SimpleProof_ValidateBasic__if_len_auntHash_ne_Size_atoms = ["len(auntHash) : int"]%string.
Lemma pins_lib_merkle__SimpleProof_ValidateBasic_ok : pins_lib_merkle__SimpleProof_ValidateBasic. Proof. hnf; split_all; repeat split. Qed.

Definition pins_lib_common__BitArray_copy : Prop :=
  lib_common__BitArray_copy__bind_c_atoms = ["make([]uint64, len(bA.Elems))"]%string.
Lemma pins_lib_common__BitArray_copy_ok : pins_lib_common__BitArray_copy. Proof. hnf; split_all; repeat split. Qed.

Definition pins_all : Prop :=
  pins_consensus__MsgFromProto /\
  pins_consensus__ConsensusManager_Receive /\
  pins_consensus__NewRoundStepMessage_ValidateBasic /\
  pins_consensus__NewRoundStepMessage_ValidateHeight /\
  pins_consensus__NewValidBlockMessage_ValidateBasic /\
  pins_consensus__ProposalPOLMessage_ValidateBasic /\
  pins_consensus__BlockPartMessage_ValidateBasic /\
  pins_consensus__HasVoteMessage_ValidateBasic /\
  pins_consensus__VoteSetMaj23Message_ValidateBasic /\
  pins_consensus__VoteSetBitsMessage_ValidateBasic /\
  pins_consensus__PeerState_SetHasProposal /\
  pins_consensus__PeerState_SetHasProposalBlockPart /\
  pins_consensus__PeerState_PickVoteToSend /\
  pins_consensus__PeerState_ApplyNewValidBlockMessage /\
  pins_consensus__PeerState_getVoteBitArray /\
  pins_consensus__PeerState_ensureCatchupCommitRound /\
  pins_consensus__PeerState_ensureVoteBitArrays /\
  pins_consensus__PeerState_setHasVote /\
  pins_consensus__PeerState_ApplyNewRoundStepMessage /\
  pins_consensus__PeerState_ApplyHasVoteMessage /\
  pins_consensus__PeerState_ApplyVoteSetBitsMessage /\
  pins_consensus__PeerState_ApplyProposalPOLMessage /\
  pins_consensus__CompareHRS /\
  pins_consensus_types__NewHeightVoteSet /\
  pins_consensus_types__HeightVoteSet_addRound /\
  pins_consensus_types__HeightVoteSet_SetRound /\
  pins_consensus_types__HeightVoteSet_AddVote /\
  pins_consensus_types__HeightVoteSet_getVoteSet /\
  pins_consensus_types__RoundStepType_IsValid /\
  pins_lib_common__NewBitArray /\
  pins_lib_common__BitArray_Size /\
  pins_lib_common__BitArray_getIndex /\
  pins_lib_common__BitArray_setIndex /\
  pins_lib_common__BitArray_copyBits /\
  pins_lib_common__BitArray_Or /\
  pins_lib_common__BitArray_and /\
  pins_lib_common__BitArray_And /\
  pins_lib_common__BitArray_Not /\
  pins_lib_common__BitArray_Sub /\
  pins_lib_common__BitArray_Update /\
  pins_lib_common__BitArray_PickRandom /\
  pins_lib_common__BitArray_ValidateBasic /\
  pins_lib_common__BitArray_FromProto /\
  pins_types__Part_ValidateBasic /\
  pins_types__PartSetHeader_ValidateBasic /\
  pins_types__PartSet_AddPart /\
  pins_types__PartSet_AddPart__if_part_Proof_Verify_ps_Hash /\
  pins_types__Vote_ValidateBasic /\
  pins_types__Proposal_ValidateBasic /\
  pins_types__BlockID_ValidateBasic /\
  pins_types__BlockID_IsZero /\
  pins_types__BlockID_IsComplete /\
  pins_types__PartSetHeader_IsZero /\
  pins_types__IsVoteTypeValid /\
  pins_blockchain__ValidateMsg /\
  pins_blockchain__BlockchainReactor_Receive /\
  pins_mainchain_tx_pool__decodeMsg /\
  pins_mainchain_tx_pool__Reactor_Receive /\
  pins_mainchain_tx_pool__Reactor_RemovePeer /\
  pins_mainchain_tx_pool__Reactor_fetchTx /\
  pins_mainchain_fetcher__TxFetcher_Notify /\
  pins_mainchain_fetcher__TxFetcher_Enqueue /\
  pins_mainchain_fetcher__TxFetcher_loop /\
  pins_mainchain_fetcher__TxFetcher_loop__if_time_Duration_f_clock_Now_minus_instance_plus_txGatherSlack /\
  pins_mainchain_fetcher__TxFetcher_loop__if_time_Duration_f_clock_Now_minus_req_time_plus_txGatherSlack /\
  pins_mainchain_fetcher__TxFetcher_rescheduleWait /\
  pins_mainchain_fetcher__TxFetcher_rescheduleTimeout /\
  pins_mainchain_fetcher__TxFetcher_scheduleFetches /\
  pins_types_evidence__Reactor_Receive /\
  pins_types_evidence__decodeMsg /\
  pins_lib_p2p_pex__Reactor_Receive /\
  pins_lib_p2p_pex__Reactor_ReceiveAddrs /\
  pins_lib_p2p_pex__Reactor_receiveRequest /\
  pins_lib_p2p_pex__Reactor_RequestAddrs /\
  pins_lib_p2p__NetAddressFromProto /\
  pins_lib_p2p__NetAddressesFromProto /\
  pins_lib_p2p_conn__Channel_recvPacketMsg /\
  pins_lib_p2p_conn__MConnection_recvRoutine /\
  pins_lib_crypto__SigToPub /\
  pins_lib_merkle__SimpleProof_ValidateBasic /\
  pins_lib_common__BitArray_copy.
Lemma pins_all_ok : pins_all.
Proof.
  exact
    (conj pins_consensus__MsgFromProto_ok
    (conj pins_consensus__ConsensusManager_Receive_ok
    (conj pins_consensus__NewRoundStepMessage_ValidateBasic_ok
    (conj pins_consensus__NewRoundStepMessage_ValidateHeight_ok
    (conj pins_consensus__NewValidBlockMessage_ValidateBasic_ok
    (conj pins_consensus__ProposalPOLMessage_ValidateBasic_ok
    (conj pins_consensus__BlockPartMessage_ValidateBasic_ok
    (conj pins_consensus__HasVoteMessage_ValidateBasic_ok
    (conj pins_consensus__VoteSetMaj23Message_ValidateBasic_ok
    (conj pins_consensus__VoteSetBitsMessage_ValidateBasic_ok
    (conj pins_consensus__PeerState_SetHasProposal_ok
    (conj pins_consensus__PeerState_SetHasProposalBlockPart_ok
    (conj pins_consensus__PeerState_PickVoteToSend_ok
    (conj pins_consensus__PeerState_ApplyNewValidBlockMessage_ok
    (conj pins_consensus__PeerState_getVoteBitArray_ok
    (conj pins_consensus__PeerState_ensureCatchupCommitRound_ok
    (conj pins_consensus__PeerState_ensureVoteBitArrays_ok
    (conj pins_consensus__PeerState_setHasVote_ok
    (conj pins_consensus__PeerState_ApplyNewRoundStepMessage_ok
    (conj pins_consensus__PeerState_ApplyHasVoteMessage_ok
    (conj pins_consensus__PeerState_ApplyVoteSetBitsMessage_ok
    (conj pins_consensus__PeerState_ApplyProposalPOLMessage_ok
    (conj pins_consensus__CompareHRS_ok
    (conj pins_consensus_types__NewHeightVoteSet_ok
    (conj pins_consensus_types__HeightVoteSet_addRound_ok
    (conj pins_consensus_types__HeightVoteSet_SetRound_ok
    (conj pins_consensus_types__HeightVoteSet_AddVote_ok
    (conj pins_consensus_types__HeightVoteSet_getVoteSet_ok
    (conj pins_consensus_types__RoundStepType_IsValid_ok
    (conj pins_lib_common__NewBitArray_ok
    (conj pins_lib_common__BitArray_Size_ok
    (conj pins_lib_common__BitArray_getIndex_ok
    (conj pins_lib_common__BitArray_setIndex_ok
    (conj pins_lib_common__BitArray_copyBits_ok
    (conj pins_lib_common__BitArray_Or_ok
    (conj pins_lib_common__BitArray_and_ok
    (conj pins_lib_common__BitArray_And_ok
    (conj pins_lib_common__BitArray_Not_ok
    (conj pins_lib_common__BitArray_Sub_ok
    (conj pins_lib_common__BitArray_Update_ok
    (conj pins_lib_common__BitArray_PickRandom_ok
    (conj pins_lib_common__BitArray_ValidateBasic_ok
    (conj pins_lib_common__BitArray_FromProto_ok
    (conj pins_types__Part_ValidateBasic_ok
    (conj pins_types__PartSetHeader_ValidateBasic_ok
    (conj pins_types__PartSet_AddPart_ok
    (conj pins_types__PartSet_AddPart__if_part_Proof_Verify_ps_Hash_ok
    (conj pins_types__Vote_ValidateBasic_ok
    (conj pins_types__Proposal_ValidateBasic_ok
    (conj pins_types__BlockID_ValidateBasic_ok
    (conj pins_types__BlockID_IsZero_ok
    (conj pins_types__BlockID_IsComplete_ok
    (conj pins_types__PartSetHeader_IsZero_ok
    (conj pins_types__IsVoteTypeValid_ok
    (conj pins_blockchain__ValidateMsg_ok
    (conj pins_blockchain__BlockchainReactor_Receive_ok
    (conj pins_mainchain_tx_pool__decodeMsg_ok
    (conj pins_mainchain_tx_pool__Reactor_Receive_ok
    (conj pins_mainchain_tx_pool__Reactor_RemovePeer_ok
    (conj pins_mainchain_tx_pool__Reactor_fetchTx_ok
    (conj pins_mainchain_fetcher__TxFetcher_Notify_ok
    (conj pins_mainchain_fetcher__TxFetcher_Enqueue_ok
    (conj pins_mainchain_fetcher__TxFetcher_loop_ok
    (conj pins_mainchain_fetcher__TxFetcher_loop__if_time_Duration_f_clock_Now_minus_instance_plus_txGatherSlack_ok
    (conj pins_mainchain_fetcher__TxFetcher_loop__if_time_Duration_f_clock_Now_minus_req_time_plus_txGatherSlack_ok
    (conj pins_mainchain_fetcher__TxFetcher_rescheduleWait_ok
    (conj pins_mainchain_fetcher__TxFetcher_rescheduleTimeout_ok
    (conj pins_mainchain_fetcher__TxFetcher_scheduleFetches_ok
    (conj pins_types_evidence__Reactor_Receive_ok
    (conj pins_types_evidence__decodeMsg_ok
    (conj pins_lib_p2p_pex__Reactor_Receive_ok
    (conj pins_lib_p2p_pex__Reactor_ReceiveAddrs_ok
    (conj pins_lib_p2p_pex__Reactor_receiveRequest_ok
    (conj pins_lib_p2p_pex__Reactor_RequestAddrs_ok
    (conj pins_lib_p2p__NetAddressFromProto_ok
    (conj pins_lib_p2p__NetAddressesFromProto_ok
    (conj pins_lib_p2p_conn__Channel_recvPacketMsg_ok
    (conj pins_lib_p2p_conn__MConnection_recvRoutine_ok
    (conj pins_lib_crypto__SigToPub_ok
    (conj pins_lib_merkle__SimpleProof_ValidateBasic_ok
    pins_lib_common__BitArray_copy_ok)))))))))))))))))))))))))))))))))))))))))))))))))))))))))))))))))))))))))))))))).
Qed.

(** * the whole tie, as one statement (quoted by Properties.v) *)
Definition C18_source_tie_statement : Prop :=
  (consensus__StateChannel = chan_state /\ consensus__DataChannel = chan_data /\ consensus__VoteChannel = chan_vote /\
   consensus__VoteSetBitsChannel = chan_vsb /\ consensus__maxMsgSize = max_msg_size /\
   types__MaxBlockPartsCount = max_block_parts_count /\ types__MaxVotesCount = max_votes_count /\
   types__BlockPartSizeBytes = block_part_size_bytes /\ lib_merkle__Size = merkle_size /\
   mainchain_fetcher__maxTxAnnounces = max_tx_announces /\ mainchain_fetcher__maxTxRetrievals = max_tx_retrievals /\
   mainchain_fetcher__txArriveTimeout = tx_arrive_timeout_ms * 1000000 /\ mainchain_fetcher__txGatherSlack = tx_gather_slack_ms * 1000000)
  (* validators *)
  /\ (forall s, 0 <= s < 256 -> ((step_min <=? s) && (s <=? step_max))%bool = consensus_types__RoundStepType_IsValid__ret_uint32_rs_ge_0x01_and_uint32_rs_le_0x08 s)
  /\ (forall h lcr ih, nrs_height_ok h lcr ih =
        if consensus__NewRoundStepMessage_ValidateHeight__if_m_Height_lt_initialHeight h ih then false
        else if consensus__NewRoundStepMessage_ValidateHeight__if_m_Height_eq_initialHeight_and_m_LastCommitRound_ne_0 h ih lcr then false
        else if consensus__NewRoundStepMessage_ValidateHeight__if_m_Height_gt_initialHeight_and_m_LastCommitRound_eq_0 h ih lcr then false else true)
  /\ (forall size total, u32 total ->
        (size =? 0) = consensus__NewValidBlockMessage_ValidateBasic__if_m_BlockParts_Size_eq_0 size /\
        negb (size =? total) = consensus__NewValidBlockMessage_ValidateBasic__if_m_BlockParts_Size_ne_int_m_BlockPartsHeader_Total size total /\
        (max_block_parts_count <? size) = consensus__NewValidBlockMessage_ValidateBasic__if_m_BlockParts_Size_gt_types_MaxBlockPartsCount size)
  /\ (forall size, (max_votes_count <? size) = consensus__ProposalPOLMessage_ValidateBasic__if_m_ProposalPOL_Size_gt_types_MaxVotesCount size)
  /\ (forall size, (max_votes_count <? size) = consensus__VoteSetBitsMessage_ValidateBasic__if_m_Votes_Size_gt_types_MaxVotesCount size)
  /\ (forall t, type_valid t = (types__IsVoteTypeValid__case_t_eq_kproto_PrevoteType t || types__IsVoteTypeValid__case_t_eq_kproto_PrecommitType t)%bool)
  /\ (forall b, bid_complete b = types__BlockID_IsComplete__ret_not_blockID_Hash_IsZero_and_not_blockID_PartsHeader_IsZero (b_hash_zero b) (psh_zero b))
  /\ (forall total siglen,
        (max_block_parts_count <? total) = types__Proposal_ValidateBasic__if_p_POLBlockID_PartsHeader_Total_gt_MaxBlockPartsCount total /\
        (siglen =? 0) = types__Proposal_ValidateBasic__if_len_p_Signature_eq_0 siglen)
  /\ (forall byteslen leaflen,
        (block_part_size_bytes <? byteslen) = types__Part_ValidateBasic__if_len_part_Bytes_gt_BlockPartSizeBytes byteslen /\
        negb (leaflen =? merkle_size) = lib_merkle__SimpleProof_ValidateBasic__if_len_sp_LeafHash_ne_Size leaflen)
  (* peer state *)
  /\ (forall p h r t, u64 h -> get_slot p h r t =
        if consensus__PeerState_getVoteBitArray__if_not_types_IsVoteTypeValid_signedMsgType (type_valid t) then None
        else if consensus__PeerState_getVoteBitArray__if_ps_PRS_Height_eq_height (p_height p) h then
          if consensus__PeerState_getVoteBitArray__if_ps_PRS_Round_eq_round (p_round p) r then
            (if consensus__PeerState_getVoteBitArray__case_signedMsgType_eq_kproto_PrevoteType t then Some SPrevotes else Some SPrecommits)
          else if consensus__PeerState_getVoteBitArray__if_ps_PRS_CatchupCommitRound_eq_round (p_ccr p) r then
            (if consensus__PeerState_getVoteBitArray__case_signedMsgType_eq_kproto_PrevoteType_2 t then None else Some SCatchup)
          else if consensus__PeerState_getVoteBitArray__if_ps_PRS_ProposalPOLRound_eq_round (p_polround p) r then
            (if consensus__PeerState_getVoteBitArray__case_signedMsgType_eq_kproto_PrevoteType_3 t then Some SPOL else None)
          else None
        else if consensus__PeerState_getVoteBitArray__if_ps_PRS_Height_eq_height_plus_1 (p_height p) h then
          if consensus__PeerState_getVoteBitArray__if_ps_PRS_LastCommitRound_eq_round (p_lcr p) r then
            (if consensus__PeerState_getVoteBitArray__case_signedMsgType_eq_kproto_PrevoteType_4 t then None else Some SLast)
          else None
        else None)
  /\ (forall h1 r1 s1 h2 r2 s2, compare_hrs h1 r1 s1 h2 r2 s2 =
        if consensus__CompareHRS__if_h1_lt_h2 h1 h2 then -1 else if consensus__CompareHRS__if_h1_gt_h2 h1 h2 then 1
        else if consensus__CompareHRS__if_r1_lt_r2 r1 r2 then -1 else if consensus__CompareHRS__if_r1_gt_r2 r1 r2 then 1
        else if consensus__CompareHRS__if_s1_lt_s2 s1 s2 then -1 else if consensus__CompareHRS__if_s1_gt_s2 s1 s2 then 1 else 0)
  /\ (forall p h r, (negb (p_height p =? h) || negb (p_round p =? r))%bool =
        consensus__PeerState_SetHasProposal__if_ps_PRS_Height_ne_proposal_Height_or_ps_PRS_Round_ne_proposal_Round (p_height p) h (p_round p) r)
  (* vote-set rounds *)
  /\ (forall h, (hv_round h - 1) mod two32 = consensus_types__HeightVoteSet_SetRound__set_newRound (hv_round h))
  /\ (forall h round, (negb (hv_round h =? 1) && (round <? (hv_round h - 1) mod two32))%bool =
        consensus_types__HeightVoteSet_SetRound__if_hvs_round_ne_1_and_round_lt_newRound (hv_round h) round
          (consensus_types__HeightVoteSet_SetRound__set_newRound (hv_round h)))
  /\ (forall nr, consensus_types__HeightVoteSet_SetRound__forinit_r nr = nr)
  /\ (forall nr round k, u32 nr -> 0 <= round < two32 - 1 -> 0 <= k ->
        consensus_types__HeightVoteSet_SetRound__for_r_le_round (nr + k) round = (k <? round - nr + 1))
  /\ (pinned1 consensus_types__HeightVoteSet_SetRound__if_ok consensus_types__HeightVoteSet_SetRound__if_ok_atoms true "ok : bool" /\
      pinned1 consensus_types__HeightVoteSet_addRound__if_ok consensus_types__HeightVoteSet_addRound__if_ok_atoms true "ok : bool")
  /\ (forall rndz : list Z, (len rndz <? 2) = consensus_types__HeightVoteSet_AddVote__if_len_rndz_lt_2 (len rndz))
  (* bit arrays *)
  /\ (forall bits, i63 bits -> words_for bits = lib_common__NewBitArray__arg_bits_plus_63_div_64 bits)
  /\ (forall b i, u64 (ba_bits b) -> (as_int (ba_bits b) <=? i) = lib_common__BitArray_setIndex__if_i_ge_int_bA_Bits i (ba_bits b))
  /\ (forall b, u64 (ba_bits b) -> ba_bits b <= max_int32 ->
        ba_valid b = (negb (lib_common__BitArray_ValidateBasic__if_bA_Bits_gt_math_MaxInt32 (ba_bits b)) &&
                      negb (lib_common__BitArray_ValidateBasic__if_len_bA_Elems_ne_expected (len (ba_elems b))
                              (lib_common__BitArray_ValidateBasic__set_expected (ba_bits b))))%bool)
  (* block sync, tx pool *)
  /\ (forall base h, bc_valid (BStatusResp base h) = negb (blockchain__ValidateMsg__if_msg_Base_gt_msg_Height base h) /\
                     bc_valid (BBlockReq h) = negb (blockchain__ValidateMsg__if_msg_Height_lt_1 h))
  /\ (forall n, (n =? 0) = mainchain_tx_pool__decodeMsg__if_len_txs_eq_0 n)
  (* fetcher *)
  /\ (forall used n, (max_tx_announces <=? used) = mainchain_fetcher__TxFetcher_loop__if_used_ge_maxTxAnnounces used /\
                     (max_tx_announces <? used + n) = mainchain_fetcher__TxFetcher_loop__if_want_gt_maxTxAnnounces (used + n))
  /\ (forall now inst, tms now -> tms inst -> (arrive_timeout <? (now - inst) + gather_slack) =
        mainchain_fetcher__TxFetcher_loop__if_time_Duration_f_clock_Now_minus_instance_plus_txGatherSlack__ad1ffaf4 (ms now) (ms inst))
  /\ (forall now t, tms now -> tms t -> (fetch_timeout <? (now - t) + gather_slack) =
        mainchain_fetcher__TxFetcher_loop__if_time_Duration_f_clock_Now_minus_req_time_plus_txGatherSlack__0c5cb80d (ms now) (ms t) (ms tx_fetch_timeout_ms))
  /\ (forall hs : list Z, (max_tx_retrievals <=? zlen hs) = mainchain_fetcher__TxFetcher_scheduleFetches__if_len_hashes_ge_maxTxRetrievals (zlen hs))
  /\ (forall a : list Z, (match a with [] => true | _ => false end) = mainchain_fetcher__TxFetcher_loop__if_len_f_alternates_at_hash_eq_0 (zlen a))
  /\ pinned1 mainchain_fetcher__TxFetcher_loop__if_alts_ne_nil mainchain_fetcher__TxFetcher_loop__if_alts_ne_nil_atoms true "alts != nil : untyped bool"
  (* addresses, framing *)
  /\ (forall p, port_ok p = negb (lib_p2p__NetAddressFromProto__if_pb_Port_ge_1_shl_16 p))
  /\ (forall cap cur dl, 0 <= cur < 4294967296 -> 0 <= dl < 4294967296 ->
        (cap <? cur + dl) = lib_p2p_conn__Channel_recvPacketMsg__if_recvCap_lt_recvReceived cap (lib_p2p_conn__Channel_recvPacketMsg__set_recvReceived cur dl))
  (* everything else, by shape and operands *)
  /\ pins_all.

Lemma C18_source_tie_proof : C18_source_tie_statement.
Proof.
  unfold C18_source_tie_statement. split_all.
  { repeat split; reflexivity. }
  (* RoundStepType.IsValid on the uint8 the wire value is cut to *)
  { intros s H. unfold consensus_types__RoundStepType_IsValid__ret_uint32_rs_ge_0x01_and_uint32_rs_le_0x08, step_min, step_max.
    gosem. rewrite Z.geb_leb. reflexivity. }
  (* NewRoundStepMessage.ValidateHeight *)
  { intros h lcr ih.
    unfold nrs_height_ok, consensus__NewRoundStepMessage_ValidateHeight__if_m_Height_gt_initialHeight_and_m_LastCommitRound_eq_0.
    rewrite Z.gtb_ltb. reflexivity. }
  (* NewValidBlockMessage.ValidateBasic on the size of the decoded array and the header's total *)
  { unfold u32. intros size total H. split; [reflexivity|]. split; [|symmetry; apply Z.gtb_ltb].
    unfold consensus__NewValidBlockMessage_ValidateBasic__if_m_BlockParts_Size_ne_int_m_BlockPartsHeader_Total. gosem. reflexivity. }
  (* ProposalPOLMessage / VoteSetBitsMessage.ValidateBasic: the source's [size > max] is the model's [max < size] *)
  { intros size. symmetry. apply Z.gtb_ltb. }
  { intros size. symmetry. apply Z.gtb_ltb. }
  (* IsVoteTypeValid, used by HasVote / VoteSetMaj23 / VoteSetBits / Vote *)
  { reflexivity. }
  (* BlockID.IsComplete *)
  { reflexivity. }
  (* Proposal.ValidateBasic as [from_proto] applies it *)
  { intros total siglen. split; [symmetry; apply Z.gtb_ltb|reflexivity]. }
  (* Part.ValidateBasic and the merkle proof's *)
  { intros byteslen leaflen. split; [symmetry; apply Z.gtb_ltb|reflexivity]. }
  (* getVoteBitArray = [get_slot], decision by decision (the uint64 height+1 wraps) *)
  { reflexivity. }
  (* CompareHRS = [compare_hrs] *)
  { intros h1 r1 s1 h2 r2 s2.
    unfold compare_hrs, consensus__CompareHRS__if_h1_gt_h2, consensus__CompareHRS__if_r1_gt_r2, consensus__CompareHRS__if_s1_gt_s2.
    rewrite !Z.gtb_ltb. reflexivity. }
  (* SetHasProposal *)
  { reflexivity. }
  (* SetRound: newRound, the sanity guard, the loop from newRound while r <= round ... *)
  { reflexivity. }
  { reflexivity. }
  { reflexivity. }
  (* ... which runs exactly [round - newRound + 1] times - the count [hvs_set_round] gives [hvs_fill] -
     as long as round is not MaxUint32 (where the model says RAlloc: the counter wraps) *)
  { unfold u32, two32, consensus_types__HeightVoteSet_SetRound__for_r_le_round. intros nr round k Hn Hr Hk.
    destruct (Z.leb_spec (nr + k) round), (Z.ltb_spec k (round - nr + 1)); try reflexivity; lia. }
  (* a round that exists already is skipped ([hvs_fill] tests membership before addRound) and
     addRound panics on an existing round ([hvs_add_round]): the two map tests are the conditions *)
  { unfold pinned1. repeat split. }
  (* AddVote: the catch-up allowance of two rounds per peer *)
  { reflexivity. }
  (* NewBitArray: (bits+63)/64 *)
  { intros bits H. pose proof (words_for_i64 bits H).
    unfold i63, words_for, lib_common__NewBitArray__arg_bits_plus_63_div_64 in *. gosem. reflexivity. }
  (* the index guard of setIndex *)
  { intros b i H. unfold lib_common__BitArray_setIndex__if_i_ge_int_bA_Bits. rewrite <- (src_as_int _ H). symmetry. apply Z.geb_leb. }
  (* BitArray.ValidateBasic (8b6016a): bits <= MaxInt32 and len(elems) = (int(bits)+63)/64 *)
  { unfold u64, max_int32. intros b H Hm. rewrite <- src_ba_valid_bits. unfold ba_valid. f_equal.
    unfold lib_common__BitArray_ValidateBasic__if_len_bA_Elems_ne_expected, go_neqb. rewrite negb_involutive. f_equal.
    rewrite (src_as_int _ H). pose proof (words_for_i64 (ba_bits b)) as Hq.
    unfold i63, in_range, words_for, lib_common__BitArray_ValidateBasic__set_expected in *. specialize (Hq ltac:(lia)).
    gosem. reflexivity. }
  (* block sync: ValidateMsg = [bc_valid] *)
  { intros base h. unfold bc_valid, blockchain__ValidateMsg__if_msg_Base_gt_msg_Height.
    rewrite Z.gtb_ltb, !Z.leb_antisym. split; reflexivity. }
  (* tx pool: an empty list is refused *)
  { reflexivity. }
  (* the fetcher.  Notify is dropped / cut at maxTxAnnounces *)
  { intros used n. split; symmetry; [apply Z.geb_leb|apply Z.gtb_ltb]. }
  (* the wait trigger's expiry test *)
  { unfold tms, ms, arrive_timeout, gather_slack, tx_arrive_timeout_ms, tx_gather_slack_ms,
      mainchain_fetcher__TxFetcher_loop__if_time_Duration_f_clock_Now_minus_instance_plus_txGatherSlack__ad1ffaf4.
    intros now inst Hn Hi. gosem. rewrite Z.gtb_ltb.
    destruct (Z.ltb_spec 500 (now - inst + 100)), (Z.ltb_spec 500000000 (now * 1000000 - inst * 1000000 + 100000000)); try reflexivity; lia. }
  (* ... and the timeout trigger's *)
  { unfold tms, ms, fetch_timeout, gather_slack, tx_fetch_timeout_ms, tx_gather_slack_ms,
      mainchain_fetcher__TxFetcher_loop__if_time_Duration_f_clock_Now_minus_req_time_plus_txGatherSlack__0c5cb80d.
    intros now t Hn Ht. gosem. rewrite Z.gtb_ltb.
    destruct (Z.ltb_spec 5000 (now - t + 100)), (Z.ltb_spec (5000 * 1000000) (now * 1000000 - t * 1000000 + 100000000)); try reflexivity; lia. }
  (* scheduleFetches: at most maxTxRetrievals per request *)
  { intros hs. symmetry. apply Z.geb_leb. }
  (* the drop handler's branch on what is left of the alternates (seeded breakage a2 turns the test
     around): in the model, [zs_del peer alternates] empty or not *)
  { intros a. destruct a; reflexivity. }
  { unfold pinned1. repeat split. }
  (* NetAddressFromProto: the port *)
  { intros p. unfold port_ok, lib_p2p__NetAddressFromProto__if_pb_Port_ge_1_shl_16. rewrite Z.geb_leb. apply Z.ltb_antisym. }
  (* connection: a message may fill its channel's capacity exactly *)
  { unfold lib_p2p_conn__Channel_recvPacketMsg__if_recvCap_lt_recvReceived, lib_p2p_conn__Channel_recvPacketMsg__set_recvReceived.
    intros cap cur dl Hc Hd. gosem. reflexivity. }
  { exact pins_all_ok. }
Qed.
