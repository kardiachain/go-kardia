(** C18 — the transaction fetcher automaton (ModelFetcher.v): two invariants over all histories.

    IC, "alternates are tracked exactly for the hashes being fetched": under it scheduleFetches
    never reaches its panic.  IA, "every fetch is covered by a live request of that peer": under it
    the delivery loop never dereferences a missing request, and Drop(peer) leaves no hash marked as
    being fetched from the peer (the fact whose loss is seeded breakage a2).

    The handlers are put together from a few steps (the loops over hashes, scheduleFetches, the
    timers); the file first says, once and for any predicate, that what the steps keep the events
    keep, and then shows for IC and IA that the steps keep them. *)
From Coq Require Import List ZArith Bool Lia.
From Kardia Require Import C18.ModelFetcher Generated.C18Facts.
Import ListNotations.
Local Open Scope Z_scope.

(** histories: each event with its own rotation *)
Fixpoint frun (s : Fetcher) (evs : list (Z * fev)) : fres :=
  match evs with
  | [] => FOk s
  | (k, e) :: t => fbind (fstep k s e) (fun s' => frun s' t)
  end.

Section MapLemmas.
  Context {V : Type}.
  Implicit Types m : zmap V.

  Lemma zm_get_set_eq : forall k v m, zm_get k (zm_set k v m) = Some v.
  Proof.
    intros k v m. induction m as [|[a w] t IH]; cbn [zm_set zm_get].
    - now rewrite Z.eqb_refl.
    - destruct (a =? k) eqn:E; cbn [zm_get].
      + now rewrite E.
      + destruct (k <? a); cbn [zm_get]; [now rewrite Z.eqb_refl|now rewrite E].
  Qed.

  Lemma zm_get_set_ne : forall k k' v m, k <> k' -> zm_get k' (zm_set k v m) = zm_get k' m.
  Proof.
    intros k k' v m Hne. induction m as [|[a w] t IH]; cbn [zm_set zm_get].
    - destruct (k =? k') eqn:E; [apply Z.eqb_eq in E; contradiction|reflexivity].
    - destruct (a =? k) eqn:E; cbn [zm_get].
      + apply Z.eqb_eq in E. subst a. destruct (k =? k') eqn:E2; [apply Z.eqb_eq in E2; contradiction|reflexivity].
      + destruct (k <? a); cbn [zm_get].
        * destruct (k =? k') eqn:E2; [apply Z.eqb_eq in E2; contradiction|reflexivity].
        * destruct (a =? k'); [reflexivity|exact IH].
  Qed.

  Lemma zm_get_del_eq : forall k m, zm_get k (zm_del k m) = None.
  Proof.
    intros k m. unfold zm_del. induction m as [|[a w] t IH]; cbn [filter zm_get fst]; [reflexivity|].
    destruct (a =? k) eqn:E; cbn [negb]; [exact IH|]. cbn [zm_get]. now rewrite E.
  Qed.

  Lemma zm_get_del_ne : forall k k' m, k <> k' -> zm_get k' (zm_del k m) = zm_get k' m.
  Proof.
    intros k k' m Hne. unfold zm_del. induction m as [|[a w] t IH]; cbn [filter zm_get fst]; [reflexivity|].
    destruct (a =? k) eqn:E; cbn [negb].
    - apply Z.eqb_eq in E. subst a. destruct (k =? k') eqn:E2; [apply Z.eqb_eq in E2; contradiction|exact IH].
    - cbn [zm_get]. destruct (a =? k'); [reflexivity|exact IH].
  Qed.

  Lemma zm_has_set_eq : forall k v m, zm_has k (zm_set k v m) = true.
  Proof. intros. unfold zm_has. now rewrite zm_get_set_eq. Qed.
  Lemma zm_has_set_ne : forall k k' v m, k <> k' -> zm_has k' (zm_set k v m) = zm_has k' m.
  Proof. intros. unfold zm_has. now rewrite zm_get_set_ne. Qed.
  Lemma zm_has_del_eq : forall k m, zm_has k (zm_del k m) = false.
  Proof. intros. unfold zm_has. now rewrite zm_get_del_eq. Qed.
  Lemma zm_has_del_ne : forall k k' m, k <> k' -> zm_has k' (zm_del k m) = zm_has k' m.
  Proof. intros. unfold zm_has. now rewrite zm_get_del_ne. Qed.

  Lemma zm_has_get : forall k m, zm_has k m = true <-> exists v, zm_get k m = Some v.
  Proof.
    intros. unfold zm_has. destruct (zm_get k m); split; intros H; try discriminate; eauto.
    destruct H; discriminate.
  Qed.
  Lemma zm_has_false : forall k m, zm_has k m = false <-> zm_get k m = None.
  Proof. intros. unfold zm_has. destruct (zm_get k m); split; intros H; try discriminate; auto. Qed.

  (** the keys of the listing are the keys of the map *)
  Lemma zm_get_in_keys : forall k v m, zm_get k m = Some v -> In k (map fst m).
  Proof.
    intros k v m. induction m as [|[a w] t IH]; cbn [zm_get map fst]; [discriminate|].
    destruct (a =? k) eqn:E; intros H; [apply Z.eqb_eq in E; left; exact E|right; exact (IH H)].
  Qed.
  Lemma zm_in_keys_has : forall k m, In k (map fst m) -> zm_has k m = true.
  Proof.
    intros k m. unfold zm_has. induction m as [|[a w] t IH]; cbn [zm_get map fst]; [intros []|].
    intros [->|H]; [now rewrite Z.eqb_refl|]. destruct (a =? k); [reflexivity|auto].
  Qed.
End MapLemmas.

Lemma zs_mem_add : forall x y s, zs_mem x (zs_add y s) = (x =? y) || zs_mem x s.
Proof.
  intros x y s. unfold zs_mem. induction s as [|z t IH]; cbn [zs_add existsb].
  - now rewrite orb_false_r.
  - destruct (y =? z) eqn:E.
    + apply Z.eqb_eq in E. subst z. cbn [existsb]. destruct (x =? y); reflexivity.
    + destruct (y <? z); cbn [existsb]; [reflexivity|]. rewrite IH.
      destruct (x =? z), (x =? y); reflexivity.
Qed.

Lemma zs_mem_In : forall x s, zs_mem x s = true <-> In x s.
Proof.
  intros x s. unfold zs_mem. rewrite existsb_exists. split.
  - intros [y [Hy E]]. apply Z.eqb_eq in E. now subst.
  - intros H. exists x. split; [exact H|apply Z.eqb_refl].
Qed.

(** the key set of a tracker of sets under the derived updates *)
Lemma zm_has_add_to : forall k x k' (m : zmap zset), zm_has k' (zm_add_to k x m) = (k =? k') || zm_has k' m.
Proof.
  intros k x k' m. unfold zm_add_to. destruct (k =? k') eqn:E.
  - apply Z.eqb_eq in E. subst. now rewrite zm_has_set_eq.
  - apply Z.eqb_neq in E. now rewrite zm_has_set_ne.
Qed.

Lemma zm_has_del_from : forall k x k' (m : zmap zset), zm_has k' (zm_del_from k x m) = zm_has k' m.
Proof.
  intros k x k' m. unfold zm_del_from. destruct (zm_get k m) as [s|] eqn:E; [|reflexivity].
  destruct (Z.eq_dec k k') as [<-|Hne].
  - rewrite zm_has_set_eq. symmetry. apply zm_has_get. eauto.
  - now rewrite zm_has_set_ne.
Qed.

Lemma has_del_if : forall {V} k h (m : zmap V), zm_has h (zm_del k m) = if k =? h then false else zm_has h m.
Proof.
  intros V k h m. destruct (k =? h) eqn:E.
  - apply Z.eqb_eq in E. subst. apply zm_has_del_eq.
  - apply Z.eqb_neq in E. now apply zm_has_del_ne.
Qed.

Lemma get_del_if : forall {V} k h (m : zmap V), zm_get h (zm_del k m) = if k =? h then None else zm_get h m.
Proof.
  intros V k h m. destruct (k =? h) eqn:E.
  - apply Z.eqb_eq in E. subst. apply zm_get_del_eq.
  - apply Z.eqb_neq in E. now apply zm_get_del_ne.
Qed.

Lemma get_set_if : forall {V} k h v (m : zmap V), zm_get h (zm_set k v m) = if k =? h then Some v else zm_get h m.
Proof.
  intros V k h v m. destruct (k =? h) eqn:E.
  - apply Z.eqb_eq in E. subst. apply zm_get_set_eq.
  - apply Z.eqb_neq in E. now apply zm_get_set_ne.
Qed.

Lemma In_zs_del : forall x y s, In x (zs_del y s) <-> In x s /\ x <> y.
Proof.
  intros x y s. unfold zs_del. rewrite filter_In. split; intros [H1 H2]; split; auto.
  - intros ->. rewrite Z.eqb_refl in H2. discriminate.
  - apply negb_true_iff. apply Z.eqb_neq. exact H2.
Qed.

Lemma get_del_from : forall k x k' (m : zmap zset),
    zm_get k' (zm_del_from k x m) = if k =? k' then option_map (zs_del x) (zm_get k' m) else zm_get k' m.
Proof.
  intros k x k' m. unfold zm_del_from. destruct (k =? k') eqn:E.
  - apply Z.eqb_eq in E. subst k'. destruct (zm_get k m) as [s|] eqn:Eg; cbn [option_map].
    + apply zm_get_set_eq.
    + exact Eg.
  - apply Z.eqb_neq in E. destruct (zm_get k m); [now apply zm_get_set_ne|reflexivity].
Qed.

Lemma get_del_from_norm_some : forall k x k' (m : zmap zset) ps,
    zm_get k' (zm_del_from_norm k x m) = Some ps ->
    if k =? k' then exists ps0, zm_get k' m = Some ps0 /\ ps = zs_del x ps0 else zm_get k' m = Some ps.
Proof.
  intros k x k' m ps. unfold zm_del_from_norm. destruct (k =? k') eqn:E.
  - apply Z.eqb_eq in E. subst k'. destruct (zm_get k m) as [s|] eqn:Eg; [|congruence].
    destruct (zs_del x s) as [|a l] eqn:Ed.
    + rewrite zm_get_del_eq. discriminate.
    + rewrite zm_get_set_eq. intros X. inversion X; subst. exists s. split; [reflexivity|symmetry; exact Ed].
  - apply Z.eqb_neq in E. destruct (zm_get k m) as [s|]; [|auto].
    destruct (zs_del x s); [now rewrite zm_get_del_ne|now rewrite zm_get_set_ne].
Qed.

Lemma zm_get_head : forall {V} k (v : V) t, zm_get k ((k, v) :: t) = Some v.
Proof. intros. cbn [zm_get]. now rewrite Z.eqb_refl. Qed.

Lemma In_zs_add : forall y x s, In y (zs_add x s) <-> y = x \/ In y s.
Proof.
  intros y x s. rewrite <- !zs_mem_In, zs_mem_add. rewrite orb_true_iff, Z.eqb_eq. tauto.
Qed.

Lemma zs_add_not_nil : forall x s, zs_add x s <> [].
Proof. intros x s E. assert (In x (zs_add x s)) by (apply In_zs_add; auto). rewrite E in H. destruct H. Qed.

Lemma get_add_to : forall k x k' (m : zmap zset),
    zm_get k' (zm_add_to k x m) =
    if k =? k' then Some (zs_add x (match zm_get k m with Some s => s | None => [] end)) else zm_get k' m.
Proof.
  intros k x k' m. unfold zm_add_to. destruct (k =? k') eqn:E.
  - apply Z.eqb_eq in E. subst. apply zm_get_set_eq.
  - apply Z.eqb_neq in E. now apply zm_get_set_ne.
Qed.

(** adding never loses a membership *)
Lemma add_to_keeps : forall k x q (m : zmap zset) s y,
    zm_get q m = Some s -> In y s -> exists s', zm_get q (zm_add_to k x m) = Some s' /\ In y s'.
Proof.
  intros k x q m s y E Hin. rewrite get_add_to. destruct (k =? q) eqn:Ek.
  - apply Z.eqb_eq in Ek. subst q. rewrite E. eexists. split; [reflexivity|]. apply In_zs_add. right. exact Hin.
  - eauto.
Qed.

Lemma add_to_has : forall k x (m : zmap zset), exists s', zm_get k (zm_add_to k x m) = Some s' /\ In x s'.
Proof. intros. rewrite get_add_to, Z.eqb_refl. eexists. split; [reflexivity|]. apply In_zs_add. left. reflexivity. Qed.

(** removing [x] keeps the other memberships *)
Lemma del_from_norm_keeps : forall k x q (m : zmap zset) s y,
    zm_get q m = Some s -> In y s -> (q <> k \/ y <> x) ->
    exists s', zm_get q (zm_del_from_norm k x m) = Some s' /\ In y s'.
Proof.
  intros k x q m s y E Hin Hne. unfold zm_del_from_norm.
  destruct (Z.eq_dec k q) as [->|Hk].
  - rewrite E. destruct Hne as [Hne|Hne]; [contradiction|].
    assert (Hd : In y (zs_del x s)) by (apply In_zs_del; auto).
    destruct (zs_del x s) as [|a l] eqn:Ed; [destruct Hd|]. rewrite zm_get_set_eq. eauto.
  - destruct (zm_get k m) as [s0|]; [|eauto].
    destruct (zs_del x s0); [rewrite zm_get_del_ne by assumption|rewrite zm_get_set_ne by assumption]; eauto.
Qed.

Lemma del_from_keeps : forall k x q (m : zmap zset) s y,
    zm_get q m = Some s -> In y s -> (q <> k \/ y <> x) ->
    exists s', zm_get q (zm_del_from k x m) = Some s' /\ In y s'.
Proof.
  intros k x q m s y E Hin Hne. rewrite get_del_from. destruct (k =? q) eqn:Ek; [|eauto].
  apply Z.eqb_eq in Ek. subst q. rewrite E. cbn [option_map]. eexists. split; [reflexivity|].
  destruct Hne as [Hne|Hne]; [contradiction|]. apply In_zs_del. auto.
Qed.

Lemma get_del_from_norm_ne : forall k x h (m : zmap zset), k <> h -> zm_get h (zm_del_from_norm k x m) = zm_get h m.
Proof.
  intros k x h m Hne. unfold zm_del_from_norm. destruct (zm_get k m) as [s0|]; [|reflexivity].
  destruct (zs_del x s0); [now apply zm_get_del_ne|now apply zm_get_set_ne].
Qed.

Lemma del_from_norm_key_nonempty : forall k x (m : zmap zset), zm_get k (zm_del_from_norm k x m) <> Some [].
Proof.
  intros k x m. unfold zm_del_from_norm. destruct (zm_get k m) as [s0|] eqn:E0; [|rewrite E0; discriminate].
  destruct (zs_del x s0) as [|a l]; [rewrite zm_get_del_eq; discriminate|rewrite zm_get_set_eq; discriminate].
Qed.

Lemma purge_keeps : forall x q (m : zmap zset) s y,
    zm_get q m = Some s -> In y s -> y <> x -> exists s', zm_get q (zm_purge x m) = Some s' /\ In y s'.
Proof.
  intros x q m s y. unfold zm_purge. induction m as [|[a v] t IH]; cbn [zm_get map filter fst snd]; [discriminate|].
  destruct (a =? q) eqn:Ea.
  - intros E Hin Hne. inversion E; subst v.
    assert (Hd : In y (zs_del x s)) by (apply In_zs_del; auto).
    destruct (zs_del x s) as [|b l] eqn:Ed; [destruct Hd|]. cbn [zm_get]. rewrite Ea. eauto.
  - intros E Hin Hne. destruct (zs_del x v); [apply IH; assumption|]. cbn [zm_get]. rewrite Ea. apply IH; assumption.
Qed.

Lemma purge_sub : forall x q (m : zmap zset) s', zm_get q (zm_purge x m) = Some s' ->
    s' <> [] /\ exists s, In (q, s) m /\ forall y, In y s' -> In y s /\ y <> x.
Proof.
  intros x q m s'. unfold zm_purge. induction m as [|[a v] t IH]; cbn [zm_get map filter fst snd]; [discriminate|].
  destruct (zs_del x v) as [|b l] eqn:Ed.
  - intros E. destruct (IH E) as [N [s [Hin Hs]]]. split; [exact N|]. exists s. split; [right; exact Hin|exact Hs].
  - cbn [zm_get]. destruct (a =? q) eqn:Ea.
    + intros E. inversion E; subst s'. split; [discriminate|]. apply Z.eqb_eq in Ea. subst a. exists v. split; [left; reflexivity|].
      intros y Hy. rewrite <- Ed in Hy. apply In_zs_del in Hy. exact Hy.
    + intros E. destruct (IH E) as [N [s [Hin Hs]]]. split; [exact N|]. exists s. split; [right; exact Hin|exact Hs].
Qed.

Lemma zm_all_none : forall {V} (m : zmap V), (forall k, zm_get k m = None) -> m = [].
Proof. intros V [|[k v] t] H; [reflexivity|]. specialize (H k). rewrite zm_get_head in H. discriminate. Qed.

Ltac fsimp := cbn [f_now f_known f_under f_waitlist f_waittime f_waitslots f_announces f_announced f_fetching
  f_requests f_alternates f_wait_timer f_timeout_timer w_now w_known w_under w_waitlist w_waittime w_waitslots
  w_announces w_announced w_fetching w_requests w_alternates w_wait_timer w_timeout_timer rq_hashes rq_stolen rq_time].

Ltac fsimp_in H := cbn [f_now f_known f_under f_waitlist f_waittime f_waitslots f_announces f_announced f_fetching
  f_requests f_alternates f_wait_timer f_timeout_timer w_now w_known w_under w_waitlist w_waittime w_waitslots
  w_announces w_announced w_fetching w_requests w_alternates w_wait_timer w_timeout_timer rq_hashes rq_stolen rq_time] in H.


(** ** how a loop iteration ends *)

(** [P] of the state it ends in; [C] if it panics *)
Definition okf (C : Prop) (P : Fetcher -> Prop) (r : fres) : Prop :=
  match r with FOk s => P s | FCrash => C end.

Lemma okf_bind : forall C P r k, okf C P r -> (forall s, P s -> okf C P (k s)) -> okf C P (fbind r k).
Proof. intros C P [s|] k H Hk; cbn; auto. Qed.

Lemma okf_ffold : forall {A} C (P : Fetcher -> Prop) (f : Fetcher -> A -> fres) l,
    (forall s x, P s -> okf C P (f s x)) -> forall s, P s -> okf C P (ffold f l s).
Proof.
  intros A C P f l Hf. induction l as [|x t IH]; intros s H; cbn [ffold]; [exact H|].
  apply okf_bind; auto.
Qed.

Lemma okf_sure : forall C P r, okf False P r -> okf C P r.
Proof. intros C P [s|] H; [exact H|destruct H]. Qed.

Lemma okf_and : forall C (P Q : Fetcher -> Prop) r, okf C P r -> okf True Q r -> okf C (fun s => P s /\ Q s) r.
Proof. intros C P Q [s|] H1 H2; cbn in *; auto. Qed.

Lemma okf_total : forall P r, okf False P r -> exists s, r = FOk s /\ P s.
Proof. intros P [s|] H; [eauto|destruct H]. Qed.

(** the loops that carry a second value along with the state; a panic stays a panic *)
Definition okp {B} (C : Prop) (Q : Fetcher -> B -> Prop) (r : fres * B) : Prop :=
  match r with (FOk s, b) => Q s b | (FCrash, _) => C end.

Lemma fold_crash : forall {A B} (step : fres * B -> A -> fres * B),
    (forall b x, fst (step (FCrash, b) x) = FCrash) ->
    forall l b, fst (fold_left step l (FCrash, b)) = FCrash.
Proof.
  intros A B step Hc. induction l as [|x t IH]; intros b; cbn [fold_left]; [reflexivity|].
  specialize (Hc b x). destruct (step (FCrash, b) x) as [r b']. cbn in Hc. subst r. apply IH.
Qed.

Lemma okp_fold : forall {A B} C (Q : Fetcher -> B -> Prop) (step : fres * B -> A -> fres * B),
    (forall b x, fst (step (FCrash, b) x) = FCrash) ->
    (forall s b x, Q s b -> okp C Q (step (FOk s, b) x)) ->
    forall l s b, Q s b -> okp C Q (fold_left step l (FOk s, b)).
Proof.
  intros A B C Q step Hc Hs.
  induction l as [|x t IH]; intros s b H; cbn [fold_left]; [exact H|].
  specialize (Hs s b x H). destruct (step (FOk s, b) x) as [[s1|] b1]; cbn in Hs; [apply IH; exact Hs|].
  pose proof (fold_crash step Hc t b1) as X. destruct (fold_left step t (FCrash, b1)) as [r b2]. cbn in X. subst r. exact Hs.
Qed.

Lemma okf_imp : forall C (P Q : Fetcher -> Prop) r, okf C P r -> (forall s, P s -> Q s) -> okf C Q r.
Proof. intros C P Q [s|] H Hi; cbn in *; auto. Qed.

Lemma okf_fold_fst : forall {A B} C (P : Fetcher -> Prop) (step : fres * B -> A -> fres * B),
    (forall b x, fst (step (FCrash, b) x) = FCrash) ->
    (forall s b x, P s -> okf C P (fst (step (FOk s, b) x))) ->
    forall l s b, P s -> okf C P (fst (fold_left step l (FOk s, b))).
Proof.
  intros A B C P step Hc Hs l s b H.
  assert (X : okp C (fun s' _ => P s') (fold_left step l (FOk s, b))).
  { apply okp_fold; [exact Hc| |exact H]. intros s0 b0 x H0. specialize (Hs s0 b0 x H0).
    destruct (step (FOk s0, b0) x) as [[s1|] b1]; exact Hs. }
  destruct (fold_left step l (FOk s, b)) as [[s1|] b1]; exact X.
Qed.

(** ** what a step leaves alone: a function of the state that does not see the fields the step
    writes has the same value afterwards *)

Lemma fold_left_keeps : forall {A T} (g : Fetcher -> T) (f : Fetcher -> A -> Fetcher) l s,
    (forall s x, g (f s x) = g s) -> g (fold_left f l s) = g s.
Proof.
  intros A T g f l. induction l as [|x t IH]; intros s Hf; cbn [fold_left]; [reflexivity|].
  rewrite IH by exact Hf. apply Hf.
Qed.

Lemma fold_left_inv : forall {A} (P : Fetcher -> Prop) (f : Fetcher -> A -> Fetcher) l,
    (forall s x, P s -> P (f s x)) -> forall s, P s -> P (fold_left f l s).
Proof. intros A P f l Hf. induction l as [|x t IH]; intros s H; cbn [fold_left]; auto. Qed.

Lemma enqueue_pool_keeps : forall {T} (g : Fetcher -> T) txs s,
    (forall v s, g (w_known v s) = g s) -> (forall v s, g (w_under v s) = g s) -> g (enqueue_pool txs s) = g s.
Proof.
  intros T g txs s Hk Hu. apply fold_left_keeps. intros s0 p.
  destruct (snd p =? 0); [apply Hk|]. destruct (snd p =? 2); [apply Hu|reflexivity].
Qed.

(** ** the drop handler, phase by phase *)

Definition drop_waits (peer : Z) (s : Fetcher) : Fetcher :=
  match zm_get peer (f_waitslots s) with
  | Some hs =>
    let a := fold_left (drop_wait_hash peer) hs s in
    let b := w_waitslots (zm_del peer (f_waitslots a)) a in
    if negb (is_nil (f_waitlist b)) then reschedule_wait b else b
  | None => s
  end.
Definition drop_request (peer : Z) (s : Fetcher) : Fetcher :=
  match zm_get peer (f_requests s) with
  | Some rq =>
    let a := fold_left (drop_req_hash peer (rq_stolen rq)) (rq_hashes rq) s in
    w_requests (zm_del peer (f_requests a)) a
  | None => s
  end.
Definition drop_announces (peer : Z) (s : Fetcher) : Fetcher :=
  match zm_get peer (f_announces s) with
  | Some hs =>
    let a := fold_left (drop_ann_hash peer) hs s in
    w_announces (zm_del peer (f_announces a)) a
  | None => s
  end.

Definition drop_body (peer : Z) (s : Fetcher) : Fetcher :=
  drop_announces peer (drop_request peer (drop_waits peer s)).

(** fetches are rescheduled only when the peer had a request *)
Lemma ev_drop_eq : forall peer k s,
    ev_drop peer k s =
    match zm_get peer (f_requests (drop_waits peer s)) with
    | Some _ => fbind (schedule_fetches None k (drop_body peer s)) (fun s4 => FOk (reschedule_timeout s4))
    | None => FOk (drop_body peer s)
    end.
Proof. reflexivity. Qed.

(** so what the three phases establish and scheduling keeps holds after the event *)
Lemma ev_drop_from_body : forall C (P : Fetcher -> Prop) peer k s,
    okf C P (schedule_fetches None k (drop_body peer s)) -> (forall s0, P s0 -> P (reschedule_timeout s0)) ->
    P (drop_body peer s) -> okf C P (ev_drop peer k s).
Proof.
  intros C P peer k s Hs Ht Hb. rewrite ev_drop_eq.
  destruct (zm_get peer (f_requests (drop_waits peer s))); [|exact Hb]. apply okf_bind; [exact Hs|exact Ht].
Qed.

Lemma drop_wait_hash_keeps : forall {T} (g : Fetcher -> T) peer s hash,
    (forall v s, g (w_waitlist v s) = g s) -> (forall v s, g (w_waittime v s) = g s) ->
    g (drop_wait_hash peer s hash) = g s.
Proof.
  intros T g peer s hash Hl Ht. unfold drop_wait_hash.
  destruct (zm_get hash (f_waitlist s)) as [ps|]; [destruct (zs_del peer ps)|]; rewrite ?Ht, ?Hl; reflexivity.
Qed.

Lemma drop_waits_keeps : forall {T} (g : Fetcher -> T) peer s,
    (forall v s, g (w_waitlist v s) = g s) -> (forall v s, g (w_waittime v s) = g s) ->
    (forall v s, g (w_waitslots v s) = g s) -> (forall v s, g (w_wait_timer v s) = g s) ->
    g (drop_waits peer s) = g s.
Proof.
  intros T g peer s Hl Ht Hs Hw. unfold drop_waits. destruct (zm_get peer (f_waitslots s)) as [hs|]; [|reflexivity].
  cbv zeta. unfold reschedule_wait. destruct (negb _); rewrite ?Hw, Hs; apply fold_left_keeps; intros; now apply drop_wait_hash_keeps.
Qed.

Lemma drop_req_hash_keeps : forall {T} (g : Fetcher -> T) peer stolen s hash,
    (forall v s, g (w_alternates v s) = g s) -> (forall v s, g (w_announced v s) = g s) ->
    (forall v s, g (w_fetching v s) = g s) -> g (drop_req_hash peer stolen s hash) = g s.
Proof.
  intros T g peer stolen s hash Ha Hd Hf. unfold drop_req_hash. destruct (zs_mem hash stolen); [reflexivity|].
  rewrite Hf. destruct (zm_get hash _) as [[|x a]|]; rewrite ?Ha, ?Hd, ?Ha; reflexivity.
Qed.

Lemma drop_ann_hash_keeps : forall {T} (g : Fetcher -> T) peer s h,
    (forall v s, g (w_alternates v s) = g s) -> (forall v s, g (w_announced v s) = g s) -> g (drop_ann_hash peer s h) = g s.
Proof. intros T g peer s h Ha Hd. unfold drop_ann_hash. now rewrite Ha, Hd. Qed.

Lemma drop_announces_keeps : forall {T} (g : Fetcher -> T) peer s,
    (forall v s, g (w_alternates v s) = g s) -> (forall v s, g (w_announced v s) = g s) ->
    (forall v s, g (w_announces v s) = g s) -> g (drop_announces peer s) = g s.
Proof.
  intros T g peer s Ha Hd Hn. unfold drop_announces. destruct (zm_get peer (f_announces s)) as [hs|]; [|reflexivity].
  cbv zeta. rewrite Hn. apply fold_left_keeps. intros. now apply drop_ann_hash_keeps.
Qed.

(** ** scheduleFetches *)

(** the request for [hash] goes to [peer]; the queued origins of the hash become its alternates *)
Definition assign (peer hash : Z) (s : Fetcher) : Fetcher :=
  let s1 := w_fetching (zm_set hash peer (f_fetching s)) s in
  let alt := match zm_get hash (f_announced s1) with Some a => a | None => [] end in
  let s2 := w_alternates (zm_set hash alt (f_alternates s1)) s1 in
  w_announced (zm_del hash (f_announced s2)) s2.

Lemma sched_hash_eq : forall peer s hs hash,
    sched_hash peer (FOk s, hs) hash =
    if max_tx_retrievals <=? zlen hs then (FOk s, hs)
    else if zm_has hash (f_fetching s) then (FOk s, hs)
    else if zm_has hash (f_alternates s) then (FCrash, hs)
    else (FOk (assign peer hash s), hs ++ [hash]).
Proof. reflexivity. Qed.

(** [Q] of the state and the hashes allotted so far is kept by the loop over a peer's hashes when
    every assignment keeps it; the loop panics only where alternates has a hash nobody fetches *)
Lemma sched_hashes_okp : forall peer C (Q : Fetcher -> list Z -> Prop),
    (forall s hs h, Q s hs -> zm_has h (f_fetching s) = false ->
       if zm_has h (f_alternates s) then C else Q (assign peer h s) (hs ++ [h])) ->
    forall l s hs, Q s hs -> okp C Q (fold_left (sched_hash peer) l (FOk s, hs)).
Proof.
  intros peer C Q Hq. apply okp_fold; [reflexivity|]. intros s hs h H. rewrite sched_hash_eq.
  destruct (max_tx_retrievals <=? zlen hs); [exact H|].
  destruct (zm_has h (f_fetching s)) eqn:Ef; [exact H|].
  specialize (Hq s hs h H Ef). destruct (zm_has h (f_alternates s)); exact Hq.
Qed.

Lemma schedule_of_peers : forall C (P : Fetcher -> Prop),
    (forall k s peer, P s -> okf C P (sched_peer k s peer)) -> (forall s, P s -> P (reschedule_timeout s)) ->
    forall w k s, P s -> okf C P (schedule_fetches w k s).
Proof.
  intros C P Hp Ht w k s H. unfold schedule_fetches.
  destruct (match w with Some w0 => w0 | None => map fst (f_announces s) end) as [|a l]; [exact H|].
  apply okf_bind; [apply okf_ffold; [apply Hp|exact H]|].
  intros s1 H1. cbn [okf]. destruct (_ && _); [apply Ht|]; exact H1.
Qed.

Definition announcing (peer : Z) (s : Fetcher) : Prop := zm_get peer (f_announces s) <> None.

(** Scheduling does three things: it gives a hash that nobody fetches to a peer that announces
    something and has no request, it files the request of such a peer, and it arms the timer.  What
    these keep, it keeps. *)
Section Schedule.
  Variables (C : Prop) (P : Fetcher -> Prop).
  Hypothesis P_assign : forall peer h s, P s -> announcing peer s -> zm_has peer (f_requests s) = false ->
      zm_has h (f_fetching s) = false -> if zm_has h (f_alternates s) then C else P (assign peer h s).
  Hypothesis P_file : forall peer rq s, P s -> announcing peer s -> zm_has peer (f_requests s) = false ->
      P (w_requests (zm_set peer rq (f_requests s)) s).
  Hypothesis P_timer : forall s, P s -> P (reschedule_timeout s).

  Lemma sched_peer_ok : forall k s peer, P s -> okf C P (sched_peer k s peer).
  Proof.
    intros k s peer H. unfold sched_peer.
    destruct (zm_has peer (f_requests s)) eqn:Er; [exact H|].
    destruct (zm_get peer (f_announces s)) as [[|a l]|] eqn:Ea; [exact H| |exact H].
    assert (X : okp C (fun s' (_ : list Z) => P s' /\ f_requests s' = f_requests s /\ f_announces s' = f_announces s)
                  (fold_left (sched_hash peer) (rotate k (a :: l)) (FOk s, []))).
    { apply sched_hashes_okp; [|auto]. intros s0 hs h (H0 & Hr & Hn) Ef.
      pose proof (P_assign peer h s0 H0) as X. unfold announcing in X. rewrite Hr, Hn, Ea in X.
      specialize (X ltac:(discriminate) Er Ef). destruct (zm_has h (f_alternates s0)); [exact X|].
      split; [exact X|split; assumption]. }
    destruct (fold_left _ _ _) as [[s1|] got]; cbn [okp] in X; [|exact X].
    destruct X as (H1 & Hr & Hn). destruct got as [|g gs]; [exact H1|]. cbn [okf].
    apply P_file; [exact H1|unfold announcing; rewrite Hn, Ea; discriminate|rewrite Hr; exact Er].
  Qed.

  Lemma schedule_ok : forall w k s, P s -> okf C P (schedule_fetches w k s).
  Proof. apply schedule_of_peers; [apply sched_peer_ok|exact P_timer]. Qed.
End Schedule.

(** a fact about the trackers: the clock, the timers and the pool's two sets are not looked at *)
Definition reads_trackers (P : Fetcher -> Prop) : Prop :=
  forall s s', f_waitlist s' = f_waitlist s -> f_waittime s' = f_waittime s -> f_waitslots s' = f_waitslots s ->
    f_announces s' = f_announces s -> f_announced s' = f_announced s -> f_fetching s' = f_fetching s ->
    f_requests s' = f_requests s -> f_alternates s' = f_alternates s -> P s -> P s'.

(** Every handler of the loop is put together from the same few steps; a fact about the trackers
    that these steps keep (when they complete) is kept by every event, and so along every history. *)
Section Events.
  Variable P : Fetcher -> Prop.
  Hypothesis P_reads : reads_trackers P.
  Hypothesis P_sched : forall w k s, P s -> okf True P (schedule_fetches w k s).
  Hypothesis P_notify : forall origin s h, P s -> P (notify_one origin s h).
  Hypothesis P_wait : forall s (a : zset) h, P s -> okf True P (fst (wait_one (FOk s, a) h)).
  Hypothesis P_timeout : forall s peer, P s -> okf True P (timeout_req s peer).
  Hypothesis P_cleanup : forall origin direct s h, P s -> okf True P (cleanup_hash origin direct s h).
  (** the second loop of a direct reply, over the request it answers *)
  Hypothesis P_direct : forall origin hashes req s, P s -> zm_get origin (f_requests s) = Some req ->
      okf True P (fst (fold_left (direct_hash origin hashes (rq_stolen req) (cutoff_of hashes (rq_hashes req) 0 (zlen (rq_hashes req))))
                                 (rq_hashes req) (FOk (w_requests (zm_del origin (f_requests s)) s), 0))).
  Hypothesis P_drop : forall peer s, P s -> P (drop_body peer s).

  Lemma ev_notify_ok : forall origin hashes k s, P s -> okf True P (ev_notify origin hashes k s).
  Proof.
    intros origin hashes k s H. unfold ev_notify.
    destruct (max_tx_announces <=? _); [exact H|].
    set (hs := if _ <? _ then _ else _).
    pose proof (fold_left_inv P (notify_one origin) hs (P_notify origin) s H) as H1.
    set (s1 := fold_left (notify_one origin) hs s) in *.
    assert (H2 : P (if is_nil (f_waittime s) && negb (is_nil (f_waittime s1)) then reschedule_wait s1 else s1)).
    { destruct (_ && _); [apply (P_reads s1); [reflexivity..|]|]; exact H1. }
    destruct (negb _ && _); [apply P_sched|]; exact H2.
  Qed.

  Lemma ev_wait_trigger_ok : forall k s, P s -> okf True P (ev_wait_trigger k s).
  Proof.
    intros k s H. unfold ev_wait_trigger.
    pose proof (okf_fold_fst True P wait_one (fun _ _ => eq_refl) P_wait (map fst (f_waittime s)) s [] H) as Hf.
    destruct (fold_left wait_one _ _) as [[s1|] act]; cbn [fst okf] in Hf; [|exact I].
    assert (H2 : P (if negb (is_nil (f_waittime s1)) then reschedule_wait s1 else s1)).
    { destruct (negb _); [apply (P_reads s1); [reflexivity..|]|]; exact Hf. }
    destruct act; [exact H2|apply P_sched; exact H2].
  Qed.

  Lemma ev_timeout_trigger_ok : forall k s, P s -> okf True P (ev_timeout_trigger k s).
  Proof.
    intros k s H. unfold ev_timeout_trigger.
    apply okf_bind; [apply okf_ffold; [apply P_timeout|exact H]|].
    intros s1 H1. apply okf_bind; [apply P_sched; exact H1|].
    intros s2 H2. apply (P_reads s2); [reflexivity..|exact H2].
  Qed.

  Lemma ev_advance_ok : forall d k s, P s -> okf True P (ev_advance d k s).
  Proof.
    intros d k s H. unfold ev_advance.
    set (s0 := w_now (f_now s + d) s). assert (H0 : P s0) by (apply (P_reads s); [reflexivity..|exact H]).
    apply okf_bind.
    - destruct (due (f_wait_timer s0) (f_now s0)); [|exact H0].
      apply ev_wait_trigger_ok. apply (P_reads s0); [reflexivity..|exact H0].
    - intros s1 H1. destruct (due (f_timeout_timer s1) (f_now s1)); [|exact H1].
      apply ev_timeout_trigger_ok. apply (P_reads s1); [reflexivity..|exact H1].
  Qed.

  (** a delivery that answers no request of ours: the first loop only *)
  Lemma ev_broadcast_ok : forall origin hashes k s, P s -> okf True P (ev_cleanup origin hashes false k s).
  Proof.
    intros origin hashes k s H. unfold ev_cleanup.
    apply okf_bind; [apply okf_ffold; [apply P_cleanup|exact H]|]. intros s1 H1. exact H1.
  Qed.

  Lemma ev_cleanup_ok : forall origin hashes direct k s, P s -> okf True P (ev_cleanup origin hashes direct k s).
  Proof.
    intros origin hashes [|] k s H; [|now apply ev_broadcast_ok]. unfold ev_cleanup.
    apply okf_bind; [apply okf_ffold; [apply P_cleanup|exact H]|]. intros s1 H1. cbn [negb].
    destruct (zm_get origin (f_requests s1)) as [req|] eqn:Er; [|exact H1].
    pose proof (P_direct origin hashes req s1 H1 Er) as H3.
    destruct (fold_left _ _ _) as [[s3|] i3]; cbn [fst okf] in H3; [|exact I]. apply P_sched; exact H3.
  Qed.

  Lemma enqueue_pool_ok : forall txs s, P s -> P (enqueue_pool txs s).
  Proof. intros txs s H. apply (P_reads s); [(apply enqueue_pool_keeps; reflexivity)..|exact H]. Qed.

  Lemma ev_drop_ok : forall peer k s, P s -> okf True P (ev_drop peer k s).
  Proof.
    intros peer k s H. pose proof (P_drop peer s H) as Hb. apply ev_drop_from_body; [now apply P_sched| |exact Hb].
    intros s4 H4. apply (P_reads s4); [reflexivity..|exact H4].
  Qed.

  Lemma fstep_ok : forall k s e, P s -> okf True P (fstep k s e).
  Proof.
    intros k s [p hs|p txs direct|p|d] H; cbn [fstep].
    - destruct (notify_filter s hs); [exact H|]. now apply ev_notify_ok.
    - apply ev_cleanup_ok. now apply enqueue_pool_ok.
    - now apply ev_drop_ok.
    - now apply ev_advance_ok.
  Qed.
End Events.

Lemma frun_of_fstep : forall P : Fetcher -> Prop, (forall k s e, P s -> okf True P (fstep k s e)) ->
    forall evs s, P s -> okf True P (frun s evs).
Proof.
  intros P Hs. induction evs as [|[k e] t IH]; intros s H; cbn [frun]; [exact H|].
  apply okf_bind; [now apply Hs|exact IH].
Qed.

(** alternates, fetching and requests: all that the two invariants below look at *)
Definition core (s : Fetcher) := (f_alternates s, f_fetching s, f_requests s).

(** a fact about [core] ignores the other trackers ... *)
Lemma core_reads : forall P : Fetcher -> Prop, (forall s s', core s' = core s -> P s -> P s') -> reads_trackers P.
Proof. intros P Hc s s' _ _ _ _ _ Ef Er Ea. apply Hc. unfold core. now rewrite Ef, Er, Ea. Qed.

(** ... and is kept by the wait trigger, which moves hashes from the wait tables to the queue *)
Lemma wait_one_core : forall s (a : zset) hash, okf True (fun s' => core s' = core s) (fst (wait_one (FOk s, a) hash)).
Proof.
  intros s a hash. unfold wait_one.
  destruct (zm_get hash (f_waittime s)) as [inst|]; [|reflexivity].
  destruct (arrive_timeout <? _); [|reflexivity].
  destruct (zm_has hash (f_announced s)); [exact I|].
  set (peers := match zm_get hash (f_waitlist s) with Some p => p | None => [] end).
  set (s1 := w_announced _ s).
  assert (Hw : forall l t (a0 : zset), core (fst (fold_left (wait_peer hash) l (t, a0))) = core t).
  { induction l as [|p r IH]; intros t a0; cbn [fold_left]; [reflexivity|]. unfold wait_peer at 2. now rewrite IH. }
  specialize (Hw peers s1 a). destruct (fold_left (wait_peer hash) peers (s1, a)) as [s2 act]. exact Hw.
Qed.

Lemma core_wait : forall P : Fetcher -> Prop, (forall s s', core s' = core s -> P s -> P s') ->
    forall s (a : zset) h, P s -> okf True P (fst (wait_one (FOk s, a) h)).
Proof. intros P Hc s a h H. exact (okf_imp _ _ _ _ (wait_one_core s a h) (fun s' E => Hc s s' E H)). Qed.

(** ** invariant 1: alternates exactly for what is being fetched *)

Definition IC (s : Fetcher) : Prop := forall h, zm_has h (f_alternates s) = zm_has h (f_fetching s).

Lemma IC_f0 : IC f0. Proof. intros h. reflexivity. Qed.

Lemma IC_core : forall s s', core s' = core s -> IC s -> IC s'.
Proof. intros s s' E H h. injection E as Ea Ef _. rewrite Ea, Ef. apply H. Qed.

(** the panic of scheduleFetches is an alternates entry for a hash nobody fetches *)
Lemma assign_IC : forall peer h s, IC s -> zm_has h (f_fetching s) = false ->
    if zm_has h (f_alternates s) then False else IC (assign peer h s).
Proof.
  intros peer h s H Ef. rewrite (H h), Ef. intros h'. cbn.
  destruct (Z.eq_dec h h') as [<-|Hne]; [now rewrite !zm_has_set_eq|].
  rewrite !zm_has_set_ne by assumption. apply H.
Qed.

Lemma schedule_IC : forall C w k s, IC s -> okf C IC (schedule_fetches w k s).
Proof.
  intros C w k s H. apply schedule_ok; [| | |exact H].
  - intros peer h s0 H0 _ _ Ef. pose proof (assign_IC peer h s0 H0 Ef) as X.
    destruct (zm_has h (f_alternates s0)); [destruct X|exact X].
  - intros peer rq s0 H0 _ _. exact H0.
  - intros s0 H0. exact H0.
Qed.

(** scheduleFetches never panics when alternates mirror fetching, and keeps that *)
Lemma schedule_fetches_IC : forall w k s, IC s -> exists s', schedule_fetches w k s = FOk s' /\ IC s'.
Proof. intros w k s H. apply okf_total. now apply schedule_IC. Qed.

Lemma notify_one_IC : forall origin s hash, IC s -> IC (notify_one origin s hash).
Proof.
  intros origin s hash H. unfold notify_one.
  destruct (zm_has hash (f_alternates s)) eqn:Ea.
  - intros h. cbn. rewrite zm_has_add_to. destruct (hash =? h) eqn:E; [|apply H].
    apply Z.eqb_eq in E. subst h. cbn. now rewrite <- (H hash).
  - destruct (zm_has hash (f_announced s)); [intros h; cbn; apply H|].
    destruct (zm_has hash (f_waitlist s)); intros h; cbn; apply H.
Qed.

(** a step that takes [hash] out of alternates and fetching alike *)
Lemma del_both_IC : forall s hash s',
    (forall h, zm_has h (f_alternates s') = if hash =? h then false else zm_has h (f_alternates s)) ->
    (forall h, zm_has h (f_fetching s') = if hash =? h then false else zm_has h (f_fetching s)) ->
    IC s -> IC s'.
Proof. intros s hash s' Ha Hf H h. rewrite Ha, Hf. destruct (hash =? h); [reflexivity|apply H]. Qed.

Lemma timeout_hash_IC : forall peer stolen s hash, IC s -> okf True IC (timeout_hash peer stolen s hash).
Proof.
  intros peer stolen s hash H. unfold timeout_hash.
  destruct (zs_mem hash stolen); [exact H|].
  destruct (zm_has hash (f_announced s)); [exact I|].
  cbn [okf]. eapply (del_both_IC s hash); [| |exact H]; intros h; cbn;
    destruct (zm_get hash (f_alternates s)); cbn; apply has_del_if.
Qed.

Lemma timeout_req_IC : forall s peer, IC s -> okf True IC (timeout_req s peer).
Proof.
  intros s peer H. unfold timeout_req.
  destruct (zm_get peer (f_requests s)) as [req|]; [|exact H].
  destruct (fetch_timeout <? _); [|exact H].
  apply okf_bind; [apply okf_ffold; [apply timeout_hash_IC|exact H]|].
  intros s1 H1. cbn [okf]. destruct (_ =? 0); intros h; cbn; apply H1.
Qed.

Lemma cleanup_hash_IC : forall origin direct s hash, IC s -> okf True IC (cleanup_hash origin direct s hash).
Proof.
  intros origin direct s hash H. unfold cleanup_hash.
  destruct (zm_has hash (f_waitlist s)); [intros h; cbn; apply H|].
  set (s1 := w_alternates _ _).
  assert (Ha : forall h, zm_has h (f_alternates s1) = if hash =? h then false else zm_has h (f_alternates s))
    by (intros h; cbn; apply has_del_if).
  assert (Hf : f_fetching s1 = f_fetching s) by reflexivity.
  destruct (zm_get hash (f_fetching s1)) as [o|] eqn:Eo.
  - assert (X : IC (w_fetching (zm_del hash (f_fetching s1)) s1))
      by (eapply (del_both_IC s hash); [| |exact H]; intros h; cbn; apply has_del_if).
    destruct (negb (o =? origin) || negb direct); [|exact X].
    destruct (zm_get o (f_requests s1)); [exact X|exact I].
  - cbn [okf]. intros h. rewrite Ha, Hf. destruct (hash =? h) eqn:E; [|apply H].
    apply Z.eqb_eq in E. subst h. symmetry. apply zm_has_false. rewrite <- Hf. exact Eo.
Qed.

Lemma direct_hash_IC : forall origin delivered stolen cutoff s i hash, IC s ->
    okf True IC (fst (direct_hash origin delivered stolen cutoff (FOk s, i) hash)).
Proof.
  intros origin delivered stolen cutoff s i hash H. unfold direct_hash.
  destruct (zs_mem hash stolen); [exact H|]. cbn [fst].
  apply okf_bind.
  - destruct (negb (zs_mem hash delivered)); [|exact H].
    set (s1 := if i <? cutoff then _ else s).
    assert (H1 : IC s1).
    { unfold s1. destruct (i <? cutoff); [|exact H]. intros h. cbn. rewrite zm_has_del_from. apply H. }
    destruct (zm_get hash (f_alternates s1)) as [[|x a]|]; [exact H1| |exact H1].
    destruct (zm_has hash (f_announced s1)); [exact I|]. intros h. cbn. apply H1.
  - intros s2 H2. cbn [okf]. eapply (del_both_IC s2 hash); [| |exact H2]; intros h; cbn; apply has_del_if.
Qed.

Lemma drop_req_hash_IC : forall peer stolen s hash, IC s -> IC (drop_req_hash peer stolen s hash).
Proof.
  intros peer stolen s hash H. unfold drop_req_hash.
  destruct (zs_mem hash stolen); [exact H|].
  set (s1 := w_alternates (zm_del_from hash peer (f_alternates s)) s).
  assert (H1 : IC s1) by (intros h; cbn; rewrite zm_has_del_from; apply H).
  eapply (del_both_IC s1 hash); [| |exact H1]; intros h;
    destruct (zm_get hash (f_alternates s1)) as [[|x a]|]; cbn; apply has_del_if.
Qed.

Lemma drop_body_IC : forall peer s, IC s -> IC (drop_body peer s).
Proof.
  intros peer s H. unfold drop_body.
  assert (H1 : IC (drop_waits peer s)) by (apply (IC_core s); [apply drop_waits_keeps; reflexivity|exact H]).
  revert H1. generalize (drop_waits peer s). clear s H. intros s H.
  assert (H1 : IC (drop_request peer s)).
  { unfold drop_request. destruct (zm_get peer (f_requests s)) as [rq|]; [|exact H].
    intros h. cbn. now apply (fold_left_inv IC _ _ (drop_req_hash_IC peer (rq_stolen rq))). }
  revert H1. generalize (drop_request peer s). clear s H. intros s H.
  unfold drop_announces. destruct (zm_get peer (f_announces s)) as [hs|]; [|exact H].
  intros h. cbn. apply (fold_left_inv IC); [|exact H].
  intros s0 x H0 h0. unfold drop_ann_hash. cbn. rewrite zm_has_del_from. apply H0.
Qed.

Lemma fstep_IC : forall k s e, IC s -> okf True IC (fstep k s e).
Proof.
  apply fstep_ok; [exact (core_reads IC IC_core)|exact (schedule_IC True)|exact notify_one_IC|exact (core_wait IC IC_core)|exact timeout_req_IC|exact cleanup_hash_IC| |exact drop_body_IC].
  - intros origin hashes req s H _. apply okf_fold_fst; [reflexivity|apply direct_hash_IC|exact H].
Qed.

Lemma frun_IC : forall evs s, IC s -> okf True IC (frun s evs).
Proof. exact (frun_of_fstep IC fstep_IC). Qed.

(** ** Drop(peer) forgets the peer *)

(** the fetches from [peer] are covered by its request *)
Definition covered (peer : Z) (s : Fetcher) : Prop :=
  forall h, zm_get h (f_fetching s) = Some peer ->
    exists rq, zm_get peer (f_requests s) = Some rq /\ In h (rq_hashes rq) /\ zs_mem h (rq_stolen rq) = false.

Definition no_fetch_from (peer : Z) (s : Fetcher) : Prop := forall h, zm_get h (f_fetching s) <> Some peer.

(** the loops over the hashes of a request take the fetches of its live hashes away, and no other *)
Definition removed (stolen : zset) (hashes : list Z) (m m' : zmap Z) : Prop :=
  forall h, zm_get h m' = if existsb (fun x => (x =? h) && negb (zs_mem x stolen)) hashes then None else zm_get h m.

Definition removes (stolen : zset) (hashes : list Z) (s s' : Fetcher) : Prop :=
  f_requests s' = f_requests s /\ removed stolen hashes (f_fetching s) (f_fetching s').

Lemma removes_nil : forall stolen s, removes stolen [] s s.
Proof. intros. split; [reflexivity|intros h; reflexivity]. Qed.

Definition removes1 (stolen : zset) (x : Z) (s s' : Fetcher) : Prop :=
  f_requests s' = f_requests s /\
  forall h, zm_get h (f_fetching s') = if (x =? h) && negb (zs_mem x stolen) then None else zm_get h (f_fetching s).

Lemma removes_step : forall stolen x t s s1 s2, removes1 stolen x s s1 -> removes stolen t s1 s2 -> removes stolen (x :: t) s s2.
Proof.
  intros stolen x t s s1 s2 [Hr Hf] [Hr2 Hf2]. split; [congruence|]. intros h. rewrite Hf2, Hf. cbn [existsb].
  destruct (existsb _ t); [now rewrite orb_true_r|]. now rewrite orb_false_r.
Qed.

(** a fetch that such a loop leaves was there before, from a peer other than the one whose request
    covered it *)
Lemma removed_others : forall peer rq s m h p, removed (rq_stolen rq) (rq_hashes rq) (f_fetching s) m ->
    zm_get peer (f_requests s) = Some rq -> covered peer s ->
    zm_get h m = Some p -> zm_get h (f_fetching s) = Some p /\ p <> peer.
Proof.
  intros peer rq s m h p Hf Er Hc X. rewrite Hf in X.
  destruct (existsb _ (rq_hashes rq)) eqn:Ex; [discriminate|]. split; [exact X|]. intros ->.
  destruct (Hc h X) as [rq' [E1 [E2 E3]]]. rewrite Er in E1. inversion E1; subst rq'.
  assert (existsb (fun x => (x =? h) && negb (zs_mem x (rq_stolen rq))) (rq_hashes rq) = true); [|congruence].
  apply existsb_exists. exists h. split; [exact E2|]. now rewrite Z.eqb_refl, E3.
Qed.

Lemma drop_req_hash_rm : forall peer stolen l s, removes stolen l s (fold_left (drop_req_hash peer stolen) l s).
Proof.
  induction l as [|x t IH]; intros s; cbn [fold_left]; [apply removes_nil|].
  eapply removes_step; [split|apply IH].
  - apply (drop_req_hash_keeps f_requests); reflexivity.
  - intros h. unfold drop_req_hash. destruct (zs_mem x stolen); cbn [negb]; [now rewrite andb_false_r|]. rewrite andb_true_r.
    destruct (zm_get x _) as [[|y a]|]; cbn; apply get_del_if.
Qed.

(** what the drop handler does to fetching and requests before it reschedules *)
Lemma drop_body_requests : forall peer s p,
    zm_get p (f_requests (drop_body peer s)) = if peer =? p then None else zm_get p (f_requests s).
Proof.
  intros peer s p. unfold drop_body. rewrite (drop_announces_keeps f_requests) by reflexivity.
  rewrite <- (drop_waits_keeps f_requests peer s) by reflexivity. generalize (drop_waits peer s). clear s. intros s.
  unfold drop_request. destruct (zm_get peer (f_requests s)) as [rq|] eqn:Er.
  - cbn. rewrite (proj1 (drop_req_hash_rm peer (rq_stolen rq) (rq_hashes rq) s)). apply get_del_if.
  - destruct (peer =? p) eqn:E; [apply Z.eqb_eq in E; subst; exact Er|reflexivity].
Qed.

Lemma drop_body_others : forall peer s h p, covered peer s ->
    zm_get h (f_fetching (drop_body peer s)) = Some p -> zm_get h (f_fetching s) = Some p /\ p <> peer.
Proof.
  intros peer s h p Hc. unfold drop_body. rewrite (drop_announces_keeps f_fetching) by reflexivity.
  assert (Hc' : covered peer (drop_waits peer s)).
  { intros h' X. rewrite (drop_waits_keeps f_fetching) in X by reflexivity.
    rewrite (drop_waits_keeps f_requests) by reflexivity. exact (Hc h' X). }
  rewrite <- (drop_waits_keeps f_fetching peer s) by reflexivity.
  revert Hc'. generalize (drop_waits peer s). clear s Hc. intros s Hc.
  unfold drop_request. destruct (zm_get peer (f_requests s)) as [rq|] eqn:Er.
  - cbn. exact (removed_others peer rq s _ h p (proj2 (drop_req_hash_rm peer _ _ s)) Er Hc).
  - intros X. split; [exact X|]. intros ->. destruct (Hc h X) as [rq [E _]]. congruence.
Qed.

Lemma drop_body_announces : forall peer s, zm_get peer (f_announces (drop_body peer s)) = None.
Proof.
  intros peer s. unfold drop_body, drop_announces at 1. generalize (drop_request peer (drop_waits peer s)). intros s2.
  destruct (zm_get peer (f_announces s2)) eqn:E; [apply zm_get_del_eq|exact E].
Qed.

(** nothing of [q] in the request tables: no fetch from it, no request of it, nothing queued from it *)
Definition forgotten (q : Z) (s : Fetcher) : Prop :=
  no_fetch_from q s /\ zm_get q (f_announces s) = None /\ zm_get q (f_requests s) = None.

(** scheduling gives work only to peers that announce something *)
Lemma schedule_forgotten : forall q w k s, forgotten q s -> okf True (forgotten q) (schedule_fetches w k s).
Proof.
  intros q. apply schedule_ok.
  - intros peer h s (Hf & Ha & Hr) Hp _ _. destruct (zm_has h (f_alternates s)); [exact I|].
    assert (Hne : peer <> q) by (intros ->; exact (Hp Ha)).
    split; [|split; assumption]. intros h'. cbn.
    destruct (Z.eq_dec h h') as [<-|Hh]; [rewrite zm_get_set_eq; congruence|]. rewrite zm_get_set_ne by assumption. apply Hf.
  - intros peer rq s (Hf & Ha & Hr) Hp _. assert (Hne : peer <> q) by (intros ->; exact (Hp Ha)).
    split; [exact Hf|split; [exact Ha|]]. cbn. now rewrite zm_get_set_ne.
  - intros s H. exact H.
Qed.

(** Drop(peer): when the peer's fetches are covered by its request (and alternates mirror
    fetching, so that rescheduling cannot panic) the event completes and nothing is left that is
    "being fetched" from the dropped peer *)
Lemma ev_drop_forgets : forall peer k s, IC s -> covered peer s ->
    exists s', ev_drop peer k s = FOk s' /\ no_fetch_from peer s' /\ zm_get peer (f_requests s') = None.
Proof.
  intros peer k s Hic Hc.
  assert (Hb : forgotten peer (drop_body peer s)).
  { split; [|split; [apply drop_body_announces|rewrite drop_body_requests; now rewrite Z.eqb_refl]].
    intros h X. exact (proj2 (drop_body_others peer s h peer Hc X) eq_refl). }
  assert (X : okf False (fun s' => IC s' /\ forgotten peer s') (ev_drop peer k s)).
  { apply ev_drop_from_body; [|intros s0 H; exact H|split; [now apply drop_body_IC|exact Hb]].
    apply okf_and; [apply schedule_IC; now apply drop_body_IC|now apply schedule_forgotten]. }
  destruct (okf_total _ _ X) as [s' [E [_ (Hf & _ & Hr)]]]. eauto.
Qed.

(** ** invariant 2: every fetch is covered by a live request of that peer *)

Definition IA (s : Fetcher) : Prop :=
  forall h p, zm_get h (f_fetching s) = Some p ->
    exists rq, zm_get p (f_requests s) = Some rq /\ In h (rq_hashes rq) /\ zs_mem h (rq_stolen rq) = false.

Lemma IA_f0 : IA f0. Proof. intros h p X. discriminate. Qed.

Lemma IA_covered : forall s peer, IA s -> covered peer s.
Proof. intros s peer H h X. exact (H h peer X). Qed.

Lemma IA_core : forall s s', core s' = core s -> IA s -> IA s'.
Proof. intros s s' E H h p. injection E as _ Ef Er. rewrite Ef, Er. apply H. Qed.

(** after a loop over the whole request of [peer] whatever is filed for [peer] restores IA *)
Lemma removed_IA : forall peer rq s s2, IA s -> zm_get peer (f_requests s) = Some rq ->
    removed (rq_stolen rq) (rq_hashes rq) (f_fetching s) (f_fetching s2) ->
    (forall p, p <> peer -> zm_get p (f_requests s2) = zm_get p (f_requests s)) -> IA s2.
Proof.
  intros peer rq s s2 H Er Hrm Hr2 h p X.
  destruct (removed_others peer rq s _ h p Hrm Er (IA_covered s peer H) X) as [X0 Hne].
  rewrite (Hr2 p Hne). exact (H h p X0).
Qed.

Lemma cleanup_hash_IA : forall origin direct s hash, IA s -> okf False IA (cleanup_hash origin direct s hash).
Proof.
  intros origin direct s hash H. unfold cleanup_hash.
  destruct (zm_has hash (f_waitlist s)); [exact H|]. fsimp.
  assert (Hd : IA (w_fetching (zm_del hash (f_fetching s)) s)).
  { intros h p. fsimp. rewrite get_del_if. destruct (hash =? h); [discriminate|apply H]. }
  destruct (zm_get hash (f_fetching s)) as [o|] eqn:Eo; [|exact H].
  destruct (negb (o =? origin) || negb direct); [|exact Hd].
  destruct (H hash o Eo) as [rq [E1 [E2 E3]]]. rewrite E1. intros h p. fsimp. rewrite get_del_if.
  destruct (hash =? h) eqn:Eh; [discriminate|]. intros Hh. destruct (H h p Hh) as [rq' [F1 [F2 F3]]].
  destruct (Z.eq_dec o p) as [<-|Hop]; [|rewrite zm_get_set_ne by assumption; eauto].
  rewrite zm_get_set_eq. rewrite E1 in F1. inversion F1; subst rq'. eexists. split; [reflexivity|]. fsimp.
  split; [exact F2|]. rewrite zs_mem_add, F3, orb_false_r. apply Z.eqb_neq. intros ->. now rewrite Z.eqb_refl in Eh.
Qed.

(** the delivery loop (the crash site of seeded breakage a2) never dereferences a missing request *)
Lemma cleanup_loop_IA : forall origin direct hashes s, IA s ->
    exists s', ffold (cleanup_hash origin direct) hashes s = FOk s' /\ IA s'.
Proof. intros origin direct hashes s H. apply okf_total. apply okf_ffold; [apply cleanup_hash_IA|exact H]. Qed.

(** scheduling: the fetches it creates for a peer are exactly the request it then files *)
Lemma sched_peer_IA : forall k s peer, IA s -> okf True IA (sched_peer k s peer).
Proof.
  intros k s peer H. unfold sched_peer.
  destruct (zm_has peer (f_requests s)) eqn:Ep; [exact H|]. apply zm_has_false in Ep.
  destruct (zm_get peer (f_announces s)) as [[|a l]|]; [exact H| |exact H].
  assert (X : okp True (fun s0 hs0 => f_requests s0 = f_requests s /\
     forall h p, zm_get h (f_fetching s0) = Some p -> (p = peer /\ In h hs0) \/ zm_get h (f_fetching s) = Some p)
     (fold_left (sched_hash peer) (rotate k (a :: l)) (FOk s, []))).
  { apply sched_hashes_okp; [|split; [reflexivity|intros h p E; right; exact E]].
    intros s0 hs0 h [Qr Qf] _. destruct (zm_has h (f_alternates s0)); [exact I|]. split; [exact Qr|]. intros h' p. unfold assign. fsimp.
    destruct (Z.eq_dec h h') as [<-|Hne].
    - rewrite zm_get_set_eq. intros E. inversion E; subst. left. split; [reflexivity|]. apply in_or_app. right. left. reflexivity.
    - rewrite zm_get_set_ne by assumption. intros E. destruct (Qf h' p E) as [[-> Hin]|Hold]; [|right; exact Hold].
      left. split; [reflexivity|]. apply in_or_app. left. exact Hin. }
  destruct (fold_left _ _ _) as [[s1|] got]; [|exact I]. destruct X as [Qr Qf].
  destruct got as [|g gs]; intros h p X; fsimp_in X; fsimp.
  - rewrite Qr. destruct (Qf h p X) as [[_ []]|Hold]. exact (H h p Hold).
  - destruct (Qf h p X) as [[-> Hin]|Hold].
    + rewrite zm_get_set_eq. eexists. split; [reflexivity|]. split; [exact Hin|reflexivity].
    + destruct (H h p Hold) as [rq [E1 E2]]. rewrite zm_get_set_ne by congruence. rewrite Qr. eauto.
Qed.

Lemma schedule_IA : forall w k s, IA s -> okf True IA (schedule_fetches w k s).
Proof. apply schedule_of_peers; [apply sched_peer_IA|]. intros s H. exact H. Qed.

Lemma notify_one_IA : forall origin s hash, IA s -> IA (notify_one origin s hash).
Proof.
  intros origin s hash H. unfold notify_one.
  destruct (zm_has hash (f_alternates s)); [exact H|].
  destruct (zm_has hash (f_announced s)); [exact H|].
  destruct (zm_has hash (f_waitlist s)); exact H.
Qed.

Lemma timeout_hash_rm : forall peer stolen s hash, okf True (removes1 stolen hash s) (timeout_hash peer stolen s hash).
Proof.
  intros peer stolen s hash. unfold timeout_hash, removes1.
  destruct (zs_mem hash stolen); [split; [reflexivity|intros h; now rewrite andb_false_r]|].
  destruct (zm_has hash (f_announced s)); [exact I|].
  split; [destruct (zm_get hash (f_alternates s)); reflexivity|].
  intros h. rewrite andb_true_r. destruct (zm_get hash (f_alternates s)); cbn; apply get_del_if.
Qed.

Lemma timeout_loop_rm : forall peer stolen l s, okf True (removes stolen l s) (ffold (timeout_hash peer stolen) l s).
Proof.
  intros peer stolen l. induction l as [|x t IH]; intros s; cbn [ffold]; [apply removes_nil|].
  pose proof (timeout_hash_rm peer stolen s x) as X. destruct (timeout_hash peer stolen s x) as [s1|]; [|exact I].
  apply (okf_imp _ _ _ _ (IH s1)). intros s2. now apply removes_step.
Qed.

Lemma timeout_req_IA : forall s peer, IA s -> okf True IA (timeout_req s peer).
Proof.
  intros s peer H. unfold timeout_req.
  destruct (zm_get peer (f_requests s)) as [req|] eqn:Er; [|exact H].
  destruct (fetch_timeout <? _); [|exact H].
  pose proof (timeout_loop_rm peer (rq_stolen req) (rq_hashes req) s) as Hrm.
  destruct (ffold _ (rq_hashes req) s) as [s1|]; [|exact I]. cbn [fbind okf] in *.
  destruct Hrm as [Hr Hf]. apply (removed_IA peer req s _ H Er).
  - destruct (_ =? 0); exact Hf.
  - intros p Hne. destruct (_ =? 0); fsimp; rewrite zm_get_set_ne by congruence; now rewrite Hr.
Qed.

Lemma direct_hash_rm : forall origin delivered stolen cutoff s i hash,
    okf True (removes1 stolen hash s) (fst (direct_hash origin delivered stolen cutoff (FOk s, i) hash)).
Proof.
  intros origin delivered stolen cutoff s i hash. unfold direct_hash, removes1.
  destruct (zs_mem hash stolen); [split; [reflexivity|intros h; now rewrite andb_false_r]|]. cbn [fst].
  match goal with |- okf _ _ (fbind ?r _) => assert (X : okf True (fun s2 => f_requests s2 = f_requests s /\ f_fetching s2 = f_fetching s) r) end.
  { destruct (negb (zs_mem hash delivered)); [|split; reflexivity].
    set (sa := if i <? cutoff then _ else s).
    assert (Ha : f_requests sa = f_requests s /\ f_fetching sa = f_fetching s) by (unfold sa; destruct (i <? cutoff); split; reflexivity).
    destruct (zm_get hash (f_alternates sa)) as [[|x a]|]; [exact Ha| |exact Ha].
    destruct (zm_has hash (f_announced sa)); [exact I|exact Ha]. }
  match goal with |- okf _ _ (fbind ?r _) => destruct r as [s2|] end; [|exact I]. destruct X as [Hr Hf].
  split; [exact Hr|]. intros h. rewrite andb_true_r. fsimp. rewrite Hf. apply get_del_if.
Qed.

Lemma direct_loop_rm : forall origin delivered stolen cutoff l s i,
    okf True (removes stolen l s) (fst (fold_left (direct_hash origin delivered stolen cutoff) l (FOk s, i))).
Proof.
  intros origin delivered stolen cutoff l. induction l as [|x t IH]; intros s i; cbn [fold_left]; [apply removes_nil|].
  pose proof (direct_hash_rm origin delivered stolen cutoff s i x) as X.
  destruct (direct_hash origin delivered stolen cutoff (FOk s, i) x) as [[s1|] i1]; cbn [fst okf] in X.
  - apply (okf_imp _ _ _ _ (IH s1 i1)). intros s2. now apply removes_step.
  - now rewrite fold_crash.
Qed.

Lemma direct_loop_IA : forall origin hashes req s, IA s -> zm_get origin (f_requests s) = Some req ->
    okf True IA (fst (fold_left (direct_hash origin hashes (rq_stolen req) (cutoff_of hashes (rq_hashes req) 0 (zlen (rq_hashes req))))
                               (rq_hashes req) (FOk (w_requests (zm_del origin (f_requests s)) s), 0))).
Proof.
  intros origin hashes req s H Er. eapply okf_imp; [apply direct_loop_rm|]. intros s3 [Hr Hf].
  (* the request is removed first, then the fetches of its live hashes *)
  apply (removed_IA origin req s s3 H Er Hf). intros p Hne. rewrite Hr. fsimp. apply zm_get_del_ne. congruence.
Qed.

Lemma drop_body_IA : forall peer s, IA s -> IA (drop_body peer s).
Proof.
  intros peer s H h p X. destruct (drop_body_others peer s h p (IA_covered s peer H) X) as [X0 Hne].
  rewrite drop_body_requests. destruct (peer =? p) eqn:E; [apply Z.eqb_eq in E; congruence|]. exact (H h p X0).
Qed.

Lemma fstep_IA : forall k s e, IA s -> okf True IA (fstep k s e).
Proof.
  apply fstep_ok; [exact (core_reads IA IA_core)|exact schedule_IA|exact notify_one_IA|exact (core_wait IA IA_core)|exact timeout_req_IA| |exact direct_loop_IA|exact drop_body_IA].
  - intros origin direct s h H. apply okf_sure. now apply cleanup_hash_IA.
Qed.

Lemma frun_IA : forall evs s, IA s -> okf True IA (frun s evs).
Proof. exact (frun_of_fstep IA fstep_IA). Qed.

(** both invariants along every history from the empty fetcher *)
Lemma frun_inv : forall evs, match frun f0 evs with FOk s => IC s /\ IA s | FCrash => True end.
Proof.
  intros evs. pose proof (frun_IC evs f0 IC_f0) as H1. pose proof (frun_IA evs f0 IA_f0) as H2.
  destruct (frun f0 evs); [split; assumption|exact I].
Qed.

(** what the two invariants give at every state a history from the empty fetcher reaches *)
Lemma reachable_safe : forall evs s, frun f0 evs = FOk s ->
    (forall w k, exists s', schedule_fetches w k s = FOk s') /\
    (forall origin direct hashes, exists s', ffold (cleanup_hash origin direct) hashes s = FOk s') /\
    (forall peer k, exists s', ev_drop peer k s = FOk s' /\ no_fetch_from peer s' /\ zm_get peer (f_requests s') = None).
Proof.
  intros evs s E. pose proof (frun_inv evs) as H. rewrite E in H. destruct H as [Hc Ha].
  split; [|split].
  - intros w k. destruct (schedule_fetches_IC w k s Hc) as [s' [E' _]]. eauto.
  - intros origin direct hashes. destruct (cleanup_loop_IA origin direct hashes s Ha) as [s' [E' _]]. eauto.
  - intros peer k. apply ev_drop_forgets; [exact Hc|apply IA_covered; exact Ha].
Qed.

(** a2 as a closed example: after announce / wait / request, a Drop that keeps the "being fetched"
    mark (the seeded handler) leaves a state in which the next delivery of the transaction by
    anybody else panics; the real handler does not *)
Definition s_requested : fres :=
  fbind (fstep 0 f0 (ENotify 0 [7])) (fun s => fstep 0 s (EAdvance 500)).

Definition stale_after_drop (s : Fetcher) : Fetcher :=
  w_announces [] (w_alternates [] (w_requests [] s)).   (* everything of peer 0 forgotten, except fetching *)

Example a2_real_drop_then_delivery :
  match s_requested with
  | FOk s => match ev_drop 0 0 s with
             | FOk s' => match fstep 0 s' (EEnqueue 1 [(7, 0)] false) with FOk _ => true | FCrash => false end
             | FCrash => false
             end
  | FCrash => false
  end = true.
Proof. vm_compute. reflexivity. Qed.

Example a2_stale_fetching_then_delivery :
  match s_requested with
  | FOk s => fstep 0 (stale_after_drop s) (EEnqueue 1 [(7, 0)] false)
  | FCrash => FOk f0
  end = FCrash.
Proof. vm_compute. reflexivity. Qed.
