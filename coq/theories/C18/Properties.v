(** C18 — property theorems only.  Each is closed by [exact] of lemmas proved in the other files
    of the directory and followed by [Print Assumptions].

    Reading: [handle e ch w st] is ConsensusManager.Receive(chID, peer, bytes) on the decoded
    structure [w] of the bytes, with [st] the peer's PeerState (None after RemovePeer) and [e] what
    the handler reads from the node.  [env_ok]: the node's validator counts are within
    MaxVotesCount and its own vote array is well-formed; [wire_typed]: the uint32 fields of the
    .proto are non-negative; [st_ok]: every bit array in the peer state has exactly the words its
    bits need (true of NewPeerState, preserved by every handler: C18_state_invariant). *)
From Coq Require Import List ZArith NArith Bool.
From Kardia Require Import C18.Model C18.ModelFetcher C18.ProofsBits C18.Proofs C18.ProofsNet C18.ProofsFetcher C18.ProofsFetcherDrop C18.ProofsFetcherEmpty C18.ProofsFetcherGood C18.SourceTie Generated.C18Facts.
Import ListNotations.
Local Open Scope Z_scope.

(** no delivery panics — for every channel id, every decoded structure, every node state *)
Theorem C18_no_crash :
  forall e ch w st, env_ok e -> wire_typed w -> st_ok st -> fst (handle e ch w st) <> Crash.
Proof. exact handle_no_crash. Qed.
Print Assumptions C18_no_crash.

(** no handler returns with a mutex held (PeerState.mtx, ConsensusState.mtx) *)
Theorem C18_locks_balanced :
  forall e ch w st, env_ok e -> wire_typed w -> st_ok st -> fst (handle e ch w st) <> LockLeak.
Proof. exact handle_no_leak. Qed.
Print Assumptions C18_locks_balanced.

(** block-sync Receive releases its read lock on every path (2cdb1a0); the old code did not *)
Theorem C18_bc_locks_balanced : forall m conv_ok, bc_receive m conv_ok <> LockLeak.
Proof. exact bc_locks_balanced. Qed.
Print Assumptions C18_bc_locks_balanced.

Theorem C18_bc_lock_leak_before_repair : bc_receive_old (BBlockResp true) false = LockLeak.
Proof. exact bc_old_leaks. Qed.
Print Assumptions C18_bc_lock_leak_before_repair.

(** allocation: no bit-array allocation of a handler exceeds the limit, whatever sizes the
    message claims (constant bound: every array stays within MaxVotesCount bits) *)
Theorem C18_alloc_bound :
  forall e ch w st n, env_ok e -> wire_typed w -> st_ok st -> fst (handle e ch w st) <> Alloc n.
Proof. exact handle_no_alloc. Qed.
Print Assumptions C18_alloc_bound.

(** the invariant behind the three statements above, over whole delivery sequences *)
Theorem C18_state_invariant :
  forall ds st, st_ok st -> Forall (fun d => env_ok (fst (fst d)) /\ wire_typed (snd d)) ds ->
    Forall (fun o => o = Accepted \/ o = Rejected) (fst (run st ds)) /\ st_ok (snd (run st ds)).
Proof. exact run_good. Qed.
Print Assumptions C18_state_invariant.

(** every bit array that MsgFromProto lets through is consistent and within bounds *)
Theorem C18_validated_arrays_wellformed :
  forall w m, wire_typed w -> from_proto w = Some m -> msg_ok m.
Proof. exact from_proto_ok. Qed.
Print Assumptions C18_validated_arrays_wellformed.

(** the bit-array operations on well-formed arrays of ANY two sizes *)
Theorem C18_bitarray_ops_total :
  forall a o, wf_oba a -> wf_oba o ->
    safe wf_oba (sub_ a o) /\ safe wf_oba (or_ a o) /\ wf_oba (update_ a o).
Proof. intros a o Ha Ho. exact (conj (sub_safe a o Ha Ho) (conj (or_safe a o Ha Ho) (update_wf a o Ha))). Qed.
Print Assumptions C18_bitarray_ops_total.

(** gossip side (a panic there kills the node): PickVoteToSend and the gossipDataRoutine expression *)
Theorem C18_gossip_votes_no_crash :
  forall p v, wf_prs p -> vs_ok v ->
    (fst (fst (pick_vote p v)) = PickNone \/ fst (fst (pick_vote p v)) = PickSome) /\ wf_prs (snd (fst (pick_vote p v))).
Proof. exact pick_vote_no_crash. Qed.
Print Assumptions C18_gossip_votes_no_crash.

Theorem C18_gossip_data_no_crash :
  forall p hh ours, wf_prs p -> wf_oba ours ->
    fst (gossip_data p hh ours) = PickNone \/ fst (gossip_data p hh ours) = PickSome.
Proof. exact gossip_data_no_crash. Qed.
Print Assumptions C18_gossip_data_no_crash.

(** the validation is what the statements rest on: with an array that ValidateBasic refuses since
    8b6016a already in the peer state, one HasVote panics *)
Theorem C18_no_crash_refuted_without_validation :
  fst (handle env1 chan_state (WHV 1 1 prevote_type 0) (Some prs_bad)) = Crash.
Proof. exact unvalidated_array_crashes. Qed.
Print Assumptions C18_no_crash_refuted_without_validation.

(** well-formed messages survive encode/decode unchanged *)
Theorem C18_wire_roundtrip : forall m, msg_wellformed m -> from_proto (to_wire m) = Some m.
Proof. exact wire_roundtrip. Qed.
Print Assumptions C18_wire_roundtrip.

(** framing: a delivered message never exceeds its channel's RecvMessageCapacity *)
Theorem C18_frame_capacity :
  forall cfg recving f evs r' alive ch total cap,
    frame_step cfg recving f = (evs, r', alive) -> In (FRecv ch total) evs ->
    lookup ch (c_caps cfg) = Some cap -> total <= cap.
Proof. exact frame_step_cap. Qed.
Print Assumptions C18_frame_capacity.

(** block-sync Receive model: accepted or rejected, nothing else *)
Theorem C18_bc_no_crash : forall m conv_ok, bc_receive m conv_ok = Accepted \/ bc_receive m conv_ok = Rejected.
Proof. exact bc_no_crash. Qed.
Print Assumptions C18_bc_no_crash.

(** PEX channel: a requested address list is taken exactly when every address is well-formed — the
    IP parses and the port is a 16-bit number, 65535 included; nothing else stops the sender *)
Theorem C18_pex_wellformed_accepted :
  forall l sol, Forall (fun a => 0 <= snd a) l ->
    (pex_receive (PAddrs l sol) = ShAcc <-> sol = true /\ Forall addr_wf l).
Proof. exact pex_addrs_accepted_iff. Qed.
Print Assumptions C18_pex_wellformed_accepted.

(** every port an address can have survives ToProto / NetAddressFromProto *)
Theorem C18_pex_addr_roundtrip :
  forall port, 0 <= port <= max_port -> addr_from_proto (addr_to_proto port) = Some port.
Proof. exact addr_roundtrip. Qed.
Print Assumptions C18_pex_addr_roundtrip.

(** HeightVoteSet: whatever rounds peers have opened by their votes (AddVote makes the vote sets
    of an untracked round before anything is verified), the round changes of the node — SetRound
    with an argument not more than one below hvs.round — never reach the addRound panic, over
    whole histories of votes and round changes *)
Theorem C18_hvs_no_crash :
  forall ops h, hvs_inv h -> hvs_disciplined h ops -> exists h', hvs_run h ops = Ok h' /\ hvs_inv h'.
Proof. exact hvs_run_ok. Qed.
Print Assumptions C18_hvs_no_crash.

(** ... and SetRound leaves every round from hvs.round-1 to the new round tracked, losing none *)
Theorem C18_hvs_set_round_tracks :
  forall h round, hvs_inv h -> hvs_pre h (HSet round) ->
    exists h', hvs_set_round h round = Ok h' /\ hvs_inv h' /\ hv_round h' = round /\
      hv_catchup h' = hv_catchup h /\
      (forall q, In q (hv_rounds h) -> In q (hv_rounds h')) /\
      (forall q, hv_round h - 1 <= q <= round -> In q (hv_rounds h')).
Proof. exact hvs_set_round_ok. Qed.
Print Assumptions C18_hvs_set_round_tracks.

(** the node's own round change after any deliveries: legal and panic-free *)
Theorem C18_node_round_change_no_crash :
  forall n h hr, hvs_inv (nh_hvs n) -> 2 <= hr < two32 - 1 ->
    (nh_height n = h -> hv_round (nh_hvs n) - 1 <= hr) ->
    exists n', node_observe n h hr = Ok n' /\ hvs_inv (nh_hvs n') /\ hv_round (nh_hvs n') = hr.
Proof. exact node_observe_ok. Qed.
Print Assumptions C18_node_round_change_no_crash.

(** dropping the membership test of the SetRound loop (seeded breakage a1) panics on a round a
    peer has opened *)
Theorem C18_hvs_unchecked_fill_refuted :
  hvs_fill_unchecked 1 3 {| hv_round := 2; hv_rounds := [3; 2; 0; 1]; hv_catchup := [(7, [3])] |} = RCrash.
Proof. exact hvs_unchecked_fill_panics. Qed.
Print Assumptions C18_hvs_unchecked_fill_refuted.

(** Tx-pool channel, the fetcher behind it.  [fstep k s e] is one iteration of TxFetcher.loop for
    the event [e] (Notify / Enqueue / Drop / the clock) in state [s]; FCrash = the loop goroutine
    panics (nobody recovers it: the process dies).

    Over whole histories of announcements, deliveries, peer drops and timer expiries from any
    number of peers, "alternates are tracked exactly for the hashes being fetched" holds after
    every event that completes ... *)
Theorem C18_fetcher_alternates_invariant :
  IC f0 /\ forall evs s, IC s -> match frun s evs with FOk s' => IC s' | FCrash => True end.
Proof. exact (conj IC_f0 frun_IC). Qed.
Print Assumptions C18_fetcher_alternates_invariant.

(** ... and with it scheduleFetches never reaches its panic ("alternate tracker already contains
    fetching item"), whichever peers and rotation *)
Theorem C18_fetcher_schedule_no_crash :
  forall w k s, IC s -> exists s', schedule_fetches w k s = FOk s' /\ IC s'.
Proof. exact schedule_fetches_IC. Qed.
Print Assumptions C18_fetcher_schedule_no_crash.

(** Drop(peer) — RemovePeer — completes and leaves nothing marked as being fetched from the peer
    and no request of it, in every state where the peer's fetches are covered by its request *)
Theorem C18_fetcher_drop_forgets_peer :
  forall peer k s, IC s -> covered peer s ->
    exists s', ev_drop peer k s = FOk s' /\ no_fetch_from peer s' /\ zm_get peer (f_requests s') = None.
Proof. exact ev_drop_forgets. Qed.
Print Assumptions C18_fetcher_drop_forgets_peer.

(** Over whole histories from the empty fetcher, beside IC: "every hash marked as being fetched from
    a peer is listed, not stolen, in a request of that peer that exists" (IA, the fact the delivery
    path relies on when it marks a delivery as stolen: f.requests[origin].stolen) *)
Theorem C18_fetcher_invariants :
  forall evs, match frun f0 evs with FOk s => IC s /\ IA s | FCrash => True end.
Proof. exact frun_inv. Qed.
Print Assumptions C18_fetcher_invariants.

(** the delivery loop never dereferences a missing request, and keeps the invariant *)
Theorem C18_fetcher_delivery_no_missing_request :
  forall origin direct hashes s, IA s ->
    exists s', ffold (cleanup_hash origin direct) hashes s = FOk s' /\ IA s'.
Proof. exact cleanup_loop_IA. Qed.
Print Assumptions C18_fetcher_delivery_no_missing_request.

(** PARTIAL no-crash statement for the fetcher: at every state reachable from the empty fetcher by
    any history of events, scheduling completes, the delivery loop of any delivery completes, and
    the drop of any peer completes and forgets the peer.  Not excluded by proof: the three
    "tracker already contains ..." panics of the wait trigger, the timeout trigger and a partial
    direct delivery (they need the stage-disjointness part of [fetcher_ok], which is evaluated on
    every state the model reaches and checked on the implementation's trackers by the harness) *)
Theorem C18_fetcher_reachable_safe_partial :
  forall evs s, frun f0 evs = FOk s ->
    (forall w k, exists s', schedule_fetches w k s = FOk s') /\
    (forall origin direct hashes, exists s', ffold (cleanup_hash origin direct) hashes s = FOk s') /\
    (forall peer k, exists s', ev_drop peer k s = FOk s' /\ no_fetch_from peer s' /\ zm_get peer (f_requests s') = None).
Proof. exact reachable_safe. Qed.
Print Assumptions C18_fetcher_reachable_safe_partial.

(** seeded breakage a2, computed: with the mark left behind by a Drop that forgets only the
    request, the next delivery of the transaction by anybody panics *)
Theorem C18_fetcher_stale_fetching_refuted :
  match s_requested with
  | FOk s => fstep 0 (stale_after_drop s) (EEnqueue 1 [(7, 0)] false)
  | FCrash => FOk f0
  end = FCrash.
Proof. exact a2_stale_fetching_then_delivery. Qed.
Print Assumptions C18_fetcher_stale_fetching_refuted.

(** Drop(peer) (repair 95b0505): afterwards the peer is neither a queued origin nor an alternate
    origin of any hash — in particular not of a hash that is in flight from somebody else, which
    before the repair was later queued for ever with no peer to ask.  R1/R2: an origin recorded
    under a hash is a peer recorded as announcing it *)
Theorem C18_fetcher_drop_no_stale_origin :
  forall p k s s', R1 s -> R2 s -> ev_drop p k s = FOk s' -> origin_free p s'.
Proof. exact ev_drop_origin_free. Qed.
Print Assumptions C18_fetcher_drop_no_stale_origin.

(** when every peer has been dropped, every tracker of the fetcher is empty: nothing a peer has
    sent outlives its connection, and the drops never panic.  [GOOD]: the indexes of the state
    agree (IC, IA and the propositional form of the first three conjuncts of [chk_index] and the
    last of [chk_stages] of [fetcher_ok]); it holds of the empty fetcher and is kept by every Drop
    (ev_drop_good).  PARTIAL in this respect only: that a direct reply keeps the index part of GOOD
    is not proved (for the other events see C18_fetcher_index_invariant_partial; IC and IA are kept
    by all: C18_fetcher_invariants); [fetcher_ok] is evaluated on every state the model reaches and
    on the implementation's trackers after every event *)
Theorem C18_fetcher_drop_everyone_empties_partial :
  GOOD f0 /\
  (forall ps s, GOOD s -> exists s', drop_all ps s = FOk s') /\
  (forall ps s s', GOOD s -> (forall q, ~ In q (map snd ps) -> clean q s) -> drop_all ps s = FOk s' -> all_empty s').
Proof. exact (conj good_f0 (conj drop_all_completes drop_everyone_empties)). Qed.
Print Assumptions C18_fetcher_drop_everyone_empties_partial.

(** GOOD is kept by every event except a direct reply to a request: announcements, broadcast
    deliveries, peer drops, the wait and the timeout trigger.  PARTIAL: for a direct reply
    (PooledTransactions answering RequestPooledTransactions) the partial-delivery path also needs
    the stage-disjointness facts (a hash being fetched is not queued), which are not proved
    inductive (Open.v item 5) *)
Theorem C18_fetcher_index_invariant_partial :
  forall k s e, not_direct e -> GOOD s -> match fstep k s e with FOk s' => GOOD s' | FCrash => True end.
Proof. exact fstep_GOOD. Qed.
Print Assumptions C18_fetcher_index_invariant_partial.

(** source tie: the validators, bounds and limits of the model ARE the expressions of the Go source
    (Generated/C18Source.v, regenerated from /repo by go2coq on every check), on the operands named
    there; every other translated guard, store and loop header of the anchored code is pinned *)
Theorem C18_source_tie : C18_source_tie_statement.
Proof. exact C18_source_tie_proof. Qed.
Print Assumptions C18_source_tie.

(** The decision-critical functions of the anchored code have exactly the decisions the source tie knows about
    (go2coq manifests, regenerated from /repo on every check; statement in SourceManifest.v). *)
From Kardia Require Import C18.SourceManifest.
Theorem C18_source_manifest : C18_source_manifest_statement.
Proof. exact C18_source_manifest_proof. Qed.
Print Assumptions C18_source_manifest.
