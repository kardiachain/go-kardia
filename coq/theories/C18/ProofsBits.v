(** C18 — the bit-array primitives never panic on well-formed arrays, and keep
    them well-formed (arrays of different sizes included). *)
From Coq Require Import List ZArith NArith Bool Lia.
From Kardia Require Import C18.Model Generated.C18Facts.
Import ListNotations.
Local Open Scope Z_scope.
(* [lia] below meets [/] and [mod] by 64 (words_for_covers, word_of_index, sub_safe) *)
Local Ltac Zify.zify_post_hook ::= Z.div_mod_to_equations.

(** every bit array the node builds or accepts has at most [bmax] bits: MaxVotesCount bounds the
    vote arrays, MaxBlockPartsCount (smaller) the part arrays *)
Definition bmax : Z := max_votes_count.

Lemma bmax_facts : max_block_parts_count <= bmax /\ bmax <= max_int32 /\ words_for bmax * 8 <= alloc_limit /\ 0 <= bmax.
Proof. unfold bmax, max_block_parts_count, max_votes_count, max_int32, alloc_limit. cbn. lia. Qed.

(** a bit array as NewBitArray builds it and BitArray.ValidateBasic accepts it *)
Definition wf_ba (b : BitArray) : Prop :=
  0 <= ba_bits b <= bmax /\ len (ba_elems b) = words_for (ba_bits b).

Definition wf_oba (b : option BitArray) : Prop :=
  match b with None => True | Some b => wf_ba b end.

(** a primitive's result is acceptable: no panic, no allocation above the limit, a well-formed value *)
Definition safe {A} (P : A -> Prop) (r : res A) : Prop :=
  match r with Ok a => P a | RCrash => False | RAlloc _ => False end.

Lemma safe_bind : forall A B (P : A -> Prop) (Q : B -> Prop) (r : res A) (f : A -> res B),
    safe P r -> (forall a, P a -> safe Q (f a)) -> safe Q (bind r f).
Proof. intros A B P Q r f Hr Hf. destruct r; cbn in *; auto. Qed.

Lemma as_int_small : forall u, 0 <= u <= max_int32 -> as_int u = u.
Proof. intros u Hu. unfold as_int, two63, max_int32 in *. destruct (u <? 9223372036854775808) eqn:E; [reflexivity|]. apply Z.ltb_ge in E. lia. Qed.

Lemma as_uint_small : forall u, 0 <= u <= max_int32 -> as_uint u = u.
Proof. intros u Hu. unfold as_uint, two64, max_int32 in *. apply Z.mod_small. lia. Qed.

Lemma bmax_int32 : forall u, 0 <= u <= bmax -> 0 <= u <= max_int32.
Proof. intros u H. pose proof bmax_facts. lia. Qed.

Lemma wf_as_int : forall b, wf_ba b -> as_int (ba_bits b) = ba_bits b.
Proof. intros b [Hb _]. apply as_int_small, bmax_int32, Hb. Qed.

Lemma words_for_nonneg : forall b, 0 <= b -> 0 <= words_for b.
Proof. intros b Hb. unfold words_for. apply Z.quot_pos; lia. Qed.

Lemma words_for_eq : forall b, 0 <= b -> words_for b = (b + 63) / 64.
Proof. intros b Hb. unfold words_for. apply Z.quot_div_nonneg; lia. Qed.

Lemma words_for_mono : forall a b, 0 <= a <= b -> words_for a <= words_for b.
Proof. intros a b H. rewrite !words_for_eq by lia. apply Z.div_le_mono; lia. Qed.

Lemma words_for_covers : forall b i, 0 <= i < b -> i / 64 < words_for b.
Proof. intros b i H. rewrite words_for_eq by lia. lia. Qed.

Lemma len_nonneg : forall A (l : list A), 0 <= len l.
Proof. intros. unfold len. lia. Qed.

Lemma len_repeat : forall (x : N) n, len (repeat x n) = Z.of_nat n.
Proof. intros. unfold len. now rewrite repeat_length. Qed.

Lemma nth_elem_some : forall l n, (n < length l)%nat -> exists e, nth_elem l n = Some e.
Proof.
  induction l as [|x l IH]; intros n Hn; cbn in *; [lia|].
  destruct n; [eauto|]. apply IH. lia.
Qed.

Lemma set_elem_length : forall l n v, length (set_elem l n v) = length l.
Proof. induction l as [|x l IH]; intros n v; cbn; [reflexivity|]. destruct n; cbn; [reflexivity|]. now rewrite IH. Qed.

Lemma copy_into_length : forall n src, length (copy_into n src) = n.
Proof. induction n as [|n IH]; intros src; cbn; [reflexivity|]. destruct src; cbn; now rewrite IH. Qed.

Lemma zip_or_length : forall c o, length (zip_or c o) = length c.
Proof. induction c as [|x c IH]; intros o; cbn; [reflexivity|]. destruct o; cbn; [reflexivity|]. now rewrite IH. Qed.

Lemma overwrite_length : forall d s, length (overwrite d s) = length d.
Proof. induction d as [|x d IH]; intros s; cbn; [reflexivity|]. destruct s; cbn; [reflexivity|]. now rewrite IH. Qed.

Lemma zip_and_ok : forall c o, (length c <= length o)%nat -> exists r, zip_and c o = Some r /\ length r = length c.
Proof.
  induction c as [|x c IH]; intros o H; cbn in *; [eauto|].
  destruct o as [|y o]; cbn in *; [lia|].
  destruct (IH o) as [r [Hr Hl]]; [lia|]. rewrite Hr. eexists; split; [reflexivity|]. cbn. now rewrite Hl.
Qed.

Lemma zero_prefix_ok : forall n c, (n <= length c)%nat -> exists r, zero_prefix n c = Some r /\ length r = length c.
Proof.
  induction n as [|n IH]; intros c H; cbn; [eauto|].
  destruct c as [|x c]; cbn in *; [lia|].
  destruct (IH c) as [r [Hr Hl]]; [lia|]. rewrite Hr. eexists; split; [reflexivity|]. cbn. now rewrite Hl.
Qed.

(** an index below Bits has its word *)
Lemma word_of_index : forall b i, wf_ba b -> 0 <= i < ba_bits b -> exists e, nth_elem (ba_elems b) (Z.to_nat (i / 64)) = Some e.
Proof.
  intros b i [Hb Hl] Hi. apply nth_elem_some.
  pose proof (words_for_covers (ba_bits b) i Hi) as Hc. unfold len in Hl.
  assert (0 <= i / 64) by (apply Z.div_pos; lia). lia.
Qed.

Lemma get_index_safe : forall b i, wf_ba b -> 0 <= i -> safe (fun _ => True) (get_index b i).
Proof.
  intros b i H Hi. unfold get_index. rewrite (wf_as_int b H).
  destruct (ba_bits b <=? i) eqn:E; [exact I|]. apply Z.leb_gt in E.
  destruct (i <? 0) eqn:E2; [apply Z.ltb_lt in E2; lia|].
  destruct (word_of_index b i H ltac:(lia)) as [e He]. rewrite He. exact I.
Qed.

Lemma set_index_safe : forall b i v, wf_ba b -> 0 <= i ->
  safe (fun r => wf_ba (fst r) /\ ba_bits (fst r) = ba_bits b) (set_index b i v).
Proof.
  intros b i v H Hi. unfold set_index. rewrite (wf_as_int b H).
  destruct (ba_bits b <=? i) eqn:E; [split; [exact H|reflexivity]|]. apply Z.leb_gt in E.
  destruct (i <? 0) eqn:E2; [apply Z.ltb_lt in E2; lia|].
  destruct (word_of_index b i H ltac:(lia)) as [e He]. rewrite He.
  split; [|reflexivity]. destruct H as [Hb Hl]. split; cbn; [assumption|]. unfold len in *. now rewrite set_elem_length.
Qed.

Lemma no_alloc : forall n, 0 <= n <= words_for bmax -> (alloc_limit <? n * 8) = false.
Proof. intros n Hn. apply Z.ltb_ge. pose proof bmax_facts. lia. Qed.

Lemma make_words_safe : forall n, 0 <= n <= words_for bmax -> safe (fun e => len e = n) (make_words n).
Proof.
  intros n Hn. unfold make_words. destruct (n <? 0) eqn:E; [apply Z.ltb_lt in E; lia|].
  rewrite no_alloc by assumption. cbn. rewrite len_repeat. lia.
Qed.

Lemma new_bitarray_safe : forall n, n <= bmax -> safe wf_oba (new_bitarray n).
Proof.
  intros n Hn. unfold new_bitarray. destruct (n <=? 0) eqn:E; [exact I|]. apply Z.leb_gt in E.
  eapply safe_bind; [apply make_words_safe; split; [apply words_for_nonneg; lia|apply words_for_mono; lia]|].
  intros e He. cbn. split; cbn; [lia|assumption].
Qed.

Lemma copy_safe : forall b, wf_ba b -> safe (fun c => c = b) (copy b).
Proof.
  intros b [Hb Hl]. unfold copy. rewrite no_alloc; [reflexivity|].
  rewrite Hl. split; [apply words_for_nonneg; lia|apply words_for_mono; lia].
Qed.

Lemma copy_bits_safe : forall b n, 0 <= n <= bmax ->
  safe (fun c => wf_ba c /\ ba_bits c = n) (copy_bits b n).
Proof.
  intros b n Hn. unfold copy_bits.
  pose proof (words_for_nonneg n ltac:(lia)) as Hw.
  destruct (words_for n <? 0) eqn:E; [apply Z.ltb_lt in E; lia|].
  rewrite no_alloc by (split; [assumption|apply words_for_mono; lia]). cbn.
  rewrite as_uint_small by (apply bmax_int32; assumption). split; [|reflexivity]. split; cbn; [assumption|].
  unfold len. rewrite copy_into_length. lia.
Qed.

(** Or is the one after 35ce00b *)
Lemma or_safe : forall a o, wf_oba a -> wf_oba o -> safe wf_oba (or_ a o).
Proof.
  intros [a|] [o|] Ha Ho; cbn in *; try exact I.
  - pose proof Ha as [Hab Hal]. pose proof Ho as [Hob Hol].
    rewrite !as_int_small by (apply bmax_int32; assumption).
    eapply safe_bind; [apply (copy_bits_safe a (Z.max (ba_bits a) (ba_bits o))); lia|].
    intros c [[Hcb Hcl] Hbits]. cbn. split; cbn; [assumption|]. unfold len in *. now rewrite zip_or_length.
  - eapply safe_bind; [apply copy_safe; assumption|]. intros c ->. exact Ha.
  - eapply safe_bind; [apply copy_safe; assumption|]. intros c ->. exact Ho.
Qed.

Lemma not_raw_safe : forall b, wf_ba b -> safe (fun c => wf_ba c /\ ba_bits c = ba_bits b) (not_raw b).
Proof.
  intros b H. unfold not_raw. eapply safe_bind; [apply copy_safe; assumption|].
  intros c ->. cbn. destruct H as [Hb Hl]. repeat split; cbn; try lia. unfold len in *. now rewrite map_length.
Qed.

Lemma and_raw_safe : forall a o, wf_ba a -> wf_ba o -> safe wf_ba (and_raw a o).
Proof.
  intros a o [Hab Hal] [Hob Hol]. unfold and_raw. rewrite !as_int_small by (apply bmax_int32; assumption).
  eapply safe_bind; [apply (copy_bits_safe a (Z.min (ba_bits a) (ba_bits o))); lia|].
  intros c [[Hcb Hcl] Hbits].
  destruct (zip_and_ok (ba_elems c) (ba_elems o)) as [r [Hr Hlen]].
  - pose proof (words_for_mono (ba_bits c) (ba_bits o) ltac:(lia)). unfold len in *. lia.
  - rewrite Hr. cbn. split; cbn; [assumption|]. unfold len in *. now rewrite Hlen.
Qed.

Lemma update_wf : forall a o, wf_oba a -> wf_oba (update_ a o).
Proof.
  intros [a|] [o|] Ha; cbn in *; auto. destruct Ha as [Hb Hl]. split; cbn; [assumption|].
  unfold len in *. now rewrite overwrite_length.
Qed.

Lemma sub_bits_safe : forall n idx c o,
    wf_ba c -> wf_ba o -> 0 <= idx ->
    safe (fun r => wf_ba r /\ ba_bits r = ba_bits c) (sub_bits n idx c o).
Proof.
  induction n as [|n IH]; intros idx c o Hc Ho Hi; cbn [sub_bits]; [split; [exact Hc|reflexivity]|].
  eapply safe_bind; [apply get_index_safe; assumption|]. intros gc _.
  eapply safe_bind with (P := fun _ => True); [destruct gc; [apply get_index_safe; assumption|exact I]|]. intros go _.
  eapply safe_bind; [apply set_index_safe; assumption|]. intros r [W B]. rewrite <- B. apply IH; [exact W|exact Ho|lia].
Qed.

Lemma sub_safe : forall a o, wf_oba a -> wf_oba o -> safe wf_oba (sub_ a o).
Proof.
  intros [a|] [o|] Ha Ho; [|exact I|exact I|exact I].
  unfold sub_. cbn [wf_oba] in Ha, Ho.
  pose proof Ha as [Hab Hal]. pose proof Ho as [Hob Hol].
  destruct (ba_bits o <? ba_bits a) eqn:E.
  - apply Z.ltb_lt in E.
    eapply safe_bind; [apply copy_safe; assumption|]. intros c ->.
    destruct (zero_prefix_ok (pred (length (ba_elems o))) (ba_elems a)) as [e [He Hel]].
    { pose proof (words_for_mono (ba_bits o) (ba_bits a) ltac:(lia)). unfold len in *. lia. }
    rewrite He. cbv zeta.
    set (c := {| ba_bits := ba_bits a; ba_elems := e |}).
    assert (Hc : wf_ba c). { split; cbn; [assumption|]. unfold len in *. now rewrite Hel. }
    destruct (length (ba_elems o)) as [|i] eqn:Eno; [exact Hc|].
    rewrite as_int_small by (apply bmax_int32; assumption).
    (* a well-formed array has a word for every bit: the loop runs up to o's Bits and the
       panic guard behind it is false *)
    assert (Hcov : ba_bits a <= 64 * len (ba_elems c)).
    { destruct Hc as [_ Hcl]. cbn [ba_bits c] in Hcl. rewrite Hcl. rewrite words_for_eq by lia. lia. }
    assert (Hlim : Z.min (ba_bits o) (64 * len (ba_elems c)) = ba_bits o) by lia.
    rewrite Hlim.
    eapply safe_bind; [apply (sub_bits_safe _ (Z.of_nat i * 64) c o Hc Ho); lia|].
    intros c' [Hc' _].
    assert (Z.max (Z.of_nat i * 64) (ba_bits o) <? ba_bits o = false) as -> by (apply Z.ltb_ge; lia).
    cbn. exact Hc'.
  - eapply safe_bind; [apply not_raw_safe; assumption|]. intros n [Hn Hnb].
    eapply safe_bind; [apply and_raw_safe; assumption|]. intros r Hr. exact Hr.
Qed.

(** BitArray.ValidateBasic accepts every well-formed array; an array it accepts is well-formed when
    its size is within [bmax] (ValidateBasic bounds Bits by MaxInt32 only; the message validators
    add the bound) *)
Lemma wf_ba_valid : forall ba, wf_ba ba -> ba_valid ba = true.
Proof.
  intros ba H. unfold ba_valid. rewrite (wf_as_int ba H). destruct H as [Hb Hl].
  apply andb_true_iff. split; [apply Z.leb_le; pose proof bmax_facts; lia|apply Z.eqb_eq; exact Hl].
Qed.

Lemma ba_valid_wf : forall b, 0 <= ba_bits b -> ba_valid b = true -> size (Some b) <= bmax -> wf_ba b.
Proof.
  intros b Hnn H Hs. unfold ba_valid in H. apply andb_true_iff in H as [H1 H2].
  apply Z.leb_le in H1. apply Z.eqb_eq in H2.
  cbn [size] in Hs. rewrite as_int_small in Hs, H2 by lia.
  split; [lia|exact H2].
Qed.

(** uint(pb.Bits) *)
Lemma from_wbits_nonneg : forall w, 0 <= ba_bits (from_wbits w).
Proof. intros [w|]; cbn; [|lia]. unfold as_uint, two64. apply Z.mod_pos_bound. lia. Qed.
