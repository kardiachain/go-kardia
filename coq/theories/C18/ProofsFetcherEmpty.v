(** C18 — the fetcher: when every peer has been dropped, every tracker of the fetcher is empty
    (nothing a peer has sent outlives its connection).  Stated for any state in which the indexes
    agree and for any list of drops that covers every peer that occurs in the state.  [GOOD] is IC, IA
    and, in propositional form, four of the conditions [fetcher_ok] evaluates: the first three
    conjuncts of [chk_index] (R1 with NA, R2, W1 with NW; not the fourth, waitslots -> waitlist) and
    the last conjunct of [chk_stages] (FW).  No lemma relates GOOD to the boolean check. *)
From Coq Require Import List ZArith Bool Lia.
From Kardia Require Import C18.ModelFetcher C18.ProofsFetcher C18.ProofsFetcherDrop Generated.C18Facts.
Import ListNotations.
Local Open Scope Z_scope.

(** W1: a peer waiting under a hash has the hash in its wait slots.  NW / NA: no hash is kept
    waiting / queued with an empty set of origins.  FW: a wait time only for a waiting hash *)
Definition W1 (s : Fetcher) : Prop :=
  forall h ps p, zm_get h (f_waitlist s) = Some ps -> In p ps -> exists hs, zm_get p (f_waitslots s) = Some hs /\ In h hs.
Definition NW (s : Fetcher) : Prop := forall h, zm_get h (f_waitlist s) <> Some [].
Definition NA (s : Fetcher) : Prop := forall h, zm_get h (f_announced s) <> Some [].
Definition FW (s : Fetcher) : Prop := forall h, zm_has h (f_waittime s) = true -> zm_has h (f_waitlist s) = true.

Record GOOD (s : Fetcher) : Prop := {
  g_ic : IC s; g_ia : IA s; g_r1 : R1 s; g_r2 : R2 s; g_w1 : W1 s; g_nw : NW s; g_na : NA s; g_fw : FW s }.

(** [p] occurs nowhere *)
Record clean (p : Z) (s : Fetcher) : Prop := {
  c_orig : origin_free p s;
  c_wl : forall h ps, zm_get h (f_waitlist s) = Some ps -> ~ In p ps;
  c_ws : zm_get p (f_waitslots s) = None;
  c_an : zm_get p (f_announces s) = None;
  c_rq : zm_get p (f_requests s) = None;
  c_fe : no_fetch_from p s }.

Definition all_empty (s : Fetcher) : Prop :=
  f_waitlist s = [] /\ f_waittime s = [] /\ f_waitslots s = [] /\ f_announces s = [] /\ f_announced s = [] /\
  f_fetching s = [] /\ f_requests s = [] /\ f_alternates s = [].

(** dropping a list of peers, each drop with its own rotation *)
Fixpoint drop_all (ps : list (Z * Z)) (s : Fetcher) : fres :=
  match ps with
  | [] => FOk s
  | (k, p) :: t => fbind (ev_drop p k s) (drop_all t)
  end.

Lemma clean_all_empty : forall s, IC s -> NW s -> NA s -> FW s -> (forall p, clean p s) -> all_empty s.
Proof.
  intros s Hic Hnw Hna Hfw Hc.
  assert (Ews : f_waitslots s = []) by (apply zm_all_none; intros p; exact (c_ws p s (Hc p))).
  assert (Ean : f_announces s = []) by (apply zm_all_none; intros p; exact (c_an p s (Hc p))).
  assert (Erq : f_requests s = []) by (apply zm_all_none; intros p; exact (c_rq p s (Hc p))).
  assert (Efe : f_fetching s = []).
  { apply zm_all_none. intros h. destruct (zm_get h (f_fetching s)) as [p|] eqn:E; [|reflexivity]. destruct (c_fe p s (Hc p) h E). }
  (* a hash that is waiting or queued has an origin, and no peer is one *)
  assert (Ewl : f_waitlist s = []).
  { apply zm_all_none. intros h. destruct (zm_get h (f_waitlist s)) as [[|q ps]|] eqn:X; [destruct (Hnw h X)| |reflexivity].
    destruct (c_wl q s (Hc q) h _ X (or_introl eq_refl)). }
  assert (Ead : f_announced s = []).
  { apply zm_all_none. intros h. destruct (zm_get h (f_announced s)) as [[|q ps]|] eqn:X; [destruct (Hna h X)| |reflexivity].
    destruct (proj1 (c_orig q s (Hc q)) h _ X (or_introl eq_refl)). }
  assert (Eal : f_alternates s = []).
  { apply zm_all_none. intros h. apply zm_has_false. rewrite (Hic h), Efe. reflexivity. }
  assert (Ewt : f_waittime s = []).
  { apply zm_all_none. intros h. apply zm_has_false. destruct (zm_has h (f_waittime s)) eqn:X; [|reflexivity].
    apply Hfw in X. rewrite Ewl in X. discriminate. }
  repeat split; assumption.
Qed.

(** ** phase 1 of the drop handler: the wait tables *)

(** [s0] is the state of the first loop of Drop(p) started in [s], after the hashes [done] *)
Record ph1 (p : Z) (s : Fetcher) (done : list Z) (s0 : Fetcher) : Prop := {
  p1_sub : forall h ps q, zm_get h (f_waitlist s0) = Some ps -> In q ps ->
             exists ps0, zm_get h (f_waitlist s) = Some ps0 /\ In q ps0;
  p1_done : forall h ps, zm_get h (f_waitlist s0) = Some ps -> In h done -> ~ In p ps;
  p1_nw : NW s0; p1_fw : FW s0;
  p1_ws : f_waitslots s0 = f_waitslots s;
  p1_rest : f_announces s0 = f_announces s /\ f_announced s0 = f_announced s /\ f_fetching s0 = f_fetching s /\
            f_requests s0 = f_requests s /\ f_alternates s0 = f_alternates s }.

(** one step of the first loop: the peer leaves the origins of [x]; a hash left without origins
    leaves the wait tables *)
Lemma drop_wait_hash_waitlist : forall p s x h,
    zm_get h (f_waitlist (drop_wait_hash p s x)) =
    if x =? h then match zm_get h (f_waitlist s) with
                   | Some ps => match zs_del p ps with [] => None | l => Some l end
                   | None => None
                   end
    else zm_get h (f_waitlist s).
Proof.
  intros p s x h. unfold drop_wait_hash.
  destruct (zm_get x (f_waitlist s)) as [ps|] eqn:Ex; [destruct (zs_del p ps) as [|a l] eqn:Ed|]; fsimp;
    rewrite ?get_del_if, ?get_set_if; destruct (x =? h) eqn:Eh; try reflexivity;
    apply Z.eqb_eq in Eh; subst h; rewrite Ex, ?Ed; reflexivity.
Qed.

Lemma drop_wait_hash_origins : forall p s x h qs, zm_get h (f_waitlist (drop_wait_hash p s x)) = Some qs ->
    (x <> h /\ zm_get h (f_waitlist s) = Some qs) \/
    (x = h /\ qs <> [] /\ exists ps, zm_get h (f_waitlist s) = Some ps /\ qs = zs_del p ps).
Proof.
  intros p s x h qs E. rewrite drop_wait_hash_waitlist in E. destruct (x =? h) eqn:Eh.
  - apply Z.eqb_eq in Eh. right. split; [exact Eh|]. destruct (zm_get h (f_waitlist s)) as [ps|]; [|discriminate].
    destruct (zs_del p ps) as [|a l] eqn:Ed; inversion E; subst qs. split; [discriminate|eauto].
  - apply Z.eqb_neq in Eh. left. auto.
Qed.

Lemma drop_wait_hash_waittime : forall p s x h, zm_has h (f_waittime (drop_wait_hash p s x)) = true ->
    zm_has h (f_waittime s) = true /\ (x = h -> zm_has h (f_waitlist (drop_wait_hash p s x)) = true).
Proof.
  intros p s x h. unfold drop_wait_hash.
  destruct (zm_get x (f_waitlist s)) as [ps|]; [destruct (zs_del p ps) as [|a l]|]; fsimp; rewrite ?has_del_if.
  - destruct (x =? h) eqn:Eh; [discriminate|]. apply Z.eqb_neq in Eh. intros E. split; [exact E|contradiction].
  - intros E. split; [exact E|intros <-; apply zm_has_set_eq].
  - destruct (x =? h) eqn:Eh; [discriminate|]. apply Z.eqb_neq in Eh. intros E. split; [exact E|contradiction].
Qed.

Lemma drop_wait_hash_ph1 : forall p s done s0 x, ph1 p s done s0 -> ph1 p s (x :: done) (drop_wait_hash p s0 x).
Proof.
  intros p s done s0 x H. constructor.
  - intros h qs q E Hin. destruct (drop_wait_hash_origins p s0 x h qs E) as [[_ E0]|[_ [_ [ps [E0 ->]]]]].
    + exact (p1_sub _ _ _ _ H h qs q E0 Hin).
    + apply In_zs_del in Hin. exact (p1_sub _ _ _ _ H h ps q E0 (proj1 Hin)).
  - intros h qs E Hd. destruct (drop_wait_hash_origins p s0 x h qs E) as [[Hne E0]|[_ [_ [ps [_ ->]]]]].
    + destruct Hd as [->|Hd]; [contradiction|]. exact (p1_done _ _ _ _ H h qs E0 Hd).
    + intros X. apply In_zs_del in X. exact (proj2 X eq_refl).
  - intros h E. destruct (drop_wait_hash_origins p s0 x h [] E) as [[_ E0]|[_ [N _]]]; [exact (p1_nw _ _ _ _ H h E0)|exact (N eq_refl)].
  - intros h E. destruct (drop_wait_hash_waittime p s0 x h E) as [E0 Ex].
    destruct (Z.eq_dec x h) as [Heq|Hne]; [exact (Ex Heq)|]. unfold zm_has. rewrite drop_wait_hash_waitlist.
    apply Z.eqb_neq in Hne. rewrite Hne. exact (p1_fw _ _ _ _ H h E0).
  - rewrite <- (p1_ws _ _ _ _ H). apply drop_wait_hash_keeps; reflexivity.
  - destruct (p1_rest _ _ _ _ H) as (A & B & C & D & E).
    rewrite <- A, <- B, <- C, <- D, <- E. repeat split; apply drop_wait_hash_keeps; reflexivity.
Qed.

Lemma fold_drop_wait_ph1 : forall p s l done s0, ph1 p s done s0 -> ph1 p s (rev l ++ done) (fold_left (drop_wait_hash p) l s0).
Proof.
  induction l as [|x t IH]; intros done s0 H; cbn [fold_left rev app]; [exact H|].
  rewrite <- app_assoc. cbn [app]. apply IH. apply drop_wait_hash_ph1. exact H.
Qed.

Record ph1_done (p : Z) (s s1 : Fetcher) : Prop := {
  d1_sub : forall h ps q, zm_get h (f_waitlist s1) = Some ps -> In q ps ->
             exists ps0, zm_get h (f_waitlist s) = Some ps0 /\ In q ps0;
  d1_free : forall h ps, zm_get h (f_waitlist s1) = Some ps -> ~ In p ps;
  d1_nw : NW s1; d1_fw : FW s1;
  d1_ws : forall q, zm_get q (f_waitslots s1) = if p =? q then None else zm_get q (f_waitslots s);
  d1_rest : f_announces s1 = f_announces s /\ f_announced s1 = f_announced s /\ f_fetching s1 = f_fetching s /\
            f_requests s1 = f_requests s /\ f_alternates s1 = f_alternates s }.

Lemma phase1_done : forall p s, W1 s -> NW s -> FW s -> ph1_done p s (drop_waits p s).
Proof.
  intros p s Hw Hnw Hfw. unfold drop_waits.
  destruct (zm_get p (f_waitslots s)) as [hs|] eqn:Ep.
  - cbv zeta.
    assert (H0 : ph1 p s [] s).
    { constructor; [intros h ps q E Hin; eauto|intros h ps E []|exact Hnw|exact Hfw|reflexivity|repeat split; reflexivity]. }
    pose proof (fold_drop_wait_ph1 p s hs [] s H0) as H. rewrite app_nil_r in H.
    set (a := fold_left (drop_wait_hash p) hs s) in *.
    assert (D : ph1_done p s (w_waitslots (zm_del p (f_waitslots a)) a)).
    { constructor; fsimp.
      - exact (p1_sub _ _ _ _ H).
      - intros h ps E Hin. destruct (p1_sub _ _ _ _ H h ps p E Hin) as [ps0 [E0 Hin0]].
        destruct (Hw h ps0 p E0 Hin0) as [hs' [E1 Hin1]]. rewrite Ep in E1. inversion E1; subst hs'.
        apply (p1_done _ _ _ _ H h ps E); [|exact Hin]. apply in_rev in Hin1. exact Hin1.
      - exact (p1_nw _ _ _ _ H).
      - exact (p1_fw _ _ _ _ H).
      - intros q. rewrite (p1_ws _ _ _ _ H). destruct (p =? q) eqn:E; [apply Z.eqb_eq in E; subst; apply zm_get_del_eq|apply Z.eqb_neq in E; now apply zm_get_del_ne].
      - exact (p1_rest _ _ _ _ H). }
    destruct (negb _); [|exact D].
    destruct D as [A B C DD E F]. constructor; fsimp; assumption.
  - constructor.
    + intros h ps q E Hin. eauto.
    + intros h ps E Hin. destruct (Hw h ps p E Hin) as [hs' [E1 _]]. congruence.
    + exact Hnw.
    + exact Hfw.
    + intros q. destruct (p =? q) eqn:E; [apply Z.eqb_eq in E; subst; exact Ep|reflexivity].
    + repeat split; reflexivity.
Qed.

(** ** phases 2 and 3, and the rescheduling: origins only move between the queued and the alternate
    sets of the same hash, or disappear *)

Definition sub_orig (s s' : Fetcher) : Prop :=
  forall h ps q, (zm_get h (f_announced s') = Some ps \/ zm_get h (f_alternates s') = Some ps) -> In q ps ->
    exists ps0, (zm_get h (f_announced s) = Some ps0 \/ zm_get h (f_alternates s) = Some ps0) /\ In q ps0.

(** what the later phases leave alone or only shrink *)
Record later (s s' : Fetcher) : Prop := {
  l_wl : f_waitlist s' = f_waitlist s; l_wt : f_waittime s' = f_waittime s; l_ws : f_waitslots s' = f_waitslots s;
  l_sub : sub_orig s s';
  l_na : NA s -> NA s' }.

Lemma later_refl : forall s, later s s.
Proof. intros s. constructor; auto. intros h ps q E Hin. eauto. Qed.

(** [later] looks at the wait tables and at the queued and alternate origins only *)
Lemma later_keeps : forall s0 s s', later s0 s ->
    (f_waitlist s', f_waittime s', f_waitslots s', f_announced s', f_alternates s') =
    (f_waitlist s, f_waittime s, f_waitslots s, f_announced s, f_alternates s) -> later s0 s'.
Proof.
  intros s0 s s' [A B C D E] X. injection X as Xl Xt Xs Xd Xa.
  constructor; unfold sub_orig, NA; rewrite ?Xl, ?Xt, ?Xs, ?Xd, ?Xa; assumption.
Qed.

Lemma later_trans : forall a b c, later a b -> later b c -> later a c.
Proof.
  intros a b c H1 H2. constructor.
  - rewrite (l_wl _ _ H2). apply (l_wl _ _ H1).
  - rewrite (l_wt _ _ H2). apply (l_wt _ _ H1).
  - rewrite (l_ws _ _ H2). apply (l_ws _ _ H1).
  - intros h ps q E Hin. destruct (l_sub _ _ H2 h ps q E Hin) as [ps1 [E1 Hin1]]. exact (l_sub _ _ H1 h ps1 q E1 Hin1).
  - intros X. apply (l_na _ _ H2). apply (l_na _ _ H1). exact X.
Qed.

Lemma drop_req_hash_later : forall p stolen s hash, later s (drop_req_hash p stolen s hash).
Proof.
  intros p stolen s hash. constructor; try (apply drop_req_hash_keeps; reflexivity).
  - intros h ps q E Hin. rewrite drop_req_hash_announced, drop_req_hash_alternates in E.
    destruct (zs_mem hash stolen); [eauto|]. destruct (hash =? h); [|eauto].
    destruct E as [E|E]; [|discriminate].
    destruct (zm_get h (f_alternates s)) as [ps0|]; cbn [option_map] in E; [|eauto].
    destruct (zs_del p ps0) as [|y a] eqn:Ed; [eauto|]. inversion E; subst ps. rewrite <- Ed in Hin.
    apply In_zs_del in Hin. exists ps0. split; [right; reflexivity|exact (proj1 Hin)].
  - intros X h. rewrite drop_req_hash_announced. destruct (zs_mem hash stolen); [apply X|]. destruct (hash =? h); [|apply X].
    destruct (option_map _ _) as [[|y a]|]; [apply X|discriminate|apply X].
Qed.

Lemma drop_ann_hash_later : forall p s x, later s (drop_ann_hash p s x).
Proof.
  intros p s x. unfold drop_ann_hash. constructor; try reflexivity.
  - intros h ps q [E|E] Hin; fsimp_in E.
    + apply get_del_from_norm_some in E. destruct (x =? h).
      * destruct E as [ps0 [E0 ->]]. apply In_zs_del in Hin. exists ps0. split; [left; exact E0|exact (proj1 Hin)].
      * eauto.
    + rewrite get_del_from in E. destruct (x =? h).
      * destruct (zm_get h (f_alternates s)) as [ps0|] eqn:E0; [|discriminate]. cbn [option_map] in E. inversion E; subst.
        apply In_zs_del in Hin. exists ps0. split; [right; reflexivity|exact (proj1 Hin)].
      * eauto.
  - intros X h. fsimp. unfold zm_del_from_norm. destruct (zm_get x (f_announced s)) as [ps0|] eqn:E0; [|apply X].
    destruct (zs_del p ps0) as [|a l] eqn:Ed.
    + destruct (Z.eq_dec x h) as [<-|Hne]; [rewrite zm_get_del_eq; discriminate|]. rewrite zm_get_del_ne by assumption. apply X.
    + destruct (Z.eq_dec x h) as [<-|Hne]; [rewrite zm_get_set_eq; discriminate|]. rewrite zm_get_set_ne by assumption. apply X.
Qed.

(** a peer that announces nothing is given no request *)
Definition after_sched (s s' : Fetcher) : Prop :=
  later s s' /\ f_announces s' = f_announces s /\
  forall q, zm_get q (f_announces s) = None -> zm_get q (f_requests s') = zm_get q (f_requests s).

Lemma after_sched_refl : forall s, after_sched s s.
Proof. intros s. split; [apply later_refl|split; auto]. Qed.

Lemma after_sched_timer : forall s0 s, after_sched s0 s -> after_sched s0 (reschedule_timeout s).
Proof. intros s0 s (L & A & Q). split; [|split; [exact A|exact Q]]. eapply later_keeps; [exact L|reflexivity]. Qed.

Lemma schedule_later : forall w k s0 s, after_sched s0 s -> okf True (after_sched s0) (schedule_fetches w k s).
Proof.
  intros w k s0. revert w k. apply schedule_ok.
  - intros peer hash s (L & A & Q) _ _ _. destruct (zm_has hash (f_alternates s)); [exact I|].
    split; [|split; [exact A|exact Q]]. apply (later_trans _ _ _ L). constructor; try reflexivity.
    + intros h ps q [X|X] Hin; unfold assign in X; fsimp_in X.
      * rewrite get_del_if in X. destruct (hash =? h); [discriminate|eauto].
      * destruct (Z.eq_dec hash h) as [<-|Hne]; [|rewrite zm_get_set_ne in X by assumption; eauto].
        rewrite zm_get_set_eq in X. inversion X; subst.
        destruct (zm_get hash (f_announced s)) as [a|] eqn:Eq; [eauto|destruct Hin].
    + intros X h. unfold assign. fsimp. rewrite get_del_if. destruct (hash =? h); [discriminate|apply X].
  - intros peer rq s (L & A & Q) Hp _. split; [|split; [exact A|]].
    + eapply later_keeps; [exact L|reflexivity].
    + intros q Hq. fsimp. rewrite zm_get_set_ne; [now apply Q|]. intros ->. apply Hp. now rewrite A.
  - exact (after_sched_timer s0).
Qed.

Lemma drop_body_later : forall p s,
    later (drop_waits p s) (drop_body p s) /\
    forall q, zm_get q (f_announces (drop_body p s)) = if p =? q then None else zm_get q (f_announces (drop_waits p s)).
Proof.
  intros p s. unfold drop_body. generalize (drop_waits p s). clear s. intros s1.
  assert (L2 : later s1 (drop_request p s1) /\ f_announces (drop_request p s1) = f_announces s1).
  { unfold drop_request. destruct (zm_get p (f_requests s1)) as [rq|]; [|split; [apply later_refl|reflexivity]].
    split; [|cbn; apply fold_left_keeps; intros; apply drop_req_hash_keeps; reflexivity].
    pose proof (fold_left_inv (later s1) _ (rq_hashes rq)
      (fun s x L => later_trans _ _ _ L (drop_req_hash_later p (rq_stolen rq) s x)) s1 (later_refl s1)) as L.
    eapply later_keeps; [exact L|reflexivity]. }
  destruct L2 as [L2 A2]. revert L2 A2. generalize (drop_request p s1). intros s2 L2 A2.
  unfold drop_announces. destruct (zm_get p (f_announces s2)) as [hs|] eqn:Ep.
  - pose proof (fold_left_inv (later s2) _ hs (fun s x L => later_trans _ _ _ L (drop_ann_hash_later p s x)) s2 (later_refl s2)) as L.
    split.
    + eapply later_trans; [exact L2|eapply later_keeps; [exact L|reflexivity]].
    + intros q. cbn. rewrite (fold_left_keeps f_announces) by (intros; apply drop_ann_hash_keeps; reflexivity).
      rewrite A2. apply get_del_if.
  - split; [exact L2|]. intros q. rewrite A2. destruct (p =? q) eqn:E; [apply Z.eqb_eq in E; subst; rewrite <- A2; exact Ep|reflexivity].
Qed.

Lemma good_f0 : GOOD f0.
Proof.
  constructor.
  - exact IC_f0.
  - exact IA_f0.
  - intros h ps p X. discriminate.
  - intros h ps p X. discriminate.
  - intros h ps p X. discriminate.
  - intros h X. discriminate.
  - intros h X. discriminate.
  - intros h X. discriminate.
Qed.

(** Drop(p) in a good state: the state stays good, [p] occurs nowhere afterwards, and a peer
    that occurred nowhere before does not appear *)
Lemma ev_drop_good : forall p k s s', GOOD s -> ev_drop p k s = FOk s' ->
    GOOD s' /\ clean p s' /\ forall q, clean q s -> clean q s'.
Proof.
  intros p k s s' G E.
  pose proof (phase1_done p s (g_w1 s G) (g_nw s G) (g_fw s G)) as D1.
  destruct (drop_body_later p s) as [Lb Ab].
  assert (Rs : after_sched (drop_body p s) s').
  { pose proof (ev_drop_from_body True (after_sched (drop_body p s)) p k s) as X. rewrite E in X.
    apply X; [apply schedule_later|apply after_sched_timer|]; apply after_sched_refl. }
  destruct Rs as [Ls [As Qs]].
  pose proof (later_trans _ _ _ Lb Ls) as L.
  destruct (d1_rest p s _ D1) as [R_an [R_ad [R_fe [R_rq R_al]]]].
  assert (Han : forall q, zm_get q (f_announces s') = if p =? q then None else zm_get q (f_announces s))
    by (intros q; rewrite As, Ab, R_an; reflexivity).
  pose proof (ev_drop_origin_free p k s s' (g_r1 s G) (g_r2 s G) E) as Of.
  destruct (ev_drop_forgets p k s (g_ic s G) (IA_covered s p (g_ia s G))) as [s'' [E'' [Nf Nr]]].
  rewrite E in E''. inversion E''; subst s''. clear E''.
  (* origins of s' come from origins of s *)
  assert (Sub : sub_orig s s').
  { intros h ps q X Hin. destruct (l_sub _ _ L h ps q X Hin) as [ps0 [X0 Hin0]]. rewrite R_ad, R_al in X0. eauto. }
  assert (Hwl : f_waitlist s' = f_waitlist (drop_waits p s)) by apply (l_wl _ _ L).
  assert (Hws : f_waitslots s' = f_waitslots (drop_waits p s)) by apply (l_ws _ _ L).
  assert (Hwt : f_waittime s' = f_waittime (drop_waits p s)) by apply (l_wt _ _ L).
  split; [|split].
  - constructor.
    + pose proof (fstep_IC k s (EDrop p) (g_ic s G)) as X. cbn [fstep] in X. rewrite E in X. exact X.
    + pose proof (fstep_IA k s (EDrop p) (g_ia s G)) as X. cbn [fstep] in X. rewrite E in X. exact X.
    + intros h ps q X Hin. destruct (Sub h ps q (or_introl X) Hin) as [ps0 [[X0|X0] Hin0]];
        [destruct (g_r1 s G h ps0 q X0 Hin0) as [hs [Eh Hh]]|destruct (g_r2 s G h ps0 q X0 Hin0) as [hs [Eh Hh]]];
        (exists hs; split; [|exact Hh]; rewrite Han;
         destruct (p =? q) eqn:Epq; [apply Z.eqb_eq in Epq; subst q; exfalso; exact (proj1 Of h ps X Hin)|exact Eh]).
    + intros h ps q X Hin. destruct (Sub h ps q (or_intror X) Hin) as [ps0 [[X0|X0] Hin0]];
        [destruct (g_r1 s G h ps0 q X0 Hin0) as [hs [Eh Hh]]|destruct (g_r2 s G h ps0 q X0 Hin0) as [hs [Eh Hh]]];
        (exists hs; split; [|exact Hh]; rewrite Han;
         destruct (p =? q) eqn:Epq; [apply Z.eqb_eq in Epq; subst q; exfalso; exact (proj2 Of h ps X Hin)|exact Eh]).
    + intros h ps q X Hin. rewrite Hwl in X. destruct (d1_sub p s _ D1 h ps q X Hin) as [ps0 [X0 Hin0]].
      destruct (g_w1 s G h ps0 q X0 Hin0) as [hs [Eh Hh]]. exists hs. split; [|exact Hh].
      rewrite Hws, (d1_ws p s _ D1). destruct (p =? q) eqn:Epq; [apply Z.eqb_eq in Epq; subst q; exfalso; exact (d1_free p s _ D1 h ps X Hin)|exact Eh].
    + intros h. rewrite Hwl. apply (d1_nw p s _ D1).
    + apply (l_na _ _ L). intros h. rewrite R_ad. apply (g_na s G).
    + intros h. rewrite Hwt, Hwl. apply (d1_fw p s _ D1).
  - constructor.
    + exact Of.
    + intros h ps X. rewrite Hwl in X. exact (d1_free p s _ D1 h ps X).
    + rewrite Hws, (d1_ws p s _ D1), Z.eqb_refl. reflexivity.
    + rewrite Han, Z.eqb_refl. reflexivity.
    + exact Nr.
    + exact Nf.
  - intros q C.
    (* fetches: the body only removes, the rescheduling only serves announcers *)
    assert (Fb : forgotten q (drop_body p s)).
    { split; [|split].
      - intros h X. exact (c_fe q s C h (proj1 (drop_body_others p s h q (IA_covered s p (g_ia s G)) X))).
      - rewrite Ab, R_an. destruct (p =? q); [reflexivity|exact (c_an q s C)].
      - rewrite drop_body_requests. destruct (p =? q); [reflexivity|exact (c_rq q s C)]. }
    assert (Fq : forgotten q s').
    { pose proof (ev_drop_from_body True (forgotten q) p k s) as X. rewrite E in X.
      apply X; [now apply schedule_forgotten|auto|exact Fb]. }
    constructor.
    + destruct (c_orig q s C) as [O1 O2]. split; intros h ps X Hin.
      * destruct (Sub h ps q (or_introl X) Hin) as [ps0 [[X0|X0] Hin0]]; [exact (O1 h ps0 X0 Hin0)|exact (O2 h ps0 X0 Hin0)].
      * destruct (Sub h ps q (or_intror X) Hin) as [ps0 [[X0|X0] Hin0]]; [exact (O1 h ps0 X0 Hin0)|exact (O2 h ps0 X0 Hin0)].
    + intros h ps X Hin. rewrite Hwl in X. destruct (d1_sub p s _ D1 h ps q X Hin) as [ps0 [X0 Hin0]]. exact (c_wl q s C h ps0 X0 Hin0).
    + rewrite Hws, (d1_ws p s _ D1). destruct (p =? q); [reflexivity|exact (c_ws q s C)].
    + exact (proj1 (proj2 Fq)).
    + exact (proj2 (proj2 Fq)).
    + exact (proj1 Fq).
Qed.

Lemma drop_all_good : forall ps s s', GOOD s -> drop_all ps s = FOk s' ->
    GOOD s' /\ (forall p, In p (map snd ps) -> clean p s') /\ (forall q, clean q s -> clean q s').
Proof.
  induction ps as [|[k p] t IH]; intros s s' G E; cbn [drop_all] in E.
  - inversion E; subst. split; [exact G|split; [intros p []|auto]].
  - destruct (ev_drop p k s) as [s1|] eqn:E1; [|discriminate]. cbn [fbind] in E.
    destruct (ev_drop_good p k s s1 G E1) as [G1 [C1 K1]].
    destruct (IH s1 s' G1 E) as [G' [C' K']].
    split; [exact G'|split].
    + cbn [map snd]. intros q [<-|Hin]; [apply K'; exact C1|apply C'; exact Hin].
    + intros q C. apply K'. apply K1. exact C.
Qed.

(** every peer dropped: every tracker is empty *)
Theorem drop_everyone_empties : forall ps s s', GOOD s ->
    (forall q, ~ In q (map snd ps) -> clean q s) -> drop_all ps s = FOk s' -> all_empty s'.
Proof.
  intros ps s s' G Hcov E. destruct (drop_all_good ps s s' G E) as [G' [C' K']].
  apply clean_all_empty; [exact (g_ic s' G')|exact (g_nw s' G')|exact (g_na s' G')|exact (g_fw s' G')|].
  intros p. destruct (in_dec Z.eq_dec p (map snd ps)) as [Hin|Hnin]; [apply C'; exact Hin|apply K'; apply Hcov; exact Hnin].
Qed.

(** and it never panics on the way *)
Theorem drop_all_completes : forall ps s, GOOD s -> exists s', drop_all ps s = FOk s'.
Proof.
  induction ps as [|[k p] t IH]; intros s G; cbn [drop_all]; [eauto|].
  destruct (ev_drop_forgets p k s (g_ic s G) (IA_covered s p (g_ia s G))) as [s1 [E1 _]]. rewrite E1. cbn [fbind].
  destruct (ev_drop_good p k s s1 G E1) as [G1 _]. apply IH. exact G1.
Qed.
