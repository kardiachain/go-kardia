(** C18 — the fetcher: after Drop(peer) the peer is no origin of anything any more — neither a
    queued origin nor an alternate origin of a hash in flight from somebody else (repair 95b0505;
    before it the alternates kept the peer and the hash was later queued for ever with no peer to
    ask).  Hypotheses: the per-hash and per-peer indexes agree (R1, R2: part of [fetcher_ok],
    evaluated on every state the model reaches and on the implementation's trackers). *)
From Coq Require Import List ZArith Bool Lia.
From Kardia Require Import C18.ModelFetcher C18.ProofsFetcher Generated.C18Facts.
Import ListNotations.
Local Open Scope Z_scope.

(** whoever is listed under [h] in [tbl] lists [h] in [idx].  R1 and R2 below, and W1 of
    ProofsFetcherEmpty.v, are this for three pairs of trackers, written out *)
Definition indexed (tbl idx : zmap zset) : Prop :=
  forall h ps p, zm_get h tbl = Some ps -> In p ps -> exists hs, zm_get p idx = Some hs /\ In h hs.

Definition R1 (s : Fetcher) : Prop :=
  forall h ps p, zm_get h (f_announced s) = Some ps -> In p ps ->
    exists hs, zm_get p (f_announces s) = Some hs /\ In h hs.
Definition R2 (s : Fetcher) : Prop :=
  forall h ps p, zm_get h (f_alternates s) = Some ps -> In p ps ->
    exists hs, zm_get p (f_announces s) = Some hs /\ In h hs.

(** [p] is an origin only of hashes in [hs] *)
Definition only_at (p : Z) (hs : list Z) (s : Fetcher) : Prop :=
  (forall h ps, zm_get h (f_announced s) = Some ps -> In p ps -> In h hs) /\
  (forall h ps, zm_get h (f_alternates s) = Some ps -> In p ps -> In h hs).

Definition origin_free (p : Z) (s : Fetcher) : Prop := only_at p [] s.

Lemma only_at_weaken : forall p hs hs' s, (forall h, In h hs -> In h hs') -> only_at p hs s -> only_at p hs' s.
Proof. intros p hs hs' s Hsub [H1 H2]. split; intros h ps E Hin; apply Hsub; eauto. Qed.

(** phase 2 of the drop handler, at one hash of the request: the alternates of the hash, less the
    peer, become its queued origins (when any are left); the hash is no longer in flight *)
Lemma drop_req_hash_alternates : forall p stolen s x h,
    zm_get h (f_alternates (drop_req_hash p stolen s x)) =
    if zs_mem x stolen then zm_get h (f_alternates s) else if x =? h then None else zm_get h (f_alternates s).
Proof.
  intros p stolen s x h. unfold drop_req_hash. destruct (zs_mem x stolen); [reflexivity|].
  destruct (zm_get x _) as [[|y a]|]; fsimp; rewrite get_del_if; destruct (x =? h) eqn:E; try reflexivity;
    rewrite get_del_from, E; reflexivity.
Qed.

Lemma drop_req_hash_announced : forall p stolen s x h,
    zm_get h (f_announced (drop_req_hash p stolen s x)) =
    if zs_mem x stolen then zm_get h (f_announced s)
    else if x =? h then match option_map (zs_del p) (zm_get h (f_alternates s)) with
                        | Some ((_ :: _) as a) => Some a
                        | _ => zm_get h (f_announced s)
                        end
    else zm_get h (f_announced s).
Proof.
  intros p stolen s x h. unfold drop_req_hash. destruct (zs_mem x stolen); [reflexivity|]. fsimp.
  rewrite get_del_from, Z.eqb_refl. destruct (x =? h) eqn:E.
  - apply Z.eqb_eq in E. subst h. destruct (option_map _ _) as [[|y a]|]; fsimp; [reflexivity|apply zm_get_set_eq|reflexivity].
  - destruct (option_map _ _) as [[|y a]|]; fsimp; rewrite ?get_set_if, ?E; reflexivity.
Qed.

Lemma drop_req_hash_only : forall p stolen hs s hash, only_at p hs s -> only_at p hs (drop_req_hash p stolen s hash).
Proof.
  intros p stolen hs s hash [H1 H2]. split; intros h ps E Hin.
  - rewrite drop_req_hash_announced in E. destruct (zs_mem hash stolen); [eauto|]. destruct (hash =? h); [|eauto].
    destruct (zm_get h (f_alternates s)) as [ps0|]; cbn [option_map] in E; [|eauto].
    destruct (zs_del p ps0) as [|y a] eqn:Ed; [eauto|]. inversion E; subst ps. rewrite <- Ed in Hin.
    apply In_zs_del in Hin. destruct (proj2 Hin eq_refl).
  - rewrite drop_req_hash_alternates in E. destruct (zs_mem hash stolen); [eauto|]. destruct (hash =? h); [discriminate|eauto].
Qed.

(** phase 3: one announced hash less to be an origin of *)
Lemma drop_ann_hash_only : forall p x hs s, only_at p (x :: hs) s -> only_at p hs (drop_ann_hash p s x).
Proof.
  intros p x hs s [H1 H2]. unfold drop_ann_hash. split; intros h ps E Hin; fsimp_in E.
  - apply get_del_from_norm_some in E. destruct (x =? h) eqn:Ex.
    + destruct E as [ps0 [_ ->]]. apply In_zs_del in Hin. destruct Hin as [_ X]. contradiction.
    + apply Z.eqb_neq in Ex. destruct (H1 h ps E Hin) as [<-|X]; [contradiction|exact X].
  - rewrite get_del_from in E. destruct (x =? h) eqn:Ex.
    + destruct (zm_get h (f_alternates s)) as [ps0|]; [|discriminate]. cbn [option_map] in E. inversion E; subst.
      apply In_zs_del in Hin. destruct Hin as [_ X]. contradiction.
    + apply Z.eqb_neq in Ex. destruct (H2 h ps E Hin) as [<-|X]; [contradiction|exact X].
Qed.

Lemma fold_drop_ann_only : forall p l s, only_at p l s -> origin_free p (fold_left (drop_ann_hash p) l s).
Proof.
  induction l as [|x t IH]; intros s H; cbn [fold_left]; [exact H|]. apply IH. now apply drop_ann_hash_only.
Qed.

(** queued origins and alternate origins: all that [only_at] looks at *)
Definition origins (s : Fetcher) := (f_announced s, f_alternates s).

Lemma only_at_origins : forall p hs s s', origins s' = origins s -> only_at p hs s -> only_at p hs s'.
Proof. intros p hs s s' E [H1 H2]. injection E as Ea El. split; intros h ps X; [rewrite Ea in X|rewrite El in X]; eauto. Qed.

Lemma drop_body_origin_free : forall p s, R1 s -> R2 s -> origin_free p (drop_body p s).
Proof.
  intros p s H1 H2. unfold drop_body.
  set (hs := match zm_get p (f_announces s) with Some l => l | None => [] end).
  assert (P0 : only_at p hs s).
  { split; intros h ps E Hin; [destruct (H1 h ps p E Hin) as [l [El Hl]]|destruct (H2 h ps p E Hin) as [l [El Hl]]];
      unfold hs; rewrite El; exact Hl. }
  assert (P1 : only_at p hs (drop_waits p s)) by (apply (only_at_origins p hs s); [apply drop_waits_keeps; reflexivity|exact P0]).
  assert (A1 : f_announces (drop_waits p s) = f_announces s) by (apply drop_waits_keeps; reflexivity).
  revert P1 A1. generalize (drop_waits p s). intros s1 P1 A1.
  assert (P2 : only_at p hs (drop_request p s1) /\ f_announces (drop_request p s1) = f_announces s).
  { unfold drop_request. destruct (zm_get p (f_requests s1)) as [rq|]; [|split; assumption]. split.
    - exact (fold_left_inv (only_at p hs) _ (rq_hashes rq) (drop_req_hash_only p (rq_stolen rq) hs) s1 P1).
    - cbn. rewrite <- A1. apply fold_left_keeps. intros. apply drop_req_hash_keeps; reflexivity. }
  destruct P2 as [P2 A2]. revert P2 A2. generalize (drop_request p s1). intros s2 P2 A2.
  unfold drop_announces. rewrite A2.
  destruct (zm_get p (f_announces s)) as [l|] eqn:El; [|exact P2].
  unfold hs in P2. exact (fold_drop_ann_only p l s2 P2).
Qed.

(** scheduling builds alternates out of queued origins only *)
Lemma schedule_free : forall p w k s, origin_free p s -> okf True (origin_free p) (schedule_fetches w k s).
Proof.
  intros p. apply schedule_ok.
  - intros peer hash s [H1 H2] _ _ _. destruct (zm_has hash (f_alternates s)); [exact I|].
    split; intros h ps X Hin; unfold assign in X; fsimp_in X.
    + rewrite get_del_if in X. destruct (hash =? h); [discriminate|]. eapply H1; eassumption.
    + destruct (Z.eq_dec hash h) as [<-|Hne].
      * rewrite zm_get_set_eq in X. inversion X; subst.
        destruct (zm_get hash (f_announced s)) as [a|] eqn:Ea; [eapply H1; eassumption|destruct Hin].
      * rewrite zm_get_set_ne in X by assumption. eapply H2; eassumption.
  - intros peer rq s H _ _. exact H.
  - intros s H. exact H.
Qed.

(** Drop(peer): afterwards the peer is no queued origin and no alternate origin of any hash *)
Lemma ev_drop_origin_free : forall p k s s', R1 s -> R2 s -> ev_drop p k s = FOk s' -> origin_free p s'.
Proof.
  intros p k s s' H1 H2 E.
  pose proof (ev_drop_from_body True (origin_free p) p k s) as X. rewrite E in X.
  apply X; [apply schedule_free| |]; auto using drop_body_origin_free.
Qed.

(** the leak before 95b0505, computed: B announces what is in flight from A, B is dropped, A is
    dropped — with a drop handler that leaves the alternates alone the hash stays queued for ever
    with the long-gone B as only origin; with the real one every table is empty *)
Definition leak_history : list (Z * fev) :=
  [(0, ENotify 0 [7]); (0, EAdvance 500); (0, ENotify 1 [7]); (0, EDrop 1); (0, EDrop 0)].

Example leak_history_ends_empty :
  match frun f0 leak_history with
  | FOk s => is_nil (f_announced s) && is_nil (f_alternates s) && is_nil (f_fetching s) && is_nil (f_requests s) &&
             is_nil (f_announces s) && is_nil (f_waitlist s) && is_nil (f_waittime s) && is_nil (f_waitslots s)
  | FCrash => false
  end = true.
Proof. vm_compute. reflexivity. Qed.
