(** C09 — balances stay non-negative and the destroyed amount is non-negative: a transaction
    never creates value (the balance sum never increases). *)
From Coq Require Import List ZArith NArith Bool Lia.
From Kardia Require Import Base.Int64 C09.Model C09.ProofsBase C09.ProofsVM C09.ProofsTx.
Import ListNotations.
Local Open Scope Z_scope.

Definition nonneg (s : state) : Prop := forall a, 0 <= bal s a.

(** the interpreter never drives a balance below zero (CanTransfer guards every CALL / CREATE
    value transfer, SELFDESTRUCT moves what is there) *)
Definition RunNonneg (run : state -> call_input -> run_output) : Prop :=
  forall s ci, nonneg s -> nonneg (apply_writes s (run s ci)).

Lemma nonneg_add_bal s a v : nonneg s -> 0 <= v -> nonneg (add_bal s a v).
Proof. intros H Hv b. rewrite bal_add_bal. specialize (H b). destruct (N.eqb b a); lia. Qed.

Lemma nonneg_sub_bal s a v : nonneg s -> v <= bal s a -> nonneg (sub_bal s a v).
Proof. intros H Hv b. rewrite bal_sub_bal. specialize (H b). destruct (N.eqb_spec b a); subst; lia. Qed.

Lemma nonneg_set_nonce s a n : nonneg s -> nonneg (set_nonce s a n).
Proof. intros H b. rewrite bal_set_nonce. apply H. Qed.
Lemma nonneg_set_code s a n : nonneg s -> nonneg (set_code s a n).
Proof. intros H b. rewrite bal_set_code. apply H. Qed.
Lemma nonneg_create_account s a : nonneg s -> nonneg (create_account s a).
Proof. intros H b. rewrite bal_create_account. apply H. Qed.

Lemma nonneg_transfer s f t v : nonneg s -> 0 <= v <= bal s f -> nonneg (transfer s f t v).
Proof.
  intros H Hv. unfold transfer. apply nonneg_add_bal; [|lia]. apply nonneg_sub_bal; [exact H|lia].
Qed.

Section NN.
Variable run : state -> call_input -> run_output.
Variable ca : N -> Z -> N.
Hypothesis OK : ExecOK run.
Hypothesis RN : RunNonneg run.

Lemma call_nonneg s mid origin caller a gas value s2 g2 e b :
  call run s mid origin caller a gas value = (s2, g2, e, b) -> nonneg s -> 0 <= value -> nonneg s2.
Proof.
  intros H Hs Hv. apply call_cases in H. cbn zeta in H.
  assert (Hs1 : value = 0 \/ can_transfer s caller value = true -> nonneg (transfer s caller a value)).
  { intros Hp. apply nonneg_transfer; [exact Hs|]. split; [exact Hv|].
    destruct Hp as [->|Hp]; [apply Hs|now apply can_transfer_iff]. }
  destruct H as [(_ & -> & _)|[(Hp & _ & -> & _)|[(Hp & _ & _ & -> & _)|(_ & -> & _)]]]; auto.
Qed.

Lemma create_nonneg W s mid origin caller address gas value s2 g2 e b :
  create W run s mid origin caller address gas value = (s2, g2, e, b) -> nonneg s -> 0 <= value -> nonneg s2.
Proof.
  intros H Hs Hv. apply create_cases in H. cbn zeta in H.
  destruct H as [(_ & -> & _)|[(Hct & _ & _ & _ & _ & -> & _)|(_ & -> & _)]];
    try exact Hs; try (apply nonneg_set_nonce; exact Hs).
  apply nonneg_set_code. apply RN. unfold cr_s3. apply nonneg_transfer.
  - apply nonneg_set_nonce, nonneg_create_account, nonneg_set_nonce, Hs.
  - split; [exact Hv|]. rewrite bal_set_nonce, bal_create_account. unfold cr_s0. rewrite bal_set_nonce.
    now apply can_transfer_iff.
Qed.

Lemma vm_phase_nonneg W s1 m gas1 s2 g2 e b :
  vm_phase W run ca s1 m gas1 = (s2, g2, e, b) -> nonneg s1 -> 0 <= m_value m -> nonneg s2.
Proof.
  unfold vm_phase. intros H Hs Hv. destruct (m_to m).
  - eapply call_nonneg; [exact H|apply nonneg_set_nonce; exact Hs|exact Hv].
  - eapply create_nonneg; [exact H|exact Hs|exact Hv].
Qed.

Lemma kill_fold_nonneg l s b :
  nonneg s -> nonneg (fst (fold_left kill l (s, b))) /\ b <= snd (fold_left kill l (s, b)).
Proof.
  revert s b. induction l as [|a l IH]; intros s b Hs; cbn [fold_left]; [cbn; split; [exact Hs|lia]|].
  change (kill (s, b) a) with (upd s a empty_account, b + bal s a).
  destruct (IH (upd s a empty_account) (b + bal s a)) as [H1 H2].
  - intros c. unfold bal. rewrite get_upd. destruct (N.eqb c a); [cbn; lia|apply Hs].
  - split; [exact H1|]. specialize (Hs a). lia.
Qed.

Lemma finalise_nonneg s : nonneg s -> nonneg (fst (finalise s)) /\ 0 <= snd (finalise s).
Proof.
  intros Hs. unfold finalise. cbn [fst snd].
  destruct (kill_fold_nonneg (st_dead s) s 0 Hs) as [H1 H2]. split; [|exact H2].
  intros a. specialize (H1 a). exact H1.
Qed.

Lemma executed_nonneg e s pool m s' pool' r :
  wf_msg m -> 0 <= pool < two64 -> 0 <= st_refund s -> nonneg s ->
  apply_transaction wrapu64 run ca e s pool m = Executed s' pool' r ->
  nonneg s' /\ 0 <= x_burnt r.
Proof.
  intros Hm Hpool Hr Hs Hex.
  destruct (tx_inv run ca OK e s pool m s' pool' r Hm Hpool Hr Hex)
    as (ig & s2 & gas2 & vmerr & burn & X).
  pose proof (ex_ig X) as Hig. pose proof (vo_gas (ex_vm_ok X)) as Hg2. pose proof (vo_burn (ex_vm_ok X)) as Hb.
  destruct (ex_refund X) as (Hr0 & Hr2 & _).
  destruct Hm as [Hgas Hnon Hprice Hvalue].
  assert (Hs1 : nonneg (bought s m))
    by (apply nonneg_sub_bal; [exact Hs|exact (p_funds _ _ _ _ _ _ (ex_passed X))]).
  pose proof (vm_phase_nonneg _ _ _ _ _ _ _ _ (ex_vm X) Hs1 Hvalue) as Hs2.
  assert (Hs4 : nonneg (paid e m s2 gas2)).
  { unfold paid, used_of. apply nonneg_add_bal; [apply nonneg_add_bal; [exact Hs2|]|]; apply Z.mul_nonneg_nonneg; lia. }
  destruct (finalise_nonneg _ Hs4) as [H1 H2].
  rewrite (ex_state X), (ex_receipt X). cbn [x_burnt]. split; [exact H1|lia].
Qed.

End NN.
