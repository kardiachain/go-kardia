(** C09 — tie of the model's accounting arithmetic and guards to the Go SOURCE.
    [Generated/C09Source.v] is produced on every check by /verif/go2coq from /repo's working tree:
    every guard / integer expression of StateTransition.buyGas / preCheck / TransitionDb / refundGas /
    gasUsed (mainchain/blockchain/state_processor.go), tx_pool.IntrinsicGas, GasPool.AddGas / SubGas and
    the bodies of lib/math SafeAdd / SafeSub / SafeMul.  The lemmas say that [apply_transaction64] /
    [intrinsic_gas64] of C09/Model.v compute exactly these expressions (uint64 wrap included) on
    exactly these operands. *)
From Coq Require Import List ZArith NArith Bool Lia String.
From Kardia Require Import Base.Int64 Base.GoSem Base.Conj.
From Kardia Require Import Generated.C09Source.
From Kardia Require Import Generated.C09Facts C09.Model C09.ProofsVM.
Import ListNotations.
Local Open Scope Z_scope.

(** big.Int.Cmp / Sign as the Go int they return *)
Definition cmp_int (a b : Z) : Z := match a ?= b with Lt => -1 | Eq => 0 | Gt => 1 end.
Definition sign_int (a : Z) : Z := cmp_int a 0.

Lemma wrapu64_is_wrap z : wrapu64 z = wrap U64 z.
Proof. reflexivity. Qed.

(** unsigned division does not wrap *)
Lemma go_quot_u64 a k : in_range U64 a -> 0 < k -> go_quot U64 a k = a / k.
Proof.
  unfold go_quot, in_range. intros Ha Hk. rewrite Z.quot_div_nonneg by lia. apply wrap_id. unfold in_range.
  pose proof (Z.div_pos a k ltac:(lia) Hk). pose proof (Z.div_le_upper_bound a k a Hk). nia.
Qed.

(** math/bits: the high word of a sum or product is non-zero exactly above MaxUint64 *)
Lemma high_word_flag z : 0 <= z -> go_neqb (z / 18446744073709551616) 0 = (max_u64 <? z).
Proof.
  intros Hz. unfold go_neqb, max_u64, two64.
  destruct (Z.ltb_spec (18446744073709551616 - 1) z) as [Hlt|Hge];
    destruct (Z.eqb_spec (z / 18446744073709551616) 0) as [He|Hne]; try reflexivity; exfalso.
  - assert (1 <= z / 18446744073709551616) by (apply Z.div_le_lower_bound; lia). lia.
  - apply Hne. apply Z.div_small. lia.
Qed.

(** ** what is compared, not only how (atoms); IntrinsicGas's tests on the data.  A lemma of this file
    that is no conjunct of [C09_source_tie_statement] is checked each time the file is compiled against
    the regenerated source, and only then. *)
Lemma src_nonce_atoms :
  mainchain_blockchain__StateTransition_preCheck__if_nonce_lt_st_msg_Nonce_atoms = ["nonce : uint64"; "st.msg.Nonce() : uint64"]%string
  /\ mainchain_blockchain__StateTransition_preCheck__if_nonce_gt_st_msg_Nonce_atoms = ["nonce : uint64"; "st.msg.Nonce() : uint64"]%string.
Proof. split; reflexivity. Qed.
Lemma src_funds_atoms :
  mainchain_blockchain__StateTransition_buyGas__if_st_state_GetBalance_st_msg_From__Cmp_mgval_lt_0_atoms = ["st.state.GetBalance(st.msg.From()).Cmp(mgval) : int"]%string.
Proof. reflexivity. Qed.
Lemma src_transfer_atoms :
  mainchain_blockchain__StateTransition_TransitionDb__if_msg_Value__Sign_gt_0_and_not_st_vm_CanTransfer_st_state_msg__a8dc9f8a_atoms
  = ["msg.Value().Sign() : int"; "st.vm.CanTransfer(st.state, msg.From(), msg.Value()) : bool"]%string.
Proof. reflexivity. Qed.
Lemma src_gas_used_atoms :
  mainchain_blockchain__StateTransition_gasUsed__ret_st_initialGas_minus_st_gas_atoms = ["st.initialGas : uint64"; "st.gas : uint64"]%string.
Proof. reflexivity. Qed.
Lemma src_refund_cap_atoms :
  mainchain_blockchain__StateTransition_refundGas__if_refund_gt_st_state_GetRefund_atoms = ["refund : uint64"; "st.state.GetRefund() : uint64"]%string.
Proof. reflexivity. Qed.
Lemma src_ig_nz_overflow_atoms :
  mainchain_tx_pool__IntrinsicGas__if_math_MaxUint64_minus_gas_div_nonZeroGas_lt_nz_atoms
  = ["gas : uint64"; "nonZeroGas : uint64"; "nz : uint64"]%string.
Proof. reflexivity. Qed.
Lemma src_ig_nonempty n : mainchain_tx_pool__IntrinsicGas__if_len_data_gt_0 (Z.of_nat n) = (0 <? Z.of_nat n).
Proof. unfold mainchain_tx_pool__IntrinsicGas__if_len_data_gt_0. apply Z.gtb_ltb. Qed.
Lemma src_ig_nz_byte b : mainchain_tx_pool__IntrinsicGas__if_byt_ne_0 (Z.of_N b) = negb (N.eqb b 0).
Proof. exact (ZofN_neqb b 0). Qed.
Lemma src_ig_z len nz : in_range U64 len -> mainchain_tx_pool__IntrinsicGas__set_z len nz = wrapu64 (wrapu64 len - nz).
Proof. reflexivity. Qed.

(** ** [core]: arithmetic and comparisons of the state transition, as one statement *)
Definition C09_source_tie_core : Prop :=
  (forall n mn, mainchain_blockchain__StateTransition_preCheck__if_nonce_lt_st_msg_Nonce n mn = (n <? mn))
  /\ (forall n mn, mainchain_blockchain__StateTransition_preCheck__if_nonce_gt_st_msg_Nonce n mn = (mn <? n))
  /\ (forall b mg, mainchain_blockchain__StateTransition_buyGas__if_st_state_GetBalance_st_msg_From__Cmp_mgval_lt_0 (cmp_int b mg) = (b <? mg))
  /\ (forall g0 g, mainchain_blockchain__StateTransition_buyGas__set_gas_op g0 g = wrapu64 (g0 + g))
  /\ (forall pool a, in_range U64 pool -> types__GasPool_SubGas__if_uint64_mul_gp_lt_amount pool a = (pool <? a))
  /\ (forall pool a, in_range U64 pool -> in_range U64 a -> a <= pool -> types__GasPool_SubGas__assign_op pool a = pool - a)
  /\ (forall g ig, mainchain_blockchain__StateTransition_TransitionDb__if_st_gas_lt_gas g ig = (g <? ig))
  /\ (forall g ig, mainchain_blockchain__StateTransition_TransitionDb__set_gas_op g ig = wrapu64 (g - ig))
  /\ (forall v can, mainchain_blockchain__StateTransition_TransitionDb__if_msg_Value__Sign_gt_0_and_not_st_vm_CanTransfer_st_state_msg__a8dc9f8a (sign_int v) can = ((0 <? v) && negb can)%bool)
  /\ (forall i g, mainchain_blockchain__StateTransition_gasUsed__ret_st_initialGas_minus_st_gas i g = wrapu64 (i - g))
  /\ (forall u, in_range U64 u -> mainchain_blockchain__StateTransition_refundGas__set_refund u = u / refund_quotient)
  /\ (forall r0 sr, mainchain_blockchain__StateTransition_refundGas__if_refund_gt_st_state_GetRefund r0 sr = (sr <? r0))
  /\ (forall g r, mainchain_blockchain__StateTransition_refundGas__set_gas_op g r = wrapu64 (g + r))
  /\ (forall pool a, in_range U64 pool -> in_range U64 a -> types__GasPool_AddGas__if_uint64_mul_gp_gt_math_MaxUint64_minus_amount pool a = (max_u64 - a <? pool))
  /\ (forall pool a, types__GasPool_AddGas__assign_op pool a = wrapu64 (pool + a))
  /\ (forall gas k nz, in_range U64 gas -> 0 < k -> mainchain_tx_pool__IntrinsicGas__if_math_MaxUint64_minus_gas_div_nonZeroGas_lt_nz gas k nz = ((max_u64 - gas) / k <? nz))
  /\ (forall gas nz k, mainchain_tx_pool__IntrinsicGas__set_gas_op gas nz k = wrapu64 (gas + wrapu64 (nz * k)))
  /\ (forall gas z, in_range U64 gas -> mainchain_tx_pool__IntrinsicGas__if_math_MaxUint64_minus_gas_div_configs_TxDataZeroGas_lt_z gas z = ((max_u64 - gas) / tx_data_zero_gas <? z))
  /\ (forall gas z, mainchain_tx_pool__IntrinsicGas__set_gas_op_2 gas z = wrapu64 (gas + wrapu64 (z * tx_data_zero_gas)))
  /\ (forall x y, in_range U64 x -> in_range U64 y -> lib_math__SafeAdd x y = (wrapu64 (x + y), max_u64 <? x + y))
  /\ (forall x y, in_range U64 x -> in_range U64 y -> lib_math__SafeSub x y = (wrapu64 (x - y), x <? y))
  /\ (forall x y, in_range U64 x -> in_range U64 y -> lib_math__SafeMul x y = (wrapu64 (x * y), max_u64 <? x * y))
  /\ (mainchain_blockchain__StateTransition_buyGas__if_st_state_GetBalance_st_msg_From__Cmp_mgval_lt_0_atoms = ["st.state.GetBalance(st.msg.From()).Cmp(mgval) : int"]%string
      /\ mainchain_blockchain__StateTransition_preCheck__if_nonce_lt_st_msg_Nonce_atoms = ["nonce : uint64"; "st.msg.Nonce() : uint64"]%string
      /\ mainchain_blockchain__StateTransition_TransitionDb__if_st_gas_lt_gas_atoms = ["st.gas : uint64"; "gas : uint64"]%string
      /\ mainchain_blockchain__StateTransition_refundGas__set_refund_atoms = ["st.gasUsed() : uint64"]%string
      /\ mainchain_blockchain__StateTransition_refundGas__if_refund_gt_st_state_GetRefund_atoms = ["refund : uint64"; "st.state.GetRefund() : uint64"]%string
      /\ mainchain_blockchain__StateTransition_gasUsed__ret_st_initialGas_minus_st_gas_atoms = ["st.initialGas : uint64"; "st.gas : uint64"]%string).

Lemma C09_source_tie_core_proof : C09_source_tie_core.
Proof.
  unfold C09_source_tie_core.
  split_all.
  (* preCheck: nonce too high / too low *)
  - reflexivity.
  - exact (fun n mn => Z.gtb_ltb n mn).
  (* buyGas: balance.Cmp(gas*price) < 0, st.gas += gas, pool.SubGas *)
  - intros b mg. unfold cmp_int, Z.ltb. destruct (b ?= mg); reflexivity.
  - reflexivity.
  - intros pool a H. exact (f_equal (fun p => p <? a) (wrap_id U64 pool H)).
  - intros pool a Hp Ha Hle. apply wrap_id. unfold in_range in *. lia.
  (* TransitionDb: intrinsic gas check, value transfer check *)
  - reflexivity.
  - reflexivity.
  - intros v can. unfold sign_int, cmp_int. apply (f_equal (fun b => b && negb can)%bool).
    rewrite Z.gtb_ltb. unfold Z.ltb at 2. rewrite (Z.compare_antisym v 0).
    destruct (v ?= 0); reflexivity.
  (* gasUsed, refundGas *)
  - reflexivity.
  - intros u H. exact (go_quot_u64 u 2 H eq_refl).
  - exact (fun r0 sr => Z.gtb_ltb r0 sr).
  - reflexivity.
  (* GasPool.AddGas *)
  - intros pool a Hp Ha.
    unfold types__GasPool_AddGas__if_uint64_mul_gp_gt_math_MaxUint64_minus_amount, go_conv, go_sub, max_u64, two64.
    rewrite (wrap_id U64 pool) by exact Hp.
    rewrite wrap_id by (unfold in_range in *; lia). apply Z.gtb_ltb.
  - reflexivity.
  (* IntrinsicGas: the two overflow tests and the two additions *)
  - intros gas k nz H Hk.
    unfold mainchain_tx_pool__IntrinsicGas__if_math_MaxUint64_minus_gas_div_nonZeroGas_lt_nz, go_sub.
    rewrite wrap_id, go_quot_u64 by (unfold in_range in *; lia). reflexivity.
  - reflexivity.
  - intros gas z H.
    unfold mainchain_tx_pool__IntrinsicGas__if_math_MaxUint64_minus_gas_div_configs_TxDataZeroGas_lt_z, go_sub.
    rewrite wrap_id, go_quot_u64 by (unfold in_range in *; lia). reflexivity.
  - reflexivity.
  (* lib/math: SafeAdd / SafeSub / SafeMul = exact result mod 2^64 + overflow flag *)
  - intros x y Hx Hy. unfold lib_math__SafeAdd, go_bits_add64, in_range in *. rewrite Z.add_0_r.
    rewrite high_word_flag by lia. reflexivity.
  - intros x y Hx Hy. unfold lib_math__SafeSub, go_bits_sub64, in_range in *. rewrite Z.sub_0_r. f_equal.
    unfold go_neqb. destruct (Z.ltb_spec (x - y) 0); destruct (Z.ltb_spec x y); try reflexivity; lia.
  - intros x y Hx Hy. unfold lib_math__SafeMul, go_bits_mul64, in_range in *.
    rewrite high_word_flag by nia. reflexivity.
  - exact src_funds_atoms.
  - exact (proj1 src_nonce_atoms).
  - reflexivity.
  - reflexivity.
  - exact src_refund_cap_atoms.
  - exact src_gas_used_atoms.
Qed.

(** KVM.create: revert unless the run succeeded within the code size limit *)
Lemma src_create_revert_guard x e :
  kvm__KVM_create__if_maxCodeSizeExceeded_or_err_ne_nil x e = (x || e)%bool
  /\ kvm__KVM_create__if_maxCodeSizeExceeded_and_err_eq_nil x e = (x && e)%bool.
Proof. split; reflexivity. Qed.

(** ** what is compared / stored, not only how (atoms) *)
Lemma src_atoms_ext :
  mainchain_blockchain__StateTransition_buyGas__put_st_initialGas_atoms = ["st.msg.Gas() : uint64"]%string
  /\ mainchain_blockchain__StateTransition_preCheck__let_nonce_atoms = ["st.state.GetNonce(st.msg.From()) : uint64"]%string
  /\ mainchain_blockchain__StateTransition_preCheck__if_st_msg_CheckNonce_atoms = ["st.msg.CheckNonce() : bool"]%string
  /\ mainchain_blockchain__StateTransition_refundGas__let_refund_atoms = ["st.state.GetRefund() : uint64"]%string
  /\ mainchain_blockchain__StateTransition_buyGas__set_gas_op_atoms = ["st.gas : uint64"; "st.msg.Gas() : uint64"]%string
  /\ mainchain_blockchain__StateTransition_TransitionDb__let_isGalaxias_atoms = ["st.vm.ChainConfig().IsGalaxias(&height) : bool"]%string
  /\ mainchain_blockchain__ApplyTransaction__assign_op_atoms = ["*usedGas : uint64"; "result.UsedGas : uint64"]%string
  /\ mainchain_blockchain__ApplyTransaction__put_receipt_GasUsed_atoms = ["result.UsedGas : uint64"]%string
  /\ mainchain_blockchain__BlockOperations_commitBlock__let_gasBefore_atoms = ["gasPool.Gas() : uint64"]%string
  /\ mainchain_blockchain__BlockOperations_commitBlock__let_assign_atoms = ["gasBefore : uint64"]%string
  /\ mainchain_blockchain__BlockOperations_commitBlock__if_err_ne_nil_5_atoms = ["err != nil : untyped bool"]%string
  /\ mainchain_blockchain__proposalBlock_commitTransaction__let_gasBefore_atoms = ["pb.gasPool.Gas() : uint64"]%string
  /\ mainchain_blockchain__proposalBlock_commitTransaction__let_assign_atoms = ["gasBefore : uint64"]%string
  /\ mainchain_blockchain__proposalBlock_commitTransaction__if_err_ne_nil_atoms = ["err != nil : untyped bool"]%string
  /\ mainchain_blockchain__StateProcessor_Process__if_err_ne_nil_atoms = ["err != nil : untyped bool"]%string
  /\ mainchain_blockchain__proposalBlock_commitTransactions__if_pb_gasPool_Gas_lt_configs_TxGas_atoms = ["pb.gasPool.Gas() : uint64"]%string
  /\ mainchain_kvm__CanTransfer__ret_db_GetBalance_addr__Cmp_amount_ge_0_atoms = ["db.GetBalance(addr).Cmp(amount) : int"]%string
  /\ kvm__KVM_Call__if_kvm_depth_gt_int_configs_CallCreateDepth_atoms = ["kvm.depth : int"]%string
  /\ kvm__KVM_Call__if_value_Sign_ne_0_and_not_kvm_BlockContext_CanTransfer_kvm_Sta_a9cbbd5d_atoms
     = ["value.Sign() : int"; "kvm.BlockContext.CanTransfer(kvm.StateDB, caller.Address(), value) : bool"]%string
  /\ kvm__KVM_Call__if_not_kvm_StateDB_Exist_addr_atoms = ["kvm.StateDB.Exist(addr) : bool"]%string
  /\ kvm__KVM_Call__if_not_isPrecompile_and_value_Sign_eq_0_atoms = ["isPrecompile : bool"; "value.Sign() : int"]%string
  /\ kvm__KVM_Call__if_len_code_eq_0_atoms = ["len(code) : int"]%string
  /\ kvm__KVM_Call__if_err_ne_ErrExecutionReverted_atoms = ["err != ErrExecutionReverted : untyped bool"]%string
  /\ kvm__KVM_create__if_not_kvm_CanTransfer_kvm_StateDB_caller_Address_value_atoms = ["kvm.CanTransfer(kvm.StateDB, caller.Address(), value) : bool"]%string
  /\ kvm__KVM_create__let_nonce_atoms = ["kvm.StateDB.GetNonce(caller.Address()) : uint64"]%string
  /\ kvm__KVM_create__if_kvm_StateDB_GetNonce_address_ne_0_or_contractHash_ne_common__1d664e2b_atoms
     = ["kvm.StateDB.GetNonce(address) : uint64"; "contractHash != (common.Hash{}) : untyped bool"; "contractHash != emptyCodeHash : untyped bool"]%string
  /\ kvm__KVM_create__set_maxCodeSizeExceeded_atoms = ["len(ret) : int"]%string
  /\ kvm__KVM_create__set_createDataGas_atoms = ["len(ret) : int"]%string
  /\ kvm__KVM_create__if_contract_UseGas_createDataGas_atoms = ["contract.UseGas(createDataGas) : bool"]%string
  /\ kvm__KVM_create__if_err_eq_nil_and_not_maxCodeSizeExceeded_atoms = ["err == nil : bool"; "maxCodeSizeExceeded : bool"]%string
  /\ kvm__Contract_UseGas__if_c_Gas_lt_gas_atoms = ["c.Gas : uint64"; "gas : uint64"]%string
  /\ kvm__opCall__set_Gas_op_atoms = ["callContext.Contract.Gas : uint64"; "returnGas : uint64"]%string
  /\ kvm__opCreate2__set_Gas_op_atoms = ["callContext.Contract.Gas : uint64"; "returnGas : uint64"]%string
  /\ kvm__opCreate__set_gas_op_atoms = ["gas : uint64"]%string.
Proof. split_all; reflexivity. Qed.

(** ** [ext]: the other anchored functions: ApplyTransaction, Process, commitBlock's loop, the proposal
    builder, KVM.Call / CallCode / DelegateCall / StaticCall / create, Contract.UseGas, the
    call-family instructions, CanTransfer *)
Definition C09_source_tie_ext : Prop :=
  (forall g, mainchain_blockchain__StateTransition_buyGas__put_st_initialGas g = g)
  /\ (forall n, mainchain_blockchain__StateTransition_preCheck__let_nonce n = n)
  /\ (forall used sr, in_range U64 used ->
        (let refund := mainchain_blockchain__StateTransition_refundGas__set_refund used in
         if mainchain_blockchain__StateTransition_refundGas__if_refund_gt_st_state_GetRefund refund sr
         then mainchain_blockchain__StateTransition_refundGas__let_refund sr else refund)
        = (let refund0 := used / refund_quotient in if sr <? refund0 then sr else refund0))
  /\ (forall cum used, mainchain_blockchain__ApplyTransaction__assign_op cum used = wrapu64 (cum + used))
  /\ (forall u, mainchain_blockchain__ApplyTransaction__put_receipt_GasUsed u = u)
  /\ (forall W run ca e b m er sx px, b_panic b = false -> in_range U64 (b_pool b) ->
        apply_transaction W run ca e (b_state b) (b_pool b) m = Rejected er sx px ->
        b_pool (commit_step W run ca e b m)
          = mainchain_blockchain__BlockOperations_commitBlock__let_assign
              (mainchain_blockchain__BlockOperations_commitBlock__let_gasBefore (b_pool b))
        /\ b_pool (propose_step W run ca e b m)
          = mainchain_blockchain__proposalBlock_commitTransaction__let_assign
              (mainchain_blockchain__proposalBlock_commitTransaction__let_gasBefore (b_pool b)))
  /\ (forall pool, in_range U64 pool ->
        mainchain_blockchain__BlockOperations_commitBlock__let_assign
          (mainchain_blockchain__BlockOperations_commitBlock__let_gasBefore pool) = pool)
  /\ (forall pool, in_range U64 pool ->
        mainchain_blockchain__proposalBlock_commitTransaction__let_assign
          (mainchain_blockchain__proposalBlock_commitTransaction__let_gasBefore pool) = pool)
  /\ (forall x, mainchain_blockchain__BlockOperations_commitBlock__if_err_ne_nil_5 x = x
                /\ mainchain_blockchain__proposalBlock_commitTransaction__if_err_ne_nil x = x
                /\ mainchain_blockchain__StateProcessor_Process__if_err_ne_nil x = x
                /\ mainchain_blockchain__ApplyTransaction__if_err_ne_nil x = x
                /\ mainchain_blockchain__ApplyTransaction__if_err_ne_nil_2 x = x
                /\ mainchain_blockchain__StateTransition_buyGas__if_err_ne_nil x = x
                /\ mainchain_blockchain__StateTransition_TransitionDb__if_err_ne_nil x = x
                /\ mainchain_blockchain__StateTransition_TransitionDb__if_err_ne_nil_2 x = x
                /\ mainchain_blockchain__StateTransition_preCheck__if_st_msg_CheckNonce x = x
                /\ mainchain_blockchain__StateTransition_TransitionDb__if_contractCreation x = x)
  /\ (forall set g h, mainchain_blockchain__BlockOperations_commitBlock__if_bo_blockchain_chainConfig_GalaxiasBlock_ne_nil_and_mul_bo_bl_57c3e730 set g h = (set && (g =? h))%bool)
  /\ (forall pool, mainchain_blockchain__proposalBlock_commitTransactions__if_pb_gasPool_Gas_lt_configs_TxGas pool = (pool <? tx_gas)
                   /\ mainchain_blockchain__proposalBlock_commitTransactions__if_pb_gasPool_Gas_lt_configs_TxGas_2 pool = (pool <? tx_gas))
  /\ (mainchain_tx_pool__IntrinsicGas__let_gas = tx_gas_contract_creation /\ tx_gas_contract_creation = 53000
      /\ mainchain_tx_pool__IntrinsicGas__let_gas_2 = tx_gas /\ tx_gas = 21000
      /\ mainchain_tx_pool__IntrinsicGas__let_gas_3 = tx_gas_legacy /\ tx_gas_legacy = 29000
      /\ mainchain_tx_pool__IntrinsicGas__let_nonZeroGas = tx_data_non_zero_gas /\ tx_data_non_zero_gas = 68
      /\ tx_data_zero_gas = 4 /\ create_data_gas = 200 /\ max_code_size = 39231 /\ call_create_depth = 1024
      /\ refund_quotient = 2)
  /\ (forall s a v, mainchain_kvm__CanTransfer__ret_db_GetBalance_addr__Cmp_amount_ge_0 (cmp_int (bal s a) v) = can_transfer s a v)
  /\ (forall d, kvm__KVM_Call__if_kvm_depth_gt_int_configs_CallCreateDepth d = (call_create_depth <? d))
  /\ (forall nr, kvm__KVM_Call__if_kvm_depth_gt_int_configs_CallCreateDepth 0 = false
                 /\ kvm__KVM_create__if_kvm_depth_gt_int_configs_CallCreateDepth 0 = false
                 /\ kvm__KVM_Call__if_kvm_vmConfig_NoRecursion_and_kvm_depth_gt_0 nr 0 = false
                 /\ kvm__KVM_create__if_kvm_vmConfig_NoRecursion_and_kvm_depth_gt_0 nr 0 = false)
  /\ (forall d, kvm__KVM_CallCode__if_kvm_depth_gt_int_configs_CallCreateDepth d = kvm__KVM_Call__if_kvm_depth_gt_int_configs_CallCreateDepth d
                /\ kvm__KVM_DelegateCall__if_kvm_depth_gt_int_configs_CallCreateDepth d = kvm__KVM_Call__if_kvm_depth_gt_int_configs_CallCreateDepth d
                /\ kvm__KVM_StaticCall__if_kvm_depth_gt_int_configs_CallCreateDepth d = kvm__KVM_Call__if_kvm_depth_gt_int_configs_CallCreateDepth d
                /\ kvm__KVM_create__if_kvm_depth_gt_int_configs_CallCreateDepth d = kvm__KVM_Call__if_kvm_depth_gt_int_configs_CallCreateDepth d)
  /\ (forall s caller v,
        kvm__KVM_Call__if_value_Sign_ne_0_and_not_kvm_BlockContext_CanTransfer_kvm_Sta_a9cbbd5d (sign_int v) (can_transfer s caller v)
        = (negb (v =? 0) && negb (can_transfer s caller v))%bool)
  /\ (forall ex pre v, kvm__KVM_Call__if_not_kvm_StateDB_Exist_addr ex = negb ex
        /\ kvm__KVM_Call__if_not_isPrecompile_and_value_Sign_eq_0 pre (sign_int v) = (negb pre && (v =? 0))%bool)
  /\ (forall code : list N, kvm__KVM_Call__if_len_code_eq_0 (Z.of_nat (List.length code)) = match code with [] => true | _ => false end)
  /\ (kvm__KVM_Call__let_gas = 0 /\ kvm__KVM_CallCode__let_gas = 0 /\ kvm__KVM_DelegateCall__let_gas = 0 /\ kvm__KVM_StaticCall__let_gas = 0)
  /\ (forall x, kvm__KVM_Call__if_err_ne_nil x = x /\ kvm__KVM_Call__if_err_ne_ErrExecutionReverted x = x
        /\ kvm__KVM_CallCode__if_err_ne_nil x = x /\ kvm__KVM_CallCode__if_err_ne_ErrExecutionReverted x = x
        /\ kvm__KVM_DelegateCall__if_err_ne_nil x = x /\ kvm__KVM_DelegateCall__if_err_ne_ErrExecutionReverted x = x
        /\ kvm__KVM_StaticCall__if_err_ne_nil x = x /\ kvm__KVM_StaticCall__if_err_ne_ErrExecutionReverted x = x
        /\ kvm__KVM_create__if_err_ne_ErrExecutionReverted x = x /\ kvm__KVM_Call__if_isPrecompile x = x
        /\ kvm__KVM_create__if_contract_UseGas_createDataGas x = x)
  /\ (forall can, kvm__KVM_CallCode__if_not_kvm_CanTransfer_kvm_StateDB_caller_Address_value can = negb can)
  /\ (forall s caller v, kvm__KVM_create__if_not_kvm_CanTransfer_kvm_StateDB_caller_Address_value (can_transfer s caller v) = negb (can_transfer s caller v))
  /\ (forall s caller, cr_s0 wrapu64 s caller
        = set_nonce s caller (kvm__KVM_create__arg_nonce_plus_1 (kvm__KVM_create__let_nonce (nonce s caller))))
  /\ (forall s address,
        kvm__KVM_create__if_kvm_StateDB_GetNonce_address_ne_0_or_contractHash_ne_common__1d664e2b
          (nonce s address) (negb (N.eqb (code s address) 0)) (negb (N.eqb (code s address) 0))
        = (negb (nonce s address =? 0) || negb (N.eqb (code s address) 0))%bool)
  /\ (forall (err err1 : vm_err) (retlen g : Z), in_range U64 retlen ->
        let exceeded := max_code_size <? retlen in
        (vm_err_eqb err VOk && negb exceeded)%bool
          = kvm__KVM_create__if_err_eq_nil_and_not_maxCodeSizeExceeded (vm_err_eqb err VOk) (kvm__KVM_create__set_maxCodeSizeExceeded retlen)
        /\ (wrapu64 (retlen * create_data_gas) <=? g)
          = negb (kvm__Contract_UseGas__if_c_Gas_lt_gas g (kvm__KVM_create__set_createDataGas retlen))
        /\ (exceeded || negb (vm_err_eqb err1 VOk))%bool
          = kvm__KVM_create__if_maxCodeSizeExceeded_or_err_ne_nil (kvm__KVM_create__set_maxCodeSizeExceeded retlen) (negb (vm_err_eqb err1 VOk))
        /\ (exceeded && vm_err_eqb err1 VOk)%bool
          = kvm__KVM_create__if_maxCodeSizeExceeded_and_err_eq_nil (kvm__KVM_create__set_maxCodeSizeExceeded retlen) (vm_err_eqb err1 VOk))
  /\ (forall g c, in_range U64 g -> 0 <= c <= g -> kvm__Contract_UseGas__set_Gas_op g c = g - c)
  /\ (forall g r, kvm__opCall__set_gas_op g = wrapu64 (g + 2300) /\ kvm__opCallCode__set_gas_op g = wrapu64 (g + 2300)
        /\ kvm__opCall__set_Gas_op g r = wrapu64 (g + r) /\ kvm__opCallCode__set_Gas_op g r = wrapu64 (g + r)
        /\ kvm__opDelegateCall__set_Gas_op g r = wrapu64 (g + r) /\ kvm__opStaticCall__set_Gas_op g r = wrapu64 (g + r)
        /\ kvm__opCreate__set_Gas_op g r = wrapu64 (g + r) /\ kvm__opCreate2__set_Gas_op g r = wrapu64 (g + r))
  /\ (forall g, in_range U64 g -> kvm__opCreate__set_gas_op g = g - g / 64 /\ 0 <= g - g / 64 <= g).

(** address collision: nonce != 0 || (hash != {} && hash != emptyCodeHash) *)
Lemma src_create_collision n h1 h2 :
  kvm__KVM_create__if_kvm_StateDB_GetNonce_address_ne_0_or_contractHash_ne_common__1d664e2b n h1 h2
  = (negb (n =? 0) || (h1 && h2))%bool.
Proof. reflexivity. Qed.

(** [value.Sign()] against 0 *)
Lemma sign_int_eqb v : (sign_int v =? 0) = (v =? 0).
Proof.
  unfold sign_int, cmp_int. destruct (Z.eqb_spec v 0) as [->|Hne]; [reflexivity|].
  destruct (v ?= 0) eqn:Hc; try reflexivity. apply Z.compare_eq in Hc. contradiction.
Qed.

Lemma C09_source_tie_ext_proof : C09_source_tie_ext.
Proof.
  unfold C09_source_tie_ext.
  split_all.
  (* state transition: what is stored / re-read *)
  - reflexivity.
  - reflexivity.
  (* refundGas as a whole: [refund := gasUsed()/2; if refund > GetRefund() { refund = GetRefund() }]
     is the model's capped refund *)
  - intros used sr H. cbn zeta.
    unfold mainchain_blockchain__StateTransition_refundGas__set_refund.
    rewrite (go_quot_u64 used 2 H eq_refl).
    unfold mainchain_blockchain__StateTransition_refundGas__if_refund_gt_st_state_GetRefund.
    rewrite Z.gtb_ltb. reflexivity.
  (* ApplyTransaction: *usedGas += result.UsedGas; receipt.GasUsed = result.UsedGas *)
  - reflexivity.
  - reflexivity.
  (* the three loops over ApplyTransaction.  commitBlock and the proposal builder: the pool after a
     rejected transaction is the pool read before ApplyTransaction, which is what [commit_step] /
     [propose_step] do with the pool *)
  - intros W run ca e b m er sx px Hp Hr H. unfold commit_step, propose_step. rewrite Hp, H.
    split; symmetry; exact (wrap_id U64 _ Hr).
  - intros pool H. exact (wrap_id U64 pool H).
  - intros pool H. exact (wrap_id U64 pool H).
  (* the error tests of the loops are the bare [err != nil] (a negated or different test renames
     or redefines these) *)
  - repeat split; reflexivity.
  (* the hard-fork branch of commitBlock is taken exactly at the Galaxias height *)
  - reflexivity.
  (* the proposal builder stops when less than TxGas is left in the pool *)
  - split; reflexivity.
  (* the protocol constants as the type checker evaluated them in the translated expressions
     (a changed constant re-opens these) *)
  - repeat split; reflexivity.
  (* mainchain/kvm.CanTransfer *)
  - intros s a v. unfold can_transfer, cmp_int, Z.ltb. destruct (bal s a ?= v); reflexivity.
  (* KVM.Call: the depth test; at depth 0 (where the model's [call] / [create] run) neither the
     depth limit nor NoRecursion can fire, whatever the configuration; the four other entry
     points have the very same depth test *)
  - exact (fun d => Z.gtb_ltb d call_create_depth).
  - intros nr. repeat split; try reflexivity; destruct nr; reflexivity.
  - repeat split; reflexivity.
  (* [value.Sign() != 0 && !CanTransfer(...)] is the model's first test of [call] *)
  - intros s caller v.
    unfold kvm__KVM_Call__if_value_Sign_ne_0_and_not_kvm_BlockContext_CanTransfer_kvm_Sta_a9cbbd5d, go_neqb.
    rewrite sign_int_eqb. reflexivity.
  (* calling an account that does not exist, is not a precompile, with no value: nothing happens *)
  - intros ex pre v. split; [reflexivity|].
    unfold kvm__KVM_Call__if_not_isPrecompile_and_value_Sign_eq_0. rewrite sign_int_eqb. reflexivity.
  (* code of length 0 is not run *)
  - intros code. destruct code; reflexivity.
  (* on an error other than ErrExecutionReverted the gas is set to the constant 0, in all four call
     entry points *)
  - repeat split; reflexivity.
  - repeat split; reflexivity.
  - reflexivity.
  (* KVM.create: balance test, the nonce bump of the creator ([cr_s0]) *)
  - reflexivity.
  - reflexivity.
  (* the model's code identity 0 stands for "no code hash or the hash of the empty code" *)
  - intros s address. rewrite src_create_collision. destruct (N.eqb (code s address) 0); reflexivity.
  (* the decisions of [create] after the interpreter returned, on the model's own terms.
     Contract.UseGas refuses when the gas left is below the charge: the model's [cdg <=? g] is the
     negation *)
  - intros err err1 retlen g H. cbn zeta.
    assert (Hmax : kvm__KVM_create__set_maxCodeSizeExceeded retlen = (max_code_size <? retlen))
      by apply Z.gtb_ltb.
    rewrite Hmax. split; [reflexivity|]. split; [|split; reflexivity].
    unfold kvm__KVM_create__set_createDataGas, go_mul, go_conv. rewrite (wrap_id U64 retlen H).
    exact (Z.leb_antisym g _).
  - intros g c Hg Hc. apply wrap_id. unfold in_range in *. lia.
  (* the call-family instructions (inside the interpreter, i.e. inside [run]): the stipend, the
     gas handed back to the caller, "all but one 64th" for CREATE *)
  - repeat split; reflexivity.
  - intros g H. unfold kvm__opCreate__set_gas_op, go_sub. rewrite (go_quot_u64 g 64 H eq_refl).
    unfold in_range in H.
    assert (Hq : 0 <= g / 64 <= g) by (split; [apply Z.div_pos; lia|apply Z.div_le_upper_bound; lia]).
    rewrite wrap_id by (unfold in_range; lia). lia.
Qed.

(** ** the whole tie as one statement (quoted by Properties.v) *)
Definition C09_source_tie_statement : Prop :=
  C09_source_tie_core /\ C09_source_tie_ext
  /\ (mainchain_blockchain__StateTransition_buyGas__put_st_initialGas_atoms = ["st.msg.Gas() : uint64"]%string
      /\ mainchain_blockchain__BlockOperations_commitBlock__let_gasBefore_atoms = ["gasPool.Gas() : uint64"]%string
      /\ mainchain_blockchain__proposalBlock_commitTransaction__let_gasBefore_atoms = ["pb.gasPool.Gas() : uint64"]%string
      /\ kvm__KVM_create__set_maxCodeSizeExceeded_atoms = ["len(ret) : int"]%string
      /\ kvm__Contract_UseGas__if_c_Gas_lt_gas_atoms = ["c.Gas : uint64"; "gas : uint64"]%string
      /\ mainchain_kvm__CanTransfer__ret_db_GetBalance_addr__Cmp_amount_ge_0_atoms = ["db.GetBalance(addr).Cmp(amount) : int"]%string).

Lemma C09_source_tie_proof : C09_source_tie_statement.
Proof.
  split; [exact C09_source_tie_core_proof|]. split; [exact C09_source_tie_ext_proof|].
  pose proof src_atoms_ext as H. repeat split; apply H.
Qed.
