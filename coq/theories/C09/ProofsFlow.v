(** C09 — (1) The success path account by account: after an executed transaction whose execution
        succeeded, every account that did not self-destruct holds what it held before, minus
        value + used*price for the sender, plus the value for the recipient / created contract,
        plus used*price for the proposer, plus what the interpreter's own writes moved to or from
        it — and those writes sum to minus the self-destruct burn.
    (2) The hypothesis [Closed U run] of the conservation theorems is no restriction: any interpreter
        can be restricted to a universe [U] (a run that writes outside [U] is reported as failed);
        the restriction keeps the contract [ExecOK], is closed by construction, and is the
        interpreter itself on every run that stays inside [U].
    (3) The early exit of the proposal builder skips only transactions that would be rejected. *)
From Coq Require Import List ZArith NArith Bool Lia.
From Kardia Require Import Base.Int64 C09.Model C09.ProofsBase C09.ProofsVM C09.ProofsTx C09.ProofsExtra Generated.C09Facts.
Import ListNotations.
Local Open Scope Z_scope.

Definition dbal_of (ws : list write) (a : N) : Z :=
  fold_right (fun w acc => (if N.eqb a (w_addr w) then w_dbal w else 0) + acc) 0 ws.

Lemma bal_fold_writes ws : forall s a, bal (fold_left apply_write ws s) a = bal s a + dbal_of ws a.
Proof.
  induction ws as [|w ws IH]; intros s a; cbn [fold_left dbal_of fold_right]; [lia|].
  fold (dbal_of ws a). rewrite IH, bal_apply_write. lia.
Qed.

Lemma bal_apply_writes s o a : bal (apply_writes s o) a = bal s a + dbal_of (ro_writes o) a.
Proof. unfold apply_writes. unfold bal at 1, get at 1. cbn [st_acc]. apply (bal_fold_writes (ro_writes o) s a). Qed.

Definition dbal_total (ws : list write) (U : list N) : Z := fold_right (fun a acc => dbal_of ws a + acc) 0 U.

Lemma dbal_of_cons w ws a : dbal_of (w :: ws) a = (if N.eqb a (w_addr w) then w_dbal w else 0) + dbal_of ws a.
Proof. reflexivity. Qed.
Lemma dbal_total_cons ws a U : dbal_total ws (a :: U) = dbal_of ws a + dbal_total ws U.
Proof. reflexivity. Qed.

Lemma dbal_total_notin w ws U : ~ In (w_addr w) U -> dbal_total (w :: ws) U = dbal_total ws U.
Proof.
  induction U as [|a U IH]; intros Hn; [reflexivity|].
  rewrite !dbal_total_cons, dbal_of_cons, IH by (intros Hc; apply Hn; right; exact Hc).
  destruct (N.eqb_spec a (w_addr w)) as [->|]; [exfalso; apply Hn; left; reflexivity|lia].
Qed.

Lemma dbal_total_in w ws U : NoDup U -> In (w_addr w) U -> dbal_total (w :: ws) U = w_dbal w + dbal_total ws U.
Proof.
  induction U as [|a U IH]; intros Hnd Hin; [destruct Hin|].
  inversion Hnd as [|? ? Hna Hnd']; subst. rewrite !dbal_total_cons, dbal_of_cons.
  destruct (N.eqb_spec a (w_addr w)) as [Heq|Hne].
  - subst a. rewrite dbal_total_notin by exact Hna. lia.
  - destruct Hin as [Hin|Hin]; [congruence|]. rewrite (IH Hnd' Hin). lia.
Qed.

(** summed over a duplicate-free universe that contains every written account, the per-account
    moves are the total move *)
Lemma dbal_of_total U ws : NoDup U -> (forall w, In w ws -> In (w_addr w) U) -> dbal_total ws U = sum_dbal ws.
Proof.
  intros Hnd. induction ws as [|w ws IH]; intros Hin.
  - clear. induction U as [|a U IHU]; [reflexivity|]. rewrite dbal_total_cons, IHU. reflexivity.
  - change (sum_dbal (w :: ws)) with (w_dbal w + sum_dbal ws).
    rewrite dbal_total_in by (try assumption; apply Hin; left; reflexivity).
    rewrite IH by (intros; apply Hin; right; assumption). reflexivity.
Qed.

Section Flow.
Variable run : state -> call_input -> run_output.
Variable ca : N -> Z -> N.
Hypothesis OK : ExecOK run.

(** the VM phase when it succeeds: the value moves from the sender to the target, then the
    interpreter's writes [ws] apply ([] when no code ran) *)
Lemma vm_phase_ok s1 m gas1 s2 gas2 burn :
  vm_phase wrapu64 run ca s1 m gas1 = (s2, gas2, VOk, burn) ->
  exists ws,
    (forall U, Closed U run -> forall w, In w ws -> In (w_addr w) U) /\
    sum_dbal ws = - burn /\
    forall a, bal s2 a = bal s1 a - (if N.eqb a (m_from m) then m_value m else 0)
                                  + (if N.eqb a (target ca s1 m) then m_value m else 0)
                                  + dbal_of ws a.
Proof.
  unfold vm_phase, target. destruct (m_to m) as [to|]; intros H.
  - cbn zeta in H. apply (call_cases run) in H. cbn zeta in H.
    destruct H as [(_ & _ & _ & He & _)|[(_ & _ & -> & _ & _ & ->)|[(_ & _ & He & -> & _ & _ & ->)|(_ & _ & _ & Hne & _)]]];
      try congruence.
    + exists []. split; [intros U _ w []|]. split; [reflexivity|].
      intros a. rewrite bal_transfer, bal_set_nonce. cbn [dbal_of fold_right]. lia.
    + eexists. split; [|split; [exact (ok_moves run OK _ _ He)|]].
      * intros U Hcl w Hw. exact (Hcl _ _ w Hw).
      * intros a. rewrite bal_apply_writes, bal_transfer, bal_set_nonce. lia.
  - apply (create_cases run wrapu64) in H. cbn zeta in H.
    destruct H as [(_ & _ & _ & He & _)|[(_ & _ & He & _ & _ & -> & _ & _ & ->)|(_ & _ & _ & Hne & _)]];
      try congruence.
    eexists. split; [|split; [exact (ok_moves run OK _ _ He)|]].
    + intros U Hcl w Hw. exact (Hcl _ _ w Hw).
    + intros a. rewrite bal_set_code, bal_apply_writes. unfold cr_s3, cr_s0.
      rewrite bal_transfer, bal_set_nonce, bal_create_account, bal_set_nonce. lia.
Qed.

(** an executed transaction whose execution succeeded, account by account: [ws] are the
    interpreter's writes ([] if no code ran), [dead] the accounts that self-destructed *)
Lemma executed_ok_flow e s pool m s' pool' r :
  wf_msg m -> 0 <= pool < two64 -> st_refund s = 0 -> st_dead s = [] ->
  apply_transaction wrapu64 run ca e s pool m = Executed s' pool' r ->
  x_vmerr r = VOk ->
  exists ws dead,
    (forall U, Closed U run -> (forall w, In w ws -> In (w_addr w) U) /\ (forall a, In a dead -> In a U)) /\
    0 <= - sum_dbal ws /\ ~ In (m_from m) dead /\
    (forall a, ~ In a dead ->
       bal s' a = bal s a
                  - (if N.eqb a (m_from m) then m_value m + x_used r * m_price m else 0)
                  + (if N.eqb a (target ca s m) then m_value m else 0)
                  + (if N.eqb a (e_coinbase e) then x_used r * m_price m else 0)
                  + dbal_of ws a) /\
    (forall a, In a dead -> get s' a = empty_account).
Proof.
  intros Hm Hpool Hrefund Hdead Hex Hok.
  destruct (tx_inv run ca OK e s pool m s' pool' r Hm Hpool ltac:(rewrite Hrefund; lia) Hex)
    as (ig & s2 & gas2 & vmerr & burn & X).
  assert (Hve : vmerr = VOk) by (rewrite (ex_receipt X) in Hok; exact Hok). subst vmerr.
  assert (Hdead1 : st_dead (bought s m) = []) by exact Hdead.
  destruct (vm_phase_ok _ _ _ _ _ _ (ex_vm X)) as (ws & Hcl & Hsum & Hb2).
  exists ws, (st_dead s2). split; [|split; [|split; [|split]]].
  - intros U HU. split; [exact (Hcl U HU)|].
    apply (vo_dead (ex_vm_ok X) U HU). intros a Ha. rewrite Hdead1 in Ha. destruct Ha.
  - pose proof (vo_burn (ex_vm_ok X)). lia.
  - apply (vo_alive (ex_vm_ok X)). rewrite Hdead1. intros [].
  - intros a Ha. rewrite (ex_state X), (ex_receipt X), bal_paid_alive by exact Ha. cbn [x_used].
    rewrite Hb2. unfold bought. rewrite target_sub_bal, bal_sub_bal.
    destruct (N.eqb a (m_from m)); lia.
  - intros a Ha. rewrite (ex_state X). apply get_paid_dead. exact Ha.
Qed.

End Flow.

Definition failed_run : run_output :=
  {| ro_err := VFail; ro_gas := 0; ro_retlen := 0; ro_retcode := 0%N; ro_refund := 0; ro_burn := 0;
     ro_writes := [] |}.

Definition inside (U : list N) (o : run_output) : bool :=
  forallb (fun w => existsb (N.eqb (w_addr w)) U) (ro_writes o).

(** [restrict U run] is [run], except that a run writing to an account outside [U] is reported
    as a failed run (which Call / create treat like any other failure: revert, no gas left) *)
Definition restrict (U : list N) (run : state -> call_input -> run_output) (s : state) (ci : call_input)
  : run_output :=
  if inside U (run s ci) then run s ci else failed_run.

Lemma inside_spec U o : inside U o = true <-> forall w, In w (ro_writes o) -> In (w_addr w) U.
Proof.
  unfold inside. rewrite forallb_forall. split; intros H w Hw.
  - specialize (H w Hw). apply existsb_exists in H. destruct H as (a & Ha & He).
    apply N.eqb_eq in He. subst a. exact Ha.
  - apply existsb_exists. exists (w_addr w). split; [apply H; exact Hw|apply N.eqb_refl].
Qed.

Lemma restrict_closed U run : Closed U (restrict U run).
Proof.
  intros s ci w Hw. unfold restrict in Hw. destruct (inside U (run s ci)) eqn:Hi.
  - apply (proj1 (inside_spec U _) Hi w Hw).
  - destruct Hw.
Qed.

Lemma restrict_exec_ok U run : ExecOK run -> ExecOK (restrict U run).
Proof.
  intros OK. constructor; intros s ci; unfold restrict; destruct (inside U (run s ci)); cbn [failed_run ro_gas ro_burn ro_err ro_refund ro_retlen ro_writes];
    try (intros; lia); try (intros; discriminate); try (intros w []).
  - apply (ok_gas run OK).
  - apply (ok_burn run OK).
  - apply (ok_moves run OK).
  - apply (ok_refund run OK).
  - apply (ok_retlen run OK).
  - apply (ok_origin run OK).
Qed.

Lemma restrict_same U run s ci :
  (forall w, In w (ro_writes (run s ci)) -> In (w_addr w) U) -> restrict U run s ci = run s ci.
Proof. intros H. unfold restrict. rewrite (proj2 (inside_spec U _) H). reflexivity. Qed.

Section Brk.
Variable run : state -> call_input -> run_output.
Variable ca : N -> Z -> N.

(** with less than TxGas in the pool no transaction can be executed *)
Lemma rejected_when_pool_low e s pool m :
  0 <= m_gas m < two64 -> pool < tx_gas ->
  exists er sx px, apply_transaction wrapu64 run ca e s pool m = Rejected er sx px.
Proof.
  intros Hg Hp. rewrite apply_transaction_stages.
  pose proof (precheck_spec wrapu64 e s pool m) as P.
  destruct (precheck wrapu64 e s pool m) as [er|ig]; [destruct er; eauto|].
  destruct P as [_ _ _ Pp Pig Pg _]. apply intrinsic_ge_tx_gas in Pig.
  rewrite wrapu64_id in Pg by lia. lia.
Qed.

Lemma propose_step_rejected e b m er sx px :
  apply_transaction wrapu64 run ca e (b_state b) (b_pool b) m = Rejected er sx px ->
  propose_step wrapu64 run ca e b m = b.
Proof.
  intros H. rewrite propose_step_eq. exact (commit_step_rejected run ca _ _ _ _ _ _ _ H).
Qed.

(** the early exit of the proposal builder ("not enough gas for further transactions") changes
    nothing: the transactions it skips would all have been rejected *)
Lemma propose_loop_eq e txs : forall b,
  (forall m, In m txs -> 0 <= m_gas m < two64) ->
  propose_loop wrapu64 run ca e b txs = propose_txs wrapu64 run ca e b txs.
Proof.
  induction txs as [|m txs IH]; intros b Hall; [reflexivity|].
  cbn [propose_loop]. unfold propose_txs. cbn [fold_left]. fold (propose_txs wrapu64 run ca e).
  destruct (b_pool b <? tx_gas) eqn:Hp.
  - apply Z.ltb_lt in Hp.
    (* everything from here on is rejected *)
    assert (Hstay : forall l, (forall m, In m l -> 0 <= m_gas m < two64) -> propose_txs wrapu64 run ca e b l = b).
    { induction l as [|x l IHl]; intros Hl; [reflexivity|].
      unfold propose_txs. cbn [fold_left]. fold (propose_txs wrapu64 run ca e).
      destruct (rejected_when_pool_low e (b_state b) (b_pool b) x (Hl x (or_introl eq_refl)) Hp) as (er & sx & px & Hr).
      rewrite (propose_step_rejected e b x er sx px Hr). apply IHl. intros y Hy. apply Hl. right. exact Hy. }
    symmetry. apply (Hstay (m :: txs)). exact Hall.
  - apply IH. intros y Hy. apply Hall. right. exact Hy.
Qed.
End Brk.
