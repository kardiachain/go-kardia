(** C09 — one transaction (ApplyTransaction as the code computes it, uint64 wraps included)
    and the block loop.  ApplyTransaction is read in the three stages the Go code has (the
    checks up to the balance test of TransitionDb, Call / Create, refundGas to Finalise); the
    inversion of an executed transaction into exact equations is put together from them, then
    conservation, gas bounds, pool, nonce, neutrality of rejected transactions. *)
From Coq Require Import List ZArith NArith Bool Lia.
From Kardia Require Import Base.Int64 C09.Model C09.ProofsBase C09.ProofsVM Generated.C09Facts.
Import ListNotations.
Local Open Scope Z_scope.
(* [lia] has to see through [/ refund_quotient], the divisions of IntrinsicGas and [mod two64]; the
   setting reaches every file that imports this one *)
Ltac Zify.zify_post_hook ::= Z.div_mod_to_equations.

(** side conditions on the source-derived constants, checked by computation on the values of
    Generated/C09Facts.v *)
Lemma facts_nonneg :
  0 <= tx_gas /\ 0 <= tx_gas_legacy /\ 0 <= tx_gas_contract_creation /\
  0 < tx_data_zero_gas /\ 0 < tx_data_non_zero_gas /\ 0 <= create_data_gas /\ 0 <= max_code_size.
Proof. vm_compute. repeat split; discriminate. Qed.

Lemma refund_quotient_is_2 : refund_quotient = 2.
Proof. reflexivity. Qed.

Lemma wrapu64_nonneg z : 0 <= wrapu64 z.
Proof. unfold wrapu64, two64. pose proof (Z.mod_pos_bound z 18446744073709551616 ltac:(lia)). lia. Qed.

(** well-formed inputs: the ranges the Go types give, plus "the nonce is not the last uint64" *)
Record wf_msg (m : msg) : Prop := {
  wf_gas : 0 <= m_gas m < two64;
  wf_nonce : 0 <= m_nonce m < two64 - 1;
  wf_price : 0 <= m_price m;
  wf_value : 0 <= m_value m }.

Definition creation (m : msg) : bool := match m_to m with None => true | Some _ => false end.

(** the account that receives the value at depth 0 *)
Definition target (ca : N -> Z -> N) (s : state) (m : msg) : N :=
  match m_to m with Some t => t | None => ca (m_from m) (nonce s (m_from m)) end.

Lemma target_sub_bal ca s a v m : target ca (sub_bal s a v) m = target ca s m.
Proof. unfold target. now rewrite nonce_sub_bal. Qed.

Lemma count_nz_nonneg data : 0 <= count_nz wrapu64 data.
Proof.
  unfold count_nz. assert (H : forall acc, 0 <= acc ->
    0 <= fold_left (fun acc b => if N.eqb b 0 then acc else wrapu64 (acc + 1)) data acc).
  { induction data as [|b data IH]; intros acc Ha; cbn [fold_left]; [exact Ha|].
    apply IH. destruct (N.eqb b 0); [exact Ha|apply wrapu64_nonneg]. }
  apply H. lia.
Qed.

(** the overflow test of IntrinsicGas, [(MaxUint64 - g) / k < n], passed: [g + n * k] does not wrap *)
Lemma headroom_no_wrap g k n :
  0 <= g < two64 -> 0 < k -> 0 <= n -> ((max_u64 - g) / k <? n) = false ->
  wrapu64 (g + wrapu64 (n * k)) = g + n * k /\ g + n * k < two64.
Proof.
  intros Hg Hk Hn H. apply Z.ltb_ge in H. unfold max_u64 in H.
  pose proof (Z.mul_div_le (two64 - 1 - g) k Hk).
  assert (Hnk : 0 <= n * k <= two64 - 1 - g) by nia.
  rewrite (wrapu64_id (n * k)), wrapu64_id by lia. lia.
Qed.

(** the intrinsic gas of any transaction is at least TxGas (no wrap-around gets below it: the
    overflow checks of IntrinsicGas see to that) *)
Lemma intrinsic_ge_tx_gas d c l ig : intrinsic_gas wrapu64 d c l = Some ig -> tx_gas <= ig.
Proof.
  unfold intrinsic_gas. destruct facts_nonneg as (Htg & _ & _ & Hzg & Hnzg & _).
  set (gas := if c then tx_gas_contract_creation else if l then tx_gas_legacy else tx_gas).
  assert (Hg : tx_gas <= gas < two64).
  { unfold gas, tx_gas, tx_gas_legacy, tx_gas_contract_creation, two64. destruct c; [lia|]. destruct l; lia. }
  clearbody gas.
  destruct (0 <? Z.of_nat (length d)); [|intros [= <-]; exact (proj1 Hg)].
  pose proof (count_nz_nonneg d) as Hnz.
  destruct (_ <? count_nz wrapu64 d) eqn:G1; [discriminate|].
  destruct (headroom_no_wrap gas _ _ ltac:(lia) Hnzg Hnz G1) as [-> B1].
  destruct (_ <? wrapu64 _) eqn:G2; [discriminate|].
  destruct (headroom_no_wrap (gas + count_nz wrapu64 d * tx_data_non_zero_gas) _ _ ltac:(nia) Hzg
              (wrapu64_nonneg _) G2) as [-> _].
  intros [= <-]. pose proof (wrapu64_nonneg (wrapu64 (Z.of_nat (length d)) - count_nz wrapu64 d)). nia.
Qed.

Lemma intrinsic_nonneg d c l ig : intrinsic_gas wrapu64 d c l = Some ig -> 0 <= ig.
Proof. intros H. apply intrinsic_ge_tx_gas in H. pose proof (proj1 facts_nonneg). lia. Qed.

(** the refund granted by refundGas when Call / Create left [s2] and returned [gas2] *)
Definition refund_of (s2 : state) (m : msg) (gas2 : Z) : Z :=
  let refund0 := (m_gas m - gas2) / refund_quotient in
  if st_refund s2 <? refund0 then st_refund s2 else refund0.

Lemma refund_of_bounds s2 m gas2 :
  0 <= st_refund s2 -> gas2 <= m_gas m ->
  0 <= refund_of s2 m gas2 /\ 2 * refund_of s2 m gas2 <= m_gas m - gas2 /\ refund_of s2 m gas2 <= st_refund s2.
Proof.
  intros Hr Hg. unfold refund_of. rewrite refund_quotient_is_2. cbn zeta.
  destruct (Z.ltb_spec (st_refund s2) ((m_gas m - gas2) / 2)); lia.
Qed.

Lemma refund_of_zero s2 m gas2 : st_refund s2 = 0 -> gas2 <= m_gas m -> refund_of s2 m gas2 = 0.
Proof.
  intros Hr Hg. unfold refund_of. rewrite Hr, refund_quotient_is_2. cbn zeta.
  destruct (Z.ltb_spec 0 ((m_gas m - gas2) / 2)); lia.
Qed.

(** the state after buyGas; the gas used and the state after refundGas and the fee, when Call / Create
    left [s2] and returned [gas2] *)
Definition bought (s : state) (m : msg) : state := sub_bal s (m_from m) (m_gas m * m_price m).
Definition used_of (s2 : state) (m : msg) (gas2 : Z) : Z := m_gas m - (gas2 + refund_of s2 m gas2).
Definition paid (e : env) (m : msg) (s2 : state) (gas2 : Z) : state :=
  add_bal (add_bal s2 (m_from m) ((gas2 + refund_of s2 m gas2) * m_price m))
          (e_coinbase e) (used_of s2 m gas2 * m_price m).

(** what refundGas, the fee and Finalise make of the state [s2] that Call / Create left *)
Lemma bal_paid_alive e m s2 gas2 a :
  ~ In a (st_dead s2) ->
  bal (fst (finalise (paid e m s2 gas2))) a
  = bal s2 a + (if N.eqb a (m_from m) then (m_gas m - used_of s2 m gas2) * m_price m else 0)
             + (if N.eqb a (e_coinbase e) then used_of s2 m gas2 * m_price m else 0).
Proof.
  intros Ha. unfold paid. rewrite bal_finalise by (rewrite !dead_add_bal; exact Ha).
  rewrite !bal_add_bal. unfold used_of. destruct (N.eqb a (m_from m)); lia.
Qed.

Lemma get_paid_dead e m s2 gas2 a :
  In a (st_dead s2) -> get (fst (finalise (paid e m s2 gas2))) a = empty_account.
Proof. intros Ha. apply finalise_get_in. unfold paid. rewrite !dead_add_bal. exact Ha. Qed.

Section Stages.
Variable W : Z -> Z.

(** AsMessage, preCheck, buyGas, IntrinsicGas and the balance test of TransitionDb: the error
    ApplyTransaction returns, or the intrinsic gas *)
Definition precheck (e : env) (s : state) (pool : Z) (m : msg) : tx_err + Z :=
  if negb (m_sigok m) then inl ESig
  else if nonce s (m_from m) <? m_nonce m then inl ENonceHigh
  else if m_nonce m <? nonce s (m_from m) then inl ENonceLow
  else if bal s (m_from m) <? m_gas m * m_price m then inl EFunds
  else if pool <? m_gas m then inl EGasLimit
  else match intrinsic_gas W (m_data m) (creation m) (negb (e_galaxias e)) with
       | None => inl EGasOverflow
       | Some ig =>
         if W (0 + m_gas m) <? ig then inl EIntrinsic
         else if (0 <? m_value m)
                 && negb (can_transfer (sub_bal s (m_from m) (m_gas m * m_price m)) (m_from m) (m_value m))
         then inl EFundsTransfer
         else inr ig
       end.

(** refundGas, GasPool.AddGas, the fee and Finalise, applied to what Call / Create returned *)
Definition settle (e : env) (m : msg) (pool1 gas1 : Z) (v : state * Z * vm_err * Z) : outcome :=
  let '(s2, gas2, vmerr, burn) := v in
  let refund0 := W (m_gas m - gas2) / refund_quotient in
  let refund := if st_refund s2 <? refund0 then st_refund s2 else refund0 in
  let gas3 := W (gas2 + refund) in
  let s3 := add_bal s2 (m_from m) (gas3 * m_price m) in
  if max_u64 - gas3 <? pool1 then Panicked
  else
    let used := W (m_gas m - gas3) in
    let s4 := add_bal s3 (e_coinbase e) (used * m_price m) in
    let '(s5, destroyed) := finalise s4 in
    Executed s5 (W (pool1 + gas3))
      {| x_failed := negb (vm_err_eqb vmerr VOk); x_vmerr := vmerr; x_used := used;
         x_vmgas := gas1; x_vmleft := gas2; x_refund := refund; x_burnt := burn + destroyed |}.

Definition reject_reason (e : env) (s : state) (pool : Z) (m : msg) (er : tx_err) : Prop :=
  match er with
  | ESig => m_sigok m = false
  | ENonceHigh => nonce s (m_from m) < m_nonce m
  | ENonceLow => m_nonce m < nonce s (m_from m)
  | EFunds => bal s (m_from m) < m_gas m * m_price m
  | EGasLimit => pool < m_gas m
  | EGasOverflow => intrinsic_gas W (m_data m) (creation m) (negb (e_galaxias e)) = None
  | EIntrinsic => exists ig, intrinsic_gas W (m_data m) (creation m) (negb (e_galaxias e)) = Some ig
                             /\ W (0 + m_gas m) < ig
  | EFundsTransfer => bal s (m_from m) - m_gas m * m_price m < m_value m
  end.

Record passed (e : env) (s : state) (pool : Z) (m : msg) (ig : Z) : Prop := {
  p_sig : m_sigok m = true;
  p_nonce : nonce s (m_from m) = m_nonce m;
  p_funds : m_gas m * m_price m <= bal s (m_from m);
  p_pool : m_gas m <= pool;
  p_intrinsic : intrinsic_gas W (m_data m) (creation m) (negb (e_galaxias e)) = Some ig;
  p_gas : ig <= W (0 + m_gas m);
  p_value : 0 < m_value m -> m_value m <= bal s (m_from m) - m_gas m * m_price m }.

(** what each answer of [precheck] means; buyGas has succeeded when one of the three late errors
    is returned *)
Lemma precheck_spec e s pool m :
  match precheck e s pool m with
  | inl er =>
    reject_reason e s pool m er /\
    match er with
    | EGasOverflow | EIntrinsic | EFundsTransfer =>
      m_gas m * m_price m <= bal s (m_from m) /\ m_gas m <= pool
    | _ => True
    end
  | inr ig => passed e s pool m ig
  end.
Proof.
  unfold precheck.
  destruct (m_sigok m) eqn:Hsig; cbn [negb]; [|split; [exact Hsig|exact I]].
  destruct (Z.ltb_spec (nonce s (m_from m)) (m_nonce m)) as [Hn1|Hn1]; [split; [exact Hn1|exact I]|].
  destruct (Z.ltb_spec (m_nonce m) (nonce s (m_from m))) as [Hn2|Hn2]; [split; [exact Hn2|exact I]|].
  destruct (Z.ltb_spec (bal s (m_from m)) (m_gas m * m_price m)) as [Hf|Hf]; [split; [exact Hf|exact I]|].
  destruct (Z.ltb_spec pool (m_gas m)) as [Hp|Hp]; [split; [exact Hp|exact I]|].
  destruct (intrinsic_gas W (m_data m) (creation m) (negb (e_galaxias e))) as [ig|] eqn:Hig;
    [|split; [exact Hig|split; assumption]].
  destruct (Z.ltb_spec (W (0 + m_gas m)) ig) as [Hlow|Hlow];
    [split; [exists ig; split; assumption|split; assumption]|].
  assert (Hb : bal (sub_bal s (m_from m) (m_gas m * m_price m)) (m_from m)
               = bal s (m_from m) - m_gas m * m_price m)
    by (rewrite bal_sub_bal, N.eqb_refl; reflexivity).
  destruct (Z.ltb_spec 0 (m_value m)) as [Hv|Hv]; cbn [andb].
  2: { constructor; try assumption; try lia. }
  destruct (can_transfer _ (m_from m) (m_value m)) eqn:Hct; cbn [negb].
  - apply can_transfer_iff in Hct. constructor; try assumption; try lia.
  - split; [|split; assumption]. cbn [reject_reason]. rewrite <- Hb.
    apply Z.lt_nge. intros Hle. apply can_transfer_iff in Hle. congruence.
Qed.

(** [settle] under the ranges that hold after a well-formed transaction passed the checks: no
    uint64 operation wraps, AddGas does not panic *)
Lemma settle_exact e m pool1 gas1 s2 gas2 vmerr burn :
  (forall z, 0 <= z < two64 -> W z = z) ->
  0 <= pool1 -> pool1 + m_gas m < two64 -> 0 <= gas2 <= m_gas m -> 0 <= st_refund s2 ->
  let refund := refund_of s2 m gas2 in
  let gas3 := gas2 + refund in
  let used := m_gas m - gas3 in
  let s4 := add_bal (add_bal s2 (m_from m) (gas3 * m_price m)) (e_coinbase e) (used * m_price m) in
  settle e m pool1 gas1 (s2, gas2, vmerr, burn) =
  Executed (fst (finalise s4)) (pool1 + gas3)
    {| x_failed := negb (vm_err_eqb vmerr VOk); x_vmerr := vmerr; x_used := used;
       x_vmgas := gas1; x_vmleft := gas2; x_refund := refund; x_burnt := burn + snd (finalise s4) |}.
Proof.
  intros HW Hp0 Hp1 Hg2 Hr2. cbn zeta.
  destruct (refund_of_bounds s2 m gas2 Hr2 (proj2 Hg2)) as (R0 & R2 & _).
  unfold settle. rewrite (HW (m_gas m - gas2)) by lia. fold (refund_of s2 m gas2).
  rewrite (HW (gas2 + refund_of s2 m gas2)) by lia.
  destruct (Z.ltb_spec (max_u64 - (gas2 + refund_of s2 m gas2)) pool1) as [Hpanic|_];
    [unfold max_u64 in Hpanic; lia|].
  rewrite (HW (m_gas m - (gas2 + refund_of s2 m gas2))), (HW (pool1 + (gas2 + refund_of s2 m gas2))) by lia.
  destruct (finalise _); reflexivity.
Qed.

Lemma settle_not_rejected e m pool1 gas1 v er sx px : settle e m pool1 gas1 v <> Rejected er sx px.
Proof.
  destruct v as [[[s2 gas2] vmerr] burn]. unfold settle.
  destruct (_ <? pool1); [discriminate|]. destruct (finalise _). discriminate.
Qed.

Section Run.
Variable run : state -> call_input -> run_output.
Variable ca : N -> Z -> N.

(** the errors found after buyGas leave its effects behind *)
Lemma apply_transaction_stages e s pool m :
  apply_transaction W run ca e s pool m =
  match precheck e s pool m with
  | inl er =>
    match er with
    | EGasOverflow | EIntrinsic | EFundsTransfer =>
      Rejected er (sub_bal s (m_from m) (m_gas m * m_price m)) (pool - m_gas m)
    | _ => Rejected er s pool
    end
  | inr ig =>
    settle e m (pool - m_gas m) (W (W (0 + m_gas m) - ig))
      (vm_phase W run ca (sub_bal s (m_from m) (m_gas m * m_price m)) m (W (W (0 + m_gas m) - ig)))
  end.
Proof.
  unfold apply_transaction, precheck. fold (creation m).
  destruct (negb (m_sigok m)); [reflexivity|].
  destruct (nonce s (m_from m) <? m_nonce m); [reflexivity|].
  destruct (m_nonce m <? nonce s (m_from m)); [reflexivity|].
  destruct (bal s (m_from m) <? m_gas m * m_price m); [reflexivity|].
  destruct (pool <? m_gas m); [reflexivity|].
  destruct (intrinsic_gas W (m_data m) (creation m) (negb (e_galaxias e))); [|reflexivity].
  destruct (W (0 + m_gas m) <? z); [reflexivity|].
  destruct ((0 <? m_value m) && _); reflexivity.
Qed.

(** why a transaction is rejected, and what the rejection leaves behind *)
Lemma rejected_inv e s pool m er sx px :
  apply_transaction W run ca e s pool m = Rejected er sx px ->
  reject_reason e s pool m er /\
  match er with
  | EGasOverflow | EIntrinsic | EFundsTransfer =>
    sx = sub_bal s (m_from m) (m_gas m * m_price m) /\ px = pool - m_gas m
    /\ m_gas m * m_price m <= bal s (m_from m) /\ m_gas m <= pool
  | _ => sx = s /\ px = pool
  end.
Proof.
  rewrite apply_transaction_stages. pose proof (precheck_spec e s pool m) as P.
  destruct (precheck e s pool m) as [er'|ig]; [|intros H; now apply settle_not_rejected in H].
  destruct P as [P Q]. destruct er'; intros [= <- <- <-]; repeat split; tauto.
Qed.

End Run.
End Stages.

Section Tx.
Variable run : state -> call_input -> run_output.
Variable ca : N -> Z -> N.
Hypothesis OK : ExecOK run.

Lemma vm_phase_spec s1 m gas1 s2 gas2 vmerr burn :
  vm_phase wrapu64 run ca s1 m gas1 = (s2, gas2, vmerr, burn) ->
  0 <= gas1 -> 0 <= nonce s1 (m_from m) < two64 - 1 ->
  can_transfer s1 (m_from m) (m_value m) = true ->
  vm_ok run s1 s2 (m_from m) (m_from m) (target ca s1 m) gas1 gas2 burn /\
  nonce s2 (m_from m) = nonce s1 (m_from m) + 1.
Proof.
  unfold vm_phase, target. intros H Hg Hn Hct.
  assert (Hw : wrapu64 (nonce s1 (m_from m) + 1) = nonce s1 (m_from m) + 1)
    by (apply wrapu64_id; lia).
  destruct (m_to m) as [to|].
  - cbn zeta in H. rewrite Hw in H. split.
    + destruct (call_ok run OK _ _ _ _ _ _ _ _ _ _ _ H Hg) as [G B R A D T].
      constructor; [exact G|exact B|exact R|exact A|exact D|].
      intros U Hnd Hcl Hf Ht. rewrite T, total_set_nonce by assumption. reflexivity.
    + rewrite (call_nonce run OK _ _ _ _ _ _ _ _ _ _ _ H), nonce_set_nonce, N.eqb_refl. reflexivity.
  - split.
    + exact (create_ok run OK wrapu64 wrapu64_nonneg _ _ _ _ _ _ _ _ _ _ _ H Hg).
    + rewrite <- Hw. apply (create_nonce run OK wrapu64 _ _ _ _ _ _ _ _ _ _ H Hct). rewrite Hw. lia.
Qed.

(** a well-formed transaction that passed the checks is executed: exact equations *)
Lemma passed_executes e s pool m ig :
  wf_msg m -> 0 <= pool < two64 -> 0 <= st_refund s ->
  passed wrapu64 e s pool m ig ->
  exists s2 gas2 vmerr burn,
    let from := m_from m in
    let s1 := sub_bal s from (m_gas m * m_price m) in
    let refund := refund_of s2 m gas2 in
    let gas3 := gas2 + refund in
    let used := m_gas m - gas3 in
    let s4 := add_bal (add_bal s2 from (gas3 * m_price m)) (e_coinbase e) (used * m_price m) in
    0 <= ig <= m_gas m /\ m_value m <= bal s1 from /\
    vm_phase wrapu64 run ca s1 m (m_gas m - ig) = (s2, gas2, vmerr, burn) /\
    (vm_ok run s1 s2 from from (target ca s1 m) (m_gas m - ig) gas2 burn /\
     nonce s2 from = nonce s1 from + 1) /\ 0 <= st_refund s2 /\
    settle wrapu64 e m (pool - m_gas m) (wrapu64 (wrapu64 (0 + m_gas m) - ig))
      (vm_phase wrapu64 run ca s1 m (wrapu64 (wrapu64 (0 + m_gas m) - ig))) =
    Executed (fst (finalise s4)) (pool - used)
      {| x_failed := negb (vm_err_eqb vmerr VOk); x_vmerr := vmerr; x_used := used;
         x_vmgas := m_gas m - ig; x_vmleft := gas2; x_refund := refund;
         x_burnt := burn + snd (finalise s4) |}.
Proof.
  intros [Hgas Hnonce Hprice Hvalue] Hpool Hrefund [_ Pn Pf Pp Pig Pg Pv]. cbn zeta.
  pose proof (intrinsic_nonneg _ _ _ _ Pig) as Hig0.
  rewrite (wrapu64_id (0 + m_gas m)), Z.add_0_l in * by lia.
  rewrite (wrapu64_id (m_gas m - ig)) by lia.
  set (s1 := sub_bal s (m_from m) (m_gas m * m_price m)).
  assert (Hbal1 : bal s1 (m_from m) = bal s (m_from m) - m_gas m * m_price m)
    by (unfold s1; rewrite bal_sub_bal, N.eqb_refl; reflexivity).
  assert (Hvle : m_value m <= bal s1 (m_from m)) by lia.
  assert (Hn1 : 0 <= nonce s1 (m_from m) < two64 - 1) by (unfold s1; rewrite nonce_sub_bal; lia).
  destruct (vm_phase wrapu64 run ca s1 m (m_gas m - ig)) as [[[s2 gas2] vmerr] burn] eqn:Hvm.
  pose proof (vm_phase_spec _ _ _ _ _ _ _ Hvm ltac:(lia) Hn1 (proj2 (can_transfer_iff _ _ _) Hvle)) as V.
  pose proof (vo_gas (proj1 V)) as Hg2.
  pose proof (vo_refund (proj1 V) Hrefund) as Hr2.
  exists s2, gas2, vmerr, burn.
  rewrite (settle_exact wrapu64 e m _ _ s2 gas2 vmerr burn wrapu64_id) by lia. cbn zeta.
  repeat split; try lia; try assumption; try apply V.
  f_equal. lia.
Qed.

(** what [tx_inv] finds in an executed transaction: [ig] the intrinsic gas, [(s2, gas2, vmerr, burn)]
    what Call / Create returned when started in the state after buyGas *)
Record executed_as (e : env) (s : state) (pool : Z) (m : msg) (s' : state) (pool' : Z) (r : receipt)
       (ig : Z) (s2 : state) (gas2 : Z) (vmerr : vm_err) (burn : Z) : Prop := {
  ex_passed : passed wrapu64 e s pool m ig;
  ex_ig : 0 <= ig <= m_gas m;
  ex_value : m_value m <= bal (bought s m) (m_from m);
  ex_vm : vm_phase wrapu64 run ca (bought s m) m (m_gas m - ig) = (s2, gas2, vmerr, burn);
  ex_vm_ok : vm_ok run (bought s m) s2 (m_from m) (m_from m) (target ca (bought s m) m) (m_gas m - ig) gas2 burn;
  ex_nonce : nonce s2 (m_from m) = nonce (bought s m) (m_from m) + 1;
  ex_refund : 0 <= refund_of s2 m gas2 /\ 2 * refund_of s2 m gas2 <= m_gas m - gas2
              /\ refund_of s2 m gas2 <= st_refund s2;
  ex_state : s' = fst (finalise (paid e m s2 gas2));
  ex_pool : pool' = pool - used_of s2 m gas2;
  ex_receipt : r = {| x_failed := negb (vm_err_eqb vmerr VOk); x_vmerr := vmerr; x_used := used_of s2 m gas2;
                      x_vmgas := m_gas m - ig; x_vmleft := gas2; x_refund := refund_of s2 m gas2;
                      x_burnt := burn + snd (finalise (paid e m s2 gas2)) |} }.

Arguments ex_passed {e s pool m s' pool' r ig s2 gas2 vmerr burn} _.
Arguments ex_ig {e s pool m s' pool' r ig s2 gas2 vmerr burn} _.
Arguments ex_value {e s pool m s' pool' r ig s2 gas2 vmerr burn} _.
Arguments ex_vm {e s pool m s' pool' r ig s2 gas2 vmerr burn} _.
Arguments ex_vm_ok {e s pool m s' pool' r ig s2 gas2 vmerr burn} _.
Arguments ex_nonce {e s pool m s' pool' r ig s2 gas2 vmerr burn} _.
Arguments ex_refund {e s pool m s' pool' r ig s2 gas2 vmerr burn} _.
Arguments ex_state {e s pool m s' pool' r ig s2 gas2 vmerr burn} _.
Arguments ex_pool {e s pool m s' pool' r ig s2 gas2 vmerr burn} _.
Arguments ex_receipt {e s pool m s' pool' r ig s2 gas2 vmerr burn} _.

Lemma tx_inv e s pool m s' pool' r :
  wf_msg m -> 0 <= pool < two64 -> 0 <= st_refund s ->
  apply_transaction wrapu64 run ca e s pool m = Executed s' pool' r ->
  exists ig s2 gas2 vmerr burn, executed_as e s pool m s' pool' r ig s2 gas2 vmerr burn.
Proof.
  intros Hm Hpool Hrefund. rewrite apply_transaction_stages.
  pose proof (precheck_spec wrapu64 e s pool m) as P.
  destruct (precheck wrapu64 e s pool m) as [er|ig]; [destruct er; discriminate|].
  destruct (passed_executes e s pool m ig Hm Hpool Hrefund P)
    as (s2 & gas2 & vmerr & burn & Hig & Hv & Hvm & V & Hr2 & ->).
  pose proof (vo_gas (proj1 V)) as Hg2.
  pose proof (refund_of_bounds s2 m gas2 Hr2 ltac:(lia)) as R.
  intros [= <- <- <-]. exists ig, s2, gas2, vmerr, burn.
  constructor; try assumption; try reflexivity; apply V.
Qed.

(** GasPool.AddGas does not panic *)
Lemma no_panic e s pool m :
  wf_msg m -> 0 <= pool < two64 -> 0 <= st_refund s ->
  apply_transaction wrapu64 run ca e s pool m <> Panicked.
Proof.
  intros Hm Hpool Hrefund. rewrite apply_transaction_stages.
  pose proof (precheck_spec wrapu64 e s pool m) as P.
  destruct (precheck wrapu64 e s pool m) as [er|ig]; [destruct er; discriminate|].
  destruct (passed_executes e s pool m ig Hm Hpool Hrefund P)
    as (s2 & gas2 & vmerr & burn & _ & _ & _ & _ & _ & ->).
  discriminate.
Qed.

Section Executed.
Variables (e : env) (s : state) (pool : Z) (m : msg) (s' : state) (pool' : Z) (r : receipt).
Hypothesis Hm : wf_msg m.
Hypothesis Hpool : 0 <= pool < two64.
Hypothesis Hrefund : st_refund s = 0.
Hypothesis Hdead : st_dead s = [].
Hypothesis Hex : apply_transaction wrapu64 run ca e s pool m = Executed s' pool' r.

Lemma executed_gas_bounds :
  0 <= x_used r <= m_gas m /\
  0 <= x_refund r /\ 2 * x_refund r <= x_used r + x_refund r /\
  x_used r + x_refund r = m_gas m - x_vmleft r /\
  0 <= x_vmleft r <= x_vmgas r /\ x_vmgas r <= m_gas m.
Proof.
  destruct (tx_inv e s pool m s' pool' r Hm Hpool ltac:(rewrite Hrefund; lia) Hex)
    as (ig & s2 & gas2 & vmerr & burn & X).
  pose proof (ex_ig X). pose proof (vo_gas (ex_vm_ok X)). pose proof (ex_refund X).
  rewrite (ex_receipt X). cbn [x_used x_refund x_vmleft x_vmgas]. unfold used_of. lia.
Qed.

Lemma executed_pool : pool' = pool - x_used r /\ 0 <= pool' < two64.
Proof.
  destruct (tx_inv e s pool m s' pool' r Hm Hpool ltac:(rewrite Hrefund; lia) Hex)
    as (ig & s2 & gas2 & vmerr & burn & X).
  pose proof (ex_ig X). pose proof (vo_gas (ex_vm_ok X)). pose proof (ex_refund X).
  pose proof (p_pool _ _ _ _ _ _ (ex_passed X)).
  rewrite (ex_receipt X), (ex_pool X). cbn [x_used]. unfold used_of. lia.
Qed.

Lemma executed_nonce : nonce s' (m_from m) = nonce s (m_from m) + 1 /\ nonce s (m_from m) = m_nonce m.
Proof.
  destruct (tx_inv e s pool m s' pool' r Hm Hpool ltac:(rewrite Hrefund; lia) Hex)
    as (ig & s2 & gas2 & vmerr & burn & X).
  split; [|exact (p_nonce _ _ _ _ _ _ (ex_passed X))].
  rewrite (ex_state X). unfold paid.
  rewrite nonce_finalise
    by (rewrite !dead_add_bal; apply (vo_alive (ex_vm_ok X)); unfold bought; rewrite dead_sub_bal, Hdead; intros []).
  rewrite !nonce_add_bal, (ex_nonce X). unfold bought. rewrite nonce_sub_bal. reflexivity.
Qed.

(** conservation: the balance sum over any universe that contains every account involved
    changes by exactly minus what self-destructs destroyed *)
Lemma executed_conservation U :
  NoDup U -> Closed U run ->
  In (m_from m) U -> In (target ca s m) U -> In (e_coinbase e) U ->
  total U s' = total U s - x_burnt r.
Proof.
  intros Hnd Hcl Hf Ht Hc.
  destruct (tx_inv e s pool m s' pool' r Hm Hpool ltac:(rewrite Hrefund; lia) Hex)
    as (ig & s2 & gas2 & vmerr & burn & X).
  rewrite (ex_receipt X), (ex_state X). cbn [x_burnt]. unfold paid. rewrite total_finalise; [|exact Hnd|].
  - rewrite !total_add_bal by assumption.
    rewrite (vo_total (ex_vm_ok X) U Hnd Hcl Hf) by (unfold bought; rewrite target_sub_bal; exact Ht).
    unfold bought, used_of. rewrite total_sub_bal by assumption. lia.
  - intros a Ha. rewrite !dead_add_bal in Ha. apply (vo_dead (ex_vm_ok X) U Hcl); [|exact Ha].
    intros x Hx. unfold bought in Hx. rewrite dead_sub_bal, Hdead in Hx. destruct Hx.
Qed.

(** where the gas money goes: apart from what the VM phase did, the sender gets back the unused
    gas, the proposer gets used*price, and the two add up to the gas*price taken by buyGas *)
Lemma executed_fee_flow :
  exists ig s2 gas2 vmerr burn,
    let from := m_from m in
    let s1 := sub_bal s from (m_gas m * m_price m) in
    vm_phase wrapu64 run ca s1 m (m_gas m - ig) = (s2, gas2, vmerr, burn) /\
    x_vmerr r = vmerr /\ x_failed r = negb (vm_err_eqb vmerr VOk) /\
    (forall a, ~ In a (st_dead s2) ->
       bal s' a = bal s2 a + (if N.eqb a from then (m_gas m - x_used r) * m_price m else 0)
                           + (if N.eqb a (e_coinbase e) then x_used r * m_price m else 0)) /\
    (forall a, In a (st_dead s2) -> get s' a = empty_account).
Proof.
  destruct (tx_inv e s pool m s' pool' r Hm Hpool ltac:(rewrite Hrefund; lia) Hex)
    as (ig & s2 & gas2 & vmerr & burn & X).
  exists ig, s2, gas2, vmerr, burn. cbn zeta.
  rewrite (ex_receipt X), (ex_state X). cbn [x_vmerr x_failed x_used].
  split; [exact (ex_vm X)|]. split; [reflexivity|]. split; [reflexivity|].
  split; intros a Ha; [apply bal_paid_alive|apply get_paid_dead]; exact Ha.
Qed.

(** the state is again at a transaction boundary *)
Lemma executed_boundary : st_refund s' = 0 /\ st_dead s' = [].
Proof.
  destruct (tx_inv e s pool m s' pool' r Hm Hpool ltac:(rewrite Hrefund; lia) Hex)
    as (ig & s2 & gas2 & vmerr & burn & X).
  rewrite (ex_state X). split; [apply finalise_refund|apply finalise_dead].
Qed.

End Executed.
(** a plain value transfer (recipient without code, not a precompile), exactly *)
Lemma plain_transfer_exact e s pool m t s' pool' r :
  wf_msg m -> 0 <= pool < two64 -> st_refund s = 0 -> st_dead s = [] ->
  m_to m = Some t -> code s t = 0%N -> is_precompile t = false ->
  apply_transaction wrapu64 run ca e s pool m = Executed s' pool' r ->
  exists ig, intrinsic_gas wrapu64 (m_data m) false (negb (e_galaxias e)) = Some ig /\
    x_used r = ig /\ x_failed r = false /\ x_refund r = 0 /\ x_burnt r = 0 /\ pool' = pool - ig /\
    forall a, bal s' a = bal s a
                         - (if N.eqb a (m_from m) then m_value m + ig * m_price m else 0)
                         + (if N.eqb a t then m_value m else 0)
                         + (if N.eqb a (e_coinbase e) then ig * m_price m else 0).
Proof.
  intros Hm Hpool Hrefund Hdead Hto Hcode Hpre Hex.
  destruct (tx_inv e s pool m s' pool' r Hm Hpool ltac:(rewrite Hrefund; lia) Hex)
    as (ig & s2 & gas2 & vmerr & burn & X).
  pose proof (p_intrinsic _ _ _ _ _ _ (ex_passed X)) as Hig. unfold creation in Hig. rewrite Hto in Hig.
  exists ig. split; [exact Hig|].
  pose proof (ex_ig X) as Higb.
  (* the recipient has no code: Call is the plain transfer *)
  pose proof (ex_vm X) as Hvm. unfold vm_phase in Hvm. rewrite Hto in Hvm. cbn zeta in Hvm.
  apply (call_cases run) in Hvm. cbn zeta in Hvm.
  destruct Hvm as [(Hf & _)|[(_ & _ & Hs2 & Hg2 & He & Hb)|[(_ & Hr & _)|(Hr & _)]]].
  3,4: rewrite Hpre, code_transfer, code_set_nonce in Hr; unfold bought in Hr;
       rewrite code_sub_bal, Hcode in Hr; discriminate.
  { assert (can_transfer (set_nonce (bought s m) (m_from m) (wrapu64 (nonce (bought s m) (m_from m) + 1)))
              (m_from m) (m_value m) = true)
      by (apply can_transfer_iff; rewrite bal_set_nonce; exact (ex_value X)).
    congruence. }
  assert (Hrf : refund_of s2 m gas2 = 0) by (apply refund_of_zero; [rewrite Hs2; exact Hrefund|lia]).
  assert (Hd2 : st_dead s2 = []) by (rewrite Hs2; exact Hdead).
  rewrite (ex_receipt X), (ex_pool X), (ex_state X).
  cbn [x_used x_failed x_refund x_burnt]. unfold used_of at 1 2.
  assert (Hsnd : snd (finalise (paid e m s2 gas2)) = 0)
    by (rewrite finalise_nodead; [reflexivity|unfold paid; rewrite !dead_add_bal; exact Hd2]).
  rewrite Hsnd, He, Hb, Hrf. repeat split; try lia.
  intros a. rewrite bal_paid_alive by (rewrite Hd2; intros []).
  unfold used_of. rewrite Hrf, Hg2, Hs2, bal_transfer, bal_set_nonce. unfold bought. rewrite bal_sub_bal.
  destruct (N.eqb a (m_from m)), (N.eqb a (e_coinbase e)); lia.
Qed.

Lemma rejected_reason e s pool m er sx px :
  apply_transaction wrapu64 run ca e s pool m = Rejected er sx px -> reject_reason wrapu64 e s pool m er.
Proof. intros H. exact (proj1 (rejected_inv wrapu64 run ca e s pool m er sx px H)). Qed.

Lemma commit_txs_app W e b l1 l2 :
  commit_txs W run ca e b (l1 ++ l2) = commit_txs W run ca e (commit_txs W run ca e b l1) l2.
Proof. unfold commit_txs. apply fold_left_app. Qed.

Lemma commit_txs_cons W e b m txs :
  commit_txs W run ca e b (m :: txs) = commit_txs W run ca e (commit_step W run ca e b m) txs.
Proof. reflexivity. Qed.

(** snap / RevertToSnapshot and the restored pool: a rejected transaction leaves the loop where it was *)
Lemma commit_step_rejected W e b m er sx px :
  apply_transaction W run ca e (b_state b) (b_pool b) m = Rejected er sx px ->
  commit_step W run ca e b m = b.
Proof. intros H. unfold commit_step. rewrite H. destruct (b_panic b); reflexivity. Qed.

(** a rejected transaction is as if it had not been in the block: state (all accounts), pool,
    cumulative gas and receipts of everything that follows are the same *)
Lemma rejected_neutral W e b txs1 bad txs2 :
  (exists er sx px,
     apply_transaction W run ca e (b_state (commit_txs W run ca e b txs1))
       (b_pool (commit_txs W run ca e b txs1)) bad = Rejected er sx px) ->
  commit_txs W run ca e b (txs1 ++ bad :: txs2) = commit_txs W run ca e b (txs1 ++ txs2).
Proof.
  intros (er & sx & px & H). rewrite !commit_txs_app, commit_txs_cons.
  rewrite (commit_step_rejected _ _ _ _ _ _ _ H). reflexivity.
Qed.

Definition burnt_of (rs : list (N * Z * receipt)) : Z :=
  fold_right (fun x acc => x_burnt (snd x) + acc) 0 rs.

(** block invariant: no panic, pool + gas used = block gas limit, the state is at a transaction
    boundary (refund counter 0, nobody marked suicided), the balance sum moved by the burns only *)
Record block_inv (e : env) (U : list N) (s0 : state) (b : bstate) : Prop := {
  bi_panic : b_panic b = false;
  bi_pool : 0 <= b_pool b /\ b_pool b + b_cum b = e_gaslimit e;
  bi_cum : 0 <= b_cum b;
  bi_refund : st_refund (b_state b) = 0;
  bi_dead : st_dead (b_state b) = [];
  bi_total : total U (b_state b) = total U s0 - burnt_of (b_receipts b) }.

Lemma commit_step_inv e U s0 b m :
  0 <= e_gaslimit e < two64 -> NoDup U -> Closed U run ->
  wf_msg m -> In (m_from m) U -> In (e_coinbase e) U ->
  (forall s, In (target ca s m) U) ->
  block_inv e U s0 b -> block_inv e U s0 (commit_step wrapu64 run ca e b m).
Proof.
  intros Hgl Hnd Hcl Hm Hf Hc Ht [Hpa [Hp0 Hpc] Hc0 Hrf Hdd Htot].
  unfold commit_step. rewrite Hpa.
  assert (Hpool : 0 <= b_pool b < two64) by lia.
  destruct (apply_transaction wrapu64 run ca e (b_state b) (b_pool b) m) as [er sx px|s' pool' r|] eqn:Hap.
  - constructor; auto.
  - destruct (executed_pool e _ _ m s' pool' r Hm Hpool Hrf Hap) as [Hp' Hp'r].
    destruct (executed_gas_bounds e _ _ m s' pool' r Hm Hpool Hrf Hap) as (Hu & _).
    pose proof (executed_conservation e _ _ m s' pool' r Hm Hpool Hrf Hdd Hap U Hnd Hcl Hf (Ht _) Hc) as Hcons.
    destruct (executed_boundary e _ _ m s' pool' r Hm Hpool Hrf Hap) as [Hrf' Hdd'].
    rewrite (wrapu64_id (b_cum b + x_used r)) by lia.
    constructor; cbn [b_panic b_pool b_cum b_state b_receipts]; try reflexivity; try assumption; try lia.
    change (burnt_of ((m_id m, b_cum b + x_used r, r) :: b_receipts b))
      with (x_burnt r + burnt_of (b_receipts b)). lia.
  - exfalso. refine (no_panic e (b_state b) (b_pool b) m Hm Hpool _ Hap). rewrite Hrf. lia.
Qed.

Lemma commit_txs_inv e U s0 txs b :
  0 <= e_gaslimit e < two64 -> NoDup U -> Closed U run -> In (e_coinbase e) U ->
  (forall m, In m txs -> wf_msg m /\ In (m_from m) U /\ forall s, In (target ca s m) U) ->
  block_inv e U s0 b -> block_inv e U s0 (commit_txs wrapu64 run ca e b txs).
Proof.
  intros Hgl Hnd Hcl Hc. revert b. induction txs as [|m txs IH]; intros b Hall Hb; [exact Hb|].
  rewrite commit_txs_cons. apply IH; [intros m' Hm'; apply Hall; right; exact Hm'|].
  destruct (Hall m (or_introl eq_refl)) as (Hm & Hf & Ht).
  now apply commit_step_inv.
Qed.

Lemma block_start_inv e U s :
  0 <= e_gaslimit e -> st_refund s = 0 -> st_dead s = [] -> block_inv e U s (block_start e s).
Proof.
  intros. constructor; cbn; try reflexivity; try assumption; try lia.
Qed.

End Tx.

Arguments ex_passed {run ca e s pool m s' pool' r ig s2 gas2 vmerr burn} _.
Arguments ex_ig {run ca e s pool m s' pool' r ig s2 gas2 vmerr burn} _.
Arguments ex_value {run ca e s pool m s' pool' r ig s2 gas2 vmerr burn} _.
Arguments ex_vm {run ca e s pool m s' pool' r ig s2 gas2 vmerr burn} _.
Arguments ex_vm_ok {run ca e s pool m s' pool' r ig s2 gas2 vmerr burn} _.
Arguments ex_nonce {run ca e s pool m s' pool' r ig s2 gas2 vmerr burn} _.
Arguments ex_refund {run ca e s pool m s' pool' r ig s2 gas2 vmerr burn} _.
Arguments ex_state {run ca e s pool m s' pool' r ig s2 gas2 vmerr burn} _.
Arguments ex_pool {run ca e s pool m s' pool' r ig s2 gas2 vmerr burn} _.
Arguments ex_receipt {run ca e s pool m s' pool' r ig s2 gas2 vmerr burn} _.
