(** C09 — no uint64 operation of the transcribed code wraps on well-formed inputs: the model
    instantiated with [wrapu64] computes the same as the model over unbounded integers. *)
From Coq Require Import List ZArith NArith Bool Lia.
From Kardia Require Import Base.Int64 C09.Model C09.ProofsBase C09.ProofsVM C09.ProofsTx Generated.C09Facts.
Import ListNotations.
Local Open Scope Z_scope.

Notation idz := (fun z : Z => z).

Lemma count_nz_fold data acc :
  0 <= acc -> acc + Z.of_nat (length data) < two64 ->
  fold_left (fun a b => if N.eqb b 0 then a else wrapu64 (a + 1)) data acc
  = fold_left (fun a b => if N.eqb b 0 then a else idz (a + 1)) data acc
  /\ acc <= fold_left (fun a b => if N.eqb b 0 then a else idz (a + 1)) data acc
         <= acc + Z.of_nat (length data).
Proof.
  cbv beta. revert acc. induction data as [|b data IH]; intros acc H0 H1; cbn [fold_left length].
  - split; [reflexivity|lia].
  - cbn [length] in H1. rewrite Nat2Z.inj_succ in H1 |- *. destruct (N.eqb b 0).
    + destruct (IH acc) as [E B]; [lia|lia|]. split; [exact E|lia].
    + rewrite wrapu64_id by lia. cbv beta.
      destruct (IH (acc + 1)) as [E B]; [lia|lia|]. split; [exact E|lia].
Qed.

Lemma count_nz_eq data :
  Z.of_nat (length data) < two64 ->
  count_nz wrapu64 data = count_nz idz data /\ 0 <= count_nz idz data <= Z.of_nat (length data).
Proof.
  intros H. unfold count_nz. destruct (count_nz_fold data 0) as [E B]; [lia|lia|].
  split; [exact E|lia].
Qed.

Definition data_ok (data : list N) : Prop := Z.of_nat (length data) < 4294967296.

(** on data shorter than 2^32 bytes IntrinsicGas computes in unbounded integers and its overflow
    checks cannot fire.  The proof uses the generated values themselves: it needs
    [100000 + 68 * 2^32 < 2^64] with 68 the gas per non-zero byte, 4 per zero byte and 100000 a bound
    on the three base amounts. *)
Lemma intrinsic_no_overflow data c l :
  data_ok data ->
  intrinsic_gas wrapu64 data c l = intrinsic_gas idz data c l /\
  exists ig, intrinsic_gas wrapu64 data c l = Some ig.
Proof.
  unfold data_ok. intros Hd. unfold intrinsic_gas.
  destruct (0 <? Z.of_nat (length data)) eqn:Hlen; [|split; [reflexivity|eexists; reflexivity]].
  assert (Hd' : Z.of_nat (length data) < two64) by (unfold two64; lia).
  destruct (count_nz_eq data Hd') as [E B]. rewrite E.
  set (nz := count_nz idz data) in *. cbv beta.
  set (g := if c then tx_gas_contract_creation else if l then tx_gas_legacy else tx_gas).
  assert (Hg : 0 <= g <= 100000).
  { unfold g. destruct c; [vm_compute; split; discriminate|]. destruct l; vm_compute; split; discriminate. }
  assert (F1 : tx_data_non_zero_gas = 68) by reflexivity.
  assert (F2 : tx_data_zero_gas = 4) by reflexivity.
  rewrite F1, F2. unfold max_u64, two64 in *.
  rewrite (wrapu64_id (nz * 68)) by (unfold two64; lia).
  rewrite (wrapu64_id (g + nz * 68)) by (unfold two64; lia).
  rewrite (wrapu64_id (Z.of_nat (length data))) by (unfold two64; lia).
  rewrite (wrapu64_id (Z.of_nat (length data) - nz)) by (unfold two64; lia).
  rewrite (wrapu64_id ((Z.of_nat (length data) - nz) * 4)) by (unfold two64; lia).
  rewrite (wrapu64_id (g + nz * 68 + (Z.of_nat (length data) - nz) * 4)) by (unfold two64; lia).
  split; [reflexivity|].
  destruct (_ / 68 <? nz) eqn:C1; [apply Z.ltb_lt in C1; lia|].
  destruct (_ / 4 <? _) eqn:C2; [apply Z.ltb_lt in C2; lia|].
  eexists; reflexivity.
Qed.

Section Wrap.
Variable run : state -> call_input -> run_output.
Variable ca : N -> Z -> N.
Hypothesis OK : ExecOK run.

Lemma create_eq s mid origin caller address gas value :
  0 <= nonce s caller < two64 - 1 ->
  create wrapu64 run s mid origin caller address gas value
  = create idz run s mid origin caller address gas value.
Proof.
  intros Hn. unfold create. rewrite (wrapu64_id (nonce s caller + 1)) by lia. cbv beta.
  destruct (negb (can_transfer s caller value)); [reflexivity|].
  destruct (_ || _); [reflexivity|].
  set (o := run _ _).
  destruct (vm_err_eqb (ro_err o) VOk && negb (max_code_size <? ro_retlen o)) eqn:Hc; [|reflexivity].
  apply andb_true_iff in Hc. destruct Hc as [_ Hc]. apply negb_true_iff, Z.ltb_ge in Hc.
  pose proof (ok_retlen run OK) as Hr. specialize (Hr _ _ : 0 <= ro_retlen o).
  assert (F : create_data_gas = 200) by reflexivity.
  assert (F' : max_code_size = 39231) by reflexivity.
  rewrite wrapu64_id by (rewrite F; unfold two64; lia). reflexivity.
Qed.

Lemma vm_phase_eq s1 m gas1 :
  0 <= nonce s1 (m_from m) < two64 - 1 ->
  vm_phase wrapu64 run ca s1 m gas1 = vm_phase idz run ca s1 m gas1.
Proof.
  intros Hn. unfold vm_phase. destruct (m_to m).
  - cbn zeta. rewrite wrapu64_id by lia. reflexivity.
  - now apply create_eq.
Qed.

Lemma precheck_eq e s pool m :
  0 <= m_gas m < two64 -> data_ok (m_data m) -> precheck wrapu64 e s pool m = precheck idz e s pool m.
Proof.
  intros Hg Hd. unfold precheck.
  rewrite (proj1 (intrinsic_no_overflow _ (creation m) (negb (e_galaxias e)) Hd)).
  rewrite (wrapu64_id (0 + m_gas m)) by lia. reflexivity.
Qed.

Lemma apply_transaction_eq e s pool m :
  wf_msg m -> data_ok (m_data m) -> 0 <= pool < two64 -> 0 <= st_refund s ->
  apply_transaction wrapu64 run ca e s pool m = apply_transaction idz run ca e s pool m
  /\ apply_transaction wrapu64 run ca e s pool m <> Panicked.
Proof.
  intros Hm Hdata Hpool Hrefund. split; [|now apply no_panic].
  rewrite !apply_transaction_stages, <- (precheck_eq e s pool m (wf_gas m Hm) Hdata).
  pose proof (precheck_spec wrapu64 e s pool m) as P.
  destruct (precheck wrapu64 e s pool m) as [er|ig]; [reflexivity|].
  destruct (passed_executes run ca OK e s pool m ig Hm Hpool Hrefund P)
    as (s2 & gas2 & vmerr & burn & Hig & _ & Hvm & [[Hg2 _ _ _ _ _] _] & Hr2 & ->).
  cbv beta. rewrite Z.add_0_l, <- vm_phase_eq, Hvm
    by (rewrite nonce_sub_bal, (p_nonce _ _ _ _ _ _ P); exact (wf_nonce m Hm)).
  rewrite (settle_exact idz e m _ _ s2 gas2 vmerr burn (fun _ _ => eq_refl))
    by (destruct Hm as [Hgas _ _ _]; destruct P; lia).
  cbn zeta. f_equal. lia.
Qed.

Definition valid_tx (e : env) (s : state) (pool : Z) (m : msg) : Prop :=
  m_sigok m = true /\ nonce s (m_from m) = m_nonce m /\
  m_gas m * m_price m <= bal s (m_from m) /\ m_gas m <= pool /\
  (exists ig, intrinsic_gas wrapu64 (m_data m) (creation m) (negb (e_galaxias e)) = Some ig /\ ig <= m_gas m) /\
  m_value m <= bal s (m_from m) - m_gas m * m_price m.

Lemma valid_executes e s pool m :
  wf_msg m -> 0 <= pool < two64 -> 0 <= st_refund s ->
  valid_tx e s pool m ->
  exists s' pool' r, apply_transaction wrapu64 run ca e s pool m = Executed s' pool' r.
Proof.
  intros Hm Hp Hr (Hsig & Hn & Hf & Hpl & (ig & Hig & Higle) & Hv).
  destruct (apply_transaction wrapu64 run ca e s pool m) as [er sx px|s' pool' r|] eqn:Hap.
  - exfalso. pose proof (rejected_reason run ca e s pool m er sx px Hap) as Hrr. unfold reject_reason in Hrr.
    destruct Hm as [Hgas _ _ _].
    destruct er; try lia; try congruence.
    destruct Hrr as (ig' & Hig' & Hlt). rewrite Hig in Hig'. inversion Hig'; subst ig'.
    rewrite wrapu64_id in Hlt by lia. lia.
  - eexists _, _, _. reflexivity.
  - exfalso. exact (no_panic run ca OK e s pool m Hm Hp Hr Hap).
Qed.

Lemma executed_valid e s pool m s' pool' r :
  wf_msg m -> 0 <= pool < two64 -> 0 <= st_refund s ->
  apply_transaction wrapu64 run ca e s pool m = Executed s' pool' r -> valid_tx e s pool m.
Proof.
  intros Hm Hp Hr Hex.
  destruct (tx_inv run ca OK e s pool m s' pool' r Hm Hp Hr Hex)
    as (ig & s2 & gas2 & vmerr & burn & X).
  destruct (ex_passed X) as [Hsig Hn Hf Hpl Hig _ _]. pose proof (ex_ig X) as Higb.
  pose proof (ex_value X) as Hv. unfold bought in Hv. rewrite bal_sub_bal, N.eqb_refl in Hv.
  repeat split; try assumption. exists ig. split; [exact Hig|lia].
Qed.

Lemma executed_iff_valid e s pool m :
  wf_msg m -> data_ok (m_data m) -> 0 <= pool < two64 -> 0 <= st_refund s ->
  ((exists s' pool' r, apply_transaction wrapu64 run ca e s pool m = Executed s' pool' r)
   <-> valid_tx e s pool m).
Proof.
  intros Hm _ Hp Hr. split.
  - intros (s' & pool' & r & H). exact (executed_valid e s pool m s' pool' r Hm Hp Hr H).
  - exact (valid_executes e s pool m Hm Hp Hr).
Qed.

End Wrap.
