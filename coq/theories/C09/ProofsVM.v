(** C09 — the contract assumed of the interpreter ([ExecOK]) and what KVM.Call / KVM.create
    (as transcribed in Model.v) guarantee under it: gas returned, balance sum, nonce of the
    transaction origin, refund counter, suicide list. *)
From Coq Require Import List ZArith NArith Bool Lia.
From Kardia Require Import C09.Model C09.ProofsBase Generated.C09Facts.
Import ListNotations.
Local Open Scope Z_scope.

(** ** The contract of the interpreter.
    Nothing is assumed about the state it returns on failure: kvm.go itself reverts to its
    snapshot, and so does the model. *)
Record ExecOK (run : state -> call_input -> run_output) : Prop := {
  (* the gas left is between 0 and the gas given *)
  ok_gas : forall s ci, 0 <= ci_gas ci -> 0 <= ro_gas (run s ci) <= ci_gas ci;
  (* balances only move between accounts, except what SELFDESTRUCT-to-self destroys *)
  ok_burn : forall s ci, 0 <= ro_burn (run s ci);
  ok_moves : forall s ci, ro_err (run s ci) = VOk ->
             sum_dbal (ro_writes (run s ci)) = - ro_burn (run s ci);
  ok_refund : forall s ci, 0 <= ro_refund (run s ci);
  ok_retlen : forall s ci, 0 <= ro_retlen (run s ci);
  (* the origin of a transaction is an externally owned account: no code runs in its name, so
     the interpreter neither bumps its nonce (CREATE) nor destructs it *)
  ok_origin : forall s ci w, In w (ro_writes (run s ci)) -> w_addr w = ci_origin ci ->
              w_dnonce w = 0 /\ w_dead w = false
}.

(** every account the interpreter writes to is in the universe [U] the sum ranges over *)
Definition Closed (U : list N) (run : state -> call_input -> run_output) : Prop :=
  forall s ci w, In w (ro_writes (run s ci)) -> In (w_addr w) U.

Definition incl_dead (U : list N) (s : state) : Prop := forall a, In a (st_dead s) -> In a U.

Section VM.
Variable run : state -> call_input -> run_output.
Hypothesis OK : ExecOK run.

Definition call_ci (mid origin caller a : N) (gas value : Z) : call_input :=
  {| ci_msg := mid; ci_create := false; ci_origin := origin; ci_caller := caller;
     ci_addr := a; ci_gas := gas; ci_value := value |}.

Lemma call_cases s mid origin caller a gas value s2 g2 e b :
  call run s mid origin caller a gas value = (s2, g2, e, b) ->
  let s1 := transfer s caller a value in
  let o := run s1 (call_ci mid origin caller a gas value) in
  let paid := value = 0 \/ can_transfer s caller value = true in
  let runs := is_precompile a || negb (N.eqb (code s1 a) 0) in
  (* insufficient balance *)
  (can_transfer s caller value = false /\ s2 = s /\ g2 = gas /\ e = VBalance /\ b = 0)
  (* no code, not a precompile: plain transfer, gas untouched *)
  \/ (paid /\ runs = false /\ s2 = s1 /\ g2 = gas /\ e = VOk /\ b = 0)
  (* the run succeeded: its effects are kept *)
  \/ (paid /\ runs = true /\ ro_err o = VOk /\ s2 = apply_writes s1 o /\ g2 = ro_gas o /\ e = VOk /\ b = ro_burn o)
  (* the run failed or reverted: back to the snapshot, and only REVERT keeps the gas *)
  \/ (runs = true /\ s2 = s /\ b = 0 /\ e <> VOk /\ (g2 = 0 \/ e = VRevert /\ g2 = ro_gas o)).
Proof.
  unfold call. fold (call_ci mid origin caller a gas value).
  destruct (negb (value =? 0) && negb (can_transfer s caller value)) eqn:Hb.
  { intros [= <- <- <- <-]. left. apply andb_true_iff in Hb. destruct Hb as [_ Hb].
    apply negb_true_iff in Hb. repeat split. exact Hb. }
  assert (Hp : value = 0 \/ can_transfer s caller value = true).
  { destruct (Z.eqb_spec value 0) as [->|_]; [left; reflexivity|right].
    cbn [negb andb] in Hb. now apply negb_false_iff in Hb. }
  destruct (is_precompile a || negb (N.eqb (code (transfer s caller a value) a) 0)) eqn:Hr;
    [|intros [= <- <- <- <-]; right; left; repeat split; exact Hp].
  destruct (ro_err (run (transfer s caller a value) (call_ci mid origin caller a gas value))) eqn:He;
    intros [= <- <- <- <-]; cbn zeta; right; right.
  1: left; repeat split; exact Hp.
  all: right; repeat split; [discriminate|auto].
Qed.

(** what Call / create guarantee about the state [s2], the gas [g2] and the burn [b] they return
    when started in [s] with [gas]; [origin] is the sender of the transaction, [caller] and [a]
    are the two ends of the value transfer *)
Record vm_ok (s s2 : state) (origin caller a : N) (gas g2 b : Z) : Prop := {
  vo_gas : 0 <= g2 <= gas;
  vo_burn : 0 <= b;
  vo_refund : 0 <= st_refund s -> 0 <= st_refund s2;
  vo_alive : ~ In origin (st_dead s) -> ~ In origin (st_dead s2);
  vo_dead : forall U, Closed U run -> incl_dead U s -> incl_dead U s2;
  vo_total : forall U, NoDup U -> Closed U run -> In caller U -> In a U -> total U s2 = total U s - b }.

Lemma dead_after_writes s o origin :
  (forall w, In w (ro_writes o) -> w_addr w = origin -> w_dead w = false) ->
  (~ In origin (st_dead s) -> ~ In origin (st_dead (apply_writes s o))) /\
  (forall U, (forall w, In w (ro_writes o) -> In (w_addr w) U) -> incl_dead U s ->
             incl_dead U (apply_writes s o)).
Proof.
  intros Ho. split.
  - intros Hn Ha. rewrite dead_apply_writes in Ha. apply dead_fold_writes in Ha.
    destruct Ha as [Ha|[w [Hw [Hwa Hd]]]]; [contradiction|].
    rewrite (Ho w Hw Hwa) in Hd. discriminate.
  - intros U Hcl Hi a Ha. rewrite dead_apply_writes in Ha. apply dead_fold_writes in Ha.
    destruct Ha as [Ha|[w [Hw [<- _]]]]; [apply Hi; exact Ha|apply Hcl; exact Hw].
Qed.

Lemma writes_ok s1 ci origin caller a gas :
  ci_origin ci = origin -> ci_gas ci = gas -> 0 <= gas -> ro_err (run s1 ci) = VOk ->
  vm_ok s1 (apply_writes s1 (run s1 ci)) origin caller a gas (ro_gas (run s1 ci)) (ro_burn (run s1 ci)).
Proof.
  intros <- <- Hg He.
  destruct (dead_after_writes s1 (run s1 ci) (ci_origin ci)) as [H1 H2].
  { intros w Hw Ha. apply (ok_origin run OK _ _ w Hw Ha). }
  constructor.
  - apply (ok_gas run OK _ _ Hg).
  - apply (ok_burn run OK).
  - intros _. rewrite refund_apply_writes. apply (ok_refund run OK).
  - exact H1.
  - intros U Hcl. apply H2. intros w Hw. eapply Hcl; exact Hw.
  - intros U Hnd Hcl _ _. rewrite total_apply_writes by (try assumption; intros w Hw; eapply Hcl; exact Hw).
    rewrite (ok_moves run OK _ _ He). lia.
Qed.

Lemma call_ok s mid origin caller a gas value s2 g2 e b :
  call run s mid origin caller a gas value = (s2, g2, e, b) -> 0 <= gas ->
  vm_ok s s2 origin caller a gas g2 b.
Proof.
  intros H Hg. apply call_cases in H. cbn zeta in H.
  destruct H as [(_ & -> & -> & _ & ->)|[(_ & _ & -> & -> & _ & ->)|[(_ & _ & He & -> & -> & _ & ->)|(_ & -> & -> & _ & Hg')]]].
  - constructor; intros; auto; lia.
  - constructor; intros; auto; try lia. rewrite total_transfer by assumption. lia.
  - destruct (writes_ok (transfer s caller a value) (call_ci mid origin caller a gas value)
                origin caller a gas eq_refl eq_refl Hg He) as [G B R A D T].
    constructor; auto. intros U Hnd Hcl Hc Ha. rewrite T, total_transfer by assumption. reflexivity.
  - pose proof (ok_gas run OK (transfer s caller a value) (call_ci mid origin caller a gas value) Hg) as Hb.
    cbn [ci_gas call_ci] in Hb. constructor; intros; auto; lia.
Qed.

(** the failed / reverted cases return the very state they were given *)
Lemma call_failed_state s mid origin caller a gas value s2 g2 e b :
  call run s mid origin caller a gas value = (s2, g2, e, b) -> e <> VOk -> s2 = s /\ b = 0.
Proof.
  intros H Hne. apply call_cases in H. cbn zeta in H.
  destruct H as [(_ & -> & _ & _ & ->)|[(_ & _ & _ & _ & -> & _)|[(_ & _ & _ & _ & _ & -> & _)|(_ & -> & -> & _)]]];
    try congruence; auto.
Qed.

(** a failed call whose balance test passed: the state it was given comes back, and all gas is
    gone unless the code reverted *)
Lemma call_failed s mid origin caller a gas value s2 g2 e b :
  call run s mid origin caller a gas value = (s2, g2, e, b) ->
  can_transfer s caller value = true -> e <> VOk ->
  s2 = s /\ b = 0 /\ (e <> VRevert -> g2 = 0).
Proof.
  intros H Hct Hne. apply call_cases in H. cbn zeta in H.
  destruct H as [(Hf & _)|[(_ & _ & _ & _ & -> & _)|[(_ & _ & _ & _ & _ & -> & _)|(_ & -> & -> & _ & Hg)]]]; try congruence.
  repeat split. intros Hnr. destruct Hg as [Hg|[Hg _]]; congruence.
Qed.

Lemma call_nonce s mid origin caller a gas value s2 g2 e b :
  call run s mid origin caller a gas value = (s2, g2, e, b) ->
  nonce s2 origin = nonce s origin.
Proof.
  intros H. apply call_cases in H. cbn zeta in H.
  destruct H as [(_ & -> & _)|[(_ & _ & -> & _)|[(_ & _ & _ & -> & _)|(_ & -> & _)]]]; try reflexivity.
  - apply nonce_transfer.
  - rewrite nonce_apply_writes; [apply nonce_transfer|].
    intros w Hw Ha. apply (ok_origin run OK _ _ w Hw Ha).
Qed.

(** KVM.create, for any wrap function [W] *)
Section Create.
Variable W : Z -> Z.

Definition cr_s0 (s : state) (caller : N) : state := set_nonce s caller (W (nonce s caller + 1)).
Definition cr_s3 (s : state) (caller address : N) (value : Z) : state :=
  transfer (set_nonce (create_account (cr_s0 s caller) address) address 1) caller address value.
Definition create_ci (mid origin caller a : N) (gas value : Z) : call_input :=
  {| ci_msg := mid; ci_create := true; ci_origin := origin; ci_caller := caller;
     ci_addr := a; ci_gas := gas; ci_value := value |}.

(** KVM.create once the balance check and the collision check have passed: this is the
    specification the harness re-implements (oracle create-outcome-differs-from-specification):
    code above the size limit and code whose deposit cannot be paid fail and burn all gas, REVERT
    keeps the gas, every failure goes back to the snapshot taken after the nonce bump *)
Lemma create_outcome s mid origin caller address gas value :
  can_transfer s caller value = true ->
  nonce (cr_s0 s caller) address = 0 -> code (cr_s0 s caller) address = 0%N ->
  let s0 := cr_s0 s caller in
  let s3 := cr_s3 s caller address value in
  let o := run s3 (create_ci mid origin caller address gas value) in
  let cdg := W (ro_retlen o * create_data_gas) in
  create W run s mid origin caller address gas value =
    match ro_err o with
    | VOk => if max_code_size <? ro_retlen o then (s0, 0, VMaxCode, 0)
             else if cdg <=? ro_gas o
                  then (set_code (apply_writes s3 o) address (ro_retcode o), ro_gas o - cdg, VOk, ro_burn o)
                  else (s0, 0, VCodeStore, 0)
    | VRevert => (s0, ro_gas o, VRevert, 0)
    | e => (s0, 0, e, 0)
    end.
Proof.
  intros Hct Hn Hc. cbn zeta. unfold create.
  fold (cr_s0 s caller). fold (cr_s3 s caller address value).
  fold (create_ci mid origin caller address gas value).
  rewrite Hct, Hn, Hc. cbn [negb Z.eqb N.eqb orb].
  set (o := run (cr_s3 s caller address value) (create_ci mid origin caller address gas value)).
  destruct (ro_err o); cbn [vm_err_eqb andb negb].
  (* an error of the run itself: the size tests change nothing *)
  2-7: rewrite orb_true_r, andb_false_r; reflexivity.
  destruct (max_code_size <? ro_retlen o); cbn [negb andb orb]; [reflexivity|].
  destruct (W (ro_retlen o * create_data_gas) <=? ro_gas o); reflexivity.
Qed.

Lemma create_cases s mid origin caller address gas value s2 g2 e b :
  create W run s mid origin caller address gas value = (s2, g2, e, b) ->
  let s0 := cr_s0 s caller in
  let s3 := cr_s3 s caller address value in
  let o := run s3 (create_ci mid origin caller address gas value) in
  let cdg := W (ro_retlen o * create_data_gas) in
  (* insufficient balance: nothing happened, not even the nonce *)
  (can_transfer s caller value = false /\ s2 = s /\ g2 = gas /\ e = VBalance /\ b = 0)
  (* success: effects kept, code deposited and paid for *)
  \/ (can_transfer s caller value = true /\ nonce s0 address = 0 /\
      ro_err o = VOk /\ ro_retlen o <= max_code_size /\ cdg <= ro_gas o /\
      s2 = set_code (apply_writes s3 o) address (ro_retcode o) /\ g2 = ro_gas o - cdg /\ e = VOk /\
      b = ro_burn o)
  (* address collision or any failure of the run: back to the snapshot taken after the nonce
     bump, and only REVERT keeps the gas *)
  \/ (can_transfer s caller value = true /\
      s2 = s0 /\ b = 0 /\ e <> VOk /\ (g2 = 0 \/ e = VRevert /\ g2 = ro_gas o)).
Proof.
  cbn zeta. destruct (can_transfer s caller value) eqn:Hct.
  2: { unfold create. rewrite Hct. intros [= <- <- <- <-]. left. repeat split. }
  intros H. right.
  destruct (nonce (cr_s0 s caller) address =? 0) eqn:Hn;
    [destruct (N.eqb (code (cr_s0 s caller) address) 0) eqn:Hc|].
  2,3: unfold create in H; fold (cr_s0 s caller) in H; rewrite Hct, Hn, ?Hc in H;
       injection H as <- <- <- <-; right; repeat split; [discriminate|left; reflexivity].
  apply Z.eqb_eq in Hn. apply N.eqb_eq in Hc.
  rewrite (create_outcome s mid origin caller address gas value Hct Hn Hc) in H. cbn zeta in H.
  set (o := run (cr_s3 s caller address value) (create_ci mid origin caller address gas value)) in *.
  destruct (ro_err o) eqn:He;
    [destruct (max_code_size <? ro_retlen o) eqn:Hex;
       [|destruct (W (ro_retlen o * create_data_gas) <=? ro_gas o) eqn:Hcd]|..];
    injection H as <- <- <- <-.
  2: { left. apply Z.ltb_ge in Hex. apply Z.leb_le in Hcd. repeat split; assumption. }
  all: right; repeat split; [discriminate|auto].
Qed.

(** a failed creation: the creator's nonce bump is all that is left; all gas is gone unless the
    init code reverted *)
Lemma create_failed s mid origin caller address gas value s2 g2 e b :
  create W run s mid origin caller address gas value = (s2, g2, e, b) ->
  can_transfer s caller value = true -> e <> VOk ->
  s2 = cr_s0 s caller /\ b = 0 /\ (e <> VRevert -> g2 = 0).
Proof.
  intros H Hct Hne. apply create_cases in H. cbn zeta in H.
  destruct H as [(Hf & _)|[(_ & _ & _ & _ & _ & _ & _ & -> & _)|(_ & -> & -> & _ & Hg)]]; try congruence.
  repeat split. intros Hnr. destruct Hg as [Hg|[Hg _]]; congruence.
Qed.

Lemma total_cr_s0 U s caller : total U (cr_s0 s caller) = total U s.
Proof. apply total_set_nonce. Qed.

Lemma total_cr_s3 U s caller address value :
  NoDup U -> In caller U -> In address U -> total U (cr_s3 s caller address value) = total U s.
Proof.
  intros. unfold cr_s3. rewrite total_transfer by assumption.
  rewrite total_set_nonce, total_create_account. apply total_cr_s0.
Qed.

Hypothesis W_nonneg : forall z, 0 <= W z.

Lemma create_ok s mid origin caller address gas value s2 g2 e b :
  create W run s mid origin caller address gas value = (s2, g2, e, b) -> 0 <= gas ->
  vm_ok s s2 origin caller address gas g2 b.
Proof.
  intros H Hg. apply create_cases in H. cbn zeta in H.
  destruct H as [(_ & -> & -> & _ & ->)|[(_ & _ & He & _ & Hc & -> & -> & _ & ->)|(_ & -> & -> & _ & Hg')]].
  - constructor; intros; auto; lia.
  - destruct (writes_ok (cr_s3 s caller address value) (create_ci mid origin caller address gas value)
                origin caller address gas eq_refl eq_refl Hg He) as [G B R A D T].
    assert (Hd : forall x, In x (st_dead (cr_s3 s caller address value)) -> In x (st_dead s)).
    { intros x Hx. unfold cr_s3 in Hx. rewrite dead_transfer, dead_set_nonce in Hx.
      exact (dead_create_account _ _ _ Hx). }
    pose proof (W_nonneg (ro_retlen (run (cr_s3 s caller address value)
                                   (create_ci mid origin caller address gas value)) * create_data_gas)).
    constructor.
    + lia.
    + exact B.
    + exact R.
    + intros Hn. rewrite dead_set_code. apply A. intros Hx. exact (Hn (Hd _ Hx)).
    + intros U Hcl Hi. unfold incl_dead. rewrite dead_set_code. apply (D U Hcl).
      intros x Hx. exact (Hi _ (Hd _ Hx)).
    + intros U Hnd Hcl Hc' Ha. rewrite total_set_code, T, total_cr_s3 by assumption. reflexivity.
  - pose proof (ok_gas run OK (cr_s3 s caller address value) (create_ci mid origin caller address gas value) Hg) as Hb.
    cbn [ci_gas create_ci] in Hb.
    constructor; intros; auto; try lia. rewrite total_cr_s0. lia.
Qed.

(** the creator's nonce is bumped exactly once whenever the balance check passes
    (creator = origin at depth 0) *)
Lemma create_nonce s mid origin address gas value s2 g2 e b :
  create W run s mid origin origin address gas value = (s2, g2, e, b) ->
  can_transfer s origin value = true ->
  W (nonce s origin + 1) <> 0 ->
  nonce s2 origin = W (nonce s origin + 1).
Proof.
  intros H Hct Hnz. apply create_cases in H. cbn zeta in H.
  assert (Hs0 : nonce (cr_s0 s origin) origin = W (nonce s origin + 1)).
  { unfold cr_s0. rewrite nonce_set_nonce, N.eqb_refl. reflexivity. }
  destruct H as [(Hf & _)|[(_ & Hn0 & _ & _ & _ & -> & _)|(_ & -> & _)]]; try congruence; try exact Hs0.
  assert (Hne : address <> origin) by (intros ->; congruence).
  rewrite nonce_set_code.
  rewrite nonce_apply_writes by (intros w Hw Ha; apply (ok_origin run OK _ _ w Hw Ha)).
  unfold cr_s3. rewrite nonce_transfer, nonce_set_nonce.
  destruct (N.eqb_spec origin address) as [Heq|_]; [congruence|].
  rewrite nonce_create_account. destruct (N.eqb_spec origin address) as [Heq|_]; [congruence|].
  exact Hs0.
Qed.

End Create.
End VM.

Arguments vo_gas {run s s2 origin caller a gas g2 b} _.
Arguments vo_burn {run s s2 origin caller a gas g2 b} _.
Arguments vo_refund {run s s2 origin caller a gas g2 b} _ _.
Arguments vo_alive {run s s2 origin caller a gas g2 b} _ _.
Arguments vo_dead {run s s2 origin caller a gas g2 b} _ _ _ _.
Arguments vo_total {run s s2 origin caller a gas g2 b} _ _ _ _ _ _.
