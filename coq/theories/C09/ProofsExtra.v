(** C09 — what exactly a failed execution costs, what a rejected transaction leaves behind
    (the reason both block loops must restore state AND pool), the proposal builder's loop and
    StateProcessor.Process against commitBlock's loop. *)
From Coq Require Import List ZArith NArith Bool Lia.
From Kardia Require Import Base.Int64 C09.Model C09.ProofsBase C09.ProofsVM C09.ProofsTx.
Import ListNotations.
Local Open Scope Z_scope.

Definition stor (s : state) (a : N) : N := a_stor (get s a).

Lemma stor_add_bal s a v b : stor (add_bal s a v) b = stor s b.
Proof. apply (field_upd a_stor). reflexivity. Qed.
Lemma stor_sub_bal s a v b : stor (sub_bal s a v) b = stor s b.
Proof. apply stor_add_bal. Qed.
Lemma stor_set_nonce s a n b : stor (set_nonce s a n) b = stor s b.
Proof. apply (field_upd a_stor). reflexivity. Qed.

Lemma stor_finalise s a : ~ In a (st_dead s) -> stor (fst (finalise s)) a = stor s a.
Proof. intros H. unfold stor. now rewrite finalise_get_notin. Qed.

Section Tx.
Variable run : state -> call_input -> run_output.
Variable ca : N -> Z -> N.
Hypothesis OK : ExecOK run.

(** the VM phase of a transaction whose execution failed: only the sender's nonce moved *)
Lemma vm_phase_failed s1 m gas1 s2 gas2 vmerr burn :
  vm_phase wrapu64 run ca s1 m gas1 = (s2, gas2, vmerr, burn) ->
  can_transfer s1 (m_from m) (m_value m) = true -> vmerr <> VOk ->
  s2 = set_nonce s1 (m_from m) (wrapu64 (nonce s1 (m_from m) + 1)) /\ burn = 0 /\
  (vmerr <> VRevert -> gas2 = 0).
Proof.
  unfold vm_phase. intros H Hct Hne. destruct (m_to m) as [to|].
  - apply (call_failed run) in H; [exact H| |exact Hne].
    apply can_transfer_iff. rewrite bal_set_nonce. apply can_transfer_iff. exact Hct.
  - exact (create_failed run wrapu64 _ _ _ _ _ _ _ _ _ _ _ H Hct Hne).
Qed.

(** a transaction whose execution failed (out of gas, invalid opcode, REVERT, code too large,
    code deposit unaffordable, address collision): nothing moves but the gas money — the sender
    pays used*price and its nonce is bumped, the proposer receives used*price, every other
    account is untouched, the value is not transferred, nothing is burnt, no refund is granted,
    and unless the code reverted the whole gas limit is used *)
Lemma executed_failed e s pool m s' pool' r :
  wf_msg m -> 0 <= pool < two64 -> st_refund s = 0 -> st_dead s = [] ->
  apply_transaction wrapu64 run ca e s pool m = Executed s' pool' r ->
  x_vmerr r <> VOk ->
  x_failed r = true /\ x_refund r = 0 /\ x_burnt r = 0 /\ x_used r = m_gas m - x_vmleft r /\
  (x_vmerr r <> VRevert -> x_vmleft r = 0 /\ x_used r = m_gas m) /\
  forall a,
    bal s' a = bal s a - (if N.eqb a (m_from m) then x_used r * m_price m else 0)
                       + (if N.eqb a (e_coinbase e) then x_used r * m_price m else 0) /\
    nonce s' a = nonce s a + (if N.eqb a (m_from m) then 1 else 0) /\
    code s' a = code s a /\ stor s' a = stor s a.
Proof.
  intros Hm Hpool Hrefund Hdead Hex Hne.
  destruct (tx_inv run ca OK e s pool m s' pool' r Hm Hpool ltac:(rewrite Hrefund; lia) Hex)
    as (ig & s2 & gas2 & vmerr & burn & X).
  assert (Hve : vmerr <> VOk) by (rewrite (ex_receipt X) in Hne; exact Hne).
  destruct (vm_phase_failed _ _ _ _ _ _ _ (ex_vm X) (proj2 (can_transfer_iff _ _ _) (ex_value X)) Hve)
    as (Hs2 & Hb & Hg0).
  pose proof (ex_ig X) as Hig. pose proof (vo_gas (ex_vm_ok X)) as Hg2.
  assert (Hn1 : nonce (bought s m) (m_from m) = nonce s (m_from m)) by apply nonce_sub_bal.
  destruct Hm as [_ Hnon _ _].
  rewrite Hn1, wrapu64_id in Hs2 by (rewrite (p_nonce _ _ _ _ _ _ (ex_passed X)); lia).
  assert (Hrf : refund_of s2 m gas2 = 0) by (apply refund_of_zero; [rewrite Hs2; exact Hrefund|lia]).
  assert (Hd4 : st_dead (paid e m s2 gas2) = []) by (unfold paid; rewrite !dead_add_bal, Hs2; exact Hdead).
  assert (Hsnd : snd (finalise (paid e m s2 gas2)) = 0) by (rewrite finalise_nodead; [reflexivity|exact Hd4]).
  rewrite (ex_receipt X), (ex_state X). cbn [x_failed x_refund x_burnt x_used x_vmleft x_vmerr].
  unfold used_of. rewrite Hsnd, Hb, Hrf.
  split; [destruct vmerr; try reflexivity; congruence|].
  split; [reflexivity|]. split; [lia|]. split; [lia|].
  split.
  { intros Hnr. rewrite (Hg0 Hnr). lia. }
  (* Finalise with an empty suicide list keeps every account *)
  intros a. assert (Ha : ~ In a (st_dead (paid e m s2 gas2))) by (rewrite Hd4; intros []).
  rewrite bal_finalise, nonce_finalise, code_finalise, stor_finalise by exact Ha.
  unfold paid, used_of. rewrite Hrf, Hs2. unfold bought.
  rewrite !bal_add_bal, bal_set_nonce, bal_sub_bal, !nonce_add_bal, nonce_set_nonce, nonce_sub_bal,
    !code_add_bal, code_set_nonce, code_sub_bal, !stor_add_bal, stor_set_nonce, stor_sub_bal.
  repeat split; try reflexivity; destruct (N.eqb_spec a (m_from m)) as [->|]; lia.
Qed.

Definition after_buy_gas (er : tx_err) : bool :=
  match er with EGasOverflow | EIntrinsic | EFundsTransfer => true | _ => false end.

(** what ApplyTransaction leaves behind when it returns an error: for the reasons checked
    before buyGas nothing; for those checked after it the sender is out of gas*price and the pool
    is short of the transaction's gas limit.  This is why commitBlock (5c78105) and the proposal
    builder (e9e909b) must restore the pool together with the state snapshot. *)
Lemma rejected_residue e s pool m er sx px :
  apply_transaction wrapu64 run ca e s pool m = Rejected er sx px ->
  if after_buy_gas er
  then sx = sub_bal s (m_from m) (m_gas m * m_price m) /\ px = pool - m_gas m
       /\ m_gas m * m_price m <= bal s (m_from m) /\ m_gas m <= pool
  else sx = s /\ px = pool.
Proof. intros H. apply rejected_inv in H. destruct H as [_ H]. destruct er; exact H. Qed.

Lemma propose_step_eq W e b m : propose_step W run ca e b m = commit_step W run ca e b m.
Proof.
  unfold propose_step, commit_step. destruct b as [st pl cum rc pn]. cbn [b_panic b_state b_pool b_cum b_receipts].
  destruct pn; [reflexivity|].
  destruct (apply_transaction W run ca e st pl m); reflexivity.
Qed.

Lemma propose_txs_eq W e txs : forall b, propose_txs W run ca e b txs = commit_txs W run ca e b txs.
Proof.
  unfold propose_txs, commit_txs. induction txs as [|m txs IH]; intros b; [reflexivity|].
  cbn [fold_left]. rewrite propose_step_eq. apply IH.
Qed.

Lemma process_txs_none W e txs : process_txs W run ca e None txs = None.
Proof. unfold process_txs. induction txs as [|m txs IH]; [reflexivity|]. cbn [fold_left process_step]. exact IH. Qed.

Lemma process_txs_cons W e ob m txs :
  process_txs W run ca e ob (m :: txs) = process_txs W run ca e (process_step W run ca e ob m) txs.
Proof. reflexivity. Qed.

(** when Process succeeds it computed what commitBlock's loop computes *)
Lemma process_txs_some W e txs : forall b b',
  process_txs W run ca e (Some b) txs = Some b' -> commit_txs W run ca e b txs = b'.
Proof.
  induction txs as [|m txs IH]; intros b b' H.
  - inversion H. reflexivity.
  - rewrite process_txs_cons in H. rewrite commit_txs_cons.
    unfold process_step in H. unfold commit_step.
    destruct (b_panic b) eqn:Hp.
    + apply IH. exact H.
    + destruct (apply_transaction W run ca e (b_state b) (b_pool b) m).
      * rewrite process_txs_none in H. discriminate.
      * apply IH. exact H.
      * apply IH. exact H.
Qed.

(** ... and it fails exactly when some transaction is rejected in the state the loop reached *)
Lemma process_txs_fails W e txs : forall b,
  process_txs W run ca e (Some b) txs = None ->
  exists txs1 bad txs2 er sx px,
    txs = txs1 ++ bad :: txs2 /\
    apply_transaction W run ca e (b_state (commit_txs W run ca e b txs1))
      (b_pool (commit_txs W run ca e b txs1)) bad = Rejected er sx px.
Proof.
  induction txs as [|m txs IH]; intros b H; [discriminate|].
  rewrite process_txs_cons in H.
  unfold process_step in H.
  assert (Hstep : forall b1, commit_step W run ca e b m = b1 ->
            process_txs W run ca e (Some b1) txs = None ->
            exists txs1 bad txs2 er sx px, m :: txs = txs1 ++ bad :: txs2 /\
              apply_transaction W run ca e (b_state (commit_txs W run ca e b txs1))
                (b_pool (commit_txs W run ca e b txs1)) bad = Rejected er sx px).
  { intros b1 Hb1 Hn. destruct (IH b1 Hn) as (t1 & bad & t2 & er & sx & px & -> & Hrej).
    exists (m :: t1), bad, t2, er, sx, px. split; [reflexivity|].
    rewrite commit_txs_cons, Hb1. exact Hrej. }
  destruct (b_panic b) eqn:Hp.
  - apply (Hstep b); [unfold commit_step; rewrite Hp; reflexivity|exact H].
  - destruct (apply_transaction W run ca e (b_state b) (b_pool b) m) as [er sx px|s1 p1 r1|] eqn:Hap.
    + exists [], m, txs, er, sx, px. split; [reflexivity|]. exact Hap.
    + eapply Hstep; [unfold commit_step; rewrite Hp, Hap; reflexivity|exact H].
    + eapply Hstep; [unfold commit_step; rewrite Hp, Hap; reflexivity|exact H].
Qed.

(** when no transaction is rejected Process succeeds *)
Lemma process_txs_complete W e txs : forall b,
  (forall txs1 m txs2, txs = txs1 ++ m :: txs2 ->
     forall er sx px, apply_transaction W run ca e (b_state (commit_txs W run ca e b txs1))
                        (b_pool (commit_txs W run ca e b txs1)) m <> Rejected er sx px) ->
  process_txs W run ca e (Some b) txs = Some (commit_txs W run ca e b txs).
Proof.
  intros b Hno.
  destruct (process_txs W run ca e (Some b) txs) as [b'|] eqn:Hp.
  - f_equal. symmetry. apply process_txs_some. exact Hp.
  - exfalso. destruct (process_txs_fails W e txs b Hp) as (t1 & bad & t2 & er & sx & px & Heq & Hrej).
    exact (Hno t1 bad t2 Heq er sx px Hrej).
Qed.

End Tx.
