(** C09 — basic facts about the state operations of the model: what each primitive does to
    balances, nonces, the refund counter and the suicide list, and to the balance sum. *)
From Coq Require Import List ZArith NArith Bool Lia.
From Kardia Require Import C09.Model.
Import ListNotations.
Local Open Scope Z_scope.

Lemma get_upd s a b x : get (upd s a x) b = if N.eqb b a then x else get s b.
Proof. reflexivity. Qed.

Lemma get_upd_eq s a x : get (upd s a x) a = x.
Proof. rewrite get_upd. now rewrite N.eqb_refl. Qed.

Lemma get_upd_neq s a b x : b <> a -> get (upd s a x) b = get s b.
Proof. intros H. rewrite get_upd. destruct (N.eqb_spec b a); congruence. Qed.

Lemma field_upd {X} (f : account -> X) s a x b : f x = f (get s a) -> f (get (upd s a x) b) = f (get s b).
Proof. intros H. rewrite get_upd. destruct (N.eqb_spec b a) as [->|]; [exact H|reflexivity]. Qed.

Lemma refund_upd s a x : st_refund (upd s a x) = st_refund s.
Proof. reflexivity. Qed.
Lemma dead_upd s a x : st_dead (upd s a x) = st_dead s.
Proof. reflexivity. Qed.

Lemma bal_add_bal s a v b : bal (add_bal s a v) b = bal s b + (if N.eqb b a then v else 0).
Proof. unfold add_bal, bal. rewrite get_upd. destruct (N.eqb_spec b a) as [->|]; cbn [a_bal with_bal]; lia. Qed.

Lemma bal_sub_bal s a v b : bal (sub_bal s a v) b = bal s b - (if N.eqb b a then v else 0).
Proof. unfold sub_bal. rewrite bal_add_bal. destruct (N.eqb b a); lia. Qed.

Lemma bal_transfer s f t v b :
  bal (transfer s f t v) b = bal s b - (if N.eqb b f then v else 0) + (if N.eqb b t then v else 0).
Proof. unfold transfer. now rewrite bal_add_bal, bal_sub_bal. Qed.

Lemma can_transfer_iff s a v : can_transfer s a v = true <-> v <= bal s a.
Proof. unfold can_transfer. rewrite negb_true_iff, Z.ltb_ge. reflexivity. Qed.

Lemma bal_set_nonce s a n b : bal (set_nonce s a n) b = bal s b.
Proof. apply (field_upd a_bal). reflexivity. Qed.

Lemma bal_set_code s a c b : bal (set_code s a c) b = bal s b.
Proof. apply (field_upd a_bal). reflexivity. Qed.

Lemma bal_create_account s a b : bal (create_account s a) b = bal s b.
Proof.
  unfold bal, create_account, get; cbn. destruct (N.eqb_spec b a); subst; reflexivity.
Qed.

Lemma code_add_bal s a v b : code (add_bal s a v) b = code s b.
Proof. apply (field_upd a_code). reflexivity. Qed.
Lemma code_sub_bal s a v b : code (sub_bal s a v) b = code s b.
Proof. apply code_add_bal. Qed.
Lemma code_set_nonce s a n b : code (set_nonce s a n) b = code s b.
Proof. apply (field_upd a_code). reflexivity. Qed.
Lemma code_transfer s f t v b : code (transfer s f t v) b = code s b.
Proof. unfold transfer. now rewrite code_add_bal, code_sub_bal. Qed.

Lemma nonce_add_bal s a v b : nonce (add_bal s a v) b = nonce s b.
Proof. apply (field_upd a_nonce). reflexivity. Qed.
Lemma nonce_sub_bal s a v b : nonce (sub_bal s a v) b = nonce s b.
Proof. apply nonce_add_bal. Qed.
Lemma nonce_set_nonce s a n b : nonce (set_nonce s a n) b = if N.eqb b a then n else nonce s b.
Proof. unfold nonce, set_nonce. rewrite get_upd. destruct (N.eqb b a); reflexivity. Qed.
Lemma nonce_set_code s a c b : nonce (set_code s a c) b = nonce s b.
Proof. apply (field_upd a_nonce). reflexivity. Qed.
Lemma nonce_transfer s f t v b : nonce (transfer s f t v) b = nonce s b.
Proof. unfold transfer. now rewrite nonce_add_bal, nonce_sub_bal. Qed.
Lemma nonce_create_account s a b : nonce (create_account s a) b = if N.eqb b a then 0 else nonce s b.
Proof. unfold nonce, create_account, get; cbn. destruct (N.eqb b a); reflexivity. Qed.

(** refund counter and suicide list are only touched by the interpreter and by Finalise, except
    that CreateAccount un-marks the address *)
Lemma refund_add_bal s a v : st_refund (add_bal s a v) = st_refund s. Proof. reflexivity. Qed.
Lemma refund_sub_bal s a v : st_refund (sub_bal s a v) = st_refund s. Proof. reflexivity. Qed.
Lemma refund_set_nonce s a n : st_refund (set_nonce s a n) = st_refund s. Proof. reflexivity. Qed.
Lemma refund_set_code s a n : st_refund (set_code s a n) = st_refund s. Proof. reflexivity. Qed.
Lemma refund_transfer s f t v : st_refund (transfer s f t v) = st_refund s. Proof. reflexivity. Qed.
Lemma refund_create_account s a : st_refund (create_account s a) = st_refund s. Proof. reflexivity. Qed.
Lemma dead_add_bal s a v : st_dead (add_bal s a v) = st_dead s. Proof. reflexivity. Qed.
Lemma dead_sub_bal s a v : st_dead (sub_bal s a v) = st_dead s. Proof. reflexivity. Qed.
Lemma dead_set_nonce s a n : st_dead (set_nonce s a n) = st_dead s. Proof. reflexivity. Qed.
Lemma dead_set_code s a n : st_dead (set_code s a n) = st_dead s. Proof. reflexivity. Qed.
Lemma dead_transfer s f t v : st_dead (transfer s f t v) = st_dead s. Proof. reflexivity. Qed.
Lemma dead_create_account s a b : In b (st_dead (create_account s a)) -> In b (st_dead s).
Proof. unfold create_account; cbn. intros H. apply filter_In in H. apply H. Qed.

Lemma total_cons U a s : total (a :: U) s = bal s a + total U s.
Proof. reflexivity. Qed.

Lemma total_ext U s s' : (forall a, In a U -> bal s' a = bal s a) -> total U s' = total U s.
Proof.
  induction U as [|b U IH]; intros H; [reflexivity|].
  rewrite !total_cons. rewrite H by (left; reflexivity). rewrite IH; [reflexivity|].
  intros a Ha. apply H. right; exact Ha.
Qed.

Lemma total_delta U s s' a :
  NoDup U -> In a U -> (forall b, b <> a -> bal s' b = bal s b) ->
  total U s' = total U s + (bal s' a - bal s a).
Proof.
  induction U as [|b U IH]; intros Hnd Hin Hoth; [destruct Hin|].
  inversion Hnd as [|? ? Hnotin Hnd']; subst.
  rewrite !total_cons.
  destruct (N.eq_dec b a) as [->|Hne].
  - rewrite (total_ext U s s'); [lia|].
    intros c Hc. apply Hoth. intros ->. contradiction.
  - destruct Hin as [->|Hin]; [congruence|].
    rewrite (IH Hnd' Hin Hoth). rewrite (Hoth b Hne). lia.
Qed.

Lemma total_add_bal U s a v : NoDup U -> In a U -> total U (add_bal s a v) = total U s + v.
Proof.
  intros Hnd Hin. rewrite (total_delta U s (add_bal s a v) a Hnd Hin).
  - rewrite bal_add_bal, N.eqb_refl. lia.
  - intros b Hb. rewrite bal_add_bal. destruct (N.eqb_spec b a); [congruence|lia].
Qed.

Lemma total_sub_bal U s a v : NoDup U -> In a U -> total U (sub_bal s a v) = total U s - v.
Proof. intros. unfold sub_bal. rewrite total_add_bal by assumption. lia. Qed.

Lemma total_transfer U s f t v :
  NoDup U -> In f U -> In t U -> total U (transfer s f t v) = total U s.
Proof.
  intros. unfold transfer. rewrite total_add_bal, total_sub_bal by assumption. lia.
Qed.

Lemma total_set_nonce U s a n : total U (set_nonce s a n) = total U s.
Proof. apply total_ext. intros. apply bal_set_nonce. Qed.
Lemma total_set_code U s a n : total U (set_code s a n) = total U s.
Proof. apply total_ext. intros. apply bal_set_code. Qed.
Lemma total_create_account U s a : total U (create_account s a) = total U s.
Proof. apply total_ext. intros. apply bal_create_account. Qed.

Lemma total_acc U s s' : st_acc s' = st_acc s -> total U s' = total U s.
Proof. intros H. apply total_ext. intros a _. unfold bal, get. now rewrite H. Qed.

Definition sum_dbal (ws : list write) : Z := fold_right (fun w acc => w_dbal w + acc) 0 ws.

Lemma bal_apply_write s w b :
  bal (apply_write s w) b = bal s b + (if N.eqb b (w_addr w) then w_dbal w else 0).
Proof.
  unfold apply_write. destruct (w_dead w); unfold bal, get; cbn;
    destruct (N.eqb_spec b (w_addr w)) as [->|]; cbn; lia.
Qed.

Lemma nonce_apply_write s w b :
  nonce (apply_write s w) b = if N.eqb b (w_addr w) then nonce s (w_addr w) + w_dnonce w else nonce s b.
Proof.
  unfold apply_write. destruct (w_dead w); unfold nonce, get; cbn;
    destruct (N.eqb b (w_addr w)); reflexivity.
Qed.

Lemma dead_apply_write s w :
  st_dead (apply_write s w) = if w_dead w then w_addr w :: st_dead s else st_dead s.
Proof. unfold apply_write. destruct (w_dead w); reflexivity. Qed.

Lemma total_apply_write U s w :
  NoDup U -> In (w_addr w) U -> total U (apply_write s w) = total U s + w_dbal w.
Proof.
  intros Hnd Hin. rewrite (total_delta U s _ (w_addr w) Hnd Hin).
  - rewrite bal_apply_write, N.eqb_refl. lia.
  - intros b Hb. rewrite bal_apply_write. destruct (N.eqb_spec b (w_addr w)); [congruence|lia].
Qed.

Lemma total_fold_writes U ws s :
  NoDup U -> (forall w, In w ws -> In (w_addr w) U) ->
  total U (fold_left apply_write ws s) = total U s + sum_dbal ws.
Proof.
  intros Hnd. revert s. induction ws as [|w ws IH]; intros s Hin; cbn [fold_left].
  - cbn. lia.
  - change (sum_dbal (w :: ws)) with (w_dbal w + sum_dbal ws).
    rewrite IH by (intros; apply Hin; right; assumption).
    rewrite total_apply_write by (try assumption; apply Hin; left; reflexivity). lia.
Qed.

Lemma total_apply_writes U s o :
  NoDup U -> (forall w, In w (ro_writes o) -> In (w_addr w) U) ->
  total U (apply_writes s o) = total U s + sum_dbal (ro_writes o).
Proof.
  intros Hnd Hin. unfold apply_writes.
  transitivity (total U (fold_left apply_write (ro_writes o) s)); [apply total_acc; reflexivity|].
  now apply total_fold_writes.
Qed.

Lemma refund_apply_writes s o : st_refund (apply_writes s o) = ro_refund o.
Proof. reflexivity. Qed.

Lemma nonce_fold_writes ws s a :
  (forall w, In w ws -> w_addr w = a -> w_dnonce w = 0) ->
  nonce (fold_left apply_write ws s) a = nonce s a.
Proof.
  revert s. induction ws as [|w ws IH]; intros s H; cbn [fold_left]; [reflexivity|].
  rewrite IH by (intros; eapply H; [right; eassumption|assumption]).
  rewrite nonce_apply_write. destruct (N.eqb_spec a (w_addr w)) as [->|]; [|reflexivity].
  rewrite (H w) by (try left; reflexivity). lia.
Qed.

Lemma nonce_apply_writes s o a :
  (forall w, In w (ro_writes o) -> w_addr w = a -> w_dnonce w = 0) ->
  nonce (apply_writes s o) a = nonce s a.
Proof. intros H. unfold apply_writes, nonce, get; cbn. now apply nonce_fold_writes. Qed.

Lemma dead_fold_writes ws s a :
  In a (st_dead (fold_left apply_write ws s)) ->
  In a (st_dead s) \/ exists w, In w ws /\ w_addr w = a /\ w_dead w = true.
Proof.
  revert s. induction ws as [|w ws IH]; intros s H; cbn [fold_left] in H; [left; exact H|].
  destruct (IH _ H) as [Hd|[w' [Hw' Hrest]]].
  - rewrite dead_apply_write in Hd. destruct (w_dead w) eqn:Hdead.
    + destruct Hd as [<-|Hd]; [right; exists w; repeat split; auto; left; reflexivity|left; exact Hd].
    + left; exact Hd.
  - right. exists w'. split; [right; exact Hw'|exact Hrest].
Qed.

Lemma dead_apply_writes s o : st_dead (apply_writes s o) = st_dead (fold_left apply_write (ro_writes o) s).
Proof. reflexivity. Qed.

Lemma kill_fold_total U l s b :
  NoDup U -> (forall a, In a l -> In a U) ->
  total U (fst (fold_left kill l (s, b))) = total U s - (snd (fold_left kill l (s, b)) - b).
Proof.
  intros Hnd. revert s b. induction l as [|a l IH]; intros s b Hin; cbn [fold_left].
  - cbn [fst snd]. lia.
  - change (kill (s, b) a) with (upd s a empty_account, b + bal s a).
    rewrite IH by (intros; apply Hin; right; assumption).
    rewrite (total_delta U s (upd s a empty_account) a Hnd).
    + replace (bal (upd s a empty_account) a) with 0
        by (unfold bal; rewrite get_upd_eq; reflexivity).
      lia.
    + apply Hin; left; reflexivity.
    + intros c Hc. unfold bal. now rewrite get_upd_neq.
Qed.

Lemma total_finalise U s :
  NoDup U -> (forall a, In a (st_dead s) -> In a U) ->
  total U (fst (finalise s)) = total U s - snd (finalise s).
Proof.
  intros Hnd Hin. unfold finalise. cbn [fst snd].
  transitivity (total U (fst (fold_left kill (st_dead s) (s, 0)))); [apply total_acc; reflexivity|].
  rewrite (kill_fold_total U _ s 0 Hnd Hin). lia.
Qed.

Lemma finalise_nodead s : st_dead s = [] -> finalise s = ({| st_acc := st_acc s; st_refund := 0; st_dead := [] |}, 0).
Proof. intros H. unfold finalise. rewrite H. reflexivity. Qed.

Lemma kill_fold_acc_notin l s b a :
  ~ In a l -> get (fst (fold_left kill l (s, b))) a = get s a.
Proof.
  revert s b. induction l as [|c l IH]; intros s b Hn; cbn [fold_left]; [reflexivity|].
  change (kill (s, b) c) with (upd s c empty_account, b + bal s c).
  rewrite IH by (intros H; apply Hn; right; exact H).
  apply get_upd_neq. intros ->. apply Hn. left; reflexivity.
Qed.

Lemma finalise_get_notin s a : ~ In a (st_dead s) -> get (fst (finalise s)) a = get s a.
Proof.
  intros H. unfold finalise. cbn [fst]. unfold get at 1. cbn [st_acc].
  change (get (fst (fold_left kill (st_dead s) (s, 0))) a = get s a). now apply kill_fold_acc_notin.
Qed.

Lemma bal_finalise s a : ~ In a (st_dead s) -> bal (fst (finalise s)) a = bal s a.
Proof. intros H. unfold bal. now rewrite finalise_get_notin. Qed.

Lemma code_finalise s a : ~ In a (st_dead s) -> code (fst (finalise s)) a = code s a.
Proof. intros H. unfold code. now rewrite finalise_get_notin. Qed.

Lemma nonce_finalise s a : ~ In a (st_dead s) -> nonce (fst (finalise s)) a = nonce s a.
Proof. intros H. unfold nonce. now rewrite finalise_get_notin. Qed.

Lemma finalise_get_in s a : In a (st_dead s) -> get (fst (finalise s)) a = empty_account.
Proof.
  intros Hd. unfold finalise. cbn [fst]. unfold get at 1. cbn [st_acc].
  change (get (fst (fold_left kill (st_dead s) (s, 0))) a = empty_account).
  generalize 0. revert Hd. generalize (st_dead s) as l. intros l. revert s.
  induction l as [|c l IH]; intros s Hd z; [destruct Hd|].
  cbn [fold_left]. change (kill (s, z) c) with (upd s c empty_account, z + bal s c).
  destruct (in_dec N.eq_dec a l) as [Hin|Hnin].
  - apply IH. exact Hin.
  - rewrite kill_fold_acc_notin by exact Hnin.
    destruct Hd as [->|Hd]; [apply get_upd_eq|contradiction].
Qed.

Lemma finalise_refund s : st_refund (fst (finalise s)) = 0. Proof. reflexivity. Qed.
Lemma finalise_dead s : st_dead (fst (finalise s)) = []. Proof. reflexivity. Qed.
