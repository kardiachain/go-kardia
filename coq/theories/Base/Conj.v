(** Introduction rule for long conjunctions.

    Splitting [A1 /\ (A2 /\ ... /\ An)] with [split] builds [conj A1 (A2 /\ ... /\ An) p1 (conj A2 ...)]:
    every tail of the statement is an argument of a [conj], so the proof term, and the time to check it, grow
    with the square of the statement.  The source-tie statements are long and made of strings.
    [conjs_intro [A1; ...; An] p1 ... pn] names every conjunct once. *)
From Coq Require Import List.
Import ListNotations.

Fixpoint conjs (l : list Prop) : Prop :=
  match l with [] => True | [P] => P | P :: l' => P /\ conjs l' end.

Fixpoint arrows (l : list Prop) (R : Prop) : Prop :=
  match l with [] => R | P :: l' => P -> arrows l' R end.

Lemma conjs_intro_gen l : forall R : Prop, (conjs l -> R) -> arrows l R.
Proof.
  induction l as [|P l IH]; intros R k; [exact (k I)|].
  intros p. apply IH. intros c. apply k. destruct l; [exact p|exact (conj p c)].
Qed.

Lemma conjs_intro l : arrows l (conjs l).
Proof. apply conjs_intro_gen. exact (fun c => c). Qed.

(** [split_all]: on a goal [A1 /\ ... /\ An] (right-nested, [An] not a conjunction), one subgoal per
    conjunct, in order. *)
Ltac conjuncts G :=
  lazymatch G with ?A /\ ?B => let l := conjuncts B in constr:(A :: l) | _ => constr:([G]) end.
Ltac split_all := lazymatch goal with |- ?G => let l := conjuncts G in apply (conjs_intro l) end.
