(** Semantics of the Go machine-integer operations that the source translator /verif/go2coq emits.
    Every integer value is a [Z]; an operation at Go type [t] computes the exact result in [Z] and
    wraps it into the range of [t] (two's complement for signed types, modular for unsigned ones),
    exactly as the Go specification prescribes for non-constant integer arithmetic.
    Division and shifts are only emitted for NON-ZERO CONSTANT divisors / constant shift counts (the
    translator refuses anything else), so the totalisation of [Z.quot _ 0] is never reached. *)
From Coq Require Import ZArith NArith Arith Bool Lia.
From Kardia Require Import Base.Int64.
Local Open Scope Z_scope.

Inductive ity := I8 | I16 | I32 | I64 | U8 | U16 | U32 | U64.

Definition wrap (t : ity) (z : Z) : Z :=
  match t with
  | I8 => (z + 128) mod 256 - 128
  | I16 => (z + 32768) mod 65536 - 32768
  | I32 => (z + 2147483648) mod 4294967296 - 2147483648
  | I64 => (z + 9223372036854775808) mod 18446744073709551616 - 9223372036854775808
  | U8 => z mod 256
  | U16 => z mod 65536
  | U32 => z mod 4294967296
  | U64 => z mod 18446744073709551616
  end.

Definition in_range (t : ity) (z : Z) : Prop :=
  match t with
  | I8 => -128 <= z <= 127
  | I16 => -32768 <= z <= 32767
  | I32 => -2147483648 <= z <= 2147483647
  | I64 => -9223372036854775808 <= z <= 9223372036854775807
  | U8 => 0 <= z <= 255
  | U16 => 0 <= z <= 65535
  | U32 => 0 <= z <= 4294967295
  | U64 => 0 <= z <= 18446744073709551615
  end.

Definition go_add (t : ity) (a b : Z) : Z := wrap t (a + b).
Definition go_sub (t : ity) (a b : Z) : Z := wrap t (a - b).
Definition go_mul (t : ity) (a b : Z) : Z := wrap t (a * b).
Definition go_neg (t : ity) (a : Z) : Z := wrap t (- a).
(** Go's integer division truncates toward zero, the remainder has the sign of the dividend *)
Definition go_quot (t : ity) (a b : Z) : Z := wrap t (Z.quot a b).
Definition go_rem (t : ity) (a b : Z) : Z := wrap t (Z.rem a b).
Definition go_shl (t : ity) (a k : Z) : Z := wrap t (a * 2 ^ k).
(** [>>] is an arithmetic shift on signed and a logical shift on unsigned operands; on an in-range
    [Z] both are the floor division by [2^k] *)
Definition go_shr (t : ity) (a k : Z) : Z := wrap t (a / 2 ^ k).
Definition go_and (t : ity) (a b : Z) : Z := wrap t (Z.land a b).
Definition go_or (t : ity) (a b : Z) : Z := wrap t (Z.lor a b).
Definition go_xor (t : ity) (a b : Z) : Z := wrap t (Z.lxor a b).
Definition go_conv (t : ity) (a : Z) : Z := wrap t a.
Definition go_neqb (a b : Z) : bool := negb (Z.eqb a b).

(** math/bits *)
Definition go_bits_add64 (x y c : Z) : Z * Z :=
  ((x + y + c) mod 18446744073709551616, (x + y + c) / 18446744073709551616).
Definition go_bits_sub64 (x y b : Z) : Z * Z :=
  ((x - y - b) mod 18446744073709551616, if Z.ltb (x - y - b) 0 then 1 else 0).
Definition go_bits_mul64 (x y : Z) : Z * Z :=
  ((x * y) / 18446744073709551616, (x * y) mod 18446744073709551616).

Lemma wrap_id t z : in_range t z -> wrap t z = z.
Proof.
  destruct t; unfold in_range, wrap; intros H;
    first [ rewrite Z.mod_small by lia; lia | apply Z.mod_small; lia ].
Qed.

Lemma wrap_range t z : in_range t (wrap t z).
Proof.
  destruct t; unfold in_range, wrap;
    match goal with |- context [ ?a mod ?m ] => pose proof (Z.mod_pos_bound a m ltac:(lia)) end; lia.
Qed.

Lemma wrap_I64 z : wrap I64 z = wrap64 z.
Proof. reflexivity. Qed.
Lemma wrap_U64 z : wrap U64 z = wrapu64 z.
Proof. reflexivity. Qed.
Lemma in_range_I64 z : in_range I64 z <-> in_int64 z.
Proof. unfold in_range, in_int64, min_int64, max_int64, two63. lia. Qed.

Lemma go_neqb_spec a b : go_neqb a b = true <-> a <> b.
Proof. unfold go_neqb. rewrite negb_true_iff, Z.eqb_neq. tauto. Qed.

(** A comparison of the [Z] images of two naturals is the comparison of the naturals: go2coq writes every
    operand as a [Z], the models compare [N]s and [nat]s.  Oriented from the generated form to the model's. *)
Lemma ZofN_eqb a b : (Z.of_N a =? Z.of_N b) = N.eqb a b.
Proof. now rewrite Z.eqb_compare, N2Z.inj_compare, <- N.eqb_compare. Qed.
Lemma ZofN_ltb a b : (Z.of_N a <? Z.of_N b) = N.ltb a b.
Proof. unfold Z.ltb, N.ltb. now rewrite N2Z.inj_compare. Qed.
Lemma ZofN_leb a b : (Z.of_N a <=? Z.of_N b) = N.leb a b.
Proof. unfold Z.leb, N.leb. now rewrite N2Z.inj_compare. Qed.
Lemma ZofN_gtb a b : (Z.of_N a >? Z.of_N b) = N.ltb b a.
Proof. rewrite Z.gtb_ltb. apply ZofN_ltb. Qed.
Lemma ZofN_geb a b : (Z.of_N a >=? Z.of_N b) = N.leb b a.
Proof. rewrite Z.geb_leb. apply ZofN_leb. Qed.
Lemma ZofN_neqb a b : go_neqb (Z.of_N a) (Z.of_N b) = negb (N.eqb a b).
Proof. unfold go_neqb. now rewrite ZofN_eqb. Qed.
Lemma Zofnat_eqb a b : (Z.of_nat a =? Z.of_nat b) = Nat.eqb a b.
Proof. now rewrite Z.eqb_compare, Nat2Z.inj_compare, <- Nat.eqb_compare. Qed.
Lemma Zofnat_ltb a b : (Z.of_nat a <? Z.of_nat b) = Nat.ltb a b.
Proof. now rewrite Z.ltb_compare, Nat2Z.inj_compare, <- Nat.ltb_compare. Qed.
Lemma Zofnat_leb a b : (Z.of_nat a <=? Z.of_nat b) = Nat.leb a b.
Proof. now rewrite Z.leb_compare, Nat2Z.inj_compare, <- Nat.leb_compare. Qed.
Lemma Zofnat_gtb a b : (Z.of_nat a >? Z.of_nat b) = Nat.ltb b a.
Proof. rewrite Z.gtb_ltb. apply Zofnat_ltb. Qed.
Lemma Zofnat_neqb a b : go_neqb (Z.of_nat a) (Z.of_nat b) = negb (Nat.eqb a b).
Proof. unfold go_neqb. now rewrite Zofnat_eqb. Qed.

Definition modulus (t : ity) : Z :=
  match t with
  | I8 | U8 => 256 | I16 | U16 => 65536 | I32 | U32 => 4294967296 | I64 | U64 => 18446744073709551616
  end.

Lemma wrap_spec t e : exists k, wrap t e = e + k * modulus t.
Proof.
  destruct t; unfold wrap, modulus;
    match goal with
    | |- context [ ?a mod ?m ] => exists (- (a / m)); pose proof (Z.div_mod a m ltac:(lia)); lia
    end.
Qed.

(** [gosem]: unfold the operations and discharge every wrap whose argument is provably in range. *)
Ltac gosem_unfold :=
  unfold go_add, go_sub, go_mul, go_neg, go_quot, go_rem, go_shl, go_shr, go_conv, go_neqb in *.
Ltac gosem_wraps :=
  repeat match goal with
         | |- context [ wrap ?t ?e ] => rewrite (wrap_id t e) by (unfold in_range in *; lia)
         end.
Ltac gosem := gosem_unfold; gosem_wraps.

(** [abstract_wraps]: replace every [wrap t e] by a fresh integer [w] with [w = e + k * 2^bits] and
    [w] in the range of [t]; what remains is linear integer arithmetic. *)
Ltac abstract_wraps :=
  repeat match goal with
         | |- context [ wrap ?t ?e ] =>
             let w := fresh "w" in let k := fresh "k" in let Hk := fresh "Hk" in let Hr := fresh "Hr" in
             destruct (wrap_spec t e) as [k Hk]; pose proof (wrap_range t e) as Hr;
             set (w := wrap t e) in *; clearbody w; cbn [modulus in_range] in Hk, Hr
         | H : context [ wrap ?t ?e ] |- _ =>
             let w := fresh "w" in let k := fresh "k" in let Hk := fresh "Hk" in let Hr := fresh "Hr" in
             destruct (wrap_spec t e) as [k Hk]; pose proof (wrap_range t e) as Hr;
             set (w := wrap t e) in *; clearbody w; cbn [modulus in_range] in Hk, Hr
         end.

(** [bool_cases]: case analysis on every integer comparison of the goal *)
Ltac bool_cases :=
  repeat (rewrite ?Z.gtb_ltb, ?Z.geb_leb;
          match goal with
          | |- context [ Z.ltb ?x ?y ] => destruct (Z.ltb_spec x y)
          | |- context [ Z.leb ?x ?y ] => destruct (Z.leb_spec x y)
          | |- context [ Z.eqb ?x ?y ] => destruct (Z.eqb_spec x y)
          end; cbn [andb orb negb xorb]).

(** the usual closing script of a source-tie lemma *)
Ltac gosolve :=
  gosem_unfold; abstract_wraps; bool_cases;
  try reflexivity; try lia; try (exfalso; lia); repeat f_equal; try lia.
