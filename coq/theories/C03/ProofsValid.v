(** C03 — a non-nil prevote is only ever signed for a block the node was given and that passes
    validation at the vote's height (C03_votes_only_valid). *)
From Coq Require Import List ZArith NArith Bool.
From Kardia Require Import C03.Node C03.ProofsStep C03.Spec.
Import ListNotations.
Local Open Scope N_scope.

Lemma received_app a b : received (a ++ b) = received a ++ received b.
Proof. unfold received. apply flat_map_app. Qed.

Lemma held_app evs l b : held (received l) b -> held (received (evs ++ l)) b.
Proof. intros (h & r & H). exists h, r. rewrite received_app. apply in_or_app. now right. Qed.

Lemma app_split {A} (evs l post pre : list A) x :
  evs ++ l = post ++ x :: pre ->
  (exists post', l = post' ++ x :: pre /\ post = evs ++ post') \/
  (exists e2, evs = post ++ x :: e2 /\ pre = e2 ++ l).
Proof.
  revert post. induction evs as [|e evs IH]; intros post H; cbn in H.
  - left. exists post. split; auto.
  - destruct post as [|p post]; cbn in H.
    + injection H as -> <-. right. exists evs. split; reflexivity.
    + injection H as <- H. destruct (IH post H) as [(post' & E1 & E2)|(e2 & E1 & E2)].
      * left. exists post'. split; [exact E1|]. cbn. now rewrite E2.
      * right. exists e2. split; [cbn; now rewrite E1|exact E2].
Qed.

Section Valid.
Variable valid : N -> block -> bool.
Variable vals : N -> list Z.
Variable proposer : N -> N -> N.
Variable mkblock : N -> N -> option block.
Variable cfg : config.
Variable me : option N.

Definition good (pre : list event) (v : vote) : Prop :=
  exists b, held (received pre) b /\ b_hash b = bh (v_bid v) /\ valid (v_height v) b = true.

Definition hist (l : list event) : Prop :=
  forall post v pre, l = post ++ EvOut (SignVote v) :: pre ->
    v_type v = Prevote -> bid_is_zero (v_bid v) = false -> good pre v.

(** clause (5) of the node's invariant ([NI] in ProofsLock.v), with "the proposal block and the
    locked block were received" *)
Record Inv6 (s : nstate) : Prop := {
  j_pb : forall b, pblock s = Some b -> held (received (log s)) b;
  j_lk : forall b, locked s = Some b -> held (received (log s)) b /\ valid (height s) b = true;
  j_hist : hist (log s) }.

(** the events a transition may add: a non-nil prevote must be for the locked block or for the
    validated proposal block of the state the transition started from *)
Definition ok_evs (s : nstate) (evs : list event) : Prop :=
  forall v, In (EvOut (SignVote v)) evs -> v_type v = Prevote -> bid_is_zero (v_bid v) = false ->
    v_height v = height s /\
    exists b, (locked s = Some b \/ (pblock s = Some b /\ valid (height s) b = true)) /\
              b_hash b = bh (v_bid v).

Lemma Inv6_step s s' evs :
  Inv6 s -> height s' = height s -> log s' = evs ++ log s -> ok_evs s evs ->
  (forall b, pblock s' = Some b -> pblock s = Some b \/ locked s = Some b \/ held (received (log s)) b) ->
  (forall b, locked s' = Some b -> locked s = Some b \/ (pblock s = Some b /\ valid (height s) b = true)) ->
  Inv6 s'.
Proof.
  intros [J1 J2 J3] Hh Hl Ok Hp Hk. split; rewrite ?Hl, ?Hh.
  - intros b Hb. apply held_app. destruct (Hp b Hb) as [H|[H|H]]; auto. now apply J2.
  - intros b Hb. destruct (Hk b Hb) as [H|(H & V)].
    + destruct (J2 b H) as (A & B). split; [now apply held_app|exact B].
    + split; [apply held_app; auto|exact V].
  - intros post v pre E Ty Nz. apply app_split in E. destruct E as [(post' & E1 & E2)|(e2 & E1 & E2)].
    + eapply J3; eauto.
    + destruct (Ok v) as (Vh & b & Hb & Eh); auto. { rewrite E1. apply in_or_app. right. now left. }
      exists b. rewrite E2, Vh. split; [|split; [exact Eh|]].
      * apply held_app. destruct Hb as [H|(H & _)]; auto. now apply J2.
      * destruct Hb as [H|(_ & V)]; auto. now apply J2.
Qed.

(** the common case: nothing relevant changes and no non-nil prevote is signed *)
Definition quiet_evs (evs : list event) : Prop :=
  forall v, In (EvOut (SignVote v)) evs -> v_type v = Prevote -> bid_is_zero (v_bid v) = true.

Lemma quiet_ok s evs : quiet_evs evs -> ok_evs s evs.
Proof. intros Q v Hin Ty Nz. rewrite (Q v Hin Ty) in Nz. discriminate. Qed.

Lemma Inv6_quiet s s' evs :
  Inv6 s -> height s' = height s -> log s' = evs ++ log s -> quiet_evs evs ->
  (pblock s' = pblock s \/ pblock s' = None \/ pblock s' = locked s) ->
  (locked s' = locked s \/ locked s' = None) -> Inv6 s'.
Proof.
  intros J Hh Hl Q Hp Hk. eapply Inv6_step; eauto using quiet_ok.
  - intros b Hb. destruct Hp as [E|[E|E]]; rewrite E in Hb; auto. discriminate.
  - intros b Hb. destruct Hk as [E|E]; rewrite E in Hb; auto. discriminate.
Qed.

Lemma quiet_nil : quiet_evs [].
Proof. intros v []. Qed.
Lemma quiet_one o : (forall v, o <> SignVote v) -> quiet_evs [EvOut o].
Proof. intros H v [E|[]]. injection E as ->. exfalso. eapply H; eauto. Qed.
Lemma quiet_in i : quiet_evs [EvIn i].
Proof. intros v [E|[]]. discriminate. Qed.

(** states that agree on what [Inv6] reads *)
Definition v_eq (s s0 : nstate) : Prop :=
  height s0 = height s /\ pblock s0 = pblock s /\ locked s0 = locked s /\ log s0 = log s.
Lemma frame_v s s0 : frame s s0 -> v_eq s s0.
Proof. intros (A1 & _ & _ & A4 & _ & A6 & A7 & _). repeat split; assumption. Qed.
Lemma Inv6_eq s s0 : v_eq s s0 -> Inv6 s -> Inv6 s0.
Proof.
  intros (A1 & A2 & A3 & A4) J. apply (Inv6_quiet s s0 []); auto using quiet_nil.
Qed.

Lemma Inv6_panic s : Inv6 s -> Inv6 (panic s).
Proof. intros J. apply (Inv6_quiet s _ [EvOut Panic]); auto. apply quiet_one. discriminate. Qed.

Lemma Inv6_sched h r st s : Inv6 s -> Inv6 (sched h r st s).
Proof.
  intros J. unfold sched.
  destruct (tk_accepts _ _); apply (Inv6_quiet s _ [EvOut (Sched h r st)]); auto; apply quiet_one; discriminate.
Qed.

(** sign_vote on a state that agrees with [s], for a value that is fine in [s], then two setters *)
Lemma sign_step ty b st' r s s0 :
  Inv6 s -> height s0 = height s -> log s0 = log s ->
  (forall x, pblock s0 = Some x -> pblock s = Some x \/ locked s = Some x) ->
  (forall x, locked s0 = Some x -> locked s = Some x \/ (pblock s = Some x /\ valid (height s) x = true)) ->
  (ty = Prevote -> bid_is_zero b = false ->
     exists x, (locked s = Some x \/ (pblock s = Some x /\ valid (height s) x = true)) /\ b_hash x = bh b) ->
  Inv6 (set_rstep st' (set_round r (sign_vote me ty b s0))).
Proof.
  intros J Hh Hl Hp Hk Hb. unfold sign_vote. destruct me as [i|].
  - eapply Inv6_step with (s := s)
      (evs := [EvOut (SignVote {| v_type := ty; v_height := height s0; v_round := round s0; v_bid := b; v_idx := i; v_ok := true |})]);
      cbn; auto.
    + now rewrite Hl.
    + intros v [E|[]] Ty Nz. injection E as <-. cbn in *. split; [exact Hh|]. now apply Hb.
    + intros x Hx. destruct (Hp x Hx); auto.
  - eapply Inv6_step with (s := s) (evs := []); cbn; auto.
    + intros v [].
    + intros x Hx. destruct (Hp x Hx); auto.
Qed.

Lemma sign_same ty b st' r s :
  Inv6 s ->
  (ty = Prevote -> bid_is_zero b = false ->
     exists x, (locked s = Some x \/ (pblock s = Some x /\ valid (height s) x = true)) /\ b_hash x = bh b) ->
  Inv6 (set_rstep st' (set_round r (sign_vote me ty b s))).
Proof. intros J H. apply sign_step with (s := s); auto. Qed.

Lemma enter_prevote_J h r s : Inv6 s -> Inv6 (enter_prevote valid me h r s).
Proof.
  intros J. unfold enter_prevote. destruct (_ || _); [exact J|]. unfold do_prevote.
  set (s1 := match locked s with Some _ => if stale_lock s then unlock s else s | None => s end).
  assert (J1 : Inv6 s1).
  { subst s1. destruct (locked s); [|exact J]. destruct (stale_lock s); [|exact J].
    apply (Inv6_quiet s _ []); auto using quiet_nil. }
  clearbody s1. clear J. unfold do_prevote_locked.
  destruct (locked s1) as [lb|] eqn:El.
  { apply sign_same; auto. intros _ _. exists lb. auto. }
  destruct (pblock s1) as [pb|] eqn:Ep; [|apply sign_same; auto; intros _ Nz; discriminate].
  destruct (negb (valid (height s1) pb)) eqn:Ev; [apply sign_same; auto; intros _ Nz; discriminate|].
  apply negb_false_iff in Ev. apply sign_same; auto. intros _ _. exists pb. auto.
Qed.

Lemma enter_precommit_J h r s : Inv6 s -> Inv6 (enter_precommit valid me h r s).
Proof.
  intros J. unfold enter_precommit. destruct (_ || _); [exact J|].
  assert (T : forall b s0, height s0 = height s -> log s0 = log s ->
     (forall x, pblock s0 = Some x -> pblock s = Some x \/ locked s = Some x) ->
     (forall x, locked s0 = Some x -> locked s = Some x \/ (pblock s = Some x /\ valid (height s) x = true)) ->
     Inv6 (set_rstep SPrecommit (set_round r (sign_vote me Precommit b s0)))).
  { intros b s0 A B C D. apply sign_step with (s := s); auto. discriminate. }
  destruct (maj_of _); [|apply T; auto].
  destruct (pol_info s <? r); [now apply Inv6_panic|].
  destruct (bid_is_zero _).
  { destruct (locked s) eqn:El; apply T; auto; cbn; intros; rewrite ?El in *; try discriminate; auto. }
  destruct (hashes_to (locked s) _). { apply T; auto. }
  destruct (hashes_to (pblock s) _).
  { destruct (pblock s) as [pb|] eqn:Ep; [|exact J].
    destruct (negb (valid (height s) pb)) eqn:Ev; [now apply Inv6_panic|]. apply negb_false_iff in Ev.
    apply T; auto; cbn.
    - rewrite Ep. auto.
    - intros x Hx. right. rewrite <- Ep. split; [congruence|]. injection Hx as <-. exact Ev. }
  destruct (negb _); apply T; auto; cbn; intros; try discriminate; auto.
Qed.

Lemma enter_prevote_wait_J h r s : Inv6 s -> Inv6 (enter_prevote_wait vals h r s).
Proof.
  intros J. apply enter_prevote_wait_cases; [exact J|now apply Inv6_panic|]. intros _ _ _.
  eapply Inv6_eq; [|apply (Inv6_sched h r SPrevoteWait s J)]. repeat split.
Qed.

Lemma enter_precommit_wait_J h r s : Inv6 s -> Inv6 (enter_precommit_wait vals h r s).
Proof.
  intros J. apply enter_precommit_wait_cases; [exact J|now apply Inv6_panic|]. intros _ _.
  eapply Inv6_eq; [|apply (Inv6_sched h r SPrecommitWait s J)]. repeat split.
Qed.

Lemma update_to_state_J s : Inv6 s -> Inv6 (update_to_state s).
Proof.
  intros [J1 J2 J3]. apply update_to_state_cases; [now apply Inv6_panic|].
  intros lc. split; cbn; auto; discriminate.
Qed.

Lemma finalize_commit_J h s : Inv6 s -> Inv6 (finalize_commit valid h s).
Proof.
  intros J. apply finalize_commit_cases; [exact J|now apply Inv6_panic|]. intros b pb _ _ _ _.
  apply andthen_ind; [apply andthen_ind|].
  - apply (Inv6_quiet s _ [EvOut (Commit (height s) pb (commit_round s))]); auto. apply quiet_one. discriminate.
  - apply update_to_state_J.
  - apply Inv6_sched.
Qed.

Lemma try_finalize_commit_J h s : Inv6 s -> Inv6 (try_finalize_commit valid h s).
Proof.
  intros J. apply try_finalize_commit_cases; [exact J|now apply Inv6_panic|now apply finalize_commit_J].
Qed.

Lemma enter_commit_J h cr s : Inv6 s -> Inv6 (enter_commit valid h cr s).
Proof.
  intros J. unfold enter_commit. destruct (_ || _); [exact J|].
  destruct (maj_of _) as [b|]; [|now apply Inv6_panic].
  apply try_finalize_commit_J.
  destruct (hashes_to (locked s) _); destruct (_ && _); apply (Inv6_quiet s _ []); cbn; auto using quiet_nil.
Qed.

Lemma decide_proposal_J m h r s : Inv6 s -> Inv6 (decide_proposal mkblock cfg m h r s).
Proof.
  intros J. destruct (decide_proposal_shape mkblock cfg m h r s) as [->|(p & _ & _ & ->)]; [exact J|].
  apply (Inv6_quiet s _ [EvOut (SignProposal p)]); auto. apply quiet_one. discriminate.
Qed.

Lemma enter_propose_J h r s : Inv6 s -> Inv6 (enter_propose valid proposer mkblock cfg me h r s).
Proof.
  intros J. unfold enter_propose. destruct (_ || _); [exact J|].
  set (s1 := sched h r SPropose s). assert (J1 : Inv6 s1) by now apply Inv6_sched.
  set (s2 := match me with Some i => _ | None => s1 end).
  assert (J2 : Inv6 s2).
  { subst s2. destruct me; [|exact J1]. destruct (_ =? _); [now apply decide_proposal_J|exact J1]. }
  assert (J3 : Inv6 (set_rstep SPropose (set_round r s2))) by (eapply Inv6_eq; [|exact J2]; repeat split).
  destruct (is_proposal_complete _); [now apply enter_prevote_J|exact J3].
Qed.

Lemma hvs_set_round_J nr s : Inv6 s -> Inv6 (hvs_set_round nr s).
Proof.
  intros J. unfold hvs_set_round. destruct (_ && _); [now apply Inv6_panic|].
  eapply Inv6_eq; [|exact J].
  apply frame_v. eapply frame_trans; [apply add_rounds_from_frame|]. repeat split.
Qed.

Lemma enter_new_round_J h r s : Inv6 s -> Inv6 (enter_new_round valid proposer mkblock cfg me h r s).
Proof.
  intros J. unfold enter_new_round. destruct (_ || _); [exact J|].
  match goal with |- Inv6 ((_ ;; ?g) ?s3) => set (Gf := g); set (S3 := s3) end.
  assert (J3 : Inv6 S3).
  { subst S3. destruct (round s <? r); destruct (r =? 1); apply (Inv6_quiet s _ []); cbn; auto using quiet_nil. }
  apply andthen_ind; [now apply hvs_set_round_J|]. generalize (hvs_set_round (r + 1) S3). intros x Jx. subst Gf. cbn beta.
  assert (J5 : Inv6 (set_tt_precommit false x)) by (eapply Inv6_eq; [|exact Jx]; repeat split).
  destruct (_ && _).
  - destruct (empty_interval_pos cfg); [now apply Inv6_sched|exact J5].
  - now apply enter_propose_J.
Qed.

Lemma polka_update_J vr b s : Inv6 s -> Inv6 (polka_update vr b s).
Proof.
  intros J. unfold polka_update.
  set (sa := match locked s with Some _ => _ | None => s end).
  assert (Ja : Inv6 sa).
  { subst sa. destruct (locked s) eqn:El; [|exact J]. destruct (_ && _); [|exact J].
    apply (Inv6_quiet s _ []); auto using quiet_nil. }
  clearbody sa.
  destruct (negb (bh b =? 0) && (valid_round sa <? vr) && (vr =? round sa)); [|exact Ja].
  destruct (hashes_to (pblock sa) _); destruct (negb _); apply (Inv6_quiet sa _ []); cbn; auto using quiet_nil.
Qed.

Lemma init_J : Inv6 (init cfg).
Proof.
  unfold init. apply Inv6_sched. split; cbn; try discriminate.
  intros post v pre E. destruct post; discriminate.
Qed.

Lemma Inv6_closed : closed valid vals proposer mkblock cfg me (fun _ _ _ => True) Inv6.
Proof.
  split; cbv zeta; auto.
  - intros s s0 F _. apply Inv6_eq, frame_v, F.
  - apply Inv6_panic.
  - intros i s J. apply (Inv6_quiet s _ [EvIn i]); auto. apply quiet_in.
  - intros h r st s J _. split; [|auto]. eapply Inv6_eq; [|exact J]. repeat split.
  - (* the block of a completed part set was received *)
    intros h r b id s J Hin. eapply Inv6_step with (s := s) (evs := []); cbn; auto.
    + intros v [].
    + intros x Hx. injection Hx as <-. right. right. exists h, r. exact Hin.
  - intros peer v s J _ _. eapply Inv6_eq; [|exact J]. apply frame_v, hvs_add_frame.
  - intros r b s J _. now apply polka_update_J.
  - intros h r s J. split; [now apply enter_new_round_J|exact I].
  - intros h r s J _. now apply enter_propose_J.
  - intros h r s J _. now apply enter_prevote_J.
  - intros h r s J _. now apply enter_prevote_wait_J.
  - intros h r s J _. now apply enter_precommit_J.
  - intros h r s J. now apply enter_precommit_wait_J.
  - intros h cr s J. now apply enter_commit_J.
  - intros h s J. now apply try_finalize_commit_J.
Qed.

Lemma run_J ins : Inv6 (run valid vals proposer mkblock cfg me ins).
Proof. apply (closed_run _ _ _ _ _ _ _ _ Inv6_closed), init_J. Qed.

Theorem votes_only_valid : C03_votes_only_valid_statement valid vals proposer mkblock cfg me.
Proof.
  unfold C03_votes_only_valid_statement, final_log. intros ins post pre v E Ty Nz.
  exact (j_hist _ (run_J ins) post v pre E Ty Nz).
Qed.

End Valid.
