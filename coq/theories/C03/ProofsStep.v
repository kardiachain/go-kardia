(** C03 — how the node's dispatchers compose its step functions.  [handle], [add_vote],
    [add_block] and [handle_timeout] only decide which of the step functions (enter_new_round ..
    enter_commit, try_finalize_commit) run, after a few direct updates of the state.  A predicate
    that those functions and updates preserve ([closed]) is therefore preserved by [step_state]:
    the case analysis of the dispatchers is done here once, for every invariant of the node
    (ProofsMono, ProofsInv, ProofsValid, ProofsLock).  Also here, because every invariant needs
    them: the states that differ in nothing an invariant reads ([frame]), and what the simplest
    step functions can return. *)
From Coq Require Import List ZArith NArith Bool Lia.
From Kardia Require Import C03.Node.
Import ListNotations.
Local Open Scope N_scope.

(** boolean tests to arithmetic *)
Ltac b2p :=
  repeat match goal with
  | H : _ || _ = false |- _ => apply orb_false_iff in H; destruct H
  | H : _ && _ = true |- _ => apply andb_true_iff in H; destruct H
  | H : negb _ = true |- _ => apply negb_true_iff in H
  | H : negb _ = false |- _ => apply negb_false_iff in H
  | H : (_ =? _) = true |- _ => apply N.eqb_eq in H
  | H : (_ =? _) = false |- _ => apply N.eqb_neq in H
  | H : (_ <? _) = true |- _ => apply N.ltb_lt in H
  | H : (_ <? _) = false |- _ => apply N.ltb_ge in H
  | H : (_ <=? _) = true |- _ => apply N.leb_le in H
  | H : (_ <=? _) = false |- _ => apply N.leb_gt in H
  | H : step_le _ _ = _ |- _ => unfold step_le in H
  | H : step_lt _ _ = _ |- _ => unfold step_lt in H
  | H : step_eqb _ _ = _ |- _ => unfold step_eqb in H
  end.

Lemma bid_eqb_eq a b : bid_eqb a b = true -> a = b.
Proof. unfold bid_eqb. intros H. b2p. destruct a, b. cbn in *. congruence. Qed.
Lemma bid_eqb_refl a : bid_eqb a a = true.
Proof. unfold bid_eqb. now rewrite !N.eqb_refl. Qed.

Lemma step_num_inj a b : step_num a = step_num b -> a = b.
Proof. destruct a, b; intros H; try reflexivity; discriminate. Qed.

Lemma tinfo_eqb_eq a b : tinfo_eqb a b = true -> a = b.
Proof.
  destruct a as [[ah ar] ast], b as [[bh' br] bst]. cbn. intros H. b2p.
  apply step_num_inj in H0. congruence.
Qed.

Lemma in_remove_one x y l : In y (remove_one x l) -> In y l.
Proof.
  induction l as [|z l IH]; cbn; [tauto|]. destruct (tinfo_eqb x z); [tauto|].
  intros [H|H]; [now left|right; auto].
Qed.

(** what the entry guard of a step function lets through *)
Lemma guard_false (h r : N) s (b : bool) :
  negb (height s =? h) || (r <? round s) || ((round s =? r) && b) = false ->
  height s = h /\ round s <= r /\ (round s = r -> b = false).
Proof.
  intros G. b2p. repeat split; auto. intros E. apply N.eqb_eq in E. rewrite E in *. assumption.
Qed.

(** enter_new_round's guard tests "the step is not NewHeight" where the others test "at or after k" *)
Lemma guard_new_round h r s :
  negb (height s =? h) || (r <? round s) || ((round s =? r) && negb (step_eqb (rstep s) SNewHeight)) = false ->
  height s = h /\ (round s < r \/ (round s = r /\ step_num (rstep s) = 1)).
Proof.
  intros G. apply guard_false in G. destruct G as (Hh & Rle & Rb). split; [exact Hh|].
  destruct (N.eq_dec (round s) r) as [E|E]; [right|left; lia].
  split; [exact E|]. specialize (Rb E). b2p. exact Rb.
Qed.

(** sequencing stops at a panic: what holds after [f] and is kept by [g] holds after [f ;; g] *)
Lemma andthen_ind (P : nstate -> Prop) (f g : nstate -> nstate) s :
  P (f s) -> (P (f s) -> P (g (f s))) -> P ((f ;; g) s).
Proof. intros Hf Hg. unfold andthen. destruct (halted (f s)); auto. Qed.

(** every field an invariant of this directory looks at, [rounds] apart *)
Definition frame (s s0 : nstate) : Prop :=
  height s0 = height s /\ round s0 = round s /\ rstep s0 = rstep s /\ log s0 = log s /\
  timeouts s0 = timeouts s /\ pblock s0 = pblock s /\ locked s0 = locked s /\
  locked_round s0 = locked_round s.

Lemma frame_refl s : frame s s.
Proof. repeat split. Qed.
Lemma frame_trans a b c : frame a b -> frame b c -> frame a c.
Proof.
  unfold frame. intros (A1 & A2 & A3 & A4 & A5 & A6 & A7 & A8) (B1 & B2 & B3 & B4 & B5 & B6 & B7 & B8).
  repeat split; congruence.
Qed.

Lemma add_round_frame r s : frame s (add_round r s).
Proof. unfold add_round. destruct (get_rv _ _); repeat split. Qed.
Lemma add_rounds_from_frame n : forall lo s, frame s (add_rounds_from lo n s).
Proof.
  induction n as [|n IH]; intros lo s; cbn; [apply frame_refl|].
  eapply frame_trans; [apply (add_round_frame lo)|apply IH].
Qed.

(** addProposalBlockPart for a part set that does not decode: only [ps_done] changes *)
Lemma add_bad_block_frame h r hdr s :
  frame s (add_bad_block h r hdr s) /\ rounds (add_bad_block h r hdr s) = rounds s.
Proof.
  unfold add_bad_block. destruct (negb _); [split; [apply frame_refl|reflexivity]|].
  destruct (pparts s) as [ps|]; [|split; [apply frame_refl|reflexivity]].
  destruct (negb _); [split; [apply frame_refl|reflexivity]|].
  destruct (ps_complete s ps); repeat split.
Qed.

(** what a proposal may add, whoever signs it *)
Lemma decide_proposal_shape mkblock cfg m h r s :
  decide_proposal mkblock cfg m h r s = s \/
  exists p, p_height p = h /\ p_round p = r /\ decide_proposal mkblock cfg m h r s = emit (SignProposal p) s.
Proof.
  unfold decide_proposal. destruct m; [|now left].
  destruct (valid_blk s). { right. eexists (Build_proposal h r _ _ _). repeat split. }
  destruct (_ || _); [|now left]. destruct (mkblock _ _); [|now left].
  right. eexists (Build_proposal h r _ _ _). repeat split.
Qed.

(** addVote once a prevote has been added and its round has a +2/3 majority [b]: a lock that the
    polka contradicts is released, then "update Valid* if we can" *)
Definition polka_update (vr : N) (b : bid) (s1 : nstate) : nstate :=
  let sa := match locked s1 with
            | Some _ => if (locked_round s1 <? vr) && (vr <=? round s1)
                           && negb (hashes_to (locked s1) (bh b))
                        then unlock s1 else s1
            | None => s1
            end in
  if negb (bh b =? 0) && (valid_round sa <? vr) && (vr =? round sa) then
    let sb := if hashes_to (pblock sa) (bh b)
              then set_valid_parts (pparts sa) (set_valid_blk (pblock sa) (set_valid_round vr sa))
              else set_pblock None sa in
    if negb (has_header (pparts sb) (bp b)) then new_pparts (bp b) sb else sb
  else sa.

Section Closed.
Variable valid : N -> block -> bool.
Variable vals : N -> list Z.
Variable proposer : N -> N -> N.
Variable mkblock : N -> N -> option block.
Variable cfg : config.
Variable me : option N.

Lemma recv_proposal_frame p s :
  frame s (recv_proposal proposer p s) /\ rounds (recv_proposal proposer p s) = rounds s.
Proof.
  unfold recv_proposal. destruct (prop s); [split; [apply frame_refl|reflexivity]|].
  destruct (_ || _); [split; [apply frame_refl|reflexivity]|].
  destruct (_ && _); [split; [apply frame_refl|reflexivity]|].
  destruct (p_signer p); [|split; [apply frame_refl|reflexivity]].
  destruct (negb _); [split; [apply frame_refl|reflexivity]|].
  cbn. destruct (pparts s); repeat split.
Qed.

(** HeightVoteSet.AddVote once the round is tracked: VoteSet.AddVote on the round's set *)
Definition hvs_go (v : vote) (s' : nstate) : nstate * bool :=
  match get_rv (rounds s') (v_round v) with
  | None => (s', false)
  | Some rv =>
    if negb (v_ok v) then (s', false)
    else let '(vs', added) := vs_add (pw vals s') (pick (v_type v) rv) (v_idx v) (v_bid v) in
         if added then (set_rounds (put_rv (rounds s') (v_round v) (upd (v_type v) rv vs')) s', true)
         else (s', false)
  end.

Lemma hvs_add_eq peer v s :
  hvs_add vals peer v s =
  match get_rv (rounds s) (v_round v) with
  | Some _ => hvs_go v s
  | None =>
    let rs := catchup_of (catchup s) peer in
    if (length rs <? 2)%nat then
      hvs_go v (set_catchup (catchup_put (catchup s) peer (rs ++ [v_round v])) (add_round (v_round v) s))
    else (s, false)
  end.
Proof. reflexivity. Qed.

(** HeightVoteSet.AddVote touches [rounds] and [catchup] only *)
Lemma hvs_go_frame v s : frame s (fst (hvs_go v s)).
Proof.
  unfold hvs_go. destruct (get_rv _ _); [|apply frame_refl]. destruct (negb _); [apply frame_refl|].
  destruct (vs_add _ _ _ _) as [vs' [|]]; repeat split.
Qed.
Lemma hvs_add_frame peer v s : frame s (fst (hvs_add vals peer v s)).
Proof.
  rewrite hvs_add_eq. destruct (get_rv (rounds s) (v_round v)); [apply hvs_go_frame|].
  cbv zeta. destruct (_ <? _)%nat; [|apply frame_refl].
  eapply frame_trans; [|apply hvs_go_frame].
  eapply frame_trans; [apply (add_round_frame (v_round v))|]. repeat split.
Qed.

(** What the simpler step functions can return, the tests that lead to the same result taken
    together: to show [P] of the result it is enough to show it of these. *)
Lemma update_to_state_cases (P : nstate -> Prop) s :
  P (panic s) -> (forall lc, P (reset_height lc s)) -> P (update_to_state s).
Proof.
  intros Hp Hr. unfold update_to_state. destruct (0 <? commit_round s).
  - destruct (get_vs _ _ _); [|exact Hp]. destruct (has_maj _); [apply Hr|exact Hp].
  - destruct (last_commit s); [apply Hr|exact Hp].
Qed.

Lemma finalize_commit_cases (P : nstate -> Prop) h s :
  P s -> P (panic s) ->
  (forall b blk, maj_of (get_vs s (commit_round s) Precommit) = Some b ->
     hashes_to (Some blk) (bh b) = true -> pblock s = Some blk -> valid (height s) blk = true ->
     P ((emit (Commit (height s) blk (commit_round s)) ;; update_to_state ;;
         (fun s' => sched (height s') 1 SNewHeight s')) s)) ->
  P (finalize_commit valid h s).
Proof.
  intros Hs Hp Hc. unfold finalize_commit.
  destruct (_ || _); [exact Hs|].
  destruct (maj_of _) as [b|] eqn:M; [|exact Hp].
  destruct (negb _); [exact Hp|].
  destruct (negb (hashes_to (pblock s) (bh b))) eqn:HP; [exact Hp|]. apply negb_false_iff in HP.
  destruct (pblock s) as [blk|]; [|exact Hp].
  destruct (negb (valid (height s) blk)) eqn:Ev; [exact Hp|]. apply negb_false_iff in Ev.
  destruct (negb _); [exact Hp|]. now apply (Hc b blk).
Qed.

Lemma try_finalize_commit_cases (P : nstate -> Prop) h s :
  P s -> P (panic s) -> P (finalize_commit valid h s) -> P (try_finalize_commit valid h s).
Proof.
  intros Hs Hp Hf. unfold try_finalize_commit.
  destruct (negb _); [exact Hp|]. destruct (maj_of _); [|exact Hs].
  destruct (bid_is_zero _); [exact Hs|]. destruct (negb _); [exact Hs|exact Hf].
Qed.

Lemma enter_prevote_wait_cases (P : nstate -> Prop) h r s :
  P s -> P (panic s) ->
  (height s = h -> round s <= r -> (round s = r -> step_num (rstep s) < 5) ->
   P (set_rstep SPrevoteWait (set_round r (sched h r SPrevoteWait s)))) ->
  P (enter_prevote_wait vals h r s).
Proof.
  intros Hs Hp Hw. unfold enter_prevote_wait.
  destruct (negb (height s =? h) || (r <? round s) || ((round s =? r) && step_le SPrevoteWait (rstep s))) eqn:G;
    [exact Hs|].
  destruct (negb (any_of _ _)); [exact Hp|].
  apply guard_false in G. destruct G as (Hh & Rle & Rb). apply Hw; auto.
  intros E. specialize (Rb E). b2p. exact Rb.
Qed.

Lemma enter_precommit_wait_cases (P : nstate -> Prop) h r s :
  P s -> P (panic s) ->
  (height s = h -> r = round s -> P (set_tt_precommit true (sched h r SPrecommitWait s))) ->
  P (enter_precommit_wait vals h r s).
Proof.
  intros Hs Hp Hw. unfold enter_precommit_wait.
  destruct (negb (height s =? h) || negb (r =? round s) || _) eqn:G; [exact Hs|].
  destruct (negb (any_of _ _)); [exact Hp|]. b2p. now apply Hw.
Qed.

(** addVote once [hvs_add] has accepted a prevote, resp. a precommit, of the node's height [h] *)
Definition prevote_added (h : N) (v : vote) (s1 : nstate) : nstate :=
  let prevotes := get_vs s1 (v_round v) Prevote in
  let s2 := match maj_of prevotes with None => s1 | Some b => polka_update (v_round v) b s1 end in
  if (round s2 <? v_round v) && any_of (pw vals s2) prevotes
  then enter_new_round valid proposer mkblock cfg me h (v_round v) s2
  else if (round s2 =? v_round v) && step_le SPrevote (rstep s2) then
    match maj_of prevotes with
    | Some b =>
      if is_proposal_complete s2 || (bh b =? 0) then enter_precommit valid me h (v_round v) s2
      else if any_of (pw vals s2) prevotes then enter_prevote_wait vals h (v_round v) s2 else s2
    | None => if any_of (pw vals s2) prevotes then enter_prevote_wait vals h (v_round v) s2 else s2
    end
  else match prop s2 with
       | Some p => if (1 <=? p_pol p) && (p_pol p =? v_round v) then
                     (if is_proposal_complete s2 then enter_prevote valid me h (round s2) s2 else s2)
                   else s2
       | None => s2
       end.

Definition precommit_added (h : N) (v : vote) (s1 : nstate) : nstate :=
  let precommits := get_vs s1 (v_round v) Precommit in
  match maj_of precommits with
  | Some b =>
    (enter_new_round valid proposer mkblock cfg me h (v_round v) ;; enter_precommit valid me h (v_round v) ;;
     (fun s2 =>
        if negb (bh b =? 0) then
          (enter_commit valid h (v_round v) ;;
           (fun s3 => if skip_timeout_commit cfg
                         && match precommits with Some vs => has_all (vals h) vs | None => false end
                      then enter_new_round valid proposer mkblock cfg me (height s3) 1 s3 else s3)) s2
        else enter_precommit_wait vals h (v_round v) s2)) s1
  | None =>
    if (round s1 <=? v_round v) && any_of (pw vals s1) precommits then
      (enter_new_round valid proposer mkblock cfg me h (v_round v) ;; enter_precommit_wait vals h (v_round v)) s1
    else s1
  end.

Lemma add_vote_eq peer v s :
  add_vote valid vals proposer mkblock cfg me peer v s =
  if (v_height v + 1 =? height s) && vtype_eqb (v_type v) Precommit then
    if negb (step_eqb (rstep s) SNewHeight) then s
    else match last_commit s with
         | None => s
         | Some (lh, lr, vs) =>
           if negb (v_height v =? lh) || negb (v_round v =? lr) || negb (v_ok v) then s
           else let '(vs', added) := vs_add (vals (v_height v)) vs (v_idx v) (v_bid v) in
                if negb added then s
                else let s1 := set_last_commit (Some (lh, lr, vs')) s in
                     if skip_timeout_commit cfg && has_all (vals (v_height v)) vs'
                     then enter_new_round valid proposer mkblock cfg me (height s1) 1 s1 else s1
         end
  else if negb (v_height v =? height s) then s
  else let '(s1, added) := hvs_add vals peer v s in
       if negb added then s1 else if step_eqb (rstep s1) SCommit then s1
       else match v_type v with
            | Prevote => prevote_added (height s) v s1
            | Precommit => precommit_added (height s) v s1
            end.
Proof. reflexivity. Qed.

(** [Q h r s] is what a dispatcher guarantees when it enters a step function at (h, r) from [s];
    [P] is the predicate. *)
Variable Q : N -> N -> nstate -> Prop.
Variable P : nstate -> Prop.

Record closed : Prop := {
  (* direct updates of the state *)
  c_frame : forall s s0, frame s s0 -> rounds s0 = rounds s -> P s -> P s0;
  c_panic : forall s, P s -> P (panic s);
  c_input : forall i s, P s -> P (set_log (EvIn i :: log s) s);
  (* [handle_timeout] enters at (h, r), but at (h, 1) for a NewHeight or NewRound timeout *)
  c_fired : forall h r st s, P s -> In (h, r, st) (timeouts s) ->
            let s' := set_timeouts (remove_one (h, r, st) (timeouts s)) s in
            P s' /\ Q h r s' /\ Q h 1 s';
  c_block : forall h r b id s, P s -> In (InBlock h r b) (received (log s)) ->
            P (set_pblock (Some b) (set_ps_done (id :: ps_done s) s));
  c_vote : forall peer v s, P s -> In (InVote peer v) (received (log s)) -> v_height v = height s ->
           P (fst (hvs_add vals peer v s));
  c_polka : forall r b s, P s -> maj_of (get_vs s r Prevote) = Some b -> P (polka_update r b s);
  (* the step functions *)
  c_new_round : forall h r s, P s ->
                let s' := enter_new_round valid proposer mkblock cfg me h r s in P s' /\ Q h r s';
  c_propose : forall h r s, P s -> Q h r s -> P (enter_propose valid proposer mkblock cfg me h r s);
  c_prevote : forall h r s, P s -> Q h r s -> P (enter_prevote valid me h r s);
  c_prevote_wait : forall h r s, P s -> Q h r s -> P (enter_prevote_wait vals h r s);
  c_precommit : forall h r s, P s -> Q h r s -> P (enter_precommit valid me h r s);
  c_precommit_wait : forall h r s, P s -> P (enter_precommit_wait vals h r s);
  c_commit : forall h cr s, P s -> P (enter_commit valid h cr s);
  c_try_finalize : forall h s, P s -> P (try_finalize_commit valid h s);
  q_round : forall h r s, r <= round s -> Q h r s }.

Hypothesis C : closed.

Lemma closed_new_round h r s : P s -> P (enter_new_round valid proposer mkblock cfg me h r s).
Proof. intros H. apply (c_new_round C h r s H). Qed.

Lemma closed_handle_timeout h r st s :
  P s -> Q h r s -> Q h 1 s -> P (handle_timeout valid proposer mkblock cfg me h r st s).
Proof.
  intros H Qr Q1. unfold handle_timeout. destruct (_ || _); [exact H|].
  destruct st; try (now apply (c_panic C)).
  - now apply closed_new_round.
  - now apply (c_propose C).
  - now apply (c_prevote C).
  - now apply (c_precommit C).
  - apply andthen_ind; [now apply (c_precommit C)|]. apply closed_new_round.
Qed.

Lemma closed_add_block h r b s :
  P s -> In (InBlock h r b) (received (log s)) -> P (add_block valid me h r b s).
Proof.
  intros H Hin. unfold add_block.
  destruct (negb (height s =? h)); [exact H|].
  destruct (pparts s) as [ps|]; [|exact H].
  destruct (negb (ps_hdr ps =? b_parts b)); [exact H|].
  destruct (ps_complete s ps); [exact H|].
  set (s1 := set_pblock _ _).
  assert (H1 : P s1) by (apply (c_block C h r); assumption).
  set (s2 := match maj_of (get_vs s1 (round s1) Prevote) with Some x => _ | None => s1 end).
  assert (H2 : P s2).
  { apply (c_frame C s1); [| |exact H1]; subst s2; destruct (maj_of _); try destruct (_ && _); repeat split. }
  clearbody s2. clear H1. clearbody s1.
  destruct (_ && _).
  - apply andthen_ind; [apply (c_prevote C); [exact H2|apply (q_round C), N.le_refl]|].
    intros H3. destruct (match maj_of _ with Some _ => true | None => false end); [|exact H3].
    apply (c_precommit C); [exact H3|apply (q_round C), N.le_refl].
  - destruct (step_eqb _ _); [now apply (c_try_finalize C)|exact H2].
Qed.

Lemma closed_prevote_added h v s1 : P s1 -> P (prevote_added h v s1).
Proof.
  intros H1. unfold prevote_added.
  set (s2 := match maj_of (get_vs s1 (v_round v) Prevote) with Some b => _ | None => s1 end).
  assert (H2 : P s2).
  { subst s2. destruct (maj_of (get_vs s1 (v_round v) Prevote)) as [b|] eqn:M; [|exact H1].
    exact (c_polka C (v_round v) b s1 H1 M). }
  clearbody s2. clear H1.
  destruct ((round s2 <? v_round v) && _); [now apply closed_new_round|].
  destruct ((round s2 =? v_round v) && _) eqn:B2.
  { b2p. assert (Qv : Q h (v_round v) s2) by (apply (q_round C); lia).
    destruct (maj_of _).
    - destruct (_ || _); [now apply (c_precommit C)|].
      destruct (any_of _ _); [now apply (c_prevote_wait C)|exact H2].
    - destruct (any_of _ _); [now apply (c_prevote_wait C)|exact H2]. }
  destruct (prop s2) as [p|]; [|exact H2]. destruct ((1 <=? p_pol p) && _); [|exact H2].
  destruct (is_proposal_complete s2); [|exact H2].
  apply (c_prevote C); [exact H2|apply (q_round C), N.le_refl].
Qed.

Lemma closed_precommit_added h v s1 : P s1 -> P (precommit_added h v s1).
Proof.
  intros H1. unfold precommit_added. destruct (maj_of _) as [b|].
  - apply andthen_ind.
    { destruct (c_new_round C h (v_round v) s1 H1) as (H2 & Q2).
      apply andthen_ind; [exact H2|]. intros _. now apply (c_precommit C). }
    intros H3. destruct (negb _); [|now apply (c_precommit_wait C)].
    apply andthen_ind; [now apply (c_commit C)|]. intros H4.
    destruct (skip_timeout_commit cfg && _); [now apply closed_new_round|exact H4].
  - destruct (_ && _); [|exact H1].
    apply andthen_ind; [now apply closed_new_round|]. apply (c_precommit_wait C).
Qed.

Lemma closed_add_vote peer v s :
  P s -> In (InVote peer v) (received (log s)) ->
  P (add_vote valid vals proposer mkblock cfg me peer v s).
Proof.
  intros H Hin. rewrite add_vote_eq.
  destruct (_ && vtype_eqb _ _).
  { (* a late precommit for the previous height *)
    destruct (negb _); [exact H|]. destruct (last_commit s) as [[[lh lr] vs]|]; [|exact H].
    destruct (_ || _); [exact H|]. destruct (vs_add _ _ _ _) as [vs' added].
    destruct (negb added); [exact H|].
    assert (H1 : P (set_last_commit (Some (lh, lr, vs')) s)) by (apply (c_frame C s); auto; repeat split).
    destruct (_ && _); [now apply closed_new_round|exact H1]. }
  destruct (negb (v_height v =? height s)) eqn:Vh; [exact H|]. b2p.
  pose proof (c_vote C peer v s H Hin Vh) as H1.
  destruct (hvs_add vals peer v s) as [s1 added]. cbn [fst] in H1.
  destruct (negb added); [exact H1|].
  destruct (step_eqb (rstep s1) SCommit); [exact H1|].
  destruct (v_type v); [now apply closed_prevote_added|now apply closed_precommit_added].
Qed.

Theorem closed_step_state s i : P s -> P (step_state valid vals proposer mkblock cfg me s i).
Proof.
  intros H. unfold step_state. destruct (halted s); [exact H|].
  set (s0 := set_log (EvIn i :: log s) s).
  assert (H0 : P s0) by now apply (c_input C).
  assert (Hi : In i (received (log s0))) by (cbn; now left).
  clearbody s0. clear H.
  destruct i; cbn [handle].
  - destruct (prop_wf p); [|exact H0].
    destruct (recv_proposal_frame p s0) as (F & R). exact (c_frame C _ _ F R H0).
  - now apply closed_add_block.
  - destruct (negb _); [exact H0|]. destruct (pparts s0); [now apply (c_panic C)|exact H0].
  - destruct (add_bad_block_frame h r hdr s0) as (F & R). exact (c_frame C _ _ F R H0).
  - destruct (bid_wf _); [now apply closed_add_vote|exact H0].
  - destruct (existsb _ _) eqn:E; [|exact H0].
    apply existsb_exists in E. destruct E as (ti & Hin & Eq). apply tinfo_eqb_eq in Eq. subst ti.
    destruct (c_fired C h r st s0 H0 Hin) as (H1 & Qr & Q1). now apply closed_handle_timeout.
Qed.

Theorem closed_run : P (init cfg) -> forall ins, P (run valid vals proposer mkblock cfg me ins).
Proof.
  unfold run. generalize (init cfg).
  intros s H ins. revert s H. induction ins as [|i ins IH]; intros s H; cbn; [exact H|].
  apply IH. now apply closed_step_state.
Qed.

End Closed.
