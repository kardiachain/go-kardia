(** C03 — (height, round, step) never decreases: every transition function of Node.v is
    monotone for the lexicographic order, without any assumption on its arguments. *)
From Coq Require Import List ZArith NArith Bool Lia.
From Kardia Require Import C03.Node C03.ProofsStep.
Import ListNotations.
Local Open Scope N_scope.

Definition hrs_le (s s' : nstate) : Prop :=
  height s < height s' \/
  (height s = height s' /\
   (round s < round s' \/ (round s = round s' /\ step_num (rstep s) <= step_num (rstep s')))).

Lemma hrs_refl s : hrs_le s s.
Proof. unfold hrs_le. right. split; [reflexivity|]. right. split; [reflexivity|lia]. Qed.

Lemma hrs_trans a b c : hrs_le a b -> hrs_le b c -> hrs_le a c.
Proof. unfold hrs_le. intros H1 H2. lia. Qed.

Definition hrs_eq (s s' : nstate) : Prop :=
  height s = height s' /\ round s = round s' /\ rstep s = rstep s'.
Lemma hrs_eq_trans a b c : hrs_eq a b -> hrs_eq b c -> hrs_eq a c.
Proof. unfold hrs_eq. intros (A & B & C) (D & E & F). repeat split; congruence. Qed.
Lemma hrs_eq_le s s' : hrs_eq s s' -> hrs_le s s'.
Proof. unfold hrs_eq, hrs_le. intros (H1 & H2 & H3). rewrite H3. lia. Qed.
Lemma hrs_le_eq_l a b c : hrs_eq a b -> hrs_le b c -> hrs_le a c.
Proof. intros H. apply hrs_trans. now apply hrs_eq_le. Qed.
Lemma frame_hrs_eq s s0 : frame s s0 -> hrs_eq s s0.
Proof. intros (A & B & C & _). repeat split; congruence. Qed.

(** case split on every test of the goal *)
Ltac brk :=
  repeat match goal with
  | |- context [if ?c then _ else _] => destruct c eqn:?
  | |- context [match ?x with Some _ => _ | None => _ end] => destruct x eqn:?
  end.

Ltac fin := unfold hrs_le; cbn; b2p; cbn in *; try lia.

Lemma step_num_pos st : 1 <= step_num st.
Proof. destruct st; cbn; lia. Qed.

Lemma emit_eq o s : hrs_eq s (emit o s).
Proof. repeat split. Qed.
Lemma panic_eq s : hrs_eq s (panic s).
Proof. repeat split. Qed.
Lemma sched_eq h r st s : hrs_eq s (sched h r st s).
Proof. unfold sched. destruct (tk_accepts _ _); repeat split. Qed.

Lemma andthen_mono f g s :
  hrs_le s (f s) -> (forall x, hrs_le x (g x)) -> hrs_le s ((f ;; g) s).
Proof.
  intros Hf Hg. unfold andthen. destruct (halted (f s)); [exact Hf|].
  eapply hrs_trans; [exact Hf|apply Hg].
Qed.

(** a state that the entry guard of step [k] lets through is in an earlier round, or in round [r]
    before step [k] *)
Lemma guard_le h r k s :
  negb (height s =? h) || (r <? round s) || ((round s =? r) && step_le k (rstep s)) = false ->
  round s < r \/ (round s = r /\ step_num (rstep s) < step_num k).
Proof.
  intros G. apply guard_false in G. destruct G as (_ & Rle & Rb).
  destruct (N.eq_dec (round s) r) as [E|E]; [right|left; lia].
  split; [exact E|]. specialize (Rb E). b2p. exact Rb.
Qed.

Section Mono.
Variable valid : N -> block -> bool.
Variable vals : N -> list Z.
Variable proposer : N -> N -> N.
Variable mkblock : N -> N -> option block.
Variable cfg : config.
Variable me : option N.

Lemma sign_vote_eq ty b s : hrs_eq s (sign_vote me ty b s).
Proof. unfold sign_vote. destruct me; repeat split. Qed.

Lemma update_to_state_mono s : hrs_le s (update_to_state s).
Proof.
  apply update_to_state_cases; [apply hrs_eq_le, panic_eq|]. intros lc. unfold hrs_le. cbn. lia.
Qed.

Lemma finalize_commit_mono h s : hrs_le s (finalize_commit valid h s).
Proof.
  apply finalize_commit_cases; [apply hrs_refl|apply hrs_eq_le, panic_eq|]. intros b blk _ _ _ _.
  apply andthen_mono; [apply andthen_mono|].
  - apply hrs_eq_le, emit_eq.
  - apply update_to_state_mono.
  - intros x. apply hrs_eq_le, sched_eq.
Qed.

Lemma try_finalize_commit_mono h s : hrs_le s (try_finalize_commit valid h s).
Proof.
  apply try_finalize_commit_cases; [apply hrs_refl|apply hrs_eq_le, panic_eq|apply finalize_commit_mono].
Qed.

Lemma enter_commit_mono h cr s : hrs_le s (enter_commit valid h cr s).
Proof.
  unfold enter_commit.
  destruct (negb (height s =? h) || step_le SCommit (rstep s)) eqn:G; [apply hrs_refl|].
  destruct (maj_of (get_vs s cr Precommit)); [|apply hrs_eq_le, panic_eq].
  eapply hrs_trans; [|apply try_finalize_commit_mono].
  brk; fin.
Qed.

Lemma enter_precommit_wait_mono h r s : hrs_le s (enter_precommit_wait vals h r s).
Proof.
  apply enter_precommit_wait_cases; [apply hrs_refl|apply hrs_eq_le, panic_eq|]. intros _ _.
  apply hrs_eq_le. eapply hrs_eq_trans; [apply (sched_eq h r SPrecommitWait)|]. repeat split.
Qed.

Lemma enter_precommit_mono h r s : hrs_le s (enter_precommit valid me h r s).
Proof.
  unfold enter_precommit.
  destruct (negb (height s =? h) || (r <? round s) || ((round s =? r) && step_le SPrecommit (rstep s))) eqn:G;
    [apply hrs_refl|].
  apply guard_le in G. cbn in G.
  assert (D : forall b s0, hrs_eq s s0 ->
                hrs_le s (set_rstep SPrecommit (set_round r (sign_vote me Precommit b s0)))).
  { intros b s0 (A & B & C). destruct (sign_vote_eq Precommit b s0) as (A' & _). unfold hrs_le. cbn. lia. }
  brk; try apply hrs_refl; try (apply hrs_eq_le, panic_eq); apply D; repeat split.
Qed.

Lemma enter_prevote_wait_mono h r s : hrs_le s (enter_prevote_wait vals h r s).
Proof.
  apply enter_prevote_wait_cases; [apply hrs_refl|apply hrs_eq_le, panic_eq|]. intros _ Rle Rs.
  pose proof (sched_eq h r SPrevoteWait s) as (E1 & E2 & E3).
  unfold hrs_le; cbn. destruct (N.eq_dec (round s) r) as [E|E]; [specialize (Rs E)|]; lia.
Qed.

Lemma do_prevote_locked_eq s : hrs_eq s (do_prevote_locked valid me s).
Proof. unfold do_prevote_locked. brk; apply sign_vote_eq. Qed.
Lemma do_prevote_eq s : hrs_eq s (do_prevote valid me s).
Proof.
  unfold do_prevote. eapply hrs_eq_trans; [|apply do_prevote_locked_eq].
  destruct (locked s); [|repeat split]. destruct (stale_lock s); repeat split.
Qed.

Lemma enter_prevote_mono h r s : hrs_le s (enter_prevote valid me h r s).
Proof.
  unfold enter_prevote.
  destruct (negb (height s =? h) || (r <? round s) || ((round s =? r) && step_le SPrevote (rstep s))) eqn:G;
    [apply hrs_refl|].
  apply guard_le in G. cbn in G.
  pose proof (do_prevote_eq s) as (E1 & E2 & E3).
  unfold hrs_le; cbn. lia.
Qed.

Lemma decide_proposal_eq m h r s : hrs_eq s (decide_proposal mkblock cfg m h r s).
Proof.
  destruct (decide_proposal_shape mkblock cfg m h r s) as [->|(p & _ & _ & ->)]; repeat split.
Qed.

Lemma enter_propose_mono h r s : hrs_le s (enter_propose valid proposer mkblock cfg me h r s).
Proof.
  unfold enter_propose.
  destruct (negb (height s =? h) || (r <? round s) || ((round s =? r) && step_le SPropose (rstep s))) eqn:G;
    [apply hrs_refl|].
  apply guard_le in G. cbn in G.
  set (s1 := sched h r SPropose s).
  pose proof (sched_eq h r SPropose s) as (E1 & E2 & E3). fold s1 in E1, E2, E3.
  set (s2 := match me with Some i => _ | None => s1 end).
  assert (Hs2 : hrs_eq s1 s2).
  { subst s2. destruct me; [|repeat split]. destruct (_ =? _); [apply decide_proposal_eq|repeat split]. }
  destruct Hs2 as (F1 & F2 & F3).
  assert (Hs3 : hrs_le s (set_rstep SPropose (set_round r s2))).
  { unfold hrs_le; cbn. lia. }
  destruct (is_proposal_complete _); [|exact Hs3].
  eapply hrs_trans; [exact Hs3|apply enter_prevote_mono].
Qed.

Lemma hvs_set_round_eq nr s : hrs_eq s (hvs_set_round nr s).
Proof.
  unfold hvs_set_round. destruct (_ && _); [apply panic_eq|].
  apply frame_hrs_eq. eapply frame_trans; [apply add_rounds_from_frame|]. repeat split.
Qed.

Lemma enter_new_round_mono h r s : hrs_le s (enter_new_round valid proposer mkblock cfg me h r s).
Proof.
  unfold enter_new_round.
  destruct (negb (height s =? h) || (r <? round s) || ((round s =? r) && negb (step_eqb (rstep s) SNewHeight))) eqn:G;
    [apply hrs_refl|].
  apply guard_new_round in G. destruct G as (_ & G').
  match goal with |- hrs_le s ((_ ;; ?g) ?s3) => set (G := g); set (S3 := s3) end.
  assert (H3 : hrs_le s S3).
  { subst S3. brk; unfold hrs_le; cbn; lia. }
  eapply hrs_trans; [exact H3|].
  apply andthen_mono; [apply hrs_eq_le, hvs_set_round_eq|].
  intros x. subst G. cbn beta.
  brk.
  - eapply hrs_le_eq_l; [|apply hrs_eq_le, sched_eq]. repeat split.
  - apply hrs_eq_le. repeat split.
  - eapply hrs_le_eq_l; [|apply enter_propose_mono]. repeat split.
Qed.

Lemma new_pparts_eq hdr s : hrs_eq s (new_pparts hdr s).
Proof. repeat split. Qed.

Lemma unlock_eq s : hrs_eq s (unlock s).
Proof. repeat split. Qed.

Lemma polka_update_eq vr b s : hrs_eq s (polka_update vr b s).
Proof.
  unfold polka_update.
  set (sa := match locked s with Some _ => _ | None => s end).
  assert (Ha : hrs_eq s sa). { subst sa. destruct (locked s); [|repeat split]. destruct (_ && _); repeat split. }
  destruct Ha as (A & B & C). clearbody sa.
  brk; repeat split; cbn; assumption.
Qed.

(** "at or after [s0]" is preserved by everything the node does *)
Lemma after_closed s0 :
  closed valid vals proposer mkblock cfg me (fun _ _ _ => True) (hrs_le s0).
Proof.
  assert (E : forall x y, hrs_eq x y -> hrs_le s0 x -> hrs_le s0 y).
  { intros x y Exy H. eapply hrs_trans; [exact H|now apply hrs_eq_le]. }
  assert (M : forall f : nstate -> nstate, (forall x, hrs_le x (f x)) -> forall x, hrs_le s0 x -> hrs_le s0 (f x)).
  { intros f Hf x H. eapply hrs_trans; [exact H|apply Hf]. }
  split; cbv zeta.
  - intros s s1 F _. apply E, frame_hrs_eq, F.
  - intros s. apply E, panic_eq.
  - intros i s. apply E. repeat split.
  - intros h r st s H _. split; [|auto]. revert H. apply E. repeat split.
  - intros h r b id s H _. revert H. apply E. repeat split.
  - intros peer v s H _ _. revert H. apply E, frame_hrs_eq, hvs_add_frame.
  - intros r b s H _. revert H. apply E, polka_update_eq.
  - intros h r s H. split; [|exact I]. revert s H. apply M. intros x. apply enter_new_round_mono.
  - intros h r s H _. revert s H. apply M. intros x. apply enter_propose_mono.
  - intros h r s H _. revert s H. apply M. intros x. apply enter_prevote_mono.
  - intros h r s H _. revert s H. apply M. intros x. apply enter_prevote_wait_mono.
  - intros h r s H _. revert s H. apply M. intros x. apply enter_precommit_mono.
  - intros h r. apply M. intros x. apply enter_precommit_wait_mono.
  - intros h cr. apply M. intros x. apply enter_commit_mono.
  - intros h. apply M. intros x. apply try_finalize_commit_mono.
  - auto.
Qed.

Theorem step_state_mono s i : hrs_le s (step_state valid vals proposer mkblock cfg me s i).
Proof. apply (closed_step_state _ _ _ _ _ _ _ _ (after_closed s)), hrs_refl. Qed.

End Mono.
