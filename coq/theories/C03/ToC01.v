(** C03 -> C01 bridge.  The signing events of one validator running the Node model, embedded in a
    global C01 trace, satisfy the four obligations [C01.Agreement.obeys] that the agreement theorem
    consumes — provided the global trace and the node's history are [linked]: every well-signed vote
    of this height that the node received was signed (occurs in the global trace) before it was
    delivered, the node's own signatures of this height appear in the trace at the moment they are
    made, and no other event of the trace is attributed to this validator.  Block ids are projected
    to their hash (0 = nil), as the code itself compares them ([Block.HashesTo]). *)
From Coq Require Import List ZArith NArith Arith Bool Lia.
From Kardia Require C01.Power C01.Agreement.
From Kardia Require Import C03.Node C03.Spec C03.ProofsInv C03.ProofsPower C03.ProofsLock.
Import ListNotations.

Module A := Kardia.C01.Agreement.
Module P := Kardia.C01.Power.

Definition conv (b : bid) : option N := if (bh b =? 0)%N then None else Some (bh b).
Definition msg_of (v : vote) : A.msg N :=
  match v_type v with
  | Prevote => A.Prevote N (N.to_nat (v_round v)) (conv (v_bid v))
  | Precommit => A.Precommit N (N.to_nat (v_round v)) (conv (v_bid v))
  end.

Lemma pw_upto_wsum powers X : forall k, (k <= length powers)%nat ->
  P.pw_upto powers k X = wsum_on X powers (seq 0 k).
Proof.
  induction k as [|k IH]; intros Hk; [reflexivity|].
  rewrite seq_S. cbn [P.pw_upto plus]. unfold wsum_on in *. rewrite map_app, fold_right_app. cbn [map fold_right].
  rewrite IH by lia. unfold P.power.
  assert (G : forall l a, fold_right Z.add a l = (fold_right Z.add 0 l + a)%Z).
  { induction l as [|x l IHl]; intros a; cbn; [lia|]. rewrite IHl. lia. }
  rewrite (G _ (_ + 0)%Z). lia.
Qed.

Lemma pw_wsum powers X : P.pw powers X = wsum X powers.
Proof. unfold P.pw, wsum, P.n. apply pw_upto_wsum. lia. Qed.

Lemma wsum_true_total pw0 : wsum (fun _ => true) pw0 = total pw0.
Proof.
  unfold wsum, wsum_on, total. induction pw0 as [|a l IH]; [reflexivity|].
  cbn [length seq]. rewrite <- seq_shift. cbn [map fold_right nth]. rewrite map_map. cbn [nth].
  rewrite IH. reflexivity.
Qed.

Lemma total_total powers : P.total powers = total powers.
Proof. unfold P.total. rewrite pw_wsum. apply wsum_true_total. Qed.

Section Bridge.
Variable valid : N -> block -> bool.
Variable vals : N -> list Z.
Variable proposer : N -> N -> N.
Variable mkblock : N -> N -> option block.
Variable cfg : config.
Variable i : N.                      (* this validator *)
Variable h : N.                      (* the height under consideration *)
Hypothesis vals_nonneg : forall h, Forall (fun p => (0 <= p)%Z) (vals h).

Let powers := vals h.
Let me_nat := N.to_nat i.
Notation trace := (A.trace N).
Notation flog := (final_log valid vals proposer mkblock cfg (Some i)).

(** a received vote is justified by the global trace: it was signed before *)
Definition justified (tr : trace) (inp : input) : Prop :=
  match inp with
  | InVote _ w => v_ok w = true -> v_height w = h -> In (N.to_nat (v_idx w), msg_of w) tr
  | _ => True
  end.

(** the global trace (chronological) and the node's history (newest first) grow together *)
Inductive linked : trace -> list event -> Prop :=
| L_nil : linked [] []
| L_other tr l j m : linked tr l -> j <> me_nat -> linked (tr ++ [(j, m)]) l
| L_in tr l inp : linked tr l -> justified tr inp -> linked tr (EvIn inp :: l)
| L_sign tr l v : linked tr l -> v_height v = h ->
                  linked (tr ++ [(me_nat, msg_of v)]) (EvOut (SignVote v) :: l)
| L_out tr l o : linked tr l -> (forall v, o = SignVote v -> v_height v <> h) ->
                 linked tr (EvOut o :: l).

Lemma snoc_split {T} (tr : list T) a p x rest :
  tr ++ [a] = p ++ x :: rest ->
  (rest = [] /\ tr = p /\ a = x) \/ (exists rest', rest = rest' ++ [a] /\ tr = p ++ x :: rest').
Proof.
  destruct (exists_last (l := x :: rest)) as (l' & z & E); [discriminate|].
  intros H. destruct rest as [|y rest0].
  - left. apply app_inj_tail in H. destruct H; auto.
  - right. destruct (exists_last (l := y :: rest0)) as (r' & z' & E'); [discriminate|].
    exists r'. rewrite E' in *. replace (p ++ x :: r' ++ [z']) with ((p ++ x :: r') ++ [z']) in H
      by (rewrite <- app_assoc; reflexivity).
    apply app_inj_tail in H. destruct H as (H1 & H2). subst. auto.
Qed.

Lemma link_split tr l : linked tr l -> forall p m rest, tr = p ++ (me_nat, m) :: rest ->
  exists post v pre, l = post ++ EvOut (SignVote v) :: pre /\ linked p pre /\ m = msg_of v /\ v_height v = h.
Proof.
  induction 1 as [|tr l j m' L IH Hj|tr l inp L IH Hjust|tr l v L IH Hv|tr l o L IH Ho]; intros p m rest E.
  - destruct p; discriminate.
  - apply snoc_split in E. destruct E as [(_ & _ & E)|(rest' & _ & E)].
    + injection E as E _. congruence.
    + apply (IH _ _ _ E).
  - destruct (IH _ _ _ E) as (post & v & pre & E1 & L1 & E2 & E3).
    exists (EvIn inp :: post), v, pre. rewrite E1. auto.
  - apply snoc_split in E. destruct E as [(_ & E1 & E2)|(rest' & _ & E)].
    + injection E2 as E2. subst p. exists [], v, l. auto.
    + destruct (IH _ _ _ E) as (post & v' & pre & E1 & L1 & E2 & E3).
      exists (EvOut (SignVote v) :: post), v', pre. rewrite E1. auto.
  - destruct (IH _ _ _ E) as (post & v & pre & E1 & L1 & E2 & E3).
    exists (EvOut o :: post), v, pre. rewrite E1. auto.
Qed.

Lemma link_recv tr l : linked tr l -> forall peer w, In (InVote peer w) (received l) ->
  v_ok w = true -> v_height w = h -> In (N.to_nat (v_idx w), msg_of w) tr.
Proof.
  induction 1 as [|tr l j m' L IH Hj|tr l inp L IH Hjust|tr l v L IH Hv|tr l o L IH Ho]; intros peer w Hin Ok Hh.
  - destruct Hin.
  - apply in_or_app. left. eauto.
  - cbn in Hin. destruct Hin as [E|Hin]; [subst inp; now apply Hjust|eauto].
  - apply in_or_app. left. cbn in Hin. eauto.
  - cbn in Hin. eauto.
Qed.

Lemma link_own tr l : linked tr l -> forall m, In (me_nat, m) tr ->
  exists v, In v (signed_votes l) /\ v_height v = h /\ m = msg_of v.
Proof.
  induction 1 as [|tr l j m' L IH Hj|tr l inp L IH Hjust|tr l v L IH Hv|tr l o L IH Ho]; intros m Hin.
  - destruct Hin.
  - apply in_app_or in Hin. destruct Hin as [Hin|[E|[]]]; [eauto|]. injection E as E _. congruence.
  - destruct (IH m Hin) as (v & A1 & A2 & A3). exists v. cbn. auto.
  - apply in_app_or in Hin. destruct Hin as [Hin|[E|[]]].
    + destruct (IH m Hin) as (v' & A1 & A2 & A3). exists v'. cbn. auto.
    + injection E as <-. exists v. cbn. auto.
  - destruct (IH m Hin) as (v & A1 & A2 & A3). exists v. split; auto.
    change (EvOut o :: l) with ([EvOut o] ++ l). rewrite signed_votes_app. apply in_or_app. now right.
Qed.

(** a quorum among the received votes is a quorum of signers in the linked trace *)
Lemma quorum_transfer tr l ty r b :
  linked tr l -> quorum_received vals (received l) ty h r b ->
  (2 * P.total powers < 3 * P.pw powers (A.signed N N.eq_dec tr
       (match ty with Prevote => A.Prevote N (N.to_nat r) (conv b)
                    | Precommit => A.Precommit N (N.to_nat r) (conv b) end)))%Z.
Proof.
  intros L Q. unfold quorum_received in Q. rewrite total_total, pw_wsum. subst powers.
  rewrite recv_power_wsum in Q.
  match goal with |- (_ < 3 * wsum ?X _)%Z =>
    assert (wsum (fun k => voted_for (received l) ty h r b (N.of_nat k)) (vals h) <= wsum X (vals h))%Z end; [|lia].
  apply wsum_on_mono; auto. intros k Hk. apply voted_for_elim in Hk.
  destruct Hk as (peer & w & Hin & Ty & Wh & Wr & Wb & Wi & Ok).
  pose proof (link_recv tr l L peer w Hin Ok Wh) as Hs.
  apply A.signed_In. rewrite Wi, Nat2N.id in Hs.
  unfold msg_of in Hs. rewrite Ty, Wr, Wb in Hs. exact Hs.
Qed.

Lemma conv_some b x : conv b = Some x -> bh b = x /\ x <> 0%N.
Proof. unfold conv. destruct (bh b =? 0)%N eqn:E; [discriminate|]. intros H. injection H as <-. apply N.eqb_neq in E. auto. Qed.

Lemma conv_ne b x : x <> 0%N -> conv b <> Some x -> bh b <> x.
Proof. intros Hx H E. apply H. unfold conv. rewrite E. apply N.eqb_neq in Hx. now rewrite Hx. Qed.

Lemma msg_precommit v r x : msg_of v = A.Precommit N r x ->
  v_type v = Precommit /\ N.to_nat (v_round v) = r /\ conv (v_bid v) = x.
Proof. unfold msg_of. destruct (v_type v); intros H; [discriminate|]. injection H as <- <-. auto. Qed.
Lemma msg_prevote v r x : msg_of v = A.Prevote N r x ->
  v_type v = Prevote /\ N.to_nat (v_round v) = r /\ conv (v_bid v) = x.
Proof. unfold msg_of. destruct (v_type v); intros H; [|discriminate]. injection H as <- <-. auto. Qed.

Lemma nonzero_bid b x : conv b = Some x -> bid_is_zero b = false.
Proof. intros H. apply conv_some in H. destruct H as (<- & Hx). unfold bid_is_zero. apply N.eqb_neq in Hx. now rewrite Hx. Qed.

(** The node's events in any linked global trace satisfy C01's obligations. *)
Theorem node_obeys (ins : list input) (tr : trace) :
  linked tr (flog ins) -> A.obeys powers N N.eq_dec tr me_nat.
Proof.
  intros L.
  pose proof (run_inv valid vals proposer mkblock cfg (Some i) ins) as I.
  split.
  - (* one precommit per round *)
    intros r x y H1 H2.
    destruct (link_own _ _ L _ H1) as (v1 & A1 & A2 & A3). destruct (link_own _ _ L _ H2) as (v2 & B1 & B2 & B3).
    symmetry in A3, B3. apply msg_precommit in A3. apply msg_precommit in B3.
    destruct A3 as (T1 & R1 & C1). destruct B3 as (T2 & R2 & C2).
    assert (Ek : vkey v1 = vkey v2).
    { unfold vkey. rewrite T1, T2, A2, B2. f_equal. apply N2Nat.inj. congruence. }
    assert (v1 = v2) by exact (NoDup_map_inj vkey _ v1 v2 (i_nodup _ I) A1 B1 Ek).
    subst v2. congruence.
  - (* a precommit needs a polka *)
    intros p rest r b E.
    destruct (link_split _ _ L _ _ _ E) as (post & v & pre & E1 & L1 & E2 & E3).
    symmetry in E2. apply msg_precommit in E2. destruct E2 as (Ty & Rr & Cb).
    destruct (precommit_needs_polka valid vals proposer mkblock cfg (Some i) vals_nonneg ins post pre v E1 Ty
                (nonzero_bid _ _ Cb)) as (Q & _).
    rewrite E3 in Q. pose proof (quorum_transfer p pre Prevote (v_round v) (v_bid v) L1 Q) as T.
    unfold A.polka. rewrite Rr, Cb in T. exact T.
  - (* lock rule *)
    intros p1 p2 rest r r' b x E Hr Hx.
    replace (p1 ++ (me_nat, A.Precommit N r (Some b)) :: p2 ++ (me_nat, A.Prevote N r' x) :: rest)
      with ((p1 ++ (me_nat, A.Precommit N r (Some b)) :: p2) ++ (me_nat, A.Prevote N r' x) :: rest) in E
      by (rewrite <- app_assoc; reflexivity).
    destruct (link_split _ _ L _ _ _ E) as (post & vx & pre & E1 & L1 & E2 & E3).
    destruct (link_split _ _ L1 _ _ _ eq_refl) as (post2 & vp & pre2 & F1 & L2 & F2 & F3).
    symmetry in E2. apply msg_prevote in E2. destruct E2 as (Tx & Rx & Cx).
    symmetry in F2. apply msg_precommit in F2. destruct F2 as (Tp & Rp & Cp).
    destruct (conv_some _ _ Cp) as (Hb & Hb0).
    assert (Hne : bh (v_bid vx) <> bh (v_bid vp)).
    { rewrite Hb. apply conv_ne; auto. now rewrite Cx. }
    rewrite F1 in E1.
    destruct (lock_rule_strong valid vals proposer mkblock cfg (Some i) vals_nonneg ins post post2 pre2 vp vx E1 Tp
                (nonzero_bid _ _ Cp) Tx) as (r'' & y & G1 & G2 & G3 & G4); auto; try congruence.
    { lia. }
    exists (N.to_nat r''), (conv y). split; [lia|]. split.
    + intros Ey. apply conv_some in Ey. destruct Ey as (Ey & _). apply G3. congruence.
    + rewrite F3 in G4. rewrite <- F1 in G4.
      exact (quorum_transfer _ pre Prevote r'' y L1 G4).
  - (* rounds never go back *)
    intros p rest r r' x y E Hin. apply in_split in Hin. destruct Hin as (q1 & q2 & Er). subst rest.
    replace (p ++ (me_nat, A.Prevote N r' x) :: q1 ++ (me_nat, A.Precommit N r y) :: q2)
      with ((p ++ (me_nat, A.Prevote N r' x) :: q1) ++ (me_nat, A.Precommit N r y) :: q2) in E
      by (rewrite <- app_assoc; reflexivity).
    destruct (link_split _ _ L _ _ _ E) as (post & vp & pre & E1 & L1 & E2 & E3).
    assert (Hx : In (me_nat, A.Prevote N r' x) (p ++ (me_nat, A.Prevote N r' x) :: q1)).
    { apply in_or_app. right. now left. }
    destruct (link_own _ _ L1 _ Hx) as (vx & X1 & X2 & X3).
    symmetry in X3. apply msg_prevote in X3. destruct X3 as (_ & Rx & _).
    symmetry in E2. apply msg_precommit in E2. destruct E2 as (_ & Rp & _).
    pose proof (i_mono _ I) as M. unfold final_log in E1. rewrite E1 in M.
    rewrite signed_votes_app in M. cbn [signed_votes flat_map app] in M.
    specialize (M (signed_votes post) vp (signed_votes pre) eq_refl vx X1).
    assert (v_round vx <= v_round vp)%N by (apply M; congruence). lia.
Qed.

End Bridge.
