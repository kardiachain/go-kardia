(** C03 — arithmetic of "+2/3 of the power among the received votes": the model's vote sets
    (first accepted vote per validator, sticky majority) never claim more than what the received
    inputs justify. *)
From Coq Require Import List ZArith NArith Bool Lia Arith.
From Kardia Require Import C03.Node C03.Spec C03.ProofsStep.
Import ListNotations.
Local Open Scope Z_scope.
Local Ltac Zify.zify_post_hook ::= Z.div_mod_to_equations.

(** sum of the powers of the indices that satisfy P *)
Definition wsum_on (P : nat -> bool) (pw : list Z) (idx : list nat) : Z :=
  fold_right Z.add 0 (map (fun k => if P k then nth k pw 0 else 0) idx).
Definition wsum (P : nat -> bool) (pw : list Z) : Z := wsum_on P pw (seq 0 (length pw)).

Lemma nth_nonneg pw k : Forall (fun p => 0 <= p) pw -> 0 <= nth k pw 0.
Proof.
  intros F. destruct (Nat.lt_ge_cases k (length pw)) as [H|H].
  - rewrite Forall_forall in F. apply F. now apply nth_In.
  - rewrite nth_overflow; [lia|exact H].
Qed.

Lemma wsum_on_mono P Q pw idx :
  Forall (fun p => 0 <= p) pw -> (forall k, P k = true -> Q k = true) ->
  wsum_on P pw idx <= wsum_on Q pw idx.
Proof.
  intros F H. induction idx as [|k idx IH]; cbn; [lia|].
  pose proof (nth_nonneg pw k F). fold (wsum_on P pw idx). fold (wsum_on Q pw idx).
  destruct (P k) eqn:E; [rewrite (H k E); lia|]. destruct (Q k); lia.
Qed.

Lemma wsum_on_ext P Q pw idx :
  (forall k, In k idx -> P k = Q k) -> wsum_on P pw idx = wsum_on Q pw idx.
Proof.
  intros H. induction idx as [|k idx IH]; cbn; [reflexivity|].
  fold (wsum_on P pw idx). fold (wsum_on Q pw idx).
  rewrite (H k (or_introl eq_refl)), IH; [reflexivity|]. intros j Hj. apply H. now right.
Qed.

Lemma wsum_on_add i Q pw idx :
  NoDup idx -> In i idx -> Q i = false ->
  wsum_on (fun k => Nat.eqb k i || Q k) pw idx = nth i pw 0 + wsum_on Q pw idx.
Proof.
  induction idx as [|k idx IH]; intros ND Hin Hq; [destruct Hin|].
  inversion ND as [|? ? Hk ND']; subst. cbn.
  fold (wsum_on (fun k0 => Nat.eqb k0 i || Q k0) pw idx). fold (wsum_on Q pw idx).
  destruct (Nat.eqb k i) eqn:E.
  - apply Nat.eqb_eq in E. subst k. rewrite Hq. cbn.
    rewrite (wsum_on_ext (fun k0 => Nat.eqb k0 i || Q k0) Q); [lia|].
    intros j Hj. destruct (Nat.eqb j i) eqn:E'; [|reflexivity]. apply Nat.eqb_eq in E'. subst. contradiction.
  - cbn. destruct Hin as [->|Hin]; [rewrite Nat.eqb_refl in E; discriminate|].
    rewrite IH; auto. destruct (Q k); lia.
Qed.

(** membership of validator k (as a nat) among the votes for b *)
Definition mem_for (votes : list (N * bid)) (b : bid) (k : nat) : bool :=
  existsb (fun e => Nat.eqb k (N.to_nat (fst e)) && bid_eqb (snd e) b) votes.

Lemma power_for_le votes b pw :
  NoDup (map fst votes) ->
  (forall i b', In (i, b') votes -> (N.to_nat i < length pw)%nat) ->
  power_for pw votes b <= wsum (mem_for votes b) pw.
Proof.
  unfold wsum. induction votes as [|[i b'] votes IH]; intros ND Hlt.
  - assert (Z0 : forall idx, wsum_on (mem_for [] b) pw idx = 0).
    { induction idx as [|k idx IHi]; [reflexivity|]. unfold wsum_on in *. cbn in *. exact IHi. }
    rewrite Z0. cbn. lia.
  - cbn [map fst] in ND. inversion ND as [|? ? Hni ND']; subst.
    assert (IH' := IH ND' (fun j c H => Hlt j c (or_intror H))). clear IH.
    cbn [power_for fold_right snd fst]. fold (power_for pw votes b).
    destruct (bid_eqb b' b) eqn:E.
    + assert (Hm : mem_for votes b (N.to_nat i) = false).
      { unfold mem_for. apply not_true_iff_false. intros H. apply existsb_exists in H.
        destruct H as ([j c] & Hin & Hj). cbn in Hj. apply andb_true_iff in Hj. destruct Hj as (Hj & _).
        apply Nat.eqb_eq in Hj. apply N2Nat.inj in Hj. subst j.
        apply Hni. change i with (fst (i, c)). now apply in_map. }
      rewrite (wsum_on_ext (mem_for ((i, b') :: votes) b) (fun k => Nat.eqb k (N.to_nat i) || mem_for votes b k)).
      * rewrite wsum_on_add; auto.
        -- unfold power. lia.
        -- apply seq_NoDup.
        -- apply in_seq. specialize (Hlt i b' (or_introl eq_refl)). lia.
      * intros k _. unfold mem_for. cbn. now rewrite E, andb_true_r.
    + rewrite (wsum_on_ext (mem_for ((i, b') :: votes) b) (mem_for votes b)); [exact IH'|].
      intros k _. unfold mem_for. cbn. now rewrite E, andb_false_r.
Qed.

Lemma is_quorum_iff pw x : 0 <= total pw -> (is_quorum pw x = true <-> 2 * total pw < 3 * x).
Proof. intros H. unfold is_quorum. rewrite Z.leb_le. lia. Qed.

Lemma total_nonneg pw : Forall (fun p => 0 <= p) pw -> 0 <= total pw.
Proof. unfold total. induction 1; cbn; lia. Qed.

Section Recv.
Variable vals : N -> list Z.
Hypothesis vals_nonneg : forall h, Forall (fun p => 0 <= p) (vals h).

Lemma recv_power_wsum ins ty h r b :
  recv_power vals ins ty h r b = wsum (fun k => voted_for ins ty h r b (N.of_nat k)) (vals h).
Proof. reflexivity. Qed.

Lemma voted_for_elim ins ty h r b i :
  voted_for ins ty h r b i = true ->
  exists peer w, In (InVote peer w) ins /\ v_type w = ty /\ v_height w = h /\ v_round w = r /\
                 v_bid w = b /\ v_idx w = i /\ v_ok w = true.
Proof.
  unfold voted_for. intros H. apply existsb_exists in H. destruct H as (x & Hin & Hx).
  destruct x as [| | | |peer w|]; try discriminate.
  apply andb_true_iff in Hx. destruct Hx as (Hx & Ok). apply andb_true_iff in Hx. destruct Hx as (Hx & Ei).
  apply andb_true_iff in Hx. destruct Hx as (Hx & Eb). apply andb_true_iff in Hx. destruct Hx as (Hx & Er).
  apply andb_true_iff in Hx. destruct Hx as (Et & Eh).
  apply N.eqb_eq in Ei, Er, Eh. apply bid_eqb_eq in Eb.
  exists peer, w. repeat split; auto. destruct (v_type w), ty; try discriminate; reflexivity.
Qed.

Lemma voted_for_mono ins ins' ty h r b i :
  (forall x, In x ins -> In x ins') -> voted_for ins ty h r b i = true -> voted_for ins' ty h r b i = true.
Proof.
  intros Hsub H. unfold voted_for in *. apply existsb_exists in H. destruct H as (x & Hin & Hx).
  apply existsb_exists. exists x. split; auto.
Qed.

Lemma quorum_received_mono ins ins' ty h r b :
  (forall x, In x ins -> In x ins') ->
  quorum_received vals ins ty h r b -> quorum_received vals ins' ty h r b.
Proof.
  intros Hsub Q. unfold quorum_received in *. rewrite recv_power_wsum in *.
  assert (wsum (fun k => voted_for ins ty h r b (N.of_nat k)) (vals h)
          <= wsum (fun k => voted_for ins' ty h r b (N.of_nat k)) (vals h)).
  { apply wsum_on_mono; auto. intros k. now apply voted_for_mono. }
  lia.
Qed.

(** a vote set all of whose votes were received (well signed, distinct validators) *)
Definition vs_ok (ins : list input) (h r : N) (ty : vtype) (vs : voteset) : Prop :=
  NoDup (map fst (vs_votes vs)) /\
  (forall i b, In (i, b) (vs_votes vs) ->
     voted_for ins ty h r b i = true /\ (N.to_nat i < length (vals h))%nat) /\
  (forall b, vs_maj vs = Some b -> is_quorum (vals h) (power_for (vals h) (vs_votes vs) b) = true).

Lemma vs_ok_empty ins h r ty : vs_ok ins h r ty vs_empty.
Proof. split; [constructor|]. split; [intros i b []|discriminate]. Qed.

Lemma vs_ok_mono ins ins' h r ty vs :
  (forall x, In x ins -> In x ins') -> vs_ok ins h r ty vs -> vs_ok ins' h r ty vs.
Proof.
  intros Hsub (A & B & C). split; [exact A|]. split; [|exact C].
  intros i b Hin. destruct (B i b Hin) as (V & L). split; [|exact L]. eapply voted_for_mono; eauto.
Qed.

Lemma vs_ok_quorum ins h r ty vs b :
  vs_ok ins h r ty vs -> vs_maj vs = Some b -> quorum_received vals ins ty h r b.
Proof.
  intros (A & B & C) M. specialize (C b M).
  apply is_quorum_iff in C; [|apply total_nonneg, vals_nonneg].
  unfold quorum_received. rewrite recv_power_wsum.
  pose proof (power_for_le (vs_votes vs) b (vals h) A (fun i b' H => proj2 (B i b' H))) as L1.
  assert (L2 : wsum (mem_for (vs_votes vs) b) (vals h)
               <= wsum (fun k => voted_for ins ty h r b (N.of_nat k)) (vals h)).
  { apply wsum_on_mono; auto. intros k Hk. unfold mem_for in Hk. apply existsb_exists in Hk.
    destruct Hk as ([i c] & Hin & Hk). cbn in Hk. apply andb_true_iff in Hk. destruct Hk as (Hk & Hc).
    apply Nat.eqb_eq in Hk. subst k. rewrite N2Nat.id.
    apply bid_eqb_eq in Hc. subst c. apply (B i b Hin). }
  lia.
Qed.

(** adding an accepted vote keeps the vote set justified *)
Lemma vs_ok_add ins h r ty vs i b vs' :
  vs_ok ins h r ty vs -> voted_for ins ty h r b i = true ->
  vs_add (vals h) vs i b = (vs', true) -> vs_ok ins h r ty vs'.
Proof.
  intros (A & B & C) V E. unfold vs_add in E.
  destruct (voted (vs_votes vs) i || negb (N.to_nat i <? length (vals h))%nat) eqn:G; [discriminate|].
  apply orb_false_iff in G. destruct G as (G1 & G2). apply negb_false_iff, Nat.ltb_lt in G2.
  injection E as <-. cbn. split; [|split].
  - constructor; [|exact A]. intros Hin. apply in_map_iff in Hin. destruct Hin as ([j c] & Ej & Hin). cbn in Ej. subst j.
    assert (voted (vs_votes vs) i = true); [|congruence].
    unfold voted. apply existsb_exists. exists (i, c). split; [exact Hin|]. cbn. apply N.eqb_refl.
  - intros j c [Ej|Hin]; [injection Ej as <- <-; auto|auto].
  - intros c. destruct (vs_maj vs) as [m|] eqn:M.
    + intros Ec. injection Ec as <-. specialize (C m eq_refl).
      apply is_quorum_iff in C; [|apply total_nonneg, vals_nonneg].
      apply is_quorum_iff; [apply total_nonneg, vals_nonneg|].
      assert (power_for (vals h) (vs_votes vs) m <= power_for (vals h) ((i, b) :: vs_votes vs) m).
      { pose proof (nth_nonneg (vals h) (N.to_nat i) (vals_nonneg h)).
        unfold power_for at 2. cbn [fold_right snd fst]. fold (power_for (vals h) (vs_votes vs) m).
        unfold power. destruct (bid_eqb b m); lia. }
      cbn [vs_votes]. lia.
    + destruct (is_quorum _ _) eqn:Q; [|discriminate]. intros Ec. injection Ec as <-. exact Q.
Qed.

End Recv.
