(** C03 — the bookkeeping invariant behind "at most one vote of each type and one proposal per
    (height, round)": signed messages never lie in the future of (height, round), a vote signed
    for the current round is reflected in the step, accepted timeouts are never for a future
    round, and the signed keys are pairwise distinct. *)
From Coq Require Import List ZArith NArith Bool Lia.
From Kardia Require Import C03.Node C03.ProofsStep.
Import ListNotations.
Local Open Scope N_scope.

Definition vkey (v : vote) : vtype * N * N := (v_type v, v_height v, v_round v).
Definition pkey (p : proposal) : N * N := (p_height p, p_round p).
Definition past (s : nstate) (h r : N) : Prop := h < height s \/ (h = height s /\ r <= round s).
(** 4, 6 (and 3 in [i_pcur]) are [step_num] of SPrevote, SPrecommit (and SPropose) *)
Definition tstep (ty : vtype) : N := match ty with Prevote => 4 | Precommit => 6 end.

Lemma NoDup_map_inj {A B} (f : A -> B) l a b :
  NoDup (map f l) -> In a l -> In b l -> f a = f b -> a = b.
Proof.
  induction l as [|x l IH]; intros ND Ha Hb E; [destruct Ha|].
  cbn in ND. inversion ND as [|? ? Hn ND']; subst.
  destruct Ha as [->|Ha], Hb as [->|Hb]; auto.
  - destruct Hn. rewrite E. now apply in_map.
  - destruct Hn. rewrite <- E. now apply in_map.
Qed.

(** the signed votes (newest first) never go back in (height, round) *)
Definition mono_sv (sv : list vote) : Prop :=
  forall post v pre, sv = post ++ v :: pre ->
    forall w, In w pre -> v_height w = v_height v -> v_round w <= v_round v.

Lemma mono_sv_cons v sv :
  mono_sv sv -> (forall w, In w sv -> v_height w = v_height v -> v_round w <= v_round v) ->
  mono_sv (v :: sv).
Proof.
  intros M H post x pre E. destruct post as [|y post]; cbn in E.
  - injection E as <- <-. exact H.
  - injection E as <- E. eapply M; eauto.
Qed.

(** clause (1), the bookkeeping, of the node's invariant ([NI] in ProofsLock.v) *)
Record Inv1 (s : nstate) : Prop := {
  i_round : 1 <= round s;
  i_past : forall v, In v (signed_votes (log s)) -> past s (v_height v) (v_round v);
  i_cur : forall v, In v (signed_votes (log s)) -> v_height v = height s -> v_round v = round s ->
                    tstep (v_type v) <= step_num (rstep s);
  i_nodup : NoDup (map vkey (signed_votes (log s)));
  i_ppast : forall p, In p (signed_proposals (log s)) -> past s (p_height p) (p_round p);
  i_pcur : forall p, In p (signed_proposals (log s)) -> p_height p = height s -> p_round p = round s ->
                     3 <= step_num (rstep s);
  i_pnodup : NoDup (map pkey (signed_proposals (log s)));
  i_tk : forall h r st, In (h, r, st) (timeouts s) -> past s h r;
  i_mono : mono_sv (signed_votes (log s)) }.

(** the three ways (height, round, step) can advance *)
Definition adv (s s' : nstate) : Prop :=
  (height s < height s' /\ 1 <= round s') \/
  (height s = height s' /\ round s < round s') \/
  (height s = height s' /\ round s = round s' /\ step_num (rstep s) <= step_num (rstep s')).

Definition tk_ok (s s' : nstate) : Prop :=
  forall h r st, In (h, r, st) (timeouts s') -> In (h, r, st) (timeouts s) \/ past s' h r.

Lemma past_adv s s' h r : adv s s' -> past s h r -> past s' h r.
Proof. unfold adv, past. intros A P. lia. Qed.

Definition olist {A} (o : option A) : list A := match o with Some x => [x] | None => [] end.

(** The invariant survives every advance that signs at most one vote and at most one proposal, each
    for the current (height, round) and reflected in the new step. *)
Lemma Inv1_step s s' ov op :
  Inv1 s -> adv s s' ->
  signed_votes (log s') = olist ov ++ signed_votes (log s) ->
  signed_proposals (log s') = olist op ++ signed_proposals (log s) ->
  (forall v, ov = Some v ->
     height s' = height s /\ round s' = round s /\ v_height v = height s /\ v_round v = round s /\
     step_num (rstep s) < tstep (v_type v) <= step_num (rstep s')) ->
  (forall p, op = Some p ->
     height s' = height s /\ round s' = round s /\ p_height p = height s /\ p_round p = round s /\
     step_num (rstep s) < 3 <= step_num (rstep s')) ->
  tk_ok s s' -> Inv1 s'.
Proof.
  intros [I1 I2 I3 I4 I5 I6 I7 I8 I9] A EV EP NV NP TK.
  assert (Pa : forall h r, past s h r -> past s' h r) by (intros h r; now apply past_adv).
  split; rewrite ?EV, ?EP.
  - unfold adv in A. lia.
  - intros w Hw. apply in_app_or in Hw. destruct Hw as [Hw|Hw]; [|now apply Pa, I2].
    destruct ov as [v|]; [|destruct Hw]. destruct Hw as [<-|[]].
    destruct (NV v eq_refl) as (Hh & Hr & Vh & Vr & _). unfold past. lia.
  - intros w Hw Wh Wr. apply in_app_or in Hw. destruct Hw as [Hw|Hw].
    + destruct ov as [v|]; [|destruct Hw]. destruct Hw as [<-|[]]. apply (NV v eq_refl).
    + specialize (I2 w Hw). specialize (I3 w Hw). unfold adv, past in *. lia.
  - destruct ov as [v|]; [|exact I4]. cbn. constructor; [|exact I4].
    destruct (NV v eq_refl) as (Hh & Hr & Vh & Vr & Lt & _).
    intros Hin. apply in_map_iff in Hin. destruct Hin as (w & Ek & Hw).
    unfold vkey in Ek. injection Ek as E1 E2 E3. specialize (I3 w Hw). rewrite E1 in I3. lia.
  - intros q Hq. apply in_app_or in Hq. destruct Hq as [Hq|Hq]; [|now apply Pa, I5].
    destruct op as [p|]; [|destruct Hq]. destruct Hq as [<-|[]].
    destruct (NP p eq_refl) as (Hh & Hr & Ph & Pr & _). unfold past. lia.
  - intros q Hq Qh Qr. apply in_app_or in Hq. destruct Hq as [Hq|Hq].
    + destruct op as [p|]; [|destruct Hq]. destruct Hq as [<-|[]]. apply (NP p eq_refl).
    + specialize (I5 q Hq). specialize (I6 q Hq). unfold adv, past in *. lia.
  - destruct op as [p|]; [|exact I7]. cbn. constructor; [|exact I7].
    destruct (NP p eq_refl) as (Hh & Hr & Ph & Pr & Lt & _).
    intros Hin. apply in_map_iff in Hin. destruct Hin as (w & Ek & Hw).
    unfold pkey in Ek. injection Ek as E1 E2. specialize (I6 w Hw). lia.
  - intros h r st Hin. destruct (TK h r st Hin) as [H|H]; [exact (Pa _ _ (I8 _ _ _ H))|exact H].
  - destruct ov as [v|]; [|exact I9]. apply mono_sv_cons; [exact I9|].
    destruct (NV v eq_refl) as (Hh & Hr & Vh & Vr & _).
    intros w Hw Wh. specialize (I2 w Hw). unfold past in I2. lia.
Qed.

Lemma Inv1_move s s' :
  Inv1 s -> adv s s' ->
  signed_votes (log s') = signed_votes (log s) ->
  signed_proposals (log s') = signed_proposals (log s) ->
  tk_ok s s' -> Inv1 s'.
Proof. intros I A EV EP. apply (Inv1_step s s' None None); auto; discriminate. Qed.

Lemma tk_ok_same s s' : timeouts s' = timeouts s -> tk_ok s s'.
Proof. intros E h r st H. rewrite E in H. now left. Qed.

Definition keeps (s s' : nstate) : Prop := height s' = height s /\ round s' = round s.

(** an advance that leaves log and pending timeouts as they are *)
Lemma Inv1_along s s0 : Inv1 s -> adv s s0 -> log s0 = log s -> timeouts s0 = timeouts s -> Inv1 s0.
Proof.
  intros I A El Et. apply (Inv1_move s); auto; [now rewrite El|now rewrite El|now apply tk_ok_same].
Qed.

Lemma Inv1_panic s : Inv1 s -> Inv1 (panic s).
Proof.
  intros I. apply (Inv1_move s); auto; try reflexivity.
  - unfold adv. cbn. lia.
  - now apply tk_ok_same.
Qed.

Lemma Inv1_emit_other o s :
  (forall v, o <> SignVote v) -> (forall p, o <> SignProposal p) -> Inv1 s -> Inv1 (emit o s).
Proof.
  intros NV NP I. apply (Inv1_move s); auto.
  - unfold adv. cbn. lia.
  - cbn. destruct o; try reflexivity. exfalso. eapply NV; eauto.
  - cbn. destruct o; try reflexivity. exfalso. eapply NP; eauto.
  - now apply tk_ok_same.
Qed.

Lemma Inv1_sched h r st s : Inv1 s -> past s h r -> Inv1 (sched h r st s).
Proof.
  intros I P. unfold sched. destruct (tk_accepts _ _).
  - apply (Inv1_move s); auto; try reflexivity.
    + unfold adv. cbn. lia.
    + intros h' r' st' [E|H]; [|now left]. injection E as <- <- <-. right. exact P.
  - apply Inv1_emit_other; auto; discriminate.
Qed.

Lemma sched_keeps h r st s : keeps s (sched h r st s).
Proof. unfold sched. destruct (tk_accepts _ _); split; reflexivity. Qed.
Lemma sched_rstep h r st s : rstep (sched h r st s) = rstep s.
Proof. unfold sched. destruct (tk_accepts _ _); reflexivity. Qed.
Lemma sched_votes h r st s : signed_votes (log (sched h r st s)) = signed_votes (log s).
Proof. unfold sched. destruct (tk_accepts _ _); reflexivity. Qed.
Lemma sched_props h r st s : signed_proposals (log (sched h r st s)) = signed_proposals (log s).
Proof. unfold sched. destruct (tk_accepts _ _); reflexivity. Qed.

(** states that agree on everything the invariant looks at *)
Definition core_eq (s s0 : nstate) : Prop :=
  height s0 = height s /\ round s0 = round s /\ rstep s0 = rstep s /\ log s0 = log s /\
  timeouts s0 = timeouts s.

Lemma core_eq_refl s : core_eq s s.
Proof. repeat split. Qed.
Lemma core_eq_trans a b c : core_eq a b -> core_eq b c -> core_eq a c.
Proof. unfold core_eq. intros (A1 & A2 & A3 & A4 & A5) (B1 & B2 & B3 & B4 & B5). repeat split; congruence. Qed.

Lemma frame_core s s0 : frame s s0 -> core_eq s s0.
Proof. intros (A1 & A2 & A3 & A4 & A5 & _). repeat split; assumption. Qed.

Lemma Inv1_core s s0 : core_eq s s0 -> Inv1 s -> Inv1 s0.
Proof.
  intros (A1 & A2 & A3 & A4 & A5) I. apply (Inv1_along s); auto.
  unfold adv. rewrite A1, A2, A3. lia.
Qed.

Lemma core_keeps s s0 : core_eq s s0 -> keeps s s0.
Proof. intros (A1 & A2 & _). split; assumption. Qed.
Lemma keeps_refl s : keeps s s.
Proof. split; reflexivity. Qed.
Lemma keeps_trans a b c : keeps a b -> keeps b c -> keeps a c.
Proof. unfold keeps. intros (A & B) (C & D). split; congruence. Qed.

Definition Pre (h r : N) (s : nstate) : Prop := height s = h -> r <= round s.

Lemma Pre_keeps h r s s' : keeps s s' -> Pre h r s -> Pre h r s'.
Proof. unfold keeps, Pre. intros (A & B) P H. rewrite B. apply P. congruence. Qed.

Lemma andthen_inv (f g : nstate -> nstate) s (Q : nstate -> Prop) :
  Inv1 (f s) -> (halted (f s) = true -> Q (f s)) ->
  (Inv1 (f s) -> Inv1 (g (f s)) /\ Q (g (f s))) -> Inv1 ((f ;; g) s) /\ Q ((f ;; g) s).
Proof. intros I H1 H2. unfold andthen. destruct (halted (f s)); auto. Qed.

Section Inv.
Variable valid : N -> block -> bool.
Variable vals : N -> list Z.
Variable proposer : N -> N -> N.
Variable mkblock : N -> N -> option block.
Variable cfg : config.
Variable me : option N.

(** sign a vote for the current round and move the step to (at least) the vote's step *)
Lemma sign_done ty b st' r s s0 :
  Inv1 s -> core_eq s s0 -> r = round s ->
  step_num (rstep s) < tstep ty -> tstep ty <= step_num st' ->
  Inv1 (set_rstep st' (set_round r (sign_vote me ty b s0))) /\
  keeps s (set_rstep st' (set_round r (sign_vote me ty b s0))).
Proof.
  intros I (A1 & A2 & A3 & A4 & A5) -> Hlt Hle. unfold sign_vote. destruct me as [i|].
  - split; [|split; cbn; auto].
    apply (Inv1_step s _ (Some {| v_type := ty; v_height := height s0; v_round := round s0; v_bid := b;
                                  v_idx := i; v_ok := true |}) None); cbn; auto.
    + unfold adv. cbn. lia.
    + now rewrite A4.
    + now rewrite A4.
    + intros v E. injection E as <-. cbn. lia.
    + discriminate.
    + apply tk_ok_same. cbn. exact A5.
  - split; [|split; cbn; auto].
    apply (Inv1_along s); cbn; auto.
    unfold adv. cbn. rewrite A1. lia.
Qed.

Lemma guard_round (h r : N) s (b : bool) :
  negb (height s =? h) || (r <? round s) || ((round s =? r) && b) = false ->
  Pre h r s -> height s = h /\ r = round s /\ b = false.
Proof.
  intros G P. apply guard_false in G. destruct G as (Hh & Rle & Rb). specialize (P Hh).
  assert (E : round s = r) by lia. auto.
Qed.

Lemma enter_prevote_inv h r s :
  Inv1 s -> Pre h r s ->
  Inv1 (enter_prevote valid me h r s) /\ keeps s (enter_prevote valid me h r s).
Proof.
  intros I P. unfold enter_prevote.
  destruct (negb (height s =? h) || (r <? round s) || ((round s =? r) && step_le SPrevote (rstep s))) eqn:G;
    [split; [exact I|apply keeps_refl]|].
  apply guard_round in G; auto. destruct G as (Hh & Hr & Hs). b2p. cbn in Hs.
  unfold do_prevote.
  set (s1 := match locked s with Some _ => if stale_lock s then unlock s else s | None => s end).
  assert (C1 : core_eq s s1).
  { subst s1. destruct (locked s); [|apply core_eq_refl]. destruct (stale_lock s); repeat split. }
  clearbody s1. unfold do_prevote_locked.
  destruct (locked s1); [apply sign_done; auto; cbn; lia|].
  destruct (pblock s1); [|apply sign_done; auto; cbn; lia].
  destruct (negb _); apply sign_done; auto; cbn; lia.
Qed.

Lemma enter_precommit_inv h r s :
  Inv1 s -> Pre h r s ->
  Inv1 (enter_precommit valid me h r s) /\ keeps s (enter_precommit valid me h r s).
Proof.
  intros I P. unfold enter_precommit.
  destruct (negb (height s =? h) || (r <? round s) || ((round s =? r) && step_le SPrecommit (rstep s))) eqn:G;
    [split; [exact I|apply keeps_refl]|].
  apply guard_round in G; auto. destruct G as (Hh & Hr & Hs). b2p. cbn in Hs.
  assert (T : forall b s0, core_eq s s0 ->
     Inv1 (set_rstep SPrecommit (set_round r (sign_vote me Precommit b s0))) /\
     keeps s (set_rstep SPrecommit (set_round r (sign_vote me Precommit b s0)))).
  { intros b s0 C. apply sign_done; auto; cbn; lia. }
  destruct (maj_of _); [|apply T, core_eq_refl].
  destruct (pol_info s <? r); [split; [now apply Inv1_panic|split; reflexivity]|].
  destruct (bid_is_zero _). { destruct (locked s); apply T; repeat split. }
  destruct (hashes_to (locked s) _). { apply T; repeat split. }
  destruct (hashes_to (pblock s) _).
  { destruct (pblock s); [|split; [exact I|apply keeps_refl]].
    destruct (negb _); [split; [now apply Inv1_panic|split; reflexivity]|]. apply T; repeat split. }
  destruct (negb _); apply T; repeat split.
Qed.

Lemma enter_prevote_wait_inv h r s :
  Inv1 s -> Pre h r s ->
  Inv1 (enter_prevote_wait vals h r s) /\ keeps s (enter_prevote_wait vals h r s).
Proof.
  intros I P. apply enter_prevote_wait_cases.
  - split; [exact I|apply keeps_refl].
  - split; [now apply Inv1_panic|split; reflexivity].
  - intros Hh Rle Rs. specialize (P Hh). assert (E : round s = r) by lia. specialize (Rs E).
    assert (I1 : Inv1 (sched h r SPrevoteWait s)). { apply Inv1_sched; auto. unfold past. lia. }
    destruct (sched_keeps h r SPrevoteWait s) as (K1 & K2).
    split; [|split; cbn; congruence].
    apply (Inv1_move (sched h r SPrevoteWait s)); auto.
    + unfold adv. cbn. rewrite sched_rstep, K2. cbn. lia.
    + now apply tk_ok_same.
Qed.

Lemma enter_precommit_wait_inv h r s :
  Inv1 s -> Inv1 (enter_precommit_wait vals h r s) /\ keeps s (enter_precommit_wait vals h r s).
Proof.
  intros I. apply enter_precommit_wait_cases.
  - split; [exact I|apply keeps_refl].
  - split; [now apply Inv1_panic|split; reflexivity].
  - intros Hh Hr.
    assert (I1 : Inv1 (sched h r SPrecommitWait s)). { apply Inv1_sched; auto. unfold past. lia. }
    split; [|apply (sched_keeps h r SPrecommitWait s)].
    eapply Inv1_core; [|exact I1]. repeat split.
Qed.

Lemma update_to_state_inv s : Inv1 s -> Inv1 (update_to_state s).
Proof.
  intros I. apply update_to_state_cases; [now apply Inv1_panic|].
  intros lc. apply (Inv1_move s); auto; try reflexivity.
  - unfold adv. cbn. lia.
  - now apply tk_ok_same.
Qed.

Lemma finalize_commit_inv h s : Inv1 s -> Inv1 (finalize_commit valid h s).
Proof.
  intros I. apply finalize_commit_cases; [exact I|now apply Inv1_panic|]. intros b blk _ _ _ _.
  apply andthen_ind; [apply andthen_ind|].
  - apply Inv1_emit_other; auto; discriminate.
  - apply update_to_state_inv.
  - intros Ix. apply Inv1_sched; auto. unfold past. right. split; [reflexivity|]. apply (i_round _ Ix).
Qed.

Lemma try_finalize_commit_inv h s : Inv1 s -> Inv1 (try_finalize_commit valid h s).
Proof.
  intros I. apply try_finalize_commit_cases; [exact I|now apply Inv1_panic|now apply finalize_commit_inv].
Qed.

Lemma enter_commit_inv h cr s : Inv1 s -> Inv1 (enter_commit valid h cr s).
Proof.
  intros I. unfold enter_commit.
  destruct (negb (height s =? h) || step_le SCommit (rstep s)) eqn:G; [exact I|]. b2p.
  destruct (maj_of _); [|now apply Inv1_panic].
  apply try_finalize_commit_inv.
  match goal with |- Inv1 (set_commit_round cr (set_rstep SCommit ?s2)) => assert (C : core_eq s s2) end.
  { destruct (hashes_to (locked s) _); destruct (_ && _); repeat split. }
  destruct C as (A1 & A2 & A3 & A4 & A5).
  apply (Inv1_along s); cbn; auto.
  unfold adv. cbn in *. rewrite A1, A2, ?A3. lia.
Qed.

Lemma enter_propose_inv h r s :
  Inv1 s -> Pre h r s ->
  Inv1 (enter_propose valid proposer mkblock cfg me h r s) /\
  keeps s (enter_propose valid proposer mkblock cfg me h r s).
Proof.
  intros I P. unfold enter_propose.
  destruct (negb (height s =? h) || (r <? round s) || ((round s =? r) && step_le SPropose (rstep s))) eqn:G;
    [split; [exact I|apply keeps_refl]|].
  apply guard_round in G; auto. destruct G as (Hh & Hr & Hs). b2p. cbn in Hs.
  set (s1 := sched h r SPropose s).
  assert (I1 : Inv1 s1). { apply Inv1_sched; auto. unfold past. lia. }
  destruct (sched_keeps h r SPropose s) as (K1 & K2). fold s1 in K1, K2.
  assert (R1 : rstep s1 = rstep s) by apply sched_rstep.
  set (s2 := match me with Some i => _ | None => s1 end).
  assert (S2 : s2 = s1 \/ exists p, p_height p = h /\ p_round p = r /\ s2 = emit (SignProposal p) s1).
  { subst s2. destruct me; [|now left]. destruct (_ =? _); [apply decide_proposal_shape|now left]. }
  assert (I3 : Inv1 (set_rstep SPropose (set_round r s2)) /\ keeps s (set_rstep SPropose (set_round r s2))).
  { destruct S2 as [->|(p & Ph & Pr & ->)].
    - split; [|split; cbn; congruence]. apply (Inv1_move s1); cbn; auto.
      + unfold adv. cbn. rewrite R1. lia.
      + now apply tk_ok_same.
    - split; [|split; cbn; congruence].
      apply (Inv1_step s1 _ None (Some p)); cbn; auto.
      + unfold adv. cbn. rewrite R1. lia.
      + discriminate.
      + intros q E. injection E as <-. rewrite R1. cbn. repeat split; try congruence; lia.
      + now apply tk_ok_same. }
  destruct I3 as (I3 & K3).
  destruct (is_proposal_complete _); [|split; assumption].
  destruct (enter_prevote_inv h (round (set_rstep SPropose (set_round r s2))) _ I3) as (I4 & K4).
  { intros _. lia. }
  split; [exact I4|eapply keeps_trans; eauto].
Qed.

Lemma hvs_set_round_inv nr s :
  Inv1 s -> Inv1 (hvs_set_round nr s) /\ keeps s (hvs_set_round nr s) /\ rstep (hvs_set_round nr s) = rstep s.
Proof.
  intros I. unfold hvs_set_round. destruct (_ && _).
  - split; [now apply Inv1_panic|]. repeat split.
  - assert (C' : core_eq s (set_hvs_round nr (add_rounds_from (hvs_round s - 1) (N.to_nat (nr + 1 - (hvs_round s - 1))) s))).
    { apply frame_core. eapply frame_trans; [apply add_rounds_from_frame|]. repeat split. }
    split; [eapply Inv1_core; eauto|]. split; [now apply core_keeps|]. apply C'.
Qed.

Lemma enter_new_round_inv h r s :
  Inv1 s ->
  let s' := enter_new_round valid proposer mkblock cfg me h r s in
  Inv1 s' /\ height s' = height s /\ Pre h r s'.
Proof.
  intros I. cbv zeta. unfold enter_new_round.
  destruct (negb (height s =? h) || (r <? round s) || ((round s =? r) && negb (step_eqb (rstep s) SNewHeight))) eqn:G.
  { split; [exact I|]. split; [reflexivity|]. intros Hh.
    destruct (negb (height s =? h)) eqn:G1. { b2p. congruence. }
    cbn in G. destruct (r <? round s) eqn:G2. { b2p. lia. }
    cbn in G. b2p. lia. }
  apply guard_new_round in G. destruct G as (Hh & G').
  match goal with |- context [(_ ;; ?g) ?s3] => set (Gf := g); set (S3 := s3) end.
  assert (H3 : Inv1 S3 /\ height S3 = height s /\ round S3 = r /\ rstep S3 = SNewRound).
  { assert (C : exists s1, core_eq s s1 /\ S3 = (if r =? 1 then set_rstep SNewRound (set_round r s1)
                    else set_pparts None (set_pblock None (set_prop None (set_rstep SNewRound (set_round r s1)))))).
    { subst S3. destruct (round s <? r); eexists; split; try reflexivity; repeat split. }
    destruct C as (s1 & (A1 & A2 & A3 & A4 & A5) & ->).
    assert (J : Inv1 (set_rstep SNewRound (set_round r s1))).
    { apply (Inv1_along s); cbn; auto. unfold adv. cbn. lia. }
    destruct (r =? 1).
    - split; [exact J|]. cbn. auto.
    - split; [eapply Inv1_core; [|exact J]; repeat split|]. cbn. auto. }
  destruct H3 as (I3 & H3h & H3r & H3s).
  unfold andthen.
  destruct (hvs_set_round_inv (r + 1) S3 I3) as (I4 & (K4h & K4r) & K4s).
  destruct (halted (hvs_set_round (r + 1) S3)).
  { split; [exact I4|]. split; [congruence|]. intros _. lia. }
  set (x := hvs_set_round (r + 1) S3) in *.
  subst Gf. cbn beta.
  assert (I5 : Inv1 (set_tt_precommit false x)) by (eapply Inv1_core; [|exact I4]; repeat split).
  destruct (_ && _).
  - destruct (empty_interval_pos cfg).
    + split; [apply Inv1_sched; auto; unfold past; cbn; lia|].
      destruct (sched_keeps h r SNewRound (set_tt_precommit false x)) as (A & B). cbn in A, B.
      split; [congruence|]. intros _. rewrite B. lia.
    + split; [exact I5|]. cbn. split; [congruence|]. intros _. cbn. lia.
  - destruct (enter_propose_inv h r _ I5) as (I6 & K6h & K6r).
    { intros _. cbn. lia. }
    cbn in K6h, K6r. split; [exact I6|]. split; [congruence|]. intros _. lia.
Qed.

Lemma polka_update_core vr b s : core_eq s (polka_update vr b s).
Proof.
  unfold polka_update.
  set (sa := match locked s with Some _ => _ | None => s end).
  assert (Ca : core_eq s sa). { subst sa. destruct (locked s); [|apply core_eq_refl]. destruct (_ && _); repeat split. }
  eapply core_eq_trans; [exact Ca|]. clearbody sa.
  repeat match goal with |- context [if ?c then _ else _] => destruct c end; repeat split.
Qed.

Lemma init_inv : Inv1 (init cfg).
Proof.
  unfold init. apply Inv1_sched.
  - split; cbn; try lia; try tauto; try constructor.
    intros post v pre E. destruct post; discriminate.
  - unfold past. cbn. lia.
Qed.

(** the dispatchers enter a step function at (h, r) only when the round is at least r: [Pre] *)
Lemma Inv1_closed : closed valid vals proposer mkblock cfg me Pre Inv1.
Proof.
  split; cbv zeta.
  - intros s s0 F _. apply Inv1_core, frame_core, F.
  - apply Inv1_panic.
  - intros i s I. apply (Inv1_move s); auto; try reflexivity.
    + unfold adv. cbn. lia.
    + now apply tk_ok_same.
  - intros h r st s I Hin.
    pose proof (i_tk _ I _ _ _ Hin) as Pa. pose proof (i_round _ I) as R1. unfold past in Pa.
    split; [|split; intros Hh; cbn in *; lia].
    apply (Inv1_move s); auto; try reflexivity.
    + unfold adv. cbn. lia.
    + intros h' r' st' H. left. cbn in H. eapply in_remove_one; eauto.
  - intros h r b id s I _. eapply Inv1_core; [|exact I]. repeat split.
  - intros peer v s I _ _. eapply Inv1_core; [|exact I]. apply frame_core, hvs_add_frame.
  - intros r b s I _. eapply Inv1_core; [|exact I]. apply polka_update_core.
  - intros h r s I. destruct (enter_new_round_inv h r s I) as (I' & _ & P'). auto.
  - intros h r s I P. now apply enter_propose_inv.
  - intros h r s I P. now apply enter_prevote_inv.
  - intros h r s I P. now apply enter_prevote_wait_inv.
  - intros h r s I P. now apply enter_precommit_inv.
  - intros h r s I. now apply enter_precommit_wait_inv.
  - intros h cr s I. now apply enter_commit_inv.
  - intros h s I. now apply try_finalize_commit_inv.
  - intros h r s Hr _. exact Hr.
Qed.

Lemma run_inv ins : Inv1 (run valid vals proposer mkblock cfg me ins).
Proof. apply (closed_run _ _ _ _ _ _ _ _ Inv1_closed), init_inv. Qed.

Theorem one_vote_per_step ins :
  let l := log (run valid vals proposer mkblock cfg me ins) in
  NoDup (map vkey (signed_votes l)) /\ NoDup (map pkey (signed_proposals l)).
Proof. cbv zeta. pose proof (run_inv ins) as I. split; [apply (i_nodup _ I)|apply (i_pnodup _ I)]. Qed.

End Inv.
