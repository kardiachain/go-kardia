(** C03 — tie of the node model (Node.v) and of the block-validation model (Validate.v) to the Go
    SOURCE.  [Generated/C03Source.v] is produced on every check by /verif/go2coq from /repo's working
    tree: every guard, loop bound and integer expression of consensus/state.go (setProposal, addVote,
    addProposalBlockPart, enterNewRound, enterPropose, enterPrevote, doPrevote, enterPrevoteWait,
    enterPrecommit, enterPrecommitWait, enterCommit, tryFinalizeCommit, finalizeCommit,
    isProposalComplete, handleTimeout, updateToState, createProposalBlock, signAddVote),
    consensus/ticker.go (timeoutRoutine), consensus/types/height_vote_set.go (SetRound, AddVote,
    POLInfo), kai/state/cstate (validateBlock, MedianTime), types/time (WeightedMedian) and
    types (Block.ValidateBasic, Commit.ValidateBasic, MaxEvidencePerBlock), as Gallina over [Z] with
    explicit uint64/uint32/int64 wraps.

    Two kinds of statements:
    - for Validate.v (written over [Z] with the same machine operations) the MODEL FUNCTIONS are
      shown equal to the composition of the generated expressions, mostly by [reflexivity];
    - for Node.v (written over [N]) every entry guard is shown to be the generated expression on
      the [Z.of_N] images of exactly the operands the model compares, and the model function is
      rewritten as "if <generated guard> then ... else ..." where the function has that shape;
      guards in the middle of addVote/addProposalBlockPart are tied to the expression the model
      uses at that place.
    The [_atoms] lemmas state WHAT is compared (the Go operands), not only how.  An edit of the Go
    source that flips a comparison, changes a constant, an operand or a loop bound changes the
    generated file and re-opens these obligations.
    [C03_source_tie_statement] collects the ties of the validation model and of the guards the
    property theorems lean on, each proved where the statement is proved; every [src_] lemma above it
    is an obligation of its own, discharged by this file compiling against the generated one. *)
From Coq Require Import List ZArith NArith Bool Lia String.
From Kardia Require Import Base.Int64 Base.GoSem Base.Conj.
From Kardia Require Import Generated.C03Source.
From Kardia Require C02.Model.
From Kardia Require Import C03.Node C03.Validate.
Import ListNotations.
Local Open Scope N_scope.

Definition zn (n : N) : Z := Z.of_N n.
Definition zstep (s : step_t) : Z := Z.of_N (step_num s).

(** A comparison of the [Z] images of two naturals is the comparison of the naturals; a constant of
    the source is brought to the form [zn k] or [zstep S] by [change] first. *)
Lemma zn_eqb a b : (zn a =? zn b)%Z = (a =? b).
Proof. exact (ZofN_eqb a b). Qed.
Lemma zn_ltb a b : (zn a <? zn b)%Z = (a <? b).
Proof. exact (ZofN_ltb a b). Qed.
Lemma zn_leb a b : (zn a <=? zn b)%Z = (a <=? b).
Proof. exact (ZofN_leb a b). Qed.
Lemma zn_neqb a b : go_neqb (zn a) (zn b) = negb (a =? b).
Proof. exact (ZofN_neqb a b). Qed.

Lemma zstep_eqb a b : (zstep a =? zstep b)%Z = step_eqb a b.
Proof. apply zn_eqb. Qed.
Lemma zstep_neqb a b : go_neqb (zstep a) (zstep b) = negb (step_eqb a b).
Proof. apply zn_neqb. Qed.
Lemma zstep_leb a b : (zstep a <=? zstep b)%Z = step_le a b.
Proof. apply zn_leb. Qed.
Lemma zstep_ltb a b : (zstep a <? zstep b)%Z = step_lt a b.
Proof. apply zn_ltb. Qed.

(** a [for] loop of the source runs [N.to_nat (hi - lo)] times: its test is "the count is not 0" *)
Lemma count_pos lo hi : negb (Nat.eqb (N.to_nat (hi - lo)) 0) = (lo <? hi).
Proof.
  rewrite N.ltb_antisym. f_equal.
  destruct (N.leb_spec hi lo) as [H|H].
  - apply N.sub_0_le in H. now rewrite H.
  - destruct (hi - lo) eqn:E; [apply N.sub_0_le in E; lia|].
    cbn [N.to_nat]. destruct (Pos2Nat.is_succ p) as [k ->]. reflexivity.
Qed.

(** * consensus/state.go: the entry guards of the step functions *)

(** enterPropose / enterPrevote / enterPrevoteWait / enterPrecommit:
    (cs.Height != height) || (round < cs.Round) || (cs.Round == round && <Step> <= cs.Step).
    The four source guards are this expression for <Step> = 3, 4, 5, 6. *)
Lemma entry_guard (k : step_t) (s : nstate) h r :
  (go_neqb (zn (height s)) (zn h) || (zn r <? zn (round s))%Z
   || ((zn (round s) =? zn r)%Z && (zstep k <=? zstep (rstep s))%Z))
  = negb (height s =? h) || (r <? round s) || ((round s =? r) && step_le k (rstep s)).
Proof. now rewrite zn_neqb, zn_ltb, zn_eqb, zstep_leb. Qed.

Section NodeTie.
Variable valid : N -> block -> bool.
Variable vals : N -> list Z.
Variable proposer : N -> N -> N.
Variable mkblock : N -> N -> option block.
Variable cfg : config.
Variable me : option N.

Lemma src_enter_new_round_atoms :
  consensus__ConsensusState_enterNewRound__if_cs_Height_ne_height_or_round_lt_cs_Round_or_cs_Round_eq_roun_2354a6d9_atoms
  = ["cs.Height : uint64"; "height : uint64"; "round : uint32"; "cs.Round : uint32";
     "cs.Step : github.com/kardiachain/go-kardia/consensus/types.RoundStepType"]%string.
Proof. reflexivity. Qed.

Lemma src_enter_propose_guard (s : nstate) h r :
  consensus__ConsensusState_enterPropose__if_cs_Height_ne_height_or_round_lt_cs_Round_or_cs_Round_eq_roun_2d56b608
    (zn (height s)) (zn h) (zn r) (zn (round s)) (zstep (rstep s))
  = negb (height s =? h) || (r <? round s) || ((round s =? r) && step_le SPropose (rstep s)).
Proof. exact (entry_guard SPropose s h r). Qed.
Lemma src_enter_step_atoms :
  consensus__ConsensusState_enterPropose__if_cs_Height_ne_height_or_round_lt_cs_Round_or_cs_Round_eq_roun_2d56b608_atoms
  = ["cs.Height : uint64"; "height : uint64"; "round : uint32"; "cs.Round : uint32";
     "cs.Step : github.com/kardiachain/go-kardia/consensus/types.RoundStepType"]%string
  /\ consensus__ConsensusState_enterPrevote__if_cs_Height_ne_height_or_round_lt_cs_Round_or_cs_Round_eq_roun_89292bfb_atoms
  = ["cs.Height : uint64"; "height : uint64"; "round : uint32"; "cs.Round : uint32";
     "cs.Step : github.com/kardiachain/go-kardia/consensus/types.RoundStepType"]%string
  /\ consensus__ConsensusState_enterPrevoteWait__if_cs_Height_ne_height_or_round_lt_cs_Round_or_cs_Round_eq_roun_e2ee6aba_atoms
  = ["cs.Height : uint64"; "height : uint64"; "round : uint32"; "cs.Round : uint32";
     "cs.Step : github.com/kardiachain/go-kardia/consensus/types.RoundStepType"]%string
  /\ consensus__ConsensusState_enterPrecommit__if_cs_Height_ne_height_or_round_lt_cs_Round_or_cs_Round_eq_roun_175a6e72_atoms
  = ["cs.Height : uint64"; "height : uint64"; "round : uint32"; "cs.Round : uint32";
     "cs.Step : github.com/kardiachain/go-kardia/consensus/types.RoundStepType"]%string.
Proof. split_all; reflexivity. Qed.

(** the model functions ARE "if <source guard> then unchanged else ..." *)
Lemma src_enter_prevote_wait h r s :
  enter_prevote_wait vals h r s
  = if consensus__ConsensusState_enterPrevoteWait__if_cs_Height_ne_height_or_round_lt_cs_Round_or_cs_Round_eq_roun_e2ee6aba
         (zn (height s)) (zn h) (zn r) (zn (round s)) (zstep (rstep s))
    then s
    else if consensus__ConsensusState_enterPrevoteWait__if_not_cs_Votes_Prevotes_round__HasTwoThirdsAny
              (any_of (pw vals s) (get_vs s r Prevote))
         then panic s else set_rstep SPrevoteWait (set_round r (sched h r SPrevoteWait s)).
Proof. unfold enter_prevote_wait. rewrite <- (entry_guard SPrevoteWait). reflexivity. Qed.

(** enterPrecommit: the entry guard, then "no polka: precommit nil", then the POLInfo sanity check
    polRound < round *)
Lemma src_polround_atoms :
  consensus__ConsensusState_enterPrecommit__if_polRound_lt_round_atoms = ["polRound : uint32"; "round : uint32"]%string.
Proof. reflexivity. Qed.

Lemma src_enter_precommit h r s :
  enter_precommit valid me h r s
  = if consensus__ConsensusState_enterPrecommit__if_cs_Height_ne_height_or_round_lt_cs_Round_or_cs_Round_eq_roun_175a6e72
         (zn (height s)) (zn h) (zn r) (zn (round s)) (zstep (rstep s))
    then s
    else
      let done := fun s' => set_rstep SPrecommit (set_round r s') in
      match maj_of (get_vs s r Prevote) with
      | None => done (sign_vote me Precommit bid_nil s)
      | Some b =>
        if consensus__ConsensusState_enterPrecommit__if_polRound_lt_round (zn (pol_info s)) (zn r) then panic s
        else if consensus__ConsensusState_enterPrecommit__if_blockID_IsZero (bid_is_zero b) then
          done (sign_vote me Precommit bid_nil (match locked s with None => s | Some _ => unlock s end))
        else if consensus__ConsensusState_enterPrecommit__if_cs_LockedBlock_HashesTo_blockID_Hash (hashes_to (locked s) (bh b)) then
          done (sign_vote me Precommit b (set_locked_round r s))
        else if consensus__ConsensusState_enterPrecommit__if_cs_ProposalBlock_HashesTo_blockID_Hash (hashes_to (pblock s) (bh b)) then
          match pblock s with
          | None => s
          | Some blk =>
            if negb (valid (height s) blk) then panic s
            else done (sign_vote me Precommit b
                         (set_locked_parts (pparts s) (set_locked (pblock s) (set_locked_round r s))))
          end
        else
          let s1 := unlock s in
          let s2 := if consensus__ConsensusState_enterPrecommit__if_not_cs_ProposalBlockParts_HasHeader_blockID_PartsHeader
                         (has_header (pparts s1) (bp b))
                    then new_pparts (bp b) (set_pblock None s1) else s1 in
          done (sign_vote me Precommit bid_nil s2)
      end.
Proof.
  unfold enter_precommit. rewrite <- (entry_guard SPrecommit), <- (zn_ltb (pol_info s)). reflexivity.
Qed.
(** the lock is taken at the round being entered, and released to 0 *)
Lemma src_lock_round_values r :
  consensus__ConsensusState_enterPrecommit__put_cs_LockedRound = 0%Z
  /\ consensus__ConsensusState_enterPrecommit__put_cs_LockedRound_2 (zn r) = zn r
  /\ consensus__ConsensusState_enterPrecommit__put_cs_LockedRound_3 (zn r) = zn r
  /\ consensus__ConsensusState_enterPrecommit__put_cs_LockedRound_4 = 0%Z
  /\ consensus__ConsensusState_doPrevote__put_cs_LockedRound = 0%Z
  /\ consensus__ConsensusState_addVote__put_cs_LockedRound = 0%Z
  /\ consensus__ConsensusState_enterPrecommit__put_cs_LockedRound_2_atoms = ["round : uint32"]%string
  /\ consensus__ConsensusState_enterPrecommit__put_cs_LockedRound_3_atoms = ["round : uint32"]%string.
Proof. split_all; reflexivity. Qed.

(** enterPrecommitWait: (cs.Height != height) || (round != cs.Round) || (cs.Round == round && cs.TriggeredTimeoutPrecommit) *)
Lemma src_enter_precommit_wait h r s :
  enter_precommit_wait vals h r s
  = if consensus__ConsensusState_enterPrecommitWait__if_cs_Height_ne_height_or_round_ne_cs_Round_or_cs_Round_eq_roun_5359bacc
         (zn (height s)) (zn h) (zn r) (zn (round s)) (tt_precommit s)
    then s
    else if consensus__ConsensusState_enterPrecommitWait__if_not_cs_Votes_Precommits_round__HasTwoThirdsAny
              (any_of (pw vals s) (get_vs s r Precommit))
         then panic s else set_tt_precommit true (sched h r SPrecommitWait s).
Proof.
  unfold consensus__ConsensusState_enterPrecommitWait__if_cs_Height_ne_height_or_round_ne_cs_Round_or_cs_Round_eq_roun_5359bacc.
  rewrite !zn_neqb, zn_eqb. reflexivity.
Qed.

(** enterCommit: (cs.Height != height) || Commit <= cs.Step *)
Lemma src_enter_commit h cr s :
  enter_commit valid h cr s
  = if consensus__ConsensusState_enterCommit__if_cs_Height_ne_height_or_cstypes_RoundStepCommit_le_cs_Step
         (zn (height s)) (zn h) (zstep (rstep s))
    then s
    else match maj_of (get_vs s cr Precommit) with
         | None => panic s
         | Some b =>
           let s1 := if consensus__ConsensusState_enterCommit__if_cs_LockedBlock_HashesTo_blockID_Hash (hashes_to (locked s) (bh b))
                     then set_pparts (locked_parts s) (set_pblock (locked s) s) else s in
           let s2 := if consensus__ConsensusState_enterCommit__if_not_cs_ProposalBlock_HashesTo_blockID_Hash (hashes_to (pblock s1) (bh b))
                        && consensus__ConsensusState_enterCommit__if_not_cs_ProposalBlockParts_HasHeader_blockID_PartsHeader (has_header (pparts s1) (bp b))
                     then new_pparts (bp b) (set_pblock None s1) else s1 in
           try_finalize_commit valid h (set_commit_round cr (set_rstep SCommit s2))
         end.
Proof.
  unfold consensus__ConsensusState_enterCommit__if_cs_Height_ne_height_or_cstypes_RoundStepCommit_le_cs_Step.
  change 8%Z with (zstep SCommit). rewrite zn_neqb, zstep_leb. reflexivity.
Qed.

Lemma src_try_finalize_commit h s :
  try_finalize_commit valid h s
  = if consensus__ConsensusState_tryFinalizeCommit__if_cs_Height_ne_height (zn (height s)) (zn h) then panic s
    else match maj_of (get_vs s (commit_round s) Precommit) with
         | None => s
         | Some b =>
           if consensus__ConsensusState_tryFinalizeCommit__if_not_ok_or_blockID_IsZero true (bid_is_zero b) then s
           else if consensus__ConsensusState_tryFinalizeCommit__if_not_cs_ProposalBlock_HashesTo_blockID_Hash (hashes_to (pblock s) (bh b)) then s
           else finalize_commit valid h s
         end.
Proof.
  unfold consensus__ConsensusState_tryFinalizeCommit__if_cs_Height_ne_height. rewrite zn_neqb. reflexivity.
Qed.
Lemma src_finalize_commit h s :
  finalize_commit valid h s
  = if consensus__ConsensusState_finalizeCommit__if_cs_Height_ne_height_or_cs_Step_ne_cstypes_RoundStepCommit
         (zn (height s)) (zn h) (zstep (rstep s))
    then s
    else match maj_of (get_vs s (commit_round s) Precommit) with
         | None => panic s
         | Some b =>
           if consensus__ConsensusState_finalizeCommit__if_not_blockParts_HasHeader_blockID_PartsHeader (has_header (pparts s) (bp b)) then panic s
           else if consensus__ConsensusState_finalizeCommit__if_not_block_HashesTo_blockID_Hash (hashes_to (pblock s) (bh b)) then panic s
           else match pblock s with
                | None => panic s
                | Some blk =>
                  if negb (valid (height s) blk) then panic s
                  else if negb (parts_complete s (pparts s)) then panic s
                  else (emit (Commit (height s) blk (commit_round s)) ;; update_to_state ;;
                        (fun s' => sched (height s') 1 SNewHeight s')) s
                end
         end.
Proof.
  unfold consensus__ConsensusState_finalizeCommit__if_cs_Height_ne_height_or_cs_Step_ne_cstypes_RoundStepCommit.
  change 8%Z with (zstep SCommit). rewrite zn_neqb, zstep_neqb. reflexivity.
Qed.

(** isProposalComplete: POLRound < 1 means "no POL round" *)
Lemma src_is_proposal_complete s :
  is_proposal_complete s
  = match prop s, pblock s with
    | Some p, Some _ =>
      if consensus__ConsensusState_isProposalComplete__if_cs_Proposal_POLRound_lt_1 (zn (p_pol p)) then true
      else match maj_of (get_vs s (p_pol p) Prevote) with Some _ => true | None => false end
    | _, _ => false
    end.
Proof.
  unfold is_proposal_complete. destruct (prop s) as [p|]; [|reflexivity].
  rewrite <- (zn_ltb (p_pol p) 1). reflexivity.
Qed.

Lemma src_handle_timeout_atoms :
  consensus__ConsensusState_handleTimeout__if_ti_Height_ne_rs_Height_or_ti_Round_lt_rs_Round_or_ti_Round_e_deeb9baa_atoms
  = ["ti.Height : uint64"; "rs.Height : uint64"; "ti.Round : uint32"; "rs.Round : uint32";
     "ti.Step : github.com/kardiachain/go-kardia/consensus/types.RoundStepType";
     "rs.Step : github.com/kardiachain/go-kardia/consensus/types.RoundStepType"]%string.
Proof. reflexivity. Qed.

(** setProposal: height/round must be the node's; the POLRound check as written (dead: it can
    never be true, see C03_polround_check_is_dead) *)
Lemma src_proposal_atoms :
  consensus__ConsensusState_setProposal__if_proposal_Height_ne_cs_Height_or_proposal_Round_ne_cs_Round_atoms
  = ["proposal.Height : uint64"; "cs.Height : uint64"; "proposal.Round : uint32"; "cs.Round : uint32"]%string
  /\ consensus__ConsensusState_setProposal__if_proposal_POLRound_lt_1_and_proposal_POLRound_gt_0_or_proposa_457117ef_atoms
  = ["proposal.POLRound : uint32"; "proposal.Round : uint32"]%string.
Proof. split; reflexivity. Qed.
Lemma src_recv_proposal p s :
  recv_proposal proposer p s
  = if consensus__ConsensusState_setProposal__if_cs_Proposal_ne_nil (match prop s with Some _ => true | None => false end) then s
    else if consensus__ConsensusState_setProposal__if_proposal_Height_ne_cs_Height_or_proposal_Round_ne_cs_Round
              (zn (p_height p)) (zn (height s)) (zn (p_round p)) (zn (round s)) then s
    else if consensus__ConsensusState_setProposal__if_proposal_POLRound_lt_1_and_proposal_POLRound_gt_0_or_proposa_457117ef
              (zn (p_pol p)) (zn (p_round p)) then s
    else match p_signer p with
         | None => s
         | Some k =>
           if negb (k =? proposer (height s) (prop_round s)) then s
           else let s1 := set_prop (Some p) s in
                match pparts s1 with
                | None => new_pparts (bp (p_bid p)) s1
                | Some _ => s1
                end
         end.
Proof.
  unfold consensus__ConsensusState_setProposal__if_proposal_Height_ne_cs_Height_or_proposal_Round_ne_cs_Round,
    consensus__ConsensusState_setProposal__if_proposal_POLRound_lt_1_and_proposal_POLRound_gt_0_or_proposa_457117ef.
  rewrite !Z.gtb_ltb. change 1%Z with (zn 1). change 0%Z with (zn 0). rewrite !zn_neqb, !zn_ltb.
  unfold recv_proposal. destruct (prop s); reflexivity.
Qed.

Lemma src_add_block_height_guard (s : nstate) h :
  consensus__ConsensusState_addProposalBlockPart__if_cs_Height_ne_height (zn (height s)) (zn h) = negb (height s =? h).
Proof. apply zn_neqb. Qed.
(** "Update Valid* if we can": hasTwoThirds && !blockID.IsZero() && (cs.ValidRound < cs.Round), then
    ProposalBlock.HashesTo — the expression add_block uses *)
Lemma src_add_block_valid_guard (s1 : nstate) x :
  consensus__ConsensusState_addProposalBlockPart__if_hasTwoThirds_and_not_blockID_IsZero_and_cs_ValidRound_lt_cs_Round
    true (bid_is_zero x) (zn (valid_round s1)) (zn (round s1))
  && consensus__ConsensusState_addProposalBlockPart__if_cs_ProposalBlock_HashesTo_blockID_Hash (hashes_to (pblock s1) (bh x))
  = negb (bid_is_zero x) && (valid_round s1 <? round s1) && hashes_to (pblock s1) (bh x).
Proof.
  unfold consensus__ConsensusState_addProposalBlockPart__if_hasTwoThirds_and_not_blockID_IsZero_and_cs_ValidRound_lt_cs_Round,
    consensus__ConsensusState_addProposalBlockPart__if_cs_ProposalBlock_HashesTo_blockID_Hash.
  rewrite zn_ltb. reflexivity.
Qed.
Lemma src_add_block_step_guards (s2 : nstate) :
  consensus__ConsensusState_addProposalBlockPart__if_cs_Step_le_cstypes_RoundStepPropose_and_cs_isProposalComplete
    (zstep (rstep s2)) (is_proposal_complete s2)
  = step_le (rstep s2) SPropose && is_proposal_complete s2
  /\ consensus__ConsensusState_addProposalBlockPart__if_cs_Step_eq_cstypes_RoundStepCommit (zstep (rstep s2))
  = step_eqb (rstep s2) SCommit.
Proof.
  split; [|apply (zstep_eqb _ SCommit)].
  unfold consensus__ConsensusState_addProposalBlockPart__if_cs_Step_le_cstypes_RoundStepPropose_and_cs_isProposalComplete.
  change 3%Z with (zstep SPropose). rewrite zstep_leb. reflexivity.
Qed.
Lemma src_add_block_atoms :
  consensus__ConsensusState_addProposalBlockPart__if_hasTwoThirds_and_not_blockID_IsZero_and_cs_ValidRound_lt_cs_Round_atoms
  = ["hasTwoThirds : bool"; "blockID.IsZero() : bool"; "cs.ValidRound : uint32"; "cs.Round : uint32"]%string
  /\ consensus__ConsensusState_addProposalBlockPart__put_cs_ValidRound_atoms = ["cs.Round : uint32"]%string.
Proof. split; reflexivity. Qed.

(** addVote: guards in the order of the code, each against the expression add_vote uses there *)
Lemma src_add_vote_last_commit_guard (s : nstate) v :
  (zn (v_height v) < 18446744073709551615)%Z ->
  consensus__ConsensusState_addVote__if_vote_Height_plus_1_eq_cs_Height_and_vote_Type_eq_kproto_PrecommitType
    (zn (v_height v)) (zn (height s)) (match v_type v with Prevote => 1 | Precommit => 2 end)%Z
  = (v_height v + 1 =? height s) && vtype_eqb (v_type v) Precommit.
Proof.
  intros Hr.
  unfold consensus__ConsensusState_addVote__if_vote_Height_plus_1_eq_cs_Height_and_vote_Type_eq_kproto_PrecommitType, go_add.
  rewrite wrap_id by (unfold in_range, zn in *; lia).
  replace (zn (v_height v) + 1)%Z with (zn (v_height v + 1)) by (unfold zn; lia).
  rewrite zn_eqb. destruct (v_type v); reflexivity.
Qed.
Lemma src_add_vote_step_guards (s : nstate) :
  consensus__ConsensusState_addVote__if_cs_Step_ne_cstypes_RoundStepNewHeight (zstep (rstep s)) = negb (step_eqb (rstep s) SNewHeight)
  /\ consensus__ConsensusState_addVote__if_cs_Step_eq_cstypes_RoundStepCommit (zstep (rstep s)) = step_eqb (rstep s) SCommit.
Proof. split; [apply (zstep_neqb _ SNewHeight)|apply (zstep_eqb _ SCommit)]. Qed.
Lemma src_add_vote_height_guard (s : nstate) v :
  consensus__ConsensusState_addVote__if_vote_Height_ne_cs_Height (zn (v_height v)) (zn (height s)) = negb (v_height v =? height s).
Proof. apply zn_neqb. Qed.
Lemma src_add_vote_unlock_atoms :
  consensus__ConsensusState_addVote__if_cs_LockedBlock_ne_nil_and_cs_LockedRound_lt_vote_Round_and_v_a39f474f_atoms
  = ["cs.LockedBlock != nil : bool"; "cs.LockedRound : uint32"; "vote.Round : uint32"; "cs.Round : uint32";
     "cs.LockedBlock.HashesTo(blockID.Hash) : bool"]%string.
Proof. reflexivity. Qed.
(** "Update Valid* if we can" *)
Lemma src_add_vote_valid_guard (sa : nstate) v b :
  consensus__ConsensusState_addVote__if_not_blockID_Hash_IsZero_and_cs_ValidRound_lt_vote_Round_and__3440e291
    (bh b =? 0) (zn (valid_round sa)) (zn (v_round v)) (zn (round sa))
  = negb (bh b =? 0) && (valid_round sa <? v_round v) && (v_round v =? round sa).
Proof.
  unfold consensus__ConsensusState_addVote__if_not_blockID_Hash_IsZero_and_cs_ValidRound_lt_vote_Round_and__3440e291.
  rewrite zn_ltb, zn_eqb. reflexivity.
Qed.
Lemma src_add_vote_valid_atoms :
  consensus__ConsensusState_addVote__if_not_blockID_Hash_IsZero_and_cs_ValidRound_lt_vote_Round_and__3440e291_atoms
  = ["blockID.Hash.IsZero() : bool"; "cs.ValidRound : uint32"; "vote.Round : uint32"; "cs.Round : uint32"]%string
  /\ consensus__ConsensusState_addVote__put_cs_ValidRound_atoms = ["vote.Round : uint32"]%string.
Proof. split; reflexivity. Qed.
(** the three cases after a prevote was added *)
Lemma src_add_vote_prevote_cases (s2 : nstate) v anyb :
  consensus__ConsensusState_addVote__case_cs_Round_lt_vote_Round_and_prevotes_HasTwoThirdsAny (zn (round s2)) (zn (v_round v)) anyb
  = (round s2 <? v_round v) && anyb
  /\ consensus__ConsensusState_addVote__case_cs_Round_eq_vote_Round_and_cstypes_RoundStepPrevote_le_cs_Step
       (zn (round s2)) (zn (v_round v)) (zstep (rstep s2))
  = (round s2 =? v_round v) && step_le SPrevote (rstep s2).
Proof.
  unfold consensus__ConsensusState_addVote__case_cs_Round_lt_vote_Round_and_prevotes_HasTwoThirdsAny,
    consensus__ConsensusState_addVote__case_cs_Round_eq_vote_Round_and_cstypes_RoundStepPrevote_le_cs_Step.
  change 4%Z with (zstep SPrevote). rewrite zn_ltb, zn_eqb, zstep_leb. split; reflexivity.
Qed.
Lemma src_add_vote_pol_case p v :
  consensus__ConsensusState_addVote__case_cs_Proposal_ne_nil_and_1_le_cs_Proposal_POLRound_and_cs_Prop_37fde8e4
    true (zn (p_pol p)) (zn (v_round v))
  = (1 <=? p_pol p) && (p_pol p =? v_round v).
Proof.
  unfold consensus__ConsensusState_addVote__case_cs_Proposal_ne_nil_and_1_le_cs_Proposal_POLRound_and_cs_Prop_37fde8e4.
  change 1%Z with (zn 1). rewrite zn_leb, zn_eqb. reflexivity.
Qed.
Lemma src_add_vote_precommit_any (s1 : nstate) v anyb :
  consensus__ConsensusState_addVote__if_cs_Round_le_vote_Round_and_precommits_HasTwoThirdsAny (zn (round s1)) (zn (v_round v)) anyb
  = (round s1 <=? v_round v) && anyb.
Proof.
  unfold consensus__ConsensusState_addVote__if_cs_Round_le_vote_Round_and_precommits_HasTwoThirdsAny.
  rewrite zn_leb. reflexivity.
Qed.
Lemma src_add_vote_case_atoms :
  consensus__ConsensusState_addVote__case_cs_Round_lt_vote_Round_and_prevotes_HasTwoThirdsAny_atoms
  = ["cs.Round : uint32"; "vote.Round : uint32"; "prevotes.HasTwoThirdsAny() : bool"]%string
  /\ consensus__ConsensusState_addVote__if_cs_Round_le_vote_Round_and_precommits_HasTwoThirdsAny_atoms
  = ["cs.Round : uint32"; "vote.Round : uint32"; "precommits.HasTwoThirdsAny() : bool"]%string.
Proof. split; reflexivity. Qed.

(** doPrevote's stale-lock scan: for r := cs.Round; r > cs.LockedRound; r-- *)
Lemma src_stale_scan_iter r :
  (1 <= r) -> (zn r < 4294967296)%Z ->
  consensus__ConsensusState_doPrevote__forinit_r (zn r) = zn r
  /\ consensus__ConsensusState_doPrevote__set_r_op (zn r) = zn (r - 1).
Proof.
  intros Hr Hu. unfold consensus__ConsensusState_doPrevote__forinit_r, consensus__ConsensusState_doPrevote__set_r_op, go_sub, zn in *.
  split; [reflexivity|]. rewrite wrap_id by (unfold in_range; lia). lia.
Qed.
Lemma src_stale_scan_atoms :
  consensus__ConsensusState_doPrevote__for_r_gt_cs_LockedRound_atoms = ["r : uint32"; "cs.LockedRound : uint32"]%string
  /\ consensus__ConsensusState_doPrevote__forinit_r_atoms = ["cs.Round : uint32"]%string
  /\ consensus__ConsensusState_doPrevote__if_ok_and_not_cs_LockedBlock_HashesTo_bid_Hash_atoms
     = ["ok : bool"; "cs.LockedBlock.HashesTo(bid.Hash) : bool"]%string.
Proof. repeat split; reflexivity. Qed.
Lemma src_stale_scan_step (s : nstate) r m :
  stale_scan s r (S m)
  = match maj_of (get_vs s r Prevote) with
    | Some b => if consensus__ConsensusState_doPrevote__if_ok_and_not_cs_LockedBlock_HashesTo_bid_Hash true (hashes_to (locked s) (bh b))
                then true else stale_scan s (r - 1) m
    | None => stale_scan s (r - 1) m
    end.
Proof. reflexivity. Qed.

(** updateToState: height := LastBlockHeight + 1; CommitRound > 0 selects cs.Votes.Precommits(CommitRound) *)
Lemma src_update_to_state_guard (s : nstate) :
  consensus__ConsensusState_updateToState__case_cs_CommitRound_gt_0_and_cs_Votes_ne_nil (zn (commit_round s)) true
  = (0 <? commit_round s).
Proof.
  unfold consensus__ConsensusState_updateToState__case_cs_CommitRound_gt_0_and_cs_Votes_ne_nil.
  rewrite Z.gtb_ltb. change 0%Z with (zn 0). rewrite zn_ltb. apply andb_true_r.
Qed.
Lemma src_next_height (s : nstate) :
  (zn (height s) < 18446744073709551615)%Z ->
  consensus__ConsensusState_updateToState__set_height (zn (height s)) = zn (height s + 1).
Proof.
  intros H. unfold consensus__ConsensusState_updateToState__set_height, go_add. rewrite wrap_id by (unfold in_range, zn in *; lia).
  unfold zn. lia.
Qed.
Lemma src_reset_values :
  consensus__ConsensusState_updateToState__put_cs_LockedRound = 0%Z
  /\ consensus__ConsensusState_updateToState__put_cs_ValidRound = 0%Z
  /\ consensus__ConsensusState_updateToState__put_cs_CommitRound = 0%Z
  /\ consensus__ConsensusState_updateToState__put_cs_TriggeredTimeoutPrecommit = false.
Proof. repeat split; reflexivity. Qed.

(** enterNewRound: proposer rotation by round - cs.Round when cs.Round < round; round == 1 keeps the proposal *)
Lemma src_enter_new_round_inner (s : nstate) r :
  consensus__ConsensusState_enterNewRound__if_cs_Round_lt_round (zn (round s)) (zn r) = (round s <? r)
  /\ consensus__ConsensusState_enterNewRound__if_round_eq_1 (zn r) = (r =? 1)
  /\ consensus__ConsensusState_enterNewRound__set_waitForTxs (wait_for_txs cfg) (zn r) = wait_for_txs cfg && (r =? 1).
Proof.
  split; [apply zn_ltb|]. split; [apply (zn_eqb _ 1)|].
  unfold consensus__ConsensusState_enterNewRound__set_waitForTxs. change 1%Z with (zn 1). rewrite zn_eqb. reflexivity.
Qed.

(** * consensus/types/height_vote_set.go *)

(** SetRound: newRound := hvs.round - 1; panic iff (hvs.round != 1) && (round < newRound) *)
Lemma src_hvs_set_round_guard (s : nstate) nr :
  (1 <= hvs_round s) -> (zn (hvs_round s) < 4294967296)%Z ->
  consensus_types__HeightVoteSet_SetRound__if_hvs_round_ne_1_and_round_lt_newRound
    (zn (hvs_round s)) (zn nr) (consensus_types__HeightVoteSet_SetRound__set_newRound (zn (hvs_round s)))
  = negb (hvs_round s =? 1) && (nr <? hvs_round s - 1).
Proof.
  intros H1 Hu.
  unfold consensus_types__HeightVoteSet_SetRound__if_hvs_round_ne_1_and_round_lt_newRound,
    consensus_types__HeightVoteSet_SetRound__set_newRound, go_sub.
  rewrite wrap_id by (unfold in_range, zn in *; lia).
  replace (zn (hvs_round s) - 1)%Z with (zn (hvs_round s - 1)) by (unfold zn; lia).
  change 1%Z with (zn 1). rewrite zn_neqb, zn_ltb. reflexivity.
Qed.
Lemma src_hvs_set_round_atoms :
  consensus_types__HeightVoteSet_SetRound__if_hvs_round_ne_1_and_round_lt_newRound_atoms
  = ["hvs.round : uint32"; "round : uint32"; "newRound : uint32"]%string
  /\ consensus_types__HeightVoteSet_SetRound__set_newRound_atoms = ["hvs.round : uint32"]%string
  /\ consensus_types__HeightVoteSet_SetRound__forinit_r_atoms = ["newRound : uint32"]%string
  /\ consensus_types__HeightVoteSet_SetRound__for_r_le_round_atoms = ["r : uint32"; "round : uint32"]%string
  /\ consensus_types__HeightVoteSet_SetRound__put_hvs_round_atoms = ["round : uint32"]%string.
Proof. split_all; reflexivity. Qed.
(** the loop "for r := newRound; r <= round; r++" runs nr + 1 - newRound times *)
Lemma src_hvs_set_round_loop lo nr :
  consensus_types__HeightVoteSet_SetRound__for_r_le_round (zn lo) (zn nr) = negb (Nat.eqb (N.to_nat (nr + 1 - lo)) 0).
Proof.
  unfold consensus_types__HeightVoteSet_SetRound__for_r_le_round. rewrite count_pos, zn_leb.
  destruct (N.leb_spec lo nr), (N.ltb_spec lo (nr + 1)); try reflexivity; lia.
Qed.
Lemma src_catchup_atoms : consensus_types__HeightVoteSet_AddVote__if_len_rndz_lt_2_atoms = ["len(rndz) : int"]%string.
Proof. reflexivity. Qed.
(** POLInfo scans from hvs.round down to 1 *)
Lemma src_pol_scan_bounds n :
  consensus_types__HeightVoteSet_POLInfo__for_r_ge_1 (Z.of_nat n) = negb (Nat.eqb n 0)
  /\ consensus_types__HeightVoteSet_POLInfo__forinit_r_atoms = ["hvs.round : uint32"]%string.
Proof.
  split; [|reflexivity]. unfold consensus_types__HeightVoteSet_POLInfo__for_r_ge_1. rewrite Z.geb_leb.
  destruct (Z.leb_spec 1 (Z.of_nat n)); destruct (Nat.eqb_spec n 0); cbn [negb]; try reflexivity; lia.
Qed.

(** * consensus/ticker.go *)
Lemma src_tk_atoms :
  consensus__timeoutTicker_timeoutRoutine__if_ti_Step_gt_0_and_newti_Step_le_ti_Step_atoms
  = ["ti.Step : github.com/kardiachain/go-kardia/consensus/types.RoundStepType";
     "newti.Step : github.com/kardiachain/go-kardia/consensus/types.RoundStepType"]%string.
Proof. reflexivity. Qed.

End NodeTie.

(** * kai/state/cstate: validateBlock, MedianTime; types/time: WeightedMedian; types: ValidateBasic *)

Local Open Scope Z_scope.
Import C02.Model.

(** validateBlock IS the sequence of the source's guards on the source's operands *)
Definition validate_block_src (st : chain) (b : vblock) : Validate.verr :=
  let h := vb_hdr b in
  if kai_state_cstate__validateBlock__if_err_ne_nil (negb (block_validate_basic b)) then VBasic
  else if kai_state_cstate__validateBlock__if_block_Height_ne_state_LastBlockHeight_plus_1 (vh_height h) (ch_last_height st) then VHeight
  else if kai_state_cstate__validateBlock__if_state_LastBlockHeight_eq_0_and_block_Height_ne_state_InitialHeight
            (ch_last_height st) (vh_height h) (ch_initial st) then VHeight
  else if kai_state_cstate__validateBlock__if_state_LastBlockHeight_gt_0_and_block_Height_ne_state_LastBlo_85dde98c
            (ch_last_height st) (vh_height h) then VHeight
  else if kai_state_cstate__validateBlock__if_not_block_Header__LastBlockID_Equal_state_LastBlockID (bid_eqb (vh_last h) (ch_last_bid st)) then VLastID
  else if kai_state_cstate__validateBlock__if_not_block_AppHash__Equal_state_AppHash (N.eqb (vh_app h) (ch_app st)) then VApp
  else if kai_state_cstate__validateBlock__if_not_block_Header__ValidatorsHash_Equal_state_Validators_Hash (N.eqb (vh_vals h) (ch_vals_hash st)) then VVals
  else if kai_state_cstate__validateBlock__if_not_block_Header__NextValidatorsHash_Equal_state_NextValidators_Hash (N.eqb (vh_nextvals h) (ch_nextvals_hash st)) then VNextVals
  else match vb_lc b with
       | None => VNilCommit
       | Some c =>
         match
           (if kai_state_cstate__validateBlock__if_block_Height_eq_state_InitialHeight (vh_height h) (ch_initial st) then
              (if kai_state_cstate__validateBlock__if_len_block_LastCommit__Signatures_ne_0 (Z.of_nat (List.length (c_sigs c))) then VFirstCommit else VOk)
            else match verify_commit (ch_last_vals st) (ch_id st) (ch_last_bid st) (z_to_N (go_sub U64 (vh_height h) 1)) c with
                 | COk => VOk
                 | e => VCommit e
                 end)
         with
         | VOk =>
           match
             (if kai_state_cstate__validateBlock__case_block_Height_gt_state_InitialHeight (vh_height h) (ch_initial st) then
                if kai_state_cstate__validateBlock__if_not_block_Time__After_state_LastBlockTime (vh_time h >? ch_last_time st) then VTimeNotAfter
                else match median_time c (ch_last_vals st) with
                     | Some m => if kai_state_cstate__validateBlock__if_not_block_Time__Equal_medianTime (vh_time h =? m) then VTimeNotMedian else VOk
                     | None => VTimeNotMedian
                     end
              else if kai_state_cstate__validateBlock__case_block_Height_eq_state_InitialHeight (vh_height h) (ch_initial st) then
                if kai_state_cstate__validateBlock__if_not_block_Time__Equal_genesisTime (vh_time h =? ch_last_time st) then VTimeGenesis else VOk
              else VBelowInitial)
           with
           | VOk =>
             if kai_state_cstate__validateBlock__if_numEvidence_gt_maxNumEvidence (vb_nevid b) (ch_max_evid st) then VEvidenceCount
             else if kai_state_cstate__validateBlock__if_not_state_Validators_HasAddress_block_ProposerAddress (has_address (ch_vals st) (vh_proposer h)) then VProposer
             else if negb (vb_evid_ok b) then VEvidence
             else VOk
           | e => e
           end
         | e => e
         end
       end.

Lemma src_validate_block_atoms :
  kai_state_cstate__validateBlock__if_block_Height_ne_state_LastBlockHeight_plus_1_atoms = ["block.Height() : uint64"; "state.LastBlockHeight : uint64"]%string
  /\ kai_state_cstate__validateBlock__if_state_LastBlockHeight_eq_0_and_block_Height_ne_state_InitialHeight_atoms
     = ["state.LastBlockHeight : uint64"; "block.Height() : uint64"; "state.InitialHeight : uint64"]%string
  /\ kai_state_cstate__validateBlock__if_not_block_Header__LastBlockID_Equal_state_LastBlockID_atoms = ["block.Header().LastBlockID.Equal(state.LastBlockID) : bool"]%string
  /\ kai_state_cstate__validateBlock__if_not_block_AppHash__Equal_state_AppHash_atoms = ["block.AppHash().Equal(state.AppHash) : bool"]%string
  /\ kai_state_cstate__validateBlock__if_not_block_Header__ValidatorsHash_Equal_state_Validators_Hash_atoms
     = ["block.Header().ValidatorsHash.Equal(state.Validators.Hash()) : bool"]%string
  /\ kai_state_cstate__validateBlock__if_not_block_Header__NextValidatorsHash_Equal_state_NextValidators_Hash_atoms
     = ["block.Header().NextValidatorsHash.Equal(state.NextValidators.Hash()) : bool"]%string
  /\ kai_state_cstate__validateBlock__if_block_Height_eq_state_InitialHeight_atoms = ["block.Height() : uint64"; "state.InitialHeight : uint64"]%string
  /\ kai_state_cstate__validateBlock__if_len_block_LastCommit__Signatures_ne_0_atoms = ["len(block.LastCommit().Signatures) : int"]%string
  /\ kai_state_cstate__validateBlock__case_block_Height_gt_state_InitialHeight_atoms = ["block.Height() : uint64"; "state.InitialHeight : uint64"]%string
  /\ kai_state_cstate__validateBlock__if_not_block_Time__After_state_LastBlockTime_atoms = ["block.Time().After(state.LastBlockTime) : bool"]%string
  /\ kai_state_cstate__validateBlock__if_not_block_Time__Equal_medianTime_atoms = ["block.Time().Equal(medianTime) : bool"]%string
  /\ kai_state_cstate__validateBlock__if_not_block_Time__Equal_genesisTime_atoms = ["block.Time().Equal(genesisTime) : bool"]%string
  /\ kai_state_cstate__validateBlock__if_numEvidence_gt_maxNumEvidence_atoms = ["numEvidence : int64"; "maxNumEvidence : int64"]%string
  /\ kai_state_cstate__validateBlock__if_not_state_Validators_HasAddress_block_ProposerAddress_atoms
     = ["state.Validators.HasAddress(block.ProposerAddress()) : bool"]%string.
Proof. split_all; reflexivity. Qed.

(** Block.ValidateBasic: the last commit is required and checked from height 2 on; the header's
    LastCommitHash must be the commit's hash (zero without a commit) *)
Lemma src_block_validate_basic b :
  block_validate_basic b
  = (vb_wf b &&
     (if types__Block_ValidateBasic__if_b_header_Height_gt_1 (vh_height (vb_hdr b))
      then match vb_lc b with None => false | Some c => commit_validate_basic c end
      else true) &&
     vb_lch_ok b)%bool.
Proof. reflexivity. Qed.
Lemma src_lch_guards lc_nil lch_zero lch_eq :
  types__Block_ValidateBasic__if_b_lastCommit_eq_nil_and_not_b_header_LastCommitHash_IsZero lc_nil lch_zero = (lc_nil && negb lch_zero)%bool
  /\ types__Block_ValidateBasic__if_b_lastCommit_ne_nil_and_not_b_header_LastCommitHash_Equal_b__cf547c83 (negb lc_nil) lch_eq = (negb lc_nil && negb lch_eq)%bool
  /\ types__Block_ValidateBasic__if_b_lastCommit_ne_nil_and_not_b_header_LastCommitHash_Equal_b__cf547c83_atoms
     = ["b.lastCommit != nil : bool"; "b.header.LastCommitHash.Equal(b.lastCommit.Hash()) : bool"]%string.
Proof. repeat split; reflexivity. Qed.

(** MedianTime / WeightedMedian: the running total, the halving, the comparison of the sort, the
    scan's test and its subtraction are the source's *)
Lemma src_median_entries_step vals cs r tot :
  median_entries vals (cs :: r) tot
  = if kai_state_cstate__MedianTime__if_commitSig_Absent (N.eqb (cs_flag cs) FLAG_ABSENT) then median_entries vals r tot
    else match power_of vals (cs_addr cs) with
         | None => median_entries vals r tot
         | Some p =>
           let '(l, t) := median_entries vals r (kai_state_cstate__MedianTime__set_totalVotingPower_op tot p) in
           ((Z.of_N (cs_time cs), p) :: l, t)
         end.
Proof. reflexivity. Qed.
Lemma src_median_atoms :
  kai_state_cstate__MedianTime__set_totalVotingPower_op_atoms = ["totalVotingPower : int64"; "votingPower : int64"]%string
  /\ types_time__WeightedMedian__set_median_atoms = ["totalVotingPower : int64"]%string
  /\ types_time__WeightedMedian__if_median_le_weightedTime_Weight_atoms = ["median : int64"; "weightedTime.Weight : int64"]%string
  /\ types_time__WeightedMedian__set_median_op_atoms = ["median : int64"; "weightedTime.Weight : int64"]%string
  /\ types_time__WeightedMedian__ret_weightedTimes_at_i__Time_UnixNano_lt_weightedTimes_at_j__Time_UnixNano_atoms
     = ["weightedTimes[i].Time.UnixNano() : int64"; "weightedTimes[j].Time.UnixNano() : int64"]%string.
Proof. split_all; reflexivity. Qed.

(** MaxEvidencePerBlock(maxBytes) = maxBytes / 10 / 484 (the harness hands this number to the model) *)
Lemma src_max_evidence mb :
  types__MaxEvidencePerBlock__set_maxNum (types__MaxEvidencePerBlock__set_maxBytes mb)
  = go_quot I64 (go_quot I64 mb types__MaxEvidenceBytesDenominator) types__MaxEvidenceBytes.
Proof. reflexivity. Qed.

Definition C03_source_tie_statement : Prop :=
  (* Validate.v: the model functions are the source expressions *)
  (forall st b, validate_block st b = validate_block_src st b)
  /\ (forall l total, weighted_median l total = wm_scan (wt_sort l) (types_time__WeightedMedian__set_median total))
  /\ (forall t w r median,
        wm_scan ((t, w) :: r) median
        = if types_time__WeightedMedian__if_median_le_weightedTime_Weight median w then Some t
          else wm_scan r (types_time__WeightedMedian__set_median_op median w))
  /\ (forall x y t,
        wt_insert x (y :: t)
        = if types_time__WeightedMedian__ret_weightedTimes_at_i__Time_UnixNano_lt_weightedTimes_at_j__Time_UnixNano (fst x) (fst y)
          then x :: y :: t else y :: wt_insert x t)
  /\ (forall c, commit_validate_basic c
        = if types__Commit_ValidateBasic__if_commit_Height_ge_1 (Z.of_N (c_height c)) then
            (negb (types__Commit_ValidateBasic__if_commit_BlockID_IsZero (bid_is_zero (c_bid c)))
             && negb (types__Commit_ValidateBasic__if_len_commit_Signatures_eq_0 (Z.of_nat (List.length (c_sigs c))))
             && forallb cs_validate_basic (c_sigs c))%bool
          else true)
  (* Node.v: the step functions are "if <source guard> ..." on the Z images of their operands *)
  /\ (forall valid me h r s,
        enter_prevote valid me h r s
        = if consensus__ConsensusState_enterPrevote__if_cs_Height_ne_height_or_round_lt_cs_Round_or_cs_Round_eq_roun_89292bfb
               (zn (height s)) (zn h) (zn r) (zn (round s)) (zstep (rstep s))
          then s else set_rstep SPrevote (set_round r (do_prevote valid me s)))
  /\ (forall (s : nstate) h r,
        consensus__ConsensusState_enterPrecommit__if_cs_Height_ne_height_or_round_lt_cs_Round_or_cs_Round_eq_roun_175a6e72
          (zn (height s)) (zn h) (zn r) (zn (round s)) (zstep (rstep s))
        = (negb (N.eqb (height s) h) || N.ltb r (round s) || (N.eqb (round s) r && step_le SPrecommit (rstep s)))%bool)
  /\ (forall pol r, consensus__ConsensusState_enterPrecommit__if_polRound_lt_round (zn pol) (zn r) = N.ltb pol r)
  /\ (forall (s : nstate) h r,
        consensus__ConsensusState_enterNewRound__if_cs_Height_ne_height_or_round_lt_cs_Round_or_cs_Round_eq_roun_2354a6d9
          (zn (height s)) (zn h) (zn r) (zn (round s)) (zstep (rstep s))
        = (negb (N.eqb (height s) h) || N.ltb r (round s) || (N.eqb (round s) r && negb (step_eqb (rstep s) SNewHeight)))%bool)
  /\ (forall (s : nstate) h r st,
        consensus__ConsensusState_handleTimeout__if_ti_Height_ne_rs_Height_or_ti_Round_lt_rs_Round_or_ti_Round_e_deeb9baa
          (zn h) (zn (height s)) (zn r) (zn (round s)) (zstep st) (zstep (rstep s))
        = (negb (N.eqb h (height s)) || N.ltb r (round s) || (N.eqb r (round s) && step_lt st (rstep s)))%bool)
  /\ (forall (s1 : nstate) (v : Node.vote) (b : Node.bid),
        consensus__ConsensusState_addVote__if_cs_LockedBlock_ne_nil_and_cs_LockedRound_lt_vote_Round_and_v_a39f474f
          (match locked s1 with Some _ => true | None => false end)
          (zn (locked_round s1)) (zn (Node.v_round v)) (zn (round s1)) (hashes_to (locked s1) (Node.bh b))
        = match locked s1 with
          | Some _ => (N.ltb (locked_round s1) (Node.v_round v) && N.leb (Node.v_round v) (round s1) && negb (hashes_to (locked s1) (Node.bh b)))%bool
          | None => false
          end)
  /\ (forall (s : nstate) r,
        consensus__ConsensusState_doPrevote__for_r_gt_cs_LockedRound (zn r) (zn (locked_round s))
        = negb (Nat.eqb (N.to_nat (r - locked_round s)) 0))
  /\ (forall rs : list N, consensus_types__HeightVoteSet_AddVote__if_len_rndz_lt_2 (Z.of_nat (List.length rs)) = Nat.ltb (List.length rs) 2)
  /\ (forall lh lr ls nh nr ns,
        tk_accepts (lh, lr, ls) (nh, nr, ns)
        = if consensus__timeoutTicker_timeoutRoutine__if_newti_Height_lt_ti_Height (zn nh) (zn lh) then false
          else if consensus__timeoutTicker_timeoutRoutine__if_newti_Height_eq_ti_Height (zn nh) (zn lh) then
            if consensus__timeoutTicker_timeoutRoutine__if_newti_Round_lt_ti_Round (zn nr) (zn lr) then false
            else if consensus__timeoutTicker_timeoutRoutine__if_newti_Round_eq_ti_Round (zn nr) (zn lr) then
              negb (consensus__timeoutTicker_timeoutRoutine__if_ti_Step_gt_0_and_newti_Step_le_ti_Step (zstep ls) (zstep ns))
            else true
          else true).

Lemma C03_source_tie_proof : C03_source_tie_statement.
Proof.
  unfold C03_source_tie_statement. split_all.
  (* validateBlock; WeightedMedian's halving, scan and sort comparison *)
  - reflexivity.
  - reflexivity.
  - reflexivity.
  - reflexivity.
  - (* Commit.ValidateBasic (C02/Model.v [commit_validate_basic]): checked from commit height 1 on *)
    intros c. unfold commit_validate_basic. destruct (c_height c) as [|[p|p|]], (c_sigs c); reflexivity.
  - intros valid me h r s. unfold enter_prevote. rewrite <- (entry_guard SPrevote). reflexivity.
  - intros s h r. apply (entry_guard SPrecommit).
  - exact zn_ltb.
  - (* enterNewRound: (cs.Height != height) || (round < cs.Round) || (cs.Round == round) && (cs.Step != NewHeight) *)
    intros s h r.
    unfold consensus__ConsensusState_enterNewRound__if_cs_Height_ne_height_or_round_lt_cs_Round_or_cs_Round_eq_roun_2354a6d9.
    change 1%Z with (zstep SNewHeight). now rewrite zn_neqb, zn_ltb, zn_eqb, zstep_neqb.
  - (* handleTimeout: (ti.Height != rs.Height) || (ti.Round < rs.Round) || (ti.Round == rs.Round && ti.Step < rs.Step) *)
    intros s h r st.
    unfold consensus__ConsensusState_handleTimeout__if_ti_Height_ne_rs_Height_or_ti_Round_lt_rs_Round_or_ti_Round_e_deeb9baa.
    now rewrite zn_neqb, zn_ltb, zn_eqb, zstep_ltb.
  - (* addVote: "Unlock if cs.LockedRound < vote.Round <= cs.Round" and the polka is not for the locked block *)
    intros s1 v b.
    unfold consensus__ConsensusState_addVote__if_cs_LockedBlock_ne_nil_and_cs_LockedRound_lt_vote_Round_and_v_a39f474f.
    rewrite zn_ltb, zn_leb. destruct (locked s1); reflexivity.
  - (* doPrevote's stale-lock scan: the body runs once for every round of (LockedRound, Round], i.e.
       [round - locked_round] times, downwards from Round *)
    intros s r. unfold consensus__ConsensusState_doPrevote__for_r_gt_cs_LockedRound.
    now rewrite Z.gtb_ltb, zn_ltb, count_pos.
  - (* HeightVoteSet.AddVote: a peer may open at most two rounds the node does not track *)
    intros rs. exact (Zofnat_ltb (List.length rs) 2).
  - (* the monotone filter of timeoutRoutine is [tk_accepts] *)
    intros lh lr ls nh nr ns.
    unfold tk_accepts, consensus__timeoutTicker_timeoutRoutine__if_newti_Height_lt_ti_Height,
      consensus__timeoutTicker_timeoutRoutine__if_newti_Height_eq_ti_Height,
      consensus__timeoutTicker_timeoutRoutine__if_newti_Round_lt_ti_Round,
      consensus__timeoutTicker_timeoutRoutine__if_newti_Round_eq_ti_Round,
      consensus__timeoutTicker_timeoutRoutine__if_ti_Step_gt_0_and_newti_Step_le_ti_Step.
    rewrite Z.gtb_ltb. change 0%Z with (zn 0). unfold zstep. now rewrite !zn_ltb, !zn_eqb, zn_leb.
Qed.
