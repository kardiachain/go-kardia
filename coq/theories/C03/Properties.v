(** C03 — property theorems only (each closed by [exact] of a lemma of Proofs*.v and followed by
    [Print Assumptions]).  Statements still open are in Open.v as [Definition ..._statement : Prop].
    [run] is [fold_left step_state] from [init]; [log] is the ghost history of all inputs and
    outputs; valid, vals, proposer, mkblock, cfg and me are arbitrary. *)
From Coq Require Import List ZArith NArith Bool.
From Kardia Require Import C03.Node C03.Spec C03.ProofsMono C03.ProofsInv C03.ProofsValid C03.ProofsLock C03.Proofs C03.Open C03.ToC01 C03.ProofsHalt C03.SourceTie.
From Kardia Require C02.Model C02.Proofs C03.Validate C03.ProofsValidate C03.ProofsExtension.
Import ListNotations.
Local Open Scope N_scope.

(** At most one vote of each type and at most one proposal is ever signed per (height, round),
    whatever inputs (votes, proposals, blocks, accepted timeouts, in any order) are fed. *)
Theorem C03_one_vote_per_step :
  forall valid vals proposer mkblock cfg me (ins : list input),
    let l := log (run valid vals proposer mkblock cfg me ins) in
    NoDup (map (fun v => (v_type v, v_height v, v_round v)) (signed_votes l)) /\
    NoDup (map (fun p => (p_height p, p_round p)) (signed_proposals l)).
Proof. exact one_vote_per_step. Qed.
Print Assumptions C03_one_vote_per_step.

(** (height, round, step) never decreases, from any state and for any input. *)
Theorem C03_round_monotone :
  forall valid vals proposer mkblock cfg me (s : nstate) (i : input),
    let s' := step_state valid vals proposer mkblock cfg me s i in
    height s < height s' \/
    (height s = height s' /\
     (round s < round s' \/ (round s = round s' /\ step_num (rstep s) <= step_num (rstep s')))).
Proof. exact step_state_mono. Qed.
Print Assumptions C03_round_monotone.

(** Everything the node has signed lies at or before its current (height, round); a vote signed
    for the current round is reflected in the step; a pending timeout is never for a future round
    ([Inv1] of ProofsInv.v, for every reachable state). *)
Theorem C03_bookkeeping_invariant :
  forall valid vals proposer mkblock cfg me (ins : list input),
    Inv1 (run valid vals proposer mkblock cfg me ins).
Proof. exact run_inv. Qed.
Print Assumptions C03_bookkeeping_invariant.

(** A non-nil prevote is signed only for a block that the node had been given in full before that
    moment ([held (received pre) b]) and that passes validation against the node's own chain
    state at the vote's height ([valid h b] = validateBlock: height, parent id, last-commit
    verification, app/validator hashes, median time). *)
Theorem C03_votes_only_valid :
  forall valid vals proposer mkblock cfg me (ins : list input) post pre v,
    log (run valid vals proposer mkblock cfg me ins) = post ++ EvOut (SignVote v) :: pre ->
    v_type v = Prevote -> bid_is_zero (v_bid v) = false ->
    exists b, held (received pre) b /\ b_hash b = bh (v_bid v) /\ valid (v_height v) b = true.
Proof. exact votes_only_valid. Qed.
Print Assumptions C03_votes_only_valid.

(** A non-nil precommit for block id b at (h, r) is signed only if, before that moment, the node had
    received well-signed prevotes for exactly b at (h, r) from distinct validators holding more than
    2/3 of the height's voting power, and had been given a block with b's hash that passes
    validation at h.  (Voting powers are non-negative: C02/C12's wf_vals.) *)
Theorem C03_precommit_needs_polka :
  forall valid vals proposer mkblock cfg me,
    (forall h, Forall (fun p => (0 <= p)%Z) (vals h)) ->
    forall (ins : list input) post pre v,
      log (run valid vals proposer mkblock cfg me ins) = post ++ EvOut (SignVote v) :: pre ->
      v_type v = Precommit -> bid_is_zero (v_bid v) = false ->
      quorum_received vals (received pre) Prevote (v_height v) (v_round v) (v_bid v) /\
      exists b, held (received pre) b /\ b_hash b = bh (v_bid v) /\ valid (v_height v) b = true.
Proof. exact precommit_needs_polka. Qed.
Print Assumptions C03_precommit_needs_polka.

(** Lock rule: after a non-nil precommit p = (b, r), any later prevote x of the same height in a
    round r' > r for a value with another hash (nil included) is signed only after the node received
    a +2/3 prevote set for a value y with another hash than b in some round r'' with r < r'' <= r'. *)
Theorem C03_lock_rule :
  forall valid vals proposer mkblock cfg me,
    (forall h, Forall (fun p => (0 <= p)%Z) (vals h)) ->
    forall (ins : list input) l3 l2 l1 p x,
      log (run valid vals proposer mkblock cfg me ins) =
        l3 ++ EvOut (SignVote x) :: l2 ++ EvOut (SignVote p) :: l1 ->
      v_type p = Precommit -> bid_is_zero (v_bid p) = false -> v_type x = Prevote ->
      v_height x = v_height p -> v_round p < v_round x -> bh (v_bid x) <> bh (v_bid p) ->
      exists r'' y, v_round p < r'' /\ r'' <= v_round x /\ bh y <> bh (v_bid p) /\
                    quorum_received vals (received (l2 ++ EvOut (SignVote p) :: l1)) Prevote (v_height p) r'' y.
Proof. exact lock_rule_strong. Qed.
Print Assumptions C03_lock_rule.

(** A block is committed (finalizeCommit) only if it passes validation at that height and the node
    had received, in the single round r, well-signed precommits for one block id with that block's
    hash from distinct validators holding more than 2/3 of the voting power. *)
Theorem C03_commit_needs_quorum :
  forall valid vals proposer mkblock cfg me,
    (forall h, Forall (fun p => (0 <= p)%Z) (vals h)) ->
    forall (ins : list input) post pre h b r,
      log (run valid vals proposer mkblock cfg me ins) = post ++ EvOut (Commit h b r) :: pre ->
      valid h b = true /\
      exists id, bh id = b_hash b /\ quorum_received vals (received pre) Precommit h r id.
Proof. exact commit_needs_quorum. Qed.
Print Assumptions C03_commit_needs_quorum.

(** Bridge to C01: in any global trace [linked] with a run of the node (every well-signed vote of
    height h the node received had been signed earlier in the trace; the node's own signatures of
    height h enter the trace when they are made; nothing else is attributed to the node), the
    node's events satisfy the four obligations that C01's agreement theorem consumes
    (ob_one_precommit, ob_precommit_polka, ob_lock, ob_monotone), block ids being read by hash. *)
Theorem C03_node_obeys_C01 :
  forall valid vals proposer mkblock cfg (i h : N),
    (forall h0, Forall (fun p => (0 <= p)%Z) (vals h0)) ->
    forall (ins : list input) (tr : Kardia.C01.Agreement.trace N),
      linked i h tr (log (run valid vals proposer mkblock cfg (Some i) ins)) ->
      Kardia.C01.Agreement.obeys (vals h) N N.eq_dec tr (N.to_nat i).
Proof. exact node_obeys. Qed.
Print Assumptions C03_node_obeys_C01.

(** The POLRound sanity check of setProposal is dead code: a correctly signed proposal for the
    current height and round is accepted whatever its POLRound. *)
Theorem C03_polround_check_is_dead :
  forall proposer p s,
    prop s = None -> p_height p = height s -> p_round p = round s ->
    p_signer p = Some (proposer (height s) (prop_round s)) ->
    prop (recv_proposal proposer p s) = Some p.
Proof. exact proposal_polround_unchecked. Qed.
Print Assumptions C03_polround_check_is_dead.

(** REFUTED (known finding "halt-same-hash-other-body"): "a validator fed only honest-looking inputs
    (well-signed votes for nil or for the full id — hash and parts header — of a block that passes
    validation, no validator voting twice in a slot, only valid blocks) never runs into a Go panic".
    Witness (ProofsHalt.v, computed on the model): 4 validators of power 10, only the proposer
    faulty; the node holds the body (hash 1, parts 1), the others prevote and precommit the equally
    valid body (hash 1, parts 2); the node locks its block under an EMPTY part set with header 2,
    precommits (1,2) and halts in finalizeCommit/SaveBlock on the incomplete part set.  The code
    matches the polka/commit block with the block in hand by hash alone. *)
Theorem C03_no_halt_under_one_byzantine_proposer_refuted : ~ C03_no_halt_statement.
Proof. exact no_halt_refuted. Qed.
Print Assumptions C03_no_halt_under_one_byzantine_proposer_refuted.

(** Source tie: the validation model (validateBlock, MedianTime/WeightedMedian, Commit.ValidateBasic)
    and the guards of the node model (step-function entry guards, POL sanity check, unlock rule,
    stale-lock scan bound, catch-up limit, ticker filter, handleTimeout) are the expressions that
    /verif/go2coq regenerates from the Go sources on every check (Generated/C03Source.v), on the
    operands the [_atoms] lemmas of SourceTie.v pin. *)
Theorem C03_source_tie : C03_source_tie_statement.
Proof. exact C03_source_tie_proof. Qed.
Print Assumptions C03_source_tie.

(** "Valid extension of its own chain", spelled out: validateBlock (Validate.v, transcribed from
    kai/state/cstate/validation.go and tied to the source by C03_source_tie) accepts a block exactly
    when it has the right height (last height + 1, the initial height for the first block) and parent
    id, the application hash and both validator-set hashes of the node's own state, a last commit
    that is empty in the first block and otherwise passes VerifyCommit against the previous
    validator set for (chain id, parent id, height - 1), a time equal to the genesis time in the
    first block and otherwise strictly after the last block time and equal to MedianTime of that
    commit, at most the allowed number of evidence items, a proposer of the current set, and passes
    ValidateBasic and the evidence pool. *)
Theorem C03_validate_block_exact :
  forall st b, Validate.validate_block st b = Validate.VOk <-> ProofsValidate.valid_extension st b.
Proof. exact ProofsValidate.validate_block_exact. Qed.
Print Assumptions C03_validate_block_exact.

(** The last commit of an accepted block after the first one names the parent id and height and
    carries valid precommit signatures of validators of the previous set (each in its own slot)
    holding more than two thirds of that set's power (with C02's VerifyCommit theorem). *)
Theorem C03_accepted_commit_has_quorum :
  forall st b c,
    Validate.validate_block st b = Validate.VOk -> Validate.vb_lc b = Some c ->
    C02.Proofs.wf_vals (Validate.ch_last_vals st) ->
    (Validate.ch_initial st < Validate.vh_height (Validate.vb_hdr b))%Z -> (1 <= Validate.ch_initial st)%Z ->
    (Validate.vh_height (Validate.vb_hdr b) < Int64.two64)%Z ->
    let hp := Validate.z_to_N (Validate.vh_height (Validate.vb_hdr b) - 1) in
    C02.Model.c_height c = hp /\ C02.Model.c_bid c = Validate.ch_last_bid st /\
    length (C02.Model.c_sigs c) = length (Validate.ch_last_vals st) /\
    (2 * C02.Proofs.sum_powers (Validate.ch_last_vals st)
     < 3 * C02.Proofs.signed_power (Validate.ch_id st) hp (C02.Model.c_round c) (Validate.ch_last_bid st)
                                    (Validate.ch_last_vals st) (C02.Model.c_sigs c))%Z.
Proof. exact ProofsValidate.accepted_commit_has_quorum. Qed.
Print Assumptions C03_accepted_commit_has_quorum.

(** The prescribed block time is a weighted median: MedianTime returns one of the timestamps of the
    non-absent commit slots that name a validator; the slots strictly before it weigh at most half
    of the counted power and the slots at or before it at least half (powers non-negative, total
    within int64 — C12's cap). *)
Theorem C03_block_time_is_weighted_median :
  forall c vals t,
    Forall (fun e => (0 <= snd e)%Z) (ProofsValidate.entries_of vals (C02.Model.c_sigs c)) ->
    (ProofsValidate.wtotal (ProofsValidate.entries_of vals (C02.Model.c_sigs c)) <= Int64.max_int64)%Z ->
    Validate.median_time c vals = Some t ->
    let l := ProofsValidate.entries_of vals (C02.Model.c_sigs c) in
    In t (map fst l) /\
    (ProofsValidate.wsum (fun x => (x <? t)%Z) l <= ProofsValidate.wtotal l / 2
     <= ProofsValidate.wsum (fun x => (x <=? t)%Z) l)%Z.
Proof. exact ProofsValidate.median_time_spec. Qed.
Print Assumptions C03_block_time_is_weighted_median.

(** The executor's validation cache (BlockExecutor.ValidateBlock / validationKey / the reset in
    ApplyBlock) is transparent: over any sequence of validations and block applications, every
    answer is validateBlock's answer for the chain state current at that moment — unless two
    different blocks that both pass ValidateBasic share a validation key (a hash collision). *)
Theorem C03_validation_cache_transparent :
  forall (bhash : Validate.vblock -> N) st ops,
    snd (Validate.xrun bhash (st, []) ops) = ProofsValidate.xspec st ops \/ ProofsValidate.key_collision bhash.
Proof. exact ProofsValidate.cache_transparent_from_start. Qed.
Print Assumptions C03_validation_cache_transparent.

(** The property's last sentence in full: with [valid h b] instantiated by validateBlock on the
    node's own chain state at height h ([st h]) and the decoded block ([dec b]), every non-nil vote
    (prevote or precommit) the node signs and every block it commits is a block it had been given in
    full that is a valid extension of its own chain in the sense of C03_validate_block_exact. *)
Theorem C03_votes_and_commits_extend_own_chain :
  forall (st : N -> Validate.chain) (dec : block -> Validate.vblock) vals proposer mkblock cfg me,
    (forall h, Forall (fun p => (0 <= p)%Z) (vals h)) ->
    forall ins : list input,
      let l := log (run (ProofsExtension.valid_by_code st dec) vals proposer mkblock cfg me ins) in
      (forall post pre v,
          l = post ++ EvOut (SignVote v) :: pre -> bid_is_zero (v_bid v) = false ->
          exists b, held (received pre) b /\ b_hash b = bh (v_bid v)
                    /\ ProofsValidate.valid_extension (st (v_height v)) (dec b))
      /\ (forall post pre h b r,
             l = post ++ EvOut (Commit h b r) :: pre ->
             ProofsValidate.valid_extension (st h) (dec b)).
Proof. exact ProofsExtension.votes_and_commits_extend_own_chain. Qed.
Print Assumptions C03_votes_and_commits_extend_own_chain.

(** The decision-critical functions of the anchored code have exactly the decisions the source tie knows about
    (go2coq manifests, regenerated from /repo on every check; statement in SourceManifest.v). *)
From Kardia Require Import C03.SourceManifest.
Theorem C03_source_manifest : C03_source_manifest_statement.
Proof. exact C03_source_manifest_proof. Qed.
Print Assumptions C03_source_manifest.
