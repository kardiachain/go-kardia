(** C03 — the known finding "halt-same-hash-other-body" replayed in the model of the node.

    [C03_no_halt_statement] says that a validator that is only fed honest-looking inputs — every
    vote well signed, for nil or for the full id (hash AND parts header) of a block that passes
    validation, no validator voting for two values in one (type, height, round), every block valid,
    no nil part — never reaches a Go panic.  It is REFUTED by a computed run of [Node.v] (which
    transcribes consensus/state.go): four validators of power 10, the node is validator 3, the
    proposer of round 1 is validator 0 and is the only faulty one (it shows the node the body
    (hash 1, parts 1) and the others the body (hash 1, parts 2) — both valid).  The node prevotes
    (1,1); the polka for (1,2) makes it replace its part set by an empty one with header 2, lock its
    block with that empty set and precommit (1,2); +2/3 precommits for (1,2) take it to
    finalizeCommit, where SaveBlock panics on the incomplete part set. *)
From Coq Require Import List ZArith NArith Bool.
From Kardia Require Import C03.Node.
Import ListNotations.
Local Open Scope N_scope.

Definition same_slot (a b : vote) : bool :=
  vtype_eqb (v_type a) (v_type b) && (v_height a =? v_height b) && (v_round a =? v_round b)
  && (v_idx a =? v_idx b).

(** no validator is seen voting for two values in one (type, height, round) *)
Definition no_equivocation_b (ins : list input) : bool :=
  forallb (fun i => match i with
                    | InVote _ a =>
                      forallb (fun j => match j with
                                        | InVote _ b => negb (same_slot a b) || bid_eqb (v_bid a) (v_bid b)
                                        | _ => true end) ins
                    | _ => true end) ins.

Definition honest_inputs_b (valid : N -> block -> bool) (ins : list input) : bool :=
  forallb (fun i => match i with
                    | InVote _ v =>
                      v_ok v && (1 <=? v_round v) &&
                      (bid_is_zero (v_bid v)
                       || valid (v_height v) {| b_hash := bh (v_bid v); b_parts := bp (v_bid v) |})
                    | InBlock h _ b => valid h b
                    | InProposal p => match p_signer p with Some _ => true | None => false end
                    | InNilPart _ _ => false
                    | InBadBlock _ _ _ => true
                    | InTimeout _ _ _ => true
                    end) ins
  && no_equivocation_b ins.

Definition C03_no_halt_statement : Prop :=
  forall valid vals proposer mkblock cfg me (ins : list input),
    (forall h, Forall (fun p => (0 <= p)%Z) (vals h)) ->
    honest_inputs_b valid ins = true ->
    halted (run valid vals proposer mkblock cfg me ins) = false.

Definition w_valid : N -> block -> bool := fun _ _ => true.
Definition w_vals : N -> list Z := fun _ => [10; 10; 10; 10]%Z.
Definition w_proposer : N -> N -> N := fun _ _ => 0.
Definition w_mkblock : N -> N -> option block := fun _ _ => None.
Definition w_cfg : config :=
  {| skip_timeout_commit := false; create_empty_blocks := true; empty_interval_pos := false;
     initial_height := 1 |}.
Definition w_me : option N := Some 3.

Definition id11 : bid := {| bh := 1; bp := 1 |}.
Definition id12 : bid := {| bh := 1; bp := 2 |}.
Definition w_vote (ty : vtype) (b : bid) (i : N) : vote :=
  {| v_type := ty; v_height := 1; v_round := 1; v_bid := b; v_idx := i; v_ok := true |}.

Definition w_ins : list input :=
  [ InTimeout 1 1 SNewHeight;
    InProposal {| p_height := 1; p_round := 1; p_pol := 0; p_bid := id11; p_signer := Some 0 |};
    InBlock 1 1 {| b_hash := 1; b_parts := 1 |};          (* the node prevotes (1,1) *)
    InVote 0 (w_vote Prevote id11 3);                      (* its own prevote, from the internal queue *)
    InVote 1 (w_vote Prevote id12 0);
    InVote 1 (w_vote Prevote id12 1);
    InVote 1 (w_vote Prevote id12 2);                      (* polka (1,2): lock with an empty part set, precommit (1,2) *)
    InVote 0 (w_vote Precommit id12 3);                    (* its own precommit *)
    InVote 1 (w_vote Precommit id12 0);
    InVote 1 (w_vote Precommit id12 1) ].                  (* +2/3 precommits (1,2): finalizeCommit panics *)

Lemma w_honest : honest_inputs_b w_valid w_ins = true.
Proof. vm_compute. reflexivity. Qed.

Lemma w_vals_nonneg : forall h, Forall (fun p => (0 <= p)%Z) (w_vals h).
Proof. intros h. unfold w_vals. repeat constructor; discriminate. Qed.

(** what the node signed on the way: prevote (1,1), then precommit (1,2) — and nothing else *)
Lemma w_signed :
  signed_votes (log (run w_valid w_vals w_proposer w_mkblock w_cfg w_me w_ins))
  = [ w_vote Precommit id12 3; w_vote Prevote id11 3 ].
Proof. vm_compute. reflexivity. Qed.

(** before the last precommit arrives the node is locked on its block under a part set that is not
    the block's own and is not complete *)
Lemma w_locked_on_empty_parts :
  let s := run w_valid w_vals w_proposer w_mkblock w_cfg w_me (removelast w_ins) in
  halted s = false /\ locked s = Some {| b_hash := 1; b_parts := 1 |} /\
  hdr_of (locked_parts s) = 2 /\ parts_complete s (locked_parts s) = false.
Proof. vm_compute. repeat split; reflexivity. Qed.

Lemma w_halts : halted (run w_valid w_vals w_proposer w_mkblock w_cfg w_me w_ins) = true.
Proof. vm_compute. reflexivity. Qed.

Lemma no_halt_refuted : ~ C03_no_halt_statement.
Proof.
  intros H.
  pose proof (H w_valid w_vals w_proposer w_mkblock w_cfg w_me w_ins w_vals_nonneg w_honest) as Hh.
  rewrite w_halts in Hh. discriminate.
Qed.
