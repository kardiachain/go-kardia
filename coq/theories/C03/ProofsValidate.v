(** C03 — proofs about the block-validation model (Validate.v): what an accepted block satisfies
    (every clause of "valid extension of the node's own chain"), the weighted-median property of the
    prescribed block time, and the transparency of the executor's validation cache. *)
From Coq Require Import List ZArith NArith Bool Lia.
From Kardia Require Import Base.Int64 Base.GoSem C02.Model C02.Proofs C03.Validate.
Import ListNotations.
Local Open Scope Z_scope.
Local Ltac Zify.zify_post_hook ::= Z.div_mod_to_equations.

(** the last-commit and time clauses of an accepted block *)
Definition commit_and_time_ok (st : chain) (b : vblock) (c : commit) : Prop :=
  let h := vb_hdr b in
  (vh_height h = ch_initial st /\ c_sigs c = [] /\ vh_time h = ch_last_time st)
  \/ (ch_initial st < vh_height h
      /\ verify_commit (ch_last_vals st) (ch_id st) (ch_last_bid st) (z_to_N (go_sub U64 (vh_height h) 1)) c = COk
      /\ ch_last_time st < vh_time h
      /\ median_time c (ch_last_vals st) = Some (vh_time h)).

Definition valid_extension (st : chain) (b : vblock) : Prop :=
  let h := vb_hdr b in
  block_validate_basic b = true
  /\ vh_height h = go_add U64 (ch_last_height st) 1                       (* right height ... *)
  /\ (ch_last_height st = 0 -> vh_height h = ch_initial st)
  /\ vh_last h = ch_last_bid st                                           (* ... and parent id *)
  /\ vh_app h = ch_app st                                                 (* application hash of its own state *)
  /\ vh_vals h = ch_vals_hash st /\ vh_nextvals h = ch_nextvals_hash st   (* validator-set hashes of its own state *)
  /\ (exists c, vb_lc b = Some c /\ commit_and_time_ok st b c)            (* previous-block commit, prescribed time *)
  /\ vb_nevid b <= ch_max_evid st
  /\ has_address (ch_vals st) (vh_proposer h) = true
  /\ vb_evid_ok b = true.

Lemma go_neqb_false a b : go_neqb a b = false -> a = b.
Proof. unfold go_neqb. intros H. apply negb_false_iff in H. apply Z.eqb_eq in H. exact H. Qed.

Lemma validate_time_ok st b c :
  validate_time st b c = VOk ->
  (vh_height (vb_hdr b) = ch_initial st /\ vh_time (vb_hdr b) = ch_last_time st)
  \/ (ch_initial st < vh_height (vb_hdr b) /\ ch_last_time st < vh_time (vb_hdr b)
      /\ median_time c (ch_last_vals st) = Some (vh_time (vb_hdr b))).
Proof.
  unfold validate_time. cbv zeta.
  destruct (vh_height (vb_hdr b) >? ch_initial st) eqn:Egt.
  - destruct (vh_time (vb_hdr b) >? ch_last_time st) eqn:Eaft; cbn [negb]; [|discriminate].
    destruct (median_time c (ch_last_vals st)) as [m|] eqn:Em; [|discriminate].
    destruct (vh_time (vb_hdr b) =? m) eqn:Eeq; cbn [negb]; [|discriminate].
    intros _. right. apply Z.gtb_lt in Egt. apply Z.gtb_lt in Eaft. apply Z.eqb_eq in Eeq. subst m. auto.
  - destruct (vh_height (vb_hdr b) =? ch_initial st) eqn:Eeq; [|discriminate].
    destruct (vh_time (vb_hdr b) =? ch_last_time st) eqn:Et; cbn [negb]; [|discriminate].
    intros _. left. apply Z.eqb_eq in Eeq. apply Z.eqb_eq in Et. auto.
Qed.

Lemma validate_commit_ok st b c :
  validate_commit st b c = VOk ->
  (vh_height (vb_hdr b) = ch_initial st /\ c_sigs c = [])
  \/ (vh_height (vb_hdr b) <> ch_initial st
      /\ verify_commit (ch_last_vals st) (ch_id st) (ch_last_bid st) (z_to_N (go_sub U64 (vh_height (vb_hdr b)) 1)) c = COk).
Proof.
  unfold validate_commit. cbv zeta.
  destruct (vh_height (vb_hdr b) =? ch_initial st) eqn:Eeq.
  - destruct (go_neqb (Z.of_nat (length (c_sigs c))) 0) eqn:En; [discriminate|].
    intros _. left. apply Z.eqb_eq in Eeq. apply go_neqb_false in En.
    split; [exact Eeq|]. destruct (c_sigs c); [reflexivity|]. cbn [length] in En. lia.
  - apply Z.eqb_neq in Eeq.
    destruct (verify_commit _ _ _ _ c) eqn:Ev; try discriminate. intros _. right. auto.
Qed.

Lemma validate_tail_ok st b :
  validate_tail st b = VOk ->
  vb_nevid b <= ch_max_evid st /\ has_address (ch_vals st) (vh_proposer (vb_hdr b)) = true /\ vb_evid_ok b = true.
Proof.
  unfold validate_tail.
  destruct (vb_nevid b >? ch_max_evid st) eqn:Ee; [discriminate|].
  destruct (has_address (ch_vals st) (vh_proposer (vb_hdr b))) eqn:Ea; cbn [negb]; [|discriminate].
  destruct (vb_evid_ok b) eqn:Eo; cbn [negb]; [|discriminate].
  intros _. rewrite Z.gtb_ltb in Ee. apply Z.ltb_ge in Ee. auto.
Qed.

Theorem validate_block_sound st b : validate_block st b = VOk -> valid_extension st b.
Proof.
  unfold validate_block, valid_extension. cbv zeta.
  destruct (block_validate_basic b) eqn:Eb; cbn [negb]; [|discriminate].
  destruct (go_neqb (vh_height (vb_hdr b)) (go_add U64 (ch_last_height st) 1)) eqn:Eh; [discriminate|].
  destruct ((ch_last_height st =? 0) && go_neqb (vh_height (vb_hdr b)) (ch_initial st))%bool eqn:Ei; [discriminate|].
  rewrite andb_false_r.
  destruct (bid_eqb (vh_last (vb_hdr b)) (ch_last_bid st)) eqn:El; cbn [negb]; [|discriminate].
  destruct (N.eqb (vh_app (vb_hdr b)) (ch_app st)) eqn:Ea; cbn [negb]; [|discriminate].
  destruct (N.eqb (vh_vals (vb_hdr b)) (ch_vals_hash st)) eqn:Ev; cbn [negb]; [|discriminate].
  destruct (N.eqb (vh_nextvals (vb_hdr b)) (ch_nextvals_hash st)) eqn:En; cbn [negb]; [|discriminate].
  destruct (vb_lc b) as [c|] eqn:Elc; [|discriminate].
  destruct (validate_commit st b c) eqn:Ec; try discriminate.
  destruct (validate_time st b c) eqn:Et; try discriminate.
  intros Htail.
  apply go_neqb_false in Eh. apply bid_eqb_eq in El.
  apply N.eqb_eq in Ea. apply N.eqb_eq in Ev. apply N.eqb_eq in En.
  apply validate_tail_ok in Htail. destruct Htail as [Hne [Hpa Heo]].
  apply validate_commit_ok in Ec. apply validate_time_ok in Et.
  repeat split; auto.
  - intros H0. rewrite H0 in Ei. cbn [Z.eqb andb] in Ei. apply go_neqb_false in Ei. exact Ei.
  - exists c. split; [reflexivity|]. unfold commit_and_time_ok. cbv zeta.
    destruct Ec as [[Hc1 Hc2]|[Hc1 Hc2]]; destruct Et as [[Ht1 Ht2]|[Ht1 [Ht2 Ht3]]].
    + left. auto.
    + lia.
    + contradiction.
    + right. auto.
Qed.

(** conversely every block with these properties is accepted, so [valid_extension] is exactly what
    validateBlock checks (no stronger and no weaker) *)
Theorem validate_block_complete st b : valid_extension st b -> validate_block st b = VOk.
Proof.
  unfold valid_extension. cbv zeta.
  intros [Hb [Hh [Hi [Hl [Ha [Hv [Hn [[c [Hlc Hct]] [Hne [Hpa Heo]]]]]]]]]].
  unfold validate_block. cbv zeta. rewrite Hb. cbn [negb].
  assert (E1 : go_neqb (vh_height (vb_hdr b)) (go_add U64 (ch_last_height st) 1) = false).
  { unfold go_neqb. rewrite Hh. rewrite Z.eqb_refl. reflexivity. }
  rewrite E1.
  assert (E2 : ((ch_last_height st =? 0) && go_neqb (vh_height (vb_hdr b)) (ch_initial st))%bool = false).
  { destruct (Z.eqb_spec (ch_last_height st) 0) as [H0|H0]; [|reflexivity].
    cbn [andb]. unfold go_neqb. rewrite (Hi H0). rewrite Z.eqb_refl. reflexivity. }
  rewrite E2. rewrite andb_false_r.
  rewrite Hl, Ha, Hv, Hn. rewrite !N.eqb_refl.
  assert (E3 : bid_eqb (ch_last_bid st) (ch_last_bid st) = true).
  { unfold bid_eqb. rewrite !N.eqb_refl. reflexivity. }
  rewrite E3. cbn [negb]. rewrite Hlc.
  unfold commit_and_time_ok in Hct. cbv zeta in Hct.
  assert (Etail : validate_tail st b = VOk).
  { unfold validate_tail. rewrite Hpa, Heo. cbn [negb].
    destruct (vb_nevid b >? ch_max_evid st) eqn:Ee; [|reflexivity].
    apply Z.gtb_lt in Ee. lia. }
  destruct Hct as [[Hc1 [Hc2 Hc3]]|[Hc1 [Hc2 [Hc3 Hc4]]]].
  - assert (Ecm : validate_commit st b c = VOk).
    { unfold validate_commit. cbv zeta. rewrite Hc1, Z.eqb_refl, Hc2. reflexivity. }
    assert (Etm : validate_time st b c = VOk).
    { unfold validate_time. cbv zeta. rewrite Hc1.
      replace (ch_initial st >? ch_initial st) with false by (symmetry; rewrite Z.gtb_ltb; apply Z.ltb_irrefl).
      rewrite Z.eqb_refl, Hc3, Z.eqb_refl. reflexivity. }
    rewrite Ecm, Etm. exact Etail.
  - assert (Ecm : validate_commit st b c = VOk).
    { unfold validate_commit. cbv zeta.
      replace (vh_height (vb_hdr b) =? ch_initial st) with false by (symmetry; apply Z.eqb_neq; lia).
      rewrite Hc2. reflexivity. }
    assert (Etm : validate_time st b c = VOk).
    { unfold validate_time. cbv zeta.
      replace (vh_height (vb_hdr b) >? ch_initial st) with true by (symmetry; apply Z.gtb_lt; lia).
      replace (vh_time (vb_hdr b) >? ch_last_time st) with true by (symmetry; apply Z.gtb_lt; lia).
      cbn [negb]. rewrite Hc4, Z.eqb_refl. reflexivity. }
    rewrite Ecm, Etm. exact Etail.
Qed.

Theorem validate_block_exact st b : validate_block st b = VOk <-> valid_extension st b.
Proof. split; [apply validate_block_sound|apply validate_block_complete]. Qed.

(** the last commit of an accepted block after the first carries valid precommit signatures, for
    exactly the parent id and height, of validators of the previous set holding more than two thirds
    of its power (C02's VerifyCommit theorem), each slot naming the validator of its position *)
Theorem accepted_commit_has_quorum st b c :
  validate_block st b = VOk -> vb_lc b = Some c ->
  wf_vals (ch_last_vals st) -> ch_initial st < vh_height (vb_hdr b) -> 1 <= ch_initial st -> vh_height (vb_hdr b) < two64 ->
  let hp := z_to_N (vh_height (vb_hdr b) - 1) in
  c_height c = hp /\ c_bid c = ch_last_bid st /\ length (c_sigs c) = length (ch_last_vals st) /\
  2 * sum_powers (ch_last_vals st) < 3 * signed_power (ch_id st) hp (c_round c) (ch_last_bid st) (ch_last_vals st) (c_sigs c).
Proof.
  intros Hv Hlc Hwf Hgt Hi Hmax hp.
  apply validate_block_sound in Hv. unfold valid_extension in Hv. cbv zeta in Hv.
  destruct Hv as [_ [_ [_ [_ [_ [_ [_ [[c' [Hlc' Hct]] _]]]]]]]].
  rewrite Hlc in Hlc'. inversion Hlc'; subst c'. clear Hlc'.
  unfold commit_and_time_ok in Hct. cbv zeta in Hct.
  destruct Hct as [[Hc1 _]|[_ [Hvc _]]]; [lia|].
  assert (Hsub : go_sub U64 (vh_height (vb_hdr b)) 1 = vh_height (vb_hdr b) - 1).
  { unfold go_sub. apply wrap_id. unfold in_range. unfold two64 in Hmax. lia. }
  rewrite Hsub in Hvc. fold hp in Hvc.
  assert (Hhp : (1 <= hp)%N). { unfold hp, z_to_N. lia. }
  destruct (verify_commit_sound _ _ _ _ _ Hwf Hhp Hvc) as [Hlen [Hh [Hb Hq]]].
  repeat split; auto.
Qed.

(** total weight of the entries whose time satisfies [p] *)
Fixpoint wsum (p : Z -> bool) (l : list (Z * Z)) : Z :=
  match l with
  | [] => 0
  | (t, w) :: r => (if p t then w else 0) + wsum p r
  end.
Definition wtotal (l : list (Z * Z)) : Z := wsum (fun _ => true) l.

Fixpoint wt_sorted (l : list (Z * Z)) : Prop :=
  match l with
  | [] => True
  | x :: r => Forall (fun y => fst x <= fst y) r /\ wt_sorted r
  end.

Lemma wsum_insert p x l : wsum p (wt_insert x l) = wsum p [x] + wsum p l.
Proof.
  induction l as [|y r IH]; destruct x as [tx wx]; cbn [wt_insert wsum].
  - lia.
  - destruct (fst (tx, wx) <? fst y); cbn [wsum].
    + destruct y. cbn [wsum]. lia.
    + destruct y as [ty wy]. cbn [wsum] in *. rewrite IH. lia.
Qed.

Lemma wsum_sort p l : wsum p (wt_sort l) = wsum p l.
Proof.
  induction l as [|[t w] r IH]; [reflexivity|].
  cbn [wt_sort]. rewrite wsum_insert. cbn [wsum]. rewrite IH. lia.
Qed.

Lemma in_insert x l y : In y (wt_insert x l) <-> y = x \/ In y l.
Proof.
  induction l as [|z r IH]; cbn [wt_insert].
  - cbn [In]. split; (intros [H|[]]; left; symmetry; exact H).
  - destruct (fst x <? fst z); cbn [In].
    + split; (intros [H|H]; [left; symmetry; exact H|right; exact H]).
    + rewrite IH. split; intros [H|[H|H]]; auto.
Qed.

Lemma in_sort l y : In y (wt_sort l) <-> In y l.
Proof.
  induction l as [|x r IH]; [reflexivity|].
  cbn [wt_sort]. rewrite in_insert. cbn [In]. rewrite IH. split; intros [H|H]; auto.
Qed.

Lemma insert_sorted x l : wt_sorted l -> wt_sorted (wt_insert x l).
Proof.
  induction l as [|y r IH]; cbn [wt_insert wt_sorted].
  - intros _. split; [constructor|exact I].
  - intros [Hy Hr]. destruct (Z.ltb_spec (fst x) (fst y)) as [Hlt|Hge]; cbn [wt_sorted].
    + split; [|split; assumption].
      constructor; [lia|]. eapply Forall_impl; [|exact Hy]. cbv beta. intros; lia.
    + split; [|apply IH; exact Hr].
      apply Forall_forall. intros z Hz. apply (proj1 (in_insert _ _ _)) in Hz. destruct Hz as [->|Hz]; [lia|].
      rewrite Forall_forall in Hy. apply Hy. exact Hz.
Qed.

Lemma sort_sorted l : wt_sorted (wt_sort l).
Proof. induction l as [|x r IH]; [exact I|]. cbn [wt_sort]. apply insert_sorted. exact IH. Qed.

Lemma wsum_nonneg p l : Forall (fun e => 0 <= snd e) l -> 0 <= wsum p l.
Proof.
  induction 1 as [|[t w] r Hw _ IH]; cbn [wsum]; [lia|]. cbn [snd] in Hw. destruct (p t); lia.
Qed.

Lemma wsum_le_total p l : Forall (fun e => 0 <= snd e) l -> wsum p l <= wtotal l.
Proof.
  unfold wtotal. induction 1 as [|[t w] r Hw _ IH]; cbn [wsum]; [lia|]. cbn [snd] in Hw. destruct (p t); lia.
Qed.

(** below the smallest time of a sorted list there is no weight *)
Lemma wsum_lt_head t0 l :
  Forall (fun y => t0 <= fst y) l -> wsum (fun t => t <? t0) l = 0.
Proof.
  induction 1 as [|[t w] r Ht _ IH]; [reflexivity|]. cbn [wsum fst] in *.
  destruct (Z.ltb_spec t t0); [lia|]. rewrite IH. lia.
Qed.

(** the scan: on a sorted list with non-negative weights (no int64 overflow), the answer [t]
    satisfies  weight(time < t) <= median <= weight(time <= t) *)
Lemma wm_scan_spec l : forall median t,
  wt_sorted l -> Forall (fun e => 0 <= snd e <= max_int64) l -> 0 <= median <= max_int64 ->
  wm_scan l median = Some t ->
  In t (map fst l) /\ wsum (fun x => x <? t) l <= median <= wsum (fun x => x <=? t) l.
Proof.
  induction l as [|[t0 w0] r IH]; intros median t Hs Hw Hm Hscan; [discriminate|].
  cbn [wm_scan] in Hscan. cbn [wt_sorted fst] in Hs. destruct Hs as [Hmin Hs].
  inversion Hw as [|? ? Hw0 Hwr]; subst. cbn [snd] in Hw0.
  assert (Hnn : Forall (fun e => 0 <= snd e) r) by (eapply Forall_impl; [|exact Hwr]; cbv beta; intros; lia).
  destruct (Z.leb_spec median w0) as [Hle|Hgt].
  - inversion Hscan; subst t. cbn [map In wsum fst].
    split; [left; reflexivity|].
    rewrite Z.ltb_irrefl, Z.leb_refl. rewrite (wsum_lt_head t0 r Hmin).
    pose proof (wsum_nonneg (fun x => x <=? t0) r Hnn). lia.
  - assert (Hsub : go_sub I64 median w0 = median - w0).
    { unfold go_sub. apply wrap_id. unfold in_range, max_int64, two63 in *. lia. }
    rewrite Hsub in Hscan.
    destruct (IH (median - w0) t Hs Hwr ltac:(lia) Hscan) as [Hin [Hlo Hhi]].
    cbn [map In wsum fst]. split; [right; exact Hin|].
    assert (Ht : t0 <= t).
    { apply in_map_iff in Hin. destruct Hin as [[t' w'] [Heq Hin]]. cbn [fst] in Heq. subst t'.
      rewrite Forall_forall in Hmin. apply (Hmin _ Hin). }
    destruct (Z.leb_spec t0 t); [|lia].
    destruct (Z.ltb_spec t0 t); lia.
Qed.

(** WeightedMedian of (time, weight) entries with non-negative weights whose total fits in int64:
    the result is one of the times, the entries strictly before it weigh at most half of the total
    and the entries at or before it weigh at least half *)
Theorem weighted_median_spec l t :
  Forall (fun e => 0 <= snd e) l -> wtotal l <= max_int64 ->
  weighted_median l (wtotal l) = Some t ->
  In t (map fst l)
  /\ wsum (fun x => x <? t) l <= wtotal l / 2 <= wsum (fun x => x <=? t) l.
Proof.
  intros Hnn Hmax Hm. unfold weighted_median in Hm.
  assert (Ht0 : 0 <= wtotal l) by (apply wsum_nonneg; exact Hnn).
  assert (Hq : go_quot I64 (wtotal l) 2 = wtotal l / 2).
  { unfold go_quot. rewrite Z.quot_div_nonneg by lia. apply wrap_id.
    unfold in_range, max_int64, two63 in *. lia. }
  rewrite Hq in Hm.
  assert (Hw : Forall (fun e => 0 <= snd e <= max_int64) (wt_sort l)).
  { apply Forall_forall. intros [t' w'] Hin. apply (proj1 (in_sort _ _)) in Hin. cbn [snd].
    rewrite Forall_forall in Hnn. pose proof (Hnn _ Hin) as H0. cbn [snd] in H0.
    split; [exact H0|].
    assert (w' <= wtotal l); [|lia].
    clear - Hin Hnn. unfold wtotal. induction l as [|[a b] r IH]; [destruct Hin|].
    cbn [wsum]. assert (Hr : forall x, In x r -> 0 <= snd x) by (intros x Hx; apply Hnn; right; exact Hx).
    destruct Hin as [Heq|Hin].
    - inversion Heq; subst. assert (0 <= wsum (fun _ => true) r); [|lia].
      apply wsum_nonneg. apply Forall_forall. exact Hr.
    - specialize (IH Hr Hin). pose proof (Hnn (a, b) (or_introl eq_refl)) as Hb. cbn [snd] in Hb. lia. }
  assert (Hmed : 0 <= wtotal l / 2 <= max_int64).
  { unfold max_int64, two63 in *. lia. }
  destruct (wm_scan_spec (wt_sort l) (wtotal l / 2) t (sort_sorted l) Hw Hmed Hm) as [Hin [Hlo Hhi]].
  rewrite !wsum_sort in Hlo, Hhi. split; [|lia].
  apply in_map_iff in Hin. destruct Hin as [x [Hx Hin]]. apply (proj1 (in_sort _ _)) in Hin.
  apply in_map_iff. exists x. auto.
Qed.

(** MedianTime: the entries are the non-absent slots that name a validator, each weighted by that
    validator's power, and the running total is their total weight (no overflow below the cap) *)
Fixpoint entries_of (vals : list validator) (sigs : list commitsig) : list (Z * Z) :=
  match sigs with
  | [] => []
  | cs :: r =>
    if N.eqb (cs_flag cs) FLAG_ABSENT then entries_of vals r
    else match power_of vals (cs_addr cs) with
         | None => entries_of vals r
         | Some p => (Z.of_N (cs_time cs), p) :: entries_of vals r
         end
  end.

Lemma median_entries_fst vals sigs tot : fst (median_entries vals sigs tot) = entries_of vals sigs.
Proof.
  revert tot. induction sigs as [|cs r IH]; intros tot; [reflexivity|].
  cbn [median_entries entries_of]. destruct (N.eqb (cs_flag cs) FLAG_ABSENT); [apply IH|].
  destruct (power_of vals (cs_addr cs)) as [p|]; [|apply IH].
  specialize (IH (go_add I64 tot p)). destruct (median_entries vals r (go_add I64 tot p)) as [l t].
  cbn [fst] in *. rewrite IH. reflexivity.
Qed.

Lemma median_entries_snd vals sigs tot :
  Forall (fun e => 0 <= snd e) (entries_of vals sigs) -> 0 <= tot -> tot + wtotal (entries_of vals sigs) <= max_int64 ->
  snd (median_entries vals sigs tot) = tot + wtotal (entries_of vals sigs).
Proof.
  revert tot. induction sigs as [|cs r IH]; intros tot Hnn Ht Hmax.
  - cbn [median_entries entries_of snd]. unfold wtotal. cbn [wsum]. lia.
  - cbn [median_entries entries_of] in *. destruct (N.eqb (cs_flag cs) FLAG_ABSENT); [apply IH; assumption|].
    destruct (power_of vals (cs_addr cs)) as [p|]; [|apply IH; assumption].
    inversion Hnn as [|? ? Hp Hr]; subst. cbn [snd] in Hp.
    unfold wtotal in *. cbn [wsum] in Hmax.
    assert (Hr0 : 0 <= wsum (fun _ => true) (entries_of vals r)) by (apply wsum_nonneg; exact Hr).
    assert (Hadd : go_add I64 tot p = tot + p).
    { unfold go_add. apply wrap_id. unfold in_range, max_int64, two63 in *. lia. }
    specialize (IH (go_add I64 tot p) Hr). rewrite Hadd in *.
    destruct (median_entries vals r (tot + p)) as [l t]. cbn [snd] in *.
    rewrite IH by lia. cbn [wsum]. lia.
Qed.

Theorem median_time_spec c vals t :
  Forall (fun e => 0 <= snd e) (entries_of vals (c_sigs c)) ->
  wtotal (entries_of vals (c_sigs c)) <= max_int64 ->
  median_time c vals = Some t ->
  let l := entries_of vals (c_sigs c) in
  In t (map fst l) /\ wsum (fun x => x <? t) l <= wtotal l / 2 <= wsum (fun x => x <=? t) l.
Proof.
  intros Hnn Hmax Hm l. unfold median_time in Hm.
  pose proof (median_entries_fst vals (c_sigs c) 0) as Hf.
  pose proof (median_entries_snd vals (c_sigs c) 0 Hnn ltac:(lia) ltac:(lia)) as Hs.
  destruct (median_entries vals (c_sigs c) 0) as [l' tot]. cbn [fst snd] in *. subst l'.
  rewrite Hs in Hm. rewrite Z.add_0_l in Hm.
  apply weighted_median_spec; assumption.
Qed.

Lemma blockid_eq_dec (a b : blockid) : {a = b} + {a <> b}.
Proof. decide equality; apply N.eq_dec. Qed.
Lemma sigv_eq_dec (a b : sigv) : {a = b} + {a <> b}.
Proof. decide equality; try apply N.eq_dec; try apply Bool.bool_dec; apply blockid_eq_dec. Qed.
Lemma commitsig_eq_dec (a b : commitsig) : {a = b} + {a <> b}.
Proof. decide equality; try apply N.eq_dec; apply sigv_eq_dec. Qed.
Lemma commit_eq_dec (a b : commit) : {a = b} + {a <> b}.
Proof. decide equality; try apply N.eq_dec; try apply blockid_eq_dec. apply list_eq_dec. apply commitsig_eq_dec. Qed.
Lemma vheader_eq_dec (a b : vheader) : {a = b} + {a <> b}.
Proof. decide equality; try apply N.eq_dec; try apply Z.eq_dec; apply blockid_eq_dec. Qed.
Lemma vblock_eq_dec (a b : vblock) : {a = b} + {a <> b}.
Proof.
  decide equality; try apply Bool.bool_dec; try apply Z.eq_dec; try apply vheader_eq_dec.
  decide equality. apply commit_eq_dec.
Qed.

Section CacheProofs.
Variable bhash : vblock -> N.

(** two different blocks that both pass ValidateBasic under one validation key: the block hash
    (header) plus the last commit's height/round/id plus the hashes ValidateBasic recomputes
    (LastCommitHash, TxHash, EvidenceHash) determine everything validateBlock reads, so this is a
    hash collision *)
Definition key_collision : Prop :=
  exists b b', validation_key bhash b = validation_key bhash b'
               /\ block_validate_basic b = true /\ block_validate_basic b' = true /\ b <> b'.

Lemma vkey_eqb_eq a b : vkey_eqb a b = true -> a = b.
Proof.
  destruct a as [h1 m1], b as [h2 m2]. unfold vkey_eqb. cbn [fst snd].
  intros H. apply andb_true_iff in H. destruct H as [Hh Hm]. apply N.eqb_eq in Hh. subst h2.
  f_equal. destruct m1 as [[[a1 r1] b1]|], m2 as [[[a2 r2] b2]|]; cbn [meta_eqb] in Hm; try discriminate; [|reflexivity].
  apply andb_true_iff in Hm. destruct Hm as [Hm Hb]. apply andb_true_iff in Hm. destruct Hm as [Ha Hr].
  apply N.eqb_eq in Ha. apply N.eqb_eq in Hr. apply bid_eqb_eq in Hb. subst. reflexivity.
Qed.

Lemma vkey_eqb_refl a : vkey_eqb a a = true.
Proof.
  destruct a as [h m]. unfold vkey_eqb. cbn [fst snd]. rewrite N.eqb_refl. cbn [andb].
  destruct m as [[[a r] b]|]; [|reflexivity]. cbn [meta_eqb]. rewrite !N.eqb_refl.
  unfold bid_eqb. rewrite !N.eqb_refl. reflexivity.
Qed.

Lemma cached_in cache k : cached cache k = true <-> In k cache.
Proof.
  unfold cached. rewrite existsb_exists. split.
  - intros [x [Hin Heq]]. apply vkey_eqb_eq in Heq. subst. exact Hin.
  - intros Hin. exists k. split; [exact Hin|apply vkey_eqb_refl].
Qed.

(** the cache only ever holds keys of blocks that validateBlock accepted against the CURRENT state *)
Definition cache_inv (s : chain * list vkey) : Prop :=
  forall k, In k (snd s) -> exists b0, validation_key bhash b0 = k /\ validate_block (fst s) b0 = VOk.

Lemma validate_block_basic st b : validate_block st b = VOk -> block_validate_basic b = true.
Proof. intros H. apply validate_block_sound in H. apply H. Qed.

Lemma validate_block_not_basic st b : block_validate_basic b = false -> validate_block st b = VBasic.
Proof. intros H. unfold validate_block. cbv zeta. rewrite H. reflexivity. Qed.

(** one call: with a sound cache the answer is validateBlock's own answer (or there is a collision),
    and the cache stays sound *)
Lemma validate_cached_transparent st cache b :
  cache_inv (st, cache) ->
  (fst (validate_cached bhash st cache b) = validate_block st b \/ key_collision)
  /\ cache_inv (st, snd (validate_cached bhash st cache b)).
Proof.
  intros Hinv. unfold validate_cached.
  destruct (cached cache (validation_key bhash b)) eqn:Ec.
  - cbn [fst snd]. split; [|exact Hinv].
    apply cached_in in Ec. destruct (Hinv _ Ec) as [b0 [Hk Hv]]. cbn [fst] in Hv.
    destruct (block_validate_basic b) eqn:Eb.
    + pose proof (validate_block_basic _ _ Hv) as Hb0.
      destruct (vblock_eq_dec b0 b) as [->|Hne]; [left; symmetry; exact Hv|].
      right. exists b0, b. auto.
    + left. symmetry. apply validate_block_not_basic. exact Eb.
  - destruct (validate_block st b) eqn:Ev; cbn [fst snd]; (split; [left; reflexivity|]); try exact Hinv.
    intros k [Hk|Hk]; [|apply Hinv; exact Hk]. exists b. cbn [fst]. auto.
Qed.

(** every answer of a run of the executor (validations and block applications in any order, the
    state changing only with an applied block, which clears the cache) is validateBlock's answer
    for the chain state current at that moment — or a hash collision exists *)
Fixpoint xspec (st : chain) (ops : list xop) : list verr :=
  match ops with
  | [] => []
  | XValidate b :: t => validate_block st b :: xspec st t
  | XApply b next :: t =>
    validate_block st b :: xspec (match validate_block st b with VOk => next | _ => st end) t
  end.

Theorem cache_transparent ops : forall st cache,
  cache_inv (st, cache) ->
  snd (xrun bhash (st, cache) ops) = xspec st ops \/ key_collision.
Proof.
  induction ops as [|o t IH]; intros st cache Hinv; [left; reflexivity|].
  cbn [xrun xstep xspec].
  destruct (validate_cached_transparent st cache (match o with XValidate b => b | XApply b _ => b end) Hinv) as [[Hans|Hcol] Hinv'];
    [|right; exact Hcol].
  destruct o as [b|b next].
  - destruct (validate_cached bhash st cache b) as [e cache'] eqn:Evc. cbn [fst snd] in *.
    destruct (IH st cache' Hinv') as [Hrest|Hcol]; [|right; exact Hcol].
    destruct (xrun bhash (st, cache') t) as [s2 es]. cbn [snd] in *. left. rewrite Hans, Hrest. reflexivity.
  - destruct (validate_cached bhash st cache b) as [e cache'] eqn:Evc. cbn [fst snd] in *. subst e.
    destruct (validate_block st b) eqn:Ev;
      try (destruct (IH st cache' Hinv') as [Hrest|Hcol]; [|right; exact Hcol];
           destruct (xrun bhash (st, cache') t) as [s2 es]; cbn [snd] in *; left; rewrite Hrest; reflexivity).
    assert (Hempty : cache_inv (next, [])) by (intros k []).
    destruct (IH next [] Hempty) as [Hrest|Hcol]; [|right; exact Hcol].
    destruct (xrun bhash (next, []) t) as [s2 es]. cbn [snd] in *. left. rewrite Hrest. reflexivity.
Qed.

Corollary cache_transparent_from_start st ops :
  snd (xrun bhash (st, []) ops) = xspec st ops \/ key_collision.
Proof. apply cache_transparent. intros k []. Qed.

End CacheProofs.

(** Examples: the hypotheses are satisfiable, and the twin of the known finding
    halt-same-hash-other-body (same header hash, another commit round) is rejected *)

Definition ex_vals : list validator :=
  [ {| val_addr := 1; val_power := 10 |}; {| val_addr := 2; val_power := 10 |};
    {| val_addr := 3; val_power := 10 |}; {| val_addr := 4; val_power := 10 |} ].
Definition ex_bid1 : blockid := {| b_hash := 1; b_total := 1; b_phash := 1 |}.

(** the genesis state and the first block *)
Definition ex_st0 : chain :=
  {| ch_id := 1; ch_initial := 1; ch_last_height := 0; ch_last_bid := bid_zero; ch_last_time := 100;
     ch_app := 0; ch_vals_hash := 2; ch_nextvals_hash := 2; ch_last_vals := ex_vals; ch_vals := ex_vals;
     ch_max_evid := 216 |}.
Definition ex_b1 : vblock :=
  {| vb_hdr := {| vh_height := 1; vh_time := 100; vh_last := bid_zero; vh_app := 0; vh_vals := 2;
                  vh_nextvals := 2; vh_proposer := 1 |};
     vb_wf := true; vb_lc := Some {| c_height := 0; c_round := 0; c_bid := bid_zero; c_sigs := [] |};
     vb_lch_ok := true; vb_nevid := 0; vb_evid_ok := true |}.
Example ex_first_block_valid : validate_block ex_st0 ex_b1 = VOk.
Proof. vm_compute. reflexivity. Qed.

(** the state after block 1 and a second block whose last commit carries three precommits *)
Definition ex_st1 : chain :=
  {| ch_id := 1; ch_initial := 1; ch_last_height := 1; ch_last_bid := ex_bid1; ch_last_time := 100;
     ch_app := 0; ch_vals_hash := 2; ch_nextvals_hash := 2; ch_last_vals := ex_vals; ch_vals := ex_vals;
     ch_max_evid := 216 |}.
Definition ex_sig (i r t : N) : sigv :=
  {| s_id := i; s_empty := false; s_signer := i; s_chain := 1; s_type := PRECOMMIT; s_height := 1;
     s_round := r; s_bid := ex_bid1; s_time := t |}.
Definition ex_commit (r : N) : commit :=
  {| c_height := 1; c_round := r; c_bid := ex_bid1;
     c_sigs := [ {| cs_flag := FLAG_COMMIT; cs_addr := 1; cs_time := 111; cs_sig := ex_sig 1 1 111 |};
                 {| cs_flag := FLAG_COMMIT; cs_addr := 2; cs_time := 112; cs_sig := ex_sig 2 1 112 |};
                 {| cs_flag := FLAG_COMMIT; cs_addr := 3; cs_time := 113; cs_sig := ex_sig 3 1 113 |};
                 cs_absent ] |}.
Definition ex_b2 (commit_round : N) (time : Z) : vblock :=
  {| vb_hdr := {| vh_height := 2; vh_time := time; vh_last := ex_bid1; vh_app := 0; vh_vals := 2;
                  vh_nextvals := 2; vh_proposer := 1 |};
     vb_wf := true; vb_lc := Some (ex_commit commit_round); vb_lch_ok := true; vb_nevid := 0;
     vb_evid_ok := true |}.
Example ex_second_block_valid : validate_block ex_st1 (ex_b2 1 112) = VOk.
Proof. vm_compute. reflexivity. Qed.
(** the median of 111, 112, 113 with equal weights is 112: any other time is rejected *)
Example ex_second_block_other_time :
  validate_block ex_st1 (ex_b2 1 113) = VTimeNotMedian /\ validate_block ex_st1 (ex_b2 1 111) = VTimeNotMedian.
Proof. split; vm_compute; reflexivity. Qed.
(** the twin: same header, the same signatures under another commit round — not a valid block *)
Example ex_twin_rejected : validate_block ex_st1 (ex_b2 2 112) = VCommit CSig.
Proof. vm_compute. reflexivity. Qed.
(** ... and with the executor's cache keyed by the header hash AND the commit's height/round/id the
    twin is still rejected after the original was validated, whereas a key that ignores the commit
    (hash only) would let it through *)
Definition ex_hash (b : vblock) : N := Z.to_N (vh_time (vb_hdr b)).   (* any function of the header *)
Example ex_cache_rejects_twin :
  snd (xrun ex_hash (ex_st1, []) [XValidate (ex_b2 1 112); XValidate (ex_b2 2 112)]) = [VOk; VCommit CSig].
Proof. vm_compute. reflexivity. Qed.
