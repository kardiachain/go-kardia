(** C03 — the vote-set refinement invariant and the lock history: a non-nil precommit needs a
    received polka and a held valid block, a commit needs a received single-round precommit
    quorum, and after precommitting b the node prevotes another value only after receiving a
    +2/3 prevote set for another value in a later round. *)
From Coq Require Import List ZArith NArith Bool Lia.
From Kardia Require Import C03.Node C03.Spec C03.ProofsStep C03.ProofsInv C03.ProofsValid C03.ProofsPower.
Import ListNotations.
Local Open Scope N_scope.

Lemma signed_votes_app a b : signed_votes (a ++ b) = signed_votes a ++ signed_votes b.
Proof. unfold signed_votes. apply flat_map_app. Qed.

Lemma in_signed_votes v l : In v (signed_votes l) <-> In (EvOut (SignVote v)) l.
Proof.
  unfold signed_votes. rewrite in_flat_map. split.
  - intros (e & Hin & Hv). destruct e as [i|o]; [destruct Hv|].
    destruct o; cbn in Hv; try contradiction. destruct Hv as [Hv|[]]. now subst.
  - intros H. exists (EvOut (SignVote v)). split; [exact H|now left].
Qed.

Lemma received_incl evs l x : In x (received l) -> In x (received (evs ++ l)).
Proof. intros H. rewrite received_app. apply in_or_app. now right. Qed.

Lemma get_rv_app l r k rv0 :
  get_rv (l ++ [(k, rv0)]) r = match get_rv l r with Some x => Some x | None => if k =? r then Some rv0 else None end.
Proof.
  induction l as [|[k' x] l IH]; cbn; [reflexivity|]. destruct (k' =? r); [reflexivity|exact IH].
Qed.

Lemma get_put_rv_same l r rv x : get_rv l r = Some x -> get_rv (put_rv l r rv) r = Some rv.
Proof.
  induction l as [|[k y] l IH]; cbn; [discriminate|].
  destruct (k =? r) eqn:E; cbn; rewrite E; auto.
Qed.
Lemma get_put_rv_other l r r' rv : r <> r' -> get_rv (put_rv l r rv) r' = get_rv l r'.
Proof.
  intros Hne. induction l as [|[k y] l IH]; cbn; [reflexivity|].
  destruct (k =? r) eqn:E; cbn.
  - apply N.eqb_eq in E. subst k. apply N.eqb_neq in Hne. now rewrite Hne.
  - destruct (k =? r'); auto.
Qed.

Lemma get_rv_single k rv r x : get_rv [(k, rv)] r = Some x -> x = rv.
Proof. cbn. destruct (k =? r); intros H; [injection H; auto|discriminate]. Qed.
Lemma hashes_to_none h : hashes_to None h = false.
Proof. unfold hashes_to. destruct (h =? 0); reflexivity. Qed.
Lemma hashes_to_some b h : hashes_to (Some b) h = true -> b_hash b = h /\ h <> 0.
Proof.
  unfold hashes_to. destruct (h =? 0) eqn:E; [discriminate|]. intros H.
  apply N.eqb_eq in H. apply N.eqb_neq in E. auto.
Qed.

Section Lock.
Variable valid : N -> block -> bool.
Variable vals : N -> list Z.
Variable proposer : N -> N -> N.
Variable mkblock : N -> N -> option block.
Variable cfg : config.
Variable me : option N.
Hypothesis vals_nonneg : forall h, Forall (fun p => (0 <= p)%Z) (vals h).

(** the vote sets the node keeps are justified by the votes it received *)
Definition rounds_ok (s : nstate) : Prop :=
  forall r rv, get_rv (rounds s) r = Some rv ->
    vs_ok vals (received (log s)) (height s) r Prevote (fst rv) /\
    vs_ok vals (received (log s)) (height s) r Precommit (snd rv).

Definition polka_in (l : list event) (h r : N) (y : bid) : Prop :=
  quorum_received vals (received l) Prevote h r y.

(** The lock history (clause (4) of DESIGN.md's invariant): every non-nil precommit of this height
    is still covered by the lock (same hash, lock round not below the precommit's), or a polka for
    another hash was received in a later round up to the current one. *)
Definition lockedon (s : nstate) (p : vote) : Prop :=
  exists lb, locked s = Some lb /\ b_hash lb = bh (v_bid p) /\ v_round p <= locked_round s.
Definition released (l : list event) (h rmax : N) (p : vote) : Prop :=
  exists r'' y, v_round p < r'' /\ r'' <= rmax /\ bh y <> bh (v_bid p) /\ polka_in l h r'' y.
Definition LH (s : nstate) : Prop :=
  forall p, In p (signed_votes (log s)) -> v_type p = Precommit -> v_height p = height s ->
            bh (v_bid p) <> 0 -> lockedon s p \/ released (log s) (height s) (round s) p.
(** the locked block's hash is not the zero hash: this is what turns [hashes_to (locked s) h = false]
    into [h <> b_hash lb] ([not_hashes_to]) *)
Definition lockhash (s : nstate) : Prop := forall lb, locked s = Some lb -> b_hash lb <> 0.

(** what must hold of an output with respect to the history before it *)
Definition Pout (o : output) (pre : list event) : Prop :=
  match o with
  | SignVote v =>
    match v_type v with
    | Precommit =>
      (bh (v_bid v) = 0 -> v_bid v = bid_nil) /\
      (bh (v_bid v) <> 0 ->
         polka_in pre (v_height v) (v_round v) (v_bid v) /\
         exists b, held (received pre) b /\ b_hash b = bh (v_bid v) /\ valid (v_height v) b = true)
    | Prevote =>
      forall p, In p (signed_votes pre) -> v_type p = Precommit -> bh (v_bid p) <> 0 ->
                v_height p = v_height v -> v_round p < v_round v -> bh (v_bid v) <> bh (v_bid p) ->
                released pre (v_height p) (v_round v) p
    end
  | Commit h b r =>
    valid h b = true /\ exists id, bh id = b_hash b /\ quorum_received vals (received pre) Precommit h r id
  | _ => True
  end.
Definition histK (l : list event) : Prop :=
  forall post o pre, l = post ++ EvOut o :: pre -> Pout o pre.

(** [K]: the vote-set refinement, the lock history, and every output justified when it was made
    (for a precommit, clause (3) of DESIGN.md's invariant).  [NI] below is the whole invariant:
    [Inv1] (clause (1), ProofsInv.v), [Inv6] (clause (5), ProofsValid.v) and [K]. *)
Record K (s : nstate) : Prop := {
  k_rounds : rounds_ok s; k_lh : LH s; k_lockhash : lockhash s; k_hist : histK (log s) }.

Lemma polka_mono evs l h r y : polka_in l h r y -> polka_in (evs ++ l) h r y.
Proof. unfold polka_in. apply quorum_received_mono; auto. intros x. apply received_incl. Qed.

Lemma released_mono evs l h m m' p : m <= m' -> released l h m p -> released (evs ++ l) h m' p.
Proof.
  intros Hm (r'' & y & A & B & C & D). exists r'', y. repeat split; auto; try lia. now apply polka_mono.
Qed.

Lemma hist_app evs l :
  histK l -> (forall post o pre', evs = post ++ EvOut o :: pre' -> Pout o (pre' ++ l)) -> histK (evs ++ l).
Proof.
  intros H Hn post o pre E. apply app_split in E. destruct E as [(post' & E1 & E2)|(e2 & E1 & E2)].
  - eapply H; eauto.
  - subst pre. eapply Hn; eauto.
Qed.

Lemma hist_one o l : histK l -> Pout o l -> histK (EvOut o :: l).
Proof.
  intros H Po. apply (hist_app [EvOut o] l H).
  intros post o' pre' E. destruct post as [|e post]; [|destruct post; discriminate].
  injection E as <- <-. exact Po.
Qed.

Definition quiet_out (o : output) : Prop :=
  match o with SignVote _ => False | Commit _ _ _ => False | _ => True end.
Definition quiet (evs : list event) : Prop := forall o, In (EvOut o) evs -> quiet_out o.

Lemma qnil : quiet []. Proof. intros o []. Qed.
Lemma qin i : quiet [EvIn i]. Proof. intros o [E|[]]. discriminate. Qed.
Lemma qone o : quiet_out o -> quiet [EvOut o].
Proof. intros Q o' [E|[]]. injection E as <-. exact Q. Qed.

Lemma hist_quiet evs l : histK l -> quiet evs -> histK (evs ++ l).
Proof.
  intros H Q. apply hist_app; auto. intros post o pre' E.
  assert (Hin : In (EvOut o) evs) by (rewrite E; apply in_or_app; right; now left).
  specialize (Q o Hin). destruct o; cbn in *; auto; contradiction.
Qed.

Lemma signed_votes_quiet evs l : quiet evs -> signed_votes (evs ++ l) = signed_votes l.
Proof.
  intros Q. rewrite signed_votes_app.
  assert (signed_votes evs = []) as ->; [|reflexivity].
  destruct (signed_votes evs) as [|v t] eqn:E; [reflexivity|].
  assert (Hin : In v (signed_votes evs)) by (rewrite E; now left).
  apply in_signed_votes in Hin. destruct (Q _ Hin).
Qed.

Definition rounds_ext (a b : list (N * roundvotes)) : Prop :=
  forall r rv, get_rv b r = Some rv -> get_rv a r = Some rv \/ rv = (vs_empty, vs_empty).

Lemma rounds_ext_refl a : rounds_ext a a.
Proof. intros r rv H. now left. Qed.

Lemma rounds_ext_trans a b c : rounds_ext a b -> rounds_ext b c -> rounds_ext a c.
Proof.
  intros H1 H2 r rv G. destruct (H2 r rv G) as [G'|E]; [|now right]. now apply H1.
Qed.
Lemma add_round_ext r s : rounds_ext (rounds s) (rounds (add_round r s)).
Proof.
  unfold add_round. destruct (get_rv (rounds s) r) eqn:E; [apply rounds_ext_refl|].
  cbn. intros r' rv G. rewrite get_rv_app in G. destruct (get_rv (rounds s) r'); [now left|].
  destruct (r =? r'); [injection G as <-; now right|discriminate].
Qed.
Lemma add_rounds_from_ext n : forall lo s, rounds_ext (rounds s) (rounds (add_rounds_from lo n s)).
Proof.
  induction n as [|n IH]; intros lo s; cbn; [apply rounds_ext_refl|].
  eapply rounds_ext_trans; [apply (add_round_ext lo)|apply IH].
Qed.
Lemma rounds_ok_ext s s' evs :
  rounds_ok s -> height s' = height s -> log s' = evs ++ log s ->
  rounds_ext (rounds s) (rounds s') -> rounds_ok s'.
Proof.
  intros R Hh Hl Ext r rv G. rewrite Hh, Hl. destruct (Ext r rv G) as [G0|G0]; [|subst rv].
  - destruct (R r rv G0) as (A & B).
    split; (eapply vs_ok_mono; [|eassumption]; intros x; apply received_incl).
  - split; apply vs_ok_empty.
Qed.

(** LH across a transition: old lock-holders stay or are released; new precommits are accounted *)
Lemma LH_step s s' evs :
  LH s -> height s' = height s -> round s <= round s' -> log s' = evs ++ log s ->
  (forall p, In p (signed_votes (log s)) -> v_type p = Precommit -> v_height p = height s ->
             lockedon s p -> lockedon s' p \/ released (log s') (height s) (round s') p) ->
  (forall v, In (EvOut (SignVote v)) evs -> v_type v = Precommit -> v_height v = height s ->
             bh (v_bid v) <> 0 -> lockedon s' v \/ released (log s') (height s) (round s') v) ->
  LH s'.
Proof.
  intros L Hh Hr Hl Hold Hnew p Hin Ty Ph Nz. rewrite Hh in *. rewrite Hl in Hin.
  rewrite signed_votes_app in Hin. apply in_app_or in Hin. destruct Hin as [Hin|Hin].
  - apply Hnew; auto. now apply in_signed_votes.
  - destruct (L p Hin Ty Ph Nz) as [A|B]; [now apply Hold|].
    right. rewrite Hl. eapply released_mono; eauto.
Qed.

Lemma K_quiet s s' evs :
  K s -> height s' = height s -> round s <= round s' -> log s' = evs ++ log s -> quiet evs ->
  rounds_ext (rounds s) (rounds s') ->
  locked s' = locked s -> locked_round s' = locked_round s -> K s'.
Proof.
  intros [K1 K2 K3 K4] Hh Hr Hl Q Ext El Er. split.
  - eapply rounds_ok_ext; eauto.
  - eapply LH_step; eauto.
    + intros p _ _ _ (lb & A & B & C). left. exists lb. rewrite El, Er. auto.
    + intros v Hin. destruct (Q _ Hin).
  - intros lb. rewrite El. apply K3.
  - rewrite Hl. now apply hist_quiet.
Qed.

(** one output that is justified by the history, the lock being left as it is (a non-nil
    precommit is for the locked block) *)
Lemma K_emit o s s' :
  K s -> height s' = height s -> round s <= round s' -> log s' = EvOut o :: log s ->
  rounds s' = rounds s -> locked s' = locked s -> locked_round s' = locked_round s ->
  Pout o (log s) ->
  (forall v, o = SignVote v -> v_type v = Precommit -> bh (v_bid v) <> 0 -> lockedon s' v) -> K s'.
Proof.
  intros [K1 K2 K3 K4] Hh Hr Hl Er El Elr Po Nz. split.
  - apply (rounds_ok_ext s s' [EvOut o]); auto. rewrite Er. apply rounds_ext_refl.
  - apply (LH_step s s' [EvOut o]); auto.
    + intros p _ _ _ (lb & A & B & C). left. exists lb. rewrite El, Elr. auto.
    + intros v [E|[]] Ty _ Nzv. injection E as ->. left. now apply Nz.
  - intros lb. rewrite El. apply K3.
  - rewrite Hl. now apply hist_one.
Qed.

Lemma K_irrel s s0 :
  K s -> height s0 = height s -> round s <= round s0 -> log s0 = log s -> rounds s0 = rounds s ->
  locked s0 = locked s -> locked_round s0 = locked_round s -> K s0.
Proof.
  intros Ks A1 A2 A4 Er El Elr. apply (K_quiet s s0 []); auto using qnil. rewrite Er. apply rounds_ext_refl.
Qed.

(** states that agree on what [K] reads, up to new empty rounds *)
Lemma K_frame s s0 : frame s s0 -> rounds_ext (rounds s) (rounds s0) -> K s -> K s0.
Proof.
  intros (A1 & A2 & A3 & A4 & A5 & A6 & A7 & A8) Ext Ks.
  apply (K_quiet s s0 []); auto using qnil. lia.
Qed.

Local Notation I6 := (Inv6 valid).

Lemma K_panic s : K s -> K (panic s).
Proof.
  intros Ks. apply (K_quiet s _ [EvOut Panic]); auto using rounds_ext_refl; cbn; try lia.
  apply qone. exact I.
Qed.

Lemma K_sched h r st s : K s -> K (sched h r st s).
Proof.
  intros Ks. unfold sched.
  destruct (tk_accepts _ _); apply (K_quiet s _ [EvOut (Sched h r st)]); auto using rounds_ext_refl;
    cbn; try lia; apply qone; exact I.
Qed.

Lemma maj_quorum s r ty b :
  K s -> maj_of (get_vs s r ty) = Some b ->
  quorum_received vals (received (log s)) ty (height s) r b.
Proof.
  intros [R _ _ _] M. unfold get_vs in M. destruct (get_rv (rounds s) r) as [rv|] eqn:G; [|discriminate].
  destruct (R r rv G) as (A & B). cbn in M.
  destruct ty; cbn in M; eapply vs_ok_quorum; eauto.
Qed.
Lemma maj_polka s r b :
  K s -> maj_of (get_vs s r Prevote) = Some b -> polka_in (log s) (height s) r b.
Proof. apply maj_quorum. Qed.

Lemma not_hashes_to s lb y :
  K s -> locked s = Some lb -> hashes_to (locked s) (bh y) = false -> bh y <> b_hash lb.
Proof.
  intros [_ _ LHh _] El H. rewrite El in H. unfold hashes_to in H. specialize (LHh lb El).
  destruct (bh y =? 0) eqn:E; b2p; [congruence|]. b2p. congruence.
Qed.

(** a precommit signed earlier in this height is for an earlier round as long as the step is
    below Precommit *)
Lemma precommit_before s p :
  Inv1 s -> step_num (rstep s) < 6 -> In p (signed_votes (log s)) -> v_type p = Precommit ->
  v_height p = height s -> v_round p < round s.
Proof.
  intros I Hs Hin Ty Ph. pose proof (i_past _ I p Hin) as Pa. pose proof (i_cur _ I p Hin Ph) as Cu.
  unfold past in Pa. rewrite Ty in Cu. cbn in Cu.
  destruct (N.eq_dec (v_round p) (round s)) as [E|E]; [specialize (Cu E); lia|lia].
Qed.

(** releasing the lock because of a received polka for another value *)
Lemma K_release s s0 r'' y :
  K s -> core_eq s s0 -> rounds s0 = rounds s -> locked s0 = None ->
  r'' <= round s -> polka_in (log s) (height s) r'' y ->
  (forall lb, locked s = Some lb -> bh y <> b_hash lb) ->
  (forall p, In p (signed_votes (log s)) -> v_type p = Precommit -> v_height p = height s ->
             lockedon s p -> v_round p < r'') ->
  K s0.
Proof.
  intros [K1 K2 K3 K4] (A1 & A2 & A3 & A4 & A5) Er El Hr Po Hne Hlt. split.
  - apply (rounds_ok_ext s s0 []); auto. rewrite Er. apply rounds_ext_refl.
  - apply (LH_step s s0 []); auto; try lia.
    + intros p Hin Ty Ph Lo. right. rewrite A4, A2. exists r'', y.
      destruct Lo as (lb & L1 & L2 & L3). repeat split; auto.
      * eapply Hlt; eauto. exists lb. auto.
      * rewrite <- L2. now apply Hne.
    + intros v [].
  - intros lb. rewrite El. discriminate.
  - now rewrite A4.
Qed.

Lemma stale_scan_spec s : forall n r,
  stale_scan s r n = true -> N.of_nat n <= r ->
  exists r'' y, r - N.of_nat n < r'' /\ r'' <= r /\ maj_of (get_vs s r'' Prevote) = Some y /\
                hashes_to (locked s) (bh y) = false.
Proof.
  induction n as [|n IH]; intros r H Hn; [discriminate|]. cbn [stale_scan] in H.
  assert (Rec : stale_scan s (r - 1) n = true ->
                exists r'' y, r - N.of_nat (S n) < r'' /\ r'' <= r /\ maj_of (get_vs s r'' Prevote) = Some y /\
                              hashes_to (locked s) (bh y) = false).
  { intros H'. destruct (IH (r - 1) H') as (r'' & y & A & B & C & D); [lia|].
    exists r'', y. repeat split; auto; lia. }
  destruct (maj_of (get_vs s r Prevote)) as [b|] eqn:M; [|now apply Rec].
  destruct (negb (hashes_to (locked s) (bh b))) eqn:E; [|now apply Rec].
  apply negb_true_iff in E. exists r, b. repeat split; auto; lia.
Qed.

(** sign a prevote (for the locked block if there is one) and move on *)
Lemma K_sign_prevote b st' r s :
  K s -> round s <= r -> (forall lb, locked s = Some lb -> bh b = b_hash lb) ->
  K (set_rstep st' (set_round r (sign_vote me Prevote b s))).
Proof.
  intros Ks Hr Hb. unfold sign_vote. destruct me as [i|].
  2:{ apply (K_quiet s _ []); auto using qnil, rounds_ext_refl. }
  eapply K_emit with (s := s); try reflexivity; auto.
  - (* an earlier precommit for another value: its lock has been released *)
    intros p Hin Ty Nz Ph Pr Hne. cbn in Ph, Pr, Hne |- *.
    destruct (k_lh _ Ks p Hin Ty Ph Nz) as [(lb & L1 & L2 & L3)|Rl].
    + exfalso. apply Hne. rewrite (Hb lb L1). exact L2.
    + rewrite Ph. exact Rl.
  - intros v E Ty. injection E as <-. discriminate.
Qed.

Lemma enter_prevote_K h r s : K s -> K (enter_prevote valid me h r s).
Proof.
  intros Ks. unfold enter_prevote.
  destruct (negb (height s =? h) || (r <? round s) || _) eqn:G; [exact Ks|].
  apply orb_false_iff in G. destruct G as (G & _). b2p.
  unfold do_prevote.
  set (s1 := match locked s with Some _ => if stale_lock s then unlock s else s | None => s end).
  assert (K1 : K s1 /\ round s1 = round s /\ height s1 = height s).
  { subst s1. destruct (locked s) as [lb|] eqn:El; [|auto]. destruct (stale_lock s) eqn:St; [|auto].
    split; [|auto]. unfold stale_lock in St. apply stale_scan_spec in St; [|lia].
    destruct St as (r'' & y & A & B & C & D).
    apply (K_release s (unlock s) r'' y); auto; try (repeat split; fail).
    - apply maj_polka; assumption.
    - intros lb' El'. now apply (not_hashes_to s).
    - intros p _ _ _ (lb' & L1 & L2 & L3). lia. }
  destruct K1 as (K1 & R1 & H1). clearbody s1. unfold do_prevote_locked.
  destruct (locked s1) as [lb|] eqn:El.
  { apply K_sign_prevote; auto; try lia. intros lb' E. rewrite El in E. injection E as <-. reflexivity. }
  destruct (pblock s1); [|apply K_sign_prevote; auto; try lia; rewrite El; discriminate].
  destruct (negb _); apply K_sign_prevote; auto; try lia; rewrite El; discriminate.
Qed.

Lemma K_sign_nil_precommit st' r s :
  K s -> round s <= r -> K (set_rstep st' (set_round r (sign_vote me Precommit bid_nil s))).
Proof.
  intros Ks Hr. unfold sign_vote. destruct me as [i|].
  2:{ apply (K_quiet s _ []); auto using qnil, rounds_ext_refl. }
  eapply K_emit with (s := s); try reflexivity; auto.
  - cbn. split; [reflexivity|]. intros Nz. congruence.
  - intros v E _ Nz. injection E as <-. destruct (Nz eq_refl).
Qed.

(** sign a precommit for the polka block [b] of the current round while (re)locking block [lb] *)
Lemma K_sign_lock b lb r s s0 :
  Inv1 s -> I6 s -> K s -> step_num (rstep s) < 6 -> r = round s ->
  core_eq s s0 -> rounds s0 = rounds s ->
  locked s0 = Some lb -> locked_round s0 = r -> b_hash lb = bh b -> bh b <> 0 ->
  maj_of (get_vs s r Prevote) = Some b ->
  (locked s = Some lb \/ (hashes_to (locked s) (bh b) = false /\ pblock s = Some lb /\ valid (height s) lb = true)) ->
  K (set_rstep SPrecommit (set_round r (sign_vote me Precommit b s0))).
Proof.
  intros I J Ks Hst -> (A1 & A2 & A3 & A4 & A5) Er El Elr Hb Nz M Src.
  assert (Po : polka_in (log s) (height s) (round s) b) by (apply maj_polka; assumption).
  (* the lock moves to [lb]: an earlier precommit was for [lb] too, or the polka releases it *)
  assert (K0 : K s0).
  { pose proof Ks as [K1 K2 K3 K4]. split.
    - apply (rounds_ok_ext s _ []); auto. rewrite Er. apply rounds_ext_refl.
    - apply (LH_step s _ []); auto; try lia; [|intros v []].
      intros p Hin Ty Ph (lb' & L1 & L2 & L3).
      pose proof (precommit_before s p I Hst Hin Ty Ph) as Lt.
      destruct Src as [Same|(NH & _ & _)].
      + left. exists lb. rewrite Same in L1. injection L1 as <-. rewrite Elr. repeat split; auto. lia.
      + right. rewrite A4, A2. exists (round s), b. repeat split; auto; try lia.
        rewrite <- L2. intros E. apply (not_hashes_to s lb' b Ks L1 NH). now rewrite E.
    - intros lb' E. rewrite El in E. injection E as <-. rewrite Hb. exact Nz.
    - now rewrite A4. }
  unfold sign_vote. destruct me as [i|]; [|apply (K_irrel s0); auto; cbn; lia].
  eapply K_emit with (s := s0); try reflexivity; auto; [cbn; lia| |].
  - cbn. split; [congruence|]. intros _. rewrite A4, A1, A2. split; [exact Po|].
    exists lb. destruct Src as [Same|(_ & Pb & Va)].
    + destruct (j_lk _ _ J lb Same). auto.
    + split; [apply (j_pb _ _ J lb Pb)|auto].
  - intros v E _ _. injection E as <-. exists lb. cbn. rewrite Elr, A2. repeat split; auto. lia.
Qed.

Lemma enter_precommit_K h r s :
  Inv1 s -> I6 s -> K s -> Pre h r s -> K (enter_precommit valid me h r s).
Proof.
  intros I J Ks P. unfold enter_precommit.
  destruct (negb (height s =? h) || (r <? round s) || ((round s =? r) && step_le SPrecommit (rstep s))) eqn:G;
    [exact Ks|].
  apply guard_round in G; auto. destruct G as (Hh & Hr & Hs). b2p. cbn in Hs. clear P. subst r.
  pose proof Ks as [K1 K2 K3 K4].
  assert (Nil : forall s0, K s0 -> round s0 <= (round s) ->
                K (set_rstep SPrecommit (set_round (round s) (sign_vote me Precommit bid_nil s0)))).
  { intros s0 K0 R0. now apply K_sign_nil_precommit. }
  assert (Rel : forall b s0, maj_of (get_vs s (round s) Prevote) = Some b ->
                 (forall lb, locked s = Some lb -> bh b <> b_hash lb) ->
                 core_eq s s0 -> rounds s0 = rounds s -> locked s0 = None -> K s0).
  { intros b s0 M Hne C Er El. apply (K_release s s0 (round s) b); auto; try lia.
    - apply maj_polka; assumption.
    - intros p Hin Ty Ph _. now apply precommit_before. }
  destruct (maj_of (get_vs s (round s) Prevote)) as [b|] eqn:M; [|apply Nil; auto; lia].
  destruct (pol_info s <? (round s)); [now apply K_panic|].
  destruct (bid_is_zero b) eqn:Z.
  { assert (Hz : bh b = 0). { unfold bid_is_zero in Z. b2p. assumption. }
    destruct (locked s) as [lb|] eqn:El; [|apply Nil; auto; lia].
    apply Nil; [|cbn; lia]. apply (Rel b); auto; try (repeat split; fail).
    intros lb' E. rewrite Hz. intros E'. apply (K3 lb'); congruence. }
  destruct (hashes_to (locked s) (bh b)) eqn:HL.
  { destruct (locked s) as [lb|] eqn:El; [|rewrite hashes_to_none in HL; discriminate].
    apply hashes_to_some in HL. destruct HL as (HL1 & HL2).
    eapply (K_sign_lock b lb (round s) s); eauto; try (repeat split; fail); try lia. }
  destruct (hashes_to (pblock s) (bh b)) eqn:HP.
  { destruct (pblock s) as [pb|] eqn:Ep; [|exact Ks].
    destruct (negb (valid (height s) pb)) eqn:Ev; [now apply K_panic|]. apply negb_false_iff in Ev.
    apply hashes_to_some in HP. destruct HP as (HP1 & HP2).
    eapply (K_sign_lock b pb (round s) s); eauto; try (repeat split; fail); try lia. }
  assert (Hne : forall lb, locked s = Some lb -> bh b <> b_hash lb).
  { intros lb E. now apply (not_hashes_to s). }
  destruct (negb _); (apply Nil; [|cbn; lia]); apply (Rel b); auto; repeat split.
Qed.

Lemma enter_prevote_wait_K h r s : K s -> K (enter_prevote_wait vals h r s).
Proof.
  intros Ks. apply enter_prevote_wait_cases; [exact Ks|now apply K_panic|]. intros _ Rle _.
  pose proof (K_sched h r SPrevoteWait s Ks) as K1.
  destruct (sched_keeps h r SPrevoteWait s) as (A & B).
  apply (K_quiet (sched h r SPrevoteWait s) _ []); auto using qnil, rounds_ext_refl. cbn. now rewrite B.
Qed.

Lemma enter_precommit_wait_K h r s : K s -> K (enter_precommit_wait vals h r s).
Proof.
  intros Ks. apply enter_precommit_wait_cases; [exact Ks|now apply K_panic|]. intros _ _.
  pose proof (K_sched h r SPrecommitWait s Ks) as K1.
  apply (K_quiet (sched h r SPrecommitWait s) _ []); auto using qnil, rounds_ext_refl. cbn. lia.
Qed.

Lemma update_to_state_K s : Inv1 s -> K s -> K (update_to_state s).
Proof.
  intros I Ks. apply update_to_state_cases; [now apply K_panic|].
  intros lc. destruct Ks as [K1 K2 K3 K4]. split.
  - intros r rv G. apply get_rv_single in G. subst rv. split; apply vs_ok_empty.
  - intros p Hin Ty Ph _. cbn in *. pose proof (i_past _ I p Hin) as Pa. unfold past in Pa. lia.
  - intros lb E. discriminate.
  - exact K4.
Qed.

Lemma finalize_commit_K h s : Inv1 s -> K s -> K (finalize_commit valid h s).
Proof.
  intros I Ks. apply finalize_commit_cases; [exact Ks|now apply K_panic|]. intros b pb M HP Ep Ev.
  set (o := Commit (height s) pb (commit_round s)).
  assert (I1 : Inv1 (emit o s)) by (apply Inv1_emit_other; auto; discriminate).
  assert (K1 : K (emit o s)).
  { eapply K_emit with (s := s); try reflexivity; auto; [|discriminate].
    cbn. split; [exact Ev|]. exists b. split.
    - apply hashes_to_some in HP. destruct HP. congruence.
    - apply maj_quorum; assumption. }
  apply andthen_ind; [|apply K_sched].
  apply andthen_ind; [exact K1|]. intros _. now apply update_to_state_K.
Qed.

Lemma try_finalize_commit_K h s : Inv1 s -> K s -> K (try_finalize_commit valid h s).
Proof.
  intros I Ks. apply try_finalize_commit_cases; [exact Ks|now apply K_panic|now apply finalize_commit_K].
Qed.

Lemma hvs_set_round_K nr s : K s -> K (hvs_set_round nr s).
Proof.
  intros Ks. unfold hvs_set_round. destruct (_ && _); [now apply K_panic|].
  set (x := add_rounds_from _ _ s).
  assert (Kx : K x).
  { apply (K_frame s); auto; [apply add_rounds_from_frame|apply add_rounds_from_ext]. }
  apply (K_irrel x); auto. cbn. lia.
Qed.

Lemma decide_proposal_K m h r s : K s -> K (decide_proposal mkblock cfg m h r s).
Proof.
  intros Ks. destruct (decide_proposal_shape mkblock cfg m h r s) as [->|(p & _ & _ & ->)]; [exact Ks|].
  apply (K_quiet s _ [EvOut (SignProposal p)]); auto using rounds_ext_refl; cbn; try lia. apply qone. exact I.
Qed.

Lemma enter_propose_K h r s : K s -> K (enter_propose valid proposer mkblock cfg me h r s).
Proof.
  intros Ks. unfold enter_propose.
  destruct (negb (height s =? h) || (r <? round s) || _) eqn:G; [exact Ks|].
  apply orb_false_iff in G. destruct G as (G & _). b2p.
  set (s1 := sched h r SPropose s). assert (K1 : K s1) by now apply K_sched.
  destruct (sched_keeps h r SPropose s) as (A & B). fold s1 in A, B.
  set (s2 := match me with Some i => _ | None => s1 end).
  assert (K2 : K s2 /\ round s2 = round s1).
  { subst s2. destruct me; [|auto]. destruct (_ =? _); [|auto]. split; [now apply decide_proposal_K|].
    destruct (decide_proposal_shape mkblock cfg (Some n) h r s1) as [->|(p & _ & _ & ->)]; reflexivity. }
  destruct K2 as (K2 & R2).
  assert (K3 : K (set_rstep SPropose (set_round r s2))).
  { apply (K_irrel s2); auto. cbn. lia. }
  destruct (is_proposal_complete _); [now apply enter_prevote_K|exact K3].
Qed.

Lemma enter_new_round_K h r s : K s -> K (enter_new_round valid proposer mkblock cfg me h r s).
Proof.
  intros Ks. unfold enter_new_round.
  destruct (negb (height s =? h) || (r <? round s) || _) eqn:G; [exact Ks|].
  apply orb_false_iff in G. destruct G as (G & _). b2p.
  match goal with |- K ((_ ;; ?g) ?s3) => set (Gf := g); set (S3 := s3) end.
  assert (K3 : K S3).
  { subst S3. apply (K_irrel s); auto.
    all: destruct (round s <? r); destruct (r =? 1); cbn; auto; lia. }
  unfold andthen. pose proof (hvs_set_round_K (r + 1) S3 K3) as K4.
  destruct (halted _); [exact K4|]. subst Gf. cbn beta.
  set (x := hvs_set_round (r + 1) S3) in *.
  assert (K5 : K (set_tt_precommit false x)) by (apply (K_irrel x); auto; cbn; lia).
  destruct (_ && _).
  - destruct (empty_interval_pos cfg); [now apply K_sched|exact K5].
  - now apply enter_propose_K.
Qed.

Lemma voted_for_in ins peer v :
  In (InVote peer v) ins -> v_ok v = true ->
  voted_for ins (v_type v) (v_height v) (v_round v) (v_bid v) (v_idx v) = true.
Proof.
  intros Hin Ok. unfold voted_for. apply existsb_exists. exists (InVote peer v). split; [exact Hin|].
  rewrite Ok, !N.eqb_refl, bid_eqb_refl. destruct (v_type v); reflexivity.
Qed.

Lemma hvs_go_K peer v s :
  K s -> In (InVote peer v) (received (log s)) -> v_height v = height s -> K (fst (hvs_go vals v s)).
Proof.
  intros Ks Hin Vh. unfold hvs_go.
  destruct (get_rv (rounds s) (v_round v)) as [rv|] eqn:G; [|exact Ks].
  destruct (negb (v_ok v)) eqn:Ok; [exact Ks|]. apply negb_false_iff in Ok.
  destruct (vs_add _ _ _ _) as [vs' added] eqn:Ea. destruct added; [|exact Ks].
  cbn [fst]. pose proof Ks as [K1 K2 K3 K4]. split.
  - intros r' rv' G'. cbn [rounds set_rounds log height] in *.
    destruct (N.eq_dec (v_round v) r') as [E|E].
    + subst r'. rewrite (get_put_rv_same _ _ _ _ G) in G'. injection G' as <-.
      destruct (K1 _ _ G) as (A & B).
      assert (V : voted_for (received (log s)) (v_type v) (height s) (v_round v) (v_bid v) (v_idx v) = true).
      { rewrite <- Vh. now apply (voted_for_in _ peer). }
      unfold pw in Ea.
      destruct (v_type v); cbn [pick upd fst snd] in *; split; auto; eapply vs_ok_add; eauto.
    + rewrite get_put_rv_other in G'; auto.
  - apply (LH_step s _ []); auto; cbn; try lia.
    all: try (intros p _ _ _ (lb & A & B & C); left; exists lb; auto; fail).
    all: try (intros x []).
  - exact K3.
  - exact K4.
Qed.

Lemma hvs_add_K peer v s :
  K s -> In (InVote peer v) (received (log s)) -> v_height v = height s ->
  K (fst (hvs_add vals peer v s)).
Proof.
  intros Ks Hin Vh. rewrite hvs_add_eq.
  destruct (get_rv (rounds s) (v_round v)); [now apply (hvs_go_K peer)|].
  cbv zeta. destruct (_ <? _)%nat; [|exact Ks].
  destruct (add_round_frame (v_round v) s) as (A1 & _ & _ & A4 & _).
  apply (hvs_go_K peer).
  - apply (K_frame s); auto.
    + eapply frame_trans; [apply (add_round_frame (v_round v))|]. repeat split.
    + cbn. apply add_round_ext.
  - cbn. now rewrite A4.
  - cbn. now rewrite A1.
Qed.

(** a prevote polka for another value in a round above the lock's releases the lock *)
Lemma polka_update_K r b s :
  K s -> maj_of (get_vs s r Prevote) = Some b -> K (polka_update r b s).
Proof.
  intros Ks M. unfold polka_update.
  set (sa := match locked s with Some _ => _ | None => s end).
  assert (Ka : K sa).
  { subst sa. destruct (locked s) as [lb|] eqn:El; [|exact Ks].
    destruct ((locked_round s <? r) && (r <=? round s) && negb (hashes_to (Some lb) (bh b))) eqn:U; [|exact Ks].
    b2p. apply (K_release s (unlock s) r b); auto; try (repeat split; fail).
    - apply maj_polka; assumption.
    - intros lb' El'. apply (not_hashes_to s); auto. rewrite El. assumption.
    - intros p _ _ _ (lb' & L1 & L2 & L3). lia. }
  clearbody sa.
  destruct (negb (bh b =? 0) && (valid_round sa <? r) && (r =? round sa)); [|exact Ka].
  destruct (hashes_to (pblock sa) (bh b)); destruct (negb _);
    apply (K_irrel sa); auto; first [reflexivity|apply N.le_refl].
Qed.

Lemma enter_commit_K h cr s : Inv1 s -> K s -> K (enter_commit valid h cr s).
Proof.
  intros I Ks. unfold enter_commit.
  destruct (negb (height s =? h) || step_le SCommit (rstep s)) eqn:G; [exact Ks|]. b2p.
  destruct (maj_of _) as [b|]; [|now apply K_panic].
  match goal with |- K (try_finalize_commit valid h ?X) => set (x := X) end.
  assert (C : height x = height s /\ round x = round s /\ log x = log s /\ timeouts x = timeouts s /\
              rounds x = rounds s /\ locked x = locked s /\ locked_round x = locked_round s).
  { subst x. destruct (hashes_to (locked s) _); destruct (_ && _); repeat split. }
  destruct C as (A1 & A2 & A4 & A5 & Er & El & Elr).
  apply try_finalize_commit_K.
  - apply (Inv1_along s); auto.
    unfold adv. right. right. rewrite A1, A2. repeat split; auto. subst x. cbn in *. lia.
  - apply (K_irrel s); auto. lia.
Qed.

Definition NI (s : nstate) : Prop := Inv1 s /\ I6 s /\ K s.

Lemma ni_enter_prevote h r s :
  NI s -> Pre h r s -> NI (enter_prevote valid me h r s) /\ keeps s (enter_prevote valid me h r s).
Proof.
  intros (I & J & Ks) P. destruct (enter_prevote_inv valid me h r s I P) as (I' & Kp).
  split; [|exact Kp]. split; [exact I'|]. split; [now apply enter_prevote_J|now apply enter_prevote_K].
Qed.
Lemma ni_enter_precommit h r s :
  NI s -> Pre h r s -> NI (enter_precommit valid me h r s) /\ keeps s (enter_precommit valid me h r s).
Proof.
  intros (I & J & Ks) P. destruct (enter_precommit_inv valid me h r s I P) as (I' & Kp).
  split; [|exact Kp]. split; [exact I'|]. split; [now apply enter_precommit_J|now apply enter_precommit_K].
Qed.
Lemma ni_enter_prevote_wait h r s :
  NI s -> Pre h r s -> NI (enter_prevote_wait vals h r s).
Proof.
  intros (I & J & Ks) P. destruct (enter_prevote_wait_inv vals h r s I P) as (I' & Kp).
  split; [exact I'|]. split; [now apply enter_prevote_wait_J|now apply enter_prevote_wait_K].
Qed.
Lemma ni_enter_precommit_wait h r s : NI s -> NI (enter_precommit_wait vals h r s).
Proof.
  intros (I & J & Ks). destruct (enter_precommit_wait_inv vals h r s I) as (I' & Kp).
  split; [exact I'|]. split; [now apply enter_precommit_wait_J|now apply enter_precommit_wait_K].
Qed.
Lemma ni_enter_new_round h r s :
  NI s -> let s' := enter_new_round valid proposer mkblock cfg me h r s in
          NI s' /\ height s' = height s /\ Pre h r s'.
Proof.
  intros (I & J & Ks). cbv zeta. destruct (enter_new_round_inv valid proposer mkblock cfg me h r s I) as (I' & Hh & P).
  split; [|auto]. split; [exact I'|]. split; [now apply enter_new_round_J|now apply enter_new_round_K].
Qed.
Lemma ni_try_finalize h s : NI s -> NI (try_finalize_commit valid h s).
Proof.
  intros (I & J & Ks). split; [now apply try_finalize_commit_inv|].
  split; [now apply try_finalize_commit_J|now apply try_finalize_commit_K].
Qed.

Lemma ni_enter_commit h cr s : NI s -> NI (enter_commit valid h cr s).
Proof.
  intros (I & J & Ks). split; [now apply enter_commit_inv|].
  split; [now apply enter_commit_J|now apply enter_commit_K].
Qed.

Lemma ni_enter_propose h r s :
  NI s -> Pre h r s -> NI (enter_propose valid proposer mkblock cfg me h r s).
Proof.
  intros (I & J & Ks) P. destruct (enter_propose_inv valid proposer mkblock cfg me h r s I P) as (I' & _).
  split; [exact I'|]. split; [now apply enter_propose_J|now apply enter_propose_K].
Qed.

Lemma ni_init : NI (init cfg).
Proof.
  split; [apply init_inv|]. split; [apply init_J|].
  unfold init. apply K_sched. split.
  - intros r rv G. apply get_rv_single in G. subst rv. split; apply vs_ok_empty.
  - intros p [].
  - intros lb E. discriminate.
  - intros post o pre E. destruct post; discriminate.
Qed.

(** the first two components are closed on their own (ProofsInv, ProofsValid); [K] uses them *)
Lemma NI_closed : closed valid vals proposer mkblock cfg me Pre NI.
Proof.
  pose proof (Inv1_closed valid vals proposer mkblock cfg me) as C1.
  pose proof (Inv6_closed valid vals proposer mkblock cfg me) as C6.
  split; cbv zeta.
  - intros s s0 F R (I & J & Ks). split; [exact (c_frame _ _ _ _ _ _ _ _ C1 s s0 F R I)|].
    split; [exact (c_frame _ _ _ _ _ _ _ _ C6 s s0 F R J)|].
    apply (K_frame s); auto. rewrite R. apply rounds_ext_refl.
  - intros s (I & J & Ks). split; [now apply Inv1_panic|split; [now apply Inv6_panic|now apply K_panic]].
  - intros i s (I & J & Ks). split; [now apply (c_input _ _ _ _ _ _ _ _ C1)|].
    split; [now apply (c_input _ _ _ _ _ _ _ _ C6)|].
    apply (K_quiet s _ [EvIn i]); auto using qin, rounds_ext_refl. cbn. lia.
  - intros h r st s (I & J & Ks) Hin.
    destruct (c_fired _ _ _ _ _ _ _ _ C1 h r st s I Hin) as (I' & Qr & Q1).
    destruct (c_fired _ _ _ _ _ _ _ _ C6 h r st s J Hin) as (J' & _).
    split; [|auto]. split; [exact I'|]. split; [exact J'|]. apply (K_irrel s); auto. cbn. lia.
  - intros h r b id s (I & J & Ks) Hin. split; [now apply (c_block _ _ _ _ _ _ _ _ C1 h r)|].
    split; [now apply (c_block _ _ _ _ _ _ _ _ C6 h r)|].
    apply (K_irrel s); auto. cbn. lia.
  - intros peer v s (I & J & Ks) Hin Vh. split; [now apply (c_vote _ _ _ _ _ _ _ _ C1)|].
    split; [now apply (c_vote _ _ _ _ _ _ _ _ C6)|now apply hvs_add_K].
  - intros r b s (I & J & Ks) M. split; [now apply (c_polka _ _ _ _ _ _ _ _ C1)|].
    split; [now apply (c_polka _ _ _ _ _ _ _ _ C6)|now apply polka_update_K].
  - intros h r s N0. destruct (ni_enter_new_round h r s N0) as (N1 & _ & P1). auto.
  - intros h r s N0 P. now apply ni_enter_propose.
  - intros h r s N0 P. now apply ni_enter_prevote.
  - intros h r s N0 P. now apply ni_enter_prevote_wait.
  - intros h r s N0 P. now apply ni_enter_precommit.
  - intros h r s N0. now apply ni_enter_precommit_wait.
  - intros h cr s N0. now apply ni_enter_commit.
  - intros h s N0. now apply ni_try_finalize.
  - intros h r s Hr _. exact Hr.
Qed.

Lemma ni_run ins : NI (run valid vals proposer mkblock cfg me ins).
Proof. apply (closed_run _ _ _ _ _ _ _ _ NI_closed), ni_init. Qed.

Local Notation flog := (final_log valid vals proposer mkblock cfg me).

Lemma run_hist ins : histK (flog ins).
Proof. destruct (ni_run ins) as (_ & _ & Kr). apply Kr. Qed.

Lemma signed_precommit_nonzero ins post v pre :
  flog ins = post ++ EvOut (SignVote v) :: pre -> v_type v = Precommit ->
  bid_is_zero (v_bid v) = false -> bh (v_bid v) <> 0.
Proof.
  intros E Ty Nz Hz. pose proof (run_hist ins post _ pre E) as P. cbn in P. rewrite Ty in P.
  destruct P as (P1 & _). rewrite (P1 Hz) in Nz. discriminate.
Qed.

Theorem precommit_needs_polka : C03_precommit_needs_polka_statement valid vals proposer mkblock cfg me.
Proof.
  intros ins post pre v E Ty Nz.
  pose proof (signed_precommit_nonzero ins post v pre E Ty Nz) as Hnz.
  pose proof (run_hist ins post _ pre E) as P. cbn in P. rewrite Ty in P. destruct P as (_ & P2).
  exact (P2 Hnz).
Qed.

Theorem commit_needs_quorum : C03_commit_needs_quorum_statement valid vals proposer mkblock cfg me.
Proof.
  intros ins post pre h b r E. exact (run_hist ins post _ pre E).
Qed.

(** the lock rule, for any later prevote (nil included) whose hash differs from the precommitted one *)
Theorem lock_rule_strong ins l3 l2 l1 p x :
  flog ins = l3 ++ EvOut (SignVote x) :: l2 ++ EvOut (SignVote p) :: l1 ->
  v_type p = Precommit -> bid_is_zero (v_bid p) = false -> v_type x = Prevote ->
  v_height x = v_height p -> v_round p < v_round x -> bh (v_bid x) <> bh (v_bid p) ->
  exists r'' y, v_round p < r'' /\ r'' <= v_round x /\ bh y <> bh (v_bid p) /\
                quorum_received vals (received (l2 ++ EvOut (SignVote p) :: l1)) Prevote (v_height p) r'' y.
Proof.
  intros E Tp Nz Tx Hh Hr Hne.
  assert (Hnz : bh (v_bid p) <> 0).
  { apply (signed_precommit_nonzero ins (l3 ++ EvOut (SignVote x) :: l2) p l1); auto.
    rewrite E, <- app_assoc. reflexivity. }
  pose proof (run_hist ins l3 _ _ E) as P. cbn in P. rewrite Tx in P.
  apply (P p); auto. apply in_signed_votes. apply in_or_app. right. now left.
Qed.

Theorem lock_rule : C03_lock_rule_statement valid vals proposer mkblock cfg me.
Proof.
  intros ins l3 l2 l1 p x E Tp Nz Tx _ Hh Hr Hne. eapply lock_rule_strong; eauto.
Qed.

End Lock.
