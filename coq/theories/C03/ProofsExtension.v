(** C03 — the node votes for and commits only valid extensions of its own chain, spelled out.
    [Node.v] is parametric in [valid h b]; here it is instantiated with the transcription of
    validateBlock (Validate.v) applied to the node's chain state at height h ([st h]) and to the
    decoded content of the block ([dec b]).  The per-validator theorems of ProofsValid/ProofsLock
    then say: every non-nil prevote, every non-nil precommit and every commit is for a block the
    node had been given in full and that has the right height and parent id, the application and
    validator-set hashes of the node's own state, a last commit that verifies against the previous
    validator set and the prescribed (weighted-median) time — [valid_extension], which
    ProofsValidate.v shows to be exactly what validateBlock accepts. *)
From Coq Require Import List ZArith NArith Bool.
From Kardia Require Import C03.Node C03.Spec C03.ProofsValid C03.ProofsLock.
From Kardia Require C03.Validate C03.ProofsValidate.
Import ListNotations.
Local Open Scope N_scope.

Section Extension.
Variable st : N -> Validate.chain.           (* the node's LatestBlockState while it is at height h *)
Variable dec : block -> Validate.vblock.     (* the block a complete part set decodes to (C13) *)
Variable vals : N -> list Z.
Variable proposer : N -> N -> N.
Variable mkblock : N -> N -> option block.
Variable cfg : config.
Variable me : option N.

Definition valid_by_code (h : N) (b : block) : bool :=
  Validate.verr_ok (Validate.validate_block (st h) (dec b)).

Lemma verr_ok_true e : Validate.verr_ok e = true -> e = Validate.VOk.
Proof. destruct e; cbn; intros H; try discriminate; reflexivity. Qed.

Lemma valid_by_code_sound h b :
  valid_by_code h b = true -> ProofsValidate.valid_extension (st h) (dec b).
Proof. intros H. apply ProofsValidate.validate_block_sound. apply verr_ok_true. exact H. Qed.

Theorem votes_and_commits_extend_own_chain :
  (forall h, Forall (fun p => (0 <= p)%Z) (vals h)) ->
  forall ins : list input,
    let l := log (run valid_by_code vals proposer mkblock cfg me ins) in
    (forall post pre v,
        l = post ++ EvOut (SignVote v) :: pre -> bid_is_zero (v_bid v) = false ->
        exists b, held (received pre) b /\ b_hash b = bh (v_bid v)
                  /\ ProofsValidate.valid_extension (st (v_height v)) (dec b))
    /\ (forall post pre h b r,
           l = post ++ EvOut (Commit h b r) :: pre ->
           ProofsValidate.valid_extension (st h) (dec b)).
Proof.
  intros Hnn ins l. split.
  - intros post pre v Hl Hnz.
    destruct (v_type v) eqn:Ety.
    + destruct (votes_only_valid valid_by_code vals proposer mkblock cfg me ins post pre v Hl Ety Hnz) as [b [Hh [Hb Hv]]].
      exists b. split; [exact Hh|]. split; [exact Hb|]. apply valid_by_code_sound. exact Hv.
    + destruct (precommit_needs_polka valid_by_code vals proposer mkblock cfg me Hnn ins post pre v Hl Ety Hnz) as [_ [b [Hh [Hb Hv]]]].
      exists b. split; [exact Hh|]. split; [exact Hb|]. apply valid_by_code_sound. exact Hv.
  - intros post pre h b r Hl.
    destruct (commit_needs_quorum valid_by_code vals proposer mkblock cfg me Hnn ins post pre h b r Hl) as [Hv _].
    apply valid_by_code_sound. exact Hv.
Qed.

End Extension.
