(** C04 — liveness of the synchronous suffix under timely delivery (C04/LockModel.v): from any
    well-formed configuration in which the locks of the correct validators agree, some round among the next
    2 w commits, w being a window in which every correct validator is the proposer at least once. *)
From Coq Require Import List ZArith Arith Bool Lia.
From Kardia Require Import C01.Power C04.ProofsRound C04.Open C04.LockModel.
Import ListNotations.
Local Open Scope Z_scope.

Section Shared.
Variable powers : list Z.
Hypothesis powers_nonneg : Forall (fun p => 0 <= p) powers.
Variable B : Type.
Variable B_eq_dec : forall x y : B, {x = y} + {x <> y}.
Variable correct : nat -> bool.
Hypothesis correct_quorum : 2 * Power.total powers < 3 * Power.pw powers correct.
Hypothesis correct_in_range : forall i, correct i = true -> (i < Power.n powers)%nat.
Variable valid : B -> bool.
Variable proposer : nat -> nat.
Variable polka_of : voteset B -> option (option B).
Hypothesis polka_of_spec : forall vs y, polka_of vs = Some y <-> maj23 powers B B_eq_dec vs y.

Notation lock_block := (lock_block B).
Notation valid_block := (valid_block B).
Notation wf_conf := (wf_conf B correct valid).
Notation locks_agree := (locks_agree B correct).
Notation uniform := (uniform B correct valid).
Notation unlocked := (unlocked B correct).
Notation shared_round := (shared_round powers B B_eq_dec correct valid proposer polka_of).
Notation maj23 := (maj23 powers B B_eq_dec).
Notation val_eqb := (val_eqb B B_eq_dec).

Lemma maj23_correct_witness vs x :
  maj23 vs x -> exists i, (i < Power.n powers)%nat /\ correct i = true /\ vs i = Some x.
Proof.
  unfold ProofsRound.maj23. intros Hx.
  assert (Hc : Power.pw powers correct <= Power.total powers) by (apply pw_le_total; assumption).
  destruct (pw_meet_witness powers powers_nonneg (voted_for B B_eq_dec vs x) correct) as (i & Hi & H1 & H2); [lia|].
  exists i. split; [exact Hi|]. split; [exact H2|]. apply (voted_for_true B B_eq_dec). exact H1.
Qed.

Lemma some_correct : exists i, correct i = true.
Proof.
  pose proof (total_nonneg powers powers_nonneg) as Ht.
  destruct (pw_pos_witness powers correct) as [i [_ Hi]]; [lia|]. exists i. exact Hi.
Qed.

(** [settled] is the first two cases of LockModel.phase, [Inv] adds well-formedness to its third *)
Definition Inv (c : conf B) : Prop := wf_conf c /\ locks_agree c.
Definition settled (c : conf B) : Prop := (exists b, uniform c b) \/ unlocked c.
Definition eqc (c c' : conf B) : Prop := forall i, correct i = true -> c' i = c i.

(** where the agreement of the locks comes from: a lock (b, lr) is taken on the polka of round lr
    (enterPrecommit), and addVote releases a lock when the polka of a later round (up to the current one) is
    for another block; once the prevotes of the earlier rounds have been exchanged, every correct validator
    knows the same polkas [polka_at] (one per round at most, [maj23_unique]) *)
Lemma locks_agree_from_polkas (c : conf B) (polka_at : nat -> option B) :
  (forall i b lr, correct i = true -> locked B (c i) = Some (b, lr) -> polka_at lr = Some b) ->
  (forall i b lr r b', correct i = true -> locked B (c i) = Some (b, lr) -> (lr < r)%nat ->
                       polka_at r = Some b' -> b' = b) ->
  locks_agree c.
Proof.
  intros H1 H2 i j b b' Hi Hj Hb Hb'. unfold Open.lock_block in Hb, Hb'.
  destruct (locked B (c i)) as [[x lr]|] eqn:Ei; cbn in Hb; [|discriminate]. inversion Hb; subst x.
  destruct (locked B (c j)) as [[y lr']|] eqn:Ej; cbn in Hb'; [|discriminate]. inversion Hb'; subst y.
  destruct (lt_eq_lt_dec lr lr') as [[Hlt|Heq]|Hgt].
  - symmetry. exact (H2 i b lr lr' b' Hi Ei Hlt (H1 j b' lr' Hj Ej)).
  - subst lr'. pose proof (H1 i b lr Hi Ei) as A. pose proof (H1 j b' lr Hj Ej) as A'. congruence.
  - exact (H2 j b' lr' lr b Hj Ej Hgt (H1 i b lr Hi Ei)).
Qed.

(** the block of a polka is valid: some correct validator prevoted it *)
Lemma polka_block_valid c shown PV b :
  wf_conf c ->
  has_correct_votes powers B correct PV (fun i => do_prevote B valid (lock_block (c i)) (shown i)) ->
  maj23 PV (Some b) -> valid b = true.
Proof.
  intros Hwf Hpv Hm. destruct (maj23_correct_witness PV (Some b) Hm) as [i [Hi [Hc Hv]]].
  rewrite (Hpv i Hi Hc) in Hv. inversion Hv as [Hd]. clear Hv.
  unfold do_prevote in Hd. destruct (Hwf i Hc) as [Hl _].
  destruct (lock_block (c i)) as [l|] eqn:El.
  - inversion Hd; subst. apply (Hl b eq_refl).
  - destruct (shown i) as [p|]; [|discriminate]. destruct (valid p) eqn:Ev; [|discriminate]. inversion Hd; subst. exact Ev.
Qed.

(** what one round does to the configuration *)
Lemma round_cases r c c' d :
  Inv c -> shared_round r c c' d ->
  eqc c c' \/
  (unlocked c' /\ forall i, correct i = true -> valid_block (c' i) = valid_block (c i)) \/
  (exists b, uniform c' b).
Proof.
  intros [Hwf Hag] [shown [PV [PC [pcv [Hprop [Hpv [Hpc [Hpca [Hlock Hdec]]]]]]]]].
  destruct (polka_of PV) as [[b|]|] eqn:Ep.
  - (* a polka for block b *)
    right. right. exists b.
    assert (Hm : maj23 PV (Some b)) by (apply polka_of_spec; exact Ep).
    split; [exact (polka_block_valid c shown PV b Hwf Hpv Hm)|].
    intros i Hc. specialize (Hlock i Hc). unfold lock_step in Hlock.
    unfold LockModel.valid_block, Open.lock_block.
    destruct (val_eqb (lock_block (c i)) (Some b) || val_eqb (shown i) (Some b)).
    + destruct Hlock as [H1 H2]. rewrite H1, H2. cbn. split; [reflexivity|right; reflexivity].
    + destruct Hlock as [[H1|H1] H2]; rewrite H1, H2; cbn; split; try reflexivity; [left|right]; reflexivity.
  - (* a polka for nil *)
    right. left. split.
    + intros i Hc. destruct (Hlock i Hc) as [H1 _]. unfold Open.lock_block. rewrite H1. reflexivity.
    + intros i Hc. destruct (Hlock i Hc) as [_ H2]. unfold LockModel.valid_block. rewrite H2. reflexivity.
  - left. intros i Hc. exact (Hlock i Hc).
Qed.

Lemma uniform_inv c b : uniform c b -> Inv c.
Proof.
  intros [Hv Hu]. split.
  - intros i Hc. destruct (Hu i Hc) as [Hvb Hl]. split.
    + intros x Hx. destruct Hl as [Hl|Hl]; rewrite Hl in Hx; [discriminate|]. inversion Hx; subst. split; assumption.
    + intros v Hvv. rewrite Hvb in Hvv. inversion Hvv; subst. exact Hv.
  - intros i j x y Hi Hj Hx Hy. destruct (Hu i Hi) as [_ [H|H]]; rewrite H in Hx; [discriminate|].
    destruct (Hu j Hj) as [_ [H'|H']]; rewrite H' in Hy; [discriminate|]. congruence.
Qed.

Lemma eqc_inv c c' : eqc c c' -> Inv c -> Inv c'.
Proof.
  intros He [Hwf Hag]. split.
  - intros i Hc. rewrite (He i Hc). apply Hwf. exact Hc.
  - intros i j x y Hi Hj. rewrite (He i Hi), (He j Hj). apply Hag; assumption.
Qed.

Lemma round_inv r c c' d : Inv c -> shared_round r c c' d -> Inv c'.
Proof.
  intros HI Hr. destruct (round_cases r c c' d HI Hr) as [He|[[Hu Hvb]|[b Hb]]].
  - exact (eqc_inv c c' He HI).
  - destruct HI as [Hwf _]. split.
    + intros i Hc. split.
      * intros x Hx. rewrite (Hu i Hc) in Hx. discriminate.
      * intros v Hv. rewrite (Hvb i Hc) in Hv. destruct (Hwf i Hc) as [_ H]. apply H. exact Hv.
    + intros i j x y Hi Hj Hx. rewrite (Hu i Hi) in Hx. discriminate.
  - exact (uniform_inv c' b Hb).
Qed.

Lemma settled_step r c c' d : Inv c -> settled c -> shared_round r c c' d -> settled c'.
Proof.
  intros HI Hs Hr. destruct (round_cases r c c' d HI Hr) as [He|[[Hu _]|[b Hb]]].
  - destruct Hs as [[b [Hv Hu]]|Hu].
    + left. exists b. split; [exact Hv|]. intros i Hc. rewrite (He i Hc). apply Hu. exact Hc.
    + right. intros i Hc. rewrite (He i Hc). apply Hu. exact Hc.
  - right. exact Hu.
  - left. exists b. exact Hb.
Qed.

Lemma proposes_valid_block s y b : proposes B valid s y -> valid_block s = Some b -> y = b.
Proof.
  unfold proposes, LockModel.valid_block. destruct (validb B s) as [[v vr]|]; cbn; [|discriminate]. congruence.
Qed.

(** GOOD ROUND: every correct validator holds the proposal block x, which passes validation, and all locks
    are on x or absent: everybody decides x *)
Lemma decide_shown c (shown : nat -> option B) (PV PC : voteset B) (pcv : nat -> option B) (d : nat -> option B) x :
  has_correct_votes powers B correct PV (fun i => do_prevote B valid (lock_block (c i)) (shown i)) ->
  has_correct_votes powers B correct PC pcv ->
  (forall i, correct i = true -> precommit_allowed B B_eq_dec (polka_of PV) (c i) (shown i) (pcv i)) ->
  (forall i b, correct i = true -> (d i = Some b <-> commits powers B B_eq_dec PC (shown i) b)) ->
  (forall i, correct i = true -> shown i = Some x) -> valid x = true ->
  (forall i, correct i = true -> lock_block (c i) = None \/ lock_block (c i) = Some x) ->
  forall i, correct i = true -> d i = Some x.
Proof.
  intros Hpv Hpc Hpca Hdec Hsh Hvx Hl i Hc.
  pose proof (good_prevote B correct valid x Hvx (fun j => lock_block (c j)) shown Hsh Hl) as Hpre.
  assert (Hm : maj23 PV (Some x)).
  { apply (correct_votes_maj23 powers powers_nonneg B B_eq_dec correct correct_quorum PV _ (Some x) Hpv Hpre). }
  assert (Ep : polka_of PV = Some (Some x)) by (apply polka_of_spec; exact Hm).
  assert (Hpc2 : forall j, correct j = true -> pcv j = Some x).
  { intros j Hj. destruct (Hpca j Hj) as [E|[b [E1 E2]]].
    - rewrite E, Ep. exact (good_precommit B B_eq_dec correct x (fun j => lock_block (c j)) shown Hsh j Hj).
    - rewrite Ep in E1. inversion E1; subst. exact E2. }
  assert (Hmc : maj23 PC (Some x)).
  { apply (correct_votes_maj23 powers powers_nonneg B B_eq_dec correct correct_quorum PC pcv (Some x) Hpc Hpc2). }
  apply (Hdec i x Hc). split; [exact Hmc|exact (Hsh i Hc)].
Qed.

(** in a settled configuration every round with a correct proposer commits *)
Lemma settled_good r c c' d :
  Inv c -> settled c -> shared_round r c c' d -> correct (proposer r) = true ->
  exists x, forall i, correct i = true -> d i = Some x.
Proof.
  intros [Hwf _] Hs [shown [PV [PC [pcv [Hprop [Hpv [Hpc [Hpca [Hlock Hdec]]]]]]]]] Hcp.
  destruct (Hprop Hcp) as [y [Hy Hsh]]. exists y.
  apply (decide_shown c shown PV PC pcv d y Hpv Hpc Hpca Hdec Hsh).
  - (* the proposal is valid *)
    unfold proposes in Hy. destruct (validb B (c (proposer r))) as [[v vr]|] eqn:Ev; [|exact Hy]. subst y.
    destruct (Hwf _ Hcp) as [_ H]. apply H. unfold LockModel.valid_block. rewrite Ev. reflexivity.
  - destruct Hs as [[b [Hv Hu]]|Hu].
    + (* everybody's valid block is b: the proposal is b *)
      rewrite (proposes_valid_block _ y b Hy (proj1 (Hu _ Hcp))). intros i Hc. apply (Hu i Hc).
    + intros i Hc. left. apply Hu. exact Hc.
Qed.

(** when the locks agree, a round whose correct proposer is itself locked commits *)
Lemma locked_proposer_good r c c' d b :
  Inv c -> shared_round r c c' d -> correct (proposer r) = true -> lock_block (c (proposer r)) = Some b ->
  forall i, correct i = true -> d i = Some b.
Proof.
  intros [Hwf Hag] [shown [PV [PC [pcv [Hprop [Hpv [Hpc [Hpca [Hlock Hdec]]]]]]]]] Hcp Hl.
  destruct (Hprop Hcp) as [y [Hy Hsh]].
  destruct (Hwf _ Hcp) as [Hw1 _]. destruct (Hw1 b Hl) as [Hvb Hvalid].
  rewrite (proposes_valid_block _ y b Hy Hvalid) in Hsh.
  apply (decide_shown c shown PV PC pcv d b Hpv Hpc Hpca Hdec Hsh Hvb).
  intros i Hc. destruct (lock_block (c i)) as [x|] eqn:Ex; [|left; reflexivity].
  right. f_equal. exact (Hag i (proposer r) x b Hc Hcp Ex Hl).
Qed.

(** some correct validator is locked, or none is (the correct validators are among the first n indices) *)
Lemma locked_dec c :
  (forall i, correct i = true -> lock_block (c i) = None) \/ (exists i b, correct i = true /\ lock_block (c i) = Some b).
Proof.
  assert (H : forall k, (forall i, (i < k)%nat -> correct i = true -> lock_block (c i) = None) \/
                        (exists i b, correct i = true /\ lock_block (c i) = Some b)).
  { induction k as [|k IH]; [left; intros; lia|].
    destruct IH as [H|H]; [|right; exact H].
    destruct (correct k) eqn:Ec.
    - destruct (lock_block (c k)) as [b|] eqn:El.
      + right. exists k, b. split; assumption.
      + left. intros i Hi Hci. destruct (Nat.eq_dec i k) as [->|Hne]; [exact El|apply H; [lia|exact Hci]].
    - left. intros i Hi Hci. destruct (Nat.eq_dec i k) as [->|Hne]; [congruence|apply H; [lia|exact Hci]]. }
  destruct (H (Power.n powers)) as [Hn|He]; [left|right; exact He].
  intros i Hc. apply Hn; [apply correct_in_range; exact Hc|exact Hc].
Qed.

Variable r0 : nat.
Variable cfs : nat -> conf B.          (* configuration before round r0 + k *)
Variable ds : nat -> nat -> option B.  (* decisions of round r0 + k *)
Hypothesis run_rounds : forall k, shared_round (r0 + k) (cfs k) (cfs (S k)) (ds k).
Hypothesis start_inv : Inv (cfs 0).

Lemma run_inv k : Inv (cfs k).
Proof. induction k as [|k IH]; [exact start_inv|]. exact (round_inv _ _ _ _ IH (run_rounds k)). Qed.

Lemma settled_persists k m : settled (cfs k) -> settled (cfs (k + m)).
Proof.
  intros Hs. induction m as [|m IH]; [rewrite Nat.add_0_r; exact Hs|].
  rewrite Nat.add_succ_r. exact (settled_step _ _ _ _ (run_inv (k + m)) IH (run_rounds (k + m))).
Qed.

(** up to round m either nothing has changed for the correct validators, or a settled configuration was reached *)
Lemma static_or_settled m :
  (forall k, (k <= m)%nat -> eqc (cfs 0) (cfs k)) \/ (exists k, (k <= m)%nat /\ settled (cfs k)).
Proof.
  induction m as [|m IH].
  - left. intros k Hk. assert (k = 0)%nat by lia. subst k. intros i _. reflexivity.
  - destruct IH as [Hst|[k [Hk Hs]]]; [|right; exists k; split; [lia|exact Hs]].
    destruct (round_cases _ _ _ _ (run_inv m) (run_rounds m)) as [He|[[Hu _]|[b Hb]]].
    + left. intros k Hk. destruct (Nat.eq_dec k (S m)) as [->|Hne]; [|apply Hst; lia].
      intros i Hc. rewrite (He i Hc). apply (Hst m (Nat.le_refl m) i Hc).
    + right. exists (S m). split; [lia|right; exact Hu].
    + right. exists (S m). split; [lia|left; exists b; exact Hb].
Qed.

Variable w : nat.
(** the rotation: every correct validator is the proposer at least once in every window of w rounds (C12) *)
Hypothesis rotation : forall i, correct i = true -> forall r, exists r', (r <= r' < r + w)%nat /\ proposer r' = i.

Lemma proposes_within i k1 : correct i = true -> exists k, (k1 <= k < k1 + w)%nat /\ proposer (r0 + k) = i.
Proof.
  intros Hi. destruct (rotation i Hi (r0 + k1)%nat) as [r' [Hr' Hp]]. exists (r' - r0)%nat.
  replace (r0 + (r' - r0))%nat with r' by lia. split; [lia|exact Hp].
Qed.

(** LIVENESS OF THE SYNCHRONOUS SUFFIX: some round among the first 2 w decides, at every correct validator.
    Within the first w rounds either the configuration of the correct validators changes: then it is settled
    by round w, stays so, and the next round with a correct proposer (less than w later) decides; or it
    does not: then either nobody is locked (settled from the start) or a locked validator proposes within w
    rounds, and its round decides. *)
Theorem suffix_decides :
  exists k x, (k < 2 * w)%nat /\ forall i, correct i = true -> ds k i = Some x.
Proof.
  destruct some_correct as [i1 Hi1].
  assert (Hsettled : forall k1, (k1 <= w)%nat -> settled (cfs k1) ->
            exists k x, (k < 2 * w)%nat /\ forall i, correct i = true -> ds k i = Some x).
  { intros k1 Hk1 Hs. destruct (proposes_within i1 k1 Hi1) as [k [Hk Hp]].
    assert (Hs2 : settled (cfs k)).
    { replace k with (k1 + (k - k1))%nat by lia. apply settled_persists. exact Hs. }
    assert (Hcp : correct (proposer (r0 + k)) = true) by (rewrite Hp; exact Hi1).
    destruct (settled_good _ _ _ _ (run_inv k) Hs2 (run_rounds k) Hcp) as [x Hx].
    exists k, x. split; [lia|exact Hx]. }
  destruct (static_or_settled (w - 1)) as [Hst|[k1 [Hk1 Hs]]]; [|apply (Hsettled k1); [lia|exact Hs]].
  destruct (locked_dec (cfs 0%nat)) as [Hu|[i0 [b [Hi0 Hl0]]]].
  - apply (Hsettled 0%nat); [lia|]. right. exact Hu.
  - destruct (proposes_within i0 0%nat Hi0) as [k [Hk Hp]].
    assert (Hcp : correct (proposer (r0 + k)) = true) by (rewrite Hp; exact Hi0).
    assert (Hl : lock_block (cfs k (proposer (r0 + k))) = Some b).
    { rewrite Hp. rewrite (Hst k ltac:(lia) i0 Hi0). exact Hl0. }
    exists k, b. split; [lia|].
    exact (locked_proposer_good _ _ _ _ b (run_inv k) (run_rounds k) Hcp Hl).
Qed.

End Shared.
