(** C04 — no timeout is lost: proofs about the round/step skeleton of C04/StepModel.v.

    Two invariants of a node (state machine skeleton + ticker + timeouts in flight), each preserved by
    every event: [NInv] (the timeout the ticker remembers covers the state the node waits in) and [Rest2]
    (step NewRound rests only in round 1 of a node that waits for transactions).  From them:
    - [wake], [timeout_never_lost]: in every waiting state a timeout that handleTimeout will accept is
      pending in the ticker or in flight;
    - [handle_live], [handle_stale_noop], [timeout_handled_progress]: handling a live timeout leaves it
      behind the node, so the node moves strictly forward in (height, round, step); a stale one changes
      nothing;
    - [new_round_rest]: [Rest2] of every reachable node. *)
From Coq Require Import NArith Bool List Lia.
From Kardia Require Import C04.Model C04.Proofs C04.StepModel.
Import ListNotations.
Local Open Scope N_scope.

Ltac usteps := unfold sNewHeight, sNewRound, sPropose, sPrevote, sPrevoteWait, sPrecommit, sPrecommitWait, sCommit in *.

Lemma in_remove_nth {A} (x t : A) : forall l k, In x l -> nth_error l k = Some t -> x = t \/ In x (remove_nth k l).
Proof.
  induction l as [|y l IH]; intros k Hin Hk; [destruct Hin|].
  destruct k as [|k]; cbn [nth_error remove_nth] in *.
  - inversion Hk; subst. destruct Hin as [->|Hin]; [left; reflexivity|right; exact Hin].
  - destruct Hin as [->|Hin]; [right; left; reflexivity|].
    destruct (IH k Hin Hk) as [->|H]; [left; reflexivity|right; right; exact H].
Qed.

Lemma forall_remove_nth {A} (P : A -> Prop) : forall l k, Forall P l -> Forall P (remove_nth k l).
Proof.
  induction l as [|y l IH]; intros k H; [destruct k; constructor|].
  inversion H; subst. destruct k; cbn [remove_nth]; [assumption|constructor; auto].
Qed.

Lemma nth_error_forall {A} (P : A -> Prop) l k t : Forall P l -> nth_error l k = Some t -> P t.
Proof. intros H Hk. rewrite Forall_forall in H. apply H. eapply nth_error_In; exact Hk. Qed.

(** Each entry guard is false exactly when the call is for the node's height and ahead of the node in
    (round, step). *)

Lemma g_step_false k H R S h r :
  g_step k H R S h r = false <-> H = h /\ (R < r \/ (R = r /\ S < k)).
Proof.
  unfold g_step. rewrite !orb_false_iff, andb_false_iff, negb_false_iff, N.eqb_eq, N.ltb_ge, N.eqb_neq, N.leb_gt. lia.
Qed.

Lemma g_step_enter k nd h r :
  g_step k (nH nd) (nR nd) (nS nd) h r = false -> r <= nR nd -> h = nH nd /\ r = nR nd /\ nS nd < k.
Proof. rewrite g_step_false. lia. Qed.

Lemma g_new_round_false H R S h r :
  g_new_round H R S h r = false <-> H = h /\ (R < r \/ (R = r /\ S = sNewHeight)).
Proof.
  unfold g_new_round. rewrite !orb_false_iff, andb_false_iff, !negb_false_iff, !N.eqb_eq, N.ltb_ge, N.eqb_neq. lia.
Qed.

Lemma g_precommit_wait_false H R trig h r :
  g_precommit_wait H R trig h r = false <-> H = h /\ r = R /\ trig = false.
Proof.
  unfold g_precommit_wait. rewrite !orb_false_iff, andb_false_iff, !negb_false_iff, !N.eqb_eq, N.eqb_neq.
  intuition congruence.
Qed.

Lemma g_commit_false H S h : g_commit H S h = false <-> H = h /\ S < sCommit.
Proof. unfold g_commit. rewrite orb_false_iff, negb_false_iff, N.eqb_eq, N.leb_gt. reflexivity. Qed.

Lemma stale_false nd t :
  g_timeout_stale (nH nd) (nR nd) (nS nd) (ti_h t) (ti_r t) (ti_s t) = false <-> live nd t.
Proof.
  unfold g_timeout_stale, live.
  rewrite !orb_false_iff, andb_false_iff, negb_false_iff, N.eqb_eq, !N.ltb_ge, N.eqb_neq. lia.
Qed.

(** the timeouts the state machine requests: steps NewHeight, NewRound (both only in round 1), Propose,
    PrevoteWait, PrecommitWait; EmptyTimeoutInfo has this shape too *)
Definition shape (t : tinfo) : Prop :=
  (ti_s t = 1 \/ ti_s t = 2 \/ ti_s t = 3 \/ ti_s t = 5 \/ ti_s t = 7) /\ (ti_s t <= 2 -> ti_r t = 1) /\ 1 <= ti_r t.
(** t is not ahead of the node's (height, round) *)
Definition le_hr (t : tinfo) (nd : node) : Prop := ti_h t < nH nd \/ (ti_h t = nH nd /\ ti_r t <= nR nd).
(** the node is beyond t *)
Definition passed (nd : node) (t : tinfo) : Prop :=
  ti_h t < nH nd \/ (ti_h t = nH nd /\ (ti_r t < nR nd \/ (ti_r t = nR nd /\ ti_s t < nS nd))).
(** (round, step) order *)
Definition le2 (r s r' s' : N) : Prop := r < r' \/ (r = r' /\ s <= s').

(** the steps in which the node waits for the timeout of that very step *)
Definition resting (c : scfg) (r s : N) : Prop :=
  s = 1 \/ s = 3 \/ s = 5 \/ (s = 2 /\ interval_pos c = true /\ r = 1).
(** the timeout the ticker remembers is for the node's height and round, and for step k or a later one *)
Definition remembers (nd : node) (k : N) : Prop :=
  ti_h (last (nTk nd)) = nH nd /\ ti_r (last (nTk nd)) = nR nd /\ k <= ti_s (last (nTk nd)).

Record NInv (c : scfg) (nd : node) : Prop := {
  i_S : 1 <= nS nd <= 8;
  i_R : 1 <= nR nd;
  i_pend : pending (nTk nd) = None \/ pending (nTk nd) = Some (last (nTk nd));
  i_shape : shape (last (nTk nd));
  i_le : le_hr (last (nTk nd)) nd;
  i_tocks : Forall (fun t => shape t /\ le_hr t nd) (nTocks nd);
  (* the remembered timeout is pending, or in flight, or already behind the node *)
  i_cover : pending (nTk nd) = Some (last (nTk nd)) \/ In (last (nTk nd)) (nTocks nd) \/ passed nd (last (nTk nd));
  (* once PrecommitWait was entered in this round, its timeout is the remembered one *)
  i_trig : nTrig nd = true -> nS nd < 8 -> remembers nd 7;
  (* in a resting step the remembered timeout is for this height and round and for this step or a later one *)
  i_wait : resting c (nR nd) (nS nd) -> remembers nd (nS nd)
}.

(** what set_rs, set_trig and schedule make of a node: a move within its height.  The lemmas about moves
    are stated on this form; the nodes the enter functions build reduce to it, so they apply by conversion. *)
Definition moved (nd : node) (r s : N) (b : bool) (k : ticker) : node :=
  {| nH := nH nd; nR := r; nS := s; nTrig := b; nTk := k; nTocks := nTocks nd |}.

Lemma le_hr_moved t nd r s b k : nR nd <= r -> le_hr t nd -> le_hr t (moved nd r s b k).
Proof. unfold le_hr, moved. cbn [nH nR]. lia. Qed.

Lemma passed_moved t nd r s b k : le2 (nR nd) (nS nd) r s -> passed nd t -> passed (moved nd r s b k) t.
Proof. unfold le2, passed, moved. cbn [nH nR nS]. lia. Qed.

Lemma le2_refl r s : le2 r s r s.
Proof. right. split; [reflexivity|apply N.le_refl]. Qed.

Lemma le2_lt r s s' : s < s' -> le2 r s r s'.
Proof. right. split; [reflexivity|apply N.lt_le_incl; assumption]. Qed.

Lemma le2_round r s r' s' : le2 r s r' s' -> r <= r'.
Proof. unfold le2. lia. Qed.

Lemma le2_le r k k' r' s' : k' <= k -> le2 r k r' s' -> le2 r k' r' s'.
Proof. unfold le2. lia. Qed.

Lemma le2_passed nd nd' t r k :
  ti_h t = nH nd -> nH nd' = nH nd -> le2 r k (nR nd') (nS nd') ->
  (ti_r t < r \/ (ti_r t = r /\ ti_s t < k)) -> passed nd' t.
Proof. unfold le2, passed. lia. Qed.

Lemma live_passed_lt nd nd' t : live nd t -> passed nd' t -> st_lt nd nd'.
Proof. unfold live, passed, st_lt. lia. Qed.

Lemma shape_pos t : shape t -> pos_step t.
Proof. unfold shape, pos_step. lia. Qed.

(** the node moves forward within its height; the ticker stays *)
Lemma inv_keep c nd r s b :
  NInv c nd -> le2 (nR nd) (nS nd) r s -> 1 <= s <= 8 ->
  (b = true -> s < 8 -> remembers (moved nd r s b (nTk nd)) 7) ->
  (resting c r s -> remembers (moved nd r s b (nTk nd)) s) ->
  NInv c (moved nd r s b (nTk nd)).
Proof.
  intros HI Hrs Hs Htr Hw.
  pose proof (le2_round _ _ _ _ Hrs) as HR.
  constructor; try assumption; cbn [moved nR nTk nTocks].
  - exact (N.le_trans _ _ _ (i_R _ _ HI) HR).
  - exact (i_pend _ _ HI).
  - exact (i_shape _ _ HI).
  - exact (le_hr_moved _ _ _ _ _ _ HR (i_le _ _ HI)).
  - eapply Forall_impl; [|exact (i_tocks _ _ HI)]. intros t [Ht Hl]. split; [exact Ht|exact (le_hr_moved _ _ _ _ _ _ HR Hl)].
  - destruct (i_cover _ _ HI) as [H|[H|H]]; [left; exact H|right; left; exact H|right; right; exact (passed_moved _ _ _ _ _ _ Hrs H)].
Qed.

(** ... to a step that does not wait for its own timeout; the flag is not set, or stays set within the round *)
Lemma inv_move c nd r s b :
  NInv c nd -> le2 (nR nd) (nS nd) r s -> 1 <= s <= 8 -> ~ resting c r s ->
  (b = true -> s < 8 -> nTrig nd = true /\ nR nd = r) ->
  NInv c (moved nd r s b (nTk nd)).
Proof.
  intros HI Hrs Hs Hnr Htr. apply (inv_keep c nd r s b HI Hrs Hs); [|intros Hr; contradiction].
  intros Hb Hs8. destruct (Htr Hb Hs8) as [Ht <-].
  assert (Hs0 : nS nd < 8) by (unfold le2 in Hrs; clear - Hrs Hs8; lia).
  exact (i_trig _ _ HI Ht Hs0).
Qed.

(** the node moves forward within its height and requests the timeout of step q of its new round: the
    request has one of the shapes; it covers the step being entered if that step rests; the flag is set
    only together with the PrecommitWait request, or stays set within the round *)
Lemma inv_sched c nd r s b q :
  NInv c nd -> le2 (nR nd) (nS nd) r s -> 1 <= s <= 8 ->
  (q = 2 \/ q = 3 \/ q = 5 \/ q = 7) -> (q <= 2 -> r = 1) ->
  (resting c r s -> s <= q) ->
  (b = true -> s < 8 -> q = 7 \/ (nTrig nd = true /\ nR nd = r)) ->
  NInv c (moved nd r s b (fst (step (nTk nd) (Schedule (mk_ti (nH nd) r q))))).
Proof.
  intros HI Hrs Hs Hq Hq2 Hwc Htr. pose proof (le2_round _ _ _ _ Hrs) as HR. unfold le2 in Hrs.
  destruct (step_schedule (nTk nd) (mk_ti (nH nd) r q) (shape_pos _ (i_shape _ _ HI))) as [[Hlt ->]|[Hnlt ->]]; cbn [fst].
  - (* accepted: the request is now the remembered timeout, and pending *)
    constructor; unfold remembers; cbn [moved nH nR nS nTrig nTk nTocks last pending mk_ti ti_h ti_r ti_s].
    + exact Hs.
    + exact (N.le_trans _ _ _ (i_R _ _ HI) HR).
    + right. reflexivity.
    + pose proof (i_R _ _ HI) as H1. unfold shape. cbn [mk_ti ti_h ti_r ti_s]. clear - Hq Hq2 H1 HR. lia.
    + right. split; [reflexivity|apply N.le_refl].
    + eapply Forall_impl; [|exact (i_tocks _ _ HI)]. intros t [Ht Hl]. split; [exact Ht|exact (le_hr_moved _ _ _ _ _ _ HR Hl)].
    + left. reflexivity.
    + intros Hb Hs8. split; [reflexivity|split; [reflexivity|]].
      destruct (Htr Hb Hs8) as [->|[Ht ER]]; [apply N.le_refl|]. exfalso.
      (* the PrecommitWait timeout of this round is remembered: no request of this round is later *)
      assert (Hs0 : nS nd < 8) by (clear - Hrs ER Hs8; lia).
      destruct (i_trig _ _ HI Ht Hs0) as (A & B & C).
      unfold lt3 in Hlt. cbn [mk_ti ti_h ti_r ti_s] in Hlt. clear - Hlt A B C ER Hq. lia.
    + intros Hw. split; [reflexivity|split; [reflexivity|exact (Hwc Hw)]].
  - (* refused: the remembered timeout is for this height and round and at least as late *)
    unfold le3, lt3, eq3 in Hnlt. cbn [mk_ti ti_h ti_r ti_s] in Hnlt.
    pose proof (i_le _ _ HI) as Hle. unfold le_hr in Hle.
    assert (Hrem : remembers (moved nd r s b (nTk nd)) q).
    { unfold remembers. cbn [moved nH nR nTk]. clear - Hnlt Hle Hrs. lia. }
    destruct Hrem as (A & B & C).
    apply (inv_keep c nd r s b HI Hrs Hs).
    + intros Hb Hs8. split; [exact A|split; [exact B|]].
      destruct (Htr Hb Hs8) as [->|[Ht ER]]; [exact C|].
      assert (Hs0 : nS nd < 8) by (clear - Hrs ER Hs8; lia).
      exact (proj2 (proj2 (i_trig _ _ HI Ht Hs0))).
    + intros Hw. split; [exact A|split; [exact B|exact (N.le_trans _ _ _ (Hwc Hw) C)]].
Qed.

(** The enter functions other than enterNewRound are only called for the node's round or an earlier one
    (and then return at once): the hypothesis [r <= nR nd] below. *)

(** enterPrevote and enterPrecommit are the same function of the step they set *)
Definition enter_plain (k : N) (nd : node) (h r : N) : node :=
  if g_step k (nH nd) (nR nd) (nS nd) h r then nd else set_rs nd r k.

Lemma enter_prevote_plain : enter_prevote = enter_plain sPrevote.
Proof. reflexivity. Qed.
Lemma enter_precommit_plain : enter_precommit = enter_plain sPrecommit.
Proof. reflexivity. Qed.

Lemma enter_plain_inv c k nd h r :
  k = sPrevote \/ k = sPrecommit -> NInv c nd -> r <= nR nd -> NInv c (enter_plain k nd h r).
Proof.
  intros Hk HI Hpre. unfold enter_plain. destruct (g_step _ _ _ _ _ _) eqn:G; [exact HI|].
  destruct (g_step_enter _ _ _ _ G Hpre) as (_ & -> & Hlt).
  usteps. apply (inv_move c nd (nR nd) k (nTrig nd) HI).
  - exact (le2_lt _ _ _ Hlt).
  - clear - Hk. lia.
  - unfold resting. clear - Hk. lia.
  - intros Ht _. split; [exact Ht|reflexivity].
Qed.

Lemma enter_prevote_inv c nd h r : NInv c nd -> r <= nR nd -> NInv c (enter_prevote nd h r).
Proof. rewrite enter_prevote_plain. apply enter_plain_inv. left. reflexivity. Qed.
Lemma enter_precommit_inv c nd h r : NInv c nd -> r <= nR nd -> NInv c (enter_precommit nd h r).
Proof. rewrite enter_precommit_plain. apply enter_plain_inv. right. reflexivity. Qed.

(** a step that waits for its own timeout, requested on entry: Propose, PrevoteWait *)
Lemma request_inv c nd k :
  k = sPropose \/ k = sPrevoteWait -> NInv c nd -> nS nd < k ->
  NInv c (set_rs (schedule nd (nH nd) (nR nd) k) (nR nd) k).
Proof.
  intros Hk HI Hlt. usteps. apply (inv_sched c nd (nR nd) k (nTrig nd) k HI).
  - exact (le2_lt _ _ _ Hlt).
  - clear - Hk. lia.
  - clear - Hk. lia.
  - clear - Hk. lia.
  - intros _. apply N.le_refl.
  - intros Ht _. right. split; [exact Ht|reflexivity].
Qed.

Lemma enter_prevote_wait_inv c nd h r :
  NInv c nd -> r <= nR nd -> NInv c (enter_prevote_wait nd h r).
Proof.
  intros HI Hpre. unfold enter_prevote_wait. destruct (g_step _ _ _ _ _ _) eqn:G; [exact HI|].
  destruct (g_step_enter _ _ _ _ G Hpre) as (-> & -> & Hlt).
  apply request_inv; [right; reflexivity|exact HI|exact Hlt].
Qed.

Lemma enter_propose_inv c nd h r cp :
  NInv c nd -> r <= nR nd -> NInv c (enter_propose nd h r cp).
Proof.
  intros HI Hpre. unfold enter_propose. destruct (g_step _ _ _ _ _ _) eqn:G; [exact HI|].
  destruct (g_step_enter _ _ _ _ G Hpre) as (-> & -> & Hlt).
  assert (H1 : NInv c (set_rs (schedule nd (nH nd) (nR nd) sPropose) (nR nd) sPropose)).
  { apply request_inv; [left; reflexivity|exact HI|exact Hlt]. }
  destruct cp; [|exact H1]. apply enter_prevote_inv; [exact H1|apply N.le_refl].
Qed.

Lemma enter_precommit_wait_inv c nd h r :
  NInv c nd -> NInv c (enter_precommit_wait nd h r).
Proof.
  intros HI. unfold enter_precommit_wait. destruct (g_precommit_wait _ _ _ _ _) eqn:G; [exact HI|].
  apply g_precommit_wait_false in G. destruct G as (<- & -> & _).
  pose proof (i_S _ _ HI) as HS. usteps. apply (inv_sched c nd (nR nd) (nS nd) true 7 HI).
  - apply le2_refl.
  - exact HS.
  - right. right. right. reflexivity.
  - clear. lia.
  - unfold resting. clear - HS. lia.
  - intros _ _. left. reflexivity.
Qed.

Lemma interval_wait c : interval_pos c = true -> wait_for_txs c = true.
Proof. unfold wait_for_txs. intros ->. apply orb_true_r. Qed.

(** updateRoundStep(round, NewRound) with the flag cleared, when NewRound is not a waiting state of this
    round: the state enterNewRound is in when it calls enterPropose, or returns without a timeout *)
Lemma new_round_set_inv c nd r :
  NInv c nd -> nR nd < r \/ (nR nd = r /\ nS nd = sNewHeight) -> ~ (interval_pos c = true /\ r = 1) ->
  NInv c (set_trig (set_rs nd r sNewRound) false).
Proof.
  intros HI Hr Hnw. usteps. apply (inv_move c nd r 2 false HI).
  - unfold le2. clear - Hr. lia.
  - clear. lia.
  - intros [H|[H|[H|[_ H]]]]; [discriminate H|discriminate H|discriminate H|exact (Hnw H)].
  - intros Ht. discriminate Ht.
Qed.

Lemma enter_new_round_inv c nd h r cp :
  NInv c nd -> NInv c (enter_new_round c nd h r cp).
Proof.
  intros HI. unfold enter_new_round. destruct (g_new_round _ _ _ _ _) eqn:G; [exact HI|].
  apply g_new_round_false in G. destruct G as [<- Hr].
  destruct (wait_for_txs c && (r =? 1)) eqn:Ew.
  - apply andb_true_iff in Ew. destruct Ew as [_ Er]. apply N.eqb_eq in Er. subst r.
    destruct (interval_pos c) eqn:Ei.
    + (* from NewHeight into NewRound of round 1, with its timeout *)
      pose proof (i_R _ _ HI) as HR. usteps. apply (inv_sched c nd 1 2 false 2 HI).
      * unfold le2. clear - Hr HR. lia.
      * clear. lia.
      * left. reflexivity.
      * reflexivity.
      * intros _. apply N.le_refl.
      * intros Ht. discriminate Ht.
    + apply new_round_set_inv; [exact HI|exact Hr|]. intros [Hi _]. congruence.
  - apply enter_propose_inv; [|apply N.le_refl].
    apply new_round_set_inv; [exact HI|exact Hr|]. intros [Hi ->].
    rewrite (interval_wait c Hi) in Ew. discriminate Ew.
Qed.

(** finalizeCommit: the NewHeight timeout of the next height is later than everything requested so far *)
Lemma finalize_inv c nd : NInv c nd -> NInv c (finalize nd).
Proof.
  intros HI. unfold finalize. usteps. destruct (N.eqb_spec (nS nd) 8) as [ES|]; [|exact HI].
  pose proof (i_le _ _ HI) as Hle. unfold le_hr in Hle.
  destruct (step_schedule (nTk nd) (mk_ti (nH nd + 1) 1 1) (shape_pos _ (i_shape _ _ HI))) as [[_ E]|[Hnlt _]].
  - constructor; unfold remembers, resting, le_hr, shape; cbn [schedule nH nR nS nTrig nTk nTocks]; rewrite ?E;
      cbn [fst last pending mk_ti ti_h ti_r ti_s]; try (clear; lia).
    + right; reflexivity.
    + eapply Forall_impl; [|exact (i_tocks _ _ HI)]. cbn beta. intros t [Hs Hl]. split; [exact Hs|].
      unfold le_hr in Hl. clear - Hl. lia.
    + left; reflexivity.
  - exfalso. unfold le3, lt3, eq3 in Hnlt. cbn [mk_ti ti_h ti_r ti_s] in Hnlt. clear - Hnlt Hle. lia.
Qed.

Lemma enter_commit_inv c nd h hb : NInv c nd -> NInv c (enter_commit nd h hb).
Proof.
  intros HI. unfold enter_commit. destruct (g_commit _ _ _) eqn:G; [exact HI|].
  apply g_commit_false in G. destruct G as [_ HS]. usteps.
  assert (H1 : NInv c (set_rs nd (nR nd) 8)).
  { apply (inv_move c nd (nR nd) 8 (nTrig nd) HI).
    - exact (le2_lt _ _ _ HS).
    - clear. lia.
    - unfold resting. clear. lia.
    - intros _ H8. exfalso. exact (N.lt_irrefl _ H8). }
  destruct hb; [apply finalize_inv; exact H1|exact H1].
Qed.

(** what the enter functions do to height, round and step: unless the call is for another height, the node
    is afterwards at or beyond the step the function is named after *)
Lemma enter_plain_hr k nd h r :
  nH (enter_plain k nd h r) = nH nd /\ nTocks (enter_plain k nd h r) = nTocks nd /\
  (h = nH nd -> le2 r k (nR (enter_plain k nd h r)) (nS (enter_plain k nd h r))).
Proof.
  unfold enter_plain, le2. destruct (g_step _ _ _ _ _ _) eqn:G; cbn [set_rs nH nR nS nTocks].
  - split; [reflexivity|split; [reflexivity|]]. intros ->.
    apply not_false_iff_true in G. rewrite g_step_false in G. lia.
  - split; [reflexivity|split; [reflexivity|]]. intros _. apply le2_refl.
Qed.

Lemma enter_propose_hr nd h r cp :
  nH (enter_propose nd h r cp) = nH nd /\ nTocks (enter_propose nd h r cp) = nTocks nd /\
  (h = nH nd -> le2 r sPropose (nR (enter_propose nd h r cp)) (nS (enter_propose nd h r cp))).
Proof.
  unfold enter_propose. destruct (g_step _ _ _ _ _ _) eqn:G.
  - split; [reflexivity|split; [reflexivity|]]. intros ->. unfold le2.
    apply not_false_iff_true in G. rewrite g_step_false in G. lia.
  - destruct cp.
    + destruct (enter_plain_hr sPrevote (set_rs (schedule nd h r sPropose) r sPropose) h r) as (A & B & C).
      split; [exact A|split; [exact B|]]. intros E. apply (le2_le _ sPrevote); [discriminate|exact (C E)].
    + split; [reflexivity|split; [reflexivity|]]. intros _. apply le2_refl.
Qed.

Lemma enter_new_round_hr c nd h r cp :
  nH (enter_new_round c nd h r cp) = nH nd /\ nTocks (enter_new_round c nd h r cp) = nTocks nd /\
  (h = nH nd -> 1 <= nS nd -> le2 r sNewRound (nR (enter_new_round c nd h r cp)) (nS (enter_new_round c nd h r cp))).
Proof.
  unfold enter_new_round. destruct (g_new_round _ _ _ _ _) eqn:G.
  - split; [reflexivity|split; [reflexivity|]]. intros -> HS. unfold le2.
    apply not_false_iff_true in G. rewrite g_new_round_false in G. usteps. lia.
  - destruct (wait_for_txs c && (r =? 1)).
    + destruct (interval_pos c); (split; [reflexivity|split; [reflexivity|]]); intros _ _; apply le2_refl.
    + destruct (enter_propose_hr (set_trig (set_rs nd r sNewRound) false) h r cp) as (A & B & C).
      split; [exact A|split; [exact B|]]. intros E _. apply (le2_le _ sPropose); [discriminate|exact (C E)].
Qed.

Lemma handle_timeout_inv c nd t cp :
  NInv c nd -> le_hr t nd -> NInv c (handle_timeout c nd t cp).
Proof.
  intros HI Hle. unfold handle_timeout.
  destruct (g_timeout_stale _ _ _ _ _ _) eqn:G; [exact HI|].
  assert (Hr : ti_r t <= nR nd).
  { apply stale_false in G. destruct G as [Eh _]. unfold le_hr in Hle. clear - Hle Eh. lia. }
  destruct (ti_s t =? sNewHeight); [apply enter_new_round_inv; exact HI|].
  destruct (ti_s t =? sNewRound); [apply enter_propose_inv; [exact HI|exact (i_R _ _ HI)]|].
  destruct (ti_s t =? sPropose); [apply enter_prevote_inv; assumption|].
  destruct (ti_s t =? sPrevoteWait); [apply enter_precommit_inv; assumption|].
  destruct (ti_s t =? sPrecommitWait); [|exact HI].
  apply enter_new_round_inv. apply enter_precommit_inv; assumption.
Qed.

Lemma handle_timeout_tocks c nd t cp : nTocks (handle_timeout c nd t cp) = nTocks nd.
Proof.
  unfold handle_timeout. rewrite enter_prevote_plain, enter_precommit_plain.
  destruct (g_timeout_stale _ _ _ _ _ _); [reflexivity|].
  destruct (ti_s t =? sNewHeight); [exact (proj1 (proj2 (enter_new_round_hr _ _ _ _ _)))|].
  destruct (ti_s t =? sNewRound); [exact (proj1 (proj2 (enter_propose_hr _ _ _ _)))|].
  destruct (ti_s t =? sPropose); [exact (proj1 (proj2 (enter_plain_hr _ _ _ _)))|].
  destruct (ti_s t =? sPrevoteWait); [exact (proj1 (proj2 (enter_plain_hr _ _ _ _)))|].
  destruct (ti_s t =? sPrecommitWait); [|reflexivity].
  rewrite (proj1 (proj2 (enter_new_round_hr _ _ _ _ _))). exact (proj1 (proj2 (enter_plain_hr _ _ _ _))).
Qed.

Lemma handle_stale_noop c nd t cp : ~ live nd t -> handle_timeout c nd t cp = nd.
Proof.
  intros Hn. unfold handle_timeout. destruct (g_timeout_stale _ _ _ _ _ _) eqn:G; [reflexivity|].
  apply stale_false in G. contradiction.
Qed.

(** a live timeout of one of the shapes the state machine requests: the enter function it leads to
    takes the node beyond its step, or into the next round *)
Lemma handle_live c nd t cp :
  shape t -> 1 <= nS nd -> live nd t -> passed (handle_timeout c nd t cp) t.
Proof.
  intros (Hs & Hr1 & _) HS Hlive. unfold handle_timeout.
  rewrite (proj2 (stale_false nd t) Hlive). destruct Hlive as [Eh _]. usteps.
  destruct (N.eqb_spec (ti_s t) 1) as [E1|N1].
  { destruct (enter_new_round_hr c nd (ti_h t) 1 cp) as (A & _ & B).
    apply (le2_passed nd _ t 1 2 Eh A (B Eh HS)). clear - E1 Hr1. lia. }
  destruct (N.eqb_spec (ti_s t) 2) as [E2|N2].
  { destruct (enter_propose_hr nd (ti_h t) 1 cp) as (A & _ & B).
    apply (le2_passed nd _ t 1 3 Eh A (B Eh)). clear - E2 Hr1. lia. }
  destruct (N.eqb_spec (ti_s t) 3) as [E3|N3].
  { destruct (enter_plain_hr 4 nd (ti_h t) (ti_r t)) as (A & _ & B).
    apply (le2_passed nd _ t (ti_r t) 4 Eh A (B Eh)). clear - E3. lia. }
  destruct (enter_plain_hr 6 nd (ti_h t) (ti_r t)) as (A6 & _ & B6).
  destruct (N.eqb_spec (ti_s t) 5) as [E5|N5].
  { apply (le2_passed nd _ t (ti_r t) 6 Eh A6 (B6 Eh)). clear - E5. lia. }
  destruct (N.eqb_spec (ti_s t) 7) as [E7|N7]; [|clear - Hs N1 N2 N3 N5 N7; lia].
  (* enterPrecommit, then the next round *)
  destruct (enter_new_round_hr c (enter_precommit nd (ti_h t) (ti_r t)) (ti_h t) (ti_r t + 1) cp) as (A & _ & B).
  assert (HS6 : 1 <= nS (enter_precommit nd (ti_h t) (ti_r t))).
  { unfold enter_precommit. destruct (g_step _ _ _ _ _ _); [exact HS|discriminate]. }
  apply (le2_passed nd _ t (ti_r t + 1) 2 Eh (eq_trans A A6) (B (eq_trans Eh (eq_sym A6)) HS6)). clear. lia.
Qed.

(** once handled, a timeout in flight is behind the node *)
Lemma handle_passed c nd t cp :
  shape t -> le_hr t nd -> 1 <= nS nd -> passed (handle_timeout c nd t cp) t.
Proof.
  intros Hsh Hle HS. destruct (g_timeout_stale (nH nd) (nR nd) (nS nd) (ti_h t) (ti_r t) (ti_s t)) eqn:G.
  - assert (Hn : ~ live nd t) by (rewrite <- stale_false; congruence).
    rewrite (handle_stale_noop c nd t cp Hn). unfold live in Hn. unfold le_hr in Hle. unfold passed. clear - Hn Hle. lia.
  - apply handle_live; [exact Hsh|exact HS|apply stale_false; exact G].
Qed.

Lemma apply_inv c nd e : NInv c nd -> NInv c (apply c nd e).
Proof.
  intros HI. pose proof (i_S _ _ HI) as [HS _].
  destruct e as [|k cp|vr maj gopc any polcase cp|vr maj nonnil any hasall hb cp|hasall cp|cp has23 hb]; cbn [apply].
  - (* the timer fires *)
    destruct (pending (nTk nd)) as [t|] eqn:Ep; [|exact HI].
    destruct HI as [HS' HR' Hpend Hshape Hle Htocks Hcover Htrig Hwait].
    assert (Et : t = last (nTk nd)).
    { destruct Hpend as [H|H]; rewrite H in Ep; [discriminate|inversion Ep; reflexivity]. }
    subst t. cbn [step]. rewrite Ep. cbn [fst].
    constructor; cbn [nH nR nS nTrig nTk nTocks last pending]; try assumption.
    + left; reflexivity.
    + apply Forall_app. split; [exact Htocks|]. constructor; [split; assumption|constructor].
    + right. left. apply in_or_app. right. left. reflexivity.
  - (* a timeout in flight is handled *)
    destruct (nth_error (nTocks nd) k) as [t|] eqn:Ek; [|exact HI].
    destruct (nth_error_forall _ _ _ _ (i_tocks _ _ HI) Ek) as [Hsh Hle].
    pose proof (handle_timeout_inv c nd t cp HI Hle) as H1.
    pose proof (handle_timeout_tocks c nd t cp) as Etk.
    pose proof (handle_passed c nd t cp Hsh Hle HS) as Hpass.
    set (nd1 := handle_timeout c nd t cp) in *.
    destruct H1 as [HS1 HR1 Hpend Hshape Hle1 Htocks Hcover Htrig Hwait].
    constructor; cbn [set_tocks nH nR nS nTrig nTk nTocks]; try assumption.
    + apply forall_remove_nth. exact Htocks.
    + destruct Hcover as [H|[H|H]]; [left; exact H| |right; right; exact H].
      rewrite Etk in H. destruct (in_remove_nth _ _ _ _ H Ek) as [E|Hin].
      * right. right. rewrite E. exact Hpass.
      * right. left. rewrite Etk. exact Hin.
  - (* a prevote *)
    destruct (nS nd =? sCommit); [exact HI|].
    destruct ((nR nd <? vr) && any); [apply enter_new_round_inv; exact HI|].
    destruct (N.eqb_spec (nR nd) vr) as [<-|]; cbn [andb].
    + destruct (sPrevote <=? nS nd).
      * destruct (maj && gopc); [apply enter_precommit_inv; [exact HI|apply N.le_refl]|].
        destruct any; [apply enter_prevote_wait_inv; [exact HI|apply N.le_refl]|exact HI].
      * destruct (polcase && cp); [apply enter_prevote_inv; [exact HI|apply N.le_refl]|exact HI].
    + destruct (polcase && cp); [apply enter_prevote_inv; [exact HI|apply N.le_refl]|exact HI].
  - (* a precommit *)
    destruct (nS nd =? sCommit); [exact HI|].
    destruct maj.
    + pose proof (enter_new_round_inv c nd (nH nd) vr cp HI) as H1.
      destruct (enter_new_round_hr c nd (nH nd) vr cp) as [EH1 [_ Hr1]]. specialize (Hr1 eq_refl HS).
      set (nd1 := enter_new_round c nd (nH nd) vr cp) in *.
      assert (H2 : NInv c (enter_precommit nd1 (nH nd) vr)).
      { apply enter_precommit_inv; [exact H1|exact (le2_round _ _ _ _ Hr1)]. }
      destruct nonnil.
      * pose proof (enter_commit_inv c _ (nH nd) hb H2) as H3.
        destruct (skip_commit c && hasall); [apply enter_new_round_inv; exact H3|exact H3].
      * apply enter_precommit_wait_inv. exact H2.
    + destruct ((nR nd <=? vr) && any); [|exact HI].
      apply enter_precommit_wait_inv. apply enter_new_round_inv. exact HI.
  - (* a precommit of the previous height *)
    destruct ((nS nd =? sNewHeight) && skip_commit c && hasall); [apply enter_new_round_inv; exact HI|exact HI].
  - (* the proposal block is complete *)
    destruct ((nS nd <=? sPropose) && cp).
    + pose proof (enter_prevote_inv c nd (nH nd) (nR nd) HI (N.le_refl _)) as H1.
      destruct has23; [|exact H1]. apply enter_precommit_inv; [exact H1|].
      destruct (enter_plain_hr sPrevote nd (nH nd) (nR nd)) as (_ & _ & H). exact (le2_round _ _ _ _ (H eq_refl)).
    + destruct (nS nd =? sCommit); [|exact HI]. destruct hb; [apply finalize_inv; exact HI|exact HI].
Qed.

(** [1 <= h0]: EmptyTimeoutInfo is (0, 1, 1), so at height 0 the first NewHeight request (0, 1, 1) would be
    refused by the filter and the node would wait in NewHeight with nothing pending *)
Lemma init_inv c h0 : 1 <= h0 -> NInv c (init_node h0).
Proof.
  intros Hh. unfold init_node, schedule. cbn [nH nR nS nTrig nTk nTocks].
  assert (E : fst (step init (Schedule (mk_ti h0 1 sNewHeight))) = {| last := mk_ti h0 1 1; pending := Some (mk_ti h0 1 1) |}).
  { cbn [step init last]. unfold accepts, empty_ti, mk_ti, sNewHeight. cbn [ti_h ti_r ti_s].
    destruct (N.ltb_spec h0 0); [lia|]. destruct (N.eqb_spec h0 0); [lia|]. reflexivity. }
  rewrite E. usteps.
  constructor; unfold remembers, resting, shape, le_hr, passed; cbn [nH nR nS nTrig nTk nTocks last pending mk_ti ti_h ti_r ti_s];
    try (clear; lia); try (intros Ht; discriminate Ht).
  - right; reflexivity.
  - constructor.
  - left; reflexivity.
Qed.

Lemma run_node_inv c : forall evs nd, NInv c nd -> NInv c (run_node c nd evs).
Proof.
  induction evs as [|e evs IH]; intros nd HI; cbn [run_node fold_left]; [exact HI|].
  apply IH. apply apply_inv. exact HI.
Qed.

(** step NewRound is a resting state only in round 1 of a node that waits for transactions *)
Definition Rest2 (c : scfg) (nd : node) : Prop := nS nd = 2 -> nR nd = 1 /\ wait_for_txs c = true.

Lemma rest2_plain c k nd h r : k <> sNewRound -> Rest2 c nd -> Rest2 c (enter_plain k nd h r).
Proof.
  intros Hk H. unfold enter_plain. destruct (g_step _ _ _ _ _ _); [exact H|]. intros E. contradiction.
Qed.
Lemma rest2_prevote c nd h r : Rest2 c nd -> Rest2 c (enter_prevote nd h r).
Proof. rewrite enter_prevote_plain. apply rest2_plain. discriminate. Qed.
Lemma rest2_precommit c nd h r : Rest2 c nd -> Rest2 c (enter_precommit nd h r).
Proof. rewrite enter_precommit_plain. apply rest2_plain. discriminate. Qed.
Lemma rest2_prevote_wait c nd h r : Rest2 c nd -> Rest2 c (enter_prevote_wait nd h r).
Proof. intros H. unfold enter_prevote_wait. destruct (g_step _ _ _ _ _ _); [exact H|]. intros E. discriminate E. Qed.
Lemma rest2_precommit_wait c nd h r : Rest2 c nd -> Rest2 c (enter_precommit_wait nd h r).
Proof. intros H. unfold enter_precommit_wait. destruct (g_precommit_wait _ _ _ _ _); exact H. Qed.
Lemma rest2_finalize c nd : Rest2 c nd -> Rest2 c (finalize nd).
Proof. intros H. unfold finalize. destruct (nS nd =? sCommit); [|exact H]. intros E. discriminate E. Qed.
Lemma rest2_commit c nd h hb : Rest2 c nd -> Rest2 c (enter_commit nd h hb).
Proof.
  intros H. unfold enter_commit. destruct (g_commit _ _ _); [exact H|].
  destruct hb; [apply rest2_finalize|]; intros E; discriminate E.
Qed.
Lemma rest2_propose c nd h r cp : Rest2 c nd -> Rest2 c (enter_propose nd h r cp).
Proof.
  intros H. unfold enter_propose. destruct (g_step _ _ _ _ _ _); [exact H|].
  destruct cp; [apply rest2_prevote|]; intros E; discriminate E.
Qed.
Lemma rest2_new_round c nd h r cp : Rest2 c nd -> Rest2 c (enter_new_round c nd h r cp).
Proof.
  intros H. unfold enter_new_round. destruct (g_new_round _ _ _ _ _) eqn:G; [exact H|].
  apply g_new_round_false in G. destruct G as [<- _].
  destruct (wait_for_txs c && (r =? 1)) eqn:Ew.
  - apply andb_true_iff in Ew. destruct Ew as [Ew Er]. apply N.eqb_eq in Er.
    destruct (interval_pos c); intros _; split; assumption.
  - (* enterPropose right after updateRoundStep(round, NewRound) always enters *)
    unfold enter_propose. cbn [set_trig set_rs nH nR nS].
    rewrite (proj2 (g_step_false sPropose (nH nd) r sNewRound (nH nd) r)) by (split; [reflexivity|right; split; reflexivity]).
    destruct cp; [apply rest2_prevote|]; intros E; discriminate E.
Qed.

Lemma handle_timeout_rest2 c nd t cp : Rest2 c nd -> Rest2 c (handle_timeout c nd t cp).
Proof.
  intros H. unfold handle_timeout. destruct (g_timeout_stale _ _ _ _ _ _); [exact H|].
  destruct (ti_s t =? sNewHeight); [apply rest2_new_round; exact H|].
  destruct (ti_s t =? sNewRound); [apply rest2_propose; exact H|].
  destruct (ti_s t =? sPropose); [apply rest2_prevote; exact H|].
  destruct (ti_s t =? sPrevoteWait); [apply rest2_precommit; exact H|].
  destruct (ti_s t =? sPrecommitWait); [|exact H].
  apply rest2_new_round. apply rest2_precommit. exact H.
Qed.

Lemma apply_rest2 c nd e : Rest2 c nd -> Rest2 c (apply c nd e).
Proof.
  intros H.
  destruct e as [|k cp|vr maj gopc any polcase cp|vr maj nonnil any hasall hb cp|hasall cp|cp has23 hb]; cbn [apply].
  - destruct (pending (nTk nd)); exact H.
  - destruct (nth_error (nTocks nd) k); [|exact H]. exact (handle_timeout_rest2 c nd t cp H).
  - destruct (nS nd =? sCommit); [exact H|].
    destruct ((nR nd <? vr) && any); [apply rest2_new_round; exact H|].
    destruct ((nR nd =? vr) && (sPrevote <=? nS nd)).
    + destruct (maj && gopc); [apply rest2_precommit; exact H|].
      destruct any; [apply rest2_prevote_wait; exact H|exact H].
    + destruct (polcase && cp); [apply rest2_prevote; exact H|exact H].
  - destruct (nS nd =? sCommit); [exact H|].
    destruct maj.
    + destruct nonnil.
      * destruct (skip_commit c && hasall); [apply rest2_new_round|]; apply rest2_commit; apply rest2_precommit;
          apply rest2_new_round; exact H.
      * apply rest2_precommit_wait. apply rest2_precommit. apply rest2_new_round. exact H.
    + destruct ((nR nd <=? vr) && any); [|exact H]. apply rest2_precommit_wait. apply rest2_new_round. exact H.
  - destruct ((nS nd =? sNewHeight) && skip_commit c && hasall); [apply rest2_new_round; exact H|exact H].
  - destruct ((nS nd <=? sPropose) && cp).
    + destruct has23; [apply rest2_precommit|]; apply rest2_prevote; exact H.
    + destruct (nS nd =? sCommit); [|exact H]. destruct hb; [apply rest2_finalize; exact H|exact H].
Qed.

Lemma init_rest2 c h0 : Rest2 c (init_node h0).
Proof. intros E. discriminate E. Qed.

Lemma run_rest2 c : forall evs nd, Rest2 c nd -> Rest2 c (run_node c nd evs).
Proof.
  induction evs as [|e evs IH]; intros nd H; cbn [run_node fold_left]; [exact H|].
  apply IH. apply apply_rest2. exact H.
Qed.

Lemma wake c nd :
  NInv c nd -> Rest2 c nd -> waiting c nd ->
  exists t, (pending (nTk nd) = Some t \/ In t (nTocks nd)) /\ live nd t.
Proof.
  intros HI H2 Hw. exists (last (nTk nd)).
  assert (Hl : remembers nd (nS nd)).
  { unfold waiting in Hw. usteps. destruct Hw as [Hw|[Hw|[Hw|[[Hw Hi]|[Ht Hs]]]]].
    - apply (i_wait _ _ HI). left. exact Hw.
    - apply (i_wait _ _ HI). right. left. exact Hw.
    - apply (i_wait _ _ HI). right. right. left. exact Hw.
    - apply (i_wait _ _ HI). right. right. right. destruct (H2 Hw) as [Hr _]. auto.
    - destruct (i_trig _ _ HI Ht Hs) as (A & B & C). split; [exact A|split; [exact B|]]. clear - Hs C. lia. }
  destruct Hl as (A & B & C). split.
  - (* the node has not moved beyond a timeout it is still waiting for *)
    destruct (i_cover _ _ HI) as [H|[H|H]]; [left; exact H|right; exact H|].
    exfalso. unfold passed in H. rewrite A, B in H. clear - H C. lia.
  - unfold live. rewrite A, B. split; [reflexivity|right; split; [reflexivity|exact C]].
Qed.

(** NO TIMEOUT IS LOST: after any sequence of events of a node started at height h0, if the node is in
    a waiting state then a timeout is pending in its ticker or in flight to its receive routine that
    handleTimeout will not ignore *)
Theorem timeout_never_lost c h0 evs :
  1 <= h0 ->
  let nd := run_node c (init_node h0) evs in
  waiting c nd -> exists t, (pending (nTk nd) = Some t \/ In t (nTocks nd)) /\ live nd t.
Proof.
  intros Hh nd Hw. apply (wake c nd); [| |exact Hw].
  - apply run_node_inv. apply init_inv. exact Hh.
  - apply run_rest2. apply init_rest2.
Qed.

(** ... and when that timeout reaches handleTimeout the node moves strictly forward in
    (height, round, step); a timeout that is not live changes nothing *)
Theorem timeout_handled_progress c h0 evs t cp :
  1 <= h0 ->
  let nd := run_node c (init_node h0) evs in
  (pending (nTk nd) = Some t \/ In t (nTocks nd)) ->
  (live nd t -> st_lt nd (handle_timeout c nd t cp)) /\
  (~ live nd t -> handle_timeout c nd t cp = nd).
Proof.
  intros Hh nd Hin.
  assert (HI : NInv c nd) by (apply run_node_inv; apply init_inv; exact Hh).
  assert (Hsh : shape t).
  { destruct Hin as [Hp|Hin].
    - destruct (i_pend _ _ HI) as [H|H]; rewrite H in Hp; [discriminate|]. inversion Hp; subst t. apply (i_shape _ _ HI).
    - exact (proj1 (proj1 (Forall_forall _ _) (i_tocks _ _ HI) t Hin)). }
  split; [|apply handle_stale_noop].
  intros Hl. apply (live_passed_lt nd _ t Hl). apply handle_live; [exact Hsh|apply (i_S _ _ HI)|exact Hl].
Qed.

Theorem new_round_rest c h0 evs :
  let nd := run_node c (init_node h0) evs in nS nd = sNewRound -> nR nd = 1 /\ wait_for_txs c = true.
Proof. intros nd. exact (run_rest2 c evs (init_node h0) (init_rest2 c h0)). Qed.

(** non-vacuity: a node that waits for transactions (positive interval): NewHeight timeout, NewRound
    timeout, Propose timeout, +2/3-any prevotes, PrevoteWait timeout, +2/3-any precommits,
    PrecommitWait timeout: round 2, step Propose, the Propose timeout of round 2 pending *)
Example ex_skeleton :
  let c := {| create_empty := true; interval_pos := true; skip_commit := false |} in
  let nd := run_node c (init_node 1)
     [EvFire; EvTock 0 false; EvFire; EvTock 0 false; EvFire; EvTock 0 false;
      EvPrevote 1 false false true false false; EvFire; EvTock 0 false;
      EvPrecommit 1 false false true false false false; EvFire; EvTock 0 false] in
  (nH nd, nR nd, nS nd, nTrig nd, pending (nTk nd)) = (1, 2, 3, false, Some (mk_ti 1 2 3)).
Proof. vm_compute. reflexivity. Qed.
