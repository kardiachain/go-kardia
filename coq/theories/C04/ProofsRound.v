(** C04 — a good round commits.  Abstract level (the decision rules of doPrevote, enterPrecommit and
    enterCommit/tryFinalizeCommit of consensus/state.go as functions, vote sets as "the counted
    vote of each validator", voting power from C01/Power.v): if the correct validators hold more
    than two thirds of the power, all of them have the same valid proposal block b before they
    prevote, none of them is locked on another block, and they receive each other's prevotes and
    precommits, then every one of them prevotes b, sees a polka for b and for nothing else,
    precommits b, and satisfies the commit condition for b and for nothing else — whatever the
    other validators send, in whatever order.

    The vote-set and decision-rule definitions ([voteset], [maj23], [do_prevote], [do_precommit], [commits],
    [has_correct_votes]) live here; C04/Open.v, C04/LockModel.v and their proofs are built on them. *)
From Coq Require Import List ZArith Arith Bool Lia.
From Kardia Require Import C01.Power.
Import ListNotations.
Local Open Scope Z_scope.

Section GoodRound.
Variable powers : list Z.
Hypothesis powers_nonneg : Forall (fun p => 0 <= p) powers.
Variable B : Type.
Variable B_eq_dec : forall x y : B, {x = y} + {x <> y}.

Notation total := (Power.total powers).
Notation pw := (Power.pw powers).

Definition val_eqb (x y : option B) : bool :=
  match x, y with
  | None, None => true
  | Some a, Some b => if B_eq_dec a b then true else false
  | _, _ => false
  end.
Lemma val_eqb_eq x y : val_eqb x y = true <-> x = y.
Proof.
  destruct x as [a|], y as [b|]; simpl; try (split; discriminate); try tauto.
  destruct (B_eq_dec a b) as [->|Hne]; split; auto; try discriminate. intros H; inversion H; contradiction.
Qed.

(** a vote set of one (round, type) as a node holds it: the vote counted for each validator index
    (types.VoteSet counts one vote per validator), [None] = nothing received from it *)
Definition voteset := nat -> option (option B).
Definition voted_for (vs : voteset) (x : option B) (i : nat) : bool :=
  match vs i with Some y => val_eqb y x | None => false end.
Definition maj23 (vs : voteset) (x : option B) : Prop := 2 * total < 3 * pw (voted_for vs x).

Lemma voted_for_true vs x i : voted_for vs x i = true <-> vs i = Some x.
Proof.
  unfold voted_for. destruct (vs i) as [z|]; [rewrite val_eqb_eq|]; split; congruence.
Qed.

Lemma pw_meet_witness (X Y : nat -> bool) :
  total < pw X + pw Y -> exists i, (i < Power.n powers)%nat /\ X i = true /\ Y i = true.
Proof.
  intros H. apply (pw_meet powers powers_nonneg) in H. apply (pw_pos_witness powers) in H.
  destruct H as [i [Hi Hb]]. apply andb_true_iff in Hb. exists i. split; [exact Hi|exact Hb].
Qed.

Lemma total_nonneg : 0 <= total.
Proof. unfold Power.total. apply pw_nonneg. assumption. Qed.

Lemma maj23_voter vs x : maj23 vs x -> exists i, (i < Power.n powers)%nat /\ vs i = Some x.
Proof.
  unfold maj23. intros H. pose proof total_nonneg as Ht.
  destruct (pw_pos_witness powers (voted_for vs x)) as [i [Hi Hv]]; [lia|].
  exists i. split; [exact Hi|apply voted_for_true; exact Hv].
Qed.

Lemma maj23_unique vs x y : maj23 vs x -> maj23 vs y -> x = y.
Proof.
  unfold maj23. intros Hx Hy.
  assert (Ht : pw (voted_for vs x) <= total) by (apply pw_le_total; assumption).
  destruct (pw_meet_witness (voted_for vs x) (voted_for vs y)) as (i & _ & H1 & H2); [lia|].
  apply voted_for_true in H1. apply voted_for_true in H2. congruence.
Qed.

(** doPrevote: the locked block if any, else the proposal block if it is there and valid, else nil *)
Definition do_prevote (valid : B -> bool) (locked pblock : option B) : option B :=
  match locked with
  | Some l => Some l
  | None => match pblock with
            | Some p => if valid p then Some p else None
            | None => None
            end
  end.

(** enterPrecommit: nil without a polka or on a nil polka; the polka block when it is the locked
    block or the (valid) proposal block; nil (and unlock) on a polka for a block the node does not have *)
Definition do_precommit (polka : option (option B)) (locked pblock : option B) : option B :=
  match polka with
  | None => None
  | Some None => None
  | Some (Some b) =>
    if val_eqb locked (Some b) then Some b
    else if val_eqb pblock (Some b) then Some b else None
  end.

(** enterCommit / tryFinalizeCommit: the block is committed in this round when +2/3 precommitted it
    and the node has it *)
Definition commits (precommits : voteset) (pblock : option B) (b : B) : Prop :=
  maj23 precommits (Some b) /\ pblock = Some b.

Variable correct : nat -> bool.
Hypothesis correct_quorum : 2 * total < 3 * pw correct.

(** a vote set that contains the vote [v i] of every correct validator i (and anything from the others) *)
Definition has_correct_votes (vs : voteset) (v : nat -> option B) : Prop :=
  forall i, (i < Power.n powers)%nat -> correct i = true -> vs i = Some (v i).

Lemma correct_votes_maj23 vs v x :
  has_correct_votes vs v -> (forall i, correct i = true -> v i = x) -> maj23 vs x.
Proof.
  intros Hvs Hv. unfold maj23.
  assert (H : pw correct <= pw (voted_for vs x)).
  { apply pw_mono; [assumption|]. intros i Hi Hc. apply voted_for_true. rewrite (Hvs i Hi Hc), (Hv i Hc). reflexivity. }
  lia.
Qed.

Variable valid : B -> bool.
Variable b : B.
Hypothesis b_valid : valid b = true.
(** per correct node: its lock and its proposal block when it prevotes *)
Variable locked : nat -> option B.
Variable pblock : nat -> option B.
Hypothesis have_block : forall i, correct i = true -> pblock i = Some b.
Hypothesis lock_compatible : forall i, correct i = true -> locked i = None \/ locked i = Some b.

Lemma good_prevote i : correct i = true -> do_prevote valid (locked i) (pblock i) = Some b.
Proof.
  intros Hc. unfold do_prevote. destruct (lock_compatible i Hc) as [->| ->]; [|reflexivity].
  rewrite (have_block i Hc), b_valid. reflexivity.
Qed.

(** the prevote and precommit sets of each node (indexed by the node) *)
Variable prevotes precommits : nat -> voteset.
Hypothesis prevotes_delivered : forall j, correct j = true ->
  has_correct_votes (prevotes j) (fun i => do_prevote valid (locked i) (pblock i)).

(** every correct node sees a polka for b and for nothing else *)
Lemma good_polka j : correct j = true ->
  maj23 (prevotes j) (Some b) /\ forall y, maj23 (prevotes j) y -> y = Some b.
Proof.
  intros Hc. assert (H : maj23 (prevotes j) (Some b)).
  { eapply correct_votes_maj23; [apply prevotes_delivered; exact Hc|]. intros i Hi. apply good_prevote; exact Hi. }
  split; [exact H|]. intros y Hy. eapply maj23_unique; eauto.
Qed.

(** so its precommit is for b (the lock moves to b in this round) *)
Lemma good_precommit j : correct j = true ->
  do_precommit (Some (Some b)) (locked j) (pblock j) = Some b.
Proof.
  intros Hc. unfold do_precommit. rewrite (have_block j Hc).
  assert (E : val_eqb (Some b) (Some b) = true) by (apply val_eqb_eq; reflexivity).
  rewrite E. destruct (val_eqb (locked j) (Some b)); reflexivity.
Qed.

Hypothesis precommits_delivered : forall j, correct j = true ->
  has_correct_votes (precommits j) (fun i => do_precommit (Some (Some b)) (locked i) (pblock i)).

(** GOOD ROUND: every correct node prevotes b, precommits b and fulfils the commit condition for b
    and for no other value *)
Theorem good_round j : correct j = true ->
  do_prevote valid (locked j) (pblock j) = Some b /\
  (maj23 (prevotes j) (Some b) /\ forall y, maj23 (prevotes j) y -> y = Some b) /\
  do_precommit (Some (Some b)) (locked j) (pblock j) = Some b /\
  commits (precommits j) (pblock j) b /\
  (forall y, maj23 (precommits j) y -> y = Some b).
Proof.
  intros Hc. split; [apply good_prevote; exact Hc|]. split; [apply good_polka; exact Hc|].
  split; [apply good_precommit; exact Hc|].
  assert (H : maj23 (precommits j) (Some b)).
  { eapply correct_votes_maj23; [apply precommits_delivered; exact Hc|]. intros i Hi. apply good_precommit; exact Hi. }
  split; [split; [exact H|apply have_block; exact Hc]|].
  intros y Hy. eapply maj23_unique; eauto.
Qed.

End GoodRound.

(** the hypotheses are satisfiable: four validators of power 1, validators 0..2 correct and
    unlocked, validator 3 sends conflicting votes *)
Example ex_good_round :
  let powers := [1; 1; 1; 1] in
  let correct := fun i => Nat.ltb i 3 in
  let vs : nat -> voteset nat := fun _ i => if Nat.ltb i 3 then Some (Some 7%nat) else Some (Some 8%nat) in
  commits powers nat Nat.eq_dec (vs 0%nat) (Some 7%nat) 7%nat.
Proof.
  intros powers correct vs.
  assert (Hp : Forall (fun p => 0 <= p) powers) by (repeat constructor; lia).
  assert (Hq : 2 * Power.total powers < 3 * Power.pw powers correct) by (vm_compute; reflexivity).
  refine (proj1 (proj2 (proj2 (proj2 (good_round powers Hp nat Nat.eq_dec correct Hq (fun _ => true) 7%nat eq_refl
     (fun _ => None) (fun _ => Some 7%nat) (fun _ _ => eq_refl) (fun _ _ => or_introl eq_refl) vs vs _ _ 0%nat eq_refl))))).
  - intros j _ i Hi Hc. unfold vs. unfold correct in Hc. rewrite Hc. reflexivity.
  - intros j _ i Hi Hc. unfold vs. unfold correct in Hc. rewrite Hc. reflexivity.
Qed.
