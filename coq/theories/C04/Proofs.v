(** C04 — the ticker never loses the latest timeout: proofs about C04/Model.v. *)
From Coq Require Import NArith List Lia.
From Kardia Require Import C04.Model.
Import ListNotations.
Local Open Scope N_scope.

(** lexicographic order on (height, round, step) *)
Definition lt3 (a b : tinfo) : Prop :=
  ti_h a < ti_h b \/ (ti_h a = ti_h b /\ (ti_r a < ti_r b \/ (ti_r a = ti_r b /\ ti_s a < ti_s b))).
Definition eq3 (a b : tinfo) : Prop := ti_h a = ti_h b /\ ti_r a = ti_r b /\ ti_s a = ti_s b.
Definition le3 (a b : tinfo) : Prop := lt3 a b \/ eq3 a b.

Lemma eq3_eq a b : eq3 a b -> a = b.
Proof. destruct a, b; unfold eq3; simpl; intros [-> [-> ->]]; reflexivity. Qed.

Lemma le3_refl a : le3 a a.
Proof. right; unfold eq3; auto. Qed.

Lemma lt3_trans a b c : lt3 a b -> lt3 b c -> lt3 a c.
Proof. unfold lt3; lia. Qed.
Lemma le3_lt3_trans a b c : le3 a b -> lt3 b c -> lt3 a c.
Proof. unfold le3, lt3, eq3; lia. Qed.
Lemma le3_trans a b c : le3 a b -> le3 b c -> le3 a c.
Proof. unfold le3, lt3, eq3; lia. Qed.
Lemma lt3_le3 a b : lt3 a b -> le3 a b.
Proof. left; assumption. Qed.
Lemma lt3_irrefl a : ~ lt3 a a.
Proof. unfold lt3; lia. Qed.
Lemma not_lt3_le3 a b : ~ lt3 a b -> le3 b a.
Proof. unfold le3, lt3, eq3; lia. Qed.

(** the filter is exactly "strictly later" once the remembered step is positive (it always is:
    EmptyTimeoutInfo has step 1 and every RoundStepType is at least 1) *)
Lemma accepts_iff ti t : 0 < ti_s ti -> (accepts ti t = true <-> lt3 ti t).
Proof.
  intros Hs. unfold accepts, lt3.
  destruct (N.ltb_spec (ti_h t) (ti_h ti)) as [H1|H1]; [split; [discriminate|lia]|].
  destruct (N.eqb_spec (ti_h t) (ti_h ti)) as [H2|H2]; [|split; [lia|reflexivity]].
  destruct (N.ltb_spec (ti_r t) (ti_r ti)) as [H3|H3]; [split; [discriminate|lia]|].
  destruct (N.eqb_spec (ti_r t) (ti_r ti)) as [H4|H4]; [|split; [lia|reflexivity]].
  destruct (N.ltb_spec 0 (ti_s ti)) as [H5|H5]; [|lia].
  destruct (N.leb_spec (ti_s t) (ti_s ti)) as [H6|H6]; cbn [andb]; split; try discriminate; try lia; reflexivity.
Qed.

(** the quirk: with a remembered step 0 the same (height, round) is accepted again whatever the step *)
Lemma accepts_step0 ti t :
  ti_s ti = 0 -> ti_h t = ti_h ti -> ti_r t = ti_r ti -> accepts ti t = true.
Proof.
  intros Hs Hh Hr. unfold accepts. rewrite Hh, Hr, Hs, !N.ltb_irrefl, !N.eqb_refl. reflexivity.
Qed.

Definition pos_step (t : tinfo) : Prop := 0 < ti_s t.

Lemma step_schedule k t : pos_step (last k) ->
  (lt3 (last k) t /\ step k (Schedule t) = ({| last := t; pending := Some t |}, Acc)) \/
  (le3 t (last k) /\ step k (Schedule t) = (k, Ign)).
Proof.
  intros Hp. cbn [step]. destruct (accepts (last k) t) eqn:E.
  - left. split; [apply (accepts_iff (last k) t Hp); exact E|reflexivity].
  - right. split; [|reflexivity]. apply not_lt3_le3. intros Hlt. apply (accepts_iff (last k) t Hp) in Hlt. congruence.
Qed.

(** invariant of the ticker with respect to the requests seen so far *)
Record TInv (k : ticker) (hist : list tinfo) : Prop := {
  inv_pos : pos_step (last k);
  inv_pending : pending k = None \/ pending k = Some (last k);
  inv_from : last k = empty_ti \/ In (last k) hist;
  inv_max : Forall (fun t => le3 t (last k)) hist
}.

Lemma TInv_init : TInv init [].
Proof.
  constructor; simpl; auto. unfold pos_step; simpl; lia.
Qed.

Lemma TInv_step k hist o :
  TInv k hist -> (forall t, o = Schedule t -> pos_step t) ->
  TInv (fst (step k o)) (hist ++ match o with Schedule t => [t] | Fire => [] end).
Proof.
  intros [Hpos Hpend Hfrom Hmax] Ho. destruct o as [t|].
  - destruct (step_schedule k t Hpos) as [[E ->]|[Hle ->]]; cbn [fst].
    + constructor; cbn [last pending]; auto.
      * right. apply in_or_app. right. left. reflexivity.
      * apply Forall_app. split.
        -- eapply Forall_impl; [|exact Hmax]. intros a Ha. cbn beta. apply lt3_le3. exact (le3_lt3_trans _ _ _ Ha E).
        -- constructor; [apply le3_refl|constructor].
    + constructor; auto.
      * destruct Hfrom as [Hf|Hf]; [left; exact Hf|right; apply in_or_app; left; exact Hf].
      * apply Forall_app. split; [exact Hmax|]. constructor; [exact Hle|constructor].
  - rewrite app_nil_r. cbn [step]. destruct (pending k) as [p|] eqn:Ep; cbn [fst].
    + constructor; cbn [last pending]; auto.
    + constructor; auto.
Qed.

Lemma run_fst_cons k o ops : fst (run k (o :: ops)) = fst (run (fst (step k o)) ops).
Proof. cbn [run]. destruct (step k o) as [k1 ob]. cbn [fst]. destruct (run k1 ops). reflexivity. Qed.

Lemma TInv_run : forall ops k hist,
  TInv k hist -> Forall pos_step (scheduled ops) -> TInv (fst (run k ops)) (hist ++ scheduled ops).
Proof.
  induction ops as [|o ops IH]; intros k hist Hinv Hpos; [cbn [run scheduled fst]; rewrite app_nil_r; exact Hinv|].
  rewrite run_fst_cons.
  replace (hist ++ scheduled (o :: ops)) with ((hist ++ match o with Schedule t => [t] | Fire => [] end) ++ scheduled ops)
    by (rewrite <- app_assoc; destruct o; reflexivity).
  apply IH.
  - apply TInv_step; [exact Hinv|]. intros t ->. cbn [scheduled] in Hpos. inversion Hpos; assumption.
  - destruct o; cbn [scheduled] in Hpos; [inversion Hpos; assumption|exact Hpos].
Qed.

Lemma TInv_reach ops : Forall pos_step (scheduled ops) -> TInv (fst (run init ops)) (scheduled ops).
Proof. exact (TInv_run ops init [] TInv_init). Qed.

(** after any sequence of requests and firings: the pending timeout (if any) is the remembered one,
    it was requested (or is the initial one), and it is the latest of all requests in
    (height, round, step) order *)
Theorem ticker_latest ops :
  Forall pos_step (scheduled ops) ->
  let k := fst (run init ops) in
  (forall p, pending k = Some p -> p = last k) /\
  (last k = empty_ti \/ In (last k) (scheduled ops)) /\
  Forall (fun t => le3 t (last k)) (scheduled ops).
Proof.
  intros Hpos k. destruct (TInv_reach ops Hpos) as [_ Hpend Hfrom Hmax]. fold k in Hpend, Hfrom, Hmax.
  split; [|split; assumption].
  intros p Hp. destruct Hpend as [H|H]; rewrite H in Hp; [discriminate|inversion Hp; reflexivity].
Qed.

(** a request later than everything requested before is never refused, and becomes the pending one *)
Theorem ticker_newer_accepted ops t :
  Forall pos_step (scheduled ops) ->
  lt3 empty_ti t -> Forall (fun t' => lt3 t' t) (scheduled ops) ->
  step (fst (run init ops)) (Schedule t) = ({| last := t; pending := Some t |}, Acc).
Proof.
  intros Hpos H0 Hall. destruct (TInv_reach ops Hpos) as [Hp _ Hfrom _].
  set (k := fst (run init ops)) in *.
  assert (Hlt : lt3 (last k) t).
  { destruct Hfrom as [->|Hin]; [exact H0|]. rewrite Forall_forall in Hall. apply Hall. exact Hin. }
  destruct (step_schedule k t Hp) as [[_ E]|[Hle _]]; [exact E|].
  exfalso. exact (lt3_irrefl _ (le3_lt3_trans _ _ _ Hle Hlt)).
Qed.

(** a refused request is covered: a timeout at least as late was accepted before (it is pending or
    has fired) *)
Theorem ticker_refusal_covered ops t :
  Forall pos_step (scheduled ops) ->
  snd (step (fst (run init ops)) (Schedule t)) = Ign ->
  le3 t (last (fst (run init ops))) /\
  (last (fst (run init ops)) = empty_ti \/ In (last (fst (run init ops))) (scheduled ops)).
Proof.
  intros Hpos Hign. destruct (TInv_reach ops Hpos) as [Hp _ Hfrom _]. split; [|exact Hfrom].
  destruct (step_schedule _ t Hp) as [[_ E]|[Hle _]]; [|exact Hle]. rewrite E in Hign. discriminate Hign.
Qed.

(** the timeout that fires is the pending one, i.e. the latest accepted request *)
Theorem ticker_fire ops t :
  Forall pos_step (scheduled ops) ->
  snd (step (fst (run init ops)) Fire) = Fired t ->
  t = last (fst (run init ops)) /\ Forall (fun t' => le3 t' t) (scheduled ops).
Proof.
  intros Hpos Hf. destruct (ticker_latest ops Hpos) as [H1 [_ H3]].
  set (k := fst (run init ops)) in *. cbn [step] in Hf.
  destruct (pending k) as [p|] eqn:E; cbn [snd] in Hf; [|discriminate].
  inversion Hf; subst p. rewrite (H1 t eq_refl). split; [reflexivity|exact H3].
Qed.

(** non-vacuity: the timeouts of one round in the order the state machine requests them, including
    a refused late PrevoteWait after PrecommitWait *)
Example ex_round :
  snd (run init [Schedule {| ti_h := 1; ti_r := 1; ti_s := 1 |}; Fire;
                 Schedule {| ti_h := 1; ti_r := 1; ti_s := 3 |};
                 Schedule {| ti_h := 1; ti_r := 1; ti_s := 7 |};
                 Schedule {| ti_h := 1; ti_r := 1; ti_s := 5 |}; Fire;
                 Schedule {| ti_h := 1; ti_r := 2; ti_s := 3 |}])
  = [Acc; Fired {| ti_h := 1; ti_r := 1; ti_s := 1 |}; Acc; Acc; Ign;
     Fired {| ti_h := 1; ti_r := 1; ti_s := 7 |}; Acc].
Proof. vm_compute. reflexivity. Qed.
