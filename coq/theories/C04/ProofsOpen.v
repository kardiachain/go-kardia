(** C04 — about the statements of C04/Open.v:
    - [polka_of] exists: a computable function that returns the +2/3 value of a vote set (so the hypothesis
      [polka_of_spec] of Open.v / ProofsLock.v is satisfiable for every validator set);
    - the full statement AS WRITTEN in Open.v ([C04_liveness_full_statement]) is false: its [prefix_conf]
      lets two correct validators be locked on different blocks and its rounds deliver only the prevotes of
      the current round, so nothing ever releases those locks (in the code the polka of the later lock's
      round does, once its prevotes are delivered: addVote, "Unlocking because of POL"); computed witness;
    - an instance of the liveness theorem of C04/ProofsLock.v (its hypotheses are satisfiable). *)
From Coq Require Import List ZArith Arith Bool Lia.
From Kardia Require Import C01.Power C04.ProofsRound C04.Open C04.LockModel C04.ProofsLock.
Import ListNotations.
Local Open Scope Z_scope.

Section PolkaOf.
Variable powers : list Z.
Hypothesis powers_nonneg : Forall (fun p => 0 <= p) powers.
Variable B : Type.
Variable B_eq_dec : forall x y : B, {x = y} + {x <> y}.

Notation maj23 := (maj23 powers B B_eq_dec).

Definition is_maj23 (vs : voteset B) (y : option B) : bool :=
  2 * Power.total powers <? 3 * Power.pw powers (voted_for B B_eq_dec vs y).

(** the value voted by the first validator (below k) whose value has +2/3 *)
Fixpoint find_polka (k : nat) (vs : voteset B) : option (option B) :=
  match k with
  | O => None
  | S k' =>
    match find_polka k' vs with
    | Some y => Some y
    | None => match vs k' with
              | Some y => if is_maj23 vs y then Some y else None
              | None => None
              end
    end
  end.

Definition polka_fn (vs : voteset B) : option (option B) := find_polka (Power.n powers) vs.

Lemma is_maj23_iff vs y : is_maj23 vs y = true <-> maj23 vs y.
Proof. unfold is_maj23, ProofsRound.maj23. apply Z.ltb_lt. Qed.

Lemma find_polka_sound k vs y : find_polka k vs = Some y -> maj23 vs y.
Proof.
  induction k as [|k IH]; cbn [find_polka]; [discriminate|].
  destruct (find_polka k vs) as [z|]; [intros E; inversion E; subst; apply IH; reflexivity|].
  destruct (vs k) as [z|]; [|discriminate].
  destruct (is_maj23 vs z) eqn:Em; [|discriminate]. intros E; inversion E; subst. apply is_maj23_iff. exact Em.
Qed.

Lemma find_polka_some k vs i y :
  (i < k)%nat -> vs i = Some y -> maj23 vs y -> exists z, find_polka k vs = Some z.
Proof.
  induction k as [|k IH]; intros Hi Hv Hm; [lia|]. cbn [find_polka].
  destruct (find_polka k vs) as [z|] eqn:Ef; [exists z; reflexivity|].
  destruct (Nat.eq_dec i k) as [->|Hne].
  - rewrite Hv. apply is_maj23_iff in Hm. rewrite Hm. exists y. reflexivity.
  - destruct (IH ltac:(lia) Hv Hm) as [z Hz]. discriminate.
Qed.

Theorem polka_fn_spec vs y : polka_fn vs = Some y <-> maj23 vs y.
Proof.
  split; [apply find_polka_sound|]. intros Hm.
  destruct (maj23_voter powers powers_nonneg B B_eq_dec vs y Hm) as [i [Hi Hv]].
  destruct (find_polka_some (Power.n powers) vs i y Hi Hv Hm) as [z Hz].
  unfold polka_fn. rewrite Hz. f_equal.
  apply (maj23_unique powers powers_nonneg B B_eq_dec vs z y); [apply find_polka_sound with (k := Power.n powers); exact Hz|exact Hm].
Qed.

End PolkaOf.

Definition w_powers : list Z := [1; 1; 1; 1].
Definition w_correct (i : nat) : bool := Nat.ltb i 3.
Definition w_valid (_ : nat) : bool := true.
Definition w_proposer (_ : nat) : nat := 2%nat.
Definition w_polka := polka_fn w_powers nat Nat.eq_dec.

(** validator 0 locked on block 1, validator 1 locked on block 2 (both in round 0), validator 2 unlocked *)
Definition w_conf : conf nat := fun i =>
  match i with
  | O => {| locked := Some (1%nat, O); validb := Some (1%nat, O) |}
  | S O => {| locked := Some (2%nat, O); validb := Some (2%nat, O) |}
  | _ => {| locked := None; validb := None |}
  end.
Definition w_none : nat -> option nat := fun _ => None.

Lemma w_nonneg : Forall (fun p => 0 <= p) w_powers.
Proof. repeat constructor; lia. Qed.

(** every synchronous round from [w_conf] ends in [w_conf] without a decision: the correct proposer (it has
    no valid block) proposes block 3; the prevotes are 1, 2, 3: no polka; everybody precommits nil *)
Lemma w_round r :
  sync_round w_powers nat Nat.eq_dec w_correct w_valid w_proposer w_polka r w_conf w_conf w_none.
Proof.
  set (shown := fun _ : nat => Some 3%nat).
  set (PV := fun i : nat => if Nat.ltb i 3 then Some (do_prevote nat w_valid (lock_block nat (w_conf i)) (shown i)) else None).
  set (PC := fun i : nat => if Nat.ltb i 3 then Some (@None nat) else None).
  assert (Ep : w_polka PV = None) by (vm_compute; reflexivity).
  exists shown, (fun _ => PV), (fun _ => PC).
  refine (conj _ (conj _ (conj _ (conj _ _)))).
  - intros _. exists 3%nat. split; [reflexivity|]. intros i _. reflexivity.
  - intros j _ i _ Hc. unfold PV. unfold w_correct in Hc. rewrite Hc. reflexivity.
  - intros j _ i _ Hc. unfold PC. unfold w_correct in Hc. rewrite Hc. rewrite Ep. reflexivity.
  - intros i _. rewrite Ep. repeat split; try discriminate; intros; discriminate.
  - intros i b _. split; [discriminate|]. intros [Hm _]. exfalso.
    unfold maj23 in Hm. vm_compute in Hm. discriminate.
Qed.

Lemma w_rounds : forall k r, sync_rounds w_powers nat Nat.eq_dec w_correct w_valid w_proposer w_polka r (S k) w_conf w_none.
Proof.
  induction k as [|k IH]; intros r.
  - eapply sr_one. apply w_round.
  - eapply sr_more; [apply w_round|intros; reflexivity|apply IH].
Qed.

Lemma w_prefix : prefix_conf nat w_correct w_valid 1 w_conf.
Proof.
  intros i _. split.
  - intros b lr Hl. destruct i as [|[|i]]; cbn in Hl; try discriminate; inversion Hl; subst.
    + split; [reflexivity|]. split; [lia|]. exists 0%nat. split; [reflexivity|lia].
    + split; [reflexivity|]. split; [lia|]. exists 0%nat. split; [reflexivity|lia].
  - intros b vr Hv. destruct i as [|[|i]]; cbn in Hv; try discriminate; inversion Hv; subst; (split; [reflexivity|lia]).
Qed.

Theorem liveness_full_statement_refuted : ~ C04_liveness_full_statement.
Proof.
  intros H.
  specialize (H w_powers w_nonneg nat Nat.eq_dec w_correct ltac:(vm_compute; reflexivity) w_valid w_proposer 1%nat).
  assert (Hrot : forall r, exists r', (r <= r' < r + 1)%nat /\ w_correct (w_proposer r') = true).
  { intros r. exists r. split; [lia|reflexivity]. }
  specialize (H Hrot w_polka (polka_fn_spec w_powers w_nonneg nat Nat.eq_dec)).
  destruct (H 1%nat w_conf w_prefix 4%nat w_none (w_rounds 3 1%nat) ltac:(cbn; lia)) as [i [b [_ Hd]]].
  discriminate.
Qed.

(** An instance of ProofsLock.suffix_decides: the same four validators, nobody locked, the three correct
    validators propose in turn; every round decides block 7 *)

Definition e_proposer (r : nat) : nat := Nat.modulo r 3.
Definition e_state (r : nat) : vstate nat := {| locked := Some (7%nat, r); validb := Some (7%nat, r) |}.
Definition e_cfs (k : nat) : conf nat := fun _ =>
  match k with O => {| locked := None; validb := None |} | S k' => e_state k' end.
Definition e_ds (_ : nat) (i : nat) : option nat := if Nat.ltb i 3 then Some 7%nat else None.

Lemma e_round k :
  shared_round w_powers nat Nat.eq_dec w_correct w_valid e_proposer w_polka (0 + k) (e_cfs k) (e_cfs (S k)) (e_ds k).
Proof.
  set (PV := fun i : nat => if Nat.ltb i 3 then Some (Some 7%nat) else None).
  assert (Hm : maj23 w_powers nat Nat.eq_dec PV (Some 7%nat)) by (vm_compute; reflexivity).
  assert (Ep : w_polka PV = Some (Some 7%nat)) by (apply (polka_fn_spec w_powers w_nonneg nat Nat.eq_dec); exact Hm).
  exists (fun _ => Some 7%nat), PV, PV, (fun _ => Some 7%nat).
  refine (conj _ (conj _ (conj _ (conj _ (conj _ _))))).
  - intros _. exists 7%nat. split; [|intros; reflexivity].
    unfold proposes. destruct k; cbn; reflexivity.
  - intros i _ Hc. unfold PV. unfold w_correct in Hc. rewrite Hc. destruct k; reflexivity.
  - intros i _ Hc. unfold PV. unfold w_correct in Hc. rewrite Hc. reflexivity.
  - intros i _. right. exists 7%nat. split; [exact Ep|reflexivity].
  - intros i _. rewrite Ep. unfold lock_step. cbn [orb].
    replace (val_eqb nat Nat.eq_dec (Some 7%nat) (Some 7%nat)) with true by reflexivity.
    rewrite orb_true_r. cbn [e_cfs e_state locked validb]. split; reflexivity.
  - intros i b Hc. unfold e_ds. unfold w_correct in Hc. rewrite Hc. split.
    + intros E. inversion E; subst. split; [exact Hm|reflexivity].
    + intros [_ E]. inversion E. reflexivity.
Qed.

Example ex_suffix_decides :
  exists k x, (k < 2 * 3)%nat /\ forall i, w_correct i = true -> e_ds k i = Some x.
Proof.
  apply (suffix_decides w_powers w_nonneg nat Nat.eq_dec w_correct ltac:(vm_compute; reflexivity)
           ltac:(intros i Hi; unfold w_correct in Hi; apply Nat.ltb_lt in Hi; cbn; lia) w_valid e_proposer w_polka
           (polka_fn_spec w_powers w_nonneg nat Nat.eq_dec) 0%nat e_cfs e_ds e_round).
  - split.
    + intros i _. split; intros x Hx; discriminate.
    + intros i j x y _ _ Hx. discriminate.
  - intros i Hi r. unfold w_correct in Hi. apply Nat.ltb_lt in Hi.
    (* among r, r+1, r+2 one is congruent to i modulo 3 *)
    exists (r + Nat.modulo (i + 3 - Nat.modulo r 3) 3)%nat. unfold e_proposer.
    pose proof (Nat.mod_upper_bound (i + 3 - Nat.modulo r 3) 3 ltac:(lia)).
    split; [lia|].
    pose proof (Nat.mod_upper_bound r 3 ltac:(lia)) as Hr.
    pose proof (Nat.div_mod r 3 ltac:(lia)) as Er.
    set (m := Nat.modulo r 3) in *. set (q := Nat.div r 3) in *.
    destruct (Nat.le_gt_cases m i) as [Hle|Hgt].
    + assert (Em : Nat.modulo (i + 3 - m) 3 = (i - m)%nat).
      { replace (i + 3 - m)%nat with ((i - m) + 1 * 3)%nat by lia. rewrite Nat.mod_add by lia. apply Nat.mod_small. lia. }
      rewrite Em. replace (r + (i - m))%nat with (i + q * 3)%nat by lia. rewrite Nat.mod_add by lia. apply Nat.mod_small. lia.
    + assert (Em : Nat.modulo (i + 3 - m) 3 = (i + 3 - m)%nat) by (apply Nat.mod_small; lia).
      rewrite Em. replace (r + (i + 3 - m))%nat with (i + (q + 1) * 3)%nat by lia. rewrite Nat.mod_add by lia. apply Nat.mod_small. lia.
Qed.
