(** C04 — what WeightedMedian computes (C04/MedianModel.v [median_time], the code's `median <= weight` loop):
    the time of the earliest entry such that the entries with a time up to it weigh at least
    floor(total / 2).  This is the specification the harness checks directly (oracle median-spec). *)
From Coq Require Import List ZArith Lia Sorted.
From Kardia Require Import C04.MedianModel C04.ProofsMedian.
Import ListNotations.
Local Open Scope Z_scope.

(** weight of the entries with a time <= t *)
Definition cum_le (l : list wtime) (t : Z) : Z :=
  total_weight (filter (fun x => wt_time x <=? t) l).

Lemma cum_le_cons x l t : cum_le (x :: l) t = (if wt_time x <=? t then wt_weight x else 0) + cum_le l t.
Proof. unfold cum_le. cbn [filter]. destruct (wt_time x <=? t); rewrite ?total_weight_cons; reflexivity. Qed.

Lemma cum_le_insert x l t : cum_le (insert_wt x l) t = (if wt_time x <=? t then wt_weight x else 0) + cum_le l t.
Proof.
  induction l as [|z r IH]; cbn [insert_wt]; [apply cum_le_cons|].
  destruct (wt_time x <=? wt_time z); [apply cum_le_cons|]. rewrite !cum_le_cons, IH. lia.
Qed.

Lemma cum_le_sort l t : cum_le (sort_wt l) t = cum_le l t.
Proof. induction l as [|x r IH]; cbn [sort_wt]; [reflexivity|]. rewrite cum_le_insert, cum_le_cons, IH. reflexivity. Qed.

Lemma cum_le_app a b t : cum_le (a ++ b) t = cum_le a t + cum_le b t.
Proof. induction a as [|x a IH]; cbn [app]; [unfold cum_le; cbn; lia|]. rewrite !cum_le_cons, IH. lia. Qed.

Lemma cum_le_bounds l t : Forall (fun x => 0 <= wt_weight x) l -> 0 <= cum_le l t <= total_weight l.
Proof.
  induction 1 as [|x l Hx _ IH]; [unfold cum_le; cbn; lia|].
  rewrite cum_le_cons. rewrite total_weight_cons.
  destruct (wt_time x <=? t); lia.
Qed.

Lemma cum_le_all l t : Forall (fun x => wt_time x <= t) l -> cum_le l t = total_weight l.
Proof.
  induction 1 as [|x l Hx _ IH]; [reflexivity|].
  rewrite cum_le_cons. rewrite total_weight_cons.
  destruct (Z.leb_spec (wt_time x) t); lia.
Qed.

Lemma cum_le_none l t : Forall (fun x => t < wt_time x) l -> cum_le l t = 0.
Proof.
  induction 1 as [|x l Hx _ IH]; [reflexivity|].
  rewrite cum_le_cons. destruct (Z.leb_spec (wt_time x) t); lia.
Qed.

(** where the loop stops: the entries before weigh less than the start value (when there are any), with
    the entry itself at least the start value *)
Lemma wm_loop_stop : forall l m t,
  Forall (fun x => 0 <= wt_weight x) l ->
  wm_loop m l = Some t ->
  exists p e q, l = p ++ e :: q /\ wt_time e = t /\ m <= total_weight p + wt_weight e /\ (p <> [] -> total_weight p < m).
Proof.
  induction l as [|x r IH]; intros m t Hw H; cbn [wm_loop] in H; [discriminate|].
  inversion Hw as [|? ? Hx Hr]; subst.
  destruct (Z.leb_spec m (wt_weight x)) as [Hle|Hgt].
  - inversion H; subst. exists [], x, r. cbn. repeat split; try lia. intros E; contradiction.
  - destruct (IH (m - wt_weight x) t Hr H) as [p [e [q [El [Et [Hm Hp]]]]]].
    exists (x :: p), e, q. subst r. rewrite total_weight_cons.
    repeat split; try reflexivity; try assumption; try lia.
    intros _. destruct p as [|y p']; [cbn; lia|]. specialize (Hp ltac:(discriminate)). lia.
Qed.

Lemma sorted_suffix_ge : forall p e q, StronglySorted le_time (p ++ e :: q) -> Forall (fun x => le_time e x) q.
Proof.
  induction p as [|a p IH]; intros e q H; cbn [app] in H.
  - inversion H as [|? ? _ Hall]; subst. exact Hall.
  - inversion H as [|? ? Hs _]; subst. apply (IH e q Hs).
Qed.

(** THE WEIGHTED MEDIAN AS CODED: the result is the time of an entry; the entries with a time up to it weigh
    at least floor(total/2); for every entry with an earlier time, the entries up to that time weigh less *)
Theorem median_time_spec present t :
  Forall (fun x => 0 <= wt_weight x) present ->
  median_time present = Some t ->
  (exists e, In e present /\ wt_time e = t) /\
  total_weight present / 2 <= cum_le present t /\
  (forall y, In y present -> wt_time y < t -> cum_le present (wt_time y) < total_weight present / 2).
Proof.
  intros Hw H. unfold median_time in H. set (m := total_weight present / 2) in *.
  pose proof (sort_wt_Forall _ _ Hw) as Hws.
  destruct (wm_loop_stop _ _ _ Hws H) as [p [e [q [El [Et [Hm Hp]]]]]].
  pose proof (sort_wt_sorted present) as Hs. rewrite El in Hs.
  assert (Hpe : Forall (fun x => wt_time x <= t) p).
  { pose proof (sorted_prefix_le p e q Hs) as Hf. eapply Forall_impl; [|exact Hf]. unfold le_time. intros a Ha. lia. }
  assert (Hq : Forall (fun x => t <= wt_time x) q).
  { pose proof (sorted_suffix_ge p e q Hs) as Hf. eapply Forall_impl; [|exact Hf]. unfold le_time. intros a Ha. lia. }
  assert (Hwp : Forall (fun x => 0 <= wt_weight x) p /\ 0 <= wt_weight e /\ Forall (fun x => 0 <= wt_weight x) q).
  { rewrite El in Hws. apply Forall_app in Hws. destruct Hws as [A Bq]. inversion Bq; subst. auto. }
  destruct Hwp as [Hwp [Hwe Hwq]].
  split; [|split].
  - exists e. split; [|exact Et]. apply sort_wt_In. rewrite El. apply in_or_app. right. left. reflexivity.
  - rewrite <- (cum_le_sort present t), El, cum_le_app, cum_le_cons.
    rewrite (cum_le_all p t Hpe). destruct (Z.leb_spec (wt_time e) t) as [_|Hn]; [|lia].
    pose proof (cum_le_bounds q t Hwq). lia.
  - intros y Hy Hlt. rewrite <- (cum_le_sort present (wt_time y)), El, cum_le_app, cum_le_cons.
    assert (Hnq : cum_le q (wt_time y) = 0).
    { apply cum_le_none. eapply Forall_impl; [|exact Hq]. intros a Ha. cbn beta in Ha. lia. }
    destruct (Z.leb_spec (wt_time e) (wt_time y)) as [Hle|_]; [lia|]. rewrite Hnq.
    (* y is among the entries before e *)
    assert (Hyp : In y p).
    { apply sort_wt_In in Hy. rewrite El in Hy. apply in_app_or in Hy. destruct Hy as [Hy|[Hy|Hy]]; [exact Hy|subst; lia|].
      rewrite Forall_forall in Hq. specialize (Hq y Hy). lia. }
    assert (Hne : p <> []) by (intros E; subst p; destruct Hyp).
    pose proof (cum_le_bounds p (wt_time y) Hwp). specialize (Hp Hne). lia.
Qed.
