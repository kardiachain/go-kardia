(** C04 — the weighted median of a commit's timestamps: the claim in the comment of
    cstate.MedianTime ("a faulty process can not arbitrarily increase or decrease the computed
    value") is refuted for the code as it is, and holds (lower bound) for the strict variant. *)
From Coq Require Import List ZArith Lia Sorted.
From Kardia Require Import C04.MedianModel.
Import ListNotations.
Local Open Scope Z_scope.

(** witness: four validators of power 1 (total 4); the commit holds three signatures (> 2/3 of 4);
    one signer is faulty (1 < 4/3) and signs the earliest timestamp: the block time is the faulty one *)
Definition witness : list wtime :=
  [ {| wt_time := 100; wt_weight := 1; wt_faulty := false |};
    {| wt_time := 0;   wt_weight := 1; wt_faulty := true |};
    {| wt_time := 101; wt_weight := 1; wt_faulty := false |} ].

Definition faulty_weight (l : list wtime) : Z :=
  fold_right (fun x acc => (if wt_faulty x then wt_weight x else 0) + acc) 0 l.

Lemma median_byzantine_refuted :
  let T := 4 in
  3 * faulty_weight witness < T /\ 2 * T < 3 * total_weight witness /\
  median_time witness = Some 0 /\
  (forall x, In x witness -> wt_faulty x = false -> 0 < wt_time x) /\
  median_time_strict witness = Some 100.
Proof.
  cbv zeta. repeat split; try (vm_compute; reflexivity).
  intros x Hin Hf. unfold witness in Hin. simpl in Hin.
  destruct Hin as [<-|[<-|[<-|[]]]]; simpl in *; try lia; discriminate.
Qed.

Definition le_time (a b : wtime) : Prop := wt_time a <= wt_time b.

Lemma insert_wt_In x l y : In y (insert_wt x l) <-> y = x \/ In y l.
Proof.
  induction l as [|z r IH]; simpl; [intuition|].
  destruct (wt_time x <=? wt_time z); simpl; [intuition|]. rewrite IH. intuition.
Qed.

Lemma insert_wt_sorted x l : StronglySorted le_time l -> StronglySorted le_time (insert_wt x l).
Proof.
  induction 1 as [|z r Hs IH Hall]; simpl; [constructor; constructor|].
  destruct (Z.leb_spec (wt_time x) (wt_time z)) as [H|H].
  - constructor; [constructor; assumption|]. constructor; [exact H|].
    eapply Forall_impl; [|exact Hall]. unfold le_time. intros a Ha. lia.
  - constructor; [exact IH|]. rewrite Forall_forall. intros y Hy. apply insert_wt_In in Hy.
    destruct Hy as [->|Hy]; [unfold le_time; lia|]. rewrite Forall_forall in Hall. apply Hall; assumption.
Qed.

Lemma sort_wt_sorted l : StronglySorted le_time (sort_wt l).
Proof. induction l; simpl; [constructor|apply insert_wt_sorted; assumption]. Qed.

Lemma insert_wt_total x l : total_weight (insert_wt x l) = wt_weight x + total_weight l.
Proof. induction l as [|z r IH]; simpl; [reflexivity|]. destruct (wt_time x <=? wt_time z); simpl; lia. Qed.
Lemma sort_wt_total l : total_weight (sort_wt l) = total_weight l.
Proof. induction l; simpl; [reflexivity|]. rewrite insert_wt_total. lia. Qed.
Lemma insert_wt_faulty x l : faulty_weight (insert_wt x l) = (if wt_faulty x then wt_weight x else 0) + faulty_weight l.
Proof. induction l as [|z r IH]; simpl; [reflexivity|]. destruct (wt_time x <=? wt_time z); simpl; lia. Qed.
Lemma sort_wt_faulty l : faulty_weight (sort_wt l) = faulty_weight l.
Proof. induction l; simpl; [reflexivity|]. rewrite insert_wt_faulty. lia. Qed.
Lemma sort_wt_In l y : In y (sort_wt l) <-> In y l.
Proof. induction l; simpl; [tauto|]. rewrite insert_wt_In, IHl. intuition. Qed.
Lemma sort_wt_Forall (P : wtime -> Prop) l : Forall P l -> Forall P (sort_wt l).
Proof. rewrite !Forall_forall. intros H x Hx. apply H. apply sort_wt_In. exact Hx. Qed.

(** where the strict loop stops, the weight up to and including that entry exceeds the start value *)
Lemma wm_strict_stop : forall l m t,
  wm_loop_strict m l = Some t ->
  exists p e q, l = p ++ e :: q /\ wt_time e = t /\ m < total_weight p + wt_weight e.
Proof.
  induction l as [|x r IH]; intros m t H; simpl in H; [discriminate|].
  destruct (Z.ltb_spec m (wt_weight x)) as [Hlt|Hge].
  - inversion H; subst. exists [], x, r. simpl. repeat split; lia.
  - destruct (IH _ _ H) as [p [e [q [-> [Ht Hm]]]]].
    exists (x :: p), e, q. simpl. repeat split; auto; lia.
Qed.

Lemma sorted_prefix_le : forall p e q, StronglySorted le_time (p ++ e :: q) -> Forall (fun x => le_time x e) p.
Proof.
  induction p as [|a p IH]; intros e q H; simpl in *; [constructor|].
  inversion H as [|? ? Hs Hall]; subst. constructor.
  - rewrite Forall_forall in Hall. apply Hall. apply in_or_app. right. left. reflexivity.
  - eapply IH; eauto.
Qed.

Lemma faulty_weight_app a b : faulty_weight (a ++ b) = faulty_weight a + faulty_weight b.
Proof. induction a; simpl; lia. Qed.
Lemma total_weight_app a b : total_weight (a ++ b) = total_weight a + total_weight b.
Proof. induction a; simpl; lia. Qed.
Lemma total_weight_cons x l : total_weight (x :: l) = wt_weight x + total_weight l.
Proof. reflexivity. Qed.
Lemma total_weight_nonneg l : Forall (fun x => 0 <= wt_weight x) l -> 0 <= total_weight l.
Proof. induction 1 as [|x r Hx Hr IH]; [reflexivity|]. rewrite total_weight_cons. lia. Qed.
Lemma faulty_weight_nonneg l : Forall (fun x => 0 <= wt_weight x) l -> 0 <= faulty_weight l.
Proof. induction 1 as [|x r Hx Hr IH]; simpl; [lia|]. destruct (wt_faulty x); lia. Qed.

(** entries that weigh more than the faulty ones among them: one of them is correct *)
Lemma correct_entry l : Forall (fun x => 0 <= wt_weight x) l -> faulty_weight l < total_weight l ->
  exists c, In c l /\ wt_faulty c = false.
Proof.
  induction 1 as [|x r Hx _ IH]; cbn [faulty_weight total_weight fold_right]; [lia|]. intros H.
  destruct (wt_faulty x) eqn:E; [|exists x; split; [left; reflexivity|exact E]].
  destruct IH as [c [Hc Hf]]; [unfold faulty_weight, total_weight; lia|].
  exists c. split; [right; exact Hc|exact Hf].
Qed.

(** with the strict comparison, faulty signers holding less than half of the present power cannot
    pull the block time below every correct timestamp *)
Theorem median_strict_lower_bound present t :
  Forall (fun x => 0 <= wt_weight x) present ->
  2 * faulty_weight present < total_weight present ->
  median_time_strict present = Some t ->
  exists c, In c present /\ wt_faulty c = false /\ wt_time c <= t.
Proof.
  intros Hw Hf Hm. unfold median_time_strict in Hm.
  destruct (wm_strict_stop _ _ _ Hm) as [p [e [q [Hl [Ht Hstop]]]]].
  pose proof (sort_wt_sorted present) as Hs. rewrite Hl in Hs.
  pose proof (sorted_prefix_le p e q Hs) as Hle.
  assert (Hw' : Forall (fun x => 0 <= wt_weight x) ((p ++ [e]) ++ q)).
  { rewrite <- app_assoc. cbn [app]. rewrite <- Hl. exact (sort_wt_Forall _ _ Hw). }
  apply Forall_app in Hw'. destruct Hw' as [Hwp Hwq].
  (* the entries up to e outweigh the faulty ones of the whole commit: one of them is correct *)
  destruct (correct_entry (p ++ [e]) Hwp) as [c [Hin Hc]].
  { pose proof (faulty_weight_nonneg q Hwq) as H0. pose proof (sort_wt_faulty present) as Ef.
    rewrite Hl in Ef. change (p ++ e :: q) with (p ++ [e] ++ q) in Ef. rewrite app_assoc, faulty_weight_app in Ef.
    rewrite total_weight_app. cbn [total_weight fold_right].
    (* Hstop starts the loop at total_weight present / 2 *)
    Z.div_mod_to_equations. lia. }
  exists c. apply in_app_or in Hin. split; [|split; [exact Hc|]].
  - apply sort_wt_In. rewrite Hl. apply in_or_app.
    destruct Hin as [Hin|[<-|[]]]; [left; exact Hin|right; left; reflexivity].
  - destruct Hin as [Hin|[<-|[]]]; [|lia].
    rewrite Forall_forall in Hle. specialize (Hle _ Hin). unfold le_time in Hle. lia.
Qed.
