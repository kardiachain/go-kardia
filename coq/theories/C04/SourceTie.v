(** C04 — tie of the model's guards and arithmetic to the Go SOURCE.
    [Generated/C04Source.v] is produced on every check by /verif/go2coq from /repo's working tree: every
    guard / integer expression of timeoutTicker.timeoutRoutine (consensus/ticker.go), of
    ConsensusState.handleTimeout, enterNewRound, enterPropose, enterPrevote, enterPrevoteWait,
    enterPrecommit, enterPrecommitWait, enterCommit, finalizeCommit, tryFinalizeCommit, addVote,
    addProposalBlockPart, isProposalComplete (consensus/state.go), of ConsensusConfig.Propose / Prevote /
    Precommit / WaitForTxs (configs/config.go), of WeightedMedian (types/time) and MedianTime
    (kai/state/cstate), as Gallina over [Z] with explicit machine-integer wraps (Base/GoSem.v).

    [C04_source_tie_statement] says that the hand-written models ARE built from exactly these expressions
    (which operands they are applied to is stated in the [src_*_atoms] lemmas of this file):
    - [accepts] of C04/Model.v is the nest of the five conditions of timeoutRoutine, in the source's
      order ([accepts_src]);
    - the entry guards [g_new_round], [g_step], [g_precommit_wait], [g_commit], [g_timeout_stale] of
      C04/StepModel.v are the "Invalid args" conditions of the enter functions / handleTimeout, and the
      events [EvPrevote], [EvPrecommit], [EvLastCommit], [EvBlockDone] of [apply] are addVote's and
      addProposalBlockPart's conditions around the same calls;
    - [wait_for_txs], enterNewRound's waitForTxs and interval test, [timeout_dur] are the configs
      expressions;
    - [wm_loop] / [median_time] of C04/MedianModel.v are WeightedMedian's comparison, subtraction and
      halving, and MedianTime's sum.
    The [_atoms] lemmas state WHAT is compared.  A Go edit that flips a comparison, changes a constant or an
    operand of one of these expressions changes the generated file and re-opens these obligations.
    Not in go2coq's subset: single-atom results (isProposer's bytes.Equal, `weightedTime != nil`); these
    are covered by the harness only (a negated isProposer ends in no-progress). *)
From Coq Require Import List ZArith NArith Lia String.
From Kardia Require Import Base.Int64 Base.GoSem Base.Conj.
From Kardia Require Import Generated.C04Source.
From Kardia Require Import C04.Model C04.StepModel C04.MedianModel C04.ProofsMedian.
Import ListNotations.
Local Open Scope Z_scope.

Lemma N2Z_gtb0 a : Z.gtb (Z.of_N a) 0 = N.ltb 0 a.
Proof. exact (ZofN_gtb a 0). Qed.

Lemma wrap64_idem z : wrap64 (wrap64 z) = wrap64 z.
Proof. apply wrap64_id. apply wrap64_range. Qed.

Ltac n2z := rewrite ?ZofN_neqb, ?ZofN_eqb, ?ZofN_ltb, ?ZofN_leb, ?N2Z_gtb0.

(** consensus/ticker.go: the filter of timeoutRoutine *)
Definition src_h_lt := consensus__timeoutTicker_timeoutRoutine__if_newti_Height_lt_ti_Height.
Definition src_h_eq := consensus__timeoutTicker_timeoutRoutine__if_newti_Height_eq_ti_Height.
Definition src_r_lt := consensus__timeoutTicker_timeoutRoutine__if_newti_Round_lt_ti_Round.
Definition src_r_eq := consensus__timeoutTicker_timeoutRoutine__if_newti_Round_eq_ti_Round.
Definition src_s_le := consensus__timeoutTicker_timeoutRoutine__if_ti_Step_gt_0_and_newti_Step_le_ti_Step.

(** the nest of `continue`s of the source: true = the request replaces the remembered timeout *)
Definition accepts_src (ti newti : tinfo) : bool :=
  if src_h_lt (Z.of_N (ti_h newti)) (Z.of_N (ti_h ti)) then false
  else if src_h_eq (Z.of_N (ti_h newti)) (Z.of_N (ti_h ti)) then
    if src_r_lt (Z.of_N (ti_r newti)) (Z.of_N (ti_r ti)) then false
    else if src_r_eq (Z.of_N (ti_r newti)) (Z.of_N (ti_r ti)) then
      if src_s_le (Z.of_N (ti_s ti)) (Z.of_N (ti_s newti)) then false else true
    else true
  else true.

Lemma src_ticker_atoms :
  consensus__timeoutTicker_timeoutRoutine__if_newti_Height_lt_ti_Height_atoms = ["newti.Height : uint64"; "ti.Height : uint64"]%string
  /\ consensus__timeoutTicker_timeoutRoutine__if_newti_Height_eq_ti_Height_atoms = ["newti.Height : uint64"; "ti.Height : uint64"]%string
  /\ consensus__timeoutTicker_timeoutRoutine__if_newti_Round_lt_ti_Round_atoms = ["newti.Round : uint32"; "ti.Round : uint32"]%string
  /\ consensus__timeoutTicker_timeoutRoutine__if_newti_Round_eq_ti_Round_atoms = ["newti.Round : uint32"; "ti.Round : uint32"]%string
  /\ consensus__timeoutTicker_timeoutRoutine__if_ti_Step_gt_0_and_newti_Step_le_ti_Step_atoms
     = ["ti.Step : github.com/kardiachain/go-kardia/consensus/types.RoundStepType";
        "newti.Step : github.com/kardiachain/go-kardia/consensus/types.RoundStepType"]%string.
Proof. split_all; reflexivity. Qed.

(** consensus/state.go: handleTimeout's staleness test and the "Invalid args" guards of the enter functions *)
Definition src_stale := consensus__ConsensusState_handleTimeout__if_ti_Height_ne_rs_Height_or_ti_Round_lt_rs_Round_or_ti_Round_e_deeb9baa.
Definition src_g_new_round := consensus__ConsensusState_enterNewRound__if_cs_Height_ne_height_or_round_lt_cs_Round_or_cs_Round_eq_roun_2354a6d9.
Definition src_g_propose := consensus__ConsensusState_enterPropose__if_cs_Height_ne_height_or_round_lt_cs_Round_or_cs_Round_eq_roun_2d56b608.
Definition src_g_prevote := consensus__ConsensusState_enterPrevote__if_cs_Height_ne_height_or_round_lt_cs_Round_or_cs_Round_eq_roun_89292bfb.
Definition src_g_prevote_wait := consensus__ConsensusState_enterPrevoteWait__if_cs_Height_ne_height_or_round_lt_cs_Round_or_cs_Round_eq_roun_e2ee6aba.
Definition src_g_precommit := consensus__ConsensusState_enterPrecommit__if_cs_Height_ne_height_or_round_lt_cs_Round_or_cs_Round_eq_roun_175a6e72.
Definition src_g_precommit_wait := consensus__ConsensusState_enterPrecommitWait__if_cs_Height_ne_height_or_round_ne_cs_Round_or_cs_Round_eq_roun_5359bacc.
Definition src_g_commit := consensus__ConsensusState_enterCommit__if_cs_Height_ne_height_or_cstypes_RoundStepCommit_le_cs_Step.
Definition src_g_finalize := consensus__ConsensusState_finalizeCommit__if_cs_Height_ne_height_or_cs_Step_ne_cstypes_RoundStepCommit.

Lemma src_timeout_stale H R S th tr ts :
  g_timeout_stale H R S th tr ts = src_stale (Z.of_N th) (Z.of_N H) (Z.of_N tr) (Z.of_N R) (Z.of_N ts) (Z.of_N S).
Proof.
  unfold g_timeout_stale, src_stale,
    consensus__ConsensusState_handleTimeout__if_ti_Height_ne_rs_Height_or_ti_Round_lt_rs_Round_or_ti_Round_e_deeb9baa.
  n2z. reflexivity.
Qed.

(** the guard shared by enterPropose, enterPrevote, enterPrevoteWait and enterPrecommit, step by step *)
Lemma g_step_Z k H R S h r :
  g_step k H R S h r =
  (go_neqb (Z.of_N H) (Z.of_N h) || (Z.of_N r <? Z.of_N R) || ((Z.of_N R =? Z.of_N r) && (Z.of_N k <=? Z.of_N S)))%bool.
Proof. unfold g_step. n2z. reflexivity. Qed.

(** handleTimeout as a whole: the staleness test, then the switch on ti.Step with the source's case
    conditions and the source's ti.Round+1 (uint32 addition: no wrap below 2^32 - 1) *)
Definition src_case_new_height := consensus__ConsensusState_handleTimeout__case_ti_Step_eq_cstypes_RoundStepNewHeight.
Definition src_case_new_round := consensus__ConsensusState_handleTimeout__case_ti_Step_eq_cstypes_RoundStepNewRound.
Definition src_case_propose := consensus__ConsensusState_handleTimeout__case_ti_Step_eq_cstypes_RoundStepPropose.
Definition src_case_prevote_wait := consensus__ConsensusState_handleTimeout__case_ti_Step_eq_cstypes_RoundStepPrevoteWait.
Definition src_case_precommit_wait := consensus__ConsensusState_handleTimeout__case_ti_Step_eq_cstypes_RoundStepPrecommitWait.
Definition src_next_round := consensus__ConsensusState_handleTimeout__arg_ti_Round_plus_1.

Definition handle_timeout_src (c : scfg) (nd : node) (t : tinfo) (complete : bool) : node :=
  if src_stale (Z.of_N (ti_h t)) (Z.of_N (nH nd)) (Z.of_N (ti_r t)) (Z.of_N (nR nd)) (Z.of_N (ti_s t)) (Z.of_N (nS nd)) then nd
  else if src_case_new_height (Z.of_N (ti_s t)) then enter_new_round c nd (ti_h t) 1 complete
  else if src_case_new_round (Z.of_N (ti_s t)) then enter_propose nd (ti_h t) 1 complete
  else if src_case_propose (Z.of_N (ti_s t)) then enter_prevote nd (ti_h t) (ti_r t)
  else if src_case_prevote_wait (Z.of_N (ti_s t)) then enter_precommit nd (ti_h t) (ti_r t)
  else if src_case_precommit_wait (Z.of_N (ti_s t)) then
    enter_new_round c (enter_precommit nd (ti_h t) (ti_r t)) (ti_h t) (Z.to_N (src_next_round (Z.of_N (ti_r t)))) complete
  else nd.

Lemma src_args_atoms :
  consensus__ConsensusState_handleTimeout__arg_ti_Round_plus_1_atoms = ["ti.Round : uint32"]%string
  /\ consensus__ConsensusState_enterNewRound__arg_int64_round_minus_cs_Round_atoms = ["round : uint32"; "cs.Round : uint32"]%string
  /\ consensus__ConsensusState_enterNewRound__arg_round_plus_1_atoms = ["round : uint32"]%string
  /\ consensus__ConsensusState_enterNewRound__if_cs_Round_lt_round_atoms = ["cs.Round : uint32"; "round : uint32"]%string
  /\ consensus__ConsensusState_handleTimeout__case_ti_Step_eq_cstypes_RoundStepPrecommitWait_atoms
     = ["ti.Step : github.com/kardiachain/go-kardia/consensus/types.RoundStepType"]%string.
Proof. split_all; reflexivity. Qed.

Lemma src_guard_atoms :
  consensus__ConsensusState_handleTimeout__if_ti_Height_ne_rs_Height_or_ti_Round_lt_rs_Round_or_ti_Round_e_deeb9baa_atoms
    = ["ti.Height : uint64"; "rs.Height : uint64"; "ti.Round : uint32"; "rs.Round : uint32";
       "ti.Step : github.com/kardiachain/go-kardia/consensus/types.RoundStepType";
       "rs.Step : github.com/kardiachain/go-kardia/consensus/types.RoundStepType"]%string
  /\ consensus__ConsensusState_enterNewRound__if_cs_Height_ne_height_or_round_lt_cs_Round_or_cs_Round_eq_roun_2354a6d9_atoms
    = ["cs.Height : uint64"; "height : uint64"; "round : uint32"; "cs.Round : uint32";
       "cs.Step : github.com/kardiachain/go-kardia/consensus/types.RoundStepType"]%string
  /\ consensus__ConsensusState_enterPropose__if_cs_Height_ne_height_or_round_lt_cs_Round_or_cs_Round_eq_roun_2d56b608_atoms
    = ["cs.Height : uint64"; "height : uint64"; "round : uint32"; "cs.Round : uint32";
       "cs.Step : github.com/kardiachain/go-kardia/consensus/types.RoundStepType"]%string
  /\ consensus__ConsensusState_enterPrevote__if_cs_Height_ne_height_or_round_lt_cs_Round_or_cs_Round_eq_roun_89292bfb_atoms
    = ["cs.Height : uint64"; "height : uint64"; "round : uint32"; "cs.Round : uint32";
       "cs.Step : github.com/kardiachain/go-kardia/consensus/types.RoundStepType"]%string
  /\ consensus__ConsensusState_enterPrevoteWait__if_cs_Height_ne_height_or_round_lt_cs_Round_or_cs_Round_eq_roun_e2ee6aba_atoms
    = ["cs.Height : uint64"; "height : uint64"; "round : uint32"; "cs.Round : uint32";
       "cs.Step : github.com/kardiachain/go-kardia/consensus/types.RoundStepType"]%string
  /\ consensus__ConsensusState_enterPrecommit__if_cs_Height_ne_height_or_round_lt_cs_Round_or_cs_Round_eq_roun_175a6e72_atoms
    = ["cs.Height : uint64"; "height : uint64"; "round : uint32"; "cs.Round : uint32";
       "cs.Step : github.com/kardiachain/go-kardia/consensus/types.RoundStepType"]%string
  /\ consensus__ConsensusState_enterPrecommitWait__if_cs_Height_ne_height_or_round_ne_cs_Round_or_cs_Round_eq_roun_5359bacc_atoms
    = ["cs.Height : uint64"; "height : uint64"; "round : uint32"; "cs.Round : uint32"; "cs.TriggeredTimeoutPrecommit : bool"]%string
  /\ consensus__ConsensusState_enterCommit__if_cs_Height_ne_height_or_cstypes_RoundStepCommit_le_cs_Step_atoms
    = ["cs.Height : uint64"; "height : uint64"; "cs.Step : github.com/kardiachain/go-kardia/consensus/types.RoundStepType"]%string
  /\ consensus__ConsensusState_finalizeCommit__if_cs_Height_ne_height_or_cs_Step_ne_cstypes_RoundStepCommit_atoms
    = ["cs.Height : uint64"; "height : uint64"; "cs.Step : github.com/kardiachain/go-kardia/consensus/types.RoundStepType"]%string.
Proof. split_all; reflexivity. Qed.

(** the preconditions the enter*Wait functions panic on, and the "no polka" test of enterPrecommit: what
    the model's free booleans stand for *)
Lemma src_panic_atoms :
  consensus__ConsensusState_enterPrevoteWait__if_not_cs_Votes_Prevotes_round__HasTwoThirdsAny_atoms
    = ["cs.Votes.Prevotes(round).HasTwoThirdsAny() : bool"]%string
  /\ consensus__ConsensusState_enterPrecommitWait__if_not_cs_Votes_Precommits_round__HasTwoThirdsAny_atoms
    = ["cs.Votes.Precommits(round).HasTwoThirdsAny() : bool"]%string
  /\ (forall b, consensus__ConsensusState_enterPrevoteWait__if_not_cs_Votes_Prevotes_round__HasTwoThirdsAny b = negb b)
  /\ (forall b, consensus__ConsensusState_enterPrecommitWait__if_not_cs_Votes_Precommits_round__HasTwoThirdsAny b = negb b).
Proof. repeat split; reflexivity. Qed.

(** the skeleton's view of a ConsensusConfig *)
Definition cfg_of (ce : bool) (interval : Z) (skip : bool) : scfg :=
  {| create_empty := ce;
     interval_pos := consensus__ConsensusState_enterNewRound__if_cs_config_CreateEmptyBlocksInterval_gt_0 interval;
     skip_commit := skip |}.

Lemma src_config_atoms :
  configs__ConsensusConfig_WaitForTxs__ret_not_cfg_IsCreateEmptyBlocks_or_cfg_CreateEmptyBlocksInterval_gt_0_atoms
    = ["cfg.IsCreateEmptyBlocks : bool"; "cfg.CreateEmptyBlocksInterval : time.Duration"]%string
  /\ consensus__ConsensusState_enterNewRound__set_waitForTxs_atoms = ["cs.config.WaitForTxs() : bool"; "round : uint32"]%string
  /\ consensus__ConsensusState_enterNewRound__if_cs_config_CreateEmptyBlocksInterval_gt_0_atoms
    = ["cs.config.CreateEmptyBlocksInterval : time.Duration"]%string
  /\ configs__ConsensusConfig_Propose__ret_time_Duration_cfg_TimeoutPropose_Nanoseconds_plus_cfg_Timeou_924588db_atoms
    = ["cfg.TimeoutPropose.Nanoseconds() : int64"; "cfg.TimeoutProposeDelta.Nanoseconds() : int64"; "round : uint32"]%string
  /\ configs__ConsensusConfig_Prevote__ret_time_Duration_cfg_TimeoutPrevote_Nanoseconds_plus_cfg_Timeou_98ba0541_atoms
    = ["cfg.TimeoutPrevote.Nanoseconds() : int64"; "cfg.TimeoutPrevoteDelta.Nanoseconds() : int64"; "round : uint32"]%string
  /\ configs__ConsensusConfig_Precommit__ret_time_Duration_cfg_TimeoutPrecommit_Nanoseconds_plus_cfg_Time_fdba3b3f_atoms
    = ["cfg.TimeoutPrecommit.Nanoseconds() : int64"; "cfg.TimeoutPrecommitDelta.Nanoseconds() : int64"; "round : uint32"]%string.
Proof. split_all; reflexivity. Qed.

(** addVote and addProposalBlockPart around the enter functions: the events of [apply] *)
Definition src_av_commit := consensus__ConsensusState_addVote__if_cs_Step_eq_cstypes_RoundStepCommit.
Definition src_av_skip := consensus__ConsensusState_addVote__case_cs_Round_lt_vote_Round_and_prevotes_HasTwoThirdsAny.
Definition src_av_cur := consensus__ConsensusState_addVote__case_cs_Round_eq_vote_Round_and_cstypes_RoundStepPrevote_le_cs_Step.
Definition src_av_pc := consensus__ConsensusState_addVote__if_ok_and_cs_isProposalComplete_or_blockID_Hash_IsZero.
Definition src_av_any := consensus__ConsensusState_addVote__if_prevotes_HasTwoThirdsAny.
Definition src_av_pol := consensus__ConsensusState_addVote__case_cs_Proposal_ne_nil_and_1_le_cs_Proposal_POLRound_and_cs_Prop_37fde8e4.
Definition src_av_ok2 := consensus__ConsensusState_addVote__if_ok_2.
Definition src_av_nonnil := consensus__ConsensusState_addVote__if_not_blockID_Hash_IsZero.
Definition src_av_skipc := consensus__ConsensusState_addVote__if_cs_config_IsSkipTimeoutCommit_and_precommits_HasAll.
Definition src_av_pcany := consensus__ConsensusState_addVote__if_cs_Round_le_vote_Round_and_precommits_HasTwoThirdsAny.
Definition src_av_last := consensus__ConsensusState_addVote__if_cs_config_IsSkipTimeoutCommit_and_cs_LastCommit_HasAll.
Definition src_av_last_step := consensus__ConsensusState_addVote__if_cs_Step_ne_cstypes_RoundStepNewHeight.
Definition src_bp_step := consensus__ConsensusState_addProposalBlockPart__if_cs_Step_le_cstypes_RoundStepPropose_and_cs_isProposalComplete.
Definition src_bp_commit := consensus__ConsensusState_addProposalBlockPart__if_cs_Step_eq_cstypes_RoundStepCommit.
Definition src_bp_23 := consensus__ConsensusState_addProposalBlockPart__if_hasTwoThirds.

Lemma src_addvote_atoms :
  consensus__ConsensusState_addVote__if_cs_Step_eq_cstypes_RoundStepCommit_atoms
    = ["cs.Step : github.com/kardiachain/go-kardia/consensus/types.RoundStepType"]%string
  /\ consensus__ConsensusState_addVote__case_cs_Round_lt_vote_Round_and_prevotes_HasTwoThirdsAny_atoms
    = ["cs.Round : uint32"; "vote.Round : uint32"; "prevotes.HasTwoThirdsAny() : bool"]%string
  /\ consensus__ConsensusState_addVote__case_cs_Round_eq_vote_Round_and_cstypes_RoundStepPrevote_le_cs_Step_atoms
    = ["cs.Round : uint32"; "vote.Round : uint32"; "cs.Step : github.com/kardiachain/go-kardia/consensus/types.RoundStepType"]%string
  /\ consensus__ConsensusState_addVote__if_ok_and_cs_isProposalComplete_or_blockID_Hash_IsZero_atoms
    = ["ok : bool"; "cs.isProposalComplete() : bool"; "blockID.Hash.IsZero() : bool"]%string
  /\ consensus__ConsensusState_addVote__case_cs_Proposal_ne_nil_and_1_le_cs_Proposal_POLRound_and_cs_Prop_37fde8e4_atoms
    = ["cs.Proposal != nil : bool"; "cs.Proposal.POLRound : uint32"; "vote.Round : uint32"]%string
  /\ consensus__ConsensusState_addVote__if_cs_config_IsSkipTimeoutCommit_and_precommits_HasAll_atoms
    = ["cs.config.IsSkipTimeoutCommit : bool"; "precommits.HasAll() : bool"]%string
  /\ consensus__ConsensusState_addVote__if_cs_Round_le_vote_Round_and_precommits_HasTwoThirdsAny_atoms
    = ["cs.Round : uint32"; "vote.Round : uint32"; "precommits.HasTwoThirdsAny() : bool"]%string
  /\ consensus__ConsensusState_addVote__if_cs_config_IsSkipTimeoutCommit_and_cs_LastCommit_HasAll_atoms
    = ["cs.config.IsSkipTimeoutCommit : bool"; "cs.LastCommit.HasAll() : bool"]%string
  /\ consensus__ConsensusState_addVote__if_cs_Step_ne_cstypes_RoundStepNewHeight_atoms
    = ["cs.Step : github.com/kardiachain/go-kardia/consensus/types.RoundStepType"]%string
  /\ consensus__ConsensusState_addProposalBlockPart__if_cs_Step_le_cstypes_RoundStepPropose_and_cs_isProposalComplete_atoms
    = ["cs.Step : github.com/kardiachain/go-kardia/consensus/types.RoundStepType"; "cs.isProposalComplete() : bool"]%string
  /\ consensus__ConsensusState_addProposalBlockPart__if_cs_Step_eq_cstypes_RoundStepCommit_atoms
    = ["cs.Step : github.com/kardiachain/go-kardia/consensus/types.RoundStepType"]%string.
Proof. split_all; reflexivity. Qed.

(** isProposalComplete (the model's [complete] answers): no proposal or no block: false; no POL round
    claimed (POLRound < 1): true; else the +2/3 majority of that round's prevotes *)
Lemma src_proposal_complete :
  (forall a b, consensus__ConsensusState_isProposalComplete__if_cs_Proposal_eq_nil_or_cs_ProposalBlock_eq_nil a b = (a || b)%bool)
  /\ (forall p, consensus__ConsensusState_isProposalComplete__if_cs_Proposal_POLRound_lt_1 p = (p <? 1))
  /\ consensus__ConsensusState_isProposalComplete__if_cs_Proposal_eq_nil_or_cs_ProposalBlock_eq_nil_atoms
     = ["cs.Proposal == nil : untyped bool"; "cs.ProposalBlock == nil : untyped bool"]%string
  /\ consensus__ConsensusState_isProposalComplete__if_cs_Proposal_POLRound_lt_1_atoms = ["cs.Proposal.POLRound : uint32"]%string.
Proof. repeat split; reflexivity. Qed.

(** the loop of WeightedMedian over the sorted non-nil entries, written with the source's comparison and
    subtraction *)
Fixpoint wm_loop_src (median : Z) (l : list wtime) : option Z :=
  match l with
  | [] => None
  | x :: r =>
    if types_time__WeightedMedian__if_median_le_weightedTime_Weight median (wt_weight x) then Some (wt_time x)
    else wm_loop_src (types_time__WeightedMedian__set_median_op median (wt_weight x)) r
  end.

Lemma src_wm_loop : forall l median,
  Forall (fun x => 0 <= wt_weight x) l -> 0 <= median <= max_int64 ->
  wm_loop median l = wm_loop_src median l.
Proof.
  induction l as [|x r IH]; intros median Hw Hm; cbn [wm_loop wm_loop_src]; [reflexivity|].
  inversion Hw as [|? ? Hx Hr]; subst.
  unfold types_time__WeightedMedian__if_median_le_weightedTime_Weight, types_time__WeightedMedian__set_median_op.
  destruct (Z.leb_spec median (wt_weight x)) as [|Hlt]; [reflexivity|].
  assert (E : go_sub I64 median (wt_weight x) = median - wt_weight x).
  { unfold go_sub. apply wrap_id. unfold in_range. unfold max_int64, two63 in Hm. lia. }
  rewrite E. apply IH; [exact Hr|lia].
Qed.

(** median := totalVotingPower / 2 (truncated division; the total is not negative) *)
Lemma src_median_half total : 0 <= total <= max_int64 ->
  types_time__WeightedMedian__set_median total = total / 2 /\ 0 <= total / 2 <= max_int64.
Proof.
  intros H. pose proof (Z.div_pos total 2). pose proof (Z.div_le_upper_bound total 2 total).
  split; [|lia]. unfold types_time__WeightedMedian__set_median, go_quot. rewrite Z.quot_div_nonneg by lia.
  apply wrap_id. unfold in_range. unfold max_int64, two63 in H. lia.
Qed.

(** the sort order of WeightedMedian: ascending UnixNano ([insert_wt] inserts before the first later-or-equal
    entry; ties do not change the result: ProofsMedianSpec.median_time_spec speaks of times only) *)
Lemma src_sort_less a b :
  types_time__WeightedMedian__ret_weightedTimes_at_i__Time_UnixNano_lt_weightedTimes_at_j__Time_UnixNano a b = (a <? b).
Proof. reflexivity. Qed.

Lemma src_median_atoms :
  types_time__WeightedMedian__set_median_atoms = ["totalVotingPower : int64"]%string
  /\ types_time__WeightedMedian__if_median_le_weightedTime_Weight_atoms = ["median : int64"; "weightedTime.Weight : int64"]%string
  /\ types_time__WeightedMedian__set_median_op_atoms = ["median : int64"; "weightedTime.Weight : int64"]%string
  /\ types_time__WeightedMedian__ret_weightedTimes_at_i__Time_UnixNano_lt_weightedTimes_at_j__Time_UnixNano_atoms
     = ["weightedTimes[i].Time.UnixNano() : int64"; "weightedTimes[j].Time.UnixNano() : int64"]%string
  /\ kai_state_cstate__MedianTime__set_totalVotingPower_op_atoms = ["totalVotingPower : int64"; "votingPower : int64"]%string.
Proof. split_all; reflexivity. Qed.

Definition C04_source_tie_statement : Prop :=
  (* ticker *)
  (forall ti newti, accepts ti newti = accepts_src ti newti)
  (* handleTimeout and the entry guards *)
  /\ (forall H R S th tr ts, g_timeout_stale H R S th tr ts = src_stale (Z.of_N th) (Z.of_N H) (Z.of_N tr) (Z.of_N R) (Z.of_N ts) (Z.of_N S))
  /\ (forall H R S h r, g_new_round H R S h r = src_g_new_round (Z.of_N H) (Z.of_N h) (Z.of_N r) (Z.of_N R) (Z.of_N S))
  /\ (forall H R S h r, g_step sPropose H R S h r = src_g_propose (Z.of_N H) (Z.of_N h) (Z.of_N r) (Z.of_N R) (Z.of_N S))
  /\ (forall H R S h r, g_step sPrevote H R S h r = src_g_prevote (Z.of_N H) (Z.of_N h) (Z.of_N r) (Z.of_N R) (Z.of_N S))
  /\ (forall H R S h r, g_step sPrevoteWait H R S h r = src_g_prevote_wait (Z.of_N H) (Z.of_N h) (Z.of_N r) (Z.of_N R) (Z.of_N S))
  /\ (forall H R S h r, g_step sPrecommit H R S h r = src_g_precommit (Z.of_N H) (Z.of_N h) (Z.of_N r) (Z.of_N R) (Z.of_N S))
  /\ (forall H R trig h r, g_precommit_wait H R trig h r = src_g_precommit_wait (Z.of_N H) (Z.of_N h) (Z.of_N r) (Z.of_N R) trig)
  /\ (forall H S h, g_commit H S h = src_g_commit (Z.of_N H) (Z.of_N h) (Z.of_N S))
  /\ (forall H S, negb (N.eqb S sCommit) = src_g_finalize (Z.of_N H) (Z.of_N H) (Z.of_N S))
  (* handleTimeout as a whole, enterNewRound's rotation argument *)
  /\ (forall c nd t complete, Z.of_N (ti_r t) + 1 < 4294967296 -> handle_timeout c nd t complete = handle_timeout_src c nd t complete)
  /\ (forall r R, 0 <= R -> R < r -> r < 4294967296 ->
        consensus__ConsensusState_enterNewRound__arg_int64_round_minus_cs_Round r R = r - R)
  (* the events *)
  /\ (forall c nd vr maj complete isnil any hasprop polround,
        apply c nd (EvPrevote vr maj (complete || isnil) any (src_av_pol hasprop polround (Z.of_N vr)) complete) =
        if src_av_commit (Z.of_N (nS nd)) then nd
        else if src_av_skip (Z.of_N (nR nd)) (Z.of_N vr) any then enter_new_round c nd (nH nd) vr complete
        else if src_av_cur (Z.of_N (nR nd)) (Z.of_N vr) (Z.of_N (nS nd)) then
          (if src_av_pc maj complete isnil then enter_precommit nd (nH nd) vr
           else if src_av_any any then enter_prevote_wait nd (nH nd) vr else nd)
        else if src_av_pol hasprop polround (Z.of_N vr) then
          (if consensus__ConsensusState_addVote__if_cs_isProposalComplete complete then enter_prevote nd (nH nd) (nR nd) else nd)
        else nd)
  /\ (forall c nd vr maj isnil any hasall hb complete,
        apply c nd (EvPrecommit vr maj (negb isnil) any hasall hb complete) =
        if src_av_commit (Z.of_N (nS nd)) then nd
        else if src_av_ok2 maj then
          let nd2 := enter_precommit (enter_new_round c nd (nH nd) vr complete) (nH nd) vr in
          if src_av_nonnil isnil then
            let nd3 := enter_commit nd2 (nH nd) hb in
            if src_av_skipc (skip_commit c) hasall then enter_new_round c nd3 (nH nd3) 1 false else nd3
          else enter_precommit_wait nd2 (nH nd) vr
        else if src_av_pcany (Z.of_N (nR nd)) (Z.of_N vr) any then
          enter_precommit_wait (enter_new_round c nd (nH nd) vr complete) (nH nd) vr
        else nd)
  /\ (forall c nd hasall complete,
        apply c nd (EvLastCommit hasall complete) =
        if src_av_last_step (Z.of_N (nS nd)) then nd
        else if src_av_last (skip_commit c) hasall then enter_new_round c nd (nH nd) 1 complete else nd)
  /\ (forall c nd complete has23 hb,
        apply c nd (EvBlockDone complete has23 hb) =
        if src_bp_step (Z.of_N (nS nd)) complete then
          (let nd1 := enter_prevote nd (nH nd) (nR nd) in if src_bp_23 has23 then enter_precommit nd1 (nH nd) (nR nd) else nd1)
        else if src_bp_commit (Z.of_N (nS nd)) then (if hb then finalize nd else nd)
        else nd)
  (* configs *)
  /\ (forall ce interval skip, wait_for_txs (cfg_of ce interval skip) =
        configs__ConsensusConfig_WaitForTxs__ret_not_cfg_IsCreateEmptyBlocks_or_cfg_CreateEmptyBlocksInterval_gt_0 ce interval)
  /\ (forall c r, (wait_for_txs c && (r =? 1)%N)%bool = consensus__ConsensusState_enterNewRound__set_waitForTxs (wait_for_txs c) (Z.of_N r))
  /\ (forall base delta round, 0 <= round < 4294967296 ->
        configs__ConsensusConfig_Propose__ret_time_Duration_cfg_TimeoutPropose_Nanoseconds_plus_cfg_Timeou_924588db base delta round = timeout_dur base delta round
        /\ configs__ConsensusConfig_Prevote__ret_time_Duration_cfg_TimeoutPrevote_Nanoseconds_plus_cfg_Timeou_98ba0541 base delta round = timeout_dur base delta round
        /\ configs__ConsensusConfig_Precommit__ret_time_Duration_cfg_TimeoutPrecommit_Nanoseconds_plus_cfg_Time_fdba3b3f base delta round = timeout_dur base delta round)
  (* weighted median *)
  /\ (forall present, Forall (fun x => 0 <= wt_weight x) present -> total_weight present <= max_int64 ->
        median_time present = wm_loop_src (types_time__WeightedMedian__set_median (total_weight present)) (sort_wt present))
  /\ (forall acc w, in_int64 (acc + w) -> kai_state_cstate__MedianTime__set_totalVotingPower_op acc w = acc + w).

Lemma C04_source_tie_proof : C04_source_tie_statement.
Proof.
  unfold C04_source_tie_statement. split_all.
  - (* consensus/ticker.go: the filter of timeoutRoutine *)
    intros ti newti.
    unfold accepts, accepts_src, src_h_lt, src_h_eq, src_r_lt, src_r_eq, src_s_le,
      consensus__timeoutTicker_timeoutRoutine__if_newti_Height_lt_ti_Height,
      consensus__timeoutTicker_timeoutRoutine__if_newti_Height_eq_ti_Height,
      consensus__timeoutTicker_timeoutRoutine__if_newti_Round_lt_ti_Round,
      consensus__timeoutTicker_timeoutRoutine__if_newti_Round_eq_ti_Round,
      consensus__timeoutTicker_timeoutRoutine__if_ti_Step_gt_0_and_newti_Step_le_ti_Step.
    n2z. reflexivity.
  - exact src_timeout_stale.
  - intros H R S h r.
    unfold g_new_round, src_g_new_round, sNewHeight,
      consensus__ConsensusState_enterNewRound__if_cs_Height_ne_height_or_round_lt_cs_Round_or_cs_Round_eq_roun_2354a6d9.
    change 1 with (Z.of_N 1). n2z. reflexivity.
  - intros H R S h r. exact (g_step_Z sPropose H R S h r).
  - intros H R S h r. exact (g_step_Z sPrevote H R S h r).
  - intros H R S h r. exact (g_step_Z sPrevoteWait H R S h r).
  - intros H R S h r. exact (g_step_Z sPrecommit H R S h r).
  - intros H R trig h r.
    unfold g_precommit_wait, src_g_precommit_wait,
      consensus__ConsensusState_enterPrecommitWait__if_cs_Height_ne_height_or_round_ne_cs_Round_or_cs_Round_eq_roun_5359bacc.
    n2z. reflexivity.
  - intros H S h.
    unfold g_commit, src_g_commit, sCommit,
      consensus__ConsensusState_enterCommit__if_cs_Height_ne_height_or_cstypes_RoundStepCommit_le_cs_Step.
    change 8 with (Z.of_N 8). n2z. reflexivity.
  - (* finalizeCommit's own guard, for the height the caller passes (its own): the model's [nS nd =? sCommit] *)
    intros H S.
    unfold src_g_finalize, sCommit,
      consensus__ConsensusState_finalizeCommit__if_cs_Height_ne_height_or_cs_Step_ne_cstypes_RoundStepCommit.
    change 8 with (Z.of_N 8). n2z. rewrite N.eqb_refl. reflexivity.
  - (* ti.Round+1 is a uint32 addition: no wrap below 2^32 - 1 *)
    intros c nd t complete Hr.
    unfold handle_timeout, handle_timeout_src. rewrite src_timeout_stale.
    unfold src_case_new_height, src_case_new_round, src_case_propose, src_case_prevote_wait, src_case_precommit_wait, src_next_round,
      consensus__ConsensusState_handleTimeout__case_ti_Step_eq_cstypes_RoundStepNewHeight,
      consensus__ConsensusState_handleTimeout__case_ti_Step_eq_cstypes_RoundStepNewRound,
      consensus__ConsensusState_handleTimeout__case_ti_Step_eq_cstypes_RoundStepPropose,
      consensus__ConsensusState_handleTimeout__case_ti_Step_eq_cstypes_RoundStepPrevoteWait,
      consensus__ConsensusState_handleTimeout__case_ti_Step_eq_cstypes_RoundStepPrecommitWait,
      consensus__ConsensusState_handleTimeout__arg_ti_Round_plus_1,
      sNewHeight, sNewRound, sPropose, sPrevoteWait, sPrecommitWait.
    change 1 with (Z.of_N 1) at 1. change 2 with (Z.of_N 2). change 3 with (Z.of_N 3). change 5 with (Z.of_N 5). change 7 with (Z.of_N 7).
    n2z.
    assert (E : Z.to_N (go_add U32 (Z.of_N (ti_r t)) 1) = (ti_r t + 1)%N).
    { unfold go_add. rewrite wrap_id by (unfold in_range; lia). lia. }
    rewrite E. reflexivity.
  - (* enterNewRound's arguments: the proposer rotation is advanced by round - cs.Round (uint32, no wrap when
       cs.Round < round), the next round's vote sets are created for round + 1 *)
    intros r R H0 H1 H2.
    unfold consensus__ConsensusState_enterNewRound__arg_int64_round_minus_cs_Round, go_conv, go_sub.
    rewrite (wrap_id U32) by (unfold in_range; lia). apply wrap_id. unfold in_range. lia.
  - (* addVote, prevote branch.  [isnil] = blockID.Hash.IsZero(), [complete] = isProposalComplete(); the
       model's [gopc] is their disjunction; [hasprop]/[polround] = cs.Proposal != nil / its POLRound, the
       model's [polcase] is the third case's condition on them *)
    intros c nd vr maj complete isnil any hasprop polround.
    cbn [apply]. unfold src_av_commit, src_av_skip, src_av_cur, src_av_pc, src_av_any,
      consensus__ConsensusState_addVote__if_cs_Step_eq_cstypes_RoundStepCommit,
      consensus__ConsensusState_addVote__case_cs_Round_lt_vote_Round_and_prevotes_HasTwoThirdsAny,
      consensus__ConsensusState_addVote__case_cs_Round_eq_vote_Round_and_cstypes_RoundStepPrevote_le_cs_Step,
      consensus__ConsensusState_addVote__if_ok_and_cs_isProposalComplete_or_blockID_Hash_IsZero,
      consensus__ConsensusState_addVote__if_prevotes_HasTwoThirdsAny,
      consensus__ConsensusState_addVote__if_cs_isProposalComplete, sCommit, sPrevote.
    change 8 with (Z.of_N 8). change 4 with (Z.of_N 4). n2z.
    destruct (nS nd =? 8)%N; [reflexivity|].
    destruct ((nR nd <? vr)%N && any)%bool; [reflexivity|].
    destruct ((nR nd =? vr)%N && (4 <=? nS nd)%N)%bool; [reflexivity|].
    destruct (src_av_pol hasprop polround (Z.of_N vr)); cbn [andb]; reflexivity.
  - (* addVote, precommit branch.  [isnil] = blockID.Hash.IsZero(): the model's [nonnil] is its negation *)
    intros c nd vr maj isnil any hasall hb complete.
    cbn [apply]. unfold src_av_commit, src_av_ok2, src_av_nonnil, src_av_skipc, src_av_pcany,
      consensus__ConsensusState_addVote__if_cs_Step_eq_cstypes_RoundStepCommit,
      consensus__ConsensusState_addVote__if_ok_2, consensus__ConsensusState_addVote__if_not_blockID_Hash_IsZero,
      consensus__ConsensusState_addVote__if_cs_config_IsSkipTimeoutCommit_and_precommits_HasAll,
      consensus__ConsensusState_addVote__if_cs_Round_le_vote_Round_and_precommits_HasTwoThirdsAny, sCommit.
    change 8 with (Z.of_N 8). n2z. reflexivity.
  - (* addVote, a precommit of the previous height: only in step NewHeight *)
    intros c nd hasall complete.
    cbn [apply]. unfold src_av_last_step, src_av_last,
      consensus__ConsensusState_addVote__if_cs_Step_ne_cstypes_RoundStepNewHeight,
      consensus__ConsensusState_addVote__if_cs_config_IsSkipTimeoutCommit_and_cs_LastCommit_HasAll, sNewHeight.
    change 1 with (Z.of_N 1). n2z. destruct (nS nd =? 1)%N; cbn [negb andb]; reflexivity.
  - (* addProposalBlockPart once the part set is complete *)
    intros c nd complete has23 hb.
    cbn [apply]. unfold src_bp_step, src_bp_commit, src_bp_23,
      consensus__ConsensusState_addProposalBlockPart__if_cs_Step_le_cstypes_RoundStepPropose_and_cs_isProposalComplete,
      consensus__ConsensusState_addProposalBlockPart__if_cs_Step_eq_cstypes_RoundStepCommit,
      consensus__ConsensusState_addProposalBlockPart__if_hasTwoThirds, sPropose, sCommit.
    change 3 with (Z.of_N 3). change 8 with (Z.of_N 8). n2z. reflexivity.
  - reflexivity.
  - (* enterNewRound: waitForTxs := cs.config.WaitForTxs() && (round == 1) *)
    intros c r.
    unfold consensus__ConsensusState_enterNewRound__set_waitForTxs. change 1 with (Z.of_N 1). n2z. reflexivity.
  - (* Propose/Prevote/Precommit(round) for every uint32 round: [timeout_dur] *)
    intros base delta round Hr.
    assert (Hc : go_conv I64 round = round).
    { unfold go_conv. apply wrap_id. unfold in_range. lia. }
    unfold configs__ConsensusConfig_Propose__ret_time_Duration_cfg_TimeoutPropose_Nanoseconds_plus_cfg_Timeou_924588db,
      configs__ConsensusConfig_Prevote__ret_time_Duration_cfg_TimeoutPrevote_Nanoseconds_plus_cfg_Timeou_98ba0541,
      configs__ConsensusConfig_Precommit__ret_time_Duration_cfg_TimeoutPrecommit_Nanoseconds_plus_cfg_Time_fdba3b3f, timeout_dur.
    rewrite Hc. unfold go_mul, go_add, go_conv. rewrite !wrap_I64, wrap64_idem. repeat split; reflexivity.
  - (* MedianTime hands WeightedMedian the sum of the present powers; the loop runs on the sorted entries *)
    intros present Hw Ht. pose proof (total_weight_nonneg present Hw) as H0.
    destruct (src_median_half (total_weight present) (conj H0 Ht)) as [-> Hm].
    exact (src_wm_loop (sort_wt present) _ (sort_wt_Forall _ present Hw) Hm).
  - (* MedianTime: totalVotingPower += votingPower, without wrap while the sum stays in int64 *)
    intros acc w H. unfold kai_state_cstate__MedianTime__set_totalVotingPower_op, go_add. apply wrap_id. apply in_range_I64. exact H.
Qed.
