(** C13 — tie of the model's guards and arithmetic to the Go SOURCE.
    [Generated/C13Source.v] is produced on every check by /verif/go2coq from /repo's working tree:
    every guard / integer expression of lib/merkle (getSplitPoint, SimpleProof.Verify, ValidateBasic,
    computeHashFromAunts), types/part_set.go (AddPart, Part.ValidateBasic, PartSetHeader.Equals/IsZero,
    IsComplete, GetReader, PartSetReader.Read, NewPartSetFromData), types/block.go and commit.go
    (Block.ValidateBasic, BlockID.Equal/IsZero/IsComplete, Commit.ValidateBasic, CommitSig.ValidateBasic),
    Proposal.ValidateBasic, DeriveSha's loop bounds, VerifyCommit, cstate validateBlock and the part
    loops of rawdb WriteBlock/ReadBlock, as Gallina over [Z] (Base/GoSem.v), with the [_atoms] lists
    naming the Go operands.  The ties are, wherever the model has the function, EQUATIONS of
    the model's own definition: the model function equals the cascade of the source guards applied to
    the model's operands.  An edit of the Go source that changes a comparison, a constant, an operand
    or a guard's text changes the generated file and re-opens these obligations. *)
From Coq Require Import List ZArith NArith Bool Lia String.
From Kardia Require Import Base.Int64 Base.ListX Base.GoSem Base.Conj.
From Kardia Require Import Generated.C13Source.
From Kardia Require Import Generated.C13Facts C13.Model.
Import ListNotations.
Local Open Scope Z_scope.

Local Ltac Zify.zify_post_hook ::= Z.div_mod_to_equations.

Lemma forallb_ext' {A} (f g : A -> bool) l : (forall a, f a = g a) -> forallb f l = forallb g l.
Proof. intros E. induction l as [|x l IH]; [reflexivity|]. cbn [forallb]. rewrite E, IH. reflexivity. Qed.

Lemma src_split_point_atoms :
  lib_merkle__getSplitPoint__if_k_eq_length_atoms = ["k : int"; "length : int"]%string /\
  lib_merkle__getSplitPoint__set_k_op_atoms = ["k : int"]%string /\
  lib_merkle__getSplitPoint__if_length_lt_1_atoms = ["length : int"]%string.
Proof. repeat split; reflexivity. Qed.

(** computeHashFromAunts: the range test on (index, total) and the left/right decision *)
Lemma src_compute_rev_nil H i t lh :
  compute_rev H i t lh [] =
  if lib_merkle__computeHashFromAunts__if_index_ge_total_or_index_lt_0_or_total_le_0 i t then None
  else if Z.eqb t 1 then Some lh else None.
Proof. reflexivity. Qed.
(** (the [switch total] arms: total = 1 wants no aunts left, otherwise at least one) *)
Lemma src_compute_len_guards n :
  lib_merkle__computeHashFromAunts__if_len_innerHashes_ne_0 (Z.of_nat n) = negb (Nat.eqb n 0) /\
  lib_merkle__computeHashFromAunts__if_len_innerHashes_eq_0 (Z.of_nat n) = Nat.eqb n 0.
Proof.
  unfold lib_merkle__computeHashFromAunts__if_len_innerHashes_ne_0, lib_merkle__computeHashFromAunts__if_len_innerHashes_eq_0, go_neqb.
  change 0 with (Z.of_nat 0). rewrite Zofnat_eqb. split; reflexivity.
Qed.
Lemma src_compute_atoms :
  lib_merkle__computeHashFromAunts__if_index_ge_total_or_index_lt_0_or_total_le_0_atoms = ["index : int"; "total : int"]%string /\
  lib_merkle__computeHashFromAunts__if_index_lt_numLeft_atoms = ["index : int"; "numLeft : int"]%string /\
  lib_merkle__computeHashFromAunts__if_len_innerHashes_ne_0_atoms = ["len(innerHashes) : int"]%string /\
  lib_merkle__computeHashFromAunts__if_len_innerHashes_eq_0_atoms = ["len(innerHashes) : int"]%string.
Proof. repeat split; reflexivity. Qed.

Lemma src_verify_atoms :
  lib_merkle__SimpleProof_Verify__if_not_bytes_Equal_sp_LeafHash_leafHash_atoms = ["bytes.Equal(sp.LeafHash, leafHash) : bool"]%string /\
  lib_merkle__SimpleProof_Verify__if_not_bytes_Equal_computedHash_rootHash_atoms = ["bytes.Equal(computedHash, rootHash) : bool"]%string /\
  (* dead on uint64, as the model says *)
  (forall t, (0 <= t)%Z -> lib_merkle__SimpleProof_Verify__if_sp_Total_lt_0 t = false) /\
  (forall i, (0 <= i)%Z -> lib_merkle__SimpleProof_Verify__if_sp_Index_lt_0 i = false).
Proof.
  repeat split; try reflexivity; intros z Hz;
    unfold lib_merkle__SimpleProof_Verify__if_sp_Total_lt_0, lib_merkle__SimpleProof_Verify__if_sp_Index_lt_0;
    apply Z.ltb_ge; exact Hz.
Qed.

Lemma src_proof_validate_basic_atoms :
  lib_merkle__SimpleProof_ValidateBasic__if_len_sp_LeafHash_ne_Size_atoms = ["len(sp.LeafHash) : int"]%string /\
  lib_merkle__SimpleProof_ValidateBasic__if_len_auntHash_ne_Size_atoms = ["len(auntHash) : int"]%string.
Proof. split; reflexivity. Qed.

Definition u64N (n : N) : Prop := (n < 18446744073709551616)%N.

Lemma src_add_part_atoms :
  types__PartSet_AddPart__if_part_Index_ge_ps_total_atoms = ["part.Index : uint32"; "ps.total : uint32"]%string /\
  types__PartSet_AddPart__if_part_Proof_Index_ne_uint64_part_Index_or_part_Proof_Total_ne_9efbf145_atoms
  = ["part.Proof.Index : uint64"; "part.Index : uint32"; "part.Proof.Total : uint64"; "ps.total : uint32"]%string.
Proof. split; reflexivity. Qed.

Lemma src_part_validate_basic_atoms :
  types__Part_ValidateBasic__if_len_part_Bytes_gt_BlockPartSizeBytes_atoms = ["len(part.Bytes) : int"]%string.
Proof. reflexivity. Qed.

Lemma src_blockid_atoms :
  types__PartSetHeader_Equals__ret_psh_Total_eq_other_Total_and_common_Hash_Equal_psh_Hash_other_Hash_atoms
  = ["psh.Total : uint32"; "other.Total : uint32"; "common.Hash.Equal(psh.Hash, other.Hash) : bool"]%string /\
  types__PartSetHeader_IsZero__ret_psh_Total_eq_0_and_psh_Hash_IsZero_atoms = ["psh.Total : uint32"; "psh.Hash.IsZero() : bool"]%string /\
  types__BlockID_Equal__ret_blockID_Hash_Equal_other_Hash_and_blockID_PartsHeader_Equals_d815eb38_atoms
  = ["blockID.Hash.Equal(other.Hash) : bool"; "blockID.PartsHeader.Equals(other.PartsHeader) : bool"]%string /\
  types__BlockID_IsZero__ret_blockID_Hash_IsZero_and_blockID_PartsHeader_IsZero_atoms
  = ["blockID.Hash.IsZero() : bool"; "blockID.PartsHeader.IsZero() : bool"]%string /\
  types__BlockID_IsComplete__ret_not_blockID_Hash_IsZero_and_not_blockID_PartsHeader_IsZero_atoms
  = ["blockID.Hash.IsZero() : bool"; "blockID.PartsHeader.IsZero() : bool"]%string /\
  (forall x y, types__BlockID_IsComplete__ret_not_blockID_Hash_IsZero_and_not_blockID_PartsHeader_IsZero x y = (negb x && negb y)%bool).
Proof. split_all; reflexivity. Qed.

Lemma src_reader_atoms :
  types__PartSet_IsComplete__ret_ps_count_eq_ps_total_atoms = ["ps.count : uint32"; "ps.total : uint32"]%string /\
  types__PartSet_GetReader__if_not_ps_IsComplete_atoms = ["ps.IsComplete() : bool"]%string /\
  (* the reader walks the parts in index order until [psr.i >= len(psr.parts)] *)
  types__PartSetReader_Read__if_psr_i_ge_len_psr_parts_atoms = ["psr.i : int"; "len(psr.parts) : int"]%string /\
  (forall i n, types__PartSetReader_Read__if_psr_i_ge_len_psr_parts (Z.of_nat i) (Z.of_nat n) = negb (Nat.ltb i n)) /\
  types__PartSetReader_Read__if_readerLen_ge_len_p_atoms = ["readerLen : int"; "len(p) : int"]%string /\
  types__PartSetReader_Read__if_readerLen_gt_0_atoms = ["readerLen : int"]%string /\
  (forall a b, types__PartSetReader_Read__if_readerLen_ge_len_p a b = Z.geb a b) /\
  (forall a, types__PartSetReader_Read__if_readerLen_gt_0 a = Z.gtb a 0) /\
  (forall a b, types__PartSetReader_Read__ret_n1_plus_n2 a b = wrap64 (a + b)).
Proof.
  split_all; try reflexivity. intros i n.
  unfold types__PartSetReader_Read__if_psr_i_ge_len_psr_parts. rewrite Z.geb_leb.
  destruct (Nat.ltb_spec i n); destruct (Z.leb_spec (Z.of_nat n) (Z.of_nat i)); try reflexivity; lia.
Qed.

(** NewPartSetFromData: total = (uint32(len(data)) + partSize - 1) / partSize in uint32 arithmetic — the
    model's total on its (wrap-free) domain, i.e. wherever [from_data] is defined *)
Lemma src_from_data_total (len psz : N) : psz <> 0%N -> (len + psz - 1 < two32)%N ->
  types__NewPartSetFromData__set_total (Z.of_N len) (Z.of_N psz) = Z.of_N ((len + psz - 1) / psz).
Proof.
  unfold two32. intros Hp Hl.
  unfold types__NewPartSetFromData__set_total, go_quot, go_sub, go_add, go_conv.
  rewrite (wrap_id U32 (Z.of_N len)) by (unfold in_range; lia).
  assert (E : wrap U32 (wrap U32 (Z.of_N len + Z.of_N psz) - 1) = Z.of_N len + Z.of_N psz - 1).
  { unfold wrap. rewrite Zminus_mod_idemp_l. apply Z.mod_small. lia. }
  rewrite E. rewrite Z.quot_div_nonneg by lia.
  assert (Hq : 0 <= (Z.of_N len + Z.of_N psz - 1) / Z.of_N psz <= Z.of_N len + Z.of_N psz - 1).
  { split; [apply Z.div_pos; lia|]. apply Z.div_le_upper_bound; [lia|]. nia. }
  rewrite wrap_id by (unfold in_range; lia).
  rewrite N2Z.inj_div, N2Z.inj_sub, N2Z.inj_add by lia. reflexivity.
Qed.
Lemma src_from_data H data psz full : from_data H data psz = Some full ->
  Z.of_N (ps_total full) = types__NewPartSetFromData__set_total (Z.of_nat (List.length data)) (Z.of_N psz).
Proof.
  unfold from_data. cbv zeta. intros Hf.
  destruct (N.eqb_spec psz 0) as [|Hp]; [discriminate|].
  destruct (N.leb_spec two32 (N.of_nat (List.length data) + psz - 1)) as [|Hl]; [discriminate|].
  destruct (proofs_from H (chunks_of data psz)) as [[r prs]|]; [|discriminate].
  inversion Hf. cbn [ps_total]. rewrite <- nat_N_Z. symmetry. apply src_from_data_total; assumption.
Qed.
Lemma src_from_data_atoms :
  types__NewPartSetFromData__set_total_atoms = ["len(data) : int"; "partSize : uint32"]%string /\
  types__NewPartSetFromData__forinit_i = 0 /\ types__NewPartSetFromData__forinit_i_2 = 0.
Proof. repeat split; reflexivity. Qed.

(** AddPart's remaining (single-operand) conditions and the counter *)
Lemma src_add_part_count c : (c < 4294967295)%N ->
  types__PartSet_AddPart__set_count_op (Z.of_N c) = Z.of_N (c + 1).
Proof.
  intros Hc. unfold types__PartSet_AddPart__set_count_op, go_add. rewrite wrap_id by (unfold in_range; lia). lia.
Qed.
Lemma src_add_part_bare_atoms :
  types__PartSet_AddPart__if_ps_parts_at_part_Index_ne_nil_atoms = ["ps.parts[part.Index] != nil : untyped bool"]%string /\
  types__PartSet_AddPart__if_part_Proof_Verify_ps_Hash__Bytes_part_Bytes_ne_nil_atoms = ["part.Proof.Verify(ps.Hash().Bytes(), part.Bytes) != nil : untyped bool"]%string /\
  types__PartSet_AddPart__set_count_op_atoms = ["ps.count : uint32"]%string /\
  (forall x, types__PartSet_AddPart__if_ps_parts_at_part_Index_ne_nil x = x) /\
  (forall x, types__PartSet_AddPart__if_part_Proof_Verify_ps_Hash__Bytes_part_Bytes_ne_nil x = x).
Proof. split_all; reflexivity. Qed.

(** NewPartSetFromData fills parts 0 .. total-1 (both loops) — the index list of the model's [chunks_of] *)
Lemma src_from_data_loops i total :
  (In i (seq 0 total) <-> types__NewPartSetFromData__for_i_lt_total (Z.of_nat i) (Z.of_nat total) = true) /\
  (In i (seq 0 total) <-> types__NewPartSetFromData__for_i_lt_total_2 (Z.of_nat i) (Z.of_nat total) = true).
Proof.
  unfold types__NewPartSetFromData__for_i_lt_total, types__NewPartSetFromData__for_i_lt_total_2.
  rewrite in_seq, Z.ltb_lt. split; split; lia.
Qed.

(** Block.ValidateBasic, whole (the model's [validate_basic] as the cascade of the source guards) *)
Lemma src_validate_basic H K TxRoot b :
  validate_basic H K TxRoot b =
  let h := b_header b in
  let pre :=
    if types__Block_ValidateBasic__if_b_header_Height_gt_1 (Z.of_N (h_height h)) then
      match b_last b with None => VbNilLastCommit | Some c => commit_validate c end
    else VbOk in
  match pre with
  | VbOk =>
    let lc :=
      match b_last b with
      | None => if types__Block_ValidateBasic__if_b_lastCommit_eq_nil_and_not_b_header_LastCommitHash_IsZero true (is_zero_hash (h_lastcommit h))
                then VbLastCommitHash else VbOk
      | Some c => match commit_hash H c with
                  | None => VbPanic
                  | Some ch => if types__Block_ValidateBasic__if_b_lastCommit_ne_nil_and_not_b_header_LastCommitHash_Equal_b__cf547c83 true (bytes_eqb (h_lastcommit h) ch)
                               then VbLastCommitHash else VbOk
                  end
      end in
    match lc with
    | VbOk =>
      if types__Block_ValidateBasic__if_not_w_Equal_g (bytes_eqb (TxRoot (b_txs b)) (h_txhash h)) then VbDataHash
      else if negb (forallb (fun e => snd e) (b_evs b)) then VbEvidenceInvalid
      else if types__Block_ValidateBasic__if_not_w_Equal_g_2 (bytes_eqb (evidence_hash H K (map fst (b_evs b))) (h_evidence h)) then VbEvidenceHash
      else VbOk
    | e => e
    end
  | e => e
  end.
Proof.
  unfold validate_basic, types__Block_ValidateBasic__if_b_header_Height_gt_1. cbv zeta.
  rewrite Z.gtb_ltb. change 1 with (Z.of_N 1). rewrite ZofN_ltb. reflexivity.
Qed.
Lemma src_validate_basic_atoms :
  types__Block_ValidateBasic__if_b_header_Height_gt_1_atoms = ["b.header.Height : uint64"]%string /\
  types__Block_ValidateBasic__if_b_lastCommit_eq_nil_and_not_b_header_LastCommitHash_IsZero_atoms
  = ["b.lastCommit == nil : bool"; "b.header.LastCommitHash.IsZero() : bool"]%string /\
  types__Block_ValidateBasic__if_b_lastCommit_ne_nil_and_not_b_header_LastCommitHash_Equal_b__cf547c83_atoms
  = ["b.lastCommit != nil : bool"; "b.header.LastCommitHash.Equal(b.lastCommit.Hash()) : bool"]%string /\
  types__Block_ValidateBasic__if_not_w_Equal_g_atoms = ["w.Equal(g) : bool"]%string /\
  types__Block_ValidateBasic__if_not_w_Equal_g_2_atoms = ["w.Equal(g) : bool"]%string.
Proof. split_all; reflexivity. Qed.

(** CommitSig.ValidateBasic: an absent slot carries no address, no time, no signature; any other slot
    carries a signature (the [switch cs.BlockIDFlag] itself is outside the translated subset) *)
Lemma src_commit_sig_ok c :
  commit_sig_ok c =
  if N.eqb (cs_flag c) 1 then
    (negb (types__CommitSig_ValidateBasic__if_not_cs_ValidatorAddress_Equal_common_Address (bytes_eqb (cs_addr c) (repeat 0%N 20))) &&
     negb (types__CommitSig_ValidateBasic__if_not_cs_Timestamp_IsZero
             (Z.eqb (t_secs (cs_time c)) min_valid_seconds && Z.eqb (t_nanos (cs_time c)) 0)) &&
     negb (types__CommitSig_ValidateBasic__if_len_cs_Signature_ne_0 (Z.of_nat (List.length (cs_sig c)))))%bool
  else if (N.eqb (cs_flag c) 2 || N.eqb (cs_flag c) 3)%bool then
    negb (types__CommitSig_ValidateBasic__if_len_cs_Signature_eq_0 (Z.of_nat (List.length (cs_sig c))))
  else false.
Proof.
  unfold commit_sig_ok, types__CommitSig_ValidateBasic__if_not_cs_ValidatorAddress_Equal_common_Address,
    types__CommitSig_ValidateBasic__if_not_cs_Timestamp_IsZero, types__CommitSig_ValidateBasic__if_len_cs_Signature_ne_0,
    types__CommitSig_ValidateBasic__if_len_cs_Signature_eq_0, go_neqb.
  rewrite !negb_involutive.
  destruct (N.eqb (cs_flag c) 1); [|destruct (N.eqb (cs_flag c) 2 || N.eqb (cs_flag c) 3)%bool; [|reflexivity]];
    destruct (cs_sig c); reflexivity.
Qed.
Lemma src_commit_atoms :
  types__Commit_ValidateBasic__if_commit_Height_ge_1_atoms = ["commit.Height : uint64"]%string /\
  types__Commit_ValidateBasic__if_len_commit_Signatures_eq_0_atoms = ["len(commit.Signatures) : int"]%string /\
  types__CommitSig_ValidateBasic__if_not_cs_ValidatorAddress_Equal_common_Address_atoms = ["cs.ValidatorAddress.Equal(common.Address{}) : bool"]%string /\
  types__CommitSig_ValidateBasic__if_not_cs_Timestamp_IsZero_atoms = ["cs.Timestamp.IsZero() : bool"]%string /\
  types__CommitSig_ValidateBasic__if_len_cs_Signature_ne_0_atoms = ["len(cs.Signature) : int"]%string /\
  types__CommitSig_ValidateBasic__if_len_cs_Signature_eq_0_atoms = ["len(cs.Signature) : int"]%string.
Proof. split_all; reflexivity. Qed.

Lemma src_proposal_atoms :
  types__Proposal_ValidateBasic__if_p_POLBlockID_PartsHeader_Total_gt_MaxBlockPartsCount_atoms = ["p.POLBlockID.PartsHeader.Total : uint32"]%string /\
  types__Proposal_ValidateBasic__if_not_p_POLBlockID_IsComplete_atoms = ["p.POLBlockID.IsComplete() : bool"]%string /\
  types__Proposal_ValidateBasic__if_len_p_Signature_eq_0_atoms = ["len(p.Signature) : int"]%string.
Proof. repeat split; reflexivity. Qed.

(** The transaction root is a parameter of the model ([TxRoot], C07).  What C13 needs from DeriveSha is
    that the header commits to EVERY transaction: the three insertion loops (i from 1 while
    [i < Len && i <= 0x7f]; index 0 if [Len > 0]; i from 0x80 while [i < Len] — the start values 1 and
    0x80 are loop initialisers, outside the translated guards) insert every index of the list exactly
    once.  The loops start at their translated initialisers and step by [i + 1]. *)
Definition derive_inserted (n i : Z) : nat :=
  ((if (Z.leb types__DeriveSha__forinit_i i && types__DeriveSha__for_i_lt_list_Len_and_i_le_0x7f i n)%bool then 1 else 0) +
   (if (Z.eqb i 0 && types__DeriveSha__if_list_Len_gt_0 n)%bool then 1 else 0) +
   (if (Z.leb types__DeriveSha__forinit_i_2 i && types__DeriveSha__for_i_lt_list_Len i n)%bool then 1 else 0))%nat.

Lemma src_derive_sha_steps i : 0 <= i < 9223372036854775807 ->
  types__DeriveSha__set_i_op i = i + 1 /\ types__DeriveSha__set_i_op_2 i = i + 1.
Proof.
  intros Hi. unfold types__DeriveSha__set_i_op, types__DeriveSha__set_i_op_2, go_add.
  rewrite wrap_id by (unfold in_range; lia). split; reflexivity.
Qed.

Lemma src_derive_sha_atoms :
  types__DeriveSha__for_i_lt_list_Len_and_i_le_0x7f_atoms = ["i : int"; "list.Len() : int"]%string /\
  types__DeriveSha__if_list_Len_gt_0_atoms = ["list.Len() : int"]%string /\
  types__DeriveSha__for_i_lt_list_Len_atoms = ["i : int"; "list.Len() : int"]%string.
Proof. repeat split; reflexivity. Qed.

Lemma src_verify_commit_atoms :
  types__ValidatorSet_VerifyCommit__if_vs_Size_ne_len_commit_Signatures_atoms = ["vs.Size() : int"; "len(commit.Signatures) : int"]%string /\
  types__ValidatorSet_VerifyCommit__if_height_ne_commit_GetHeight_atoms = ["height : uint64"; "commit.GetHeight() : uint64"]%string /\
  types__ValidatorSet_VerifyCommit__if_not_blockID_Equal_commit_BlockID_atoms = ["blockID.Equal(commit.BlockID) : bool"]%string.
Proof. repeat split; reflexivity. Qed.

Lemma src_u64_succ n : u64N n -> go_add U64 (Z.of_N n) 1 = Z.of_N (u64_succ n).
Proof.
  unfold u64N, go_add, wrap, u64_succ, two64N. intros Hn.
  rewrite N2Z.inj_mod. rewrite N2Z.inj_add. reflexivity.
Qed.

(** the third height test of validateBlock is implied by the first (the model leaves it out) *)
Lemma src_validate_block_dead_guard l h :
  kai_state_cstate__validateBlock__if_block_Height_ne_state_LastBlockHeight_plus_1 h l = false ->
  kai_state_cstate__validateBlock__if_state_LastBlockHeight_gt_0_and_block_Height_ne_state_LastBlo_85dde98c l h = false.
Proof.
  unfold kai_state_cstate__validateBlock__if_block_Height_ne_state_LastBlockHeight_plus_1,
    kai_state_cstate__validateBlock__if_state_LastBlockHeight_gt_0_and_block_Height_ne_state_LastBlo_85dde98c.
  intros E. rewrite E. apply andb_false_r.
Qed.

(** validateBlock, whole: the model's [validate_block] is the cascade of the source guards on the
    model's operands, in the order of the code *)
Lemma src_validate_block H K TxRoot st x b : u64N (st_last_height st) ->
  validate_block H K TxRoot st x b =
  let h := b_header b in
  match validate_basic H K TxRoot b with
  | VbOk =>
    if kai_state_cstate__validateBlock__if_block_Height_ne_state_LastBlockHeight_plus_1 (Z.of_N (h_height h)) (Z.of_N (st_last_height st)) then VsHeight
    else if kai_state_cstate__validateBlock__if_state_LastBlockHeight_eq_0_and_block_Height_ne_state_InitialHeight
              (Z.of_N (st_last_height st)) (Z.of_N (h_height h)) (Z.of_N (st_initial st)) then VsHeight
    else if kai_state_cstate__validateBlock__if_not_block_Header__LastBlockID_Equal_state_LastBlockID (blockid_eqb (h_last h) (st_last_bid st)) then VsLastBlockID
    else if kai_state_cstate__validateBlock__if_not_block_AppHash__Equal_state_AppHash (bytes_eqb (h_app h) (st_app st)) then VsAppHash
    else if kai_state_cstate__validateBlock__if_not_block_Header__ValidatorsHash_Equal_state_Validators_Hash (bytes_eqb (h_valhash h) (st_valhash st)) then VsValHash
    else if kai_state_cstate__validateBlock__if_not_block_Header__NextValidatorsHash_Equal_state_NextValidators_Hash (bytes_eqb (h_nextval h) (st_nextvalhash st)) then VsNextValHash
    else
      match b_last b with
      | None => VsNilLastCommit
      | Some c =>
        let cm :=
          if kai_state_cstate__validateBlock__if_block_Height_eq_state_InitialHeight (Z.of_N (h_height h)) (Z.of_N (st_initial st)) then
            if kai_state_cstate__validateBlock__if_len_block_LastCommit__Signatures_ne_0 (Z.of_nat (List.length (c_sigs c))) then VsInitialSigs else VsOk
          else
            match verify_commit (st_lastvals_size st) (st_last_bid st) (u64_pred (h_height h)) (x_sigs_ok x) c with
            | VcOk => VsOk
            | e => VsCommit e
            end in
        match cm with
        | VsOk =>
          let tm :=
            if kai_state_cstate__validateBlock__case_block_Height_gt_state_InitialHeight (Z.of_N (h_height h)) (Z.of_N (st_initial st)) then
              if kai_state_cstate__validateBlock__if_not_block_Time__After_state_LastBlockTime (time_ltb (st_last_time st) (h_time h)) then VsTimeNotAfter
              else if kai_state_cstate__validateBlock__if_not_block_Time__Equal_medianTime (time_eqb (h_time h) (x_median x)) then VsTimeMedian
              else VsOk
            else if kai_state_cstate__validateBlock__case_block_Height_eq_state_InitialHeight (Z.of_N (h_height h)) (Z.of_N (st_initial st)) then
              if kai_state_cstate__validateBlock__if_not_block_Time__Equal_genesisTime (time_eqb (h_time h) (st_last_time st)) then VsTimeGenesis else VsOk
            else VsBelowInitial in
          match tm with
          | VsOk =>
            if kai_state_cstate__validateBlock__if_numEvidence_gt_maxNumEvidence (Z.of_nat (List.length (b_evs b))) (st_max_evidence st) then VsEvidenceOverflow
            else if kai_state_cstate__validateBlock__if_not_state_Validators_HasAddress_block_ProposerAddress (x_proposer_known x) then VsProposer
            else if negb (x_evpool_ok x) then VsEvidencePool
            else VsOk
          | e => e
          end
        | e => e
        end
      end
  | e => VsBasic e
  end.
Proof.
  intros Hl. unfold validate_block. cbv zeta.
  unfold kai_state_cstate__validateBlock__if_block_Height_ne_state_LastBlockHeight_plus_1,
    kai_state_cstate__validateBlock__if_state_LastBlockHeight_eq_0_and_block_Height_ne_state_InitialHeight,
    kai_state_cstate__validateBlock__if_not_block_Header__LastBlockID_Equal_state_LastBlockID,
    kai_state_cstate__validateBlock__if_not_block_AppHash__Equal_state_AppHash,
    kai_state_cstate__validateBlock__if_not_block_Header__ValidatorsHash_Equal_state_Validators_Hash,
    kai_state_cstate__validateBlock__if_not_block_Header__NextValidatorsHash_Equal_state_NextValidators_Hash,
    kai_state_cstate__validateBlock__if_block_Height_eq_state_InitialHeight,
    kai_state_cstate__validateBlock__if_len_block_LastCommit__Signatures_ne_0,
    kai_state_cstate__validateBlock__case_block_Height_gt_state_InitialHeight,
    kai_state_cstate__validateBlock__if_not_block_Time__After_state_LastBlockTime,
    kai_state_cstate__validateBlock__if_not_block_Time__Equal_medianTime,
    kai_state_cstate__validateBlock__case_block_Height_eq_state_InitialHeight,
    kai_state_cstate__validateBlock__if_not_block_Time__Equal_genesisTime,
    kai_state_cstate__validateBlock__if_numEvidence_gt_maxNumEvidence,
    kai_state_cstate__validateBlock__if_not_state_Validators_HasAddress_block_ProposerAddress.
  rewrite (src_u64_succ _ Hl). unfold go_neqb. change 0 with (Z.of_N 0) at 1.
  rewrite !ZofN_eqb, !Z.gtb_ltb, ZofN_ltb.
  destruct (validate_basic H K TxRoot b); try reflexivity.
  destruct (b_last b) as [c|]; [|reflexivity].
  replace (negb (Z.of_nat (List.length (c_sigs c)) =? 0)) with (match c_sigs c with [] => false | _ => true end)
    by (destruct (c_sigs c); reflexivity).
  destruct (c_sigs c); reflexivity.
Qed.
Lemma src_validate_block_atoms :
  kai_state_cstate__validateBlock__if_block_Height_ne_state_LastBlockHeight_plus_1_atoms = ["block.Height() : uint64"; "state.LastBlockHeight : uint64"]%string /\
  kai_state_cstate__validateBlock__if_state_LastBlockHeight_eq_0_and_block_Height_ne_state_InitialHeight_atoms
  = ["state.LastBlockHeight : uint64"; "block.Height() : uint64"; "state.InitialHeight : uint64"]%string /\
  kai_state_cstate__validateBlock__if_not_block_Header__LastBlockID_Equal_state_LastBlockID_atoms = ["block.Header().LastBlockID.Equal(state.LastBlockID) : bool"]%string /\
  kai_state_cstate__validateBlock__if_not_block_AppHash__Equal_state_AppHash_atoms = ["block.AppHash().Equal(state.AppHash) : bool"]%string /\
  kai_state_cstate__validateBlock__if_not_block_Header__ValidatorsHash_Equal_state_Validators_Hash_atoms
  = ["block.Header().ValidatorsHash.Equal(state.Validators.Hash()) : bool"]%string /\
  kai_state_cstate__validateBlock__if_not_block_Header__NextValidatorsHash_Equal_state_NextValidators_Hash_atoms
  = ["block.Header().NextValidatorsHash.Equal(state.NextValidators.Hash()) : bool"]%string /\
  kai_state_cstate__validateBlock__if_block_Height_eq_state_InitialHeight_atoms = ["block.Height() : uint64"; "state.InitialHeight : uint64"]%string /\
  kai_state_cstate__validateBlock__if_len_block_LastCommit__Signatures_ne_0_atoms = ["len(block.LastCommit().Signatures) : int"]%string /\
  kai_state_cstate__validateBlock__case_block_Height_gt_state_InitialHeight_atoms = ["block.Height() : uint64"; "state.InitialHeight : uint64"]%string /\
  kai_state_cstate__validateBlock__if_not_block_Time__After_state_LastBlockTime_atoms = ["block.Time().After(state.LastBlockTime) : bool"]%string /\
  kai_state_cstate__validateBlock__if_not_block_Time__Equal_medianTime_atoms = ["block.Time().Equal(medianTime) : bool"]%string /\
  kai_state_cstate__validateBlock__case_block_Height_eq_state_InitialHeight_atoms = ["block.Height() : uint64"; "state.InitialHeight : uint64"]%string /\
  kai_state_cstate__validateBlock__if_not_block_Time__Equal_genesisTime_atoms = ["block.Time().Equal(genesisTime) : bool"]%string /\
  kai_state_cstate__validateBlock__if_numEvidence_gt_maxNumEvidence_atoms = ["numEvidence : int64"; "maxNumEvidence : int64"]%string /\
  kai_state_cstate__validateBlock__if_not_state_Validators_HasAddress_block_ProposerAddress_atoms = ["state.Validators.HasAddress(block.ProposerAddress()) : bool"]%string.
Proof. split_all; reflexivity. Qed.

(** BlockExecutor.ValidateBlock: the cache lookup decides between the hit path and the full validation,
    and only a full validation WITHOUT error fills the cache — the model's [exec_validate] *)
Lemma src_exec_validate H K TxRoot cache st x b :
  exec_validate H K TxRoot cache st x b =
  if kai_state_cstate__BlockExecutor_ValidateBlock__if_ok (existsb (vkey_eqb (validation_key K b)) cache) then
    (match validate_basic H K TxRoot b with VbOk => VsOk | e => VsBasic e end, cache)
  else
    let r := validate_block H K TxRoot st x b in
    if kai_state_cstate__BlockExecutor_ValidateBlock__if_err_ne_nil (match r with VsOk => false | _ => true end)
    then (r, cache) else (VsOk, validation_key K b :: cache).
Proof.
  unfold exec_validate, kai_state_cstate__BlockExecutor_ValidateBlock__if_ok, kai_state_cstate__BlockExecutor_ValidateBlock__if_err_ne_nil.
  destruct (existsb (vkey_eqb (validation_key K b)) cache); [reflexivity|].
  cbv zeta. destruct (validate_block H K TxRoot st x b); reflexivity.
Qed.
Lemma src_validation_key K b :
  vk_meta (validation_key K b) =
  if kai_state_cstate__validationKey__if_lc_eq_nil (match b_last b with None => true | Some _ => false end) then None
  else match b_last b with None => None | Some c => Some (c_height c, c_round c, c_bid c) end.
Proof. unfold validation_key, kai_state_cstate__validationKey__if_lc_eq_nil. cbn [vk_meta]. destruct (b_last b); reflexivity. Qed.
Lemma src_exec_validate_atoms :
  kai_state_cstate__BlockExecutor_ValidateBlock__if_ok_atoms = ["ok : bool"]%string /\
  kai_state_cstate__BlockExecutor_ValidateBlock__if_err_ne_nil_atoms = ["err != nil : untyped bool"]%string /\
  kai_state_cstate__validationKey__if_lc_eq_nil_atoms = ["lc == nil : untyped bool"]%string.
Proof. repeat split; reflexivity. Qed.

(** the part loops of WriteBlock and ReadBlock visit exactly the indices 0 .. Total-1 — the index list
    of the model's [put_parts] / [read_parts] *)
Lemma src_store_loops i total : (Z.of_nat total < 4294967296) ->
  (In i (seq 0 total) <-> kai_rawdb__WriteBlock__for_i_lt_int_blockParts_Total (Z.of_nat i) (Z.of_nat total) = true) /\
  (In i (seq 0 total) <-> kai_rawdb__ReadBlock__for_i_lt_int_blockMeta_BlockID_PartsHeader_Total (Z.of_nat i) (Z.of_nat total) = true).
Proof.
  intros Ht. unfold kai_rawdb__WriteBlock__for_i_lt_int_blockParts_Total, kai_rawdb__ReadBlock__for_i_lt_int_blockMeta_BlockID_PartsHeader_Total, go_conv.
  rewrite wrap_id by (unfold in_range; lia). rewrite in_seq, Z.ltb_lt. split; split; lia.
Qed.
Lemma src_store_loop_steps i : 0 <= i < 9223372036854775807 ->
  kai_rawdb__WriteBlock__forinit_i = 0 /\ kai_rawdb__ReadBlock__forinit_i = 0 /\
  kai_rawdb__WriteBlock__set_i_op i = i + 1 /\ kai_rawdb__ReadBlock__set_i_op i = i + 1.
Proof.
  intros Hi. unfold kai_rawdb__WriteBlock__set_i_op, kai_rawdb__ReadBlock__set_i_op, go_add.
  rewrite wrap_id by (unfold in_range; lia). repeat split; reflexivity.
Qed.
Lemma src_store_atoms :
  kai_rawdb__WriteBlock__for_i_lt_int_blockParts_Total_atoms = ["i : int"; "blockParts.Total() : uint32"]%string /\
  kai_rawdb__ReadBlock__for_i_lt_int_blockMeta_BlockID_PartsHeader_Total_atoms = ["i : int"; "blockMeta.BlockID.PartsHeader.Total : uint32"]%string.
Proof. split; reflexivity. Qed.

Definition C13_source_tie_statement : Prop :=
  (types__BlockPartSizeBytes = Z.of_N block_part_size_bytes /\ types__MaxBlockPartsCount = Z.of_N max_block_parts_count /\
   types__MaxBlockSizeBytes = Z.of_N max_block_size_bytes)
  /\ (forall n, (n < 4611686018427387904)%N ->
        Z.of_N (split_point n) =
        let k := Z.of_N (2 ^ N.log2 n) in
        if lib_merkle__getSplitPoint__if_k_eq_length k (Z.of_N n) then lib_merkle__getSplitPoint__set_k_op k else k)
  /\ (forall H i t lh a ra,
        compute_rev H i t lh (a :: ra) =
        if lib_merkle__computeHashFromAunts__if_index_ge_total_or_index_lt_0_or_total_le_0 i t then None
        else if Z.eqb t 1 then None
        else let numLeft := Z.of_N (split_point (Z.to_N t)) in
             if lib_merkle__computeHashFromAunts__if_index_lt_numLeft i numLeft then
               match compute_rev H i numLeft lh ra with None => None | Some l => Some (inner_hash H l a) end
             else match compute_rev H (i - numLeft) (t - numLeft) lh ra with
                  | None => None | Some r => Some (inner_hash H a r) end)
  /\ (forall H r leaf p,
        verify H r leaf p =
        if lib_merkle__SimpleProof_Verify__if_not_bytes_Equal_sp_LeafHash_leafHash (bytes_eqb (p_leaf p) (leaf_hash H leaf)) then VLeafHash
        else if lib_merkle__SimpleProof_Verify__if_not_bytes_Equal_computedHash_rootHash
                  (bytes_eqb (match compute_from_aunts H (to_int (p_index p)) (to_int (p_total p)) (p_leaf p) (p_aunts p) with
                              | Some h => h | None => [] end) r)
             then VRootHash else VOk)
  /\ (forall p, proof_validate_basic p =
        (negb (lib_merkle__SimpleProof_ValidateBasic__if_len_sp_LeafHash_ne_Size (Z.of_nat (List.length (p_leaf p)))) &&
         forallb (fun a => negb (lib_merkle__SimpleProof_ValidateBasic__if_len_auntHash_ne_Size (Z.of_nat (List.length a)))) (p_aunts p))%bool)
  /\ (forall H ps p, u64N (pt_index p) -> u64N (ps_total ps) ->
        add_part H ps p =
        if types__PartSet_AddPart__if_part_Index_ge_ps_total (Z.of_N (pt_index p)) (Z.of_N (ps_total ps))
        then (ps, (false, EUnexpectedIndex))
        else match nth_error (ps_parts ps) (N.to_nat (pt_index p)) with
             | None => (ps, (false, ECrash))
             | Some (Some _) => (ps, (false, ENone))
             | Some None =>
               if types__PartSet_AddPart__if_part_Proof_Index_ne_uint64_part_Index_or_part_Proof_Total_ne_9efbf145
                    (Z.of_N (p_index (pt_proof p))) (Z.of_N (pt_index p)) (Z.of_N (p_total (pt_proof p))) (Z.of_N (ps_total ps))
               then (ps, (false, EInvalidProof))
               else match verify H (ps_hash ps) (pt_bytes p) (pt_proof p) with
                    | VOk => ({| ps_total := ps_total ps; ps_hash := ps_hash ps;
                                 ps_parts := set_nth (N.to_nat (pt_index p)) (Some p) (ps_parts ps);
                                 ps_count := (ps_count ps + 1)%N |}, (true, ENone))
                    | _ => (ps, (false, EInvalidProof))
                    end
             end)
  /\ (forall bz, part_validate_basic block_part_size_bytes bz =
        negb (types__Part_ValidateBasic__if_len_part_Bytes_gt_BlockPartSizeBytes (Z.of_nat (List.length bz))))
  /\ (forall a b, psheader_eqb a b =
        types__PartSetHeader_Equals__ret_psh_Total_eq_other_Total_and_common_Hash_Equal_psh_Hash_other_Hash
          (Z.of_N (psh_total a)) (Z.of_N (psh_total b)) (bytes_eqb (psh_hash a) (psh_hash b)))
  /\ (forall a b, blockid_eqb a b =
        types__BlockID_Equal__ret_blockID_Hash_Equal_other_Hash_and_blockID_PartsHeader_Equals_d815eb38
          (bytes_eqb (bid_hash a) (bid_hash b)) (psheader_eqb (bid_parts a) (bid_parts b)))
  /\ (forall b, blockid_is_zero b =
        types__BlockID_IsZero__ret_blockID_Hash_IsZero_and_blockID_PartsHeader_IsZero (is_zero_hash (bid_hash b))
          (types__PartSetHeader_IsZero__ret_psh_Total_eq_0_and_psh_Hash_IsZero (Z.of_N (psh_total (bid_parts b))) (is_zero_hash (psh_hash (bid_parts b)))))
  /\ (forall ps, is_complete ps = types__PartSet_IsComplete__ret_ps_count_eq_ps_total (Z.of_N (ps_count ps)) (Z.of_N (ps_total ps)))
  /\ (forall ps, read_all ps =
        if types__PartSet_GetReader__if_not_ps_IsComplete (is_complete ps) then None
        else match ps_parts ps with [] => None | _ => concat_parts (ps_parts ps) end)
  /\ (forall c, commit_validate c =
        if types__Commit_ValidateBasic__if_commit_Height_ge_1 (Z.of_N (c_height c)) then
          if blockid_is_zero (c_bid c) then VbCommitNilBlock
          else if types__Commit_ValidateBasic__if_len_commit_Signatures_eq_0 (Z.of_nat (List.length (c_sigs c))) then VbCommitNoSigs
          else if forallb commit_sig_ok (c_sigs c) then VbOk else VbCommitSig
        else VbOk)
  /\ (forall total, proposal_parts_ok total =
        negb (types__Proposal_ValidateBasic__if_p_POLBlockID_PartsHeader_Total_gt_MaxBlockPartsCount (Z.of_N total)))
  /\ (forall n i, (0 <= i < n -> derive_inserted n i = 1%nat) /\ (~ (0 <= i < n) -> derive_inserted n i = 0%nat))
  /\ (forall size bid height sigs_ok c,
        verify_commit size bid height sigs_ok c =
        match commit_validate c with
        | VbOk =>
          if types__ValidatorSet_VerifyCommit__if_vs_Size_ne_len_commit_Signatures (Z.of_N size) (Z.of_nat (List.length (c_sigs c))) then VcSize
          else if types__ValidatorSet_VerifyCommit__if_height_ne_commit_GetHeight (Z.of_N height) (Z.of_N (c_height c)) then VcHeight
          else if types__ValidatorSet_VerifyCommit__if_not_blockID_Equal_commit_BlockID (blockid_eqb bid (c_bid c)) then VcBlockID
          else if negb sigs_ok then VcSigs else VcOk
        | e => VcBasic e
        end)
  (* the three long cascades, as stated in full above: Block.ValidateBasic, CommitSig.ValidateBasic, validateBlock *)
  /\ ltac:(let t := type of src_validate_basic in exact t)
  /\ ltac:(let t := type of src_commit_sig_ok in exact t)
  /\ ltac:(let t := type of src_validate_block in exact t)
  /\ ltac:(let t := type of src_validate_block_atoms in exact t)
  (* the cache-hit path of BlockExecutor.ValidateBlock and the key's last-commit part *)
  /\ ltac:(let t := type of src_exec_validate in exact t)
  /\ ltac:(let t := type of src_validation_key in exact t)
  /\ ltac:(let t := type of src_exec_validate_atoms in exact t)
  (* NewPartSetFromData's total, AddPart's counter, loop steps *)
  /\ ltac:(let t := type of src_from_data in exact t)
  /\ ltac:(let t := type of src_add_part_count in exact t)
  /\ ltac:(let t := type of src_add_part_bare_atoms in exact t)
  /\ ltac:(let t := type of src_derive_sha_steps in exact t)
  /\ ltac:(let t := type of src_store_loop_steps in exact t)
  /\ (types__PartSet_AddPart__if_part_Index_ge_ps_total_atoms = ["part.Index : uint32"; "ps.total : uint32"]%string
      /\ types__PartSet_AddPart__if_part_Proof_Index_ne_uint64_part_Index_or_part_Proof_Total_ne_9efbf145_atoms
         = ["part.Proof.Index : uint64"; "part.Index : uint32"; "part.Proof.Total : uint64"; "ps.total : uint32"]%string
      /\ types__Part_ValidateBasic__if_len_part_Bytes_gt_BlockPartSizeBytes_atoms = ["len(part.Bytes) : int"]%string
      /\ lib_merkle__computeHashFromAunts__if_index_ge_total_or_index_lt_0_or_total_le_0_atoms = ["index : int"; "total : int"]%string
      /\ types__DeriveSha__for_i_lt_list_Len_and_i_le_0x7f_atoms = ["i : int"; "list.Len() : int"]%string
      /\ types__Proposal_ValidateBasic__if_p_POLBlockID_PartsHeader_Total_gt_MaxBlockPartsCount_atoms = ["p.POLBlockID.PartsHeader.Total : uint32"]%string
      /\ types__Block_ValidateBasic__if_b_header_Height_gt_1_atoms = ["b.header.Height : uint64"]%string
      /\ kai_state_cstate__validateBlock__if_block_Height_ne_state_LastBlockHeight_plus_1_atoms = ["block.Height() : uint64"; "state.LastBlockHeight : uint64"]%string
      /\ kai_state_cstate__validateBlock__if_block_Height_eq_state_InitialHeight_atoms = ["block.Height() : uint64"; "state.InitialHeight : uint64"]%string).

Lemma C13_source_tie_proof : C13_source_tie_statement.
Proof.
  unfold C13_source_tie_statement. split_all.
  - repeat split; reflexivity.
  (* getSplitPoint: with k = 1 << (bits.Len(length)-1) (the largest power of two not above length; the
     non-constant shift itself is outside the translated subset), the result is [k >> 1] when
     [k == length] and [k] otherwise.  The bound 2^62 on the length is what keeps [k >> 1] inside int64
     ([wrap_id] below); the lengths that reach getSplitPoint are far smaller. *)
  - intros n Hn. unfold split_point, lib_merkle__getSplitPoint__if_k_eq_length, lib_merkle__getSplitPoint__set_k_op. cbv zeta.
    rewrite ZofN_eqb. destruct (N.eqb_spec (2 ^ N.log2 n) n) as [E|_]; [|reflexivity].
    unfold go_shr. rewrite wrap_id.
    + rewrite N2Z.inj_div. reflexivity.
    + unfold in_range. rewrite E. change (2 ^ 1) with 2. lia.
  (* computeHashFromAunts: the range test on (index, total) and the left/right decision *)
  - reflexivity.
  (* SimpleProof.Verify: leaf-hash comparison first, then the computed root against the given root *)
  - intros H r leaf p.
    unfold verify, lib_merkle__SimpleProof_Verify__if_not_bytes_Equal_sp_LeafHash_leafHash,
      lib_merkle__SimpleProof_Verify__if_not_bytes_Equal_computedHash_rootHash.
    destruct (bytes_eqb (p_leaf p) (leaf_hash H leaf)); cbn [negb]; [|reflexivity].
    match goal with |- context [bytes_eqb ?c r] => destruct (bytes_eqb c r) end; reflexivity.
  (* SimpleProof.ValidateBasic: leaf hash and every aunt are [Size] = 32 bytes *)
  - intros p.
    unfold proof_validate_basic, lib_merkle__SimpleProof_ValidateBasic__if_len_sp_LeafHash_ne_Size,
      lib_merkle__SimpleProof_ValidateBasic__if_len_auntHash_ne_Size, go_neqb.
    change 32 with (Z.of_nat 32). rewrite Zofnat_eqb, negb_involutive. f_equal.
    apply forallb_ext'. intros a. rewrite Zofnat_eqb, negb_involutive. reflexivity.
  (* PartSet.AddPart, whole: the cascade of the source guards on the model's operands (index range; slot
     taken; proof index/total against part index / set total; Verify) *)
  - unfold u64N. intros H ps p Hi Ht.
    unfold types__PartSet_AddPart__if_part_Index_ge_ps_total,
      types__PartSet_AddPart__if_part_Proof_Index_ne_uint64_part_Index_or_part_Proof_Total_ne_9efbf145, go_neqb, go_conv.
    rewrite Z.geb_leb, ZofN_leb, !wrap_id by (unfold in_range; lia). rewrite !ZofN_eqb. reflexivity.
  (* Part.ValidateBasic: at most BlockPartSizeBytes bytes — with the model's real limit *)
  - intros bz.
    unfold part_validate_basic, types__Part_ValidateBasic__if_len_part_Bytes_gt_BlockPartSizeBytes, block_part_size_bytes.
    rewrite Z.gtb_ltb, <- Z.leb_antisym. rewrite <- nat_N_Z. change 65536 with (Z.of_N 65536). rewrite ZofN_leb. reflexivity.
  (* PartSetHeader.Equals / IsZero, BlockID.Equal / IsZero *)
  - intros a b.
    unfold psheader_eqb, types__PartSetHeader_Equals__ret_psh_Total_eq_other_Total_and_common_Hash_Equal_psh_Hash_other_Hash.
    rewrite ZofN_eqb. reflexivity.
  - reflexivity.
  - intros b.
    unfold blockid_is_zero, types__BlockID_IsZero__ret_blockID_Hash_IsZero_and_blockID_PartsHeader_IsZero,
      types__PartSetHeader_IsZero__ret_psh_Total_eq_0_and_psh_Hash_IsZero.
    change 0 with (Z.of_N 0). rewrite ZofN_eqb, andb_assoc. reflexivity.
  (* IsComplete and the reader's precondition *)
  - intros ps. unfold is_complete, types__PartSet_IsComplete__ret_ps_count_eq_ps_total. rewrite ZofN_eqb. reflexivity.
  - reflexivity.
  (* Commit.ValidateBasic, whole *)
  - intros c.
    unfold commit_validate, types__Commit_ValidateBasic__if_commit_Height_ge_1, types__Commit_ValidateBasic__if_len_commit_Signatures_eq_0.
    rewrite Z.geb_leb. change 1 with (Z.of_N 1). rewrite ZofN_leb.
    destruct (c_sigs c); reflexivity.
  (* Proposal.ValidateBasic: the part count of the proposed block id is at most MaxBlockPartsCount *)
  - intros total.
    unfold proposal_parts_ok, types__Proposal_ValidateBasic__if_p_POLBlockID_PartsHeader_Total_gt_MaxBlockPartsCount, max_block_parts_count.
    rewrite Z.gtb_ltb, <- Z.leb_antisym. change 1601 with (Z.of_N 1601). rewrite ZofN_leb. reflexivity.
  (* DeriveSha: the three loops together insert every index below Len once and nothing else *)
  - intros n i.
    unfold derive_inserted, types__DeriveSha__for_i_lt_list_Len_and_i_le_0x7f, types__DeriveSha__if_list_Len_gt_0,
      types__DeriveSha__for_i_lt_list_Len, types__DeriveSha__forinit_i, types__DeriveSha__forinit_i_2.
    rewrite Z.gtb_ltb.
    destruct (Z.leb_spec 1 i), (Z.ltb_spec i n), (Z.leb_spec i 127), (Z.eqb_spec i 0), (Z.ltb_spec 0 n), (Z.leb_spec 128 i);
      cbn [andb Nat.add]; split; intros Hi; try reflexivity; lia.
  (* VerifyCommit up to its signature loop, whole *)
  - intros size bid height sigs_ok c.
    unfold verify_commit, types__ValidatorSet_VerifyCommit__if_vs_Size_ne_len_commit_Signatures,
      types__ValidatorSet_VerifyCommit__if_height_ne_commit_GetHeight, types__ValidatorSet_VerifyCommit__if_not_blockID_Equal_commit_BlockID, go_neqb.
    rewrite <- nat_N_Z, !ZofN_eqb. reflexivity.
  - exact src_validate_basic.
  - exact src_commit_sig_ok.
  - exact src_validate_block.
  - exact src_validate_block_atoms.
  - exact src_exec_validate.
  - exact src_validation_key.
  - exact src_exec_validate_atoms.
  - exact src_from_data.
  - exact src_add_part_count.
  - exact src_add_part_bare_atoms.
  - exact src_derive_sha_steps.
  - exact src_store_loop_steps.
  (* the operand lists *)
  - reflexivity.
  - reflexivity.
  - reflexivity.
  - reflexivity.
  - reflexivity.
  - reflexivity.
  - reflexivity.
  - reflexivity.
  - reflexivity.
Qed.
