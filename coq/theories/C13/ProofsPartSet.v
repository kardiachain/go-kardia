(** C13 — proof verification (completeness, soundness), the domain of NewPartSetFromData under the constants
    of the code, and the part set. *)
From Coq Require Import List ZArith NArith Bool Lia Arith ZifyBool.
From Kardia Require Import Base.Int64 Base.ListX C13.Model C13.ProofsMerkle C13.ProofsSound Generated.C13Facts.
Import ListNotations.
Local Ltac Zify.zify_post_hook ::= Z.div_mod_to_equations.

Lemma to_int_small n : (Z.of_N n < two63)%Z -> to_int n = Z.of_N n.
Proof. intros Hn. unfold to_int. apply wrap64_id. unfold in_int64, min_int64, max_int64, two63 in *. lia. Qed.

Lemma to_int_big n : (two63 <= Z.of_N n < two64)%Z -> (to_int n < 0)%Z.
Proof. unfold to_int, wrap64, two63, two64. intros Hn. lia. Qed.

Lemma nth_number_proofs total : forall ts j i,
  nth_error (number_proofs total j ts) i =
  match nth_error ts i with
  | Some t => Some {| p_total := total; p_index := j + N.of_nat i; p_leaf := fst t; p_aunts := snd t |}
  | None => None
  end.
Proof.
  induction ts as [|t ts IH]; intros j i.
  - destruct i; reflexivity.
  - destruct i as [|i].
    + cbn [nth_error number_proofs]. change (N.of_nat 0) with 0%N. rewrite N.add_0_r. reflexivity.
    + cbn [nth_error number_proofs]. rewrite IH. destruct (nth_error ts i); [|reflexivity].
      replace (j + 1 + N.of_nat i)%N with (j + N.of_nat (S i))%N by lia. reflexivity.
Qed.

Lemma number_proofs_length t : forall ts j, length (number_proofs t j ts) = length ts.
Proof. induction ts; intros; simpl; auto. Qed.

Lemma firstn_slice_app (d : bytes) : forall a b, a <= b -> firstn a d ++ slice a b d = firstn b d.
Proof.
  unfold slice. induction d as [|x d IH]; intros a b Hab.
  - rewrite skipn_nil, !firstn_nil. reflexivity.
  - destruct a as [|a].
    + simpl. rewrite Nat.sub_0_r. reflexivity.
    + destruct b as [|b]; [lia|]. simpl. f_equal. apply IH. lia.
Qed.

Lemma concat_chunks_prefix (d : bytes) (psz : N) : (psz <> 0)%N -> forall k,
  concat (map (fun i => slice (N.to_nat (N.of_nat i * psz))
                              (N.to_nat (N.min (N.of_nat (length d)) ((N.of_nat i + 1) * psz))) d) (seq 0 k))
  = firstn (N.to_nat (N.min (N.of_nat (length d)) (N.of_nat k * psz))) d.
Proof.
  intros Hp. induction k as [|k IH].
  - cbn [seq map concat]. change (N.of_nat 0 * psz)%N with 0%N. rewrite N.min_0_r. reflexivity.
  - rewrite seq_S, map_app, concat_app, IH. cbn [map concat seq plus]. rewrite app_nil_r.
    set (len := N.of_nat (length d)).
    destruct (N.le_gt_cases (N.of_nat k * psz) len) as [Hle|Hgt].
    + rewrite (N.min_r len (N.of_nat k * psz)) by lia.
      replace (N.of_nat (S k)) with (N.of_nat k + 1)%N by lia.
      apply firstn_slice_app. lia.
    + rewrite (N.min_l len (N.of_nat k * psz)) by lia.
      rewrite (N.min_l len ((N.of_nat k + 1) * psz)) by lia.
      rewrite (N.min_l len (N.of_nat (S k) * psz)) by lia.
      unfold slice. rewrite skipn_all2 by lia. rewrite firstn_nil, app_nil_r. reflexivity.
Qed.

Lemma concat_chunks (d : bytes) (psz : N) : (psz <> 0)%N -> concat (chunks_of d psz) = d.
Proof.
  intros Hp. unfold chunks_of. cbv zeta. rewrite concat_chunks_prefix by exact Hp.
  rewrite N2Nat.id. apply firstn_all2.
  set (len := N.of_nat (length d)).
  assert (len <= (len + psz - 1) / psz * psz)%N by lia.
  rewrite N.min_l by lia. subst len. lia.
Qed.

Lemma chunks_length d psz : length (chunks_of d psz) = N.to_nat ((N.of_nat (length d) + psz - 1) / psz).
Proof. unfold chunks_of. cbv zeta. rewrite map_length, seq_length. reflexivity. Qed.

Lemma chunk_len d psz c : In c (chunks_of d psz) -> (N.of_nat (length c) <= psz)%N.
Proof.
  unfold chunks_of. cbv zeta. intros Hin. apply in_map_iff in Hin. destruct Hin as [i [Ec _]]. subst c.
  unfold slice. rewrite firstn_length.
  rewrite N.mul_add_distr_r, N.mul_1_l.
  set (X := (N.of_nat i * psz)%N). set (len := N.of_nat (length d)).
  assert (N.to_nat (N.min len (X + psz)) - N.to_nat X <= N.to_nat psz) by lia.
  lia.
Qed.

Lemma nth_mk_parts : forall cs prs j i c pr,
  nth_error cs i = Some c -> nth_error prs i = Some pr ->
  nth_error (mk_parts j cs prs) i = Some (Some {| pt_index := j + N.of_nat i; pt_bytes := c; pt_proof := pr |}).
Proof.
  induction cs as [|c0 cs IH]; intros prs j i c pr Hc Hp.
  - destruct i; discriminate.
  - destruct prs as [|pr0 prs]; [destruct i; discriminate|].
    destruct i as [|i]; cbn [nth_error mk_parts] in *.
    + inversion Hc; inversion Hp; subst. change (N.of_nat 0) with 0%N. rewrite N.add_0_r. reflexivity.
    + rewrite (IH _ _ _ _ _ Hc Hp).
      replace (j + 1 + N.of_nat i)%N with (j + N.of_nat (S i))%N by lia. reflexivity.
Qed.

Lemma in_mk_parts : forall cs prs j g, In (Some g) (mk_parts j cs prs) ->
  exists i, nth_error cs i = Some (pt_bytes g) /\ nth_error prs i = Some (pt_proof g) /\ pt_index g = (j + N.of_nat i)%N.
Proof.
  induction cs as [|c0 cs IH]; intros prs j g Hin; destruct prs; cbn [mk_parts In] in Hin; try contradiction.
  destruct Hin as [E|Hin].
  - inversion E; subst. exists 0. cbn [nth_error pt_bytes pt_proof pt_index]. repeat split; auto. lia.
  - destruct (IH _ _ _ Hin) as [i [A [B C]]]. exists (S i). cbn [nth_error]. repeat split; auto. lia.
Qed.

Lemma mk_parts_length : forall cs prs j, length prs = length cs -> length (mk_parts j cs prs) = length cs.
Proof.
  induction cs as [|c cs IH]; intros [|pr prs] j Hl; try discriminate; [reflexivity|].
  cbn [mk_parts length]. rewrite IH by (simpl in Hl; lia). reflexivity.
Qed.

Lemma concat_parts_mk : forall cs prs j, length prs = length cs -> concat_parts (mk_parts j cs prs) = Some (concat cs).
Proof.
  induction cs as [|c cs IH]; intros [|pr prs] j Hl; try discriminate; [reflexivity|].
  cbn [mk_parts concat_parts concat pt_bytes]. rewrite IH by (simpl in Hl; lia). reflexivity.
Qed.

Lemma forallb_len32 (l : list bytes) : Forall (fun a : bytes => length a = 32) l ->
  forallb (fun a => Nat.eqb (length a) 32) l = true.
Proof. induction 1 as [|a l Ha _ IH]; [reflexivity|]. cbn [forallb]. rewrite Ha, IH. reflexivity. Qed.

Fixpoint count_some (l : list (option part)) : N :=
  match l with [] => 0 | Some _ :: l' => count_some l' + 1 | None :: l' => count_some l' end.

Lemma count_some_le l : (count_some l <= N.of_nat (length l))%N.
Proof. induction l as [|[p|] l IH]; simpl length; cbn [count_some]; lia. Qed.

Lemma count_some_full l : count_some l = N.of_nat (length l) -> Forall (fun o => o <> None) l.
Proof.
  induction l as [|[p|] l IH]; cbn [count_some]; simpl length; intros Hc.
  - constructor.
  - constructor; [discriminate|apply IH; lia].
  - pose proof (count_some_le l). lia.
Qed.

Lemma count_some_all l : Forall (fun o => o <> None) l -> count_some l = N.of_nat (length l).
Proof.
  induction 1 as [|o l Ho _ IH]; [reflexivity|]. destruct o; [|congruence]. cbn [count_some]. simpl length. lia.
Qed.

Lemma count_some_set : forall l i p, nth_error l i = Some None ->
  count_some (set_nth i (Some p) l) = (count_some l + 1)%N.
Proof.
  induction l as [|o l IH]; intros i p Hn; destruct i; simpl in Hn; try discriminate.
  - inversion Hn; subst. reflexivity.
  - simpl set_nth. destruct o; cbn [count_some]; rewrite (IH _ _ Hn); lia.
Qed.

Lemma count_some_repeat k : count_some (repeat None k) = 0%N.
Proof. induction k; simpl; auto. Qed.

Lemma Forall2_set_nth {A B} (R : A -> B -> Prop) : forall l1 l2 i x c,
  Forall2 R l1 l2 -> nth_error l2 i = Some c -> R x c -> Forall2 R (set_nth i x l1) l2.
Proof.
  induction l1 as [|a l1 IH]; intros l2 i x c HF Hn HR; inversion HF; subst.
  - destruct i; discriminate.
  - destruct i; simpl in *.
    + inversion Hn; subst. constructor; auto.
    + constructor; auto. eapply IH; eauto.
Qed.

Lemma Forall2_nth {A B} (R : A -> B -> Prop) : forall l1 l2 i a b,
  Forall2 R l1 l2 -> nth_error l1 i = Some a -> nth_error l2 i = Some b -> R a b.
Proof.
  induction l1 as [|x l1 IH]; intros l2 i a b HF Ha Hb; inversion HF; subst; destruct i; try discriminate; cbn [nth_error] in *.
  - congruence.
  - eapply IH; eauto.
Qed.

Definition slot_ok (o : option part) (c : bytes) : Prop :=
  match o with None => True | Some p => pt_bytes p = c end.

Lemma slot_ok_repeat (cs : list bytes) : Forall2 slot_ok (repeat None (length cs)) cs.
Proof. induction cs; simpl; constructor; simpl; auto. Qed.

Lemma concat_parts_all : forall parts cs,
  Forall2 slot_ok parts cs -> Forall (fun o => o <> None) parts -> concat_parts parts = Some (concat cs).
Proof.
  induction 1 as [|o c parts cs Ho _ IH]; intros Hall; [reflexivity|].
  inversion Hall; subst. destruct o as [p|]; [|congruence].
  cbn [concat_parts concat]. rewrite IH by assumption. simpl in Ho. rewrite Ho. reflexivity.
Qed.

(** where NewPartSetFromData is defined (no division by zero, no uint32 wrap, at least one chunk), and its total *)
Lemma from_data_total H data psz full : from_data H data psz = Some full ->
  psz <> 0%N /\ (N.of_nat (length data) + psz - 1 < two32)%N /\
  ps_total full = ((N.of_nat (length data) + psz - 1) / psz)%N.
Proof.
  unfold from_data. cbv zeta. intros Hf.
  destruct (N.eqb_spec psz 0) as [|Hp]; [discriminate|].
  destruct (N.leb_spec two32 (N.of_nat (length data) + psz - 1)) as [|Hlt]; [discriminate|].
  destruct (proofs_from H (chunks_of data psz)) as [[r prs]|]; [|discriminate].
  injection Hf as <-. auto.
Qed.

(** the constants of the code (regenerated from the source) keep NewPartSetFromData inside that domain for
    every block the node accepts *)
Lemma part_size_in_domain :
  (block_part_size_bytes <> 0 /\ max_block_size_bytes + block_part_size_bytes - 1 < two32 /\
   max_block_parts_count = max_block_size_bytes / block_part_size_bytes + 1)%N.
Proof. vm_compute. repeat split; congruence. Qed.

(** the part count of any admissible block (at most MaxBlockSizeBytes bytes) cut with the real part
    size is within the bound that Proposal.ValidateBasic puts on a proposal's part-set header *)
Lemma real_total_within_limit (H : bytes -> bytes) data full :
  from_data H data block_part_size_bytes = Some full ->
  (N.of_nat (length data) <= max_block_size_bytes)%N ->
  proposal_parts_ok (ps_total full) = true.
Proof.
  intros Hf Hl. destruct (from_data_total H _ _ _ Hf) as [_ [_ ->]].
  unfold proposal_parts_ok. apply N.leb_le.
  unfold max_block_parts_count, max_block_size_bytes, block_part_size_bytes in *. lia.
Qed.

Section PartSet.
  Variable H : bytes -> bytes.

  Notation root := (root H).
  Notation leaf_hash := (leaf_hash H).

  Lemma proofs_from_nonempty items : items <> [] ->
    proofs_from H items = Some (root items, number_proofs (N.of_nat (length items)) 0 (fst (trails H items))).
  Proof.
    intros Hn. destruct (trails_spec H items) as [T _]. rewrite <- T.
    destruct items; [congruence|reflexivity].
  Qed.

  (** every proof produced by [SimpleProofsFromByteSlices] verifies against the produced root *)
  Lemma merkle_complete_lemma : forall items r prs i x p,
    (Z.of_nat (length items) < two63)%Z ->
    proofs_from H items = Some (r, prs) -> nth_error items i = Some x -> nth_error prs i = Some p ->
    r = root items /\ p_total p = N.of_nat (length items) /\ p_index p = N.of_nat i /\
    verify H r x p = VOk.
  Proof.
    intros items r prs i x p Hlen Hp Hx Hpi.
    assert (Hi : i < length items) by (apply nth_error_Some; congruence).
    rewrite proofs_from_nonempty in Hp by (intros E; rewrite E in Hi; simpl in Hi; lia).
    injection Hp as <- <-.
    destruct (trails_spec H items) as [_ [_ T3]]. destruct (T3 i x Hx) as [a [Ha Hc]].
    rewrite nth_number_proofs, Ha in Hpi. injection Hpi as <-.
    split; [reflexivity|]. cbn [p_total p_index fst snd]. split; [reflexivity|]. split; [lia|].
    unfold verify, compute_from_aunts. cbn [p_leaf p_index p_total p_aunts fst snd].
    rewrite bytes_eqb_refl. cbn [negb].
    rewrite !to_int_small, !nat_N_Z, Hc, bytes_eqb_refl by (rewrite ?N.add_0_l, nat_N_Z; lia). reflexivity.
  Qed.

  Hypothesis H_len : forall x, length (H x) = 32.
  Notation collision := (collision H).

  (** a verifying proof for (index, total = number of items) against [root items] proves the item at
      that index — or yields a collision.  Verify hands [int(sp.Index)], [int(sp.Total)] ([to_int]) to
      computeHashFromAunts: below 2^63 the conversion is the identity ([to_int_small], hence the bound on
      the number of items), an index in [2^63, 2^64) becomes negative ([to_int_big]) and the range test
      refuses it. *)
  Lemma merkle_sound_lemma : forall items x p,
    items <> [] -> (Z.of_nat (length items) < two63)%Z -> (p_index p < 18446744073709551616)%N ->
    p_total p = N.of_nat (length items) ->
    verify H (root items) x p = VOk ->
    nth_error items (N.to_nat (p_index p)) = Some x \/ collision.
  Proof.
    intros items x p Hne Hlen Hidx Htot Hv.
    unfold verify in Hv.
    destruct (bytes_eqb (p_leaf p) (leaf_hash x)) eqn:El; cbn [negb] in Hv; [|discriminate].
    apply bytes_eqb_eq in El.
    match type of Hv with (if bytes_eqb ?c _ then _ else _) = _ => destruct (bytes_eqb c (root items)) eqn:Ec end; [|discriminate].
    apply bytes_eqb_eq in Ec.
    unfold compute_from_aunts in Ec.
    rewrite Htot in Ec. rewrite (to_int_small (N.of_nat (length items))) in Ec by (rewrite nat_N_Z; lia).
    rewrite nat_N_Z in Ec.
    destruct (compute_rev H (to_int (p_index p)) (Z.of_nat (length items)) (p_leaf p) (rev (p_aunts p))) as [h|] eqn:Eh.
    2:{ exfalso. pose proof (root_len H H_len items Hne) as Hl. rewrite <- Ec in Hl. discriminate. }
    subst h.
    destruct (Z.lt_ge_cases (Z.of_N (p_index p)) two63) as [Hsm|Hbig].
    - rewrite to_int_small in Eh by exact Hsm.
      assert (Hll : length (p_leaf p) = 32) by (rewrite El; apply H_len).
      destruct (compute_sound H H_len items _ _ _ Hne Hll Eh) as [C|[_ [x' [Hn Hx']]]]; [right; exact C|].
      replace (Z.to_nat (Z.of_N (p_index p))) with (N.to_nat (p_index p)) in Hn by lia.
      rewrite El in Hx'. destruct (leaf_hash_inj H x x' Hx') as [E|C]; [left; congruence|right; exact C].
    - exfalso. apply compute_rev_range in Eh. pose proof (to_int_big (p_index p)). unfold two64, two63 in *. lia.
  Qed.

  Definition trail_ok (t : bytes * list bytes) : Prop :=
    length (fst t) = 32 /\ Forall (fun a : bytes => length a = 32) (snd t).

  Lemma trail_ok_snoc t a : trail_ok t -> length a = 32 -> trail_ok (fst t, snd t ++ [a]).
  Proof. intros [A B] Ha. split; [exact A|]. apply Forall_app. split; [exact B|]. constructor; [exact Ha|constructor]. Qed.

  (** leaf hash and aunts of every generated proof are hash values *)
  Lemma trails_lens : forall items, Forall trail_ok (fst (trails H items)).
  Proof.
    intros items. pattern items. apply items_ind; clear items.
    - constructor.
    - intros x. constructor; [|constructor]. split; [apply H_len|constructor].
    - intros L R Hh IL IR. rewrite (trails_app H L R Hh). cbn [fst].
      destruct (trails_spec H L) as [TL _], (trails_spec H R) as [TR _]. destruct Hh as [HLn [HRn _]].
      apply Forall_app. split; apply Forall_map.
      + eapply Forall_impl; [|exact IL]. intros t Ht. apply trail_ok_snoc; [exact Ht|]. rewrite TR. apply root_len; auto.
      + eapply Forall_impl; [|exact IR]. intros t Ht. apply trail_ok_snoc; [exact Ht|]. rewrite TL. apply root_len; auto.
  Qed.

  (** the setting of the part-set theorems: [full] is NewPartSetFromData(data, psz) *)
  Variable data : bytes.
  Variable psz : N.
  Variable full : partset.
  Hypothesis Hfull : from_data H data psz = Some full.

  Let chunks := chunks_of data psz.
  Let n := length chunks.
  Let prs := number_proofs (N.of_nat n) 0 (fst (trails H chunks)).

  Lemma full_facts :
    psz <> 0%N /\ chunks <> [] /\ (N.of_nat n < two32)%N /\
    full = {| ps_total := N.of_nat n; ps_hash := root chunks; ps_parts := mk_parts 0 chunks prs; ps_count := N.of_nat n |}.
  Proof.
    unfold from_data in Hfull. cbv zeta in Hfull.
    destruct (N.eqb_spec psz 0) as [|Hp]; [discriminate|].
    destruct (N.leb_spec two32 (N.of_nat (length data) + psz - 1)) as [|Hlt]; [discriminate|].
    fold chunks in Hfull.
    assert (Hn : N.of_nat n = ((N.of_nat (length data) + psz - 1) / psz)%N).
    { unfold n, chunks. rewrite chunks_length, N2Nat.id. reflexivity. }
    destruct (proofs_from H chunks) as [[r prs']|] eqn:Ep; [|discriminate].
    assert (Hne : chunks <> []) by (intros E; rewrite E in Ep; discriminate).
    rewrite (proofs_from_nonempty chunks Hne) in Ep. injection Ep as <- <-.
    injection Hfull as <-. rewrite <- Hn, bytes_to_hash_32 by (apply root_len; auto).
    repeat split; auto. unfold two32 in *. lia.
  Qed.

  Lemma prs_length : length prs = n.
  Proof. unfold prs. rewrite number_proofs_length. apply trails_spec. Qed.

  Definition genuine (g : part) : Prop := In (Some g) (ps_parts full).

  Lemma genuine_spec g : genuine g ->
    exists i, i < n /\ nth_error chunks i = Some (pt_bytes g) /\ pt_index g = N.of_nat i /\
              p_index (pt_proof g) = N.of_nat i /\ p_total (pt_proof g) = N.of_nat n /\
              verify H (root chunks) (pt_bytes g) (pt_proof g) = VOk.
  Proof.
    unfold genuine. destruct full_facts as [_ [Hne [Hn ->]]]. cbn [ps_parts]. intros Hg.
    destruct (in_mk_parts _ _ _ _ Hg) as [i [Hc [Hpr Hidx]]].
    destruct (merkle_complete_lemma chunks _ _ i _ _ ltac:(fold n; unfold two32, two63 in *; lia)
                (proofs_from_nonempty chunks Hne) Hc Hpr) as [_ [Ht [Hi Hv]]].
    exists i. split; [unfold n; apply nth_error_Some; congruence|].
    split; [exact Hc|]. split; [lia|]. split; [exact Hi|]. split; [exact Ht|exact Hv].
  Qed.

  Lemma genuine_exists i : i < n -> exists g, genuine g /\ pt_index g = N.of_nat i.
  Proof.
    intros Hi. unfold genuine. destruct full_facts as [_ [_ [_ ->]]]. cbn [ps_parts].
    destruct (nth_error chunks i) as [c|] eqn:Ec; [|apply nth_error_None in Ec; fold n in Ec; lia].
    destruct (nth_error prs i) as [pr|] eqn:Epr; [|apply nth_error_None in Epr; rewrite prs_length in Epr; lia].
    exists {| pt_index := 0 + N.of_nat i; pt_bytes := c; pt_proof := pr |}. split; [|simpl; lia].
    eapply nth_error_In. apply nth_mk_parts; eauto.
  Qed.

  (** structural invariant of a set created from the genuine header *)
  Record InvS (s : partset) : Prop := {
    is_total : ps_total s = N.of_nat n;
    is_hash : ps_hash s = root chunks;
    is_len : length (ps_parts s) = n;
    is_count : ps_count s = count_some (ps_parts s) }.

  (** content invariant: every filled slot holds the bytes of that chunk *)
  Definition InvC (s : partset) : Prop := Forall2 slot_ok (ps_parts s) chunks.

  Definition s0 : partset := from_header (ps_total full) (ps_hash full).

  Lemma InvS_s0 : InvS s0.
  Proof.
    unfold s0, from_header. destruct full_facts as [_ [_ [_ ->]]].
    constructor; cbn [ps_total ps_hash ps_parts ps_count]; auto.
    - rewrite repeat_length. lia.
    - rewrite count_some_repeat. reflexivity.
  Qed.

  Lemma InvC_s0 : InvC s0.
  Proof.
    unfold InvC, s0, from_header. destruct full_facts as [_ [_ [_ ->]]].
    cbn [ps_parts ps_total]. rewrite Nat2N.id. apply slot_ok_repeat.
  Qed.

  Lemma add_part_rejected s p s' e : add_part H s p = (s', (false, e)) -> s' = s.
  Proof.
    unfold add_part. intros Ha.
    destruct (ps_total s <=? pt_index p)%N; [inversion Ha; auto|].
    destruct (nth_error (ps_parts s) (N.to_nat (pt_index p))) as [[q|]|]; try (inversion Ha; auto; fail).
    destruct (negb _ || negb _)%bool; [inversion Ha; auto|].
    destruct (verify H (ps_hash s) (pt_bytes p) (pt_proof p)); inversion Ha; auto.
  Qed.

  Lemma add_part_accepted s p s' e : add_part H s p = (s', (true, e)) ->
    e = ENone /\ (pt_index p < ps_total s)%N /\ nth_error (ps_parts s) (N.to_nat (pt_index p)) = Some None /\
    p_index (pt_proof p) = pt_index p /\ p_total (pt_proof p) = ps_total s /\
    verify H (ps_hash s) (pt_bytes p) (pt_proof p) = VOk /\
    s' = {| ps_total := ps_total s; ps_hash := ps_hash s;
            ps_parts := set_nth (N.to_nat (pt_index p)) (Some p) (ps_parts s); ps_count := ps_count s + 1 |}.
  Proof.
    unfold add_part. intros Ha.
    destruct (N.leb_spec (ps_total s) (pt_index p)); [inversion Ha|].
    destruct (nth_error (ps_parts s) (N.to_nat (pt_index p))) as [[q|]|]; try (inversion Ha; fail).
    destruct (N.eqb_spec (p_index (pt_proof p)) (pt_index p)); cbn [negb orb] in Ha; [|inversion Ha].
    destruct (N.eqb_spec (p_total (pt_proof p)) (ps_total s)); cbn [negb] in Ha; [|inversion Ha].
    destruct (verify H (ps_hash s) (pt_bytes p) (pt_proof p)) eqn:Ev; inversion Ha; subst.
    repeat split; auto.
  Qed.

  (** AddPart leaves the set as it was, or reports [true] and has filled the free slot of the part's index *)
  Lemma add_part_cases s p :
    fst (add_part H s p) = s \/
    (fst (snd (add_part H s p)) = true /\ nth_error (ps_parts s) (N.to_nat (pt_index p)) = Some None /\
     fst (add_part H s p) = {| ps_total := ps_total s; ps_hash := ps_hash s;
                               ps_parts := set_nth (N.to_nat (pt_index p)) (Some p) (ps_parts s);
                               ps_count := ps_count s + 1 |}).
  Proof.
    destruct (add_part H s p) as [s' [[|] e]] eqn:Ea; cbn [fst snd].
    - right. destruct (add_part_accepted _ _ _ _ Ea) as [_ [_ [Hnone [_ [_ [_ Es']]]]]]. auto.
    - left. exact (add_part_rejected _ _ _ _ Ea).
  Qed.

  Lemma add_part_InvS s p : InvS s -> InvS (fst (add_part H s p)).
  Proof.
    intros Hs. destruct (add_part_cases s p) as [->|[_ [Hnone ->]]]; [exact Hs|].
    destruct Hs as [A B C D]. constructor; cbn [ps_total ps_hash ps_parts ps_count]; auto.
    - rewrite set_nth_length. exact C.
    - rewrite count_some_set by exact Hnone. rewrite D. reflexivity.
  Qed.

  Lemma add_part_no_crash s p : InvS s -> snd (snd (add_part H s p)) <> ECrash.
  Proof.
    intros [A B C D]. unfold add_part.
    destruct (N.leb_spec (ps_total s) (pt_index p)); [discriminate|].
    destruct (nth_error (ps_parts s) (N.to_nat (pt_index p))) as [[q|]|] eqn:En; [discriminate| |].
    - destruct (negb _ || negb _)%bool; [discriminate|].
      destruct (verify H (ps_hash s) (pt_bytes p) (pt_proof p)); discriminate.
    - exfalso. apply nth_error_None in En. lia.
  Qed.

  (** an accepted part carries the bytes of its chunk, or a collision is exhibited *)
  Lemma accepted_is_chunk s p s' e : InvS s -> add_part H s p = (s', (true, e)) ->
    nth_error chunks (N.to_nat (pt_index p)) = Some (pt_bytes p) \/ collision.
  Proof.
    intros [A B C D] Ha.
    destruct (add_part_accepted _ _ _ _ Ha) as [_ [Hlt [_ [Hi [Ht [Hv _]]]]]].
    destruct full_facts as [_ [Hne [Hn _]]]. unfold two32 in Hn.
    rewrite B in Hv. rewrite <- Hi.
    apply merkle_sound_lemma; auto.
    - fold n. unfold two63. lia.
    - rewrite Hi, A in *. lia.
    - rewrite Ht, A. reflexivity.
  Qed.

  Lemma add_part_InvC_good s p : InvS s -> InvC s ->
    (fst (snd (add_part H s p)) = true -> nth_error chunks (N.to_nat (pt_index p)) = Some (pt_bytes p)) ->
    InvC (fst (add_part H s p)).
  Proof.
    intros Hs Hc Hgood. destruct (add_part_cases s p) as [->|[Ht [_ ->]]]; [exact Hc|].
    unfold InvC. cbn [ps_parts]. eapply Forall2_set_nth; [exact Hc|apply Hgood; exact Ht|reflexivity].
  Qed.

  Lemma add_part_InvC s p : InvS s -> InvC s -> InvC (fst (add_part H s p)) \/ collision.
  Proof.
    intros Hs Hc. destruct (add_part H s p) as [s' [[|] e]] eqn:Ea.
    - destruct (accepted_is_chunk _ _ _ _ Hs Ea) as [Hch|C]; [|right; exact C].
      left. pose proof (add_part_InvC_good s p Hs Hc) as G. rewrite Ea in G. apply G. intros _. exact Hch.
    - left. cbn [fst]. rewrite (add_part_rejected _ _ _ _ Ea). exact Hc.
  Qed.

  Lemma add_all_InvS ops : forall s, InvS s -> InvS (add_all H s ops).
  Proof. induction ops as [|p ops IH]; intros s Hs; [exact Hs|]. simpl. apply IH. apply add_part_InvS. exact Hs. Qed.

  Lemma add_all_InvC ops : forall s, InvS s -> InvC s -> InvC (add_all H s ops) \/ collision.
  Proof.
    induction ops as [|p ops IH]; intros s Hs Hc; [left; exact Hc|]. simpl.
    destruct (add_part_InvC s p Hs Hc) as [Hc'|C]; [|right; exact C].
    apply IH; [apply add_part_InvS; exact Hs|exact Hc'].
  Qed.

  Lemma read_complete s : InvS s -> InvC s -> is_complete s = true -> read_all s = Some data.
  Proof.
    intros [A B C D] Hc Hcomp.
    destruct full_facts as [Hp [Hne _]].
    unfold read_all. rewrite Hcomp. cbn [negb].
    unfold is_complete in Hcomp. apply N.eqb_eq in Hcomp.
    assert (Hall : Forall (fun o => o <> None) (ps_parts s)).
    { apply count_some_full. rewrite <- D, Hcomp, A, C. reflexivity. }
    destruct (ps_parts s) as [|o l] eqn:Ep.
    - exfalso. simpl in C. unfold n in C. destruct chunks; [congruence|discriminate].
    - rewrite <- Ep in *. rewrite (concat_parts_all _ _ Hc Hall). unfold chunks. rewrite concat_chunks by exact Hp. reflexivity.
  Qed.

  Definition filled (s : partset) (i : nat) : Prop := exists q, nth_error (ps_parts s) i = Some (Some q).

  Lemma filled_mono s p i : filled s i -> filled (fst (add_part H s p)) i.
  Proof.
    intros [q Hq]. exists q. destruct (add_part_cases s p) as [->|[_ [Hnone ->]]]; [exact Hq|].
    cbn [ps_parts]. rewrite nth_error_set_nth_neq; [exact Hq|]. intros E. rewrite E in Hnone. congruence.
  Qed.

  (** a genuine part offered to a set under the genuine header is accepted whenever its slot is free *)
  Lemma genuine_addable s g : InvS s -> genuine g ->
    nth_error (ps_parts s) (N.to_nat (pt_index g)) = Some None ->
    exists s', add_part H s g = (s', (true, ENone)) /\ nth_error (ps_parts s') (N.to_nat (pt_index g)) = Some (Some g).
  Proof.
    intros [A B C D] Hg Hnone.
    destruct (genuine_spec g Hg) as [i [Hi [Hc [Hidx [Hpi [Hpt Hv]]]]]].
    unfold add_part. rewrite A, Hidx.
    destruct (N.leb_spec (N.of_nat n) (N.of_nat i)); [lia|].
    rewrite Hidx in Hnone. rewrite Hnone.
    rewrite Hpi, Hpt, !N.eqb_refl. cbn [negb orb]. rewrite B, Hv.
    eexists. split; [reflexivity|]. cbn [ps_parts].
    apply nth_error_set_nth_eq. rewrite Nat2N.id, C. exact Hi.
  Qed.

  Lemma genuine_slot s g : InvS s -> genuine g -> exists o, nth_error (ps_parts s) (N.to_nat (pt_index g)) = Some o.
  Proof.
    intros Hs Hg. destruct (genuine_spec g Hg) as [i [Hi [_ [Hidx _]]]].
    destruct (nth_error (ps_parts s) (N.to_nat (pt_index g))) as [o|] eqn:En; [exists o; reflexivity|].
    exfalso. apply nth_error_None in En. rewrite (is_len _ Hs), Hidx, Nat2N.id in En. lia.
  Qed.

  Lemma genuine_fills s g : InvS s -> genuine g -> filled (fst (add_part H s g)) (N.to_nat (pt_index g)).
  Proof.
    intros Hs Hg. destruct (genuine_slot s g Hs Hg) as [[q|] En].
    - apply filled_mono. exists q. exact En.
    - destruct (genuine_addable s g Hs Hg En) as [s' [Ea Hn]]. rewrite Ea. exists g. exact Hn.
  Qed.

  Lemma add_all_filled ops : forall s i, filled s i -> filled (add_all H s ops) i.
  Proof. induction ops as [|p ops IH]; intros s i Hf; [exact Hf|]. simpl. apply IH. apply filled_mono. exact Hf. Qed.

  Lemma add_all_delivers ops : forall s g, InvS s -> genuine g -> In g ops ->
    filled (add_all H s ops) (N.to_nat (pt_index g)).
  Proof.
    induction ops as [|p ops IH]; intros s g Hs Hg Hin; [contradiction|]. simpl.
    destruct Hin as [E|Hin].
    - subst p. apply add_all_filled. apply genuine_fills; assumption.
    - apply IH; auto. apply add_part_InvS. exact Hs.
  Qed.

  Lemma all_filled_complete s : InvS s -> (forall i, i < n -> filled s i) -> is_complete s = true.
  Proof.
    intros [A B C D] Hf. unfold is_complete. apply N.eqb_eq. rewrite D, A, <- C.
    apply count_some_all. apply Forall_forall. intros o Ho.
    destruct (In_nth_error _ _ Ho) as [i Hi].
    assert (i < n) by (rewrite <- C; apply nth_error_Some; congruence).
    destruct (Hf i H0) as [q Hq]. congruence.
  Qed.

  (** any delivery that contains every genuine part — in any order, with duplicates and arbitrary
      other parts in between — completes the set *)
  Lemma delivery_completes ops : (forall g, genuine g -> In g ops) -> is_complete (add_all H s0 ops) = true.
  Proof.
    intros Hall. apply all_filled_complete; [apply add_all_InvS, InvS_s0|].
    intros i Hi. destruct (genuine_exists i Hi) as [g [Hg Hidx]].
    pose proof (add_all_delivers ops s0 g InvS_s0 Hg (Hall g Hg)) as Hf.
    rewrite Hidx, Nat2N.id in Hf. exact Hf.
  Qed.

  (** every part produced by NewPartSetFromData with a part size within the limit passes the checks
      PartFromProto applies on the wire, in the WAL and in the block store *)
  Lemma genuine_passes_wire max g : (psz <= max)%N -> genuine g ->
    part_from_proto max (pt_index g) (pt_bytes g) (pt_proof g) = WOk.
  Proof.
    unfold genuine. destruct full_facts as [_ [_ [_ ->]]]. cbn [ps_parts]. intros Hmax Hg.
    destruct (in_mk_parts _ _ _ _ Hg) as [i [Hc [Hpr _]]].
    unfold prs in Hpr. rewrite nth_number_proofs in Hpr.
    destruct (nth_error (fst (trails H chunks)) i) as [t|] eqn:Et; [|discriminate]. injection Hpr as Epr.
    pose proof (trails_lens chunks) as TL. rewrite Forall_forall in TL.
    destruct (TL t (nth_error_In _ _ Et)) as [A B].
    unfold part_from_proto, proof_validate_basic, part_validate_basic. rewrite <- Epr. cbn [p_leaf p_aunts].
    rewrite A, (forallb_len32 _ B). cbn [Nat.eqb andb negb].
    pose proof (chunk_len data psz (pt_bytes g) (nth_error_In _ _ Hc)) as Hlen.
    destruct (N.leb_spec (N.of_nat (length (pt_bytes g))) max); [reflexivity|lia].
  Qed.

  (** [InvC] keeps every filled slot equal to its chunk and a complete set has all slots filled
      ([count_some_full]): what it reads is the concatenation of the chunks, the data *)
  Lemma complete_exact ops : is_complete (add_all H s0 ops) = true ->
    read_all (add_all H s0 ops) = Some data \/ collision.
  Proof.
    intros Hc. destruct (add_all_InvC ops s0 InvS_s0 InvC_s0) as [HC|C]; [|right; exact C].
    left. apply read_complete; auto. apply add_all_InvS, InvS_s0.
  Qed.

  Lemma genuine_only_InvC ops : (forall p, In p ops -> genuine p) -> forall s, InvS s -> InvC s -> InvC (add_all H s ops).
  Proof.
    induction ops as [|p ops IH]; intros Hg s Hs Hc; [exact Hc|]. simpl.
    apply IH; [intros q Hq; apply Hg; right; exact Hq|apply add_part_InvS; exact Hs|].
    apply add_part_InvC_good; auto. intros _.
    destruct (genuine_spec p (Hg p (or_introl eq_refl))) as [i [_ [Hch [Hidx _]]]].
    rewrite Hidx, Nat2N.id. exact Hch.
  Qed.

  (** with genuine parts only, [InvC] holds without the collision alternative *)
  Lemma permutation_reads ops : (forall p, In p ops -> genuine p) -> (forall g, genuine g -> In g ops) ->
    is_complete (add_all H s0 ops) = true /\ read_all (add_all H s0 ops) = Some data.
  Proof.
    intros H1 H2. pose proof (delivery_completes ops H2) as Hc. split; [exact Hc|].
    apply read_complete; auto; [apply add_all_InvS, InvS_s0|apply genuine_only_InvC; auto using InvS_s0, InvC_s0].
  Qed.

  (** after any history: a refused part changes nothing and AddPart does not crash; an accepted part sits
      in its slot and is the chunk of that index (or a collision); hence a genuine part is either already
      represented by equal bytes or still accepted *)
  Lemma bogus_harmless ops :
    let s := add_all H s0 ops in
    (forall p s' e, add_part H s p = (s', (false, e)) -> s' = s /\ e <> ECrash) /\
    (forall p s' e, add_part H s p = (s', (true, e)) ->
       e = ENone /\ nth_error (ps_parts s') (N.to_nat (pt_index p)) = Some (Some p) /\
       (nth_error chunks (N.to_nat (pt_index p)) = Some (pt_bytes p) \/ collision)) /\
    (forall g, genuine g ->
       (exists q, nth_error (ps_parts s) (N.to_nat (pt_index g)) = Some (Some q) /\ (pt_bytes q = pt_bytes g \/ collision)) \/
       (exists s', add_part H s g = (s', (true, ENone)))).
  Proof.
    intros s. assert (Hs : InvS s) by (apply add_all_InvS, InvS_s0).
    split; [|split].
    - intros p s' e Ha. split; [eapply add_part_rejected; exact Ha|].
      pose proof (add_part_no_crash s p Hs) as Hn. rewrite Ha in Hn. exact Hn.
    - intros p s' e Ha.
      destruct (add_part_accepted _ _ _ _ Ha) as [He [Hlt [_ [_ [_ [_ Es']]]]]].
      split; [exact He|]. split.
      + subst s'. cbn [ps_parts]. apply nth_error_set_nth_eq. rewrite (is_len _ Hs), <- (Nat2N.id n), <- (is_total _ Hs). lia.
      + eapply accepted_is_chunk; eauto.
    - intros g Hg.
      destruct (genuine_spec g Hg) as [i [Hi [Hch [Hidx _]]]].
      destruct (genuine_slot s g Hs Hg) as [[q|] En].
      + left. exists q. split; [exact En|].
        destruct (add_all_InvC ops s0 InvS_s0 InvC_s0) as [HC|C]; [|right; exact C]. left.
        rewrite Hidx, Nat2N.id in En. exact (Forall2_nth slot_ok _ _ _ _ _ HC En Hch).
      + right. destruct (genuine_addable s g Hs Hg En) as [s' [Ea _]]. exists s'. exact Ea.
  Qed.
End PartSet.

(** the hypotheses of the part-set theorems are satisfiable (a toy hash with 32-byte output) *)
Example hyps_satisfiable :
  let H := fun x : bytes => firstn 32 (x ++ repeat 0%N 32) in
  (forall x, length (H x) = 32) /\ exists full, from_data H [1; 2; 3; 4; 5]%N 2%N = Some full /\ ps_total full = 3%N.
Proof.
  split.
  - intros x. rewrite firstn_length, app_length, repeat_length. lia.
  - eexists. split; [vm_compute; reflexivity|reflexivity].
Qed.
