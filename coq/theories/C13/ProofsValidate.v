(** C13 — what validation against the chain state (validateBlock + the non-signature checks of
    VerifyCommit) binds, and the uniqueness of the block id among the blocks acceptable at a height. *)
From Coq Require Import List ZArith NArith Bool Lia Arith.
From Kardia Require Import C13.Model C13.ProofsMerkle C13.ProofsSound C13.ProofsHeader C13.ProofsCommit.
Import ListNotations.
Local Open Scope N_scope.

Local Ltac Zify.zify_post_hook ::= Z.div_mod_to_equations.

Lemma psheader_eqb_eq a b : psheader_eqb a b = true -> a = b.
Proof.
  unfold psheader_eqb. intros He. apply andb_prop in He. destruct He as [E1 E2].
  apply N.eqb_eq in E1. apply bytes_eqb_eq in E2. destruct a as [ta ha], b as [tb hb]; cbn [psh_total psh_hash] in *. subst. reflexivity.
Qed.

Lemma blockid_eqb_eq a b : blockid_eqb a b = true -> a = b.
Proof.
  unfold blockid_eqb. intros He. apply andb_prop in He. destruct He as [E1 E2].
  apply bytes_eqb_eq in E1. apply psheader_eqb_eq in E2. destruct a as [ha pa], b as [hb pb]; cbn [bid_hash bid_parts] in *. subst. reflexivity.
Qed.

Lemma time_eqb_eq a b : time_eqb a b = true -> a = b.
Proof.
  unfold time_eqb. intros He. apply andb_prop in He. destruct He as [E1 E2].
  apply Z.eqb_eq in E1, E2. destruct a as [sa na], b as [sb nb]; cbn [t_secs t_nanos] in *. subst. reflexivity.
Qed.

Lemma negb_if_true (c : bool) {A} (x y : A) : x <> y -> (if negb c then x else y) = y -> c = true.
Proof. intros Hn He. exact (proj1 (guard_passed c x y y Hn He)). Qed.

Definition wf_block (b : block) : Prop :=
  wf_header (b_header b) /\ forall c, b_last b = Some c -> Forall wf_commit_sig (c_sigs c).

Lemma nil_dec {A} (l : list A) : {l = []} + {l <> []}.
Proof. destruct l; [left; reflexivity|right; discriminate]. Qed.

(** a stage of validateBlock that did not fail *)
Lemma vs_stage (cm k : vs_class) : match cm with VsOk => k | e => e end = VsOk -> cm = VsOk /\ k = VsOk.
Proof. destruct cm; try discriminate. auto. Qed.

Section Validate.
  Variable H K : bytes -> bytes.
  Variable TxRoot : list bytes -> bytes.
  Hypothesis H_len : forall x, length (H x) = 32%nat.

  Lemma verify_commit_ok size bid height sigs_ok c :
    verify_commit size bid height sigs_ok c = VcOk ->
    commit_validate c = VbOk /\ size = N.of_nat (length (c_sigs c)) /\ height = c_height c /\
    bid = c_bid c /\ sigs_ok = true.
  Proof.
    unfold verify_commit. destruct (commit_validate c); try discriminate. intros Hv.
    apply guard_passed in Hv as [E1 Hv]; [|discriminate]. apply guard_passed in Hv as [E2 Hv]; [|discriminate].
    apply guard_passed in Hv as [E3 Hv]; [|discriminate]. apply guard_passed in Hv as [E4 _]; [|discriminate].
    apply N.eqb_eq in E1, E2. apply blockid_eqb_eq in E3. auto.
  Qed.

  Lemma validate_block_binds st x b : validate_block H K TxRoot st x b = VsOk ->
    validate_basic H K TxRoot b = VbOk /\
    h_height (b_header b) = u64_succ (st_last_height st) /\
    (st_last_height st = 0 -> h_height (b_header b) = st_initial st) /\
    h_last (b_header b) = st_last_bid st /\
    h_app (b_header b) = st_app st /\ h_valhash (b_header b) = st_valhash st /\
    h_nextval (b_header b) = st_nextvalhash st /\
    (Z.of_nat (length (b_evs b)) <= st_max_evidence st)%Z /\
    x_proposer_known x = true /\ x_evpool_ok x = true /\
    exists c, b_last b = Some c /\
      ((h_height (b_header b) = st_initial st /\ c_sigs c = [] /\ h_time (b_header b) = st_last_time st) \/
       (st_initial st < h_height (b_header b) /\
        commit_validate c = VbOk /\ N.of_nat (length (c_sigs c)) = st_lastvals_size st /\
        c_height c = u64_pred (h_height (b_header b)) /\ c_bid c = st_last_bid st /\ x_sigs_ok x = true /\
        time_ltb (st_last_time st) (h_time (b_header b)) = true /\ h_time (b_header b) = x_median x)).
  Proof.
    unfold validate_block. cbv zeta.
    destruct (validate_basic H K TxRoot b) eqn:Evb; try discriminate. intros Hv.
    apply guard_passed in Hv as [E1 Hv]; [|discriminate].
    destruct (N.eqb (st_last_height st) 0 && negb (N.eqb (h_height (b_header b)) (st_initial st)))%bool eqn:E2; [discriminate|].
    apply guard_passed in Hv as [E3 Hv]; [|discriminate]. apply guard_passed in Hv as [E4 Hv]; [|discriminate].
    apply guard_passed in Hv as [E5 Hv]; [|discriminate]. apply guard_passed in Hv as [E6 Hv]; [|discriminate].
    destruct (b_last b) as [c|]; [|discriminate].
    apply vs_stage in Hv as [Ecm Hv]. apply vs_stage in Hv as [Etm Hv].
    destruct (Z.ltb_spec (st_max_evidence st) (Z.of_nat (length (b_evs b)))) as [|Hev]; [discriminate|].
    apply guard_passed in Hv as [Ep Hv]; [|discriminate]. apply guard_passed in Hv as [Eo _]; [|discriminate].
    apply N.eqb_eq in E1. apply blockid_eqb_eq in E3. apply bytes_eqb_eq in E4, E5, E6.
    split; [reflexivity|]. split; [exact E1|]. split.
    { intros Hz. rewrite Hz in E2. destruct (N.eqb_spec (h_height (b_header b)) (st_initial st)); [assumption|discriminate]. }
    split; [exact E3|]. split; [exact E4|]. split; [exact E5|]. split; [exact E6|].
    split; [exact Hev|]. split; [exact Ep|]. split; [exact Eo|].
    exists c. split; [reflexivity|].
    destruct (N.eqb_spec (h_height (b_header b)) (st_initial st)) as [Ei|Ni].
    - left. split; [exact Ei|].
      destruct (c_sigs c); [|discriminate]. split; [reflexivity|].
      destruct (N.ltb_spec (st_initial st) (h_height (b_header b))) as [Hlt|_]; [lia|].
      apply guard_passed in Etm as [Et _]; [|discriminate]. apply time_eqb_eq. exact Et.
    - right.
      destruct (N.ltb_spec (st_initial st) (h_height (b_header b))) as [Hlt|_]; [|discriminate].
      split; [exact Hlt|].
      destruct (verify_commit (st_lastvals_size st) (st_last_bid st) (u64_pred (h_height (b_header b))) (x_sigs_ok x) c) eqn:Evc;
        try discriminate.
      destruct (verify_commit_ok _ _ _ _ _ Evc) as [A [B [C [D E]]]].
      apply guard_passed in Etm as [Et1 Etm]; [|discriminate]. apply guard_passed in Etm as [Et2 _]; [|discriminate].
      apply time_eqb_eq in Et2. repeat split; auto.
  Qed.

  (** an explicit preimage of the all-zero hash (the code reads the zero hash as "no evidence") *)
  Definition zero_preimage : Prop := exists x, H x = zero_hash.

  (** an empty evidence / signature list hashes to the zero hash by convention; a non-empty one
      that does so too gives a preimage *)
  Lemma root_zero items : items <> [] -> bytes_to_hash (root H items) = zero_hash -> zero_preimage.
  Proof.
    intros Hn He. rewrite bytes_to_hash_32 in He by (apply root_len; auto).
    destruct (root_hash H _ Hn) as [x Ex]. exists x. congruence.
  Qed.

  Lemma map_hash_inj : forall l l' : list bytes, map K l = map K l' -> l = l' \/ collision K.
  Proof.
    induction l as [|a l IH]; destruct l' as [|a' l']; cbn [map]; intros He; try discriminate; [left; reflexivity|].
    inversion He as [[E1 E2]].
    destruct (hash_inj K _ _ E1) as [Ea|C]; [|right; exact C].
    destruct (IH _ E2) as [El|C]; [|right; exact C]. left. congruence.
  Qed.

  Lemma evidence_hash_binds evs evs' : evidence_hash H K evs = evidence_hash H K evs' ->
    evs = evs' \/ collision K \/ collision H \/ zero_preimage.
  Proof.
    unfold evidence_hash. intros He.
    destruct evs as [|e evs], evs' as [|e' evs'].
    - left; reflexivity.
    - right; right; right. apply (root_zero (map K (e' :: evs'))); [discriminate|]. symmetry. exact He.
    - right; right; right. apply (root_zero (map K (e :: evs))); [discriminate|exact He].
    - rewrite !bytes_to_hash_32 in He by (apply root_len; [exact H_len|discriminate]).
      destruct (root_inj H H_len _ _ He) as [Em|C]; [|right; right; left; exact C].
      destruct (map_hash_inj _ _ Em) as [E|C]; [left; exact E|right; left; exact C].
  Qed.

  Lemma commit_hash_nil c : c_sigs c = [] -> commit_hash H c = Some zero_hash.
  Proof. intros E. unfold commit_hash. rewrite E. reflexivity. Qed.

  Lemma commit_hash_zero c : c_sigs c <> [] -> commit_hash H c = Some zero_hash -> zero_preimage.
  Proof.
    unfold commit_hash. intros Hn He.
    destruct (all_some (map encode_commit_sig (c_sigs c))) as [bs|] eqn:Eb; [|discriminate].
    injection He as He. apply (root_zero bs); [|exact He]. exact (all_some_map_nonempty _ _ _ Hn Eb).
  Qed.

  (** equal commit hashes: equal signature lists (also when one of them is empty: then the other
      one's Merkle root is a preimage of the zero hash) *)
  Lemma sigs_bind c c' : Forall wf_commit_sig (c_sigs c) -> Forall wf_commit_sig (c_sigs c') ->
    commit_hash H c <> None -> commit_hash H c = commit_hash H c' ->
    c_sigs c = c_sigs c' \/ collision H \/ zero_preimage.
  Proof.
    intros W W' Hs He.
    destruct (nil_dec (c_sigs c)) as [En|Hn], (nil_dec (c_sigs c')) as [En'|Hn'].
    - left. congruence.
    - right; right. apply (commit_hash_zero c' Hn'). rewrite <- He. apply commit_hash_nil, En.
    - right; right. apply (commit_hash_zero c Hn). rewrite He. apply commit_hash_nil, En'.
    - destruct (commit_hash_binds_sigs H H_len c c' Hn Hn' W W' Hs He) as [E|C]; [left; exact E|right; left; exact C].
  Qed.

  Lemma valid_evs_eq : forall l l' : list (bytes * bool), map fst l = map fst l' ->
    forallb (fun e => snd e) l = true -> forallb (fun e => snd e) l' = true -> l = l'.
  Proof.
    induction l as [|[e f] l IH]; intros [|[e' f'] l'] Em F F'; try discriminate; [reflexivity|].
    cbn [map fst forallb snd] in *. apply andb_prop in F, F'. destruct F as [F1 F2], F' as [F1' F2'].
    injection Em as E1 E2. subst. f_equal. apply IH; assumption.
  Qed.

  (** two blocks that pass Block.ValidateBasic and share the block hash have the same header, the same
      transactions, the same evidence and the same commit signatures — or an explicit collision *)
  Lemma same_hash_same_body :
    (forall l l', TxRoot l = TxRoot l' -> l = l' \/ collision K) ->
    forall b b', wf_block b -> wf_block b' ->
    validate_basic H K TxRoot b = VbOk -> validate_basic H K TxRoot b' = VbOk ->
    header_hash K (b_header b) = header_hash K (b_header b') ->
    collision K \/ collision H \/ zero_preimage \/
    (b_header b = b_header b' /\ b_txs b = b_txs b' /\ b_evs b = b_evs b' /\
     forall c c', b_last b = Some c -> b_last b' = Some c' -> c_sigs c = c_sigs c').
  Proof.
    intros Htx b b' [W Ws] [W' Ws'] Vb Vb' Hh.
    destruct (same_hash_same_commitments H K TxRoot b b' W W' Vb Vb' Hh) as [C|[Eh [Et [Ee Ec]]]]; [left; exact C|].
    destruct (Htx _ _ Et) as [Etx|C]; [|left; exact C].
    destruct (evidence_hash_binds _ _ Ee) as [Eev|[C|[C|Z]]];
      [|left; exact C|right; left; exact C|right; right; left; exact Z].
    destruct (validate_basic_binds H K TxRoot _ Vb) as [_ [_ [Fl L]]], (validate_basic_binds H K TxRoot _ Vb') as [_ [_ [Fl' _]]].
    assert (Hsig : (forall c c', b_last b = Some c -> b_last b' = Some c' -> c_sigs c = c_sigs c') \/ collision H \/ zero_preimage).
    { destruct (b_last b) as [c|], (b_last b') as [c'|]; try (left; intros; discriminate).
      assert (Hs : commit_hash H c <> None) by (destruct L as [L _]; rewrite L; discriminate).
      destruct (sigs_bind c c' (Ws _ eq_refl) (Ws' _ eq_refl) Hs (Ec _ _ eq_refl eq_refl)) as [E|[C|Z]]; [|right; left; exact C|right; right; exact Z].
      left. intros c0 c0' E0 E0'. injection E0 as <-. injection E0' as <-. exact E. }
    destruct Hsig as [Es|[C|Z]]; [|right; left; exact C|right; right; left; exact Z].
    right; right; right. auto using valid_evs_eq.
  Qed.

  Lemma commit_validate_nonempty c : commit_validate c = VbOk -> 1 <= c_height c -> c_sigs c <> [].
  Proof.
    unfold commit_validate. intros Hv Hh. destruct (N.leb_spec 1 (c_height c)); [|lia].
    destruct (blockid_is_zero (c_bid c)); [discriminate|].
    destruct (c_sigs c); [discriminate|discriminate].
  Qed.

  Lemma u64_pred_ge2 h : 2 <= h -> u64 h -> u64_pred h = h - 1.
  Proof.
    unfold u64, u64_pred, two64N. intros H2 Hu.
    replace (h + 18446744073709551616 - 1) with ((h - 1) + 1 * 18446744073709551616) by lia.
    rewrite N.mod_add by lia. apply N.mod_small. lia.
  Qed.

  (** Two blocks that are acceptable against the same chain state and share the block hash.  They
      have the same header, the same transactions (given that the transaction root determines the
      list — C07 — up to collisions), the same evidence and the same commit signatures; above the
      initial height also the height and the block id of the last commit agree.  Otherwise an explicit
      collision of one of the hashes (or a preimage of the zero hash) is exhibited.
      Not covered: the ROUND of the last commit (bound only by the signatures, C02/C11), and at the
      initial height round and block id of the empty commit (C13_commit_meta_bound_refuted: its two
      blocks differ in the round; [c_bid] is not looked at on that path of Block.ValidateBasic either).
      The statement is that of C13_unique_id_partial: its hypothesis [u64 (st_last_height st)] is not
      used, the four well-formedness hypotheses are [wf_block b] and [wf_block b'] taken apart, and
      [same_hash_same_body] gives the whole of [b_evs], of which only the first components are claimed. *)
  Lemma unique_id st x x' b b' :
    (forall l l', TxRoot l = TxRoot l' -> l = l' \/ collision K) ->
    u64 (st_last_height st) ->
    wf_header (b_header b) -> wf_header (b_header b') ->
    (forall c, b_last b = Some c -> Forall wf_commit_sig (c_sigs c)) ->
    (forall c, b_last b' = Some c -> Forall wf_commit_sig (c_sigs c)) ->
    validate_block H K TxRoot st x b = VsOk -> validate_block H K TxRoot st x' b' = VsOk ->
    header_hash K (b_header b) = header_hash K (b_header b') ->
    collision K \/ collision H \/ zero_preimage \/
    (b_header b = b_header b' /\ b_txs b = b_txs b' /\ map fst (b_evs b) = map fst (b_evs b') /\
     exists c c', b_last b = Some c /\ b_last b' = Some c' /\ c_sigs c = c_sigs c' /\
       (h_height (b_header b) <> st_initial st -> c_height c = c_height c' /\ c_bid c = c_bid c')).
  Proof.
    intros Htx _ W W' Ws Ws' V V' Hh.
    destruct (validate_block_binds _ _ _ V) as [Vb [_ [_ [_ [_ [_ [_ [_ [_ [_ [c [Lc Cc]]]]]]]]]]]].
    destruct (validate_block_binds _ _ _ V') as [Vb' [_ [_ [_ [_ [_ [_ [_ [_ [_ [c' [Lc' Cc']]]]]]]]]]]].
    destruct (same_hash_same_body Htx b b' (conj W Ws) (conj W' Ws') Vb Vb' Hh) as [C|[C|[Z|[Eh [Etx [Eev Es]]]]]];
      [left; exact C|right; left; exact C|right; right; left; exact Z|].
    right; right; right. split; [exact Eh|]. split; [exact Etx|]. split; [rewrite Eev; reflexivity|].
    exists c, c'. split; [exact Lc|]. split; [exact Lc'|]. split; [exact (Es _ _ Lc Lc')|].
    (* above the initial height both commits are for height - 1 and for the state's last block id *)
    intros Hn. destruct Cc as [[Ci _]|[_ [_ [_ [Ch [Cb _]]]]]]; [contradiction|].
    destruct Cc' as [[Ci' _]|[_ [_ [_ [Ch' [Cb' _]]]]]]; [rewrite <- Eh in Ci'; contradiction|].
    split; [rewrite Ch, Ch', Eh; reflexivity|rewrite Cb, Cb'; reflexivity].
  Qed.
End Validate.

Lemma vkey_eqb_eq a b : vkey_eqb a b = true -> a = b.
Proof.
  unfold vkey_eqb. intros He. apply andb_prop in He. destruct He as [E1 E2].
  destruct a as [ha ma], b as [hb mb]; cbn [vk_hash vk_meta] in *.
  assert (ha = hb).
  { destruct ha, hb; cbn [opt_bytes_eqb] in E1; try discriminate; [|reflexivity]. apply bytes_eqb_eq in E1. congruence. }
  subst hb. f_equal.
  destruct ma as [[[h r] i]|], mb as [[[h' r'] i']|]; try discriminate; [|reflexivity].
  apply andb_prop in E2. destruct E2 as [E2 E3]. apply andb_prop in E2. destruct E2 as [E2 E4].
  apply N.eqb_eq in E2, E4. apply blockid_eqb_eq in E3. subst. reflexivity.
Qed.

Section Executor.
  Variable H K : bytes -> bytes.
  Variable TxRoot : list bytes -> bytes.
  Hypothesis H_len : forall x, length (H x) = 32%nat.
  Hypothesis Htx : forall l l', TxRoot l = TxRoot l' -> l = l' \/ collision K.

  Notation zero_preimage := (zero_preimage H).

  (** every cached key belongs to a well-formed block that passed the full validation for this state *)
  Definition cache_ok (st : vstate) (cache : list vkey) : Prop :=
    forall k, In k cache -> exists x0 b0, wf_block b0 /\ validate_block H K TxRoot st x0 b0 = VsOk /\
                                        validation_key K b0 = k.

  Lemma exec_validate_inv st cache x b : wf_block b -> cache_ok st cache ->
    cache_ok st (snd (exec_validate H K TxRoot cache st x b)).
  Proof.
    intros Wb Hc. unfold exec_validate.
    destruct (existsb (vkey_eqb (validation_key K b)) cache); [exact Hc|].
    destruct (validate_block H K TxRoot st x b) eqn:Ev; try exact Hc.
    cbn [snd]. intros k [Ek|Hin]; [|apply Hc; exact Hin].
    exists x, b. auto.
  Qed.

  Lemma exec_run_inv st : forall calls cache, Forall (fun xb => wf_block (snd xb)) calls -> cache_ok st cache ->
    cache_ok st (exec_run H K TxRoot cache st calls).
  Proof.
    induction calls as [|[x b] calls IH]; intros cache Hw Hc; [exact Hc|].
    inversion Hw; subst. cbn [exec_run]. apply IH; [assumption|]. apply exec_validate_inv; assumption.
  Qed.

  (** a block that ValidateBlock accepts — through the cache or not, after any history of calls
      against the same chain state — is a block that the full validation accepts for that state (with
      the external facts of the call that filled the cache), or a collision is exhibited: a tampered
      body cannot ride on a cached header *)
  Lemma cache_sound st calls x b :
    Forall (fun xb => wf_block (snd xb)) calls -> wf_block b ->
    fst (exec_validate H K TxRoot (exec_run H K TxRoot [] st calls) st x b) = VsOk ->
    collision K \/ collision H \/ zero_preimage \/ exists x0, validate_block H K TxRoot st x0 b = VsOk.
  Proof.
    intros Hw Wb Hok.
    assert (Hc : cache_ok st (exec_run H K TxRoot [] st calls)).
    { apply exec_run_inv; [exact Hw|]. intros k []. }
    set (cache := exec_run H K TxRoot [] st calls) in *.
    unfold exec_validate in Hok.
    destruct (existsb (vkey_eqb (validation_key K b)) cache) eqn:Eh.
    - apply existsb_exists in Eh. destruct Eh as [k [Hin Ek]]. apply vkey_eqb_eq in Ek. subst k.
      destruct (Hc _ Hin) as [x0 [b0 [W0 [V0 K0]]]].
      cbn [fst] in Hok. destruct (validate_basic H K TxRoot b) eqn:Vb; try discriminate.
      destruct (validate_block_binds H K TxRoot _ _ _ V0) as [Vb0 _].
      unfold validation_key in K0. inversion K0 as [[Ehash Emeta]].
      destruct (same_hash_same_body H K TxRoot H_len Htx b0 b W0 Wb Vb0 Vb Ehash) as [C|[C|[Z|[E1 [E2 [E3 E4]]]]]];
        [left; exact C|right; left; exact C|right; right; left; exact Z|].
      right; right; right. exists x0.
      assert (Eb : b0 = b).
      { destruct b0 as [h0 t0 l0 e0], b as [h1 t1 l1 e1]; cbn [b_header b_txs b_last b_evs] in *. subst.
        f_equal. destruct l0 as [c0|], l1 as [c1|]; try discriminate; [|reflexivity].
        specialize (E4 _ _ eq_refl eq_refl). inversion Emeta.
        destruct c0 as [a1 a2 a3 a4], c1 as [d1 d2 d3 d4]; cbn [c_height c_round c_bid c_sigs] in *. subst. reflexivity. }
      rewrite <- Eb. exact V0.
    - destruct (validate_block H K TxRoot st x b) eqn:Ev; try discriminate.
      right; right; right. exists x. exact Ev.
  Qed.
End Executor.

(** validateBlock accepts something: the initial block of ProofsHeader, against the state that expects it *)
Definition genesis_state : vstate :=
  {| st_initial := 1; st_last_height := 0;
     st_last_bid := {| bid_hash := zero_hash; bid_parts := {| psh_total := 0; psh_hash := zero_hash |} |};
     st_app := zero_hash; st_valhash := zero_hash; st_nextvalhash := zero_hash; st_lastvals_size := 0;
     st_last_time := {| t_secs := 1600000000; t_nanos := 0 |}; st_max_evidence := 10 |}.
Definition ext_ok : vext :=
  {| x_sigs_ok := true; x_median := {| t_secs := 0; t_nanos := 0 |}; x_proposer_known := true; x_evpool_ok := true |}.

Example validate_block_satisfiable (H K : bytes -> bytes) (TxRoot : list bytes -> bytes) :
  validate_block H K TxRoot genesis_state ext_ok (genesis_block TxRoot 0) = VsOk.
Proof.
  unfold validate_block.
  destruct (commit_meta_unbound_at_initial_height H K TxRoot) as [_ [V _]]. rewrite V. reflexivity.
Qed.
