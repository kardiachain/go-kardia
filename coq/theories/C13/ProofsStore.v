(** C13 — the block store (kai/rawdb WriteBlock and the Read functions): the keys of different kinds, heights and part
    indices never coincide, what WriteBlock files is found again, and a write at one height leaves
    every other height alone (except the slot of the previous height's commit, by design); and the parts of
    NewPartSetFromData written by WriteBlock are read back as the data. *)
From Coq Require Import List ZArith NArith Bool Lia Arith.
From Kardia Require Import C13.Model C13.ProofsMerkle C13.ProofsSound C13.ProofsPartSet.
Import ListNotations.
Local Open Scope N_scope.

Local Ltac Zify.zify_post_hook ::= Z.div_mod_to_equations.

Lemma be_length n : forall v, length (be n v) = n.
Proof.
  induction n as [|n IH]; intros v; cbn [be]; [reflexivity|].
  rewrite app_length, IH. simpl. lia.
Qed.

Lemma be_inj n : forall a b, a < 256 ^ N.of_nat n -> b < 256 ^ N.of_nat n -> be n a = be n b -> a = b.
Proof.
  induction n as [|n IH]; intros a b Ha Hb He.
  - change (256 ^ N.of_nat 0) with 1 in *. lia.
  - cbn [be] in He. apply app_inj_tail in He. destruct He as [E1 E2].
    rewrite Nat2N.inj_succ, N.pow_succ_r' in Ha, Hb.
    assert (Ea : a / 256 = b / 256).
    { apply IH; [| |exact E1].
      - apply N.div_lt_upper_bound; lia.
      - apply N.div_lt_upper_bound; lia. }
    rewrite (N.div_mod a 256), (N.div_mod b 256) by lia. rewrite Ea, E2. reflexivity.
Qed.

Definition u64h (h : N) : Prop := h < 18446744073709551616.
Definition u32i (i : N) : Prop := i < 4294967296.

Lemma be8_inj a b : u64h a -> u64h b -> be 8 a = be 8 b -> a = b.
Proof. unfold u64h. intros; apply (be_inj 8); auto. Qed.
Lemma be4_inj a b : u32i a -> u32i b -> be 4 a = be 4 b -> a = b.
Proof. unfold u32i. intros; apply (be_inj 4); auto. Qed.

Local Opaque be.

Lemma cons_inj_tl {A} (x y : A) l l' : x :: l = y :: l' -> l = l'.
Proof. congruence. Qed.

Inductive key_kind :=
  | KMeta (h : N) | KPart (h i : N) | KCommit (h : N) | KSeen (h : N) | KCanon (h : N) | KHeight (hash : bytes).

Definition key_of (k : key_kind) : bytes :=
  match k with
  | KMeta h => key_meta h | KPart h i => key_part h i | KCommit h => key_commit h
  | KSeen h => key_seen h | KCanon h => key_canon h | KHeight x => key_height x
  end.

Definition wf_key (k : key_kind) : Prop :=
  match k with
  | KMeta h | KCommit h | KSeen h | KCanon h => u64h h
  | KPart h i => u64h h /\ u32i i
  | KHeight _ => True
  end.

(** the byte encoding of the store keys is injective: two well-formed keys (height a uint64, part
    index a uint32) with the same bytes are the same key *)
Lemma key_of_inj k k' : wf_key k -> wf_key k' -> key_of k = key_of k' -> k = k'.
Proof.
  intros W W' He.
  (* keys of two different kinds differ in the first byte or in length; six cases of one kind remain *)
  assert (Hlen := f_equal (@length N) He).
  destruct k, k'; cbn [key_of wf_key] in *;
    unfold key_meta, key_part, key_commit, key_seen, key_canon, key_height in *;
    try discriminate;
    repeat rewrite ?app_length, ?be_length in Hlen; cbn [length] in Hlen; try lia.
  - apply cons_inj_tl in He. f_equal. apply be8_inj; auto.
  - apply cons_inj_tl in He. destruct W, W'.
    apply app_inj_len in He; [|rewrite !be_length; reflexivity]. destruct He as [E1 E2].
    f_equal; [apply be8_inj|apply be4_inj]; auto.
  - apply cons_inj_tl in He. f_equal. apply be8_inj; auto.
  - do 2 apply cons_inj_tl in He. f_equal. apply be8_inj; auto.
  - apply cons_inj_tl in He. apply app_inj_tail in He. destruct He as [E _]. f_equal. apply be8_inj; auto.
  - apply cons_inj_tl in He. subst. reflexivity.
Qed.

Lemma key_of_neq k k' : wf_key k -> wf_key k' -> k <> k' -> key_of k <> key_of k'.
Proof. intros W W' Hn He. apply Hn. apply key_of_inj; auto. Qed.

Section Store.
  Variable V : Type.
  Notation db := (db V).

  Lemma bytes_eqb_neq a b : a <> b -> bytes_eqb a b = false.
  Proof.
    intros Hn. destruct (bytes_eqb a b) eqn:E; [|reflexivity]. apply bytes_eqb_eq in E. contradiction.
  Qed.

  Lemma db_get_filter (d : db) k k' : k <> k' ->
    db_get V (filter (fun e => negb (bytes_eqb (fst e) k)) d) k' = db_get V d k'.
  Proof.
    intros Hn. induction d as [|[k0 v0] d IH]; [reflexivity|].
    cbn [filter fst db_get]. destruct (bytes_eqb k0 k) eqn:E0; cbn [negb].
    - apply bytes_eqb_eq in E0. subst k0. rewrite (bytes_eqb_neq _ _ Hn). exact IH.
    - cbn [db_get]. destruct (bytes_eqb k0 k'); [reflexivity|exact IH].
  Qed.

  Lemma db_get_put_same (d : db) k v : db_get V (db_put V d k v) k = Some v.
  Proof. unfold db_put. cbn [db_get]. rewrite bytes_eqb_refl. reflexivity. Qed.

  Lemma db_get_put_other (d : db) k k' v : k <> k' -> db_get V (db_put V d k v) k' = db_get V d k'.
  Proof.
    intros Hn. unfold db_put. cbn [db_get]. rewrite (bytes_eqb_neq _ _ Hn). apply db_get_filter. exact Hn.
  Qed.

  (** a key is stored at most once: the dump of the map is a function of its contents *)
  Definition keys (d : db) : list bytes := map fst d.

  Lemma filter_keys_notin (d : db) k : ~ In k (keys (filter (fun e => negb (bytes_eqb (fst e) k)) d)).
  Proof.
    unfold keys. intros Hin. apply in_map_iff in Hin. destruct Hin as [[k0 v0] [E Hin]].
    apply filter_In in Hin. destruct Hin as [_ Hf]. cbn [fst] in *. subst k0.
    rewrite bytes_eqb_refl in Hf. discriminate.
  Qed.

  Lemma filter_keys_nodup (d : db) f : NoDup (keys d) -> NoDup (keys (filter f d)).
  Proof.
    unfold keys. induction d as [|[k0 v0] d IH]; intros Hnd; [constructor|].
    inversion Hnd as [|? ? Hni Hnd']; subst. cbn [filter]. destruct (f (k0, v0)).
    - cbn [map fst]. constructor; [|apply IH; exact Hnd'].
      intros Hin. apply Hni. apply in_map_iff in Hin. destruct Hin as [e [E Hin]].
      apply filter_In in Hin. apply in_map_iff. exists e. tauto.
    - apply IH; exact Hnd'.
  Qed.

  Lemma db_put_nodup (d : db) k v : NoDup (keys d) -> NoDup (keys (db_put V d k v)).
  Proof.
    intros Hnd. unfold db_put. change (keys ((k, v) :: ?l)) with (k :: keys l).
    constructor; [apply filter_keys_notin|apply filter_keys_nodup; exact Hnd].
  Qed.

  (** two different well-formed keys never meet (key_of_inj): a put under one leaves the other alone.  All
      lookups below go through this, with the keys given by their kind. *)
  Lemma get_put_other (d : db) k k' v : wf_key k -> wf_key k' -> k <> k' ->
    db_get V (db_put V d (key_of k) v) (key_of k') = db_get V d (key_of k').
  Proof. intros W W' Hn. apply db_get_put_other. apply key_of_neq; assumption. Qed.

  Lemma put_parts_other h (Hh : u64h h) k (Wk : wf_key k) : forall vs i (d : db),
    i + N.of_nat (length vs) <= 4294967296 ->
    (forall j, i <= j < i + N.of_nat (length vs) -> k <> KPart h j) ->
    db_get V (put_parts V d h i vs) (key_of k) = db_get V d (key_of k).
  Proof.
    induction vs as [|v vs IH]; intros i d Hb Hk; [reflexivity|]. cbn [put_parts length] in *.
    rewrite IH by (try intros j Hj; try apply Hk; lia).
    apply (get_put_other d (KPart h i) k); [split; [exact Hh|unfold u32i; lia]|exact Wk|].
    intros E. apply (Hk i); [lia|]. symmetry. exact E.
  Qed.

  Lemma put_parts_get h (Hh : u64h h) : forall vs i (d : db) j v,
    i + N.of_nat (length vs) <= 4294967296 ->
    nth_error vs j = Some v ->
    db_get V (put_parts V d h i vs) (key_part h (i + N.of_nat j)) = Some v.
  Proof.
    induction vs as [|v0 vs IH]; intros i d j v Hb Hn; [destruct j; discriminate|].
    cbn [put_parts]. cbn [length] in Hb. destruct j as [|j]; cbn [nth_error] in Hn.
    - inversion Hn; subst v0. change (N.of_nat 0) with 0. rewrite N.add_0_r.
      rewrite (put_parts_other h Hh (KPart h i)); [apply db_get_put_same|split; [exact Hh|unfold u32i; lia]|lia|].
      intros j' Hj' E. injection E as E. lia.
    - replace (i + N.of_nat (S j)) with (i + 1 + N.of_nat j) by lia.
      apply IH; [lia|exact Hn].
  Qed.

  Lemma put_parts_nodup h : forall vs i (d : db), NoDup (keys d) -> NoDup (keys (put_parts V d h i vs)).
  Proof.
    induction vs as [|v vs IH]; intros i d Hnd; [exact Hnd|]. cbn [put_parts]. apply IH. apply db_put_nodup. exact Hnd.
  Qed.

  Lemma u64_pred_u64 h : u64h (u64_pred h).
  Proof. unfold u64h, u64_pred, two64N. apply N.mod_lt. lia. Qed.

  Lemma all_some_map_nth {B} (f : nat -> option B) (l : list B) :
    (forall j v, nth_error l j = Some v -> f j = Some v) ->
    forall k, all_some (map f (seq k (length l - k))) = Some (skipn k l).
  Proof.
    intros Hf k. remember (length l - k)%nat as m eqn:Em. revert k Em.
    induction m as [|m IH]; intros k Em.
    - cbn [seq map all_some]. rewrite skipn_all2 by lia. reflexivity.
    - cbn [seq map all_some].
      destruct (nth_error l k) as [v|] eqn:En; [|apply nth_error_None in En; lia].
      rewrite (Hf _ _ En). rewrite (IH (S k)) by lia.
      f_equal. clear - En. revert k En. induction l as [|x l IHl]; intros k En; [destruct k; discriminate|].
      destruct k as [|k]; cbn [nth_error] in En.
      + inversion En. reflexivity.
      + cbn [skipn]. rewrite <- (IHl _ En). reflexivity.
  Qed.

  Section Write.
    Variables (d : db) (h : N) (hash : bytes) (vmeta : V) (vparts : list V) (vcommit vseen vheight vhash : V).
    Hypothesis Hh : u64h h.
    Hypothesis Hparts : N.of_nat (length vparts) <= 4294967296.

    Let d' := write_block V d h hash vmeta vparts vcommit vseen vheight vhash.

    (** WriteBlock, with the keys given by their kind *)
    Lemma write_block_eq : d' =
      db_put V (db_put V (db_put V (db_put V (put_parts V (db_put V d (key_of (KMeta h)) vmeta) h 0 vparts)
        (key_of (KCommit (u64_pred h))) vcommit) (key_of (KSeen h)) vseen) (key_of (KHeight hash)) vheight) (key_of (KCanon h)) vhash.
    Proof. reflexivity. Qed.

    Lemma wf_part j : j < N.of_nat (length vparts) -> wf_key (KPart h j).
    Proof. intros Hj. split; [exact Hh|unfold u32i; lia]. Qed.

    Lemma write_block_other k : wf_key k ->
      k <> KMeta h -> (forall j, j < N.of_nat (length vparts) -> k <> KPart h j) ->
      k <> KCommit (u64_pred h) -> k <> KSeen h -> k <> KHeight hash -> k <> KCanon h ->
      db_get V d' (key_of k) = db_get V d (key_of k).
    Proof.
      intros W N1 N2 N3 N4 N5 N6. rewrite write_block_eq.
      rewrite !get_put_other by (cbn [wf_key]; auto using u64_pred_u64).
      rewrite (put_parts_other h Hh k W) by (try intros j Hj; try apply N2; lia).
      apply get_put_other; [exact Hh|exact W|auto].
    Qed.

    Lemma write_block_meta : db_get V d' (key_meta h) = Some vmeta.
    Proof.
      change (key_meta h) with (key_of (KMeta h)). rewrite write_block_eq.
      rewrite !get_put_other by (cbn [wf_key]; auto using u64_pred_u64; discriminate).
      rewrite (put_parts_other h Hh (KMeta h) Hh) by (try discriminate; lia). apply db_get_put_same.
    Qed.

    Lemma write_block_part j v : nth_error vparts j = Some v -> db_get V d' (key_part h (N.of_nat j)) = Some v.
    Proof.
      intros Hn. assert (Hj : N.of_nat j < N.of_nat (length vparts)) by (assert (j < length vparts)%nat by (apply nth_error_Some; congruence); lia).
      rewrite write_block_eq. change (key_part h (N.of_nat j)) with (key_of (KPart h (N.of_nat j))).
      rewrite !get_put_other by (try discriminate; try (apply wf_part; exact Hj); cbn [wf_key]; auto using u64_pred_u64).
      apply (put_parts_get h Hh vparts 0); [lia|exact Hn].
    Qed.

    Lemma write_block_commit : db_get V d' (key_commit (u64_pred h)) = Some vcommit.
    Proof.
      change (key_commit (u64_pred h)) with (key_of (KCommit (u64_pred h))). rewrite write_block_eq.
      rewrite !get_put_other by (cbn [wf_key]; auto using u64_pred_u64; discriminate). apply db_get_put_same.
    Qed.

    Lemma write_block_seen : db_get V d' (key_seen h) = Some vseen.
    Proof.
      change (key_seen h) with (key_of (KSeen h)). rewrite write_block_eq. rewrite !get_put_other by (cbn [wf_key]; auto; discriminate). apply db_get_put_same.
    Qed.

    Lemma write_block_height : db_get V d' (key_height hash) = Some vheight.
    Proof.
      change (key_height hash) with (key_of (KHeight hash)). rewrite write_block_eq. rewrite !get_put_other by (cbn [wf_key]; auto; discriminate). apply db_get_put_same.
    Qed.

    Lemma write_block_canon : db_get V d' (key_canon h) = Some vhash.
    Proof. apply db_get_put_same. Qed.

    (** the part loop of ReadBlock finds exactly the parts that were written, in order *)
    Lemma write_block_read_parts : read_parts V d' h (length vparts) = Some vparts.
    Proof.
      unfold read_parts.
      pose proof (all_some_map_nth (B:=V) (fun i => db_get V d' (key_part h (N.of_nat i))) vparts write_block_part 0%nat) as E.
      rewrite Nat.sub_0_r in E. exact E.
    Qed.

    Lemma write_block_nodup : NoDup (keys d) -> NoDup (keys d').
    Proof.
      intros Hnd. unfold d', write_block.
      repeat apply db_put_nodup. apply put_parts_nodup. apply db_put_nodup. exact Hnd.
    Qed.

    Lemma write_block_readback :
      db_get V d' (key_meta h) = Some vmeta /\
      read_parts V d' h (length vparts) = Some vparts /\
      (forall j v, nth_error vparts j = Some v -> db_get V d' (key_part h (N.of_nat j)) = Some v) /\
      db_get V d' (key_commit (u64_pred h)) = Some vcommit /\
      db_get V d' (key_seen h) = Some vseen /\
      db_get V d' (key_height hash) = Some vheight /\
      db_get V d' (key_canon h) = Some vhash /\
      (NoDup (keys d) -> NoDup (keys d')).
    Proof.
      split; [exact write_block_meta|]. split; [exact write_block_read_parts|]. split; [exact write_block_part|].
      split; [exact write_block_commit|]. split; [exact write_block_seen|]. split; [exact write_block_height|].
      split; [exact write_block_canon|exact write_block_nodup].
    Qed.

    (** a write at height [h] leaves every other height alone — except the commit slot of height
        h-1, which WriteBlock fills with the block's LastCommit — and the height entry of every other hash *)
    Lemma write_block_frame_all h' : u64h h' -> h' <> h ->
      db_get V d' (key_meta h') = db_get V d (key_meta h') /\
      (forall i, u32i i -> db_get V d' (key_part h' i) = db_get V d (key_part h' i)) /\
      db_get V d' (key_seen h') = db_get V d (key_seen h') /\
      db_get V d' (key_canon h') = db_get V d (key_canon h') /\
      (h' <> u64_pred h -> db_get V d' (key_commit h') = db_get V d (key_commit h')) /\
      (forall hash', hash' <> hash -> db_get V d' (key_height hash') = db_get V d (key_height hash')).
    Proof.
      intros Hh' Hne. repeat split.
      - apply (write_block_other (KMeta h')); [exact Hh'|congruence..].
      - intros i Hi. apply (write_block_other (KPart h' i)); [split; assumption|congruence..].
      - apply (write_block_other (KSeen h')); [exact Hh'|congruence..].
      - apply (write_block_other (KCanon h')); [exact Hh'|congruence..].
      - intros Hp. apply (write_block_other (KCommit h')); [exact Hh'|congruence..].
      - intros hash' Hn. apply (write_block_other (KHeight hash')); [exact I|congruence..].
    Qed.
  End Write.
End Store.

Section Reassemble.
  Variable H : bytes -> bytes.
  Hypothesis H_len : forall x, length (H x) = 32%nat.
  Variables (data : bytes) (psz : N) (full : partset).
  Hypothesis Hfull : from_data H data psz = Some full.

  Lemma full_parts_concat : concat_parts (ps_parts full) = Some data /\
                            length (ps_parts full) = N.to_nat (ps_total full) /\ (ps_total full < 4294967296)%N.
  Proof.
    destruct (full_facts H H_len data psz full Hfull) as [Hp [_ [Hn ->]]]. cbn [ps_parts ps_total].
    pose proof (prs_length H data psz) as Hl.
    split; [|split].
    - rewrite concat_parts_mk, concat_chunks by assumption. reflexivity.
    - rewrite mk_parts_length, Nat2N.id by assumption. reflexivity.
    - exact Hn.
  Qed.

  (** WriteBlock of the parts of NewPartSetFromData(data) under any codec with decode (encode p) = p,
      into any store, at any height: the part loop of ReadBlock finds all of them and their bytes
      concatenate to exactly the data *)
  Lemma store_reassembles (V : Type) (enc : option part -> V) (dec : V -> option part) :
    (forall p, dec (enc p) = p) ->
    forall (d : db V) h hash vmeta vcommit vseen vheight vhash, u64h h ->
    exists vs,
      read_parts V (write_block V d h hash vmeta (map enc (ps_parts full)) vcommit vseen vheight vhash)
                 h (N.to_nat (ps_total full)) = Some vs /\
      concat_parts (map dec vs) = Some data.
  Proof.
    intros Hcodec d h hash vmeta vcommit vseen vheight vhash Hh.
    destruct full_parts_concat as [Hc [Hl Ht]].
    exists (map enc (ps_parts full)). split.
    - rewrite <- Hl, <- (map_length enc). apply write_block_read_parts; [exact Hh|].
      rewrite map_length, Hl, N2Nat.id. lia.
    - rewrite map_map. rewrite (map_ext _ (fun p => p)) by exact Hcodec. rewrite map_id. exact Hc.
  Qed.
End Reassemble.
