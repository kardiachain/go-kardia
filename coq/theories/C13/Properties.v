(** C13 — property theorems only.  Each is closed by [exact] of a lemma proved in the Proofs*.v files
    (two by [exact] of an instance of [genuine_passes_wire]) and followed by [Print Assumptions].

    [H] is the Merkle hash (SHA-256 in the code), [K] the header hash (Keccak-256); both are
    universally quantified functions; the only hypothesis on [H] is its fixed output length.  Every
    security statement concludes "... \/ collision H" (those about whole blocks also "\/ collision K" and
    "\/ zero_preimage H", a preimage of the all-zero hash): an explicit pair of different inputs with the
    same hash, constructed by the (axiom-free) proof from the inputs of the theorem. *)
From Coq Require Import List ZArith NArith Bool.
From Kardia Require Import Base.Int64 C13.Model C13.ProofsMerkle C13.ProofsSound C13.ProofsPartSet
  C13.ProofsHeader C13.ProofsCommit C13.ProofsStore C13.ProofsValidate Generated.C13Facts.
Import ListNotations.

(** every proof generated by SimpleProofsFromByteSlices verifies against the generated root, for
    the right index and total *)
Theorem C13_merkle_complete :
  forall (H : bytes -> bytes) items r prs i x p,
    (Z.of_nat (length items) < two63)%Z ->
    proofs_from H items = Some (r, prs) -> nth_error items i = Some x -> nth_error prs i = Some p ->
    r = root H items /\ p_total p = N.of_nat (length items) /\ p_index p = N.of_nat i /\
    verify H r x p = VOk.
Proof. exact merkle_complete_lemma. Qed.
Print Assumptions C13_merkle_complete.

(** a proof that verifies against [root items] with Total = number of items proves the item at its
    index, or yields a collision *)
Theorem C13_merkle_sound :
  forall (H : bytes -> bytes), (forall x, length (H x) = 32) ->
  forall items x p,
    items <> [] -> (Z.of_nat (length items) < two63)%Z -> (p_index p < 18446744073709551616)%N ->
    p_total p = N.of_nat (length items) ->
    verify H (root H items) x p = VOk ->
    nth_error items (N.to_nat (p_index p)) = Some x \/ collision H.
Proof. exact merkle_sound_lemma. Qed.
Print Assumptions C13_merkle_sound.

(** two lists with the same Merkle root are equal, or a collision (commit signatures, evidence) *)
Theorem C13_merkle_root_injective :
  forall (H : bytes -> bytes), (forall x, length (H x) = 32) ->
  forall items items', root H items = root H items' -> items = items' \/ collision H.
Proof. exact root_inj. Qed.
Print Assumptions C13_merkle_root_injective.

(** NewPartSetFromData splits exactly: the chunks concatenate to the data *)
Theorem C13_chunks_exact :
  forall data psz, psz <> 0%N -> concat (chunks_of data psz) = data.
Proof. exact concat_chunks. Qed.
Print Assumptions C13_chunks_exact.

(** any sequence of AddPart calls — genuine, duplicate, bogus — on a set created from the header of
    NewPartSetFromData(data): if it reports complete, it reads exactly the data, or a collision *)
Theorem C13_complete_exact :
  forall (H : bytes -> bytes), (forall x, length (H x) = 32) ->
  forall data psz full, from_data H data psz = Some full ->
  forall ops : list part,
    let s := add_all H (from_header (ps_total full) (ps_hash full)) ops in
    is_complete s = true -> read_all s = Some data \/ collision H.
Proof. exact complete_exact. Qed.
Print Assumptions C13_complete_exact.

(** after any history: a refused part leaves the set unchanged (and AddPart never crashes); an
    accepted part sits in its slot and carries the bytes of that chunk (or a collision); hence every
    genuine part is either already represented by equal bytes or is still accepted *)
Theorem C13_bogus_harmless :
  forall (H : bytes -> bytes), (forall x, length (H x) = 32) ->
  forall data psz full, from_data H data psz = Some full ->
  forall ops : list part,
    let s := add_all H (from_header (ps_total full) (ps_hash full)) ops in
    (forall p s' e, add_part H s p = (s', (false, e)) -> s' = s /\ e <> ECrash) /\
    (forall p s' e, add_part H s p = (s', (true, e)) ->
       e = ENone /\ nth_error (ps_parts s') (N.to_nat (pt_index p)) = Some (Some p) /\
       (nth_error (chunks_of data psz) (N.to_nat (pt_index p)) = Some (pt_bytes p) \/ collision H)) /\
    (forall g, In (Some g) (ps_parts full) ->
       (exists q, nth_error (ps_parts s) (N.to_nat (pt_index g)) = Some (Some q) /\
                  (pt_bytes q = pt_bytes g \/ collision H)) \/
       (exists s', add_part H s g = (s', (true, ENone)))).
Proof. exact bogus_harmless. Qed.
Print Assumptions C13_bogus_harmless.

(** any delivery that contains every genuine part, with anything else in between, completes *)
Theorem C13_delivery_completes :
  forall (H : bytes -> bytes), (forall x, length (H x) = 32) ->
  forall data psz full, from_data H data psz = Some full ->
  forall ops : list part,
    (forall g, In (Some g) (ps_parts full) -> In g ops) ->
    is_complete (add_all H (from_header (ps_total full) (ps_hash full)) ops) = true.
Proof. exact delivery_completes. Qed.
Print Assumptions C13_delivery_completes.

(** any permutation with duplicates of the genuine parts completes and reads the data (no collision
    alternative: completeness) *)
Theorem C13_permutation :
  forall (H : bytes -> bytes), (forall x, length (H x) = 32) ->
  forall data psz full, from_data H data psz = Some full ->
  forall ops : list part,
    (forall p, In p ops -> In (Some p) (ps_parts full)) ->
    (forall g, In (Some g) (ps_parts full) -> In g ops) ->
    let s := add_all H (from_header (ps_total full) (ps_hash full)) ops in
    is_complete s = true /\ read_all s = Some data.
Proof. exact permutation_reads. Qed.
Print Assumptions C13_permutation.

(* ------------------------------------------------------------------ tamper evidence *)

(** the constants of the code keep NewPartSetFromData of any admissible block inside the wrap-free
    domain of the model (facts regenerated from the source on every run) *)
Theorem C13_part_size_in_domain :
  (block_part_size_bytes <> 0)%N /\ ((max_block_size_bytes + block_part_size_bytes - 1) < two32)%N /\
  (max_block_parts_count = max_block_size_bytes / block_part_size_bytes + 1)%N.
Proof. exact part_size_in_domain. Qed.
Print Assumptions C13_part_size_in_domain.

(** the bytes hashed by Header.Hash (the protobuf encoding, transcribed) determine all 13 header
    fields: height, time (as an instant), numTxs, gasLimit, last block id (hash, parts total, parts
    hash), proposer, and the seven hashes *)
Theorem C13_header_injective :
  forall h h', wf_header h -> wf_header h' -> encode_header h = encode_header h' -> h = h'.
Proof. exact encode_header_inj. Qed.
Print Assumptions C13_header_injective.

(** equal block hash: equal headers, or an explicit Keccak collision *)
Theorem C13_block_hash_binds_header :
  forall (K : bytes -> bytes) h h', wf_header h -> wf_header h' ->
    header_hash K h = header_hash K h' -> h = h' \/ collision K.
Proof. exact header_hash_binds. Qed.
Print Assumptions C13_block_hash_binds_header.

(** Block.ValidateBasic ties the transactions (via the trie root), the evidence list and the
    signatures of the last commit to header fields *)
Theorem C13_validate_basic_binds :
  forall (H K : bytes -> bytes) (TxRoot : list bytes -> bytes) b,
    validate_basic H K TxRoot b = VbOk ->
    h_txhash (b_header b) = TxRoot (b_txs b) /\
    h_evidence (b_header b) = evidence_hash H K (map fst (b_evs b)) /\
    forallb (fun e => snd e) (b_evs b) = true /\
    match b_last b with
    | None => h_lastcommit (b_header b) = zero_hash /\ (h_height (b_header b) <= 1)%N
    | Some c => commit_hash H c = Some (h_lastcommit (b_header b)) /\
                ((1 < h_height (b_header b))%N -> commit_validate c = VbOk)
    end.
Proof. exact validate_basic_binds. Qed.
Print Assumptions C13_validate_basic_binds.

(** PARTIAL (what is missing: the step from equal commitments to equal contents — transaction list
    from the trie root is C07, see Open.v — and the commit's own height/round/block id, which only
    VerifyCommit (C02) binds and nothing binds at the initial height, see the _refuted theorem):
    two blocks that pass ValidateBasic and share the block hash have the same header, transaction
    root, evidence hash and commit-signature hash, or a Keccak collision is exhibited *)
Theorem C13_same_hash_same_commitments_partial :
  forall (H K : bytes -> bytes) (TxRoot : list bytes -> bytes) b b',
    wf_header (b_header b) -> wf_header (b_header b') ->
    validate_basic H K TxRoot b = VbOk -> validate_basic H K TxRoot b' = VbOk ->
    header_hash K (b_header b) = header_hash K (b_header b') ->
    collision K \/
    (b_header b = b_header b' /\ TxRoot (b_txs b) = TxRoot (b_txs b') /\
     evidence_hash H K (map fst (b_evs b)) = evidence_hash H K (map fst (b_evs b')) /\
     forall c c', b_last b = Some c -> b_last b' = Some c' -> commit_hash H c = commit_hash H c').
Proof. exact same_hash_same_commitments. Qed.
Print Assumptions C13_same_hash_same_commitments_partial.

(** REFUTED at the initial height (known finding): two different blocks — the empty last commit
    carries round 0 resp. 7 — both pass ValidateBasic and have the same block hash, for every choice
    of the hash functions.  Commit.Hash covers the signatures only. *)
Theorem C13_commit_meta_bound_refuted :
  forall (H K : bytes -> bytes) (TxRoot : list bytes -> bytes),
    genesis_block TxRoot 0 <> genesis_block TxRoot 7 /\
    validate_basic H K TxRoot (genesis_block TxRoot 0) = VbOk /\
    validate_basic H K TxRoot (genesis_block TxRoot 7) = VbOk /\
    header_hash K (b_header (genesis_block TxRoot 0)) = header_hash K (b_header (genesis_block TxRoot 7)).
Proof. exact commit_meta_unbound_at_initial_height. Qed.
Print Assumptions C13_commit_meta_bound_refuted.

(** the hash of a (non-empty) commit determines every field of every commit signature — flag,
    validator address, timestamp, signature bytes — or a collision of the Merkle hash *)
Theorem C13_commit_hash_binds_signatures :
  forall (H : bytes -> bytes), (forall x, length (H x) = 32) ->
  forall c c',
    c_sigs c <> [] -> c_sigs c' <> [] ->
    Forall wf_commit_sig (c_sigs c) -> Forall wf_commit_sig (c_sigs c') ->
    commit_hash H c <> None -> commit_hash H c = commit_hash H c' ->
    c_sigs c = c_sigs c' \/ collision H.
Proof. exact commit_hash_binds_sigs. Qed.
Print Assumptions C13_commit_hash_binds_signatures.

(** every part produced by NewPartSetFromData with a part size up to [max] passes the checks that
    PartFromProto applies (32-byte leaf hash and aunts, at most [max] bytes): a genuine part survives
    the wire, the WAL and the block store *)
Theorem C13_genuine_parts_survive_wire :
  forall (H : bytes -> bytes), (forall x, length (H x) = 32) ->
  forall data psz full, from_data H data psz = Some full ->
  forall max g, (psz <= max)%N -> In (Some g) (ps_parts full) ->
    part_from_proto max (pt_index g) (pt_bytes g) (pt_proof g) = WOk.
Proof. intros H Hl data psz full Hf max g. exact (genuine_passes_wire H Hl data psz full Hf max g). Qed.
Print Assumptions C13_genuine_parts_survive_wire.

(** in particular with the real part size and the real limit (both BlockPartSizeBytes, regenerated
    from the source): a full-size part of exactly 65536 bytes is accepted *)
Theorem C13_real_parts_survive_wire :
  forall (H : bytes -> bytes), (forall x, length (H x) = 32) ->
  forall data full, from_data H data block_part_size_bytes = Some full ->
  forall g, In (Some g) (ps_parts full) ->
    part_from_proto_real (pt_index g) (pt_bytes g) (pt_proof g) = WOk.
Proof.
  intros H Hl data full Hf g Hg. unfold part_from_proto_real.
  exact (genuine_passes_wire H Hl data _ full Hf _ g (N.le_refl _) Hg).
Qed.
Print Assumptions C13_real_parts_survive_wire.

(** the part count of every admissible block (at most MaxBlockSizeBytes bytes) cut with the real part
    size passes the bound of Proposal.ValidateBasic (MaxBlockPartsCount): a proposal for any block that
    may exist survives the wire (constants regenerated from the source) *)
Theorem C13_real_total_within_limit :
  forall (H : bytes -> bytes) data full,
    from_data H data block_part_size_bytes = Some full ->
    (N.of_nat (length data) <= max_block_size_bytes)%N ->
    proposal_parts_ok (ps_total full) = true.
Proof. exact real_total_within_limit. Qed.
Print Assumptions C13_real_total_within_limit.

(* ------------------------------------------------------------------ validation against the chain state *)

(** a block accepted by validateBlock (cstate/validation.go + the non-signature checks of VerifyCommit)
    passes Block.ValidateBasic and carries the state's height+1, last block id, app hash and validator
    hashes; above the initial height its last commit is for height-1 and for the state's last block id,
    has one signature slot per validator of the last set and passed the signature check, and the block
    time is after the last block time and equal to the median time; at the initial height the commit
    has no signatures and the time is the genesis time *)
Theorem C13_validate_block_binds :
  forall (H K : bytes -> bytes) (TxRoot : list bytes -> bytes) st x b,
    validate_block H K TxRoot st x b = VsOk ->
    validate_basic H K TxRoot b = VbOk /\
    h_height (b_header b) = u64_succ (st_last_height st) /\
    (st_last_height st = 0%N -> h_height (b_header b) = st_initial st) /\
    h_last (b_header b) = st_last_bid st /\
    h_app (b_header b) = st_app st /\ h_valhash (b_header b) = st_valhash st /\
    h_nextval (b_header b) = st_nextvalhash st /\
    (Z.of_nat (length (b_evs b)) <= st_max_evidence st)%Z /\
    x_proposer_known x = true /\ x_evpool_ok x = true /\
    exists c, b_last b = Some c /\
      ((h_height (b_header b) = st_initial st /\ c_sigs c = [] /\ h_time (b_header b) = st_last_time st) \/
       ((st_initial st < h_height (b_header b))%N /\
        commit_validate c = VbOk /\ N.of_nat (length (c_sigs c)) = st_lastvals_size st /\
        c_height c = u64_pred (h_height (b_header b)) /\ c_bid c = st_last_bid st /\ x_sigs_ok x = true /\
        time_ltb (st_last_time st) (h_time (b_header b)) = true /\ h_time (b_header b) = x_median x)).
Proof. exact validate_block_binds. Qed.
Print Assumptions C13_validate_block_binds.

(** PARTIAL (what is missing: the ROUND of the last commit, which only the signatures bind — C02/C11 —
    and, at the initial height, round and block id of the empty commit, see the _refuted theorem; the
    step from the transaction root to the transaction list is a hypothesis — C07):
    two blocks acceptable against the same chain state never share an id unless they are the same
    block.  If both pass validateBlock for one state and have the same block hash, then header,
    transactions, evidence and commit signatures are equal, and above the initial height so are the
    height and block id of the last commit — or an explicit collision of Keccak / SHA-256 (or a
    preimage of the all-zero hash) is exhibited *)
Theorem C13_unique_id_partial :
  forall (H K : bytes -> bytes) (TxRoot : list bytes -> bytes),
    (forall x, length (H x) = 32) ->
  forall st x x' b b',
    (forall l l', TxRoot l = TxRoot l' -> l = l' \/ collision K) ->
    u64 (st_last_height st) ->
    wf_header (b_header b) -> wf_header (b_header b') ->
    (forall c, b_last b = Some c -> Forall wf_commit_sig (c_sigs c)) ->
    (forall c, b_last b' = Some c -> Forall wf_commit_sig (c_sigs c)) ->
    validate_block H K TxRoot st x b = VsOk -> validate_block H K TxRoot st x' b' = VsOk ->
    header_hash K (b_header b) = header_hash K (b_header b') ->
    collision K \/ collision H \/ zero_preimage H \/
    (b_header b = b_header b' /\ b_txs b = b_txs b' /\ map fst (b_evs b) = map fst (b_evs b') /\
     exists c c', b_last b = Some c /\ b_last b' = Some c' /\ c_sigs c = c_sigs c' /\
       (h_height (b_header b) <> st_initial st -> c_height c = c_height c' /\ c_bid c = c_bid c')).
Proof. exact unique_id. Qed.
Print Assumptions C13_unique_id_partial.

(** two blocks that pass Block.ValidateBasic and share the block hash have the same header, the same
    transactions, the same evidence (with the same validity) and the same commit signatures — also
    when one of the signature lists is empty — or an explicit collision / zero-hash preimage; the
    transaction root is a hypothesis (C07).  (Height, round and block id of the last commit are not
    covered by the hash: C13_unique_id_partial, C13_commit_meta_bound_refuted.) *)
Theorem C13_same_hash_same_body :
  forall (H K : bytes -> bytes) (TxRoot : list bytes -> bytes),
    (forall x, length (H x) = 32) ->
    (forall l l', TxRoot l = TxRoot l' -> l = l' \/ collision K) ->
  forall b b', wf_block b -> wf_block b' ->
    validate_basic H K TxRoot b = VbOk -> validate_basic H K TxRoot b' = VbOk ->
    header_hash K (b_header b) = header_hash K (b_header b') ->
    collision K \/ collision H \/ zero_preimage H \/
    (b_header b = b_header b' /\ b_txs b = b_txs b' /\ b_evs b = b_evs b' /\
     forall c c', b_last b = Some c -> b_last b' = Some c' -> c_sigs c = c_sigs c').
Proof. exact same_hash_same_body. Qed.
Print Assumptions C13_same_hash_same_body.

(** the executor's validation cache (BlockExecutor.ValidateBlock, with the ValidateBasic on a hit of
    commit fc51689): after ANY history of calls against one chain state, a block that ValidateBlock
    accepts — from the cache or not — is accepted by the full validateBlock for that state: a body that
    was tampered with cannot ride on a header (and last-commit height/round/id) that was validated
    before.  Up to explicit collisions; the cache key is modelled as the tuple it hashes. *)
Theorem C13_cache_sound :
  forall (H K : bytes -> bytes) (TxRoot : list bytes -> bytes),
    (forall x, length (H x) = 32) ->
    (forall l l', TxRoot l = TxRoot l' -> l = l' \/ collision K) ->
  forall st (calls : list (vext * block)) x b,
    Forall (fun xb => wf_block (snd xb)) calls -> wf_block b ->
    fst (exec_validate H K TxRoot (exec_run H K TxRoot [] st calls) st x b) = VsOk ->
    collision K \/ collision H \/ zero_preimage H \/
    exists x0, validate_block H K TxRoot st x0 b = VsOk.
Proof. exact cache_sound. Qed.
Print Assumptions C13_cache_sound.

(* ------------------------------------------------------------------ the block store *)

(** the byte encodings of the store keys (kai/rawdb/schema.go: "m"/"p"/"c"/"sm"/"h..n"/"H" prefixes,
    8-byte big-endian height, 4-byte big-endian part index) are injective over kinds, heights (uint64)
    and part indices (uint32): no two things are ever filed under one key *)
Theorem C13_store_keys_injective :
  forall k k', wf_key k -> wf_key k' -> key_of k = key_of k' -> k = k'.
Proof. exact key_of_inj. Qed.
Print Assumptions C13_store_keys_injective.

(** after WriteBlock(height h, parts, last commit, seen commit) into ANY store: the meta, every part
    (by index, and the whole list through ReadBlock's part loop), the last commit under h-1, the seen
    commit, hash->height and height->hash are found again, and the store stays a function of its keys *)
Theorem C13_store_readback :
  forall (V : Type) (d : db V) h hash vmeta vparts vcommit vseen vheight vhash,
    u64h h -> (N.of_nat (length vparts) <= 4294967296)%N ->
    let d' := write_block V d h hash vmeta vparts vcommit vseen vheight vhash in
    db_get V d' (key_meta h) = Some vmeta /\
    read_parts V d' h (length vparts) = Some vparts /\
    (forall j v, nth_error vparts j = Some v -> db_get V d' (key_part h (N.of_nat j)) = Some v) /\
    db_get V d' (key_commit (u64_pred h)) = Some vcommit /\
    db_get V d' (key_seen h) = Some vseen /\
    db_get V d' (key_height hash) = Some vheight /\
    db_get V d' (key_canon h) = Some vhash /\
    (NoDup (keys V d) -> NoDup (keys V d')).
Proof. exact write_block_readback. Qed.
Print Assumptions C13_store_readback.

(** WriteBlock at height h changes nothing that belongs to another height h' — meta, parts, seen
    commit, canonical hash — nor the commit of h' unless h' = h-1 (whose slot receives the block's
    LastCommit, by design), nor the height entry of another hash *)
Theorem C13_store_frame :
  forall (V : Type) (d : db V) h hash vmeta vparts vcommit vseen vheight vhash,
    u64h h -> (N.of_nat (length vparts) <= 4294967296)%N ->
    let d' := write_block V d h hash vmeta vparts vcommit vseen vheight vhash in
    forall h', u64h h' -> h' <> h ->
    db_get V d' (key_meta h') = db_get V d (key_meta h') /\
    (forall i, u32i i -> db_get V d' (key_part h' i) = db_get V d (key_part h' i)) /\
    db_get V d' (key_seen h') = db_get V d (key_seen h') /\
    db_get V d' (key_canon h') = db_get V d (key_canon h') /\
    (h' <> u64_pred h -> db_get V d' (key_commit h') = db_get V d (key_commit h')) /\
    (forall hash', hash' <> hash -> db_get V d' (key_height hash') = db_get V d (key_height hash')).
Proof. exact write_block_frame_all. Qed.
Print Assumptions C13_store_frame.

(** a block stored by WriteBlock as the parts of NewPartSetFromData(data) — under any part codec with
    decode(encode p) = p, into any store, at any height — is read back by ReadBlock's part loop as
    exactly the bytes of data *)
Theorem C13_store_reassembles :
  forall (H : bytes -> bytes), (forall x, length (H x) = 32) ->
  forall data psz full, from_data H data psz = Some full ->
  forall (V : Type) (enc : option part -> V) (dec : V -> option part),
    (forall p, dec (enc p) = p) ->
  forall (d : db V) h hash vmeta vcommit vseen vheight vhash, u64h h ->
  exists vs,
    read_parts V (write_block V d h hash vmeta (map enc (ps_parts full)) vcommit vseen vheight vhash)
               h (N.to_nat (ps_total full)) = Some vs /\
    concat_parts (map dec vs) = Some data.
Proof. exact store_reassembles. Qed.
Print Assumptions C13_store_reassembles.

(* ------------------------------------------------------------------ source tie *)

(** the model's guards and arithmetic ARE the expressions of the Go source (regenerated from /repo on
    every run by /verif/go2coq into Generated/C13Source.v): split point, computeHashFromAunts' range and
    left/right tests, Verify, proof/part size limits, AddPart's index/proof-index/proof-total tests,
    PartSetHeader/BlockID equality and zero tests, IsComplete / GetReader, Block/Commit/CommitSig
    ValidateBasic, Proposal's part-count bound, VerifyCommit's size/height/block-id tests, every test of
    validateBlock in order, the part loops of the block store, and DeriveSha's three loops inserting every
    index exactly once — on exactly the operands named in the source (statement spelled out in
    SourceTie.v) *)
From Kardia Require Import C13.SourceTie.
Theorem C13_source_tie : C13_source_tie_statement.
Proof. exact C13_source_tie_proof. Qed.
Print Assumptions C13_source_tie.

(** The decision-critical functions of the anchored code have exactly the decisions the source tie knows about
    (go2coq manifests, regenerated from /repo on every check; statement in SourceManifest.v). *)
From Kardia Require Import C13.SourceManifest.
Theorem C13_source_manifest : C13_source_manifest_statement.
Proof. exact C13_source_manifest_proof. Qed.
Print Assumptions C13_source_manifest.
