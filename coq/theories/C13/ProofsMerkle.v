(** C13 — the Merkle tree: the shape of the recursion (two halves cut at the split point), root and trails
    of an append of two halves, the hash chain of a proof step by step, completeness of the generated proofs. *)
From Coq Require Import List ZArith NArith Bool Lia Arith.
From Kardia Require Import C13.Model.
Import ListNotations.

Lemma bytes_eqb_eq a b : bytes_eqb a b = true <-> a = b.
Proof.
  revert b; induction a as [|x a IH]; destruct b as [|y b]; simpl; split; intros Hh; try congruence; auto.
  - apply andb_true_iff in Hh. destruct Hh as [H1 H2]. apply N.eqb_eq in H1. apply IH in H2. congruence.
  - inversion Hh; subst. apply andb_true_iff. split; [apply N.eqb_refl | apply IH; reflexivity].
Qed.

Lemma bytes_eqb_refl a : bytes_eqb a a = true.
Proof. apply bytes_eqb_eq. reflexivity. Qed.

Lemma bytes_eq_dec (a b : bytes) : {a = b} + {a <> b}.
Proof. apply list_eq_dec. apply N.eq_dec. Qed.

Lemma split_point_bounds n : (2 <= n)%N -> (1 <= split_point n < n)%N.
Proof.
  intros Hn. unfold split_point.
  assert (Hpos : (0 < n)%N) by lia.
  pose proof (N.log2_spec n Hpos) as [Hlo Hhi].
  destruct (N.eqb_spec (2 ^ N.log2 n) n) as [He|Hne].
  - (* n is a power of two: k/2 *)
    assert (Hl : (1 <= N.log2 n)%N).
    { destruct (N.log2 n) eqn:El; [|lia]. simpl in He. lia. }
    replace (N.log2 n) with (N.succ (N.log2 n - 1)) in * by lia.
    rewrite N.pow_succ_r' in *.
    set (m := (2 ^ (N.log2 n - 1))%N) in *.
    assert (0 < m)%N by (apply N.neq_0_lt_0; apply N.pow_nonzero; lia).
    replace (2 * m / 2)%N with m by (rewrite N.mul_comm, N.div_mul; lia). lia.
  - assert (0 < 2 ^ N.log2 n)%N by (apply N.neq_0_lt_0; apply N.pow_nonzero; lia). lia.
Qed.

Definition splitk (n : nat) : nat := N.to_nat (split_point (N.of_nat n)).

Lemma splitk_bounds n : 2 <= n -> 1 <= splitk n < n.
Proof. intros Hn. unfold splitk. pose proof (split_point_bounds (N.of_nat n)). lia. Qed.

(** the two non-empty halves into which a list of at least two items is cut at its split point *)
Definition halves (L R : list bytes) : Prop := L <> [] /\ R <> [] /\ splitk (length (L ++ R)) = length L.

Lemma halves_exist items : 2 <= length items -> exists L R, items = L ++ R /\ halves L R.
Proof.
  intros Hl. pose proof (splitk_bounds _ Hl) as Hk.
  exists (firstn (splitk (length items)) items), (skipn (splitk (length items)) items).
  rewrite firstn_skipn. split; [reflexivity|]. split; [|split].
  - intros E. apply (f_equal (@length bytes)) in E. rewrite firstn_length in E. simpl in E. lia.
  - intros E. apply (f_equal (@length bytes)) in E. rewrite skipn_length in E. simpl in E. lia.
  - rewrite firstn_skipn, firstn_length. lia.
Qed.

Lemma halves_length L R : halves L R -> 1 <= length L /\ 1 <= length R.
Proof. intros [HL [HR _]]. destruct L, R; simpl; try congruence; lia. Qed.

Lemma halves_cut L R : halves L R ->
  2 <= length (L ++ R) /\ firstn (splitk (length (L ++ R))) (L ++ R) = L /\ skipn (splitk (length (L ++ R))) (L ++ R) = R.
Proof.
  intros Hh. pose proof (halves_length L R Hh). destruct Hh as [_ [_ Hk]]. rewrite Hk. split; [rewrite app_length; lia|].
  rewrite firstn_app, skipn_app, Nat.sub_diag, firstn_all, skipn_all. cbn [firstn skipn]. rewrite app_nil_r. auto.
Qed.

Lemma items_ind (P : list bytes -> Prop) :
  P [] -> (forall x, P [x]) -> (forall L R, halves L R -> P L -> P R -> P (L ++ R)) -> forall items, P items.
Proof.
  intros H0 H1 Hs items.
  remember (length items) as n eqn:En. revert items En.
  induction n as [n IH] using lt_wf_ind. intros items En.
  destruct items as [|x [|y l]]; auto.
  destruct (halves_exist (x :: y :: l)) as [L [R [E Hh]]]; [simpl; lia|].
  pose proof (halves_length L R Hh). rewrite E, app_length in *.
  apply Hs; [exact Hh| |]; (eapply IH; [|reflexivity]); lia.
Qed.

(** [root_fuel] and [trails_fuel] recurse in the same way: on the two halves cut at the split point, with
    the number of items as fuel.  For any function that does, the fuel is enough and can be forgotten. *)
Section Fuel.
  Context {R : Type} (nil : R) (leaf : bytes -> R) (node : R -> R -> R) (F : nat -> list bytes -> R).
  Hypothesis F_eq : forall f items, F f items =
    match f with
    | O => nil
    | S f' =>
      match items with
      | [] => nil
      | [x] => leaf x
      | _ => node (F f' (firstn (splitk (length items)) items)) (F f' (skipn (splitk (length items)) items))
      end
    end.

  Lemma fuel_indep f1 : forall f2 items, length items <= f1 -> length items <= f2 -> F f1 items = F f2 items.
  Proof.
    induction f1 as [|f1 IH]; intros f2 items H1 H2; rewrite (F_eq _ items), (F_eq f2 items).
    - destruct items; [|simpl in H1; lia]. destruct f2; reflexivity.
    - destruct f2 as [|f2]; [destruct items; [reflexivity|simpl in H2; lia]|].
      destruct items as [|x [|y l]]; [reflexivity|reflexivity|].
      pose proof (splitk_bounds (length (x :: y :: l)) ltac:(simpl; lia)) as Hk.
      f_equal; apply IH; rewrite ?firstn_length, ?skipn_length; lia.
  Qed.

  Lemma fuel_unfold items : 2 <= length items ->
    F (length items) items =
    node (F (length (firstn (splitk (length items)) items)) (firstn (splitk (length items)) items))
         (F (length (skipn (splitk (length items)) items)) (skipn (splitk (length items)) items)).
  Proof.
    intros Hl. pose proof (splitk_bounds _ Hl) as Hk. rewrite F_eq.
    destruct items as [|x [|y l]]; try (simpl in Hl; lia). cbn [length] in *.
    f_equal; apply fuel_indep; rewrite ?firstn_length, ?skipn_length; cbn [length]; lia.
  Qed.
End Fuel.

Section Merkle.
  Variable H : bytes -> bytes.

  Notation root := (root H).
  Notation leaf_hash := (leaf_hash H).
  Notation inner_hash := (inner_hash H).

  Lemma root_nil : root [] = [].
  Proof. reflexivity. Qed.
  Lemma root_single x : root [x] = leaf_hash x.
  Proof. reflexivity. Qed.

  Lemma root_unfold items : 2 <= length items ->
    root items = inner_hash (root (firstn (splitk (length items)) items)) (root (skipn (splitk (length items)) items)).
  Proof. apply (fuel_unfold [] leaf_hash inner_hash (root_fuel H)). intros [|f] its; reflexivity. Qed.

  Lemma trails_unfold items : 2 <= length items ->
    trails H items =
    let l0 := trails H (firstn (splitk (length items)) items) in
    let r0 := trails H (skipn (splitk (length items)) items) in
    (map (fun t => (fst t, snd t ++ [snd r0])) (fst l0) ++ map (fun t => (fst t, snd t ++ [snd l0])) (fst r0),
     inner_hash (snd l0) (snd r0)).
  Proof.
    apply (fuel_unfold ([], []) (fun x => ([(leaf_hash x, [])], leaf_hash x))
             (fun l0 r0 => (map (fun t => (fst t, snd t ++ [snd r0])) (fst l0) ++ map (fun t => (fst t, snd t ++ [snd l0])) (fst r0),
                            inner_hash (snd l0) (snd r0)))
             (trails_fuel H)).
    intros [|f] its; reflexivity.
  Qed.

  Lemma root_app L R : halves L R -> root (L ++ R) = inner_hash (root L) (root R).
  Proof. intros Hh. destruct (halves_cut L R Hh) as [Hl [EL ER]]. rewrite (root_unfold _ Hl), EL, ER. reflexivity. Qed.

  Lemma trails_app L R : halves L R ->
    trails H (L ++ R) =
    (map (fun t => (fst t, snd t ++ [snd (trails H R)])) (fst (trails H L)) ++
     map (fun t => (fst t, snd t ++ [snd (trails H L)])) (fst (trails H R)),
     inner_hash (snd (trails H L)) (snd (trails H R))).
  Proof. intros Hh. destruct (halves_cut L R Hh) as [Hl [EL ER]]. rewrite (trails_unfold _ Hl), EL, ER. reflexivity. Qed.

  Lemma root_hash items : items <> [] -> exists z, root items = H z.
  Proof.
    destruct items as [|a [|b l]]; intros Hn; [congruence| |].
    - rewrite root_single. eexists. reflexivity.
    - rewrite root_unfold by (simpl; lia). eexists. reflexivity.
  Qed.

  Lemma compute_rev_nil i t lh :
    compute_rev H i t lh [] =
    if (Z.geb i t || Z.ltb i 0 || Z.leb t 0)%bool then None else if Z.eqb t 1 then Some lh else None.
  Proof. reflexivity. Qed.

  Lemma compute_rev_cons i t lh a ra :
    compute_rev H i t lh (a :: ra) =
    if (Z.geb i t || Z.ltb i 0 || Z.leb t 0)%bool then None
    else if Z.eqb t 1 then None
    else let numLeft := Z.of_N (split_point (Z.to_N t)) in
         if Z.ltb i numLeft then
           match compute_rev H i numLeft lh ra with None => None | Some l => Some (inner_hash l a) end
         else match compute_rev H (i - numLeft)%Z (t - numLeft)%Z lh ra with
              | None => None | Some r => Some (inner_hash a r) end.
  Proof. reflexivity. Qed.

  Lemma compute_rev_range i t lh ra h : compute_rev H i t lh ra = Some h -> (0 <= i < t)%Z.
  Proof.
    destruct ra; [rewrite compute_rev_nil|rewrite compute_rev_cons];
      destruct (Z.geb_spec i t), (Z.ltb_spec i 0), (Z.leb_spec t 0); try discriminate; lia.
  Qed.

  Lemma split_z n : Z.of_N (split_point (Z.to_N (Z.of_nat n))) = Z.of_nat (splitk n).
  Proof. unfold splitk. rewrite N_nat_Z. rewrite <- (nat_N_Z n). rewrite N2Z.id. reflexivity. Qed.

  (** one step up a tree of [n >= 2] leaves: the index decides between the left and the right half *)
  Lemma compute_rev_step i n lh a ra : 2 <= n -> (0 <= i < Z.of_nat n)%Z ->
    compute_rev H i (Z.of_nat n) lh (a :: ra) =
    if (i <? Z.of_nat (splitk n))%Z
    then option_map (fun l => inner_hash l a) (compute_rev H i (Z.of_nat (splitk n)) lh ra)
    else option_map (fun r => inner_hash a r)
           (compute_rev H (i - Z.of_nat (splitk n)) (Z.of_nat n - Z.of_nat (splitk n)) lh ra).
  Proof.
    intros Hn Hi. rewrite compute_rev_cons, split_z. cbv zeta.
    replace (i >=? Z.of_nat n)%Z with false by lia. replace (i <? 0)%Z with false by lia.
    replace (Z.of_nat n <=? 0)%Z with false by lia. replace (Z.of_nat n =? 1)%Z with false by lia.
    reflexivity.
  Qed.

  Lemma compute_rev_left i n lh a ra : 2 <= n -> (0 <= i < Z.of_nat (splitk n))%Z ->
    compute_rev H i (Z.of_nat n) lh (a :: ra) =
    option_map (fun l => inner_hash l a) (compute_rev H i (Z.of_nat (splitk n)) lh ra).
  Proof.
    intros Hn Hi. pose proof (splitk_bounds n Hn). rewrite compute_rev_step by lia.
    replace (i <? Z.of_nat (splitk n))%Z with true by lia. reflexivity.
  Qed.

  Lemma compute_rev_right i n lh a ra : 2 <= n -> (Z.of_nat (splitk n) <= i < Z.of_nat n)%Z ->
    compute_rev H i (Z.of_nat n) lh (a :: ra) =
    option_map (fun r => inner_hash a r) (compute_rev H (i - Z.of_nat (splitk n)) (Z.of_nat (n - splitk n)) lh ra).
  Proof.
    intros Hn Hi. pose proof (splitk_bounds n Hn). rewrite compute_rev_step by lia.
    replace (i <? Z.of_nat (splitk n))%Z with false by lia.
    replace (Z.of_nat n - Z.of_nat (splitk n))%Z with (Z.of_nat (n - splitk n)) by lia. reflexivity.
  Qed.

  (** every leaf gets a trail, and the trail of leaf [i] leads from its hash to the root *)
  Lemma trails_spec : forall items,
    snd (trails H items) = root items /\
    length (fst (trails H items)) = length items /\
    forall i x, nth_error items i = Some x ->
      exists a, nth_error (fst (trails H items)) i = Some (leaf_hash x, a) /\
                compute_rev H (Z.of_nat i) (Z.of_nat (length items)) (leaf_hash x) (rev a) = Some (root items).
  Proof.
    intros items. pattern items. apply items_ind; clear items.
    - repeat split; auto. intros i x Hn. destruct i; discriminate.
    - intros x. repeat split; auto. intros i y Hn. destruct i as [|i]; [|destruct i; discriminate].
      inversion Hn; subst. exists []. split; reflexivity.
    - intros L R Hh [IL1 [IL2 IL3]] [IR1 [IR2 IR3]].
      rewrite (trails_app L R Hh), (root_app L R Hh). cbn [fst snd]. rewrite IL1, IR1.
      pose proof (halves_length L R Hh) as Hlen. destruct (halves_cut L R Hh) as [Hl _]. destruct Hh as [_ [_ Hk]].
      split; [reflexivity|]. split.
      { rewrite !app_length, !map_length, IL2, IR2. reflexivity. }
      intros i x Hn.
      assert (Hi : i < length (L ++ R)) by (apply nth_error_Some; congruence). rewrite app_length in Hi.
      destruct (lt_dec i (length L)) as [Hlt|Hge].
      + rewrite nth_error_app1 in Hn by lia.
        destruct (IL3 i x Hn) as [a [Ha Hc]].
        exists (a ++ [root R]). split.
        * rewrite nth_error_app1 by (rewrite map_length; lia).
          rewrite nth_error_map, Ha. reflexivity.
        * rewrite rev_app_distr. cbn [rev app]. rewrite compute_rev_left, Hk, Hc by (rewrite ?Hk; lia). reflexivity.
      + rewrite nth_error_app2 in Hn by lia.
        destruct (IR3 (i - length L) x Hn) as [a [Ha Hc]].
        exists (a ++ [root L]). split.
        * rewrite nth_error_app2 by (rewrite map_length; lia).
          rewrite map_length, IL2, nth_error_map, Ha. reflexivity.
        * rewrite rev_app_distr. cbn [rev app]. rewrite compute_rev_right, Hk by (rewrite ?Hk, ?app_length; lia).
          replace (length (L ++ R) - length L) with (length R) by (rewrite app_length; lia).
          replace (Z.of_nat i - Z.of_nat (length L))%Z with (Z.of_nat (i - length L)) by lia.
          rewrite Hc. reflexivity.
  Qed.
End Merkle.
