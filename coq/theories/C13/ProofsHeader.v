(** C13 — the byte encoding hashed by Header.Hash is injective in every header field; what
    Block.ValidateBasic binds; the initial-height counterexample (two blocks that differ in the round of the
    last commit and share the block hash).

    The encoders are read back field by field: each kind of protobuf field has a lemma
    [enc a ++ r = enc a' ++ r' -> a = a' /\ r = r'] (for a field that is left out when empty, under the
    condition that [r], [r'] do not start with its tag), and a message is peeled from the left. *)
From Coq Require Import List ZArith NArith Bool Lia Arith ZifyBool.
From Kardia Require Import C13.Model C13.ProofsMerkle C13.ProofsSound.
Import ListNotations.
Local Open Scope N_scope.
Local Ltac Zify.zify_post_hook ::= Z.to_euclidean_division_equations.

Lemma varint_fuel_inj : forall f a b r1 r2, a < 128 ^ N.of_nat f -> b < 128 ^ N.of_nat f ->
  varint_fuel f a ++ r1 = varint_fuel f b ++ r2 -> a = b /\ r1 = r2.
Proof.
  induction f as [|f IH]; intros a b r1 r2 Ha Hb He.
  - change (128 ^ N.of_nat 0) with 1 in *. simpl in He. split; [lia|exact He].
  - replace (N.of_nat (S f)) with (N.succ (N.of_nat f)) in * by lia. rewrite N.pow_succ_r' in *.
    set (P := 128 ^ N.of_nat f) in *.
    assert (HP : 0 < P) by (apply N.neq_0_lt_0, N.pow_nonzero; lia). clearbody P.
    cbn [varint_fuel] in He.
    destruct (N.ltb_spec a 128) as [Hsa|Hba]; destruct (N.ltb_spec b 128) as [Hsb|Hbb]; cbn [app] in He.
    + inversion He. auto.
    + inversion He as [[E1 E2]]. exfalso. pose proof (N.mod_lt b 128 ltac:(lia)). lia.
    + inversion He as [[E1 E2]]. exfalso. pose proof (N.mod_lt a 128 ltac:(lia)). lia.
    + inversion He as [[E1 E2]]. apply N.add_cancel_r in E1.
      destruct (IH (a / 128) (b / 128) r1 r2) as [Ed Er];
        [apply N.div_lt_upper_bound; [discriminate|assumption]..|exact E2|].
      split; [|exact Er].
      rewrite (N.div_mod a 128), (N.div_mod b 128), Ed, E1 by discriminate. reflexivity.
Qed.

Definition u64 (v : N) : Prop := v < 18446744073709551616.

Lemma varint_inj a b r1 r2 : u64 a -> u64 b -> varint a ++ r1 = varint b ++ r2 -> a = b /\ r1 = r2.
Proof.
  unfold u64, varint. intros Ha Hb. apply varint_fuel_inj.
  - change (128 ^ N.of_nat 10) with 1180591620717411303424. lia.
  - change (128 ^ N.of_nat 10) with 1180591620717411303424. lia.
Qed.

Lemma varint_fuel_length f : forall a, (length (varint_fuel f a) <= f)%nat.
Proof. induction f; intros a; cbn [varint_fuel]; [simpl; lia|]. destruct (a <? 128); simpl; [lia|]. specialize (IHf (a / 128)). lia. Qed.

Lemma varint_length a : (length (varint a) <= 10)%nat.
Proof. apply varint_fuel_length. Qed.

Lemma varint_small a : a < 128 -> varint a = [a].
Proof. intros Ha. unfold varint. cbn [varint_fuel]. destruct (N.ltb_spec a 128); [reflexivity|lia]. Qed.

Definition starts_not (t : N) (r : bytes) : Prop := match r with [] => True | x :: _ => x <> t end.

(** the last field of a message is read like the others, with nothing after it; applied when two
    fields are left *)
Lemma at_end (x y x' y' : bytes) : x ++ y = x' ++ y' -> x ++ y ++ [] = x' ++ y' ++ [].
Proof. rewrite !app_nil_r. exact (fun E => E). Qed.

Lemma varint_field_inj t tag v v' r r' : u64 v -> u64 v' -> starts_not t r -> starts_not t r' ->
  varint_field (t :: tag) v ++ r = varint_field (t :: tag) v' ++ r' -> v = v' /\ r = r'.
Proof.
  unfold varint_field. intros Hv Hv' Hr Hr' He.
  destruct (N.eqb_spec v 0) as [E|E]; destruct (N.eqb_spec v' 0) as [E'|E']; cbn [app] in He.
  - split; [congruence|exact He].
  - exfalso. subst r. simpl in Hr. congruence.
  - exfalso. subst r'. simpl in Hr'. congruence.
  - injection He as He. rewrite <- !app_assoc in He. apply app_inv_head in He. apply varint_inj; assumption.
Qed.

Lemma starts_not_varint_field t t' tag v r : t' <> t -> starts_not t r -> starts_not t (varint_field (t' :: tag) v ++ r).
Proof. intros Ht Hr. unfold varint_field. destruct (v =? 0); [exact Hr|exact Ht]. Qed.

Lemma varint_field_length tag v : (length (varint_field tag v) <= length tag + 10)%nat.
Proof. unfold varint_field. destruct (v =? 0); [simpl; lia|]. rewrite app_length. pose proof (varint_length v). lia. Qed.

Lemma bytes_field_fixed t b (k : nat) : length b = k -> (0 < k < 128)%nat -> bytes_field t b = t :: N.of_nat k :: b.
Proof.
  intros Hl Hk. unfold bytes_field. destruct b as [|x b]; [simpl in Hl; lia|].
  rewrite Hl, varint_small by lia. reflexivity.
Qed.

Lemma bytes_field_fixed_inj t b b' r r' (k : nat) : length b = k -> length b' = k -> (0 < k < 128)%nat ->
  bytes_field t b ++ r = bytes_field t b' ++ r' -> b = b' /\ r = r'.
Proof.
  intros Hl Hl' Hk He. rewrite (bytes_field_fixed t b k), (bytes_field_fixed t b' k) in He by assumption.
  injection He as He. apply app_inj_len in He; [exact He|congruence].
Qed.

Lemma hash_field_inj t b b' r r' : length b = 32%nat -> length b' = 32%nat ->
  bytes_field t b ++ r = bytes_field t b' ++ r' -> b = b' /\ r = r'.
Proof. intros Hl Hl'. apply (bytes_field_fixed_inj t b b' r r' 32); [assumption|assumption|lia]. Qed.

Lemma bytes_field_end_inj t b b' : u64 (N.of_nat (length b)) -> u64 (N.of_nat (length b')) ->
  bytes_field t b = bytes_field t b' -> b = b'.
Proof.
  intros Hb Hb' He. unfold bytes_field in He.
  destruct b as [|x b], b' as [|x' b']; try discriminate; [reflexivity|].
  inversion He as [E]. apply varint_inj in E; tauto.
Qed.

Lemma starts_not_bytes_field t t' b (k : nat) r : length b = k -> (0 < k < 128)%nat -> t' <> t ->
  starts_not t (bytes_field t' b ++ r).
Proof. intros Hl Hk Ht. rewrite (bytes_field_fixed t' b k) by assumption. exact Ht. Qed.

(** an embedded message is delimited by its length: it is read back whenever its body encoder is
    injective (and short enough for the length to be a uint64 varint) *)
Lemma msg_field_inj {A} (P : A -> Prop) (enc : A -> bytes) (n : nat) t a a' r r' :
  (forall x, P x -> (length (enc x) <= n)%nat) -> u64 (N.of_nat n) ->
  (forall x y, P x -> P y -> enc x = enc y -> x = y) ->
  P a -> P a' -> msg_field t (enc a) ++ r = msg_field t (enc a') ++ r' -> a = a' /\ r = r'.
Proof.
  unfold msg_field, u64. intros Hlen Hn Hinj Pa Pa' He.
  pose proof (Hlen a Pa). pose proof (Hlen a' Pa').
  injection He as He. rewrite <- !app_assoc in He.
  apply varint_inj in He as [El He]; [|unfold u64; lia..].
  apply app_inj_len in He as [Eb Er]; [|lia]. split; [apply Hinj; assumption|exact Er].
Qed.

Definition wf_time (t : timestamp) : Prop :=
  (min_valid_seconds <= t_secs t < max_valid_seconds)%Z /\ (0 <= t_nanos t < 1000000000)%Z.

Definition time_body (t : timestamp) : bytes :=
  varint_field [8] (u64_of_z (t_secs t)) ++ varint_field [16] (u64_of_z (t_nanos t)).

Lemma encode_time_some t : wf_time t -> encode_time t = Some (time_body t).
Proof.
  unfold wf_time, encode_time, min_valid_seconds, max_valid_seconds. intros [[A B] [C D]].
  replace (t_secs t <? -62135596800)%Z with false by lia.
  replace (253402300800 <=? t_secs t)%Z with false by lia.
  replace (t_nanos t <? 0)%Z with false by lia.
  replace (1000000000 <=? t_nanos t)%Z with false by lia. reflexivity.
Qed.

Lemma u64_of_z_u64 z : u64 (u64_of_z z).
Proof. unfold u64, u64_of_z. lia. Qed.

Lemma u64_of_z_inj a b : (- 9223372036854775808 <= a < 9223372036854775808)%Z ->
  (- 9223372036854775808 <= b < 9223372036854775808)%Z -> u64_of_z a = u64_of_z b -> a = b.
Proof. unfold u64_of_z. intros Ha Hb He. apply Z2N.inj in He; lia. Qed.

Lemma time_body_length t : (length (time_body t) <= 22)%nat.
Proof.
  unfold time_body. rewrite app_length.
  pose proof (varint_field_length [8] (u64_of_z (t_secs t))). pose proof (varint_field_length [16] (u64_of_z (t_nanos t))).
  simpl in *. lia.
Qed.

Lemma time_body_inj t t' : wf_time t -> wf_time t' -> time_body t = time_body t' -> t = t'.
Proof.
  unfold wf_time, time_body, min_valid_seconds, max_valid_seconds. intros [A B] [A' B'] He. apply at_end in He.
  apply varint_field_inj in He as [Es He]; try apply u64_of_z_u64; try (apply starts_not_varint_field; [discriminate|exact I]).
  apply varint_field_inj in He as [En _]; try apply u64_of_z_u64; try exact I.
  apply u64_of_z_inj in Es, En; try lia.
  destruct t, t'; simpl in *; congruence.
Qed.

(** a google.protobuf.Timestamp field (header time, commit-signature time) *)
Lemma time_field_inj tag t t' r r' : wf_time t -> wf_time t' ->
  msg_field tag (time_body t) ++ r = msg_field tag (time_body t') ++ r' -> t = t' /\ r = r'.
Proof. apply (msg_field_inj wf_time time_body 22); [intros x _; apply time_body_length|reflexivity|exact time_body_inj]. Qed.

Definition u32 (v : N) : Prop := v < 4294967296.
Definition wf_psheader (p : psheader) : Prop := length (psh_hash p) = 32%nat /\ u32 (psh_total p).
(** convertible to [length (bid_hash b) = 32 /\ wf_psheader (bid_parts b)], and used so *)
Definition wf_blockid (b : blockid) : Prop :=
  length (bid_hash b) = 32%nat /\ length (psh_hash (bid_parts b)) = 32%nat /\ u32 (psh_total (bid_parts b)).

Lemma u32_u64 v : u32 v -> u64 v.
Proof. unfold u32, u64. lia. Qed.

Lemma encode_psheader_inj p p' : wf_psheader p -> wf_psheader p' -> encode_psheader p = encode_psheader p' -> p = p'.
Proof.
  unfold encode_psheader. intros [Hh Ht] [Hh' Ht'] He. apply at_end in He.
  apply varint_field_inj in He as [E1 He]; auto using u32_u64.
  2,3: apply (starts_not_bytes_field 8 18 _ 32); [assumption|lia|discriminate].
  apply hash_field_inj in He as [E2 _]; [|assumption|assumption].
  destruct p, p'; simpl in *; congruence.
Qed.

Lemma encode_psheader_length p : wf_psheader p -> (length (encode_psheader p) <= 45)%nat.
Proof.
  intros [Hh _]. unfold encode_psheader. rewrite app_length, (bytes_field_fixed 18 _ 32) by (auto; lia).
  pose proof (varint_field_length [8] (psh_total p)). simpl in *. lia.
Qed.

Lemma encode_blockid_inj b b' : wf_blockid b -> wf_blockid b' -> encode_blockid b = encode_blockid b' -> b = b'.
Proof.
  unfold encode_blockid. intros [A B] [A' B'] He. apply at_end in He.
  apply hash_field_inj in He as [E1 He]; [|assumption|assumption].
  apply (msg_field_inj wf_psheader encode_psheader 45 18 _ _ _ _ encode_psheader_length eq_refl encode_psheader_inj) in He as [E2 _];
    [|assumption|assumption].
  destruct b, b'; simpl in *; congruence.
Qed.

Lemma encode_blockid_length b : wf_blockid b -> (length (encode_blockid b) <= 100)%nat.
Proof.
  intros [A B]. unfold encode_blockid, msg_field. rewrite app_length, (bytes_field_fixed 10 _ 32) by (auto; lia).
  cbn [length]. rewrite app_length. pose proof (varint_length (N.of_nat (length (encode_psheader (bid_parts b))))).
  pose proof (encode_psheader_length _ B). lia.
Qed.

(** the values a types.Header can hold *)
Record wf_header (h : header) : Prop := {
  wf_height : u64 (h_height h); wf_numtxs : u64 (h_numtxs h); wf_gas : u64 (h_gaslimit h);
  wf_htime : wf_time (h_time h); wf_last : wf_blockid (h_last h);
  wf_proposer : length (h_proposer h) = 20%nat;
  wf_lastcommit : length (h_lastcommit h) = 32%nat; wf_txhash : length (h_txhash h) = 32%nat;
  wf_valhash : length (h_valhash h) = 32%nat; wf_nextval : length (h_nextval h) = 32%nat;
  wf_cons : length (h_cons h) = 32%nat; wf_app : length (h_app h) = 32%nat;
  wf_evidence : length (h_evidence h) = 32%nat }.

Lemma encode_header_some h : wf_header h -> exists bz, encode_header h = Some bz.
Proof. intros W. unfold encode_header. rewrite (encode_time_some _ (wf_htime _ W)). eexists. reflexivity. Qed.

(** all 13 fields (16 scalar components) of the header can be read back from the hashed bytes *)
Lemma encode_header_inj h h' : wf_header h -> wf_header h' -> encode_header h = encode_header h' -> h = h'.
Proof.
  intros W W' He. unfold encode_header in He.
  rewrite (encode_time_some _ (wf_htime _ W)), (encode_time_some _ (wf_htime _ W')) in He.
  inversion He as [E]. clear He.
  apply varint_field_inj in E as [Eheight E]; [|apply W|apply W'|simpl; discriminate..].
  apply time_field_inj in E as [Etime E]; [|apply W|apply W'].
  apply (msg_field_inj wf_blockid encode_blockid 100 42 _ _ _ _ encode_blockid_length eq_refl encode_blockid_inj) in E as [Elast E];
    [|apply W|apply W'].
  apply hash_field_inj in E as [Elastcommit E]; [|apply W|apply W'].
  apply hash_field_inj in E as [Etxhash E]; [|apply W|apply W'].
  apply hash_field_inj in E as [Evalhash E]; [|apply W|apply W'].
  apply hash_field_inj in E as [Enextval E]; [|apply W|apply W'].
  apply hash_field_inj in E as [Econs E]; [|apply W|apply W'].
  apply hash_field_inj in E as [Eapp E]; [|apply W|apply W'].
  apply hash_field_inj in E as [Eevidence E]; [|apply W|apply W'].
  apply (bytes_field_fixed_inj 114 _ _ _ _ 20) in E as [Eproposer E]; [|apply W|apply W'|lia].
  apply at_end in E.
  apply varint_field_inj in E as [Egas E]; [|apply W|apply W'|apply starts_not_varint_field; [discriminate|exact I]..].
  apply varint_field_inj in E as [Enumtxs _]; [|apply W|apply W'|exact I..].
  (* [congruence] is slow on a constructor of 13 arguments *)
  destruct h, h'; simpl in *; subst; reflexivity.
Qed.

(** a check of the form [if !ok { return e }] that was passed *)
Lemma guard_passed (c : bool) {A} (e k ok : A) : e <> ok -> (if negb c then e else k) = ok -> c = true /\ k = ok.
Proof. destruct c; cbn [negb]; intros Hn He; [auto|contradiction]. Qed.

(** a stage of Block.ValidateBasic that did not fail *)
Lemma vb_stage (pre k : vb_class) : match pre with VbOk => k | e => e end = VbOk -> pre = VbOk /\ k = VbOk.
Proof. destruct pre; try discriminate. auto. Qed.

Section Block.
  Variable H K : bytes -> bytes.
  Variable TxRoot : list bytes -> bytes.

  Lemma header_hash_binds h h' : wf_header h -> wf_header h' ->
    header_hash K h = header_hash K h' -> h = h' \/ collision K.
  Proof.
    intros W W' He. unfold header_hash in He.
    destruct (encode_header_some h W) as [bz Eb], (encode_header_some h' W') as [bz' Eb'].
    rewrite Eb, Eb' in He. inversion He as [Ek].
    destruct (hash_inj K _ _ Ek) as [E|C]; [|right; exact C].
    left. apply encode_header_inj; auto. congruence.
  Qed.

  Lemma validate_basic_binds b : validate_basic H K TxRoot b = VbOk ->
    h_txhash (b_header b) = TxRoot (b_txs b) /\
    h_evidence (b_header b) = evidence_hash H K (map fst (b_evs b)) /\
    forallb (fun e => snd e) (b_evs b) = true /\
    match b_last b with
    | None => h_lastcommit (b_header b) = zero_hash /\ (h_height (b_header b) <= 1)
    | Some c => commit_hash H c = Some (h_lastcommit (b_header b)) /\
                (1 < h_height (b_header b) -> commit_validate c = VbOk)
    end.
  Proof.
    unfold validate_basic. cbv zeta. intros Hv.
    apply vb_stage in Hv as [Epre Hv]. apply vb_stage in Hv as [Elc Hv].
    apply guard_passed in Hv as [Et Hv]; [|discriminate].
    apply guard_passed in Hv as [Ef Hv]; [|discriminate].
    apply guard_passed in Hv as [Ee _]; [|discriminate].
    apply bytes_eqb_eq in Et, Ee.
    split; [auto|]. split; [auto|]. split; [exact Ef|].
    destruct (b_last b) as [c|].
    - destruct (commit_hash H c) as [ch|]; [|discriminate].
      apply guard_passed in Elc as [Ec _]; [|discriminate]. apply bytes_eqb_eq in Ec. split; [congruence|].
      intros Hh. destruct (N.ltb_spec 1 (h_height (b_header b))); [exact Epre|lia].
    - apply guard_passed in Elc as [Ez _]; [|discriminate]. apply bytes_eqb_eq in Ez. split; [exact Ez|].
      destruct (N.ltb_spec 1 (h_height (b_header b))); [discriminate|lia].
  Qed.

  (** two blocks that pass ValidateBasic and share the block hash: same header, same transaction
      root, same commit-signature hash, same evidence hash — or a Keccak collision *)
  Lemma same_hash_same_commitments b b' :
    wf_header (b_header b) -> wf_header (b_header b') ->
    validate_basic H K TxRoot b = VbOk -> validate_basic H K TxRoot b' = VbOk ->
    header_hash K (b_header b) = header_hash K (b_header b') ->
    collision K \/
    (b_header b = b_header b' /\ TxRoot (b_txs b) = TxRoot (b_txs b') /\
     evidence_hash H K (map fst (b_evs b)) = evidence_hash H K (map fst (b_evs b')) /\
     forall c c', b_last b = Some c -> b_last b' = Some c' -> commit_hash H c = commit_hash H c').
  Proof.
    intros W W' V V' Hh.
    destruct (header_hash_binds _ _ W W' Hh) as [E|C]; [|left; exact C]. right.
    destruct (validate_basic_binds _ V) as [T [Ev [_ L]]], (validate_basic_binds _ V') as [T' [Ev' [_ L']]].
    split; [exact E|]. rewrite <- T, <- T', <- Ev, <- Ev', E. split; [reflexivity|]. split; [reflexivity|].
    intros c c' Ec Ec'. rewrite Ec in L. rewrite Ec' in L'. destruct L as [L _], L' as [L' _]. rewrite L, L', E. reflexivity.
  Qed.

  (** a block of height 1 whose (empty) last commit has round [round] *)
  Definition genesis_header : header :=
    {| h_height := 1; h_time := {| t_secs := 1600000000; t_nanos := 0 |}; h_numtxs := 0; h_gaslimit := 0;
       h_last := {| bid_hash := zero_hash; bid_parts := {| psh_total := 0; psh_hash := zero_hash |} |};
       h_proposer := repeat 0 20; h_lastcommit := zero_hash; h_txhash := TxRoot []; h_valhash := zero_hash;
       h_nextval := zero_hash; h_cons := zero_hash; h_app := zero_hash; h_evidence := zero_hash |}.
  Definition genesis_block (round : N) : block :=
    {| b_header := genesis_header; b_txs := [];
       b_last := Some {| c_height := 0; c_round := round;
                         c_bid := {| bid_hash := zero_hash; bid_parts := {| psh_total := 0; psh_hash := zero_hash |} |};
                         c_sigs := [] |};
       b_evs := [] |}.

  (** REFUTED for the initial height: height, round and block id of the last commit are not covered
      by Commit.Hash (signatures only); above the initial height VerifyCommit binds them (C02), at the
      initial height nothing does: two different blocks (they differ in the round of the last commit)
      pass ValidateBasic with one block hash. *)
  Lemma commit_meta_unbound_at_initial_height :
    genesis_block 0 <> genesis_block 7 /\
    validate_basic H K TxRoot (genesis_block 0) = VbOk /\ validate_basic H K TxRoot (genesis_block 7) = VbOk /\
    header_hash K (b_header (genesis_block 0)) = header_hash K (b_header (genesis_block 7)).
  Proof.
    split; [discriminate|].
    assert (V : forall r, validate_basic H K TxRoot (genesis_block r) = VbOk).
    { intros r. unfold validate_basic, genesis_block, genesis_header.
      cbn [b_header b_last b_txs b_evs h_height h_lastcommit h_txhash h_evidence c_sigs].
      change (1 <? 1) with false. cbv iota.
      unfold commit_hash. cbn [c_sigs map all_some]. rewrite root_nil.
      change (bytes_to_hash []) with zero_hash. rewrite !bytes_eqb_refl. cbn [negb map forallb].
      reflexivity. }
    split; [apply V|]. split; [apply V|reflexivity].
  Qed.
End Block.

Example wf_header_satisfiable : exists h, wf_header h.
Proof.
  exists (genesis_header (fun _ => zero_hash)).
  constructor; unfold u64, wf_time, wf_blockid, u32, min_valid_seconds, max_valid_seconds; simpl; repeat split; lia.
Qed.
