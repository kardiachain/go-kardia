(** C13 — soundness of Merkle proofs up to an explicit hash collision. *)
From Coq Require Import List ZArith NArith Bool Lia Arith ZifyBool.
From Kardia Require Import C13.Model C13.ProofsMerkle.
Import ListNotations.

Lemma app_inj_len {A} (a b c d : list A) : length a = length c -> a ++ b = c ++ d -> a = c /\ b = d.
Proof.
  revert c; induction a as [|x a IH]; destruct c as [|y c]; simpl; intros Hl He; try discriminate.
  - auto.
  - inversion He; subst. destruct (IH c) as [E1 E2]; auto. subst. auto.
Qed.

Lemma app_inj_len_r {A} (a b c d : list A) : length b = length d -> a ++ b = c ++ d -> a = c /\ b = d.
Proof.
  intros Hl He. apply app_inj_len; [|exact He].
  apply (f_equal (@length A)) in He. rewrite !app_length in He. lia.
Qed.

Lemma bytes_to_hash_32 b : length b = 32 -> bytes_to_hash b = b.
Proof.
  intros Hl. unfold bytes_to_hash. rewrite Hl. rewrite Nat.sub_diag. cbn [skipn]. rewrite Hl, Nat.sub_diag. reflexivity.
Qed.

Section Sound.
  Variable H : bytes -> bytes.
  (** the only assumption on the hash: fixed output length (SHA-256: 32 bytes) *)
  Hypothesis H_len : forall x, length (H x) = 32.

  Definition collision : Prop := exists x y : bytes, x <> y /\ H x = H y.

  Notation root := (root H).
  Notation leaf_hash := (leaf_hash H).
  Notation inner_hash := (inner_hash H).

  Lemma hash_inj x y : H x = H y -> x = y \/ collision.
  Proof.
    intros He. destruct (bytes_eq_dec x y) as [E|N]; [left; exact E|].
    right. exists x, y. split; assumption.
  Qed.

  Lemma leaf_hash_inj x y : leaf_hash x = leaf_hash y -> x = y \/ collision.
  Proof.
    unfold Model.leaf_hash. intros He. destruct (hash_inj _ _ He) as [E|C]; [|right; exact C].
    left. inversion E. reflexivity.
  Qed.

  (** [l ++ r] does not say where [l] ends: one of the lengths has to be known.  The callers get it from
      [root_len] / [compute_rev_len]; this is where the fixed output length of [H] enters soundness. *)
  Lemma inner_hash_inj l r l' r' : length l = length l' \/ length r = length r' ->
    inner_hash l r = inner_hash l' r' -> (l = l' /\ r = r') \/ collision.
  Proof.
    unfold Model.inner_hash. intros Hl He. destruct (hash_inj _ _ He) as [E|C]; [|right; exact C].
    left. inversion E as [E']. destruct Hl; [apply app_inj_len|apply app_inj_len_r]; assumption.
  Qed.

  Lemma leaf_inner_neq x l r : leaf_hash x = inner_hash l r -> collision.
  Proof.
    unfold Model.leaf_hash, Model.inner_hash. intros He.
    exists (0%N :: x), (1%N :: l ++ r). split; [discriminate|exact He].
  Qed.

  Lemma root_len items : items <> [] -> length (root items) = 32.
  Proof. intros Hn. destruct (root_hash H items Hn) as [z E]. rewrite E. apply H_len. Qed.

  Lemma root_nil_inv items : root items = [] -> items = [].
  Proof.
    intros E. destruct items as [|x l]; [reflexivity|].
    pose proof (root_len (x :: l) ltac:(discriminate)) as Hl. rewrite E in Hl. discriminate.
  Qed.

  Lemma compute_rev_len : forall ra i t lh h, length lh = 32 -> compute_rev H i t lh ra = Some h -> length h = 32.
  Proof.
    induction ra as [|a ra IH]; intros i t lh h Hl Hc.
    - rewrite compute_rev_nil in Hc.
      destruct (Z.geb i t || Z.ltb i 0 || Z.leb t 0)%bool; [discriminate|].
      destruct (Z.eqb t 1); inversion Hc; subst; assumption.
    - rewrite compute_rev_cons in Hc.
      destruct (Z.geb i t || Z.ltb i 0 || Z.leb t 0)%bool; [discriminate|].
      destruct (Z.eqb t 1); [discriminate|]. cbv zeta in Hc.
      destruct (Z.ltb i (Z.of_N (split_point (Z.to_N t)))).
      + destruct (compute_rev H i _ lh ra); inversion Hc. apply H_len.
      + destruct (compute_rev H _ _ lh ra); inversion Hc. apply H_len.
  Qed.

  (** the heart of soundness: a hash chain that ends in [root items] starts at the leaf hash of the
      item at that index — or exhibits a collision *)
  Lemma compute_sound : forall items i lh ra,
    items <> [] -> length lh = 32 ->
    compute_rev H i (Z.of_nat (length items)) lh ra = Some (root items) ->
    collision \/ ((0 <= i)%Z /\ exists x, nth_error items (Z.to_nat i) = Some x /\ lh = leaf_hash x).
  Proof.
    intros items. pattern items. apply items_ind; clear items.
    - intros; congruence.
    - intros x i lh ra _ Hl Hc. right.
      pose proof (compute_rev_range _ _ _ _ _ _ Hc) as Hi. assert (i = 0%Z) by (simpl in Hi; lia). subst i.
      destruct ra; [|discriminate]. injection Hc as Hc.
      split; [lia|]. exists x. split; [reflexivity|exact Hc].
    - intros L R Hh IL IR i lh ra _ Hlh Hc.
      pose proof (compute_rev_range _ _ _ _ _ _ Hc) as Hi.
      rewrite (root_app H L R Hh) in Hc.
      pose proof (halves_length L R Hh) as Hlen. destruct (halves_cut L R Hh) as [Hl _]. destruct Hh as [HLn [HRn Hk]].
      destruct ra as [|a ra].
      { rewrite compute_rev_nil in Hc. destruct (_ || _ || _)%bool; [discriminate|].
        replace (Z.of_nat (length (L ++ R)) =? 1)%Z with false in Hc by lia. discriminate. }
      rewrite app_length in Hi.
      destruct (Z.lt_ge_cases i (Z.of_nat (length L))) as [Hlt|Hge].
      + rewrite compute_rev_left, Hk in Hc by (rewrite ?Hk; lia).
        destruct (compute_rev H i (Z.of_nat (length L)) lh ra) as [l|] eqn:Ec; [|discriminate]. injection Hc as Hc.
        pose proof (compute_rev_len _ _ _ _ _ Hlh Ec) as Hll.
        destruct (inner_hash_inj l a (root L) (root R)) as [[El Ea]|C]; auto.
        { left. rewrite Hll, root_len; auto. }
        subst l.
        destruct (IL i lh ra HLn Hlh Ec) as [C|[Hi0 [x [Hn Hx]]]]; [left; exact C|].
        right. split; [exact Hi0|]. exists x. split; [|exact Hx].
        rewrite nth_error_app1 by lia. exact Hn.
      + rewrite compute_rev_right, Hk in Hc by (rewrite ?Hk, ?app_length; lia).
        replace (length (L ++ R) - length L) with (length R) in Hc by (rewrite app_length; lia).
        destruct (compute_rev H (i - Z.of_nat (length L)) _ lh ra) as [r|] eqn:Ec; [|discriminate]. injection Hc as Hc.
        pose proof (compute_rev_len _ _ _ _ _ Hlh Ec) as Hrl.
        destruct (inner_hash_inj a r (root L) (root R)) as [[Ea Er]|C]; auto.
        { right. rewrite Hrl, root_len; auto. }
        subst r.
        destruct (IR (i - Z.of_nat (length L))%Z lh ra HRn Hlh Ec) as [C|[Hi0 [x [Hn Hx]]]]; [left; exact C|].
        right. split; [lia|]. exists x. split; [|exact Hx].
        rewrite nth_error_app2 by lia.
        replace (Z.to_nat i - length L) with (Z.to_nat (i - Z.of_nat (length L))) by lia. exact Hn.
  Qed.

  (** two item lists with the same root are equal, or a collision is exhibited (used for the commit
      signatures and the evidence list) *)
  Lemma root_inj : forall items items', root items = root items' -> items = items' \/ collision.
  Proof.
    intros items. pattern items. apply items_ind; clear items.
    - intros items' He. left. symmetry. apply root_nil_inv. symmetry. exact He.
    - intros x items' He. destruct items' as [|x' [|y l]].
      + apply root_nil_inv in He. discriminate.
      + rewrite !root_single in He. destruct (leaf_hash_inj _ _ He) as [E|C]; [left; congruence|right; exact C].
      + right. rewrite root_single, root_unfold in He by (simpl; lia). eapply leaf_inner_neq; exact He.
    - intros L R Hh IL IR items' He.
      destruct items' as [|x' [|y' l']].
      + apply root_nil_inv in He. apply app_eq_nil in He. destruct Hh as [HLn _]. tauto.
      + right. rewrite (root_app H L R Hh), root_single in He. symmetry in He. eapply leaf_inner_neq; exact He.
      + destruct (halves_exist (x' :: y' :: l')) as [L' [R' [E Hh']]]; [simpl; lia|].
        rewrite E, (root_app H L R Hh), (root_app H L' R' Hh') in *.
        destruct (inner_hash_inj (root L) (root R) (root L') (root R')) as [[E1 E2]|C];
          [left; rewrite !root_len; [reflexivity|apply Hh'|apply Hh]|exact He| |right; exact C].
        destruct (IL _ E1) as [EL|C]; [|right; exact C].
        destruct (IR _ E2) as [ER|C]; [|right; exact C].
        left. rewrite EL, ER. reflexivity.
  Qed.
End Sound.
