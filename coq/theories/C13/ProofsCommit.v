(** C13 — the commit-signature encoder is injective; equal commit hashes mean equal signature lists
    (or a collision of the Merkle hash). *)
From Coq Require Import List ZArith NArith Bool Lia Arith ZifyBool.
From Kardia Require Import C13.Model C13.ProofsSound C13.ProofsHeader.
Import ListNotations.
Local Open Scope N_scope.
Local Ltac Zify.zify_post_hook ::= Z.to_euclidean_division_equations.

(** the values a types.CommitSig can hold and gogo can marshal *)
Definition wf_commit_sig (c : commit_sig) : Prop :=
  u64 (cs_flag c) /\ length (cs_addr c) = 20%nat /\ wf_time (cs_time c) /\ u64 (N.of_nat (length (cs_sig c))).

Lemma encode_commit_sig_inj c c' bz : wf_commit_sig c -> wf_commit_sig c' ->
  encode_commit_sig c = Some bz -> encode_commit_sig c' = Some bz -> c = c'.
Proof.
  intros [F [A [T S]]] [F' [A' [T' S']]] He He'. unfold encode_commit_sig in *.
  rewrite (encode_time_some _ T) in He. rewrite (encode_time_some _ T') in He'.
  rewrite <- He' in He. inversion He as [E]. clear He He'.
  apply varint_field_inj in E as [Ef E]; auto.
  2,3: apply (starts_not_bytes_field 8 18 _ 20); [assumption|lia|discriminate].
  apply (bytes_field_fixed_inj 18 _ _ _ _ 20) in E as [Ea E]; [|assumption|assumption|lia].
  apply time_field_inj in E as [Et Es]; [|assumption|assumption].
  apply bytes_field_end_inj in Es; auto.
  destruct c, c'; simpl in *; congruence.
Qed.

Lemma all_some_encode_inj : forall l l' bs,
  Forall wf_commit_sig l -> Forall wf_commit_sig l' ->
  all_some (map encode_commit_sig l) = Some bs -> all_some (map encode_commit_sig l') = Some bs -> l = l'.
Proof.
  induction l as [|c l IH]; intros l' bs W W' He He'.
  - simpl in He. inversion He; subst. destruct l' as [|c' l']; [reflexivity|].
    simpl in He'. destruct (encode_commit_sig c'); [|discriminate]. destruct (all_some _); discriminate.
  - destruct l' as [|c' l'].
    + simpl in He'. inversion He'; subst. simpl in He. destruct (encode_commit_sig c); [|discriminate]. destruct (all_some _); discriminate.
    + cbn [map all_some] in He, He'.
      destruct (encode_commit_sig c) as [b|] eqn:Eb; [|discriminate].
      destruct (encode_commit_sig c') as [b'|] eqn:Eb'; [|discriminate].
      destruct (all_some (map encode_commit_sig l)) as [r|] eqn:Er; [|discriminate].
      destruct (all_some (map encode_commit_sig l')) as [r'|] eqn:Er'; [|discriminate].
      inversion He; subst. inversion He' as [[E1 E2]]. subst.
      inversion W; inversion W'; subst.
      f_equal; [eapply encode_commit_sig_inj; eauto|eapply IH; eauto].
Qed.

Lemma all_some_map_nonempty {A B} (f : A -> option B) (l : list A) r : l <> [] -> all_some (map f l) = Some r -> r <> [].
Proof.
  destruct l as [|x l]; intros Hn He; [congruence|].
  cbn [map all_some] in He. destruct (f x); [|discriminate]. destruct (all_some (map f l)); inversion He. discriminate.
Qed.

Section Commit.
  Variable H : bytes -> bytes.
  Hypothesis H_len : forall x, length (H x) = 32%nat.

  (** the hash of a commit with at least one signature determines the list of its signatures (flag,
      validator address, timestamp, signature bytes of every entry), or a collision of H.
      (Height, round and block id of the commit are not covered: C13_commit_meta_bound_refuted.) *)
  Lemma commit_hash_binds_sigs c c' :
    c_sigs c <> [] -> c_sigs c' <> [] ->
    Forall wf_commit_sig (c_sigs c) -> Forall wf_commit_sig (c_sigs c') ->
    commit_hash H c <> None -> commit_hash H c = commit_hash H c' ->
    c_sigs c = c_sigs c' \/ collision H.
  Proof.
    intros Hn Hn' W W' Hs He. unfold commit_hash in *.
    destruct (all_some (map encode_commit_sig (c_sigs c))) as [bs|] eqn:Eb; [|congruence].
    destruct (all_some (map encode_commit_sig (c_sigs c'))) as [bs'|] eqn:Eb'; [|discriminate].
    inversion He as [E].
    pose proof (all_some_map_nonempty _ _ _ Hn Eb) as Hb. pose proof (all_some_map_nonempty _ _ _ Hn' Eb') as Hb'.
    rewrite !bytes_to_hash_32 in E by (apply root_len; auto).
    destruct (root_inj H H_len _ _ E) as [Ebs|C]; [|right; exact C].
    left. subst bs'. eapply all_some_encode_inj; eauto.
  Qed.
End Commit.
