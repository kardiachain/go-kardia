(** C19 — "never included in the chain twice", per double-signing (not only per evidence key).

    [C19_once] shows that no evidence KEY (height, hash of the bytes) is committed twice.  Here: two
    pieces of evidence committed along any history that carry the same two signatures have the same
    content (votes incl. validator indices, powers, timestamp) -- so they are the same bytes, the same
    key, and by [C19_once] the same single commit.  This is what commit be61253 (VerifyDuplicateVote pins
    both validator indices) buys; before it, the index was free and the same double-signing could be
    committed under several hashes.

    The pool identifies evidence by its key only (the fast path of CheckEvidence accepts whatever has the
    key of a pending entry), so the statement needs the standing assumption of the development made
    explicit: on the universe [U] of evidence that occurs at all (in operations, in the initial pending
    family, produced by consensus) the key determines the evidence (no Keccak collision). *)
From Coq Require Import List ZArith NArith Bool Lia.
From Kardia Require Import Base.Int64 C19.Model C19.ProofsBasic C19.ProofsVerify C19.ProofsPool
     C19.ProofsHistory C19.ProofsOnce.
Import ListNotations.
Local Open Scope Z_scope.

(** the evidence an operation marks committed *)
Definition committed_evs_by (o : op) (ob : obs) : list evidence :=
  match o, o_res ob with
  | OpApply _ _ es, ROk => es
  | OpUpdate _ es, ROk => es
  | _, _ => []
  end.

Fixpoint commit_evs (n : node) (ops : list op) : list evidence :=
  match ops with
  | [] => []
  | o :: t => let '(n', ob) := step n o in committed_evs_by o ob ++ commit_evs n' t
  end.

Lemma committed_by_evs o ob : committed_by o ob = map ekey (committed_evs_by o ob).
Proof. unfold committed_by, committed_evs_by. destruct o; try reflexivity; destruct (o_res ob); reflexivity. Qed.

Lemma commit_log_evs : forall ops n, commit_log n ops = map ekey (commit_evs n ops).
Proof.
  induction ops as [|o t IH]; intros n; cbn [commit_log commit_evs]; [reflexivity|].
  destruct (step n o) as [n1 ob]. rewrite map_app, committed_by_evs, IH. reflexivity.
Qed.

Lemma sig_valid_fields cid addr v :
  vote_sig_valid cid addr v = true ->
  s_signer (v_sig v) = addr /\ s_type (v_sig v) = v_type v /\ s_height (v_sig v) = v_height v /\
  s_round (v_sig v) = v_round v /\ s_bid (v_sig v) = v_bid v /\ s_time (v_sig v) = v_time v.
Proof.
  unfold vote_sig_valid, sig_valid. rewrite !andb_true_iff.
  intros [[[[[[[[_ _] Hsigner] _] Htype] Hheight] Hround] Hbid] Htime].
  apply N.eqb_eq in Hsigner, Htype, Hheight, Hround. apply bid_eqb_eq in Hbid. apply Z.eqb_eq in Htime.
  repeat split; assumption.
Qed.

Lemma vote_eq a b :
  v_idx a = v_idx b -> v_addr a = v_addr b -> v_height a = v_height b -> v_round a = v_round b ->
  v_type a = v_type b -> v_time a = v_time b -> v_bid a = v_bid b -> v_sig a = v_sig b -> a = b.
Proof. destruct a, b; cbn; intros; subst; reflexivity. Qed.

(** two sound pieces of evidence (same chain view) with the same two signatures have the same content *)
Lemma sound_same_sigs cid c e1 e2 :
  sound cid c e1 -> sound cid c e2 ->
  v_sig (e_a e1) = v_sig (e_a e2) -> v_sig (e_b e1) = v_sig (e_b e2) ->
  e_a e1 = e_a e2 /\ e_b e1 = e_b e2 /\ e_total e1 = e_total e2 /\ e_power e1 = e_power e2 /\
  e_time e1 = e_time e2.
Proof.
  intros [D1 T1] [D2 T2] Sa Sb.
  destruct D1 as (A1 & A2 & A3 & A4 & A5 & vs1 & val1 & idx1 & Hv1 & Hin1 & Ha1 & Hf1 & I1a & I1b & Hp1 & Ht1 & S1a & S1b).
  destruct D2 as (B1 & B2 & B3 & B4 & B5 & vs2 & val2 & idx2 & Hv2 & Hin2 & Ha2 & Hf2 & I2a & I2b & Hp2 & Ht2 & S2a & S2b).
  destruct (sig_valid_fields _ _ _ S1a) as (Fa1 & Fa2 & Fa3 & Fa4 & Fa5 & Fa6).
  destruct (sig_valid_fields _ _ _ S1b) as (Fb1 & Fb2 & Fb3 & Fb4 & Fb5 & Fb6).
  destruct (sig_valid_fields _ _ _ S2a) as (Ga1 & Ga2 & Ga3 & Ga4 & Ga5 & Ga6).
  destruct (sig_valid_fields _ _ _ S2b) as (Gb1 & Gb2 & Gb3 & Gb4 & Gb5 & Gb6).
  rewrite Sa in Fa1, Fa2, Fa3, Fa4, Fa5, Fa6. rewrite Sb in Fb1, Fb2, Fb3, Fb4, Fb5, Fb6.
  assert (Haddr : v_addr (e_a e1) = v_addr (e_a e2)) by congruence.
  assert (Hh : v_height (e_a e1) = v_height (e_a e2)) by congruence.
  assert (Heh : e_height e1 = e_height e2) by (unfold e_height; rewrite Hh; reflexivity).
  rewrite Heh in Hv1. rewrite Hv2 in Hv1. inversion Hv1; subst vs1. clear Hv1.
  rewrite Haddr in Hf1. rewrite Hf2 in Hf1. inversion Hf1; subst idx1 val1. clear Hf1.
  unfold timed in T1, T2. rewrite Heh in T1. rewrite T2 in T1. inversion T1 as [Ht].
  split; [|split; [|split; [|split]]].
  - apply vote_eq; congruence.
  - apply vote_eq; congruence.
  - congruence.
  - congruence.
  - congruence.
Qed.

(** "faithful": keys identify evidence on the universe [U] *)
Section Faithful.
Variable U : evidence -> Prop.
Hypothesis U_inj : forall x y, U x -> U y -> ekey x = ekey y -> x = y.

(** the evidence an operation mentions (or that consensus builds in it) belongs to the universe *)
Definition op_in (o : op) : Prop :=
  match o with
  | OpPeer e => U e
  | OpCons e => U e
  | OpBlock _ es => forall e, In e es -> U e
  | OpUpdate _ es => forall e, In e es -> U e
  | OpApply _ _ es => forall e, In e es -> U e
  | OpGen cs hash size va vb => forall e, try_add_vote_gen cs hash size va vb = GEvidence e -> U e
  | _ => True
  end.
Definition ops_in (ops : list op) : Prop := forall o, In o ops -> op_in o.
Definition pend_in (n : node) : Prop := forall e, In e (p_pending (n_pool n)) -> U e.

Lemma added_in n o x : op_in o -> added n o x -> U x.
Proof.
  destruct o; cbn [op_in added]; intros Ho; try contradiction.
  - intros ([<-|[]] & _). exact Ho.
  - intros <-. exact Ho.
  - intros (Hi & _). exact (Ho x Hi).
  - intros (Hi & _). exact (Ho x Hi).
  - apply Ho.
Qed.

Lemma step_pend_in n o n' ob : pend_in n -> op_in o -> step n o = (n', ob) -> pend_in n'.
Proof.
  unfold pend_in. intros Hp Ho Hs.
  destruct (step_cases _ _ _ _ Hs) as (_ & q & (_ & _ & Hadd & _) & Hcase).
  assert (Hq : forall x, In x (p_pending q) -> U x).
  { intros x Hx. destruct (Hadd x Hx) as [|Ha]; [auto|exact (added_in n o x Ho Ha)]. }
  destruct Hcase as [->|[(st & es & _ & Hu)|(st & _ & Hr)]]; [exact Hq| |].
  - apply update_spec in Hu. destruct Hu as [(_ & -> & _)|(_ & _ & _ & Hsub & _)]; [exact Hq|].
    intros x Hx. apply Hq, Hsub, Hx.
  - apply restart_spec in Hr. destruct Hr as (_ & _ & Hsub & _). intros x Hx. apply Hq, Hsub, Hx.
Qed.

(** what a successful ApplyBlock commits was verified by this node: now, or when it became pending *)
Lemma apply_commits_sound cid n mx st es n' ob :
  Inv cid n -> pend_in n -> (forall e, In e es -> U e) ->
  step n (OpApply mx st es) = (n', ob) -> o_res ob = ROk ->
  forall e, In e es -> sound cid (n_chain n) e.
Proof.
  intros Hinv Hp Hu Hst Hres e He. destruct (step_apply_ok _ _ _ _ _ _ Hst Hres) as (p1 & Hb & _).
  destruct (accept_block _ _ _ _ _ Hinv Hb) as [_ Hall].
  destruct (Hall e He) as [_ [_ [[Hs _]|[x [Hx [Hk [Hs _]]]]]]]; [exact Hs|].
  assert (x = e) by (apply U_inj; auto). subst x. exact Hs.
Qed.

Lemma commit_evs_sound cid : forall ops n n' obs,
  Inv cid n -> ops_ok cid n ops -> no_raw_update ops -> pend_in n -> ops_in ops ->
  run n ops = (n', obs) ->
  forall e, In e (commit_evs n ops) -> sound cid (n_chain n') e /\ U e.
Proof.
  induction ops as [|o t IH]; intros n n' obs Hinv Hok Hnr Hp Hin; cbn [run commit_evs].
  - intros _ e [].
  - destruct (step n o) as [n1 ob] eqn:Hs. destruct (run n1 t) as [n2 obs2] eqn:Hr.
    intros H; inversion H; subst; clear H.
    destruct (ops_ok_cons _ _ _ _ _ _ Hs Hok) as [Ho Ht].
    destruct (step_inv _ _ _ _ _ Hinv Ho Hs) as [Hi1 [Hle1 _]].
    pose proof (no_raw_update_tail _ _ Hnr) as Hnr1.
    assert (Hin1 : ops_in t) by (intros x Hx; apply Hin; right; auto).
    assert (Hoin : op_in o) by (apply Hin; left; auto).
    pose proof (step_pend_in _ _ _ _ Hp Hoin Hs) as Hp1.
    destruct (run_inv cid t n1 n' obs2 Hi1 Ht Hr) as [_ Hle2].
    intros e He. apply in_app_or in He. destruct He as [He|He].
    + unfold committed_evs_by in He. destruct o; try contradiction.
      * exfalso. apply (Hnr st es). left; reflexivity.
      * destruct (o_res ob) eqn:Hres; try contradiction.
        cbn [op_in] in Hoin. split; [|apply Hoin; exact He].
        eapply sound_mono; [exact Hle2|]. eapply sound_mono; [exact Hle1|].
        exact (apply_commits_sound cid n maxnum st es n1 ob Hinv Hp Hoin Hs Hres e He).
    + eapply IH; eauto.
Qed.

(** the same pair of signed votes is committed under one content only; with the key determined by the
    content (the hash is the Keccak of the bytes) it is one evidence, committed once *)
Lemma once_per_double_sign_faithful cid n ops n' obs e1 e2 :
  Inv cid n -> ops_ok cid n ops -> no_raw_update ops -> pend_in n -> ops_in ops ->
  run n ops = (n', obs) ->
  In e1 (commit_evs n ops) -> In e2 (commit_evs n ops) ->
  v_sig (e_a e1) = v_sig (e_a e2) -> v_sig (e_b e1) = v_sig (e_b e2) ->
  (e_a e1 = e_a e2 /\ e_b e1 = e_b e2 /\ e_total e1 = e_total e2 /\ e_power e1 = e_power e2 /\
   e_time e1 = e_time e2) /\
  (e_hash e1 = e_hash e2 -> e1 = e2) /\
  NoDup (map ekey (commit_evs n ops)).
Proof.
  intros Hinv Hok Hnr Hp Hin Hr H1 H2 Sa Sb.
  destruct (commit_evs_sound cid ops n n' obs Hinv Hok Hnr Hp Hin Hr e1 H1) as [S1 U1].
  destruct (commit_evs_sound cid ops n n' obs Hinv Hok Hnr Hp Hin Hr e2 H2) as [S2 U2].
  pose proof (sound_same_sigs cid _ e1 e2 S1 S2 Sa Sb) as Hc.
  split; [exact Hc|]. split.
  - intros Hh. apply U_inj; auto. unfold ekey, e_height. destruct Hc as [Ha _]. rewrite Ha, Hh. reflexivity.
  - rewrite <- commit_log_evs. apply (once_gen cid ops n Hinv Hok Hnr).
Qed.

End Faithful.
