(** C19 — tie of the model's guards and arithmetic to the Go SOURCE.
    [Generated/C19Source.v] is produced on every check by /verif/go2coq from /repo's working tree:
    the body of types.MaxEvidencePerBlock, the constants MaxEvidenceBytes / MaxEvidenceBytesDenominator and
    every guard / integer expression of Pool.verify, VerifyDuplicateVote, Pool.isExpired, Pool.Update,
    Pool.listEvidence, Pool.removeExpiredPendingEvidence, Pool.CheckEvidence, Pool.PendingEvidence,
    Pool.markEvidenceAsCommitted, Pool.AddEvidence, Pool.AddEvidenceFromConsensus (types/evidence),
    NewDuplicateVoteEvidence,
    DuplicateVoteEvidence.ValidateBasic, Vote.ValidateBasic, IsVoteTypeValid (types), validateBlock, MedianTime
    (kai/state/cstate), WeightedMedian (types/time) and ConsensusState.tryAddVote (consensus), as Gallina
    over [Z] with explicit machine-integer wraps (Base/GoSem.v).

    [C19_source_tie_statement] says that the hand-written model of C19/Model.v IS built from exactly those
    expressions on exactly those operands: wherever possible as an equation of the model's own function
    ([verify_duplicate_vote], [verify], [is_expired], [update], [list_loop], [expire_loop],
    [pending_evidence], [median_loop], [block_evidence] ...) with the same function written over the
    generated guards, so that the ORDER and PLACEMENT of the guards is pinned as well; the [_atoms]
    lemmas pin WHAT is compared.  A Go edit that flips a comparison, changes a constant or an operand,
    or rewrites one of these guards changes the generated file and re-opens these obligations. *)
From Coq Require Import List ZArith NArith Bool Lia String.
From Kardia Require Import Base.Int64 Base.GoSem Base.Conj.
From Kardia Require Import Generated.C19Source.
From Kardia Require Import Generated.C19Facts C19.Model.
Import ListNotations.
Local Open Scope Z_scope.

(** the integer [strings.Compare] returns *)
Definition cmp_z (c : comparison) : Z := match c with Lt => -1 | Eq => 0 | Gt => 1 end.

(** uint32(idx) is idx for every index of a validator set that fits (MaxVotesCount is far below) *)
Lemma conv_u32 idx : Z.of_N idx < 4294967296 -> go_conv U32 (Z.of_N idx) = Z.of_N idx.
Proof. intros H. unfold go_conv. apply wrap_id. unfold in_range. lia. Qed.

Lemma find_idx_bound a : forall vs i j v, find_idx a vs i = Some (j, v) -> (j < i + N.of_nat (List.length vs))%N.
Proof.
  induction vs as [|x t IH]; intros i j v H; cbn [find_idx] in H; [discriminate|].
  destruct (N.eqb (val_addr x) a).
  - inversion H; subst. cbn [List.length]. lia.
  - apply IH in H. cbn [List.length]. lia.
Qed.

(** Go's truncated division by a positive constant never leaves int64 *)
Lemma quot_in_range b d : 0 < d -> in_range I64 b -> in_range I64 (Z.quot b d).
Proof.
  unfold in_range. intros Hd Hb.
  destruct (Z_le_gt_dec 0 b).
  - pose proof (Z.quot_pos b d ltac:(lia) Hd).
    pose proof (Z.quot_le_upper_bound b d 9223372036854775807 Hd ltac:(nia)). lia.
  - rewrite <- (Z.opp_involutive b), Z.quot_opp_l by lia.
    pose proof (Z.quot_pos (- b) d ltac:(lia) Hd).
    pose proof (Z.quot_le_upper_bound (- b) d 9223372036854775808 Hd ltac:(nia)). lia.
Qed.

Lemma src_block_count_guard_atoms :
  kai_state_cstate__validateBlock__if_numEvidence_gt_maxNumEvidence_atoms = ["numEvidence : int64"; "maxNumEvidence : int64"]%string.
Proof. reflexivity. Qed.

(** VerifyDuplicateVote (types/evidence/verify.go) *)
Definition src_index_guard := types_evidence__VerifyDuplicateVote__if_e_VoteA_ValidatorIndex_ne_uint32_idx_or_e_VoteB_ValidatorInd_6979641e.
Definition src_hrs_guard := types_evidence__VerifyDuplicateVote__if_e_VoteA_Height_ne_e_VoteB_Height_or_e_VoteA_Round_ne_e_VoteB_94a279ba.
Definition src_addr_guard := types_evidence__VerifyDuplicateVote__if_not_bytes_Equal_e_VoteA_ValidatorAddress_Bytes_e_VoteB_Valid_d37704cb.
Definition src_sameid_guard := types_evidence__VerifyDuplicateVote__if_e_VoteA_BlockID_Equal_e_VoteB_BlockID.
Definition src_power_guard := types_evidence__VerifyDuplicateVote__if_val_VotingPower_ne_e_ValidatorPower.
Definition src_total_guard := types_evidence__VerifyDuplicateVote__if_valSet_TotalVotingPower_ne_e_TotalVotingPower.
Definition src_siga_guard := types_evidence__VerifyDuplicateVote__if_not_types_VerifySignature_val_Address_crypto_Keccak256_types_b38e27e6.
Definition src_sigb_guard := types_evidence__VerifyDuplicateVote__if_not_types_VerifySignature_val_Address_crypto_Keccak256_types_3ee76410.

Lemma src_vdv_atoms :
  types_evidence__VerifyDuplicateVote__if_e_VoteA_ValidatorIndex_ne_uint32_idx_or_e_VoteB_ValidatorInd_6979641e_atoms
    = ["e.VoteA.ValidatorIndex : uint32"; "idx : int"; "e.VoteB.ValidatorIndex : uint32"]%string
  /\ types_evidence__VerifyDuplicateVote__if_e_VoteA_Height_ne_e_VoteB_Height_or_e_VoteA_Round_ne_e_VoteB_94a279ba_atoms
    = ["e.VoteA.Height : uint64"; "e.VoteB.Height : uint64"; "e.VoteA.Round : uint32"; "e.VoteB.Round : uint32";
       "e.VoteA.Type : github.com/kardiachain/go-kardia/proto/kardiachain/types.SignedMsgType";
       "e.VoteB.Type : github.com/kardiachain/go-kardia/proto/kardiachain/types.SignedMsgType"]%string
  /\ types_evidence__VerifyDuplicateVote__if_not_bytes_Equal_e_VoteA_ValidatorAddress_Bytes_e_VoteB_Valid_d37704cb_atoms
    = ["bytes.Equal(e.VoteA.ValidatorAddress.Bytes(), e.VoteB.ValidatorAddress.Bytes()) : bool"]%string
  /\ types_evidence__VerifyDuplicateVote__if_val_VotingPower_ne_e_ValidatorPower_atoms
    = ["val.VotingPower : int64"; "e.ValidatorPower : int64"]%string
  /\ types_evidence__VerifyDuplicateVote__if_valSet_TotalVotingPower_ne_e_TotalVotingPower_atoms
    = ["valSet.TotalVotingPower() : int64"; "e.TotalVotingPower : int64"]%string
  /\ types_evidence__VerifyDuplicateVote__if_not_types_VerifySignature_val_Address_crypto_Keccak256_types_b38e27e6_atoms
    = ["types.VerifySignature(val.Address, crypto.Keccak256(types.VoteSignBytes(chainID, va)), e.VoteA.Signature) : bool"]%string
  /\ types_evidence__VerifyDuplicateVote__if_not_types_VerifySignature_val_Address_crypto_Keccak256_types_3ee76410_atoms
    = ["types.VerifySignature(val.Address, crypto.Keccak256(types.VoteSignBytes(chainID, vb)), e.VoteB.Signature) : bool"]%string.
Proof. split_all; exact eq_refl. Qed.

(** VerifyDuplicateVote written over the generated guards, in the source's order *)
Definition verify_duplicate_vote_src (e : evidence) (chain : N) (vs : list validator) : verr :=
  let a := e_a e in let b := e_b e in
  match find_idx (v_addr a) vs 0 with
  | None => VNotVal
  | Some (idx, val) =>
    if src_index_guard (Z.of_N (v_idx a)) (Z.of_N idx) (Z.of_N (v_idx b)) then VIndex
    else if src_hrs_guard (Z.of_N (v_height a)) (Z.of_N (v_height b)) (Z.of_N (v_round a)) (Z.of_N (v_round b))
                          (Z.of_N (v_type a)) (Z.of_N (v_type b)) then VHRS
    else if src_addr_guard (N.eqb (v_addr a) (v_addr b)) then VAddr
    else if src_sameid_guard (bid_eqb (v_bid a) (v_bid b)) then VSameId
    else if src_power_guard (val_power val) (e_power e) then VPower
    else if src_total_guard (total_power vs) (e_total e) then VTotal
    else if src_siga_guard (vote_sig_valid chain (val_addr val) a) then VSigA
    else if src_sigb_guard (vote_sig_valid chain (val_addr val) b) then VSigB
    else VOk
  end.

Lemma src_verify_duplicate_vote e chain vs :
  (N.of_nat (List.length vs) < 4294967296)%N ->
  verify_duplicate_vote e chain vs = verify_duplicate_vote_src e chain vs.
Proof.
  intros Hlen. unfold verify_duplicate_vote, verify_duplicate_vote_src.
  destruct (find_idx (v_addr (e_a e)) vs 0) as [[idx val]|] eqn:Hf; [|reflexivity].
  apply find_idx_bound in Hf.
  assert (Hi : Z.of_N idx < 4294967296) by lia.
  unfold src_index_guard, src_hrs_guard, src_addr_guard, src_sameid_guard,
    types_evidence__VerifyDuplicateVote__if_e_VoteA_BlockID_Equal_e_VoteB_BlockID, src_power_guard, src_total_guard, src_siga_guard, src_sigb_guard,
    types_evidence__VerifyDuplicateVote__if_e_VoteA_ValidatorIndex_ne_uint32_idx_or_e_VoteB_ValidatorInd_6979641e,
    types_evidence__VerifyDuplicateVote__if_e_VoteA_Height_ne_e_VoteB_Height_or_e_VoteA_Round_ne_e_VoteB_94a279ba,
    types_evidence__VerifyDuplicateVote__if_not_bytes_Equal_e_VoteA_ValidatorAddress_Bytes_e_VoteB_Valid_d37704cb,
    types_evidence__VerifyDuplicateVote__if_val_VotingPower_ne_e_ValidatorPower,
    types_evidence__VerifyDuplicateVote__if_valSet_TotalVotingPower_ne_e_TotalVotingPower,
    types_evidence__VerifyDuplicateVote__if_not_types_VerifySignature_val_Address_crypto_Keccak256_types_b38e27e6,
    types_evidence__VerifyDuplicateVote__if_not_types_VerifySignature_val_Address_crypto_Keccak256_types_3ee76410.
  rewrite (conv_u32 idx Hi), !ZofN_neqb.
  rewrite <- !negb_andb.
  unfold go_neqb. reflexivity.
Qed.

(** Pool.verify and Pool.isExpired *)
Definition src_verify_expiry_guard := types_evidence__Pool_verify__if_ageDuration_gt_evidenceParams_MaxAgeDuration_and_ageNumBlock_d6138d0b.
Definition src_is_expired_ret := types_evidence__Pool_isExpired__ret_ageNumBlocks_gt_uint64_params_MaxAgeNumBlocks_and_ageDuratio_f33c0c52.

Lemma src_expiry_atoms :
  types_evidence__Pool_verify__if_ageDuration_gt_evidenceParams_MaxAgeDuration_and_ageNumBlock_d6138d0b_atoms
    = ["ageDuration : time.Duration"; "evidenceParams.MaxAgeDuration : time.Duration"; "ageNumBlocks : int64"; "evidenceParams.MaxAgeNumBlocks : int64"]%string
  /\ types_evidence__Pool_isExpired__ret_ageNumBlocks_gt_uint64_params_MaxAgeNumBlocks_and_ageDuratio_f33c0c52_atoms
    = ["ageNumBlocks : uint64"; "params.MaxAgeNumBlocks : int64"; "ageDuration : time.Duration"; "params.MaxAgeDuration : time.Duration"]%string.
Proof. split; reflexivity. Qed.

(** Pool.verify with the source's expiry test (both ages strictly above their limits) and the
    source's VerifyDuplicateVote *)
Definition verify_src (p : pool) (c : chain) (e : evidence) : verr :=
  let st := p_state p in
  let height := wrap64 (st_height st) in
  let age_blocks := wrap64 (height - wrap64 (e_height e)) in
  match block_time c (e_height e) with
  | None => VNoHeader
  | Some evt =>
    if types_evidence__Pool_verify__if_evidence_Time_ne_evTime (negb (Z.eqb (e_time e) evt)) then VTime
    else
      let age_dur := types_evidence__Pool_verify__let_ageDuration (sat_sub (st_time st) evt) in
      if src_verify_expiry_guard age_dur (max_age_dur (st_params st)) age_blocks (max_age_blocks (st_params st))
      then VExpired
      else match vals_at c (e_height e) with
           | None => VNoVals
           | Some vs => verify_duplicate_vote_src e (st_chain st) vs
           end
  end.

Definition small_sets (c : chain) : Prop :=
  forall h vs, vals_at c h = Some vs -> (N.of_nat (List.length vs) < 4294967296)%N.

Definition src_update_sanity := types_evidence__Pool_Update__if_state_LastBlockHeight_le_evpool_state_LastBlockHeight.
Definition src_update_prune := types_evidence__Pool_Update__if_evpool_Size_gt_0_and_state_LastBlockHeight_gt_evpool_pruning_f0e9bc5b.

Lemma src_update_atoms :
  types_evidence__Pool_Update__if_state_LastBlockHeight_le_evpool_state_LastBlockHeight_atoms
    = ["state.LastBlockHeight : uint64"; "evpool.state.LastBlockHeight : uint64"]%string
  /\ types_evidence__Pool_Update__if_evpool_Size_gt_0_and_state_LastBlockHeight_gt_evpool_pruning_f0e9bc5b_atoms
    = ["evpool.Size() : uint32"; "state.LastBlockHeight : uint64"; "evpool.pruningHeight : uint64"; "state.LastBlockTime.After(evpool.pruningTime) : bool"]%string.
Proof. split; reflexivity. Qed.

Lemma src_prune_atoms :
  types_evidence__Pool_removeExpiredPendingEvidence__ret_ev_Height_plus_uint64_maxAgeNumBlocks_plus_1_atoms
    = ["ev.Height() : uint64"; "maxAgeNumBlocks : int64"]%string
  /\ types_evidence__Pool_removeExpiredPendingEvidence__if_not_evpool_isExpired_ev_Height_ev_Time_atoms
    = ["evpool.isExpired(ev.Height(), ev.Time()) : bool"]%string.
Proof. split; reflexivity. Qed.

Lemma src_list_cap_atoms :
  types_evidence__Pool_listEvidence__if_maxBytes_ne_minus_1_and_evSize_gt_maxBytes_atoms = ["maxBytes : int64"; "evSize : int64"]%string.
Proof. reflexivity. Qed.

Lemma src_pending_atoms :
  types_evidence__Pool_PendingEvidence__if_evpool_Size_eq_0_atoms = ["evpool.Size() : uint32"]%string.
Proof. reflexivity. Qed.

(** CheckEvidence: the fast path applies to pending evidence and tests its expiry; the duplicate scan
    runs over every earlier position idx-1, ..., 0 (the model's [existsb] over the hashes seen) *)
Lemma src_check_fast ok ex :
  types_evidence__Pool_CheckEvidence__if_ok_and_evpool_isExpired_ev_Height_ev_Time ok ex = (ok && ex)%bool
  /\ types_evidence__Pool_CheckEvidence__if_not_ok ok = negb ok.
Proof. split; reflexivity. Qed.
Lemma src_check_atoms :
  types_evidence__Pool_CheckEvidence__if_ok_and_evpool_isExpired_ev_Height_ev_Time_atoms
    = ["ok : bool"; "evpool.isExpired(ev.Height(), ev.Time()) : bool"]%string
  /\ types_evidence__Pool_CheckEvidence__if_not_ok_atoms = ["ok : bool"]%string
  /\ types_evidence__Pool_CheckEvidence__for_i_ge_0_atoms = ["i : int"]%string
  /\ types_evidence__Pool_CheckEvidence__set_i_atoms = ["idx : int"]%string.
Proof. repeat split; reflexivity. Qed.

(** one step of CheckEvidence in the source's shape: fastCheck; the expiry test on the fast path; only when
    not pending: committed?, verify, add to pending; then the duplicate scan *)
Definition check_step_src (p : pool) (c : chain) (e : evidence) : pool * option result :=
  let ok := types_evidence__Pool_CheckEvidence__let_ok (is_pending p e) in
  if types_evidence__Pool_CheckEvidence__if_ok_and_evpool_isExpired_ev_Height_ev_Time
       ok (is_expired (p_state p) (e_height e) (e_time e))
  then (p, Some (RInvalid VExpired))
  else if types_evidence__Pool_CheckEvidence__if_not_ok ok then
         if types_evidence__Pool_CheckEvidence__if_evpool_isCommitted_ev (is_committed p e) then (p, Some RCommitted)
         else match verify p c e with
              | VOk => (add_pending p e, None)
              | err => (p, Some (RInvalid err))
              end
       else (p, None).

Lemma src_order_atoms :
  types__DuplicateVoteEvidence_ValidateBasic__if_strings_Compare_dve_VoteA_BlockID_Key_dve_VoteB_BlockID_Key_ge_0_atoms
    = ["strings.Compare(dve.VoteA.BlockID.Key(), dve.VoteB.BlockID.Key()) : int"]%string
  /\ types__NewDuplicateVoteEvidence__if_strings_Compare_vote1_BlockID_Key_vote2_BlockID_Key_eq_minus_1_atoms
    = ["strings.Compare(vote1.BlockID.Key(), vote2.BlockID.Key()) : int"]%string
  /\ types__NewDuplicateVoteEvidence__if_idx_eq_minus_1_atoms = ["idx : int"]%string
  /\ (forall i, types__NewDuplicateVoteEvidence__if_idx_eq_minus_1 i = Z.eqb i (-1)).
Proof. repeat split; reflexivity. Qed.

(** Vote.ValidateBasic: valid type, block id zero or complete, signature present *)
Definition src_type_valid (t : N) : bool :=
  (types__IsVoteTypeValid__case_t_eq_kproto_PrevoteType (Z.of_N t) || types__IsVoteTypeValid__case_t_eq_kproto_PrecommitType (Z.of_N t))%bool.

Lemma src_vote_basic_atoms :
  types__Vote_ValidateBasic__if_not_IsVoteTypeValid_vote_Type_atoms = ["IsVoteTypeValid(vote.Type) : bool"]%string
  /\ types__Vote_ValidateBasic__if_not_vote_BlockID_IsZero_and_not_vote_BlockID_IsComplete_atoms
     = ["vote.BlockID.IsZero() : bool"; "vote.BlockID.IsComplete() : bool"]%string
  /\ types__Vote_ValidateBasic__if_len_vote_Signature_eq_0_atoms = ["len(vote.Signature) : int"]%string.
Proof. repeat split; reflexivity. Qed.

Lemma src_median_atoms :
  types_time__WeightedMedian__set_median_atoms = ["totalVotingPower : int64"]%string
  /\ types_time__WeightedMedian__if_median_le_weightedTime_Weight_atoms = ["median : int64"; "weightedTime.Weight : int64"]%string
  /\ types_time__WeightedMedian__set_median_op_atoms = ["median : int64"; "weightedTime.Weight : int64"]%string
  /\ types_time__WeightedMedian__ret_weightedTimes_at_i__Time_UnixNano_lt_weightedTimes_at_j__Time_UnixNano_atoms
     = ["weightedTimes[i].Time.UnixNano() : int64"; "weightedTimes[j].Time.UnixNano() : int64"]%string
  /\ kai_state_cstate__MedianTime__set_totalVotingPower_op_atoms = ["totalVotingPower : int64"; "votingPower : int64"]%string.
Proof. repeat split; reflexivity. Qed.

(** tryAddVote: the genesis time is used iff the votes' height is the initial height *)
Lemma src_try_add_vote_time cs va :
  N.eqb (v_height va) (cs_init_height cs) =
  consensus__ConsensusState_tryAddVote__if_voteErr_VoteA_Height_eq_cs_state_InitialHeight
    (Z.of_N (v_height va)) (Z.of_N (cs_init_height cs)).
Proof.
  unfold consensus__ConsensusState_tryAddVote__if_voteErr_VoteA_Height_eq_cs_state_InitialHeight.
  now rewrite ZofN_eqb.
Qed.
Lemma src_try_add_vote_atoms :
  consensus__ConsensusState_tryAddVote__if_voteErr_VoteA_Height_eq_cs_state_InitialHeight_atoms
  = ["voteErr.VoteA.Height : uint64"; "cs.state.InitialHeight : uint64"]%string.
Proof. reflexivity. Qed.

Definition C19_source_tie_statement : Prop :=
  (* constants and MaxEvidencePerBlock *)
  (types__MaxEvidenceBytes = max_evidence_bytes /\ types__MaxEvidenceBytesDenominator = max_evidence_bytes_denominator)
  /\ (forall b, in_range I64 b ->
        types__MaxEvidencePerBlock b =
        (Z.quot (Z.quot b max_evidence_bytes_denominator) max_evidence_bytes, Z.quot b max_evidence_bytes_denominator))
  /\ types__MaxEvidencePerBlock default_evidence_max_bytes = (default_proposal_evidence_count, default_proposal_pending_cap)
  (* validateBlock's evidence part *)
  /\ (forall p c mx evs,
        block_evidence p c mx evs =
        if negb (forallb validate_basic evs) then (p, RBasic)
        else if kai_state_cstate__validateBlock__if_numEvidence_gt_maxNumEvidence (Z.of_nat (List.length evs)) mx then (p, ROverflow)
        else check_evidence p c evs)
  (* Pool.verify = expiry guard + VerifyDuplicateVote, all guards from the source, in the source's order *)
  /\ (forall e chain vs, (N.of_nat (List.length vs) < 4294967296)%N ->
        verify_duplicate_vote e chain vs = verify_duplicate_vote_src e chain vs)
  /\ (forall p c e, small_sets c -> verify p c e = verify_src p c e)
  /\ (forall st h t,
        is_expired st h t =
        src_is_expired_ret (wrapu64 (st_height st - h)) (max_age_blocks (st_params st))
                           (sat_sub (st_time st) t) (max_age_dur (st_params st)))
  (* Update, pruning, listing *)
  /\ (forall p st evs,
        update p st evs =
        if src_update_sanity (st_height st) (st_height (p_state p)) then (p, RPanic)
        else
          let p1 := mark_committed (set_state p st) evs in
          if src_update_prune (p_size p1) (st_height st) (p_prune_h p1) (Z.ltb (p_prune_t p1) (st_time st))
          then let '(p2, h, t) := remove_expired p1 in (set_prune p2 h t, ROk)
          else (p1, ROk))
  /\ (forall p e t removed, validate_basic e = true ->
        expire_loop p (e :: t) removed =
        if types_evidence__Pool_removeExpiredPendingEvidence__if_not_evpool_isExpired_ev_Height_ev_Time
             (is_expired (p_state p) (e_height e) (e_time e))
        then
          let p1 := match removed with [] => p | _ => remove_from_list p removed end in
          (p1, types_evidence__Pool_removeExpiredPendingEvidence__ret_ev_Height_plus_uint64_maxAgeNumBlocks_plus_1
                 (e_height e) (max_age_blocks (st_params (p_state p))),
           e_time e + max_age_dur (st_params (p_state p)) + one_second)
        else expire_loop (remove_pending p e) t (e_hash e :: removed))
  /\ (forall e t maxbytes acc evsize total,
        list_loop (e :: t) maxbytes acc evsize total =
        let evsize' := types_evidence__Pool_listEvidence__let_evSize (evsize + 1 + e_size e + sov (e_size e)) in
        if types_evidence__Pool_listEvidence__if_maxBytes_ne_minus_1_and_evSize_gt_maxBytes maxbytes evsize' then (rev acc, total, true)
        else if negb (validate_basic e) then ([], total, false)
        else list_loop t maxbytes (e :: acc) evsize' evsize')
  /\ (forall p maxbytes,
        pending_evidence p maxbytes =
        if types_evidence__Pool_PendingEvidence__if_evpool_Size_eq_0 (p_size p) then ([], 0)
        else let '(l, sz, _) := list_evidence p maxbytes in (l, sz))
  (* CheckEvidence *)
  /\ (forall p c seen e t, is_pending p e = true ->
        check_loop p c seen (e :: t) =
        if types_evidence__Pool_CheckEvidence__if_ok_and_evpool_isExpired_ev_Height_ev_Time
             (is_pending p e) (is_expired (p_state p) (e_height e) (e_time e))
        then (p, RInvalid VExpired)
        else if existsb (N.eqb (e_hash e)) seen then (p, RDuplicate)
        else check_loop p c (e_hash e :: seen) t)
  /\ (forall idx i, 0 <= idx <= 4611686018427387904 ->
        (0 <= i < idx <->
         i <= types_evidence__Pool_CheckEvidence__set_i idx /\ types_evidence__Pool_CheckEvidence__for_i_ge_0 i = true))
  /\ (forall p c seen e t,
        check_loop p c seen (e :: t) =
        match check_step_src p c e with
        | (p1, Some r) => (p1, r)
        | (p1, None) =>
          if existsb (types_evidence__Pool_CheckEvidence__if_hashes_at_i__Equal_hashes_at_idx) (map (N.eqb (e_hash e)) seen)
          then (p1, RDuplicate)
          else check_loop p1 c (e_hash e :: seen) t
        end)
  /\ (forall i, types_evidence__Pool_CheckEvidence__set_i_op i = wrap64 (i - 1))
  (* AddEvidence, AddEvidenceFromConsensus, markEvidenceAsCommitted *)
  /\ (forall p c e,
        add_evidence p c e =
        if types_evidence__Pool_AddEvidence__if_evpool_isPending_ev (is_pending p e) then (p, ROk)
        else if types_evidence__Pool_AddEvidence__if_evpool_isCommitted_ev (is_committed p e) then (p, ROk)
        else match verify p c e with
             | VOk => (push_list (add_pending p e) e, ROk)
             | err => (p, RInvalid err)
             end)
  /\ (forall p e,
        add_from_consensus p e =
        if types_evidence__Pool_AddEvidenceFromConsensus__if_evpool_isPending_ev (is_pending p e) then (p, ROk)
        else (push_list (add_pending p e) e, ROk))
  /\ (forall p e t removed,
        mark_loop p (e :: t) removed =
        let '(p1, removed1) :=
          if types_evidence__Pool_markEvidenceAsCommitted__if_evpool_isPending_ev (is_pending p e)
          then (remove_pending p e, e_hash e :: removed) else (p, removed) in
        mark_loop (set_committed p1 (put_key (ekey e) (p_committed p1))) t removed1)
  (* ValidateBasic, NewDuplicateVoteEvidence *)
  /\ (forall e,
        validate_basic e =
        (vote_basic (e_a e) && vote_basic (e_b e)
         && negb (types__DuplicateVoteEvidence_ValidateBasic__if_strings_Compare_dve_VoteA_BlockID_Key_dve_VoteB_BlockID_Key_ge_0
                    (cmp_z (key_cmp (v_bid (e_a e)) (v_bid (e_b e))))))%bool)
  /\ (forall v,
        vote_basic v =
        (negb (types__Vote_ValidateBasic__if_not_IsVoteTypeValid_vote_Type (src_type_valid (v_type v)))
         && negb (types__Vote_ValidateBasic__if_not_vote_BlockID_IsZero_and_not_vote_BlockID_IsComplete
                    (bid_is_zero (v_bid v)) (bid_is_complete (v_bid v)))
         && negb (types__Vote_ValidateBasic__if_len_vote_Signature_eq_0 (if s_empty (v_sig v) then 0 else 65)))%bool)
  /\ (forall a b,
        key_lt a b =
        types__NewDuplicateVoteEvidence__if_strings_Compare_vote1_BlockID_Key_vote2_BlockID_Key_eq_minus_1 (cmp_z (key_cmp a b)))
  (* MedianTime and tryAddVote *)
  /\ (forall t w r m,
        median_loop ((t, w) :: r) m =
        if types_time__WeightedMedian__if_median_le_weightedTime_Weight m w then t
        else median_loop r (types_time__WeightedMedian__set_median_op m w))
  /\ (forall x y t,
        insert_wt x (y :: t) =
        if types_time__WeightedMedian__ret_weightedTimes_at_i__Time_UnixNano_lt_weightedTimes_at_j__Time_UnixNano (fst x) (fst y)
        then x :: y :: t else y :: insert_wt x t)
  /\ (forall commit vs,
        median_time commit vs =
        let wts := weighted_times commit vs in
        median_loop wts (types_time__WeightedMedian__set_median
                           (fold_left (fun acc x => kai_state_cstate__MedianTime__set_totalVotingPower_op acc (snd x)) wts 0)))
  /\ (forall cs va,
        N.eqb (v_height va) (cs_init_height cs) =
        consensus__ConsensusState_tryAddVote__if_voteErr_VoteA_Height_eq_cs_state_InitialHeight
          (Z.of_N (v_height va)) (Z.of_N (cs_init_height cs)))
  /\ (forall cs hash size va vb,
        try_add_vote_gen cs hash size va vb =
        if consensus__ConsensusState_tryAddVote__if_vote_ValidatorAddress_Equal_cs_privValidator_GetAddress
             (N.eqb (v_addr vb) (cs_me cs)) then GSelf
        else
          let ts := if consensus__ConsensusState_tryAddVote__if_voteErr_VoteA_Height_eq_cs_state_InitialHeight
                         (Z.of_N (v_height va)) (Z.of_N (cs_init_height cs))
                    then cs_last_block_time cs
                    else median_time (cs_last_commit cs) (cs_last_vals cs) in
          match new_duplicate_vote_evidence hash size va vb ts (cs_vals cs) with
          | None => GNil
          | Some e => GEvidence e
          end).

Lemma C19_source_tie_proof : C19_source_tie_statement.
Proof.
  unfold C19_source_tie_statement. split_all.
  - split; reflexivity.
  - (* MaxEvidencePerBlock, for every int64 argument: (bytes/10/484, bytes/10), truncated division *)
    intros b Hb. unfold types__MaxEvidencePerBlock, go_quot, max_evidence_bytes_denominator, max_evidence_bytes.
    pose proof (quot_in_range b 10 eq_refl Hb) as H1.
    rewrite (wrap_id I64 (Z.quot b 10)) by exact H1.
    rewrite wrap_id by exact (quot_in_range _ 484 eq_refl H1). reflexivity.
  - (* the numbers the facts translator printed from a run of the Go function are what the translated
       function computes on the default parameters: the count limit of validateBlock and the byte cap
       CreateProposalBlock hands to PendingEvidence *)
    reflexivity.
  - (* validateBlock's limit: "too much evidence" is [numEvidence > maxNumEvidence] *)
    intros p c mx evs. unfold block_evidence, kai_state_cstate__validateBlock__if_numEvidence_gt_maxNumEvidence.
    rewrite Z.gtb_ltb. reflexivity.
  - exact src_verify_duplicate_vote.
  - (* Pool.verify: time equality, the expiry test (both ages strictly above their limits), VerifyDuplicateVote *)
    intros p c e Hs. unfold verify, verify_src.
    destruct (block_time c (e_height e)) as [evt|]; [|reflexivity].
    unfold types_evidence__Pool_verify__if_evidence_Time_ne_evTime, types_evidence__Pool_verify__let_ageDuration.
    destruct (negb (e_time e =? evt)); [reflexivity|].
    unfold src_verify_expiry_guard, types_evidence__Pool_verify__if_ageDuration_gt_evidenceParams_MaxAgeDuration_and_ageNumBlock_d6138d0b.
    rewrite !Z.gtb_ltb.
    destruct (_ && _); [reflexivity|].
    destruct (vals_at c (e_height e)) as [vs|] eqn:Hv; [|reflexivity].
    apply src_verify_duplicate_vote. exact (Hs _ _ Hv).
  - (* isExpired: uint64 age in blocks against uint64(MaxAgeNumBlocks), saturating duration against MaxAgeDuration *)
    intros st h t. unfold is_expired, src_is_expired_ret,
      types_evidence__Pool_isExpired__ret_ageNumBlocks_gt_uint64_params_MaxAgeNumBlocks_and_ageDuratio_f33c0c52.
    rewrite !Z.gtb_ltb. reflexivity.
  - (* Update: the sanity check, then the pruning condition *)
    intros p st evs. unfold update, src_update_sanity, src_update_prune,
      types_evidence__Pool_Update__if_state_LastBlockHeight_le_evpool_state_LastBlockHeight,
      types_evidence__Pool_Update__if_evpool_Size_gt_0_and_state_LastBlockHeight_gt_evpool_pruning_f0e9bc5b.
    rewrite !Z.gtb_ltb. reflexivity.
  - (* one step of removeExpiredPendingEvidence on a decodable entry: stop at the first entry that is NOT
       expired and return the next pruning height, ev.Height() + uint64(MaxAgeNumBlocks) + 1 in uint64 *)
    intros p e t removed Hb. cbn [expire_loop]. rewrite Hb. cbn [negb].
    unfold types_evidence__Pool_removeExpiredPendingEvidence__if_not_evpool_isExpired_ev_Height_ev_Time,
      types_evidence__Pool_removeExpiredPendingEvidence__ret_ev_Height_plus_uint64_maxAgeNumBlocks_plus_1,
      go_add, go_conv, wrap, wrapu64, two64.
    rewrite Zplus_mod_idemp_l. reflexivity.
  - (* listEvidence's byte cap: stop when a cap is given and the running size EXCEEDS it *)
    intros e t maxbytes acc evsize total. cbn [list_loop].
    unfold types_evidence__Pool_listEvidence__let_evSize, go_conv,
      types_evidence__Pool_listEvidence__if_maxBytes_ne_minus_1_and_evSize_gt_maxBytes, go_neqb.
    rewrite Z.gtb_ltb. reflexivity.
  - reflexivity.
  - (* the step of the model's CheckEvidence loop on a pending entry, with the source's fast-path test *)
    intros p c seen e t Hp. cbn [check_loop]. rewrite Hp.
    unfold types_evidence__Pool_CheckEvidence__if_ok_and_evpool_isExpired_ev_Height_ev_Time. cbn [andb].
    destruct (is_expired _ _ _); reflexivity.
  - (* the duplicate scan runs over every earlier position idx-1, ..., 0 *)
    intros idx i H. unfold types_evidence__Pool_CheckEvidence__set_i, types_evidence__Pool_CheckEvidence__for_i_ge_0, go_sub.
    rewrite (wrap_id I64 (idx - 1)) by (unfold in_range; lia).
    rewrite Z.geb_leb, Z.leb_le. lia.
  - (* ... which is the model's [existsb] over the hashes seen *)
    intros p c seen e t. cbn [check_loop]. unfold check_step_src, types_evidence__Pool_CheckEvidence__let_ok,
      types_evidence__Pool_CheckEvidence__if_ok_and_evpool_isExpired_ev_Height_ev_Time,
      types_evidence__Pool_CheckEvidence__if_not_ok, types_evidence__Pool_CheckEvidence__if_evpool_isCommitted_ev.
    replace (existsb _ (map (N.eqb (e_hash e)) seen)) with (existsb (N.eqb (e_hash e)) seen)
      by (induction seen as [|x l IH]; cbn [map existsb]; [|rewrite IH]; reflexivity).
    destruct (is_pending p e); cbn [andb negb].
    + destruct (is_expired (p_state p) (e_height e) (e_time e)); reflexivity.
    + destruct (is_committed p e); [reflexivity|]. destruct (verify p c e); reflexivity.
  - reflexivity.
  - (* AddEvidence / AddEvidenceFromConsensus: pending? committed? verify -- in this order *)
    reflexivity.
  - reflexivity.
  - (* markEvidenceAsCommitted removes from the pending family (and the counter) only what is pending *)
    reflexivity.
  - (* "invalid order" is [strings.Compare(keyA, keyB) >= 0] *)
    intros e. unfold validate_basic, key_lt,
      types__DuplicateVoteEvidence_ValidateBasic__if_strings_Compare_dve_VoteA_BlockID_Key_dve_VoteB_BlockID_Key_ge_0.
    destruct (key_cmp _ _); reflexivity.
  - (* Vote.ValidateBasic: valid type (prevote or precommit), block id zero or complete, signature present *)
    intros v. unfold vote_basic, src_type_valid, types__IsVoteTypeValid__case_t_eq_kproto_PrevoteType,
      types__IsVoteTypeValid__case_t_eq_kproto_PrecommitType, types__Vote_ValidateBasic__if_not_IsVoteTypeValid_vote_Type,
      types__Vote_ValidateBasic__if_not_vote_BlockID_IsZero_and_not_vote_BlockID_IsComplete,
      types__Vote_ValidateBasic__if_len_vote_Signature_eq_0.
    change 1 with (Z.of_N 1). change 2 with (Z.of_N 2). rewrite !ZofN_eqb.
    rewrite negb_involutive, negb_andb, !negb_involutive.
    destruct (s_empty (v_sig v)); reflexivity.
  - (* NewDuplicateVoteEvidence puts vote1 first iff the comparison is [-1] *)
    intros a b. unfold key_lt, types__NewDuplicateVoteEvidence__if_strings_Compare_vote1_BlockID_Key_vote2_BlockID_Key_eq_minus_1.
    destruct (key_cmp a b); reflexivity.
  - reflexivity.
  - reflexivity.
  - (* MedianTime: the total is the int64 sum of the powers of the validators found, the starting point
       of the scan is total / 2 (truncated) *)
    reflexivity.
  - exact src_try_add_vote_time.
  - (* tryAddVote's evidence branch: own votes are not reported; genesis time for the initial height, else the
       median of the node's LastCommit over LastValidators; no evidence when NewDuplicateVoteEvidence returns nil *)
    intros cs hash size va vb.
    unfold try_add_vote_gen, consensus__ConsensusState_tryAddVote__if_vote_ValidatorAddress_Equal_cs_privValidator_GetAddress.
    rewrite <- src_try_add_vote_time. reflexivity.
Qed.

(** the operands of every tied guard, as the Go source names them (all guards of the evidence pool, of
    ValidateBasic / NewDuplicateVoteEvidence, of the median and of tryAddVote, and validateBlock's limit) *)
Definition C19_source_atoms_statement : Prop :=
  types__NewDuplicateVoteEvidence__if_vote1_eq_nil_or_vote2_eq_nil_or_valSet_eq_nil_atoms
     = ["vote1 == nil : untyped bool"; "vote2 == nil : untyped bool"; "valSet == nil : untyped bool"]%string
  /\ types__NewDuplicateVoteEvidence__if_idx_eq_minus_1_atoms
     = ["idx : int"]%string
  /\ types__NewDuplicateVoteEvidence__if_strings_Compare_vote1_BlockID_Key_vote2_BlockID_Key_eq_minus_1_atoms
     = ["strings.Compare(vote1.BlockID.Key(), vote2.BlockID.Key()) : int"]%string
  /\ types__DuplicateVoteEvidence_ValidateBasic__if_dve_eq_nil_atoms
     = ["dve == nil : untyped bool"]%string
  /\ types__DuplicateVoteEvidence_ValidateBasic__if_dve_VoteA_eq_nil_or_dve_VoteB_eq_nil_atoms
     = ["dve.VoteA == nil : untyped bool"; "dve.VoteB == nil : untyped bool"]%string
  /\ types__DuplicateVoteEvidence_ValidateBasic__if_strings_Compare_dve_VoteA_BlockID_Key_dve_VoteB_BlockID_Key_ge_0_atoms
     = ["strings.Compare(dve.VoteA.BlockID.Key(), dve.VoteB.BlockID.Key()) : int"]%string
  /\ types__Vote_ValidateBasic__if_not_IsVoteTypeValid_vote_Type_atoms
     = ["IsVoteTypeValid(vote.Type) : bool"]%string
  /\ types__Vote_ValidateBasic__if_not_vote_BlockID_IsZero_and_not_vote_BlockID_IsComplete_atoms
     = ["vote.BlockID.IsZero() : bool"; "vote.BlockID.IsComplete() : bool"]%string
  /\ types__Vote_ValidateBasic__if_len_vote_Signature_eq_0_atoms
     = ["len(vote.Signature) : int"]%string
  /\ types__IsVoteTypeValid__case_t_eq_kproto_PrevoteType_atoms
     = ["t : github.com/kardiachain/go-kardia/proto/kardiachain/types.SignedMsgType"]%string
  /\ types__IsVoteTypeValid__case_t_eq_kproto_PrecommitType_atoms
     = ["t : github.com/kardiachain/go-kardia/proto/kardiachain/types.SignedMsgType"]%string
  /\ types_evidence__Pool_verify__if_blockMeta_eq_nil_atoms
     = ["blockMeta == nil : untyped bool"]%string
  /\ types_evidence__Pool_verify__if_evidence_Time_ne_evTime_atoms
     = ["evidence.Time() != evTime : untyped bool"]%string
  /\ types_evidence__Pool_verify__let_ageDuration_atoms
     = ["state.LastBlockTime.Sub(evTime) : time.Duration"]%string
  /\ types_evidence__Pool_verify__if_ageDuration_gt_evidenceParams_MaxAgeDuration_and_ageNumBlock_d6138d0b_atoms
     = ["ageDuration : time.Duration"; "evidenceParams.MaxAgeDuration : time.Duration"; "ageNumBlocks : int64"; "evidenceParams.MaxAgeNumBlocks : int64"]%string
  /\ types_evidence__Pool_verify__arg_height_minus_evidenceParams_MaxAgeNumBlocks_atoms
     = ["height : int64"; "evidenceParams.MaxAgeNumBlocks : int64"]%string
  /\ types_evidence__VerifyDuplicateVote__if_val_eq_nil_atoms
     = ["val == nil : untyped bool"]%string
  /\ types_evidence__VerifyDuplicateVote__if_e_VoteA_ValidatorIndex_ne_uint32_idx_or_e_VoteB_ValidatorInd_6979641e_atoms
     = ["e.VoteA.ValidatorIndex : uint32"; "idx : int"; "e.VoteB.ValidatorIndex : uint32"]%string
  /\ types_evidence__VerifyDuplicateVote__if_e_VoteA_Height_ne_e_VoteB_Height_or_e_VoteA_Round_ne_e_VoteB_94a279ba_atoms
     = ["e.VoteA.Height : uint64"; "e.VoteB.Height : uint64"; "e.VoteA.Round : uint32"; "e.VoteB.Round : uint32"; "e.VoteA.Type : github.com/kardiachain/go-kardia/proto/kardiachain/types.SignedMsgType"; "e.VoteB.Type : github.com/kardiachain/go-kardia/proto/kardiachain/types.SignedMsgType"]%string
  /\ types_evidence__VerifyDuplicateVote__if_not_bytes_Equal_e_VoteA_ValidatorAddress_Bytes_e_VoteB_Valid_d37704cb_atoms
     = ["bytes.Equal(e.VoteA.ValidatorAddress.Bytes(), e.VoteB.ValidatorAddress.Bytes()) : bool"]%string
  /\ types_evidence__VerifyDuplicateVote__if_e_VoteA_BlockID_Equal_e_VoteB_BlockID_atoms
     = ["e.VoteA.BlockID.Equal(e.VoteB.BlockID) : bool"]%string
  /\ types_evidence__VerifyDuplicateVote__if_val_VotingPower_ne_e_ValidatorPower_atoms
     = ["val.VotingPower : int64"; "e.ValidatorPower : int64"]%string
  /\ types_evidence__VerifyDuplicateVote__if_valSet_TotalVotingPower_ne_e_TotalVotingPower_atoms
     = ["valSet.TotalVotingPower() : int64"; "e.TotalVotingPower : int64"]%string
  /\ types_evidence__VerifyDuplicateVote__if_not_types_VerifySignature_val_Address_crypto_Keccak256_types_b38e27e6_atoms
     = ["types.VerifySignature(val.Address, crypto.Keccak256(types.VoteSignBytes(chainID, va)), e.VoteA.Signature) : bool"]%string
  /\ types_evidence__VerifyDuplicateVote__if_not_types_VerifySignature_val_Address_crypto_Keccak256_types_3ee76410_atoms
     = ["types.VerifySignature(val.Address, crypto.Keccak256(types.VoteSignBytes(chainID, vb)), e.VoteB.Signature) : bool"]%string
  /\ types_evidence__Pool_isExpired__ret_ageNumBlocks_gt_uint64_params_MaxAgeNumBlocks_and_ageDuratio_f33c0c52_atoms
     = ["ageNumBlocks : uint64"; "params.MaxAgeNumBlocks : int64"; "ageDuration : time.Duration"; "params.MaxAgeDuration : time.Duration"]%string
  /\ types_evidence__Pool_Update__if_state_LastBlockHeight_le_evpool_state_LastBlockHeight_atoms
     = ["state.LastBlockHeight : uint64"; "evpool.state.LastBlockHeight : uint64"]%string
  /\ types_evidence__Pool_Update__if_evpool_Size_gt_0_and_state_LastBlockHeight_gt_evpool_pruning_f0e9bc5b_atoms
     = ["evpool.Size() : uint32"; "state.LastBlockHeight : uint64"; "evpool.pruningHeight : uint64"; "state.LastBlockTime.After(evpool.pruningTime) : bool"]%string
  /\ types_evidence__Pool_listEvidence__for_iter_Next_atoms
     = ["iter.Next() : bool"]%string
  /\ types_evidence__Pool_listEvidence__let_evSize_atoms
     = ["evList.Size() : int"]%string
  /\ types_evidence__Pool_listEvidence__if_maxBytes_ne_minus_1_and_evSize_gt_maxBytes_atoms
     = ["maxBytes : int64"; "evSize : int64"]%string
  /\ types_evidence__Pool_removeExpiredPendingEvidence__for_iter_Next_atoms
     = ["iter.Next() : bool"]%string
  /\ types_evidence__Pool_removeExpiredPendingEvidence__if_not_evpool_isExpired_ev_Height_ev_Time_atoms
     = ["evpool.isExpired(ev.Height(), ev.Time()) : bool"]%string
  /\ types_evidence__Pool_removeExpiredPendingEvidence__if_len_blockEvidenceMap_ne_0_atoms
     = ["len(blockEvidenceMap) : int"]%string
  /\ types_evidence__Pool_removeExpiredPendingEvidence__ret_ev_Height_plus_uint64_maxAgeNumBlocks_plus_1_atoms
     = ["ev.Height() : uint64"; "maxAgeNumBlocks : int64"]%string
  /\ types_evidence__Pool_removeExpiredPendingEvidence__if_len_blockEvidenceMap_ne_0_2_atoms
     = ["len(blockEvidenceMap) : int"]%string
  /\ types_evidence__Pool_CheckEvidence__let_ok_atoms
     = ["evpool.fastCheck(ev) : bool"]%string
  /\ types_evidence__Pool_CheckEvidence__if_ok_and_evpool_isExpired_ev_Height_ev_Time_atoms
     = ["ok : bool"; "evpool.isExpired(ev.Height(), ev.Time()) : bool"]%string
  /\ types_evidence__Pool_CheckEvidence__if_not_ok_atoms
     = ["ok : bool"]%string
  /\ types_evidence__Pool_CheckEvidence__if_evpool_isCommitted_ev_atoms
     = ["evpool.isCommitted(ev) : bool"]%string
  /\ types_evidence__Pool_CheckEvidence__for_i_ge_0_atoms
     = ["i : int"]%string
  /\ types_evidence__Pool_CheckEvidence__set_i_atoms
     = ["idx : int"]%string
  /\ types_evidence__Pool_CheckEvidence__set_i_op_atoms
     = ["i : int"]%string
  /\ types_evidence__Pool_CheckEvidence__if_hashes_at_i__Equal_hashes_at_idx_atoms
     = ["hashes[i].Equal(hashes[idx]) : bool"]%string
  /\ types_evidence__Pool_PendingEvidence__if_evpool_Size_eq_0_atoms
     = ["evpool.Size() : uint32"]%string
  /\ types_evidence__Pool_markEvidenceAsCommitted__if_evpool_isPending_ev_atoms
     = ["evpool.isPending(ev) : bool"]%string
  /\ types_evidence__Pool_markEvidenceAsCommitted__if_len_blockEvidenceMap_ne_0_atoms
     = ["len(blockEvidenceMap) : int"]%string
  /\ types_evidence__Pool_AddEvidence__if_evpool_isPending_ev_atoms
     = ["evpool.isPending(ev) : bool"]%string
  /\ types_evidence__Pool_AddEvidence__if_evpool_isCommitted_ev_atoms
     = ["evpool.isCommitted(ev) : bool"]%string
  /\ types_evidence__Pool_AddEvidenceFromConsensus__if_evpool_isPending_ev_atoms
     = ["evpool.isPending(ev) : bool"]%string
  /\ kai_state_cstate__validateBlock__let_numEvidence_atoms
     = ["len(block.Evidence().Evidence) : int"]%string
  /\ kai_state_cstate__validateBlock__if_numEvidence_gt_maxNumEvidence_atoms
     = ["numEvidence : int64"; "maxNumEvidence : int64"]%string
  /\ kai_state_cstate__MedianTime__let_totalVotingPower_atoms
     = []%string
  /\ kai_state_cstate__MedianTime__if_commitSig_Absent_atoms
     = ["commitSig.Absent() : bool"]%string
  /\ kai_state_cstate__MedianTime__if_validator_ne_nil_atoms
     = ["validator != nil : untyped bool"]%string
  /\ kai_state_cstate__MedianTime__let_votingPower_atoms
     = ["validator.VotingPower : int64"]%string
  /\ kai_state_cstate__MedianTime__set_totalVotingPower_op_atoms
     = ["totalVotingPower : int64"; "votingPower : int64"]%string
  /\ types_time__WeightedMedian__set_median_atoms
     = ["totalVotingPower : int64"]%string
  /\ types_time__WeightedMedian__if_weightedTimes_at_i_eq_nil_atoms
     = ["weightedTimes[i] == nil : untyped bool"]%string
  /\ types_time__WeightedMedian__if_weightedTimes_at_j_eq_nil_atoms
     = ["weightedTimes[j] == nil : untyped bool"]%string
  /\ types_time__WeightedMedian__ret_weightedTimes_at_i__Time_UnixNano_lt_weightedTimes_at_j__Time_UnixNano_atoms
     = ["weightedTimes[i].Time.UnixNano() : int64"; "weightedTimes[j].Time.UnixNano() : int64"]%string
  /\ types_time__WeightedMedian__if_weightedTime_ne_nil_atoms
     = ["weightedTime != nil : untyped bool"]%string
  /\ types_time__WeightedMedian__if_median_le_weightedTime_Weight_atoms
     = ["median : int64"; "weightedTime.Weight : int64"]%string
  /\ types_time__WeightedMedian__set_median_op_atoms
     = ["median : int64"; "weightedTime.Weight : int64"]%string
  /\ consensus__ConsensusState_tryAddVote__if_vote_ValidatorAddress_Equal_cs_privValidator_GetAddress_atoms
     = ["vote.ValidatorAddress.Equal(cs.privValidator.GetAddress()) : bool"]%string
  /\ consensus__ConsensusState_tryAddVote__if_voteErr_VoteA_Height_eq_cs_state_InitialHeight_atoms
     = ["voteErr.VoteA.Height : uint64"; "cs.state.InitialHeight : uint64"]%string
  /\ consensus__ConsensusState_tryAddVote__if_evidence_eq_nil_atoms
     = ["evidence == nil : untyped bool"]%string.

(** A right-nested conjunction of equations between convertible terms is what [all_refl] of the list of its
    left-hand sides unfolds to. *)
Fixpoint all_refl {A} (l : list A) : Prop :=
  match l with
  | [] => True
  | [a] => a = a
  | a :: t => a = a /\ all_refl t
  end.

Lemma all_refl_holds {A} (l : list A) : all_refl l.
Proof. induction l as [|a [|b t] IH]; cbn [all_refl]; auto. Qed.

(** the left-hand sides of such a conjunction [G] *)
Ltac lhs_of G :=
  lazymatch G with
  | ?a = _ /\ ?R => let t := lhs_of R in constr:(a :: t)
  | ?a = _ => constr:([a])
  end.

Lemma C19_source_atoms_proof : C19_source_atoms_statement.
Proof.
  unfold C19_source_atoms_statement.
  lazymatch goal with |- ?G => let l := lhs_of G in exact (all_refl_holds l) end.
Qed.
