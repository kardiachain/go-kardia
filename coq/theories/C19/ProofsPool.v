(** C19 — effect of every pool operation on the pending / committed families and the state. *)
From Coq Require Import List ZArith NArith Bool Lia.
From Kardia Require Import Base.Int64 C19.Model C19.ProofsBasic C19.ProofsVerify.
Import ListNotations.
Local Open Scope Z_scope.

(** the three components the properties talk about *)
Definition same_core (p q : pool) : Prop :=
  p_pending q = p_pending p /\ p_committed q = p_committed p /\ p_state q = p_state p.

Lemma add_pending_pending p e : p_pending (add_pending p e) = put_pending e (p_pending p).
Proof. reflexivity. Qed.
Lemma add_pending_committed p e : p_committed (add_pending p e) = p_committed p.
Proof. reflexivity. Qed.
Lemma add_pending_state p e : p_state (add_pending p e) = p_state p.
Proof. reflexivity. Qed.

(** [p'] is [p] with entries satisfying [A] added to the pending family *)
Definition grows (A : evidence -> Prop) (p p' : pool) : Prop :=
  p_state p' = p_state p /\ p_committed p' = p_committed p /\
  (forall x, In x (p_pending p') -> In x (p_pending p) \/ A x) /\
  (forall k, has_key k (p_pending p) = true -> has_key k (p_pending p') = true).

Lemma grows_refl (A : evidence -> Prop) p : grows A p p.
Proof. unfold grows. auto. Qed.

Lemma grows_trans (A B : evidence -> Prop) p q r : grows A p q -> grows B q r -> (forall x, B x -> A x) -> grows A p r.
Proof.
  intros (Hst1 & Hco1 & Hpe1 & Hk1) (Hst2 & Hco2 & Hpe2 & Hk2) HBA.
  split; [congruence|]. split; [congruence|]. split; [|auto].
  intros x Hx. destruct (Hpe2 x Hx); auto.
Qed.

Lemma grows_add (A : evidence -> Prop) p e : A e -> grows A p (add_pending p e).
Proof.
  intros He. split; [reflexivity|]. split; [reflexivity|]. split.
  - intros x Hx. apply In_put_pending in Hx. destruct Hx as [->|Hx]; auto.
  - intros k. apply put_keeps.
Qed.

(** members of [evs] that [p] has not committed and verifies *)
Definition verified (c : chain) (p : pool) (evs : list evidence) (x : evidence) : Prop :=
  In x evs /\ is_committed p x = false /\ verify p c x = VOk.

Lemma verified_same c p q evs x :
  p_state q = p_state p -> p_committed q = p_committed p -> verified c q evs x -> verified c p evs x.
Proof.
  intros Hst Hco (Hi & Hc & Hv). unfold is_committed in Hc. rewrite Hco in Hc.
  rewrite (verify_state_only q p c x Hst) in Hv. split; auto.
Qed.

Lemma add_evidence_grows p c e : grows (verified c p [e]) p (fst (add_evidence p c e)).
Proof.
  unfold add_evidence. destruct (is_pending p e); [apply grows_refl|].
  destruct (is_committed p e) eqn:Hc; [apply grows_refl|].
  destruct (verify p c e) eqn:Hv; try apply grows_refl.
  apply (grows_add _ p e). split; [left; reflexivity|auto].
Qed.

Lemma add_evidence_invalid p c e p' r : add_evidence p c e = (p', r) -> r = ROk \/ exists v, r = RInvalid v /\ v <> VOk /\ p' = p.
Proof.
  unfold add_evidence.
  destruct (is_pending p e); [intros [= <- <-]; auto|].
  destruct (is_committed p e); [intros [= <- <-]; auto|].
  destruct (verify p c e); intros [= <- <-]; [left; reflexivity|..];
    right; eexists; (split; [reflexivity|]); (split; [discriminate|reflexivity]).
Qed.

Lemma add_from_consensus_grows p e : grows (eq e) p (fst (add_from_consensus p e)).
Proof.
  unfold add_from_consensus. destruct (is_pending p e); [apply grows_refl|].
  apply (grows_add _ p e). reflexivity.
Qed.

Lemma existsb_hash_false h seen : existsb (N.eqb h) seen = false <-> ~ In h seen.
Proof.
  split.
  - intros H Hi. assert (existsb (N.eqb h) seen = true).
    { apply existsb_exists. exists h. split; auto. apply N.eqb_refl. }
    congruence.
  - intros H. destruct (existsb (N.eqb h) seen) eqn:E; auto.
    apply existsb_exists in E. destruct E as [x [Hi Hx]]. apply N.eqb_eq in Hx; subst. contradiction.
Qed.

(** One iteration of CheckEvidence up to the duplicate scan: the pool afterwards, and the verdict when the
    list is rejected here. *)
Definition check_step (p : pool) (c : chain) (e : evidence) : pool * option result :=
  if is_pending p e then
    if is_expired (p_state p) (e_height e) (e_time e) then (p, Some (RInvalid VExpired)) else (p, None)
  else if is_committed p e then (p, Some RCommitted)
  else match verify p c e with
       | VOk => (add_pending p e, None)
       | err => (p, Some (RInvalid err))
       end.

Lemma check_loop_cons p c seen e t :
  check_loop p c seen (e :: t) =
  match check_step p c e with
  | (p1, Some r) => (p1, r)
  | (p1, None) =>
    if existsb (N.eqb (e_hash e)) seen then (p1, RDuplicate) else check_loop p1 c (e_hash e :: seen) t
  end.
Proof. reflexivity. Qed.

(** what an entry that gets through an iteration at pool [p] satisfies ([check_step_spec]); not sufficient:
    a pending entry that has expired is rejected even if it would verify *)
Definition passes (p : pool) (c : chain) (e : evidence) : Prop :=
  (is_pending p e = true /\ is_expired (p_state p) (e_height e) (e_time e) = false) \/
  (is_committed p e = false /\ verify p c e = VOk).

(** a rejecting iteration leaves the pool alone; a passing one adds the entry unless it was pending *)
Lemma check_step_spec p c e :
  match check_step p c e with
  | (p1, Some r) => p1 = p /\ r <> ROk
  | (p1, None) => passes p c e /\ p1 = if is_pending p e then p else add_pending p e
  end.
Proof.
  unfold check_step, passes. destruct (is_pending p e).
  - destruct (is_expired _ _ _); [split; [reflexivity|discriminate]|auto].
  - destruct (is_committed p e); [split; [reflexivity|discriminate]|].
    destruct (verify p c e); try (split; [reflexivity|discriminate]). auto.
Qed.

Lemma check_step_grows c evs p e : In e evs -> grows (verified c p evs) p (fst (check_step p c e)).
Proof.
  intros He. pose proof (check_step_spec p c e) as Hs.
  destruct (check_step p c e) as [p1 [r|]]; cbn [fst]; [destruct Hs as [-> _]; apply grows_refl|].
  destruct Hs as [Hp ->]. destruct (is_pending p e) eqn:Hpe; [apply grows_refl|].
  destruct Hp as [[Hp _]|Hcv]; [congruence|]. apply grows_add. split; assumption.
Qed.

Lemma check_loop_grows c all : forall evs p seen,
  incl evs all -> grows (verified c p all) p (fst (check_loop p c seen evs)).
Proof.
  induction evs as [|e t IH]; intros p seen Hin; [apply grows_refl|].
  rewrite check_loop_cons.
  pose proof (check_step_grows c all p e (Hin e (or_introl eq_refl))) as Hs.
  destruct (check_step p c e) as [p1 [r|]]; cbn [fst] in *; [exact Hs|].
  destruct (existsb (N.eqb (e_hash e)) seen); [exact Hs|].
  apply (grows_trans _ (verified c p1 all) p p1); [exact Hs| |].
  - apply IH. intros x Hx. apply Hin. right; exact Hx.
  - destruct Hs as (Hst & Hco & _). intros x. apply verified_same; assumption.
Qed.

Lemma is_pending_add_other p e x :
  ekey x <> ekey e -> is_pending (add_pending p e) x = is_pending p x.
Proof. intros Hne. rewrite !is_pending_has. apply put_pending_has_other. exact Hne. Qed.

(** an entry with another hash passes at [add_pending p e] only if it passes at [p] *)
Lemma passes_before_add p c e x : e_hash x <> e_hash e -> passes (add_pending p e) c x -> passes p c x.
Proof.
  intros Hh. unfold passes. rewrite is_pending_add_other; [exact (fun H => H)|].
  unfold ekey. congruence.
Qed.

(** a list CheckEvidence lets through has no hash twice, and each entry passes at the pool as it was *)
Lemma check_loop_ok c : forall evs p seen,
  snd (check_loop p c seen evs) = ROk ->
  NoDup (map e_hash evs) /\ (forall x, In x evs -> ~ In (e_hash x) seen) /\
  (forall x, In x evs -> passes p c x).
Proof.
  induction evs as [|e t IH]; intros p seen.
  - intros _. split; [constructor|]. split; intros x [].
  - rewrite check_loop_cons. pose proof (check_step_spec p c e) as Hs.
    destruct (check_step p c e) as [p1 [r|]]; cbn [snd]; [intros ->; destruct Hs as [_ []]; reflexivity|].
    destruct Hs as [Hp ->].
    destruct (existsb (N.eqb (e_hash e)) seen) eqn:Hse; [discriminate|]. apply existsb_hash_false in Hse.
    intros H. destruct (IH _ _ H) as (Hnd & Hns & Hall).
    assert (Hfresh : forall x, In x t -> e_hash x <> e_hash e /\ ~ In (e_hash x) seen).
    { intros x Hx. split; intros Hi; apply (Hns x Hx); [left; congruence|right; exact Hi]. }
    split; [|split].
    + cbn [map]. constructor; [|exact Hnd].
      intros Hi. apply in_map_iff in Hi. destruct Hi as (x & Hxe & Hi). exact (proj1 (Hfresh x Hi) Hxe).
    + intros x [<-|Hi]; [exact Hse|apply Hfresh, Hi].
    + intros x [<-|Hi]; [exact Hp|]. specialize (Hall x Hi).
      destruct (is_pending p e); [exact Hall|].
      exact (passes_before_add p c e x (proj1 (Hfresh x Hi)) Hall).
Qed.

Lemma block_evidence_spec p c mx es p' r :
  block_evidence p c mx es = (p', r) ->
  grows (verified c p es) p p' /\
  (r = ROk ->
     forallb validate_basic es = true /\ NoDup (map e_hash es) /\ (forall x, In x es -> passes p c x)).
Proof.
  unfold block_evidence.
  destruct (forallb validate_basic es); cbn [negb].
  2:{ intros [= <- <-]. split; [apply grows_refl|discriminate]. }
  destruct (Z.ltb mx (Z.of_nat (length es))).
  { intros [= <- <-]. split; [apply grows_refl|discriminate]. }
  unfold check_evidence. intros H. split.
  - replace p' with (fst (check_loop p c [] es)) by (rewrite H; reflexivity).
    apply check_loop_grows, incl_refl.
  - intros ->. split; [reflexivity|].
    destruct (check_loop_ok c es p []) as (Hnd & _ & Hall); [rewrite H; reflexivity|]. auto.
Qed.

Lemma remove_from_list_core p hs : same_core p (remove_from_list p hs).
Proof. repeat split. Qed.

(** [p'] is [p] after the keys of [evs] were marked committed and removed from the pending family *)
Definition marked (evs : list evidence) (p p' : pool) : Prop :=
  p_state p' = p_state p /\
  (forall x, In x (p_pending p') -> In x (p_pending p) /\ forall e, In e evs -> ekey x <> ekey e) /\
  (forall k, In k (p_committed p') <-> In k (p_committed p) \/ In k (map ekey evs)) /\
  (forall k, has_key k (p_pending p') = has_key k (p_pending p) && negb (existsb (key2_eqb k) (map ekey evs))).

Lemma mark_loop_spec : forall evs p removed p' removed',
  mark_loop p evs removed = (p', removed') -> marked evs p p'.
Proof.
  unfold marked. induction evs as [|e t IH]; intros p removed p' removed'; cbn [mark_loop].
  - intros H; inversion H; subst. split; [reflexivity|]. split; [|split].
    + intros x Hx. split; [assumption|intros e []].
    + intros k. cbn [map In]. tauto.
    + intros k. cbn [map existsb negb]. rewrite andb_true_r. reflexivity.
  - destruct (is_pending p e) eqn:Hp.
    + intros H. apply IH in H. destruct H as [Hst [Hpe [Hco Hk]]].
      split; [exact Hst|]. split.
      { intros x Hx. destruct (Hpe x Hx) as [Hi Hne]. cbn in Hi. apply In_del_pending in Hi.
        destruct Hi as [Hi Hn]. split; auto. intros e' [<-|He']; auto. }
      split.
      { intros k. rewrite Hco. cbn [p_committed set_committed remove_pending set_size set_pending map In].
        rewrite In_put_key. split; [intros [[->|H]|H]|intros [H|[<-|H]]]; auto. }
      { intros k. rewrite Hk. cbn [p_pending set_committed remove_pending set_size set_pending map existsb].
        rewrite del_pending_has. rewrite negb_orb. rewrite andb_assoc. reflexivity. }
    + intros H. apply IH in H. destruct H as [Hst [Hpe [Hco Hk]]].
      split; [exact Hst|]. split.
      { intros x Hx. destruct (Hpe x Hx) as [Hi Hne]. cbn in Hi. split; auto.
        intros e' [<-|He']; auto.
        intros Heq. assert (is_pending p e = true) by (apply is_pending_In; exists x; auto).
        congruence. }
      split.
      { intros k. rewrite Hco. cbn [p_committed set_committed map In]. rewrite In_put_key.
        split; [intros [[->|H]|H]|intros [H|[<-|H]]]; auto. }
      { intros k. rewrite Hk. cbn [p_pending set_committed map existsb].
        rewrite negb_orb.
        destruct (key2_eqb k (ekey e)) eqn:E; cbn [negb andb]; auto.
        apply key2_eqb_eq in E; subst k. unfold is_pending in Hp. unfold has_key. rewrite Hp. reflexivity. }
Qed.

Lemma mark_committed_spec p evs : marked evs p (mark_committed p evs).
Proof.
  unfold mark_committed. destruct (mark_loop p evs []) as [p1 removed] eqn:H.
  apply mark_loop_spec in H. destruct removed; exact H.
Qed.

(** [p'] is [p] with entries of [snapshot] that have expired removed from the pending family *)
Definition pruned (snapshot : list evidence) (p p' : pool) : Prop :=
  p_state p' = p_state p /\ p_committed p' = p_committed p /\
  (forall x, In x (p_pending p') -> In x (p_pending p)) /\
  (forall k, has_key k (p_pending p) = true ->
     has_key k (p_pending p') = true \/
     exists e, In e snapshot /\ ekey e = k /\ is_expired (p_state p) (e_height e) (e_time e) = true).

Lemma expire_loop_spec : forall snapshot p removed p' h t,
  expire_loop p snapshot removed = (p', h, t) -> pruned snapshot p p'.
Proof.
  unfold pruned.
  induction snapshot as [|e s IH]; intros p removed p' h t; cbn [expire_loop].
  - intros H. inversion H; subst. destruct removed; repeat split; auto.
  - destruct (validate_basic e); cbn [negb].
    2:{ intros H. apply IH in H. destruct H as [H1 [H2 [H3 H4]]]. repeat split; auto.
        intros k Hk. destruct (H4 k Hk) as [|[x [Hi Hx]]]; auto. right. exists x. split; [right|]; auto. }
    destruct (is_expired (p_state p) (e_height e) (e_time e)) eqn:Hx; cbn [negb].
    2:{ intros H. inversion H; subst. destruct removed; repeat split; auto. }
    intros H. apply IH in H. destruct H as [H1 [H2 [H3 H4]]].
    split; [exact H1|]. split; [exact H2|]. split.
    { intros x Hi. apply H3 in Hi. cbn in Hi. apply In_del_pending in Hi. tauto. }
    intros k Hk.
    destruct (key2_eqb k (ekey e)) eqn:E.
    + apply key2_eqb_eq in E. right. exists e. split; [left; auto|]. split; auto.
    + assert (Hk2 : has_key k (p_pending (remove_pending p e)) = true).
      { cbn [p_pending remove_pending set_size set_pending]. rewrite del_pending_has, Hk, E. reflexivity. }
      destruct (H4 k Hk2) as [|[x [Hi [Hxk Hxe]]]]; auto.
      right. exists x. split; [right; auto|]. split; auto.
Qed.

Lemma remove_expired_spec p p' h t : remove_expired p = (p', h, t) -> pruned (p_pending p) p p'.
Proof. unfold remove_expired. apply expire_loop_spec. Qed.

Lemma update_spec p st evs p' r :
  update p st evs = (p', r) ->
  (r = RPanic /\ p' = p /\ st_height st <= st_height (p_state p)) \/
  (r = ROk /\ st_height (p_state p) < st_height st /\ p_state p' = st /\
   (forall x, In x (p_pending p') -> In x (p_pending p) /\ forall e, In e evs -> ekey x <> ekey e) /\
   (forall k, In k (p_committed p') <-> In k (p_committed p) \/ In k (map ekey evs)) /\
   (forall k, has_key k (p_pending p) = true ->
      has_key k (p_pending p') = true \/ In k (map ekey evs) \/
      exists e, In e (p_pending p) /\ ekey e = k /\ is_expired st (e_height e) (e_time e) = true)).
Proof.
  unfold update. destruct (Z.leb (st_height st) (st_height (p_state p))) eqn:Hl.
  - intros H; inversion H; subst. left. apply Z.leb_le in Hl. auto.
  - apply Z.leb_gt in Hl.
    pose proof (mark_committed_spec (set_state p st) evs) as Hm.
    destruct Hm as [Hst [Hpe [Hco Hk]]].
    set (p1 := mark_committed (set_state p st) evs) in *.
    assert (Hkk : forall k, has_key k (p_pending p) = true ->
                  has_key k (p_pending p1) = true \/ In k (map ekey evs)).
    { intros k Hp. rewrite Hk. cbn [p_pending set_state]. rewrite Hp. cbn [andb].
      destruct (existsb (key2_eqb k) (map ekey evs)) eqn:E; auto.
      right. apply existsb_exists in E. destruct E as [x [Hi Hx]]. apply key2_eqb_eq in Hx; subst; auto. }
    destruct (Z.ltb 0 (p_size p1) && Z.ltb (p_prune_h p1) (st_height st) && Z.ltb (p_prune_t p1) (st_time st)).
    + destruct (remove_expired p1) as [[p2 h] t] eqn:Hr. intros H; inversion H; subst. right.
      apply remove_expired_spec in Hr. destruct Hr as [H1 [H2 [H3 H4]]].
      split; auto. split; auto. split; [cbn; rewrite H1; exact Hst|].
      split; [intros x Hx; apply Hpe; apply H3; exact Hx|].
      split; [intros k; cbn [p_committed set_prune]; rewrite H2; apply Hco|].
      intros k Hp. destruct (Hkk k Hp) as [Hp1|]; auto.
      cbn [p_pending set_prune]. destruct (H4 k Hp1) as [|[e [Hi [He Hx]]]]; auto.
      right; right. exists e. split; [apply Hpe in Hi; tauto|]. split; auto.
      rewrite Hst in Hx. exact Hx.
    + intros H; inversion H; subst. right. split; auto. split; auto. split; [exact Hst|].
      split; auto. split; auto.
      intros k Hp. destruct (Hkk k Hp); auto.
Qed.

Lemma list_loop_ok : forall l mb acc a b l' sz, list_loop l mb acc a b = (l', sz, true) ->
  forall x, In x l' -> In x acc \/ In x l.
Proof.
  induction l as [|e t IH]; intros mb acc a b l' sz; cbn [list_loop].
  - intros H; inversion H; subst. intros x Hx. apply in_rev in Hx. auto.
  - destruct (negb (Z.eqb mb (-1)) && Z.ltb mb (wrap64 (a + 1 + e_size e + sov (e_size e)))).
    + intros H; inversion H; subst. intros x Hx. apply in_rev in Hx. auto.
    + destruct (validate_basic e); cbn [negb]; [|discriminate].
      intros H x Hx. destruct (IH _ _ _ _ _ _ H x Hx) as [[->|Hi]|Hi]; auto.
      * right; left; auto.
      * right; right; auto.
Qed.

Lemma restart_cases p st :
  exists p1 h t l sz ok,
    remove_expired (set_list (set_state p st) []) = (p1, h, t) /\
    list_evidence (set_prune p1 h t) (-1) = (l, sz, ok) /\
    restart p st =
    if ok then (set_list (set_size (set_prune p1 h t) (wrapu32 (Z.of_nat (length l)))) l, ROk)
    else (set_pending p (p_pending (set_prune p1 h t)), RErr).
Proof.
  unfold restart. destruct (remove_expired _) as [[p1 h] t] eqn:Hr.
  destruct (list_evidence _ _) as [[l sz] ok] eqn:Hl. exists p1, h, t, l, sz, ok. auto.
Qed.

Lemma restart_spec p st p' r :
  restart p st = (p', r) ->
  (p_state p' = st \/ p_state p' = p_state p) /\ p_committed p' = p_committed p /\
  (forall x, In x (p_pending p') -> In x (p_pending p)) /\
  (forall k, has_key k (p_pending p) = true ->
     has_key k (p_pending p') = true \/
     exists e, In e (p_pending p) /\ ekey e = k /\ is_expired st (e_height e) (e_time e) = true).
Proof.
  intros H. destruct (restart_cases p st) as (p1 & h & t & l & sz & ok & Hr & _ & E). rewrite E in H.
  apply remove_expired_spec in Hr. destruct Hr as [H1 [H2 [H3 H4]]].
  cbn [p_state p_committed p_pending set_list set_state] in *.
  destruct ok; injection H as <- <-;
    cbn [p_state p_committed p_pending set_list set_size set_prune set_pending]; auto.
Qed.

Lemma list_loop_uncapped : forall l acc a b l' sz,
  list_loop l (-1) acc a b = (l', sz, true) -> l' = rev acc ++ l.
Proof.
  induction l as [|e t IH]; intros acc a b l' sz; cbn [list_loop].
  - intros H; inversion H. rewrite app_nil_r. reflexivity.
  - rewrite Z.eqb_refl. cbn [negb andb].
    destruct (validate_basic e); cbn [negb]; [|discriminate].
    intros H. apply IH in H. rewrite H. cbn [rev]. rewrite <- app_assoc. reflexivity.
Qed.

(** PendingEvidence(-1) lists the whole pending family (when every stored value decodes) *)
Lemma list_loop_all : forall l acc a b,
  forallb validate_basic l = true ->
  exists sz, list_loop l (-1) acc a b = (rev acc ++ l, sz, true).
Proof.
  induction l as [|e t IH]; intros acc a b Hb; cbn [list_loop].
  - eexists. rewrite app_nil_r. reflexivity.
  - cbn [forallb] in Hb. apply andb_true_iff in Hb. destruct Hb as [He Ht].
    rewrite Z.eqb_refl. cbn [negb andb]. rewrite He. cbn [negb].
    destruct (IH (e :: acc) (wrap64 (a + 1 + e_size e + sov (e_size e))) (wrap64 (a + 1 + e_size e + sov (e_size e))) Ht) as [sz Hs].
    exists sz. rewrite Hs. cbn [rev]. rewrite <- app_assoc. reflexivity.
Qed.

Lemma pending_evidence_all p :
  forallb validate_basic (p_pending p) = true -> p_size p <> 0 ->
  fst (pending_evidence p (-1)) = p_pending p.
Proof.
  intros Hb Hs. unfold pending_evidence. apply Z.eqb_neq in Hs. rewrite Hs.
  unfold list_evidence. destruct (list_loop_all (p_pending p) [] 0 0 Hb) as [sz H]. rewrite H. reflexivity.
Qed.
