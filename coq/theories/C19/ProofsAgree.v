(** C19 — correct nodes agree on the validity of a block's evidence.

    Since the fast path of CheckEvidence applies the expiry rule (commit 7b4a6e2), whether a list of
    evidence passes CheckEvidence at a node whose pending entries are all sound (the invariant [pool_inv],
    which every history of verified evidence preserves) does not depend on what that node happens to have
    pending: it is decided by the chain, the latest state and the committed family alone.  Hence two
    correct nodes at the same height give the same verdict on every proposed block.

    Hypotheses made explicit: the key identifies the evidence on the universe [U] of evidence that occurs
    (no Keccak collision); heights are below 2^63 and the evidence is not about the future
    ([isExpired] subtracts in uint64, [verify] in int64: they differ above the state height and for a
    negative MaxAgeNumBlocks). *)
From Coq Require Import List ZArith NArith Bool Lia.
From Kardia Require Import Base.Int64 C19.Model C19.ProofsBasic C19.ProofsVerify C19.ProofsPool
     C19.ProofsHistory C19.ProofsExact.
Import ListNotations.
Local Open Scope Z_scope.

(** on sane magnitudes the two expiry rules of the code coincide *)
Definition sane (st : pstate) : Prop :=
  0 <= st_height st < two63 /\ 0 <= max_age_blocks (st_params st) < two63.

Lemma is_expired_iff st h t :
  sane st -> 0 <= h <= st_height st -> (is_expired st h t = true <-> expired st h t).
Proof.
  intros [[H0 H1] [M0 M1]] [Hh0 Hh1]. unfold is_expired, expired.
  rewrite (wrap64_id (st_height st)), (wrap64_id h), wrap64_id, !wrapu64_id
    by (unfold in_int64, min_int64, max_int64, two64, two63 in *; lia).
  rewrite andb_true_iff, !Z.ltb_lt. tauto.
Qed.

Lemma is_expired_false_iff st h t :
  sane st -> 0 <= h <= st_height st -> (is_expired st h t = false <-> ~ expired st h t).
Proof.
  intros Hs Hh. rewrite <- (is_expired_iff st h t Hs Hh). destruct (is_expired st h t); split; congruence.
Qed.

Lemma e_height_nonneg e : 0 <= e_height e.
Proof. unfold e_height. lia. Qed.

Section Agree.
Variable U : evidence -> Prop.
Hypothesis U_inj : forall x y, U x -> U y -> ekey x = ekey y -> x = y.

(** What decides the fate of one piece of evidence at a correct node: chain, state and committed family, not
    the pending family.  Under the hypotheses of this section it lies between the two pool-dependent
    predicates: [passes] (necessary, ProofsPool) implies it, and it implies [acceptable] (sufficient,
    ProofsExact). *)
Definition good (cid : N) (c : chain) (p : pool) (e : evidence) : Prop :=
  sound cid c e /\ ~ expired (p_state p) (e_height e) (e_time e) /\ is_committed p e = false.

Lemma passes_good cid c p e :
  pool_inv cid c p -> (forall x, In x (p_pending p) -> U x) -> U e ->
  sane (p_state p) -> e_height e <= st_height (p_state p) ->
  passes p c e -> good cid c p e.
Proof.
  intros [Hc [Hs Hd]] Hpu He Hsane Hh [[Hp Hx]|[Hn Hv]].
  - apply is_pending_In in Hp. destruct Hp as (x & Hx1 & Hk).
    assert (x = e) by (apply U_inj; auto). subst x.
    split; [apply Hs; exact Hx1|]. split; [|apply Hd; exact Hx1].
    apply (is_expired_false_iff (p_state p) (e_height e) (e_time e) Hsane); [|exact Hx].
    split; [apply e_height_nonneg|exact Hh].
  - apply verify_ok in Hv. rewrite Hc in Hv. destruct Hv as [Hso Hex]. split; [exact Hso|]. split; assumption.
Qed.

Lemma good_acceptable cid c p e :
  st_chain (p_state p) = cid -> sane (p_state p) -> e_height e <= st_height (p_state p) ->
  good cid c p e -> acceptable p c e.
Proof.
  intros Hc Hsane Hh [Hs [Hx Hcm]]. unfold acceptable. rewrite Hc.
  split; [exact Hs|]. split; [exact Hx|]. split; [exact Hcm|].
  intros _. apply (is_expired_false_iff (p_state p) (e_height e) (e_time e) Hsane); [|exact Hx].
  split; [apply e_height_nonneg|exact Hh].
Qed.

Lemma check_ok_good cid c p es :
  pool_inv cid c p -> (forall x, In x (p_pending p) -> U x) -> (forall e, In e es -> U e) ->
  sane (p_state p) -> (forall e, In e es -> e_height e <= st_height (p_state p)) ->
  snd (check_evidence p c es) = ROk ->
  NoDup (map e_hash es) /\ forall e, In e es -> good cid c p e.
Proof.
  intros Hinv Hpu Heu Hsane Hh Hr.
  destruct (check_loop_ok _ _ _ _ Hr) as (Hnd & _ & Hall). split; [exact Hnd|].
  intros e He. apply passes_good; auto.
Qed.

Lemma good_check_ok cid c p es :
  st_chain (p_state p) = cid ->
  sane (p_state p) -> (forall e, In e es -> e_height e <= st_height (p_state p)) ->
  NoDup (map e_hash es) -> (forall e, In e es -> good cid c p e) ->
  snd (check_evidence p c es) = ROk.
Proof.
  intros Hc Hsane Hh Hnd Hg. unfold check_evidence. apply check_loop_accepts; auto.
  intros e He. apply (good_acceptable cid); auto.
Qed.

(** the verdict of CheckEvidence at a correct node is a function of chain, state and committed family *)
Lemma check_verdict cid c p es :
  pool_inv cid c p -> (forall x, In x (p_pending p) -> U x) -> (forall e, In e es -> U e) ->
  sane (p_state p) -> (forall e, In e es -> e_height e <= st_height (p_state p)) ->
  (snd (check_evidence p c es) = ROk <->
   (NoDup (map e_hash es) /\ forall e, In e es -> good cid c p e)).
Proof.
  intros Hinv Hpu Heu Hsane Hh. split.
  - apply check_ok_good; auto.
  - intros [Hnd Hg]. destruct Hinv as [Hc _]. eapply good_check_ok; eauto.
Qed.

Lemma block_validity_agreed cid c p q es :
  pool_inv cid c p -> pool_inv cid c q -> p_state p = p_state q -> p_committed p = p_committed q ->
  (forall x, In x (p_pending p) -> U x) -> (forall x, In x (p_pending q) -> U x) -> (forall e, In e es -> U e) ->
  sane (p_state p) -> (forall e, In e es -> e_height e <= st_height (p_state p)) ->
  (snd (check_evidence p c es) = ROk <-> snd (check_evidence q c es) = ROk).
Proof.
  intros Hp Hq Hst Hco Hpu Hqu Heu Hsane Hh.
  rewrite (check_verdict cid c p es Hp Hpu Heu Hsane Hh).
  assert (Hsane' : sane (p_state q)) by (rewrite <- Hst; exact Hsane).
  assert (Hh' : forall e, In e es -> e_height e <= st_height (p_state q)) by (rewrite <- Hst; exact Hh).
  rewrite (check_verdict cid c q es Hq Hqu Heu Hsane' Hh').
  assert (Hg : forall e, good cid c p e <-> good cid c q e).
  { intros e. unfold good, is_committed. rewrite Hst, Hco. tauto. }
  split; intros [Hnd H]; (split; [exact Hnd|]); intros e He; apply Hg; apply H; exact He.
Qed.

(** the same for a whole block (ValidateBasic and the count limit do not look at the pool) *)
Lemma block_evidence_agreed cid c p q mx es :
  pool_inv cid c p -> pool_inv cid c q -> p_state p = p_state q -> p_committed p = p_committed q ->
  (forall x, In x (p_pending p) -> U x) -> (forall x, In x (p_pending q) -> U x) -> (forall e, In e es -> U e) ->
  sane (p_state p) -> (forall e, In e es -> e_height e <= st_height (p_state p)) ->
  (snd (block_evidence p c mx es) = ROk <-> snd (block_evidence q c mx es) = ROk).
Proof.
  intros Hp Hq Hst Hco Hpu Hqu Heu Hsane Hh. unfold block_evidence.
  destruct (negb (forallb validate_basic es)); [cbn [snd]; tauto|].
  destruct (Z.ltb mx (Z.of_nat (length es))); [cbn [snd]; tauto|].
  eapply block_validity_agreed; eauto.
Qed.

End Agree.
