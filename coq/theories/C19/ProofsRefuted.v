(** C19 — the full statement of the property where the code falls short of it, and its refutation on
    the (faithful) model.  The counterexample is reproduced on the real code by the harness
    (TestVerifC19Repro and the oracle class named below). *)
From Coq Require Import List ZArith NArith Bool.
From Kardia Require Import Base.Int64 C19.Model C19.ProofsVerify C19.ProofsExamples.
Import ListNotations.
Local Open Scope Z_scope.

(** what C19_generated_accepted needs from consensus: the evidence tryAddVote builds from two
    conflicting votes of a member of the set of their height is accepted by a node that has
    the block of that height and for which the evidence has not expired (oracle class
    generated-rejected:time) *)
Definition consensus_generates_acceptable : Prop :=
  forall cs c p hash size va vb e,
    conflicting_votes (st_chain (p_state p)) va vb ->
    vals_at c (Z.of_N (v_height va)) = Some (cs_vals cs) ->
    (exists idx val, find_idx (v_addr va) (cs_vals cs) 0 = Some (idx, val) /\ v_idx va = idx /\ v_idx vb = idx) ->
    (exists ts, block_time c (Z.of_N (v_height va)) = Some ts /\
                ~ expired (p_state p) (Z.of_N (v_height va)) ts) ->
    try_add_vote_gen cs hash size va vb = GEvidence e ->
    verify p c e = VOk.

Lemma consensus_generates_acceptable_refuted : ~ consensus_generates_acceptable.
Proof.
  intros H.
  assert (E : verify poolB chain2
                (match try_add_vote_gen csA 77 380 voteX voteY with GEvidence e => e | _ => evOK end) = VOk).
  { apply (H csA chain2 poolB 77%N 380 voteX voteY).
    - exact votes_conflict.
    - reflexivity.
    - exists 3%N, {| val_addr := 4; val_power := 10 |}. repeat split; reflexivity.
    - exists 103. split; [reflexivity|]. unfold expired. vm_compute. intros [A _]. discriminate.
    - reflexivity. }
  vm_compute in E. discriminate.
Qed.
