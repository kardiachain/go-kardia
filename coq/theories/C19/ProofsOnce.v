(** C19 — evidence is committed at most once; pending evidence stays until committed or expired. *)
From Coq Require Import List ZArith NArith Bool Lia.
From Kardia Require Import Base.Int64 C19.Model C19.ProofsBasic C19.ProofsPool C19.ProofsHistory.
Import ListNotations.
Local Open Scope Z_scope.

(** the keys an operation marks committed (Update runs only when it returns ROk) *)
Definition committed_by (o : op) (ob : obs) : list (Z * N) :=
  match o, o_res ob with
  | OpApply _ _ es, ROk => map ekey es
  | OpUpdate _ es, ROk => map ekey es
  | _, _ => []
  end.

Fixpoint commit_log (n : node) (ops : list op) : list (Z * N) :=
  match ops with
  | [] => []
  | o :: t => let '(n', ob) := step n o in committed_by o ob ++ commit_log n' t
  end.

(** Update is reached only through ApplyBlock, which validates the block first *)
Definition no_raw_update (ops : list op) : Prop := forall st es, ~ In (OpUpdate st es) ops.

Lemma no_raw_update_tail o t : no_raw_update (o :: t) -> no_raw_update t.
Proof. intros Hnr st es Hi. apply (Hnr st es). right; exact Hi. Qed.

Lemma NoDup_app_intro {A} (l1 l2 : list A) :
  NoDup l1 -> NoDup l2 -> (forall x, In x l1 -> ~ In x l2) -> NoDup (l1 ++ l2).
Proof.
  induction l1 as [|a l1 IH]; intros H1 H2 Hd.
  - exact H2.
  - cbn [app]. inversion H1 as [|a' l' Hna Hnd]; subst. constructor.
    + intros Hi. apply in_app_or in Hi. destruct Hi as [Hi|Hi]; [contradiction|].
      apply (Hd a); [left; reflexivity|exact Hi].
    + apply IH; auto. intros x Hx. apply Hd. right; exact Hx.
Qed.

Lemma apply_commits cid n mx st es n' ob :
  Inv cid n -> step n (OpApply mx st es) = (n', ob) -> o_res ob = ROk ->
  NoDup (map ekey es) /\
  (forall k, In k (map ekey es) -> ~ In k (p_committed (n_pool n))) /\
  (forall k, In k (map ekey es) -> In k (p_committed (n_pool n'))).
Proof.
  intros Hinv Hs Hres. destruct (step_apply_ok _ _ _ _ _ _ Hs Hres) as (p1 & Hb & Hu).
  destruct (accept_block _ _ _ _ _ Hinv Hb) as [Hnd Hall].
  pose proof (block_evidence_spec _ _ _ _ _ _ Hb) as [(_ & Hco1 & _) _].
  split; auto. split.
  - intros k Hk. apply in_map_iff in Hk. destruct Hk as [e [<- He]].
    destruct (Hall e He) as [_ [Hn _]]. apply not_committed_iff. exact Hn.
  - intros k Hk. apply update_spec in Hu.
    destruct Hu as [[Hr _]|[_ [_ [_ [_ [Hco _]]]]]]; [discriminate|]. apply Hco. auto.
Qed.

(** for every node satisfying the invariant, not only the initial one *)
Lemma once_gen cid : forall ops n,
  Inv cid n -> ops_ok cid n ops -> no_raw_update ops ->
  NoDup (commit_log n ops) /\ forall k, In k (commit_log n ops) -> ~ In k (p_committed (n_pool n)).
Proof.
  induction ops as [|o t IH]; intros n Hinv Hok Hnr; cbn [commit_log].
  - split; [constructor|intros k []].
  - destruct (step n o) as [n1 ob] eqn:Hs.
    destruct (ops_ok_cons _ _ _ _ _ _ Hs Hok) as [Ho Ht].
    destruct (step_inv _ _ _ _ _ Hinv Ho Hs) as [Hi1 [_ Hmono]].
    pose proof (no_raw_update_tail _ _ Hnr) as Hnr1.
    destruct (IH n1 Hi1 Ht Hnr1) as [Hnd1 Hfresh1].
    assert (HK : NoDup (committed_by o ob) /\
                 (forall k, In k (committed_by o ob) -> ~ In k (p_committed (n_pool n))) /\
                 (forall k, In k (committed_by o ob) -> In k (p_committed (n_pool n1)))).
    { unfold committed_by. destruct o; try (split; [constructor|split; intros k []]).
      - exfalso. apply (Hnr st es). left; auto.
      - destruct (o_res ob) eqn:Hr; try (split; [constructor|split; intros k []]).
        eapply apply_commits; eauto. }
    destruct HK as [HK1 [HK2 HK3]]. split.
    + apply NoDup_app_intro; auto. intros k Hk Hl. apply (Hfresh1 k Hl). apply HK3; auto.
    + intros k Hk. apply in_app_or in Hk. destruct Hk as [Hk|Hk]; auto.
      intros Hc. apply (Hfresh1 k Hk). apply Hmono; auto.
Qed.

Lemma check_rejects_committed cid n es e :
  Inv cid n -> In e es -> is_committed (n_pool n) e = true ->
  snd (check_evidence (n_pool n) (n_chain n) es) <> ROk.
Proof.
  intros Hinv He Hc Hr. destruct (check_loop_ok _ _ _ _ Hr) as (_ & _ & Hall).
  destruct (Hall e He) as [[Hp _]|[Hn _]]; [|congruence].
  pose proof (pool_inv_pending_not_committed _ _ _ _ Hinv Hp). congruence.
Qed.

Lemma check_rejects_duplicates p c es :
  snd (check_evidence p c es) = ROk -> NoDup (map e_hash es).
Proof.
  intros Hr. apply (check_loop_ok _ _ _ _ Hr).
Qed.

Lemma once_all :
  forall cid n ops,
    Inv cid n -> ops_ok cid n ops -> no_raw_update ops ->
    NoDup (commit_log n ops) /\
    (forall k, In k (commit_log n ops) -> ~ In k (p_committed (n_pool n))) /\
    (forall es e, In e es -> is_committed (n_pool n) e = true ->
                  snd (check_evidence (n_pool n) (n_chain n) es) <> ROk) /\
    (forall es, snd (check_evidence (n_pool n) (n_chain n) es) = ROk -> NoDup (map e_hash es)).
Proof.
  intros cid n ops Hi Hok Hnr. destruct (once_gen cid ops n Hi Hok Hnr) as [H1 H2].
  split; [exact H1|]. split; [exact H2|]. split.
  - intros es e. exact (check_rejects_committed cid n es e Hi).
  - intros es. exact (check_rejects_duplicates (n_pool n) (n_chain n) es).
Qed.

(** the evidence an operation commits / the state against which it prunes *)
Definition op_commits (o : op) : list evidence :=
  match o with OpUpdate _ es => es | OpApply _ _ es => es | _ => [] end.
Definition op_state (o : op) : option pstate :=
  match o with OpUpdate st _ => Some st | OpApply _ st _ => Some st | OpRestart st => Some st | _ => None end.

Lemma step_pending n o n' ob k :
  step n o = (n', ob) -> has_key k (p_pending (n_pool n)) = true ->
  has_key k (p_pending (n_pool n')) = true \/
  In k (map ekey (op_commits o)) \/
  (exists st e, op_state o = Some st /\ In e (p_pending (n_pool n)) /\ ekey e = k /\
                is_expired st (e_height e) (e_time e) = true).
Proof.
  intros Hs Hk. destruct (step_cases _ _ _ _ Hs) as (_ & q & (_ & _ & Hadd & Hkeep) & Hcase).
  apply Hkeep in Hk. destruct Hcase as [->|[(st & es & Ho & Hu)|(st & -> & Hr)]]; [auto| |].
  - apply update_spec in Hu. destruct Hu as [(_ & -> & _)|(_ & _ & _ & _ & _ & Hkk)]; [auto|].
    destruct (Hkk k Hk) as [|[Hc|(e & Hi & He & Hx)]]; [auto| |].
    + right; left. destruct Ho as [->|[mx ->]]; exact Hc.
    + destruct (Hadd e Hi) as [Hold|Ha].
      * right; right. exists st, e. destruct Ho as [->|[mx ->]]; auto.
      * (* verified in this very block: then this operation commits it *)
        right; left. destruct Ho as [->|[mx ->]]; [contradiction|].
        apply in_map_iff. exists e. split; [exact He|apply Ha].
  - apply restart_spec in Hr. destruct Hr as (_ & _ & _ & Hkk).
    destruct (Hkk k Hk) as [|(e & Hi & He & Hx)]; [auto|].
    right; right. exists st, e. destruct (Hadd e Hi) as [|[]]; auto.
Qed.
