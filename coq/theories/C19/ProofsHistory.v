(** C19 — invariants over arbitrary histories of operations on one node. *)
From Coq Require Import List ZArith NArith Bool Lia.
From Kardia Require Import Base.Int64 C19.Model C19.ProofsBasic C19.ProofsVerify C19.ProofsPool.
Import ListNotations.
Local Open Scope Z_scope.

(** every pending evidence is a real double-signing carrying its block's time, and no pending
    evidence is marked committed *)
Definition Inv (cid : N) (n : node) : Prop :=
  st_chain (p_state (n_pool n)) = cid /\
  (forall e, In e (p_pending (n_pool n)) -> sound cid (n_chain n) e) /\
  (forall e, In e (p_pending (n_pool n)) -> is_committed (n_pool n) e = false).

(** the same about a pool and a chain view given separately: [Inv cid n] unfolds to
    [pool_inv cid (n_chain n) (n_pool n)], and the lemmas about [pool_inv] are applied to [Inv] that way *)
Definition pool_inv (cid : N) (c : chain) (p : pool) : Prop :=
  st_chain (p_state p) = cid /\
  (forall e, In e (p_pending p) -> sound cid c e) /\
  (forall e, In e (p_pending p) -> is_committed p e = false).

(** what the environment of the pool guarantees for each operation:
    - stores are append-only (a height is never rewritten with another time / validator set);
    - every state handed to Update / NewPool is a state of this chain;
    - consensus hands over only evidence that is sound and not yet committed (this is the
      generator's obligation; [ProofsRefuted] shows that tryAddVote does NOT meet it). *)
Definition op_ok (cid : N) (n : node) (o : op) : Prop :=
  match o with
  | OpSaveMeta h t => block_time (n_chain n) h = None \/ block_time (n_chain n) h = Some t
  | OpSaveVals h vs => vals_at (n_chain n) h = None \/ vals_at (n_chain n) h = Some vs
  | OpCons e => sound cid (n_chain n) e /\ is_committed (n_pool n) e = false
  | OpGen cs hash size va vb =>
    forall e, try_add_vote_gen cs hash size va vb = GEvidence e ->
              sound cid (n_chain n) e /\ is_committed (n_pool n) e = false
  | OpUpdate st _ => st_chain st = cid
  | OpApply _ st _ => st_chain st = cid
  | OpRestart st => st_chain st = cid
  | _ => True
  end.

Fixpoint ops_ok (cid : N) (n : node) (ops : list op) : Prop :=
  match ops with
  | [] => True
  | o :: t => op_ok cid n o /\ ops_ok cid (fst (step n o)) t
  end.

Lemma not_committed_iff p e : is_committed p e = false <-> ~ In (ekey e) (p_committed p).
Proof.
  rewrite is_committed_com. split.
  - intros H Hi. apply com_key_In in Hi. congruence.
  - intros H. destruct (com_key (ekey e) (p_committed p)) eqn:E; auto. apply com_key_In in E. contradiction.
Qed.

Lemma chain_le_meta c h t :
  block_time c h = None \/ block_time c h = Some t ->
  chain_le c {| ch_times := put_assoc h t (ch_times c); ch_vals := ch_vals c |}.
Proof. intros Hok. split; auto. intros h2 t2. apply assoc_put_keeps, Hok. Qed.

Lemma chain_le_vals c h vs :
  vals_at c h = None \/ vals_at c h = Some vs ->
  chain_le c {| ch_times := ch_times c; ch_vals := put_assoc h vs (ch_vals c) |}.
Proof. intros Hok. split; auto. intros h2 v2. apply assoc_put_keeps, Hok. Qed.

Lemma pool_inv_pending_not_committed cid c p e :
  pool_inv cid c p -> is_pending p e = true -> is_committed p e = false.
Proof.
  intros (_ & _ & Hd) Hp. apply is_pending_In in Hp. destruct Hp as (x & Hx & Hk).
  rewrite <- (is_committed_ekey p x e Hk). exact (Hd x Hx).
Qed.

Lemma pool_inv_grows cid c (A : evidence -> Prop) p p' :
  pool_inv cid c p -> grows A p p' ->
  (forall x, A x -> sound cid c x /\ is_committed p x = false) ->
  pool_inv cid c p'.
Proof.
  intros [Hc [Hs Hd]] (Hst & Hco & Hpe & _) HA. split; [rewrite Hst; auto|]. split.
  - intros x Hx. destruct (Hpe x Hx) as [|Ha]; [auto|apply HA, Ha].
  - intros x Hx. unfold is_committed. rewrite Hco. destruct (Hpe x Hx) as [Hi|Ha]; [apply Hd, Hi|apply HA, Ha].
Qed.

Lemma pool_inv_mono cid c c' p : chain_le c c' -> pool_inv cid c p -> pool_inv cid c' p.
Proof.
  intros Hle [Hc [Hs Hd]]. split; [exact Hc|]. split; [|exact Hd].
  intros e He. exact (sound_mono cid c c' e Hle (Hs e He)).
Qed.

Lemma verified_sound cid c p evs x :
  st_chain (p_state p) = cid -> verified c p evs x -> sound cid c x /\ is_committed p x = false.
Proof. intros Hc (_ & Hn & Hv). apply verify_ok in Hv. rewrite Hc in Hv. tauto. Qed.

Lemma pool_inv_update cid c p st es p' r :
  pool_inv cid c p -> st_chain st = cid -> update p st es = (p', r) ->
  pool_inv cid c p' /\ (forall k, In k (p_committed p) -> In k (p_committed p')).
Proof.
  intros Hinv Hcid H. apply update_spec in H.
  destruct H as [[_ [-> _]]|[_ [_ [Hst [Hpe [Hco _]]]]]]; [split; auto|].
  destruct Hinv as [Hc [Hs Hd]]. split.
  - split; [rewrite Hst; auto|]. split.
    + intros x Hx. apply Hs. apply Hpe; auto.
    + intros x Hx. destruct (Hpe x Hx) as [Hi Hne]. apply not_committed_iff. rewrite Hco.
      intros [Hk|Hk].
      * apply Hd in Hi. apply not_committed_iff in Hi. contradiction.
      * apply in_map_iff in Hk. destruct Hk as [e [He Hi2]]. apply (Hne e Hi2). auto.
  - intros k Hk. apply Hco. auto.
Qed.

Lemma pool_inv_restart cid c p st p' r :
  pool_inv cid c p -> st_chain st = cid -> restart p st = (p', r) ->
  pool_inv cid c p' /\ (forall k, In k (p_committed p) -> In k (p_committed p')).
Proof.
  intros [Hc [Hs Hd]] Hcid H. apply restart_spec in H. destruct H as [Hst [Hco [Hpe _]]].
  split; [|rewrite Hco; auto].
  split; [destruct Hst as [->| ->]; assumption|]. split.
  - intros e He. apply Hs, Hpe, He.
  - intros e He. unfold is_committed. rewrite Hco. apply Hd, Hpe, He.
Qed.

(** The shape of every operation: block and state store writes touch the chain view only; every other
    operation first adds to the pending family (giving [q]), and Update / ApplyBlock / NewPool then commit
    and prune. *)
Definition step_chain (c : chain) (o : op) : chain :=
  match o with
  | OpSaveMeta h t => {| ch_times := put_assoc h t (ch_times c); ch_vals := ch_vals c |}
  | OpSaveVals h vs => {| ch_times := ch_times c; ch_vals := put_assoc h vs (ch_vals c) |}
  | _ => c
  end.

(** what an operation may add to the pending family *)
Definition added (n : node) (o : op) (x : evidence) : Prop :=
  match o with
  | OpPeer e => verified (n_chain n) (n_pool n) [e] x
  | OpBlock _ es | OpApply _ _ es => verified (n_chain n) (n_pool n) es x
  | OpCons e => e = x
  | OpGen cs hash size va vb => try_add_vote_gen cs hash size va vb = GEvidence x
  | _ => False
  end.

Lemma step_cases n o n' ob :
  step n o = (n', ob) ->
  n_chain n' = step_chain (n_chain n) o /\
  exists q, grows (added n o) (n_pool n) q /\
    (n_pool n' = q \/
     (exists st es, (o = OpUpdate st es \/ exists mx, o = OpApply mx st es) /\
                    update q st es = (n_pool n', o_res ob)) \/
     (exists st, o = OpRestart st /\ restart q st = (n_pool n', o_res ob))).
Proof.
  destruct n as [c p]. destruct o; cbn [step n_chain n_pool added step_chain].
  - intros [= <- <-]. split; [reflexivity|]. exists p. split; [apply grows_refl|left; reflexivity].
  - intros [= <- <-]. split; [reflexivity|]. exists p. split; [apply grows_refl|left; reflexivity].
  - unfold peer_evidence. pose proof (add_evidence_grows p c e) as Hg.
    destruct (validate_basic e); [destruct (add_evidence p c e) as [p' r]|];
      intros [= <- <-]; (split; [reflexivity|]); eexists; (split; [|left; reflexivity]);
      [exact Hg|apply grows_refl].
  - pose proof (add_from_consensus_grows p e) as Hg. destruct (add_from_consensus p e) as [p' r].
    intros [= <- <-]. split; [reflexivity|]. exists p'. split; [exact Hg|left; reflexivity].
  - destruct (block_evidence p c maxnum es) as [p' r] eqn:Hb. intros [= <- <-]. split; [reflexivity|].
    exists p'. split; [exact (proj1 (block_evidence_spec _ _ _ _ _ _ Hb))|left; reflexivity].
  - destruct (pending_evidence p maxbytes). intros [= <- <-]. split; [reflexivity|].
    exists p. split; [apply grows_refl|left; reflexivity].
  - destruct (update p st es) as [p' r] eqn:Hu. intros [= <- <-]. split; [reflexivity|].
    exists p. split; [apply grows_refl|]. right; left. exists st, es. split; [left; reflexivity|exact Hu].
  - destruct (block_evidence p c maxnum es) as [p1 r1] eqn:Hb.
    pose proof (proj1 (block_evidence_spec _ _ _ _ _ _ Hb)) as Hg.
    destruct r1; try (intros [= <- <-]; split; [reflexivity|]; exists p1; split; [exact Hg|left; reflexivity]).
    destruct (update p1 st es) as [p2 r2] eqn:Hu. intros [= <- <-]. split; [reflexivity|].
    exists p1. split; [exact Hg|]. right; left. exists st, es. split; [right; exists maxnum; reflexivity|exact Hu].
  - destruct (restart p st) as [p' r] eqn:Hr. intros [= <- <-]. split; [reflexivity|].
    exists p. split; [apply grows_refl|]. right; right. exists st. split; [reflexivity|exact Hr].
  - destruct (try_add_vote_gen cs hash size va vb) as [| |e] eqn:Hgen;
      try (intros [= <- <-]; split; [reflexivity|]; exists p; split; [apply grows_refl|left; reflexivity]).
    pose proof (add_from_consensus_grows p e) as Hg. destruct (add_from_consensus p e) as [p' r].
    intros [= <- <-]. split; [reflexivity|]. exists p'. split; [|left; reflexivity].
    apply (grows_trans _ _ _ _ _ (grows_refl _ _) Hg). intros x <-. exact Hgen.
Qed.

(** a successful ApplyBlock is a successful validation followed by a successful Update *)
Lemma step_apply_ok n mx st es n' ob :
  step n (OpApply mx st es) = (n', ob) -> o_res ob = ROk ->
  exists p1, block_evidence (n_pool n) (n_chain n) mx es = (p1, ROk) /\ update p1 st es = (n_pool n', ROk).
Proof.
  cbn [step]. destruct (block_evidence (n_pool n) (n_chain n) mx es) as [p1 r1] eqn:Hb.
  destruct r1; try (intros [= <- <-]; cbn [o_res mk_obs]; discriminate).
  destruct (update p1 st es) as [p2 r2] eqn:Hu. intros [= <- <-]. cbn [o_res mk_obs n_pool]. intros ->.
  exists p1. auto.
Qed.

Lemma step_chain_le cid n o : op_ok cid n o -> chain_le (n_chain n) (step_chain (n_chain n) o).
Proof.
  destruct o; cbn [op_ok step_chain]; intros Hok; try apply chain_le_refl.
  - apply chain_le_meta, Hok.
  - apply chain_le_vals, Hok.
Qed.

(** with the environment's guarantees, what an operation adds is sound and not committed *)
Lemma added_ok cid n o x :
  Inv cid n -> op_ok cid n o -> added n o x -> sound cid (n_chain n) x /\ is_committed (n_pool n) x = false.
Proof.
  intros [Hc _] Hok. destruct o; cbn [added op_ok] in *; try contradiction;
    try apply verified_sound, Hc.
  - intros <-. exact Hok.
  - apply Hok.
Qed.

Lemma step_inv cid n o n' ob :
  Inv cid n -> op_ok cid n o -> step n o = (n', ob) ->
  Inv cid n' /\ chain_le (n_chain n) (n_chain n') /\
  (forall k, In k (p_committed (n_pool n)) -> In k (p_committed (n_pool n'))).
Proof.
  intros Hinv Hok Hs. destruct (step_cases _ _ _ _ Hs) as (Hch & q & Hg & Hcase).
  pose proof (step_chain_le cid n o Hok) as Hle. rewrite <- Hch in Hle.
  assert (Hq : pool_inv cid (n_chain n) q).
  { apply (pool_inv_grows cid _ _ _ q Hinv Hg). intros x. apply added_ok; assumption. }
  assert (Hp' : pool_inv cid (n_chain n) (n_pool n') /\
                (forall k, In k (p_committed q) -> In k (p_committed (n_pool n')))).
  { destruct Hcase as [->|[(st & es & Ho & Hu)|(st & -> & Hr)]]; [auto| |].
    - refine (pool_inv_update cid _ q st es _ _ Hq _ Hu). destruct Ho as [->|[mx ->]]; exact Hok.
    - exact (pool_inv_restart cid _ q st _ _ Hq Hok Hr). }
  split; [exact (pool_inv_mono cid _ _ _ Hle (proj1 Hp'))|]. split; [exact Hle|].
  intros k Hk. apply Hp'. destruct Hg as (_ & -> & _). exact Hk.
Qed.

Lemma ops_ok_cons cid n o t n1 ob :
  step n o = (n1, ob) -> ops_ok cid n (o :: t) -> op_ok cid n o /\ ops_ok cid n1 t.
Proof. intros Hs [Ho Ht]. rewrite Hs in Ht. auto. Qed.

Lemma run_inv cid : forall ops n n' obs,
  Inv cid n -> ops_ok cid n ops -> run n ops = (n', obs) ->
  Inv cid n' /\ chain_le (n_chain n) (n_chain n').
Proof.
  induction ops as [|o t IH]; intros n n' obs Hinv Hok; cbn [run].
  - intros H; inversion H; subst. split; auto. apply chain_le_refl.
  - destruct (step n o) as [n1 ob] eqn:Hs. destruct (run n1 t) as [n2 obs2] eqn:Hr.
    intros H; inversion H; subst; clear H.
    destruct (ops_ok_cons _ _ _ _ _ _ Hs Hok) as [Ho Ht].
    destruct (step_inv _ _ _ _ _ Hinv Ho Hs) as [Hi1 [Hle1 _]].
    destruct (IH _ _ _ Hi1 Ht Hr) as [Hi2 Hle2]. split; auto.
    destruct Hle1 as [A1 B1], Hle2 as [A2 B2]. split; auto.
Qed.

Lemma accept_peer cid n e p' :
  Inv cid n -> peer_evidence (n_pool n) (n_chain n) e = (p', ROk) ->
  is_pending (n_pool n) e = false -> is_committed (n_pool n) e = false ->
  validate_basic e = true /\ sound cid (n_chain n) e /\
  ~ expired (p_state (n_pool n)) (e_height e) (e_time e) /\ is_pending p' e = true.
Proof.
  intros [Hc _] H Hnp Hnc. unfold peer_evidence in H.
  destruct (validate_basic e); [|discriminate]. split; auto.
  unfold add_evidence in H. rewrite Hnp, Hnc in H.
  destruct (verify (n_pool n) (n_chain n) e) eqn:Hv; try discriminate.
  inversion H; subst p'. apply verify_ok in Hv. rewrite Hc in Hv. destruct Hv as [Hs He].
  split; auto. split; auto.
  unfold is_pending. cbn [p_pending push_list set_list add_pending set_size set_pending].
  apply put_pending_has.
Qed.

(** Evidence accepted inside a block is either verified now, or has the key (height, hash of
    the bytes) of a pending entry that was verified (or handed over by consensus) earlier; the
    entry is the same evidence unless two different byte strings have the same Keccak hash. *)
Lemma accept_block cid n mx es p' :
  Inv cid n -> block_evidence (n_pool n) (n_chain n) mx es = (p', ROk) ->
  NoDup (map ekey es) /\
  forall e, In e es ->
    validate_basic e = true /\ is_committed (n_pool n) e = false /\
    ((sound cid (n_chain n) e /\ ~ expired (p_state (n_pool n)) (e_height e) (e_time e)) \/
     (exists x, In x (p_pending (n_pool n)) /\ ekey x = ekey e /\ sound cid (n_chain n) x /\
                is_expired (p_state (n_pool n)) (e_height e) (e_time e) = false)).
Proof.
  intros Hinv H. apply block_evidence_spec in H. destruct H as [_ Hok].
  destruct (Hok eq_refl) as [Hb [Hnd Hall]]. split.
  - (* [e_hash] is the second component of [ekey] *)
    clear - Hnd. induction es as [|e t IH]; cbn [map] in *; [constructor|].
    inversion Hnd; subst. constructor; auto.
    intros Hi. apply H1. apply in_map_iff in Hi. destruct Hi as [x [Hx Hi]].
    apply in_map_iff. exists x. split; auto. unfold ekey in Hx. inversion Hx; auto.
  - intros e He. rewrite forallb_forall in Hb. split; [apply Hb; auto|].
    destruct (Hall e He) as [[Hp Hne]|[Hn Hv]].
    + split; [exact (pool_inv_pending_not_committed _ _ _ _ Hinv Hp)|].
      apply is_pending_In in Hp. destruct Hp as (x & Hx & Hk).
      right. exists x. split; [exact Hx|]. split; [exact Hk|]. split; [apply Hinv, Hx|exact Hne].
    + apply verify_ok in Hv. rewrite (proj1 Hinv) in Hv. destruct Hv as [Hso Hex]. auto.
Qed.

Lemma accept_sound_partial_all :
  forall cid n0 ops n obs,
    Inv cid n0 -> ops_ok cid n0 ops -> run n0 ops = (n, obs) ->
    Inv cid n /\
    (forall e p', peer_evidence (n_pool n) (n_chain n) e = (p', ROk) ->
       is_pending (n_pool n) e = false -> is_committed (n_pool n) e = false ->
       validate_basic e = true /\ sound cid (n_chain n) e /\
       ~ expired (p_state (n_pool n)) (e_height e) (e_time e) /\ is_pending p' e = true) /\
    (forall mx es p', block_evidence (n_pool n) (n_chain n) mx es = (p', ROk) ->
       NoDup (map ekey es) /\
       forall e, In e es ->
         validate_basic e = true /\ is_committed (n_pool n) e = false /\
         ((sound cid (n_chain n) e /\ ~ expired (p_state (n_pool n)) (e_height e) (e_time e)) \/
          (exists x, In x (p_pending (n_pool n)) /\ ekey x = ekey e /\ sound cid (n_chain n) x /\
                     is_expired (p_state (n_pool n)) (e_height e) (e_time e) = false))).
Proof.
  intros cid n0 ops n obs Hi Hok Hr.
  destruct (run_inv cid ops n0 n obs Hi Hok Hr) as [Hn _].
  split; [exact Hn|]. split.
  - intros e p'. exact (accept_peer cid n e p' Hn).
  - intros mx es p'. exact (accept_block cid n mx es p' Hn).
Qed.
