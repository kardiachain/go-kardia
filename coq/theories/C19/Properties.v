(** C19 — property theorems only.  Each is closed by [exact] of a lemma proved in Proofs*.v
    and followed by [Print Assumptions].

    Vocabulary (definitions in ProofsVerify.v / ProofsHistory.v / ProofsOnce.v / ProofsRefuted.v):
    - [double_sign cid c e]: two votes, same height / round / type / validator address,
      different block ids, both signatures valid for that validator (ideal signatures over
      chain id, type, height, round, block id, vote time), the validator is a member of the set
      the chain view [c] has for the evidence height, with exactly the stated power, and the
      stated total is that set's total;  [timed c e]: the evidence timestamp is the header time
      of the block of its height;  [sound] = both;
    - [expired st h t]: older than MaxAgeNumBlocks blocks AND older than MaxAgeDuration
      (verify.go's rule, int64 / saturating time.Sub semantics);
    - [Inv cid n]: every pending entry of node [n] is [sound] and none is marked committed;
      it holds for a pool without pending entries (e.g. [node0]) and is preserved by every operation
      ([C19_accept_sound_partial]);
    - [ops_ok cid n ops]: the environment's obligations along a history: stores are append-only,
      states given to Update / NewPool belong to this chain, and consensus hands over only
      evidence that is [sound] and not committed.  The last one is the generator's obligation:
      [C19_generated_accepted] says what discharges it, [C19_generated_accepted_refuted] that
      tryAddVote does not;
    - [commit_log n ops]: the keys (height, hash of the evidence bytes) marked committed by the
      successful ApplyBlock operations of the history, in order. *)
From Coq Require Import List ZArith NArith Bool.
From Kardia Require Import Base.Int64 C19.Model C19.ProofsBasic C19.ProofsVerify C19.ProofsPool
     C19.ProofsHistory C19.ProofsOnce C19.ProofsExamples C19.ProofsRefuted Generated.C19Facts
     C19.ProofsExact C19.ProofsOnceSign C19.ProofsAgree C19.Open C19.ProofsNewExamples C19.ProofsCounter.
Import ListNotations.
Local Open Scope Z_scope.

(** Pool.verify = VOk means exactly what the property asks of evidence. *)
Theorem C19_verify_sound :
  forall p c e, verify p c e = VOk ->
    sound (st_chain (p_state p)) c e /\ ~ expired (p_state p) (e_height e) (e_time e).
Proof. exact verify_ok. Qed.
Print Assumptions C19_verify_sound.

(** In every state reachable by any history of store writes, peer evidence, consensus
    evidence, block validations, PendingEvidence, Update, ApplyBlock, restarts and consensus
    generation: the invariant holds; evidence newly accepted from a peer passed ValidateBasic,
    is a real double-signing with its block's time, is not expired and is now pending; every
    piece of evidence of an accepted block passed ValidateBasic, is not marked committed, does
    not occur twice in the block, and is either verified now (sound, not expired) or has the
    key of a pending entry that is sound (the same bytes unless Keccak collides).
    [double_sign] includes that both votes carry the validator's index in that set.
    PARTIAL with respect to the property text in one respect: evidence coming from consensus is
    not verified by the pool (a hypothesis in [ops_ok]); [C19_generated_accepted_refuted] shows
    tryAddVote does not discharge it. *)
Theorem C19_accept_sound_partial :
  forall cid n0 ops n obs,
    Inv cid n0 -> ops_ok cid n0 ops -> run n0 ops = (n, obs) ->
    Inv cid n /\
    (forall e p', peer_evidence (n_pool n) (n_chain n) e = (p', ROk) ->
       is_pending (n_pool n) e = false -> is_committed (n_pool n) e = false ->
       validate_basic e = true /\ sound cid (n_chain n) e /\
       ~ expired (p_state (n_pool n)) (e_height e) (e_time e) /\ is_pending p' e = true) /\
    (forall mx es p', block_evidence (n_pool n) (n_chain n) mx es = (p', ROk) ->
       NoDup (map ekey es) /\
       forall e, In e es ->
         validate_basic e = true /\ is_committed (n_pool n) e = false /\
         ((sound cid (n_chain n) e /\ ~ expired (p_state (n_pool n)) (e_height e) (e_time e)) \/
          (exists x, In x (p_pending (n_pool n)) /\ ekey x = ekey e /\ sound cid (n_chain n) x /\
                     is_expired (p_state (n_pool n)) (e_height e) (e_time e) = false))).
Proof. exact accept_sound_partial_all. Qed.
Print Assumptions C19_accept_sound_partial.

Theorem C19_accept_sound_satisfiable : Inv 1 node0 /\ sound 1 chain2 evOK /\
  map o_res (snd (run node0 history1)) = [ROk; ROk; ROk; ROk; ROk; RCommitted].
Proof. exact (conj node0_inv (conj evOK_sound (proj1 history1_results))). Qed.
Print Assumptions C19_accept_sound_satisfiable.

(** No history marks the same evidence (key = height and hash of the bytes) committed twice,
    and none that was committed before the history started; CheckEvidence rejects a list that
    contains evidence marked committed, and a list with a repeated hash. *)
Theorem C19_once :
  forall cid n ops,
    Inv cid n -> ops_ok cid n ops -> no_raw_update ops ->
    NoDup (commit_log n ops) /\
    (forall k, In k (commit_log n ops) -> ~ In k (p_committed (n_pool n))) /\
    (forall es e, In e es -> is_committed (n_pool n) e = true ->
                  snd (check_evidence (n_pool n) (n_chain n) es) <> ROk) /\
    (forall es, snd (check_evidence (n_pool n) (n_chain n) es) = ROk -> NoDup (map e_hash es)).
Proof. exact once_all. Qed.
Print Assumptions C19_once.

(** the same two signed votes with another validator index (another hash and key) are rejected
    after the original was committed (commit be61253) *)
Theorem C19_replay_with_other_index_rejected :
  v_sig (e_a evReplay) = v_sig (e_a evOK) /\ v_sig (e_b evReplay) = v_sig (e_b evOK) /\
  map o_res (snd (run node0 history_replay)) =
    [ROk; ROk; ROk; ROk; RInvalid VIndex; RInvalid VIndex] /\
  commit_log node0 history_replay = [(2, 500%N)].
Proof. exact replay_with_other_index_rejected. Qed.
Print Assumptions C19_replay_with_other_index_rejected.

(** ... and the hypothesis on consensus evidence in [ops_ok] is needed: AddEvidenceFromConsensus
    does not consult the committed family *)
Theorem C19_once_needs_fresh_consensus_evidence :
  commit_log node0 history_cons = [(2, 500%N); (2, 500%N)].
Proof. exact cons_of_committed_evidence_commits_twice. Qed.
Print Assumptions C19_once_needs_fresh_consensus_evidence.

(** PARTIAL: C19_generated_accepted holds under the hypothesis that the generator uses the
    header time of the block of the votes' height and the validator set of that height (with
    the votes carrying the validator's index in that set); [C19_generated_accepted_refuted]
    shows that tryAddVote does not.
    Evidence built by NewDuplicateVoteEvidence from two votes a vote set reports as
    conflicting, with the validator set of their height and THE HEADER TIME OF THE BLOCK OF
    THEIR HEIGHT, passes ValidateBasic and the verify of every pool over the same chain for
    which it has not expired; and no other timestamp is accepted. *)
Theorem C19_generated_accepted_partial :
  (forall p c hash size va vb ts vs,
     conflicting_votes (st_chain (p_state p)) va vb ->
     vals_at c (Z.of_N (v_height va)) = Some vs ->
     (exists idx val, find_idx (v_addr va) vs 0 = Some (idx, val) /\ v_idx va = idx /\ v_idx vb = idx) ->
     block_time c (Z.of_N (v_height va)) = Some ts ->
     ~ expired (p_state p) (Z.of_N (v_height va)) ts ->
     exists e, new_duplicate_vote_evidence hash size va vb ts vs = Some e /\
               validate_basic e = true /\ verify p c e = VOk) /\
  (forall p c hash size va vb ts vs e,
     new_duplicate_vote_evidence hash size va vb ts vs = Some e ->
     verify p c e = VOk -> e_time e = ts /\ block_time c (e_height e) = Some ts).
Proof. exact (conj generated_verifies generated_needs_block_time). Qed.
Print Assumptions C19_generated_accepted_partial.

(** tryAddVote uses the weighted median of the node's own LastCommit (and cs.Validators):
    its evidence is rejected by a node whose block of that height carries another median *)
Theorem C19_generated_accepted_refuted : ~ consensus_generates_acceptable.
Proof. exact consensus_generates_acceptable_refuted. Qed.
Print Assumptions C19_generated_accepted_refuted.

Theorem C19_tryaddvote_late_precommit_rejected :
  exists e, try_add_vote_gen csA2 78 380 lateX lateY = GEvidence e /\
            e_height e = 1 /\ e_time e = 102 /\ block_time chain2 1 = Some 100 /\
            verify poolB chain2 e = VTime.
Proof. exact tryaddvote_late_rejected. Qed.
Print Assumptions C19_tryaddvote_late_precommit_rejected.

Theorem C19_tryaddvote_nil_evidence : try_add_vote_gen csA3 78 380 lateX lateY = GNil.
Proof. exact tryaddvote_nil. Qed.
Print Assumptions C19_tryaddvote_nil_evidence.

(** A pending entry leaves the pending family only in an Update / ApplyBlock that commits its
    key, or in an Update / ApplyBlock / restart against whose state it has expired; and
    PendingEvidence(-1) returns the whole family. *)
Theorem C19_pending_until_committed :
  (forall n o n' ob k,
     step n o = (n', ob) -> has_key k (p_pending (n_pool n)) = true ->
     has_key k (p_pending (n_pool n')) = true \/
     In k (map ekey (op_commits o)) \/
     (exists st e, op_state o = Some st /\ In e (p_pending (n_pool n)) /\ ekey e = k /\
                   is_expired st (e_height e) (e_time e) = true)) /\
  (forall p, forallb validate_basic (p_pending p) = true -> p_size p <> 0 ->
             fst (pending_evidence p (-1)) = p_pending p).
Proof. exact (conj step_pending pending_evidence_all). Qed.
Print Assumptions C19_pending_until_committed.

(** the proposer's selection: with a byte cap that has room for the first pending entry (the default
    cap is the 104857-byte budget since commit e536522) at least that entry is proposed *)
Theorem C19_pending_proposed :
  forall p e t cap,
    p_pending p = e :: t -> p_size p <> 0 -> forallb validate_basic (p_pending p) = true ->
    wrap64 (0 + 1 + e_size e + sov (e_size e)) <= cap ->
    exists l, fst (pending_evidence p cap) = e :: l.
Proof. exact pending_first_proposed. Qed.
Print Assumptions C19_pending_proposed.

(** source constants (regenerated on every run) *)
Theorem C19_source_constants :
  default_max_age_num_blocks = 100000 /\ default_max_age_duration = 172800000000000 /\
  default_proposal_pending_cap = default_evidence_max_bytes / max_evidence_bytes_denominator /\
  default_proposal_evidence_count = default_proposal_pending_cap / max_evidence_bytes.
Proof. exact source_constants_all. Qed.
Print Assumptions C19_source_constants.

(** EXACTNESS ("evidence is accepted exactly for real double-signing"): Pool.verify succeeds if AND ONLY IF
    the evidence is a real double-signing carrying its block's time that has not expired. *)
Theorem C19_verify_exact :
  forall p c e, verify p c e = VOk <->
    (sound (st_chain (p_state p)) c e /\ ~ expired (p_state p) (e_height e) (e_time e)).
Proof. exact verify_exact. Qed.
Print Assumptions C19_verify_exact.

(** THE CONVERSE DIRECTION of the property at the pool: every real, timely double-signing that passes
    ValidateBasic is accepted from a peer (and is pending afterwards unless already committed), and a block
    whose evidence is well-formed, within the count limit, without repetition, and each piece of which is
    [acceptable] (sound, not expired under either of the code's two rules, not committed) is accepted. *)
Theorem C19_sound_accepted :
  (forall p c e, validate_basic e = true -> sound (st_chain (p_state p)) c e ->
     ~ expired (p_state p) (e_height e) (e_time e) ->
     snd (peer_evidence p c e) = ROk /\
     (is_committed p e = false -> is_pending (fst (peer_evidence p c e)) e = true)) /\
  (forall p c mx es, forallb validate_basic es = true -> Z.of_nat (length es) <= mx -> NoDup (map e_hash es) ->
     (forall e, In e es -> acceptable p c e) -> snd (block_evidence p c mx es) = ROk).
Proof. exact (conj peer_accepts_sound block_accepts_sound). Qed.
Print Assumptions C19_sound_accepted.

(** AGREEMENT: two correct nodes (pending entries sound and not committed) with the same latest state and
    committed family give the same verdict on the evidence of every proposed block, whatever each of them
    has pending -- given that keys identify evidence on the universe [U] (no Keccak collision) and sane
    magnitudes (heights below 2^63, 0 <= MaxAgeNumBlocks, evidence not about the future). *)
Theorem C19_block_validity_agreed :
  forall (U : evidence -> Prop), (forall x y, U x -> U y -> ekey x = ekey y -> x = y) ->
  forall cid c p q mx es,
    pool_inv cid c p -> pool_inv cid c q -> p_state p = p_state q -> p_committed p = p_committed q ->
    (forall x, In x (p_pending p) -> U x) -> (forall x, In x (p_pending q) -> U x) -> (forall e, In e es -> U e) ->
    sane (p_state p) -> (forall e, In e es -> e_height e <= st_height (p_state p)) ->
    (snd (block_evidence p c mx es) = ROk <-> snd (block_evidence q c mx es) = ROk).
Proof. exact block_evidence_agreed. Qed.
Print Assumptions C19_block_validity_agreed.

(** ... and the bound on the magnitudes is needed: the statement without it (Open.v) fails for a negative
    MaxAgeNumBlocks, where isExpired (uint64) and verify (int64) disagree *)
Theorem C19_block_validity_agreed_literal_refuted : ~ block_validity_agreed_literal.
Proof. exact literal_block_validity_agreed_refuted. Qed.
Print Assumptions C19_block_validity_agreed_literal_refuted.

(** NEVER TWICE, per double-signing: along any history (evidence reaching Update only through ApplyBlock,
    consensus handing over only sound uncommitted evidence), two committed pieces of evidence that carry the
    same two signatures have the same votes (incl. validator indices), powers and timestamp; if their hashes
    agree (the hash is a function of the content) they are one evidence; and no key is committed twice. *)
Theorem C19_once_per_double_sign :
  forall (U : evidence -> Prop), (forall x y, U x -> U y -> ekey x = ekey y -> x = y) ->
  forall cid n ops n' obs e1 e2,
    Inv cid n -> ops_ok cid n ops -> no_raw_update ops -> pend_in U n -> ops_in U ops ->
    run n ops = (n', obs) ->
    In e1 (commit_evs n ops) -> In e2 (commit_evs n ops) ->
    v_sig (e_a e1) = v_sig (e_a e2) -> v_sig (e_b e1) = v_sig (e_b e2) ->
    (e_a e1 = e_a e2 /\ e_b e1 = e_b e2 /\ e_total e1 = e_total e2 /\ e_power e1 = e_power e2 /\
     e_time e1 = e_time e2) /\
    (e_hash e1 = e_hash e2 -> e1 = e2) /\
    NoDup (map ekey (commit_evs n ops)).
Proof. exact once_per_double_sign_faithful. Qed.
Print Assumptions C19_once_per_double_sign.

Theorem C19_new_hypotheses_satisfiable :
  (pend_in U1 node0 /\ ops_in U1 history1 /\ no_raw_update history1 /\ commit_evs node0 history1 = [evOK]) /\
  (pool_inv 1 chain2 holder2 /\ pool_inv 1 chain2 poolB /\ p_state holder2 = p_state poolB /\
   p_committed holder2 = p_committed poolB /\ sane (p_state holder2) /\
   (forall x, In x (p_pending holder2) -> U1 x) /\
   snd (check_evidence holder2 chain2 [evOK]) = ROk /\ snd (check_evidence poolB chain2 [evOK]) = ROk).
Proof. exact (conj once_sign_hypotheses agree_hypotheses). Qed.
Print Assumptions C19_new_hypotheses_satisfiable.

(** Update with a state that is not newer than the pool's (the sanity check) changes nothing; with a newer
    one it succeeds and installs the state. *)
Theorem C19_stale_update_rejected :
  (forall p st evs, st_height st <= st_height (p_state p) -> update p st evs = (p, RPanic)) /\
  (forall p st evs, st_height (p_state p) < st_height st ->
     snd (update p st evs) = ROk /\ p_state (fst (update p st evs)) = st).
Proof. exact (conj update_stale update_fresh_state). Qed.
Print Assumptions C19_stale_update_rejected.

(** The proposer's selection under a byte cap: PendingEvidence returns exactly the longest prefix of the
    pending family (key order) whose protobuf size, as listEvidence accumulates it, does not exceed the cap
    -- every non-empty prefix up to it fits and the next entry does not; when everything fits, everything
    is returned. *)
Theorem C19_pending_cap_prefix :
  (forall p cap, cap <> -1 -> forallb validate_basic (p_pending p) = true -> p_size p <> 0 ->
     let k := fit cap 0 (p_pending p) in
     pending_evidence p cap = (firstn k (p_pending p), cum_size 0 (firstn k (p_pending p))) /\
     (forall j, (1 <= j <= k)%nat -> cum_size 0 (firstn j (p_pending p)) <= cap) /\
     ((k < length (p_pending p))%nat -> cap < cum_size 0 (firstn (S k) (p_pending p)))) /\
  (forall p cap, cap <> -1 -> forallb validate_basic (p_pending p) = true -> p_size p <> 0 ->
     (forall j, (1 <= j <= length (p_pending p))%nat -> cum_size 0 (firstn j (p_pending p)) <= cap) ->
     fst (pending_evidence p cap) = p_pending p).
Proof. exact (conj pending_evidence_cap pending_evidence_all_fit). Qed.
Print Assumptions C19_pending_cap_prefix.

(** THE COUNTER evidenceSize (PendingEvidence answers "nothing" when it is 0): starting from a fresh pool,
    after any history of operations none of which is a failed NewPool (a node that cannot start), the keys of
    the pending family are unique and the counter is the size of the family mod 2^32; below 2^32 entries it
    is the size, it is 0 only for an empty family, PendingEvidence(-1) lists the whole family, and a
    successful restart reloads the gossip list from the family. *)
Theorem C19_size_counter_exact :
  (forall st, counted (empty_pool st)) /\
  (forall ops n, counted (n_pool n) -> (forall ob, In ob (snd (run n ops)) -> o_res ob <> RErr) ->
     counted (n_pool (fst (run n ops)))) /\
  (forall p, counted p -> Z.of_nat (length (p_pending p)) < 4294967296 ->
     p_size p = Z.of_nat (length (p_pending p)) /\ (p_size p = 0 <-> p_pending p = [])) /\
  (forall p, counted p -> Z.of_nat (length (p_pending p)) < 4294967296 ->
     forallb validate_basic (p_pending p) = true -> fst (pending_evidence p (-1)) = p_pending p) /\
  (forall p st p', restart p st = (p', ROk) ->
     p_list p' = p_pending p' /\ p_size p' = wrapu32 (Z.of_nat (length (p_pending p')))).
Proof.
  exact (conj empty_pool_counted (conj run_counted (conj counted_exact
          (conj pending_evidence_all_counted restart_reloads)))).
Qed.
Print Assumptions C19_size_counter_exact.

(** SOURCE TIE: the model's guards and arithmetic ARE the expressions of the Go source (regenerated by
    go2coq on every check): MaxEvidencePerBlock, validateBlock's count limit, Pool.verify's expiry test and
    every check of VerifyDuplicateVote in the source's order, isExpired, Update's sanity check and pruning
    condition, the next pruning height, listEvidence's byte cap, PendingEvidence's shortcut, every branch of
    one CheckEvidence step (fastCheck, expiry on the fast path, committed?, verify, duplicate scan),
    AddEvidence / AddEvidenceFromConsensus / markEvidenceAsCommitted's pending and committed tests,
    ValidateBasic (incl. the two valid vote types) / NewDuplicateVoteEvidence's ordering, WeightedMedian /
    MedianTime and tryAddVote's evidence branch (statement spelled out in SourceTie.v). *)
From Kardia Require Import C19.SourceTie.
Theorem C19_source_tie : C19_source_tie_statement.
Proof. exact C19_source_tie_proof. Qed.
Print Assumptions C19_source_tie.

Theorem C19_source_atoms : C19_source_atoms_statement.
Proof. exact C19_source_atoms_proof. Qed.
Print Assumptions C19_source_atoms.

(** The decision-critical functions of the anchored code have exactly the decisions the source tie knows about
    (go2coq manifests, regenerated from /repo on every check; statement in SourceManifest.v). *)
From Kardia Require Import C19.SourceManifest.
Theorem C19_source_manifest : C19_source_manifest_statement.
Proof. exact C19_source_manifest_proof. Qed.
Print Assumptions C19_source_manifest.
