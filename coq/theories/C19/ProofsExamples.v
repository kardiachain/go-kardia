(** C19 — concrete instances: the hypotheses of the theorems are satisfiable, and the places
    where the code does NOT establish them (each one reproduced on the real code by the harness,
    see TestVerifC19Repro). *)
From Coq Require Import List ZArith NArith Bool Lia.
From Kardia Require Import Base.Int64 C19.Model C19.ProofsBasic C19.ProofsVerify C19.ProofsPool
     C19.ProofsHistory C19.ProofsOnce.
From Kardia Require Import Generated.C19Facts.
Import ListNotations.
Local Open Scope Z_scope.

(** four validators of power 10, chain id 1 *)
Definition vals4 : list validator :=
  [ {| val_addr := 1; val_power := 10 |}; {| val_addr := 2; val_power := 10 |};
    {| val_addr := 3; val_power := 10 |}; {| val_addr := 4; val_power := 10 |} ].

Definition bidX : blockid := {| b_hash := 11; b_total := 1; b_phash := 12 |}.
Definition bidY : blockid := {| b_hash := 21; b_total := 1; b_phash := 22 |}.

(** a vote of [addr] with a genuine signature of [addr]'s key over its content *)
Definition mkvote (idx addr h r ty : N) (t : Z) (b : blockid) (sid : N) : vote :=
  {| v_idx := idx; v_addr := addr; v_height := h; v_round := r; v_type := ty; v_time := t; v_bid := b;
     v_sig := {| s_id := sid; s_empty := false; s_signer := addr; s_chain := 1; s_type := ty;
                 s_height := h; s_round := r; s_bid := b; s_time := t |} |}.

Definition params_small : params := {| max_age_blocks := 100000; max_age_dur := 172800000000000 |}.
Definition st_at (h t : Z) : pstate := {| st_height := h; st_time := t; st_params := params_small; st_chain := 1 |}.

(** chain: block 1 at time 100, block 2 at time 103 (the weighted median of the precommits
    {102,103,104} its proposer saw), validator set vals4 at heights 1 and 2 *)
Definition chain2 : chain :=
  {| ch_times := [(1, 100); (2, 103)]; ch_vals := [(1, vals4); (2, vals4)] |}.

(** validator 4 prevotes two blocks at height 2, round 1 *)
Definition voteX : vote := mkvote 3 4 2 1 1 110 bidX 1.
Definition voteY : vote := mkvote 3 4 2 1 1 110 bidY 2.

Lemma votes_conflict : conflicting_votes 1 voteX voteY.
Proof. unfold conflicting_votes. repeat split; vm_compute; reflexivity. Qed.

(** node A saw the precommits of validators 1,2,3 for block 1 (times 101,102,103) *)
Definition csA : csview :=
  {| cs_init_height := 1; cs_last_block_time := 100;
     cs_last_commit := [(1%N, 101); (2%N, 102); (3%N, 103)];
     cs_last_vals := vals4; cs_vals := vals4; cs_me := 9 |}.

Definition poolB : pool := empty_pool (st_at 2 103).

(** the hypotheses of [generated_verifies] are satisfiable: with the block's time the
    evidence is accepted *)
Example good_generation_accepted :
  exists e, new_duplicate_vote_evidence 77 380 voteX voteY 103 vals4 = Some e /\
            validate_basic e = true /\ verify poolB chain2 e = VOk.
Proof. eexists. split; [reflexivity|]. split; vm_compute; reflexivity. Qed.

(** what tryAddVote does: the timestamp is the weighted median of the node's OWN last
    commit (102 here), the header of block 2 carries the proposer's (103): node B rejects. *)
Example tryaddvote_timestamp_rejected :
  exists e, try_add_vote_gen csA 77 380 voteX voteY = GEvidence e /\
            e_time e = 102 /\ block_time chain2 (e_height e) = Some 103 /\
            validate_basic e = true /\ verify poolB chain2 e = VTime.
Proof. eexists. split; [reflexivity|]. repeat split; vm_compute; reflexivity. Qed.

(** a late conflicting precommit for height 1 while the node is in NewHeight of height 2:
    the timestamp is again the median of LastCommit (= would-be time of block 2), never the
    time of block 1 *)
Definition lateX : vote := mkvote 2 3 1 1 2 103 bidX 3.
Definition lateY : vote := mkvote 2 3 1 1 2 104 bidY 4.
Definition csA2 : csview :=
  {| cs_init_height := 0; cs_last_block_time := 100;
     cs_last_commit := [(1%N, 101); (2%N, 102); (3%N, 103)];
     cs_last_vals := vals4; cs_vals := vals4; cs_me := 9 |}.
Example tryaddvote_late_rejected :
  exists e, try_add_vote_gen csA2 78 380 lateX lateY = GEvidence e /\
            e_height e = 1 /\ e_time e = 102 /\ block_time chain2 1 = Some 100 /\
            verify poolB chain2 e = VTime.
Proof. eexists. split; [reflexivity|]. repeat split; vm_compute; reflexivity. Qed.

(** ... and when the equivocator has left the validator set of the current height,
    NewDuplicateVoteEvidence returns nil, which AddEvidenceFromConsensus dereferences *)
Definition csA3 : csview :=
  {| cs_init_height := 0; cs_last_block_time := 100;
     cs_last_commit := [(1%N, 101); (2%N, 102); (3%N, 103)];
     cs_last_vals := vals4;
     cs_vals := [ {| val_addr := 1; val_power := 10 |}; {| val_addr := 2; val_power := 10 |} ];
     cs_me := 9 |}.
Example tryaddvote_nil : try_add_vote_gen csA3 78 380 lateX lateY = GNil.
Proof. reflexivity. Qed.

Definition evOK : evidence :=
  {| e_hash := 500; e_size := 380; e_a := voteX; e_b := voteY; e_total := 40; e_power := 10; e_time := 103 |}.

Definition node0 : node := {| n_chain := chain2; n_pool := empty_pool (st_at 2 103) |}.

Lemma node0_inv : Inv 1 node0.
Proof. split; [reflexivity|]. split; intros e []. Qed.

Definition history1 : list op :=
  [ OpPeer evOK; OpSaveMeta 3 106; OpSaveVals 3 vals4; OpApply 100 (st_at 3 106) [evOK];
    OpPeer evOK; OpBlock 100 [evOK] ].

Example history1_results :
  map o_res (snd (run node0 history1)) = [ROk; ROk; ROk; ROk; ROk; RCommitted] /\
  p_pending (n_pool (fst (run node0 history1))) = [] /\
  p_committed (n_pool (fst (run node0 history1))) = [(2, 500%N)] /\
  commit_log node0 history1 = [(2, 500%N)].
Proof. repeat split; vm_compute; reflexivity. Qed.

(** [verify] accepts it at node B, and what [verify] accepts is sound *)
Lemma evOK_sound : sound 1 chain2 evOK.
Proof. apply (verify_ok poolB chain2 evOK). vm_compute. reflexivity. Qed.

(** the validator index is not signed, but it is part of the evidence bytes, hence of the
    hash and of the database key: the same two signed votes with another index would be "new"
    evidence after the first was committed.  Since commit be61253 VerifyDuplicateVote requires
    both indices to be the validator's index in the set of that height. *)
Definition evReplay : evidence :=
  {| e_hash := 501; e_size := 380; e_a := mkvote 7 4 2 1 1 110 bidX 1; e_b := voteY;
     e_total := 40; e_power := 10; e_time := 103 |}.

Definition history_replay : list op :=
  [ OpPeer evOK; OpSaveMeta 3 106; OpSaveVals 3 vals4; OpApply 100 (st_at 3 106) [evOK];
    OpPeer evReplay; OpBlock 100 [evReplay] ].

Example replay_with_other_index_rejected :
  v_sig (e_a evReplay) = v_sig (e_a evOK) /\ v_sig (e_b evReplay) = v_sig (e_b evOK) /\
  map o_res (snd (run node0 history_replay)) =
    [ROk; ROk; ROk; ROk; RInvalid VIndex; RInvalid VIndex] /\
  commit_log node0 history_replay = [(2, 500%N)].
Proof. repeat split; vm_compute; reflexivity. Qed.

(** AddEvidenceFromConsensus does not look at the committed family: if consensus handed
    over evidence that is already committed (excluded by [op_ok]), the fast path of
    CheckEvidence would let it be committed a second time. *)
Definition history_cons : list op :=
  [ OpPeer evOK; OpSaveMeta 3 106; OpSaveVals 3 vals4; OpApply 100 (st_at 3 106) [evOK];
    OpCons evOK; OpSaveMeta 4 109; OpSaveVals 4 vals4; OpApply 100 (st_at 4 109) [evOK] ].
Example cons_of_committed_evidence_commits_twice :
  commit_log node0 history_cons = [(2, 500%N); (2, 500%N)].
Proof. vm_compute. reflexivity. Qed.

Lemma source_constants_all :
  default_max_age_num_blocks = 100000 /\ default_max_age_duration = 172800000000000 /\
  default_proposal_pending_cap = default_evidence_max_bytes / max_evidence_bytes_denominator /\
  default_proposal_evidence_count = default_proposal_pending_cap / max_evidence_bytes.
Proof. repeat split. Qed.

(** the proposer's byte cap with the default parameters (commit e536522: the byte
    result of MaxEvidencePerBlock, 104857; before, the count 216 was passed and an evidence of
    380 bytes never fitted) *)
Example default_proposer_cap :
  default_proposal_evidence_count = 216 /\ default_proposal_pending_cap = 104857 /\
  let p := fst (peer_evidence (empty_pool (st_at 2 103)) chain2 evOK) in
  p_pending p = [evOK] /\
  fst (pending_evidence p default_proposal_evidence_count) = [] /\
  fst (pending_evidence p default_proposal_pending_cap) = [evOK].
Proof. repeat split; vm_compute; reflexivity. Qed.

(** lazy pruning: evidence that has expired but is still in the pending family; since
    commit 7b4a6e2 the fast path of CheckEvidence applies the expiry rule too, so the node that
    holds it and the node that does not agree *)
Definition params_tiny : params := {| max_age_blocks := 1; max_age_dur := 5 |}.
Definition st_tiny (h t : Z) : pstate := {| st_height := h; st_time := t; st_params := params_tiny; st_chain := 1 |}.
Definition chain5 : chain :=
  {| ch_times := [(1, 100); (2, 103); (3, 120); (4, 140)];
     ch_vals := [(1, vals4); (2, vals4); (3, vals4); (4, vals4)] |}.
Example expired_but_pending_rejected :
  let holder := fst (update (fst (update (fst (peer_evidence (empty_pool (st_tiny 2 103)) chain5 evOK))
                                         (st_tiny 3 120) [])) (st_tiny 4 140) []) in
  let fresh := empty_pool (st_tiny 4 140) in
  is_pending holder evOK = true /\
  snd (check_evidence holder chain5 [evOK]) = RInvalid VExpired /\
  snd (check_evidence fresh chain5 [evOK]) = RInvalid VExpired.
Proof. repeat split; vm_compute; reflexivity. Qed.
