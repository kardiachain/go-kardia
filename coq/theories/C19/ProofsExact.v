(** C19 — the converse direction: a real, timely double-signing IS accepted, from a peer and inside a
    block; a stale Update changes nothing; PendingEvidence with a byte cap returns exactly the longest
    prefix of the pending family that fits. *)
From Coq Require Import List ZArith NArith Bool Lia.
From Kardia Require Import Base.Int64 C19.Model C19.ProofsBasic C19.ProofsVerify C19.ProofsPool.
Import ListNotations.
Local Open Scope Z_scope.

Lemma peer_accepts_sound p c e :
  validate_basic e = true -> sound (st_chain (p_state p)) c e ->
  ~ expired (p_state p) (e_height e) (e_time e) ->
  snd (peer_evidence p c e) = ROk /\
  (is_committed p e = false -> is_pending (fst (peer_evidence p c e)) e = true).
Proof.
  intros Hb Hs Hx. unfold peer_evidence. rewrite Hb. unfold add_evidence.
  destruct (is_pending p e) eqn:Hp; [cbn [fst snd]; auto|].
  destruct (is_committed p e) eqn:Hc; [cbn [fst snd]; split; [reflexivity|discriminate]|].
  rewrite (verify_complete p c e Hs Hx). cbn [fst snd]. split; [reflexivity|]. intros _.
  unfold is_pending. cbn [p_pending push_list set_list add_pending set_size set_pending].
  apply put_pending_has.
Qed.

(** conditions under which one piece of evidence gets through an iteration of CheckEvidence at pool [p]
    ([acceptable_step]): sufficient, where [passes] of ProofsPool is what is necessary *)
Definition acceptable (p : pool) (c : chain) (e : evidence) : Prop :=
  sound (st_chain (p_state p)) c e /\ ~ expired (p_state p) (e_height e) (e_time e) /\
  is_committed p e = false /\
  (is_pending p e = true -> is_expired (p_state p) (e_height e) (e_time e) = false).

Lemma acceptable_add p c e x :
  e_hash x <> e_hash e -> acceptable p c x -> acceptable (add_pending p e) c x.
Proof.
  intros Hh [Hs [Hx [Hc Hp]]]. unfold acceptable.
  rewrite add_pending_state. split; [exact Hs|]. split; [exact Hx|]. split; [exact Hc|].
  intros Hpe. apply Hp. rewrite is_pending_add_other in Hpe; auto.
  intros Hk. apply Hh. unfold ekey in Hk. inversion Hk. reflexivity.
Qed.

Lemma acceptable_step p c e :
  acceptable p c e -> check_step p c e = (if is_pending p e then p else add_pending p e, None).
Proof.
  intros (Hs & Hx & Hc & Hp). unfold check_step. destruct (is_pending p e).
  - rewrite (Hp eq_refl). reflexivity.
  - rewrite Hc, (verify_complete p c e Hs Hx). reflexivity.
Qed.

Lemma check_loop_accepts c : forall es p seen,
  NoDup (map e_hash es) -> (forall e, In e es -> ~ In (e_hash e) seen) ->
  (forall e, In e es -> acceptable p c e) ->
  snd (check_loop p c seen es) = ROk.
Proof.
  induction es as [|e t IH]; intros p seen Hnd Hseen Hacc; [reflexivity|].
  inversion Hnd as [|h l Hnin Hnd']; subst.
  rewrite check_loop_cons, (acceptable_step p c e (Hacc e (or_introl eq_refl))).
  replace (existsb (N.eqb (e_hash e)) seen) with false
    by (symmetry; apply existsb_hash_false, Hseen; left; reflexivity).
  apply IH; [exact Hnd'| |].
  - intros x Hx' [Heq|Hin].
    + apply Hnin. rewrite Heq. apply in_map. exact Hx'.
    + exact (Hseen x (or_intror Hx') Hin).
  - intros x Hx'. specialize (Hacc x (or_intror Hx')). destruct (is_pending p e); [exact Hacc|].
    apply acceptable_add; [|exact Hacc].
    intros Heq. apply Hnin. rewrite <- Heq. apply in_map. exact Hx'.
Qed.

Lemma block_accepts_sound p c mx es :
  forallb validate_basic es = true -> Z.of_nat (length es) <= mx -> NoDup (map e_hash es) ->
  (forall e, In e es -> acceptable p c e) ->
  snd (block_evidence p c mx es) = ROk.
Proof.
  intros Hb Hn Hnd Hacc. unfold block_evidence. rewrite Hb. cbn [negb].
  destruct (Z.ltb_spec mx (Z.of_nat (length es))); [lia|].
  unfold check_evidence. apply check_loop_accepts; auto.
Qed.

Lemma update_stale p st evs : st_height st <= st_height (p_state p) -> update p st evs = (p, RPanic).
Proof. intros H. unfold update. apply Z.leb_le in H. rewrite H. reflexivity. Qed.

Lemma update_fresh_state p st evs :
  st_height (p_state p) < st_height st -> snd (update p st evs) = ROk /\ p_state (fst (update p st evs)) = st.
Proof.
  intros H. destruct (update p st evs) as [p' r] eqn:Hu. cbn [fst snd].
  apply update_spec in Hu. destruct Hu as [[_ [_ Hle]]|[Hr [_ [Hst _]]]]; [lia|auto].
Qed.

(** listEvidence's running size after one more entry *)
Definition next_size (s : Z) (e : evidence) : Z := wrap64 (s + 1 + e_size e + sov (e_size e)).
Fixpoint cum_size (s : Z) (l : list evidence) : Z :=
  match l with [] => s | e :: t => cum_size (next_size s e) t end.
(** how many leading entries fit under [cap] *)
Fixpoint fit (cap s : Z) (l : list evidence) : nat :=
  match l with
  | [] => O
  | e :: t => if Z.ltb cap (next_size s e) then O else S (fit cap (next_size s e) t)
  end.

Lemma list_loop_cap : forall l cap acc s,
  cap <> -1 -> forallb validate_basic l = true ->
  list_loop l cap acc s s = (rev acc ++ firstn (fit cap s l) l, cum_size s (firstn (fit cap s l) l), true).
Proof.
  induction l as [|e t IH]; intros cap acc s Hc Hb; cbn [list_loop fit firstn cum_size].
  - rewrite app_nil_r. reflexivity.
  - cbn [forallb] in Hb. apply andb_true_iff in Hb. destruct Hb as [He Ht].
    apply Z.eqb_neq in Hc. rewrite Hc. cbn [negb andb]. fold (next_size s e).
    destruct (Z.ltb cap (next_size s e)).
    + cbn [firstn cum_size]. rewrite app_nil_r. reflexivity.
    + rewrite He. cbn [negb]. rewrite (IH cap (e :: acc) (next_size s e)) by (auto; apply Z.eqb_neq; exact Hc).
      cbn [rev firstn cum_size]. rewrite <- app_assoc. reflexivity.
Qed.

Lemma firstn_S_cum s e t j : cum_size s (firstn (S j) (e :: t)) = cum_size (next_size s e) (firstn j t).
Proof. reflexivity. Qed.

Lemma fit_spec : forall l cap s,
  (forall j, (1 <= j <= fit cap s l)%nat -> cum_size s (firstn j l) <= cap) /\
  ((fit cap s l < length l)%nat -> cap < cum_size s (firstn (S (fit cap s l)) l)).
Proof.
  induction l as [|e t IH]; intros cap s; cbn [fit length].
  - split; [intros j Hj; lia|intros H; lia].
  - destruct (Z.ltb_spec cap (next_size s e)) as [Hlt|Hge].
    + split; [intros j Hj; lia|]. intros _. cbn [firstn cum_size]. exact Hlt.
    + destruct (IH cap (next_size s e)) as [IH1 IH2]. split.
      * intros j Hj. destruct j as [|j]; [lia|]. rewrite firstn_S_cum.
        destruct j as [|j]; [cbn [firstn cum_size]; exact Hge|].
        apply IH1. lia.
      * intros Hlen. rewrite firstn_S_cum. apply IH2. lia.
Qed.

Lemma pending_evidence_cap p cap :
  cap <> -1 -> forallb validate_basic (p_pending p) = true -> p_size p <> 0 ->
  let k := fit cap 0 (p_pending p) in
  pending_evidence p cap = (firstn k (p_pending p), cum_size 0 (firstn k (p_pending p))) /\
  (forall j, (1 <= j <= k)%nat -> cum_size 0 (firstn j (p_pending p)) <= cap) /\
  ((k < length (p_pending p))%nat -> cap < cum_size 0 (firstn (S k) (p_pending p))).
Proof.
  intros Hc Hb Hs k. split.
  - unfold pending_evidence. apply Z.eqb_neq in Hs. rewrite Hs. unfold list_evidence.
    rewrite (list_loop_cap (p_pending p) cap [] 0 Hc Hb). reflexivity.
  - exact (fit_spec (p_pending p) cap 0).
Qed.

Lemma fit_all : forall l cap s,
  (forall j, (1 <= j <= length l)%nat -> cum_size s (firstn j l) <= cap) -> fit cap s l = length l.
Proof.
  induction l as [|e t IH]; intros cap s H; cbn [fit length]; [reflexivity|].
  pose proof (H 1%nat ltac:(cbn [length]; lia)) as H1. cbn [firstn cum_size] in H1.
  destruct (Z.ltb_spec cap (next_size s e)); [lia|]. f_equal. apply IH.
  intros j Hj. specialize (H (S j) ltac:(cbn [length]; lia)). rewrite firstn_S_cum in H. exact H.
Qed.

Lemma pending_evidence_all_fit p cap :
  cap <> -1 -> forallb validate_basic (p_pending p) = true -> p_size p <> 0 ->
  (forall j, (1 <= j <= length (p_pending p))%nat -> cum_size 0 (firstn j (p_pending p)) <= cap) ->
  fst (pending_evidence p cap) = p_pending p.
Proof.
  intros Hc Hb Hs Hall. destruct (pending_evidence_cap p cap Hc Hb Hs) as [He _]. rewrite He. cbn [fst].
  rewrite (fit_all _ _ _ Hall). apply firstn_all.
Qed.

(** "is proposed": with a byte cap that has room for the first pending entry, PendingEvidence
    returns at least that entry (the default cap is [default_proposal_pending_cap], see
    [default_proposer_cap] in ProofsExamples) *)
Lemma pending_first_proposed p e t cap :
  p_pending p = e :: t -> p_size p <> 0 -> forallb validate_basic (p_pending p) = true ->
  wrap64 (0 + 1 + e_size e + sov (e_size e)) <= cap ->
  exists l, fst (pending_evidence p cap) = e :: l.
Proof.
  intros Hp Hs Hb Hc. destruct (Z.eq_dec cap (-1)) as [->|Hn].
  - exists t. rewrite pending_evidence_all; assumption.
  - destruct (pending_evidence_cap p cap Hn Hb Hs) as [He _]. rewrite He, Hp. cbn [fst fit].
    unfold next_size at 1. destruct (Z.ltb_spec cap (wrap64 (0 + 1 + e_size e + sov (e_size e)))); [lia|].
    eexists. reflexivity.
Qed.
