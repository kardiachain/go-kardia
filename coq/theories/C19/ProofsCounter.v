(** C19 — the counter evidenceSize follows the pending family (mod 2^32) in every reachable state, keys
    stay unique in the pending family, and a successful restart reloads the gossip list from it.
    PendingEvidence answers "nothing" when the counter is 0: with the counter exact, pending evidence is
    never hidden from a proposer. *)
From Coq Require Import List ZArith NArith Bool Lia.
From Kardia Require Import Base.Int64 C19.Model C19.ProofsBasic C19.ProofsPool.
Import ListNotations.
Local Open Scope Z_scope.

Definition counted (p : pool) : Prop :=
  NoDup (map ekey (p_pending p)) /\ p_size p = wrapu32 (Z.of_nat (length (p_pending p))).

Lemma wrapu32_succ n : wrapu32 (wrapu32 n + 1) = wrapu32 (n + 1).
Proof. unfold wrapu32. apply Zplus_mod_idemp_l. Qed.
Lemma wrapu32_pred n : wrapu32 (wrapu32 (n + 1) - 1) = wrapu32 n.
Proof. unfold wrapu32. rewrite Zminus_mod_idemp_l. f_equal. lia. Qed.

Lemma has_key_false_notin k l : has_key k l = false -> ~ In k (map ekey l).
Proof.
  intros H Hi. apply in_map_iff in Hi. destruct Hi as [x [Hx Hi]].
  assert (has_key k l = true) by (apply has_key_In; exists x; auto). congruence.
Qed.

Lemma in_keys_put k e l : In k (map ekey (put_pending e l)) -> k = ekey e \/ In k (map ekey l).
Proof.
  intros H. apply in_map_iff in H. destruct H as [x [Hx Hi]]. apply In_put_pending in Hi.
  destruct Hi as [->|Hi]; [left; auto|right; subst; apply in_map; auto].
Qed.

Lemma put_pending_fresh e : forall l,
  has_key (ekey e) l = false -> NoDup (map ekey l) ->
  length (put_pending e l) = S (length l) /\ NoDup (map ekey (put_pending e l)).
Proof.
  induction l as [|x t IH]; intros Hk Hnd; cbn [put_pending].
  - split; [reflexivity|]. cbn. constructor; [intros []|constructor].
  - unfold has_key in Hk. cbn [existsb] in Hk. apply orb_false_iff in Hk. destruct Hk as [Hx Ht].
    rewrite Hx. inversion Hnd as [|k ks Hnin Hnd']; subst.
    destruct (key2_ltb (ekey e) (ekey x)).
    + split; [reflexivity|]. cbn [map]. constructor; [|exact Hnd].
      intros [Heq|Hi].
      * apply key2_eqb_neq in Hx. congruence.
      * apply (has_key_false_notin _ _ Ht). exact Hi.
    + destruct (IH Ht Hnd') as [Hl Hn]. split; [cbn [length]; rewrite Hl; reflexivity|].
      cbn [map]. constructor; [|exact Hn].
      intros Hi. apply in_keys_put in Hi. destruct Hi as [Heq|Hi]; [|contradiction].
      apply key2_eqb_neq in Hx. congruence.
Qed.

Lemma filter_all {A} (f : A -> bool) l : (forall x, In x l -> f x = true) -> filter f l = l.
Proof.
  induction l as [|x t IH]; intros H; cbn [filter]; [reflexivity|].
  rewrite (H x (or_introl eq_refl)). f_equal. apply IH. intros y Hy. apply H. right; exact Hy.
Qed.

Lemma NoDup_map_filter {A B} (g : A -> B) (f : A -> bool) l : NoDup (map g l) -> NoDup (map g (filter f l)).
Proof.
  induction l as [|x t IH]; intros H; cbn [filter map]; [constructor|].
  inversion H as [|k ks Hnin Hnd]; subst. destruct (f x).
  - cbn [map]. constructor; [|apply IH; exact Hnd].
    intros Hi. apply Hnin. apply in_map_iff in Hi. destruct Hi as [y [Hy Hi]].
    apply filter_In in Hi. destruct Hi as [Hi _]. apply in_map_iff. exists y. auto.
  - apply IH; exact Hnd.
Qed.

Lemma del_pending_present e : forall l,
  has_key (ekey e) l = true -> NoDup (map ekey l) ->
  S (length (del_pending e l)) = length l.
Proof.
  induction l as [|x t IH]; intros Hk Hnd; [discriminate|].
  unfold del_pending in *. cbn [filter]. inversion Hnd as [|k ks Hnin Hnd']; subst.
  destruct (key2_eqb (ekey x) (ekey e)) eqn:Hx; cbn [negb].
  - apply key2_eqb_eq in Hx. cbn [length]. f_equal.
    rewrite filter_all; [reflexivity|].
    intros y Hy. apply negb_true_iff. apply key2_eqb_neq. intros Heq.
    apply Hnin. rewrite Hx, <- Heq. apply in_map. exact Hy.
  - cbn [length]. f_equal. apply IH; [|exact Hnd'].
    unfold has_key in Hk. cbn [existsb] in Hk. rewrite Hx in Hk. exact Hk.
Qed.

Lemma add_pending_counted p e : counted p -> is_pending p e = false -> counted (add_pending p e).
Proof.
  intros [Hnd Hs] Hp. rewrite is_pending_has in Hp.
  destruct (put_pending_fresh e (p_pending p) Hp Hnd) as [Hl Hn].
  split; cbn [p_pending p_size add_pending set_size set_pending]; [exact Hn|].
  rewrite Hl, Hs, wrapu32_succ. f_equal. lia.
Qed.

Lemma remove_pending_counted p e : counted p -> is_pending p e = true -> counted (remove_pending p e).
Proof.
  intros [Hnd Hs] Hp. rewrite is_pending_has in Hp.
  pose proof (del_pending_present e (p_pending p) Hp Hnd) as Hl.
  split; cbn [p_pending p_size remove_pending set_size set_pending].
  - unfold del_pending. apply NoDup_map_filter. exact Hnd.
  - rewrite Hs, <- Hl. replace (Z.of_nat (S (length (del_pending e (p_pending p)))))
      with (Z.of_nat (length (del_pending e (p_pending p))) + 1) by lia.
    apply wrapu32_pred.
Qed.

Lemma counted_ext p q : p_pending q = p_pending p -> p_size q = p_size p -> counted p -> counted q.
Proof. unfold counted. intros -> ->. auto. Qed.

Lemma add_evidence_counted p c e : counted p -> counted (fst (add_evidence p c e)).
Proof.
  intros H. unfold add_evidence. destruct (is_pending p e) eqn:Hp; [exact H|].
  destruct (is_committed p e); [exact H|].
  destruct (verify p c e); try exact H. cbn [fst].
  apply (counted_ext (add_pending p e)); try reflexivity. apply add_pending_counted; auto.
Qed.

Lemma add_from_consensus_counted p e : counted p -> counted (fst (add_from_consensus p e)).
Proof.
  intros H. unfold add_from_consensus. destruct (is_pending p e) eqn:Hp; [exact H|]. cbn [fst].
  apply (counted_ext (add_pending p e)); try reflexivity. apply add_pending_counted; auto.
Qed.

Lemma check_step_counted p c e : counted p -> counted (fst (check_step p c e)).
Proof.
  intros H. pose proof (check_step_spec p c e) as Hs.
  destruct (check_step p c e) as [p1 [r|]]; cbn [fst]; [destruct Hs as [-> _]; exact H|].
  destruct Hs as [_ ->]. destruct (is_pending p e) eqn:Hp; [exact H|]. apply add_pending_counted; assumption.
Qed.

Lemma check_loop_counted c : forall evs p seen, counted p -> counted (fst (check_loop p c seen evs)).
Proof.
  induction evs as [|e t IH]; intros p seen H; [exact H|].
  rewrite check_loop_cons. pose proof (check_step_counted p c e H) as H1.
  destruct (check_step p c e) as [p1 [r|]]; [exact H1|].
  destruct (existsb (N.eqb (e_hash e)) seen); [exact H1|]. apply IH; exact H1.
Qed.

Lemma block_evidence_counted p c mx es : counted p -> counted (fst (block_evidence p c mx es)).
Proof.
  intros H. unfold block_evidence.
  destruct (negb (forallb validate_basic es)); [exact H|].
  destruct (Z.ltb mx (Z.of_nat (length es))); [exact H|].
  apply check_loop_counted; exact H.
Qed.

Lemma mark_loop_counted : forall evs p removed, counted p -> counted (fst (mark_loop p evs removed)).
Proof.
  induction evs as [|e t IH]; intros p removed H; cbn [mark_loop]; [exact H|].
  destruct (is_pending p e) eqn:Hp.
  - apply IH. apply (counted_ext (remove_pending p e)); try reflexivity.
    apply remove_pending_counted; auto.
  - apply IH. apply (counted_ext p); try reflexivity. exact H.
Qed.

Lemma mark_committed_counted p evs : counted p -> counted (mark_committed p evs).
Proof.
  intros H. unfold mark_committed. pose proof (mark_loop_counted evs p [] H) as H1.
  destruct (mark_loop p evs []) as [p1 removed]. cbn [fst] in H1.
  destruct removed; [exact H1|]. apply (counted_ext p1); try reflexivity. exact H1.
Qed.

(** the pruning loop runs over a snapshot of the family: every entry it meets is still pending *)
Lemma expire_loop_counted : forall snapshot p removed,
  counted p -> NoDup (map ekey snapshot) ->
  (forall x, In x snapshot -> has_key (ekey x) (p_pending p) = true) ->
  counted (fst (fst (expire_loop p snapshot removed))).
Proof.
  induction snapshot as [|e s IH]; intros p removed H Hnd Hin; cbn [expire_loop].
  - destruct removed; cbn [fst]; [exact H|]. apply (counted_ext p); try reflexivity. exact H.
  - inversion Hnd as [|k ks Hnin Hnd']; subst.
    assert (Hin' : forall x, In x s -> has_key (ekey x) (p_pending p) = true) by (intros x Hx; apply Hin; right; exact Hx).
    destruct (validate_basic e); cbn [negb]; [|apply IH; auto].
    destruct (is_expired (p_state p) (e_height e) (e_time e)); cbn [negb].
    + apply IH; auto.
      * apply remove_pending_counted; auto. rewrite is_pending_has. apply Hin. left; reflexivity.
      * intros x Hx. cbn [p_pending remove_pending set_size set_pending]. rewrite del_pending_has.
        rewrite (Hin' x Hx). cbn [andb]. apply negb_true_iff. apply key2_eqb_neq. intros Heq.
        apply Hnin. rewrite <- Heq. apply in_map. exact Hx.
    + destruct removed; cbn [fst]; [exact H|]. apply (counted_ext p); try reflexivity. exact H.
Qed.

Lemma remove_expired_counted p : counted p -> counted (fst (fst (remove_expired p))).
Proof.
  intros H. unfold remove_expired. apply expire_loop_counted; auto.
  - destruct H; auto.
  - intros x Hx. apply has_key_In. exists x. auto.
Qed.

Lemma update_counted p st evs : counted p -> counted (fst (update p st evs)).
Proof.
  intros H. unfold update. destruct (Z.leb (st_height st) (st_height (p_state p))); [exact H|].
  assert (H1 : counted (mark_committed (set_state p st) evs)).
  { apply mark_committed_counted. apply (counted_ext p); try reflexivity. exact H. }
  destruct (_ && _); [|exact H1].
  pose proof (remove_expired_counted _ H1) as H2.
  destruct (remove_expired (mark_committed (set_state p st) evs)) as [[p2 h] t]. cbn [fst] in *.
  apply (counted_ext p2); try reflexivity. exact H2.
Qed.

Lemma restart_reloads p st p' :
  restart p st = (p', ROk) -> p_list p' = p_pending p' /\ p_size p' = wrapu32 (Z.of_nat (length (p_pending p'))).
Proof.
  intros H. destruct (restart_cases p st) as (p1 & h & t & l & sz & ok & _ & Hl & E). rewrite E in H.
  destruct ok; [|discriminate]. injection H as <-.
  apply list_loop_uncapped in Hl. cbn [rev app] in Hl. subst l. split; reflexivity.
Qed.

Lemma restart_counted p st : counted p -> snd (restart p st) = ROk -> counted (fst (restart p st)).
Proof.
  intros H Hok. destruct (restart p st) as [p' r] eqn:He. cbn [fst snd] in *. subst r.
  split; [|apply (restart_reloads p st p' He)].
  destruct (restart_cases p st) as (p1 & h & t & l & sz & ok & Hr & _ & E). rewrite E in He.
  destruct ok; [|discriminate]. injection He as <-.
  assert (H0 : counted (set_list (set_state p st) [])) by (apply (counted_ext p); try reflexivity; exact H).
  pose proof (remove_expired_counted _ H0) as H1. rewrite Hr in H1. exact (proj1 H1).
Qed.

Lemma restart_res p st : snd (restart p st) = ROk \/ snd (restart p st) = RErr.
Proof.
  destruct (restart_cases p st) as (p1 & h & t & l & sz & ok & _ & _ & ->). destruct ok; auto.
Qed.

Lemma step_counted n o :
  counted (n_pool n) -> o_res (snd (step n o)) <> RErr -> counted (n_pool (fst (step n o))).
Proof.
  destruct n as [c p]. cbn [n_pool]. intros H Hr.
  destruct o; cbn [step n_chain n_pool] in *.
  - exact H.
  - exact H.
  - pose proof (add_evidence_counted p c e H) as H1. unfold peer_evidence.
    destruct (validate_basic e); [|exact H].
    destruct (add_evidence p c e) as [p' r]. exact H1.
  - pose proof (add_from_consensus_counted p e H) as H1. destruct (add_from_consensus p e) as [p' r]. exact H1.
  - pose proof (block_evidence_counted p c maxnum es H) as H1. destruct (block_evidence p c maxnum es) as [p' r]. exact H1.
  - destruct (pending_evidence p maxbytes). exact H.
  - pose proof (update_counted p st es H) as H1. destruct (update p st es) as [p' r]. exact H1.
  - pose proof (block_evidence_counted p c maxnum es H) as H1.
    destruct (block_evidence p c maxnum es) as [p1 r1]. cbn [fst] in H1.
    destruct r1; try exact H1.
    pose proof (update_counted p1 st es H1) as H2. destruct (update p1 st es) as [p2 r2]. exact H2.
  - pose proof (restart_counted p st H) as H1. pose proof (restart_res p st) as H2.
    destruct (restart p st) as [p' r]. cbn [fst snd n_pool o_res mk_obs] in *.
    destruct H2 as [->| ->]; [apply H1; reflexivity|contradiction Hr; reflexivity].
  - destruct (try_add_vote_gen cs hash size va vb) as [| |e]; try exact H.
    pose proof (add_from_consensus_counted p e H) as H1. destruct (add_from_consensus p e) as [p' r]. exact H1.
Qed.

Lemma run_counted : forall ops n,
  counted (n_pool n) -> (forall ob, In ob (snd (run n ops)) -> o_res ob <> RErr) ->
  counted (n_pool (fst (run n ops))).
Proof.
  induction ops as [|o t IH]; intros n H Hr; cbn [run]; [exact H|].
  pose proof (step_counted n o H) as H1. cbn [run] in Hr.
  destruct (step n o) as [n1 ob]. cbn [fst snd] in *.
  pose proof (IH n1) as IH1. destruct (run n1 t) as [n2 obs]. cbn [fst snd] in *.
  apply IH1.
  - apply H1. apply Hr. left; reflexivity.
  - intros ob' Hob. apply Hr. right; exact Hob.
Qed.

Lemma empty_pool_counted st : counted (empty_pool st).
Proof. split; [constructor|reflexivity]. Qed.

Lemma counted_exact p :
  counted p -> Z.of_nat (length (p_pending p)) < 4294967296 ->
  p_size p = Z.of_nat (length (p_pending p)) /\ (p_size p = 0 <-> p_pending p = []).
Proof.
  intros [_ Hs] Hl. assert (E : p_size p = Z.of_nat (length (p_pending p))).
  { rewrite Hs. unfold wrapu32. apply Z.mod_small. lia. }
  split; [exact E|]. rewrite E. split.
  - intros H0. destruct (p_pending p); [reflexivity|cbn [length] in H0; lia].
  - intros ->. reflexivity.
Qed.

Lemma pending_evidence_all_counted p :
  counted p -> Z.of_nat (length (p_pending p)) < 4294967296 ->
  forallb validate_basic (p_pending p) = true -> fst (pending_evidence p (-1)) = p_pending p.
Proof.
  intros Hc Hl Hb. destruct (counted_exact p Hc Hl) as [_ Hz].
  destruct (p_pending p) as [|x t] eqn:Hp.
  - unfold pending_evidence. destruct (Z.eqb (p_size p) 0); [reflexivity|].
    unfold list_evidence. rewrite Hp. reflexivity.
  - rewrite <- Hp. apply pending_evidence_all; [rewrite Hp; exact Hb|].
    intros H0. apply Hz in H0. discriminate.
Qed.
