(** C19 — the hypotheses of the theorems of ProofsExact / ProofsOnceSign / ProofsAgree are satisfiable
    (concrete instances); the two literal statements of Open.v are refuted. *)
From Coq Require Import List ZArith NArith Bool Lia.
From Kardia Require Import Base.Int64 C19.Model C19.ProofsBasic C19.ProofsVerify C19.ProofsPool
     C19.ProofsHistory C19.ProofsOnce C19.ProofsExamples C19.ProofsExact C19.ProofsOnceSign C19.ProofsAgree C19.Open.
Import ListNotations.
Local Open Scope Z_scope.

(** the universe {evOK}: keys trivially identify evidence.  [U1_inj] is the instance of the hypothesis
    [U_inj] of the sections of ProofsOnceSign / ProofsAgree; the two Examples below instantiate the
    remaining hypotheses of their theorems at [U1]. *)
Definition U1 (e : evidence) : Prop := e = evOK.
Lemma U1_inj : forall x y, U1 x -> U1 y -> ekey x = ekey y -> x = y.
Proof. unfold U1. intros x y -> ->. reflexivity. Qed.

Example once_sign_hypotheses :
  pend_in U1 node0 /\ ops_in U1 history1 /\ no_raw_update history1 /\ commit_evs node0 history1 = [evOK].
Proof.
  split; [intros e []|]. split.
  - intros o Ho. unfold history1 in Ho. cbn [In] in Ho.
    destruct Ho as [<-|[<-|[<-|[<-|[<-|[<-|[]]]]]]]; cbn [op_in]; unfold U1; auto;
      intros e [<-|[]]; reflexivity.
  - split; [|vm_compute; reflexivity].
    intros st es Hi. unfold history1 in Hi. cbn [In] in Hi.
    destruct Hi as [H|[H|[H|[H|[H|[H|[]]]]]]]; discriminate.
Qed.

(** a node that holds evOK pending and a node that does not, same state: both accept the block *)
Definition holder2 : pool := fst (peer_evidence (empty_pool (st_at 2 103)) chain2 evOK).
Lemma holder2_pending : p_pending holder2 = [evOK].
Proof. vm_compute. reflexivity. Qed.

Example agree_hypotheses :
  pool_inv 1 chain2 holder2 /\ pool_inv 1 chain2 poolB /\ p_state holder2 = p_state poolB /\
  p_committed holder2 = p_committed poolB /\ sane (p_state holder2) /\
  (forall x, In x (p_pending holder2) -> U1 x) /\
  snd (check_evidence holder2 chain2 [evOK]) = ROk /\ snd (check_evidence poolB chain2 [evOK]) = ROk.
Proof.
  split.
  { split; [reflexivity|]. rewrite holder2_pending. split.
    - intros e [<-|[]]. exact evOK_sound.
    - intros e [<-|[]]. reflexivity. }
  split; [split; [reflexivity|split; intros e []]|].
  split; [reflexivity|]. split; [reflexivity|].
  split; [unfold sane; vm_compute; repeat split; discriminate|].
  rewrite holder2_pending. split; [intros x [<-|[]]; reflexivity|].
  split; vm_compute; reflexivity.
Qed.

(** [block_validity_agreed_literal] of Open.v (no bound on the magnitudes) does not hold: with a
    negative MaxAgeNumBlocks [isExpired] (uint64) never fires while [verify] (int64) does.  (Consensus
    parameters with MaxAgeNumBlocks <= 0 are rejected by ValidateConsensusParams; the hypothesis [sane]
    of [block_validity_agreed] says so.) *)
Definition params_neg : params := {| max_age_blocks := -1; max_age_dur := 5 |}.
Definition st_neg (h t : Z) : pstate := {| st_height := h; st_time := t; st_params := params_neg; st_chain := 1 |}.
Definition holder_neg : pool :=
  fst (update (fst (update (set_state (fst (peer_evidence (empty_pool (st_at 2 103)) chain5 evOK)) (st_neg 2 103))
                           (st_neg 3 120) [])) (st_neg 4 140) []).
Definition fresh_neg : pool := empty_pool (st_neg 4 140).

Lemma evOK_sound5 : sound 1 chain5 evOK.
Proof. apply (verify_ok poolB chain5 evOK). vm_compute. reflexivity. Qed.

Lemma literal_block_validity_agreed_refuted : ~ Open.block_validity_agreed_literal.
Proof.
  intros H.
  assert (Hp : pool_inv 1 chain5 holder_neg).
  { split; [reflexivity|]. split.
    - intros e He. vm_compute in He. destruct He as [<-|[]]. exact evOK_sound5.
    - intros e He. vm_compute in He. destruct He as [<-|[]]. reflexivity. }
  assert (Hq : pool_inv 1 chain5 fresh_neg) by (split; [reflexivity|split; intros e []]).
  specialize (H 1%N chain5 holder_neg fresh_neg [evOK] Hp Hq eq_refl eq_refl).
  assert (Hh : forall e, In e [evOK] -> e_height e <= st_height (p_state holder_neg)).
  { intros e [<-|[]]. vm_compute. discriminate. }
  destruct (H Hh) as [H1 _].
  assert (Hok : snd (check_evidence holder_neg chain5 [evOK]) = ROk) by (vm_compute; reflexivity).
  specialize (H1 Hok). vm_compute in H1. discriminate H1.
Qed.

(** [hash_functional] of Open.v quantifies over all records and is false (two records that differ in
    [e_hash] only): a statement that assumes it is vacuous *)
Lemma hash_functional_false : ~ Open.hash_functional.
Proof.
  intros H.
  specialize (H evOK {| e_hash := 501; e_size := 380; e_a := voteX; e_b := voteY; e_total := 40; e_power := 10; e_time := 103 |}
                eq_refl eq_refl eq_refl eq_refl eq_refl).
  discriminate.
Qed.

(** the byte cap: the single pending entry of 383 bytes fits under a cap of 383 and not under 382 *)
Example pending_cap_instance :
  fit 1000 0 [evOK] = 1%nat /\ fit 383 0 [evOK] = 1%nat /\ fit 382 0 [evOK] = 0%nat /\ cum_size 0 [evOK] = 383.
Proof. repeat split; vm_compute; reflexivity. Qed.
