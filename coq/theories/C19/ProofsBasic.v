(** C19 — basic lemmas: keys, Put / Delete on the two key families, BlockID.Key order, association lists. *)
From Coq Require Import List ZArith NArith Bool Lia.
From Kardia Require Import Base.Int64 C19.Model.
Import ListNotations.
Local Open Scope Z_scope.

Lemma key2_eqb_eq a b : key2_eqb a b = true <-> a = b.
Proof.
  unfold key2_eqb. destruct a as [h1 x1], b as [h2 x2]; cbn [fst snd].
  rewrite andb_true_iff, Z.eqb_eq, N.eqb_eq. split.
  - intros [-> ->]; reflexivity.
  - intros E; inversion E; auto.
Qed.

Lemma key2_eqb_refl a : key2_eqb a a = true.
Proof. apply key2_eqb_eq; reflexivity. Qed.

Lemma key2_eqb_sym a b : key2_eqb a b = key2_eqb b a.
Proof. apply eq_true_iff_eq. rewrite !key2_eqb_eq. split; auto. Qed.

Lemma key2_eqb_neq a b : key2_eqb a b = false <-> a <> b.
Proof. rewrite <- key2_eqb_eq. destruct (key2_eqb a b); split; congruence. Qed.

(** membership of a key in the pending / committed family *)
Definition has_key (k : Z * N) (l : list evidence) : bool :=
  existsb (fun x => key2_eqb (ekey x) k) l.
Definition com_key (k : Z * N) (l : list (Z * N)) : bool :=
  existsb (fun x => key2_eqb x k) l.

Lemma is_pending_has p e : is_pending p e = has_key (ekey e) (p_pending p).
Proof. reflexivity. Qed.
Lemma is_committed_com p e : is_committed p e = com_key (ekey e) (p_committed p).
Proof. reflexivity. Qed.

Lemma has_key_In k l : has_key k l = true <-> exists x, In x l /\ ekey x = k.
Proof.
  unfold has_key. rewrite existsb_exists.
  split; intros [x [Hi Hk]]; exists x; (split; [exact Hi|]); apply key2_eqb_eq; exact Hk.
Qed.

Lemma is_pending_In p e : is_pending p e = true <-> exists x, In x (p_pending p) /\ ekey x = ekey e.
Proof. rewrite is_pending_has. apply has_key_In. Qed.

Lemma is_committed_ekey p x e : ekey x = ekey e -> is_committed p x = is_committed p e.
Proof. unfold is_committed. intros ->. reflexivity. Qed.

Lemma com_key_In k l : com_key k l = true <-> In k l.
Proof.
  unfold com_key. rewrite existsb_exists. split.
  - intros [x [Hi Hk]]. apply key2_eqb_eq in Hk; subst; auto.
  - intros Hi. exists k; split; auto. apply key2_eqb_refl.
Qed.

(** db.Put: the new entry replaces one with its key, or is inserted; nothing else changes *)
Lemma In_put_pending x e l : In x (put_pending e l) -> x = e \/ In x l.
Proof.
  induction l as [|y t IH]; cbn [put_pending]; intros H.
  - destruct H as [<-|[]]; auto.
  - destruct (key2_eqb (ekey y) (ekey e)).
    + destruct H as [<-|H]; auto. right; right; auto.
    + destruct (key2_ltb (ekey e) (ekey y)).
      * destruct H as [<-|H]; auto.
      * destruct H as [<-|H]; [right; left; auto|]. destruct (IH H); auto. right; right; auto.
Qed.

Lemma has_key_put k e l : has_key k (put_pending e l) = key2_eqb (ekey e) k || has_key k l.
Proof.
  induction l as [|y t IH]; cbn [put_pending]; [reflexivity|].
  destruct (key2_eqb (ekey y) (ekey e)) eqn:E.
  - apply key2_eqb_eq in E. cbn [has_key existsb]. rewrite E.
    destruct (key2_eqb (ekey e) k); reflexivity.
  - destruct (key2_ltb (ekey e) (ekey y)); [reflexivity|].
    cbn [has_key existsb]. fold (has_key k (put_pending e t)). rewrite IH.
    fold (has_key k t). destruct (key2_eqb (ekey y) k), (key2_eqb (ekey e) k); reflexivity.
Qed.

Lemma put_pending_has e l : has_key (ekey e) (put_pending e l) = true.
Proof. rewrite has_key_put, key2_eqb_refl. reflexivity. Qed.

Lemma put_pending_has_other e k l : k <> ekey e -> has_key k (put_pending e l) = has_key k l.
Proof.
  intros Hn. apply not_eq_sym, key2_eqb_neq in Hn. rewrite has_key_put, Hn. reflexivity.
Qed.

Lemma put_keeps k e l : has_key k l = true -> has_key k (put_pending e l) = true.
Proof. intros H. rewrite has_key_put, H. apply orb_true_r. Qed.

Lemma In_del_pending x e l : In x (del_pending e l) <-> In x l /\ ekey x <> ekey e.
Proof. unfold del_pending. rewrite filter_In, negb_true_iff, key2_eqb_neq. reflexivity. Qed.

Lemma del_pending_has e k l :
  has_key k (del_pending e l) = has_key k l && negb (key2_eqb k (ekey e)).
Proof.
  apply eq_true_iff_eq. rewrite andb_true_iff, negb_true_iff, key2_eqb_neq, !has_key_In. split.
  - intros (x & Hi & <-). apply In_del_pending in Hi. destruct Hi as [Hi Hn]. split; [exists x; split; [exact Hi|reflexivity]|exact Hn].
  - intros [(x & Hi & <-) Hn]. exists x. split; [apply In_del_pending; auto|reflexivity].
Qed.

Lemma In_put_key x k l : In x (put_key k l) <-> x = k \/ In x l.
Proof.
  induction l as [|y t IH]; cbn [put_key].
  - split; [intros [<-|[]]|intros [->|[]]]; left; reflexivity.
  - destruct (key2_eqb y k) eqn:E; [apply key2_eqb_eq in E; subst y|destruct (key2_ltb k y)].
    + split; [intros [<-|H]; [left; reflexivity|right; right; exact H]|intros [->|H]; [left; reflexivity|exact H]].
    + split; [intros [<-|H]|intros [->|H]]; (left; reflexivity) || (right; exact H).
    + split.
      * intros [<-|H]; [right; left; reflexivity|]. apply IH in H. destruct H as [->|H]; [left; reflexivity|right; right; exact H].
      * intros [->|[<-|H]]; [right; apply IH; left; reflexivity|left; reflexivity|right; apply IH; right; exact H].
Qed.

Lemma com_key_put k k' l : com_key k (put_key k' l) = key2_eqb k' k || com_key k l.
Proof.
  apply eq_true_iff_eq. rewrite orb_true_iff, !com_key_In, In_put_key, key2_eqb_eq.
  split; (intros [->|H]; [left; reflexivity|right; exact H]).
Qed.

Lemma lex_cmp_antisym a : forall b, lex_cmp a b = CompOpp (lex_cmp b a).
Proof.
  induction a as [|x a IH]; destruct b as [|y b]; cbn; auto.
  rewrite (N.compare_antisym y x). destruct (N.compare y x); cbn; auto.
Qed.

Lemma lex_cmp_refl a : lex_cmp a a = Eq.
Proof. induction a; cbn; auto. rewrite N.compare_refl; auto. Qed.

Lemma key_cmp_antisym a b : key_cmp a b = CompOpp (key_cmp b a).
Proof.
  unfold key_cmp.
  rewrite (N.compare_antisym (b_hash b) (b_hash a)).
  destruct (N.compare (b_hash b) (b_hash a)); cbn; auto.
  rewrite (N.compare_antisym (b_phash b) (b_phash a)).
  destruct (N.compare (b_phash b) (b_phash a)); cbn; auto.
  apply lex_cmp_antisym.
Qed.

Lemma bid_eqb_eq a b : bid_eqb a b = true -> a = b.
Proof.
  unfold bid_eqb. intros H. apply andb_true_iff in H. destruct H as [H H3].
  apply andb_true_iff in H. destruct H as [H1 H2].
  apply N.eqb_eq in H1, H2, H3. destruct a, b; cbn in *; subst; reflexivity.
Qed.

Lemma key_cmp_refl a : key_cmp a a = Eq.
Proof. unfold key_cmp. rewrite !N.compare_refl. apply lex_cmp_refl. Qed.

Lemma bid_eqb_key_cmp_Eq a b : bid_eqb a b = true -> key_cmp a b = Eq.
Proof. intros H. apply bid_eqb_eq in H. subst b. apply key_cmp_refl. Qed.

(** ids with different keys are different ids *)
Lemma key_eq_false_bid a b : key_eq a b = false -> bid_eqb a b = false.
Proof.
  unfold key_eq. intros H. destruct (bid_eqb a b) eqn:E; auto.
  apply bid_eqb_key_cmp_Eq in E. rewrite E in H. discriminate.
Qed.

Lemma key_lt_total a b : key_eq a b = false -> key_lt a b = false -> key_lt b a = true.
Proof.
  unfold key_eq, key_lt. rewrite (key_cmp_antisym b a). destruct (key_cmp a b); cbn; congruence.
Qed.

Lemma key_lt_neq a b : key_lt a b = true -> bid_eqb a b = false.
Proof.
  unfold key_lt. intros H. destruct (bid_eqb a b) eqn:E; auto.
  apply bid_eqb_key_cmp_Eq in E. rewrite E in H. discriminate.
Qed.

Lemma key_lt_asym a b : key_lt a b = true -> key_lt b a = false.
Proof.
  unfold key_lt. rewrite (key_cmp_antisym b a). destruct (key_cmp a b); cbn; congruence.
Qed.

Lemma assoc_put_same {A} k (x : A) l : assoc k (put_assoc k x l) = Some x.
Proof.
  induction l as [|[k' y] t IH]; cbn.
  - rewrite Z.eqb_refl; auto.
  - destruct (Z.eqb k' k) eqn:E; cbn.
    + rewrite Z.eqb_refl; auto.
    + rewrite E; auto.
Qed.

Lemma assoc_put_other {A} k k2 (x : A) l : k2 <> k -> assoc k2 (put_assoc k x l) = assoc k2 l.
Proof.
  intros Hn. induction l as [|[k' y] t IH]; cbn.
  - destruct (Z.eqb k k2) eqn:E; auto. apply Z.eqb_eq in E; congruence.
  - destruct (Z.eqb k' k) eqn:E; cbn.
    + apply Z.eqb_eq in E; subst k'.
      destruct (Z.eqb k k2) eqn:E2; auto. apply Z.eqb_eq in E2; congruence.
    + destruct (Z.eqb k' k2); auto.
Qed.

(** a write that repeats what the store has for [k], or fills a gap, keeps every binding *)
Lemma assoc_put_keeps {A} k k2 (x y : A) l :
  assoc k l = None \/ assoc k l = Some x -> assoc k2 l = Some y -> assoc k2 (put_assoc k x l) = Some y.
Proof.
  intros Hok H2. destruct (Z.eq_dec k2 k) as [->|Hn].
  - rewrite assoc_put_same. destruct Hok; congruence.
  - rewrite assoc_put_other; auto.
Qed.
