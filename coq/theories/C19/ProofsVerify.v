(** C19 — what a successful verification means, exactly; what a generator must supply. *)
From Coq Require Import List ZArith NArith Bool Lia.
From Kardia Require Import Base.Int64 C19.Model C19.ProofsBasic.
Import ListNotations.
Local Open Scope Z_scope.

(** [double_sign cid c e]: the evidence consists of two votes of one validator (same address,
    both carrying that validator's index in the set) for the same
    height, round and type and different block ids, both validly signed by that validator
    (ideal signatures over chain id, type, height, round, block id, vote time), the validator
    belongs to the set the chain has for that height, and the two powers the evidence states
    are that validator's power and the total power of that set.  ([In val vs] and the address of [val]
    follow from the [find_idx] conjunct, [find_idx_addr]; they are spelled out for the reader.) *)
Definition double_sign (cid : N) (c : chain) (e : evidence) : Prop :=
  let a := e_a e in let b := e_b e in
  v_height a = v_height b /\ v_round a = v_round b /\ v_type a = v_type b /\
  v_addr a = v_addr b /\ bid_eqb (v_bid a) (v_bid b) = false /\
  exists vs val idx,
    vals_at c (e_height e) = Some vs /\ In val vs /\ val_addr val = v_addr a /\
    find_idx (v_addr a) vs 0 = Some (idx, val) /\ v_idx a = idx /\ v_idx b = idx /\
    val_power val = e_power e /\ total_power vs = e_total e /\
    vote_sig_valid cid (v_addr a) a = true /\ vote_sig_valid cid (v_addr a) b = true.

(** the evidence carries the time of the block of its height *)
Definition timed (c : chain) (e : evidence) : Prop := block_time c (e_height e) = Some (e_time e).

(** expiry as verify.go computes it: older than MaxAgeNumBlocks blocks AND older than
    MaxAgeDuration (both strictly), the age in blocks in int64.  This is NOT the Prop form of the model's
    [is_expired] (isExpired subtracts in uint64); the two agree on sane magnitudes only, see [is_expired_iff]
    in ProofsAgree. *)
Definition expired (st : pstate) (evh evt : Z) : Prop :=
  max_age_dur (st_params st) < sat_sub (st_time st) evt /\
  max_age_blocks (st_params st) < wrap64 (wrap64 (st_height st) - wrap64 evh).

Definition sound (cid : N) (c : chain) (e : evidence) : Prop := double_sign cid c e /\ timed c e.

Lemma find_idx_addr a : forall vs i j v, find_idx a vs i = Some (j, v) -> val_addr v = a /\ In v vs.
Proof.
  induction vs as [|x t IH]; cbn; [discriminate|]. intros i j v.
  destruct (N.eqb (val_addr x) a) eqn:E.
  - intros H; inversion H; subst. apply N.eqb_eq in E. auto.
  - intros H. destruct (IH _ _ _ H). auto.
Qed.

Lemma find_idx_find_val a : forall vs i j v, find_idx a vs i = Some (j, v) -> find_val a vs = Some v.
Proof.
  induction vs as [|x t IH]; cbn; [discriminate|]. intros i j v.
  destruct (N.eqb (val_addr x) a); [intros H; inversion H; auto|]. apply IH.
Qed.

Lemma find_val_find_idx a : forall vs i v, find_val a vs = Some v -> exists j, find_idx a vs i = Some (j, v).
Proof.
  induction vs as [|x t IH]; cbn; [discriminate|]. intros i v.
  destruct (N.eqb (val_addr x) a); [intros H; inversion H; eauto|]. apply IH.
Qed.

(** VerifyDuplicateVote succeeds exactly when every one of its guards passes *)
Lemma verify_duplicate_vote_VOk e cid vs :
  verify_duplicate_vote e cid vs = VOk <->
  exists idx val,
    find_idx (v_addr (e_a e)) vs 0 = Some (idx, val) /\ v_idx (e_a e) = idx /\ v_idx (e_b e) = idx /\
    v_height (e_a e) = v_height (e_b e) /\ v_round (e_a e) = v_round (e_b e) /\
    v_type (e_a e) = v_type (e_b e) /\ v_addr (e_a e) = v_addr (e_b e) /\
    bid_eqb (v_bid (e_a e)) (v_bid (e_b e)) = false /\
    val_power val = e_power e /\ total_power vs = e_total e /\
    vote_sig_valid cid (val_addr val) (e_a e) = true /\
    vote_sig_valid cid (val_addr val) (e_b e) = true.
Proof.
  unfold verify_duplicate_vote. split.
  - destruct (find_idx (v_addr (e_a e)) vs 0) as [[idx val]|]; [|discriminate].
    destruct (N.eqb_spec (v_idx (e_a e)) idx) as [I1|]; cbn [andb negb]; [|discriminate].
    destruct (N.eqb_spec (v_idx (e_b e)) idx) as [I2|]; cbn [andb negb]; [|discriminate].
    destruct (N.eqb_spec (v_height (e_a e)) (v_height (e_b e))) as [E1|]; cbn [andb negb]; [|discriminate].
    destruct (N.eqb_spec (v_round (e_a e)) (v_round (e_b e))) as [E2|]; cbn [andb negb]; [|discriminate].
    destruct (N.eqb_spec (v_type (e_a e)) (v_type (e_b e))) as [E3|]; cbn [andb negb]; [|discriminate].
    destruct (N.eqb_spec (v_addr (e_a e)) (v_addr (e_b e))) as [E4|]; cbn [negb]; [|discriminate].
    destruct (bid_eqb (v_bid (e_a e)) (v_bid (e_b e))) eqn:E5; [discriminate|].
    destruct (Z.eqb_spec (val_power val) (e_power e)) as [E6|]; cbn [negb]; [|discriminate].
    destruct (Z.eqb_spec (total_power vs) (e_total e)) as [E7|]; cbn [negb]; [|discriminate].
    destruct (vote_sig_valid cid (val_addr val) (e_a e)) eqn:S1; cbn [negb]; [|discriminate].
    destruct (vote_sig_valid cid (val_addr val) (e_b e)) eqn:S2; cbn [negb]; [|discriminate].
    intros _. exists idx, val. repeat split; assumption.
  - intros (idx & val & Hf & I1 & I2 & E1 & E2 & E3 & E4 & E5 & E6 & E7 & S1 & S2).
    rewrite Hf, I1, I2, E1, E2, E3, E4, E5, E6, E7, S1, S2, !N.eqb_refl, !Z.eqb_refl. reflexivity.
Qed.

(** the expiry test of Pool.verify *)
Lemma not_expired_guard st h t :
  Z.ltb (max_age_dur (st_params st)) (sat_sub (st_time st) t) &&
  Z.ltb (max_age_blocks (st_params st)) (wrap64 (wrap64 (st_height st) - wrap64 h)) = false <->
  ~ expired st h t.
Proof. unfold expired. rewrite andb_false_iff, !Z.ltb_ge. lia. Qed.

(** evidence is verified EXACTLY when it is a real double-signing with its block's time that has not expired *)
Lemma verify_exact p c e :
  verify p c e = VOk <->
  (sound (st_chain (p_state p)) c e /\ ~ expired (p_state p) (e_height e) (e_time e)).
Proof.
  unfold verify. split.
  - destruct (block_time c (e_height e)) as [evt|] eqn:Hb; [|discriminate].
    destruct (Z.eqb_spec (e_time e) evt) as [<-|]; cbn [negb]; [|discriminate].
    destruct (_ && _) eqn:Ex; [discriminate|]. apply not_expired_guard in Ex.
    destruct (vals_at c (e_height e)) as [vs|] eqn:Hv; [|discriminate].
    intros Hd. apply verify_duplicate_vote_VOk in Hd.
    destruct Hd as (idx & val & Hf & I1 & I2 & E1 & E2 & E3 & E4 & E5 & E6 & E7 & S1 & S2).
    destruct (find_idx_addr _ _ _ _ _ Hf) as [Ha Hin]. rewrite Ha in S1, S2.
    split; [split; [|exact Hb]|exact Ex].
    unfold double_sign. repeat (split; [assumption|]).
    exists vs, val, idx. repeat (split; [assumption|]). assumption.
  - intros [[Hd Ht] Hx]. unfold timed in Ht. rewrite Ht, Z.eqb_refl. cbn [negb].
    apply not_expired_guard in Hx. rewrite Hx.
    destruct Hd as (E1 & E2 & E3 & E4 & E5 & vs & val & idx & Hv & _ & Ha & Hf & I1 & I2 & E6 & E7 & S1 & S2).
    rewrite Hv. apply verify_duplicate_vote_VOk. exists idx, val. rewrite Ha. repeat split; assumption.
Qed.

Lemma verify_ok p c e :
  verify p c e = VOk ->
  sound (st_chain (p_state p)) c e /\ ~ expired (p_state p) (e_height e) (e_time e).
Proof. apply verify_exact. Qed.

Lemma verify_complete p c e :
  sound (st_chain (p_state p)) c e -> ~ expired (p_state p) (e_height e) (e_time e) -> verify p c e = VOk.
Proof. intros Hs Hx. apply verify_exact. split; assumption. Qed.

(** verify reads only the pool's state, never its pending or committed families *)
Lemma verify_state_only p q c e : p_state p = p_state q -> verify p c e = verify q c e.
Proof. unfold verify. intros ->. reflexivity. Qed.

Definition chain_le (c c' : chain) : Prop :=
  (forall h t, block_time c h = Some t -> block_time c' h = Some t) /\
  (forall h vs, vals_at c h = Some vs -> vals_at c' h = Some vs).

Lemma chain_le_refl c : chain_le c c.
Proof. split; auto. Qed.

Lemma sound_mono cid c c' e : chain_le c c' -> sound cid c e -> sound cid c' e.
Proof.
  intros [Ht Hv] [Hd Htm]. split.
  - unfold double_sign in *.
    destruct Hd as [H1 [H2 [H3 [H4 [H5 [vs [val [idx [Hvs Hrest]]]]]]]]].
    repeat (split; [assumption|]). exists vs, val, idx. split; auto.
  - unfold timed in *. auto.
Qed.

(** two votes that a vote set of (height, round, type) reports as conflicting: same
    validator, both signatures verified against that validator's key, different keys *)
Definition conflicting_votes (cid : N) (va vb : vote) : Prop :=
  v_height va = v_height vb /\ v_round va = v_round vb /\ v_type va = v_type vb /\
  v_addr va = v_addr vb /\ key_eq (v_bid va) (v_bid vb) = false /\
  vote_basic va = true /\ vote_basic vb = true /\
  vote_sig_valid cid (v_addr va) va = true /\ vote_sig_valid cid (v_addr va) vb = true.

Lemma key_eq_sym_false a b : key_eq a b = false -> key_eq b a = false.
Proof. unfold key_eq. rewrite (key_cmp_antisym b a). destruct (key_cmp a b); cbn; congruence. Qed.

Lemma conflicting_votes_sym cid va vb : conflicting_votes cid va vb -> conflicting_votes cid vb va.
Proof.
  intros (Hh & Hr & Ht & Ha & Hk & Hba & Hbb & Hsa & Hsb). unfold conflicting_votes.
  rewrite <- Ha. auto 10 using key_eq_sym_false.
Qed.

(** Two conflicting votes of the validator with index [idx] in the set [vs] of their height, put in
    BlockID.Key order and completed with that validator's power, the total of [vs] and the time of the
    block of that height, are well-formed evidence of a double-signing. *)
Lemma ordered_votes_sound cid c hash size a b ts vs idx val :
  conflicting_votes cid a b -> key_lt (v_bid a) (v_bid b) = true ->
  vals_at c (Z.of_N (v_height a)) = Some vs ->
  find_idx (v_addr a) vs 0 = Some (idx, val) -> v_idx a = idx -> v_idx b = idx ->
  block_time c (Z.of_N (v_height a)) = Some ts ->
  let e := {| e_hash := hash; e_size := size; e_a := a; e_b := b;
              e_total := total_power vs; e_power := val_power val; e_time := ts |} in
  validate_basic e = true /\ sound cid c e.
Proof.
  intros (Hh & Hr & Ht & Ha & Hk & Hba & Hbb & Hsa & Hsb) Hlt Hvs Hfi Hia Hib Hbt e. split.
  - unfold validate_basic. cbn [e e_a e_b]. rewrite Hba, Hbb, Hlt. reflexivity.
  - destruct (find_idx_addr _ _ _ _ _ Hfi) as [Hva Hin].
    split; [|exact Hbt]. unfold double_sign. cbn [e e_a e_b e_power e_total].
    repeat (split; [assumption|]). split; [exact (key_eq_false_bid _ _ Hk)|].
    exists vs, val, idx. repeat split; assumption.
Qed.

(** Evidence built by NewDuplicateVoteEvidence from two conflicting votes of a member of the
    set of their height, with that set and THE TIME OF THE BLOCK OF THAT HEIGHT, passes
    ValidateBasic and every pool's verify over the same chain, as long as it has not expired
    there. *)
Lemma generated_verifies p c hash size va vb ts vs :
  conflicting_votes (st_chain (p_state p)) va vb ->
  vals_at c (Z.of_N (v_height va)) = Some vs ->
  (exists idx val, find_idx (v_addr va) vs 0 = Some (idx, val) /\ v_idx va = idx /\ v_idx vb = idx) ->
  block_time c (Z.of_N (v_height va)) = Some ts ->
  ~ expired (p_state p) (Z.of_N (v_height va)) ts ->
  exists e, new_duplicate_vote_evidence hash size va vb ts vs = Some e /\
            validate_basic e = true /\ verify p c e = VOk.
Proof.
  intros Hc Hvs (idx & val & Hfi & Hia & Hib) Hbt Hexp.
  unfold new_duplicate_vote_evidence. rewrite (find_idx_find_val _ _ _ _ _ Hfi).
  destruct (key_lt (v_bid va) (v_bid vb)) eqn:Hlt; eexists; (split; [reflexivity|]).
  - destruct (ordered_votes_sound _ c hash size va vb ts vs idx val Hc Hlt Hvs Hfi Hia Hib Hbt) as [Hb Hs].
    split; [exact Hb|]. apply verify_complete; assumption.
  - (* the votes change places: restate everything about [va] for [vb] *)
    pose proof Hc as (Hh & _ & _ & Ha & Hk & _).
    rewrite Hh in Hvs, Hbt, Hexp. rewrite Ha in Hfi.
    destruct (ordered_votes_sound _ c hash size vb va ts vs idx val (conflicting_votes_sym _ _ _ Hc)
                (key_lt_total _ _ Hk Hlt) Hvs Hfi Hib Hia Hbt) as [Hb Hs].
    split; [exact Hb|]. apply verify_complete; assumption.
Qed.

(** ... and the time of that block is the only timestamp that works *)
Lemma generated_needs_block_time p c hash size va vb ts vs e :
  new_duplicate_vote_evidence hash size va vb ts vs = Some e ->
  verify p c e = VOk ->
  e_time e = ts /\ block_time c (e_height e) = Some ts.
Proof.
  unfold new_duplicate_vote_evidence.
  destruct (find_val (v_addr va) vs); [|discriminate].
  destruct (key_lt (v_bid va) (v_bid vb)); intros H; inversion H; subst e; clear H;
    intros Hv; apply verify_ok in Hv; destruct Hv as [[_ Ht] _]; unfold timed in Ht;
    cbn [e_time] in *; auto.
Qed.
