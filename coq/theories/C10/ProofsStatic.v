(** C10 — static calls: while a static frame is alive, the world stays observationally equal to
    the frame's entry snapshot (same logs; same balance, nonce, code, storage and self-destruct
    mark at every address — only the existence of empty accounts may differ, KVM "touches" them),
    and every state-changing opcode or value-bearing CALL fails the frame. *)
From Coq Require Import List ZArith Bool Lia.
From Kardia Require Import C10.U256 C10.EVM C10.ProofsTables C10.ProofsInv C10.ProofsFrames Generated.C10Facts.
Import ListNotations.
Local Open Scope Z_scope.

Section Static.
Variable keccak : list Z -> Z.
Variable blockhash : Z -> Z.
Notation step := (step keccak blockhash).
Notation exec := (exec keccak).
Notation reachable := (reachable keccak blockhash).

(** observational equality of worlds: same logs, same account at every address, where an absent account
    counts as the empty one (KVM "touches" accounts into existence) *)
Definition weqv (w w' : world) : Prop :=
  w_logs w = w_logs w' /\ forall a, acct_or_new w a = acct_or_new w' a.

Lemma weqv_refl : forall w, weqv w w.
Proof. intros; split; auto. Qed.
Lemma weqv_sym : forall w w', weqv w w' -> weqv w' w.
Proof. intros w w' [H1 H2]; split; auto. Qed.
Lemma weqv_trans : forall a b c, weqv a b -> weqv b c -> weqv a c.
Proof. intros a b c [H1 H2] [H3 H4]; split; [congruence|]. intros x. rewrite H2. apply H4. Qed.

Lemma alist_get_set : forall (A : Type) k k' (v : A) l,
    alist_get k' (alist_set k v l) = if k' =? k then Some v else alist_get k' l.
Proof.
  intros A k k' v l. induction l as [|[k0 v0] t IH]; cbn [alist_set alist_get].
  - destruct (k' =? k); reflexivity.
  - destruct (k =? k0) eqn:E.
    + apply Z.eqb_eq in E. subst k0. cbn [alist_get]. destruct (k' =? k); reflexivity.
    + cbn [alist_get]. destruct (k' =? k0) eqn:E2.
      * apply Z.eqb_eq in E2. subst k0. destruct (k' =? k) eqn:E3; [|reflexivity].
        apply Z.eqb_eq in E3. subst k'. rewrite Z.eqb_refl in E. discriminate.
      * exact IH.
Qed.

Lemma acct_or_new_set : forall w a x b,
    acct_or_new (set_acct w a x) b = if b =? a then x else acct_or_new w b.
Proof.
  intros. unfold acct_or_new, get_acct, set_acct. cbn [w_accts]. rewrite alist_get_set.
  destruct (b =? a); reflexivity.
Qed.

Lemma weqv_touch : forall w a, weqv w (touch w a).
Proof.
  intros w a. split; [reflexivity|]. intros b. unfold touch. rewrite acct_or_new_set.
  destruct (b =? a) eqn:E; [|reflexivity]. apply Z.eqb_eq in E. subst. reflexivity.
Qed.
Lemma weqv_add0 : forall w a, weqv w (add_balance w a 0).
Proof.
  intros w a. split; [reflexivity|]. intros b. unfold add_balance. rewrite acct_or_new_set.
  destruct (b =? a) eqn:E; [|reflexivity]. apply Z.eqb_eq in E. subst.
  unfold with_bal. rewrite Z.add_0_r. destruct (acct_or_new w a); reflexivity.
Qed.
Lemma weqv_transfer0 : forall w a b, weqv w (transfer w a b 0).
Proof.
  intros. unfold transfer. cbn [Z.opp]. eapply weqv_trans; [apply (weqv_add0 w a)|apply weqv_add0].
Qed.

Lemma weqv_create_absent : forall w a, exists_b w a = false -> weqv w (create_account w a).
Proof.
  intros w a H. split; [reflexivity|]. intros b. unfold create_account. rewrite acct_or_new_set.
  destruct (b =? a) eqn:E; [|reflexivity]. apply Z.eqb_eq in E. subst.
  unfold balance, acct_or_new, exists_b in *. destruct (get_acct w a); [discriminate|reflexivity].
Qed.

(** a call whose callee is static (STATICCALL, or any call from a static frame, which carries no value)
    leaves the world observationally unchanged, whether or not it opens a frame *)
Lemma start_call_static_world : forall k d w ps pc pv pst t args g v ro rs w',
    callee_static k pst = true -> (k = KCall -> v = 0) ->
    started_world (start_call k d w ps pc pv pst t args g v ro rs) = Some w' -> weqv w w'.
Proof.
  intros until w'. intros Hs Hv. unfold start_call.
  assert (Hrefl : forall st, started_world st = Some w -> started_world st = Some w' -> weqv w w')
    by (intros st H1 H2; rewrite H1 in H2; inversion H2; apply weqv_refl).
  destruct (call_create_depth <? d); [apply Hrefl; reflexivity|].
  destruct k; cbv zeta.
  - rewrite (Hv eq_refl). cbn [Z.eqb Z.ltb Z.compare negb andb orb].
    set (w2 := transfer (if exists_b w t then w else create_account w t) ps t 0).
    assert (Hw2 : weqv w w2).
    { unfold w2. destruct (exists_b w t) eqn:Hex; [apply weqv_transfer0|].
      eapply weqv_trans; [apply weqv_create_absent; exact Hex|apply weqv_transfer0]. }
    destruct (negb (exists_b w t) && negb (is_precompile t) && true); [apply Hrefl; reflexivity|].
    destruct (is_precompile t).
    { intros H. destruct (run_precompile_world _ _ _ _ _ _ H) as [->| ->]; [exact Hw2|apply weqv_refl]. }
    destruct (is_nil (code_of w2 t)); intros H; inversion H; subst; exact Hw2.
  - destruct (_ || _); [apply Hrefl; reflexivity|]. destruct (is_precompile t).
    { intros H. destruct (run_precompile_world _ _ _ _ _ _ H) as [->| ->]; apply weqv_refl. }
    destruct (is_nil (code_of w t)); apply Hrefl; reflexivity.
  - destruct (is_precompile t).
    { intros H. destruct (run_precompile_world _ _ _ _ _ _ H) as [->| ->]; apply weqv_refl. }
    destruct (is_nil (code_of w t)); apply Hrefl; reflexivity.
  - destruct (is_precompile t).
    { intros H. destruct (run_precompile_world _ _ _ _ _ _ H) as [->| ->]; [apply weqv_touch|apply weqv_refl]. }
    destruct (is_nil (code_of (touch w t) t)); intros H; inversion H; subst; apply weqv_touch.
  - apply Hrefl; reflexivity.
Qed.

(** the invariant, on the immutable entry data of the frames (top first): a frame above a static frame is
    static ([chainL]); no creation frame is static; the world is observationally the snapshot of every static
    frame *)
Definition sgn := (kind * Z * bool * world)%type.
Definition skind (s : sgn) : kind := fst (fst (fst s)).
Definition sstat (s : sgn) : bool := snd (fst s).
Definition ssnap (s : sgn) : world := snd s.

Fixpoint chainL (l : list sgn) : Prop :=
  match l with
  | [] => True
  | s :: rest => ((exists s', In s' rest /\ sstat s' = true) -> sstat s = true) /\ chainL rest
  end.
Definition SIL (l : list sgn) (w : world) : Prop :=
  chainL l /\ (forall s, In s l -> skind s = KCreate -> sstat s = false) /\
  (forall s, In s l -> sstat s = true -> weqv (ssnap s) w).

Lemma SIL_weqv : forall l w w', SIL l w -> weqv w w' -> SIL l w'.
Proof.
  intros l w w' [H1 [H2 H3]] Hw. split; [exact H1|]. split; [exact H2|].
  intros s Hin Hs. eapply weqv_trans; [apply H3; assumption|exact Hw].
Qed.
Lemma chain_nostatic : forall s rest, chainL (s :: rest) -> sstat s = false -> forall s', In s' rest -> sstat s' = false.
Proof.
  intros s rest [H _] Hs s' Hin. destruct (sstat s') eqn:E; [|reflexivity].
  rewrite H in Hs; [discriminate|]. exists s'. auto.
Qed.
Lemma SIL_nostatic : forall s rest w w', SIL (s :: rest) w -> sstat s = false -> SIL (s :: rest) w'.
Proof.
  intros s rest w w' [H1 [H2 H3]] Hs. split; [exact H1|]. split; [exact H2|].
  intros s' [<-|Hin] Hst; [congruence|].
  rewrite (chain_nostatic s rest H1 Hs s' Hin) in Hst. discriminate.
Qed.
Lemma SIL_tail : forall s rest w, SIL (s :: rest) w -> SIL rest w.
Proof.
  intros s rest w [[_ H1] [H2 H3]]. split; [exact H1|]. split; intros; [apply H2|apply H3]; cbn; auto.
Qed.

Lemma sig_parts : forall p, skind (sig p) = f_kind p /\ sstat (sig p) = f_static p /\ ssnap (sig p) = f_snap p.
Proof. intros; repeat split. Qed.

Definition SI (c : config) : Prop := SIL (map sig (c_frames c)) (c_world c).

Lemma finish_SI : forall o ret f f' w w' rest,
    SIL (map sig (f :: rest)) w -> sig f' = sig f ->
    (f_static f = true -> weqv w w') ->
    SI (finish o ret f' w' rest).
Proof.
  intros o ret f f' w w' rest HS Hsig Hw.
  destruct (settle o ret f' w') as [[o1 g1] w1] eqn:Hs.
  destruct (settle_cases o ret f' w' o1 g1 w1 Hs) as [_ [Hw1 _]].
  assert (Hk : f_kind f' = f_kind f) by (unfold sig in Hsig; congruence).
  assert (Hsnap : f_snap f' = f_snap f) by (unfold sig in Hsig; congruence).
  assert (Hrest : SIL (map sig rest) w1).
  { cbn [map] in HS. destruct (f_static f) eqn:Hst.
    - (* static: [w1] is the old world or the snapshot, both observationally the old world *)
      apply SIL_weqv with (w := w); [apply (SIL_tail _ _ _ HS)|].
      destruct HS as [_ [Hnc Hsn']].
      assert (Hkf : f_kind f <> KCreate).
      { intros Hc. specialize (Hnc (sig f) (or_introl eq_refl)). cbn in Hnc. rewrite Hst in Hnc. specialize (Hnc Hc). discriminate. }
      assert (Hfs : weqv (f_snap f) w) by (apply (Hsn' (sig f) (or_introl eq_refl)); exact Hst).
      destruct Hw1 as [->|[->|[Hc _]]].
      + rewrite Hsnap. apply weqv_sym; exact Hfs.
      + apply Hw; reflexivity.
      + exfalso. rewrite Hk in Hc. destruct (f_kind f); try discriminate. apply Hkf; reflexivity.
    - destruct rest as [|p rest']; [split; [exact I|split; intros ? []]|].
      cbn [map]. apply SIL_nostatic with (w := w).
      + apply (SIL_tail _ _ _ HS).
      + destruct HS as [Hc _]. apply (chain_nostatic _ _ Hc Hst). cbn. auto. }
  pose proof (finish_cases o ret f' w' rest o1 g1 w1 Hs) as Hc. unfold SI. destruct rest as [|p rest'].
  - rewrite Hc. exact Hrest.
  - destruct Hc as [m [r [-> _]]]. exact Hrest.
Qed.

Lemma SIL_same_top : forall f f' rest w, sig f' = sig f -> SIL (map sig (f :: rest)) w -> SIL (map sig (f' :: rest)) w.
Proof. intros. cbn [map] in *. rewrite H. assumption. Qed.

Lemma push_SI : forall child f f' rest w w',
    SIL (map sig (f :: rest)) w -> sig f' = sig f ->
    (f_static f = true -> weqv w w' /\ f_static child = true) ->
    (f_static child = true -> weqv (f_snap child) w') ->
    (f_kind child = KCreate -> f_static child = false) ->
    SIL (map sig (child :: f' :: rest)) w'.
Proof.
  intros child f f' rest w w' HS Hsig Hst Hch Hkc.
  assert (HS' : SIL (map sig (f' :: rest)) w').
  { apply SIL_same_top with (f := f); auto. destruct (f_static f) eqn:E.
    - apply SIL_weqv with (w := w); auto. apply Hst; reflexivity.
    - cbn [map]. apply SIL_nostatic with (w := w); auto. }
  cbn [map] in *. destruct HS' as [H1 [H2 H3]]. split; [|split].
  - split; [|exact H1]. intros [s' [Hin Hs']]. cbn.
    destruct (f_static f) eqn:E; [apply Hst; reflexivity|].
    exfalso. rewrite Hsig in Hin. destruct Hin as [<-|Hin].
    + cbn in Hs'. congruence.
    + destruct HS as [Hc _]. rewrite (chain_nostatic _ _ Hc E s' Hin) in Hs'. discriminate.
  - intros s [<-|Hin]; [cbn; exact Hkc|apply H2; exact Hin].
  - intros s [<-|Hin]; [cbn; exact Hch|apply H3; exact Hin].
Qed.

Lemma exec_SI : forall e i f w rest cg,
    SIL (map sig (f :: rest)) w ->
    (f_static f = true -> instr_writes i = false /\ (i = ICallOp KCall -> sk (f_stack f) 2 = 0)) ->
    SI (exec e i f w rest cg).
Proof.
  intros e i f w rest cg HS Hst.
  (* an instruction that writes is executed by a non-static frame only *)
  assert (Hns : instr_writes i = true -> f_static f = true -> False).
  { intros Hw Hs. destruct (Hst Hs) as [H _]. congruence. }
  assert (Hw : forall w', world_effect i f w w' -> f_static f = true -> weqv w w').
  { intros w' He Hs. destruct (world_effect_writes _ _ _ _ He) as [->|Hwr]; [apply weqv_refl|destruct (Hns Hwr Hs)]. }
  (* the frame stays on top *)
  assert (Hsame : forall f' w' st, sig f' = sig f -> (f_static f = true -> weqv w w') -> SI (mk_config (f' :: rest) w' st)).
  { intros f' w' st Hsig Hww. unfold SI. cbn [c_frames c_world]. apply SIL_same_top with (f := f); [exact Hsig|].
    destruct (f_static f) eqn:E; [apply SIL_weqv with (w := w); auto|cbn [map]; apply SIL_nostatic with (w := w); auto]. }
  destruct (exec_cases keccak e i f w rest cg) as [pc s m w' _ _ _ _ _ He|o ret s w' _ He|addr init value gas Hi _ _|k Hi].
  - apply Hsame; [reflexivity|apply Hw, He].
  - apply finish_SI with (f := f) (w := w); [exact HS|reflexivity|apply Hw, He].
  - assert (Hwr : instr_writes i = true) by (destruct Hi; subst; reflexivity). cbv zeta.
    match goal with |- context [match ?st with _ => _ end] => destruct st as [o gb w' iret|child w'|] eqn:Hs end.
    + apply Hsame; [reflexivity|intros E; destruct (Hns Hwr E)].
    + apply start_create_frame in Hs. destruct Hs as [_ [_ ->]]. unfold SI. cbn [c_frames c_world].
      eapply push_SI with (f := f) (w := w); [exact HS|reflexivity| | |]; cbn [new_frame f_static f_kind];
        intros E; try destruct (Hns Hwr E). destruct (f_static f); [destruct (Hns Hwr eq_refl)|reflexivity].
    + apply Hsame; [reflexivity|intros E; destruct (Hns Hwr E)].
  - subst i. unfold call_result. cbv zeta.
    assert (Hv : callee_static k (f_static f) = true -> k = KCall -> callvalue k (f_stack f) = 0).
    { intros Hc ->. cbn [callee_static callvalue] in *. apply (Hst Hc). reflexivity. }
    match goal with |- context [match ?st with _ => _ end] => destruct st as [o gb w' iret|child w'|] eqn:Hs end.
    + apply Hsame; [reflexivity|]. intros E.
      assert (Hc : callee_static k (f_static f) = true) by (rewrite E; destruct k; reflexivity).
      exact (start_call_static_world _ _ _ _ _ _ _ _ _ _ _ _ _ _ Hc (Hv Hc) (f_equal started_world Hs)).
    + pose proof (start_call_frame _ _ _ _ _ _ _ _ _ _ _ _ _ _ _ Hs) as [_ [Hk [_ [caller [value Hch]]]]].
      assert (Hww : callee_static k (f_static f) = true -> weqv w w')
        by (intros Hc; exact (start_call_static_world _ _ _ _ _ _ _ _ _ _ _ _ _ _ Hc (Hv Hc) (f_equal started_world Hs))).
      subst child. unfold SI. cbn [c_frames c_world].
      eapply push_SI with (f := f) (w := w); [exact HS|reflexivity| | |]; cbn [new_frame f_static f_kind f_snap].
      * intros E. assert (Hc : callee_static k (f_static f) = true) by (rewrite E; destruct k; reflexivity).
        split; [exact (Hww Hc)|exact Hc].
      * exact Hww.
      * intros E. destruct (Hk E).
    + apply Hsame; [reflexivity|intros; apply weqv_refl].
Qed.

Definition call_decode_ok (op : Z) : bool :=
  match decode keccak blockhash op with
  | Some (ICallOp KCall) => op =? 241
  | _ => true
  end.
Lemma call_decode_all : forallb call_decode_ok all_ops = true.
Proof. vm_compute. reflexivity. Qed.
Lemma decode_call_241 : forall e op info, op_info e op = Some info ->
    decode keccak blockhash op = Some (ICallOp KCall) -> op = 241.
Proof.
  intros e op info Hinfo Hdec. unfold op_info in Hinfo.
  destruct ((0 <=? op) && (op <? 256)) eqn:Hr; [|discriminate].
  apply andb_true_iff in Hr. destruct Hr as [H0 H1].
  pose proof call_decode_all as Hall. rewrite forallb_forall in Hall.
  specialize (Hall op (in_all_ops op ltac:(lia))). unfold call_decode_ok in Hall. rewrite Hdec in Hall.
  apply Z.eqb_eq in Hall. exact Hall.
Qed.

Lemma step_SI : forall e c, SI c -> SI (step e c).
Proof.
  intros e c H. destruct (step_cases keccak blockhash e c) as [->|[f [rest [_ [Hf Hc]]]]]; [exact H|].
  unfold SI in H. rewrite Hf in H. destruct Hc as [er| |info i msz mc g cg Hinfo Hdec _ Hst _].
  - apply finish_SI with (f := f) (w := c_world c); [assumption|reflexivity|intros; apply weqv_refl].
  - exact H.
  - apply exec_SI; [exact H|]. cbn [set_gas set_mem f_static f_stack]. intros Hs. destruct (Hst Hs) as [Hw H241].
    destruct (slot_facts_of keccak blockhash e _ info i Hinfo Hdec). split; [congruence|].
    intros ->. apply H241. apply (decode_call_241 e _ info Hinfo Hdec).
Qed.

Lemma SIL_nil : forall w, SIL [] w.
Proof. intros w. split; [exact I|]. split; intros s []. Qed.

Lemma SIL_first : forall f w, f_static f = false -> SIL [sig f] w.
Proof.
  intros f w Hs. split; [|split].
  - split; [|exact I]. intros [s' [[] _]].
  - intros s [<-|[]] _. exact Hs.
  - intros s [<-|[]]. cbn. congruence.
Qed.

Lemma init_call_SI : forall e w t input g v, SI (init_call e w t input g v).
Proof.
  intros. unfold init_call, SI.
  destruct (start_call KCall 0 w (e_origin e) (e_origin e) 0 false t input g v 0 0) as [o gb w' iret|child w'|] eqn:Hs.
  - destruct o; apply SIL_nil.
  - apply start_call_frame in Hs. destruct Hs as [_ [_ [_ [caller [value ->]]]]]. apply SIL_first. reflexivity.
  - apply SIL_nil.
Qed.
Lemma init_create_SI : forall e w init g v, SI (init_create keccak e w init g v).
Proof.
  intros. unfold init_create, SI.
  match goal with |- context [match ?st with _ => _ end] => destruct st as [o gb w' iret|child w'|] eqn:Hs end.
  - apply SIL_nil.
  - apply start_create_frame in Hs. destruct Hs as [_ [_ ->]]. apply SIL_first. reflexivity.
  - apply SIL_nil.
Qed.

Lemma reachable_SI : forall e c, reachable e c -> SI c.
Proof.
  intros e c H. induction H.
  - apply init_call_SI.
  - apply init_create_SI.
  - apply step_SI; assumption.
Qed.

(** in every reachable configuration the world is observationally equal to the
    entry snapshot of every live static frame; frames entered from a static frame are static;
    no creation frame is static *)
Lemma static_no_write : forall e c p,
    reachable e c -> In p (c_frames c) -> f_static p = true ->
    weqv (f_snap p) (c_world c) /\ f_kind p <> KCreate.
Proof.
  intros e c p Hr Hin Hs. destruct (reachable_SI e c Hr) as [_ [Hnc Hsn]].
  assert (Hin' : In (sig p) (map sig (c_frames c))) by (apply in_map; exact Hin).
  split.
  - apply (Hsn (sig p) Hin'). exact Hs.
  - intros Hk. specialize (Hnc (sig p) Hin' Hk). cbn in Hnc. congruence.
Qed.

(** in a static frame, an opcode flagged [writes] in the real table, or a CALL
    with a non-zero value, ends the frame with an error (and, by [failed_frame_no_change], the
    world goes back to the frame's snapshot) *)
Lemma static_write_fails : forall e c f rest info,
    c_status c = Running -> c_frames c = f :: rest -> f_static f = true ->
    op_info e (cur_op f) = Some info ->
    (oi_writes info = true \/ (cur_op f = 241 /\ sk (f_stack f) 2 <> 0)) ->
    (exists er, step e c = fail er f (c_world c) rest) \/ step e c = mk_config (f :: rest) (c_world c) Unsupported.
Proof.
  intros e c f rest info Hrun Hf Hs Hinfo Hw. unfold EVM.step. rewrite Hrun, Hf, Hinfo.
  destruct (decode keccak blockhash (cur_op f)) as [i|]; [|right; reflexivity]. left.
  destruct (Z.of_nat (length (f_stack f)) <? oi_min info); [eexists; reflexivity|].
  destruct (oi_max info <? Z.of_nat (length (f_stack f))); [eexists; reflexivity|].
  assert (Hc : f_static f && (oi_writes info || (cur_op f =? 241) && negb (sk (f_stack f) 2 =? 0)) = true).
  { rewrite Hs. cbn [andb]. destruct Hw as [Hw|[H1 H2]].
    - rewrite Hw. reflexivity.
    - rewrite H1. apply orb_true_iff. right. cbn. apply negb_true_iff. apply Z.eqb_neq. exact H2. }
  rewrite Hc. exists EStatic. reflexivity.
Qed.

(** every model instruction that changes storage, logs, balances, code or the account set is
    flagged [writes] in the generated table *)
Lemma model_writes_flagged : forall e op info i,
    op_info e op = Some info -> decode keccak blockhash op = Some i -> instr_writes i = true -> oi_writes info = true.
Proof.
  intros e op info i Hinfo Hdec Hw. destruct (slot_facts_of keccak blockhash e op info i Hinfo Hdec). congruence.
Qed.

End Static.
