(** C10 -> C09 bridge.  C09's model of transaction execution (coq/theories/C09/Model.v) treats the
    byte-code interpreter as a Section variable [run : state -> call_input -> run_output] and proves
    its theorems under the contract [ExecOK run] (C09/ProofsVM.v).  Here [run] is instantiated with
    the C10 reference interpreter and the contract is PROVED for it ([run10_exec_ok]), so every C09
    theorem of the form [forall run, ExecOK run -> ...] holds for the C10 model.

    C09's state is abstract (code and storage are identities, the set of accounts is a function);
    the bridge concretises it over a finite universe [U] of addresses with arbitrary decoding
    functions (code/storage identity -> content, message id -> call data / init code, -> block
    environment); the contract holds for every choice of them.

    What C09 assumes and the interpreter cannot guarantee unconditionally is checked by [guard]
    (otherwise [run10] reports a failed run, which C09 treats like any VM failure):
      - balances in the state are non-negative;
      - the transaction origin is an externally owned account: it exists in [U], has no code, is not
        self-destructed and its nonce is not 0 (C09 bumps the sender's nonce before it calls [run]) —
        this is exactly C09's informal justification of [ok_origin];
      - the executing address is not the origin.
    Not matched: [ro_refund] is always 0 (the C10 model has no refund counter: it does not influence
    any C10 observable); a top-level call whose target is a precompile runs as a call to an account
    without code (precompiles are modelled only when called from byte code, identity 0x04 only). *)
From Coq Require Import List ZArith NArith Bool Lia FinFun.
From Kardia Require C09.Model C09.ProofsBase C09.ProofsVM C09.ProofsTx.
From Kardia Require Import C10.U256 C10.EVM C10.ProofsInv C10.ProofsFrames C10.ProofsStatic C10.ProofsGas
  C10.ProofsTerm C10.ProofsBal Generated.C10Facts.
Import ListNotations.
Local Open Scope Z_scope.

Module M := Kardia.C09.Model.
Module PB := Kardia.C09.ProofsBase.
Module PV := Kardia.C09.ProofsVM.

Section Bridge.
Variable keccak : list Z -> Z.
Variable blockhash : Z -> Z.
Variable U : list N.                           (* addresses of the concretised state *)
Variable code_of_id : N -> list Z.             (* code identity -> bytes *)
Variable stor_of_id : N -> list (Z * Z).       (* storage identity -> content *)
Variable id_of_code : list Z -> N.
Variable id_of_stor : list (Z * Z) -> N.
Variable input_of : N -> list Z.               (* message id -> call data (call) / init code (create) *)
Variable env_of : N -> env.                    (* message id -> block environment *)

Definition world_of (s : M.state) : world :=
  mk_world (map (fun a => (Z.of_N a,
                           mk_account (M.nonce s a) (M.bal s a) (code_of_id (M.code s a))
                                      (stor_of_id (M.a_stor (M.get s a)))
                                      (existsb (N.eqb a) (M.st_dead s))))
                (nodup N.eq_dec U)) [].

Definition guard (w : world) (o addr : Z) : bool :=
  forallb (fun p => 0 <=? a_bal (snd p)) (w_accts w)
  && match get_acct w o with
     | Some x => negb (a_nonce x =? 0) && is_nil (a_code x) && negb (a_dead x)
     | None => false
     end
  && negb (addr =? o).

Definition failed_output : M.run_output :=
  {| M.ro_err := M.VFail; M.ro_gas := 0; M.ro_retlen := 0; M.ro_retcode := 0%N; M.ro_refund := 0;
     M.ro_burn := 0; M.ro_writes := [] |}.

Definition write_of (w0 wf : world) (a : Z) : M.write :=
  {| M.w_addr := Z.to_N a;
     M.w_dbal := balance wf a - balance w0 a;
     M.w_dnonce := nonce wf a - nonce w0 a;
     M.w_code := Some (id_of_code (code_of wf a));
     M.w_stor := Some (id_of_stor (a_store (acct_or_new wf a)));
     M.w_dead := a_dead (acct_or_new wf a) |}.

Definition touched (w0 wf : world) : list Z := nodup Z.eq_dec (keys wf ++ keys w0).

(** C09's [call] and [create] (Model.v) do the balance test, the nonce bump, the account creation, the value
    transfer and the code deposit themselves and hand [run] only the execution of the code: so the run starts
    from a single frame on that code (the init code for a creation, with no deposit at its end), not from
    [init_call] / [init_create]; its invariants are set up in [start_INV] and [run10_cases] *)
Definition start_config (s : M.state) (ci : M.call_input) : config :=
  let w := world_of s in
  let addr := Z.of_N (M.ci_addr ci) in
  let code := if M.ci_create ci then input_of (M.ci_msg ci) else code_of w addr in
  let input := if M.ci_create ci then [] else input_of (M.ci_msg ci) in
  mk_config [new_frame KCall addr (Z.of_N (M.ci_caller ci)) (M.ci_value ci) code input (M.ci_gas ci) false w 0 0]
            w Running.

Definition env_for (ci : M.call_input) : env :=
  let e := env_of (M.ci_msg ci) in
  mk_env (Z.of_N (M.ci_origin ci)) (e_gasprice e) (e_coinbase e) (e_number e) (e_time e) (e_gaslimit e)
         (e_chainid e) (e_v2 e).

(** the C10 interpreter as C09's [run] *)
Definition run10 (s : M.state) (ci : M.call_input) : M.run_output :=
  let w := world_of s in
  if guard w (Z.of_N (M.ci_origin ci)) (Z.of_N (M.ci_addr ci)) && (0 <=? M.ci_gas ci) then
    let c := run_pow keccak blockhash (env_for ci) 64 (start_config s ci) in
    match c_status c with
    | Final OOk ret g =>
      {| M.ro_err := M.VOk; M.ro_gas := g; M.ro_retlen := Z.of_nat (length ret); M.ro_retcode := id_of_code ret;
         M.ro_refund := 0; M.ro_burn := T w - T (c_world c);
         M.ro_writes := map (write_of w (c_world c)) (touched w (c_world c)) |}
    | Final ORevert ret g =>
      {| M.ro_err := M.VRevert; M.ro_gas := g; M.ro_retlen := Z.of_nat (length ret); M.ro_retcode := id_of_code ret;
         M.ro_refund := 0; M.ro_burn := 0; M.ro_writes := [] |}
    | _ => failed_output
    end
  else failed_output.

Lemma keys_world_of : forall s, keys (world_of s) = map Z.of_N (nodup N.eq_dec U).
Proof. intros s. unfold keys, world_of. cbn [w_accts]. rewrite map_map. reflexivity. Qed.

Lemma guard_P : forall s o addr, guard (world_of s) o addr = true ->
    exists n0, n0 <> 0 /\ P o n0 (world_of s) /\ addr <> o.
Proof.
  intros s o addr H. unfold guard in H. apply andb_true_iff in H. destruct H as [H Hne].
  apply andb_true_iff in H. destruct H as [Hb Ho].
  destruct (get_acct (world_of s) o) as [x|] eqn:Hx; [|discriminate].
  apply andb_true_iff in Ho. destruct Ho as [Ho Hd]. apply andb_true_iff in Ho. destruct Ho as [Hn Hc].
  exists (a_nonce x). split; [apply negb_true_iff in Hn; apply Z.eqb_neq in Hn; exact Hn|]. split.
  - split; [|split].
    + rewrite keys_world_of. apply Injective_map_NoDup; [intros a b; apply N2Z.inj|apply NoDup_nodup].
    + rewrite Forall_forall. intros p Hp. split.
      * unfold world_of in Hp. cbn [w_accts] in Hp. apply in_map_iff in Hp. destruct Hp as [a [<- _]]. cbn [fst]. lia.
      * rewrite forallb_forall in Hb. specialize (Hb p Hp). apply Z.leb_le in Hb. exact Hb.
    + exists x. split; [exact Hx|]. repeat split; auto.
      * destruct (a_code x); [reflexivity|discriminate].
      * apply negb_true_iff in Hd. exact Hd.
  - apply negb_true_iff in Hne. apply Z.eqb_neq in Hne. exact Hne.
Qed.

Lemma run_n_INV : forall e n c, INV c -> WF c ->
    INV (run_n keccak blockhash e n c) /\ WF (run_n keccak blockhash e n c) /\
    total_gas (run_n keccak blockhash e n c) <= total_gas c.
Proof.
  intros e n. induction n as [|n IH]; intros c HI HW; cbn [run_n]; [split; [exact HI|split; [exact HW|lia]]|].
  destruct (step_INV keccak blockhash e c HI HW) as [HI' [Ht _]].
  destruct (IH _ HI' (step_WF keccak blockhash e c HW)) as [A [B C]]. split; [exact A|split; [exact B|lia]].
Qed.

Lemma start_INV : forall s ci, 0 <= M.ci_gas ci ->
    INV (start_config s ci) /\ WF (start_config s ci) /\ total_gas (start_config s ci) = M.ci_gas ci.
Proof.
  intros s ci Hg. unfold start_config. split; [|split].
  - split.
    + split; [cbn [c_frames]; constructor; [exact Hg|constructor]|exact I].
    + cbn [c_frames]. constructor; [|constructor]. apply fresh_memok; reflexivity.
  - intros _. cbn [c_frames]. discriminate.
  - cbn [total_gas c_status c_frames frames_gas new_frame f_gas]. lia.
Qed.

Lemma sum_dbal_map : forall (g : Z -> M.write) K, PB.sum_dbal (map g K) = ksum (fun a => M.w_dbal (g a)) K.
Proof. intros g K. induction K as [|a K IH]; [reflexivity|]. cbn [map PB.sum_dbal ksum fold_right]. f_equal. exact IH. Qed.

Lemma ksum_sub : forall (f g : Z -> Z) K, ksum (fun a => f a - g a) K = ksum f K - ksum g K.
Proof. intros f g K. induction K as [|a K IH]; [reflexivity|]. cbn [ksum fold_right]. fold (ksum f K) (ksum g K) (ksum (fun a => f a - g a) K). lia. Qed.

(** what [run10] returns: the failure record, or the outcome of a run of [k] steps that started from a
    configuration satisfying the gas and the balance invariants *)
Lemma run10_cases : forall s ci,
    run10 s ci = failed_output \/
    exists k n0, let w := world_of s in let o := Z.of_N (M.ci_origin ci) in
                 let c := run_n keccak blockhash (env_for ci) k (start_config s ci) in
      n0 <> 0 /\ P o n0 w /\ INVB o n0 (T w) c /\ INV c /\ total_gas c <= M.ci_gas ci /\
      exists ret g, (c_status c = Final OOk ret g /\
                     run10 s ci = {| M.ro_err := M.VOk; M.ro_gas := g; M.ro_retlen := Z.of_nat (length ret);
                                     M.ro_retcode := id_of_code ret; M.ro_refund := 0; M.ro_burn := T w - T (c_world c);
                                     M.ro_writes := map (write_of w (c_world c)) (touched w (c_world c)) |}) \/
                    (c_status c = Final ORevert ret g /\
                     run10 s ci = {| M.ro_err := M.VRevert; M.ro_gas := g; M.ro_retlen := Z.of_nat (length ret);
                                     M.ro_retcode := id_of_code ret; M.ro_refund := 0; M.ro_burn := 0; M.ro_writes := [] |}).
Proof.
  intros s ci. unfold run10.
  destruct (guard (world_of s) (Z.of_N (M.ci_origin ci)) (Z.of_N (M.ci_addr ci))) eqn:Hgd; [|left; reflexivity].
  destruct (0 <=? M.ci_gas ci) eqn:Hg; [|left; reflexivity]. apply Z.leb_le in Hg. cbn [andb].
  destruct (guard_P _ _ _ Hgd) as [n0 [Hn0 [HP Hne]]].
  destruct (run_pow_spec keccak blockhash (env_for ci) 64 (start_config s ci)) as [k [_ [-> _]]].
  destruct (start_INV s ci Hg) as [HI [HW Ht]].
  destruct (run_n_INV (env_for ci) k _ HI HW) as [HI' [_ Hle]].
  assert (HB : INVB (Z.of_N (M.ci_origin ci)) n0 (T (world_of s)) (start_config s ci)).
  { unfold INVB, start_config. cbn [c_world c_frames map tchain new_frame f_snap].
    split; [exact HP|]. split; [|lia].
    constructor; [|constructor]. unfold FI. cbn [new_frame f_snap f_self]. split; [exact HP|]. split; [exact Hne|lia]. }
  apply (run_n_B keccak blockhash _ n0 Hn0 _ (env_for ci) k) in HB.
  destruct (c_status (run_n keccak blockhash (env_for ci) k (start_config s ci))) as [|[| |er] ret g|] eqn:Hst;
    try (left; reflexivity); right; exists k, n0; cbv zeta; rewrite Hst;
    (split; [exact Hn0|]); (split; [exact HP|]); (split; [exact HB|]); (split; [exact HI'|]); (split; [lia|]);
    exists ret, g; [left|right]; split; reflexivity.
Qed.

Theorem run10_exec_ok : PV.ExecOK run10.
Proof.
  (* each of the six fields on the failure record, on a successful run and on a reverted run; what is not
     settled by the final status ([Hfin], [Hle]: the gas left) or by an empty write list is argued below *)
  constructor; intros s ci;
    (destruct (run10_cases s ci) as [->|[k [n0 [Hn0 [HP [[HPf [_ Hch]] [[[_ Hfin] _] [Hle [ret [g [[Hst ->]|[Hst ->]]]]]]]]]]]]);
    cbv zeta in *; cbn [failed_output M.ro_gas M.ro_burn M.ro_err M.ro_refund M.ro_retlen M.ro_writes];
    try rewrite Hst in Hfin; try (unfold total_gas in Hle; rewrite Hst in Hle); intros; try lia; try discriminate;
    try contradiction.
  - (* burn: the sum of balances has not grown *)
    apply tchain_bound in Hch. lia.
  - (* moves: the balance deltas of the touched accounts sum to what was burnt *)
    rewrite sum_dbal_map. unfold write_of. cbn [M.w_dbal]. rewrite ksum_sub.
    assert (HK : NoDup (touched (world_of s) (c_world (run_n keccak blockhash (env_for ci) k (start_config s ci)))))
      by apply NoDup_nodup.
    destruct HP as [Hk0 _]. destruct HPf as [Hkf _].
    rewrite (ksum_T _ _ HK Hkf), (ksum_T _ _ HK Hk0); [lia| |].
    + intros a Ha. unfold touched. apply nodup_In. apply in_or_app. right. exact Ha.
    + intros a Ha. unfold touched. apply nodup_In. apply in_or_app. left. exact Ha.
  - (* origin: a written address is a key of one of the two worlds, hence non-negative, hence the origin itself *)
    match goal with H : In _ (map _ _) |- _ => apply in_map_iff in H; destruct H as [a [<- Ha]] end.
    cbn [write_of M.w_addr M.w_dnonce M.w_dead] in *.
    assert (Ha0 : 0 <= a).
    { unfold touched in Ha. apply nodup_In in Ha. apply in_app_or in Ha.
      assert (Hk : forall w', P (Z.of_N (M.ci_origin ci)) n0 w' -> In a (keys w') -> 0 <= a).
      { intros w' [_ [Hg _]] Hk. unfold keys in Hk. apply in_map_iff in Hk. destruct Hk as [p [<- Hp]].
        rewrite Forall_forall in Hg. apply (Hg p Hp). }
      destruct Ha; eauto. }
    assert (Hao : a = Z.of_N (M.ci_origin ci)) by (match goal with H : Z.to_N a = _ |- _ => rewrite <- H end; rewrite Z2N.id; auto).
    subst a.
    pose proof (origin_acct _ _ _ HP) as [A1 [A2 A3]]. pose proof (origin_acct _ _ _ HPf) as [B1 [B2 B3]].
    unfold nonce. split; [lia|exact B3].
Qed.

(** C09's results, discharged for the C10 interpreter (instances of the lemmas behind C09_gas_bounds,
    C09_pool_exact, C09_nonce and C09_fee_flow; every theorem of C09/Properties.v of the form
    [forall run ca, ExecOK run -> ...] specialises the same way).  This file does not import
    C09/Properties.v, so that C09/Properties.v can import it and state its theorems for [run10]. *)
Definition C09_gas_bounds_for_C10 ca := Kardia.C09.ProofsTx.executed_gas_bounds run10 ca run10_exec_ok.
Definition C09_pool_exact_for_C10 ca := Kardia.C09.ProofsTx.executed_pool run10 ca run10_exec_ok.
Definition C09_nonce_for_C10 ca := Kardia.C09.ProofsTx.executed_nonce run10 ca run10_exec_ok.
Definition C09_fee_flow_for_C10 ca := Kardia.C09.ProofsTx.executed_fee_flow run10 ca run10_exec_ok.

End Bridge.
