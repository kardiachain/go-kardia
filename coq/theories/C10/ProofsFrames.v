(** C10 — call-frame discipline: a frame's snapshot is the world at its entry (for a creation: the world
    after the creator's nonce bump and before the endowment, [entry_world]; kvm.create bumps the nonce
    before it takes its snapshot), it never changes while the frame is alive, and a frame that ends with a revert or an error hands back exactly
    that snapshot (no state change survives a failed frame). *)
From Coq Require Import List ZArith Bool Lia.
From Kardia Require Import C10.EVM C10.ProofsInv.
Import ListNotations.
Local Open Scope Z_scope.

Section Frames.
Variable keccak : list Z -> Z.
Variable blockhash : Z -> Z.
Notation step := (step keccak blockhash).
Notation exec := (exec keccak).

(** the part of a frame that is fixed at entry *)
Definition sig (p : frame) : kind * Z * bool * world := (f_kind p, f_self p, f_static p, f_snap p).

(** world seen by a new frame: the caller's world, after the creator's nonce bump for creations *)
Definition entry_world (w : world) (creator : Z) (child : frame) : Prop :=
  f_snap child = w \/
  (f_kind child = KCreate /\ f_snap child = set_nonce w creator (nonce w creator + 1)).

Inductive shape (w : world) (f : frame) (rest : list frame) (c' : config) : Prop :=
| sh_same : map sig (c_frames c') = map sig (f :: rest) -> shape w f rest c'
| sh_pop : forall o ret f' w', sig f' = sig f -> c' = finish o ret f' w' rest -> shape w f rest c'
| sh_push : forall child f', c_frames c' = child :: f' :: rest -> sig f' = sig f ->
                             entry_world w (f_self f) child -> f_stack child = [] -> shape w f rest c'.

Lemma exec_shape : forall e i f w rest cg, shape w f rest (exec e i f w rest cg).
Proof.
  intros e i f w rest cg.
  destruct (exec_cases keccak e i f w rest cg) as [pc s m w' _ _ _ _ _ _|o ret s w' _ _|addr init value gas _ _ _|k _].
  - apply sh_same. reflexivity.
  - eapply sh_pop; reflexivity.
  - cbv zeta.
    match goal with |- context [match ?st with _ => _ end] => destruct st as [o gb w' iret|child w'|] eqn:Hst end;
      try (apply sh_same; reflexivity).
    apply start_create_frame in Hst. destruct Hst as [_ [_ ->]].
    eapply sh_push; [reflexivity|reflexivity|right; split; reflexivity|reflexivity].
  - unfold call_result. cbv zeta.
    match goal with |- context [match ?st with _ => _ end] => destruct st as [o gb w' iret|child w'|] eqn:Hst end;
      try (apply sh_same; reflexivity).
    apply start_call_frame in Hst. destruct Hst as [_ [_ [_ [caller [value ->]]]]].
    eapply sh_push; [reflexivity|reflexivity|left; reflexivity|reflexivity].
Qed.

Lemma shape_sig : forall w f f' rest c', sig f' = sig f -> shape w f' rest c' -> shape w f rest c'.
Proof.
  intros w f f' rest c' Hs H. destruct H as [H|o ret f'' w' H1 H2|child f'' H1 H2 H3 H4].
  - apply sh_same. rewrite H. cbn [map]. rewrite Hs. reflexivity.
  - eapply sh_pop; [|exact H2]. congruence.
  - eapply sh_push with (child := child) (f' := f''); auto.
    + congruence.
    + assert (Hself : f_self f' = f_self f) by (unfold sig in Hs; congruence).
      rewrite <- Hself. exact H3.
Qed.

(** every step of a running configuration either keeps the frames, ends the top frame, or enters
    a new one whose snapshot is the current world *)
Lemma step_shape : forall e c f rest,
    c_status c = Running -> c_frames c = f :: rest -> shape (c_world c) f rest (step e c).
Proof.
  intros e c f rest Hrun Hf.
  destruct (step_running keccak blockhash e c f rest Hrun Hf) as [er| |info i msz mc g cg _ _ _ _ _].
  - eapply sh_pop; reflexivity.
  - apply sh_same. reflexivity.
  - eapply shape_sig; [|apply exec_shape]. reflexivity.
Qed.

(** what ending a frame does: the outcome [o1] reaches the caller's stack (or the embedder), and unless it
    is success the world is the frame's snapshot *)
Lemma finish_outcome : forall o ret f w rest, exists o1 : outcome,
    (o1 <> OOk -> c_world (finish o ret f w rest) = f_snap f) /\
    match rest with
    | [] => c_frames (finish o ret f w rest) = [] /\ exists g, c_status (finish o ret f w rest) = Final o1 ret g
    | p :: rest' => exists p', c_frames (finish o ret f w rest) = p' :: rest' /\ sig p' = sig p /\
                               hd 0 (f_stack p') = (if is_ok o1 then (if is_create (f_kind f) then f_self f else 1) else 0)
    end.
Proof.
  intros o ret f w rest. destruct (settle o ret f w) as [[o1 g1] w1] eqn:Hs. exists o1.
  destruct (settle_cases o ret f w o1 g1 w1 Hs) as [Hsn _].
  pose proof (finish_cases o ret f w rest o1 g1 w1 Hs) as Hc. destruct rest as [|p rest'].
  - rewrite Hc. split; [exact Hsn|]. split; [reflexivity|]. exists g1. reflexivity.
  - destruct Hc as [m [r [-> _]]]. split; [exact Hsn|]. eexists. repeat split.
Qed.

(** the step that ends frame [f] reports an outcome [o1]; unless [o1] is success the
    world is exactly [f]'s entry snapshot; the outcome is what the caller (or the embedder) sees *)
Lemma failed_frame_no_change : forall e c f rest,
    c_status c = Running -> c_frames c = f :: rest ->
    (length (c_frames (step e c)) <= length rest)%nat ->
    exists o1 : outcome,
      (o1 <> OOk -> c_world (step e c) = f_snap f) /\
      match rest with
      | [] => exists ret g, c_status (step e c) = Final o1 ret g
      | p :: rest' => exists p', c_frames (step e c) = p' :: rest' /\ sig p' = sig p /\
                                 hd 0 (f_stack p') = (if is_ok o1 then (if is_create (f_kind f) then f_self f else 1) else 0)
      end.
Proof.
  intros e c f rest Hrun Hf Hlen.
  destruct (step_shape e c f rest Hrun Hf) as [H|o ret f' w' H1 H2|child f'' H1 H2 H3 H4].
  - apply (f_equal (@length _)) in H. rewrite !map_length in H. cbn [length] in H. lia.
  - rewrite H2. unfold sig in H1.
    assert (Hk : f_kind f' = f_kind f) by congruence.
    assert (Hself : f_self f' = f_self f) by congruence.
    assert (Hsnap : f_snap f' = f_snap f) by congruence.
    destruct (finish_outcome o ret f' w' rest) as [o1 [Hw Hr]]. rewrite Hk, Hself, Hsnap in *.
    exists o1. split; [exact Hw|]. destruct rest as [|p rest']; [|exact Hr].
    destruct Hr as [_ [g Hg]]. eauto.
  - rewrite H1 in Hlen. cbn [length] in Hlen. lia.
Qed.

(** the step that enters a frame records the current world as its snapshot; the new frame starts
    with an empty stack *)
Lemma entered_frame_snapshot : forall e c f rest,
    c_status c = Running -> c_frames c = f :: rest ->
    (length (c_frames (step e c)) > length (c_frames c))%nat ->
    exists child f', c_frames (step e c) = child :: f' :: rest /\ sig f' = sig f /\
                     f_stack child = [] /\ entry_world (c_world c) (f_self f) child.
Proof.
  intros e c f rest Hrun Hf Hlen. rewrite Hf in Hlen. cbn [length] in Hlen.
  destruct (step_shape e c f rest Hrun Hf) as [H|o ret f' w' H1 H2|child f' H1 H2 H3 H4].
  - apply (f_equal (@length _)) in H. rewrite !map_length in H. cbn [length] in H. lia.
  - rewrite H2, finish_length in Hlen. lia.
  - exists child, f'. auto.
Qed.

(** frames below the top are never touched by a step that does not end the frame above them, and
    the entry data (kind, address, static flag, snapshot) of every live frame is immutable *)
Lemma live_frames_keep_sig : forall e c f rest,
    c_status c = Running -> c_frames c = f :: rest ->
    (exists top, map sig (c_frames (step e c)) = top ++ map sig (f :: rest)) \/
    map sig (c_frames (step e c)) = map sig rest.
Proof.
  intros e c f rest Hrun Hf.
  destruct (step_shape e c f rest Hrun Hf) as [H|o ret f' w' H1 H2|child f' H1 H2 H3 H4].
  - left. exists []. exact H.
  - right. rewrite H2. destruct (finish_outcome o ret f' w' rest) as [o1 [_ Hr]].
    destruct rest as [|p rest'].
    + destruct Hr as [-> _]. reflexivity.
    + destruct Hr as [p' [-> [Hb _]]]. cbn [map]. rewrite Hb. reflexivity.
  - left. exists [sig child]. rewrite H1. cbn [map app]. rewrite H2. reflexivity.
Qed.

End Frames.
