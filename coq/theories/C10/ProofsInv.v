(** C10 — the shape of one step, and the stack and call-depth bounds.
    Every invariant of the machine is proved by the same three case analyses, done here once:
    [step_cases] (idle / the top frame fails / unsupported / an instruction is executed on a frame that was
    charged and resized), [exec_cases] (the frame goes on / ends / opens a creation / opens a call) and
    [finish_cases] (no caller: final; otherwise the caller is resumed).  The bounds follow from the
    min/max-stack columns of the generated jump tables (ProofsTables.slot_facts_of). *)
From Coq Require Import List ZArith Bool Lia.
From Kardia Require Import C10.U256 C10.EVM C10.ProofsTables Generated.C10Facts.
Import ListNotations.
Local Open Scope Z_scope.

(** [exec] reads its operands with [nth k (firstn n s)], the memory-size and gas functions with [sk s k] *)
Lemma sk_firstn : forall (s : list Z) n k, (k < n)%nat -> nth k (firstn n s) 0 = sk s k.
Proof.
  intros s n. revert s. induction n as [|n IH]; intros s k Hk; [lia|].
  destruct s as [|x s]; [destruct k; reflexivity|]. destruct k as [|k]; [reflexivity|].
  cbn [firstn nth]. unfold sk. cbn [nth]. apply IH. lia.
Qed.
Lemma sk_skip_firstn : forall (s : list Z) n d k, (d + k < n)%nat -> nth k (skipn d (firstn n s)) 0 = sk s (d + k).
Proof.
  intros s n d. revert s n. induction d as [|d IH]; intros s n k Hk.
  - cbn [skipn Nat.add]. apply sk_firstn. lia.
  - destruct n as [|n]; [lia|]. destruct s as [|x s].
    + cbn [firstn skipn]. destruct k; reflexivity.
    + cbn [firstn skipn Nat.add]. unfold sk. cbn [nth]. apply IH. lia.
Qed.

(** operands of a CALL-family instruction: the value (absent for DELEGATECALL and STATICCALL) and, after it,
    input offset, input size, return offset, return size *)
Definition callvalue (k : kind) (s : list Z) : Z := match k with KCall | KCallCode => sk s 2 | _ => 0 end.
Definition callarg (k : kind) (s : list Z) (n : nat) : Z :=
  match k with KCall | KCallCode => sk s (3 + n) | _ => sk s (2 + n) end.

Lemma instr_mem_call : forall op k s,
    instr_mem op (ICallOp k) s = Some (mem_need2 (callarg k s 2) (callarg k s 3) (callarg k s 0) (callarg k s 1)).
Proof. intros op k s. destruct k; reflexivity. Qed.

Lemma addr_nonneg : forall z, 0 <= addr_of_word z.
Proof. intros z. unfold addr_of_word. apply Z.mod_pos_bound. reflexivity. Qed.

Lemma mem_resize_length : forall m size,
    Z.of_nat (length (mem_resize m size)) = Z.max (Z.of_nat (length m)) size.
Proof.
  intros m size. unfold mem_resize. destruct (Z.of_nat (length m) <? size) eqn:E.
  - apply Z.ltb_lt in E. rewrite app_length, repeat_length. lia.
  - apply Z.ltb_ge in E. lia.
Qed.

Lemma slice_pad_length : forall d st sz, length (slice_pad d st sz) = Z.to_nat sz.
Proof.
  intros d st sz. unfold slice_pad. generalize (Z.to_nat sz) as n. intros n.
  match goal with |- length (pad_right n ?l) = n => generalize l end.
  induction n as [|n IH]; intros l; [reflexivity|]. destruct l; cbn [pad_right length]; rewrite IH; reflexivity.
Qed.

Lemma set_stack_same : forall f, set_stack f (f_stack f) = f.
Proof. intros f. destruct f; reflexivity. Qed.

Definition callee_self (k : kind) (ps t : Z) : Z := match k with KCall | KStatic => t | _ => ps end.
Definition callee_static (k : kind) (pst : bool) : bool := match k with KStatic => true | _ => pst end.

Lemma run_precompile_no_frame : forall t wok ws args g child w', run_precompile t wok ws args g <> SFrame child w'.
Proof. intros. unfold run_precompile. destruct (t =? 4); [destruct (g <? _)|]; discriminate. Qed.

(** the frame opened by a message call: runs the target's (non-empty) code on the caller's world as snapshot *)
Lemma start_call_frame : forall k d w ps pc pv pst t args g v ro rs child w',
    start_call k d w ps pc pv pst t args g v ro rs = SFrame child w' ->
    d <= call_create_depth /\ k <> KCreate /\ is_nil (code_of w' t) = false /\
    exists caller value,
      child = new_frame k (callee_self k ps t) caller value (code_of w' t) args g (callee_static k pst) w ro rs.
Proof.
  intros until w'. unfold start_call.
  destruct (call_create_depth <? d) eqn:Hd; [discriminate|]. apply Z.ltb_ge in Hd.
  assert (Hpre : forall wok P, run_precompile t wok w args g = SFrame child w' -> P)
    by (intros wok P H; destruct (run_precompile_no_frame _ _ _ _ _ _ _ H)).
  destruct k; cbv zeta; try discriminate.
  1: destruct (_ || _); [discriminate|]; destruct (_ && _ && _); [discriminate|].
  2: destruct (_ || _); [discriminate|].
  all: destruct (is_precompile t); [apply Hpre|].
  all: match goal with |- context [is_nil ?c] => destruct (is_nil c) eqn:Hc end; [discriminate|].
  all: intros H; inversion H; subst; repeat split; [assumption|discriminate|assumption|eauto].
Qed.

(** the frame opened by a creation: its snapshot is the world after the creator's nonce bump, in which the
    new address has no nonce yet *)
Lemma start_create_frame : forall d w ps pst a init g v child w',
    start_create d w ps pst a init g v = SFrame child w' ->
    let w1 := set_nonce w ps (nonce w ps + 1) in
    d <= call_create_depth /\ nonce w1 a = 0 /\ child = new_frame KCreate a ps v init [] g pst w1 0 0.
Proof.
  intros until w'. unfold start_create.
  destruct (call_create_depth <? d) eqn:Hd; [discriminate|]. apply Z.ltb_ge in Hd.
  destruct (_ || _); [discriminate|]. cbv zeta. destruct (_ || _) eqn:Hc; [discriminate|].
  apply orb_false_iff in Hc. destruct Hc as [Hc _]. apply negb_false_iff in Hc. apply Z.eqb_eq in Hc.
  destruct (is_nil init); [discriminate|]. intros H; inversion H; subst. repeat split; assumption.
Qed.

(** the world a call or creation leaves behind, with or without a new frame *)
Definition started_world (st : started) : option world :=
  match st with SImmediate _ _ w _ => Some w | SFrame _ w => Some w | SUnsupported => None end.

Lemma run_precompile_world : forall t wok ws args g w',
    started_world (run_precompile t wok ws args g) = Some w' -> w' = wok \/ w' = ws.
Proof.
  intros t wok ws args g w'. unfold run_precompile. destruct (t =? 4); [|discriminate].
  destruct (g <? _); intros H; inversion H; auto.
Qed.

(** a frame whose callee (or immediate call) is over: one result word pushed, the gas handed back added,
    memory [m] and return data [r] as the result left them *)
Definition resumed (p : frame) (flag : Z) (m : list Z) (gas : Z) (r : list Z) : frame :=
  mk_frame (f_kind p) (f_self p) (f_caller p) (f_value p) (f_code p) (f_input p) (f_pc p + 1)
           (flag :: f_stack p) m (f_mcost p) (f_gas p + gas) (f_static p) r (f_snap p) (f_retoff p) (f_retsize p).
Lemma resume_create_resumed : forall p res ret gas, resume_create p res ret gas = resumed p res (f_mem p) gas ret.
Proof. reflexivity. Qed.
Lemma resume_call_resumed : forall p flag visible ret gas ro rs,
    resume_call p flag visible ret gas ro rs =
    resumed p flag (if visible then mem_write (f_mem p) ro (firstn (Z.to_nat rs) ret) else f_mem p) gas
            (if visible then ret else []).
Proof. reflexivity. Qed.

(** the memory after a result came back: untouched, or written in the return range only *)
Definition ret_written (m : list Z) (ro rs : Z) (ret m' : list Z) : Prop :=
  m' = m \/ m' = mem_write m ro (firstn (Z.to_nat rs) ret).

Lemma mem_write_le : forall m off bytes, (length m <= length (mem_write m off bytes))%nat.
Proof.
  intros m off bytes. unfold mem_write. destruct bytes as [|b t]; [lia|].
  rewrite !app_length, firstn_length, skipn_length. lia.
Qed.

Lemma mem_write_eq : forall m off bytes,
    (Z.to_nat off + length bytes <= length m)%nat -> length (mem_write m off bytes) = length m.
Proof.
  intros m off bytes H. unfold mem_write. destruct bytes as [|b t]; [reflexivity|].
  rewrite !app_length, firstn_length, skipn_length. lia.
Qed.
Lemma ret_written_le : forall m ro rs ret m', ret_written m ro rs ret m' -> (length m <= length m')%nat.
Proof. intros m ro rs ret m' [->| ->]; [lia|apply mem_write_le]. Qed.

(** the memory left by a returning callee (or an immediate call result) whose return range lies inside it *)
Lemma ret_written_eq : forall m ro rs ret m',
    ret_written m ro rs ret m' -> (rs <= 0 \/ (0 <= ro /\ ro + rs <= Z.of_nat (length m))) -> length m' = length m.
Proof.
  intros m ro rs ret m' [->| ->] H; [reflexivity|].
  destruct (Z_le_gt_dec rs 0) as [Hz|Hs].
  - replace (Z.to_nat rs) with 0%nat by lia. reflexivity.
  - destruct H as [Hz|[H0 Hb]]; [lia|]. apply mem_write_eq. rewrite firstn_length. lia.
Qed.


Lemma settle_cases : forall o ret f w o1 g1 w1, settle o ret f w = (o1, g1, w1) ->
    (o1 <> OOk -> w1 = f_snap f) /\
    (w1 = f_snap f \/ w1 = w \/ (is_create (f_kind f) = true /\ w1 = set_code w (f_self f) ret)) /\
    (0 <= f_gas f -> 0 <= g1 <= f_gas f).
Proof.
  intros o ret f w o1 g1 w1 Hs. pose proof consts as C. unfold settle in Hs. destruct o.
  - destruct (is_create (f_kind f)).
    + destruct (max_code_size <? Z.of_nat (length ret)); [inversion Hs; subst; repeat split; auto; lia|].
      assert (0 <= Z.of_nat (length ret) * g_create_data) by (apply Z.mul_nonneg_nonneg; lia).
      destruct (f_gas f <? Z.of_nat (length ret) * g_create_data) eqn:E; inversion Hs; subst.
      * repeat split; auto; lia.
      * apply Z.ltb_ge in E. repeat split; auto; try lia. congruence.
    + inversion Hs; subst. repeat split; auto; try lia. congruence.
  - inversion Hs; subst. repeat split; auto; lia.
  - inversion Hs; subst. repeat split; auto; lia.
Qed.

Lemma finish_cases : forall o ret f w rest o1 g1 w1, settle o ret f w = (o1, g1, w1) ->
    match rest with
    | [] => finish o ret f w rest = mk_config [] w1 (Final o1 ret g1)
    | p :: rest' => exists m r,
        finish o ret f w rest =
        mk_config (resumed p (if is_ok o1 then (if is_create (f_kind f) then f_self f else 1) else 0) m g1 r :: rest')
                  w1 Running /\
        ret_written (f_mem p) (f_retoff f) (f_retsize f) ret m
    end.
Proof.
  intros o ret f w rest o1 g1 w1 Hs. unfold finish. rewrite Hs. destruct rest as [|p rest']; [reflexivity|].
  destruct (is_create (f_kind f)).
  - rewrite resume_create_resumed. do 2 eexists. split; [reflexivity|left; reflexivity].
  - rewrite resume_call_resumed. do 2 eexists. split; [reflexivity|]. destruct o1; [right|right|left]; reflexivity.
Qed.

Lemma finish_length : forall o ret f w rest, length (c_frames (finish o ret f w rest)) = length rest.
Proof.
  intros. destruct (settle o ret f w) as [[o1 g1] w1] eqn:Hs.
  pose proof (finish_cases o ret f w rest o1 g1 w1 Hs) as Hc.
  destruct rest as [|p rest']; [rewrite Hc; reflexivity|]. destruct Hc as [m [r [-> _]]]. reflexivity.
Qed.

Section Inv.
Variable keccak : list Z -> Z.
Variable blockhash : Z -> Z.
Notation step := (step keccak blockhash).
Notation exec := (exec keccak).
Notation run_n := (run_n keccak blockhash).

(** a frame that goes on: only the program counter, the stack and the memory contents change *)
Definition upd (f : frame) (pc : Z) (s m : list Z) : frame :=
  mk_frame (f_kind f) (f_self f) (f_caller f) (f_value f) (f_code f) (f_input f) pc s m (f_mcost f) (f_gas f)
           (f_static f) (f_ret f) (f_snap f) (f_retoff f) (f_retsize f).

Definition stack_effect (i : instr) (f : frame) (s : list Z) : Prop :=
  (instr_pops i <= length (f_stack f))%nat -> (length s + instr_pops i = length (f_stack f) + instr_pushes i)%nat.
(** memory is written only in the range the instruction's memory-size function asked for *)
Definition mem_effect (i : instr) (f : frame) (m : list Z) : Prop :=
  m = f_mem f \/
  exists off size bytes, m = mem_write (f_mem f) off bytes /\ length bytes = Z.to_nat size /\
                         forall op, instr_mem op i (f_stack f) = Some (mem_need off size).
Inductive world_effect (i : instr) (f : frame) (w : world) : world -> Prop :=
| we_none : world_effect i f w w
| we_sstore : forall k v, i = ISstore -> world_effect i f w (sstore w (f_self f) k v)
| we_log : forall n l, i = ILog n -> world_effect i f w (add_log w l)
| we_selfdestruct : forall a, i = ISelfdestruct ->
    world_effect i f w (suicide (add_balance w (addr_of_word a) (balance w (f_self f))) (f_self f)).

Lemma world_effect_writes : forall i f w w', world_effect i f w w' -> w' = w \/ instr_writes i = true.
Proof. intros i f w w' H. destruct H; subst; auto. Qed.

(** a CALL-family instruction, with its operands as [sk] reads them: the caller pops them and either goes on
    with the immediate result or waits below the callee's frame *)
Definition call_result (k : kind) (f : frame) (w : world) (rest : list frame) (cg : Z) : config :=
  let s := f_stack f in
  let p := set_stack f (skipn (instr_pops (ICallOp k)) s) in
  let ro := callarg k s 2 in
  let rs := callarg k s 3 in
  match start_call k (Z.of_nat (S (length rest))) w (f_self f) (f_caller f) (f_value f) (f_static f)
                   (addr_of_word (sk s 1)) (mem_read (f_mem f) (callarg k s 0) (callarg k s 1))
                   (if negb (callvalue k s =? 0) then cg + g_call_stipend else cg) (callvalue k s) ro rs with
  | SImmediate o gb w' iret =>
    let visible := match o with OErr _ => false | _ => true end in
    mk_config (resumed p (if is_ok o then 1 else 0)
                       (if visible then mem_write (f_mem f) ro (firstn (Z.to_nat rs) iret) else f_mem f)
                       gb (if visible then iret else []) :: rest) w' Running
  | SFrame child w' => mk_config (child :: p :: rest) w' Running
  | SUnsupported => mk_config (p :: rest) w Unsupported
  end.

Lemma exec_call : forall e k f w rest cg, exec e (ICallOp k) f w rest cg = call_result k f w rest cg.
Proof.
  intros e k f w rest cg. cbn [exec]. set (args := firstn (instr_pops (ICallOp k)) (f_stack f)).
  replace (a1 args) with (sk (f_stack f) 1)
    by (symmetry; unfold a1, args; apply sk_firstn; destruct k; cbn; lia).
  replace (if match k with KCall | KCallCode => true | _ => false end then a2 args else 0) with (callvalue k (f_stack f))
    by (symmetry; unfold a2, args; destruct k; cbn [callvalue instr_pops]; try reflexivity; apply sk_firstn; lia).
  set (r := if match k with KCall | KCallCode => true | _ => false end then skipn 3 args else skipn 2 args).
  assert (Hr : forall n, (n < 4)%nat -> nth n r 0 = callarg k (f_stack f) n).
  { intros n Hn. unfold r, args, callarg. destruct k; cbn [instr_pops]; apply sk_skip_firstn; lia. }
  rewrite !Hr by lia. reflexivity.
Qed.

Inductive exec_case (i : instr) (f : frame) (w : world) (rest : list frame) (cg : Z) : config -> Prop :=
| ec_next : forall pc s m w',
    pushes_frame i = false -> instr_halts i = false -> instr_reverts i = false ->
    stack_effect i f s -> mem_effect i f m -> world_effect i f w w' ->
    exec_case i f w rest cg (mk_config (upd f pc s m :: rest) w' Running)
| ec_finish : forall o ret s w',
    pushes_frame i = false -> world_effect i f w w' ->
    exec_case i f w rest cg (finish o ret (set_stack f s) w' rest)
| ec_create : forall addr init value gas,
    i = ICreate \/ i = ICreate2 -> 0 <= addr -> gas = f_gas f - f_gas f / 64 \/ gas = f_gas f ->
    exec_case i f w rest cg
      (let p := set_gas (set_stack f (skipn (instr_pops i) (f_stack f))) (f_gas f - gas) in
       match start_create (Z.of_nat (S (length rest))) w (f_self f) (f_static f) addr init gas value with
       | SImmediate o gb w' _ => mk_config (resumed p (if is_ok o then addr else 0) (f_mem f) gb [] :: rest) w' Running
       | SFrame child w' => mk_config (child :: p :: rest) w' Running
       | SUnsupported => mk_config (p :: rest) w Unsupported
       end)
| ec_call : forall k, i = ICallOp k -> exec_case i f w rest cg (call_result k f w rest cg).

Lemma exec_cases : forall e i f w rest cg, exec_case i f w rest cg (exec e i f w rest cg).
Proof.
  intros e i f w rest cg.
  (* the frame goes on: in general, and with memory and world untouched; the equation and the three flags
     hold by computation for each instruction *)
  assert (goes_on : forall pc s m w' c, stack_effect i f s -> mem_effect i f m -> world_effect i f w w' ->
            c = mk_config (upd f pc s m :: rest) w' Running ->
            pushes_frame i = false -> instr_halts i = false -> instr_reverts i = false -> exec_case i f w rest cg c)
    by (intros; subst; apply ec_next; assumption).
  assert (keeps : forall pc s c, stack_effect i f s -> c = mk_config (upd f pc s (f_mem f) :: rest) w Running ->
            pushes_frame i = false -> instr_halts i = false -> instr_reverts i = false -> exec_case i f w rest cg c)
    by (intros pc s c Hs; apply (goes_on pc s (f_mem f) w c Hs); [left; reflexivity|constructor]).
  assert (ends : forall o ret, pushes_frame i = false -> exec_case i f w rest cg (finish o ret f w rest)).
  { intros o ret Hp. replace (finish o ret f w rest) with (finish o ret (set_stack f (f_stack f)) w rest)
      by (rewrite set_stack_same; reflexivity).
    apply ec_finish; [exact Hp|constructor]. }
  assert (calls : forall k, i = ICallOp k -> exec_case i f w rest cg (exec e i f w rest cg))
    by (intros k ->; rewrite exec_call; apply ec_call; reflexivity).
  set (tl := skipn (instr_pops i) (f_stack f)).
  set (args := firstn (instr_pops i) (f_stack f)).
  assert (Htl : (instr_pops i <= length (f_stack f))%nat -> (length tl + instr_pops i = length (f_stack f))%nat)
    by (unfold tl; rewrite skipn_length; lia).
  (* popping the operands, and pushing [x], for the instructions that push none or one *)
  assert (pops0 : instr_pushes i = 0%nat -> stack_effect i f tl) by (intros E H; rewrite E; specialize (Htl H); lia).
  assert (pops1 : forall x, instr_pushes i = 1%nat -> stack_effect i f (x :: tl))
    by (intros x E H; rewrite E; specialize (Htl H); cbn [length]; lia).
  (* a write of [size] bytes at the offset the memory-size function looks at *)
  assert (writes : forall off size bytes, length bytes = Z.to_nat size ->
            (forall op, instr_mem op i (f_stack f) = Some (mem_need off size)) ->
            mem_effect i f (mem_write (f_mem f) off bytes))
    by (intros off size bytes Hb Hm; right; exists off, size, bytes; auto).
  destruct i; cbn [exec]; fold tl args.
  - apply ends. reflexivity.
  - apply (keeps (f_pc f + 1) (g e f w args :: tl)); [apply pops1|..]; reflexivity.
  - apply (keeps (f_pc f + 1) tl); [apply pops0|..]; reflexivity.
  - apply (keeps (f_pc f + n + 1) (bytes_word (slice_pad (f_code f) (f_pc f + 1) n) :: tl)); [apply pops1|..]; reflexivity.
  - apply (keeps (f_pc f + 1) (nth (n - 1) (f_stack f) 0 :: f_stack f)); [|reflexivity..].
    intros H. cbn [length instr_pops instr_pushes]. lia.
  - destruct n as [|m].
    + apply (keeps (f_pc f + 1) (f_stack f)); [|reflexivity..]. intros H. cbn [instr_pops instr_pushes]. lia.
    + apply (keeps (f_pc f + 1)
                   (nth (S m) (f_stack f) 0 :: firstn m (skipn 1 (f_stack f)) ++ a0 (f_stack f) :: skipn (S (S m)) (f_stack f)));
        [|reflexivity..].
      intros H. cbn [instr_pops instr_pushes] in *. cbn [length]. rewrite app_length. cbn [length].
      rewrite firstn_length, !skipn_length. lia.
  - apply (goes_on (f_pc f + 1) tl (mem_write (f_mem f) (a0 args) (word_bytes (a1 args))) w);
      [apply pops0; reflexivity| |constructor|reflexivity..].
    unfold a0, args. rewrite sk_firstn by (cbn; lia). apply (writes _ 32); reflexivity.
  - apply (goes_on (f_pc f + 1) tl (mem_write (f_mem f) (a0 args) [a1 args mod 256]) w);
      [apply pops0; reflexivity| |constructor|reflexivity..].
    unfold a0, args. rewrite sk_firstn by (cbn; lia). apply (writes _ 1); reflexivity.
  - match goal with |- context [if ?b then _ else _] => destruct b end; [apply ends; reflexivity|].
    apply (goes_on (f_pc f + 1) tl (mem_write (f_mem f) (a0 args) (slice_pad (copy_source s f) (a1 args) (a2 args))) w);
      [apply pops0; reflexivity| |constructor|reflexivity..].
    unfold a0, a2, args. rewrite !sk_firstn by (cbn; lia). apply (writes _ (sk (f_stack f) 2)); [apply slice_pad_length|reflexivity].
  - apply (goes_on (f_pc f + 1) tl
                   (mem_write (f_mem f) (a1 args) (slice_pad (code_of w (addr_of_word (a0 args))) (a2 args) (nth 3 args 0))) w);
      [apply pops0; reflexivity| |constructor|reflexivity..].
    unfold a1, args. rewrite !sk_firstn by (cbn; lia). apply (writes _ (sk (f_stack f) 3)); [apply slice_pad_length|reflexivity].
  - apply (goes_on (f_pc f + 1) tl (f_mem f) (sstore w (f_self f) (a0 args) (a1 args)));
      [apply pops0; reflexivity|left; reflexivity|apply we_sstore; reflexivity|reflexivity..].
  - destruct (valid_jumpdest (f_code f) (a0 args)); [|apply ends; reflexivity].
    apply (keeps (a0 args) tl); [apply pops0|..]; reflexivity.
  - destruct (a1 args =? 0).
    + apply (keeps (f_pc f + 1) tl); [apply pops0|..]; reflexivity.
    + destruct (valid_jumpdest (f_code f) (a0 args)); [|apply ends; reflexivity].
      apply (keeps (a0 args) tl); [apply pops0|..]; reflexivity.
  - apply (keeps (f_pc f + 1) (f_stack f)); [|reflexivity..]. intros H. cbn [instr_pops instr_pushes]. lia.
  - apply (goes_on (f_pc f + 1) tl (f_mem f)
                   (add_log w (mk_log (f_self f) (skipn 2 args) (mem_read (f_mem f) (a0 args) (a1 args)))));
      [apply pops0; reflexivity|left; reflexivity|apply (we_log _ _ _ n); reflexivity|reflexivity..].
  - exact (ec_create ICreate f w rest cg (create_address keccak (f_self f) (nonce w (f_self f)))
                      (mem_read (f_mem f) (a1 args) (a2 args)) (a0 args) (f_gas f - f_gas f / 64)
                      (or_introl eq_refl) (addr_nonneg _) (or_introl eq_refl)).
  - exact (ec_create ICreate2 f w rest cg
                      (create2_address keccak (f_self f) (nth 3 args 0) (mem_read (f_mem f) (a1 args) (a2 args)))
                      (mem_read (f_mem f) (a1 args) (a2 args)) (a0 args) (f_gas f)
                      (or_intror eq_refl) (addr_nonneg _) (or_intror eq_refl)).
  - exact (calls k eq_refl).
  - apply ec_finish; constructor.
  - apply ec_finish; constructor.
  - apply ec_finish; [reflexivity|]. apply (we_selfdestruct _ _ _ (a0 args)). reflexivity.
Qed.

Lemma step_idle : forall e c, (c_status c <> Running \/ c_frames c = []) -> step e c = c.
Proof.
  intros e c [H|H]; unfold EVM.step.
  - destruct (c_status c); try reflexivity. congruence.
  - rewrite H. destruct (c_status c); reflexivity.
Qed.

(** gas and memory bookkeeping of [step] between its checks and [exec]: [msz] is the (rounded) memory size the
    instruction asks for, [mc] the memory cost paid so far, [g] the gas left, [cg] the gas for a callee *)
Definition charged (e : env) (info : opinfo) (i : instr) (f : frame) (w : world) (msz mc g cg : Z) : Prop :=
  oi_gas info <= f_gas f /\
  match instr_mem (cur_op f) i (f_stack f) with
  | None => Some 0
  | Some None => None
  | Some (Some need) => round_mem need
  end = Some msz /\
  match instr_dyn (cur_op f) i (set_gas f (f_gas f - oi_gas info)) w (f_stack f) msz with
  | None => mc = f_mcost f /\ g = f_gas f - oi_gas info /\ cg = 0
  | Some None => False
  | Some (Some (cost, mc', cg')) =>
    mc = mc' /\ cg = cg' /\ g = f_gas f - oi_gas info - (if e_v2 e then cost else oi_gas info + cost) /\ 0 <= g
  end.

(** what [step] does to a running configuration with top frame [f] and world [w] *)
Inductive step_case (e : env) (f : frame) (w : world) (rest : list frame) : config -> Prop :=
| sc_fail : forall er, step_case e f w rest (fail er f w rest)
| sc_unsupported : step_case e f w rest (mk_config (f :: rest) w Unsupported)
| sc_exec : forall info i msz mc g cg,
    op_info e (cur_op f) = Some info -> decode keccak blockhash (cur_op f) = Some i ->
    oi_min info <= Z.of_nat (length (f_stack f)) <= oi_max info ->
    (f_static f = true -> oi_writes info = false /\ (cur_op f = 241 -> sk (f_stack f) 2 = 0)) ->
    charged e info i f w msz mc g cg ->
    step_case e f w rest (exec e i (set_gas (set_mem f (mem_resize (f_mem f) msz) mc) g) w rest cg).

Lemma step_running : forall e c f rest, c_status c = Running -> c_frames c = f :: rest ->
    step_case e f (c_world c) rest (step e c).
Proof.
  intros e c f rest Hrun Hf. unfold EVM.step. rewrite Hrun, Hf.
  destruct (op_info e (cur_op f)) as [info|] eqn:Hinfo; [|apply sc_fail].
  destruct (decode keccak blockhash (cur_op f)) as [i|] eqn:Hdec; [|apply sc_unsupported].
  destruct (Z.of_nat (length (f_stack f)) <? oi_min info) eqn:H1; [apply sc_fail|].
  destruct (oi_max info <? Z.of_nat (length (f_stack f))) eqn:H2; [apply sc_fail|].
  destruct (f_static f && (oi_writes info || (cur_op f =? 241) && negb (sk (f_stack f) 2 =? 0))) eqn:H3;
    [apply sc_fail|].
  destruct (f_gas f <? oi_gas info) eqn:H4; [apply sc_fail|].
  apply Z.ltb_ge in H1. apply Z.ltb_ge in H2. apply Z.ltb_ge in H4.
  assert (Hst : f_static f = true -> oi_writes info = false /\ (cur_op f = 241 -> sk (f_stack f) 2 = 0)).
  { intros Hs. rewrite Hs in H3. cbn [andb] in H3. apply orb_false_iff in H3. destruct H3 as [Hw Hc].
    split; [exact Hw|]. intros Hop. rewrite Hop in Hc. cbn in Hc. apply negb_false_iff in Hc. apply Z.eqb_eq in Hc. exact Hc. }
  assert (Hex : forall msz mc g cg, charged e info i f (c_world c) msz mc g cg ->
                step_case e f (c_world c) rest
                          (exec e i (set_gas (set_mem f (mem_resize (f_mem f) msz) mc) g) (c_world c) rest cg))
    by (intros; eapply sc_exec; eauto; lia).
  unfold charged in Hex.
  match goal with |- context [match ?m with Some msz => _ | None => _ end] => destruct m as [msz|] end; [|apply sc_fail].
  specialize (Hex msz).
  destruct (instr_dyn (cur_op f) i (set_gas f (f_gas f - oi_gas info)) (c_world c) (f_stack f) msz) as [[[[cost mc] cg]|]|].
  - match goal with |- context [if ?b then _ else _] => destruct b eqn:Ec end; [apply sc_fail|].
    apply Z.ltb_ge in Ec. apply Hex. cbn [set_gas f_gas] in *. repeat split; try reflexivity; lia.
  - apply sc_fail.
  - apply Hex. repeat split; reflexivity || lia.
Qed.

Lemma step_cases : forall e c,
    step e c = c \/
    exists f rest, c_status c = Running /\ c_frames c = f :: rest /\ step_case e f (c_world c) rest (step e c).
Proof.
  intros e c. destruct (c_status c) eqn:Hrun; try (left; apply step_idle; left; congruence).
  destruct (c_frames c) as [|f rest] eqn:Hf; [left; apply step_idle; right; exact Hf|].
  right. exists f, rest. split; [reflexivity|]. split; [reflexivity|]. apply step_running; assumption.
Qed.

(** a suspended caller has popped its arguments and still has to receive one result word.
    (The bounds are kept in [Z], where the tables state them; a [nat] literal 1024 is a tower of 1024
    successors that every tactic touching it would traverse.) *)
Definition parent_ok (p : frame) : Prop := Z.of_nat (length (f_stack p)) + 1 <= 1024.
Definition stack_inv (c : config) : Prop :=
  match c_frames c with
  | [] => True
  | f :: rest => Z.of_nat (length (f_stack f)) <= 1024 /\ Forall parent_ok rest
  end.
Definition depth_inv (c : config) : Prop := Z.of_nat (length (c_frames c)) <= 1025.

Lemma finish_stack : forall o ret f w rest, Forall parent_ok rest -> stack_inv (finish o ret f w rest).
Proof.
  intros o ret f w rest H. destruct (settle o ret f w) as [[o1 g1] w1] eqn:Hs.
  pose proof (finish_cases o ret f w rest o1 g1 w1 Hs) as Hc.
  destruct rest as [|p rest']; [rewrite Hc; exact I|]. destruct Hc as [m [r [-> _]]].
  inversion H as [|? ? Hp Hr]; subst. unfold parent_ok in Hp. split; [cbn [resumed f_stack length]; lia|exact Hr].
Qed.

Lemma length_skipn_le : forall (A : Type) n (l : list A), (length (skipn n l) = length l - n)%nat.
Proof. intros. apply skipn_length. Qed.

(** executing an instruction whose stack requirements hold keeps all stacks within 1024 *)
Lemma exec_stack : forall e i f w rest cg,
    (instr_pops i <= length (f_stack f))%nat ->
    Z.of_nat (length (f_stack f)) + Z.of_nat (instr_pushes i) <= 1024 + Z.of_nat (instr_pops i) ->
    Forall parent_ok rest ->
    stack_inv (exec e i f w rest cg).
Proof.
  intros e i f w rest cg Hmin Hmax Hrest.
  (* the caller of a frame-opening instruction has popped its operands and awaits one word *)
  assert (Hp : forall g, instr_pushes i = 1%nat -> parent_ok (set_gas (set_stack f (skipn (instr_pops i) (f_stack f))) g)).
  { intros g H1. unfold parent_ok. cbn [set_gas set_stack f_stack]. rewrite skipn_length. lia. }
  assert (Hr : forall p flag m gb r w', parent_ok p -> stack_inv (mk_config (resumed p flag m gb r :: rest) w' Running)).
  { intros p flag m gb r w' H. unfold parent_ok in H. split; [cbn [resumed f_stack length]; lia|exact Hrest]. }
  destruct (exec_cases e i f w rest cg) as [pc s m w' _ _ _ Hs _ _|o ret s w' _ _|addr init value gas Hi _ _|k Hi].
  - split; [|exact Hrest]. specialize (Hs Hmin). cbn [upd f_stack]. lia.
  - apply finish_stack. exact Hrest.
  - assert (H1 : instr_pushes i = 1%nat) by (destruct Hi; subst; reflexivity). cbv zeta.
    destruct (start_create (Z.of_nat (S (length rest))) w (f_self f) (f_static f) addr init gas value)
      as [o gb w' iret|child w'|] eqn:Hst.
    + apply Hr, Hp, H1.
    + apply start_create_frame in Hst. destruct Hst as [_ [_ ->]].
      split; [cbn [new_frame f_stack length]; lia|]. constructor; [apply Hp, H1|exact Hrest].
    + split; [|exact Hrest]. specialize (Hp (f_gas f - gas) H1). unfold parent_ok in Hp. lia.
  - subst i. assert (H1 : instr_pushes (ICallOp k) = 1%nat) by reflexivity. unfold call_result. cbv zeta.
    match goal with |- stack_inv (match ?st with _ => _ end) => destruct st as [o gb w' iret|child w'|] eqn:Hst end.
    + apply Hr, (Hp (f_gas f)), H1.
    + apply start_call_frame in Hst. destruct Hst as [_ [_ [_ [caller [value ->]]]]].
      split; [cbn [new_frame f_stack length]; lia|]. constructor; [exact (Hp (f_gas f) H1)|exact Hrest].
    + split; [|exact Hrest]. specialize (Hp (f_gas f) H1). unfold parent_ok in Hp. cbn [set_gas set_stack f_stack] in *. lia.
Qed.

Lemma exec_depth : forall e i f w rest cg,
    Z.of_nat (length (f :: rest)) <= 1025 -> depth_inv (exec e i f w rest cg).
Proof.
  intros e i f w rest cg H. unfold depth_inv. cbn [length] in H. destruct limits_ok as [_ CD].
  destruct (exec_cases e i f w rest cg) as [pc s m w' _ _ _ _ _ _|o ret s w' _ _|addr init value gas _ _ _|k _].
  - cbn [c_frames length]. lia.
  - rewrite finish_length. lia.
  - cbv zeta.
    match goal with |- context [match ?st with _ => _ end] => destruct st as [o gb w' iret|child w'|] eqn:Hst end;
      cbn [c_frames length]; try lia.
    apply start_create_frame in Hst. lia.
  - unfold call_result. cbv zeta.
    match goal with |- context [match ?st with _ => _ end] => destruct st as [o gb w' iret|child w'|] eqn:Hst end;
      cbn [c_frames length]; try lia.
    apply start_call_frame in Hst. lia.
Qed.

Lemma step_stack_inv : forall e c, stack_inv c -> stack_inv (step e c).
Proof.
  intros e c H. destruct (step_cases e c) as [->|[f [rest [_ [Hf Hc]]]]]; [exact H|].
  unfold stack_inv in H. rewrite Hf in H. destruct H as [Htop Hrest].
  destruct Hc as [er| |info i msz mc g cg Hinfo Hdec Hb _ _].
  - apply finish_stack. exact Hrest.
  - split; assumption.
  - destruct (slot_facts_of keccak blockhash e _ info i Hinfo Hdec).
    apply exec_stack; [| |exact Hrest]; cbn [set_gas set_mem f_stack]; lia.
Qed.

Lemma step_depth_inv : forall e c, depth_inv c -> depth_inv (step e c).
Proof.
  intros e c H. destruct (step_cases e c) as [->|[f [rest [_ [Hf Hc]]]]]; [exact H|].
  unfold depth_inv in H. rewrite Hf in H. destruct Hc as [er| |info i msz mc g cg _ _ _ _ _].
  - unfold depth_inv, fail. rewrite finish_length. cbn [length] in H. lia.
  - exact H.
  - apply exec_depth. exact H.
Qed.

Lemma run_n_inv : forall (P : config -> Prop) e, (forall c, P c -> P (step e c)) -> forall n c, P c -> P (run_n e n c).
Proof. intros P e Hs n. induction n as [|n IH]; intros c Hc; cbn [EVM.run_n]; auto. Qed.

Lemma init_call_inv : forall e w t input g v, stack_inv (init_call e w t input g v) /\ depth_inv (init_call e w t input g v).
Proof.
  intros. unfold init_call.
  destruct (start_call KCall 0 w (e_origin e) (e_origin e) 0 false t input g v 0 0) as [o gb w' iret|child w'|] eqn:Hs.
  - destruct o; unfold stack_inv, depth_inv; cbn [c_frames length]; split; auto; lia.
  - apply start_call_frame in Hs. destruct Hs as [_ [_ [_ [caller [value ->]]]]].
    unfold stack_inv, depth_inv. cbn [c_frames new_frame f_stack length]. split; [split; [lia|constructor]|lia].
  - unfold stack_inv, depth_inv; cbn [c_frames length]; split; auto; lia.
Qed.
Lemma init_create_inv : forall e w init g v,
    stack_inv (init_create keccak e w init g v) /\ depth_inv (init_create keccak e w init g v).
Proof.
  intros. unfold init_create.
  match goal with |- context [match ?st with _ => _ end] => destruct st as [o gb w' iret|child w'|] eqn:Hs end.
  - unfold stack_inv, depth_inv; cbn [c_frames length]; split; auto; lia.
  - apply start_create_frame in Hs. destruct Hs as [_ [_ ->]].
    unfold stack_inv, depth_inv. cbn [c_frames new_frame f_stack length]. split; [split; [lia|constructor]|lia].
  - unfold stack_inv, depth_inv; cbn [c_frames length]; split; auto; lia.
Qed.

(** reachable configurations *)
Inductive reachable (e : env) : config -> Prop :=
| reach_call : forall w t input g v, reachable e (init_call e w t input g v)
| reach_create : forall w init g v, reachable e (init_create keccak e w init g v)
| reach_step : forall c, reachable e c -> reachable e (step e c).

Lemma reachable_inv : forall e c, reachable e c -> stack_inv c /\ depth_inv c.
Proof.
  intros e c H. induction H.
  - apply init_call_inv.
  - apply init_create_inv.
  - destruct IHreachable. split; [apply step_stack_inv|apply step_depth_inv]; auto.
Qed.

Lemma stack_bound : forall e c f, reachable e c -> In f (c_frames c) -> (length (f_stack f) <= 1024)%nat.
Proof.
  intros e c f H Hin. destruct (reachable_inv e c H) as [Hs _]. unfold stack_inv in Hs.
  assert (Hz : Z.of_nat (length (f_stack f)) <= 1024).
  { destruct (c_frames c) as [|g rest]; [destruct Hin|]. destruct Hs as [Hg Hr].
    destruct Hin as [->|Hin]; [exact Hg|]. rewrite Forall_forall in Hr. specialize (Hr f Hin). unfold parent_ok in Hr. lia. }
  lia.
Qed.

Lemma depth_bound : forall e c, reachable e c -> (length (c_frames c) <= 1025)%nat.
Proof. intros e c H. destruct (reachable_inv e c H) as [_ Hd]. unfold depth_inv in Hd. lia. Qed.

End Inv.
