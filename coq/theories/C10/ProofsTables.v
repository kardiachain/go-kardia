(** C10 — side conditions on the generated jump tables (Generated/C10Facts.v), checked by
    computation over all 256 slots of both tables every time the facts are regenerated:
    the model's instruction decoder agrees with the real tables on stack requirements and on
    the halts/jumps/writes/reverts/returns/memorySize/dynamicGas columns, and every present
    non-halting opcode costs at least one unit of gas. *)
From Coq Require Import List ZArith Bool Lia.
From Kardia Require Import C10.U256 C10.EVM Generated.C10Facts.
Import ListNotations.
Local Open Scope Z_scope.

Section Tables.
Variable keccak : list Z -> Z.
Variable blockhash : Z -> Z.

Definition dummy_world : world := mk_world [] [].
Definition dummy_frame : frame := new_frame KCall 0 0 0 [] [] 0 false dummy_world 0 0.

Definition has_mem (op : Z) (i : instr) : bool :=
  match instr_mem op i [] with None => false | Some _ => true end.
Definition has_dyn (op : Z) (i : instr) : bool :=
  match instr_dyn op i dummy_frame dummy_world [] 0 with None => false | Some _ => true end.

(** opcodes with no constant gas whose modelled dynamic gas has a positive lower bound *)
Definition dyn_floor (i : instr) (op : Z) : Z :=
  match i with
  | IFun _ _ => if op =? 10 then g_exp else 0
  | ISstore => Z.min g_sstore_set (Z.min g_sstore_clear g_sstore_reset)
  | ILog _ => g_log
  | _ => 0
  end.
Definition pushes_frame (i : instr) : bool :=
  match i with ICreate | ICreate2 | ICallOp _ => true | _ => false end.

Definition slot_ok (t : list (option opinfo)) (op : Z) : bool :=
  match nth_error t (Z.to_nat op) with
  | None => false
  | Some None => true
  | Some (Some info) =>
    match decode keccak blockhash op with
    | None => false     (* present in the real table but not modelled *)
    | Some i =>
      (oi_min info =? Z.of_nat (instr_pops i))
      && (oi_max info =? stack_limit + Z.of_nat (instr_pops i) - Z.of_nat (instr_pushes i))
      && Bool.eqb (oi_halts info) (instr_halts i) && Bool.eqb (oi_jumps info) (instr_jumps i)
      && Bool.eqb (oi_writes info) (instr_writes i) && Bool.eqb (oi_reverts info) (instr_reverts i)
      && Bool.eqb (oi_returns info) (instr_returns i)
      && Bool.eqb (oi_mem info) (has_mem op i) && Bool.eqb (oi_dyn info) (has_dyn op i)
      && (0 <=? oi_gas info)
      && ((1 <=? oi_gas info) || (1 <=? dyn_floor i op) || instr_halts i || instr_reverts i)
      && (negb (pushes_frame i) || (2 <=? oi_gas info))
    end
  end.

Definition all_ops : list Z := map Z.of_nat (seq 0 256).

Lemma tables_ok :
  forallb (slot_ok table_v1) all_ops = true /\ forallb (slot_ok table_v2) all_ops = true.
Proof. split; vm_compute; reflexivity. Qed.

Lemma limits_ok : stack_limit = 1024 /\ call_create_depth = 1024.
Proof. split; reflexivity. Qed.

(** signs of the gas constants, as the proofs about gas need them *)
Lemma consts : 0 <= g_memory /\ 0 < g_quad_coeff_div /\ 0 <= g_copy /\ 0 <= g_sha3_word /\ 0 <= g_exp_byte /\
               0 <= g_log_topic /\ 0 <= g_log_data /\ 0 <= g_call_new_account /\ 0 <= g_create_by_selfdestruct /\
               g_call_stipend < g_call_value_transfer /\ 0 <= g_call_stipend /\ 0 <= g_create_data /\
               0 <= g_exp /\ 0 <= g_log /\ 0 <= g_sstore_set /\ 0 <= g_sstore_clear /\ 0 <= g_sstore_reset.
Proof. vm_compute. repeat split; congruence. Qed.

Lemma in_all_ops : forall op, 0 <= op < 256 -> In op all_ops.
Proof.
  intros op H. unfold all_ops. apply in_map_iff. exists (Z.to_nat op). split.
  - lia.
  - apply in_seq. lia.
Qed.

(** what the tables guarantee for an opcode the interpreter is about to execute *)
Record slot_facts (info : opinfo) (op : Z) (i : instr) : Prop := {
  sf_min : oi_min info = Z.of_nat (instr_pops i);
  sf_max : oi_max info = 1024 + Z.of_nat (instr_pops i) - Z.of_nat (instr_pushes i);
  sf_halts : oi_halts info = instr_halts i;
  sf_writes : oi_writes info = instr_writes i;
  sf_reverts : oi_reverts info = instr_reverts i;
  sf_gas0 : 0 <= oi_gas info;
  sf_gas1 : 1 <= oi_gas info \/ 1 <= dyn_floor i op \/ instr_halts i = true \/ instr_reverts i = true;
  sf_gas2 : pushes_frame i = true -> 2 <= oi_gas info }.

Lemma slot_facts_of : forall e op info i,
    op_info e op = Some info -> decode keccak blockhash op = Some i -> slot_facts info op i.
Proof.
  intros e op info i Hinfo Hdec. unfold op_info in Hinfo.
  destruct ((0 <=? op) && (op <? 256)) eqn:Hr; [|discriminate].
  apply andb_true_iff in Hr. destruct Hr as [H0 H1].
  assert (Hin : In op all_ops) by (apply in_all_ops; lia).
  assert (Hok : slot_ok (table e) op = true).
  { destruct tables_ok as [T1 T2]. unfold table. destruct (e_v2 e).
    - rewrite forallb_forall in T2. apply T2; exact Hin.
    - rewrite forallb_forall in T1. apply T1; exact Hin. }
  unfold slot_ok in Hok.
  destruct (nth_error (table e) (Z.to_nat op)) as [[info'|]|]; try discriminate.
  inversion Hinfo; subst info'. rewrite Hdec in Hok.
  repeat (apply andb_true_iff in Hok; destruct Hok as [Hok ?]).
  destruct limits_ok as [SL _].
  constructor.
  - lia.
  - rewrite <- SL. lia.
  - apply eqb_prop; assumption.
  - apply eqb_prop; assumption.
  - apply eqb_prop; assumption.
  - lia.
  - match goal with H : (_ || _ || _ || _) = true |- _ =>
      apply orb_true_iff in H; destruct H as [H|H]; [apply orb_true_iff in H; destruct H as [H|H];
        [apply orb_true_iff in H; destruct H as [H|H]|]|] end.
    + left; lia.
    + right; left; lia.
    + right; right; left; assumption.
    + right; right; right; assumption.
  - intros Hp. match goal with H : (negb _ || _) = true |- _ => rewrite Hp in H; simpl in H end. lia.
Qed.

End Tables.
