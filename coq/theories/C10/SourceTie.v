(** C10 — tie of the model's guards and integer arithmetic to the Go SOURCE.
    [Generated/C10Source.v] is produced on every check by /verif/go2coq from /repo's working tree: the
    bodies of toWordSize, minStack/maxStack/min|maxSwapStack/min|maxDupStack and lib/math + lib/common
    SafeAdd/SafeSub/SafeMul, and every guard / integer expression of Interpreter.Run, KVM.Call / CallCode /
    DelegateCall / StaticCall / create, memoryGasCost, callGas, the integer-only gas functions,
    calcMemSize64(WithUint), getData, opReturnDataCopy / opCallDataLoad / opJump / opJumpi / opBlockhash /
    opCreate / opCall, Contract.validJumpdest / UseGas, codeBitmap, Memory.Resize / Set,
    RunPrecompiledContract, dataCopy.RequiredGas and ecrecover.Run.
    The lemmas below say that the tests and the arithmetic of C10/EVM.v (stack bounds, static test, gas
    comparisons, word-size rounding, memory size and memory cost, call gas, depth limit, balance test,
    collision test, code-size limit, deposit gas, RETURNDATACOPY bounds, jump-destination tests, BLOCKHASH
    window, identity precompile gas) ARE these expressions, on these operands (the atoms, fixed by [src_atoms]).
    256-bit quantities reach the guards only through atoms (Sign(), IsUint64(), Uint64WithOverflow()):
    they are instantiated here by what they denote on a non-negative [Z]. *)
From Coq Require Import List ZArith Bool Lia String.
From Kardia Require Import Base.Int64 Base.GoSem Base.Conj.
From Kardia Require Import Generated.C10Source.
From Kardia Require Import Generated.C10Facts C10.U256 C10.EVM C10.ProofsTables C10.ProofsRet.
Import ListNotations.
Local Open Scope Z_scope.

Ltac Zify.zify_post_hook ::= Z.div_mod_to_equations.

(** big.Int / uint256.Int: Sign() as the Go int it returns; the two results of Uint64WithOverflow() *)
Definition sign_int (a : Z) : Z := match a ?= 0 with Lt => -1 | Eq => 0 | Gt => 1 end.
Definition u64_overflow (a : Z) : bool := U64 <=? a.
Definition u64_low (a : Z) : Z := a mod U64.
Definition max_u64 : Z := two64 - 1.

Lemma sign_ne0 a : go_neqb (sign_int a) 0 = negb (a =? 0).
Proof. unfold go_neqb, sign_int. destruct (Z.compare_spec a 0); destruct (Z.eqb_spec a 0); try reflexivity; lia. Qed.
Lemma sign_eq0 a : (sign_int a =? 0) = (a =? 0).
Proof. unfold sign_int. destruct (Z.compare_spec a 0); destruct (Z.eqb_spec a 0); try reflexivity; lia. Qed.
Lemma sign_ge0 a : (sign_int a >=? 0) = (0 <=? a).
Proof. unfold sign_int. destruct (Z.compare_spec a 0); destruct (Z.leb_spec 0 a); try reflexivity; lia. Qed.
Lemma U64_val : U64 = 18446744073709551616. Proof. reflexivity. Qed.

(** ties that stand alone, not part of [C10_source_tie_statement] *)
Lemma src_run_usegas ok : kvm__Interpreter_Run__if_not_contract_UseGas_cost ok = negb ok
  /\ (forall err, kvm__Interpreter_Run__if_err_ne_nil_or_not_contract_UseGas_dynamicCost err ok = (err || negb ok)%bool)
  /\ (forall err, kvm__Interpreter_Run__if_err_ne_nil_or_not_contract_UseGas_cost err ok = (err || negb ok)%bool).
Proof. repeat split. Qed.
Lemma src_galaxias b : kvm__Interpreter_Run__if_in_kvm_chainRules_IsGalaxias b = b.
Proof. reflexivity. Qed.
Lemma src_callcode_base v : 0 <= v ->
  (if v =? 0 then 0 else g_call_value_transfer) = (if kvm__gasCallCode__if_stack_Back_2__Sign_ne_0 (sign_int v) then kvm__gasCallCode__set_gas_op 0 else 0).
Proof. intros _. unfold kvm__gasCallCode__if_stack_Back_2__Sign_ne_0. rewrite sign_ne0. destruct (v =? 0); reflexivity. Qed.
Lemma src_jump_guards v c :
  kvm__opJump__if_not_callContext_Contract_validJumpdest_band_pos v = negb v
  /\ kvm__opJumpi__if_not_callContext_Contract_validJumpdest_band_pos v = negb v
  /\ kvm__opJumpi__if_not_cond_IsZero (c =? 0) = negb (c =? 0).
Proof. repeat split. Qed.
Lemma src_sweep_loop pc len : kvm__codeBitmap__for_pc_lt_uint64_len_code pc len = (pc <? go_conv GoSem.U64 len)
  /\ kvm__codeBitmap__for_numbits_ge_8 pc = (8 <=? pc) /\ kvm__codeBitmap__for_numbits_gt_0 pc = (0 <? pc).
Proof.
  unfold kvm__codeBitmap__for_pc_lt_uint64_len_code, kvm__codeBitmap__for_numbits_ge_8, kvm__codeBitmap__for_numbits_gt_0.
  repeat split; [apply Z.geb_leb|apply Z.gtb_ltb].
Qed.

(** what is compared, not only how: the operands of the guards *)
Lemma src_atoms :
  kvm__Interpreter_Run__if_sLen_lt_operation_minStack_atoms = ["sLen : int"; "operation.minStack : int"]%string
  /\ kvm__Interpreter_Run__if_sLen_gt_operation_maxStack_atoms = ["sLen : int"; "operation.maxStack : int"]%string
  /\ kvm__Interpreter_Run__let_sLen_atoms = ["stack.len() : int"]%string
  /\ kvm__Interpreter_Run__if_operation_writes_or_op_eq_CALL_and_stack_Back_2__Sign_ne_0_atoms
     = ["operation.writes : bool"; "op : github.com/kardiachain/go-kardia/kvm.OpCode"; "stack.Back(2).Sign() : int"]%string
  /\ kvm__Interpreter_Run__if_not_contract_UseGas_cost_atoms = ["contract.UseGas(cost) : bool"]%string
  /\ kvm__Interpreter_Run__if_err_ne_nil_or_not_contract_UseGas_dynamicCost_atoms = ["err != nil : bool"; "contract.UseGas(dynamicCost) : bool"]%string
  /\ kvm__Interpreter_Run__if_err_ne_nil_or_not_contract_UseGas_cost_atoms = ["err != nil : bool"; "contract.UseGas(cost) : bool"]%string
  /\ kvm__Interpreter_Run__set_cost_op_atoms = ["cost : uint64"; "dynamicCost : uint64"]%string
  /\ kvm__Contract_UseGas__if_c_Gas_lt_gas_atoms = ["c.Gas : uint64"; "gas : uint64"]%string
  /\ kvm__Contract_UseGas__set_Gas_op_atoms = ["c.Gas : uint64"; "gas : uint64"]%string
  /\ kvm__KVM_Call__if_kvm_depth_gt_int_configs_CallCreateDepth_atoms = ["kvm.depth : int"]%string
  /\ kvm__KVM_CallCode__if_kvm_depth_gt_int_configs_CallCreateDepth_atoms = ["kvm.depth : int"]%string
  /\ kvm__KVM_DelegateCall__if_kvm_depth_gt_int_configs_CallCreateDepth_atoms = ["kvm.depth : int"]%string
  /\ kvm__KVM_StaticCall__if_kvm_depth_gt_int_configs_CallCreateDepth_atoms = ["kvm.depth : int"]%string
  /\ kvm__KVM_create__if_kvm_depth_gt_int_configs_CallCreateDepth_atoms = ["kvm.depth : int"]%string
  /\ kvm__KVM_Call__if_value_Sign_ne_0_and_not_kvm_BlockContext_CanTransfer_kvm_Sta_a9cbbd5d_atoms
     = ["value.Sign() : int"; "kvm.BlockContext.CanTransfer(kvm.StateDB, caller.Address(), value) : bool"]%string
  /\ kvm__KVM_create__if_not_kvm_CanTransfer_kvm_StateDB_caller_Address_value_atoms = ["kvm.CanTransfer(kvm.StateDB, caller.Address(), value) : bool"]%string
  /\ kvm__KVM_create__if_kvm_StateDB_GetNonce_address_ne_0_or_contractHash_ne_common__1d664e2b_atoms
     = ["kvm.StateDB.GetNonce(address) : uint64"; "contractHash != (common.Hash{}) : untyped bool"; "contractHash != emptyCodeHash : untyped bool"]%string
  /\ kvm__KVM_create__set_maxCodeSizeExceeded_atoms = ["len(ret) : int"]%string
  /\ kvm__KVM_create__set_createDataGas_atoms = ["len(ret) : int"]%string
  /\ kvm__KVM_create__if_contract_UseGas_createDataGas_atoms = ["contract.UseGas(createDataGas) : bool"]%string
  /\ kvm__KVM_create__if_maxCodeSizeExceeded_or_err_ne_nil_atoms = ["maxCodeSizeExceeded : bool"; "err != nil : bool"]%string
  /\ kvm__memoryGasCost__let_newMemSizeWords_atoms = ["toWordSize(newMemSize) : uint64"]%string
  /\ kvm__memoryGasCost__if_newMemSize_gt_uint64_mem_Len_atoms = ["newMemSize : uint64"; "mem.Len() : int"]%string
  /\ kvm__memoryGasCost__set_fee_atoms = ["newTotalFee : uint64"; "mem.lastGasCost : uint64"]%string
  /\ kvm__callGas__set_availableGas_atoms = ["availableGas : uint64"; "base : uint64"]%string
  /\ kvm__callGas__if_not_callCost_IsUint64_or_gas_lt_callCost_Uint64_atoms = ["callCost.IsUint64() : bool"; "gas : uint64"; "callCost.Uint64() : uint64"]%string
  /\ kvm__calcMemSize64WithUint__set_val_atoms = ["offset64 : uint64"; "length64 : uint64"]%string
  /\ kvm__calcMemSize64WithUint__ret_val_lt_offset64_atoms = ["val : uint64"; "offset64 : uint64"]%string
  /\ kvm__opReturnDataCopy__if_overflow_or_uint64_len_kvm_interpreter_returnData_lt_end64_atoms
     = ["overflow : bool"; "len(kvm.interpreter.returnData) : int"; "end64 : uint64"]%string
  /\ kvm__Contract_validJumpdest__if_overflow_or_udest_ge_uint64_len_c_Code_atoms = ["overflow : bool"; "udest : uint64"; "len(c.Code) : int"]%string
  /\ kvm__Contract_validJumpdest__if_OpCode_c_Code_at_udest_ne_JUMPDEST_atoms = ["c.Code[udest] : byte"]%string
  /\ kvm__opBlockhash__let_upper_atoms = ["kvm.BlockHeight.Uint64() : uint64"]%string
  /\ kvm__opBlockhash__if_num64_ge_lower_and_num64_lt_upper_atoms = ["num64 : uint64"; "lower : uint64"; "upper : uint64"]%string
  /\ kvm__gasCall__if_transfersValue_and_kvm_StateDB_Empty_address_atoms = ["transfersValue : bool"; "kvm.StateDB.Empty(address) : bool"]%string
  /\ kvm__gasCall__if_not_kvm_StateDB_Exist_address_atoms = ["kvm.StateDB.Exist(address) : bool"]%string
  /\ kvm__gasSelfdestruct__if_kvm_StateDB_Empty_address_and_kvm_StateDB_GetBalance_contrac_a3d63a4d_atoms
     = ["kvm.StateDB.Empty(address) : bool"; "kvm.StateDB.GetBalance(contract.Address()).Sign() : int"]%string
  /\ kvm__gasExp__set_expByteLen_atoms = ["stack.data[stack.len()-2].BitLen() : int"]%string
  /\ kvm__RunPrecompiledContract__let_gasCost_atoms = ["p.RequiredGas(input) : uint64"]%string
  /\ kvm__RunPrecompiledContract__if_suppliedGas_lt_gasCost_atoms = ["suppliedGas : uint64"; "gasCost : uint64"]%string
  /\ kvm__dataCopy_RequiredGas__ret_uint64_len_input_plus_31_div_32_mul_configs_IdentityPerWordG_9a806594_atoms = ["len(input) : int"]%string
  /\ kvm__ecrecover_Run__if_not_allZero_input_at_32_63_or_not_crypto_ValidateSignatureVa_a2aaeffb_atoms
     = ["allZero(input[32:63]) : bool"; "crypto.ValidateSignatureValues(v, r, s, false) : bool"]%string
  /\ kvm__ecrecover_Run__set_v_atoms = ["input[63] : byte"]%string
  /\ kvm__opCallDataLoad__if_not_overflow_atoms = ["overflow : bool"]%string
  /\ kvm__opSAR__if_value_Sign_ge_0_atoms = ["value.Sign() : int"]%string.
Proof. split_all; reflexivity. Qed.

(** stack.go: the table's min/max columns are minStack/maxStack of the decoder's pops and pushes *)
Lemma src_minmax pops pushes : 0 <= pops <= 1024 -> 0 <= pushes <= 1024 ->
  kvm__minStack pops pushes = pops /\ kvm__maxStack pops pushes = stack_limit + pops - pushes.
Proof.
  intros H1 H2. split; [reflexivity|]. unfold kvm__maxStack, stack_limit. gosem. reflexivity.
Qed.

Section Tables.
Variable keccak : list Z -> Z.
Variable blockhash : Z -> Z.
Definition small_ok (op : Z) : bool :=
  match decode keccak blockhash op with
  | Some i => (Nat.leb (instr_pops i) 17 && Nat.leb (instr_pushes i) 17)%bool
  | None => true
  end.
Lemma small_all : forallb small_ok all_ops = true.
Proof. vm_compute. reflexivity. Qed.

Lemma src_table_stack : forall e op info i,
    op_info e op = Some info -> decode keccak blockhash op = Some i ->
    oi_min info = kvm__minStack (Z.of_nat (instr_pops i)) (Z.of_nat (instr_pushes i)) /\
    oi_max info = kvm__maxStack (Z.of_nat (instr_pops i)) (Z.of_nat (instr_pushes i)).
Proof.
  intros e op info i Hinfo Hdec.
  pose proof (slot_facts_of keccak blockhash e op info i Hinfo Hdec) as [Hmin Hmax _ _ _ _ _ _].
  assert (Hs : small_ok op = true).
  { pose proof small_all as Ha. rewrite forallb_forall in Ha. apply Ha. apply in_all_ops.
    unfold op_info in Hinfo. destruct ((0 <=? op) && (op <? 256))%bool eqn:Hr; [|discriminate].
    apply andb_true_iff in Hr. lia. }
  unfold small_ok in Hs. rewrite Hdec in Hs. apply andb_true_iff in Hs. destruct Hs as [Hp Hq].
  apply Nat.leb_le in Hp. apply Nat.leb_le in Hq.
  destruct (src_minmax (Z.of_nat (instr_pops i)) (Z.of_nat (instr_pushes i))) as [E1 E2]; try lia.
  rewrite E1, E2. destruct limits_ok as [SL _]. rewrite SL. split; lia.
Qed.
End Tables.

(** utils.go: word-size rounding *)
Lemma src_toWordSize n : 0 <= n <= 18446744073709551584 -> kvm__toWordSize n = words n.
Proof.
  intros H. unfold kvm__toWordSize, words. rewrite Z.gtb_ltb.
  destruct (Z.ltb_spec 18446744073709551584 n); [lia|].
  unfold go_quot, go_add. rewrite (wrap_id GoSem.U64 (n + 31)) by (unfold in_range; lia).
  rewrite Z.quot_div_nonneg by lia. apply wrap_id. unfold in_range. lia.
Qed.
Lemma src_toWordSize_big n : 18446744073709551584 < n -> kvm__toWordSize n = 576460752303423488.
Proof. intros H. unfold kvm__toWordSize. rewrite Z.gtb_ltb. destruct (Z.ltb_spec 18446744073709551584 n); [reflexivity|lia]. Qed.

(** the high word of a 128-bit sum or product is non-zero exactly when the value exceeds 64 bits *)
Lemma hi_ne0 z : 0 <= z -> go_neqb (z / 18446744073709551616) 0 = (18446744073709551616 - 1 <? z).
Proof.
  intros Hz. unfold go_neqb.
  destruct (Z.ltb_spec (18446744073709551616 - 1) z); destruct (Z.eqb_spec (z / 18446744073709551616) 0);
    try reflexivity; exfalso; lia.
Qed.

Lemma src_SafeMul x y : in_range GoSem.U64 x -> in_range GoSem.U64 y ->
  lib_math__SafeMul x y = (wrapu64 (x * y), max_u64 <? x * y) /\ lib_common__SafeMul x y = (wrapu64 (x * y), max_u64 <? x * y).
Proof.
  unfold lib_math__SafeMul, lib_common__SafeMul, go_bits_mul64, in_range, max_u64, two64. intros Hx Hy.
  rewrite hi_ne0 by nia. split; reflexivity.
Qed.

(** the out-of-bounds test of [exec (ICopy SrcReturndata)]; offset and length are words, the length already
    passed the memory-size computation (< 2^64); [end] is the 256-bit sum offset + length *)
Lemma src_returndatacopy off len n : 0 <= off -> 0 <= len < U64 -> 0 <= n < U64 ->
  ((U64 <=? off) || (U64 <=? off + len) || (n <? off + len))%bool
  = (kvm__opReturnDataCopy__if_overflow (u64_overflow off)
     || kvm__opReturnDataCopy__if_overflow_or_uint64_len_kvm_interpreter_returnData_lt_end64 (u64_overflow (off + len)) n (u64_low (off + len)))%bool.
Proof.
  rewrite U64_val. intros Ho Hl Hn.
  unfold kvm__opReturnDataCopy__if_overflow, kvm__opReturnDataCopy__if_overflow_or_uint64_len_kvm_interpreter_returnData_lt_end64,
    u64_overflow, u64_low, go_conv.
  rewrite U64_val. rewrite (wrap_id GoSem.U64 n) by (unfold in_range; lia).
  destruct (Z.leb_spec 18446744073709551616 off); [reflexivity|]. cbn [orb].
  destruct (Z.leb_spec 18446744073709551616 (off + len)); [reflexivity|]. cbn [orb].
  rewrite Z.mod_small by lia. reflexivity.
Qed.

(** EXP: number of bytes of the exponent from its bit length *)
Definition bit_len (b : Z) : Z := if b =? 0 then 0 else Z.log2 b + 1.

(** the whole tie as one statement (quoted by Properties.v) *)
Definition C10_source_tie_statement : Prop :=
  (forall n m, kvm__Interpreter_Run__if_sLen_lt_operation_minStack n m = (n <? m) /\ kvm__Interpreter_Run__if_sLen_lt_operation_minStack_2 n m = (n <? m))
  /\ (forall n m, kvm__Interpreter_Run__if_sLen_gt_operation_maxStack n m = (m <? n) /\ kvm__Interpreter_Run__if_sLen_gt_operation_maxStack_2 n m = (m <? n))
  /\ (forall keccak blockhash e op info i, op_info e op = Some info -> decode keccak blockhash op = Some i ->
        oi_min info = kvm__minStack (Z.of_nat (instr_pops i)) (Z.of_nat (instr_pushes i)) /\
        oi_max info = kvm__maxStack (Z.of_nat (instr_pops i)) (Z.of_nat (instr_pushes i)))
  /\ (forall n, 0 <= n <= 32 -> kvm__minSwapStack n = n /\ kvm__maxSwapStack n = stack_limit /\ kvm__minDupStack n = n /\ kvm__maxDupStack n = stack_limit - 1)
  /\ (forall ro w op v,
        (kvm__Interpreter_Run__if_in_readOnly ro
         && kvm__Interpreter_Run__if_operation_writes_or_op_eq_CALL_and_stack_Back_2__Sign_ne_0 w op (sign_int v))%bool
        = (ro && (w || ((op =? 241) && negb (v =? 0))))%bool)
  /\ (forall g c, kvm__Contract_UseGas__if_c_Gas_lt_gas g c = (g <? c))
  /\ (forall g c, 0 <= c <= g -> g < U64 -> kvm__Contract_UseGas__set_Gas_op g c = g - c)
  /\ (forall c d, 0 <= c -> 0 <= d -> c + d < U64 -> kvm__Interpreter_Run__set_cost_op c d = c + d)
  /\ (forall n, 0 <= n <= 18446744073709551584 -> kvm__toWordSize n = words n)
  /\ (forall size, in_range GoSem.U64 size ->
        round_mem size = (let '(p, ov) := lib_common__SafeMul (kvm__toWordSize size) 32 in if ov then None else Some p)
        /\ round_mem size = (let '(p, ov) := lib_math__SafeMul (kvm__toWordSize size) 32 in if ov then None else Some p))
  /\ (forall x y, in_range GoSem.U64 x -> in_range GoSem.U64 y ->
        lib_math__SafeAdd x y = (wrapu64 (x + y), max_u64 <? x + y) /\ lib_common__SafeAdd x y = (wrapu64 (x + y), max_u64 <? x + y))
  /\ (forall x y, in_range GoSem.U64 x -> in_range GoSem.U64 y ->
        lib_math__SafeSub x y = (wrapu64 (x - y), x <? y) /\ lib_common__SafeSub x y = (wrapu64 (x - y), x <? y))
  /\ (forall x y, in_range GoSem.U64 x -> in_range GoSem.U64 y ->
        lib_math__SafeMul x y = (wrapu64 (x * y), max_u64 <? x * y) /\ lib_common__SafeMul x y = (wrapu64 (x * y), max_u64 <? x * y))
  /\ (forall off len, 0 <= off < U64 -> 0 <= len < U64 ->
        mem_need off len =
        if kvm__calcMemSize64WithUint__if_length64_eq_0 len then Some 0
        else if kvm__calcMemSize64WithUint__if_overflow (u64_overflow off) then None
        else if kvm__calcMemSize64WithUint__ret_val_lt_offset64 (kvm__calcMemSize64WithUint__set_val off len) off then None
        else Some (kvm__calcMemSize64WithUint__set_val off len))
  /\ (forall off len, 0 <= off -> 0 < len ->
        (kvm__calcMemSize64__if_not_l_IsUint64 (len <? U64) = true \/ kvm__calcMemSize64WithUint__if_overflow (u64_overflow off) = true) ->
        mem_need off len = None)
  /\ (forall f new, 0 <= new <= 18446744073709551584 -> new mod 32 = 0 ->
        Z.of_nat (List.length (f_mem f)) < U64 -> 0 <= f_mcost f ->
        (new <= MEM_LIMIT -> f_mcost f <= new / 32 * g_memory + new / 32 * (new / 32) / g_quad_coeff_div) ->
        mem_gas f new =
        if kvm__memoryGasCost__if_newMemSize_eq_0 new then Some (0, f_mcost f)
        else if kvm__memoryGasCost__if_newMemSize_gt_0x1FFFFFFFE0 new then None
        else
          let w := kvm__memoryGasCost__let_newMemSizeWords (kvm__toWordSize new) in
          if kvm__memoryGasCost__if_newMemSize_gt_uint64_mem_Len (kvm__memoryGasCost__set_newMemSize w) (Z.of_nat (List.length (f_mem f)))
          then let tot := kvm__memoryGasCost__set_newTotalFee (kvm__memoryGasCost__set_linCoef w)
                                                               (kvm__memoryGasCost__set_quadCoef (kvm__memoryGasCost__set_square w)) in
               Some (kvm__memoryGasCost__set_fee tot (f_mcost f), kvm__memoryGasCost__put_mem_lastGasCost tot)
          else Some (0, f_mcost f))
  /\ (forall avail base cost, 0 <= base <= avail -> avail < U64 -> 0 <= cost ->
        call_gas avail base cost =
        let g := kvm__callGas__set_gas (kvm__callGas__set_availableGas avail base) in
        if kvm__callGas__if_not_callCost_IsUint64_or_gas_lt_callCost_Uint64 (cost <? U64) g (u64_low cost) then Some g
        else Some (u64_low cost))
  /\ (forall b, 0 <= b < W -> byte_len b = kvm__gasExp__set_expByteLen (bit_len b))
  /\ (forall tv em ex : bool,
        (if (tv && em)%bool then g_call_new_account else 0) + (if ex then 0 else g_call_new_account) + (if tv then g_call_value_transfer else 0)
        = (let g0 := 0 in
           let g1 := if kvm__gasCall__if_transfersValue_and_kvm_StateDB_Empty_address tv em then kvm__gasCall__set_gas_op g0 else g0 in
           let g2 := if kvm__gasCall__if_not_kvm_StateDB_Exist_address ex then kvm__gasCall__set_gas_op_2 g1 else g1 in
           if kvm__gasCall__if_transfersValue tv then kvm__gasCall__set_gas_op_3 g2 else g2))
  /\ (forall cur new,
        kvm__gasSStore__if_val_eq_common_Hash_and_y_Sign_ne_0 (cur =? 0) (sign_int new) = ((cur =? 0) && negb (new =? 0))%bool
        /\ kvm__gasSStore__if_val_ne_common_Hash_and_y_Sign_eq_0 (negb (cur =? 0)) (sign_int new) = (negb (cur =? 0) && (new =? 0))%bool)
  /\ (forall em bal ex,
        kvm__gasSelfdestruct__if_kvm_StateDB_Empty_address_and_kvm_StateDB_GetBalance_contrac_a3d63a4d em (sign_int bal) = (em && negb (bal =? 0))%bool
        /\ kvm__gasSelfdestruct__if_not_kvm_StateDB_Exist_address ex = negb ex
        /\ kvm__gasSelfdestruct__set_gas_op 0 = g_create_by_selfdestruct /\ kvm__gasSelfdestruct__set_gas_op_2 0 = g_create_by_selfdestruct)
  /\ (forall d,
        (call_create_depth <? d) = kvm__KVM_Call__if_kvm_depth_gt_int_configs_CallCreateDepth d
        /\ (call_create_depth <? d) = kvm__KVM_CallCode__if_kvm_depth_gt_int_configs_CallCreateDepth d
        /\ (call_create_depth <? d) = kvm__KVM_DelegateCall__if_kvm_depth_gt_int_configs_CallCreateDepth d
        /\ (call_create_depth <? d) = kvm__KVM_StaticCall__if_kvm_depth_gt_int_configs_CallCreateDepth d
        /\ (call_create_depth <? d) = kvm__KVM_create__if_kvm_depth_gt_int_configs_CallCreateDepth d)
  /\ (forall v bal, 0 <= v ->
        ((v <? 0) || (negb (v =? 0) && (bal <? v)))%bool
        = kvm__KVM_Call__if_value_Sign_ne_0_and_not_kvm_BlockContext_CanTransfer_kvm_Sta_a9cbbd5d (sign_int v) (v <=? bal))
  /\ (forall v bal, 0 <= v ->
        ((v <? 0) || (bal <? v))%bool = kvm__KVM_create__if_not_kvm_CanTransfer_kvm_StateDB_caller_Address_value (v <=? bal)
        /\ ((v <? 0) || (bal <? v))%bool = kvm__KVM_CallCode__if_not_kvm_CanTransfer_kvm_StateDB_caller_Address_value (v <=? bal))
  /\ (forall ex pre v,
        (negb ex && negb pre && (v =? 0))%bool
        = (kvm__KVM_Call__if_not_kvm_StateDB_Exist_addr ex && kvm__KVM_Call__if_not_isPrecompile_and_value_Sign_eq_0 pre (sign_int v))%bool)
  /\ (forall n hascode,
        (negb (n =? 0) || hascode)%bool
        = kvm__KVM_create__if_kvm_StateDB_GetNonce_address_ne_0_or_contractHash_ne_common__1d664e2b n hascode hascode)
  /\ (forall n, (max_code_size <? n) = kvm__KVM_create__set_maxCodeSizeExceeded n)
  /\ (forall n, 0 <= n <= max_code_size -> n * g_create_data = kvm__KVM_create__set_createDataGas n)
  /\ (forall big err,
        kvm__KVM_create__if_maxCodeSizeExceeded_or_err_ne_nil big err = (big || err)%bool
        /\ kvm__KVM_create__if_err_eq_nil_and_not_maxCodeSizeExceeded (negb err) big = (negb err && negb big)%bool
        /\ kvm__KVM_create__if_maxCodeSizeExceeded_and_err_eq_nil big (negb err) = (big && negb err)%bool)
  /\ (forall g, 0 <= g < U64 -> g - g / 64 = kvm__opCreate__set_gas_op g)
  /\ (forall g, 0 <= g -> g + g_call_stipend < U64 -> g + g_call_stipend = kvm__opCall__set_gas_op g)
  /\ (forall off len n, 0 <= off -> 0 <= len < U64 -> 0 <= n < U64 ->
        ((U64 <=? off) || (U64 <=? off + len) || (n <? off + len))%bool
        = (kvm__opReturnDataCopy__if_overflow (u64_overflow off)
           || kvm__opReturnDataCopy__if_overflow_or_uint64_len_kvm_interpreter_returnData_lt_end64 (u64_overflow (off + len)) n (u64_low (off + len)))%bool)
  /\ (forall f, 0 <= sk (f_stack f) 1 -> 0 <= sk (f_stack f) 2 < U64 -> Z.of_nat (List.length (f_ret f)) < U64 ->
        (rdc_ok f <->
         (kvm__opReturnDataCopy__if_overflow (u64_overflow (sk (f_stack f) 1))
          || kvm__opReturnDataCopy__if_overflow_or_uint64_len_kvm_interpreter_returnData_lt_end64
               (u64_overflow (sk (f_stack f) 1 + sk (f_stack f) 2)) (Z.of_nat (List.length (f_ret f)))
               (u64_low (sk (f_stack f) 1 + sk (f_stack f) 2)))%bool = false))
  /\ (forall dest len, 0 <= dest -> 0 <= len < U64 ->
        (dest <? len) = negb (kvm__Contract_validJumpdest__if_overflow_or_udest_ge_uint64_len_c_Code (u64_overflow dest) (u64_low dest) len))
  /\ (forall b, 0 <= b < 256 -> (b =? 91) = negb (kvm__Contract_validJumpdest__if_OpCode_c_Code_at_udest_ne_JUMPDEST b))
  /\ (forall b, 0 <= b < 256 ->
        push_len b = if kvm__codeBitmap__if_op_ge_PUSH1_and_op_le_PUSH32 b then Z.to_nat (kvm__codeBitmap__set_numbits b) else O)
  /\ (forall (blockhash : Z -> Z) e n, 0 <= n -> 0 <= e_number e < U64 ->
        op_blockhash blockhash e n =
        if kvm__opBlockhash__if_overflow (u64_overflow n) then 0
        else let upper := kvm__opBlockhash__let_upper (e_number e) in
             let lower := if kvm__opBlockhash__if_upper_lt_257 upper then kvm__opBlockhash__let_lower else kvm__opBlockhash__set_lower upper in
             if kvm__opBlockhash__if_num64_ge_lower_and_num64_lt_upper (u64_low n) lower upper then blockhash (u64_low n) else 0)
  /\ (forall len size, 0 <= len < U64 ->
        (len <? size) = kvm__Memory_Resize__if_uint64_m_Len_lt_size len size
        /\ (len < size < U64 -> size - len = kvm__Memory_Resize__arg_size_minus_uint64_m_Len size len))
  /\ (forall off size len, 0 <= off -> 0 <= size -> off + size < U64 -> 0 <= len < U64 ->
        kvm__Memory_Set__if_size_gt_0 size = (0 <? size)
        /\ kvm__Memory_Set__if_offset_plus_size_gt_uint64_len_m_store off size len = (len <? off + size))
  /\ (forall gas cost,
        (gas <? cost) = kvm__RunPrecompiledContract__if_suppliedGas_lt_gasCost gas (kvm__RunPrecompiledContract__let_gasCost cost)
        /\ (0 <= cost <= gas -> gas < U64 -> gas - cost = kvm__RunPrecompiledContract__set_suppliedGas_op gas cost))
  /\ (forall args : list Z, Z.of_nat (List.length args) < 2 ^ 32 ->
        identity_cost args = kvm__dataCopy_RequiredGas__ret_uint64_len_input_plus_31_div_32_mul_configs_IdentityPerWordG_9a806594 (Z.of_nat (List.length args)))
  /\ (forall z ok,
        kvm__ecrecover_Run__if_not_allZero_input_at_32_63_or_not_crypto_ValidateSignatureVa_a2aaeffb z ok = (negb z || negb ok)%bool
        /\ (forall b, 27 <= b <= 28 -> kvm__ecrecover_Run__set_v b = b - 27))
  /\ (forall v, kvm__opSAR__if_value_Sign_ge_0 (sign_int v) = (0 <=? v))
  /\ kvm__ecrecover_Run__if_not_allZero_input_at_32_63_or_not_crypto_ValidateSignatureVa_a2aaeffb_atoms
     = ["allZero(input[32:63]) : bool"; "crypto.ValidateSignatureValues(v, r, s, false) : bool"]%string
  /\ kvm__opReturnDataCopy__if_overflow_or_uint64_len_kvm_interpreter_returnData_lt_end64_atoms
     = ["overflow : bool"; "len(kvm.interpreter.returnData) : int"; "end64 : uint64"]%string
  /\ kvm__KVM_create__if_kvm_depth_gt_int_configs_CallCreateDepth_atoms = ["kvm.depth : int"]%string
  /\ kvm__Contract_UseGas__if_c_Gas_lt_gas_atoms = ["c.Gas : uint64"; "gas : uint64"]%string
  /\ kvm__Interpreter_Run__if_sLen_gt_operation_maxStack_atoms = ["sLen : int"; "operation.maxStack : int"]%string
  /\ kvm__Interpreter_Run__let_sLen_atoms = ["stack.len() : int"]%string.

Lemma C10_source_tie_proof : C10_source_tie_statement.
Proof.
  unfold C10_source_tie_statement. split_all.
  - (* Interpreter.Run: stack bounds *)
    intros n m. split; reflexivity.
  - intros n m. split; apply Z.gtb_ltb.
  - exact src_table_stack.
  - intros n H. unfold kvm__minSwapStack, kvm__maxSwapStack, kvm__minDupStack, kvm__maxDupStack,
                 kvm__minStack, kvm__maxStack, stack_limit.
    gosem. repeat split; lia.
  - (* the static test of [step]: [f_static f && (oi_writes info || ((op =? 241) && negb (sk s 2 =? 0)))] *)
    intros ro w op v.
    unfold kvm__Interpreter_Run__if_in_readOnly,
      kvm__Interpreter_Run__if_operation_writes_or_op_eq_CALL_and_stack_Back_2__Sign_ne_0.
    rewrite sign_ne0. reflexivity.
  - (* Contract.UseGas: [f_gas f <? cost] fails the frame, otherwise the gas becomes [f_gas f - cost] *)
    reflexivity.
  - intros g c. rewrite U64_val. intros H1 H2. unfold kvm__Contract_UseGas__set_Gas_op. gosem. reflexivity.
  - (* pre-Galaxias: the second charge is constant + dynamic ([oi_gas info + cost] in [step]) *)
    intros c d. rewrite U64_val. intros. unfold kvm__Interpreter_Run__set_cost_op. gosem. reflexivity.
  - exact src_toWordSize.
  - (* [round_mem] is SafeMul(toWordSize(memSize), 32) with its overflow flag *)
    intros size H. unfold in_range in H.
    assert (Hr : in_range GoSem.U64 (kvm__toWordSize size)).
    { destruct (Z_le_gt_dec size 18446744073709551584).
      - rewrite src_toWordSize by lia. unfold words, in_range. lia.
      - rewrite src_toWordSize_big by lia. unfold in_range. lia. }
    destruct (src_SafeMul (kvm__toWordSize size) 32 Hr ltac:(unfold in_range; lia)) as [E1 E2].
    rewrite E1, E2. cbn zeta.
    assert (G : round_mem size = (if max_u64 <? kvm__toWordSize size * 32 then None else Some (wrapu64 (kvm__toWordSize size * 32)))).
    { unfold round_mem, max_u64, two64. rewrite U64_val.
      destruct (Z_le_gt_dec size 18446744073709551584).
      - rewrite src_toWordSize by lia. unfold words.
        destruct (Z.leb_spec 18446744073709551616 ((size + 31) / 32 * 32));
          destruct (Z.ltb_spec (18446744073709551616 - 1) ((size + 31) / 32 * 32)); try lia; try reflexivity.
        f_equal. unfold wrapu64, two64. rewrite Z.mod_small; lia.
      - rewrite src_toWordSize_big by lia.
        destruct (Z.leb_spec 18446744073709551616 ((size + 31) / 32 * 32)); [reflexivity|lia]. }
    split; exact G.
  - (* lib/math and lib/common SafeAdd, SafeSub, SafeMul *)
    intros x y. unfold lib_math__SafeAdd, lib_common__SafeAdd, go_bits_add64, in_range, max_u64, two64. intros Hx Hy.
    rewrite Z.add_0_r, hi_ne0 by lia. split; reflexivity.
  - intros x y. unfold lib_math__SafeSub, lib_common__SafeSub, go_bits_sub64, in_range. intros Hx Hy. rewrite Z.sub_0_r.
    assert (E : go_neqb (if x - y <? 0 then 1 else 0) 0 = (x <? y)).
    { unfold go_neqb. destruct (Z.ltb_spec (x - y) 0); destruct (Z.ltb_spec x y); try reflexivity; lia. }
    split; f_equal; exact E.
  - exact src_SafeMul.
  - (* [mem_need] is calcMemSize64WithUint (offset and length that fit 64 bits) *)
    intros off len. rewrite U64_val. intros Ho Hl.
    unfold mem_need, kvm__calcMemSize64WithUint__if_length64_eq_0, kvm__calcMemSize64WithUint__if_overflow,
      kvm__calcMemSize64WithUint__ret_val_lt_offset64, kvm__calcMemSize64WithUint__set_val, u64_overflow, go_add.
    rewrite U64_val.
    replace ((len <? 0) || (18446744073709551616 <=? len))%bool with false
      by (symmetry; apply orb_false_iff; split; [apply Z.ltb_ge|apply Z.leb_gt]; lia).
    destruct (Z.eqb_spec len 0); [reflexivity|].
    replace ((off <? 0) || (18446744073709551616 <=? off))%bool with false
      by (symmetry; apply orb_false_iff; split; [apply Z.ltb_ge|apply Z.leb_gt]; lia).
    replace (18446744073709551616 <=? off) with false by (symmetry; apply Z.leb_gt; lia).
    unfold GoSem.wrap.
    destruct (Z.leb_spec 18446744073709551616 (off + len)) as [Hge|Hlt].
    + replace ((off + len) mod 18446744073709551616) with (off + len - 18446744073709551616)
        by lia.
      destruct (Z.ltb_spec (off + len - 18446744073709551616) off); [reflexivity|lia].
    + rewrite Z.mod_small by lia. destruct (Z.ltb_spec (off + len) off); [lia|reflexivity].
  - (* an offset or length beyond 64 bits is the overflow exit (calcMemSize64: [!l.IsUint64()]) *)
    intros off len Ho Hl H.
    unfold mem_need, kvm__calcMemSize64__if_not_l_IsUint64, kvm__calcMemSize64WithUint__if_overflow, u64_overflow in *.
    destruct H as [H|H].
    + apply negb_true_iff in H. apply Z.ltb_ge in H.
      replace ((len <? 0) || (U64 <=? len))%bool with true; [reflexivity|].
      symmetry. apply orb_true_iff. right. apply Z.leb_le. exact H.
    + destruct ((len <? 0) || (U64 <=? len))%bool; [reflexivity|].
      destruct (Z.eqb_spec len 0); [lia|].
      replace ((off <? 0) || (U64 <=? off))%bool with true; [reflexivity|].
      symmetry. apply orb_true_iff. right. exact H.
  - (* gas.go: [mem_gas f new] for a rounded size (a multiple of 32, as [round_mem] produces) is memoryGasCost *)
    intros f new. rewrite U64_val. intros Hn Hm Hlen Hc Hcost.
    unfold mem_gas, kvm__memoryGasCost__if_newMemSize_eq_0, kvm__memoryGasCost__if_newMemSize_gt_0x1FFFFFFFE0, MEM_LIMIT in *.
    destruct (Z.eqb_spec new 0); [reflexivity|].
    rewrite Z.gtb_ltb. destruct (Z.ltb_spec 137438953440 new); [reflexivity|].
    specialize (Hcost ltac:(lia)). unfold g_memory, g_quad_coeff_div in *.
    rewrite src_toWordSize by lia. unfold kvm__memoryGasCost__let_newMemSizeWords. cbn zeta.
    replace (words new) with (new / 32) by (unfold words; lia).
    set (w := new / 32) in *.
    assert (Hwr : 0 <= w <= 4294967295) by (unfold w; lia).
    assert (Hq : 0 <= w * w <= 4294967295 * 4294967295) by nia.
    (* the word count fits 32 bits, so none of the uint64 operations of memoryGasCost wraps *)
    assert (Esz : kvm__memoryGasCost__set_newMemSize w = new).
    { unfold kvm__memoryGasCost__set_newMemSize. gosem. unfold w. lia. }
    assert (Etot : kvm__memoryGasCost__set_newTotalFee (kvm__memoryGasCost__set_linCoef w)
                     (kvm__memoryGasCost__set_quadCoef (kvm__memoryGasCost__set_square w)) = w * 3 + w * w / 512).
    { unfold kvm__memoryGasCost__set_newTotalFee, kvm__memoryGasCost__set_linCoef,
        kvm__memoryGasCost__set_quadCoef, kvm__memoryGasCost__set_square, go_add, go_mul, go_quot.
      rewrite (wrap_id GoSem.U64 (w * w)) by (unfold in_range; lia). rewrite Z.quot_div_nonneg by lia.
      gosem_wraps. reflexivity. }
    rewrite Esz, Etot.
    unfold kvm__memoryGasCost__if_newMemSize_gt_uint64_mem_Len, kvm__memoryGasCost__set_fee,
      kvm__memoryGasCost__put_mem_lastGasCost, go_conv, go_sub.
    rewrite Z.gtb_ltb. gosem_wraps.
    destruct (Z.ltb_spec (Z.of_nat (List.length (f_mem f))) new); reflexivity.
  - (* [call_gas avail base cost] (EIP-150) is callGas; [cost] is the 256-bit gas operand *)
    intros avail base cost. rewrite U64_val. intros Hb Ha Hc.
    unfold call_gas, kvm__callGas__set_gas, kvm__callGas__set_availableGas,
      kvm__callGas__if_not_callCost_IsUint64_or_gas_lt_callCost_Uint64, u64_low.
    rewrite U64_val. unfold go_sub, go_quot.
    destruct (Z.ltb_spec avail base); [lia|].
    rewrite (wrap_id GoSem.U64 (avail - base)) by (unfold in_range; lia).
    set (a := avail - base) in *. assert (0 <= a < 18446744073709551616) by (unfold a; lia).
    rewrite Z.quot_div_nonneg by lia.
    rewrite (wrap_id GoSem.U64 (a / 64)) by (unfold in_range; lia).
    rewrite (wrap_id GoSem.U64 (a - a / 64)) by (unfold in_range; lia).
    cbn zeta.
    destruct (Z.ltb_spec cost 0); [lia|].
    destruct (Z.ltb_spec cost 18446744073709551616) as [Hs|Hbig].
    + rewrite Z.mod_small by lia.
      replace (18446744073709551616 <=? cost) with false by (symmetry; apply Z.leb_gt; lia).
      cbn [orb negb]. reflexivity.
    + replace (18446744073709551616 <=? cost) with true by (symmetry; apply Z.leb_le; lia).
      cbn [orb negb]. reflexivity.
  - intros b Hb. unfold byte_len, kvm__gasExp__set_expByteLen, bit_len, b2w.
    destruct (Z.eqb_spec b 0) as [->|Hn].
    + reflexivity.
    + assert (0 < b) by lia. replace (0 <? b) with true by (symmetry; apply Z.ltb_lt; lia).
      assert (Hl : 0 <= Z.log2 b < 256).
      { split; [apply Z.log2_nonneg|]. apply Z.log2_lt_pow2; [lia|]. unfold W in Hb. lia. }
      unfold go_conv, go_quot, go_add.
      rewrite (wrap_id I64 (Z.log2 b + 1 + 7)) by (unfold in_range; lia).
      rewrite Z.quot_div_nonneg by lia.
      rewrite (wrap_id I64) by (unfold in_range; lia).
      rewrite (wrap_id GoSem.U64) by (unfold in_range; lia).
      replace (Z.log2 b + 1 + 7) with (Z.log2 b + 8) by lia. lia.
  - (* CALL: the surcharges in front of the memory gas ([base] in [instr_dyn]) *)
    intros tv em ex. destruct tv, em, ex; reflexivity.
  - (* SSTORE classes and SELFDESTRUCT surcharge conditions *)
    intros cur new.
    unfold kvm__gasSStore__if_val_eq_common_Hash_and_y_Sign_ne_0, kvm__gasSStore__if_val_ne_common_Hash_and_y_Sign_eq_0.
    rewrite sign_ne0, sign_eq0. split; reflexivity.
  - intros em bal ex.
    unfold kvm__gasSelfdestruct__if_kvm_StateDB_Empty_address_and_kvm_StateDB_GetBalance_contrac_a3d63a4d.
    rewrite sign_ne0. repeat split; reflexivity.
  - (* kvm.go: depth limit, balance test, collision, code size, deposit gas *)
    intros d. repeat split; symmetry; apply Z.gtb_ltb.
  - (* CanTransfer(db, a, v) is [v <= balance]; values are non-negative words *)
    intros v bal Hv. unfold kvm__KVM_Call__if_value_Sign_ne_0_and_not_kvm_BlockContext_CanTransfer_kvm_Sta_a9cbbd5d.
    rewrite sign_ne0. replace (v <? 0) with false by (symmetry; apply Z.ltb_ge; lia). cbn [orb]. f_equal.
    destruct (Z.ltb_spec bal v); destruct (Z.leb_spec v bal); try reflexivity; lia.
  - intros v bal Hv. unfold kvm__KVM_create__if_not_kvm_CanTransfer_kvm_StateDB_caller_Address_value,
                       kvm__KVM_CallCode__if_not_kvm_CanTransfer_kvm_StateDB_caller_Address_value.
    replace (v <? 0) with false by (symmetry; apply Z.ltb_ge; lia). cbn [orb].
    split; destruct (Z.ltb_spec bal v); destruct (Z.leb_spec v bal); try reflexivity; lia.
  - (* a call to an absent account that is not a precompile and carries no value does nothing *)
    intros ex pre v.
    unfold kvm__KVM_Call__if_not_kvm_StateDB_Exist_addr, kvm__KVM_Call__if_not_isPrecompile_and_value_Sign_eq_0.
    rewrite sign_eq0. destruct ex, pre; reflexivity.
  - (* collision: a non-zero nonce, or a code hash that is neither absent nor the hash of the empty code *)
    intros n hascode.
    unfold kvm__KVM_create__if_kvm_StateDB_GetNonce_address_ne_0_or_contractHash_ne_common__1d664e2b, go_neqb.
    destruct hascode; reflexivity.
  - intros n. unfold kvm__KVM_create__set_maxCodeSizeExceeded. symmetry. apply Z.gtb_ltb.
  - intros n. unfold max_code_size, g_create_data, kvm__KVM_create__set_createDataGas. intros H. gosem. reflexivity.
  - (* what [settle] does with the two failure reasons of a creation: both revert to the snapshot *)
    intros big err. repeat split.
  - (* CREATE keeps one 64th; a value-bearing CALL adds the stipend *)
    intros g. rewrite U64_val. intros H. unfold kvm__opCreate__set_gas_op, go_sub, go_quot.
    rewrite Z.quot_div_nonneg by lia.
    rewrite (wrap_id GoSem.U64 (g / 64)) by (unfold in_range; lia).
    rewrite wrap_id by (unfold in_range; lia). reflexivity.
  - intros g. rewrite U64_val. unfold g_call_stipend, kvm__opCall__set_gas_op. intros. gosem. reflexivity.
  - exact src_returndatacopy.
  - intros f Ho Hl Hn. rewrite <- src_returndatacopy by lia. unfold rdc_ok. cbn zeta.
    rewrite !orb_false_iff, !Z.leb_gt, Z.ltb_ge. lia.
  - (* contract.go [valid_jumpdest]: range test and the JUMPDEST byte *)
    intros dest len. rewrite U64_val. intros Hd Hl.
    unfold kvm__Contract_validJumpdest__if_overflow_or_udest_ge_uint64_len_c_Code, u64_overflow, u64_low, go_conv.
    rewrite U64_val. rewrite (wrap_id GoSem.U64 len) by (unfold in_range; lia). rewrite Z.geb_leb.
    destruct (Z.leb_spec 18446744073709551616 dest).
    + cbn [orb negb]. apply Z.ltb_ge. lia.
    + cbn [orb]. rewrite Z.mod_small by lia.
      destruct (Z.ltb_spec dest len); destruct (Z.leb_spec len dest); try reflexivity; lia.
  - intros b H. unfold kvm__Contract_validJumpdest__if_OpCode_c_Code_at_udest_ne_JUMPDEST, go_neqb, go_conv.
    rewrite wrap_id by (unfold in_range; lia). rewrite negb_involutive. reflexivity.
  - (* the PUSH test and data length of the bitmap sweep ([push_len], [jd_scan]) *)
    intros b H. unfold push_len, kvm__codeBitmap__if_op_ge_PUSH1_and_op_le_PUSH32, kvm__codeBitmap__set_numbits.
    rewrite Z.geb_leb. destruct ((96 <=? b) && (b <=? 127))%bool eqn:E; [|reflexivity].
    apply andb_true_iff in E. destruct E as [E1 E2]. apply Z.leb_le in E1. apply Z.leb_le in E2.
    unfold go_add, go_sub. rewrite (wrap_id U8 (b - 96)) by (unfold in_range; lia).
    rewrite wrap_id by (unfold in_range; lia). f_equal. lia.
  - (* BLOCKHASH *)
    intros blockhash e n. rewrite U64_val. intros Hn He.
    unfold op_blockhash, kvm__opBlockhash__if_overflow, kvm__opBlockhash__let_upper, kvm__opBlockhash__if_upper_lt_257,
      kvm__opBlockhash__let_lower, kvm__opBlockhash__set_lower, kvm__opBlockhash__if_num64_ge_lower_and_num64_lt_upper,
      u64_overflow, u64_low.
    rewrite U64_val. destruct (Z.leb_spec 18446744073709551616 n); [reflexivity|].
    rewrite Z.mod_small by lia. cbn zeta. rewrite !Z.geb_leb.
    destruct (Z.ltb_spec (e_number e) 257); [reflexivity|].
    unfold go_sub. rewrite wrap_id by (unfold in_range; lia). reflexivity.
  - (* memory.go *)
    intros len size. rewrite U64_val. intros H.
    unfold kvm__Memory_Resize__if_uint64_m_Len_lt_size, kvm__Memory_Resize__arg_size_minus_uint64_m_Len, go_conv, go_sub.
    rewrite (wrap_id GoSem.U64 len) by (unfold in_range; lia). split; [reflexivity|].
    intros H2. rewrite wrap_id by (unfold in_range; lia). reflexivity.
  - (* Memory.Set panics when [offset + size] exceeds the store: [write_ok] (ProofsMem) shows the model never writes there *)
    intros off size len. rewrite U64_val. intros.
    unfold kvm__Memory_Set__if_size_gt_0, kvm__Memory_Set__if_offset_plus_size_gt_uint64_len_m_store, go_add, go_conv.
    rewrite !wrap_id by (unfold in_range; lia). split; apply Z.gtb_ltb.
  - (* contracts.go: precompile gas test and the identity price *)
    intros gas cost. split; [reflexivity|]. rewrite U64_val. intros H1 H2.
    unfold kvm__RunPrecompiledContract__set_suppliedGas_op. gosem. reflexivity.
  - intros args H. unfold identity_cost, words, g_identity_word, g_identity_base,
                    kvm__dataCopy_RequiredGas__ret_uint64_len_input_plus_31_div_32_mul_configs_IdentityPerWordG_9a806594.
    set (n := Z.of_nat (List.length args)) in *. assert (0 <= n) by (unfold n; lia).
    unfold go_add, go_mul, go_quot, go_conv.
    rewrite (wrap_id I64 (n + 31)) by (unfold in_range; lia).
    rewrite (wrap_id GoSem.U64 (n + 31)) by (unfold in_range; lia).
    rewrite Z.quot_div_nonneg by lia.
    rewrite (wrap_id GoSem.U64 ((n + 31) / 32)) by (unfold in_range; lia).
    rewrite (wrap_id GoSem.U64 ((n + 31) / 32 * 3)) by (unfold in_range; lia).
    rewrite wrap_id by (unfold in_range; lia). reflexivity.
  - intros z ok. split; [reflexivity|]. intros b Hb. unfold kvm__ecrecover_Run__set_v. gosem. reflexivity.
  - (* SAR beyond 256: the sign test ([signed v <? 0] in U256.sar) *)
    exact sign_ge0.
  - reflexivity.
  - reflexivity.
  - reflexivity.
  - reflexivity.
  - reflexivity.
  - reflexivity.
Qed.
