(** C10 — gas accounting: the total gas held by a configuration never increases, every step of a
    running configuration strictly decreases [total gas + number of frames] (because every present
    non-halting opcode costs at least 1 and frame-creating opcodes at least 2 — checked on the
    generated tables), hence execution is over after at most gas + 2 steps. *)
From Coq Require Import List ZArith Bool Lia.
From Kardia Require Import C10.U256 C10.EVM C10.ProofsTables C10.ProofsInv C10.ProofsFrames C10.ProofsGas Generated.C10Facts.
Import ListNotations.
Local Open Scope Z_scope.
Ltac Zify.zify_post_hook ::= Z.div_mod_to_equations.

Section Term.
Variable keccak : list Z -> Z.
Variable blockhash : Z -> Z.
Notation step := (step keccak blockhash).
Notation exec := (exec keccak).

(** [f_mcost] is the memory cost paid so far: never more than the cost of the memory the frame has *)
Definition memtot (w : Z) : Z := w * g_memory + w * w / g_quad_coeff_div.
Definition mem_ok (f : frame) : Prop := f_mcost f <= memtot (Z.of_nat (length (f_mem f)) / 32).

Lemma memtot_mono : forall a b, 0 <= a <= b -> memtot a <= memtot b.
Proof.
  intros a b H. destruct consts as [Hm [Hq _]]. unfold memtot.
  assert (a * g_memory <= b * g_memory) by (apply Z.mul_le_mono_nonneg_r; lia).
  assert (a * a <= b * b) by (apply Z.mul_le_mono_nonneg; lia).
  assert (a * a / g_quad_coeff_div <= b * b / g_quad_coeff_div) by (apply Z.div_le_mono; lia).
  lia.
Qed.
Lemma memtot_0 : memtot 0 = 0.
Proof. reflexivity. Qed.

(** memory only grows, so the invariant survives whatever keeps the cost *)
Lemma mem_ok_grow : forall p p', mem_ok p -> f_mcost p' = f_mcost p ->
    (length (f_mem p) <= length (f_mem p'))%nat -> mem_ok p'.
Proof.
  intros p p' H Hc Hl. unfold mem_ok in *. rewrite Hc. eapply Z.le_trans; [exact H|].
  apply memtot_mono. split; [apply Z.div_pos; lia|apply Z.div_le_mono; lia].
Qed.
Lemma nomem_ok : forall f msz, mem_ok f -> mem_ok (set_mem f (mem_resize (f_mem f) msz) (f_mcost f)).
Proof.
  intros f msz H. apply (mem_ok_grow f); [exact H|reflexivity|]. cbn [set_mem f_mem].
  apply Nat2Z.inj_le. rewrite mem_resize_length. lia.
Qed.

Lemma mem_gas_spec : forall f new fee tot,
    mem_ok f -> mem_gas f new = Some (fee, tot) ->
    0 <= fee /\ mem_ok (set_mem f (mem_resize (f_mem f) new) tot).
Proof.
  intros f new fee tot Hok H. unfold mem_gas in H.
  assert (Hsame : Some (0, f_mcost f) = Some (fee, tot) -> 0 <= fee /\ mem_ok (set_mem f (mem_resize (f_mem f) new) tot))
    by (intros E; inversion E; subst; split; [lia|apply nomem_ok; exact Hok]).
  destruct (new =? 0); [exact (Hsame H)|].
  destruct (MEM_LIMIT <? new); [discriminate|].
  destruct (Z.of_nat (length (f_mem f)) <? new) eqn:E; [|exact (Hsame H)].
  clear Hsame. apply Z.ltb_lt in E. inversion H; subst.
  change (new / 32 * g_memory + new / 32 * (new / 32) / g_quad_coeff_div) with (memtot (new / 32)).
  assert (Hmono : memtot (Z.of_nat (length (f_mem f)) / 32) <= memtot (new / 32)).
  { apply memtot_mono. split; [apply Z.div_pos; lia|apply Z.div_le_mono; lia]. }
  unfold mem_ok in *. split; [lia|].
  cbn [set_mem f_mcost f_mem]. rewrite mem_resize_length, Z.max_r by lia. apply Z.le_refl.
Qed.

(** gas that [exec] hands to a callee on top of what the caller keeps: the call gas, plus the stipend of a
    call that carries value *)
Definition extra (i : instr) (s : list Z) (cg : Z) : Z :=
  match i with ICallOp k => if negb (callvalue k s =? 0) then cg + g_call_stipend else cg | _ => 0 end.

(** what the dynamic gas of an instruction covers: the floor claimed for its opcode in ProofsTables, the gas
    handed to a callee, and the memory cost of the resized memory *)
Definition dyn_good (i : instr) (op : Z) (f : frame) (s : list Z) (msz cost mc cg : Z) : Prop :=
  0 <= cost /\ dyn_floor i op <= cost /\ extra i s cg <= cost /\ 0 <= extra i s cg /\
  mem_ok (set_mem f (mem_resize (f_mem f) msz) mc).

Lemma byte_len_nonneg : forall b, 0 <= byte_len b.
Proof.
  intros b. unfold byte_len. apply Z.mul_nonneg_nonneg.
  - pose proof (Z.log2_nonneg b). apply Z.div_pos; lia.
  - unfold b2w. destruct (0 <? b); lia.
Qed.
Lemma words_nonneg : forall n, 0 <= n -> 0 <= words n.
Proof. intros n H. unfold words. apply Z.div_pos; lia. Qed.

Lemma nonpush_extra : forall i s cg, pushes_frame i = false -> extra i s cg = 0.
Proof. intros i s cg H. destruct i; try reflexivity; discriminate. Qed.

Lemma memplus_spec : forall f msz x cost mc cg,
    mem_ok f -> 0 <= x ->
    match mem_gas f msz with Some (g, t) => Some (Some (g + x, t, 0)) | None => Some None end = Some (Some (cost, mc, cg)) ->
    0 <= cost /\ x <= cost /\ cg = 0 /\ mem_ok (set_mem f (mem_resize (f_mem f) msz) mc).
Proof.
  intros f msz x cost mc cg Hok Hx H. destruct (mem_gas f msz) as [[g t]|] eqn:Hm; [|discriminate].
  inversion H; subst. destruct (mem_gas_spec f msz g mc Hok Hm) as [Hg Hm']. repeat split; auto; lia.
Qed.
Lemma memonly_spec : forall f msz cost mc cg,
    mem_ok f ->
    match mem_gas f msz with Some (g, t) => Some (Some (g, t, 0)) | None => Some None end = Some (Some (cost, mc, cg)) ->
    0 <= cost /\ cg = 0 /\ mem_ok (set_mem f (mem_resize (f_mem f) msz) mc).
Proof.
  intros f msz cost mc cg Hok H. destruct (mem_gas f msz) as [[g t]|] eqn:Hm; [|discriminate].
  inversion H; subst. destruct (mem_gas_spec f msz cost mc Hok Hm) as [Hg Hm']. repeat split; auto.
Qed.

Lemma instr_dyn_cost : forall op i f w s msz cost mc cg,
    mem_ok f -> instr_dyn op i f w s msz = Some (Some (cost, mc, cg)) -> dyn_good i op f s msz cost mc cg.
Proof.
  intros op i f w s msz cost mc cg Hok H. pose proof consts as C.
  (* the three shapes of dynamic gas without a callee: a constant, memory expansion, memory expansion plus [x] *)
  assert (Hconst : forall x, 0 <= x -> dyn_floor i op <= x -> (forall c, extra i s c = 0) ->
                             Some (Some (x, f_mcost f, 0)) = Some (Some (cost, mc, cg)) -> dyn_good i op f s msz cost mc cg).
  { intros x Hx Hfl Hp E. inversion E; subst. unfold dyn_good. rewrite Hp.
    repeat split; try lia. apply nomem_ok; exact Hok. }
  assert (Hplus : forall x, 0 <= x -> dyn_floor i op <= x -> (forall c, extra i s c = 0) ->
            match mem_gas f msz with Some (g, t) => Some (Some (g + x, t, 0)) | None => Some None end = Some (Some (cost, mc, cg)) ->
            dyn_good i op f s msz cost mc cg).
  { intros x Hx Hfl Hp E. destruct (memplus_spec _ _ _ _ _ _ Hok Hx E) as [? [? [? ?]]]; subst.
    unfold dyn_good. rewrite Hp. repeat split; auto; lia. }
  assert (Honly : dyn_floor i op = 0 -> (forall c, extra i s c = 0) ->
            match mem_gas f msz with Some (g, t) => Some (Some (g, t, 0)) | None => Some None end = Some (Some (cost, mc, cg)) ->
            dyn_good i op f s msz cost mc cg).
  { intros Hfl Hp E. destruct (memonly_spec _ _ _ _ _ Hok E) as [? [? ?]]; subst.
    unfold dyn_good. rewrite Hp. repeat split; auto; lia. }
  assert (Hlen : forall n, (n <? 0) || (U64 <=? n) = false -> 0 <= words n)
    by (intros n E; apply orb_false_iff in E; destruct E as [E _]; apply Z.ltb_ge in E; apply words_nonneg; exact E).
  unfold instr_dyn in H. destruct i; try discriminate; cbn [dyn_floor] in *.
  - destruct (op =? 10) eqn:E10.
    + pose proof (byte_len_nonneg (sk s 1)).
      assert (0 <= byte_len (sk s 1) * g_exp_byte) by (apply Z.mul_nonneg_nonneg; lia).
      apply (Hconst (byte_len (sk s 1) * g_exp_byte + g_exp)); [lia|lia|reflexivity|exact H].
    + destruct (op =? 32).
      * destruct ((sk s 1 <? 0) || (U64 <=? sk s 1)) eqn:Eg; [discriminate|].
        assert (Hx : 0 <= words (sk s 1) * g_sha3_word) by (apply Z.mul_nonneg_nonneg; [apply Hlen; exact Eg|lia]).
        apply (Hplus _ Hx Hx (fun _ => eq_refl) H).
      * destruct (op =? 81); [|discriminate]. apply (Honly eq_refl (fun _ => eq_refl) H).
  - apply (Honly eq_refl (fun _ => eq_refl) H).
  - apply (Honly eq_refl (fun _ => eq_refl) H).
  - destruct ((sk s 2 <? 0) || (U64 <=? sk s 2)) eqn:Eg; [discriminate|].
    assert (Hx : 0 <= words (sk s 2) * g_copy) by (apply Z.mul_nonneg_nonneg; [apply Hlen; exact Eg|lia]).
    apply (Hplus _ Hx Hx (fun _ => eq_refl) H).
  - destruct ((sk s 3 <? 0) || (U64 <=? sk s 3)) eqn:Eg; [discriminate|].
    assert (Hx : 0 <= words (sk s 3) * g_copy) by (apply Z.mul_nonneg_nonneg; [apply Hlen; exact Eg|lia]).
    apply (Hplus _ Hx Hx (fun _ => eq_refl) H).
  - assert (Hmin : forall x, x = g_sstore_set \/ x = g_sstore_clear \/ x = g_sstore_reset ->
                             0 <= x /\ Z.min g_sstore_set (Z.min g_sstore_clear g_sstore_reset) <= x) by (intros; lia).
    destruct (_ && _); [|destruct (_ && _)];
      match type of H with Some (Some (?x, _, _)) = _ => destruct (Hmin x ltac:(auto)) as [H0 H1] end;
      apply (Hconst _ H0 H1 (fun _ => eq_refl) H).
  - destruct ((sk s 1 <? 0) || (U64 <=? sk s 1)) eqn:Eg; [discriminate|].
    apply orb_false_iff in Eg. destruct Eg as [Eg _]. apply Z.ltb_ge in Eg.
    assert (0 <= Z.of_nat n * g_log_topic) by (apply Z.mul_nonneg_nonneg; lia).
    assert (0 <= sk s 1 * g_log_data) by (apply Z.mul_nonneg_nonneg; lia).
    apply (Hplus (g_log + Z.of_nat n * g_log_topic + sk s 1 * g_log_data)); [lia|lia|reflexivity|exact H].
  - apply (Honly eq_refl (fun _ => eq_refl) H).
  - apply (Honly eq_refl (fun _ => eq_refl) H).
  - (* call family: the surcharges in front of the memory gas cover the stipend *)
    destruct (mem_gas f msz) as [[mg t]|] eqn:Hmg; [|discriminate].
    destruct (mem_gas_spec f msz mg t Hok Hmg) as [Hmg0 Hmok].
    match type of H with context [call_gas _ ?b _] => set (base := b) in H end.
    assert (Hbase : (if negb (callvalue k s =? 0) then g_call_stipend else 0) <= base - mg).
    { assert (Hna : forall b : bool, 0 <= (if b then g_call_new_account else 0) /\ 0 <= (if b then 0 else g_call_new_account))
        by (intros []; lia).
      unfold base. destruct k; cbn [callvalue]; try (cbn [Z.eqb negb]; lia).
      - pose proof (Hna (exists_b w (addr_of_word (sk s 1)))). pose proof (Hna (empty_b w (addr_of_word (sk s 1)))).
        destruct (sk s 2 =? 0); cbn [negb andb]; lia.
      - destruct (sk s 2 =? 0); cbn [negb]; lia. }
    destruct (call_gas (f_gas f) base (sk s 0)) as [cg'|] eqn:Hc; [|discriminate].
    pose proof (call_gas_nonneg _ _ _ _ Hc) as Hcg.
    inversion H; subst. unfold dyn_good. cbn [extra dyn_floor].
    destruct (negb (callvalue k s =? 0)); repeat split; auto; lia.
  - apply (Honly eq_refl (fun _ => eq_refl) H).
  - apply (Honly eq_refl (fun _ => eq_refl) H).
  - assert (Hx : forall b : bool, 0 <= (if b then g_create_by_selfdestruct else 0)) by (intros []; lia).
    match type of H with Some (Some (?x, _, _)) = _ => assert (H0 : 0 <= x) by (destruct (_ && _); [lia|apply Hx]) end.
    apply (Hconst _ H0 H0 (fun _ => eq_refl) H).
Qed.

Fixpoint frames_gas (l : list frame) : Z := match l with [] => 0 | f :: t => f_gas f + frames_gas t end.
(** gas held by a configuration: the frames' gas, or the final leftover *)
Definition total_gas (c : config) : Z :=
  match c_status c with Final _ _ g => g | _ => frames_gas (c_frames c) end.
Definition phi (c : config) : Z := total_gas c + Z.of_nat (length (c_frames c)).

Definition INV (c : config) : Prop := gas_inv c /\ Forall mem_ok (c_frames c).

Lemma fresh_memok : forall c, f_mem c = [] -> f_mcost c = 0 -> mem_ok c.
Proof. intros c H1 H2. unfold mem_ok. rewrite H1, H2. vm_compute. congruence. Qed.

(** ending a frame: its gas, or less, goes to the caller (or is the final leftover) *)
Lemma finish_main : forall o ret f w rest,
    gas_ok f -> Forall gas_ok rest -> Forall mem_ok rest ->
    INV (finish o ret f w rest) /\
    total_gas (finish o ret f w rest) <= f_gas f + frames_gas rest /\
    phi (finish o ret f w rest) + 1 <= f_gas f + frames_gas rest + Z.of_nat (length (f :: rest)).
Proof.
  intros o ret f w rest Hf Hr Hm.
  assert (Ht : total_gas (finish o ret f w rest) <= f_gas f + frames_gas rest /\ Forall mem_ok (c_frames (finish o ret f w rest))).
  { destruct (settle o ret f w) as [[o1 g1] w1] eqn:Hs.
    destruct (settle_cases o ret f w o1 g1 w1 Hs) as [_ [_ Hg]]. specialize (Hg Hf).
    pose proof (finish_cases o ret f w rest o1 g1 w1 Hs) as Hc. destruct rest as [|p rest'].
    - rewrite Hc. split; [cbn [total_gas c_status frames_gas]; lia|constructor].
    - destruct Hc as [m [r [-> Hw]]]. inversion Hm as [|? ? Hp Hm']; subst.
      split; [cbn [total_gas c_status c_frames frames_gas resumed f_gas]; lia|].
      constructor; [|exact Hm']. apply (mem_ok_grow p); [exact Hp|reflexivity|].
      apply (ret_written_le _ _ _ _ _ Hw). }
  destruct Ht as [Ht Hmo].
  split; [split; [apply (finish_gas keccak blockhash); assumption|exact Hmo]|].
  split; [exact Ht|]. unfold phi. rewrite finish_length. cbn [length]. lia.
Qed.

Definition len_bound (i : instr) : nat :=
  if instr_halts i || instr_reverts i then 0%nat else if pushes_frame i then 2%nat else 1%nat.

(** executing an instruction: no gas appears except what [step] set aside for a callee ([extra]) *)
Lemma exec_main : forall e i f w rest cg,
    gas_ok f -> mem_ok f -> Forall gas_ok rest -> Forall mem_ok rest -> (forall k, i = ICallOp k -> 0 <= cg) ->
    INV (exec e i f w rest cg) /\
    total_gas (exec e i f w rest cg) <= f_gas f + frames_gas rest + extra i (f_stack f) cg /\
    (length (c_frames (exec e i f w rest cg)) <= length rest + len_bound i)%nat.
Proof.
  intros e i f w rest cg Hf Hmf Hr Hm Hcg.
  split; [split; [apply (exec_gas keccak blockhash); assumption|]|]; unfold gas_ok in Hf.
  - (* memory cost: memory only grows *)
    assert (Hgrow : forall p, f_mcost p = f_mcost f -> (length (f_mem f) <= length (f_mem p))%nat -> mem_ok p)
      by (intros p; apply mem_ok_grow; exact Hmf).
    destruct (exec_cases keccak e i f w rest cg) as [pc s m w' _ _ _ _ Hme _|o ret s w' _ _|addr init value gas _ _ _|k _].
    + constructor; [|exact Hm]. apply Hgrow; [reflexivity|]. cbn [upd f_mem].
      destruct Hme as [->|[off [size [bytes [-> _]]]]]; [lia|apply mem_write_le].
    + apply finish_main; [exact Hf|assumption|assumption].
    + cbv zeta.
      match goal with |- context [match ?st with _ => _ end] => destruct st as [o gb w' iret|child w'|] eqn:Hst end;
        cbn [c_frames].
      * constructor; [|exact Hm]. apply Hgrow; [reflexivity|]. cbn [resumed f_mem]. lia.
      * apply start_create_frame in Hst. destruct Hst as [_ [_ ->]].
        constructor; [apply fresh_memok; reflexivity|]. constructor; [apply Hgrow; [reflexivity|cbn; lia]|exact Hm].
      * constructor; [apply Hgrow; [reflexivity|cbn; lia]|exact Hm].
    + unfold call_result. cbv zeta.
      match goal with |- context [match ?st with _ => _ end] => destruct st as [o gb w' iret|child w'|] eqn:Hst end;
        cbn [c_frames].
      * constructor; [|exact Hm]. apply Hgrow; [reflexivity|]. cbn [resumed f_mem].
        destruct o; cbn [f_mem set_stack]; try apply mem_write_le; lia.
      * apply start_call_frame in Hst. destruct Hst as [_ [_ [_ [caller [val ->]]]]].
        constructor; [apply fresh_memok; reflexivity|]. constructor; [apply Hgrow; [reflexivity|cbn; lia]|exact Hm].
      * constructor; [apply Hgrow; [reflexivity|cbn; lia]|exact Hm].
  - (* gas and number of frames *)
    pose proof consts as C.
    destruct (exec_cases keccak e i f w rest cg) as [pc s m w' Hp Hh Hrv _ _ _|o ret s w' Hp _|addr init value gas Hi _ Hg|k Hi].
    + rewrite (nonpush_extra i _ _ Hp). unfold len_bound. rewrite Hp, Hh, Hrv.
      cbn [total_gas c_status c_frames frames_gas upd f_gas length orb]. lia.
    + rewrite (nonpush_extra i _ _ Hp).
      destruct (finish_main o ret (set_stack f s) w' rest Hf Hr Hm) as [_ [Ht _]].
      rewrite finish_length. cbn [set_stack f_gas] in Ht. lia.
    + assert (He : extra i (f_stack f) cg = 0 /\ len_bound i = 2%nat) by (destruct Hi; subst; split; reflexivity).
      destruct He as [-> ->]. assert (0 <= gas <= f_gas f) by (destruct Hg; subst; lia). cbv zeta.
      match goal with |- context [match ?st with _ => _ end] => destruct st as [o gb w' iret|child w'|] eqn:Hst end;
        cbn [total_gas c_status c_frames frames_gas resumed set_gas f_gas length].
      * apply start_create_back in Hst; lia.
      * apply start_create_frame in Hst. destruct Hst as [_ [_ ->]]. cbn [new_frame f_gas]. lia.
      * lia.
    + subst i. specialize (Hcg k eq_refl). cbn [extra]. unfold call_result. cbv zeta. change (len_bound (ICallOp k)) with 2%nat.
      set (gas := if negb (callvalue k (f_stack f) =? 0) then cg + g_call_stipend else cg).
      assert (0 <= gas) by (unfold gas; destruct (negb _); lia).
      match goal with |- context [match ?st with _ => _ end] => destruct st as [o gb w' iret|child w'|] eqn:Hst end;
        cbn [total_gas c_status c_frames frames_gas resumed set_stack f_gas length].
      * apply start_call_back in Hst; lia.
      * apply start_call_frame in Hst. destruct Hst as [_ [_ [_ [caller [val ->]]]]]. cbn [new_frame f_gas]. lia.
      * lia.
Qed.

Lemma dyn_none_facts : forall op i f w s msz, instr_dyn op i f w s msz = None ->
    dyn_floor i op <= 0 /\ pushes_frame i = false.
Proof.
  intros op i f w s msz H. unfold instr_dyn in H.
  destruct i; cbn [dyn_floor pushes_frame];
    try (split; [lia|reflexivity]);
    try (destruct (mem_gas f msz) as [[? ?]|]; discriminate);
    try (repeat match type of H with context [if ?b then _ else _] => destruct b end;
         try (destruct (mem_gas f msz) as [[? ?]|]); discriminate).
  - destruct (op =? 10); [discriminate|]. split; [lia|reflexivity].
  - destruct (mem_gas f msz) as [[? ?]|]; [|discriminate].
    match type of H with context [call_gas ?a ?b ?c] => destruct (call_gas a b c) end; discriminate.
Qed.

Lemma frames_gas_total : forall c, c_status c = Running -> total_gas c = frames_gas (c_frames c).
Proof. intros c H. unfold total_gas. rewrite H. reflexivity. Qed.

Lemma step_main : forall e c f rest,
    INV c -> c_status c = Running -> c_frames c = f :: rest ->
    INV (step e c) /\ total_gas (step e c) <= total_gas c /\
    (c_status (step e c) = Unsupported \/ phi (step e c) + 1 <= phi c).
Proof.
  intros e c f rest [[Hg _] Hm] Hrun Hf.
  assert (Htot : total_gas c = f_gas f + frames_gas rest) by (rewrite (frames_gas_total c Hrun), Hf; reflexivity).
  assert (Hphi : phi c = f_gas f + frames_gas rest + Z.of_nat (length (f :: rest))) by (unfold phi; rewrite Htot, Hf; reflexivity).
  rewrite Hf in Hg, Hm. inversion Hg as [|? ? Hgf Hgr]; subst. inversion Hm as [|? ? Hmf Hmr]; subst.
  destruct (step_running keccak blockhash e c f rest Hrun Hf) as [er| |info i msz mc g cg Hinfo Hdec _ _ [Hgas [_ Hdyn]]].
  - unfold fail. destruct (finish_main (OErr er) [] f (c_world c) rest Hgf Hgr Hmr) as [H1 [H2 H3]].
    split; [exact H1|]. split; [lia|right; lia].
  - split; [split; [split; [constructor; assumption|exact I]|constructor; assumption]|].
    split; [|left; reflexivity]. cbn [total_gas c_status c_frames frames_gas]. lia.
  - destruct (slot_facts_of keccak blockhash e (cur_op f) info i Hinfo Hdec).
    set (f1 := set_gas f (f_gas f - oi_gas info)) in Hdyn.
    (* what the charge covers: the callee's gas, and the opcode's lower bound when it has no constant gas *)
    assert (Hc : 0 <= g /\ mem_ok (set_gas (set_mem f (mem_resize (f_mem f) msz) mc) g) /\
                 (forall k, i = ICallOp k -> 0 <= cg) /\
                 g + extra i (f_stack f) cg <= f_gas f - oi_gas info /\
                 (pushes_frame i = false -> g + dyn_floor i (cur_op f) <= f_gas f - oi_gas info)).
    { destruct (instr_dyn (cur_op f) i f1 (c_world c) (f_stack f) msz) as [[[[cost mc'] cg']|]|] eqn:Ed; [|destruct Hdyn|].
      - destruct Hdyn as [-> [-> [-> Hg0]]].
        destruct (instr_dyn_cost _ _ f1 _ _ _ _ _ _ Hmf Ed) as [Hc0 [Hfl [Hex [Hex0 Hmok]]]].
        assert (cost <= (if e_v2 e then cost else oi_gas info + cost)) by (destruct (e_v2 e); lia).
        split; [exact Hg0|]. split; [exact Hmok|].
        split; [intros k ->; apply (instr_dyn_cg _ _ _ _ _ _ _ _ _ Ed)|]. split; [lia|intros _; lia].
      - destruct Hdyn as [-> [-> ->]]. destruct (dyn_none_facts _ _ _ _ _ _ Ed) as [Hfl Hpf].
        rewrite (nonpush_extra i _ _ Hpf). unfold gas_ok in Hgf.
        split; [lia|]. split; [apply nomem_ok; exact Hmf|]. split; [intros; lia|]. split; [lia|intros _; lia]. }
    destruct Hc as [Hg0 [Hmok [Hcg [Hex Hfl]]]].
    destruct (exec_main e i (set_gas (set_mem f (mem_resize (f_mem f) msz) mc) g) (c_world c) rest cg Hg0 Hmok Hgr Hmr Hcg)
      as [HI [HT HL]].
    cbn [set_gas set_mem f_gas f_stack] in HT. unfold gas_ok in Hgf.
    split; [exact HI|]. split; [lia|]. right. unfold phi at 1. rewrite Hphi. cbn [length].
    unfold len_bound in HL. destruct (instr_halts i || instr_reverts i) eqn:Eh; [lia|].
    destruct (pushes_frame i) eqn:Ep.
    + specialize (sf_gas2 eq_refl). lia.
    + specialize (Hfl eq_refl). rewrite (nonpush_extra i _ _ Ep) in HT, Hex. apply orb_false_iff in Eh. destruct Eh as [Eh1 Eh2].
      destruct sf_gas1 as [Hg1|[Hg1|[Hg1|Hg1]]]; try congruence; lia.
Qed.

Notation reachable_g := (reachable_g keccak blockhash).
Notation run_n := (run_n keccak blockhash).
Notation run_pow := (run_pow keccak blockhash).

(** a running configuration has a frame to run *)
Definition WF (c : config) : Prop := c_status c = Running -> c_frames c <> [].

Lemma step_WF : forall e c, WF c -> WF (step e c).
Proof.
  intros e c H. destruct (step_cases keccak blockhash e c) as [->|[f [rest [Hrun [Hf _]]]]]; [exact H|].
  destruct (step_shape keccak blockhash e c f rest Hrun Hf) as [Hs|o ret f' w' H1 H2|child f' H1 H2 H3 H4].
  - intros _ Hn. rewrite Hn in Hs. discriminate.
  - rewrite H2. destruct (finish_outcome o ret f' w' rest) as [o1 [_ Hr]]. destruct rest as [|p rest'].
    + destruct Hr as [_ [g Hg]]. intros Hr'. rewrite Hg in Hr'. discriminate.
    + destruct Hr as [p' [Ha _]]. intros _. rewrite Ha. discriminate.
  - intros _. rewrite H1. discriminate.
Qed.

(** [step] on a configuration that satisfies [INV] and [WF]: stays put, or the figures of [step_main] *)
Lemma step_INV : forall e c, INV c -> WF c ->
    INV (step e c) /\ total_gas (step e c) <= total_gas c /\
    (c_status c = Running -> c_status (step e c) = Unsupported \/ phi (step e c) + 1 <= phi c).
Proof.
  intros e c HI HW. destruct (c_status c) eqn:Hst.
  - destruct (c_frames c) as [|f rest] eqn:Hf; [exfalso; apply (HW Hst); exact Hf|].
    destruct (step_main e c f rest HI Hst Hf) as [A [B C]]. auto.
  - rewrite step_idle by (left; congruence). split; [exact HI|]. split; [lia|discriminate].
  - rewrite step_idle by (left; congruence). split; [exact HI|]. split; [lia|discriminate].
Qed.

Lemma init_call_INV : forall e w t input g v, 0 <= g -> INV (init_call e w t input g v) /\ WF (init_call e w t input g v) /\ phi (init_call e w t input g v) <= g + 1.
Proof.
  intros e w t input g v Hg. split; [split; [apply (init_call_gas keccak blockhash); exact Hg|]|]; unfold init_call.
  - destruct (start_call KCall 0 w (e_origin e) (e_origin e) 0 false t input g v 0 0) as [o gb w' iret|child w'|] eqn:Hs.
    + destruct o; constructor.
    + apply start_call_frame in Hs. destruct Hs as [_ [_ [_ [caller [val ->]]]]].
      constructor; [apply fresh_memok; reflexivity|constructor].
    + constructor.
  - unfold WF, phi, total_gas.
    destruct (start_call KCall 0 w (e_origin e) (e_origin e) 0 false t input g v 0 0) as [o gb w' iret|child w'|] eqn:Hs.
    + apply start_call_back in Hs; [|exact Hg]. destruct o; cbn; split; try discriminate; lia.
    + apply start_call_frame in Hs. destruct Hs as [_ [_ [_ [caller [val ->]]]]].
      cbn [c_status c_frames frames_gas length new_frame f_gas]. split; [discriminate|lia].
    + cbn. split; [discriminate|lia].
Qed.
Lemma init_create_INV : forall e w init g v, 0 <= g ->
    INV (init_create keccak e w init g v) /\ WF (init_create keccak e w init g v) /\ phi (init_create keccak e w init g v) <= g + 1.
Proof.
  intros e w init g v Hg. split; [split; [apply (init_create_gas keccak blockhash); exact Hg|]|]; unfold init_create.
  - match goal with |- context [match ?st with _ => _ end] => destruct st as [o gb w' iret|child w'|] eqn:Hs end.
    + constructor.
    + apply start_create_frame in Hs. destruct Hs as [_ [_ ->]]. constructor; [apply fresh_memok; reflexivity|constructor].
    + constructor.
  - unfold WF, phi, total_gas.
    match goal with |- context [match ?st with _ => _ end] => destruct st as [o gb w' iret|child w'|] eqn:Hs end.
    + apply start_create_back in Hs; [|exact Hg]. cbn; split; try discriminate; lia.
    + apply start_create_frame in Hs. destruct Hs as [_ [_ ->]].
      cbn [c_status c_frames frames_gas length new_frame f_gas]. split; [discriminate|lia].
    + cbn. split; [discriminate|lia].
Qed.

Lemma reachable_INV : forall e c, reachable_g e c -> INV c /\ WF c.
Proof.
  intros e c H. induction H.
  - destruct (init_call_INV e w t input g v H) as [A [B _]]. auto.
  - destruct (init_create_INV e w init g v H) as [A [B _]]. auto.
  - destruct IHreachable_g as [A B]. split; [apply step_INV|apply step_WF]; assumption.
Qed.

(** the total gas never increases *)
Lemma gas_monotone : forall e c, reachable_g e c -> total_gas (step e c) <= total_gas c.
Proof. intros e c H. destruct (reachable_INV e c H) as [HI HW]. apply (step_INV e c HI HW). Qed.

(** every step of a running configuration ends as [Unsupported] or strictly decreases
    [total gas + number of frames] *)
Lemma step_bound : forall e c, reachable_g e c -> c_status c = Running ->
    c_status (step e c) = Unsupported \/ phi (step e c) + 1 <= phi c.
Proof. intros e c H. destruct (reachable_INV e c H) as [HI HW]. apply (step_INV e c HI HW). Qed.

Lemma phi_pos : forall c, INV c -> WF c -> c_status c = Running -> 1 <= phi c.
Proof.
  intros c [[Hg _] _] HW Hst. specialize (HW Hst). unfold phi. rewrite (frames_gas_total c Hst).
  destruct (c_frames c) as [|f rest]; [congruence|].
  assert (Hsum : forall l, Forall gas_ok l -> 0 <= frames_gas l).
  { induction l as [|x l IH]; intros Hl; cbn [frames_gas]; [lia|]. inversion Hl; subst. unfold gas_ok in *. specialize (IH H2). lia. }
  specialize (Hsum _ Hg). cbn [length]. lia.
Qed.

Lemma run_n_final : forall e n c, is_final c = true -> run_n e n c = c.
Proof.
  intros e n. induction n as [|n IH]; intros c H; cbn [EVM.run_n]; [reflexivity|].
  rewrite step_idle; [apply IH; exact H|]. left. unfold is_final in H. destruct (c_status c); congruence.
Qed.

Lemma terminates_within : forall e n c, INV c -> WF c -> phi c < Z.of_nat n -> is_final (run_n e n c) = true.
Proof.
  intros e n. induction n as [|n IH]; intros c HI HW Hphi.
  - destruct (c_status c) eqn:Hst; cbn [EVM.run_n]; unfold is_final; rewrite Hst; try reflexivity.
    pose proof (phi_pos c HI HW Hst). lia.
  - cbn [EVM.run_n]. destruct (is_final c) eqn:Hfin.
    + rewrite step_idle by (left; unfold is_final in Hfin; destruct (c_status c); congruence).
      rewrite run_n_final; assumption.
    + assert (Hst : c_status c = Running) by (unfold is_final in Hfin; destruct (c_status c); congruence).
      destruct (step_INV e c HI HW) as [HI' [_ Hd]]. destruct (Hd Hst) as [Hu|Hlt].
      * rewrite run_n_final; unfold is_final; rewrite Hu; reflexivity.
      * apply IH; [exact HI'|apply step_WF; exact HW|lia].
Qed.

(** a top-level call or creation with [g] gas is over after at most g + 2 steps *)
Lemma call_terminates : forall e w t input g v, 0 <= g ->
    is_final (run_n e (Z.to_nat (g + 2)) (init_call e w t input g v)) = true.
Proof.
  intros e w t input g v Hg. destruct (init_call_INV e w t input g v Hg) as [HI [HW Hp]].
  apply terminates_within; auto. lia.
Qed.
Lemma create_terminates : forall e w init g v, 0 <= g ->
    is_final (run_n e (Z.to_nat (g + 2)) (init_create keccak e w init g v)) = true.
Proof.
  intros e w init g v Hg. destruct (init_create_INV e w init g v Hg) as [HI [HW Hp]].
  apply terminates_within; auto. lia.
Qed.

(** the extracted runner [run_pow n] performs up to 2^n steps and stops at a final configuration *)
Lemma run_n_add : forall e a b c, run_n e (a + b) c = run_n e b (run_n e a c).
Proof. intros e a. induction a as [|a IH]; intros b c; cbn [EVM.run_n Nat.add]; [reflexivity|apply IH]. Qed.

Lemma run_pow_spec : forall e n c, exists k,
    Z.of_nat k <= 2 ^ Z.of_nat n /\ run_pow e n c = run_n e k c /\
    (is_final (run_n e k c) = true \/ Z.of_nat k = 2 ^ Z.of_nat n).
Proof.
  intros e n. induction n as [|n IH]; intros c.
  - cbn [EVM.run_pow]. destruct (is_final c) eqn:Hf.
    + exists 0%nat. cbn [EVM.run_n]. split; [cbn; lia|]. split; auto.
    + exists 1%nat. cbn [EVM.run_n]. split; [cbn; lia|]. split; auto.
  - cbn [EVM.run_pow]. destruct (is_final c) eqn:Hf.
    + exists 0%nat. cbn [EVM.run_n]. split; [|split; auto].
      assert (0 < 2 ^ Z.of_nat (S n)) by (apply Z.pow_pos_nonneg; lia). lia.
    + destruct (IH c) as [k1 [Hk1 [He1 Hd1]]].
      destruct (IH (EVM.run_pow keccak blockhash e n c)) as [k2 [Hk2 [He2 Hd2]]].
      assert (Hpow : 2 ^ Z.of_nat (S n) = 2 * 2 ^ Z.of_nat n) by (rewrite Nat2Z.inj_succ, Z.pow_succ_r; lia).
      exists (k1 + k2)%nat. rewrite run_n_add. rewrite <- He1. split; [lia|]. split; [exact He2|].
      destruct Hd2 as [Hd2|Hd2]; [left; exact Hd2|].
      destruct Hd1 as [Hd1|Hd1].
      * left. rewrite He1. rewrite run_n_final; exact Hd1.
      * right. lia.
Qed.

Lemma run_pow_terminates : forall e n c k,
    Z.of_nat k <= 2 ^ Z.of_nat n -> is_final (run_n e k c) = true -> is_final (run_pow e n c) = true.
Proof.
  intros e n c k Hk Hf. destruct (run_pow_spec e n c) as [k' [Hk' [He [Hd|Hd]]]]; rewrite He; [exact Hd|].
  assert (Hle : (k <= k')%nat) by lia.
  replace k' with (k + (k' - k))%nat by lia. rewrite run_n_add. rewrite run_n_final; exact Hf.
Qed.

Lemma run_call_terminates : forall e w t input g v, 0 <= g < 2 ^ 64 - 1 ->
    is_final (run_call keccak blockhash e w t input g v) = true.
Proof.
  intros e w t input g v Hg. unfold run_call.
  apply run_pow_terminates with (k := Z.to_nat (g + 2)); [|apply call_terminates; lia].
  change (Z.of_nat 64) with 64. lia.
Qed.
Lemma run_create_terminates : forall e w init g v, 0 <= g < 2 ^ 64 - 1 ->
    is_final (run_create keccak blockhash e w init g v) = true.
Proof.
  intros e w init g v Hg. unfold run_create.
  apply run_pow_terminates with (k := Z.to_nat (g + 2)); [|apply create_terminates; lia].
  change (Z.of_nat 64) with 64. lia.
Qed.

End Term.
