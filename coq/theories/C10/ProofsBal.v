(** C10 — balances: execution only moves balances between accounts (the sum over all accounts
    never increases: it is conserved except for what SELFDESTRUCT-to-self destroys), no balance
    becomes negative, and an externally owned [origin] (no code, non-zero nonce) keeps its nonce,
    stays without code and is never self-destructed.  Used by ToC09.v. *)
From Coq Require Import List ZArith Bool Lia.
From Kardia Require Import C10.U256 C10.EVM C10.ProofsInv C10.ProofsFrames C10.ProofsStatic Generated.C10Facts.
Import ListNotations.
Local Open Scope Z_scope.

Section Bal.
Variable keccak : list Z -> Z.
Variable blockhash : Z -> Z.
Variable origin : Z.
Variable n0 : Z.
Hypothesis n0_nz : n0 <> 0.
Notation step := (step keccak blockhash).
Notation exec := (exec keccak).

Definition keys (w : world) : list Z := map fst (w_accts w).
Definition bsum (l : list (Z * account)) : Z := fold_right (fun p acc => a_bal (snd p) + acc) 0 l.
Definition T (w : world) : Z := bsum (w_accts w).
Definition acct_good (p : Z * account) : Prop := 0 <= fst p /\ 0 <= a_bal (snd p).
(** an externally owned account with nonce [n0]; [n0 <> 0] is what keeps a creation, which needs a fresh
    address (nonce 0), from ever landing on the origin *)
Definition eoa (x : account) : Prop := a_nonce x = n0 /\ a_code x = [] /\ a_dead x = false.
Definition origin_ok (w : world) : Prop := exists x, get_acct w origin = Some x /\ eoa x.
Definition P (w : world) : Prop := NoDup (keys w) /\ Forall acct_good (w_accts w) /\ origin_ok w.

Definition getdef (k : Z) (l : list (Z * account)) : account :=
  match alist_get k l with Some x => x | None => empty_account end.

Lemma bsum_set : forall k (v : account) (l : list (Z * account)), bsum (alist_set k v l) = bsum l - a_bal (getdef k l) + a_bal v.
Proof.
  intros k v l. unfold getdef. induction l as [|[k0 v0] t IH]; cbn [alist_set alist_get bsum fold_right].
  - cbn. lia.
  - destruct (k =? k0); cbn [bsum fold_right]; [cbn [snd]; lia|]. cbn [snd]. fold (bsum t). fold (bsum (alist_set k v t)). lia.
Qed.
Lemma keys_set_in : forall k (v : account) (l : list (Z * account)) k', In k' (map fst (alist_set k v l)) <-> k = k' \/ In k' (map fst l).
Proof.
  intros k v l k'. induction l as [|[k0 v0] t IH]; cbn [alist_set map In fst]; [reflexivity|].
  destruct (k =? k0) eqn:E; cbn [map In fst].
  - apply Z.eqb_eq in E. subst. tauto.
  - rewrite IH. tauto.
Qed.
Lemma keys_set_nodup : forall k (v : account) (l : list (Z * account)), NoDup (map fst l) -> NoDup (map fst (alist_set k v l)).
Proof.
  intros k v l. induction l as [|[k0 v0] t IH]; cbn [alist_set map]; intros H.
  - constructor; [intros []|constructor].
  - inversion H as [|? ? Hn Ht]; subst. destruct (k =? k0) eqn:E; cbn [map]; cbn [fst] in *.
    + apply Z.eqb_eq in E. subst. constructor; assumption.
    + constructor; [|apply IH; assumption]. rewrite keys_set_in. intros [<-|Hin]; [rewrite Z.eqb_refl in E; discriminate|contradiction].
Qed.
Lemma forall_set : forall (Q : Z * account -> Prop) k v l, Forall Q l -> Q (k, v) -> Forall Q (alist_set k v l).
Proof.
  intros Q k v l H Hq. induction l as [|[k0 v0] t IH]; cbn [alist_set].
  - constructor; auto.
  - inversion H; subst. destruct (k =? k0); constructor; auto.
Qed.
Lemma get_in : forall k (l : list (Z * account)) x, alist_get k l = Some x -> In (k, x) l.
Proof.
  intros k l x. induction l as [|[k0 v0] t IH]; cbn [alist_get]; [discriminate|].
  destruct (k =? k0) eqn:E; intros H.
  - apply Z.eqb_eq in E. inversion H; subst. left; reflexivity.
  - right. apply IH. exact H.
Qed.

Lemma bal_nonneg : forall w a, P w -> 0 <= balance w a.
Proof.
  intros w a [_ [Hg _]]. unfold balance, acct_or_new, get_acct.
  destruct (alist_get a (w_accts w)) as [x|] eqn:E; [|cbn; lia].
  apply get_in in E. rewrite Forall_forall in Hg. apply (Hg _ E).
Qed.
Lemma origin_acct : forall w, P w -> eoa (acct_or_new w origin).
Proof. intros w [_ [_ [x [Hx He]]]]. unfold acct_or_new. rewrite Hx. exact He. Qed.

Lemma set_acct_P : forall w a x, P w -> 0 <= a -> 0 <= a_bal x -> (a = origin -> eoa x) -> P (set_acct w a x).
Proof.
  intros w a x [Hn [Hg Ho]] Ha Hb He. unfold P, keys, set_acct. cbn [w_accts].
  split; [apply keys_set_nodup; exact Hn|]. split; [apply forall_set; [exact Hg|split; assumption]|].
  destruct Ho as [x0 [Hx0 He0]]. unfold origin_ok, get_acct. cbn [w_accts]. rewrite alist_get_set.
  destruct (origin =? a) eqn:E.
  - apply Z.eqb_eq in E. exists x. split; [reflexivity|]. apply He. congruence.
  - exists x0. split; assumption.
Qed.
Lemma set_acct_T : forall w a x, T (set_acct w a x) = T w - a_bal (acct_or_new w a) + a_bal x.
Proof. intros. unfold T, set_acct. cbn [w_accts]. rewrite bsum_set. reflexivity. Qed.

Lemma balance_set : forall w a x b, balance (set_acct w a x) b = if b =? a then a_bal x else balance w b.
Proof. intros. unfold balance. rewrite acct_or_new_set. destruct (b =? a); reflexivity. Qed.

Lemma add_balance_P : forall w a v, P w -> 0 <= a -> 0 <= balance w a + v ->
    P (add_balance w a v) /\ T (add_balance w a v) = T w + v.
Proof.
  intros w a v HP Ha Hv. unfold add_balance. split.
  - apply set_acct_P; auto. intros ->. pose proof (origin_acct w HP) as [H1 [H2 H3]]. repeat split; assumption.
  - rewrite set_acct_T. cbn [with_bal a_bal]. unfold balance. lia.
Qed.
Lemma transfer_P : forall w from to v, P w -> 0 <= from -> 0 <= to -> 0 <= v -> v <= balance w from ->
    P (transfer w from to v) /\ T (transfer w from to v) = T w.
Proof.
  intros w from to v HP Hf Ht Hv Hb. unfold transfer.
  destruct (add_balance_P w from (- v) HP Hf ltac:(lia)) as [P1 T1].
  pose proof (bal_nonneg _ to P1).
  destruct (add_balance_P _ to v P1 Ht ltac:(lia)) as [P2 T2]. split; [exact P2|lia].
Qed.
Lemma same_bal_P : forall w a x, P w -> 0 <= a -> a_bal x = balance w a -> (a = origin -> eoa x) ->
    P (set_acct w a x) /\ T (set_acct w a x) = T w.
Proof.
  intros w a x HP Ha Hb He. split.
  - apply set_acct_P; auto. rewrite Hb. apply bal_nonneg; exact HP.
  - rewrite set_acct_T. unfold balance in Hb. lia.
Qed.
Lemma touch_P : forall w a, P w -> 0 <= a -> P (touch w a) /\ T (touch w a) = T w.
Proof. intros w a HP Ha. unfold touch. apply same_bal_P; auto. intros ->. apply origin_acct; exact HP. Qed.
Lemma sstore_P : forall w a k v, P w -> 0 <= a -> P (sstore w a k v) /\ T (sstore w a k v) = T w.
Proof.
  intros w a k v HP Ha. unfold sstore. apply same_bal_P; auto.
  intros ->. pose proof (origin_acct w HP) as [H1 [H2 H3]]. repeat split; assumption.
Qed.
Lemma set_nonce_P : forall w a n, P w -> 0 <= a -> a <> origin -> P (set_nonce w a n) /\ T (set_nonce w a n) = T w.
Proof. intros w a n HP Ha Hne. unfold set_nonce. apply same_bal_P; auto. congruence. Qed.
Lemma set_code_P : forall w a c, P w -> 0 <= a -> a <> origin -> P (set_code w a c) /\ T (set_code w a c) = T w.
Proof. intros w a c HP Ha Hne. unfold set_code. apply same_bal_P; auto. congruence. Qed.
Lemma create_account_P : forall w a, P w -> 0 <= a -> a <> origin -> P (create_account w a) /\ T (create_account w a) = T w.
Proof. intros w a HP Ha Hne. unfold create_account. apply same_bal_P; auto. congruence. Qed.
Lemma add_log_P : forall w l, P w -> P (add_log w l) /\ T (add_log w l) = T w.
Proof. intros w l HP. split; [exact HP|reflexivity]. Qed.
Lemma suicide_P : forall w a, P w -> 0 <= a -> a <> origin -> P (suicide w a) /\ T (suicide w a) = T w - balance w a.
Proof.
  intros w a HP Ha Hne. unfold suicide, balance, acct_or_new. destruct (get_acct w a) as [x|] eqn:E.
  - split; [apply set_acct_P; auto; [cbn; lia|congruence]|].
    rewrite set_acct_T. unfold acct_or_new. rewrite E. cbn [a_bal]. lia.
  - split; [exact HP|cbn; lia].
Qed.

Lemma origin_exists : forall w, P w -> exists_b w origin = true /\ code_of w origin = [] /\ nonce w origin = n0.
Proof.
  intros w [_ [_ [x [Hx [H1 [H2 H3]]]]]]. unfold exists_b, code_of, nonce, acct_or_new. rewrite Hx. auto.
Qed.

Definition FI (f : frame) : Prop := P (f_snap f) /\ f_self f <> origin /\ 0 <= f_self f.

(** whatever a message call does at once (value transfer, touching or creating the target), it only moves
    balances; a frame it opens does not run as the origin, which has no code *)
Lemma start_call_P : forall k d w ps pc pv pst t args g v ro rs w',
    P w -> 0 <= ps -> ps <> origin -> 0 <= t ->
    started_world (start_call k d w ps pc pv pst t args g v ro rs) = Some w' ->
    P w' /\ T w' = T w /\ (is_nil (code_of w' t) = false -> callee_self k ps t <> origin /\ 0 <= callee_self k ps t).
Proof.
  intros k d w ps pc pv pst t args g v ro rs w' HP Hps Hpo Ht.
  assert (Hself : forall w'', P w'' -> is_nil (code_of w'' t) = false -> callee_self k ps t <> origin /\ 0 <= callee_self k ps t).
  { intros w'' HP'' Hc. destruct k; cbn [callee_self]; split; auto; intros ->;
      destruct (origin_exists _ HP'') as [_ [Hcode _]]; rewrite Hcode in Hc; discriminate. }
  assert (Hall : forall w'' st, P w'' -> T w'' = T w -> started_world st = Some w'' -> started_world st = Some w' ->
                 P w' /\ T w' = T w /\ (is_nil (code_of w' t) = false -> callee_self k ps t <> origin /\ 0 <= callee_self k ps t)).
  { intros w'' st HP'' HT H1 H2. rewrite H1 in H2. inversion H2; subst. split; [|split]; eauto. }
  assert (Hpre : forall wok, P wok -> T wok = T w -> started_world (run_precompile t wok w args g) = Some w' ->
                 P w' /\ T w' = T w /\ (is_nil (code_of w' t) = false -> callee_self k ps t <> origin /\ 0 <= callee_self k ps t)).
  { intros wok HPo HTo H. destruct (run_precompile_world _ _ _ _ _ _ H) as [->| ->]; (split; [|split]); eauto. }
  unfold start_call. destruct (call_create_depth <? d); [apply (Hall w); auto|].
  destruct k; cbv zeta.
  - destruct ((v <? 0) || (negb (v =? 0) && (balance w ps <? v))) eqn:Ev; [apply (Hall w); auto|].
    apply orb_false_iff in Ev. destruct Ev as [Ev1 Ev2]. apply Z.ltb_ge in Ev1.
    assert (Hvb : v <= balance w ps).
    { destruct (v =? 0) eqn:E0; [apply Z.eqb_eq in E0; pose proof (bal_nonneg w ps HP); lia|].
      cbn [negb andb] in Ev2. apply Z.ltb_ge in Ev2. exact Ev2. }
    destruct (negb (exists_b w t) && negb (is_precompile t) && (v =? 0)); [apply (Hall w); auto|].
    set (w1 := if exists_b w t then w else create_account w t).
    assert (Hw1 : P w1 /\ T w1 = T w /\ v <= balance w1 ps).
    { unfold w1. destruct (exists_b w t) eqn:Hex; [auto|].
      assert (t <> origin) by (intros ->; destruct (origin_exists w HP) as [He _]; congruence).
      destruct (create_account_P w t HP Ht H) as [A B]. split; [exact A|]. split; [exact B|].
      unfold create_account. rewrite balance_set. destruct (ps =? t) eqn:E; [|exact Hvb].
      apply Z.eqb_eq in E. subst. cbn [a_bal]. exact Hvb. }
    destruct Hw1 as [Pw1 [Tw1 Hb1]].
    destruct (transfer_P w1 ps t v Pw1 Hps Ht Ev1 Hb1) as [Pw2 Tw2].
    destruct (is_precompile t); [apply Hpre; [exact Pw2|lia]|].
    destruct (is_nil (code_of (transfer w1 ps t v) t)); apply (Hall (transfer w1 ps t v)); auto; lia.
  - destruct ((v <? 0) || (balance w ps <? v)); [apply (Hall w); auto|].
    destruct (is_precompile t); [apply Hpre; auto|]. destruct (is_nil (code_of w t)); apply (Hall w); auto.
  - destruct (is_precompile t); [apply Hpre; auto|]. destruct (is_nil (code_of w t)); apply (Hall w); auto.
  - destruct (touch_P w t HP Ht) as [Pt Tt].
    destruct (is_precompile t); [apply Hpre; auto|]. destruct (is_nil (code_of (touch w t) t)); apply (Hall (touch w t)); auto.
  - apply (Hall w); auto.
Qed.

(** a creation bumps the creator's nonce and, unless refused, moves the endowment to the new address *)
Lemma start_create_P : forall d w ps pst addr init g v w',
    P w -> 0 <= ps -> ps <> origin -> 0 <= addr ->
    started_world (start_create d w ps pst addr init g v) = Some w' ->
    let w1 := set_nonce w ps (nonce w ps + 1) in
    P w' /\ T w' = T w /\ P w1 /\ T w1 = T w /\ (nonce w1 addr = 0 -> addr <> origin).
Proof.
  intros d w ps pst addr init g v w' HP Hps Hpo Ha H w1.
  destruct (set_nonce_P w ps (nonce w ps + 1) HP Hps Hpo) as [P1 T1]. fold w1 in P1, T1.
  assert (Hao : nonce w1 addr = 0 -> addr <> origin).
  { intros Hn ->. destruct (origin_exists _ P1) as [_ [_ Hn']]. apply n0_nz. congruence. }
  assert (Hall : forall w'', P w'' -> T w'' = T w -> Some w'' = Some w' ->
                 P w' /\ T w' = T w /\ P w1 /\ T w1 = T w /\ (nonce w1 addr = 0 -> addr <> origin))
    by (intros w'' HP'' HT H2; inversion H2; subst; split; [|split; [|split; [|split]]]; assumption).
  revert H. unfold start_create. destruct (call_create_depth <? d); [apply (Hall w); auto|].
  destruct ((v <? 0) || (balance w ps <? v)) eqn:Ev; [apply (Hall w); auto|].
  apply orb_false_iff in Ev. destruct Ev as [Ev1 Ev2]. apply Z.ltb_ge in Ev1. apply Z.ltb_ge in Ev2.
  cbv zeta. fold w1.
  destruct (negb (nonce w1 addr =? 0) || negb (is_nil (code_of w1 addr))) eqn:Ec; [apply (Hall w1); auto|].
  apply orb_false_iff in Ec. destruct Ec as [Ec _]. apply negb_false_iff in Ec. apply Z.eqb_eq in Ec.
  specialize (Hao Ec).
  destruct (create_account_P w1 addr P1 Ha Hao) as [P2 T2].
  destruct (set_nonce_P _ addr 1 P2 Ha Hao) as [P3 T3].
  assert (Hb : v <= balance (set_nonce (create_account w1 addr) addr 1) ps).
  { unfold set_nonce at 1. rewrite balance_set. destruct (ps =? addr) eqn:E.
    - apply Z.eqb_eq in E. subst addr. cbn [with_nonce a_bal]. unfold acct_or_new, create_account at 1.
      unfold get_acct, set_acct. cbn [w_accts]. rewrite alist_get_set. rewrite Z.eqb_refl. cbn [a_bal].
      unfold w1, set_nonce. rewrite balance_set. rewrite Z.eqb_refl. cbn [with_nonce a_bal]. exact Ev2.
    - unfold create_account. rewrite balance_set. rewrite E. unfold w1, set_nonce. rewrite balance_set.
      rewrite Z.eqb_refl. cbn [with_nonce a_bal]. exact Ev2. }
  destruct (transfer_P _ ps addr v P3 Hps Ha Ev1 Hb) as [P4 T4].
  destruct (is_nil init).
  - destruct (set_code_P _ addr [] P4 Ha Hao) as [P5 T5]. apply (Hall _ P5); lia.
  - apply (Hall _ P4); lia.
Qed.

(** the sum of balances of the world is at most that of the top frame's snapshot, that at most the next
    frame's, and so on up to the initial [T0]: a frame that fails restores its snapshot *)
Fixpoint tchain (x : Z) (l : list world) (T0 : Z) : Prop :=
  match l with
  | [] => x <= T0
  | s :: r => x <= T s /\ tchain (T s) r T0
  end.
Lemma tchain_le : forall l x x' T0, x' <= x -> tchain x l T0 -> tchain x' l T0.
Proof. intros l x x' T0 H. destruct l; cbn [tchain]; intros; [lia|]. destruct H0. split; [lia|assumption]. Qed.

Lemma tchain_bound : forall l x T0, tchain x l T0 -> x <= T0.
Proof. induction l as [|s l IH]; cbn [tchain]; intros x T0 H; [exact H|]. destruct H as [H1 H2]. specialize (IH _ _ H2). lia. Qed.

Definition INVB (T0 : Z) (c : config) : Prop :=
  P (c_world c) /\ Forall FI (c_frames c) /\ tchain (T (c_world c)) (map f_snap (c_frames c)) T0.

Lemma finish_B : forall T0 o ret f w rest,
    P w -> FI f -> Forall FI rest -> tchain (T w) (map f_snap (f :: rest)) T0 ->
    INVB T0 (finish o ret f w rest).
Proof.
  intros T0 o ret f w rest HP [Psn [Hso Hs0]] Hr Hch. cbn [map tchain] in Hch. destruct Hch as [Hle Hch].
  destruct (settle o ret f w) as [[o1 g1] w1] eqn:Hs.
  assert (Hw1 : P w1 /\ T w1 <= T (f_snap f)).
  { destruct (settle_cases o ret f w o1 g1 w1 Hs) as [_ [[->|[->|[_ ->]]] _]].
    - split; [exact Psn|lia].
    - auto.
    - destruct (set_code_P w (f_self f) ret HP Hs0 Hso) as [A B]. split; [exact A|lia]. }
  destruct Hw1 as [Pw1 Tw1].
  pose proof (finish_cases o ret f w rest o1 g1 w1 Hs) as Hc. destruct rest as [|p rest'].
  - rewrite Hc. split; [exact Pw1|]. split; [constructor|]. cbn [c_world c_frames map tchain] in *. lia.
  - destruct Hc as [m [r [-> _]]]. inversion Hr as [|? ? Hp Hr']; subst.
    split; [exact Pw1|]. split; [constructor; [exact Hp|exact Hr']|].
    apply tchain_le with (x := T (f_snap f)); assumption.
Qed.

(** the top frame stays, the world loses no invariant and gains no balance *)
Lemma keep_B : forall T0 f f' w w' rest st,
    P w' -> T w' <= T w -> FI f -> f_snap f' = f_snap f -> f_self f' = f_self f -> Forall FI rest ->
    tchain (T w) (map f_snap (f :: rest)) T0 ->
    INVB T0 (mk_config (f' :: rest) w' st).
Proof.
  intros T0 f f' w w' rest st HP HT Hf Hsn Hse Hr Hch. unfold INVB. cbn [c_world c_frames].
  split; [exact HP|]. split.
  - constructor; [|exact Hr]. unfold FI in *. rewrite Hsn, Hse. exact Hf.
  - cbn [map] in *. rewrite Hsn. apply tchain_le with (x := T w); assumption.
Qed.

Lemma balance_add : forall w a v b, balance (add_balance w a v) b = if b =? a then balance w a + v else balance w b.
Proof. intros. unfold add_balance. rewrite balance_set. cbn [with_bal a_bal]. destruct (b =? a); reflexivity. Qed.

(** what an instruction does to the world by itself: SELFDESTRUCT moves the balance to the beneficiary, and
    destroys it when the beneficiary is the contract itself *)
Lemma world_effect_P : forall i f w w', world_effect i f w w' -> P w -> FI f -> P w' /\ T w' <= T w.
Proof.
  intros i f w w' He HP [_ [Hso Hs0]]. destruct He as [|k v _|n l _|a _].
  - split; [exact HP|lia].
  - destruct (sstore_P w (f_self f) k v HP Hs0) as [A B]. split; [exact A|lia].
  - destruct (add_log_P w l HP) as [A B]. split; [exact A|lia].
  - pose proof (bal_nonneg w (f_self f) HP) as Hb0.
    pose proof (bal_nonneg w (addr_of_word a) HP) as Hb1.
    destruct (add_balance_P w (addr_of_word a) (balance w (f_self f)) HP (addr_nonneg _) ltac:(lia)) as [P1 T1].
    destruct (suicide_P _ (f_self f) P1 Hs0 Hso) as [P2 T2]. split; [exact P2|].
    rewrite T2, T1, balance_add. destruct (f_self f =? addr_of_word a); lia.
Qed.

Lemma exec_B : forall T0 e i f w rest cg,
    P w -> FI f -> Forall FI rest -> tchain (T w) (map f_snap (f :: rest)) T0 ->
    INVB T0 (exec e i f w rest cg).
Proof.
  intros T0 e i f w rest cg HP Hf Hr Hch. pose proof Hf as [Psn [Hso Hs0]].
  assert (Hkeep : forall f' w' st, P w' /\ T w' <= T w -> f_snap f' = f_snap f -> f_self f' = f_self f ->
                                   INVB T0 (mk_config (f' :: rest) w' st))
    by (intros f' w' st [A B] Hsn Hse; apply keep_B with (f := f) (w := w); assumption).
  (* a frame opened on top, with the present world [w] or the creator's bumped world as snapshot *)
  assert (Hpush : forall child p w', P w' -> T w' = T w -> FI child -> T (f_snap child) = T w ->
                                     f_snap p = f_snap f -> f_self p = f_self f ->
                                     INVB T0 (mk_config (child :: p :: rest) w' Running)).
  { intros child p w' A B Hc Tc Hsn Hse. unfold INVB. cbn [c_world c_frames map tchain] in *.
    split; [exact A|]. split; [constructor; [exact Hc|constructor; [unfold FI; rewrite Hsn, Hse; exact Hf|exact Hr]]|].
    rewrite Hsn. destruct Hch. repeat split; try lia; assumption. }
  destruct (exec_cases keccak e i f w rest cg) as [pc s m w' _ _ _ _ _ He|o ret s w' _ He|addr init value gas _ Ha _|k _].
  - apply Hkeep; [exact (world_effect_P _ _ _ _ He HP Hf)|reflexivity|reflexivity].
  - destruct (world_effect_P _ _ _ _ He HP Hf) as [A B].
    apply finish_B; [exact A|exact Hf|exact Hr|]. apply tchain_le with (x := T w); assumption.
  - cbv zeta.
    match goal with |- context [match ?st with _ => _ end] => destruct st as [o gb w' iret|child w'|] eqn:Hst end.
    + destruct (start_create_P _ _ _ _ _ _ _ _ w' HP Hs0 Hso Ha (f_equal started_world Hst)) as [A [B _]].
      apply Hkeep; [split; [exact A|lia]|reflexivity|reflexivity].
    + destruct (start_create_P _ _ _ _ _ _ _ _ w' HP Hs0 Hso Ha (f_equal started_world Hst)) as [A [B [C [D E]]]].
      apply start_create_frame in Hst. destruct Hst as [_ [Hn ->]].
      apply Hpush; try assumption; try reflexivity. split; [exact C|]. split; [exact (E Hn)|exact Ha].
    + apply Hkeep; [split; [exact HP|lia]|reflexivity|reflexivity].
  - unfold call_result. cbv zeta.
    match goal with |- context [match ?st with _ => _ end] => destruct st as [o gb w' iret|child w'|] eqn:Hst end.
    + destruct (start_call_P _ _ _ _ _ _ _ _ _ _ _ _ _ w' HP Hs0 Hso (addr_nonneg _) (f_equal started_world Hst)) as [A [B _]].
      apply Hkeep; [split; [exact A|lia]|reflexivity|reflexivity].
    + destruct (start_call_P _ _ _ _ _ _ _ _ _ _ _ _ _ w' HP Hs0 Hso (addr_nonneg _) (f_equal started_world Hst)) as [A [B C]].
      apply start_call_frame in Hst. destruct Hst as [_ [_ [Hc [caller [val ->]]]]].
      apply Hpush; try assumption; try reflexivity. split; [exact HP|exact (C Hc)].
    + apply Hkeep; [split; [exact HP|lia]|reflexivity|reflexivity].
Qed.

Lemma step_B : forall T0 e c, INVB T0 c -> INVB T0 (step e c).
Proof.
  intros T0 e c H. destruct (step_cases keccak blockhash e c) as [->|[f [rest [_ [Hf Hc]]]]]; [exact H|].
  destruct H as [HP [HF Hch]]. rewrite Hf in HF, Hch. inversion HF as [|? ? Hff Hfr]; subst.
  destruct Hc as [er| |info i msz mc g cg _ _ _ _ _].
  - apply finish_B; assumption.
  - unfold INVB. cbn [c_world c_frames]. auto.
  - apply exec_B; assumption.
Qed.

Lemma run_n_B : forall T0 e n c, INVB T0 c -> INVB T0 (run_n keccak blockhash e n c).
Proof. intros T0 e. apply (run_n_inv keccak blockhash (INVB T0) e). apply step_B. Qed.

(** balances summed over any duplicate-free list of addresses that covers the accounts *)
Definition ksum (g : Z -> Z) (K : list Z) : Z := fold_right (fun a acc => g a + acc) 0 K.

Lemma ksum_replace : forall (g : Z -> Z) k x K, NoDup K -> In k K ->
    ksum (fun a => if a =? k then x else g a) K = ksum g K - g k + x.
Proof.
  intros g k x K Hn. induction K as [|a K IH]; intros Hin; [destruct Hin|].
  inversion Hn as [|? ? Hna HnK]; subst. cbn [ksum fold_right]. fold (ksum g K). fold (ksum (fun a => if a =? k then x else g a) K).
  destruct (a =? k) eqn:E.
  - apply Z.eqb_eq in E. subst a.
    assert (Hsame : ksum (fun a => if a =? k then x else g a) K = ksum g K).
    { clear IH Hin Hn HnK. induction K as [|b K IHK]; [reflexivity|].
      cbn [ksum fold_right]. fold (ksum g K). fold (ksum (fun a => if a =? k then x else g a) K).
      destruct (b =? k) eqn:Eb; [apply Z.eqb_eq in Eb; subst; exfalso; apply Hna; left; reflexivity|].
      rewrite IHK; [reflexivity|]. intros Hc. apply Hna. right. exact Hc. }
    rewrite Hsame. lia.
  - destruct Hin as [->|Hin]; [rewrite Z.eqb_refl in E; discriminate|]. rewrite (IH HnK Hin). lia.
Qed.

Lemma getdef_notin : forall k (l : list (Z * account)), ~ In k (map fst l) -> getdef k l = empty_account.
Proof.
  intros k l. unfold getdef. induction l as [|[k0 v0] t IH]; cbn [alist_get map In]; intros H; [reflexivity|].
  cbn [fst] in H. destruct (k =? k0) eqn:E; [apply Z.eqb_eq in E; subst; exfalso; apply H; left; reflexivity|].
  apply IH. intros Hc. apply H. right. exact Hc.
Qed.

Lemma ksum_bsum : forall (l : list (Z * account)) K, NoDup K -> NoDup (map fst l) -> incl (map fst l) K ->
    ksum (fun a => a_bal (getdef a l)) K = bsum l.
Proof.
  intros l. induction l as [|[k v] t IH]; intros K HK Hl Hincl.
  - cbn [bsum fold_right]. induction K as [|a K IHK]; [reflexivity|]. cbn [ksum fold_right]. fold (ksum (fun a => a_bal (getdef a [])) K).
    inversion HK; subst. rewrite IHK; auto. intros x [].
  - cbn [map fst] in Hl, Hincl. cbn [fst] in Hl, Hincl. inversion Hl as [|? ? Hnk Hlt]; subst.
    assert (Hext : forall a, a_bal (getdef a ((k, v) :: t)) = if a =? k then a_bal v else a_bal (getdef a t)).
    { intros a. unfold getdef. cbn [alist_get]. destruct (a =? k); reflexivity. }
    assert (Heq : ksum (fun a => a_bal (getdef a ((k, v) :: t))) K = ksum (fun a => if a =? k then a_bal v else a_bal (getdef a t)) K).
    { clear -Hext. induction K as [|a K IHK]; [reflexivity|]. cbn [ksum fold_right].
      fold (ksum (fun a => a_bal (getdef a ((k, v) :: t))) K). fold (ksum (fun a => if a =? k then a_bal v else a_bal (getdef a t)) K).
      rewrite Hext, IHK. reflexivity. }
    rewrite Heq. rewrite ksum_replace; [|exact HK|apply Hincl; left; reflexivity].
    rewrite (getdef_notin k t Hnk). rewrite IH; [|exact HK|exact Hlt|intros x Hx; apply Hincl; right; exact Hx].
    cbn [bsum fold_right snd empty_account a_bal]. fold (bsum t). lia.
Qed.

Lemma ksum_T : forall w K, NoDup K -> NoDup (keys w) -> incl (keys w) K -> ksum (balance w) K = T w.
Proof. intros w K HK Hw Hi. unfold T. rewrite <- (ksum_bsum (w_accts w) K HK Hw Hi). reflexivity. Qed.

End Bal.
