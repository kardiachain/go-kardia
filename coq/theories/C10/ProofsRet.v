(** C10 — return data, jump-destination analysis and the refusal paths of frame creation.
    - RETURNDATA is a value owned by the frame: it is replaced only by the CALL-family and CREATE
      instructions, so no memory write can change it; the identity precompile 0x04 hands back a copy
      of the bytes that were in memory when it was called;
    - RETURNDATACOPY reads exactly [ret[off, off+len)], never pads, and fails as soon as
      [off + len] exceeds the buffer or 64 bits (no wrap-around);
    - [valid_jumpdest] is the bitmap analysis of kvm/contract.go: a destination is valid iff the
      linear sweep marks it as an opcode position and the byte there is JUMPDEST; positions inside
      the data of a PUSH are never valid;
    - BLOCKHASH window, the depth limit and address collisions of creations. *)
From Coq Require Import List ZArith Bool Lia.
From Kardia Require Import C10.U256 C10.EVM C10.ProofsInv Generated.C10Facts.
Import ListNotations.
Local Open Scope Z_scope.

Definition identity_cost (args : list Z) : Z := words (Z.of_nat (length args)) * g_identity_word + g_identity_base.

Lemma run_identity : forall w_ok w_snap args gas,
    run_precompile 4 w_ok w_snap args gas =
    if gas <? identity_cost args then SImmediate (OErr EOog) 0 w_snap [] else SImmediate OOk (gas - identity_cost args) w_ok args.
Proof. reflexivity. Qed.

(** a message call to address 4 never opens a frame; it either succeeds with its input as return
    data or fails with empty return data *)
Lemma start_call_identity : forall k d w ps pc pv pst args g v ro rs,
    match start_call k d w ps pc pv pst 4 args g v ro rs with
    | SImmediate o _ _ ret => (o = OOk /\ ret = args) \/ (o <> OOk /\ ret = [])
    | SFrame _ _ => False
    | SUnsupported => False
    end.
Proof.
  intros. unfold start_call. change (is_precompile 4) with true. rewrite !run_identity.
  destruct (call_create_depth <? d); [right; split; [discriminate|reflexivity]|].
  destruct k; cbn [negb andb]; rewrite ?andb_false_r; cbn [andb];
    repeat match goal with
           | |- context [if ?b then _ else _] => destruct b
           end;
    first [left; split; reflexivity | right; split; [discriminate|reflexivity]].
Qed.

(** the input range of a CALL-family instruction as the frame's memory holds it *)
Definition call_input (k : kind) (f : frame) : list Z :=
  match k with
  | KCall | KCallCode => mem_read (f_mem f) (sk (f_stack f) 3) (sk (f_stack f) 4)
  | _ => mem_read (f_mem f) (sk (f_stack f) 2) (sk (f_stack f) 3)
  end.


Lemma pad_right_firstn : forall n (l : list Z), (n <= length l)%nat -> pad_right n l = firstn n l.
Proof.
  induction n as [|n IH]; intros l H; [reflexivity|].
  destruct l as [|b t]; [cbn in H; lia|]. cbn [pad_right firstn]. rewrite IH; [reflexivity|cbn in H; lia].
Qed.

Lemma slice_pad_exact : forall data off len,
    0 <= off -> 0 <= len -> off + len <= Z.of_nat (length data) ->
    slice_pad data off len = firstn (Z.to_nat len) (skipn (Z.to_nat off) data).
Proof.
  intros data off len H0 H1 H2. unfold slice_pad.
  destruct (Z.of_nat (length data) <? off) eqn:E; [apply Z.ltb_lt in E; lia|].
  apply pad_right_firstn. rewrite skipn_length. lia.
Qed.

Definition rdc_ok (f : frame) : Prop :=
  let off := sk (f_stack f) 1 in let len := sk (f_stack f) 2 in
  off + len < U64 /\ off + len <= Z.of_nat (length (f_ret f)).


(** jump destinations: [valid_jumpdest] is the code bitmap of kvm/contract.go *)
Definition push_len (b : Z) : nat := if (96 <=? b) && (b <=? 127) then Z.to_nat (b - 95) else O.
(** the linear sweep of codeBitmap: [true] at opcode positions, [false] inside PUSH data;
    [skip] = data bytes of the current PUSH still to be passed *)
Fixpoint sweep (code : list Z) (skip : nat) : list bool :=
  match code with
  | [] => []
  | b :: t => match skip with
              | S s => false :: sweep t s
              | O => true :: sweep t (push_len b)
              end
  end.

Lemma jd_scan_sweep : forall code skip t,
    jd_scan code skip t = nth t (sweep code skip) false && (nth t code 0 =? 91).
Proof.
  induction code as [|b tl IH]; intros skip t.
  - destruct t; reflexivity.
  - destruct t as [|tg]; destruct skip as [|s]; cbn [jd_scan sweep nth]; try reflexivity.
    + unfold push_len. destruct ((96 <=? b) && (b <=? 127)); rewrite IH; reflexivity.
    + rewrite IH. reflexivity.
Qed.

Theorem valid_jumpdest_spec : forall code d, 0 <= d ->
    valid_jumpdest code d = true <->
    (d < Z.of_nat (length code) /\ nth (Z.to_nat d) (sweep code O) false = true /\ nth (Z.to_nat d) code 0 = 91).
Proof.
  intros code d Hd. unfold valid_jumpdest. rewrite jd_scan_sweep.
  destruct (d <? Z.of_nat (length code)) eqn:E.
  - apply Z.ltb_lt in E. rewrite andb_true_iff, Z.eqb_eq. tauto.
  - apply Z.ltb_ge in E. split; [discriminate|]. intros [H _]. lia.
Qed.

Lemma sweep_skip : forall code skip k, (k < skip)%nat -> nth k (sweep code skip) false = false.
Proof.
  induction code as [|b tl IH]; intros skip k H.
  - destruct k; reflexivity.
  - destruct skip as [|s]; [lia|]. destruct k as [|k']; [reflexivity|]. cbn [sweep nth]. apply IH. lia.
Qed.

(** the data bytes of a PUSH that sits at an opcode position are not opcode positions *)
Lemma sweep_push_data : forall code skip p,
    nth p (sweep code skip) false = true ->
    forall k, (1 <= k <= push_len (nth p code 0%Z))%nat -> nth (p + k) (sweep code skip) false = false.
Proof.
  induction code as [|b tl IH]; intros skip p H k Hk.
  - destruct p; discriminate H.
  - destruct p as [|p'].
    + destruct skip as [|s]; [|discriminate H]. cbn [nth] in Hk. cbn [sweep].
      destruct k as [|k']; [lia|]. cbn [Nat.add nth]. apply sweep_skip. lia.
    + destruct skip as [|s]; cbn [sweep nth] in H |- *; cbn [nth] in Hk;
        change (S p' + k)%nat with (S (p' + k)); cbn [nth]; eapply IH; eauto.
Qed.

Theorem no_jump_into_push_data : forall code p k,
    nth p (sweep code O) false = true -> (1 <= k <= push_len (nth p code 0%Z))%nat ->
    valid_jumpdest code (Z.of_nat (p + k)) = false.
Proof.
  intros code p k H Hk. unfold valid_jumpdest. rewrite jd_scan_sweep, Nat2Z.id.
  rewrite (sweep_push_data code O p H k Hk). destruct (_ <? _); reflexivity.
Qed.

(** BLOCKHASH: only the 256 most recent blocks, never the current one, nothing beyond 64 bits *)
Theorem blockhash_window : forall (blockhash : Z -> Z) e n, 0 <= n ->
    (op_blockhash blockhash e n = blockhash n /\ n < U64 /\ e_number e - 256 <= n < e_number e) \/
    (op_blockhash blockhash e n = 0 /\ (U64 <= n \/ n < e_number e - 256 \/ e_number e <= n)).
Proof.
  intros blockhash e n Hn. unfold op_blockhash.
  destruct (U64 <=? n) eqn:A; [right; split; [reflexivity|left; apply Z.leb_le; exact A]|].
  apply Z.leb_gt in A.
  destruct (e_number e <? 257) eqn:B.
  - apply Z.ltb_lt in B. destruct ((0 <=? n) && (n <? e_number e)) eqn:C.
    + apply andb_true_iff in C. destruct C as [_ C]. apply Z.ltb_lt in C. left. repeat split; try assumption; lia.
    + right. split; [reflexivity|]. apply andb_false_iff in C. destruct C as [C|C];
        [apply Z.leb_gt in C; lia|apply Z.ltb_ge in C; right; right; exact C].
  - apply Z.ltb_ge in B. destruct ((e_number e - 256 <=? n) && (n <? e_number e)) eqn:C.
    + apply andb_true_iff in C. destruct C as [C1 C2]. apply Z.leb_le in C1. apply Z.ltb_lt in C2.
      left. repeat split; try assumption; lia.
    + right. split; [reflexivity|]. apply andb_false_iff in C. destruct C as [C|C];
        [apply Z.leb_gt in C; right; left; exact C|apply Z.ltb_ge in C; right; right; exact C].
Qed.

(** refusals of frame creation: depth limit and address collision *)
Theorem depth_limit_call : forall k d w ps pc pv pst t args g v ro rs,
    call_create_depth < d -> start_call k d w ps pc pv pst t args g v ro rs = SImmediate (OErr EDepth) g w [].
Proof. intros. unfold start_call. apply Z.ltb_lt in H. rewrite H. reflexivity. Qed.
Theorem depth_limit_create : forall d w ps pst a init g v,
    call_create_depth < d -> start_create d w ps pst a init g v = SImmediate (OErr EDepth) g w [].
Proof. intros. unfold start_create. apply Z.ltb_lt in H. rewrite H. reflexivity. Qed.

(** a creation that passes the depth and balance checks at an address that already has a nonce or code:
    all the gas handed over is gone, the only change is the creator's nonce *)
Theorem create_collision : forall d w ps pst a init g v,
    d <= call_create_depth -> 0 <= v <= balance w ps ->
    let w1 := set_nonce w ps (nonce w ps + 1) in
    nonce w1 a <> 0 \/ code_of w1 a <> [] ->
    start_create d w ps pst a init g v = SImmediate (OErr ECollision) 0 w1 [].
Proof.
  intros d w ps pst a init g v Hd Hv w1 Hc. unfold start_create.
  replace (call_create_depth <? d) with false by (symmetry; apply Z.ltb_ge; exact Hd).
  replace ((v <? 0) || (balance w ps <? v)) with false
    by (symmetry; apply orb_false_iff; split; [apply Z.ltb_ge|apply Z.ltb_ge]; lia).
  fold w1.
  replace (negb (nonce w1 a =? 0) || negb (is_nil (code_of w1 a))) with true; [reflexivity|].
  symmetry. apply orb_true_iff. destruct Hc as [Hc|Hc].
  - left. apply negb_true_iff. apply Z.eqb_neq. exact Hc.
  - right. destruct (code_of w1 a); [congruence|reflexivity].
Qed.


Section Ret.
Variable keccak : list Z -> Z.
Variable blockhash : Z -> Z.
Notation step := (step keccak blockhash).
Notation exec := (exec keccak).
Notation decode := (decode keccak blockhash).

Lemma call_input_args : forall k f,
    call_input k f = mem_read (f_mem f) (callarg k (f_stack f) 0) (callarg k (f_stack f) 1).
Proof. intros k f. destruct k; reflexivity. Qed.

Lemma exec_identity_ret : forall e k f w rest cg,
    addr_of_word (sk (f_stack f) 1) = 4 ->
    exists f' w', exec e (ICallOp k) f w rest cg = mk_config (f' :: rest) w' Running /\
                  ((hd 0 (f_stack f') = 1 /\ f_ret f' = call_input k f) \/
                   (hd 0 (f_stack f') = 0 /\ f_ret f' = [])).
Proof using keccak blockhash. (* stated over both hash functions, like the other theorems on [exec] *)
  intros e k f w rest cg Ht. rewrite (exec_call keccak), call_input_args. unfold call_result. cbv zeta. rewrite Ht.
  match goal with |- context [start_call ?kk ?d ?ww ?a ?b ?c ?dd 4 ?ff ?gg ?hh ?ii ?jj] =>
    pose proof (start_call_identity kk d ww a b c dd ff gg hh ii jj) as Hs;
    destruct (start_call kk d ww a b c dd 4 ff gg hh ii jj) as [o gb w' iret| |]; try contradiction
  end.
  do 2 eexists. split; [reflexivity|].
  destruct Hs as [[-> ->]|[Ho ->]]; [left; split; reflexivity|].
  right. destruct o as [| |er]; [congruence| |]; split; reflexivity.
Qed.

(** RETURNDATA changes only at CALL-family / CREATE instructions *)
Definition sets_ret (i : instr) : bool :=
  match i with ICreate | ICreate2 | ICallOp _ => true | _ => false end.

Lemma finish_not_longer : forall o ret f w rest f' rest',
    c_frames (finish o ret f w rest) = f' :: rest' -> length rest' = length rest -> False.
Proof.
  intros o ret f w rest f' rest' H Hl.
  pose proof (finish_length o ret f w rest) as Hd. rewrite H in Hd. cbn [length] in Hd. lia.
Qed.

Lemma exec_ret_stable : forall e i f w rest cg f' rest',
    sets_ret i = false -> c_frames (exec e i f w rest cg) = f' :: rest' -> length rest' = length rest ->
    f_ret f' = f_ret f.
Proof.
  intros e i f w rest cg f' rest' Hs Hfr Hl. revert Hfr.
  destruct (exec_cases keccak e i f w rest cg) as [pc s m w' _ _ _ _ _ _|o ret s w' _ _|addr init value gas Hi _ _|k Hi].
  - intros Hfr. inversion Hfr; subst. reflexivity.
  - intros Hfr. destruct (finish_not_longer _ _ _ _ _ _ _ Hfr Hl).
  - destruct Hi; subst; discriminate.
  - subst; discriminate.
Qed.

Theorem returndata_stable : forall e c f rest f' rest',
    c_status c = Running -> c_frames c = f :: rest ->
    (forall i, decode (cur_op f) = Some i -> sets_ret i = false) ->
    c_frames (step e c) = f' :: rest' -> length rest' = length rest ->
    f_ret f' = f_ret f.
Proof.
  intros e c f rest f' rest' Hrun Hf Hq Hfr Hl. revert Hfr.
  destruct (step_running keccak blockhash e c f rest Hrun Hf) as [er| |info i msz mc g cg _ Hdec _ _ _]; intros Hfr.
  - destruct (finish_not_longer _ _ _ _ _ _ _ Hfr Hl).
  - inversion Hfr; subst. reflexivity.
  - apply (exec_ret_stable _ _ _ _ _ _ _ _ (Hq i Hdec) Hfr Hl).
Qed.

(** any number of steps of the same frame that execute no CALL-family / CREATE instruction *)
Inductive quiet (e : env) : config -> config -> Prop :=
| q_refl : forall c, quiet e c c
| q_step : forall c c' f rest f' rest',
    quiet e c c' -> c_status c' = Running -> c_frames c' = f :: rest ->
    (forall i, decode (cur_op f) = Some i -> sets_ret i = false) ->
    c_frames (step e c') = f' :: rest' -> length rest' = length rest ->
    quiet e c (step e c').

Theorem returndata_stable_run : forall e c c', quiet e c c' ->
    forall f rest, c_frames c = f :: rest ->
    exists f' rest', c_frames c' = f' :: rest' /\ length rest' = length rest /\ f_ret f' = f_ret f.
Proof.
  intros e c c' H. induction H as [c|c c' f1 rest1 f2 rest2 Hq IH Hrun Hf Hno Hfr Hl]; intros f rest Hc.
  - exists f, rest. auto.
  - destruct (IH f rest Hc) as [f' [rest' [H1 [H2 H3]]]].
    rewrite Hf in H1. inversion H1; subst f' rest'.
    exists f2, rest2. split; [exact Hfr|]. split; [lia|].
    rewrite <- H3. eapply returndata_stable; eauto.
Qed.

Theorem returndatacopy_spec : forall e f w rest cg,
    0 <= sk (f_stack f) 1 -> 0 <= sk (f_stack f) 2 ->
    (rdc_ok f ->
     exec e (ICopy SrcReturndata) f w rest cg =
     next (set_stack (set_mem f (mem_write (f_mem f) (sk (f_stack f) 0)
                                           (firstn (Z.to_nat (sk (f_stack f) 2)) (skipn (Z.to_nat (sk (f_stack f) 1)) (f_ret f))))
                              (f_mcost f))
                     (skipn 3 (f_stack f))) w rest) /\
    (~ rdc_ok f -> exec e (ICopy SrcReturndata) f w rest cg = fail ERetOob f w rest).
Proof using keccak blockhash.
  intros e f w rest cg H1 H2. cbn [exec instr_pops copy_source].
  assert (E0 : a0 (firstn 3 (f_stack f)) = sk (f_stack f) 0) by (unfold a0; apply sk_firstn; lia).
  assert (E1 : a1 (firstn 3 (f_stack f)) = sk (f_stack f) 1) by (unfold a1; apply sk_firstn; lia).
  assert (E2 : a2 (firstn 3 (f_stack f)) = sk (f_stack f) 2) by (unfold a2; apply sk_firstn; lia).
  rewrite E0, E1, E2. unfold rdc_ok. cbn zeta.
  set (off := sk (f_stack f) 1) in *. set (len := sk (f_stack f) 2) in *.
  split; intros H.
  - destruct H as [Ha Hb].
    replace ((U64 <=? off) || (U64 <=? off + len) || (Z.of_nat (length (f_ret f)) <? off + len)) with false.
    + rewrite slice_pad_exact by lia. reflexivity.
    + symmetry. apply orb_false_iff. split; [apply orb_false_iff; split|]; [apply Z.leb_gt|apply Z.leb_gt|apply Z.ltb_ge]; lia.
  - replace ((U64 <=? off) || (U64 <=? off + len) || (Z.of_nat (length (f_ret f)) <? off + len)) with true; [reflexivity|].
    symmetry. destruct (U64 <=? off) eqn:A; [reflexivity|]. destruct (U64 <=? off + len) eqn:B; [reflexivity|].
    cbn [orb]. apply Z.ltb_lt. apply Z.leb_gt in A. apply Z.leb_gt in B.
    destruct (Z_lt_le_dec (Z.of_nat (length (f_ret f))) (off + len)); [assumption|]. exfalso. apply H. split; lia.
Qed.

End Ret.
