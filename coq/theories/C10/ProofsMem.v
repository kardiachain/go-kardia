(** C10 — memory is word-granular: in every reachable configuration the memory of every frame has
    a length that is a multiple of 32 bytes: every memory write of an instruction (or of a returning
    callee) lands inside the memory that was resized before it, so it never changes the length
    (the step of [exec_MW] and [finish_MW] that uses [write_ok] / [ret_written_eq]). *)
From Coq Require Import List ZArith Bool Lia.
From Kardia Require Import C10.U256 C10.EVM C10.ProofsTables C10.ProofsInv C10.ProofsGas Generated.C10Facts.
Import ListNotations.
Local Open Scope Z_scope.
Ltac Zify.zify_post_hook ::= Z.div_mod_to_equations.

Section Mem.
Variable keccak : list Z -> Z.
Variable blockhash : Z -> Z.
Notation step := (step keccak blockhash).
Notation exec := (exec keccak).

Definition mlen (f : frame) : Z := Z.of_nat (length (f_mem f)).
Definition wg (f : frame) : Prop := mlen f mod 32 = 0.
(** the callee's return range lies inside the caller's memory *)
Definition ret_in (child parent : frame) : Prop :=
  f_retsize child <= 0 \/ (0 <= f_retoff child /\ f_retoff child + f_retsize child <= mlen parent).
Fixpoint linked (l : list frame) : Prop :=
  match l with
  | c :: ((p :: _) as r) => ret_in c p /\ linked r
  | _ => True
  end.
Definition MW (c : config) : Prop := Forall wg (c_frames c) /\ linked (c_frames c).

Lemma mem_write_nil : forall m off, mem_write m off [] = m.
Proof. reflexivity. Qed.

Lemma mem_need_spec : forall off len n, mem_need off len = Some n ->
    (len = 0 /\ n = 0) \/ (0 <= off /\ 0 < len /\ n = off + len).
Proof.
  intros off len n H. unfold mem_need in H.
  destruct ((len <? 0) || (U64 <=? len)) eqn:E1; [discriminate|].
  apply orb_false_iff in E1. destruct E1 as [E1 _]. apply Z.ltb_ge in E1.
  destruct (len =? 0) eqn:E0; [apply Z.eqb_eq in E0; inversion H; auto|]. apply Z.eqb_neq in E0.
  destruct ((off <? 0) || (U64 <=? off)) eqn:E2; [discriminate|].
  apply orb_false_iff in E2. destruct E2 as [E2 _]. apply Z.ltb_ge in E2.
  destruct (U64 <=? off + len); [discriminate|]. inversion H. right. lia.
Qed.
Lemma round_mem_spec : forall n msz, round_mem n = Some msz -> msz mod 32 = 0 /\ n <= msz.
Proof.
  intros n msz H. unfold round_mem in H. destruct (U64 <=? (n + 31) / 32 * 32); [discriminate|].
  inversion H. split; lia.
Qed.
(** what [step] guarantees about the frame it hands to [exec]: memory covers the instruction's need *)
Definition covered (op : Z) (i : instr) (f : frame) : Prop :=
  match instr_mem op i (f_stack f) with
  | Some (Some need) => need <= mlen f
  | Some None => False
  | None => True
  end.

(** a write of [size] bytes at [off] inside the memory leaves its length alone *)
Lemma write_ok : forall m off size bytes, length bytes = Z.to_nat size ->
    (size = 0 \/ (0 <= off /\ 0 < size /\ off + size <= Z.of_nat (length m))) ->
    length (mem_write m off bytes) = length m.
Proof.
  intros m off size bytes Hl [H0|[Ho [Hs Hb]]].
  - subst size. destruct bytes; [reflexivity|discriminate].
  - apply mem_write_eq. rewrite Hl. lia.
Qed.

Lemma need_range : forall off len n (m : list Z), mem_need off len = Some n -> n <= Z.of_nat (length m) ->
    len = 0 \/ (0 <= off /\ 0 < len /\ off + len <= Z.of_nat (length m)).
Proof. intros off len n m H Hn. destruct (mem_need_spec off len n H) as [[A B]|[A [B C]]]; [left; exact A|right; lia]. Qed.

Lemma mem_need2_spec : forall o1 l1 o2 l2 n, mem_need2 o1 l1 o2 l2 = Some n ->
    exists x y, mem_need o1 l1 = Some x /\ mem_need o2 l2 = Some y /\ x <= n /\ y <= n.
Proof.
  intros o1 l1 o2 l2 n H. unfold mem_need2 in H.
  destruct (mem_need o1 l1) as [x|]; [|discriminate]. destruct (mem_need o2 l2) as [y|]; [|discriminate].
  inversion H. exists x, y. repeat split; lia.
Qed.

Lemma wg_same : forall f f', wg f -> length (f_mem f') = length (f_mem f) -> wg f'.
Proof. intros f f' H Hl. unfold wg, mlen in *. rewrite Hl. exact H. Qed.

Lemma finish_MW : forall o ret f w rest, Forall wg rest -> linked (f :: rest) -> MW (finish o ret f w rest).
Proof.
  intros o ret f w rest Hr Hl. destruct (settle o ret f w) as [[o1 g1] w1] eqn:Hs.
  pose proof (finish_cases o ret f w rest o1 g1 w1 Hs) as Hc.
  destruct rest as [|p rest']; [rewrite Hc; split; [constructor|exact I]|].
  destruct Hc as [m [r [-> Hw]]]. inversion Hr as [|? ? Hp Hr']; subst. cbn [linked] in Hl. destruct Hl as [Hri Hl].
  split; cbn [c_frames].
  - constructor; [|exact Hr']. apply (wg_same p); [exact Hp|]. exact (ret_written_eq _ _ _ _ _ Hw Hri).
  - destruct rest' as [|q r']; [exact I|]. cbn [linked] in *. exact Hl.
Qed.

Lemma exec_MW : forall e op i f w rest cg,
    wg f -> covered op i f -> Forall wg rest -> linked (f :: rest) -> MW (exec e i f w rest cg).
Proof.
  intros e op i f w rest cg Hw Hcov Hr Hl. unfold covered in Hcov.
  (* the frame stays on top with a memory of the same length *)
  assert (Hsame : forall p w' st, length (f_mem p) = length (f_mem f) -> f_retoff p = f_retoff f -> f_retsize p = f_retsize f ->
                                  MW (mk_config (p :: rest) w' st)).
  { intros p w' st Hlen Hro Hrs. split; cbn [c_frames]; [constructor; [apply (wg_same f); assumption|exact Hr]|].
    destruct rest as [|q r]; [exact I|]. cbn [linked] in *. unfold ret_in in *. rewrite Hro, Hrs. exact Hl. }
  (* a new frame on top, whose return range lies in the caller's memory *)
  assert (Hpush : forall child p w', f_mem child = [] -> length (f_mem p) = length (f_mem f) ->
                    f_retoff p = f_retoff f -> f_retsize p = f_retsize f -> ret_in child p ->
                    MW (mk_config (child :: p :: rest) w' Running)).
  { intros child p w' Hc Hlen Hro Hrs Hri. destruct (Hsame p w' Running Hlen Hro Hrs) as [A B]. split; cbn [c_frames] in *.
    - constructor; [unfold wg, mlen; rewrite Hc; reflexivity|exact A].
    - cbn [linked]. split; [exact Hri|exact B]. }
  destruct (exec_cases keccak e i f w rest cg) as [pc s m w' _ _ _ _ Hme _|o ret s w' _ _|addr init value gas _ _ _|k Hi].
  - apply Hsame; try reflexivity. cbn [upd f_mem].
    destruct Hme as [->|[off [size [bytes [-> [Hb Hm]]]]]]; [reflexivity|].
    rewrite (Hm op) in Hcov. destruct (mem_need off size) as [n|] eqn:Hn; [|destruct Hcov].
    apply write_ok with (size := size); [exact Hb|]. apply (need_range _ _ _ _ Hn Hcov).
  - apply finish_MW; [exact Hr|]. destruct rest as [|q r]; [exact I|exact Hl].
  - cbv zeta.
    match goal with |- context [match ?st with _ => _ end] => destruct st as [o gb w' iret|child w'|] eqn:Hst end.
    + apply Hsame; reflexivity.
    + apply start_create_frame in Hst. destruct Hst as [_ [_ ->]]. apply Hpush; try reflexivity. left. cbn. lia.
    + apply Hsame; reflexivity.
  - subst i. rewrite instr_mem_call in Hcov. unfold call_result. cbv zeta.
    set (ro := callarg k (f_stack f) 2) in *. set (rs := callarg k (f_stack f) 3) in *.
    assert (Hret : rs <= 0 \/ (0 <= ro /\ ro + rs <= mlen f)).
    { destruct (mem_need2 ro rs _ _) as [n|] eqn:Hn; [|destruct Hcov].
      apply mem_need2_spec in Hn. destruct Hn as [x [y [Hx [_ [Hxn _]]]]].
      destruct (mem_need_spec _ _ _ Hx) as [[A B]|[A [B C]]]; [left; lia|right; lia]. }
    match goal with |- context [match ?st with _ => _ end] => destruct st as [o gb w' iret|child w'|] eqn:Hst end.
    + apply Hsame; try reflexivity. cbn [resumed f_mem].
      apply (ret_written_eq (f_mem f) ro rs iret); [destruct o; [right|right|left]; reflexivity|exact Hret].
    + apply start_call_frame in Hst. destruct Hst as [_ [_ [_ [caller [val ->]]]]]. apply Hpush; try reflexivity. exact Hret.
    + apply Hsame; reflexivity.
Qed.

Lemma step_MW : forall e c, MW c -> MW (step e c).
Proof.
  intros e c HM. destruct (step_cases keccak blockhash e c) as [->|[f [rest [_ [Hf Hc]]]]]; [exact HM|].
  destruct HM as [Hw Hl]. rewrite Hf in Hw, Hl. inversion Hw as [|? ? Hwf Hwr]; subst.
  destruct Hc as [er| |info i msz mc g cg _ _ _ _ [_ [Hmsz _]]].
  - apply finish_MW; assumption.
  - split; assumption.
  - (* the memory was resized to a multiple of 32 that covers the instruction's need *)
    assert (Hm : msz mod 32 = 0 /\ match instr_mem (cur_op f) i (f_stack f) with
                                   | Some (Some need) => need <= msz | Some None => False | None => True end).
    { destruct (instr_mem (cur_op f) i (f_stack f)) as [[need|]|]; [apply (round_mem_spec _ _ Hmsz)|discriminate|].
      injection Hmsz as <-. auto. }
    destruct Hm as [Hm32 Hneed]. unfold wg, mlen in Hwf.
    apply exec_MW with (op := cur_op f); [| |exact Hwr|destruct rest as [|p r]; [exact I|exact Hl]];
      unfold wg, covered, mlen; cbn [set_gas set_mem f_mem f_stack]; rewrite mem_resize_length; [lia|].
    destruct (instr_mem (cur_op f) i (f_stack f)) as [[need|]|]; [lia|exact Hneed|exact I].
Qed.

Lemma init_call_MW : forall e w t input g v, MW (init_call e w t input g v).
Proof.
  intros. unfold init_call.
  destruct (start_call KCall 0 w (e_origin e) (e_origin e) 0 false t input g v 0 0) as [o gb w' iret|child w'|] eqn:Hs.
  - destruct o; split; cbn; auto.
  - apply start_call_frame in Hs. destruct Hs as [_ [_ [_ [caller [val ->]]]]]. split; [constructor; [reflexivity|constructor]|exact I].
  - split; cbn; auto.
Qed.
Lemma init_create_MW : forall e w init g v, MW (init_create keccak e w init g v).
Proof.
  intros. unfold init_create.
  match goal with |- context [match ?st with _ => _ end] => destruct st as [o gb w' iret|child w'|] eqn:Hs end.
  - split; cbn; auto.
  - apply start_create_frame in Hs. destruct Hs as [_ [_ ->]]. split; [constructor; [reflexivity|constructor]|exact I].
  - split; cbn; auto.
Qed.

Lemma memory_word_granular : forall e c f, reachable_g keccak blockhash e c -> In f (c_frames c) ->
    (Z.of_nat (length (f_mem f))) mod 32 = 0.
Proof.
  intros e c f H Hin.
  assert (HM : MW c).
  { clear Hin. induction H; [apply init_call_MW|apply init_create_MW|apply step_MW; assumption]. }
  destruct HM as [Hw _]. rewrite Forall_forall in Hw. apply (Hw f Hin).
Qed.

End Mem.
