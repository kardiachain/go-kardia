(** C10 — gas is never negative: every frame of every configuration reachable from a start with non-negative gas holds a
    non-negative amount of gas, and so does the final result. *)
From Coq Require Import List ZArith Bool Lia.
From Kardia Require Import C10.U256 C10.EVM C10.ProofsTables C10.ProofsInv Generated.C10Facts.
Import ListNotations.
Local Open Scope Z_scope.
Ltac Zify.zify_post_hook ::= Z.div_mod_to_equations.

(** gas handed back by a call or creation that opens no frame: between nothing and all of it *)
Lemma run_precompile_back : forall t wok ws args g o gb w' ret, 0 <= g ->
    run_precompile t wok ws args g = SImmediate o gb w' ret -> 0 <= gb <= g.
Proof.
  intros t wok ws args g o gb w' ret Hg. unfold run_precompile. destruct (t =? 4); [|discriminate].
  assert (0 <= words (Z.of_nat (length args)) * g_identity_word + g_identity_base)
    by (unfold words, g_identity_word, g_identity_base; lia).
  destruct (g <? _) eqn:E; intros H0; inversion H0; subst; [lia|]. apply Z.ltb_ge in E. lia.
Qed.

Lemma start_call_back : forall k d w ps pc pv pst t args g v ro rs o gb w' ret, 0 <= g ->
    start_call k d w ps pc pv pst t args g v ro rs = SImmediate o gb w' ret -> 0 <= gb <= g.
Proof.
  intros until ret. intros Hg. unfold start_call.
  assert (Hall : forall o' w'' r', SImmediate o' g w'' r' = SImmediate o gb w' ret -> 0 <= gb <= g)
    by (intros o' w'' r' H; inversion H; subst; lia).
  assert (Hpre : forall wok, run_precompile t wok w args g = SImmediate o gb w' ret -> 0 <= gb <= g)
    by (intros wok; apply run_precompile_back; exact Hg).
  destruct (call_create_depth <? d); [apply Hall|].
  destruct k; cbv zeta.
  - destruct (_ || _); [apply Hall|]. destruct (_ && _ && _); [apply Hall|].
    destruct (is_precompile t); [apply Hpre|]. destruct (is_nil _); [apply Hall|discriminate].
  - destruct (_ || _); [apply Hall|].
    destruct (is_precompile t); [apply Hpre|]. destruct (is_nil _); [apply Hall|discriminate].
  - destruct (is_precompile t); [apply Hpre|]. destruct (is_nil _); [apply Hall|discriminate].
  - destruct (is_precompile t); [apply Hpre|]. destruct (is_nil _); [apply Hall|discriminate].
  - apply Hall.
Qed.

Lemma start_create_back : forall d w ps pst a init g v o gb w' ret, 0 <= g ->
    start_create d w ps pst a init g v = SImmediate o gb w' ret -> 0 <= gb <= g.
Proof.
  intros until ret. intros Hg. unfold start_create.
  assert (Hall : forall o' w'' r', SImmediate o' g w'' r' = SImmediate o gb w' ret -> 0 <= gb <= g)
    by (intros o' w'' r' H; inversion H; subst; lia).
  destruct (call_create_depth <? d); [apply Hall|]. destruct (_ || _); [apply Hall|]. cbv zeta.
  destruct (_ || _); [intros H; inversion H; subst; lia|]. destruct (is_nil init); [apply Hall|discriminate].
Qed.

Lemma call_gas_nonneg : forall avail base cost cg, call_gas avail base cost = Some cg -> 0 <= cg.
Proof.
  intros avail base cost cg H. unfold call_gas in H.
  destruct (avail <? base) eqn:E; [discriminate|]. apply Z.ltb_ge in E.
  destruct ((cost <? 0) || (U64 <=? cost) || (avail - base - (avail - base) / 64 <? cost)) eqn:E2; inversion H; subst.
  - lia.
  - apply orb_false_iff in E2. destruct E2 as [E2 _]. apply orb_false_iff in E2. destruct E2 as [E2 _].
    apply Z.ltb_ge in E2. exact E2.
Qed.

Lemma instr_dyn_cg : forall op k f w s msz cost mc cg,
    instr_dyn op (ICallOp k) f w s msz = Some (Some (cost, mc, cg)) -> 0 <= cg.
Proof.
  intros op k f w s msz cost mc cg H. cbn [instr_dyn] in H.
  destruct (mem_gas f msz) as [[mg t]|]; [|discriminate].
  match type of H with context [call_gas ?a ?b ?c] => destruct (call_gas a b c) as [cg'|] eqn:Hc end; [|discriminate].
  inversion H; subst. apply (call_gas_nonneg _ _ _ _ Hc).
Qed.

Section Gas.
Variable keccak : list Z -> Z.
Variable blockhash : Z -> Z.
Notation step := (step keccak blockhash).
Notation exec := (exec keccak).

Definition gas_ok (f : frame) : Prop := 0 <= f_gas f.
Definition gas_inv (c : config) : Prop :=
  Forall gas_ok (c_frames c) /\ match c_status c with Final _ _ g => 0 <= g | _ => True end.

Lemma finish_gas : forall o ret f w rest, gas_ok f -> Forall gas_ok rest -> gas_inv (finish o ret f w rest).
Proof.
  intros o ret f w rest Hf Hr. destruct (settle o ret f w) as [[o1 g1] w1] eqn:Hs.
  destruct (settle_cases o ret f w o1 g1 w1 Hs) as [_ [_ Hg]]. specialize (Hg Hf).
  pose proof (finish_cases o ret f w rest o1 g1 w1 Hs) as Hc. destruct rest as [|p rest'].
  - rewrite Hc. split; [constructor|]. cbn [c_status]. lia.
  - destruct Hc as [m [r [-> _]]]. inversion Hr as [|? ? Hp Hr']; subst. unfold gas_ok in Hp.
    split; [|exact I]. constructor; [|exact Hr']. unfold gas_ok. cbn [resumed f_gas]. lia.
Qed.

(** the gas [cg] computed by [step] is non-negative whenever [exec] hands it to a callee *)
Lemma charged_cg : forall e info i f w msz mc g cg k,
    charged e info i f w msz mc g cg -> i = ICallOp k -> 0 <= cg.
Proof.
  intros e info i f w msz mc g cg k Hch Hi. subst i. destruct Hch as [_ [_ Hd]].
  destruct (instr_dyn _ _ _ _ _ _) as [[[[cost mc'] cg']|]|] eqn:Hdyn; [|destruct Hd|lia].
  destruct Hd as [_ [-> _]]. apply (instr_dyn_cg _ _ _ _ _ _ _ _ _ Hdyn).
Qed.

Lemma exec_gas : forall e i f w rest cg,
    gas_ok f -> Forall gas_ok rest -> (forall k, i = ICallOp k -> 0 <= cg) -> gas_inv (exec e i f w rest cg).
Proof.
  intros e i f w rest cg Hf Hr Hcg. unfold gas_ok in Hf. pose proof consts as C.
  assert (Hkeep : forall p w', 0 <= f_gas p -> gas_inv (mk_config (p :: rest) w' Running))
    by (intros p w' Hp; split; [constructor; [exact Hp|exact Hr]|exact I]).
  destruct (exec_cases keccak e i f w rest cg) as [pc s m w' _ _ _ _ _ _|o ret s w' _ _|addr init value gas _ _ Hg|k Hi].
  - split; [constructor; [exact Hf|exact Hr]|exact I].
  - apply finish_gas; [exact Hf|exact Hr].
  - assert (0 <= gas <= f_gas f) by (destruct Hg; subst; lia). cbv zeta.
    match goal with |- context [match ?st with _ => _ end] => destruct st as [o gb w' iret|child w'|] eqn:Hst end.
    + apply start_create_back in Hst; [|lia]. apply Hkeep. cbn [resumed set_gas f_gas]. lia.
    + apply start_create_frame in Hst. destruct Hst as [_ [_ ->]]. split; [|exact I].
      constructor; [unfold gas_ok; cbn [new_frame f_gas]; lia|]. constructor; [unfold gas_ok; cbn [set_gas f_gas]; lia|exact Hr].
    + split; [|exact I]. constructor; [unfold gas_ok; cbn [set_gas f_gas]; lia|exact Hr].
  - specialize (Hcg k Hi). unfold call_result. cbv zeta.
    set (gas := if negb (callvalue k (f_stack f) =? 0) then cg + g_call_stipend else cg).
    assert (0 <= gas) by (unfold gas; destruct (negb _); lia).
    match goal with |- context [match ?st with _ => _ end] => destruct st as [o gb w' iret|child w'|] eqn:Hst end.
    + apply start_call_back in Hst; [|assumption]. apply Hkeep. cbn [resumed set_stack f_gas]. lia.
    + apply start_call_frame in Hst. destruct Hst as [_ [_ [_ [caller [value ->]]]]]. split; [|exact I].
      constructor; [unfold gas_ok; cbn [new_frame f_gas]; lia|]. constructor; [exact Hf|exact Hr].
    + split; [|exact I]. constructor; [exact Hf|exact Hr].
Qed.

Lemma step_gas : forall e c, gas_inv c -> gas_inv (step e c).
Proof.
  intros e c Hinv. destruct (step_cases keccak blockhash e c) as [->|[f [rest [_ [Hf Hc]]]]]; [exact Hinv|].
  destruct Hinv as [Hfr _]. rewrite Hf in Hfr. inversion Hfr as [|? ? Hgf Hrest]; subst.
  destruct Hc as [er| |info i msz mc g cg _ _ _ _ Hch].
  - apply finish_gas; assumption.
  - split; [constructor; assumption|exact I].
  - apply exec_gas; [|exact Hrest|intros k; apply (charged_cg _ _ _ _ _ _ _ _ _ k Hch)].
    unfold gas_ok in *. cbn [set_gas f_gas]. destruct Hch as [Hg [_ Hd]].
    destruct (instr_dyn _ _ _ _ _ _) as [[[[cost mc'] cg']|]|]; [|destruct Hd|]; lia.
Qed.

Lemma init_call_gas : forall e w t input g v, 0 <= g -> gas_inv (init_call e w t input g v).
Proof.
  intros e w t input g v Hg. unfold init_call.
  destruct (start_call KCall 0 w (e_origin e) (e_origin e) 0 false t input g v 0 0) as [o gb w' iret|child w'|] eqn:Hs.
  - apply start_call_back in Hs; [|exact Hg]. destruct o; (split; [constructor|cbn [c_status]; lia]).
  - apply start_call_frame in Hs. destruct Hs as [_ [_ [_ [caller [value ->]]]]].
    split; [constructor; [exact Hg|constructor]|exact I].
  - split; [constructor|exact I].
Qed.
Lemma init_create_gas : forall e w init g v, 0 <= g -> gas_inv (init_create keccak e w init g v).
Proof.
  intros e w init g v Hg. unfold init_create.
  match goal with |- context [match ?st with _ => _ end] => destruct st as [o gb w' iret|child w'|] eqn:Hs end.
  - apply start_create_back in Hs; [|exact Hg]. split; [constructor|cbn [c_status]; lia].
  - apply start_create_frame in Hs. destruct Hs as [_ [_ ->]]. split; [constructor; [exact Hg|constructor]|exact I].
  - split; [constructor|exact I].
Qed.

(** reachable from a top-level call/creation that was given a non-negative amount of gas *)
Inductive reachable_g (e : env) : config -> Prop :=
| rg_call : forall w t input g v, 0 <= g -> reachable_g e (init_call e w t input g v)
| rg_create : forall w init g v, 0 <= g -> reachable_g e (init_create keccak e w init g v)
| rg_step : forall c, reachable_g e c -> reachable_g e (step e c).

Lemma reachable_g_reachable : forall e c, reachable_g e c -> reachable keccak blockhash e c.
Proof. intros e c H. induction H; [apply reach_call|apply reach_create|apply reach_step; assumption]. Qed.

Lemma gas_never_negative : forall e c, reachable_g e c ->
    (forall f, In f (c_frames c) -> 0 <= f_gas f) /\
    (forall o ret g, c_status c = Final o ret g -> 0 <= g).
Proof.
  intros e c H.
  assert (Hi : gas_inv c).
  { induction H; [apply init_call_gas|apply init_create_gas|apply step_gas]; assumption. }
  destruct Hi as [H1 H2]. split.
  - intros f Hin. rewrite Forall_forall in H1. apply (H1 f Hin).
  - intros o ret g Hs. rewrite Hs in H2. exact H2.
Qed.

End Gas.
