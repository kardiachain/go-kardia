(** C17 — AccountQueue: right after its own promotion run a non-local account holds at most
    AccountQueue queued transactions (the post-condition of list.Cap in promoteExecutables). *)
From Coq Require Import List ZArith NArith Bool Lia.
From Kardia Require Import Generated.C17Facts C17.Model C17.ProofsBasic C17.ProofsFrame C17.ProofsInv.
Import ListNotations.
Local Open Scope Z_scope.

Lemma promote_tx_queue p a t : p_queue (fst (promote_tx p a t)) = p_queue p.
Proof.
  unfold promote_tx. destruct (l_add (p_pending p) t (c_price_bump (p_cfg p))) as [[ok old] pd].
  destruct ok; [destruct old|]; cbn [fst pn_set set_nonces p_queue];
    rewrite ?(heap_only_queue _ _ (heap_only_removed _ _)); reflexivity.
Qed.

Lemma promote_list_queue l : forall p a, p_queue (promote_list p a l) = p_queue p.
Proof.
  unfold promote_list. induction l as [|t l IH]; intros p a; cbn [fold_left]; auto.
  rewrite IH. apply promote_tx_queue.
Qed.

Theorem account_queue_cap p a :
  Inv p -> ~ In a (p_locals p) -> 0 <= c_aqueue (p_cfg p) ->
  l_len (p_queue (promote_account p a)) a <= c_aqueue (p_cfg p).
Proof.
  intros I Hloc Hq.
  destruct (of_acct a (p_queue p)) as [|z zs] eqn:Eacct.
  { rewrite promote_account_idle by exact Eacct. unfold l_len. rewrite Eacct. cbn [length]. lia. }
  (* the cap is the last phase to touch the queue *)
  rewrite (heap_only_queue _ _ (promote_account_phases p a ltac:(congruence))).
  set (p3 := promote_ready (drop_queue (drop_queue p (stale p a)) (unpayable p a)) a).
  assert (F : frame p p3).
  { eapply frame_trans; [|apply frame_promote_ready]. eapply frame_trans; apply frame_drop_queue. }
  destruct F as [_ [Hc3 [Hl3 _]]].
  assert (Hd3 : NoDup (map key (p_queue p3))).
  { unfold p3, promote_ready. cbv zeta. rewrite promote_list_queue. unfold minus_ids, drop_queue.
    cbn [p_queue set_queue set_all]. repeat apply NoDup_map_filter. apply (inv_kq _ p I). }
  clearbody p3. unfold cap_queue. rewrite Hl3.
  replace (memN a (p_locals p)) with false by (destruct (memN a (p_locals p)) eqn:E; auto; apply memN_In in E; contradiction).
  pose proof (l_cap_kept (p_queue p3) a (c_aqueue (p_cfg p3)) Hd3 ltac:(rewrite Hc3; exact Hq)) as Hcap.
  destruct (l_cap (p_queue p3) a (c_aqueue (p_cfg p3))) as [caps q3]. cbn [snd p_queue set_all set_queue] in *.
  rewrite <- Hc3. lia.
Qed.

(* the configuration of every pool the model builds is sanitized: AccountQueue >= 1 *)
Lemma sanitize_aqueue c : 1 <= c_aqueue (sanitize c).
Proof. unfold sanitize. cbn [c_aqueue]. destruct (Z.ltb_spec (c_aqueue c) 1); [unfold def_account_queue|]; lia. Qed.
