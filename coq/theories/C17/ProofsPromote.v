(** C17 — promoteExecutables: structural part of the invariant, per-account part, and the
    characterisation of one account's promotion run. *)
From Coq Require Import List ZArith NArith Bool Lia.
From Kardia Require Import C17.Model C17.ProofsBasic C17.ProofsFrame C17.ProofsInv.
Import ListNotations.
Local Open Scope Z_scope.

(** The chain-independent part of the invariant. *)
Record Struct (out : list tx) (p : pool) : Prop := mkStruct {
  s_kp : NoDup (map key (p_pending p));
  s_kq : NoDup (map key (p_queue p));
  s_idx : forall t, In t (map fst (p_all p)) <-> In t (p_pending p) \/ In t (p_queue p) \/ In t out;
  s_ids : NoDup (map t_id (map fst (p_all p)));
  s_dpq : forall t, In t (p_pending p) -> In t (p_queue p) -> False;
  s_dout : forall t, In t out -> ~ In t (p_pending p) /\ ~ In t (p_queue p)
}.

Definition affordable (p : pool) (t : tx) : Prop :=
  cost t <= st_balance (p_chain p) (sender t) /\ t_gas t <= ch_gaslimit (p_chain p).

(* the left side of [inv_run] *)
Definition has (l : list tx) (a : N) (n : Z) : Prop := exists t, In t l /\ sender t = a /\ t_nonce t = n.
#[global] Hint Unfold has : core.

(** The per-account part. *)
Definition AcctInv (p : pool) (a : N) : Prop :=
  (forall n, has (p_pending p) a n <-> st_nonce (p_chain p) a <= n < pn_get p a) /\
  st_nonce (p_chain p) a <= pn_get p a /\
  (forall t, In t (p_queue p) -> sender t = a -> pn_get p a <= t_nonce t) /\
  (forall t, In t (p_pending p) -> sender t = a -> affordable p t).

Lemma Inv_split p : Inv p <-> Struct [] p /\ forall a, AcctInv p a.
Proof.
  split.
  - intros I. split.
    + constructor.
      * apply (inv_kp _ p I).
      * apply (inv_kq _ p I).
      * apply (inv_idx _ p I).
      * apply (inv_ids _ p I).
      * intros t H1 H2. eapply (inv_disjoint _ p I); eauto.
      * intros t [].
    + intros a. split; [apply (inv_run _ p I)|]. split; [apply (inv_pn _ p I)|]. split.
      * intros t Ht Hs. subst. apply (inv_q _ p I). auto.
      * intros t Ht Hs. apply (inv_aff _ p I). auto.
  - intros [S A]. constructor.
    + apply (s_kp _ p S).
    + apply (s_kq _ p S).
    + apply (s_idx _ p S).
    + apply (s_ids _ p S).
    + intros a n. apply (A a).
    + intros a. apply (A a).
    + intros t Ht. apply (A (sender t)); auto.
    + intros t Ht. apply (A (sender t)); auto.
Qed.

Lemma struct_drop_queue p g : Struct [] p -> Struct [] (drop_queue p g).
Proof.
  intros S. constructor; unfold drop_queue; cbn [p_chain p_pending p_nonces p_queue p_all set_all set_queue].
  - apply (s_kp _ p S).
  - apply NoDup_map_filter. apply (s_kq _ p S).
  - intros t. rewrite unindex_list_In, (s_idx _ p S), !filter_In; [|apply (s_ids _ p S)|].
    + pose proof (s_dpq _ p S t). destruct (g t); cbn [In negb]; intuition congruence.
    + intros x Hx. apply filter_In in Hx. apply (s_idx _ p S). tauto.
  - apply all_remove_list_ids. apply (s_ids _ p S).
  - intros t H1 H2. apply filter_In in H2. eapply (s_dpq _ p S); eauto. tauto.
  - intros t [].
Qed.

Lemma promote_tx_fresh p a r :
  (forall x, In x (p_pending p) -> key x <> key r) ->
  fst (promote_tx p a r) = pn_set (set_pending p (l_put (p_pending p) r)) a (t_nonce r + 1).
Proof.
  intros Hf. unfold promote_tx. rewrite l_add_free; [reflexivity|].
  destruct (l_get (p_pending p) (sender r) (t_nonce r)) eqn:E; [|reflexivity].
  apply l_get_some in E. destruct E as [Hin Hk]. exfalso. apply (Hf t Hin). exact Hk.
Qed.

Lemma promote_list_spec R : forall p a,
  Struct R p ->
  NoDup (map key R) ->
  (forall r, In r R -> sender r = a /\ forall x, In x (p_pending p) -> key x <> key r) ->
  let p' := promote_list p a R in
  Struct [] p' /\ p_chain p' = p_chain p /\ p_queue p' = p_queue p /\ p_cfg p' = p_cfg p /\ p_locals p' = p_locals p /\
  (forall x, In x (p_pending p') <-> In x (p_pending p) \/ In x R) /\
  (forall b, a <> b -> pn_get p' b = pn_get p b) /\
  pn_get p' a = match rev R with [] => pn_get p a | r :: _ => t_nonce r + 1 end.
Proof.
  induction R as [|r R IH]; intros p a S Hd Hr; cbn zeta.
  - unfold promote_list. cbn [fold_left rev In]. split; [exact S|]. repeat split; auto; tauto.
  - unfold promote_list. cbn [fold_left]. fold (promote_list (fst (promote_tx p a r)) a R).
    destruct (Hr r (or_introl eq_refl)) as [Hs Hfree].
    rewrite promote_tx_fresh by auto.
    set (p1 := pn_set (set_pending p (l_put (p_pending p) r)) a (t_nonce r + 1)).
    cbn [map] in Hd. apply NoDup_cons_iff in Hd. destruct Hd as [Hn Hd'].
    assert (Hp1 : forall x, In x (p_pending p1) <-> x = r \/ In x (p_pending p)).
    { intros x. unfold p1. cbn [p_pending pn_set set_nonces set_pending]. rewrite l_put_In. split.
      - intros [->|[Hx _]]; auto.
      - intros [->|Hx]; auto. }
    assert (S1 : Struct R p1).
    { constructor.
      - unfold p1; cbn [p_pending p_queue p_all pn_set set_nonces set_pending]. apply l_put_nodup. apply (s_kp _ p S).
      - apply (s_kq _ p S).
      - intros x. rewrite Hp1. unfold p1; cbn [p_queue p_all pn_set set_nonces set_pending].
        rewrite (s_idx _ p S). cbn [In]. intuition.
      - apply (s_ids _ p S).
      - intros x Hx Hq. apply Hp1 in Hx. destruct Hx as [->|Hx].
        + destruct (s_dout _ p S r) as [_ Hnq]; [cbn; auto|]. contradiction.
        + eapply (s_dpq _ p S); eauto.
      - intros x Hx. destruct (s_dout _ p S x) as [Hnp Hnq]; [cbn; auto|]. split; auto.
        rewrite Hp1. intros [->|Hc]; auto. apply Hn. apply in_map. auto. }
    destruct (IH p1 a S1 Hd') as [T [C1 [C2 [C3 [C4 [C5 [C6 C7]]]]]]].
    { intros r' Hr'. destruct (Hr r' (or_intror Hr')) as [Hs' Hf']. split; auto.
      intros x Hx. apply Hp1 in Hx. destruct Hx as [->|Hx]; auto.
      intros Hk. apply Hn. rewrite Hk. apply in_map. auto. }
    split; [exact T|]. repeat split; try (rewrite ?C1, ?C2, ?C3, ?C4; reflexivity).
    + intros Hx. apply C5 in Hx. rewrite Hp1 in Hx. cbn [In]. intuition.
    + intros Hx. apply C5. rewrite Hp1. cbn [In] in Hx. intuition.
    + intros b Hb. rewrite C6 by auto. unfold p1. rewrite pn_get_set_neq by auto. reflexivity.
    + rewrite C7. cbn [rev]. destruct (rev R) as [|z zs] eqn:Er; cbn [app].
      * unfold p1. apply pn_get_set_eq.
      * reflexivity.
Qed.

Lemma Struct_ext out p p' :
  p_pending p' = p_pending p -> p_queue p' = p_queue p -> map fst (p_all p') = map fst (p_all p) ->
  Struct out p -> Struct out p'.
Proof.
  intros H1 H2 H3 S. destruct S as [a b c d e f]. constructor; rewrite ?H1, ?H2, ?H3; auto.
Qed.

Lemma promote_ready_spec p a :
  Struct [] p ->
  (forall x y, In x (p_pending p) -> In y (p_queue p) -> sender x = a -> sender y = a -> t_nonce x < t_nonce y) ->
  let R := l_ready (p_queue p) a (pn_get p a) in
  let p' := promote_ready p a in
  Struct [] p' /\ p_chain p' = p_chain p /\
  (forall x, In x (p_pending p') <-> In x (p_pending p) \/ In x R) /\
  (forall x, In x (p_queue p') <-> In x (p_queue p) /\ ~ In x R) /\
  (forall b, a <> b -> pn_get p' b = pn_get p b) /\
  pn_get p' a = match rev R with [] => pn_get p a | r :: _ => t_nonce r + 1 end.
Proof.
  intros S Hsep. cbn zeta. unfold promote_ready. cbv zeta.
  destruct (l_ready_spec (p_queue p) a (pn_get p a)) as [HR1 [_ [HR3 _]]]. cbn zeta in HR1, HR3.
  set (R := l_ready (p_queue p) a (pn_get p a)) in *.
  (* an entry with the id of a ready one is that entry *)
  assert (Hq : forall x, In x (minus_ids (p_queue p) R) <-> In x (p_queue p) /\ ~ In x R).
  { intros x. rewrite minus_ids_In. split; intros [H1 H2]; (split; [exact H1|]); intros Hin.
    - apply H2. apply in_map. exact Hin.
    - apply in_map_iff in Hin. destruct Hin as [r [Hid Hr]].
      assert (r = x); [|subst; auto].
      eapply (ids_inj _ (s_ids _ p S)); auto; apply (s_idx _ p S); right; left; auto. apply HR1. exact Hr. }
  assert (S' : Struct R (set_queue p (minus_ids (p_queue p) R))).
  { constructor; cbn [p_pending p_queue p_all set_queue].
    - apply (s_kp _ p S).
    - unfold minus_ids. apply NoDup_map_filter. apply (s_kq _ p S).
    - intros x. rewrite (s_idx _ p S), minus_ids_In. cbn [In]. split.
      + intros [H|[H|[]]]; auto.
        destruct (in_dec N.eq_dec (t_id x) (map t_id R)) as [Hin|Hnin]; [|auto].
        right. right. apply in_map_iff in Hin. destruct Hin as [r [Hid Hr]].
        assert (r = x); [|subst; auto].
        eapply (ids_inj _ (s_ids _ p S)); auto; apply (s_idx _ p S); auto. right. left. apply HR1. exact Hr.
      + intros [H|[[H _]|H]]; auto. right. left. apply HR1. exact H.
    - apply (s_ids _ p S).
    - intros x Hp Hx. apply Hq in Hx. eapply (s_dpq _ p S); eauto. tauto.
    - intros x Hx. split.
      + intros Hp. eapply (s_dpq _ p S); eauto. apply HR1. exact Hx.
      + intros Hx'. apply Hq in Hx'. tauto. }
  destruct (promote_list_spec R _ a S' HR3) as [S3 [C1 [C2 [_ [_ [C5 [C6 C7]]]]]]].
  { intros r Hr. destruct (HR1 r Hr) as [Hrq [Hs _]]. split; [exact Hs|].
    intros x Hx Hk. unfold key in Hk. injection Hk as Hks Hkn.
    assert (t_nonce x < t_nonce r) by (apply Hsep; auto; congruence). lia. }
  cbn zeta in *.
  split; [exact S3|]. split; [exact C1|]. split; [exact C5|]. split; [|split; [exact C6|exact C7]].
  intros x. rewrite C2. apply Hq.
Qed.

Lemma cap_queue_spec p a :
  Struct [] p ->
  let p' := cap_queue p a in
  Struct [] p' /\ p_chain p' = p_chain p /\ p_pending p' = p_pending p /\ p_nonces p' = p_nonces p /\
  (forall x, In x (p_queue p') -> In x (p_queue p)) /\
  (forall x, In x (p_queue p) -> sender x <> a -> In x (p_queue p')).
Proof.
  intros S. cbn zeta. unfold cap_queue. destruct (memN a (p_locals p)).
  { split; [exact S|]. repeat split; auto. }
  unfold l_cap. destruct (_ <=? _).
  - split; [eapply Struct_ext; [| | |exact S]; reflexivity|]. repeat split; auto.
  - split; [apply struct_drop_queue; exact S|]. cbn [p_chain p_pending p_nonces p_queue set_all set_queue].
    repeat split; auto.
    + intros x Hx. apply filter_In in Hx. tauto.
    + intros x Hx Hs. apply filter_In. split; auto. apply negb_true_iff. apply andb_false_iff. left.
      apply is_acct_false_iff. exact Hs.
Qed.

(* what being outside the first two phases' filters means for an entry of the account *)
Lemma stale_false p a x : sender x = a -> stale p a x = false -> st_nonce (p_chain p) a <= t_nonce x.
Proof.
  intros Hs H. unfold stale in H. apply andb_false_iff in H. destruct H as [H|H].
  - apply is_acct_false_iff in H. contradiction.
  - apply Z.ltb_ge in H. exact H.
Qed.

Lemma unpayable_false p a x : sender x = a -> unpayable p a x = false -> affordable p x.
Proof.
  intros Hs H. unfold unpayable in H. apply andb_false_iff in H. destruct H as [H|H].
  - apply is_acct_false_iff in H. contradiction.
  - apply orb_false_iff in H. destruct H as [H1 H2]. apply Z.ltb_ge in H1, H2. unfold affordable. rewrite Hs. auto.
Qed.

Lemma other_account_kept p a x : sender x <> a -> stale p a x = false /\ unpayable p a x = false.
Proof.
  intros Hs. apply is_acct_false_iff in Hs. unfold stale, unpayable. rewrite Hs. auto.
Qed.

(* [R] is the run that moves to pending, [lo] its lowest nonce *)
Lemma promote_account_spec p a :
  Struct [] p ->
  (forall x y, In x (p_pending p) -> In y (p_queue p) -> sender x = a -> sender y = a ->
               st_nonce (p_chain p) a <= t_nonce y -> t_nonce x < t_nonce y) ->
  let p' := promote_account p a in
  Struct [] p' /\ p_chain p' = p_chain p /\
  exists R lo,
    (forall x, In x (p_pending p') <-> In x (p_pending p) \/ In x R) /\
    (forall x, In x R -> In x (p_queue p) /\ sender x = a /\ affordable p x /\ lo <= t_nonce x < lo + Z.of_nat (length R)) /\
    (forall n, lo <= n < lo + Z.of_nat (length R) -> exists x, In x R /\ t_nonce x = n) /\
    (R <> [] -> st_nonce (p_chain p) a <= lo <= pn_get p a) /\
    (forall x, In x (p_queue p') -> In x (p_queue p) /\ ~ In x R /\
         (sender x = a -> st_nonce (p_chain p) a <= t_nonce x /\ (R <> [] -> lo + Z.of_nat (length R) <= t_nonce x))) /\
    (forall x, In x (p_queue p) -> sender x <> a -> In x (p_queue p')) /\
    (forall b, a <> b -> pn_get p' b = pn_get p b) /\
    pn_get p' a = (match R with [] => pn_get p a | _ => lo + Z.of_nat (length R) end).
Proof.
  intros S Hsep. cbn zeta.
  destruct (of_acct a (p_queue p)) as [|z zs] eqn:Eacct.
  { rewrite promote_account_idle by exact Eacct.
    split; [exact S|]. split; [reflexivity|]. exists [], 0. cbn [In length].
    pose proof (of_acct_nil _ _ Eacct) as Hno.
    repeat split; auto; try tauto; try lia; try (intros; exfalso; eapply Hno; eauto; fail). }
  destruct (promote_account_phases p a) as [h [s ->]]; [congruence|]. clear z zs Eacct.
  set (p1 := drop_queue p (stale p a)). set (p2 := drop_queue p1 (unpayable p a)).
  assert (S2 : Struct [] p2) by (apply struct_drop_queue, struct_drop_queue, S).
  assert (Hq2 : forall x, In x (p_queue p2) <-> In x (p_queue p) /\ stale p a x = false /\ unpayable p a x = false).
  { intros x. unfold p2, p1, drop_queue. cbn [p_queue set_all set_queue]. rewrite !filter_In, !negb_true_iff. tauto. }
  set (R := l_ready (p_queue p2) a (pn_get p2 a)).
  set (lo := min_nonce (of_acct a (p_queue p2))).
  destruct (l_ready_spec (p_queue p2) a (pn_get p2 a)) as [HR1 [HR2 [_ [HR4 HR5]]]]. cbn zeta in *.
  fold R in HR1, HR2, HR4, HR5. fold lo in HR1, HR2, HR4, HR5.
  destruct (promote_ready_spec p2 a S2) as [S3 [C1 [C5 [C2 [C6 C7]]]]].
  { intros x y Hx Hy Hsx Hsy. apply Hq2 in Hy. destruct Hy as [Hy [Hst _]].
    apply Hsep; auto. apply (stale_false p a); auto. }
  cbn zeta in *. fold R in C5, C2, C7. set (p3 := promote_ready p2 a) in *.
  destruct (cap_queue_spec p3 a S3) as [S4 [D1 [D2 [D3 [D4 D5]]]]]. cbn zeta in *. set (p4 := cap_queue p3 a) in *.
  assert (Hpn : forall b, pn_get (set_heap p4 h s) b = pn_get p3 b).
  { intros b. apply pn_get_ext; [exact D1|exact D3]. }
  split; [eapply Struct_ext; [| | |exact S4]; reflexivity|].
  split; [cbn [p_chain set_heap]; rewrite D1, C1; reflexivity|].
  exists R, lo.
  assert (Hne : R <> [] -> st_nonce (p_chain p) a <= lo).
  { intros Hne. destruct (HR2 lo) as [x [Hx Hn]].
    { destruct R; [congruence|]. cbn [length]. lia. }
    destruct (HR1 x Hx) as [Hq [Hs _]]. apply Hq2 in Hq. destruct Hq as [_ [Hst _]].
    rewrite <- Hn. apply (stale_false p a); auto. }
  cbn [p_pending p_queue set_heap].
  split; [|split; [|split; [|split; [|split; [|split; [|split]]]]]].
  - intros x. rewrite D2, C5. reflexivity.
  - intros x Hx. destruct (HR1 x Hx) as [Hq [Hs Hn]]. apply Hq2 in Hq. destruct Hq as [Hq [_ Hbad]].
    split; [exact Hq|]. split; [exact Hs|]. split; [apply (unpayable_false p a); auto|exact Hn].
  - exact HR2.
  - intros Hn. split; auto.
  - intros x Hx. apply D4, C2 in Hx. destruct Hx as [Hx2 HnR].
    pose proof Hx2 as Hx2'. apply Hq2 in Hx2. destruct Hx2 as [Hq [Hst _]].
    split; [exact Hq|]. split; [exact HnR|]. intros Hs. split; [apply (stale_false p a); auto|].
    intros HRne.
    assert (Hlo : lo <= t_nonce x).
    { unfold lo. apply min_nonce_le. apply filter_In. split; auto. apply is_acct_true. auto. }
    destruct (Z_lt_ge_dec (t_nonce x) (lo + Z.of_nat (length R))) as [Hlt|Hge]; [|lia].
    exfalso. destruct (HR2 (t_nonce x)) as [r [Hr Hrn]]; [lia|].
    destruct (HR1 r Hr) as [Hrq [Hrs _]].
    apply HnR. assert (r = x); [|subst; auto].
    eapply NoDup_map_inj; [apply (s_kq _ p2 S2)| | |]; eauto. unfold key. congruence.
  - intros x Hx Hs. apply D5; auto. apply C2. split.
    + apply Hq2. split; [exact Hx|]. apply other_account_kept. exact Hs.
    + intros Hr. destruct (HR1 x Hr) as [_ [Hs' _]]. contradiction.
  - intros b Hb. rewrite Hpn, C6 by auto. reflexivity.
  - rewrite Hpn, C7. destruct R as [|r0 R0] eqn:ER.
    + cbn [rev]. reflexivity.
    + rewrite <- ER in *. destruct (rev R) as [|z zs] eqn:Er.
      * exfalso. apply rev_nil in Er. congruence.
      * rewrite HR5. lia.
Qed.
