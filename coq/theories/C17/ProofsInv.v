(** C17 — the pool invariant and its preservation by the primitive operations. *)
From Coq Require Import List ZArith NArith Bool Lia.
From Kardia Require Import C17.Model C17.ProofsBasic C17.ProofsFrame.
Import ListNotations.
Local Open Scope Z_scope.

(** The invariant.  [inv_run] says: for every account the pending nonces are exactly the interval
    [state nonce, pending nonce) — gap-free, starting at the state nonce, ending at the virtual
    nonce the pool hands out.  [inv_q]: queued nonces lie at or beyond that end (so pending and
    queue are disjoint and nothing is below the state nonce).  [inv_idx]/[inv_ids]: the index is
    the disjoint union of the two lists.  [inv_aff]: every pending tx is individually affordable
    and fits the block gas limit. *)
Record InvO (out : list tx) (p : pool) : Prop := mkInv {
  inv_kp : NoDup (map key (p_pending p));
  inv_kq : NoDup (map key (p_queue p));
  inv_idx : forall t, In t (map fst (p_all p)) <-> In t (p_pending p) \/ In t (p_queue p) \/ In t out;
  inv_ids : NoDup (map t_id (map fst (p_all p)));
  inv_run : forall a n, (exists t, In t (p_pending p) /\ sender t = a /\ t_nonce t = n) <->
                        st_nonce (p_chain p) a <= n < pn_get p a;
  inv_pn : forall a, st_nonce (p_chain p) a <= pn_get p a;
  inv_q : forall t, In t (p_queue p) -> pn_get p (sender t) <= t_nonce t;
  inv_aff : forall t, In t (p_pending p) ->
                      cost t <= st_balance (p_chain p) (sender t) /\ t_gas t <= ch_gaslimit (p_chain p)
}.
(** [out]: transactions that an operation has taken out of a list and not yet put back or
    un-indexed (empty between operations).  Every lemma here instantiates it with [[]]; the one
    non-empty use is for [Struct] in [promote_list_spec] (the ready run on its way to pending). *)
Definition Inv (p : pool) : Prop := InvO [] p.

(** Inv reads only these fields. *)
Definition core (p : pool) := (p_chain p, p_pending p, p_queue p, map fst (p_all p), p_nonces p).

Lemma pn_get_ext p p' x : p_chain p' = p_chain p -> p_nonces p' = p_nonces p -> pn_get p' x = pn_get p x.
Proof. intros Hc Hn. unfold pn_get. rewrite Hc, Hn. reflexivity. Qed.

Lemma Inv_core out p p' : core p' = core p -> InvO out p -> InvO out p'.
Proof.
  unfold core. intros H I. symmetry in H. inversion H as [[H1 H2 H3 H4 H5]].
  destruct I as [a b c d e f g h].
  assert (Hpn : forall x, pn_get p' x = pn_get p x) by (intros x; apply pn_get_ext; auto).
  constructor; try rewrite <- H2; try rewrite <- H3; try rewrite <- H4; try rewrite <- H1; auto.
  - intros x n. rewrite Hpn. apply e.
  - intros x. rewrite Hpn. apply f.
  - intros t Ht. rewrite Hpn. apply g; auto.
Qed.

Lemma heap_only_core p p' : heap_only p p' -> core p' = core p.
Proof. intros [h [s ->]]. reflexivity. Qed.
Lemma core_priced_removed p c : core (priced_removed p c) = core p.
Proof. apply heap_only_core, heap_only_removed. Qed.
Lemma core_priced_put p t l : core (priced_put p t l) = core p.
Proof. apply heap_only_core, heap_only_put. Qed.
Lemma core_journal_tx p a t : core (journal_tx p a t) = core p.
Proof. unfold journal_tx. destruct (p_journal p); [destruct (memN _ _)|]; reflexivity. Qed.
Lemma core_set_changes p v : core (set_changes p v) = core p.
Proof. reflexivity. Qed.

Lemma inv_disjoint out p : InvO out p -> forall t t', In t (p_pending p) -> In t' (p_queue p) -> key t <> key t'.
Proof.
  intros I t t' Hp Hq Hk. unfold key in Hk. inversion Hk as [[Hs Hn]].
  pose proof (inv_q _ p I t' Hq) as Hge.
  assert (st_nonce (p_chain p) (sender t') <= t_nonce t' < pn_get p (sender t')) as Hr.
  { apply (inv_run _ p I). exists t. auto. }
  lia.
Qed.

Lemma inv_apart out p : InvO out p -> forall t, In t (p_pending p) -> In t (p_queue p) -> False.
Proof. intros I t Hp Hq. eapply inv_disjoint; eauto. Qed.

Lemma inv_queue_not_pending out p : InvO out p -> forall t, In t (p_queue p) -> l_get (p_pending p) (sender t) (t_nonce t) = None.
Proof.
  intros I t Hq. destruct (l_get (p_pending p) (sender t) (t_nonce t)) eqn:E; auto.
  apply l_get_some in E. destruct E as [Hin Hk]. exfalso. eapply inv_disjoint; eauto.
Qed.

Lemma all_get_some al id t : all_get al id = Some t -> In t (map fst al) /\ t_id t = id.
Proof.
  unfold all_get. destruct (find (id_is id) al) as [e|] eqn:E; cbn [option_map]; [|discriminate].
  intros H. inversion H; subst. apply find_some in E. destruct E as [Hin Hid].
  unfold id_is in Hid. apply N.eqb_eq in Hid. split; auto. apply in_map. auto.
Qed.

Lemma all_get_none al id : all_get al id = None -> forall t, In t (map fst al) -> t_id t <> id.
Proof.
  unfold all_get. destruct (find (id_is id) al) as [e|] eqn:E; cbn [option_map]; [discriminate|].
  intros _ t Hin Hid. apply in_map_iff in Hin. destruct Hin as [e [He Hin]].
  pose proof (find_none _ _ E e Hin) as Hf. unfold id_is in Hf. rewrite He, Hid, N.eqb_refl in Hf. discriminate.
Qed.

(* what is said of the flagged entries holds of the transactions *)
Lemma map_fst_sub (al al' : list (tx * bool)) (P : tx -> Prop) :
  (forall e, In e al' <-> In e al /\ P (fst e)) -> forall t, In t (map fst al') <-> In t (map fst al) /\ P t.
Proof.
  intros H t. rewrite !in_map_iff. split.
  - intros [e [He Hin]]. apply H in Hin. destruct Hin as [Hin Hp]. subst. split; [exists e; auto|exact Hp].
  - intros [[e [He Hin]] Hp]. exists e. split; auto. apply H. subst. auto.
Qed.

Lemma all_remove_In al id t : In t (map fst (all_remove al id)) <-> In t (map fst al) /\ t_id t <> id.
Proof. apply (map_fst_sub al _ (fun t => t_id t <> id)). intros e. apply all_remove_entry. Qed.

Lemma all_remove_ids al id : NoDup (map t_id (map fst al)) -> NoDup (map t_id (map fst (all_remove al id))).
Proof.
  rewrite !map_map. unfold all_remove. apply NoDup_map_filter.
Qed.

Lemma all_add_In al t b x : In x (map fst (all_add al t b)) <-> In x (map fst al) \/ x = t.
Proof.
  unfold all_add. rewrite map_app, in_app_iff. cbn. intuition.
Qed.

Lemma all_add_ids al t b : NoDup (map t_id (map fst al)) -> (forall x, In x (map fst al) -> t_id x <> t_id t) ->
  NoDup (map t_id (map fst (all_add al t b))).
Proof.
  intros Hd Hf. unfold all_add. rewrite !map_app. cbn [map fst].
  induction (map fst al) as [|x l IH]; cbn [map app].
  - constructor; [intros []|constructor].
  - inversion Hd; subst. constructor.
    + rewrite in_app_iff. cbn. intros [H|[H|[]]]; auto. apply (Hf x); cbn; auto.
    + apply IH; auto. intros y Hy. apply Hf. cbn. auto.
Qed.

Lemma all_remove_list_In l al t :
  In t (map fst (all_remove_list al l)) <-> In t (map fst al) /\ ~ In (t_id t) (map t_id l).
Proof. apply (map_fst_sub al _ (fun t => ~ In (t_id t) (map t_id l))). intros e. apply all_remove_list_entry. Qed.

Lemma all_remove_list_ids l al : NoDup (map t_id (map fst al)) -> NoDup (map t_id (map fst (all_remove_list al l))).
Proof.
  unfold all_remove_list. revert al. induction l as [|x l IH]; intros al H; cbn [fold_left]; auto.
  apply IH. apply all_remove_ids. auto.
Qed.

(* ids being distinct, un-indexing indexed transactions by id removes exactly them *)
Lemma unindex_In al o t : NoDup (map t_id (map fst al)) -> In o (map fst al) ->
  (In t (map fst (all_remove al (t_id o))) <-> In t (map fst al) /\ t <> o).
Proof.
  intros Hd Ho. rewrite all_remove_In. split; intros [H1 H2]; split; auto.
  - intros ->. apply H2. reflexivity.
  - intros He. apply H2. eapply NoDup_map_inj; eauto.
Qed.

Lemma unindex_list_In al l t : NoDup (map t_id (map fst al)) -> (forall x, In x l -> In x (map fst al)) ->
  (In t (map fst (all_remove_list al l)) <-> In t (map fst al) /\ ~ In t l).
Proof.
  intros Hd Hl. rewrite all_remove_list_In. split; intros [H1 H2]; split; auto.
  - intros Hin. apply H2. apply in_map. exact Hin.
  - intros Hin. apply in_map_iff in Hin. destruct Hin as [x [Hid Hx]].
    assert (x = t) by (eapply NoDup_map_inj; eauto). subst. auto.
Qed.

Lemma ids_inj (al : list (tx * bool)) : NoDup (map t_id (map fst al)) ->
  forall t t', In t (map fst al) -> In t' (map fst al) -> t_id t = t_id t' -> t = t'.
Proof. intros Hd t t' H1 H2 H3. eapply NoDup_map_inj; eauto. Qed.

Lemma lookupZ_filter_neq m a b : a <> b -> lookupZ (filter (fun kv => negb (N.eqb (fst kv) a)) m) b = lookupZ m b.
Proof.
  intros Hne. induction m as [|[k v] m IH]; cbn [filter lookupZ fst]; auto.
  destruct (N.eqb k a) eqn:E; cbn [negb].
  - apply N.eqb_eq in E. subst. destruct (N.eqb a b) eqn:E2; [apply N.eqb_eq in E2; contradiction|]. auto.
  - cbn [lookupZ]. rewrite IH. reflexivity.
Qed.

Lemma pn_get_set_eq p a v : pn_get (pn_set p a v) a = v.
Proof. unfold pn_get, pn_set. cbn. rewrite N.eqb_refl. reflexivity. Qed.

Lemma pn_get_set_neq p a v b : a <> b -> pn_get (pn_set p a v) b = pn_get p b.
Proof.
  intros Hne. unfold pn_get, pn_set. cbn.
  destruct (N.eqb a b) eqn:E; [apply N.eqb_eq in E; contradiction|].
  rewrite lookupZ_filter_neq; auto.
Qed.

(** The cut lemma: cutting account [a]'s pending run at nonce [m] (everything at or above [m]
    leaves pending; some of it is dropped for good, the rest goes back to the queue) and setting
    the pending nonce to [m] preserves the invariant. *)
Lemma inv_cut out out' p p' a m :
  InvO out p ->
  st_nonce (p_chain p) a <= m <= pn_get p a ->
  p_chain p' = p_chain p ->
  (forall b, pn_get p' b = if N.eqb a b then m else pn_get p b) ->
  (forall t, In t (p_pending p') <-> In t (p_pending p) /\ ~ (sender t = a /\ m <= t_nonce t)) ->
  NoDup (map key (p_pending p')) -> NoDup (map key (p_queue p')) ->
  (forall t, In t (p_queue p') -> In t (p_queue p) \/ (In t (p_pending p) /\ sender t = a /\ m <= t_nonce t)) ->
  (forall t, In t (map fst (p_all p')) <-> In t (p_pending p') \/ In t (p_queue p') \/ In t out') ->
  NoDup (map t_id (map fst (p_all p'))) ->
  InvO out' p'.
Proof.
  intros I Hm Hch Hpn Hpend Hkp Hkq Hq Hidx Hids.
  constructor; auto; rewrite ?Hch.
  - intros b n. rewrite Hpn. split.
    + intros [t [Hin [Hs Hn]]]. apply Hpend in Hin. destruct Hin as [Hin Hnot].
      assert (Hr : st_nonce (p_chain p) b <= n < pn_get p b) by (apply (inv_run _ p I); eauto).
      destruct (N.eqb a b) eqn:E; auto. apply N.eqb_eq in E. subst b.
      split; [lia|]. destruct (Z_lt_ge_dec n m); auto. exfalso. apply Hnot. split; auto. lia.
    + intros Hr.
      assert (Hr' : st_nonce (p_chain p) b <= n < pn_get p b).
      { destruct (N.eqb a b) eqn:E; auto. apply N.eqb_eq in E. subst b. lia. }
      apply (inv_run _ p I) in Hr'. destruct Hr' as [t [Hin [Hs Hn]]].
      exists t. split; auto. apply Hpend. split; auto. intros [Hs' Hge].
      subst. rewrite N.eqb_refl in Hr. lia.
  - intros b. rewrite Hpn. destruct (N.eqb a b) eqn:E.
    + apply N.eqb_eq in E. subst. lia.
    + apply (inv_pn _ p I).
  - intros t Hin. rewrite Hpn. apply Hq in Hin. destruct Hin as [Hin|[Hin [Hs Hge]]].
    + pose proof (inv_q _ p I t Hin). destruct (N.eqb a (sender t)) eqn:E; auto.
      apply N.eqb_eq in E. rewrite <- E in *. lia.
    + subst a. rewrite N.eqb_refl. auto.
  - intros t Hin. apply Hpend in Hin. apply (inv_aff _ p I). tauto.
Qed.
