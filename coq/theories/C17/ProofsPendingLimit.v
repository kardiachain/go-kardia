(** C17 — the post-condition of truncatePending: afterwards the pool is within GlobalSlots unless
    every non-local account is within AccountSlots. *)
From Coq Require Import List ZArith NArith Bool Lia Sorted.
From Kardia Require Import Generated.C17Facts C17.Model C17.ProofsBasic C17.ProofsFrame C17.ProofsInv C17.ProofsReorg C17.ProofsStep C17.ProofsReset.
Import ListNotations.
Local Open Scope Z_scope.

Definition plen (q : pool) (a : N) : Z := l_len (p_pending q) a.
Definition ptotal (q : pool) : Z := Z.of_nat (length (p_pending q)).

Lemma cap_one_pending q a : p_pending (cap_one q a) = snd (l_cap (p_pending q) a (l_len (p_pending q) a - 1)).
Proof.
  rewrite cap_one_eq. destruct (l_cap (p_pending q) a (l_len (p_pending q) a - 1)) as [caps pd]. cbn [snd].
  rewrite (heap_only_pending _ _ (heap_only_removed _ _)). apply lower_all_spec.
Qed.

Lemma cap_one_effect q a :
  Inv q -> 1 <= plen q a ->
  Inv (cap_one q a) /\ ptotal (cap_one q a) = ptotal q - 1 /\ plen (cap_one q a) a = plen q a - 1 /\
  (forall b, b <> a -> plen (cap_one q a) b = plen q b) /\
  p_locals (cap_one q a) = p_locals q /\ p_cfg (cap_one q a) = p_cfg q.
Proof.
  intros I Hlen. destruct (frame_cap_one q a) as [_ [Hc [Hl _]]].
  destruct (l_cap_top (p_pending q) a (inv_kp _ q I) Hlen) as [T1 [T2 T3]]. cbn zeta in *.
  split; [apply inv_cap_one; exact I|]. unfold ptotal, plen. rewrite cap_one_pending. auto.
Qed.

Lemma cap_each_effect offs : forall q n,
  Inv q -> NoDup offs -> (forall a, In a offs -> 1 <= plen q a) ->
  let q' := fst (cap_each q n offs) in
  Inv q' /\ snd (cap_each q n offs) = n - Z.of_nat (length offs) /\ ptotal q' = ptotal q - Z.of_nat (length offs) /\
  (forall a, In a offs -> plen q' a = plen q a - 1) /\ (forall b, ~ In b offs -> plen q' b = plen q b) /\
  p_locals q' = p_locals q /\ p_cfg q' = p_cfg q.
Proof.
  unfold cap_each. induction offs as [|a r IH]; intros q n I Hd Hge; cbn zeta; cbn [fold_left fst snd length].
  - split; [exact I|]. split; [lia|]. split; [lia|]. split; [intros a []|]. split; [auto|]. split; reflexivity.
  - apply NoDup_cons_iff in Hd. destruct Hd as [Hna Hd].
    destruct (cap_one_effect q a I (Hge a (or_introl eq_refl))) as [I1 [E1 [E2 [E3 [E4 E5]]]]].
    destruct (IH (cap_one q a) (n - 1) I1 Hd) as [I2 [F1 [F2 [F3 [F4 [F5 F6]]]]]].
    { intros b Hb. rewrite E3; [apply Hge; cbn; auto|]. intros ->. contradiction. }
    cbn zeta in *. split; [exact I2|]. split; [rewrite F1; lia|]. split; [rewrite F2, E1; lia|].
    split; [|split; [|split; congruence]].
    + intros b [<-|Hb].
      * rewrite F4 by exact Hna. exact E2.
      * rewrite F3 by exact Hb. rewrite E3; [reflexivity|]. intros ->. contradiction.
    + intros b Hb. rewrite F4 by (intros H; apply Hb; cbn; auto). apply E3. intros ->. apply Hb. cbn. auto.
Qed.

Definition EqLen (q : pool) (offs : list N) (L : Z) : Prop := forall a, In a offs -> plen q a = L.

(* All offenders have one common length [L] ([EqLen]); a round of [cap_each] lowers it by one.  With
   [L <= th + fuel] the loop stops by its guard, not for lack of fuel (fuel = S (length pending)
   exceeds every list length, [plen_le_total]).  The last disjunct of the conclusion says which half of
   the guard ended it: the total is within GlobalSlots, or the common length has reached [th]. *)
Lemma equalize_spec offs lp th : NoDup offs -> In lp offs -> 0 <= th ->
  forall fuel q n L,
  Inv q -> n = ptotal q -> EqLen q offs L -> L <= th + Z.of_nat fuel ->
  let r := equalize fuel q n offs lp th in
  Inv (fst r) /\ snd r = ptotal (fst r) /\
  (exists L', EqLen (fst r) offs L' /\ L' <= L /\ (th <= L -> th <= L') /\ (snd r <= c_gslots (p_cfg q) \/ L' <= th)) /\
  (forall b, ~ In b offs -> plen (fst r) b = plen q b) /\ ptotal (fst r) <= ptotal q /\
  p_locals (fst r) = p_locals q /\ p_cfg (fst r) = p_cfg q.
Proof.
  intros Hd Hlp Hth. induction fuel as [|f IH]; intros q n L I Hn HE Hfuel; cbn zeta.
  - cbn [equalize fst snd]. split; [exact I|]. split; [exact Hn|]. split.
    + exists L. split; [exact HE|]. split; [lia|]. split; [auto|]. right. lia.
    + repeat split; auto; lia.
  - cbn [equalize]. fold (plen q lp). rewrite (HE lp Hlp).
    destruct ((c_gslots (p_cfg q) <? n) && (th <? L)) eqn:G.
    + apply andb_true_iff in G. destruct G as [G1 G2]. apply Z.ltb_lt in G1, G2.
      destruct (cap_each_effect offs q n I Hd) as [I1 [E1 [E2 [E3 [E4 [E5 E6]]]]]].
      { intros a Ha. rewrite (HE a Ha). lia. }
      cbn zeta in *. destruct (cap_each q n offs) as [q1 n1] eqn:Ec. cbn [fst snd] in *.
      destruct (IH q1 n1 (L - 1) I1) as [J1 [J2 [[L' [K1 [K2 [K3 K4]]]] [J4 [J5 [J6 J7]]]]]].
      { lia. }
      { intros a Ha. rewrite E3 by exact Ha. rewrite (HE a Ha). reflexivity. }
      { lia. }
      cbn zeta in *. split; [exact J1|]. split; [exact J2|]. split.
      * exists L'. split; [exact K1|]. split; [lia|]. split; [intros; apply K3; lia|]. rewrite <- E6. exact K4.
      * split; [intros b Hb; rewrite J4 by exact Hb; apply E4; exact Hb|]. split; [lia|]. split; congruence.
    + cbn [fst snd]. split; [exact I|]. split; [exact Hn|]. split.
      * exists L. split; [exact HE|]. split; [lia|]. split; [auto|].
        apply andb_false_iff in G. destruct G as [G|G]; [left; apply Z.ltb_ge in G; lia|right; apply Z.ltb_ge in G; lia].
      * repeat split; auto; lia.
Qed.

Lemma reduce_all_eq offs last : forall fuel q n,
  reduce_all fuel q n offs last = equalize fuel q n offs last (c_aslots (p_cfg q)).
Proof.
  induction fuel as [|f IH]; intros q n; cbn [reduce_all equalize]; auto.
  destruct (_ && _); auto.
  destruct (frame_cap_each offs q n) as [_ [Hc _]]. destruct (cap_each q n offs) as [q1 n1]. cbn [fst] in Hc.
  rewrite IH, Hc. reflexivity.
Qed.

Definition Rdesc (u v : N * Z) : Prop := snd v <= snd u.

Lemma insert_spammer_In o x l z : In z (insert_spammer o x l) <-> z = x \/ In z l.
Proof.
  induction l as [|y r IH]; cbn [insert_spammer In]; [intuition|].
  destruct (_ || _); cbn [In]; [intuition|]. rewrite IH. intuition.
Qed.

Lemma insert_spammer_sorted o x l : StronglySorted Rdesc l -> StronglySorted Rdesc (insert_spammer o x l).
Proof.
  induction l as [|y r IH]; intros Hs; cbn [insert_spammer].
  - constructor; constructor.
  - inversion Hs as [|? ? Hr Hy]; subst.
    destruct ((snd y <? snd x) || ((snd y =? snd x) && Nat.ltb (rank o (fst x)) (rank o (fst y)))) eqn:E.
    + constructor; [exact Hs|]. constructor.
      * unfold Rdesc. apply orb_true_iff in E. destruct E as [E|E]; [apply Z.ltb_lt in E; lia|].
        apply andb_true_iff in E. destruct E as [E _]. apply Z.eqb_eq in E. lia.
      * rewrite Forall_forall in *. intros z Hz. specialize (Hy z Hz). unfold Rdesc in *.
        apply orb_true_iff in E. destruct E as [E|E]; [apply Z.ltb_lt in E; lia|].
        apply andb_true_iff in E. destruct E as [E _]. apply Z.eqb_eq in E. lia.
    + constructor; [apply IH; exact Hr|].
      rewrite Forall_forall in *. intros z Hz. apply insert_spammer_In in Hz. destruct Hz as [->|Hz]; [|apply Hy; exact Hz].
      unfold Rdesc. apply orb_false_iff in E. destruct E as [E _]. apply Z.ltb_ge in E. lia.
Qed.

Lemma insert_spammer_nodup o x l :
  NoDup (map fst l) -> ~ In (fst x) (map fst l) -> NoDup (map fst (insert_spammer o x l)).
Proof.
  induction l as [|y r IH]; intros Hd Hn; cbn [insert_spammer map].
  - constructor; [intros []|constructor].
  - destruct (_ || _); cbn [map].
    + constructor; [exact Hn|exact Hd].
    + cbn [map] in Hd, Hn. inversion Hd as [|? ? Hy Hr]; subst. constructor.
      * intros Hin. apply in_map_iff in Hin. destruct Hin as [z [Hz Hin]]. apply insert_spammer_In in Hin.
        destruct Hin as [->|Hin]; [apply Hn; cbn; auto|]. apply Hy. rewrite <- Hz. apply in_map. exact Hin.
      * apply IH; auto. intros H. apply Hn. cbn. auto.
Qed.

Lemma sort_spammers_spec o (g : N -> Z) l :
  NoDup l ->
  let s := fold_right (insert_spammer o) [] (map (fun a => (a, g a)) l) in
  StronglySorted Rdesc s /\ NoDup (map fst s) /\ (forall z, In z s <-> exists a, In a l /\ z = (a, g a)).
Proof.
  induction l as [|a r IH]; intros Hd; cbn zeta; cbn [map fold_right].
  - split; [constructor|]. split; [constructor|]. intros z. cbn. split; [tauto|]. intros [a [[] _]].
  - inversion Hd as [|? ? Ha Hr]; subst. destruct (IH Hr) as [S1 [S2 S3]]. cbn zeta in *.
    split; [apply insert_spammer_sorted; exact S1|]. split.
    + apply insert_spammer_nodup; [exact S2|]. cbn [fst]. intros Hin. apply in_map_iff in Hin.
      destruct Hin as [z [Hz Hin]]. apply S3 in Hin. destruct Hin as [b [Hb ->]]. cbn [fst] in Hz. subst. contradiction.
    + intros z. rewrite insert_spammer_In, S3. split.
      * intros [->|[b [Hb ->]]]; [exists a; cbn; auto|exists b; cbn; auto].
      * intros [b [[<-|Hb] ->]]; [left; reflexivity|right; exists b; auto].
Qed.

Definition DescLen (q : pool) (sp : list N) : Prop := StronglySorted (fun a b => plen q b <= plen q a) sp.

Lemma sorted_map_fst (g : N -> Z) s :
  StronglySorted Rdesc s -> (forall z, In z s -> snd z = g (fst z)) ->
  StronglySorted (fun a b => g b <= g a) (map fst s).
Proof.
  induction s as [|x r IH]; intros Hs Hg; cbn [map]; [constructor|].
  inversion Hs as [|? ? Hr Hx]; subst. constructor.
  - apply IH; auto. intros z Hz. apply Hg. cbn. auto.
  - rewrite Forall_forall in *. intros b Hb. apply in_map_iff in Hb. destruct Hb as [z [<- Hz]].
    specialize (Hx z Hz). unfold Rdesc in Hx. rewrite <- (Hg z), <- (Hg x); cbn; auto.
Qed.

Lemma spammers_spec q o :
  let sp := spammers q o in
  NoDup sp /\ DescLen q sp /\
  (forall a, In a sp <-> In a (accounts (p_pending q)) /\ memN a (p_locals q) = false /\ c_aslots (p_cfg q) < plen q a).
Proof.
  cbn zeta. unfold spammers.
  set (cands := filter (fun a => negb (memN a (p_locals q)) && (c_aslots (p_cfg q) <? l_len (p_pending q) a)) (accounts (p_pending q))).
  assert (Hnd : NoDup cands) by (unfold cands; apply NoDup_filter; apply accounts_spec).
  destruct (sort_spammers_spec o (fun a => l_len (p_pending q) a) cands Hnd) as [S1 [S2 S3]]. cbn zeta in *.
  split; [exact S2|]. split.
  - unfold DescLen, plen. apply sorted_map_fst; [exact S1|]. intros z Hz. apply S3 in Hz. destruct Hz as [a [_ ->]]. reflexivity.
  - intros a. rewrite in_map_iff. split.
    + intros [z [Hz Hin]]. apply S3 in Hin. destruct Hin as [b [Hb ->]]. cbn [fst] in Hz. subst b.
      unfold cands in Hb. apply filter_In in Hb. destruct Hb as [H1 H2]. apply andb_true_iff in H2. destruct H2 as [H2 H3].
      apply negb_true_iff in H2. apply Z.ltb_lt in H3. auto.
    + intros [H1 [H2 H3]]. exists (a, l_len (p_pending q) a). split; [reflexivity|]. apply S3. exists a. split; [|reflexivity].
      unfold cands. apply filter_In. split; [exact H1|]. rewrite H2. cbn [negb andb]. apply Z.ltb_lt. exact H3.
Qed.

Lemma plen_le_total q a : plen q a <= ptotal q.
Proof.
  unfold plen, ptotal, l_len, of_acct. apply Nat2Z.inj_le.
  induction (p_pending q) as [|x l IH]; cbn [filter length]; auto. destruct (is_acct a x); cbn [length]; lia.
Qed.

Lemma DescLen_transfer q q' sp : (forall s, In s sp -> plen q' s = plen q s) -> DescLen q sp -> DescLen q' sp.
Proof.
  unfold DescLen. induction sp as [|x r IH]; intros Heq Hs; [constructor|].
  inversion Hs as [|? ? Hr Hx]; subst. constructor.
  - apply IH; auto. intros s Hs'. apply Heq. cbn. auto.
  - rewrite Forall_forall in *. intros b Hb. rewrite (Heq x), (Heq b); cbn; auto.
Qed.

(* The spammers come in descending length ([DescLen]), so the next one is no longer than the common
   length [L] of the offenders so far and is the threshold they are equalized to; afterwards it joins
   them with the same length. *)
Lemma offenders_loop_spec fuel : forall sp q n offs,
  Inv q -> n = ptotal q -> NoDup (offs ++ sp) -> 0 <= c_aslots (p_cfg q) ->
  (c_gslots (p_cfg q) < n -> offs <> [] -> exists L, EqLen q offs L /\ (forall s, In s sp -> plen q s <= L)) ->
  DescLen q sp -> (forall s, In s sp -> c_aslots (p_cfg q) < plen q s) ->
  ptotal q < Z.of_nat fuel ->
  let r := offenders_loop fuel q n sp offs in
  let q' := fst (fst r) in let n' := snd (fst r) in let offs' := snd r in
  Inv q' /\ n' = ptotal q' /\ p_locals q' = p_locals q /\ p_cfg q' = p_cfg q /\ ptotal q' <= ptotal q /\
  (forall b, ~ In b (offs ++ sp) -> plen q' b = plen q b) /\
  (n' <= c_gslots (p_cfg q) \/ (offs' = offs ++ sp /\ (offs' <> [] -> exists L, EqLen q' offs' L))).
Proof.
  induction sp as [|o rest IH]; intros q n offs I Hn Hd Has HE Hdesc Hbig Hfuel; cbn zeta; cbn [offenders_loop fst snd].
  - split; [exact I|]. split; [exact Hn|]. split; [reflexivity|]. split; [reflexivity|]. split; [lia|]. split; [auto|].
    destruct (Z_le_gt_dec n (c_gslots (p_cfg q))) as [Hle|Hgt]; [left; exact Hle|right].
    rewrite app_nil_r. split; [reflexivity|]. intros Hne. destruct (HE ltac:(lia) Hne) as [L [H1 _]]. exists L. exact H1.
  - destruct (c_gslots (p_cfg q) <? n) eqn:G.
    2:{ cbn [fst snd]. apply Z.ltb_ge in G. split; [exact I|]. split; [exact Hn|]. repeat split; auto; try lia. }
    apply Z.ltb_lt in G. fold (plen q o).
    assert (Hth : c_aslots (p_cfg q) < plen q o) by (apply Hbig; cbn; auto).
    assert (Hno : ~ In o offs /\ NoDup offs /\ NoDup (o :: rest) /\ (forall s, In s rest -> ~ In s offs)).
    { destruct (NoDup_app_parts offs (o :: rest) Hd) as [P1 [P2 P3]]. split; [|split; [exact P1|split; [exact P2|]]].
      - intros Hin. apply (P3 o Hin). cbn. auto.
      - intros s Hs Hin. apply (P3 s Hin). cbn. auto. }
    destruct Hno as [No1 [No2 [No3 No4]]].
    unfold DescLen in Hdesc. apply StronglySorted_inv in Hdesc. destruct Hdesc as [Hdr Hdo]. rewrite Forall_forall in Hdo.
    (* the state after the equalization of the previous offenders *)
    assert (Hstep : exists q1 n1,
      (match rev offs with [] => (q, n) | lp :: _ => equalize fuel q n offs lp (plen q o) end) = (q1, n1) /\
      Inv q1 /\ n1 = ptotal q1 /\ p_locals q1 = p_locals q /\ p_cfg q1 = p_cfg q /\ ptotal q1 <= ptotal q /\
      (forall b, ~ In b offs -> plen q1 b = plen q b) /\
      (c_gslots (p_cfg q) < n1 -> EqLen q1 (offs ++ [o]) (plen q o))).
    { destruct (rev offs) as [|lp rr] eqn:Er.
      - exists q, n. assert (offs = []) by (apply rev_nil; exact Er).
        subst offs. split; [reflexivity|]. split; [exact I|]. split; [exact Hn|]. split; [reflexivity|]. split; [reflexivity|].
        split; [lia|]. split; [auto|]. intros _ a [<-|[]]. reflexivity.
      - assert (Hlp : In lp offs) by (apply in_rev; rewrite Er; cbn; auto).
        assert (Hne : offs <> []) by (intros ->; destruct Hlp).
        destruct (HE G Hne) as [L [HL HLs]].
        assert (HoL : plen q o <= L) by (apply HLs; cbn; auto).
        pose proof (plen_le_total q lp) as Hlt. rewrite (HL lp Hlp) in Hlt.
        destruct (equalize_spec offs lp (plen q o) No2 Hlp ltac:(lia) fuel q n L I Hn HL ltac:(lia))
          as [J1 [J2 [[L' [K1 [K2 [K3 K4]]]] [J4 [J5 [J6 J7]]]]]]. cbn zeta in *.
        destruct (equalize fuel q n offs lp (plen q o)) as [q1 n1]. cbn [fst snd] in *.
        exists q1, n1. split; [reflexivity|]. split; [exact J1|]. split; [exact J2|]. split; [exact J6|]. split; [exact J7|].
        split; [exact J5|]. split; [exact J4|].
        intros Hg a Ha. apply in_app_iff in Ha. destruct Ha as [Ha|[<-|[]]].
        + rewrite (K1 a Ha). specialize (K3 HoL). destruct K4 as [K4|K4]; lia.
        + apply J4. exact No1. }
    destruct Hstep as [q1 [n1 [Est [I1 [Hn1 [Hl1 [Hc1 [Ht1 [Hf1 HE1]]]]]]]]]. rewrite Est.
    destruct (IH q1 n1 (offs ++ [o]) I1 Hn1) as [R1 [R2 [R3 [R4 [R5 [R6 R7]]]]]].
    { rewrite <- app_assoc. exact Hd. }
    { rewrite Hc1. exact Has. }
    { rewrite Hc1. intros Hg _. exists (plen q o). split; [apply HE1; exact Hg|].
      intros s Hs. rewrite Hf1 by (apply No4; exact Hs). apply Hdo. exact Hs. }
    { apply (DescLen_transfer q); [|exact Hdr]. intros s Hs. apply Hf1. apply No4. exact Hs. }
    { intros s Hs. rewrite Hc1, Hf1 by (apply No4; exact Hs). apply Hbig. cbn. auto. }
    { lia. }
    cbn zeta in *. split; [exact R1|]. split; [exact R2|]. split; [congruence|]. split; [congruence|]. split; [lia|]. split.
    + intros b Hb. rewrite R6.
      * apply Hf1. intros Hin. apply Hb. apply in_or_app. auto.
      * rewrite <- app_assoc. exact Hb.
    + rewrite Hc1 in R7. rewrite <- app_assoc in R7. exact R7.
Qed.

Definition pending_ok (q : pool) : Prop :=
  ptotal q <= c_gslots (p_cfg q) \/ forall a, ~ In a (p_locals q) -> plen q a <= c_aslots (p_cfg q).

Lemma plen_not_account q a : ~ In a (accounts (p_pending q)) -> plen q a = 0.
Proof.
  intros Hn. unfold plen, l_len. destruct (of_acct a (p_pending q)) as [|x r] eqn:E; [reflexivity|exfalso].
  apply Hn. apply accounts_spec. exists x.
  assert (In x (of_acct a (p_pending q))) by (rewrite E; cbn; auto).
  unfold of_acct in H. apply filter_In in H. destruct H as [H1 H2]. apply is_acct_true in H2. auto.
Qed.

Theorem truncate_pending_post o p :
  Inv p -> 0 <= c_aslots (p_cfg p) -> pending_ok (truncate_pending o p).
Proof.
  intros I Has. unfold truncate_pending. fold (ptotal p).
  destruct (ptotal p <=? c_gslots (p_cfg p)) eqn:E0; [left; apply Z.leb_le; exact E0|].
  apply Z.leb_gt in E0.
  destruct (spammers_spec p o) as [Snd [Sdesc Smem]]. cbn zeta in *. set (sp := spammers p o) in *.
  assert (Hothers : forall b, ~ In b (p_locals p) -> ~ In b sp -> plen p b <= c_aslots (p_cfg p)).
  { intros b Hl Hb. destruct (in_dec N.eq_dec b (accounts (p_pending p))) as [Hin|Hnin]; [|rewrite plen_not_account; auto].
    destruct (Z_le_gt_dec (plen p b) (c_aslots (p_cfg p))); auto. exfalso. apply Hb. apply Smem. split; auto. split; [|lia].
    destruct (memN b (p_locals p)) eqn:Em; auto. apply memN_In in Em. contradiction. }
  pose proof (offenders_loop_spec (S (length (p_pending p))) sp p (ptotal p) [] I eq_refl) as Hloop.
  cbn [app] in Hloop. specialize (Hloop Snd Has ltac:(intros _ H; contradiction) Sdesc ltac:(intros s Hs; apply Smem; exact Hs)
                                        ltac:(unfold ptotal; lia)).
  cbn zeta in Hloop.
  destruct (offenders_loop (S (length (p_pending p))) p (ptotal p) sp []) as [[p1 n1] offs]. cbn [fst snd] in Hloop.
  destruct Hloop as [I1 [Hn1 [Hl1 [Hc1 [Ht1 [Hf1 Hend]]]]]].
  assert (Hleft : n1 <= c_gslots (p_cfg p) -> pending_ok p1) by (intros H; left; rewrite Hc1, <- Hn1; exact H).
  destruct (rev offs) as [|last rr] eqn:Er.
  - destruct Hend as [Hend|[Hoffs _]]; [apply Hleft; exact Hend|].
    assert (offs = []) by (apply rev_nil; exact Er).
    right. intros a Ha. rewrite Hl1 in Ha. rewrite Hc1, Hf1; [apply Hothers; auto|]; rewrite <- Hoffs, H; intros [].
  - destruct (c_gslots (p_cfg p1) <? n1) eqn:G; [|apply Hleft; apply Z.ltb_ge in G; rewrite <- Hc1; exact G].
    apply Z.ltb_lt in G. destruct Hend as [Hend|[Hoffs HEq]]; [rewrite Hc1 in G; lia|].
    assert (Hlast : In last offs) by (apply in_rev; rewrite Er; cbn; auto).
    destruct (HEq ltac:(intros ->; destruct Hlast)) as [L HL].
    rewrite reduce_all_eq.
    pose proof (plen_le_total p1 last) as Hlt. rewrite (HL last Hlast) in Hlt.
    assert (Hndo : NoDup offs) by (rewrite Hoffs; exact Snd).
    destruct (equalize_spec offs last (c_aslots (p_cfg p1)) Hndo Hlast ltac:(rewrite Hc1; exact Has)
                            (S (length (p_pending p))) p1 n1 L I1 Hn1 HL ltac:(unfold ptotal in *; rewrite Hc1; lia))
      as [J1 [J2 [[L' [K1 [K2 [K3 K4]]]] [J4 [J5 [J6 J7]]]]]]. cbn zeta in *.
    destruct (equalize (S (length (p_pending p))) p1 n1 offs last (c_aslots (p_cfg p1))) as [q2 n2]. cbn [fst snd] in *.
    destruct K4 as [K4|K4]; [left; rewrite J7, <- J2; exact K4|].
    right. intros a Ha. rewrite J6, Hl1 in Ha. rewrite J7.
    destruct (in_dec N.eq_dec a offs) as [Hin|Hnin].
    + rewrite (K1 a Hin). exact K4.
    + rewrite J4 by exact Hnin. rewrite Hc1, Hf1; [apply Hothers; auto|]. rewrite <- Hoffs. exact Hnin.
      rewrite <- Hoffs. exact Hnin.
Qed.

(* truncateQueue never grows a pending list *)
Definition pend_le (q q' : pool) : Prop := (forall a, plen q' a <= plen q a) /\ ptotal q' <= ptotal q.

Lemma pend_le_refl q : pend_le q q.
Proof. split; intros; lia. Qed.
Lemma pend_le_trans q r s : pend_le q r -> pend_le r s -> pend_le q s.
Proof. intros [A1 A2] [B1 B2]. split; [intros a; specialize (A1 a); specialize (B1 a); lia|lia]. Qed.
Lemma pending_ok_le q q' : pending_ok q -> frame q q' -> pend_le q q' -> pending_ok q'.
Proof.
  intros [H|H] [_ [A4 [A3 _]]] [A1 A2]; [left; rewrite A4; lia|].
  right. intros a Ha. rewrite A3 in Ha. rewrite A4. specialize (H a Ha). specialize (A1 a). lia.
Qed.

Lemma enqueue_tx_pending p t l : p_pending (fst (fst (enqueue_tx p t l false))) = p_pending p.
Proof.
  unfold enqueue_tx. destruct (l_add (p_queue p) t (c_price_bump (p_cfg p))) as [[ok old] q'].
  destruct ok; cbn [fst]; auto. destruct old; cbn [fst]; auto.
  rewrite (heap_only_pending _ _ (heap_only_removed _ _)). reflexivity.
Qed.
Lemma enqueue_all_pending l : forall p, p_pending (enqueue_all p l) = p_pending p.
Proof.
  unfold enqueue_all. induction l as [|t l IH]; intros p; cbn [fold_left]; auto.
  rewrite IH. apply enqueue_tx_pending.
Qed.

Lemma pend_le_remove_tx p id b : pend_le p (remove_tx p id b).
Proof.
  assert (Hp : p_pending (remove_tx p id b) = p_pending p \/
               exists g h, p_pending (remove_tx p id b) = filter g (filter h (p_pending p))).
  { destruct (all_get (p_all p) id) as [t|] eqn:E; [|left; rewrite remove_tx_unknown by exact E; reflexivity].
    destruct (remove_tx_eq p id b t E) as [p2 [H2 ->]].
    destruct (l_get (p_pending p) (sender t) (t_nonce t)).
    - right. eexists. eexists. cbv zeta.
      unfold pn_set_if_lower. destruct (_ <=? _); [|unfold pn_set; cbn [p_pending set_nonces]];
        rewrite enqueue_all_pending; cbn [p_pending set_pending]; unfold l_del; reflexivity.
    - left. cbn [p_pending set_queue]. apply (heap_only_pending _ _ H2). }
  split.
  - intros a. unfold plen, l_len, of_acct. destruct Hp as [->|[g [h ->]]]; [lia|].
    apply Nat2Z.inj_le. etransitivity; [apply filter_sub_len|apply filter_sub_len].
  - unfold ptotal. destruct Hp as [->|[g [h ->]]]; [lia|].
    apply Nat2Z.inj_le. etransitivity; [apply filter_len_le|apply filter_len_le].
Qed.
Lemma pend_le_truncate_queue o p : pend_le p (truncate_queue o p).
Proof.
  apply (truncate_queue_keeps (pend_le p)); [|apply pend_le_refl].
  intros q id b H. eapply pend_le_trans; [exact H|apply pend_le_remove_tx].
Qed.

Lemma pending_ok_set_changes q v : pending_ok q -> pending_ok (set_changes q v).
Proof. intros H. exact H. Qed.

Lemma pending_ok_reorg_tail c q : Inv q -> 0 <= c_aslots (p_cfg q) -> pending_ok (reorg_tail c q).
Proof.
  intros I Has. apply pending_ok_set_changes.
  eapply pending_ok_le; [|apply frame_truncate_queue|apply pend_le_truncate_queue].
  apply truncate_pending_post; assumption.
Qed.

Theorem pending_limit_after_reorg c p dirty :
  Inv p -> 0 <= c_aslots (p_cfg p) -> pending_ok (run_reorg c p None dirty).
Proof.
  intros I Has. rewrite run_reorg_none_eq.
  apply pending_ok_reorg_tail; [apply inv_promote_executables; exact I|].
  destruct (frame_promote_executables dirty p) as [_ [-> _]]. exact Has.
Qed.

Theorem pending_limit_after_reset c p ch :
  Inv p -> chain_nonneg ch -> 0 <= c_aslots (p_cfg p) -> pending_ok (run_reorg c p (Some (ch, [])) []).
Proof.
  intros I Hnn Has. rewrite run_reorg_reset_eq.
  apply pending_ok_reorg_tail; [apply inv_reset_core; auto|].
  unfold reset_core, do_reset. cbn [add_txs_locked]. cbn [p_cfg set_nonces].
  unfold demote_unexecutables.
  match goal with |- context [fold_left demote_account ?l ?q] => destruct (frame_fold_demote l q) as [_ [-> _]] end.
  match goal with |- context [promote_executables ?q ?l] => destruct (frame_promote_executables l q) as [_ [-> _]] end.
  exact Has.
Qed.

Lemma sanitize_aslots c : 1 <= c_aslots (sanitize c).
Proof. unfold sanitize. cbn [c_aslots]. destruct (Z.ltb_spec (c_aslots c) 1); [unfold def_account_slots|]; lia. Qed.
