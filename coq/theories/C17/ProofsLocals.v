(** C17 — locals are exempt from price eviction: the pool-full branch of add ([make_room]) and
    SetGasPrice remove only transactions that the index flags as remote. *)
From Coq Require Import List ZArith NArith Bool Lia.
From Kardia Require Import C17.Model C17.ProofsBasic C17.ProofsInv C17.ProofsFrame C17.ProofsOps.
Import ListNotations.
Local Open Scope Z_scope.

Lemma all_remove_none al id : all_get al id = None -> all_remove al id = al.
Proof.
  unfold all_get, all_remove. induction al as [|e al IH]; cbn [find filter]; [reflexivity|].
  destruct (id_is id e) eqn:Ee; cbn [option_map negb]; [discriminate|].
  intros H. rewrite IH; auto.
Qed.

Lemma entry_flag_unique (al : list (tx * bool)) (x : tx) (b b' : bool) :
  NoDup (map t_id (map fst al)) -> In (x, b) al -> forall y, In (y, b') al -> t_id y = t_id x -> b' = b.
Proof.
  intros Hd Hx y Hy Hid. rewrite map_map in Hd.
  assert (H : (y, b') = (x, b)).
  { eapply (NoDup_map_inj (fun e : tx * bool => t_id (fst e))); eauto. }
  inversion H. reflexivity.
Qed.

Lemma remove_tx_all p id b : Inv p -> p_all (remove_tx p id b) = all_remove (p_all p) id.
Proof.
  intros I.
  destruct (all_get (p_all p) id) as [t|] eqn:Eg;
    [|rewrite remove_tx_unknown by exact Eg; symmetry; apply all_remove_none; exact Eg].
  destruct (remove_tx_eq p id b t Eg) as [p2 [H2 ->]].
  pose proof (heap_only_all _ _ H2) as Ha2. pose proof (heap_only_queue _ _ H2) as Hq. cbn [p_all p_queue set_all] in Ha2, Hq.
  destruct (l_get (p_pending p) (sender t) (t_nonce t)) as [t0|] eqn:Egp; [|cbn [p_all set_queue]; exact Ha2].
  cbv zeta.
  match goal with |- context [enqueue_all ?q ?l] => destruct (enqueue_all_spec l q) as [_ [_ [Hs3 _]]] end.
  { apply NoDup_map_filter. unfold l_del. apply NoDup_map_filter. apply (inv_kp _ p I). }
  { intros x Hx y Hy. cbn [p_queue set_pending] in Hy. rewrite Hq in Hy.
    apply filter_In in Hx. destruct Hx as [Hx _]. apply l_del_In in Hx. destruct Hx as [Hx _].
    intros Hk. symmetry in Hk. revert Hk. eapply (inv_disjoint _ p I); eauto. }
  cbn zeta in Hs3. cbn [p_all set_pending] in Hs3.
  unfold pn_set_if_lower. destruct (_ <=? _); [|unfold pn_set; cbn [p_all set_nonces]]; rewrite Hs3; exact Ha2.
Qed.

Lemma remove_txs_all l : forall p b, Inv p -> p_all (remove_txs p l b) = all_remove_list (p_all p) l.
Proof.
  unfold remove_txs, all_remove_list. induction l as [|t l IH]; intros p b I; cbn [fold_left]; [reflexivity|].
  rewrite IH by (apply inv_remove_tx; exact I). rewrite remove_tx_all by exact I. reflexivity.
Qed.

(* removing remote-flagged transactions leaves every local-flagged entry in place *)
Lemma remove_remotes_spares_locals p drop b :
  Inv p -> remotes_only (p_all p) drop ->
  forall x, In (x, true) (p_all p) -> In (x, true) (p_all (remove_txs p drop b)).
Proof.
  intros I Hr x Hx. rewrite remove_txs_all by exact I. apply all_remove_list_entry. split; [exact Hx|].
  cbn [fst]. intros Hin. apply in_map_iff in Hin. destruct Hin as [m [Hid Hm]].
  destruct (Hr m Hm) as [t [Ht Htid]].
  assert (false = true); [|discriminate].
  eapply (entry_flag_unique (p_all p) x true false (inv_ids _ p I) Hx t Ht). congruence.
Qed.

(** The pool-full branch of add never removes a transaction flagged local. *)
Theorem make_room_spares_locals o p t l p1 oe :
  Inv p -> make_room o p t l = (p1, oe) ->
  forall x, In (x, true) (p_all p) -> In (x, true) (p_all p1).
Proof.
  intros I E x Hx. destruct (make_room_cases o p t l) as [H|[q [drop [Hq [Hr E']]]]].
  - rewrite E in H. cbn [fst] in H. rewrite (heap_only_all _ _ H). exact Hx.
  - rewrite E in E'. inversion E'; subst.
    apply remove_remotes_spares_locals; cbn [p_all set_changes]; rewrite ?(heap_only_all _ _ Hq); auto.
    eapply Inv_core; [|exact I]. rewrite core_set_changes. apply heap_only_core, Hq.
Qed.

(** SetGasPrice never removes a transaction flagged local. *)
Theorem set_gas_price_spares_locals c p price :
  Inv p -> forall x, In (x, true) (p_all p) -> In (x, true) (p_all (set_gas_price c p price)).
Proof.
  intros I x Hx. destruct (set_gas_price_cases c p price) as [->|[q [drop [Hq [Hr ->]]]]]; [exact Hx|].
  rewrite p_all_priced_removed.
  apply remove_remotes_spares_locals; rewrite ?(heap_only_all _ _ Hq); auto.
  eapply Inv_core; [apply heap_only_core, Hq|]. eapply Inv_core; [|exact I]. reflexivity.
Qed.

(** Without the flag: a local-flagged transaction is still indexed after the pool-full branch. *)
Corollary price_eviction_spares_locals o p t l p1 oe :
  Inv p -> make_room o p t l = (p1, oe) ->
  forall x, In (x, true) (p_all p) -> In x (map fst (p_all p1)).
Proof.
  intros I H x Hx. apply in_map_iff. exists (x, true). split; [reflexivity|]. eapply make_room_spares_locals; eauto.
Qed.
