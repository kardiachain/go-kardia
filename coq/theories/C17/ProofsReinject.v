(** C17 — reset WITH reinjection of reorged-out transactions does not preserve the invariant:
    the Go reproduction corpus/C17/repro_reorg_gap in the model (computed witness).

    Sender 1 has state nonce 2 (its nonces 0 and 1 were mined in the block that is about to be
    reorged out) and a pending transaction at nonce 2; the operator has raised the price floor to 5.
    The reorg brings the state nonce back to 0 and reinjects n0 (price 10) and n1 (price 1): n1 is
    rejected as underpriced, n0 is promoted below the still-pending nonce 2, and
    demoteUnexecutables only looks for a gap in front. *)
From Coq Require Import List ZArith NArith Bool Lia.
From Kardia Require Import C17.Model C17.ProofsInv C17.ProofsReset C17.ProofsFinal.
Import ListNotations.
Local Open Scope Z_scope.

Definition rx_cfg : config := mkCfg 1 10 16 5120 64 1024 false false [].
Definition rx_chain_old : chain := mkChain [(1%N, 2)] [(1%N, 1000000000)] 10000000 1.
Definition rx_chain_new : chain := mkChain [(1%N, 0)] [(1%N, 1000000000)] 10000000 1.
Definition rx_c : choice := mkChoice [] [] [].
Definition rx_n0 : tx := mkTx 10 (Some 1%N) 0 10 100000 100 100 0 0 false.
Definition rx_n1 : tx := mkTx 11 (Some 1%N) 1 1 100000 100 100 0 0 false.
Definition rx_n2 : tx := mkTx 12 (Some 1%N) 2 10 100000 100 100 0 0 false.
(* NewTxPool; AddRemotesSync{n2}; SetGasPrice(5) *)
Definition rx_ops : list op := [OpAdd false [rx_n2]; OpSetPrice 5].
Definition rx_p0 : pool := run [] (new_pool rx_c rx_cfg rx_chain_old []) rx_ops.
Definition rx_p1 : pool := run_reorg rx_c rx_p0 (Some (rx_chain_new, [rx_n0; rx_n1])) [].

Lemma rx_inv_before : Inv rx_p0.
Proof. apply inv_history. repeat constructor. Qed.

Lemma rx_nonneg : chain_nonneg rx_chain_new.
Proof. intros a. unfold st_nonce, getZ, rx_chain_new. cbn [ch_nonces lookupZ]. destruct (N.eqb 1 a); lia. Qed.

Lemma rx_pending_before : map t_nonce (p_pending rx_p0) = [2] /\ p_gasprice rx_p0 = 5.
Proof. vm_compute. split; reflexivity. Qed.

Lemma rx_pending_after :
  map (fun t => (sender t, t_nonce t)) (p_pending rx_p1) = [(1%N, 0); (1%N, 2)] /\ p_queue rx_p1 = [] /\
  st_nonce (p_chain rx_p1) 1%N = 0.
Proof. vm_compute. repeat split. Qed.

Lemma rx_not_inv : ~ Inv rx_p1.
Proof.
  intros I.
  assert (H2 : st_nonce (p_chain rx_p1) 1%N <= 2 < pn_get rx_p1 1%N).
  { apply (inv_run _ _ I). exists rx_n2. vm_compute. split; [|split]; auto. }
  assert (H1 : exists t, In t (p_pending rx_p1) /\ sender t = 1%N /\ t_nonce t = 1).
  { apply (inv_run _ _ I). destruct rx_pending_after as [_ [_ Hs]]. rewrite Hs. lia. }
  destruct H1 as [t [Hin [_ Hn]]].
  assert (Hm : In (t_nonce t) (map t_nonce (p_pending rx_p1))) by (apply in_map; exact Hin).
  rewrite Hn in Hm. vm_compute in Hm. destruct Hm as [Hm|[Hm|[]]]; discriminate.
Qed.

Lemma reset_with_reinjection_refuted :
  Inv rx_p0 /\ chain_nonneg rx_chain_new /\
  map t_nonce (p_pending rx_p0) = [2] /\
  map (fun t => (sender t, t_nonce t)) (p_pending (run_reorg rx_c rx_p0 (Some (rx_chain_new, [rx_n0; rx_n1])) [])) = [(1%N, 0); (1%N, 2)] /\
  ~ Inv (run_reorg rx_c rx_p0 (Some (rx_chain_new, [rx_n0; rx_n1])) []).
Proof.
  split; [exact rx_inv_before|]. split; [exact rx_nonneg|]. split; [apply rx_pending_before|].
  split; [apply rx_pending_after|]. exact rx_not_inv.
Qed.
