(** C17 — tie of the pool model's guards and arithmetic to the Go SOURCE.
    [Generated/C17Source.v] is produced on every check by /verif/go2coq from /repo's working tree:
    every condition / integer expression of validateTx, IntrinsicGas, add, enqueueTx, promoteTx,
    addTxs(Locked), journalTx, NewTxPool, sanitize, txList.Add/Filter/Remove,
    txSortedMap.Forward/Cap/Ready, the two heap orders, txPricedList.Removed/Cap/Underpriced/Discard,
    SetGasPrice, the eviction loop, runReorg, reset, promote/demote, truncatePending/Queue,
    txNoncer.setIfLower, txLookup.Add/Remove and Status, as Gallina over [Z] with explicit machine
    wraps.  The lemmas below say that the definitions of C17/Model.v compute exactly these
    expressions on exactly these operands: whole-function equalities where the function is small
    ([validate_tx], [intrinsic_gas], [l_add], [pn_set_if_lower], [sanitize], [priced_removed],
    [make_room], [journal_tx]), guard by guard otherwise (call arguments and switch cases included: the
    slot count handed to priced.Discard, nonce+1 of promoteTx, 100+priceBump, the price cases of
    priceHeap.Less, list.Cap(list.Len()-1)); the [_atoms] lemmas fix WHAT is compared.
    big.Int comparisons appear in the source as [x.Cmp(y) op 0]: [cmp_int] is the Go int they return. *)
From Coq Require Import List ZArith NArith Bool Lia String.
From Kardia Require Import Base.Int64 Base.GoSem Base.Conj.
From Kardia Require Import Generated.C17Source.
From Kardia Require Import Generated.C17Facts C17.Model.
Import ListNotations.
Local Open Scope Z_scope.

Definition cmp_int (a b : Z) : Z := match a ?= b with Lt => -1 | Eq => 0 | Gt => 1 end.
Definition sign_int (a : Z) : Z := cmp_int a 0.

Lemma cmp_lt0 a b : (cmp_int a b <? 0) = (a <? b).
Proof. unfold cmp_int, Z.ltb. destruct (a ?= b); reflexivity. Qed.
Lemma cmp_gt0 a b : (cmp_int a b >? 0) = (b <? a).
Proof. rewrite Z.gtb_ltb. unfold cmp_int, Z.ltb. rewrite (Z.compare_antisym a b). destruct (a ?= b); reflexivity. Qed.
Lemma cmp_ge0 a b : (cmp_int a b >=? 0) = (b <=? a).
Proof. rewrite Z.geb_leb. unfold cmp_int, Z.leb. rewrite (Z.compare_antisym a b). destruct (a ?= b); reflexivity. Qed.
Lemma cmp_le0 a b : (cmp_int a b <=? 0) = (a <=? b).
Proof. unfold cmp_int, Z.leb. destruct (a ?= b); reflexivity. Qed.

Definition u64 (z : Z) : Prop := in_range U64 z.
Definition i64 (z : Z) : Prop := in_range I64 z.

(** ** validateTx: the model's [validate_tx] IS the chain of source guards, in source order *)
Definition validate_tx_src (p : pool) (t : tx) (local : bool) : err :=
  if mainchain_tx_pool__TxPool_validateTx__if_uint64_tx_Size_gt_txMaxSize (t_size t) then EOversized else
  if mainchain_tx_pool__TxPool_validateTx__if_tx_Value__Sign_lt_0 (sign_int (t_value t)) then ENegative else
  if mainchain_tx_pool__TxPool_validateTx__if_pool_currentMaxGas_lt_tx_Gas (ch_gaslimit (p_chain p)) (t_gas t) then EGasLimit else
  match t_from t with
  | None => EInvalidSender
  | Some from =>
    if mainchain_tx_pool__TxPool_validateTx__if_not_local_and_tx_GasPriceIntCmp_pool_gasPrice_lt_0 local (cmp_int (t_price t) (p_gasprice p)) then EUnderpriced else
    if mainchain_tx_pool__TxPool_validateTx__if_pool_currentState_GetNonce_from_gt_tx_Nonce (st_nonce (p_chain p) from) (t_nonce t) then ENonceLow else
    if mainchain_tx_pool__TxPool_validateTx__if_pool_currentState_GetBalance_from__Cmp_tx_Cost_lt_0 (cmp_int (st_balance (p_chain p) from) (cost t)) then EFunds else
    match intrinsic_gas t (negb (p_galaxias p)) with
    | None => EGasOverflow
    | Some ig => if mainchain_tx_pool__TxPool_validateTx__if_tx_Gas_lt_intrGas (t_gas t) ig then EIntrinsic else EOk
    end
  end.

Lemma src_validate_atoms :
  mainchain_tx_pool__TxPool_validateTx__if_uint64_tx_Size_gt_txMaxSize_atoms = ["uint64(tx.Size()) : uint64"]%string
  /\ mainchain_tx_pool__TxPool_validateTx__if_tx_Value__Sign_lt_0_atoms = ["tx.Value().Sign() : int"]%string
  /\ mainchain_tx_pool__TxPool_validateTx__if_pool_currentMaxGas_lt_tx_Gas_atoms = ["pool.currentMaxGas : uint64"; "tx.Gas() : uint64"]%string
  /\ mainchain_tx_pool__TxPool_validateTx__if_not_local_and_tx_GasPriceIntCmp_pool_gasPrice_lt_0_atoms = ["local : bool"; "tx.GasPriceIntCmp(pool.gasPrice) : int"]%string
  /\ mainchain_tx_pool__TxPool_validateTx__if_pool_currentState_GetNonce_from_gt_tx_Nonce_atoms = ["pool.currentState.GetNonce(from) : uint64"; "tx.Nonce() : uint64"]%string
  /\ mainchain_tx_pool__TxPool_validateTx__if_pool_currentState_GetBalance_from__Cmp_tx_Cost_lt_0_atoms = ["pool.currentState.GetBalance(from).Cmp(tx.Cost()) : int"]%string
  /\ mainchain_tx_pool__TxPool_validateTx__if_tx_Gas_lt_intrGas_atoms = ["tx.Gas() : uint64"; "intrGas : uint64"]%string.
Proof. split_all; reflexivity. Qed.

(** ** IntrinsicGas: base costs, the two overflow guards and the two accumulations (uint64 wraps
    vanish exactly when the guards pass) *)
Definition intrinsic_src (t : tx) (legacy : bool) : option Z :=
  let gas0 := if mainchain_tx_pool__IntrinsicGas__if_contractCreation (t_create t) then mainchain_tx_pool__IntrinsicGas__let_gas
              else if mainchain_tx_pool__IntrinsicGas__if_legacy legacy then mainchain_tx_pool__IntrinsicGas__let_gas_3
              else mainchain_tx_pool__IntrinsicGas__let_gas_2 in
  if mainchain_tx_pool__IntrinsicGas__if_len_data_gt_0 (t_nz t + t_zb t) then
    if mainchain_tx_pool__IntrinsicGas__if_math_MaxUint64_minus_gas_div_nonZeroGas_lt_nz gas0 mainchain_tx_pool__IntrinsicGas__let_nonZeroGas (t_nz t) then None else
    let g1 := mainchain_tx_pool__IntrinsicGas__set_gas_op gas0 (t_nz t) mainchain_tx_pool__IntrinsicGas__let_nonZeroGas in
    let z := mainchain_tx_pool__IntrinsicGas__set_z (t_nz t + t_zb t) (t_nz t) in
    if mainchain_tx_pool__IntrinsicGas__if_math_MaxUint64_minus_gas_div_configs_TxDataZeroGas_lt_z g1 z then None else
    Some (mainchain_tx_pool__IntrinsicGas__set_gas_op_2 g1 z)
  else Some gas0.

Lemma quot_small a b : 0 <= a -> 0 < b -> Z.quot a b = a / b.
Proof. intros. apply Z.quot_div_nonneg; lia. Qed.

Lemma src_intrinsic_consts :
  mainchain_tx_pool__IntrinsicGas__let_gas = tx_gas_creation /\ mainchain_tx_pool__IntrinsicGas__let_gas_2 = tx_gas
  /\ mainchain_tx_pool__IntrinsicGas__let_gas_3 = tx_gas_legacy /\ mainchain_tx_pool__IntrinsicGas__let_nonZeroGas = tx_data_nonzero_gas.
Proof. repeat split; reflexivity. Qed.
Lemma src_intrinsic_atoms :
  mainchain_tx_pool__IntrinsicGas__if_math_MaxUint64_minus_gas_div_nonZeroGas_lt_nz_atoms = ["gas : uint64"; "nonZeroGas : uint64"; "nz : uint64"]%string
  /\ mainchain_tx_pool__IntrinsicGas__if_math_MaxUint64_minus_gas_div_configs_TxDataZeroGas_lt_z_atoms = ["gas : uint64"; "z : uint64"]%string
  /\ mainchain_tx_pool__IntrinsicGas__set_z_atoms = ["len(data) : int"; "nz : uint64"]%string.
Proof. repeat split; reflexivity. Qed.

(** ** txList.Add: the replacement guard (the threshold itself is big.Int arithmetic, outside the
    translator's subset; the model's [((100 + bump) * old) / 100] is validated by the harness) *)
Definition l_add_src (l : list tx) (t : tx) (bump : Z) : bool * option tx * list tx :=
  match l_get l (sender t) (t_nonce t) with
  | Some old =>
    if mainchain_tx_pool__txList_Add__if_old_GasPriceCmp_tx_ge_0_or_tx_GasPriceIntCmp_threshold_lt_0
         (cmp_int (t_price old) (t_price t)) (cmp_int (t_price t) (((100 + bump) * t_price old) / 100))
    then (false, None, l) else (true, Some old, l_put l t)
  | None => (true, None, l_put l t)
  end.
Lemma src_l_add_atoms :
  mainchain_tx_pool__txList_Add__if_old_GasPriceCmp_tx_ge_0_or_tx_GasPriceIntCmp_threshold_lt_0_atoms
  = ["old.GasPriceCmp(tx) : int"; "tx.GasPriceIntCmp(threshold) : int"]%string.
Proof. reflexivity. Qed.

(** ** txList.Filter / Forward / Cap / Ready / Remove: the per-transaction predicates *)
Lemma src_filter_lowest lowest n : mainchain_tx_pool__txList_Filter__if_lowest_gt_nonce lowest n = (n <? lowest).
Proof. unfold mainchain_tx_pool__txList_Filter__if_lowest_gt_nonce. apply Z.gtb_ltb. Qed.
Lemma src_filter_lowest_init : mainchain_tx_pool__txList_Filter__let_lowest = max_uint64.
Proof. reflexivity. Qed.
Lemma src_filter_atoms :
  mainchain_tx_pool__txList_Filter__ret_tx_Gas_gt_gasLimit_or_tx_Cost__Cmp_costLimit_gt_0_atoms = ["tx.Gas() : uint64"; "gasLimit : uint64"; "tx.Cost().Cmp(costLimit) : int"]%string
  /\ mainchain_tx_pool__txList_Filter__ret_tx_Nonce_gt_lowest_atoms = ["tx.Nonce() : uint64"; "lowest : uint64"]%string
  /\ mainchain_tx_pool__txList_Filter__if_l_costcap_Cmp_costLimit_le_0_and_l_gascap_le_gasLimit_atoms = ["l.costcap.Cmp(costLimit) : int"; "l.gascap : uint64"; "gasLimit : uint64"]%string.
Proof. repeat split; reflexivity. Qed.
(* the short circuit on the cached caps: "all costs <= costLimit and all gas <= gasLimit" *)
Lemma src_filter_shortcut cc cl gc gl :
  mainchain_tx_pool__txList_Filter__if_l_costcap_Cmp_costLimit_le_0_and_l_gascap_le_gasLimit (cmp_int cc cl) gc gl = ((cc <=? cl) && (gc <=? gl))%bool.
Proof. unfold mainchain_tx_pool__txList_Filter__if_l_costcap_Cmp_costLimit_le_0_and_l_gascap_le_gasLimit. rewrite cmp_le0. reflexivity. Qed.

Lemma src_forward_atoms :
  mainchain_tx_pool__txSortedMap_Forward__for_m_index_Len_gt_0_and_mul_m_index_at_0_lt_threshold_atoms = ["m.index.Len() : int"; "(*m.index)[0] : uint64"; "threshold : uint64"]%string.
Proof. reflexivity. Qed.

Lemma src_cap_atoms : mainchain_tx_pool__txSortedMap_Cap__if_len_m_items_le_threshold_atoms = ["len(m.items) : int"; "threshold : int"]%string.
Proof. reflexivity. Qed.

Lemma src_ready_next n : mainchain_tx_pool__txSortedMap_Ready__set_next_op n = wrap U64 (n + 1).
Proof. reflexivity. Qed.
Lemma src_ready_atoms :
  mainchain_tx_pool__txSortedMap_Ready__if_m_index_Len_eq_0_or_mul_m_index_at_0_gt_start_atoms = ["m.index.Len() : int"; "(*m.index)[0] : uint64"; "start : uint64"]%string.
Proof. reflexivity. Qed.

Lemma src_remove_invalid n t : mainchain_tx_pool__txList_Remove__ret_tx_Nonce_gt_nonce (t_nonce t) n = (n <? t_nonce t).
Proof. unfold mainchain_tx_pool__txList_Remove__ret_tx_Nonce_gt_nonce. apply Z.gtb_ltb. Qed.

(** ** the two heap orders *)
Lemma src_nonce_heap x y : mainchain_tx_pool__nonceHeap_Less__ret_h_at_i_lt_h_at_j x y = (x <? y).
Proof. reflexivity. Qed.
Lemma src_price_heap_atoms :
  mainchain_tx_pool__priceHeap_Less__ret_h_at_i__Nonce_gt_h_at_j__Nonce_atoms = ["h[i].Nonce() : uint64"; "h[j].Nonce() : uint64"]%string.
Proof. reflexivity. Qed.

(** ** txPricedList *)
Lemma quot4 x : 0 <= x -> Z.quot x 4 = x / 4.
Proof. intros. apply quot_small; lia. Qed.
Lemma div4_range x : 0 <= x <= 9223372036854775807 -> 0 <= x / 4 <= 9223372036854775807.
Proof. intros H. split; [apply Z.div_pos; lia|]. apply Z.div_le_upper_bound; lia. Qed.

Definition priced_removed_src (p : pool) (count : Z) : pool :=
  if mainchain_tx_pool__txPricedList_Removed__if_int_stales_le_len_mul_l_remotes_div_4 (p_stales p + count) (Z.of_nat (List.length (p_heap p)))
  then set_heap p (p_heap p) (p_stales p + count) else reheap p.

Lemma src_priced_stale_dec s : i64 (s - 1) -> mainchain_tx_pool__txPricedList_Cap__set_stales_op s = s - 1.
Proof. intros H. unfold mainchain_tx_pool__txPricedList_Cap__set_stales_op, go_sub. apply wrap_id. exact H. Qed.
Lemma src_underpriced_ret t m : mainchain_tx_pool__txPricedList_Underpriced__ret_cheapest_GasPriceCmp_tx_ge_0 (cmp_int (t_price m) (t_price t)) = (t_price t <=? t_price m).
Proof. unfold mainchain_tx_pool__txPricedList_Underpriced__ret_cheapest_GasPriceCmp_tx_ge_0. apply cmp_ge0. Qed.
(* priced_underpriced's answer is the source return expression on the heap minimum *)
Lemma src_priced_underpriced p o t :
  snd (priced_underpriced p o t) =
  let '(h, _) := drop_stale_heads (List.length (p_heap p)) o (p_all p) (p_heap p) (p_stales p) in
  match heap_min o h with
  | None => false
  | Some m => mainchain_tx_pool__txPricedList_Underpriced__ret_cheapest_GasPriceCmp_tx_ge_0 (cmp_int (t_price m) (t_price t))
  end.
Proof.
  unfold priced_underpriced. destruct (drop_stale_heads _ _ _ _ _) as [h s]. cbn [snd].
  destruct (heap_min o h); [|reflexivity]. rewrite src_underpriced_ret. reflexivity.
Qed.
Lemma src_discard_fail sl force : mainchain_tx_pool__txPricedList_Discard__if_slots_gt_0_and_not_force sl force = ((0 <? sl) && negb force)%bool.
Proof. unfold mainchain_tx_pool__txPricedList_Discard__if_slots_gt_0_and_not_force. rewrite Z.gtb_ltb. reflexivity. Qed.
(* priced_discard as a whole: the give-up test is the source guard *)
Lemma src_priced_discard p o slots force :
  priced_discard p o slots force =
  let '(h, s, sl, drop) := discard_loop (List.length (p_heap p)) o (p_all p) (p_heap p) (p_stales p) slots [] in
  if mainchain_tx_pool__txPricedList_Discard__if_slots_gt_0_and_not_force sl force then (set_heap p (drop ++ h) s, [], false)
  else (set_heap p h s, drop, true).
Proof.
  unfold priced_discard. destruct (discard_loop _ _ _ _ _ _ _) as [[[h s] sl] drop]. rewrite src_discard_fail. reflexivity.
Qed.
Lemma src_priced_atoms :
  mainchain_tx_pool__txPricedList_Removed__if_int_stales_le_len_mul_l_remotes_div_4_atoms = ["stales : int64"; "len(*l.remotes) : int"]%string
  /\ mainchain_tx_pool__txPricedList_Cap__if_cheapest_GasPriceIntCmp_threshold_ge_0_atoms = ["cheapest.GasPriceIntCmp(threshold) : int"]%string
  /\ mainchain_tx_pool__txPricedList_Underpriced__ret_cheapest_GasPriceCmp_tx_ge_0_atoms = ["cheapest.GasPriceCmp(tx) : int"]%string
  /\ mainchain_tx_pool__txPricedList_Discard__set_slots_op_atoms = ["slots : int"; "numSlots(tx) : int"]%string
  /\ mainchain_tx_pool__txPricedList_Discard__if_slots_gt_0_and_not_force_atoms = ["slots : int"; "force : bool"]%string.
Proof. split_all; reflexivity. Qed.

(** ** TxPool.add: the pool-full branch ([make_room]) and the flags *)
Definition cfg_ok (q : pool) (t : tx) : Prop :=
  0 <= all_slots (p_all q) /\ 0 <= num_slots t /\ all_slots (p_all q) + num_slots t <= 9223372036854775807 /\
  0 <= c_gslots (p_cfg q) /\ 0 <= c_gqueue (p_cfg q) /\ c_gslots (p_cfg q) + c_gqueue (p_cfg q) <= 9223372036854775807.

Definition make_room_src (o1 : list N) (q : pool) (t : tx) (is_local : bool) : pool * option err :=
  let cfg := p_cfg q in
  if mainchain_tx_pool__TxPool_add__if_uint64_pool_all_Slots_plus_numSlots_tx_gt_pool_config_Global_f57d0a13
       (all_slots (p_all q)) (num_slots t) (c_gslots cfg) (c_gqueue cfg) then
    let '(q1, under) := if is_local then (q, false) else priced_underpriced q o1 t in
    if mainchain_tx_pool__TxPool_add__if_not_isLocal_and_pool_priced_Underpriced_tx is_local under then (q1, Some EUnderpriced) else
    if mainchain_tx_pool__TxPool_add__if_pool_changesSinceReorg_gt_int_pool_config_GlobalSlots_div_4 (p_changes q1) (c_gslots cfg) then (q1, Some EPoolFull) else
    let '(q2, drop, success) :=
        priced_discard q1 o1 (mainchain_tx_pool__TxPool_add__arg_pool_all_Slots_minus_int_pool_config_GlobalSlots_plus_pool_c_dd788a09
                                (all_slots (p_all q1)) (c_gslots cfg) (c_gqueue cfg) (num_slots t)) is_local in
    if mainchain_tx_pool__TxPool_add__if_not_isLocal_and_not_success is_local success then (q2, Some EPoolFull) else
    let q3 := set_changes q2 (p_changes q2 + Z.of_nat (List.length drop)) in
    (remove_txs q3 drop false, None)
  else (q, None).

Lemma src_full_guard s n gs gq :
  0 <= s + n <= 9223372036854775807 -> 0 <= gs -> 0 <= gq -> gs + gq <= 18446744073709551615 ->
  mainchain_tx_pool__TxPool_add__if_uint64_pool_all_Slots_plus_numSlots_tx_gt_pool_config_Global_f57d0a13 s n gs gq = (gs + gq <? s + n).
Proof.
  intros H1 H2 H3 H4. unfold mainchain_tx_pool__TxPool_add__if_uint64_pool_all_Slots_plus_numSlots_tx_gt_pool_config_Global_f57d0a13, go_conv, go_add.
  rewrite (wrap_id I64 (s + n)) by (unfold in_range; lia).
  rewrite (wrap_id U64 (s + n)) by (unfold in_range; lia).
  rewrite (wrap_id U64 (gs + gq)) by (unfold in_range; lia).
  apply Z.gtb_ltb.
Qed.
Lemma src_changes_guard ch gs : 0 <= gs <= 18446744073709551615 ->
  mainchain_tx_pool__TxPool_add__if_pool_changesSinceReorg_gt_int_pool_config_GlobalSlots_div_4 ch gs = (gs / 4 <? ch).
Proof.
  intros H. unfold mainchain_tx_pool__TxPool_add__if_pool_changesSinceReorg_gt_int_pool_config_GlobalSlots_div_4, go_conv, go_quot.
  rewrite quot4 by lia.
  assert (0 <= gs / 4 <= 4611686018427387903).
  { split; [apply Z.div_pos; lia|]. assert (gs / 4 < 4611686018427387904) by (apply Z.div_lt_upper_bound; lia). lia. }
  rewrite (wrap_id U64 (gs / 4)) by (unfold in_range; lia).
  rewrite (wrap_id I64 (gs / 4)) by (unfold in_range; lia).
  apply Z.gtb_ltb.
Qed.

Lemma priced_underpriced_cfg q o t : p_cfg (fst (priced_underpriced q o t)) = p_cfg q.
Proof. unfold priced_underpriced. destruct (drop_stale_heads _ _ _ _ _). reflexivity. Qed.
Lemma priced_underpriced_all q o t : p_all (fst (priced_underpriced q o t)) = p_all q.
Proof. unfold priced_underpriced. destruct (drop_stale_heads _ _ _ _ _). reflexivity. Qed.

(* the slot count handed to priced.Discard *)
Lemma src_discard_arg s gs gq n :
  0 <= s -> 0 <= n -> s + n <= 9223372036854775807 -> 0 <= gs -> 0 <= gq -> gs + gq <= 9223372036854775807 ->
  mainchain_tx_pool__TxPool_add__arg_pool_all_Slots_minus_int_pool_config_GlobalSlots_plus_pool_c_dd788a09 s gs gq n = s - (gs + gq) + n.
Proof.
  intros. unfold mainchain_tx_pool__TxPool_add__arg_pool_all_Slots_minus_int_pool_config_GlobalSlots_plus_pool_c_dd788a09, go_add, go_sub, go_conv.
  rewrite (wrap_id U64 (gs + gq)) by (unfold in_range; lia).
  rewrite (wrap_id I64 (gs + gq)) by (unfold in_range; lia).
  rewrite (wrap_id I64 (s - (gs + gq))) by (unfold in_range; lia).
  apply wrap_id. unfold in_range. lia.
Qed.

Lemma src_add_flags local inl ok replaced :
  mainchain_tx_pool__TxPool_add__set_isLocal local inl = (local || inl)%bool
  /\ mainchain_tx_pool__TxPool_add__if_local_and_not_pool_locals_contains_from local inl = (local && negb inl)%bool
  /\ mainchain_tx_pool__TxPool_addTxsLocked__if_err_eq_nil_and_not_replaced ok replaced = (ok && negb replaced)%bool
  /\ mainchain_tx_pool__TxPool_add__if_list_ne_nil_and_list_Overlaps_tx ok replaced = (ok && replaced)%bool.
Proof. repeat split; reflexivity. Qed.
Lemma src_add_atoms :
  mainchain_tx_pool__TxPool_add__if_uint64_pool_all_Slots_plus_numSlots_tx_gt_pool_config_Global_f57d0a13_atoms = ["pool.all.Slots() : int"; "numSlots(tx) : int"; "pool.config.GlobalSlots : uint64"; "pool.config.GlobalQueue : uint64"]%string
  /\ mainchain_tx_pool__TxPool_add__if_pool_changesSinceReorg_gt_int_pool_config_GlobalSlots_div_4_atoms = ["pool.changesSinceReorg : int"; "pool.config.GlobalSlots : uint64"]%string
  /\ mainchain_tx_pool__TxPool_add__set_isLocal_atoms = ["local : bool"; "pool.locals.containsTx(tx) : bool"]%string
  /\ mainchain_tx_pool__TxPool_add__if_not_isLocal_and_pool_priced_Underpriced_tx_atoms = ["isLocal : bool"; "pool.priced.Underpriced(tx) : bool"]%string
  /\ mainchain_tx_pool__TxPool_add__if_not_isLocal_and_not_success_atoms = ["isLocal : bool"; "success : bool"]%string
  /\ mainchain_tx_pool__TxPool_add__if_local_and_not_pool_locals_contains_from_atoms = ["local : bool"; "pool.locals.contains(from) : bool"]%string
  /\ mainchain_tx_pool__TxPool_add__set_changesSinceReorg_op_atoms = ["pool.changesSinceReorg : int"; "len(drop) : int"]%string.
Proof. split_all; reflexivity. Qed.

(** ** journalTx, NewTxPool, sanitize, txNoncer.setIfLower, txLookup slots *)
Definition is_none {A} (o : option A) : bool := match o with None => true | Some _ => false end.
Lemma src_new_pool_journal nolocals journal :
  mainchain_tx_pool__NewTxPool__if_not_config_NoLocals_and_config_Journal_ne nolocals journal = (negb nolocals && journal)%bool.
Proof. reflexivity. Qed.
Lemma src_sanitize c :
  sanitize c =
  mkCfg (if mainchain_tx_pool__TxPoolConfig_sanitize__if_conf_PriceLimit_lt_1 (c_price_limit c) then def_price_limit else c_price_limit c)
        (if mainchain_tx_pool__TxPoolConfig_sanitize__if_conf_PriceBump_lt_1 (c_price_bump c) then def_price_bump else c_price_bump c)
        (if mainchain_tx_pool__TxPoolConfig_sanitize__if_conf_AccountSlots_lt_1 (c_aslots c) then def_account_slots else c_aslots c)
        (if mainchain_tx_pool__TxPoolConfig_sanitize__if_conf_GlobalSlots_lt_1 (c_gslots c) then def_global_slots else c_gslots c)
        (if mainchain_tx_pool__TxPoolConfig_sanitize__if_conf_AccountQueue_lt_1 (c_aqueue c) then def_account_queue else c_aqueue c)
        (if mainchain_tx_pool__TxPoolConfig_sanitize__if_conf_GlobalQueue_lt_1 (c_gqueue c) then def_global_queue else c_gqueue c)
        (c_nolocals c) (c_journal c) (c_locals c).
Proof. reflexivity. Qed.
Lemma src_sanitize_atoms :
  mainchain_tx_pool__TxPoolConfig_sanitize__if_conf_PriceLimit_lt_1_atoms = ["conf.PriceLimit : uint64"]%string
  /\ mainchain_tx_pool__TxPoolConfig_sanitize__if_conf_PriceBump_lt_1_atoms = ["conf.PriceBump : uint64"]%string
  /\ mainchain_tx_pool__TxPoolConfig_sanitize__if_conf_AccountSlots_lt_1_atoms = ["conf.AccountSlots : uint64"]%string
  /\ mainchain_tx_pool__TxPoolConfig_sanitize__if_conf_GlobalSlots_lt_1_atoms = ["conf.GlobalSlots : uint64"]%string
  /\ mainchain_tx_pool__TxPoolConfig_sanitize__if_conf_AccountQueue_lt_1_atoms = ["conf.AccountQueue : uint64"]%string
  /\ mainchain_tx_pool__TxPoolConfig_sanitize__if_conf_GlobalQueue_lt_1_atoms = ["conf.GlobalQueue : uint64"]%string
  /\ mainchain_tx_pool__TxPoolConfig_sanitize__put_conf_PriceLimit_atoms = ["DefaultTxPoolConfig.PriceLimit : uint64"]%string
  /\ mainchain_tx_pool__TxPoolConfig_sanitize__put_conf_GlobalQueue_atoms = ["DefaultTxPoolConfig.GlobalQueue : uint64"]%string.
Proof. split_all; reflexivity. Qed.
Lemma src_noncer_atoms :
  mainchain_tx_pool__txNoncer_setIfLower__if_txn_nonces_at_addr_le_nonce_atoms = ["txn.nonces[addr] : uint64"; "nonce : uint64"]%string
  /\ mainchain_tx_pool__txNoncer_setIfLower__let_assign_atoms = ["txn.fallback.GetNonce(addr) : uint64"]%string.
Proof. split; reflexivity. Qed.
Lemma src_lookup_slots s n : i64 (s + n) -> i64 (s - n) ->
  mainchain_tx_pool__txLookup_Add__set_slots_op s n = s + n /\ mainchain_tx_pool__txLookup_Remove__set_slots_op s n = s - n.
Proof. intros H1 H2. unfold mainchain_tx_pool__txLookup_Add__set_slots_op, mainchain_tx_pool__txLookup_Remove__set_slots_op, go_add, go_sub. split; apply wrap_id; assumption. Qed.
(* all_slots is the running sum txLookup.Add maintains *)
Lemma src_all_slots_add al t b : i64 (all_slots al + num_slots t) ->
  all_slots ((t, b) :: al) = mainchain_tx_pool__txLookup_Add__set_slots_op (all_slots al) (num_slots t).
Proof.
  intros H. unfold mainchain_tx_pool__txLookup_Add__set_slots_op, go_add. rewrite wrap_id by exact H.
  unfold all_slots. cbn [fold_right fst]. lia.
Qed.

(** ** SetGasPrice, promote/demote, truncatePending, truncateQueue *)

Lemma src_promote_cap_guard inl : mainchain_tx_pool__TxPool_promoteExecutables__if_not_pool_locals_contains_addr inl = negb inl.
Proof. reflexivity. Qed.

Lemma src_tp_early pending gs : mainchain_tx_pool__TxPool_truncatePending__if_pending_le_pool_config_GlobalSlots pending gs = (pending <=? gs).
Proof. reflexivity. Qed.
Lemma src_tp_offenders pending gs : mainchain_tx_pool__TxPool_truncatePending__for_pending_gt_pool_config_GlobalSlots_and_not_spammers_Empty pending gs false = (gs <? pending).
Proof. unfold mainchain_tx_pool__TxPool_truncatePending__for_pending_gt_pool_config_GlobalSlots_and_not_spammers_Empty. rewrite Z.gtb_ltb. apply andb_true_r. Qed.
Lemma src_tp_equalize pending gs len th :
  mainchain_tx_pool__TxPool_truncatePending__for_pending_gt_pool_config_GlobalSlots_and_pool_pending_at_offen_8860f6c3 pending gs len th = ((gs <? pending) && (th <? len))%bool.
Proof. unfold mainchain_tx_pool__TxPool_truncatePending__for_pending_gt_pool_config_GlobalSlots_and_pool_pending_at_offen_8860f6c3. rewrite !Z.gtb_ltb. reflexivity. Qed.
Lemma src_tp_reduce pending gs len aslots : 0 <= len <= 18446744073709551615 ->
  mainchain_tx_pool__TxPool_truncatePending__for_pending_gt_pool_config_GlobalSlots_and_uint64_pool_pending_a_82da6082 pending gs len aslots = ((gs <? pending) && (aslots <? len))%bool.
Proof.
  intros H. unfold mainchain_tx_pool__TxPool_truncatePending__for_pending_gt_pool_config_GlobalSlots_and_uint64_pool_pending_a_82da6082, go_conv.
  rewrite wrap_id by (unfold in_range; lia). rewrite !Z.gtb_ltb. reflexivity.
Qed.
Lemma src_tp_dec pending : 1 <= pending <= 18446744073709551615 ->
  mainchain_tx_pool__TxPool_truncatePending__set_pending_op_2 pending = pending - 1 /\ mainchain_tx_pool__TxPool_truncatePending__set_pending_op_3 pending = pending - 1.
Proof.
  intros H. unfold mainchain_tx_pool__TxPool_truncatePending__set_pending_op_2, mainchain_tx_pool__TxPool_truncatePending__set_pending_op_3, go_sub.
  split; apply wrap_id; unfold in_range; lia.
Qed.
(* the model's loops use exactly these guards *)
Lemma src_equalize_step fuel p pending prev last_prev threshold :
  equalize (S fuel) p pending prev last_prev threshold =
  if mainchain_tx_pool__TxPool_truncatePending__for_pending_gt_pool_config_GlobalSlots_and_pool_pending_at_offen_8860f6c3
       pending (c_gslots (p_cfg p)) (l_len (p_pending p) last_prev) threshold
  then let '(p1, n1) := cap_each p pending prev in equalize fuel p1 n1 prev last_prev threshold else (p, pending).
Proof. cbn [equalize]. rewrite src_tp_equalize. reflexivity. Qed.
Lemma l_len_range l a : 0 <= l_len l a.
Proof. unfold l_len. lia. Qed.
Lemma src_reduce_all_step fuel p pending offenders last : l_len (p_pending p) last <= 18446744073709551615 ->
  reduce_all (S fuel) p pending offenders last =
  if mainchain_tx_pool__TxPool_truncatePending__for_pending_gt_pool_config_GlobalSlots_and_uint64_pool_pending_a_82da6082
       pending (c_gslots (p_cfg p)) (l_len (p_pending p) last) (c_aslots (p_cfg p))
  then let '(p1, n1) := cap_each p pending offenders in reduce_all fuel p1 n1 offenders last else (p, pending).
Proof. intros H. cbn [reduce_all]. rewrite src_tp_reduce by (pose proof (l_len_range (p_pending p) last); lia). reflexivity. Qed.

Lemma src_tq_early queued gq : mainchain_tx_pool__TxPool_truncateQueue__if_queued_le_pool_config_GlobalQueue queued gq = (queued <=? gq).
Proof. reflexivity. Qed.
Lemma src_tq_loop drop n : 0 < n -> mainchain_tx_pool__TxPool_truncateQueue__for_drop_gt_0_and_len_addresses_gt_0 drop n = (0 <? drop).
Proof.
  intros H. unfold mainchain_tx_pool__TxPool_truncateQueue__for_drop_gt_0_and_len_addresses_gt_0. rewrite !Z.gtb_ltb.
  replace (0 <? n) with true by (symmetry; apply Z.ltb_lt; lia). apply andb_true_r.
Qed.
Lemma src_tq_whole size drop : mainchain_tx_pool__TxPool_truncateQueue__if_size_le_drop size drop = (size <=? drop).
Proof. reflexivity. Qed.
Lemma src_tq_last i drop : 0 <= i -> mainchain_tx_pool__TxPool_truncateQueue__for_i_ge_0_and_drop_gt_0 i drop = (0 <? drop).
Proof.
  intros H. unfold mainchain_tx_pool__TxPool_truncateQueue__for_i_ge_0_and_drop_gt_0. rewrite Z.geb_leb, Z.gtb_ltb.
  replace (0 <=? i) with true by (symmetry; apply Z.leb_le; lia). reflexivity.
Qed.
Lemma src_tq_local inl : mainchain_tx_pool__TxPool_truncateQueue__if_not_pool_locals_contains_addr inl = negb inl.
Proof. reflexivity. Qed.
Lemma src_truncate_atoms :
  mainchain_tx_pool__TxPool_truncatePending__if_pending_le_pool_config_GlobalSlots_atoms = ["pending : uint64"; "pool.config.GlobalSlots : uint64"]%string
  /\ mainchain_tx_pool__TxPool_truncatePending__if_not_pool_locals_contains_addr_and_uint64_list_Len_gt_pool_co_7ec6767c_atoms = ["pool.locals.contains(addr) : bool"; "list.Len() : int"; "pool.config.AccountSlots : uint64"]%string
  /\ mainchain_tx_pool__TxPool_truncatePending__for_pending_gt_pool_config_GlobalSlots_and_pool_pending_at_offen_8860f6c3_atoms = ["pending : uint64"; "pool.config.GlobalSlots : uint64"; "pool.pending[offenders[len(offenders)-2]].Len() : int"; "threshold : int"]%string
  /\ mainchain_tx_pool__TxPool_truncatePending__for_pending_gt_pool_config_GlobalSlots_and_uint64_pool_pending_a_82da6082_atoms = ["pending : uint64"; "pool.config.GlobalSlots : uint64"; "pool.pending[offenders[len(offenders)-1]].Len() : int"; "pool.config.AccountSlots : uint64"]%string
  /\ mainchain_tx_pool__TxPool_truncatePending__let_threshold_atoms = ["pool.pending[offender].Len() : int"]%string
  /\ mainchain_tx_pool__TxPool_truncateQueue__if_queued_le_pool_config_GlobalQueue_atoms = ["queued : uint64"; "pool.config.GlobalQueue : uint64"]%string
  /\ mainchain_tx_pool__TxPool_truncateQueue__set_drop_atoms = ["queued : uint64"; "pool.config.GlobalQueue : uint64"]%string
  /\ mainchain_tx_pool__TxPool_truncateQueue__if_size_le_drop_atoms = ["size : uint64"; "drop : uint64"]%string
  /\ mainchain_tx_pool__TxPool_demoteUnexecutables__if_list_Len_gt_0_and_list_txs_Get_nonce_eq_nil_atoms = ["list.Len() : int"; "list.txs.Get(nonce) == nil : untyped bool"]%string
  /\ mainchain_tx_pool__TxPool_demoteUnexecutables__let_nonce_atoms = ["pool.currentState.GetNonce(addr) : uint64"]%string.
Proof. split_all; reflexivity. Qed.

(** ** runReorg / reset / eviction loop / Status *)
Lemma src_reorg_dirty d r : mainchain_tx_pool__TxPool_runReorg__if_dirtyAccounts_ne_nil_and_reset_eq_nil d r = (d && r)%bool.
Proof. reflexivity. Qed.
Lemma src_reorg_changes : mainchain_tx_pool__TxPool_runReorg__put_pool_changesSinceReorg = 0.
Proof. reflexivity. Qed.
Lemma src_reset_guards d a b h1 h2 :
  mainchain_tx_pool__TxPool_reset__if_depth_gt_64 d = (64 <? d)
  /\ mainchain_tx_pool__TxPool_reset__if_oldHead_ne_nil_and_oldHead_Hash_ne_newHead_LastBlockID_Hash a b = (a && b)%bool
  /\ mainchain_tx_pool__TxPool_reset__for_rem_Height_gt_add_Height h1 h2 = (h2 <? h1)
  /\ mainchain_tx_pool__TxPool_reset__for_add_Height_gt_rem_Height h1 h2 = (h2 <? h1)
  /\ mainchain_tx_pool__TxPool_reset__if_newNum_lt_oldNum h1 h2 = (h1 <? h2).
Proof.
  unfold mainchain_tx_pool__TxPool_reset__if_depth_gt_64, mainchain_tx_pool__TxPool_reset__for_rem_Height_gt_add_Height,
    mainchain_tx_pool__TxPool_reset__for_add_Height_gt_rem_Height.
  rewrite !Z.gtb_ltb. repeat split; reflexivity.
Qed.
Lemma src_reset_atoms :
  mainchain_tx_pool__TxPool_reset__if_depth_gt_64_atoms = ["depth : uint64"]%string
  /\ mainchain_tx_pool__TxPool_reset__if_oldHead_ne_nil_and_oldHead_Hash_ne_newHead_LastBlockID_Hash_atoms = ["oldHead != nil : untyped bool"; "oldHead.Hash() != newHead.LastBlockID.Hash : untyped bool"]%string
  /\ mainchain_tx_pool__TxPool_reset__for_rem_Height_gt_add_Height_atoms = ["rem.Height() : uint64"; "add.Height() : uint64"]%string
  /\ mainchain_tx_pool__TxPool_reset__for_add_Height_gt_rem_Height_atoms = ["add.Height() : uint64"; "rem.Height() : uint64"]%string
  /\ mainchain_tx_pool__TxPool_reset__set_next_atoms = ["newHead.Height : uint64"]%string
  /\ mainchain_tx_pool__TxPool_reset__put_pool_currentMaxGas_atoms = ["newHead.GasLimit : uint64"]%string
  /\ mainchain_tx_pool__TxPool_runReorg__assign_atoms = ["highestPending.Nonce() : uint64"]%string.
Proof. split_all; reflexivity. Qed.
Lemma src_expiry_atoms :
  mainchain_tx_pool__TxPool_loop__if_time_Since_pool_beats_at_addr_gt_pool_config_Lifetime_atoms = ["time.Since(pool.beats[addr]) : time.Duration"; "pool.config.Lifetime : time.Duration"]%string
  /\ mainchain_tx_pool__TxPool_loop__if_pool_locals_contains_addr_atoms = ["pool.locals.contains(addr) : bool"]%string.
Proof. split; reflexivity. Qed.
Lemma src_status_codes : mainchain_tx_pool__TxPool_Status__let_assign = 2 /\ mainchain_tx_pool__TxPool_Status__let_assign_2 = 1.
Proof. split; reflexivity. Qed.

(** ** call arguments and switch cases *)
Lemma src_promote_nonce n : 0 <= n < 18446744073709551615 -> mainchain_tx_pool__TxPool_promoteTx__arg_tx_Nonce_plus_1 n = n + 1.
Proof. intros H. unfold mainchain_tx_pool__TxPool_promoteTx__arg_tx_Nonce_plus_1, go_add. apply wrap_id. unfold in_range. lia. Qed.
Lemma src_legacy_flag g : mainchain_tx_pool__TxPool_validateTx__arg_not_pool_isGalaxias g = negb g.
Proof. reflexivity. Qed.

(** ** the part of the tie that Properties.v quotes, as one statement.  The lemmas [src_...] above
    (whole [sanitize], the NewTxPool journal guard, Status codes, txLookup slots, the add flags,
    priced.Underpriced / Discard as wholes, the steps of the truncation loops, the other reset guards,
    most [_atoms]) are checked with the file but are not conjuncts of it. *)
Definition C17_source_tie_statement : Prop :=
  (mainchain_tx_pool__txSlotSize = tx_slot_size /\ mainchain_tx_pool__txMaxSize = tx_max_size)
  /\ (forall p t l, validate_tx p t l = validate_tx_src p t l)
  /\ (forall t legacy, 0 <= t_nz t -> 0 <= t_zb t -> t_nz t + t_zb t <= 18446744073709551615 -> intrinsic_gas t legacy = intrinsic_src t legacy)
  /\ (forall l t bump, l_add l t bump = l_add_src l t bump)
  /\ (forall strict l a cl gl, fst (fst (l_filter strict l a cl gl)) =
        filter (fun t => is_acct a t && mainchain_tx_pool__txList_Filter__ret_tx_Gas_gt_gasLimit_or_tx_Cost__Cmp_costLimit_gt_0 (t_gas t) gl (cmp_int (cost t) cl)) l)
  /\ (forall l, min_nonce l = fold_right (fun t m => if mainchain_tx_pool__txList_Filter__if_lowest_gt_nonce m (t_nonce t) then t_nonce t else m) mainchain_tx_pool__txList_Filter__let_lowest l)
  /\ (forall n lowest, mainchain_tx_pool__txList_Filter__ret_tx_Nonce_gt_lowest n lowest = (lowest <? n))
  /\ (forall l a th, fst (l_forward l a th) = filter (fun t => is_acct a t && mainchain_tx_pool__txSortedMap_Forward__for_m_index_Len_gt_0_and_mul_m_index_at_0_lt_threshold 1 (t_nonce t) th) l)
  /\ (forall l a th, l_cap l a th = if mainchain_tx_pool__txSortedMap_Cap__if_len_m_items_le_threshold (l_len l a) th then ([], l)
        else (filter (fun t => is_acct a t && (th <=? rank_in l a t)) l, filter (fun t => negb (is_acct a t && (th <=? rank_in l a t))) l))
  /\ (forall l a start, l_ready l a start = match of_acct a l with [] => [] | la =>
        if mainchain_tx_pool__txSortedMap_Ready__if_m_index_Len_eq_0_or_mul_m_index_at_0_gt_start (Z.of_nat (List.length la)) (min_nonce la) start
        then [] else run_from (List.length l) l a (min_nonce la) end)
  /\ (forall l a n, l_remove true l a n = match l_get l a n with None => (false, [], l) | Some _ =>
        (true, filter (fun t => is_acct a t && mainchain_tx_pool__txList_Remove__ret_tx_Nonce_gt_nonce (t_nonce t) n) (l_del l a n),
               filter (fun t => negb (is_acct a t && mainchain_tx_pool__txList_Remove__ret_tx_Nonce_gt_nonce (t_nonce t) n)) (l_del l a n)) end)
  /\ (forall o x y, t_price x = t_price y -> mainchain_tx_pool__priceHeap_Less__ret_h_at_i__Nonce_gt_h_at_j__Nonce (t_nonce x) (t_nonce y) = true -> hkey_lt o x y = true)
  /\ (forall o x y, t_price x = t_price y -> mainchain_tx_pool__priceHeap_Less__ret_h_at_i__Nonce_gt_h_at_j__Nonce (t_nonce y) (t_nonce x) = true -> hkey_lt o x y = false)
  /\ (forall p c, i64 (p_stales p + c) -> Z.of_nat (List.length (p_heap p)) <= 9223372036854775807 -> priced_removed p c = priced_removed_src p c)
  /\ (forall thr m, mainchain_tx_pool__txPricedList_Cap__if_cheapest_GasPriceIntCmp_threshold_ge_0 (cmp_int (t_price m) thr) = (thr <=? t_price m))
  /\ (forall t m, mainchain_tx_pool__txPricedList_Underpriced__ret_cheapest_GasPriceCmp_tx_ge_0 (cmp_int (t_price m) (t_price t)) = (t_price t <=? t_price m))
  /\ (forall len slots, 0 < len -> mainchain_tx_pool__txPricedList_Discard__for_len_mul_l_remotes_gt_0_and_slots_gt_0 len slots = negb (slots <=? 0))
  /\ (forall slots n, i64 (slots - n) -> mainchain_tx_pool__txPricedList_Discard__set_slots_op slots n = slots - n)
  /\ (forall sl force, mainchain_tx_pool__txPricedList_Discard__if_slots_gt_0_and_not_force sl force = ((0 <? sl) && negb force)%bool)
  /\ (forall o q t l, cfg_ok q t -> make_room o q t l = make_room_src o q t l)
  /\ (forall ch n, i64 (ch + n) -> mainchain_tx_pool__TxPool_add__set_changesSinceReorg_op ch n = ch + n)
  /\ (forall p from t, journal_tx p from t =
        if mainchain_tx_pool__TxPool_journalTx__if_pool_journal_eq_nil_or_not_pool_locals_contains_from (is_none (p_journal p)) (memN from (p_locals p))
        then p else set_journal p (option_map (fun j => j ++ [t]) (p_journal p)))
  /\ (forall p a v, pn_set_if_lower p a v = if mainchain_tx_pool__txNoncer_setIfLower__if_txn_nonces_at_addr_le_nonce (pn_get p a) v then p else pn_set p a v)
  /\ (forall c p price, set_gas_price c p price = let p1 := set_gasprice p price in
        if mainchain_tx_pool__TxPool_SetGasPrice__if_price_Cmp_old_gt_0 (cmp_int price (p_gasprice p)) then
          let '(p2, drop) := priced_cap p1 (o1 c) price in priced_removed (remove_txs p2 drop false) (Z.of_nat (List.length drop))
        else p1)
  /\ (forall (l : list tx) (g : option tx),
        mainchain_tx_pool__TxPool_demoteUnexecutables__if_list_Len_gt_0_and_list_txs_Get_nonce_eq_nil (Z.of_nat (List.length l)) (is_none g)
        = match l, g with _ :: _, None => true | _, _ => false end)
  /\ (forall inl len aslots, 0 <= len <= 18446744073709551615 ->
        mainchain_tx_pool__TxPool_truncatePending__if_not_pool_locals_contains_addr_and_uint64_list_Len_gt_pool_co_7ec6767c inl len aslots = (negb inl && (aslots <? len))%bool)
  /\ (forall pending gs len th, mainchain_tx_pool__TxPool_truncatePending__for_pending_gt_pool_config_GlobalSlots_and_pool_pending_at_offen_8860f6c3 pending gs len th = ((gs <? pending) && (th <? len))%bool)
  /\ (forall pending gs len aslots, 0 <= len <= 18446744073709551615 ->
        mainchain_tx_pool__TxPool_truncatePending__for_pending_gt_pool_config_GlobalSlots_and_uint64_pool_pending_a_82da6082 pending gs len aslots = ((gs <? pending) && (aslots <? len))%bool)
  /\ (forall queued gq, 0 <= gq <= queued -> queued <= 18446744073709551615 -> mainchain_tx_pool__TxPool_truncateQueue__set_drop queued gq = queued - gq)
  /\ (forall drop size, 0 <= size <= drop -> drop <= 18446744073709551615 -> mainchain_tx_pool__TxPool_truncateQueue__set_drop_op drop size = drop - size)
  /\ (forall n, 0 <= n < 18446744073709551615 -> mainchain_tx_pool__TxPool_runReorg__assign n = n + 1)
  /\ (forall ch, 0 <= ch_height ch < 18446744073709551615 -> chain_galaxias ch = (galaxias_block <=? mainchain_tx_pool__TxPool_reset__set_next (ch_height ch)))
  /\ (forall d, mainchain_tx_pool__TxPool_reset__if_depth_gt_64 d = (64 <? d))
  /\ (forall since life, mainchain_tx_pool__TxPool_loop__if_time_Since_pool_beats_at_addr_gt_pool_config_Lifetime since life = (life <? since))
  /\ (forall p a t pd', 0 <= t_nonce t < 18446744073709551615 -> l_add (p_pending p) t (c_price_bump (p_cfg p)) = (true, None, pd') ->
        fst (promote_tx p a t) = pn_set (set_pending p pd') a (mainchain_tx_pool__TxPool_promoteTx__arg_tx_Nonce_plus_1 (t_nonce t)))
  /\ (forall bump, 0 <= bump <= 9223372036854775707 -> mainchain_tx_pool__txList_Add__arg_100_plus_int64_priceBump bump = 100 + bump)
  /\ (forall o x y,
        (mainchain_tx_pool__priceHeap_Less__case_h_at_i__GasPriceCmp_h_at_j_eq_minus_1 (cmp_int (t_price x) (t_price y)) = true -> hkey_lt o x y = true)
        /\ (mainchain_tx_pool__priceHeap_Less__case_h_at_i__GasPriceCmp_h_at_j_eq_1 (cmp_int (t_price x) (t_price y)) = true -> hkey_lt o x y = false))
  /\ (forall len, -9223372036854775807 <= len <= 9223372036854775807 ->
        mainchain_tx_pool__TxPool_truncatePending__arg_list_Len_minus_1 len = len - 1 /\ mainchain_tx_pool__TxPool_truncatePending__arg_list_Len_minus_1_2 len = len - 1)
  /\ (forall a b c, 0 <= a -> 0 <= b -> 0 <= c -> a + b + c <= 9223372036854775807 ->
        mainchain_tx_pool__TxPool_promoteExecutables__arg_len_forwards_plus_len_drops_plus_len_caps a b c = a + b + c)
  /\ (mainchain_tx_pool__TxPool_add__arg_pool_all_Slots_minus_int_pool_config_GlobalSlots_plus_pool_c_dd788a09_atoms = ["pool.all.Slots() : int"; "pool.config.GlobalSlots : uint64"; "pool.config.GlobalQueue : uint64"; "numSlots(tx) : int"]%string
      /\ mainchain_tx_pool__TxPool_promoteTx__arg_tx_Nonce_plus_1_atoms = ["tx.Nonce() : uint64"]%string
      /\ mainchain_tx_pool__txList_Add__arg_100_plus_int64_priceBump_atoms = ["priceBump : uint64"]%string
      /\ mainchain_tx_pool__priceHeap_Less__case_h_at_i__GasPriceCmp_h_at_j_eq_minus_1_atoms = ["h[i].GasPriceCmp(h[j]) : int"]%string
      /\ mainchain_tx_pool__TxPool_truncatePending__arg_list_Len_minus_1_atoms = ["list.Len() : int"]%string
      /\ mainchain_tx_pool__TxPool_validateTx__arg_not_pool_isGalaxias_atoms = ["pool.isGalaxias : bool"]%string)
  /\ (mainchain_tx_pool__TxPool_validateTx__if_pool_currentMaxGas_lt_tx_Gas_atoms = ["pool.currentMaxGas : uint64"; "tx.Gas() : uint64"]%string
      /\ mainchain_tx_pool__TxPool_validateTx__if_pool_currentState_GetNonce_from_gt_tx_Nonce_atoms = ["pool.currentState.GetNonce(from) : uint64"; "tx.Nonce() : uint64"]%string
      /\ mainchain_tx_pool__TxPool_validateTx__if_pool_currentState_GetBalance_from__Cmp_tx_Cost_lt_0_atoms = ["pool.currentState.GetBalance(from).Cmp(tx.Cost()) : int"]%string
      /\ mainchain_tx_pool__txList_Add__if_old_GasPriceCmp_tx_ge_0_or_tx_GasPriceIntCmp_threshold_lt_0_atoms = ["old.GasPriceCmp(tx) : int"; "tx.GasPriceIntCmp(threshold) : int"]%string
      /\ mainchain_tx_pool__txList_Filter__ret_tx_Gas_gt_gasLimit_or_tx_Cost__Cmp_costLimit_gt_0_atoms = ["tx.Gas() : uint64"; "gasLimit : uint64"; "tx.Cost().Cmp(costLimit) : int"]%string
      /\ mainchain_tx_pool__priceHeap_Less__ret_h_at_i__Nonce_gt_h_at_j__Nonce_atoms = ["h[i].Nonce() : uint64"; "h[j].Nonce() : uint64"]%string
      /\ mainchain_tx_pool__TxPool_add__if_uint64_pool_all_Slots_plus_numSlots_tx_gt_pool_config_Global_f57d0a13_atoms = ["pool.all.Slots() : int"; "numSlots(tx) : int"; "pool.config.GlobalSlots : uint64"; "pool.config.GlobalQueue : uint64"]%string
      /\ mainchain_tx_pool__TxPool_truncateQueue__if_queued_le_pool_config_GlobalQueue_atoms = ["queued : uint64"; "pool.config.GlobalQueue : uint64"]%string
      /\ mainchain_tx_pool__TxPool_reset__if_depth_gt_64_atoms = ["depth : uint64"]%string).

Lemma C17_source_tie_proof : C17_source_tie_statement.
Proof.
  unfold C17_source_tie_statement. split_all.
  (* the last nine conjuncts: the operands of guards compared below *)
  41-49: reflexivity.
  - split; reflexivity.
  - intros p t local. unfold validate_tx, validate_tx_src,
      mainchain_tx_pool__TxPool_validateTx__if_uint64_tx_Size_gt_txMaxSize,
      mainchain_tx_pool__TxPool_validateTx__if_tx_Value__Sign_lt_0,
      mainchain_tx_pool__TxPool_validateTx__if_pool_currentMaxGas_lt_tx_Gas,
      mainchain_tx_pool__TxPool_validateTx__if_not_local_and_tx_GasPriceIntCmp_pool_gasPrice_lt_0,
      mainchain_tx_pool__TxPool_validateTx__if_pool_currentState_GetNonce_from_gt_tx_Nonce,
      mainchain_tx_pool__TxPool_validateTx__if_pool_currentState_GetBalance_from__Cmp_tx_Cost_lt_0,
      mainchain_tx_pool__TxPool_validateTx__if_tx_Gas_lt_intrGas, sign_int, tx_max_size.
    rewrite Z.gtb_ltb, cmp_lt0. destruct (t_from t) as [from|]; [|reflexivity].
    rewrite !cmp_lt0, Z.gtb_ltb. reflexivity.
  - intros t legacy. intros Hnz Hzb Hlen. unfold intrinsic_gas, intrinsic_src,
      mainchain_tx_pool__IntrinsicGas__if_contractCreation, mainchain_tx_pool__IntrinsicGas__if_legacy,
      mainchain_tx_pool__IntrinsicGas__let_gas, mainchain_tx_pool__IntrinsicGas__let_gas_2, mainchain_tx_pool__IntrinsicGas__let_gas_3,
      mainchain_tx_pool__IntrinsicGas__let_nonZeroGas, mainchain_tx_pool__IntrinsicGas__if_len_data_gt_0,
      mainchain_tx_pool__IntrinsicGas__if_math_MaxUint64_minus_gas_div_nonZeroGas_lt_nz,
      mainchain_tx_pool__IntrinsicGas__set_gas_op, mainchain_tx_pool__IntrinsicGas__set_z,
      mainchain_tx_pool__IntrinsicGas__if_math_MaxUint64_minus_gas_div_configs_TxDataZeroGas_lt_z,
      mainchain_tx_pool__IntrinsicGas__set_gas_op_2,
      tx_gas_creation, tx_gas_legacy, tx_gas, tx_data_nonzero_gas, tx_data_zero_gas, max_uint64.
    set (gas0 := if t_create t then 53000 else if legacy then 29000 else 21000).
    assert (Hg0 : 21000 <= gas0 <= 53000) by (unfold gas0; destruct (t_create t), legacy; lia).
    rewrite Z.gtb_ltb. destruct (0 <? t_nz t + t_zb t) eqn:Elen; [|reflexivity].
    unfold go_quot, go_sub, go_add, go_mul, go_conv.
    rewrite (wrap_id U64 (18446744073709551615 - gas0)) by (unfold in_range; lia).
    rewrite (quot_small (18446744073709551615 - gas0) 68) by lia.
    assert (Hq1 : 0 <= (18446744073709551615 - gas0) / 68 <= 18446744073709551615).
    { split; [apply Z.div_pos; lia|]. apply Z.div_le_upper_bound; lia. }
    rewrite (wrap_id U64 ((18446744073709551615 - gas0) / 68)) by (unfold in_range; lia).
    destruct ((18446744073709551615 - gas0) / 68 <? t_nz t) eqn:E1; [reflexivity|].
    apply Z.ltb_ge in E1.
    assert (Hm : t_nz t * 68 <= 18446744073709551615 - gas0).
    { pose proof (Z.mul_div_le (18446744073709551615 - gas0) 68 ltac:(lia)). nia. }
    rewrite (wrap_id U64 (t_nz t * 68)) by (unfold in_range; lia).
    rewrite (wrap_id U64 (gas0 + t_nz t * 68)) by (unfold in_range; lia).
    rewrite (wrap_id U64 (t_nz t + t_zb t)) by (unfold in_range; lia).
    replace (t_nz t + t_zb t - t_nz t) with (t_zb t) by lia.
    rewrite (wrap_id U64 (t_zb t)) by (unfold in_range; lia).
    set (g1 := gas0 + t_nz t * 68) in *.
    rewrite (wrap_id U64 (18446744073709551615 - g1)) by (unfold in_range; lia).
    rewrite (quot_small (18446744073709551615 - g1) 4) by lia.
    assert (Hq2 : 0 <= (18446744073709551615 - g1) / 4 <= 18446744073709551615).
    { split; [apply Z.div_pos; lia|]. apply Z.div_le_upper_bound; lia. }
    rewrite (wrap_id U64 ((18446744073709551615 - g1) / 4)) by (unfold in_range; lia).
    destruct ((18446744073709551615 - g1) / 4 <? t_zb t) eqn:E2; [reflexivity|].
    apply Z.ltb_ge in E2.
    assert (Hm2 : t_zb t * 4 <= 18446744073709551615 - g1).
    { pose proof (Z.mul_div_le (18446744073709551615 - g1) 4 ltac:(lia)). nia. }
    rewrite (wrap_id U64 (t_zb t * 4)) by (unfold in_range; lia).
    rewrite (wrap_id U64 (g1 + t_zb t * 4)) by (unfold in_range; lia).
    reflexivity.
  - intros l t bump. unfold l_add, l_add_src, mainchain_tx_pool__txList_Add__if_old_GasPriceCmp_tx_ge_0_or_tx_GasPriceIntCmp_threshold_lt_0.
    destruct (l_get l (sender t) (t_nonce t)) as [old|]; [|reflexivity].
    rewrite cmp_ge0, cmp_lt0. reflexivity.
  - intros strict l a cl gl. unfold l_filter.
    rewrite (filter_ext (fun t => is_acct a t && mainchain_tx_pool__txList_Filter__ret_tx_Gas_gt_gasLimit_or_tx_Cost__Cmp_costLimit_gt_0 (t_gas t) gl (cmp_int (cost t) cl))
                           (fun t => is_acct a t && ((gl <? t_gas t) || (cl <? cost t)))).
    2:{ intros x. unfold mainchain_tx_pool__txList_Filter__ret_tx_Gas_gt_gasLimit_or_tx_Cost__Cmp_costLimit_gt_0. rewrite cmp_gt0, Z.gtb_ltb. reflexivity. }
    destruct (filter (fun t => is_acct a t && ((gl <? t_gas t) || (cl <? cost t))) l) eqn:E; [reflexivity|].
    destruct strict; reflexivity.
  - (* [min_nonce] is the fold of "if lowest > nonce then lowest = nonce" from MaxUint64 *)
    intros l. unfold min_nonce. induction l as [|x l IH]; cbn [fold_right]; [reflexivity|]. rewrite <- IH, src_filter_lowest.
    destruct (Z.ltb_spec (t_nonce x) (fold_right (fun t m => Z.min (t_nonce t) m) max_uint64 l)); lia.
  - intros n lowest. unfold mainchain_tx_pool__txList_Filter__ret_tx_Nonce_gt_lowest. apply Z.gtb_ltb.
  - intros l a th. reflexivity.
  - intros l a th. reflexivity.
  - intros l a start. unfold l_ready, mainchain_tx_pool__txSortedMap_Ready__if_m_index_Len_eq_0_or_mul_m_index_at_0_gt_start.
    destruct (of_acct a l) as [|x r]; [reflexivity|]. rewrite Z.gtb_ltb.
    replace (Z.of_nat (List.length (x :: r)) =? 0) with false by (symmetry; apply Z.eqb_neq; cbn [List.length]; lia).
    reflexivity.
  - intros l a n. unfold l_remove. destruct (l_get l a n); [|reflexivity].
    f_equal; [f_equal|]; apply filter_ext; intros x; rewrite src_remove_invalid; reflexivity.
  - (* priceHeap.Less on equal prices: the higher nonce is "less" (popped first) - the second key of [hkey_lt] *)
    intros o x y. unfold mainchain_tx_pool__priceHeap_Less__ret_h_at_i__Nonce_gt_h_at_j__Nonce, hkey_lt. intros Hp Hn.
    rewrite Z.gtb_ltb in Hn. rewrite Hp, Z.ltb_irrefl, Hn. reflexivity.
  - intros o x y. unfold mainchain_tx_pool__priceHeap_Less__ret_h_at_i__Nonce_gt_h_at_j__Nonce, hkey_lt. intros Hp Hn.
    rewrite Z.gtb_ltb in Hn. rewrite Hp, Z.ltb_irrefl, Hn.
    replace (t_nonce y <? t_nonce x) with false by (symmetry; apply Z.ltb_ge; apply Z.ltb_lt in Hn; lia). reflexivity.
  - intros p count. unfold i64. intros Hs Hl. unfold priced_removed, priced_removed_src, mainchain_tx_pool__txPricedList_Removed__if_int_stales_le_len_mul_l_remotes_div_4, go_conv, go_quot.
    rewrite (wrap_id I64 (p_stales p + count)) by exact Hs.
    rewrite quot4 by lia.
    rewrite (wrap_id I64 (Z.of_nat (List.length (p_heap p)) / 4)).
    + reflexivity.
    + unfold in_range. pose proof (div4_range (Z.of_nat (List.length (p_heap p)))). lia.
  - intros thr m. unfold mainchain_tx_pool__txPricedList_Cap__if_cheapest_GasPriceIntCmp_threshold_ge_0. apply cmp_ge0.
  - exact src_underpriced_ret.
  - intros len slots. intros H. unfold mainchain_tx_pool__txPricedList_Discard__for_len_mul_l_remotes_gt_0_and_slots_gt_0.
    rewrite !Z.gtb_ltb. replace (0 <? len) with true by (symmetry; apply Z.ltb_lt; lia). cbn [andb].
    destruct (Z.ltb_spec 0 slots); destruct (Z.leb_spec slots 0); try reflexivity; lia.
  - intros slots n. intros H. unfold mainchain_tx_pool__txPricedList_Discard__set_slots_op, go_sub. apply wrap_id. exact H.
  - exact src_discard_fail.
  - intros o q t is_local. intros [H0 [H0' [H1 [H2 [H3 H4]]]]]. unfold make_room, make_room_src.
    rewrite src_full_guard by lia.
    destruct (c_gslots (p_cfg q) + c_gqueue (p_cfg q) <? all_slots (p_all q) + num_slots t); [|reflexivity].
    assert (Hall : p_all (fst (if is_local then (q, false) else priced_underpriced q o t)) = p_all q).
    { destruct is_local; [reflexivity|apply priced_underpriced_all]. }
    destruct (if is_local then (q, false) else priced_underpriced q o t) as [q1 under]. cbn [fst] in Hall.
    rewrite (src_discard_arg (all_slots (p_all q1))) by (rewrite ?Hall; lia).
    unfold mainchain_tx_pool__TxPool_add__if_not_isLocal_and_pool_priced_Underpriced_tx.
    destruct (negb is_local && under); [reflexivity|].
    rewrite src_changes_guard by lia.
    destruct (c_gslots (p_cfg q) / 4 <? p_changes q1); [reflexivity|].
    destruct (priced_discard q1 o _ is_local) as [[q2 drop] success].
    unfold mainchain_tx_pool__TxPool_add__if_not_isLocal_and_not_success. reflexivity.
  - intros ch n. intros H. unfold mainchain_tx_pool__TxPool_add__set_changesSinceReorg_op, go_add. apply wrap_id. exact H.
  - intros p from t. unfold journal_tx, mainchain_tx_pool__TxPool_journalTx__if_pool_journal_eq_nil_or_not_pool_locals_contains_from.
    destruct (p_journal p); cbn [is_none orb option_map]; [|reflexivity]. destruct (memN from (p_locals p)); reflexivity.
  - intros p a v. reflexivity.
  - intros c p price. unfold set_gas_price, mainchain_tx_pool__TxPool_SetGasPrice__if_price_Cmp_old_gt_0. rewrite cmp_gt0. reflexivity.
  - (* demoteUnexecutables: "list.Len() > 0 && list.txs.Get(nonce) == nil" is the model's match on (of_acct, l_get) *)
    intros l g. unfold mainchain_tx_pool__TxPool_demoteUnexecutables__if_list_Len_gt_0_and_list_txs_Get_nonce_eq_nil.
    destruct l as [|x r]; [reflexivity|]. rewrite Z.gtb_ltb.
    replace (0 <? Z.of_nat (List.length (x :: r))) with true by (symmetry; apply Z.ltb_lt; cbn [List.length]; lia).
    destruct g; reflexivity.
  - intros inl len aslots. intros H. unfold mainchain_tx_pool__TxPool_truncatePending__if_not_pool_locals_contains_addr_and_uint64_list_Len_gt_pool_co_7ec6767c, go_conv.
    rewrite wrap_id by (unfold in_range; lia). rewrite Z.gtb_ltb. reflexivity.
  - exact src_tp_equalize.
  - exact src_tp_reduce.
  - intros queued gq. intros H1 H2. unfold mainchain_tx_pool__TxPool_truncateQueue__set_drop, go_sub. apply wrap_id. unfold in_range. lia.
  - intros drop size. intros H1 H2. unfold mainchain_tx_pool__TxPool_truncateQueue__set_drop_op, go_sub. apply wrap_id. unfold in_range. lia.
  - intros n. intros H. unfold mainchain_tx_pool__TxPool_runReorg__assign, go_add. apply wrap_id. unfold in_range. lia.
  - (* chain_galaxias reads the fork flag at newHead.Height + 1 *)
    intros ch. intros H. unfold chain_galaxias, mainchain_tx_pool__TxPool_reset__set_next, go_add.
    rewrite wrap_id by (unfold in_range; lia). reflexivity.
  - intros d. apply (src_reset_guards d true true 0 0).
  - (* the lifetime test of the eviction loop (the model's [expire] takes the set of accounts it selects) *)
    intros since life. unfold mainchain_tx_pool__TxPool_loop__if_time_Since_pool_beats_at_addr_gt_pool_config_Lifetime. apply Z.gtb_ltb.
  - (* promote_tx sets the pending nonce to the source argument *)
    intros p a t pd'. intros H E. unfold promote_tx. rewrite E, src_promote_nonce by exact H. reflexivity.
  - intros bump. intros H. unfold mainchain_tx_pool__txList_Add__arg_100_plus_int64_priceBump, go_add, go_conv.
    rewrite (wrap_id I64 bump) by (unfold in_range; lia). apply wrap_id. unfold in_range. lia.
  - (* priceHeap.Less: the two price cases of the switch are the first key of [hkey_lt] *)
    intros o x y. unfold mainchain_tx_pool__priceHeap_Less__case_h_at_i__GasPriceCmp_h_at_j_eq_minus_1,
      mainchain_tx_pool__priceHeap_Less__case_h_at_i__GasPriceCmp_h_at_j_eq_1, cmp_int, hkey_lt.
    destruct (Z.compare_spec (t_price x) (t_price y)) as [He|Hl|Hg]; split; intros H; try discriminate.
    + replace (t_price x <? t_price y) with true by (symmetry; apply Z.ltb_lt; lia). reflexivity.
    + replace (t_price x <? t_price y) with false by (symmetry; apply Z.ltb_ge; lia).
      replace (t_price y <? t_price x) with true by (symmetry; apply Z.ltb_lt; lia). reflexivity.
  - (* list.Cap(list.Len() - 1) of truncatePending is the threshold of [cap_one] *)
    intros len. intros H. unfold mainchain_tx_pool__TxPool_truncatePending__arg_list_Len_minus_1, mainchain_tx_pool__TxPool_truncatePending__arg_list_Len_minus_1_2, go_sub.
    split; apply wrap_id; unfold in_range; lia.
  - (* the count handed to priced.Removed by promoteExecutables *)
    intros a b c. intros. unfold mainchain_tx_pool__TxPool_promoteExecutables__arg_len_forwards_plus_len_drops_plus_len_caps, go_add.
    rewrite (wrap_id I64 (a + b)) by (unfold in_range; lia). apply wrap_id. unfold in_range. lia.
  - split_all; reflexivity.
Qed.
