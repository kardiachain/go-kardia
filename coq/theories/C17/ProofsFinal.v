(** C17 — the step theorem, what the invariant says in the property's words, the replacement rule at
    pool level, rejected => unchanged (partial) and the two refutations. *)
From Coq Require Import List ZArith NArith Bool Lia.
From Kardia Require Import C17.Model C17.ProofsBasic C17.ProofsFrame C17.ProofsInv C17.ProofsOps C17.ProofsReorg C17.ProofsStep C17.ProofsReset.
Import ListNotations.
Local Open Scope Z_scope.

(** Side conditions on operations: a reset brings non-negative (uint64) account nonces; the
    reinjection of reorged-out transactions is not covered (see Open.v). *)
Definition op_ok (o : op) : Prop :=
  match o with OpReset ch re => chain_nonneg ch /\ re = [] | _ => True end.

Lemma inv_step c p o : Inv p -> op_ok o -> Inv (fst (step c p o)).
Proof.
  intros I Hok. destruct o; cbn [step fst].
  - apply inv_add_txs. auto.
  - destruct Hok as [Hnn ->]. apply inv_reset; auto.
  - apply inv_set_gas_price. auto.
  - apply inv_expire. auto.
  - apply inv_new_pool.
Qed.

Lemma inv_run_ops ops : forall cs p, Inv p -> Forall op_ok ops -> Inv (run cs p ops).
Proof.
  induction ops as [|o r IH]; intros cs p I Hok; cbn [run]; auto.
  inversion Hok; subst. apply IH; auto. apply inv_step; auto.
Qed.

Lemma inv_history c0 cfg ch file cs ops : Forall op_ok ops -> Inv (run cs (new_pool c0 cfg ch file) ops).
Proof. intros H. apply inv_run_ops; auto. apply inv_new_pool. Qed.

(** The invariant in the words of the property. *)
Lemma inv_meaning p : Inv p ->
  (* offered txs: per sender a gap-free nonce run starting at the state nonce *)
  (forall t, In t (p_pending p) -> forall n, st_nonce (p_chain p) (sender t) <= n <= t_nonce t ->
             exists t', In t' (p_pending p) /\ sender t' = sender t /\ t_nonce t' = n) /\
  (forall t, In t (p_pending p) -> st_nonce (p_chain p) (sender t) <= t_nonce t) /\
  (* each individually affordable and within the block gas limit *)
  (forall t, In t (p_pending p) -> t_price t * t_gas t + t_value t <= st_balance (p_chain p) (sender t) /\
                                   t_gas t <= ch_gaslimit (p_chain p)) /\
  (* one tx per (sender, nonce) in each list; nothing both pending and queued *)
  NoDup (map key (p_pending p)) /\ NoDup (map key (p_queue p)) /\
  (forall t t', In t (p_pending p) -> In t' (p_queue p) -> key t <> key t' /\ t <> t') /\
  (* the index is exactly the disjoint union of the two lists, every hash once *)
  (forall t, In t (map fst (p_all p)) <-> In t (p_pending p) \/ In t (p_queue p)) /\
  NoDup (map t_id (map fst (p_all p))) /\
  (* nothing below the state nonce *)
  (forall t, In t (p_queue p) -> st_nonce (p_chain p) (sender t) <= t_nonce t) /\
  (* Nonce(addr) is the end of the pending run *)
  (forall a n, (exists t, In t (p_pending p) /\ sender t = a /\ t_nonce t = n) <-> st_nonce (p_chain p) a <= n < pn_get p a).
Proof.
  intros I.
  split.
  { intros t Ht n Hn. pose proof (inv_run _ p I (sender t) n) as H1.
    assert (st_nonce (p_chain p) (sender t) <= t_nonce t < pn_get p (sender t)) by (apply (inv_run _ p I); eauto).
    destruct (proj2 H1) as [t' Ht']; [lia|]. exists t'. tauto. }
  split.
  { intros t Ht.
    assert (st_nonce (p_chain p) (sender t) <= t_nonce t < pn_get p (sender t)) by (apply (inv_run _ p I); eauto). lia. }
  split; [intros t Ht; apply (inv_aff _ p I); auto|].
  split; [apply (inv_kp _ p I)|].
  split; [apply (inv_kq _ p I)|].
  split.
  { intros t t' Ht Ht'. split; [eapply (inv_disjoint _ p I); eauto|].
    intros ->. eapply (inv_disjoint _ p I); eauto. }
  split.
  { intros t. rewrite (inv_idx _ p I). cbn [In]. tauto. }
  split; [apply (inv_ids _ p I)|].
  split.
  { intros t Ht. pose proof (inv_q _ p I t Ht). pose proof (inv_pn _ p I (sender t)). lia. }
  apply (inv_run _ p I).
Qed.

Definition same_content (p p' : pool) : Prop :=
  p_pending p' = p_pending p /\ p_queue p' = p_queue p /\ p_all p' = p_all p /\ p_nonces p' = p_nonces p /\
  p_locals p' = p_locals p /\ p_gasprice p' = p_gasprice p /\ p_chain p' = p_chain p /\
  p_journal p' = p_journal p /\ p_cfg p' = p_cfg p.

Definition pool_full (p : pool) (t : tx) : Prop :=
  (c_gslots (p_cfg p) + c_gqueue (p_cfg p) <? all_slots (p_all p) + num_slots t) = true.

Lemma same_content_refl p : same_content p p.
Proof. unfold same_content. repeat split. Qed.

Lemma heap_only_content p p' : heap_only p p' -> same_content p p'.
Proof. intros [h [s ->]]. repeat split. Qed.

Lemma make_room_not_full o p t l : ~ pool_full p t -> make_room o p t l = (p, None).
Proof.
  unfold pool_full, make_room. intros H. destruct (_ <? _); [exfalso; auto|reflexivity].
Qed.

(* every error path of add leaves the pool as it was, except ErrReplaceUnderpriced after the
   pool-full branch has evicted transactions; the invariant plays no part in it *)
Lemma add_reject_unchanged o p t l p' r e :
  Inv p -> add o p t l = (p', r, e) -> e <> EOk -> (e = EReplace -> ~ pool_full p t) -> same_content p p'.
Proof.
  intros _. unfold add.
  destruct (all_get (p_all p) (t_id t)).
  { intros H; inversion H; subst. intros. apply same_content_refl. }
  set (is_local := l || contains_tx (p_locals p) t).
  destruct (validate_tx p t is_local) eqn:V;
    try (intros H; inversion H; subst; intros; apply same_content_refl).
  destruct (make_room o p t is_local) as [p1 oe] eqn:Emr.
  destruct oe as [e1|].
  { intros H; inversion H; subst. intros. eapply heap_only_content, make_room_error, Emr. }
  assert (Hnf : ~ pool_full p t -> p1 = p).
  { intros Hn. rewrite (make_room_not_full _ _ _ _ Hn) in Emr. congruence. }
  destruct (l_get (p_pending p1) (sender t) (t_nonce t)).
  - destruct (l_add (p_pending p1) t (c_price_bump (p_cfg p))) as [[ok old] pd'].
    destruct ok.
    + intros H; inversion H; subst. congruence.
    + intros H; inversion H; subst. intros _ Hr. rewrite (Hnf (Hr eq_refl)). apply same_content_refl.
  - destruct (enqueue_tx p1 t is_local true) as [[p2 rep] ok].
    destruct ok.
    + intros H; inversion H; subst. congruence.
    + intros H; inversion H; subst. intros _ Hr. rewrite (Hnf (Hr eq_refl)). apply same_content_refl.
Qed.

Lemma add_replace_rule o p t l p' r :
  Inv p -> add o p t l = (p', r, EOk) -> ~ pool_full p t -> 0 <= c_price_bump (p_cfg p) ->
  forall old, In old (p_pending p) \/ In old (p_queue p) -> key old = key t ->
              t_price old < t_price t /\ ((100 + c_price_bump (p_cfg p)) * t_price old) / 100 <= t_price t.
Proof.
  intros I Ha Hnf Hb old Hold Hk. unfold add in Ha.
  destruct (all_get (p_all p) (t_id t)); [inversion Ha|].
  set (is_local := l || contains_tx (p_locals p) t) in *.
  destruct (validate_tx p t is_local); try (inversion Ha; fail).
  rewrite (make_room_not_full _ _ _ _ Hnf) in Ha.
  unfold key in Hk. injection Hk as Hks Hkn.
  destruct (l_get (p_pending p) (sender t) (t_nonce t)) as [o0|] eqn:Egp.
  - destruct (l_add (p_pending p) t (c_price_bump (p_cfg p))) as [[ok old'] pd'] eqn:Ea.
    destruct ok; [|inversion Ha].
    pose proof Ea as Ea'. apply l_add_result in Ea'. destruct Ea' as [[C _]|[_ [_ Ho]]]; [discriminate|].
    rewrite Egp in Ho. subst old'.
    destruct (l_add_replace_rule _ _ _ _ _ Hb Ea) as [_ [_ Hrule]].
    assert (o0 = old).
    { apply l_get_some in Egp. destruct Egp as [Hin Hko].
      destruct Hold as [Hp|Hq].
      - eapply NoDup_map_inj; [apply (inv_kp _ p I)| | |]; eauto. unfold key in *. congruence.
      - exfalso. eapply (inv_disjoint _ p I); eauto. unfold key in *. congruence. }
    subst. exact Hrule.
  - unfold enqueue_tx in Ha.
    destruct (l_add (p_queue p) t (c_price_bump (p_cfg p))) as [[ok old'] q'] eqn:Ea.
    destruct ok; [|inversion Ha].
    destruct Hold as [Hp|Hq].
    { exfalso. eapply (l_get_none _ _ _ Egp old Hp). unfold key. congruence. }
    pose proof Ea as Ea'. apply l_add_result in Ea'. destruct Ea' as [[C _]|[_ [_ Ho]]]; [discriminate|].
    assert (Hg : l_get (p_queue p) (sender t) (t_nonce t) = Some old).
    { rewrite <- Hks, <- Hkn. apply l_get_in_nodup; auto. apply (inv_kq _ p I). }
    rewrite Hg in Ho. subst old'.
    destruct (l_add_replace_rule _ _ _ _ _ Hb Ea) as [_ [_ Hrule]]. exact Hrule.
Qed.

(** Refutations by concrete histories: the Go reproductions, run in the model. *)

Definition ex_cfg : config := mkCfg 1 10 1 1 1 1 false false [].
Definition ex_chain : chain := mkChain [] [(1%N, 1000000000); (2%N, 1000000000)] 1000000 0.
Definition ex_c0 : choice := mkChoice [] [] [].
Definition ex_tx1 : tx := mkTx 1 (Some 1%N) 0 1 100000 100 100 0 0 false.
Definition ex_tx2 : tx := mkTx 2 (Some 2%N) 0 100 100000 100 100 0 0 false.
Definition ex_tx3 : tx := mkTx 3 (Some 2%N) 0 105 100001 100 100 0 0 false.   (* +5% < 10% bump *)
Definition ex_tx4 : tx := mkTx 4 (Some 2%N) 0 101 100001 100 100 0 0 false.
Definition ex_p0 : pool := fst (add_txs ex_c0 (empty_pool ex_cfg ex_chain) [ex_tx1; ex_tx2] false).

(* a rejected add (ErrReplaceUnderpriced) has evicted an unrelated transaction *)
Lemma reject_changes_example :
  Inv ex_p0 /\ pool_full ex_p0 ex_tx3 /\
  snd (add_txs ex_c0 ex_p0 [ex_tx3] false) = [EReplace] /\
  map t_id (p_pending ex_p0) = [2%N; 1%N] /\
  map t_id (p_pending (fst (add_txs ex_c0 ex_p0 [ex_tx3] false))) = [2%N].
Proof.
  split; [apply inv_add_txs; apply inv_empty|]. vm_compute. repeat split.
Qed.

(* pool of two slots: a local tx of account 1 and a remote tx of account 2 at price 100; a remote
   same-nonce tx of account 2 at price 101 (1% < 10% bump) is accepted: the old one is evicted as the
   cheapest remote by the pool-full branch *)
Definition ex_q0 : pool :=
  fst (add_txs ex_c0 (fst (add_txs ex_c0 (empty_pool ex_cfg ex_chain) [ex_tx1] true)) [ex_tx2] false).

Lemma replace_bypass_example :
  Inv ex_q0 /\ pool_full ex_q0 ex_tx4 /\
  snd (add_txs ex_c0 ex_q0 [ex_tx4] false) = [EOk] /\
  In ex_tx2 (p_pending ex_q0) /\ key ex_tx2 = key ex_tx4 /\
  map t_id (p_pending (fst (add_txs ex_c0 ex_q0 [ex_tx4] false))) = [4%N; 1%N] /\
  ~ ((100 + c_price_bump (p_cfg ex_q0)) * t_price ex_tx2 / 100 <= t_price ex_tx4).
Proof.
  split; [apply inv_add_txs; apply inv_add_txs; apply inv_empty|]. vm_compute.
  repeat split; auto; try (intros H; apply H; reflexivity).
Qed.
