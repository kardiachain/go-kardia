(** C17 — reset: promoteExecutables and demoteUnexecutables against a NEW chain state restore the
    invariant (no reinjected transactions). *)
From Coq Require Import List ZArith NArith Bool Lia.
From Kardia Require Import C17.Model C17.ProofsBasic C17.ProofsInv C17.ProofsOps C17.ProofsReorg C17.ProofsPromote.
Import ListNotations.
Local Open Scope Z_scope.

(* one phase of demoteUnexecutables: some pending entries are dropped, some go back to the queue *)
Lemma struct_split q drop move q1 :
  Struct [] q ->
  p_pending q1 = filter (fun t => negb (drop t) && negb (move t)) (p_pending q) ->
  p_queue q1 = p_queue q ->
  map fst (p_all q1) = map fst (all_remove_list (p_all q) (filter drop (p_pending q))) ->
  (forall t, move t = true -> drop t = false) ->
  (forall x y, In x (p_pending q) -> move x = true -> In y (p_queue q) -> key y <> key x) ->
  let q' := enqueue_all q1 (filter move (p_pending q)) in
  Struct [] q' /\ p_pending q' = p_pending q1 /\
  (forall x, In x (p_queue q') <-> (In x (p_pending q) /\ move x = true) \/ In x (p_queue q)) /\
  p_chain q' = p_chain q1 /\ p_nonces q' = p_nonces q1.
Proof.
  intros S Hp Hq Ha Hdm Hk. cbn zeta.
  destruct (enqueue_all_spec (filter move (p_pending q)) q1) as [E1 [E2 [E3 [E4 [E5 E6]]]]].
  { apply NoDup_map_filter. apply (s_kp _ q S). }
  { intros t Ht x Hx. apply filter_In in Ht. rewrite Hq in Hx. apply (Hk t x); tauto. }
  set (q' := enqueue_all q1 (filter move (p_pending q))) in *.
  assert (Hqq : forall x, In x (p_queue q') <-> (In x (p_pending q) /\ move x = true) \/ In x (p_queue q)).
  { intros x. rewrite E5, filter_In, Hq. tauto. }
  split; [|repeat split; auto; apply Hqq].
  constructor.
  - rewrite E2, Hp. apply NoDup_map_filter. apply (s_kp _ q S).
  - apply E6. rewrite Hq. apply (s_kq _ q S).
  - intros x. rewrite E3, Ha, unindex_list_In, (s_idx _ q S), E2, Hp, Hqq, !filter_In; [|apply (s_ids _ q S)|].
    + pose proof (s_dpq _ q S x). pose proof (Hdm x).
      destruct (move x), (drop x); cbn [In negb andb]; intuition congruence.
    + intros y Hy. apply filter_In in Hy. apply (s_idx _ q S). tauto.
  - rewrite E3, Ha. apply all_remove_list_ids. apply (s_ids _ q S).
  - intros x Hx Hxq. rewrite E2, Hp in Hx. apply filter_In in Hx. destruct Hx as [Hx Hb].
    apply andb_true_iff in Hb. destruct Hb as [_ Hm]. apply negb_true_iff in Hm.
    apply Hqq in Hxq. destruct Hxq as [[_ Hm']|Hxq]; [congruence|]. eapply (s_dpq _ q S); eauto.
  - intros x [].
Qed.

(** What demoteUnexecutables does to one account, in terms of a "keep" predicate: [keep] is "not
    forwarded, not filtered out, not invalidated by the strict Filter", or constantly false when the
    gap test sends the whole list back to the queue.  The last two clauses say that the kept entries
    are a nonce prefix from the state nonce [s]; [demote_step] lives on them. *)
Definition demote_post (q q' : pool) (a : N) (keep : tx -> bool) : Prop :=
  let s := st_nonce (p_chain q) a in
  (forall x, In x (p_pending q') <-> In x (p_pending q) /\ (sender x = a -> keep x = true)) /\
  (forall x, In x (p_queue q') ->
             In x (p_queue q) \/ (In x (p_pending q) /\ sender x = a /\ s <= t_nonce x /\ keep x = false)) /\
  (forall x, In x (p_queue q) -> In x (p_queue q')) /\
  (forall x, In x (p_pending q) -> sender x = a -> keep x = true -> s <= t_nonce x /\ affordable q x) /\
  (forall x y, In x (p_pending q) -> In y (p_pending q) -> sender x = a -> sender y = a -> keep y = true ->
               s <= t_nonce x <= t_nonce y -> keep x = true) /\
  ((exists x, In x (p_pending q) /\ sender x = a /\ keep x = true) ->
   exists x, In x (p_pending q) /\ sender x = a /\ keep x = true /\ t_nonce x = s).

Lemma demote_account_spec q a :
  Struct [] q ->
  (forall x y, In x (p_pending q) -> In y (p_queue q) -> sender x = a -> sender y = a ->
               st_nonce (p_chain q) a <= t_nonce x -> t_nonce x < t_nonce y) ->
  let q' := demote_account q a in
  Struct [] q' /\ p_chain q' = p_chain q /\ p_nonces q' = p_nonces q /\ exists keep, demote_post q q' a keep.
Proof.
  intros S Hsep. cbn zeta. unfold demote_account.
  set (s := st_nonce (p_chain q) a).
  unfold l_forward. cbv beta iota zeta.
  set (old := fun t => is_acct a t && (t_nonce t <? s)).
  set (q1 := set_all (set_pending q (filter (fun t => negb (old t)) (p_pending q))) (all_remove_list (p_all q) (filter old (p_pending q)))).
  (* phase 1: forward *)
  destruct (struct_split q old (fun _ => false) q1 S) as [S1 _]; auto.
  { unfold q1. cbn [p_pending set_all set_pending]. apply filter_ext. intros t. rewrite andb_true_r. reflexivity. }
  { intros; discriminate. }
  { intros; discriminate. }
  rewrite filter_all_false in S1 by auto. unfold enqueue_all in S1. cbn [fold_left] in S1.
  (* phase 2: filter *)
  rewrite l_filter_true.
  set (bad := fun t => is_acct a t && ((ch_gaslimit (p_chain q) <? t_gas t) || (st_balance (p_chain q) a <? cost t))).
  set (removed := filter bad (p_pending q1)).
  set (mv := fun t => match removed with [] => false | _ => negb (bad t) && (is_acct a t && (min_nonce removed <? t_nonce t)) end).
  cbv beta iota zeta.
  set (q2 := set_all (set_pending q1 (filter (fun t => negb (bad t) && negb (mv t)) (p_pending q1))) (all_remove_list (p_all q1) removed)).
  assert (Hp1 : forall x, In x (p_pending q1) <-> In x (p_pending q) /\ old x = false).
  { intros x. unfold q1. cbn [p_pending set_all set_pending]. rewrite filter_In, negb_true_iff. tauto. }
  assert (Hold : forall x, old x = false <-> (sender x = a -> s <= t_nonce x)).
  { intros x. unfold old. rewrite andb_false_iff, is_acct_false_iff, Z.ltb_ge. split.
    - intros [H|H]; [contradiction|auto].
    - intros H. destruct (N.eq_dec (sender x) a); auto. }
  assert (Hmv_a : forall x, mv x = true -> sender x = a /\ bad x = false).
  { intros x. unfold mv. destruct removed; [discriminate|]. rewrite !andb_true_iff, negb_true_iff, is_acct_true. tauto. }
  destruct (struct_split q1 bad mv q2 S1) as [S3 [P3 [Q3 [C3 N3]]]]; auto.
  { intros t Ht. apply Hmv_a in Ht. tauto. }
  { intros x y Hx Hm Hy. apply Hp1 in Hx. destruct Hx as [Hx Ho]. apply Hmv_a in Hm. destruct Hm as [Hs _].
    unfold q1 in Hy. cbn [p_queue set_all set_pending] in Hy.
    intros Hk. unfold key in Hk. injection Hk as Hks Hkn.
    pose proof (proj1 (Hold x) Ho Hs) as Hge.
    assert (t_nonce x < t_nonce y) by (apply Hsep; auto; congruence). lia. }
  fold removed in S3, P3, Q3, C3, N3.
  set (q3 := enqueue_all q2 (filter mv (p_pending q1))) in *.
  assert (Hp3 : forall x, In x (p_pending q3) <-> In x (p_pending q) /\ old x = false /\ bad x = false /\ mv x = false).
  { intros x. rewrite P3. unfold q2. cbn [p_pending set_all set_pending]. rewrite filter_In, Hp1, andb_true_iff, !negb_true_iff. tauto. }
  assert (Hq3 : forall x, In x (p_queue q3) <-> In x (p_queue q) \/ (In x (p_pending q) /\ old x = false /\ mv x = true)).
  { intros x. rewrite Q3, Hp1. unfold q1. cbn [p_queue set_all set_pending]. tauto. }
  assert (Hch3 : p_chain q3 = p_chain q) by (rewrite C3; reflexivity).
  assert (Hn3 : p_nonces q3 = p_nonces q) by (rewrite N3; reflexivity).
  assert (Hbad : forall x, sender x = a -> bad x = false -> affordable q x) by exact (unpayable_false q a).
  assert (Hdown : forall x y, In x (p_pending q) -> In y (p_pending q) -> sender x = a -> sender y = a ->
                              old y = false -> bad y = false -> mv y = false -> s <= t_nonce x <= t_nonce y ->
                              old x = false /\ bad x = false /\ mv x = false).
  { intros x y Hx Hy Hsx Hsy Hoy Hby Hmy Hle.
    assert (Hox : old x = false) by (apply Hold; intros; lia).
    split; auto.
    assert (Hx1 : In x (p_pending q1)) by (apply Hp1; auto).
    destruct (bad x) eqn:Ebx.
    - exfalso. assert (Hrx : In x removed) by (apply filter_In; auto).
      pose proof (min_nonce_le _ _ Hrx) as Hlow.
      unfold mv in Hmy. destruct removed as [|r rs] eqn:Er; [destruct Hrx|].
      rewrite Hby in Hmy. cbn [negb andb] in Hmy.
      apply andb_false_iff in Hmy. destruct Hmy as [Hmy|Hmy].
      + apply is_acct_false_iff in Hmy. contradiction.
      + apply Z.ltb_ge in Hmy.
        assert (x = y).
        { eapply NoDup_map_inj; [apply (s_kp _ q S)| | |]; auto. unfold key. f_equal; [congruence|lia]. }
        subst. congruence.
    - split; auto. unfold mv. destruct removed as [|r rs] eqn:Er; auto.
      rewrite Ebx. cbn [negb andb]. apply andb_false_iff. right. apply Z.ltb_ge.
      unfold mv in Hmy. rewrite Hby in Hmy. cbn [negb andb] in Hmy.
      apply andb_false_iff in Hmy. destruct Hmy as [Hmy|Hmy].
      + apply is_acct_false_iff in Hmy. contradiction.
      + apply Z.ltb_ge in Hmy. lia. }
  (* without a gap in front the account is done: what stays is what the two filters kept *)
  set (keep := fun t => negb (old t) && negb (bad t) && negb (mv t)).
  assert (Hkeep : forall x, keep x = true <-> old x = false /\ bad x = false /\ mv x = false).
  { intros x. unfold keep. rewrite !andb_true_iff, !negb_true_iff. tauto. }
  assert (Hnogap : of_acct a (p_pending q3) = [] \/ (exists t0, l_get (p_pending q3) a s = Some t0) ->
                   demote_post q q3 a keep).
  { intros Hcase. unfold demote_post. fold s. split; [|split; [|split; [|split; [|split]]]].
    - intros x. rewrite Hp3, Hkeep. split.
      + intros [Hx H]. split; auto.
      + intros [Hx H]. split; auto. destruct (N.eq_dec (sender x) a) as [Hs|Hs]; auto.
        repeat split.
        * apply Hold. intros; contradiction.
        * apply (other_account_kept q a). exact Hs.
        * destruct (mv x) eqn:Em; auto. apply Hmv_a in Em. tauto.
    - intros x Hx. apply Hq3 in Hx. destruct Hx as [Hx|[Hx [Ho Hm]]]; auto. right.
      destruct (Hmv_a x Hm) as [Hs _]. repeat split; auto. { apply Hold; auto. }
      unfold keep. rewrite Hm. cbn. apply andb_false_r.
    - intros x Hx. apply Hq3. auto.
    - intros x Hx Hs Hkx. apply Hkeep in Hkx. destruct Hkx as [Ho [Hb Hm]]. split; [apply Hold; auto|apply Hbad; auto].
    - intros x y Hx Hy Hsx Hsy Hky Hle. apply Hkeep in Hky. destruct Hky as [Ho [Hb Hm]]. apply Hkeep. eapply Hdown; eauto.
    - intros [x [Hx [Hs Hkx]]]. apply Hkeep in Hkx. destruct Hcase as [Eacct|[t0 Eg]].
      + exfalso. apply (of_acct_nil _ _ Eacct x); auto. apply Hp3. tauto.
      + apply l_get_some in Eg. destruct Eg as [Ht0 Hk0]. unfold key in Hk0. injection Hk0 as Hs0 Hn0.
        apply Hp3 in Ht0. exists t0. repeat split; try tauto. apply Hkeep. tauto. }
  match goal with |- Struct [] ?F /\ _ =>
    change F with (match of_acct a (p_pending q3), l_get (p_pending q3) a s with
                   | _ :: _, None => let '(gapped, pd3) := l_cap (p_pending q3) a 0 in enqueue_all (set_pending q3 pd3) gapped
                   | _, _ => q3 end) end.
  destruct (of_acct a (p_pending q3)) as [|z zs] eqn:Eacct.
  { split; [exact S3|]. split; [exact Hch3|]. split; [exact Hn3|]. exists keep. apply Hnogap. left. reflexivity. }
  destruct (l_get (p_pending q3) a s) as [t0|] eqn:Eg.
  { split; [exact S3|]. split; [exact Hch3|]. split; [exact Hn3|]. exists keep. apply Hnogap. right. exists t0. reflexivity. }
  (* a gap in front: everything of the account goes back to the queue *)
  unfold l_cap. destruct (l_len (p_pending q3) a <=? 0) eqn:El.
  { exfalso. apply Z.leb_le in El. unfold l_len in El. rewrite Eacct in El. cbn [length] in El. lia. }
  cbv beta iota zeta.
  assert (Hf : forall l, filter (fun t => is_acct a t && (0 <=? rank_in (p_pending q3) a t)) l = filter (is_acct a) l).
  { intros l. apply filter_ext. intros t. unfold rank_in. destruct (0 <=? Z.of_nat _) eqn:E; [apply andb_true_r|].
    apply Z.leb_gt in E. lia. }
  assert (Hf' : forall l, filter (fun t => negb (is_acct a t && (0 <=? rank_in (p_pending q3) a t))) l = filter (fun t => negb (is_acct a t)) l).
  { intros l. apply filter_ext. intros t. unfold rank_in. destruct (0 <=? Z.of_nat _) eqn:E; [rewrite andb_true_r; auto|].
    apply Z.leb_gt in E. lia. }
  rewrite Hf, Hf'.
  destruct (struct_split q3 (fun _ => false) (is_acct a) (set_pending q3 (filter (fun t => negb (is_acct a t)) (p_pending q3))) S3)
    as [S4 [P4 [Q4 [C4 N4]]]].
  { cbn [p_pending set_pending]. apply filter_ext. intros t. reflexivity. }
  { reflexivity. }
  { cbn [p_all set_pending]. rewrite filter_all_false by auto. reflexivity. }
  { auto. }
  { intros x y Hx Hm Hy. apply is_acct_true in Hm. apply Hp3 in Hx. destruct Hx as [Hx [Ho [Hb Hmx]]].
    apply Hq3 in Hy. intros Hk. unfold key in Hk. injection Hk as Hks Hkn.
    destruct Hy as [Hy|[Hy [Hoy Hmy]]].
    - assert (t_nonce x < t_nonce y) by (apply Hsep; auto; try congruence; apply Hold; auto). lia.
    - assert (x = y).
      { eapply NoDup_map_inj; [apply (s_kp _ q S)| | |]; auto. unfold key. congruence. }
      subst. congruence. }
  cbn [p_pending p_queue p_chain p_nonces set_pending] in P4, Q4, C4, N4.
  split; [exact S4|]. split; [rewrite C4; exact Hch3|]. split; [rewrite N4; exact Hn3|].
  exists (fun _ => false).
  unfold demote_post. fold s. split; [|split; [|split; [|split; [|split]]]].
  - intros x. rewrite P4, filter_In, negb_true_iff, is_acct_false_iff, Hp3. split.
    + intros [[Hx _] Hs]. split; auto; intros; contradiction.
    + intros [Hx Hk]. destruct (N.eq_dec (sender x) a) as [Hs|Hs]; [specialize (Hk Hs); discriminate|].
      repeat split; auto.
      * apply Hold. intros; contradiction.
      * apply (other_account_kept q a). exact Hs.
      * destruct (mv x) eqn:Em; auto. apply Hmv_a in Em. tauto.
  - intros x Hx. apply Q4 in Hx. destruct Hx as [[Hx Hm]|Hx].
    + apply is_acct_true in Hm. apply Hp3 in Hx. destruct Hx as [Hx [Ho _]]. right. repeat split; auto. apply Hold; auto.
    + apply Hq3 in Hx. destruct Hx as [Hx|[Hx [Ho Hm]]]; auto. right.
      destruct (Hmv_a x Hm) as [Hs _]. repeat split; auto. apply Hold; auto.
  - intros x Hx. apply Q4. right. apply Hq3. auto.
  - intros; discriminate.
  - intros; discriminate.
  - intros [x [_ [_ H]]]. discriminate.
Qed.

(* before the account's promotion run: pending is an interval, the queue lies beyond it, fresh noncer *)
Definition before_promote (q : pool) (a : N) : Prop :=
  exists lo0 hi, lo0 <= hi /\ (forall n, has (p_pending q) a n <-> lo0 <= n < hi) /\
                 (forall t, In t (p_queue q) -> sender t = a -> hi <= t_nonce t) /\
                 pn_get q a = st_nonce (p_chain q) a.

(* after it: above the state nonce pending is an interval, the queue is not stale and lies beyond it *)
Definition after_promote (q : pool) (a : N) : Prop :=
  exists f0 top, st_nonce (p_chain q) a <= f0 /\
                 (forall n, st_nonce (p_chain q) a <= n -> (has (p_pending q) a n <-> f0 <= n < top)) /\
                 (forall t, In t (p_queue q) -> sender t = a -> st_nonce (p_chain q) a <= t_nonce t /\ top <= t_nonce t).

(* after demotion: the per-account invariant up to the value of the pending nonce *)
Definition after_demote (q : pool) (a : N) : Prop :=
  exists x, st_nonce (p_chain q) a <= x /\
            (forall n, has (p_pending q) a n <-> st_nonce (p_chain q) a <= n < x) /\
            (forall t, In t (p_queue q) -> sender t = a -> x <= t_nonce t) /\
            (forall t, In t (p_pending q) -> sender t = a -> affordable q t).

(* the three predicates look at the account's own entries only *)
Definition same_acct (q q' : pool) (b : N) : Prop :=
  p_chain q' = p_chain q /\
  (forall t, sender t = b -> (In t (p_pending q') <-> In t (p_pending q))) /\
  (forall t, sender t = b -> (In t (p_queue q') <-> In t (p_queue q))).

Lemma has_same q q' b : same_acct q q' b -> forall n, has (p_pending q') b n <-> has (p_pending q) b n.
Proof.
  intros [_ [Hp _]] n. unfold has. split; intros [t [Ht [Hs Hn]]]; exists t; (split; [apply (Hp t Hs); exact Ht|auto]).
Qed.

Lemma before_promote_same q q' b : same_acct q q' b -> pn_get q' b = pn_get q b -> before_promote q b -> before_promote q' b.
Proof.
  intros A Hpn [l0 [h0 [H1 [H2 [H3 H4]]]]]. pose proof (has_same _ _ _ A) as Hhas. destruct A as [Hch [_ Hq]].
  exists l0, h0. split; auto. split; [|split].
  - intros n. rewrite Hhas. auto.
  - intros t Ht Hs. apply H3; auto. apply Hq; auto.
  - rewrite Hch, Hpn. exact H4.
Qed.

Lemma after_promote_same q q' b : same_acct q q' b -> after_promote q b -> after_promote q' b.
Proof.
  intros A [f0 [top [H1 [H2 H3]]]]. pose proof (has_same _ _ _ A) as Hhas. destruct A as [Hch [_ Hq]].
  exists f0, top. rewrite Hch. split; auto. split.
  - intros n Hn. rewrite Hhas. auto.
  - intros t Ht Hs. apply H3; auto. apply Hq; auto.
Qed.

Lemma after_demote_same q q' b : same_acct q q' b -> after_demote q b -> after_demote q' b.
Proof.
  intros A [x [H1 [H2 [H3 H4]]]]. pose proof (has_same _ _ _ A) as Hhas. destruct A as [Hch [Hp Hq]].
  exists x. rewrite Hch. split; auto. split; [|split].
  - intros n. rewrite Hhas. auto.
  - intros t Ht Hs. apply H3; auto. apply Hq; auto.
  - intros t Ht Hs. unfold affordable. rewrite Hch. apply H4; auto. apply Hp; auto.
Qed.

(* an account whose pending entries stay and whose queue keeps no stale entry is through its promotion *)
Lemma promoted_nothing q q' a :
  before_promote q a -> p_chain q' = p_chain q ->
  (forall n, has (p_pending q') a n <-> has (p_pending q) a n) ->
  (forall t, In t (p_queue q') -> sender t = a -> In t (p_queue q) /\ st_nonce (p_chain q) a <= t_nonce t) ->
  after_promote q' a.
Proof.
  intros [lo0 [hi [Hle [Hrun [Hq Hpn]]]]] Hch Hhas Hq'. unfold after_promote. rewrite Hch.
  set (s := st_nonce (p_chain q) a) in *.
  destruct (Z_le_gt_dec hi s) as [Hhs|Hhs].
  - exists s, s. split; [lia|]. split.
    + intros n Hn. rewrite Hhas, Hrun. lia.
    + intros t Ht Hs. destruct (Hq' t Ht Hs). lia.
  - exists (Z.max lo0 s), hi. split; [lia|]. split.
    + intros n Hn. rewrite Hhas, Hrun. lia.
    + intros t Ht Hs. destruct (Hq' t Ht Hs) as [H1 H2]. specialize (Hq t H1 Hs). lia.
Qed.

Lemma idle_promoted q a : before_promote q a -> (forall t, In t (p_queue q) -> sender t <> a) -> after_promote q a.
Proof.
  intros HW Hno. apply (promoted_nothing q q a); auto; [tauto|].
  intros t Ht Hs. exfalso. eapply Hno; eauto.
Qed.

Lemma promote_step q a :
  Struct [] q -> before_promote q a ->
  let q' := promote_account q a in
  Struct [] q' /\ p_chain q' = p_chain q /\ (forall x, In x (p_queue q') -> In x (p_queue q)) /\ after_promote q' a /\
  (forall b, b <> a -> (before_promote q b -> before_promote q' b) /\ (after_promote q b -> after_promote q' b)).
Proof.
  intros S HW. pose proof HW as [lo0 [hi [Hle [Hrun [Hq Hpn]]]]]. cbn zeta.
  destruct (promote_account_spec q a S) as [S' [Hch [R [lo [P1 [P2 [P3 [P4 [P5 [P6 [P7 P8]]]]]]]]]]].
  { intros x y Hx Hy Hsx Hsy _. specialize (Hq y Hy Hsy).
    assert (lo0 <= t_nonce x < hi) by (apply Hrun; exists x; auto). lia. }
  set (q' := promote_account q a) in *. set (s := st_nonce (p_chain q) a) in *.
  split; auto. split; auto. split; [intros x Hx; apply P5 in Hx; tauto|]. split.
  - (* after_promote for the promoted account *)
    destruct R as [|r0 R0] eqn:ER.
    + (* nothing promoted *)
      apply (promoted_nothing q q' a HW Hch).
      * intros n. split; intros [t [Ht [Hs Hn]]]; exists t; (split; [|auto]); apply P1 in Ht || apply P1; cbn [In] in *; tauto.
      * intros t Ht Hs. destruct (P5 t Ht) as [Htq [_ Hc]]. split; [exact Htq|]. apply Hc. exact Hs.
    + rewrite <- ER in *. unfold after_promote. rewrite Hch. fold s.
      assert (HRne : R <> []) by (rewrite ER; discriminate).
      destruct (P4 HRne) as [Hlo1 Hlo2]. rewrite Hpn in Hlo2. fold s in Hlo2.
      assert (Hlo : lo = s) by lia.
      assert (Hhi : hi <= lo).
      { destruct (P3 lo) as [x [Hx Hxn]]; [destruct R; [congruence|cbn [length]; lia]|].
        destruct (P2 x Hx) as [Hxq [Hxs _]]. specialize (Hq x Hxq Hxs). lia. }
      exists s, (s + Z.of_nat (length R)). split; [lia|]. split.
      * intros n Hn. split.
        -- intros [t [Ht [Hs Hnn]]]. apply P1 in Ht. destruct Ht as [Ht|Ht].
           ++ assert (lo0 <= n < hi) by (apply Hrun; exists t; auto). lia.
           ++ destruct (P2 t Ht) as [_ [_ [_ Hr]]]. lia.
        -- intros Hr. destruct (P3 n) as [t [Ht Htn]]; [lia|]. exists t. split; [apply P1; auto|].
           split; auto. apply P2. auto.
      * intros t Ht Hs. destruct (P5 t Ht) as [_ [_ Hc]]. destruct (Hc Hs) as [H1 H2]. specialize (H2 HRne). lia.
  - (* the other accounts: nothing of theirs moves *)
    intros b Hb.
    assert (A : same_acct q q' b).
    { split; [exact Hch|]. split; intros t Hs.
      - rewrite P1. split; [|auto]. intros [H|H]; [exact H|]. destruct (P2 t H) as [_ [Hs' _]]. congruence.
      - split; [intros H; apply P5 in H; tauto|]. intros H. apply P6; auto. congruence. }
    split; [apply before_promote_same; auto|apply after_promote_same; auto].
Qed.

Lemma demote_step q a :
  Struct [] q -> after_promote q a -> 0 <= st_nonce (p_chain q) a ->
  let q' := demote_account q a in
  Struct [] q' /\ p_chain q' = p_chain q /\ after_demote q' a /\
  (forall b, b <> a -> (after_promote q b -> after_promote q' b) /\ (after_demote q b -> after_demote q' b)).
Proof.
  intros S [f0 [top [Hf0 [Hrun Hq]]]] Hnn. cbn zeta.
  destruct (demote_account_spec q a S) as [S' [Hch [_ [keep [P1 [P2 [P3 [P4 [P5 P6]]]]]]]]].
  { intros x y Hx Hy Hsx Hsy Hge. destruct (Hq y Hy Hsy) as [_ Ht].
    assert (f0 <= t_nonce x < top) by (apply Hrun; auto; exists x; auto). lia. }
  set (q' := demote_account q a) in *. set (s := st_nonce (p_chain q) a) in *.
  split; auto. split; auto. split.
  - unfold after_demote. rewrite Hch. fold s.
    destruct (of_acct a (p_pending q')) as [|z zs] eqn:Eacct.
    + (* nothing of the account stays pending *)
      pose proof (of_acct_nil _ _ Eacct) as Hno.
      exists s. split; [lia|]. split; [|split].
      * intros n. split; [|lia]. intros [t [Ht [Hs _]]]. exfalso. eapply Hno; eauto.
      * intros t Ht Hs. apply P2 in Ht. destruct Ht as [Ht|[_ [_ [Hge _]]]]; [|auto]. apply Hq; auto.
      * intros t Ht Hs. exfalso. eapply Hno; eauto.
    + set (l := of_acct a (p_pending q')) in *.
      assert (Hl : forall t, In t l <-> In t (p_pending q) /\ sender t = a /\ keep t = true).
      { intros t. unfold l, of_acct. rewrite filter_In, is_acct_true, P1. split; [intros [[H1 H2] H3]|intros [H1 [H2 H3]]]; auto. }
      assert (Hlne : l <> []) by (rewrite Eacct; discriminate).
      destruct (max_nonce_attained l Hlne) as [y [Hy Hym]].
      { intros t Ht. apply Hl in Ht. destruct Ht as [Ht [Hs Hk]]. destruct (P4 t Ht Hs Hk). lia. }
      apply Hl in Hy. destruct Hy as [Hyp [Hys Hyk]].
      destruct P6 as [t0 [Ht0 [Hs0 [Hk0 Hn0]]]]; [exists y; auto|].
      assert (Hf0s : f0 = s).
      { assert (f0 <= s < top) by (apply Hrun; [lia|]; exists t0; auto). lia. }
      assert (Hytop : t_nonce y < top).
      { destruct (P4 y Hyp Hys Hyk) as [Hge _].
        assert (f0 <= t_nonce y < top) by (apply Hrun; auto; exists y; auto). lia. }
      exists (max_nonce l + 1). split; [|split; [|split]].
      * destruct (P4 y Hyp Hys Hyk). lia.
      * intros n. split.
        -- intros [t [Ht [Hs Hn]]]. apply P1 in Ht. destruct Ht as [Ht Hk]. specialize (Hk Hs).
           destruct (P4 t Ht Hs Hk) as [Hge _].
           assert (t_nonce t <= max_nonce l) by (apply max_nonce_ge; apply Hl; auto). lia.
        -- intros Hn. destruct (proj2 (Hrun n (proj1 Hn))) as [u [Hu [Hus Hun]]]; [lia|].
           exists u. split; auto. apply P1. split; auto. intros _.
           apply (P5 u y); auto. lia.
      * intros t Ht Hs. apply P2 in Ht. destruct Ht as [Ht|[Ht [_ [Hge Hk]]]].
        -- destruct (Hq t Ht Hs). lia.
        -- destruct (Z_lt_ge_dec (t_nonce t) (max_nonce l + 1)) as [Hlt|]; [|lia].
           exfalso. assert (keep t = true) by (apply (P5 t y); auto; lia). congruence.
      * intros t Ht Hs. apply P1 in Ht. destruct Ht as [Ht Hk]. specialize (Hk Hs).
        destruct (P4 t Ht Hs Hk) as [_ Haff]. unfold affordable in *. rewrite Hch. auto.
  - (* the other accounts: nothing of theirs moves *)
    intros b Hb.
    assert (A : same_acct q q' b).
    { split; [exact Hch|]. split; intros t Hs.
      - rewrite P1. split; [tauto|]. intros H. split; [exact H|]. intros; congruence.
      - split; [|apply P3]. intros H. apply P2 in H. destruct H as [H|[_ [Hs' _]]]; auto. congruence. }
    split; [apply after_promote_same; exact A|apply after_demote_same; exact A].
Qed.

(* a loop over distinct accounts whose step takes its own account from [Pre] to [Post] and leaves
   both alone for the others *)
Lemma fold_accounts (step : pool -> N -> pool) (G : pool -> Prop) (Pre Post : pool -> N -> Prop) :
  (forall q a, G q -> Pre q a ->
     G (step q a) /\ Post (step q a) a /\
     forall b, b <> a -> (Pre q b -> Pre (step q a) b) /\ (Post q b -> Post (step q a) b)) ->
  forall accts q, NoDup accts -> G q -> (forall a, In a accts -> Pre q a) ->
  G (fold_left step accts q) /\ (forall a, In a accts -> Post (fold_left step accts q) a) /\
  (forall b, ~ In b accts -> (Pre q b -> Pre (fold_left step accts q) b) /\ (Post q b -> Post (fold_left step accts q) b)).
Proof.
  intros Hstep. induction accts as [|a r IH]; intros q Hd HG HP; cbn [fold_left].
  - split; [exact HG|]. split; [intros a []|]. auto.
  - apply NoDup_cons_iff in Hd. destruct Hd as [Hna Hd].
    destruct (Hstep q a HG (HP a (or_introl eq_refl))) as [G1 [P1 F1]].
    destruct (IH (step q a) Hd G1) as [G2 [P2 F2]].
    { intros b Hb. apply F1; [intros ->; contradiction|]. apply HP. cbn. auto. }
    split; [exact G2|]. split.
    + intros b [<-|Hb]; [|auto]. apply F2; auto.
    + intros b Hb. assert (b <> a) by (intros ->; apply Hb; cbn; auto).
      assert (~ In b r) by (intros H'; apply Hb; cbn; auto).
      split; intros H'; apply F2; auto; apply F1; auto.
Qed.

Definition chain_nonneg (ch : chain) : Prop := forall a, 0 <= st_nonce ch a.

(** the pool a reset produces before the two truncations *)
Definition reset_core (c : choice) (p : pool) (ch : chain) : pool :=
  let q0 := do_reset c p ch [] in
  let q1 := promote_executables q0 (accounts (p_queue q0)) in
  let q2 := demote_unexecutables q1 in
  set_nonces q2 (map (fun a => (a, max_nonce (of_acct a (p_pending q2)) + 1)) (accounts (p_pending q2))).

Lemma run_reorg_reset_eq c p ch : run_reorg c p (Some (ch, [])) [] = reorg_tail c (reset_core c p ch).
Proof. reflexivity. Qed.

Lemma inv_reset_core c p ch : Inv p -> chain_nonneg ch -> Inv (reset_core c p ch).
Proof.
  intros I Hnn. unfold reset_core, do_reset. cbn [add_txs_locked].
  set (q0 := set_galaxias (set_nonces (set_chain p ch) []) (chain_galaxias ch)).
  pose proof I as I0. apply Inv_split in I0. destruct I0 as [S0 A0].
  assert (Sq0 : Struct [] q0) by (eapply Struct_ext; [| | |exact S0]; reflexivity).
  assert (Wq0 : forall a, before_promote q0 a).
  { intros a. destruct (A0 a) as [Hrun [Hpn [Hq _]]].
    exists (st_nonce (p_chain p) a), (pn_get p a). split; [exact Hpn|]. split; [exact Hrun|]. split; [exact Hq|]. reflexivity. }
  destruct (accounts_spec (p_queue q0)) as [Hnd Hacc].
  set (G := fun q => Struct [] q /\ p_chain q = ch /\ forall x, In x (p_queue q) -> In x (p_queue q0)).
  destruct (fold_accounts promote_account G before_promote after_promote) with (accts := accounts (p_queue q0)) (q := q0) as [[S1 [Hch1 Q1]] [M1 F1]];
    [|exact Hnd|split; [exact Sq0|split; [reflexivity|auto]]|intros; apply Wq0|].
  { intros q a [S [C Q]] HW. destruct (promote_step q a S HW) as [S' [C' [Q' H']]].
    split; [split; [exact S'|split; [congruence|auto]]|exact H']. }
  fold (promote_executables q0 (accounts (p_queue q0))) in *. set (q1 := promote_executables q0 (accounts (p_queue q0))) in *.
  assert (Mq1 : forall a, after_promote q1 a).
  { intros a. destruct (in_dec N.eq_dec a (accounts (p_queue q0))) as [Hin|Hnin]; [auto|].
    apply idle_promoted; [apply F1; auto|]. intros t Ht Hs. apply Hnin. apply Hacc. exists t. split; auto. }
  destruct (accounts_spec (p_pending q1)) as [Hnd1 Hacc1].
  assert (Dstart : forall b, ~ In b (accounts (p_pending q1)) -> after_demote q1 b).
  { intros b Hb. destruct (Mq1 b) as [f0 [top [Hf0 [Hrun Hq]]]].
    exists (st_nonce (p_chain q1) b). split; [lia|]. split; [|split].
    - intros n. split; [|lia]. intros [t [Ht [Hs _]]]. exfalso. apply Hb. apply Hacc1. eauto.
    - intros t Ht Hs. apply Hq; auto.
    - intros t Ht Hs. exfalso. apply Hb. apply Hacc1. eauto. }
  clear G. set (G := fun q => Struct [] q /\ p_chain q = ch).
  destruct (fold_accounts demote_account G after_promote after_demote) with (accts := accounts (p_pending q1)) (q := q1) as [[S2 Hch2] [D2 F2]];
    [|exact Hnd1|split; [exact S1|exact Hch1]|auto|].
  { intros q a [S C] HM. destruct (demote_step q a S HM) as [S' [C' H']]; [rewrite C; apply Hnn|].
    split; [split; [exact S'|congruence]|exact H']. }
  fold (demote_unexecutables q1) in *. set (q2 := demote_unexecutables q1) in *.
  assert (Dq2 : forall a, after_demote q2 a).
  { intros a. destruct (in_dec N.eq_dec a (accounts (p_pending q1))) as [Hin|Hnin]; [auto|]. apply F2; auto. }
  set (q3 := set_nonces q2 (map (fun a => (a, max_nonce (of_acct a (p_pending q2)) + 1)) (accounts (p_pending q2)))).
  change (Inv q3).
  apply Inv_split. split; [eapply Struct_ext; [| | |exact S2]; reflexivity|].
  intros a. destruct (Dq2 a) as [x [Hx [Hrun [Hq Haff]]]].
  destruct (accounts_spec (p_pending q2)) as [_ Hacc2].
  assert (Hpn : pn_get q3 a = x).
  { unfold pn_get, q3. cbn [p_nonces p_chain set_nonces]. rewrite lookupZ_map.
    destruct (memN a (accounts (p_pending q2))) eqn:Em.
    - apply memN_In in Em. apply Hacc2 in Em. destruct Em as [t [Ht Hs]].
      set (l := of_acct a (p_pending q2)).
      assert (Hl : forall u, In u l <-> In u (p_pending q2) /\ sender u = a).
      { intros u. unfold l, of_acct. rewrite filter_In, is_acct_true. tauto. }
      assert (Hlne : l <> []) by (intros E; assert (In t l) by (apply Hl; auto); rewrite E in H; destruct H).
      assert (Hs0 : 0 <= st_nonce (p_chain q2) a) by (rewrite Hch2; apply Hnn).
      destruct (max_nonce_attained l Hlne) as [y [Hy Hym]].
      { intros u Hu. apply Hl in Hu. destruct Hu as [Hu Hus].
        assert (st_nonce (p_chain q2) a <= t_nonce u < x) by (apply Hrun; exists u; auto). lia. }
      apply Hl in Hy. destruct Hy as [Hy Hys].
      assert (st_nonce (p_chain q2) a <= t_nonce y < x) by (apply Hrun; exists y; auto).
      destruct (proj2 (Hrun (x - 1))) as [u [Hu [Hus Hun]]]; [lia|].
      assert (t_nonce u <= max_nonce l) by (apply max_nonce_ge; apply Hl; auto).
      f_equal. lia.
    - assert (Hno : forall n, ~ has (p_pending q2) a n).
      { intros n [t [Ht [Hs _]]]. assert (In a (accounts (p_pending q2))) by (apply Hacc2; eauto).
        apply memN_In in H. congruence. }
      specialize (Hno (st_nonce (p_chain q2) a)). rewrite Hrun in Hno. unfold q3. cbn [p_chain set_nonces]. lia. }
  unfold AcctInv. rewrite Hpn. unfold q3 at 1 2 3 4. cbn [p_chain p_pending p_queue set_nonces].
  split; [exact Hrun|]. split; [exact Hx|]. split; [exact Hq|]. exact Haff.
Qed.

Theorem inv_reset c p ch : Inv p -> chain_nonneg ch -> Inv (run_reorg c p (Some (ch, [])) []).
Proof.
  intros I Hnn. rewrite run_reorg_reset_eq. apply inv_reorg_tail, inv_reset_core; auto.
Qed.
