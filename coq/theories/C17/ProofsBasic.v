(** C17 — basic lemmas: list helpers, the txList primitives, the replacement rule. *)
From Coq Require Import List ZArith NArith Bool Lia.
From Kardia Require Import C17.Model.
Import ListNotations.
Local Open Scope Z_scope.

Definition key (t : tx) : N * Z := (sender t, t_nonce t).

Lemma same_slot_true a n t : same_slot a n t = true <-> sender t = a /\ t_nonce t = n.
Proof.
  unfold same_slot. rewrite andb_true_iff, N.eqb_eq, Z.eqb_eq. tauto.
Qed.

Lemma same_slot_key a n t : same_slot a n t = true <-> key t = (a, n).
Proof.
  rewrite same_slot_true. unfold key. split.
  - intros [-> ->]. reflexivity.
  - intros H. inversion H. auto.
Qed.

Lemma is_acct_true a t : is_acct a t = true <-> sender t = a.
Proof. unfold is_acct. apply N.eqb_eq. Qed.

Lemma is_acct_false_iff a t : is_acct a t = false <-> sender t <> a.
Proof. unfold is_acct. apply N.eqb_neq. Qed.

Lemma memN_In a l : memN a l = true <-> In a l.
Proof.
  unfold memN. rewrite existsb_exists. split.
  - intros [x [Hx He]]. apply N.eqb_eq in He. subst. auto.
  - intros H. exists a. split; auto. apply N.eqb_refl.
Qed.

Lemma NoDup_map_filter {A B} (f : A -> B) (g : A -> bool) l :
  NoDup (map f l) -> NoDup (map f (filter g l)).
Proof.
  induction l as [|x l IH]; cbn [map filter]; intros H; auto.
  inversion H as [|? ? Hn Hd]; subst.
  destruct (g x); cbn [map]; auto.
  constructor; auto. intros Hin. apply Hn.
  apply in_map_iff in Hin. destruct Hin as [y [Hy Hin]]. apply filter_In in Hin.
  apply in_map_iff. exists y. tauto.
Qed.

Lemma NoDup_map_inj {A B} (f : A -> B) l x y :
  NoDup (map f l) -> In x l -> In y l -> f x = f y -> x = y.
Proof.
  induction l as [|z l IH]; cbn [map]; intros Hd Hx Hy Hf; [destruct Hx|].
  inversion Hd as [|? ? Hn Hd']; subst.
  destruct Hx as [->|Hx], Hy as [->|Hy]; auto.
  - exfalso. apply Hn. rewrite Hf. apply in_map; auto.
  - exfalso. apply Hn. rewrite <- Hf. apply in_map; auto.
Qed.

Lemma rev_nil {A} (l : list A) : rev l = [] -> l = [].
Proof. intros H. apply (f_equal (@rev A)) in H. rewrite rev_involutive in H. exact H. Qed.

Lemma filter_nil_all {A} (f : A -> bool) l : filter f l = [] -> filter (fun x => negb (f x)) l = l.
Proof.
  induction l as [|x l IH]; cbn [filter]; auto.
  destruct (f x); cbn [negb]; [discriminate|]. intros H. f_equal. auto.
Qed.

Lemma filter_filter {A} (f g : A -> bool) l : filter f (filter g l) = filter (fun x => g x && f x) l.
Proof.
  induction l as [|x l IH]; cbn [filter]; auto.
  destruct (g x); cbn [filter andb]; [destruct (f x)|]; rewrite IH; reflexivity.
Qed.

Lemma filter_commute {A} (f g : A -> bool) l : filter f (filter g l) = filter g (filter f l).
Proof. rewrite !filter_filter. apply filter_ext_in. intros. apply andb_comm. Qed.

Lemma filter_all_true {A} (f : A -> bool) l : (forall x, In x l -> f x = true) -> filter f l = l.
Proof.
  induction l as [|x l IH]; cbn [filter]; auto. intros H.
  rewrite (H x (or_introl eq_refl)). f_equal. apply IH. intros y Hy. apply H. cbn. auto.
Qed.

Lemma filter_all_false {A} (f : A -> bool) l : (forall x, In x l -> f x = false) -> filter f l = [].
Proof.
  induction l as [|x l IH]; cbn [filter]; auto. intros H.
  rewrite (H x (or_introl eq_refl)). apply IH. intros y Hy. apply H. cbn. auto.
Qed.

Lemma filter_length_mono {A} (f g : A -> bool) l :
  (forall x, f x = true -> g x = true) -> (length (filter f l) <= length (filter g l))%nat.
Proof.
  intros H. induction l as [|x l IH]; cbn [filter]; auto.
  destruct (f x) eqn:E.
  - rewrite (H x E). cbn. lia.
  - destruct (g x); cbn; lia.
Qed.

Lemma filter_length_strict {A} (f g : A -> bool) l x :
  (forall y, f y = true -> g y = true) -> In x l -> f x = false -> g x = true ->
  (length (filter f l) < length (filter g l))%nat.
Proof.
  intros H. induction l as [|y l IH]; intros Hin Hf Hg; [destruct Hin|].
  cbn [filter]. destruct Hin as [->|Hin].
  - rewrite Hf, Hg. cbn [length]. pose proof (filter_length_mono f g l H). lia.
  - specialize (IH Hin Hf Hg). destruct (f y) eqn:E.
    + rewrite (H y E). cbn [length]. lia.
    + destruct (g y); cbn [length]; lia.
Qed.

Lemma filter_length_split {A} (f : A -> bool) l :
  (length (filter f l) + length (filter (fun x => negb (f x)) l) = length l)%nat.
Proof. induction l as [|x l IH]; cbn [filter length]; auto. destruct (f x); cbn [negb length]; lia. Qed.

Lemma filter_sub_len {A} (f g : A -> bool) l : (length (filter f (filter g l)) <= length (filter f l))%nat.
Proof.
  induction l as [|x l IH]; cbn [filter length]; auto.
  destruct (g x); cbn [filter]; destruct (f x); cbn [length]; lia.
Qed.

Lemma filter_len_le {A} (g : A -> bool) l : (length (filter g l) <= length l)%nat.
Proof. induction l as [|x l IH]; cbn [filter length]; auto. destruct (g x); cbn [length]; lia. Qed.

Lemma NoDup_map_on {A B} (f : A -> B) l :
  NoDup l -> (forall x y, In x l -> In y l -> f x = f y -> x = y) -> NoDup (map f l).
Proof.
  induction l as [|a l IH]; intros Hd Hinj; cbn [map]; [constructor|].
  inversion Hd as [|? ? Hn Hd']; subst. constructor.
  - intros Hin. apply in_map_iff in Hin. destruct Hin as [y [Hfy Hy]].
    assert (y = a) by (apply Hinj; cbn; auto). subst. contradiction.
  - apply IH; auto. intros x y Hx Hy. apply Hinj; cbn; auto.
Qed.

Lemma NoDup_app_parts {A} (l l' : list A) :
  NoDup (l ++ l') -> NoDup l /\ NoDup l' /\ (forall x, In x l -> ~ In x l').
Proof.
  induction l as [|a r IH]; cbn [app]; intros H.
  - split; [constructor|]. split; [exact H|]. intros x [].
  - inversion H as [|? ? Ha Hr]; subst. destruct (IH Hr) as [H1 [H2 H3]]. split; [|split; [exact H2|]].
    + constructor; [|exact H1]. intros Hin. apply Ha. apply in_or_app. auto.
    + intros x [<-|Hx]; [|apply H3; exact Hx]. intros Hin. apply Ha. apply in_or_app. auto.
Qed.

Lemma l_get_some l a n t : l_get l a n = Some t -> In t l /\ key t = (a, n).
Proof.
  unfold l_get. intros H. apply find_some in H. destruct H as [Hin Hs].
  apply same_slot_key in Hs. auto.
Qed.

Lemma l_get_none l a n : l_get l a n = None -> forall t, In t l -> key t <> (a, n).
Proof.
  unfold l_get. intros H t Hin Hk. apply same_slot_key in Hk.
  pose proof (find_none _ _ H t Hin) as Hf. congruence.
Qed.

Lemma l_get_in l t : In t l -> exists t', l_get l (sender t) (t_nonce t) = Some t'.
Proof.
  intros Hin. destruct (l_get l (sender t) (t_nonce t)) eqn:E; eauto.
  exfalso. eapply l_get_none; eauto.
Qed.

Lemma l_get_in_nodup l t : NoDup (map key l) -> In t l -> l_get l (sender t) (t_nonce t) = Some t.
Proof.
  intros Hd Hin. destruct (l_get_in l t Hin) as [t' Ht']. rewrite Ht'. f_equal.
  apply l_get_some in Ht'. destruct Ht' as [Hin' Hk].
  eapply NoDup_map_inj; eauto.
Qed.

Lemma l_del_In l a n x : In x (l_del l a n) <-> In x l /\ key x <> (a, n).
Proof.
  unfold l_del. rewrite filter_In. rewrite negb_true_iff. split; intros [H1 H2]; split; auto.
  - intros Hk. apply same_slot_key in Hk. congruence.
  - destruct (same_slot a n x) eqn:E; auto. apply same_slot_key in E. contradiction.
Qed.

Lemma l_put_In l t x : In x (l_put l t) <-> x = t \/ (In x l /\ key x <> key t).
Proof.
  unfold l_put. cbn [In]. rewrite l_del_In. unfold key. split; intros [H|H]; auto.
Qed.

Lemma l_put_nodup l t : NoDup (map key l) -> NoDup (map key (l_put l t)).
Proof.
  intros Hd. unfold l_put. cbn [map]. constructor.
  - intros Hin. apply in_map_iff in Hin. destruct Hin as [x [Hk Hin]].
    apply l_del_In in Hin. destruct Hin as [_ Hne]. apply Hne. exact Hk.
  - unfold l_del. apply NoDup_map_filter. exact Hd.
Qed.

Lemma l_filter_false l a c g :
  l_filter false l a c g =
  (filter (fun t => is_acct a t && ((g <? t_gas t) || (c <? cost t))) l, [],
   filter (fun t => negb (is_acct a t && ((g <? t_gas t) || (c <? cost t)))) l).
Proof.
  unfold l_filter.
  destruct (filter (fun t => is_acct a t && ((g <? t_gas t) || (c <? cost t))) l) eqn:E; auto.
  rewrite (filter_nil_all _ _ E). reflexivity.
Qed.

Lemma l_add_replace_rule l t bump old l' :
  0 <= bump ->
  l_add l t bump = (true, Some old, l') ->
  key old = key t /\ In old l /\
  t_price old < t_price t /\ ((100 + bump) * t_price old) / 100 <= t_price t.
Proof.
  intros Hb. unfold l_add.
  destruct (l_get l (sender t) (t_nonce t)) as [o|] eqn:E; [|intros H; inversion H].
  destruct ((t_price t <=? t_price o) || (t_price t <? (100 + bump) * t_price o / 100)) eqn:C; intros H; inversion H; subst.
  apply orb_false_iff in C. destruct C as [C1 C2].
  apply Z.leb_gt in C1. apply Z.ltb_ge in C2.
  apply l_get_some in E. destruct E as [Hin Hk]. unfold key in *. repeat split; auto; lia.
Qed.

Lemma l_add_free l t bump : l_get l (sender t) (t_nonce t) = None -> l_add l t bump = (true, None, l_put l t).
Proof. intros E. unfold l_add. rewrite E. reflexivity. Qed.

(* a rejected insertion leaves the list as it was; an accepted one puts exactly [t] in the slot *)
Lemma l_add_result l t bump ok old l' :
  l_add l t bump = (ok, old, l') ->
  (ok = false /\ l' = l /\ old = None) \/ (ok = true /\ l' = l_put l t /\ old = l_get l (sender t) (t_nonce t)).
Proof.
  unfold l_add. destruct (l_get l (sender t) (t_nonce t)) eqn:E.
  - destruct (_ || _); intros H; inversion H; subst; auto.
  - intros H; inversion H; subst; auto.
Qed.

Lemma of_acct_nil a l : of_acct a l = [] -> forall x, In x l -> sender x <> a.
Proof.
  intros H x Hx Hs. assert (In x (of_acct a l)) by (apply filter_In; split; auto; apply is_acct_true; auto).
  rewrite H in H0. destruct H0.
Qed.

Lemma min_nonce_le l x : In x l -> min_nonce l <= t_nonce x.
Proof.
  unfold min_nonce. induction l as [|y l IH]; cbn [fold_right In]; [tauto|].
  intros [->|H]; [lia|]. specialize (IH H). lia.
Qed.

Lemma max_nonce_ge l t : In t l -> t_nonce t <= max_nonce l.
Proof.
  unfold max_nonce. induction l as [|y l IH]; cbn [fold_right In]; [tauto|].
  intros [->|H]; [lia|]. specialize (IH H). lia.
Qed.

Lemma max_nonce_attained l : l <> [] -> (forall t, In t l -> 0 <= t_nonce t) -> exists t, In t l /\ t_nonce t = max_nonce l.
Proof.
  unfold max_nonce. induction l as [|y l IH]; [congruence|]. intros _ Hnn. cbn [fold_right].
  destruct l as [|z l'].
  - exists y. cbn. split; auto. specialize (Hnn y (or_introl eq_refl)). lia.
  - destruct IH as [t [Ht Hm]]; [discriminate|intros t Ht; apply Hnn; cbn; auto|].
    destruct (Z_le_gt_dec (t_nonce y) (fold_right (fun t m => Z.max (t_nonce t) m) 0 (z :: l'))).
    + exists t. split; [right; auto|]. lia.
    + exists y. split; [left; auto|]. lia.
Qed.

Lemma l_filter_true l a c g :
  let bad := fun t => is_acct a t && ((g <? t_gas t) || (c <? cost t)) in
  let removed := filter bad l in
  let mv := fun t => match removed with [] => false | _ => negb (bad t) && (is_acct a t && (min_nonce removed <? t_nonce t)) end in
  l_filter true l a c g = (removed, filter mv l, filter (fun t => negb (bad t) && negb (mv t)) l).
Proof.
  cbn zeta. unfold l_filter.
  destruct (filter (fun t => is_acct a t && ((g <? t_gas t) || (c <? cost t))) l) as [|r rs] eqn:E.
  - rewrite filter_all_false by auto. f_equal.
    symmetry. apply filter_all_true. intros x Hx. rewrite andb_true_r. apply negb_true_iff.
    destruct (is_acct a x && ((g <? t_gas x) || (c <? cost x))) eqn:Eb; auto.
    assert (In x (filter (fun t => is_acct a t && ((g <? t_gas t) || (c <? cost t))) l)) by (apply filter_In; auto).
    rewrite E in H. destruct H.
  - rewrite !filter_filter. f_equal. apply filter_ext. intros t.
    destruct (is_acct a t && ((g <? t_gas t) || (c <? cost t))); reflexivity.
Qed.

Lemma minus_ids_In l rm x : In x (minus_ids l rm) <-> In x l /\ ~ In (t_id x) (map t_id rm).
Proof.
  unfold minus_ids. rewrite filter_In, negb_true_iff. split; intros [H1 H2]; split; auto.
  - intros Hin. apply in_map_iff in Hin. destruct Hin as [r [Hid Hr]].
    assert (existsb (fun r => N.eqb (t_id r) (t_id x)) rm = true).
    { apply existsb_exists. exists r. split; auto. apply N.eqb_eq. auto. }
    congruence.
  - destruct (existsb _ rm) eqn:E; auto. apply existsb_exists in E. destruct E as [r [Hr He]].
    apply N.eqb_eq in He. exfalso. apply H2. rewrite <- He. apply in_map. auto.
Qed.

Lemma run_from_spec fuel : forall l a next,
  let R := run_from fuel l a next in
  (forall x, In x R -> In x l /\ sender x = a /\ next <= t_nonce x < next + Z.of_nat (length R)) /\
  (forall n, next <= n < next + Z.of_nat (length R) -> exists x, In x R /\ t_nonce x = n) /\
  NoDup (map key R).
Proof.
  induction fuel as [|f IH]; intros l a next; cbn zeta; cbn [run_from].
  - cbn. repeat split; try tauto; try lia. constructor.
  - destruct (l_get l a next) as [t|] eqn:E.
    2:{ cbn. repeat split; try tauto; try lia. constructor. }
    apply l_get_some in E. destruct E as [Hin Hk]. unfold key in Hk. injection Hk as Hs Hn.
    destruct (IH l a (next + 1)) as [H1 [H2 H3]]. cbn zeta in *.
    set (R := run_from f l a (next + 1)) in *.
    cbn [length]. rewrite Nat2Z.inj_succ. repeat split.
    + destruct H as [<-|Hx]; auto. apply H1 in Hx. tauto.
    + destruct H as [<-|Hx]; auto. apply H1 in Hx. tauto.
    + destruct H as [<-|Hx]; [lia|]. apply H1 in Hx. lia.
    + destruct H as [<-|Hx]; [lia|]. apply H1 in Hx. lia.
    + intros n Hn'. destruct (Z.eq_dec n next) as [->|Hne].
      * exists t. cbn. auto.
      * destruct (H2 n) as [x [Hx Hxn]]; [lia|]. exists x. cbn. auto.
    + cbn [map]. constructor; auto. intros Hc. apply in_map_iff in Hc. destruct Hc as [x [Hkx Hx]].
      apply H1 in Hx. unfold key in Hkx. inversion Hkx. lia.
Qed.

Lemma run_from_last fuel : forall l a next,
  match rev (run_from fuel l a next) with
  | [] => True
  | r :: _ => t_nonce r = next + Z.of_nat (length (run_from fuel l a next)) - 1
  end.
Proof.
  induction fuel as [|f IH]; intros l a next; cbn [run_from]; [cbn; auto|].
  destruct (l_get l a next) as [t|] eqn:E; [|cbn; auto].
  apply l_get_some in E. destruct E as [_ Hk]. unfold key in Hk. injection Hk as _ Hn.
  specialize (IH l a (next + 1)). cbn [rev length]. rewrite Nat2Z.inj_succ.
  destruct (rev (run_from f l a (next + 1))) as [|z zs] eqn:Er; cbn [app].
  - assert (run_from f l a (next + 1) = []) as ->.
    { apply rev_nil. exact Er. }
    cbn. lia.
  - lia.
Qed.

(* txList.Ready: the run of consecutive nonces from the lowest queued one *)
Lemma l_ready_spec l a start :
  let R := l_ready l a start in
  let lo := min_nonce (of_acct a l) in
  (forall x, In x R -> In x l /\ sender x = a /\ lo <= t_nonce x < lo + Z.of_nat (length R)) /\
  (forall n, lo <= n < lo + Z.of_nat (length R) -> exists x, In x R /\ t_nonce x = n) /\
  NoDup (map key R) /\ (R <> [] -> lo <= start) /\
  match rev R with [] => True | r :: _ => t_nonce r = lo + Z.of_nat (length R) - 1 end.
Proof.
  cbn zeta. unfold l_ready.
  assert (Hnil : (forall x, In x (@nil tx) -> In x l /\ sender x = a /\
                    min_nonce (of_acct a l) <= t_nonce x < min_nonce (of_acct a l) + Z.of_nat (length (@nil tx))) /\
                 (forall n, min_nonce (of_acct a l) <= n < min_nonce (of_acct a l) + Z.of_nat (length (@nil tx)) ->
                    exists x, In x (@nil tx) /\ t_nonce x = n) /\
                 NoDup (map key (@nil tx)) /\ (@nil tx <> [] -> min_nonce (of_acct a l) <= start) /\
                 match rev (@nil tx) with [] => True | r :: _ => t_nonce r = min_nonce (of_acct a l) + Z.of_nat (length (@nil tx)) - 1 end).
  { cbn [In length rev map]. split; [intros x []|]. split; [intros n Hn; lia|]. split; [constructor|]. split; [congruence|exact I]. }
  destruct (of_acct a l) as [|t r] eqn:Eo; [exact Hnil|]. rewrite <- Eo in *.
  destruct (start <? min_nonce (of_acct a l)) eqn:El; [exact Hnil|]. apply Z.ltb_ge in El.
  destruct (run_from_spec (length l) l a (min_nonce (of_acct a l))) as [H1 [H2 H3]]. cbn zeta in *.
  pose proof (run_from_last (length l) l a (min_nonce (of_acct a l))) as H4.
  split; [exact H1|]. split; [exact H2|]. split; [exact H3|]. split; [intros _; exact El|exact H4].
Qed.

Lemma accounts_aux_spec l : forall seen,
  NoDup (accounts_aux seen l) /\
  forall a, In a (accounts_aux seen l) <-> (exists t, In t l /\ sender t = a) /\ ~ In a seen.
Proof.
  induction l as [|t r IH]; intros seen; cbn [accounts_aux].
  - split; [constructor|]. intros a. cbn. split; [tauto|]. intros [[t [[] _]] _].
  - destruct (memN (sender t) seen) eqn:E.
    + apply memN_In in E. destruct (IH seen) as [H1 H2]. split; auto. intros a. rewrite H2. split.
      * intros [[u [Hu Hs]] Hn]. split; auto. exists u. cbn. auto.
      * intros [[u [[->|Hu] Hs]] Hn]; [subst; contradiction|]. split; auto. exists u. auto.
    + assert (Hns : ~ In (sender t) seen) by (intros H; apply memN_In in H; congruence).
      destruct (IH (sender t :: seen)) as [H1 H2]. split.
      * constructor; auto. intros H. apply H2 in H. destruct H as [_ H]. apply H. cbn. auto.
      * intros a. cbn [In]. rewrite H2. split.
        -- intros [<-|[[u [Hu Hs]] Hn]].
           ++ split; auto. exists t. cbn. auto.
           ++ split; [exists u; cbn; auto|]. intros H. apply Hn. cbn. auto.
        -- intros [[u [[->|Hu] Hs]] Hn]; [left; auto|].
           destruct (N.eq_dec (sender t) a) as [He|He]; [left; auto|]. right. split; [exists u; auto|].
           intros [H|H]; auto.
Qed.

Lemma accounts_spec l : NoDup (accounts l) /\ forall a, In a (accounts l) <-> exists t, In t l /\ sender t = a.
Proof.
  unfold accounts. destruct (accounts_aux_spec l []) as [H1 H2]. split; auto.
  intros a. rewrite H2. cbn. tauto.
Qed.

Lemma lookupZ_map (f : N -> Z) l a :
  lookupZ (map (fun b => (b, f b)) l) a = if memN a l then Some (f a) else None.
Proof.
  induction l as [|b l IH]; cbn [map lookupZ memN existsb]; auto.
  unfold memN in IH. rewrite N.eqb_sym. destruct (N.eqb a b) eqn:E; cbn [orb].
  - apply N.eqb_eq in E. subst. reflexivity.
  - exact IH.
Qed.

Lemma rank_mono l a x y : t_nonce x <= t_nonce y -> rank_in l a x <= rank_in l a y.
Proof.
  intros H. unfold rank_in. apply Nat2Z.inj_le. apply filter_length_mono.
  intros z Hz. apply andb_true_iff in Hz. destruct Hz as [H1 H2]. apply Z.ltb_lt in H2.
  rewrite H1. cbn. apply Z.ltb_lt. lia.
Qed.

Lemma rank_strict l a x y : In x l -> sender x = a -> t_nonce x < t_nonce y -> rank_in l a x < rank_in l a y.
Proof.
  intros Hin Hs Hlt. unfold rank_in. apply Nat2Z.inj_lt.
  apply (filter_length_strict _ _ l x).
  - intros z Hz. apply andb_true_iff in Hz. destruct Hz as [H1 H2]. apply Z.ltb_lt in H2.
    rewrite H1. cbn [andb]. apply Z.ltb_lt. lia.
  - exact Hin.
  - apply andb_false_iff. right. apply Z.ltb_irrefl.
  - apply andb_true_iff. split; [apply is_acct_true; exact Hs|apply Z.ltb_lt; exact Hlt].
Qed.

Lemma rank_nonneg l a x : 0 <= rank_in l a x.
Proof. unfold rank_in. lia. Qed.

Lemma rank_lt_len l a x : In x l -> sender x = a -> rank_in l a x < l_len l a.
Proof.
  intros Hin Hs. unfold rank_in, l_len, of_acct. apply Nat2Z.inj_lt.
  apply (filter_length_strict _ _ l x); auto.
  - intros y Hy. apply andb_true_iff in Hy. tauto.
  - apply andb_false_iff. right. apply Z.ltb_irrefl.
  - apply is_acct_true. exact Hs.
Qed.

Lemma rank_inj l a x y :
  NoDup (map key l) -> In x l -> In y l -> sender x = a -> sender y = a -> rank_in l a x = rank_in l a y -> x = y.
Proof.
  intros Hd Hx Hy Hsx Hsy Hr.
  assert (Hn : t_nonce x = t_nonce y).
  { destruct (Z.lt_trichotomy (t_nonce x) (t_nonce y)) as [H|[H|H]]; auto.
    - pose proof (rank_strict l a x y Hx Hsx H). lia.
    - pose proof (rank_strict l a y x Hy Hsy H). lia. }
  eapply (NoDup_map_inj key); eauto. unfold key. congruence.
Qed.

Lemma rank_nodup l a K :
  NoDup (map key l) -> NoDup K -> (forall t, In t K -> In t l /\ sender t = a) ->
  NoDup (map (fun t => Z.to_nat (rank_in l a t)) K).
Proof.
  intros Hd HK Hin. apply NoDup_map_on; [exact HK|].
  intros x y Hx Hy Hr. apply Hin in Hx. apply Hin in Hy. destruct Hx as [Hx Hsx]. destruct Hy as [Hy Hsy].
  eapply (rank_inj l a); eauto. pose proof (rank_nonneg l a x). pose proof (rank_nonneg l a y). lia.
Qed.

(* the ranks of an account's entries are pairwise distinct and below their number: they are all of
   0 .. len-1 (pigeonhole) *)
Lemma rank_onto l a n :
  NoDup (map key l) -> 0 <= n < l_len l a -> exists x, In x l /\ sender x = a /\ rank_in l a x = n.
Proof.
  intros Hd Hn. set (L := of_acct a l).
  assert (HL : forall t, In t L <-> In t l /\ sender t = a).
  { intros t. unfold L, of_acct. rewrite filter_In, is_acct_true. tauto. }
  set (r := fun t => Z.to_nat (rank_in l a t)).
  assert (HndL : NoDup (map r L)).
  { apply rank_nodup; [exact Hd| |intros t Ht; apply HL; exact Ht].
    unfold L, of_acct. apply NoDup_filter. eapply NoDup_map_inv; eauto. }
  assert (Hincl : incl (map r L) (seq 0 (length L))).
  { intros k Hk. apply in_map_iff in Hk. destruct Hk as [t [Hr Ht]]. apply HL in Ht. destruct Ht as [Ht Hs].
    apply in_seq. pose proof (rank_lt_len l a t Ht Hs). pose proof (rank_nonneg l a t).
    unfold l_len in H. fold L in H. unfold r in Hr. lia. }
  assert (Hrev : incl (seq 0 (length L)) (map r L)).
  { apply NoDup_length_incl; auto. rewrite seq_length, map_length. lia. }
  assert (Hin : In (Z.to_nat n) (seq 0 (length L))).
  { apply in_seq. unfold l_len in Hn. fold L in Hn. lia. }
  apply Hrev in Hin. apply in_map_iff in Hin. destruct Hin as [x [Hr Hx]]. exists x.
  apply HL in Hx. destruct Hx as [Hx Hs]. repeat split; auto.
  unfold r in Hr. pose proof (rank_nonneg l a x). lia.
Qed.

(* list.Cap(th) keeps the [th] entries of lowest nonce *)
Lemma l_cap_kept l a th : NoDup (map key l) -> 0 <= th -> l_len (snd (l_cap l a th)) a = Z.min (l_len l a) th.
Proof.
  intros Hd Hth. unfold l_cap. destruct (l_len l a <=? th) eqn:E; cbn [snd]; [apply Z.leb_le in E; lia|].
  apply Z.leb_gt in E. rewrite Z.min_r by lia.
  unfold l_len at 1. unfold of_acct. rewrite filter_filter.
  set (K := filter (fun t => negb (is_acct a t && (th <=? rank_in l a t)) && is_acct a t) l).
  assert (HK : forall t, In t K <-> In t l /\ sender t = a /\ rank_in l a t < th).
  { intros t. unfold K. rewrite filter_In, andb_true_iff, negb_true_iff, andb_false_iff, is_acct_true, is_acct_false_iff, Z.leb_gt.
    split; [intros [H1 [[H2|H2] H3]]; [contradiction|auto]|intros [H1 [H2 H3]]; auto]. }
  set (r := fun t => Z.to_nat (rank_in l a t)).
  assert (Hnd : NoDup (map r K)).
  { apply rank_nodup; [exact Hd| |intros t Ht; apply HK in Ht; tauto].
    unfold K. apply NoDup_filter. eapply NoDup_map_inv; eauto. }
  assert (Hle : (length (map r K) <= length (seq 0 (Z.to_nat th)))%nat).
  { apply NoDup_incl_length; [exact Hnd|].
    intros n Hn. apply in_map_iff in Hn. destruct Hn as [t [Hr Ht]]. apply HK in Ht. destruct Ht as [_ [_ Hlt]].
    apply in_seq. pose proof (rank_nonneg l a t). unfold r in Hr. lia. }
  assert (Hge : (length (seq 0 (Z.to_nat th)) <= length (map r K))%nat).
  { apply NoDup_incl_length; [apply seq_NoDup|].
    intros n Hn. apply in_seq in Hn. destruct (rank_onto l a (Z.of_nat n) Hd) as [x [Hx [Hs Hr]]]; [lia|].
    apply in_map_iff. exists x. split; [unfold r; rewrite Hr; apply Nat2Z.id|]. apply HK. repeat split; auto. lia. }
  rewrite seq_length, map_length in *. lia.
Qed.

(* list.Cap(list.Len()-1): exactly the top entry of the account goes *)
Lemma l_cap_top l a :
  NoDup (map key l) -> 1 <= l_len l a ->
  let rest := snd (l_cap l a (l_len l a - 1)) in
  Z.of_nat (length rest) = Z.of_nat (length l) - 1 /\ l_len rest a = l_len l a - 1 /\
  (forall b, b <> a -> l_len rest b = l_len l b).
Proof.
  intros Hd Hlen. cbn zeta.
  pose proof (l_cap_kept l a (l_len l a - 1) Hd ltac:(lia)) as Hkept. rewrite Z.min_r in Hkept by lia.
  revert Hkept. unfold l_cap.
  replace (l_len l a <=? l_len l a - 1) with false by (symmetry; apply Z.leb_gt; lia). cbn [snd].
  set (f := fun t => is_acct a t && (l_len l a - 1 <=? rank_in l a t)).
  change (filter (fun t => negb (is_acct a t && (l_len l a - 1 <=? rank_in l a t))) l) with (filter (fun x => negb (f x)) l).
  intros Hkept. split; [|split; [exact Hkept|]].
  - (* the entries that go all belong to the account, whose length drops by one *)
    unfold l_len at 1 in Hkept. unfold of_acct in Hkept. rewrite filter_commute in Hkept. fold (of_acct a l) in Hkept.
    pose proof (filter_length_split f (of_acct a l)) as H2.
    assert (H3 : filter f (of_acct a l) = filter f l).
    { unfold of_acct. rewrite filter_filter. apply filter_ext_in. intros t _. unfold f. destruct (is_acct a t); reflexivity. }
    rewrite H3 in H2. pose proof (filter_length_split f l). unfold l_len in *. lia.
  - intros b Hb. unfold l_len, of_acct. f_equal. f_equal. rewrite filter_filter. apply filter_ext_in.
    intros t _. unfold f. destruct (is_acct b t) eqn:Eb; [|apply andb_false_r].
    apply is_acct_true in Eb. assert (is_acct a t = false) by (apply is_acct_false_iff; congruence).
    rewrite H. reflexivity.
Qed.
