(** C17 — what needs no invariant.  [frame]: apart from the insertion proper in add, the new state
    of a reset and a reload, every step leaves the chain state, the configuration and the set of local
    accounts alone, and the index only loses entries.  [heap_only]: the txPricedList calls change the
    heap alone; [remotes_only]: what they hand out for removal is flagged remote; with these the
    pool-full branch of add and SetGasPrice are analysed once ([make_room_cases],
    [set_gas_price_cases]).  The loops over removeTx and [cap_one] keep whatever the step keeps
    (section Loops).  promoteExecutables for one account is cut into four phases ([drop_queue] twice,
    [promote_ready], [cap_queue]: [promote_account_phases]). *)
From Coq Require Import List ZArith NArith Bool.
From Kardia Require Import C17.Model C17.ProofsBasic.
Import ListNotations.
Local Open Scope Z_scope.

(** Loops that only call removeTx ([remove_txs], the expiry loop, truncateQueue) and loops that only
    call [cap_one] (truncatePending): whatever the step keeps, the loop keeps. *)
Section Loops.
Variable P : pool -> Prop.

Section RemoveTx.
Hypothesis Hstep : forall q id b, P q -> P (remove_tx q id b).

Lemma remove_txs_keeps l : forall p b, P p -> P (remove_txs p l b).
Proof.
  unfold remove_txs. induction l as [|t l IH]; intros p b H; cbn [fold_left]; auto.
Qed.

Lemma expire_keeps addrs : forall p, P p -> P (expire p addrs).
Proof.
  unfold expire. induction addrs as [|a r IH]; intros p H; cbn [fold_left]; auto.
  apply IH. destruct (memN a (p_locals p)); auto. apply remove_txs_keeps. exact H.
Qed.

Lemma drop_last_few_keeps fuel : forall p l d, P p -> P (fst (drop_last_few fuel p l d)).
Proof.
  induction fuel as [|f IH]; intros p l d H; cbn [drop_last_few]; auto.
  destruct l as [|t r]; auto. destruct (0 <? d); auto.
Qed.

Lemma truncate_queue_keeps o p : P p -> P (truncate_queue o p).
Proof.
  unfold truncate_queue. destruct (_ <=? _); auto.
  generalize (Z.of_nat (length (p_queue p)) - c_gqueue (p_cfg p)).
  match goal with |- forall d, _ -> P (truncate_queue_loop p ?l d) => generalize l end.
  intros addrs. revert p. induction addrs as [|a r IH]; intros p d H; cbn [truncate_queue_loop]; auto.
  destruct (0 <? d); auto. destruct (_ <=? _).
  - apply IH. apply remove_txs_keeps. exact H.
  - pose proof (drop_last_few_keeps (length (flatten (p_queue p) a)) p (rev (flatten (p_queue p) a)) d H) as H1.
    destruct (drop_last_few _ p _ d) as [p1 d1]. apply IH. exact H1.
Qed.
End RemoveTx.

Section CapOne.
Hypothesis Hstep : forall q a, P q -> P (cap_one q a).

Lemma cap_each_keeps l : forall p n, P p -> P (fst (cap_each p n l)).
Proof.
  unfold cap_each. induction l as [|a r IH]; intros p n H; cbn [fold_left]; auto.
Qed.

Lemma equalize_keeps fuel : forall p n prev lp th, P p -> P (fst (equalize fuel p n prev lp th)).
Proof.
  induction fuel as [|f IH]; intros p n prev lp th H; cbn [equalize]; auto.
  destruct (_ && _); auto.
  pose proof (cap_each_keeps prev p n H) as H1. destruct (cap_each p n prev) as [p1 n1]. apply IH. exact H1.
Qed.

Lemma reduce_all_keeps fuel : forall p n offs last, P p -> P (fst (reduce_all fuel p n offs last)).
Proof.
  induction fuel as [|f IH]; intros p n offs last H; cbn [reduce_all]; auto.
  destruct (_ && _); auto.
  pose proof (cap_each_keeps offs p n H) as H1. destruct (cap_each p n offs) as [p1 n1]. apply IH. exact H1.
Qed.

Lemma truncate_pending_keeps o p : P p -> P (truncate_pending o p).
Proof.
  intros H. unfold truncate_pending. destruct (_ <=? _); auto.
  assert (Hloop : forall fuel sp q n offs, P q -> P (fst (fst (offenders_loop fuel q n sp offs)))).
  { intros fuel. induction sp as [|x r IH]; intros q n offs Hq; cbn [offenders_loop]; auto.
    destruct (_ <? _); auto. destruct (rev offs) as [|lp ?]; [apply IH; exact Hq|].
    pose proof (equalize_keeps fuel q n offs lp (l_len (p_pending q) x) Hq) as H1.
    destruct (equalize fuel q n offs lp _) as [q1 n1]. apply IH. exact H1. }
  specialize (Hloop (S (length (p_pending p))) (spammers p o) p (Z.of_nat (length (p_pending p))) [] H).
  destruct (offenders_loop _ p _ _ []) as [[p1 n1] offs]. cbn [fst] in Hloop.
  destruct (rev offs); auto. destruct (_ <? _); auto. apply reduce_all_keeps. exact Hloop.
Qed.
End CapOne.
End Loops.

Lemma all_remove_entry al id e : In e (all_remove al id) <-> In e al /\ t_id (fst e) <> id.
Proof.
  unfold all_remove. rewrite filter_In. unfold id_is. rewrite negb_true_iff, N.eqb_neq. tauto.
Qed.

Lemma all_remove_list_entry l : forall al e, In e (all_remove_list al l) <-> In e al /\ ~ In (t_id (fst e)) (map t_id l).
Proof.
  unfold all_remove_list. induction l as [|x l IH]; intros al e; cbn [fold_left map In]; [tauto|].
  rewrite IH, all_remove_entry. intuition.
Qed.

Lemma all_get_remote_some al id t : all_get_remote al id = Some t -> In (t, false) al /\ t_id t = id.
Proof.
  unfold all_get_remote. destruct (find _ al) as [e|] eqn:E; cbn [option_map]; [|discriminate].
  intros H. inversion H; subst. apply find_some in E. destruct E as [Hin Hc].
  apply andb_true_iff in Hc. destruct Hc as [Hid Hf]. unfold id_is in Hid. apply N.eqb_eq in Hid.
  destruct e as [t b]. cbn [fst snd] in *. apply negb_true_iff in Hf. subst b. auto.
Qed.

Definition frame (p p' : pool) : Prop :=
  p_chain p' = p_chain p /\ p_cfg p' = p_cfg p /\ p_locals p' = p_locals p /\
  forall e, In e (p_all p') -> In e (p_all p).

Lemma frame_refl p : frame p p.
Proof. repeat split; auto. Qed.
Lemma frame_trans p q r : frame p q -> frame q r -> frame p r.
Proof. intros [A1 [A2 [A3 A4]]] [B1 [B2 [B3 B4]]]. repeat split; [congruence..|auto]. Qed.
Lemma frame_same p p' :
  p_chain p' = p_chain p -> p_cfg p' = p_cfg p -> p_locals p' = p_locals p -> p_all p' = p_all p -> frame p p'.
Proof. intros H1 H2 H3 H4. repeat split; auto. rewrite H4. auto. Qed.

Lemma frame_indexed p p' : frame p p' -> forall x, In x (map fst (p_all p')) -> In x (map fst (p_all p)).
Proof.
  intros [_ [_ [_ H]]] x Hx. apply in_map_iff in Hx. destruct Hx as [e [He Hin]].
  apply in_map_iff. exists e. auto.
Qed.

(* the steps of txPricedList change nothing but the heap and its stale counter *)
Definition heap_only (p p' : pool) : Prop := exists h s, p' = set_heap p h s.

Lemma heap_only_refl p : heap_only p p.
Proof. exists (p_heap p), (p_stales p). destruct p; reflexivity. Qed.
Lemma heap_only_trans p q r : heap_only p q -> heap_only q r -> heap_only p r.
Proof. intros [h [s ->]] [h' [s' ->]]. exists h', s'. reflexivity. Qed.
Lemma heap_only_frame p p' : heap_only p p' -> frame p p'.
Proof. intros [h [s ->]]. apply frame_same; reflexivity. Qed.
Lemma heap_only_all p p' : heap_only p p' -> p_all p' = p_all p.
Proof. intros [h [s ->]]. reflexivity. Qed.
Lemma heap_only_queue p p' : heap_only p p' -> p_queue p' = p_queue p.
Proof. intros [h [s ->]]. reflexivity. Qed.
Lemma heap_only_pending p p' : heap_only p p' -> p_pending p' = p_pending p.
Proof. intros [h [s ->]]. reflexivity. Qed.

Lemma heap_only_removed p c : heap_only p (priced_removed p c).
Proof. unfold priced_removed, reheap. destruct (_ <=? _); eexists; eexists; reflexivity. Qed.
Lemma heap_only_put p t l : heap_only p (priced_put p t l).
Proof. unfold priced_put. destruct l; [apply heap_only_refl|eexists; eexists; reflexivity]. Qed.
Lemma heap_only_underpriced p o t : heap_only p (fst (priced_underpriced p o t)).
Proof. unfold priced_underpriced. destruct (drop_stale_heads _ _ _ _ _). eexists; eexists; reflexivity. Qed.
Lemma heap_only_discard p o s f : heap_only p (fst (fst (priced_discard p o s f))).
Proof.
  unfold priced_discard. destruct (discard_loop _ _ _ _ _ _ _) as [[[h s'] sl] drop].
  destruct (_ && _); eexists; eexists; reflexivity.
Qed.
Lemma heap_only_cap p o thr : heap_only p (fst (priced_cap p o thr)).
Proof. unfold priced_cap. destruct (cap_loop _ _ _ _ _ _ _) as [[h s] d]. eexists; eexists; reflexivity. Qed.

Lemma p_all_priced_removed p c : p_all (priced_removed p c) = p_all p.
Proof. apply heap_only_all, heap_only_removed. Qed.
Lemma frame_priced_removed p c : frame p (priced_removed p c).
Proof. apply heap_only_frame, heap_only_removed. Qed.

(* priced.Discard and priced.Cap hand out remote-flagged transactions only *)
Definition remotes_only (al : list (tx * bool)) (l : list tx) : Prop :=
  forall m, In m l -> exists t, In (t, false) al /\ t_id t = t_id m.

Lemma discard_loop_remote fuel o al : forall h s slots drop,
  remotes_only al drop ->
  remotes_only al (snd (discard_loop fuel o al h s slots drop)).
Proof.
  induction fuel as [|f IH]; intros h s slots drop Hd; cbn [discard_loop]; [exact Hd|].
  destruct (slots <=? 0); [exact Hd|].
  destruct (heap_min o h) as [m|]; [|exact Hd].
  destruct (all_get_remote al (t_id m)) as [t|] eqn:E.
  - apply IH. intros x Hx. apply in_app_iff in Hx. destruct Hx as [Hx|[<-|[]]]; [auto|].
    apply all_get_remote_some in E. exists t. exact E.
  - apply IH. exact Hd.
Qed.

Lemma cap_loop_remote fuel o al : forall h s thr drop,
  remotes_only al drop ->
  remotes_only al (snd (cap_loop fuel o al h s thr drop)).
Proof.
  induction fuel as [|f IH]; intros h s thr drop Hd; cbn [cap_loop]; [exact Hd|].
  destruct (heap_min o h) as [m|]; [|exact Hd].
  destruct (all_get_remote al (t_id m)) as [t|] eqn:E.
  - destruct (thr <=? t_price m); [exact Hd|].
    apply IH. intros x Hx. apply in_app_iff in Hx. destruct Hx as [Hx|[<-|[]]]; [auto|].
    apply all_get_remote_some in E. exists t. exact E.
  - apply IH. exact Hd.
Qed.

Lemma priced_discard_remote p o slots force : remotes_only (p_all p) (snd (fst (priced_discard p o slots force))).
Proof.
  unfold priced_discard.
  pose proof (discard_loop_remote (length (p_heap p)) o (p_all p) (p_heap p) (p_stales p) slots []) as H.
  destruct (discard_loop _ _ _ _ _ _ _) as [[[h s] sl] drop]. cbn [snd] in H.
  destruct (_ && _); cbn [fst snd]; [intros m []|]. apply H. intros m [].
Qed.

Lemma priced_cap_remote p o thr : remotes_only (p_all p) (snd (priced_cap p o thr)).
Proof.
  unfold priced_cap.
  pose proof (cap_loop_remote (length (p_heap p)) o (p_all p) (p_heap p) (p_stales p) thr []) as H.
  destruct (cap_loop _ _ _ _ _ _ _) as [[h s] drop]. cbn [snd] in *. apply H. intros m [].
Qed.

Lemma frame_unindex p id : frame p (set_all p (all_remove (p_all p) id)).
Proof. repeat split. cbn. intros e He. apply all_remove_entry in He. tauto. Qed.
Lemma frame_unindex_list p l : frame p (set_all p (all_remove_list (p_all p) l)).
Proof. repeat split. cbn. intros e He. apply all_remove_list_entry in He. tauto. Qed.
Lemma frame_pn_set_if_lower p a v : frame p (pn_set_if_lower p a v).
Proof. unfold pn_set_if_lower. destruct (_ <=? _); [apply frame_refl|]. apply frame_same; reflexivity. Qed.

(* a replaced entry leaves the index and the heap is told *)
Lemma frame_unindex_old q old :
  frame q (match old with Some o => priced_removed (set_all q (all_remove (p_all q) (t_id o))) 1 | None => q end).
Proof.
  destruct old as [o|]; [|apply frame_refl].
  eapply frame_trans; [|apply frame_priced_removed]. apply frame_unindex.
Qed.

Lemma frame_enqueue_tx p t l : frame p (fst (fst (enqueue_tx p t l false))).
Proof.
  unfold enqueue_tx. destruct (l_add (p_queue p) t (c_price_bump (p_cfg p))) as [[ok old] q'].
  destruct ok; cbn [fst]; [|apply frame_refl].
  eapply frame_trans; [|apply frame_unindex_old]. apply frame_same; reflexivity.
Qed.
Lemma frame_enqueue_all l : forall p, frame p (enqueue_all p l).
Proof.
  unfold enqueue_all. induction l as [|t l IH]; intros p; cbn [fold_left]; [apply frame_refl|].
  eapply frame_trans; [apply frame_enqueue_tx|apply IH].
Qed.

Lemma frame_promote_tx p a t : frame p (fst (promote_tx p a t)).
Proof.
  unfold promote_tx. destruct (l_add (p_pending p) t (c_price_bump (p_cfg p))) as [[ok old] pd].
  destruct ok; cbn [fst].
  - eapply frame_trans; [|apply frame_same; reflexivity].
    eapply frame_trans; [|apply frame_unindex_old]. apply frame_same; reflexivity.
  - eapply frame_trans; [|apply frame_priced_removed]. apply frame_unindex.
Qed.
Lemma frame_promote_list l : forall p a, frame p (promote_list p a l).
Proof.
  unfold promote_list. induction l as [|t l IH]; intros p a; cbn [fold_left]; [apply frame_refl|].
  eapply frame_trans; [apply frame_promote_tx|apply IH].
Qed.

(* removeTx of an indexed transaction: un-index it, tell the heap ([p2] below), then take it out of
   pending - the higher nonces of the account go back to the queue - or else out of the queue *)
Lemma remove_tx_eq p id b t : all_get (p_all p) id = Some t ->
  exists p2, heap_only (set_all p (all_remove (p_all p) id)) p2 /\
  remove_tx p id b =
  match l_get (p_pending p) (sender t) (t_nonce t) with
  | Some _ =>
    let l1 := l_del (p_pending p) (sender t) (t_nonce t) in
    let later x := is_acct (sender t) x && (t_nonce t <? t_nonce x) in
    pn_set_if_lower (enqueue_all (set_pending p2 (filter (fun x => negb (later x)) l1)) (filter later l1)) (sender t) (t_nonce t)
  | None =>
    set_queue p2 (match l_get (p_queue p) (sender t) (t_nonce t) with
                  | Some _ => l_del (p_queue p) (sender t) (t_nonce t) | None => p_queue p end)
  end.
Proof.
  intros E. unfold remove_tx. rewrite E.
  set (p1 := set_all p (all_remove (p_all p) id)).
  set (p2 := if b then priced_removed p1 1 else p1).
  assert (H2 : heap_only p1 p2) by (subst p2; destruct b; [apply heap_only_removed|apply heap_only_refl]).
  exists p2. split; [exact H2|]. unfold l_remove.
  rewrite (heap_only_pending _ _ H2), (heap_only_queue _ _ H2). cbn [p1 p_pending p_queue set_all].
  destruct (l_get (p_pending p) (sender t) (t_nonce t)); [reflexivity|].
  destruct (l_get (p_queue p) (sender t) (t_nonce t)); reflexivity.
Qed.

Lemma remove_tx_unknown p id b : all_get (p_all p) id = None -> remove_tx p id b = p.
Proof. intros E. unfold remove_tx. rewrite E. reflexivity. Qed.

Lemma frame_remove_tx p id b : frame p (remove_tx p id b).
Proof.
  destruct (all_get (p_all p) id) as [t|] eqn:E; [|rewrite remove_tx_unknown by exact E; apply frame_refl].
  destruct (remove_tx_eq p id b t E) as [p2 [H2 ->]].
  assert (S2 : frame p p2) by (eapply frame_trans; [apply frame_unindex|apply heap_only_frame, H2]).
  destruct (l_get (p_pending p) (sender t) (t_nonce t)).
  - eapply frame_trans; [|apply frame_pn_set_if_lower]. eapply frame_trans; [|apply frame_enqueue_all].
    eapply frame_trans; [exact S2|]. apply frame_same; reflexivity.
  - eapply frame_trans; [exact S2|]. apply frame_same; reflexivity.
Qed.
Lemma frame_remove_txs l p b : frame p (remove_txs p l b).
Proof.
  apply (remove_txs_keeps (frame p)); [|apply frame_refl].
  intros q id c H. eapply frame_trans; [exact H|apply frame_remove_tx].
Qed.

(** promoteExecutables for one account, phase by phase: stale queue entries go, then the unpayable
    ones, the ready run moves to pending, a non-local account's queue is capped.  What follows the
    last phase only touches the price heap. *)
Definition drop_queue (p : pool) (g : tx -> bool) : pool :=
  set_all (set_queue p (filter (fun t => negb (g t)) (p_queue p))) (all_remove_list (p_all p) (filter g (p_queue p))).

Definition stale (p : pool) (a : N) (t : tx) : bool := is_acct a t && (t_nonce t <? st_nonce (p_chain p) a).
Definition unpayable (p : pool) (a : N) (t : tx) : bool :=
  is_acct a t && ((ch_gaslimit (p_chain p) <? t_gas t) || (st_balance (p_chain p) a <? cost t)).

Definition promote_ready (p : pool) (a : N) : pool :=
  let R := l_ready (p_queue p) a (pn_get p a) in promote_list (set_queue p (minus_ids (p_queue p) R)) a R.

Definition cap_queue (p : pool) (a : N) : pool :=
  if memN a (p_locals p) then p else
  let '(caps, q) := l_cap (p_queue p) a (c_aqueue (p_cfg p)) in set_all (set_queue p q) (all_remove_list (p_all p) caps).

Lemma promote_account_idle p a : of_acct a (p_queue p) = [] -> promote_account p a = p.
Proof. intros E. unfold promote_account. rewrite E. reflexivity. Qed.

Lemma promote_account_phases p a : of_acct a (p_queue p) <> [] ->
  heap_only (cap_queue (promote_ready (drop_queue (drop_queue p (stale p a)) (unpayable p a)) a) a) (promote_account p a).
Proof.
  intros Hne. unfold promote_account. destruct (of_acct a (p_queue p)); [congruence|].
  unfold l_forward. rewrite l_filter_false. cbv beta iota zeta.
  unfold cap_queue, promote_ready, drop_queue, stale, unpayable. cbv zeta.
  destruct (memN a _); [apply heap_only_removed|]. destruct (l_cap _ _ _). apply heap_only_removed.
Qed.

Lemma frame_drop_queue p g : frame p (drop_queue p g).
Proof. eapply frame_trans; [apply (frame_unindex_list p (filter g (p_queue p)))|]. apply frame_same; reflexivity. Qed.

Lemma frame_promote_ready p a : frame p (promote_ready p a).
Proof. unfold promote_ready. eapply frame_trans; [|apply frame_promote_list]. apply frame_same; reflexivity. Qed.

Lemma frame_cap_queue p a : frame p (cap_queue p a).
Proof.
  unfold cap_queue. destruct (memN a (p_locals p)); [apply frame_refl|].
  destruct (l_cap (p_queue p) a (c_aqueue (p_cfg p))) as [caps q].
  eapply frame_trans; [apply (frame_unindex_list p caps)|]. apply frame_same; reflexivity.
Qed.

Lemma frame_promote_account p a : frame p (promote_account p a).
Proof.
  destruct (of_acct a (p_queue p)) eqn:E; [rewrite promote_account_idle by exact E; apply frame_refl|].
  eapply frame_trans; [|apply heap_only_frame, promote_account_phases; congruence].
  eapply frame_trans; [|apply frame_cap_queue]. eapply frame_trans; [|apply frame_promote_ready].
  eapply frame_trans; apply frame_drop_queue.
Qed.
Lemma frame_promote_executables l : forall p, frame p (promote_executables p l).
Proof.
  unfold promote_executables. induction l as [|a l IH]; intros p; cbn [fold_left]; [apply frame_refl|].
  eapply frame_trans; [apply frame_promote_account|apply IH].
Qed.

Lemma frame_demote_account p a : frame p (demote_account p a).
Proof.
  unfold demote_account.
  destruct (l_forward (p_pending p) a (st_nonce (p_chain p) a)) as [olds pd1].
  set (p1 := set_all (set_pending p pd1) (all_remove_list (p_all p) olds)).
  assert (S1 : frame p p1).
  { eapply frame_trans; [apply (frame_unindex_list p olds)|]. apply frame_same; reflexivity. }
  destruct (l_filter true (p_pending p1) a (st_balance (p_chain p) a) (ch_gaslimit (p_chain p))) as [[drops invalids] pd2].
  set (p2 := set_all (set_pending p1 pd2) (all_remove_list (p_all p1) drops)).
  assert (S2 : frame p p2).
  { eapply frame_trans; [exact S1|]. eapply frame_trans; [apply (frame_unindex_list p1 drops)|]. apply frame_same; reflexivity. }
  set (p3 := enqueue_all p2 invalids).
  assert (S3 : frame p p3) by (eapply frame_trans; [exact S2|apply frame_enqueue_all]).
  destruct (of_acct a (p_pending p3)); [exact S3|].
  destruct (l_get (p_pending p3) a (st_nonce (p_chain p) a)); [exact S3|].
  destruct (l_cap (p_pending p3) a 0) as [gapped pd3].
  eapply frame_trans; [exact S3|]. eapply frame_trans; [|apply frame_enqueue_all]. apply frame_same; reflexivity.
Qed.
Lemma frame_fold_demote l : forall p, frame p (fold_left demote_account l p).
Proof.
  induction l as [|a l IH]; intros p; cbn [fold_left]; [apply frame_refl|].
  eapply frame_trans; [apply frame_demote_account|apply IH].
Qed.

(* the setIfLower calls that follow list.Cap in truncatePending *)
Definition lower_all (a : N) (caps : list tx) (p : pool) : pool :=
  fold_left (fun q t => pn_set_if_lower q a (t_nonce t)) caps p.

Lemma cap_one_eq p a :
  cap_one p a =
  let '(caps, pd) := l_cap (p_pending p) a (l_len (p_pending p) a - 1) in
  priced_removed (lower_all a caps (set_all (set_pending p pd) (all_remove_list (p_all p) caps))) (Z.of_nat (length caps)).
Proof. reflexivity. Qed.

Lemma frame_lower_all a caps : forall p, frame p (lower_all a caps p).
Proof.
  unfold lower_all. induction caps as [|t l IH]; intros p; cbn [fold_left]; [apply frame_refl|].
  eapply frame_trans; [apply frame_pn_set_if_lower|apply IH].
Qed.
Lemma frame_cap_one p a : frame p (cap_one p a).
Proof.
  rewrite cap_one_eq. destruct (l_cap (p_pending p) a (l_len (p_pending p) a - 1)) as [caps pd].
  eapply frame_trans; [|apply frame_priced_removed]. eapply frame_trans; [|apply frame_lower_all].
  eapply frame_trans; [apply (frame_unindex_list p caps)|]. apply frame_same; reflexivity.
Qed.
Lemma frame_cap_each l p n : frame p (fst (cap_each p n l)).
Proof.
  apply (cap_each_keeps (frame p)); [|apply frame_refl].
  intros q a H. eapply frame_trans; [exact H|apply frame_cap_one].
Qed.
Lemma frame_truncate_pending o p : frame p (truncate_pending o p).
Proof.
  apply (truncate_pending_keeps (frame p)); [|apply frame_refl].
  intros q a H. eapply frame_trans; [exact H|apply frame_cap_one].
Qed.

Lemma frame_truncate_queue o p : frame p (truncate_queue o p).
Proof.
  apply (truncate_queue_keeps (frame p)); [|apply frame_refl].
  intros q id c H. eapply frame_trans; [exact H|apply frame_remove_tx].
Qed.

(* SetGasPrice either only stores the price or removes what priced.Cap hands out *)
Lemma set_gas_price_cases c p price :
  set_gas_price c p price = set_gasprice p price \/
  exists q drop, heap_only (set_gasprice p price) q /\ remotes_only (p_all p) drop /\
    set_gas_price c p price = priced_removed (remove_txs q drop false) (Z.of_nat (length drop)).
Proof.
  unfold set_gas_price. destruct (_ <? _); [right|left; reflexivity].
  pose proof (heap_only_cap (set_gasprice p price) (o1 c) price) as H1.
  pose proof (priced_cap_remote (set_gasprice p price) (o1 c) price) as H2.
  destruct (priced_cap (set_gasprice p price) (o1 c) price) as [q drop]. cbn [fst snd] in H1, H2.
  exists q, drop. auto.
Qed.

Lemma frame_set_gas_price c p price : frame p (set_gas_price c p price).
Proof.
  destruct (set_gas_price_cases c p price) as [->|[q [drop [Hq [_ ->]]]]]; [apply frame_same; reflexivity|].
  eapply frame_trans; [|apply frame_priced_removed]. eapply frame_trans; [|apply frame_remove_txs].
  eapply frame_trans; [|apply heap_only_frame, Hq]. apply frame_same; reflexivity.
Qed.
Lemma frame_expire addrs p : frame p (expire p addrs).
Proof.
  apply (expire_keeps (frame p)); [|apply frame_refl].
  intros q id c H. eapply frame_trans; [exact H|apply frame_remove_tx].
Qed.

(* the pool-full branch of add either touches the heap alone (not full, or an error) or removes what
   priced.Discard hands out *)
Lemma make_room_cases o p t l :
  heap_only p (fst (make_room o p t l)) \/
  exists q drop, heap_only p q /\ remotes_only (p_all p) drop /\
    make_room o p t l = (remove_txs (set_changes q (p_changes q + Z.of_nat (length drop))) drop false, None).
Proof.
  unfold make_room. destruct (_ <? _); [|left; apply heap_only_refl].
  assert (H1 : heap_only p (fst (if l then (p, false) else priced_underpriced p o t))).
  { destruct l; [apply heap_only_refl|apply heap_only_underpriced]. }
  destruct (if l then _ else _) as [q1 under]. cbn [fst] in H1.
  destruct (negb l && under); [left; exact H1|]. destruct (_ <? _); [left; exact H1|].
  match goal with |- context [priced_discard q1 o ?s l] =>
    pose proof (heap_only_discard q1 o s l) as H2; pose proof (priced_discard_remote q1 o s l) as H3 end.
  destruct (priced_discard q1 o _ l) as [[q2 drop] success]. cbn [fst snd] in H2, H3.
  destruct (negb l && negb success); [left; eapply heap_only_trans; eassumption|].
  right. exists q2, drop. split; [eapply heap_only_trans; eassumption|]. split; [|reflexivity].
  rewrite <- (heap_only_all _ _ H1). exact H3.
Qed.

Lemma make_room_error o p t l p1 e : make_room o p t l = (p1, Some e) -> heap_only p p1.
Proof.
  intros E. destruct (make_room_cases o p t l) as [H|[q [drop [_ [_ E']]]]].
  - rewrite E in H. exact H.
  - rewrite E in E'. discriminate.
Qed.

Lemma frame_make_room o p t l : frame p (fst (make_room o p t l)).
Proof.
  destruct (make_room_cases o p t l) as [H|[q [drop [Hq [_ ->]]]]]; [apply heap_only_frame, H|]. cbn [fst].
  eapply frame_trans; [apply heap_only_frame, Hq|]. eapply frame_trans; [|apply frame_remove_txs]. apply frame_same; reflexivity.
Qed.
