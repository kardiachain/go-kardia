(** C17 — the post-condition of truncateQueue: afterwards the queue is within GlobalQueue unless only
    local accounts still have queued transactions. *)
From Coq Require Import List ZArith NArith Bool Lia.
From Kardia Require Import C17.Model C17.ProofsBasic C17.ProofsFrame C17.ProofsInv C17.ProofsOps C17.ProofsReorg C17.ProofsStep C17.ProofsReset.
Import ListNotations.
Local Open Scope Z_scope.

Lemma remove_tx_queue p t b :
  Inv p -> In t (p_queue p) ->
  let p' := remove_tx p (t_id t) b in
  p_queue p' = l_del (p_queue p) (sender t) (t_nonce t) /\ p_locals p' = p_locals p /\ p_cfg p' = p_cfg p.
Proof.
  intros I Hq. cbn zeta.
  destruct (frame_remove_tx p (t_id t) b) as [_ [Hc [Hl _]]]. split; [|split; assumption].
  assert (Hall : In t (map fst (p_all p))) by (apply (inv_idx _ p I); auto).
  destruct (all_get (p_all p) (t_id t)) as [t'|] eqn:Eg.
  2:{ exfalso. eapply (all_get_none _ _ Eg t); auto. }
  pose proof (all_get_some _ _ _ Eg) as [Hin' Hid].
  assert (t' = t) by (eapply (ids_inj _ (inv_ids _ p I)); eauto). subst t'.
  destruct (remove_tx_eq p (t_id t) b t Eg) as [p2 [H2 ->]].
  rewrite (inv_queue_not_pending _ p I t Hq), (l_get_in_nodup _ _ (inv_kq _ p I) Hq). reflexivity.
Qed.

Lemma l_del_length l t : NoDup (map key l) -> In t l -> S (length (l_del l (sender t) (t_nonce t))) = length l.
Proof.
  induction l as [|x l IH]; intros Hd Hin; [destruct Hin|].
  cbn [map] in Hd. apply NoDup_cons_iff in Hd. destruct Hd as [Hn Hd].
  unfold l_del. cbn [filter]. destruct (same_slot (sender t) (t_nonce t) x) eqn:E; cbn [negb length].
  - apply same_slot_key in E. f_equal.
    (* nothing else in l has that key *)
    assert (Hall : forall y, In y l -> negb (same_slot (sender t) (t_nonce t) y) = true).
    { intros y Hy. apply negb_true_iff. destruct (same_slot (sender t) (t_nonce t) y) eqn:Ey; auto.
      apply same_slot_key in Ey. exfalso. apply Hn. rewrite E, <- Ey. apply in_map. auto. }
    clear -Hall. induction l as [|y l IH]; cbn [filter]; auto. rewrite (Hall y (or_introl eq_refl)). cbn. f_equal.
    apply IH. intros z Hz. apply Hall. cbn. auto.
  - destruct Hin as [->|Hin].
    + exfalso. assert (same_slot (sender t) (t_nonce t) t = true) by (apply same_slot_key; reflexivity). congruence.
    + f_equal. apply IH; auto.
Qed.

(* removing a list of queued transactions with distinct slots *)
Lemma remove_txs_queue L : forall p,
  Inv p -> NoDup (map key L) -> (forall t, In t L -> In t (p_queue p)) ->
  let p' := remove_txs p L true in
  Inv p' /\ p_locals p' = p_locals p /\ p_cfg p' = p_cfg p /\
  (length (p_queue p') + length L = length (p_queue p))%nat /\
  (forall x, In x (p_queue p') <-> In x (p_queue p) /\ ~ In (key x) (map key L)).
Proof.
  unfold remove_txs. induction L as [|t L IH]; intros p I Hd Hin; cbn zeta; cbn [fold_left].
  - split; auto. split; auto. split; auto. split; [cbn; lia|]. intros x. cbn. tauto.
  - cbn [map] in Hd. apply NoDup_cons_iff in Hd. destruct Hd as [Hn Hd].
    assert (Ht : In t (p_queue p)) by (apply Hin; cbn; auto).
    destruct (remove_tx_queue p t true I Ht) as [Q1 [Q2 Q3]]. cbn zeta in *.
    set (p1 := remove_tx p (t_id t) true) in *.
    assert (I1 : Inv p1) by (apply inv_remove_tx; auto).
    destruct (IH p1 I1 Hd) as [I2 [L2 [C2 [N2 E2]]]].
    { intros u Hu. rewrite Q1. apply l_del_In. split; [apply Hin; cbn; auto|].
      intros Hk. apply Hn. change (sender t, t_nonce t) with (key t) in Hk. rewrite <- Hk. apply in_map. auto. }
    cbn zeta in *. split; auto. split; [congruence|]. split; [congruence|]. split.
    + rewrite Q1 in N2. pose proof (l_del_length (p_queue p) t (inv_kq _ p I) Ht). cbn [length]. lia.
    + intros x. rewrite E2, Q1, l_del_In. cbn [map In]. change (sender t, t_nonce t) with (key t). split.
      * intros [[H1 H2] H3]. split; auto. intros [H|H]; [apply H2; auto|auto].
      * intros [H1 H2]. repeat split; auto.
Qed.

Lemma insert_nonce_In t l x : In x (insert_nonce t l) <-> x = t \/ In x l.
Proof.
  induction l as [|y l IH]; cbn [insert_nonce In]; [intuition|].
  destruct (t_nonce t <? t_nonce y); cbn [In]; [intuition|]. rewrite IH. intuition.
Qed.

Lemma insert_nonce_length t l : length (insert_nonce t l) = S (length l).
Proof.
  induction l as [|y l IH]; cbn [insert_nonce length]; auto.
  destruct (t_nonce t <? t_nonce y); cbn [length]; auto.
Qed.

Lemma insert_nonce_nodup t l : NoDup (map key l) -> ~ In (key t) (map key l) -> NoDup (map key (insert_nonce t l)).
Proof.
  induction l as [|y l IH]; intros Hd Hn; cbn [insert_nonce map].
  - constructor; auto.
  - destruct (t_nonce t <? t_nonce y); cbn [map].
    + constructor; auto.
    + cbn [map] in Hd, Hn. apply NoDup_cons_iff in Hd. destruct Hd as [Hy Hd]. constructor.
      * intros Hc. apply in_map_iff in Hc. destruct Hc as [z [Hk Hz]]. apply insert_nonce_In in Hz.
        destruct Hz as [->|Hz]; [apply Hn; cbn; auto|]. apply Hy. rewrite <- Hk. apply in_map. auto.
      * apply IH; auto. intros Hc. apply Hn. cbn. auto.
Qed.

Lemma flatten_spec l a :
  NoDup (map key l) ->
  (forall x, In x (flatten l a) <-> In x l /\ sender x = a) /\ NoDup (map key (flatten l a)).
Proof.
  intros Hd. unfold flatten, of_acct.
  assert (H : forall m, NoDup (map key m) ->
              (forall x, In x (fold_right insert_nonce [] m) <-> In x m) /\ NoDup (map key (fold_right insert_nonce [] m))).
  { induction m as [|y m IH]; intros Hm; cbn [fold_right].
    - split; [tauto|constructor].
    - cbn [map] in Hm. apply NoDup_cons_iff in Hm. destruct Hm as [Hy Hm]. destruct (IH Hm) as [H1 H2]. split.
      + intros x. rewrite insert_nonce_In, H1. cbn. intuition.
      + apply insert_nonce_nodup; auto. intros Hc. apply Hy. apply in_map_iff in Hc. destruct Hc as [z [Hk Hz]].
        apply H1 in Hz. rewrite <- Hk. apply in_map. auto. }
  destruct (H (filter (is_acct a) l)) as [H1 H2]; [apply NoDup_map_filter; auto|]. split; auto.
  intros x. rewrite H1, filter_In, is_acct_true. tauto.
Qed.

Lemma drop_last_few_spec fuel : forall txs p d,
  Inv p -> NoDup (map key txs) -> (forall t, In t txs -> In t (p_queue p)) ->
  0 <= d <= Z.of_nat (length txs) -> (length txs <= fuel)%nat ->
  let r := drop_last_few fuel p txs d in
  Inv (fst r) /\ p_locals (fst r) = p_locals p /\ p_cfg (fst r) = p_cfg p /\ snd r = 0 /\
  Z.of_nat (length (p_queue (fst r))) = Z.of_nat (length (p_queue p)) - d.
Proof.
  induction fuel as [|f IH]; intros txs p d I Hd Hin Hr Hf; cbn zeta.
  - destruct txs; [|cbn in Hf; lia]. cbn [drop_last_few fst snd]. cbn in Hr.
    split; [exact I|]. split; [reflexivity|]. split; [reflexivity|]. split; lia.
  - destruct txs as [|t r]; cbn [drop_last_few].
    + cbn in Hr. cbn [fst snd]. split; [exact I|]. split; [reflexivity|]. split; [reflexivity|]. split; lia.
    + destruct (0 <? d) eqn:E.
      * apply Z.ltb_lt in E. cbn [map] in Hd. apply NoDup_cons_iff in Hd. destruct Hd as [Hn Hd].
        assert (Ht : In t (p_queue p)) by (apply Hin; cbn; auto).
        destruct (remove_tx_queue p t true I Ht) as [Q1 [Q2 Q3]]. cbn zeta in *.
        destruct (IH r (remove_tx p (t_id t) true) (d - 1)) as [J1 [J2 [J3 [J4 J5]]]].
        { apply inv_remove_tx; auto. }
        { auto. }
        { intros u Hu. rewrite Q1. apply l_del_In. split; [apply Hin; cbn; auto|].
          intros Hk. apply Hn. change (sender t, t_nonce t) with (key t) in Hk. rewrite <- Hk. apply in_map. auto. }
        { cbn [length] in Hr. lia. }
        { cbn [length] in Hf. lia. }
        cbn zeta in *. split; auto. split; [congruence|]. split; [congruence|]. split; auto.
        rewrite J5, Q1. pose proof (l_del_length (p_queue p) t (inv_kq _ p I) Ht). lia.
      * apply Z.ltb_ge in E. cbn [fst snd]. split; [exact I|]. split; [reflexivity|]. split; [reflexivity|]. split; lia.
Qed.

Lemma loop_done addrs p d : d <= 0 -> truncate_queue_loop p addrs d = p.
Proof. intros H. destruct addrs; cbn [truncate_queue_loop]; auto. destruct (0 <? d) eqn:E; auto. apply Z.ltb_lt in E. lia. Qed.

Definition queue_ok (p : pool) : Prop :=
  Z.of_nat (length (p_queue p)) <= c_gqueue (p_cfg p) \/ forall t, In t (p_queue p) -> In (sender t) (p_locals p).

Lemma truncate_queue_loop_post addrs : forall p drop,
  Inv p -> drop = Z.of_nat (length (p_queue p)) - c_gqueue (p_cfg p) ->
  (forall t, In t (p_queue p) -> ~ In (sender t) (p_locals p) -> In (sender t) addrs) ->
  queue_ok (truncate_queue_loop p addrs drop).
Proof.
  induction addrs as [|a rest IH]; intros p drop I Hdrop Hcov; cbn [truncate_queue_loop].
  - right. intros t Ht. destruct (in_dec N.eq_dec (sender t) (p_locals p)); auto. exfalso. eapply Hcov; eauto.
  - destruct (0 <? drop) eqn:E.
    2:{ apply Z.ltb_ge in E. left. lia. }
    apply Z.ltb_lt in E.
    destruct (flatten_spec (p_queue p) a (inv_kq _ p I)) as [F1 F2].
    set (txs := flatten (p_queue p) a) in *.
    destruct (Z.of_nat (length txs) <=? drop) eqn:Es.
    + apply Z.leb_le in Es.
      destruct (remove_txs_queue txs p I F2) as [I1 [L1 [C1 [N1 E1]]]]; [intros t Ht; apply F1; auto|].
      cbn zeta in *. apply IH; auto.
      * rewrite C1. lia.
      * intros t Ht Hnl. apply E1 in Ht. destruct Ht as [Ht Hk]. rewrite L1 in Hnl.
        destruct (Hcov t Ht Hnl) as [Ha|Hr]; auto.
        exfalso. apply Hk. apply in_map. apply F1. auto.
    + apply Z.leb_gt in Es.
      destruct (drop_last_few_spec (length txs) (rev txs) p drop I) as [J1 [J2 [J3 [J4 J5]]]].
      { rewrite map_rev. apply NoDup_rev. auto. }
      { intros t Ht. apply in_rev in Ht. apply F1. auto. }
      { rewrite rev_length. lia. }
      { rewrite rev_length. lia. }
      cbn zeta in *. destruct (drop_last_few (length txs) p (rev txs) drop) as [p1 d1]. cbn [fst snd] in *.
      subst d1. rewrite loop_done by lia. left. rewrite J3. lia.
Qed.

Lemma truncate_queue_post o p : Inv p -> queue_ok (truncate_queue o p).
Proof.
  intros I. unfold truncate_queue. destruct (_ <=? _) eqn:E.
  - apply Z.leb_le in E. left. exact E.
  - apply truncate_queue_loop_post; auto.
    intros t Ht Hnl. destruct (accounts_spec (p_queue p)) as [_ Hacc].
    assert (Hqa : In (sender t) (accounts (p_queue p))) by (apply Hacc; eauto).
    assert (Hl : memN (sender t) (p_locals p) = false).
    { destruct (memN (sender t) (p_locals p)) eqn:Em; auto. apply memN_In in Em. contradiction. }
    apply in_app_iff. destruct (memN (sender t) o) eqn:Eo.
    + left. apply filter_In. split; [apply memN_In; auto|]. rewrite Hl. cbn. rewrite andb_true_r. apply memN_In. auto.
    + right. apply filter_In. split; auto. rewrite Eo, Hl. reflexivity.
Qed.

Lemma queue_ok_set_changes p v : queue_ok p -> queue_ok (set_changes p v).
Proof. intros H. exact H. Qed.

(* after every reorg run the queue is within GlobalQueue unless only local accounts are still queued *)
Lemma queue_ok_reorg_tail c q : Inv q -> queue_ok (reorg_tail c q).
Proof. intros I. apply queue_ok_set_changes, truncate_queue_post, inv_truncate_pending, I. Qed.

Lemma queue_limit_after_reorg c p dirty : Inv p -> queue_ok (run_reorg c p None dirty).
Proof. intros I. rewrite run_reorg_none_eq. apply queue_ok_reorg_tail, inv_promote_executables, I. Qed.

Lemma queue_limit_after_reset c p ch : Inv p -> chain_nonneg ch -> queue_ok (run_reorg c p (Some (ch, [])) []).
Proof. intros I Hnn. rewrite run_reorg_reset_eq. apply queue_ok_reorg_tail, inv_reset_core; auto. Qed.

Lemma queue_limit c p :
  Inv p ->
  ((forall dirty, queue_ok (run_reorg c p None dirty)) /\
   (forall ch, chain_nonneg ch -> queue_ok (run_reorg c p (Some (ch, [])) [])))%type.
Proof.
  intros I. split.
  - intros dirty. exact (queue_limit_after_reorg c p dirty I).
  - intros ch Hnn. exact (queue_limit_after_reset c p ch I Hnn).
Qed.
