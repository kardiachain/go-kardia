(** C17 — preservation of the invariant by removeTx, enqueueTx, add and the queue filters. *)
From Coq Require Import List ZArith NArith Bool Lia.
From Kardia Require Import Generated.C17Facts C17.Model C17.ProofsBasic C17.ProofsFrame C17.ProofsInv.
Import ListNotations.
Local Open Scope Z_scope.

(* enqueueTx with addAll = false: re-queueing transactions that left the pending list *)
Lemma enqueue_fresh p t :
  (forall x, In x (p_queue p) -> key x <> key t) ->
  fst (fst (enqueue_tx p t false false)) = set_queue p (l_put (p_queue p) t).
Proof.
  intros Hf. unfold enqueue_tx. rewrite l_add_free; [reflexivity|].
  destruct (l_get (p_queue p) (sender t) (t_nonce t)) eqn:E; [|reflexivity].
  apply l_get_some in E. destruct E as [Hin Hk]. exfalso. apply (Hf t0 Hin). exact Hk.
Qed.

Lemma enqueue_all_spec l : forall p,
  NoDup (map key l) ->
  (forall t, In t l -> forall x, In x (p_queue p) -> key x <> key t) ->
  let p' := enqueue_all p l in
  p_chain p' = p_chain p /\ p_pending p' = p_pending p /\ p_all p' = p_all p /\ p_nonces p' = p_nonces p /\
  (forall x, In x (p_queue p') <-> In x l \/ In x (p_queue p)) /\
  (NoDup (map key (p_queue p)) -> NoDup (map key (p_queue p'))).
Proof.
  induction l as [|t l IH]; intros p Hd Hf; cbn zeta.
  - unfold enqueue_all. cbn [fold_left In]. repeat split; auto; tauto.
  - unfold enqueue_all. cbn [fold_left]. fold (enqueue_all (fst (fst (enqueue_tx p t false false))) l).
    rewrite enqueue_fresh by (apply Hf; cbn; auto).
    inversion Hd as [|? ? Hn Hd']; subst.
    specialize (IH (set_queue p (l_put (p_queue p) t)) Hd').
    cbn zeta in IH. cbn [p_queue set_queue p_chain p_pending p_all p_nonces] in IH.
    destruct IH as [H1 [H2 [H3 [H4 [H5 H6]]]]].
    { intros u Hu x Hx. apply l_put_In in Hx. destruct Hx as [-> |[Hx _]].
      - intros Hk. apply Hn. rewrite Hk. apply in_map. auto.
      - apply Hf; cbn; auto. }
    repeat split; auto.
    + intros Hx. apply H5 in Hx. destruct Hx as [Hx|Hx]; [left; right; auto|].
      apply l_put_In in Hx. destruct Hx as [-> |[Hx _]]; [left; left; auto|right; auto].
    + intros [[-> |Hx]|Hx]; apply H5.
      * right. apply l_put_In. auto.
      * left. auto.
      * right. apply l_put_In. right. split; auto. apply Hf; cbn; auto.
    + intros Hq. apply H6. apply l_put_nodup. auto.
Qed.

Lemma invo_shrink_queue out p p' :
  InvO out p -> p_chain p' = p_chain p -> p_pending p' = p_pending p -> p_nonces p' = p_nonces p ->
  (forall t, In t (p_queue p') -> In t (p_queue p)) -> NoDup (map key (p_queue p')) ->
  (forall t, In t (map fst (p_all p')) <-> In t (p_pending p') \/ In t (p_queue p') \/ In t out) ->
  NoDup (map t_id (map fst (p_all p'))) -> InvO out p'.
Proof.
  intros I Hc Hp Hn Hq Hkq Hidx Hids.
  assert (Hpn : forall x, pn_get p' x = pn_get p x) by (intros x; apply pn_get_ext; auto).
  destruct I as [a b c d e f g h].
  constructor; auto; rewrite ?Hc, ?Hp; auto.
  - intros x n. rewrite Hpn. apply e.
  - intros x. rewrite Hpn. apply f.
  - intros t Ht. rewrite Hpn. apply g. auto.
Qed.

(* dropping the queue entries selected by [g], un-indexing them *)
Lemma inv_filter_queue p g :
  Inv p ->
  Inv (set_all (set_queue p (filter (fun t => negb (g t)) (p_queue p)))
               (all_remove_list (p_all p) (filter g (p_queue p)))).
Proof.
  intros I. eapply invo_shrink_queue; eauto; cbn [p_chain p_pending p_nonces p_queue p_all set_all set_queue].
  - intros t Ht. apply filter_In in Ht. tauto.
  - apply NoDup_map_filter. apply (inv_kq _ p I).
  - intros t. rewrite unindex_list_In, (inv_idx _ p I), !filter_In; [|apply (inv_ids _ p I)|].
    + pose proof (inv_apart _ p I t). destruct (g t); cbn [In negb]; intuition congruence.
    + intros x Hx. apply filter_In in Hx. apply (inv_idx _ p I). tauto.
  - apply all_remove_list_ids. apply (inv_ids _ p I).
Qed.

Lemma inv_remove_tx p id b : Inv p -> Inv (remove_tx p id b).
Proof.
  intros I. unfold remove_tx.
  destruct (all_get (p_all p) id) as [t|] eqn:Eg; auto.
  apply all_get_some in Eg. destruct Eg as [Hall <-].
  set (p1 := set_all p (all_remove (p_all p) (t_id t))).
  set (p2 := if b then priced_removed p1 1 else p1).
  assert (Hcore : core p2 = core p1) by (subst p2; destruct b; [apply core_priced_removed|reflexivity]).
  unfold core in Hcore. inversion Hcore as [[Hc Hp Hq Ha Hn]]. cbn [p1 p_chain p_pending p_queue p_all p_nonces set_all] in Hc, Hp, Hq, Ha, Hn.
  assert (Hpn2 : forall x, pn_get p2 x = pn_get p x) by (intros x; apply pn_get_ext; auto).
  assert (Hlist : In t (p_pending p) \/ In t (p_queue p)).
  { apply (inv_idx _ p I) in Hall. cbn [In] in Hall. tauto. }
  unfold l_remove. rewrite Hp.
  destruct (l_get (p_pending p) (sender t) (t_nonce t)) as [t0|] eqn:Egp.
  - (* in pending *)
    assert (Hinp : In t (p_pending p)).
    { destruct Hlist as [H|H]; auto. rewrite (inv_queue_not_pending _ p I t H) in Egp. discriminate. }
    assert (t0 = t).
    { rewrite (l_get_in_nodup _ _ (inv_kp _ p I) Hinp) in Egp. congruence. }
    subst t0.
    set (a := sender t). set (n := t_nonce t).
    set (inval := filter (fun x => is_acct a x && (n <? t_nonce x)) (l_del (p_pending p) a n)).
    set (rest := filter (fun x => negb (is_acct a x && (n <? t_nonce x))) (l_del (p_pending p) a n)).
    assert (Hrun : st_nonce (p_chain p) a <= n < pn_get p a).
    { apply (inv_run _ p I). exists t. auto. }
    pose proof (enqueue_all_spec inval (set_pending p2 rest)) as Hs.
    cbn zeta in Hs. cbn [p_queue p_chain p_pending p_all p_nonces set_pending] in Hs.
    assert (Hinval : forall x, In x inval <-> In x (p_pending p) /\ sender x = a /\ n < t_nonce x).
    { intros x. unfold inval. rewrite filter_In, l_del_In, andb_true_iff, is_acct_true, Z.ltb_lt.
      split; [tauto|]. intros [H1 [H2 H3]]. repeat split; auto. unfold key. intros Hk. inversion Hk. lia. }
    destruct Hs as [Hs1 [Hs2 [Hs3 [Hs4 [Hs5 Hs6]]]]].
    { unfold inval. apply NoDup_map_filter. unfold l_del. apply NoDup_map_filter. apply (inv_kp _ p I). }
    { intros x Hx y Hy. rewrite Hq in Hy. apply Hinval in Hx. intros Hk. symmetry in Hk. revert Hk.
      eapply (inv_disjoint _ p I); tauto. }
    set (p3 := enqueue_all (set_pending p2 rest) inval) in *.
    assert (Hpn3 : forall x, pn_get p3 x = pn_get p x).
    { intros x. apply pn_get_ext; congruence. }
    assert (Hlow : pn_set_if_lower p3 a n = pn_set p3 a n).
    { unfold pn_set_if_lower. rewrite Hpn3. destruct (pn_get p a <=? n) eqn:E; auto. apply Z.leb_le in E. lia. }
    rewrite Hlow.
    eapply (inv_cut [] [] p _ a n I); cbn [p_chain p_pending p_queue p_all pn_set set_nonces].
    + lia.
    + rewrite Hs1. exact Hc.
    + intros x. destruct (N.eqb a x) eqn:E.
      * apply N.eqb_eq in E. subst x. apply pn_get_set_eq.
      * apply N.eqb_neq in E. rewrite pn_get_set_neq by auto. apply Hpn3.
    + intros x. rewrite Hs2. unfold rest. rewrite filter_In, l_del_In, negb_true_iff, andb_false_iff, is_acct_false_iff, Z.ltb_ge.
      split.
      * intros [[Hx Hk] Hor]. split; auto. intros [Hsx Hge]. destruct Hor as [Hor|Hor]; [contradiction|].
        apply Hk. unfold key. f_equal; auto. unfold n in *. lia.
      * intros [Hx Hnot]. repeat split; auto.
        -- unfold key. intros Hk. inversion Hk. apply Hnot. split; auto. unfold n. lia.
        -- destruct (N.eq_dec (sender x) a); [right|left; auto]. destruct (Z_le_gt_dec (t_nonce x) n); auto.
           exfalso. apply Hnot. split; auto. lia.
    + rewrite Hs2. unfold rest. apply NoDup_map_filter. unfold l_del. apply NoDup_map_filter. apply (inv_kp _ p I).
    + apply Hs6. rewrite Hq. apply (inv_kq _ p I).
    + intros x Hx. apply Hs5 in Hx. rewrite Hq in Hx. destruct Hx as [Hx|Hx]; auto.
      apply Hinval in Hx. right. repeat split; try tauto. lia.
    + intros x. rewrite Hs3, Ha, unindex_In, (inv_idx _ p I), Hs2, Hs5, Hq, Hinval by (auto; apply (inv_ids _ p I)). cbn [In].
      unfold rest. rewrite filter_In, l_del_In, negb_true_iff, andb_false_iff, is_acct_false_iff, Z.ltb_ge.
      split.
      * intros [[Hx|[Hx|[]]] Hne]; [|auto].
        assert (Hkx : key x <> (a, n)).
        { intros Hk. apply Hne. eapply NoDup_map_inj; [apply (inv_kp _ p I)| | |]; eauto. }
        destruct (N.eq_dec (sender x) a) as [Hsa|Hsa]; [|left; auto].
        destruct (Z_le_gt_dec (t_nonce x) n) as [Hle|Hgt]; [left; auto|].
        right. left. left. repeat split; auto. lia.
      * intros [[[Hx Hk] _]|[[[Hx [Hsx Hgt]]|Hx]|[]]]; (split; [auto|intros ->]).
        -- apply Hk. reflexivity.
        -- unfold n in Hgt. lia.
        -- eapply (inv_apart _ p I); eauto.
    + rewrite Hs3, Ha. apply all_remove_ids. apply (inv_ids _ p I).
  - (* not in pending: in the queue *)
    assert (Hinq : In t (p_queue p)).
    { destruct Hlist as [H|H]; auto. destruct (l_get_in _ _ H) as [x Hx]. congruence. }
    rewrite Hq. rewrite (l_get_in_nodup _ _ (inv_kq _ p I) Hinq).
    eapply invo_shrink_queue; eauto; cbn [p_chain p_pending p_nonces p_queue p_all set_queue]; auto.
    + intros x Hx. apply l_del_In in Hx. tauto.
    + unfold l_del. apply NoDup_map_filter. apply (inv_kq _ p I).
    + intros x. rewrite Ha, Hp, unindex_In, (inv_idx _ p I), l_del_In by (auto; apply (inv_ids _ p I)). cbn [In].
      split.
      * intros [[Hx|[Hx|[]]] Hne]; auto. right. left. split; auto.
        intros Hk. apply Hne. eapply NoDup_map_inj; [apply (inv_kq _ p I)| | |]; eauto.
      * intros [Hx|[[Hx Hk]|[]]]; (split; [auto|intros ->]).
        -- eapply (inv_apart _ p I); eauto.
        -- apply Hk. reflexivity.
    + rewrite Ha. apply all_remove_ids. apply (inv_ids _ p I).
Qed.

Lemma inv_remove_txs l p b : Inv p -> Inv (remove_txs p l b).
Proof. apply remove_txs_keeps. intros q id c. apply inv_remove_tx. Qed.

Lemma priced_underpriced_core p o t : core (fst (priced_underpriced p o t)) = core p.
Proof. apply heap_only_core, heap_only_underpriced. Qed.

Lemma inv_make_room o p t l : Inv p -> Inv (fst (make_room o p t l)).
Proof.
  intros I. destruct (make_room_cases o p t l) as [H|[q [drop [Hq [_ ->]]]]].
  - eapply Inv_core; [apply heap_only_core, H|exact I].
  - cbn [fst]. apply inv_remove_txs. eapply Inv_core; [|exact I].
    rewrite core_set_changes. apply heap_only_core, Hq.
Qed.

Lemma validate_ok p t l : validate_tx p t l = EOk ->
  exists from, t_from t = Some from /\ st_nonce (p_chain p) from <= t_nonce t /\
               cost t <= st_balance (p_chain p) from /\ t_gas t <= ch_gaslimit (p_chain p).
Proof.
  unfold validate_tx.
  destruct (tx_max_size <? t_size t); [discriminate|].
  destruct (t_value t <? 0); [discriminate|].
  destruct (ch_gaslimit (p_chain p) <? t_gas t) eqn:Eg; [discriminate|].
  destruct (t_from t) as [from|]; [|discriminate].
  destruct (negb l && _); [discriminate|].
  destruct (t_nonce t <? st_nonce (p_chain p) from) eqn:En; [discriminate|].
  destruct (st_balance (p_chain p) from <? cost t) eqn:Eb; [discriminate|].
  intros _. exists from. apply Z.ltb_ge in Eg, En, Eb. auto.
Qed.

Lemma all_to_locals_fst al locals : map fst (snd (all_to_locals al locals)) = map fst al.
Proof.
  unfold all_to_locals. cbn [snd]. rewrite map_map. apply map_ext. intros e. destruct (migrates locals e); reflexivity.
Qed.

(* a new local account: the entries of its transactions are re-flagged, nothing else moves *)
Lemma core_add_local q a :
  core (let q' := set_locals q (a :: p_locals q) in
        let '(migrated, al) := all_to_locals (p_all q') (p_locals q') in
        priced_removed (set_all q' al) migrated) = core q.
Proof.
  cbv zeta. pose proof (all_to_locals_fst (p_all (set_locals q (a :: p_locals q))) (p_locals (set_locals q (a :: p_locals q)))) as H.
  destruct (all_to_locals _ _) as [migrated al]. cbn [snd p_all set_locals] in H.
  rewrite core_priced_removed. unfold core. cbn [p_chain p_pending p_queue p_all p_nonces set_all set_locals].
  rewrite H. reflexivity.
Qed.

Lemma inv_replace_pending p t o b :
  Inv p -> l_get (p_pending p) (sender t) (t_nonce t) = Some o ->
  (forall x, In x (map fst (p_all p)) -> t_id x <> t_id t) ->
  cost t <= st_balance (p_chain p) (sender t) -> t_gas t <= ch_gaslimit (p_chain p) ->
  Inv (set_all (set_pending p (l_put (p_pending p) t)) (all_add (all_remove (p_all p) (t_id o)) t b)).
Proof.
  intros I Hg Hfresh Hc Hgas.
  apply l_get_some in Hg. destruct Hg as [Hino Hko].
  assert (Hko' : key o = key t) by exact Hko.
  constructor; cbn [p_chain p_pending p_queue p_all set_all set_pending].
  - apply l_put_nodup. apply (inv_kp _ p I).
  - apply (inv_kq _ p I).
  - intros x. rewrite all_add_In, unindex_In, (inv_idx _ p I), l_put_In by (try apply (inv_idx _ p I); auto; apply (inv_ids _ p I)).
    cbn [In]. split.
    + intros [[[Hx|[Hx|[]]] Hne]| ->]; auto. left. right. split; auto.
      intros Hk. apply Hne. eapply NoDup_map_inj; [apply (inv_kp _ p I)| | |]; eauto. congruence.
    + intros [[-> |[Hx Hk]]|[Hx|[]]]; auto; left; (split; [auto|intros ->]).
      * congruence.
      * eapply (inv_apart _ p I); eauto.
  - apply all_add_ids.
    + apply all_remove_ids. apply (inv_ids _ p I).
    + intros x Hx. apply all_remove_In in Hx. apply Hfresh. tauto.
  - intros a n. unfold pn_get. cbn [p_nonces p_chain set_all set_pending].
    fold (pn_get p a). rewrite <- (inv_run _ p I). split.
    + intros [x [Hx [Hs Hn]]]. apply l_put_In in Hx. destruct Hx as [-> |[Hx _]]; [|eauto].
      exists o. unfold key in Hko'. inversion Hko'. repeat split; auto; congruence.
    + intros [x [Hx [Hs Hn]]]. destruct (N.eq_dec (sender x) (sender t)) as [E1|E1];
        [destruct (Z.eq_dec (t_nonce x) (t_nonce t)) as [E2|E2]|].
      * exists t. split; [apply l_put_In; auto|]. split; congruence.
      * exists x. split; auto. apply l_put_In. right. split; auto. unfold key. intros Hk; inversion Hk; auto.
      * exists x. split; auto. apply l_put_In. right. split; auto. unfold key. intros Hk; inversion Hk; auto.
  - intros a. apply (inv_pn _ p I).
  - intros x Hx. apply (inv_q _ p I x Hx).
  - intros x Hx. apply l_put_In in Hx. destruct Hx as [-> |[Hx _]]; auto. apply (inv_aff _ p I). auto.
Qed.

Lemma inv_enqueue_new p t b :
  Inv p -> l_get (p_pending p) (sender t) (t_nonce t) = None ->
  st_nonce (p_chain p) (sender t) <= t_nonce t ->
  (forall x, In x (map fst (p_all p)) -> t_id x <> t_id t) ->
  Inv (set_all (set_queue p (l_put (p_queue p) t))
               (all_add (match l_get (p_queue p) (sender t) (t_nonce t) with
                         | Some o => all_remove (p_all p) (t_id o) | None => p_all p end) t b)).
Proof.
  intros I Hg Hst Hfresh.
  assert (Hge : pn_get p (sender t) <= t_nonce t).
  { destruct (Z_le_gt_dec (pn_get p (sender t)) (t_nonce t)); auto. exfalso.
    assert (Hr : st_nonce (p_chain p) (sender t) <= t_nonce t < pn_get p (sender t)) by lia.
    apply (inv_run _ p I) in Hr. destruct Hr as [x [Hx [Hs Hn]]].
    eapply (l_get_none _ _ _ Hg x Hx). unfold key. congruence. }
  constructor; cbn [p_chain p_pending p_queue p_all set_all set_queue].
  - apply (inv_kp _ p I).
  - apply l_put_nodup. apply (inv_kq _ p I).
  - intros x. rewrite all_add_In, l_put_In. cbn [In].
    destruct (l_get (p_queue p) (sender t) (t_nonce t)) as [o|] eqn:Eq.
    + apply l_get_some in Eq. destruct Eq as [Hino Hko].
      rewrite unindex_In, (inv_idx _ p I) by (try apply (inv_idx _ p I); auto; apply (inv_ids _ p I)). cbn [In]. split.
      * intros [[[Hx|[Hx|[]]] Hne]| ->]; auto. right. left. right. split; auto.
        intros Hk. apply Hne. eapply NoDup_map_inj; [apply (inv_kq _ p I)| | |]; eauto.
        unfold key in *. congruence.
      * intros [Hx|[[-> |[Hx Hk]]|[]]]; auto; left; (split; [auto|intros ->]).
        -- eapply (inv_apart _ p I); eauto.
        -- apply Hk. exact Hko.
    + rewrite (inv_idx _ p I). cbn [In]. split.
      * intros [[Hx|[Hx|[]]]| ->]; auto. right. left. right. split; auto.
        eapply l_get_none; eauto.
      * intros [Hx|[[-> |[Hx Hk]]|[]]]; auto.
  - apply all_add_ids.
    + destruct (l_get (p_queue p) (sender t) (t_nonce t)); [apply all_remove_ids|]; apply (inv_ids _ p I).
    + intros x Hx. apply Hfresh. destruct (l_get (p_queue p) (sender t) (t_nonce t)); auto.
      apply all_remove_In in Hx. tauto.
  - intros a n. apply (inv_run _ p I).
  - intros a. apply (inv_pn _ p I).
  - intros x Hx. unfold pn_get. cbn [p_nonces p_chain set_all set_queue]. fold (pn_get p (sender x)).
    apply l_put_In in Hx. destruct Hx as [-> |[Hx _]]; auto. apply (inv_q _ p I x Hx).
  - intros x Hx. apply (inv_aff _ p I x Hx).
Qed.

Lemma inv_add o p t l p' r e : Inv p -> add o p t l = (p', r, e) -> Inv p' /\ p_chain p' = p_chain p.
Proof.
  intros I. unfold add.
  destruct (all_get (p_all p) (t_id t)) eqn:Eall.
  { intros H; inversion H; subst; auto. }
  pose proof (all_get_none _ _ Eall) as Hfresh.
  set (is_local := l || contains_tx (p_locals p) t).
  destruct (validate_tx p t is_local) eqn:V; try (intros H; inversion H; subst; auto; fail).
  apply validate_ok in V. destruct V as [from [Hfrom [Hst [Hcost Hgas]]]].
  assert (Hsender : sender t = from) by (unfold sender; rewrite Hfrom; reflexivity).
  destruct (make_room o p t is_local) as [p1 oe] eqn:Emr.
  pose proof (inv_make_room o p t is_local I) as I1. rewrite Emr in I1. cbn [fst] in I1.
  pose proof (frame_make_room o p t is_local) as F1. rewrite Emr in F1. cbn [fst] in F1.
  pose proof (frame_indexed _ _ F1) as Hsub. destruct F1 as [Hch [Hcfg _]].
  destruct oe as [e1|].
  { intros H; inversion H; subst; auto. }
  assert (Hfresh1 : forall x, In x (map fst (p_all p1)) -> t_id x <> t_id t) by (intros x Hx; apply Hfresh; auto).
  (* an accepted transaction: the result has the core of a pool known to satisfy the invariant;
     comparing cores step by step avoids a case split over every bookkeeping branch at once *)
  assert (Hcore : forall q q', Inv q -> p_chain q = p_chain p1 -> core q' = core q -> Inv q' /\ p_chain q' = p_chain p).
  { intros q q' Iq Hq Hc. split; [eapply Inv_core; [exact Hc|exact Iq]|].
    unfold core in Hc. inversion Hc. congruence. }
  destruct (l_get (p_pending p1) (sender t) (t_nonce t)) as [o0|] eqn:Egp.
  - destruct (l_add (p_pending p1) t (c_price_bump (p_cfg p))) as [[ok old] pd'] eqn:Ea.
    apply l_add_result in Ea. destruct Ea as [[-> [-> ->]]|[-> [-> ->]]].
    { intros H; inversion H; subst; auto. }
    rewrite Egp. intros H; inversion H; subst p' r e. clear H.
    apply (Hcore (set_all (set_pending p1 (l_put (p_pending p1) t)) (all_add (all_remove (p_all p1) (t_id o0)) t is_local))).
    + apply inv_replace_pending; auto; rewrite ?Hch, ?Hsender; auto.
    + reflexivity.
    + rewrite core_journal_tx, core_priced_put.
      match goal with |- context [priced_removed ?x 1] => destruct (heap_only_removed x 1) as [h [s ->]] end.
      reflexivity.
  - unfold enqueue_tx.
    destruct (l_add (p_queue p1) t (c_price_bump (p_cfg p1))) as [[ok old] q'] eqn:Ea.
    apply l_add_result in Ea. destruct Ea as [[-> [-> ->]]|[-> [-> ->]]].
    { intros H; inversion H; subst; auto. }
    intros H; inversion H; subst p' r e. clear H.
    apply (Hcore (set_all (set_queue p1 (l_put (p_queue p1) t))
                          (all_add (match l_get (p_queue p1) (sender t) (t_nonce t) with
                                    | Some o => all_remove (p_all p1) (t_id o) | None => p_all p1 end) t is_local))).
    + apply inv_enqueue_new; auto; rewrite ?Hch, ?Hsender; auto.
    + reflexivity.
    + rewrite core_journal_tx.
      match goal with |- core (if _ then _ else ?p2) = _ => transitivity (core p2) end.
      { destruct (l && negb _); [apply core_add_local|reflexivity]. }
      rewrite core_priced_put.
      destruct (l_get (p_queue p1) (sender t) (t_nonce t)) as [o0|]; [|reflexivity].
      match goal with |- context [priced_removed ?x 1] => destruct (heap_only_removed x 1) as [h [s ->]] end.
      reflexivity.
Qed.
