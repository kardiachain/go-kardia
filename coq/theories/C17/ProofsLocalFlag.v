(** C17 — every transaction of a local account is flagged local in the index, on every history
    (including resets WITH reinjection): the flag invariant [LF] is preserved by every operation. *)
From Coq Require Import List ZArith NArith Bool Lia.
From Kardia Require Import C17.Model C17.ProofsBasic C17.ProofsFrame C17.ProofsOps.
Import ListNotations.
Local Open Scope Z_scope.

Definition LF (p : pool) : Prop :=
  forall t b, In (t, b) (p_all p) -> t_from t <> None /\ (In (sender t) (p_locals p) -> b = true).

Lemma LF_frame p p' : LF p -> frame p p' -> LF p'.
Proof. intros H [_ [_ [Hl Hs]]] t b Hin. rewrite Hl. apply H. apply Hs. exact Hin. Qed.

Lemma LF_same p p' : p_all p' = p_all p -> p_locals p' = p_locals p -> LF p -> LF p'.
Proof. unfold LF. intros -> ->. auto. Qed.

Lemma LF_add_entry p t b :
  LF p -> t_from t <> None -> (In (sender t) (p_locals p) -> b = true) ->
  LF (set_all p (all_add (p_all p) t b)).
Proof.
  intros H Hf Hb x c Hin. cbn [p_all p_locals set_all] in *. unfold all_add in Hin.
  apply in_app_iff in Hin. destruct Hin as [Hin|[Heq|[]]]; [apply H; exact Hin|].
  inversion Heq; subst. split; auto.
Qed.

Lemma LF_journal p a t : LF p -> LF (journal_tx p a t).
Proof.
  intros H. unfold journal_tx. destruct (p_journal p); [destruct (memN a (p_locals p))|]; auto.
Qed.

Lemma contains_tx_local locals t : t_from t <> None -> contains_tx locals t = memN (sender t) locals.
Proof. unfold contains_tx, sender. destruct (t_from t); [reflexivity|congruence]. Qed.

Lemma LF_add o p t l : LF p -> LF (fst (fst (add o p t l))).
Proof.
  intros H. unfold add. destruct (all_get (p_all p) (t_id t)); [exact H|].
  set (is_local := l || contains_tx (p_locals p) t).
  destruct (validate_tx p t is_local) eqn:Ev; try exact H.
  destruct (validate_ok _ _ _ Ev) as [from [Hfrom _]].
  assert (Hne : t_from t <> None) by congruence.
  pose proof (frame_make_room o p t is_local) as S1.
  destruct (make_room o p t is_local) as [p1 [e|]]; cbn [fst] in S1; [eapply LF_frame; eauto|].
  assert (H1 : LF p1) by (eapply LF_frame; eauto).
  assert (Hl1 : p_locals p1 = p_locals p) by apply S1.
  assert (Hflag : In (sender t) (p_locals p1) -> is_local = true).
  { intros Hin. unfold is_local. rewrite contains_tx_local by exact Hne. rewrite <- Hl1.
    apply memN_In in Hin. rewrite Hin. apply orb_true_r. }
  destruct (l_get (p_pending p1) (sender t) (t_nonce t)).
  - (* replacement in pending *)
    destruct (l_add (p_pending p1) t (c_price_bump (p_cfg p))) as [[ok old] pd']. destruct ok; [|exact H1].
    cbn [fst].
    set (p2 := set_pending p1 pd').
    set (p3 := match old with Some o0 => priced_removed (set_all p2 (all_remove (p_all p2) (t_id o0))) 1 | None => p2 end).
    assert (S3 : frame p1 p3).
    { eapply frame_trans; [|apply frame_unindex_old]. apply frame_same; reflexivity. }
    assert (H3 : LF p3) by (eapply LF_frame; eauto).
    apply LF_journal. eapply LF_same; [| |apply (LF_add_entry p3 t is_local H3 Hne)].
    + unfold priced_put. destruct is_local; reflexivity.
    + unfold priced_put. destruct is_local; reflexivity.
    + destruct S3 as [_ [_ [Hl3 _]]]. rewrite Hl3. exact Hflag.
  - (* enqueue *)
    unfold enqueue_tx. destruct (l_add (p_queue p1) t (c_price_bump (p_cfg p1))) as [[ok old] q']. destruct ok; [|exact H1].
    cbn [fst].
    set (pa := set_queue p1 q').
    set (pb := match old with Some o0 => priced_removed (set_all pa (all_remove (p_all pa) (t_id o0))) 1 | None => pa end).
    assert (Sb : frame p1 pb).
    { eapply frame_trans; [|apply frame_unindex_old]. apply frame_same; reflexivity. }
    assert (Hb : LF pb) by (eapply LF_frame; eauto).
    set (pc := priced_put (set_all pb (all_add (p_all pb) t is_local)) t is_local).
    assert (Hc : LF pc).
    { eapply LF_same; [| |apply (LF_add_entry pb t is_local Hb Hne)].
      - unfold pc, priced_put. destruct is_local; reflexivity.
      - unfold pc, priced_put. destruct is_local; reflexivity.
      - destruct Sb as [_ [_ [Hlb _]]]. rewrite Hlb. exact Hflag. }
    assert (Hlc : p_locals pc = p_locals p1).
    { unfold pc, priced_put. destruct Sb as [_ [_ [Hlb _]]]. destruct is_local; cbn; exact Hlb. }
    assert (Hfin : LF (if l && negb (memN (sender t) (p_locals pc)) then
                         let q := set_locals pc (sender t :: p_locals pc) in
                         let '(migrated, al) := all_to_locals (p_all q) (p_locals q) in
                         priced_removed (set_all q al) migrated
                       else pc)).
    { destruct (l && negb (memN (sender t) (p_locals pc))); [|exact Hc].
      cbv zeta. unfold all_to_locals.
      eapply LF_frame; [|apply frame_priced_removed].
      intros x b Hin. cbn [p_all p_locals set_all set_locals] in *.
      apply in_map_iff in Hin. destruct Hin as [[y c] [Heq Hy]].
      destruct (Hc y c Hy) as [Hy1 Hy2].
      destruct (migrates (sender t :: p_locals pc) (y, c)) eqn:Em; inversion Heq; subst; split; auto.
      intros Hloc. unfold migrates in Em. cbn [fst snd] in Em.
      rewrite contains_tx_local in Em by exact Hy1.
      assert (memN (sender x) (sender t :: p_locals pc) = true) by (apply memN_In; exact Hloc).
      rewrite H0, andb_true_r in Em. apply negb_false_iff in Em. exact Em. }
    apply LF_journal. exact Hfin.
Qed.

Lemma LF_add_txs_locked o txs : forall p l, LF p -> LF (fst (fst (add_txs_locked o p txs l))).
Proof.
  induction txs as [|t r IH]; intros p l H; cbn [add_txs_locked fst]; [exact H|].
  pose proof (LF_add o p t l H) as H1.
  destruct (add o p t l) as [[p1 replaced] e]. cbn [fst] in H1.
  specialize (IH p1 l H1). destruct (add_txs_locked o p1 r l) as [[p2 es] dirty]. cbn [fst] in *. exact IH.
Qed.

Lemma LF_run_reorg c p reset dirty : LF p -> LF (run_reorg c p reset dirty).
Proof.
  intros H. unfold run_reorg.
  set (p1 := match reset with Some (ch, reinject) => do_reset c p ch reinject | None => p end).
  assert (H1 : LF p1).
  { subst p1. destruct reset as [[ch reinject]|]; [|exact H]. unfold do_reset.
    pose proof (LF_add_txs_locked (o1 c) reinject (set_nonces (set_chain p ch) []) false) as Hx.
    destruct (add_txs_locked (o1 c) (set_nonces (set_chain p ch) []) reinject false) as [[p2 es] d]. cbn [fst] in Hx.
    eapply LF_same; [| |apply Hx]; try reflexivity. eapply LF_same; [| |exact H]; reflexivity. }
  set (addrs := match reset with Some _ => accounts (p_queue p1) | None => dirty end).
  set (p2 := promote_executables p1 addrs).
  assert (H2 : LF p2) by (eapply LF_frame; [exact H1|apply frame_promote_executables]).
  set (p3 := match reset with
             | Some _ => let p' := demote_unexecutables p2 in
                         set_nonces p' (map (fun a => (a, max_nonce (of_acct a (p_pending p')) + 1)) (accounts (p_pending p')))
             | None => p2 end).
  assert (H3 : LF p3).
  { subst p3. destruct reset; [|exact H2]. cbv zeta.
    eapply LF_same; [| |eapply LF_frame; [exact H2|apply frame_fold_demote]]; reflexivity. }
  eapply LF_same; [| |eapply LF_frame; [eapply LF_frame; [exact H3|apply frame_truncate_pending]|apply frame_truncate_queue]]; reflexivity.
Qed.

Lemma LF_add_txs c p txs l : LF p -> LF (fst (add_txs c p txs l)).
Proof.
  intros H. unfold add_txs. destruct (filter _ txs) as [|x news] eqn:E; [exact H|].
  pose proof (LF_add_txs_locked (o1 c) (x :: news) p l H) as H1.
  destruct (add_txs_locked (o1 c) p (x :: news) l) as [[p1 es] dirty]. cbn [fst] in *.
  apply LF_run_reorg. exact H1.
Qed.

Lemma LF_empty cfg ch : LF (empty_pool cfg ch).
Proof. intros t b Hin. destruct Hin. Qed.

Lemma LF_new_pool c cfg ch file : LF (new_pool c cfg ch file).
Proof.
  unfold new_pool. destruct (_ && _); [|apply LF_empty].
  eapply LF_same; [| |]; [reflexivity|reflexivity|].
  destruct file; [apply LF_empty|apply LF_add_txs; apply LF_empty].
Qed.

Lemma LF_step c p o : LF p -> LF (fst (step c p o)).
Proof.
  intros H. destruct o; cbn [step fst].
  - apply LF_add_txs. exact H.
  - apply LF_run_reorg. exact H.
  - eapply LF_frame; [exact H|apply frame_set_gas_price].
  - eapply LF_frame; [exact H|apply frame_expire].
  - apply LF_new_pool.
Qed.

Lemma LF_run ops : forall cs p, LF p -> LF (run cs p ops).
Proof. induction ops as [|o r IH]; intros cs p H; cbn [run]; [exact H|]. apply IH. apply LF_step. exact H. Qed.

(** Every transaction of a local account is flagged local in the index - after ANY history (no side
    condition on the operations: resets with reinjected transactions included). *)
Theorem local_flag_every_history c0 cfg ch file cs ops :
  let p := run cs (new_pool c0 cfg ch file) ops in
  forall t, In t (map fst (p_all p)) -> In (sender t) (p_locals p) -> In (t, true) (p_all p).
Proof.
  cbv zeta. intros t Hin Hloc.
  pose proof (LF_run ops cs _ (LF_new_pool c0 cfg ch file)) as H.
  apply in_map_iff in Hin. destruct Hin as [[x b] [Heq Hx]]. cbn [fst] in Heq. subst x.
  destruct (H t b Hx) as [_ Hb]. rewrite (Hb Hloc) in Hx. exact Hx.
Qed.
