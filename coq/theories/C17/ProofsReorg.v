(** C17 — preservation of the invariant by addTxsLocked, SetGasPrice, expiry and the two truncations;
    the common end of every reorg run. *)
From Coq Require Import List ZArith NArith Bool Lia.
From Kardia Require Import C17.Model C17.ProofsBasic C17.ProofsFrame C17.ProofsInv C17.ProofsOps.
Import ListNotations.
Local Open Scope Z_scope.

Lemma inv_add_txs_locked o txs : forall p l p' es d,
  Inv p -> add_txs_locked o p txs l = (p', es, d) -> Inv p' /\ p_chain p' = p_chain p.
Proof.
  induction txs as [|t r IH]; intros p l p' es d I; cbn [add_txs_locked].
  - intros H; inversion H; subst; auto.
  - destruct (add o p t l) as [[p1 rep] e] eqn:Ea.
    destruct (add_txs_locked o p1 r l) as [[p2 es'] dirty] eqn:Er.
    intros H; inversion H; subst. clear H.
    destruct (inv_add _ _ _ _ _ _ _ I Ea) as [I1 Hc1].
    destruct (IH _ _ _ _ _ I1 Er) as [I2 Hc2]. split; auto. congruence.
Qed.

Lemma inv_set_gas_price c p price : Inv p -> Inv (set_gas_price c p price).
Proof.
  intros I. destruct (set_gas_price_cases c p price) as [->|[q [drop [Hq [_ ->]]]]].
  - eapply Inv_core; [|exact I]. reflexivity.
  - eapply Inv_core; [apply core_priced_removed|]. apply inv_remove_txs.
    eapply Inv_core; [apply heap_only_core, Hq|]. eapply Inv_core; [|exact I]. reflexivity.
Qed.

Lemma inv_expire addrs p : Inv p -> Inv (expire p addrs).
Proof. apply expire_keeps. intros q id c. apply inv_remove_tx. Qed.

Lemma inv_truncate_queue o p : Inv p -> Inv (truncate_queue o p).
Proof. apply truncate_queue_keeps. intros q id c. apply inv_remove_tx. Qed.

Lemma lower_all_spec a caps : forall p,
  let p' := lower_all a caps p in
  p_chain p' = p_chain p /\ p_pending p' = p_pending p /\ p_queue p' = p_queue p /\ p_all p' = p_all p /\
  (forall b, a <> b -> pn_get p' b = pn_get p b) /\
  pn_get p' a <= pn_get p a /\ (forall c, In c caps -> pn_get p' a <= t_nonce c) /\
  (pn_get p' a = pn_get p a \/ exists c, In c caps /\ t_nonce c = pn_get p' a).
Proof.
  unfold lower_all. induction caps as [|c r IH]; intros p; cbn zeta; cbn [fold_left].
  - repeat split; auto; try lia. intros c [].
  - specialize (IH (pn_set_if_lower p a (t_nonce c))). cbn zeta in IH.
    destruct IH as [H1 [H2 [H3 [H4 [H5 [H6 [H7 H8]]]]]]].
    assert (G : p_chain (pn_set_if_lower p a (t_nonce c)) = p_chain p /\
                p_pending (pn_set_if_lower p a (t_nonce c)) = p_pending p /\
                p_queue (pn_set_if_lower p a (t_nonce c)) = p_queue p /\
                p_all (pn_set_if_lower p a (t_nonce c)) = p_all p /\
                (forall b, a <> b -> pn_get (pn_set_if_lower p a (t_nonce c)) b = pn_get p b) /\
                pn_get (pn_set_if_lower p a (t_nonce c)) a = Z.min (pn_get p a) (t_nonce c)).
    { unfold pn_set_if_lower. destruct (pn_get p a <=? t_nonce c) eqn:E.
      - apply Z.leb_le in E. repeat split; auto. lia.
      - apply Z.leb_gt in E. repeat split; auto.
        + intros b Hb. apply pn_get_set_neq. auto.
        + rewrite pn_get_set_eq. lia. }
    destruct G as [G1 [G2 [G3 [G4 [G5 G6]]]]].
    repeat split; try congruence.
    + intros b Hb. rewrite H5, G5; auto.
    + lia.
    + intros x [->|Hx]; [lia|auto].
    + destruct H8 as [H8|[x [Hx Hn]]].
      * rewrite H8, G6. destruct (Z.min_spec (pn_get p a) (t_nonce c)) as [[_ ->]|[_ ->]]; auto.
        right. exists c. split; cbn; auto.
      * right. exists x. split; cbn; auto.
Qed.

Lemma inv_cap_one p a : Inv p -> Inv (cap_one p a).
Proof.
  intros I. rewrite cap_one_eq. unfold l_cap.
  set (th := l_len (p_pending p) a - 1).
  destruct (l_len (p_pending p) a <=? th) eqn:E.
  { apply Z.leb_le in E. unfold th in E. lia. }
  set (g := fun t => is_acct a t && (th <=? rank_in (p_pending p) a t)).
  set (caps := filter g (p_pending p)).
  set (pd := filter (fun t => negb (g t)) (p_pending p)).
  eapply Inv_core; [apply core_priced_removed|].
  set (p1 := set_all (set_pending p pd) (all_remove_list (p_all p) caps)).
  destruct (lower_all_spec a caps p1) as [H1 [H2 [H3 [H4 [H5 [H6 [H7 H8]]]]]]].
  cbn [p1 p_chain p_pending p_queue p_all set_all set_pending] in H1, H2, H3, H4.
  assert (Hpn1 : forall b, pn_get p1 b = pn_get p b) by reflexivity.
  set (m := pn_get (lower_all a caps p1) a) in *.
  assert (Hcaps : forall x, In x caps -> In x (p_pending p) /\ sender x = a /\ th <= rank_in (p_pending p) a x).
  { intros x Hx. unfold caps, g in Hx. apply filter_In in Hx. destruct Hx as [Hx Hg].
    apply andb_true_iff in Hg. destruct Hg as [Hg1 Hg2]. apply is_acct_true in Hg1. apply Z.leb_le in Hg2. auto. }
  assert (Hm : st_nonce (p_chain p) a <= m <= pn_get p a).
  { split; [|rewrite <- Hpn1; exact H6].
    destruct H8 as [H8|[c [Hc Hn]]].
    - rewrite H8, Hpn1. apply (inv_pn _ p I).
    - rewrite <- Hn. apply Hcaps in Hc. destruct Hc as [Hc [Hs _]].
      assert (st_nonce (p_chain p) a <= t_nonce c < pn_get p a) by (apply (inv_run _ p I); eauto). lia. }
  (* ranks grow with nonces: what Cap removes are the account's entries from the lowest removed nonce
     up, and that nonce is where the setIfLower calls leave the pending nonce - a cut at [m] *)
  assert (Hsplit : forall x, In x (p_pending p) -> (g x = true <-> sender x = a /\ m <= t_nonce x)).
  { intros x Hx. split.
    - intros Hg. assert (Hc : In x caps) by (apply filter_In; auto).
      split; [apply Hcaps in Hc; tauto|]. apply H7. auto.
    - intros [Hs Hge]. destruct H8 as [H8|[c [Hc Hn]]].
      + exfalso. fold m in H8. rewrite Hpn1 in H8.
        assert (st_nonce (p_chain p) a <= t_nonce x < pn_get p a) by (apply (inv_run _ p I); eauto). lia.
      + apply Hcaps in Hc. destruct Hc as [Hc [Hsc Hr]].
        unfold g. apply andb_true_iff. split; [apply is_acct_true; auto|]. apply Z.leb_le.
        pose proof (rank_mono (p_pending p) a c x). fold m in Hn. lia. }
  change (InvO [] (lower_all a caps p1)).
  eapply (inv_cut [] [] p _ a m I).
  - exact Hm.
  - exact H1.
  - intros b. destruct (N.eqb a b) eqn:Eb.
    + apply N.eqb_eq in Eb. subst b. reflexivity.
    + apply N.eqb_neq in Eb. rewrite H5 by auto. apply Hpn1.
  - intros x. rewrite H2. unfold pd. rewrite filter_In, negb_true_iff. split.
    + intros [Hx Hg]. split; auto. intros Hc. apply (Hsplit x Hx) in Hc. congruence.
    + intros [Hx Hn]. split; auto. destruct (g x) eqn:Eg; auto. apply (Hsplit x Hx) in Eg. contradiction.
  - rewrite H2. unfold pd. apply NoDup_map_filter. apply (inv_kp _ p I).
  - rewrite H3. apply (inv_kq _ p I).
  - intros x Hx. rewrite H3 in Hx. auto.
  - intros x. rewrite H4, H2, H3, unindex_list_In, (inv_idx _ p I); [|apply (inv_ids _ p I)|].
    + unfold pd, caps. rewrite !filter_In. pose proof (inv_apart _ p I x).
      destruct (g x); cbn [In negb]; intuition congruence.
    + intros y Hy. apply Hcaps in Hy. apply (inv_idx _ p I). tauto.
  - rewrite H4. apply all_remove_list_ids. apply (inv_ids _ p I).
Qed.

Lemma inv_truncate_pending o p : Inv p -> Inv (truncate_pending o p).
Proof. apply truncate_pending_keeps. exact inv_cap_one. Qed.

(** Every reorg run ends the same way: truncatePending, truncateQueue, changesSinceReorg = 0.
    Statements about a reorg run are statements about [reorg_tail] of the pool that reaches it;
    comparing [run_reorg] itself with its parts by conversion unfolds the whole run and is slow. *)
Definition reorg_tail (c : choice) (q : pool) : pool :=
  set_changes (truncate_queue (o3 c) (truncate_pending (o2 c) q)) 0.

Lemma run_reorg_none_eq c p dirty : run_reorg c p None dirty = reorg_tail c (promote_executables p dirty).
Proof. reflexivity. Qed.

Lemma inv_reorg_tail c q : Inv q -> Inv (reorg_tail c q).
Proof.
  intros I. eapply Inv_core; [apply core_set_changes|].
  apply inv_truncate_queue, inv_truncate_pending, I.
Qed.
