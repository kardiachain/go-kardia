(** C17 — promoteExecutables under the invariant, runReorg without reset, addTxs, NewTxPool. *)
From Coq Require Import List ZArith NArith Bool Lia.
From Kardia Require Import C17.Model C17.ProofsInv C17.ProofsReorg C17.ProofsPromote.
Import ListNotations.
Local Open Scope Z_scope.

Lemma inv_promote_account p a : Inv p -> Inv (promote_account p a).
Proof.
  intros I. pose proof I as I0. apply Inv_split in I. destruct I as [S A].
  destruct (promote_account_spec p a S) as [S' [Hch [R [lo [P1 [P2 [P3 [P4 [P5 [P6 [P7 P8]]]]]]]]]]].
  { intros x y Hx Hy Hsx Hsy _. destruct (A a) as [Hrun [_ [Hq _]]].
    assert (st_nonce (p_chain p) a <= t_nonce x < pn_get p a) by (apply Hrun; eauto).
    specialize (Hq y Hy Hsy). lia. }
  set (p' := promote_account p a) in *.
  apply Inv_split. split; auto. intros b.
  destruct (A b) as [Hrun [Hpn [Hq Haff]]].
  unfold AcctInv. rewrite Hch.
  destruct (N.eq_dec a b) as [<-|Hne].
  - (* the promoted account *)
    assert (HloR : R <> [] -> lo = pn_get p a).
    { intros Hn. destruct (P4 Hn) as [_ Hle]. destruct (P3 lo) as [x [Hx Hxn]].
      { destruct R; [congruence|cbn [length]; lia]. }
      destruct (P2 x Hx) as [Hxq [Hxs _]]. specialize (Hq x Hxq Hxs). lia. }
    assert (Hpn' : pn_get p' a = pn_get p a + Z.of_nat (length R)).
    { rewrite P8. destruct R; [cbn; lia|]. rewrite HloR by congruence. reflexivity. }
    split; [|split; [|split]].
    + intros n. rewrite Hpn'. split.
      * intros [x [Hx [Hs Hn]]]. apply P1 in Hx. destruct Hx as [Hx|Hx].
        -- assert (st_nonce (p_chain p) a <= n < pn_get p a) by (apply Hrun; eauto). lia.
        -- destruct (P2 x Hx) as [_ [_ [_ Hr]]]. rewrite HloR in Hr by (intros ->; destruct Hx). lia.
      * intros Hn. destruct (Z_lt_ge_dec n (pn_get p a)) as [Hlt|Hge].
        -- destruct (proj2 (Hrun n)) as [x [Hx [Hs Hxn]]]; [lia|]. exists x. split; auto. apply P1. auto.
        -- assert (HRne : R <> []) by (intros ->; cbn in Hn; lia).
           destruct (P3 n) as [x [Hx Hxn]]; [rewrite HloR by auto; lia|].
           exists x. split; [apply P1; auto|]. split; auto. apply P2. auto.
    + rewrite Hpn'. lia.
    + intros x Hx Hs. apply P5 in Hx. destruct Hx as [Hxq [HnR Hc]]. specialize (Hc Hs). destruct Hc as [_ Hc].
      rewrite P8. destruct R as [|r0 R0] eqn:ER.
      * apply Hq; auto.
      * apply Hc. congruence.
    + intros x Hx Hs. apply P1 in Hx. destruct Hx as [Hx|Hx].
      * unfold affordable. rewrite Hch. apply Haff; auto.
      * unfold affordable. rewrite Hch. apply P2. auto.
  - (* other accounts are untouched *)
    assert (HR : forall x, In x R -> sender x <> b) by (intros x Hx Hs; apply Hne; destruct (P2 x Hx) as [_ [Hs' _]]; congruence).
    rewrite P7 by auto. split; [|split; [|split]]; auto.
    + intros n. rewrite <- Hrun. split.
      * intros [x [Hx [Hs Hn]]]. apply P1 in Hx. destruct Hx as [Hx|Hx]; [eauto|]. exfalso. eapply HR; eauto.
      * intros [x [Hx [Hs Hn]]]. exists x. split; auto. apply P1. auto.
    + intros x Hx Hs. apply P5 in Hx. apply Hq; tauto.
    + intros x Hx Hs. apply P1 in Hx. destruct Hx as [Hx|Hx].
      * unfold affordable. rewrite Hch. apply Haff; auto.
      * exfalso. eapply HR; eauto.
Qed.

Lemma inv_promote_executables accts : forall p, Inv p -> Inv (promote_executables p accts).
Proof.
  unfold promote_executables. induction accts as [|a r IH]; intros p I; cbn [fold_left]; auto.
  apply IH. apply inv_promote_account. auto.
Qed.

Lemma inv_run_reorg_none c p dirty : Inv p -> Inv (run_reorg c p None dirty).
Proof.
  intros I. rewrite run_reorg_none_eq. apply inv_reorg_tail, inv_promote_executables, I.
Qed.

Lemma inv_add_txs c p txs l : Inv p -> Inv (fst (add_txs c p txs l)).
Proof.
  intros I. unfold add_txs.
  destruct (filter _ txs) as [|n ns] eqn:En; [exact I|].
  destruct (add_txs_locked (o1 c) p (n :: ns) l) as [[p1 es] dirty] eqn:Ea. cbn [fst].
  apply inv_run_reorg_none. eapply inv_add_txs_locked; eauto.
Qed.

Lemma inv_empty cfg ch : Inv (empty_pool cfg ch).
Proof.
  unfold empty_pool. constructor; cbn [p_pending p_queue p_all p_chain map In]; try constructor; try tauto.
  - intros [x [[] _]].
  - intros H. unfold pn_get in H. cbn in H. lia.
  - intros a. unfold pn_get. cbn. lia.
Qed.

Lemma inv_new_pool c cfg ch file : Inv (new_pool c cfg ch file).
Proof.
  unfold new_pool. destruct (_ && _); [|apply inv_empty].
  eapply Inv_core with (p := match file with [] => empty_pool cfg ch | _ => fst (add_txs c (empty_pool cfg ch) file (negb (c_nolocals (p_cfg (empty_pool cfg ch))))) end); [reflexivity|].
  destruct file; [apply inv_empty|]. apply inv_add_txs. apply inv_empty.
Qed.
