(** C02 — CommitToVoteSet is the inverse of MakeCommit (types/commit.go): for every reachable precommit
    vote set with a complete majority id (and wire-valid votes), CommitToVoteSet applied to MakeCommit's
    output does not panic, the rebuilt vote set reports the same majority, and MakeCommit of the
    rebuilt vote set gives the same commit back. *)
From Coq Require Import List ZArith NArith Bool Lia Arith.
From Kardia Require Import C02.Model C02.ModelExt C02.Proofs C02.ProofsLists C02.ProofsVoteSet.
Import ListNotations.
Local Open Scope Z_scope.

(** the votes MakeCommit keeps (non-absent slots): votes for the majority id and nil votes *)
Definition kept (b : blockid) (o : option vote) : option vote :=
  match o with
  | Some v => if bid_is_complete (v_bid v) then (if bid_eqb (v_bid v) b then Some v else None) else Some v
  | None => None
  end.

Fixpoint votes_ops (l : list (option vote)) : list op :=
  match l with
  | [] => []
  | Some v :: t => OpVote v :: votes_ops t
  | None :: t => votes_ops t
  end.

Lemma votes_ops_app a b : votes_ops (a ++ b) = votes_ops a ++ votes_ops b.
Proof. induction a as [|[v|] t IH]; cbn [votes_ops app]; [reflexivity|rewrite IH; reflexivity|exact IH]. Qed.

Lemma votes_ops_in l v : In (OpVote v) (votes_ops l) <-> In (Some v) l.
Proof.
  induction l as [|[u|] t IH]; cbn [votes_ops In]; [tauto| |].
  - split; intros [E|H]; [left; congruence|right; apply IH; exact H|left; congruence|right; apply IH; exact H].
  - split; [intros H; right; apply IH; exact H|intros [E|H]; [discriminate|apply IH; exact H]].
Qed.

Lemma votes_ops_only_votes l o : In o (votes_ops l) -> exists v, o = OpVote v.
Proof.
  induction l as [|[u|] t IH]; cbn [votes_ops In]; [tauto| |exact IH].
  intros [<-|H]; [eauto|auto].
Qed.

Lemma commitsig_kept b o : commitsig_of b (kept b o) = commitsig_of b o.
Proof.
  destruct o as [v|]; cbn [kept commitsig_of]; [|reflexivity].
  destruct (bid_is_complete (v_bid v)) eqn:Ec.
  - destruct (bid_eqb (v_bid v) b) eqn:Eb; cbn [commitsig_of]; [rewrite Ec, Eb|]; reflexivity.
  - cbn [commitsig_of]. rewrite Ec. reflexivity.
Qed.

Lemma kept_some b o v : kept b o = Some v -> o = Some v.
Proof.
  destruct o as [u|]; cbn [kept]; [|discriminate].
  destruct (bid_is_complete (v_bid u)); [destruct (bid_eqb (v_bid u) b)|]; congruence.
Qed.

Lemma kept_idem b o : kept b (kept b o) = kept b o.
Proof.
  destruct o as [v|]; cbn [kept]; [|reflexivity].
  destruct (bid_is_complete (v_bid v)) eqn:Ec.
  - destruct (bid_eqb (v_bid v) b) eqn:Eb; cbn [kept]; [rewrite Ec, Eb|]; reflexivity.
  - cbn [kept]. rewrite Ec. reflexivity.
Qed.

Lemma absent_kept b o :
  N.eqb (cs_flag (commitsig_of b o)) FLAG_ABSENT = match kept b o with None => true | Some _ => false end.
Proof.
  destruct o as [v|]; cbn [kept commitsig_of]; [|reflexivity].
  destruct (bid_is_complete (v_bid v)); [destruct (bid_eqb (v_bid v) b)|]; reflexivity.
Qed.

Lemma vote_at_map_kept b l i : vote_at (map (kept b) l) i = kept b (vote_at l i).
Proof.
  unfold vote_at. rewrite nth_error_map. destruct (nth_error l i) as [[v|]|]; [|reflexivity|reflexivity].
  cbn [option_map]. change (opt_join (Some (Some v))) with (Some v). generalize (kept b (Some v)).
  intros [x|]; reflexivity.
Qed.

Section Ctv.
Variables (chain ht rd : N) (vals : list validator).
Hypothesis Hwf : wf_vals vals.

Local Notation ginv := (inv chain ht rd PRECOMMIT vals).
Local Notation gvalid := (valid_vote chain ht rd PRECOMMIT vals).
Local Notation gfirst := (first_valid chain ht rd PRECOMMIT vals).
Local Notation ggood := (good chain ht rd PRECOMMIT vals).

(** a valid vote of a validator that has not voted yet is added without error *)
Lemma add_vote_fresh done s v :
  ginv done s -> gvalid v = true -> gfirst done (N.to_nat (v_idx v)) = None ->
  exists s', add_vote s v = (s', true, ENone).
Proof.
  intros [Hw Hf] Hv Hfv.
  pose proof (votes_none_of_first Hw Hfv) as Hvn.
  destruct (add_vote s v) as [[s' a] e] eqn:E. exists s'. apply add_vote_cases in E. cbv zeta in E.
  rewrite (checks_valid v Hw), Hv in E.
  destruct E as [[_ [_ [_ [Hc|Hg]]]]|[val [c [_ [_ [_ [Hav ->]]]]]]].
  - discriminate.
  - apply (get_vote_some_votes Hw) in Hg. contradiction.
  - apply add_verified_flags in Hav. destruct Hav as [-> Ha]. rewrite Hvn in *. rewrite (Ha eq_refl). reflexivity.
Qed.

Variables (ops : list op) (b : blockid).
Let s := final (new_voteset chain ht rd PRECOMMIT vals) ops.
Hypothesis Hwire : forall v, offered ops v -> bid_is_zero (v_bid v) = true \/ bid_is_complete (v_bid v) = true.
Hypothesis Hmaj : vs_maj23 s = Some b.
Hypothesis Hcomp : bid_is_complete b = true.
Hypothesis Hht : ht <> 0%N.

Let votes := vs_votes s.
Let c : commit := {| c_height := ht; c_round := rd; c_bid := b; c_sigs := map (commitsig_of b) votes |}.

Lemma Hs_inv : ginv ops s.
Proof. apply reach_inv. exact Hwf. Qed.

Lemma stored_good i v : vote_at votes i = Some v -> ggood ops i v.
Proof. apply (w_votes (proj1 Hs_inv)). Qed.

Lemma stored_wire v : In (Some v) votes -> bid_is_zero (v_bid v) = true \/ bid_is_complete (v_bid v) = true.
Proof. intros H. destruct (vote_at_in _ _ H) as [i Hi]. apply Hwire. apply (stored_good i v Hi). Qed.

Lemma make_commit_s : make_commit s = Some c.
Proof.
  rewrite (make_commit_eq s b (w_type (proj1 Hs_inv)) Hmaj stored_wire).
  rewrite (w_height (proj1 Hs_inv)), (w_round (proj1 Hs_inv)). reflexivity.
Qed.

(** the vote Commit.GetVote rebuilds from a kept slot is the stored vote itself *)
Lemma get_vote_kept i v :
  vote_at votes i = Some v -> kept b (Some v) = Some v -> commit_get_vote c i = Some v.
Proof.
  intros Hv Hk. pose proof (stored_good i v Hv) as [Hoff [Hi Hval]].
  unfold commit_get_vote, c. cbn [c_sigs c_bid c_height c_round].
  rewrite nth_error_map. apply vote_at_nth_error in Hv. fold votes. rewrite Hv. cbn [option_map].
  destruct (valid_vote_spec chain ht rd PRECOMMIT vals i v Hi Hval) as [_ [Hh [Hr [Ht _]]]].
  assert (Hidx : N.of_nat i = v_idx v) by (rewrite <- Hi; apply N2Nat.id).
  cbn [kept] in Hk. cbn [commitsig_of].
  destruct (bid_is_complete (v_bid v)) eqn:Ec.
  - destruct (bid_eqb (v_bid v) b) eqn:Eb; [|discriminate]. apply bid_eqb_eq in Eb.
    unfold cs_blockid. cbn [cs_flag cs_addr cs_time cs_sig N.eqb Pos.eqb FLAG_COMMIT FLAG_ABSENT].
    destruct v; cbn in *; subst; rewrite ?N2Nat.id; reflexivity.
  - destruct (Hwire v Hoff) as [Hz|Hc']; [|congruence]. apply bid_is_zero_eq in Hz.
    unfold cs_blockid. cbn [cs_flag cs_addr cs_time cs_sig N.eqb Pos.eqb FLAG_NIL FLAG_COMMIT FLAG_ABSENT].
    destruct v; cbn in *; subst; rewrite ?N2Nat.id; reflexivity.
Qed.

(** the votes of the history rebuilt from a list of slots are votes of that list *)
Lemma offered_kept l v : In (OpVote v) (votes_ops (map (kept b) l)) -> In (Some v) l.
Proof.
  intros H. apply votes_ops_in in H. apply in_map_iff in H. destruct H as [o [Hk Hin]].
  apply kept_some in Hk. subst o. exact Hin.
Qed.

(** the loop of CommitToVoteSet over the slots [l] that follow the prefix [pre] *)
Lemma ctv_loop_run : forall l pre vs,
  votes = pre ++ l ->
  ginv (votes_ops (map (kept b) pre)) vs ->
  ctv_loop c (map (commitsig_of b) l) (length pre) vs = Some (final vs (votes_ops (map (kept b) l))).
Proof.
  induction l as [|o t IH]; intros pre vs Hsplit Hinv; [reflexivity|].
  cbn [map ctv_loop]. rewrite absent_kept.
  assert (Hpre' : votes = (pre ++ [o]) ++ t) by (rewrite <- app_assoc; exact Hsplit).
  assert (Hlen' : length (pre ++ [o]) = S (length pre)) by (rewrite app_length; cbn; lia).
  destruct (kept b o) as [v|] eqn:Ek.
  - pose proof (kept_some _ _ _ Ek) as ->.
    assert (Hv : vote_at votes (length pre) = Some v).
    { rewrite Hsplit. replace (length pre) with (length pre + 0)%nat by lia. rewrite vote_at_app_r. reflexivity. }
    rewrite (get_vote_kept _ _ Hv Ek).
    pose proof (stored_good _ _ Hv) as [Hoff [Hi Hval]].
    destruct (add_vote_fresh _ _ v Hinv Hval) as [s' Hs'].
    { (* nobody in the prefix has this index *)
      destruct (gfirst (votes_ops (map (kept b) pre)) (N.to_nat (v_idx v))) as [u|] eqn:Ef; [|reflexivity].
      exfalso. destruct (first_valid_spec Ef) as [Hou [Hiu _]].
      apply offered_kept in Hou. destruct (vote_at_in _ _ Hou) as [j Hj].
      assert (Hjl : (j < length pre)%nat) by (eapply vote_at_Some_lt; eauto).
      assert (Hj' : vote_at votes j = Some u) by (rewrite Hsplit, vote_at_app_l by exact Hjl; exact Hj).
      destruct (stored_good _ _ Hj') as [_ [Hju _]]. lia. }
    rewrite Hs'. cbn [votes_ops].
    rewrite final_cons. cbn [step]. rewrite Hs'. cbn [fst].
    rewrite <- Hlen'. apply IH; [exact Hpre'|].
    rewrite map_app, votes_ops_app. cbn [map votes_ops]. rewrite Ek. cbn [votes_ops].
    eapply add_vote_inv; eauto.
  - cbn [votes_ops]. rewrite <- Hlen'. apply IH; [exact Hpre'|].
    rewrite map_app, votes_ops_app. cbn [map votes_ops]. rewrite Ek. cbn [votes_ops]. rewrite app_nil_r. exact Hinv.
Qed.

Let ops2 := votes_ops (map (kept b) votes).
Let s2 := final (new_voteset chain ht rd PRECOMMIT vals) ops2.

Lemma ctv_result : commit_to_voteset chain c vals = Some s2.
Proof.
  unfold commit_to_voteset, c. cbn [c_height c_round c_sigs].
  destruct (N.eqb_spec ht 0) as [E|_]; [contradiction|].
  apply (ctv_loop_run votes [] _ eq_refl). apply init_inv. exact Hwf.
Qed.

(** the rebuilt history holds exactly one vote per kept slot *)
Lemma offered2 v : offered ops2 v -> exists i, vote_at votes i = Some v /\ kept b (Some v) = Some v /\ N.to_nat (v_idx v) = i.
Proof.
  intros H. unfold offered, ops2 in H. apply votes_ops_in in H. apply in_map_iff in H. destruct H as [o [Hk Hin]].
  pose proof (kept_some _ _ _ Hk) as ->. destruct (vote_at_in _ _ Hin) as [i Hi].
  exists i. split; [exact Hi|split; [exact Hk|]]. destruct (stored_good _ _ Hi) as [_ [Hidx _]]. exact Hidx.
Qed.

Lemma kept_offered2 i v : vote_at votes i = Some v -> kept b (Some v) = Some v -> ggood ops2 i v.
Proof.
  intros Hv Hk. destruct (stored_good _ _ Hv) as [_ [Hi Hval]]. split; [|split; assumption].
  unfold offered, ops2. apply votes_ops_in. apply in_map_iff. exists (Some v). split; [exact Hk|].
  apply vote_at_nth_error in Hv. eapply nth_error_In; eauto.
Qed.

Lemma first2 i v : vote_at votes i = Some v -> kept b (Some v) = Some v -> gfirst ops2 i = Some v.
Proof.
  intros Hv Hk. pose proof (kept_offered2 _ _ Hv Hk) as Hg.
  destruct (gfirst ops2 i) as [u|] eqn:Ef; [|exfalso; eapply good_first; eauto].
  destruct (first_valid_spec Ef) as [Hou [Hiu _]].
  destruct (offered2 _ Hou) as [j [Hj [_ Hju]]]. assert (j = i) by lia. subst j. congruence.
Qed.

Lemma maj2 : vs_maj23 s2 = Some b.
Proof.
  destruct (w_maj (proj1 Hs_inv) _ Hmaj) as [Hq Hpos]. fold s in Hq, Hpos.
  destruct (w_bb (proj1 Hs_inv) b) as [_ [K2 _]]. fold s in K2.
  pose proof (sum_powers_nonneg _ (proj1 Hwf)) as HT.
  assert (Hkb : forall u, v_bid u = b -> kept b (Some u) = Some u).
  { intros u Hu. cbn [kept]. rewrite Hu, Hcomp, bid_eqb_refl. reflexivity. }
  (* the members of the quorum entry of [s] have their vote for [b] in the rebuilt history, and no other *)
  assert (Hmem : forall i, nth i (map is_some (bv_votes (entry_of s b))) false = true ->
                           exists u, vote_at votes i = Some u /\ v_bid u = b).
  { intros i Hi. rewrite nth_mask in Hi. apply is_some_true in Hi. apply not_none_ex in Hi. destruct Hi as [u Hu].
    exact (Hpos i u Hu). }
  apply (complete_exact chain ht rd PRECOMMIT vals Hwf ops2 (map is_some (bv_votes (entry_of s b))) b).
  - unfold voters_power in K2. rewrite <- K2. rewrite quorum_exact in Hq by exact Hwf. lia.
  - intros i Hi. destruct (Hmem i Hi) as [u [Hu Hb]]. exists u. split; [apply first2; [exact Hu|apply Hkb; exact Hb]|exact Hb].
  - intros i v Hi Hoff Hidx _. destruct (Hmem i Hi) as [u [Hu Hb]]. destruct (offered2 _ Hoff) as [j [Hj [_ Hjv]]].
    assert (j = i) by lia. subst j. congruence.
Qed.

Lemma votes2 : vs_votes s2 = map (kept b) votes.
Proof.
  pose proof (reach_inv chain ht rd PRECOMMIT vals Hwf ops2) as [Hw2 Hf2]. fold s2 in Hw2, Hf2.
  apply vote_at_ext.
  - rewrite map_length. rewrite (w_len Hw2). symmetry. apply (w_len (proj1 Hs_inv)).
  - intros i. rewrite vote_at_map_kept.
    destruct (kept b (vote_at votes i)) as [v|] eqn:Ek.
    + pose proof (kept_some _ _ _ Ek) as Hv. rewrite Hv in Ek.
      (* the first valid vote of [i] in the rebuilt history is [v]: it is in its block's entry, so [i] has a
         canonical vote, which was offered, hence is [v] *)
      pose proof (Hf2 i v (first2 _ _ Hv Ek)) as Hn.
      destruct (w_bb Hw2 (v_bid v)) as [_ [_ Hpos]].
      apply not_none_ex in Hn. destruct Hn as [u Hu]. destruct (Hpos i u Hu) as [_ [_ Hne]].
      apply not_none_ex in Hne. destruct Hne as [w Hw]. rewrite Hw.
      destruct (w_votes Hw2 i w Hw) as [Hoff [Hiw _]].
      destruct (offered2 _ Hoff) as [j [Hj [_ Hjw]]]. assert (j = i) by lia. subst j. congruence.
    + destruct (vote_at (vs_votes s2) i) as [w|] eqn:Ew; [|reflexivity]. exfalso.
      destruct (w_votes Hw2 i w Ew) as [Hoff [Hiw _]].
      destruct (offered2 _ Hoff) as [j [Hj [Hkw Hjw]]]. assert (Hji : j = i) by lia. rewrite Hji in Hj.
      rewrite Hj in Ek. congruence.
Qed.

Theorem commit_to_voteset_inverse :
  exists c s2, make_commit s = Some c /\ commit_to_voteset chain c vals = Some s2 /\
               vs_maj23 s2 = Some b /\ make_commit s2 = Some c.
Proof.
  exists c, s2. split; [exact make_commit_s|split; [exact ctv_result|split; [exact maj2|]]].
  pose proof (reach_inv chain ht rd PRECOMMIT vals Hwf ops2) as [Hw2 _]. fold s2 in Hw2.
  rewrite (make_commit_eq s2 b (w_type Hw2) maj2).
  - rewrite votes2, (w_height Hw2), (w_round Hw2). unfold c. f_equal. f_equal.
    rewrite map_map. apply map_ext. intros o. apply commitsig_kept.
  - rewrite votes2. intros v Hin. apply in_map_iff in Hin. destruct Hin as [o [Hk Hin]]. apply kept_some in Hk. subst o.
    apply stored_wire. exact Hin.
Qed.

End Ctv.
