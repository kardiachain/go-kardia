(** C02 — tie of the model's arithmetic and guards to the Go SOURCE.
    [Generated/C02Source.v] is produced on every check by /verif/go2coq from /repo's working tree:
    the bodies of safeAdd/safeSub/safeAddClip/safeSubClip and every guard, integer expression, field
    store, constant/call assignment and loop header of the anchored functions of types/vote_set.go,
    types/validator_set.go, types/commit.go, types/vote.go, types/block.go and
    consensus/types/height_vote_set.go, as Gallina over [Z] with explicit int64 wraps (Base/GoSem.v).
    [C02_source_tie_statement] says that the hand-written model of C02/Model.v and C02/ModelExt.v
    computes exactly those expressions on exactly those operands (the [_atoms] lists name the Go
    operands).  It holds the quorum arithmetic, the running sums and the safe arithmetic; its last conjunct,
    [C02_source_tie2_statement], holds the conditions that are a single atom, the field stores, constant
    assignments, loop headers and switches of the same functions and of the remaining anchored ones (so a
    function's ties can stand in both).  The lemmas beside the statements tie further operand lists.  An edit of the Go source that changes a comparison, a constant, an operand or the
    order of these guards changes the generated file and re-opens these obligations. *)
From Coq Require Import List ZArith NArith Bool Lia String.
From Kardia Require Import Base.Int64 Base.GoSem Base.Conj.
From Kardia Require Import Generated.C02Source.
From Kardia Require Import Generated.C02Facts C02.Model C02.ModelExt.
Import ListNotations.
Local Open Scope Z_scope.

(** ** safe arithmetic (types/validator_set.go) = Base/Int64.v, for all int64 operands *)

(* safeAdd tests [a > MaxInt64 - b] only when [b > 0] and [a < MinInt64 - b] only when [b < 0]: on
   that side the subtraction stays in int64, so the test is the exact one; the proof follows these cases. *)
Lemma src_safeAddClip a b : in_range I64 a -> in_range I64 b -> types__safeAddClip a b = safe_add_clip a b.
Proof.
  unfold in_range. intros Ha Hb.
  assert (Hmax : max_int64 = 9223372036854775807) by reflexivity.
  assert (Hmin : min_int64 = -9223372036854775808) by reflexivity.
  unfold types__safeAddClip, types__safeAdd, safe_add_clip, go_sub, go_add. rewrite !Z.gtb_ltb. cbv zeta.
  destruct (Z.ltb_spec 0 b); cbn [andb].
  - rewrite (wrap_id I64 (9223372036854775807 - b)) by (unfold in_range; lia).
    destruct (Z.ltb_spec b 0); [lia|].
    destruct (Z.ltb_spec (9223372036854775807 - b) a); cbn [andb].
    + destruct (Z.ltb_spec max_int64 (a + b)); lia.
    + rewrite wrap_id by (unfold in_range; lia).
      destruct (Z.ltb_spec max_int64 (a + b)); [lia|]. destruct (Z.ltb_spec (a + b) min_int64); lia.
  - destruct (Z.ltb_spec b 0); cbn [andb].
    + rewrite (wrap_id I64 (-9223372036854775808 - b)) by (unfold in_range; lia).
      destruct (Z.ltb_spec a (-9223372036854775808 - b)).
      * destruct (Z.ltb_spec max_int64 (a + b)); [lia|]. destruct (Z.ltb_spec (a + b) min_int64); lia.
      * rewrite wrap_id by (unfold in_range; lia).
        destruct (Z.ltb_spec max_int64 (a + b)); [lia|]. destruct (Z.ltb_spec (a + b) min_int64); lia.
    + rewrite wrap_id by (unfold in_range; lia).
      destruct (Z.ltb_spec max_int64 (a + b)); [lia|]. destruct (Z.ltb_spec (a + b) min_int64); lia.
Qed.

Lemma src_safeSubClip a b : in_range I64 a -> in_range I64 b -> types__safeSubClip a b = safe_sub_clip a b.
Proof.
  unfold in_range. intros Ha Hb.
  assert (Hmax : max_int64 = 9223372036854775807) by reflexivity.
  assert (Hmin : min_int64 = -9223372036854775808) by reflexivity.
  unfold types__safeSubClip, types__safeSub, safe_sub_clip, go_sub, go_add. rewrite !Z.gtb_ltb. cbv zeta.
  destruct (Z.ltb_spec 0 b); cbn [andb].
  - rewrite (wrap_id I64 (-9223372036854775808 + b)) by (unfold in_range; lia).
    destruct (Z.ltb_spec b 0); [lia|].
    destruct (Z.ltb_spec a (-9223372036854775808 + b)); cbn [andb].
    + destruct (Z.ltb_spec max_int64 (a - b)); [lia|]. destruct (Z.ltb_spec (a - b) min_int64); lia.
    + rewrite wrap_id by (unfold in_range; lia).
      destruct (Z.ltb_spec max_int64 (a - b)); [lia|]. destruct (Z.ltb_spec (a - b) min_int64); lia.
  - destruct (Z.ltb_spec b 0); cbn [andb].
    + rewrite (wrap_id I64 (9223372036854775807 + b)) by (unfold in_range; lia).
      destruct (Z.ltb_spec (9223372036854775807 + b) a).
      * destruct (Z.ltb_spec max_int64 (a - b)); lia.
      * rewrite wrap_id by (unfold in_range; lia).
        destruct (Z.ltb_spec max_int64 (a - b)); [lia|]. destruct (Z.ltb_spec (a - b) min_int64); lia.
    + rewrite wrap_id by (unfold in_range; lia).
      destruct (Z.ltb_spec max_int64 (a - b)); [lia|]. destruct (Z.ltb_spec (a - b) min_int64); lia.
Qed.
(** the caps the facts translator prints are the constants the type checker evaluates *)
Lemma src_caps : types__MaxTotalVotingPower = max_total_voting_power /\ types__MaxVotesCount = max_votes_count.
Proof. split; reflexivity. Qed.

(** ** quorum arithmetic: the Go operands *)
Lemma src_quorum_atoms :
  types__VoteSet_addVerifiedVote__set_quorum_atoms = ["voteSet.valSet.TotalVotingPower() : int64"]%string.
Proof. reflexivity. Qed.
Lemma src_crossed_atoms :
  types__VoteSet_addVerifiedVote__if_origSum_lt_quorum_and_quorum_le_votesByBlock_sum_atoms = ["origSum : int64"; "quorum : int64"; "votesByBlock.sum : int64"]%string.
Proof. reflexivity. Qed.
Lemma src_sum_add_atoms :
  types__VoteSet_addVerifiedVote__set_sum_op_atoms = ["voteSet.sum : int64"; "votingPower : int64"]%string.
Proof. reflexivity. Qed.
Lemma src_two_thirds_any_atoms :
  types__VoteSet_HasTwoThirdsAny__ret_voteSet_sum_gt_voteSet_valSet_TotalVotingPower_mul_2_div_3_atoms = ["voteSet.sum : int64"; "voteSet.valSet.TotalVotingPower() : int64"]%string.
Proof. reflexivity. Qed.
Lemma src_conflict_guard_atoms :
  types__VoteSet_addVerifiedVote__if_conflicting_ne_nil_and_not_votesByBlock_peerMaj23_atoms = ["conflicting != nil : bool"; "votesByBlock.peerMaj23 : bool"]%string.
Proof. reflexivity. Qed.

(** ** VerifyCommit *)
Lemma src_needed_atoms :
  types__ValidatorSet_VerifyCommit__set_votingPowerNeeded_atoms = ["vs.TotalVotingPower() : int64"]%string.
Proof. reflexivity. Qed.
Lemma src_tally_add_atoms :
  types__ValidatorSet_VerifyCommit__set_talliedVotingPower_op_atoms = ["talliedVotingPower : int64"; "val.VotingPower : int64"]%string.
Proof. reflexivity. Qed.
Lemma src_enough_atoms : types__ValidatorSet_VerifyCommit__if_got_le_needed_atoms = ["got : int64"; "needed : int64"]%string.
Proof. reflexivity. Qed.
Lemma src_size_guard_atoms :
  types__ValidatorSet_VerifyCommit__if_vs_Size_ne_len_commit_Signatures_atoms = ["vs.Size() : int"; "len(commit.Signatures) : int"]%string.
Proof. reflexivity. Qed.
Lemma src_height_guard_atoms :
  types__ValidatorSet_VerifyCommit__if_height_ne_commit_GetHeight_atoms = ["height : uint64"; "commit.GetHeight() : uint64"]%string.
Proof. reflexivity. Qed.
Lemma src_blockid_guard_atoms :
  types__ValidatorSet_VerifyCommit__if_not_blockID_Equal_commit_BlockID_atoms = ["blockID.Equal(commit.BlockID) : bool"]%string
  /\ forall b, types__ValidatorSet_VerifyCommit__if_not_blockID_Equal_commit_BlockID b = negb b.
Proof. split; reflexivity. Qed.

(** a non-absent slot must name the validator of its position (checked before the signature) *)
Lemma src_addr_guard :
  types__ValidatorSet_VerifyCommit__if_not_commitSig_ValidatorAddress_Equal_val_Address_atoms
  = ["commitSig.ValidatorAddress.Equal(val.Address) : bool"]%string
  /\ forall b, types__ValidatorSet_VerifyCommit__if_not_commitSig_ValidatorAddress_Equal_val_Address b = negb b.
Proof. split; reflexivity. Qed.

(** ** block ids *)
Lemma src_bid_is_zero b :
  bid_is_zero b = types__BlockID_IsZero__ret_blockID_Hash_IsZero_and_blockID_PartsHeader_IsZero (N.eqb (b_hash b) 0) (N.eqb (b_total b) 0 && N.eqb (b_phash b) 0)%bool.
Proof. reflexivity. Qed.
Lemma src_bid_atoms :
  types__BlockID_IsZero__ret_blockID_Hash_IsZero_and_blockID_PartsHeader_IsZero_atoms = ["blockID.Hash.IsZero() : bool"; "blockID.PartsHeader.IsZero() : bool"]%string
  /\ types__BlockID_IsComplete__ret_not_blockID_Hash_IsZero_and_not_blockID_PartsHeader_IsZero_atoms = ["blockID.Hash.IsZero() : bool"; "blockID.PartsHeader.IsZero() : bool"]%string
  /\ types__BlockID_Equal__ret_blockID_Hash_Equal_other_Hash_and_blockID_PartsHeader_Equals_d815eb38_atoms = ["blockID.Hash.Equal(other.Hash) : bool"; "blockID.PartsHeader.Equals(other.PartsHeader) : bool"]%string
  /\ forall x y, types__BlockID_Equal__ret_blockID_Hash_Equal_other_Hash_and_blockID_PartsHeader_Equals_d815eb38 x y = (x && y)%bool.
Proof. repeat split; reflexivity. Qed.

Lemma Zof_nat_eqb0 n : (Z.of_nat n =? 0) = Nat.eqb n 0.
Proof. exact (Zofnat_eqb n 0). Qed.

(** a condition that is a single atom: the atom is stated, and its polarity *)
Definition pinned1 (f : bool -> bool) (atoms : list string) (positive : bool) (a : string) : Prop :=
  atoms = [a] /\ forall b, f b = if positive then b else negb b.

Definition pins_VoteSet_addVote : Prop :=
  pinned1 types__VoteSet_addVote__if_vote_eq_nil types__VoteSet_addVote__if_vote_eq_nil_atoms true "vote == nil : untyped bool" /\
  pinned1 types__VoteSet_addVote__if_valAddr_Equal_cmn_Address types__VoteSet_addVote__if_valAddr_Equal_cmn_Address_atoms true "valAddr.Equal(cmn.Address{}) : bool" /\
  pinned1 types__VoteSet_addVote__if_val_eq_nil types__VoteSet_addVote__if_val_eq_nil_atoms true "val == nil : untyped bool" /\
  pinned1 types__VoteSet_addVote__if_not_valAddr_Equal_lookupAddr types__VoteSet_addVote__if_not_valAddr_Equal_lookupAddr_atoms false "valAddr.Equal(lookupAddr) : bool" /\
  pinned1 types__VoteSet_addVote__if_ok types__VoteSet_addVote__if_ok_atoms true "ok : bool" /\
  pinned1 types__VoteSet_addVote__if_bytes_Equal_existing_Signature_vote_Signature types__VoteSet_addVote__if_bytes_Equal_existing_Signature_vote_Signature_atoms true "bytes.Equal(existing.Signature, vote.Signature) : bool" /\
  pinned1 types__VoteSet_addVote__if_err_ne_nil types__VoteSet_addVote__if_err_ne_nil_atoms true "err != nil : untyped bool" /\
  pinned1 types__VoteSet_addVote__if_conflicting_ne_nil types__VoteSet_addVote__if_conflicting_ne_nil_atoms true "conflicting != nil : untyped bool" /\
  pinned1 types__VoteSet_addVote__if_not_added types__VoteSet_addVote__if_not_added_atoms false "added : bool".

Definition pins_VoteSet_addVerifiedVote : Prop :=
  pinned1 types__VoteSet_addVerifiedVote__if_existing_ne_nil types__VoteSet_addVerifiedVote__if_existing_ne_nil_atoms true "existing != nil : untyped bool" /\
  pinned1 types__VoteSet_addVerifiedVote__if_existing_BlockID_Equal_vote_BlockID types__VoteSet_addVerifiedVote__if_existing_BlockID_Equal_vote_BlockID_atoms true "existing.BlockID.Equal(vote.BlockID) : bool" /\
  pinned1 types__VoteSet_addVerifiedVote__if_ok types__VoteSet_addVerifiedVote__if_ok_atoms true "ok : bool" /\
  pinned1 types__VoteSet_addVerifiedVote__if_conflicting_ne_nil types__VoteSet_addVerifiedVote__if_conflicting_ne_nil_atoms true "conflicting != nil : untyped bool" /\
  pinned1 types__VoteSet_addVerifiedVote__if_voteSet_maj23_eq_nil types__VoteSet_addVerifiedVote__if_voteSet_maj23_eq_nil_atoms true "voteSet.maj23 == nil : untyped bool" /\
  pinned1 types__VoteSet_addVerifiedVote__if_vote_ne_nil types__VoteSet_addVerifiedVote__if_vote_ne_nil_atoms true "vote != nil : untyped bool".

Definition pins_VoteSet_HasTwoThirdsAny : Prop :=
  pinned1 types__VoteSet_HasTwoThirdsAny__if_voteSet_eq_nil types__VoteSet_HasTwoThirdsAny__if_voteSet_eq_nil_atoms true "voteSet == nil : untyped bool".

Definition pins_VoteSet_MakeCommit : Prop :=
  pinned1 types__VoteSet_MakeCommit__if_voteSet_maj23_eq_nil types__VoteSet_MakeCommit__if_voteSet_maj23_eq_nil_atoms true "voteSet.maj23 == nil : untyped bool".

Definition pins_ValidatorSet_VerifyCommit : Prop :=
  pinned1 types__ValidatorSet_VerifyCommit__if_vs_eq_nil types__ValidatorSet_VerifyCommit__if_vs_eq_nil_atoms true "vs == nil : untyped bool" /\
  pinned1 types__ValidatorSet_VerifyCommit__if_commit_eq_nil types__ValidatorSet_VerifyCommit__if_commit_eq_nil_atoms true "commit == nil : untyped bool" /\
  pinned1 types__ValidatorSet_VerifyCommit__if_err_ne_nil types__ValidatorSet_VerifyCommit__if_err_ne_nil_atoms true "err != nil : untyped bool" /\
  pinned1 types__ValidatorSet_VerifyCommit__if_not_blockID_Equal_commit_BlockID types__ValidatorSet_VerifyCommit__if_not_blockID_Equal_commit_BlockID_atoms false "blockID.Equal(commit.BlockID) : bool" /\
  pinned1 types__ValidatorSet_VerifyCommit__if_commitSig_Absent types__ValidatorSet_VerifyCommit__if_commitSig_Absent_atoms true "commitSig.Absent() : bool" /\
  pinned1 types__ValidatorSet_VerifyCommit__if_not_commitSig_ValidatorAddress_Equal_val_Address types__ValidatorSet_VerifyCommit__if_not_commitSig_ValidatorAddress_Equal_val_Address_atoms false "commitSig.ValidatorAddress.Equal(val.Address) : bool" /\
  pinned1 types__ValidatorSet_VerifyCommit__if_not_VerifySignature_val_Address_crypto_Keccak256_signBytes_c_6727322a types__ValidatorSet_VerifyCommit__if_not_VerifySignature_val_Address_crypto_Keccak256_signBytes_c_6727322a_atoms false "VerifySignature(val.Address, crypto.Keccak256(signBytes), commitSig.Signature) : bool" /\
  pinned1 types__ValidatorSet_VerifyCommit__if_blockID_Equal_commitSig_BlockID_commit_BlockID types__ValidatorSet_VerifyCommit__if_blockID_Equal_commitSig_BlockID_commit_BlockID_atoms true "blockID.Equal(commitSig.BlockID(commit.BlockID)) : bool".

Definition pins_VoteSet_getVote : Prop :=
  pinned1 types__VoteSet_getVote__if_existing_ne_nil types__VoteSet_getVote__if_existing_ne_nil_atoms true "existing != nil : untyped bool".

Definition pins_VoteSet_SetPeerMaj23 : Prop :=
  pinned1 types__VoteSet_SetPeerMaj23__if_voteSet_eq_nil types__VoteSet_SetPeerMaj23__if_voteSet_eq_nil_atoms true "voteSet == nil : untyped bool" /\
  pinned1 types__VoteSet_SetPeerMaj23__if_ok types__VoteSet_SetPeerMaj23__if_ok_atoms true "ok : bool" /\
  pinned1 types__VoteSet_SetPeerMaj23__if_existing_Equal_blockID types__VoteSet_SetPeerMaj23__if_existing_Equal_blockID_atoms true "existing.Equal(blockID) : bool" /\
  pinned1 types__VoteSet_SetPeerMaj23__if_ok_2 types__VoteSet_SetPeerMaj23__if_ok_2_atoms true "ok : bool" /\
  pinned1 types__VoteSet_SetPeerMaj23__if_votesByBlock_peerMaj23 types__VoteSet_SetPeerMaj23__if_votesByBlock_peerMaj23_atoms true "votesByBlock.peerMaj23 : bool".

Definition pins_VoteSet_TwoThirdsMajority : Prop :=
  pinned1 types__VoteSet_TwoThirdsMajority__if_voteSet_eq_nil types__VoteSet_TwoThirdsMajority__if_voteSet_eq_nil_atoms true "voteSet == nil : untyped bool" /\
  pinned1 types__VoteSet_TwoThirdsMajority__if_voteSet_maj23_ne_nil types__VoteSet_TwoThirdsMajority__if_voteSet_maj23_ne_nil_atoms true "voteSet.maj23 != nil : untyped bool".

Definition pins_VoteSet_HasTwoThirdsMajority : Prop :=
  pinned1 types__VoteSet_HasTwoThirdsMajority__if_voteSet_eq_nil types__VoteSet_HasTwoThirdsMajority__if_voteSet_eq_nil_atoms true "voteSet == nil : untyped bool".

Definition pins_VoteSet_IsCommit : Prop :=
  pinned1 types__VoteSet_IsCommit__if_voteSet_eq_nil types__VoteSet_IsCommit__if_voteSet_eq_nil_atoms true "voteSet == nil : untyped bool".

Definition pins_VoteSet_GetByIndex : Prop :=
  pinned1 types__VoteSet_GetByIndex__if_voteSet_eq_nil types__VoteSet_GetByIndex__if_voteSet_eq_nil_atoms true "voteSet == nil : untyped bool".

Definition pins_VoteSet_BitArrayByBlockID : Prop :=
  pinned1 types__VoteSet_BitArrayByBlockID__if_voteSet_eq_nil types__VoteSet_BitArrayByBlockID__if_voteSet_eq_nil_atoms true "voteSet == nil : untyped bool" /\
  pinned1 types__VoteSet_BitArrayByBlockID__if_ok types__VoteSet_BitArrayByBlockID__if_ok_atoms true "ok : bool".

Definition pins_blockVotes_addVerifiedVote : Prop :=
  pinned1 types__blockVotes_addVerifiedVote__if_existing_eq_nil types__blockVotes_addVerifiedVote__if_existing_eq_nil_atoms true "existing == nil : untyped bool".

Definition pins_blockVotes_getByIndex : Prop :=
  pinned1 types__blockVotes_getByIndex__if_vs_eq_nil types__blockVotes_getByIndex__if_vs_eq_nil_atoms true "vs == nil : untyped bool".

Definition pins_Vote_CommitSig : Prop :=
  pinned1 types__Vote_CommitSig__if_vote_eq_nil types__Vote_CommitSig__if_vote_eq_nil_atoms true "vote == nil : untyped bool" /\
  pinned1 types__Vote_CommitSig__case_vote_BlockID_IsComplete types__Vote_CommitSig__case_vote_BlockID_IsComplete_atoms true "vote.BlockID.IsComplete() : bool" /\
  pinned1 types__Vote_CommitSig__case_vote_BlockID_IsZero types__Vote_CommitSig__case_vote_BlockID_IsZero_atoms true "vote.BlockID.IsZero() : bool".

Definition pins_Vote_Verify : Prop :=
  pinned1 types__Vote_Verify__if_not_vote_ValidatorAddress_Equal_address types__Vote_Verify__if_not_vote_ValidatorAddress_Equal_address_atoms false "vote.ValidatorAddress.Equal(address) : bool" /\
  pinned1 types__Vote_Verify__if_not_VerifySignature_address_crypto_Keccak256_signBytes_vote_Signature types__Vote_Verify__if_not_VerifySignature_address_crypto_Keccak256_signBytes_vote_Signature_atoms false "VerifySignature(address, crypto.Keccak256(signBytes), vote.Signature) : bool".

Definition pins_Vote_ValidateBasic : Prop :=
  pinned1 types__Vote_ValidateBasic__if_not_IsVoteTypeValid_vote_Type types__Vote_ValidateBasic__if_not_IsVoteTypeValid_vote_Type_atoms false "IsVoteTypeValid(vote.Type) : bool" /\
  pinned1 types__Vote_ValidateBasic__if_err_ne_nil types__Vote_ValidateBasic__if_err_ne_nil_atoms true "err != nil : untyped bool".

Definition pins_CommitSig_ValidateBasic : Prop :=
  pinned1 types__CommitSig_ValidateBasic__if_not_cs_ValidatorAddress_Equal_common_Address types__CommitSig_ValidateBasic__if_not_cs_ValidatorAddress_Equal_common_Address_atoms false "cs.ValidatorAddress.Equal(common.Address{}) : bool" /\
  pinned1 types__CommitSig_ValidateBasic__if_not_cs_Timestamp_IsZero types__CommitSig_ValidateBasic__if_not_cs_Timestamp_IsZero_atoms false "cs.Timestamp.IsZero() : bool".

Definition pins_Commit_ValidateBasic : Prop :=
  pinned1 types__Commit_ValidateBasic__if_commit_BlockID_IsZero types__Commit_ValidateBasic__if_commit_BlockID_IsZero_atoms true "commit.BlockID.IsZero() : bool" /\
  pinned1 types__Commit_ValidateBasic__if_err_ne_nil types__Commit_ValidateBasic__if_err_ne_nil_atoms true "err != nil : untyped bool".

Definition pins_Commit_Size : Prop :=
  pinned1 types__Commit_Size__if_commit_eq_nil types__Commit_Size__if_commit_eq_nil_atoms true "commit == nil : untyped bool".

Definition pins_CommitToVoteSet : Prop :=
  pinned1 types__CommitToVoteSet__if_commitSig_Absent types__CommitToVoteSet__if_commitSig_Absent_atoms true "commitSig.Absent() : bool".

Definition pins_HeightVoteSet_addRound : Prop :=
  pinned1 consensus_types__HeightVoteSet_addRound__if_ok consensus_types__HeightVoteSet_addRound__if_ok_atoms true "ok : bool".

Definition pins_HeightVoteSet_SetRound : Prop :=
  pinned1 consensus_types__HeightVoteSet_SetRound__if_ok consensus_types__HeightVoteSet_SetRound__if_ok_atoms true "ok : bool".

Definition pins_HeightVoteSet_AddVote : Prop :=
  pinned1 consensus_types__HeightVoteSet_AddVote__if_not_types_IsVoteTypeValid_vote_Type consensus_types__HeightVoteSet_AddVote__if_not_types_IsVoteTypeValid_vote_Type_atoms false "types.IsVoteTypeValid(vote.Type) : bool" /\
  pinned1 consensus_types__HeightVoteSet_AddVote__if_voteSet_eq_nil consensus_types__HeightVoteSet_AddVote__if_voteSet_eq_nil_atoms true "voteSet == nil : untyped bool".

Definition pins_HeightVoteSet_getVoteSet : Prop :=
  pinned1 consensus_types__HeightVoteSet_getVoteSet__if_not_ok consensus_types__HeightVoteSet_getVoteSet__if_not_ok_atoms false "ok : bool".

Definition pins_HeightVoteSet_SetPeerMaj23 : Prop :=
  pinned1 consensus_types__HeightVoteSet_SetPeerMaj23__if_not_types_IsVoteTypeValid_signedMsgType consensus_types__HeightVoteSet_SetPeerMaj23__if_not_types_IsVoteTypeValid_signedMsgType_atoms false "types.IsVoteTypeValid(signedMsgType) : bool" /\
  pinned1 consensus_types__HeightVoteSet_SetPeerMaj23__if_voteSet_eq_nil consensus_types__HeightVoteSet_SetPeerMaj23__if_voteSet_eq_nil_atoms true "voteSet == nil : untyped bool".

Definition pins_HeightVoteSet_POLInfo : Prop :=
  pinned1 consensus_types__HeightVoteSet_POLInfo__if_ok consensus_types__HeightVoteSet_POLInfo__if_ok_atoms true "ok : bool".

(** ** VoteSet.addVote / getVote / addVerifiedVote / blockVotes *)

(** [valIndex < 0] on a uint32 never holds: the model has no such branch *)
Lemma src_index_never_negative i : types__VoteSet_addVote__if_valIndex_lt_0 (Z.of_N i) = false
  /\ types__VoteSet_addVote__if_valIndex_lt_0_atoms = ["valIndex : uint32"]%string.
Proof. split; [|reflexivity]. unfold types__VoteSet_addVote__if_valIndex_lt_0. destruct (Z.ltb_spec (Z.of_N i) 0); [lia|reflexivity]. Qed.

Lemma src_get_by_index_atoms :
  types__ValidatorSet_GetByIndex__if_index_ge_uint32_len_vs_Validators_atoms = ["index : uint32"; "len(vs.Validators) : int"]%string.
Proof. reflexivity. Qed.

Lemma src_maj_is_atoms :
  types__VoteSet_addVerifiedVote__if_voteSet_maj23_ne_nil_and_voteSet_maj23_Key_eq_blockKey_atoms
  = ["voteSet.maj23 != nil : untyped bool"; "voteSet.maj23.Key() == blockKey : untyped bool"]%string.
Proof. reflexivity. Qed.

(** getVote looks at voteSet.votes first ([existing != nil && key matches]), then at the block's entry *)
Lemma src_get_vote vs i b :
  get_vote vs i b =
  match vote_at (vs_votes vs) i with
  | Some ex => if types__VoteSet_getVote__if_existing_ne_nil_and_existing_BlockID_Key_eq_blockKey true (key_eqb (v_bid ex) b)
               then Some ex
               else match bb_find b (vs_byblock vs) with Some bv => vote_at (bv_votes bv) i | None => None end
  | None => match bb_find b (vs_byblock vs) with Some bv => vote_at (bv_votes bv) i | None => None end
  end.
Proof. unfold get_vote. destruct (vote_at (vs_votes vs) i); reflexivity. Qed.
Lemma src_get_vote_atoms :
  types__VoteSet_getVote__if_existing_ne_nil_and_existing_BlockID_Key_eq_blockKey_atoms
  = ["existing != nil : untyped bool"; "existing.BlockID.Key() == blockKey : untyped bool"]%string.
Proof. reflexivity. Qed.

Lemma src_bv_add_atoms :
  types__blockVotes_addVerifiedVote__set_sum_op_atoms = ["vs.sum : int64"; "votingPower : int64"]%string
  /\ types__blockVotes_addVerifiedVote__if_existing_eq_nil_atoms = ["existing == nil : untyped bool"]%string.
Proof. split; reflexivity. Qed.

(** SetPeerMaj23 stores [true] in the entry's peerMaj23 *)
Lemma src_peer_put : types__VoteSet_SetPeerMaj23__put_votesByBlock_peerMaj23 = true.
Proof. reflexivity. Qed.

(** ** commits *)
Lemma src_absent flag : types__CommitSig_Absent__ret_cs_BlockIDFlag_eq_BlockIDFlagAbsent (Z.of_N flag) = N.eqb flag FLAG_ABSENT.
Proof. exact (ZofN_eqb flag FLAG_ABSENT). Qed.
Lemma src_for_block flag : types__CommitSig_ForBlock__ret_cs_BlockIDFlag_eq_BlockIDFlagCommit (Z.of_N flag) = N.eqb flag FLAG_COMMIT.
Proof. exact (ZofN_eqb flag FLAG_COMMIT). Qed.
Lemma src_make_commit_exclude_atoms :
  types__VoteSet_MakeCommit__if_commitSig_ForBlock_and_not_v_BlockID_Equal_mul_voteSet_maj23_atoms
  = ["commitSig.ForBlock() : bool"; "v.BlockID.Equal(*voteSet.maj23) : bool"]%string.
Proof. reflexivity. Qed.
(** an absent slot must be empty; a present slot must carry a signature ([e] = signature length is 0) *)
Lemma src_cs_validate_basic cs n :
  s_empty (cs_sig cs) = Nat.eqb n 0 ->
  cs_validate_basic cs =
  if types__CommitSig_Absent__ret_cs_BlockIDFlag_eq_BlockIDFlagAbsent (Z.of_N (cs_flag cs)) then
    (negb (types__CommitSig_ValidateBasic__if_not_cs_ValidatorAddress_Equal_common_Address (N.eqb (cs_addr cs) 0))
     && negb (types__CommitSig_ValidateBasic__if_not_cs_Timestamp_IsZero (N.eqb (cs_time cs) 0))
     && negb (types__CommitSig_ValidateBasic__if_len_cs_Signature_ne_0 (Z.of_nat n)))%bool
  else if (N.eqb (cs_flag cs) FLAG_COMMIT || N.eqb (cs_flag cs) FLAG_NIL)%bool then
    negb (types__CommitSig_ValidateBasic__if_len_cs_Signature_eq_0 (Z.of_nat n))
  else false.
Proof.
  intros He. unfold cs_validate_basic. rewrite src_absent.
  unfold types__CommitSig_ValidateBasic__if_not_cs_ValidatorAddress_Equal_common_Address,
    types__CommitSig_ValidateBasic__if_not_cs_Timestamp_IsZero,
    types__CommitSig_ValidateBasic__if_len_cs_Signature_ne_0,
    types__CommitSig_ValidateBasic__if_len_cs_Signature_eq_0, go_neqb.
  rewrite Zof_nat_eqb0, <- He, !negb_involutive. reflexivity.
Qed.
Lemma src_ctv_guard_atoms :
  types__CommitToVoteSet__if_not_added_or_err_ne_nil_atoms = ["added : bool"; "err != nil : bool"]%string.
Proof. reflexivity. Qed.
(** Vote.ValidateBasic's block-id rule is the wire-validity hypothesis of C02_commit_roundtrip *)
Lemma src_wire_valid b :
  negb (types__Vote_ValidateBasic__if_not_vote_BlockID_IsZero_and_not_vote_BlockID_IsComplete (bid_is_zero b) (bid_is_complete b))
  = (bid_is_zero b || bid_is_complete b)%bool.
Proof. unfold types__Vote_ValidateBasic__if_not_vote_BlockID_IsZero_and_not_vote_BlockID_IsComplete. destruct (bid_is_zero b), (bid_is_complete b); reflexivity. Qed.

(** ** VerifyCommit: the tally starts at the constant the source assigns *)
Lemma src_verify_commit_start vals chain want h c :
  verify_commit vals chain want h c =
  if negb (commit_validate_basic c) then CBasic
  else if negb (Nat.eqb (List.length vals) (List.length (c_sigs c))) then CSize
  else if negb (N.eqb h (c_height c)) then CHeight
  else if negb (bid_eqb want (c_bid c)) then CBlockID
  else match tally chain (c_height c) (c_round c) (c_bid c) want vals (c_sigs c)
                   types__ValidatorSet_VerifyCommit__let_talliedVotingPower with
       | TSig => CSig
       | TAddr => CAddr
       | TOk got => if types__ValidatorSet_VerifyCommit__if_got_le_needed got
                          (types__ValidatorSet_VerifyCommit__set_votingPowerNeeded (total_power vals))
                    then CPower else COk
       end.
Proof. reflexivity. Qed.

(** ** updateTotalVotingPower: the fold of safeAddClip from the constant the source assigns *)
Lemma safe_add_clip_in_range a b : in_range I64 (safe_add_clip a b).
Proof.
  unfold safe_add_clip, in_range, max_int64, min_int64, two63. cbv zeta.
  repeat match goal with |- context [Z.ltb ?x ?y] => destruct (Z.ltb_spec x y) end; lia.
Qed.
Lemma src_total_power_fold vals : forall acc,
  in_range I64 acc -> Forall (fun v => in_range I64 (val_power v)) vals ->
  fold_left (fun a v => safe_add_clip a (val_power v)) vals acc
  = fold_left (fun a v => types__ValidatorSet_updateTotalVotingPower__let_sum_2 (types__safeAddClip a (val_power v))) vals acc.
Proof.
  induction vals as [|v t IH]; intros acc Ha Hf; [reflexivity|].
  inversion Hf as [|? ? Hv Ht]; subst. cbn [fold_left].
  unfold types__ValidatorSet_updateTotalVotingPower__let_sum_2 at 2.
  rewrite (src_safeAddClip acc (val_power v) Ha Hv).
  apply IH; [apply safe_add_clip_in_range|exact Ht].
Qed.
Lemma src_total_power_atoms :
  types__ValidatorSet_updateTotalVotingPower__let_sum_2_atoms = ["safeAddClip(sum, val.VotingPower) : int64"]%string
  /\ types__ValidatorSet_updateTotalVotingPower__put_vs_totalVotingPower_atoms = ["sum : int64"]%string
  /\ types__ValidatorSet_TotalVotingPower__if_vs_totalVotingPower_eq_0_atoms = ["vs.totalVotingPower : int64"]%string.
Proof. repeat split; reflexivity. Qed.

Lemma src_psh_atoms :
  types__PartSetHeader_IsZero__ret_psh_Total_eq_0_and_psh_Hash_IsZero_atoms = ["psh.Total : uint32"; "psh.Hash.IsZero() : bool"]%string
  /\ types__PartSetHeader_Equals__ret_psh_Total_eq_other_Total_and_common_Hash_Equal_psh_Hash_other_Hash_atoms
     = ["psh.Total : uint32"; "other.Total : uint32"; "common.Hash.Equal(psh.Hash, other.Hash) : bool"]%string.
Proof. split; reflexivity. Qed.

(** ** HeightVoteSet *)
Lemma src_setround_guard_atoms :
  consensus_types__HeightVoteSet_SetRound__if_hvs_round_ne_1_and_round_lt_newRound_atoms
  = ["hvs.round : uint32"; "round : uint32"; "newRound : uint32"]%string
  /\ consensus_types__HeightVoteSet_SetRound__set_newRound_atoms = ["hvs.round : uint32"]%string
  /\ consensus_types__HeightVoteSet_SetRound__forinit_r_atoms = ["newRound : uint32"]%string
  /\ consensus_types__HeightVoteSet_SetRound__for_r_le_round_atoms = ["r : uint32"; "round : uint32"]%string
  /\ consensus_types__HeightVoteSet_SetRound__put_hvs_round_atoms = ["round : uint32"]%string.
Proof. repeat split; reflexivity. Qed.
Lemma src_catchup_guard_atoms :
  consensus_types__HeightVoteSet_AddVote__if_len_rndz_lt_2_atoms = ["len(rndz) : int"]%string.
Proof. reflexivity. Qed.
Lemma src_pol_atoms :
  consensus_types__HeightVoteSet_POLInfo__forinit_r_atoms = ["hvs.round : uint32"]%string
  /\ consensus_types__HeightVoteSet_POLInfo__for_r_ge_1_atoms = ["r : uint32"]%string
  /\ consensus_types__HeightVoteSet_POLInfo__set_r_op_atoms = ["r : uint32"]%string.
Proof. repeat split; reflexivity. Qed.
Lemma src_switch_atoms :
  types__IsVoteTypeValid__case_t_eq_kproto_PrevoteType_atoms = ["t : github.com/kardiachain/go-kardia/proto/kardiachain/types.SignedMsgType"]%string
  /\ types__CommitSig_BlockID__case_cs_BlockIDFlag_eq_BlockIDFlagCommit_atoms = ["cs.BlockIDFlag : github.com/kardiachain/go-kardia/types.BlockIDFlag"]%string
  /\ types__CommitSig_ValidateBasic__case_cs_BlockIDFlag_eq_BlockIDFlagAbsent_2_atoms = ["cs.BlockIDFlag : github.com/kardiachain/go-kardia/types.BlockIDFlag"]%string
  /\ consensus_types__HeightVoteSet_getVoteSet__case_signedMsgType_eq_kproto_PrevoteType_atoms
     = ["signedMsgType : github.com/kardiachain/go-kardia/proto/kardiachain/types.SignedMsgType"]%string.
Proof. repeat split; reflexivity. Qed.

Definition C02_source_tie2_statement : Prop :=
  (* every single-atom condition of the anchored functions: atom and polarity *)
  (pins_VoteSet_addVote /\ pins_VoteSet_addVerifiedVote /\ pins_VoteSet_HasTwoThirdsAny /\ pins_VoteSet_MakeCommit
   /\ pins_ValidatorSet_VerifyCommit /\ pins_VoteSet_getVote /\ pins_VoteSet_SetPeerMaj23 /\ pins_VoteSet_TwoThirdsMajority
   /\ pins_VoteSet_HasTwoThirdsMajority /\ pins_VoteSet_IsCommit /\ pins_VoteSet_GetByIndex /\ pins_VoteSet_BitArrayByBlockID
   /\ pins_blockVotes_addVerifiedVote /\ pins_blockVotes_getByIndex /\ pins_Vote_CommitSig /\ pins_Vote_Verify
   /\ pins_Vote_ValidateBasic /\ pins_CommitSig_ValidateBasic /\ pins_Commit_ValidateBasic /\ pins_Commit_Size
   /\ pins_CommitToVoteSet /\ pins_HeightVoteSet_addRound /\ pins_HeightVoteSet_SetRound /\ pins_HeightVoteSet_AddVote
   /\ pins_HeightVoteSet_getVoteSet /\ pins_HeightVoteSet_SetPeerMaj23 /\ pins_HeightVoteSet_POLInfo)
  (* vote set *)
  /\ (forall vs, add_vote_o vs None = (vs, false, None))
  /\ (forall i, types__VoteSet_addVote__if_valIndex_lt_0 (Z.of_N i) = false)
  /\ (forall h h' r r' t t',
        types__VoteSet_addVote__if_vote_Height_ne_voteSet_height_or_vote_Round_ne_voteSet_round_5947c832
          (Z.of_N h) (Z.of_N h') (Z.of_N r) (Z.of_N r') (Z.of_N t) (Z.of_N t')
        = negb (N.eqb h h' && N.eqb r r' && N.eqb t t'))
  /\ (forall (vals : list validator) i, Z.of_nat (List.length vals) <= 4294967295 ->
        types__ValidatorSet_GetByIndex__if_index_ge_uint32_len_vs_Validators (Z.of_N i) (Z.of_nat (List.length vals))
        = match nth_error vals (N.to_nat i) with None => true | Some _ => false end)
  /\ (forall vs b,
        maj_is vs b = types__VoteSet_addVerifiedVote__if_voteSet_maj23_ne_nil_and_voteSet_maj23_Key_eq_blockKey
                        (match vs_maj23 vs with Some _ => true | None => false end)
                        (match vs_maj23 vs with Some m => key_eqb m b | None => false end))
  /\ (forall bv i v p,
        bv_sum (bv_add bv i v p) =
        if types__blockVotes_addVerifiedVote__if_existing_eq_nil (match vote_at (bv_votes bv) i with None => true | Some _ => false end)
        then types__blockVotes_addVerifiedVote__set_sum_op (bv_sum bv) p else bv_sum bv)
  /\ (forall s p, types__blockVotes_addVerifiedVote__set_sum_op s p = wrap64 (s + p))
  /\ types__VoteSet_SetPeerMaj23__put_votesByBlock_peerMaj23 = true
  (* commits *)
  /\ (Z.of_N FLAG_ABSENT = types__BlockIDFlagAbsent /\ Z.of_N FLAG_COMMIT = types__BlockIDFlagCommit
      /\ Z.of_N FLAG_NIL = types__BlockIDFlagNil
      /\ types__Vote_CommitSig__let_blockIDFlag = Z.of_N FLAG_COMMIT
      /\ types__Vote_CommitSig__let_blockIDFlag_2 = Z.of_N FLAG_NIL)
  /\ (forall flag, types__CommitSig_Absent__ret_cs_BlockIDFlag_eq_BlockIDFlagAbsent (Z.of_N flag) = N.eqb flag FLAG_ABSENT)
  /\ (forall flag, types__CommitSig_ForBlock__ret_cs_BlockIDFlag_eq_BlockIDFlagCommit (Z.of_N flag) = N.eqb flag FLAG_COMMIT)
  /\ (forall t, types__VoteSet_MakeCommit__if_voteSet_signedMsgType_ne_kproto_PrecommitType (Z.of_N t) = negb (N.eqb t PRECOMMIT))
  /\ (forall vs, is_commit vs = (negb (types__VoteSet_IsCommit__if_voteSet_signedMsgType_ne_kproto_PrecommitType (Z.of_N (vs_type vs)))
                                 && match vs_maj23 vs with Some _ => true | None => false end)%bool)
  /\ (forall flag eqm,
        types__VoteSet_MakeCommit__if_commitSig_ForBlock_and_not_v_BlockID_Equal_mul_voteSet_maj23
          (types__CommitSig_ForBlock__ret_cs_BlockIDFlag_eq_BlockIDFlagCommit (Z.of_N flag)) eqm
        = (N.eqb flag FLAG_COMMIT && negb eqm)%bool)
  /\ (forall h, types__NewVoteSet__if_height_eq_0 (Z.of_N h) = N.eqb h 0)
  /\ (forall c,
        commit_validate_basic c =
        if types__Commit_ValidateBasic__if_commit_Height_ge_1 (Z.of_N (c_height c)) then
          (negb (types__Commit_ValidateBasic__if_commit_BlockID_IsZero (bid_is_zero (c_bid c)))
           && negb (types__Commit_ValidateBasic__if_len_commit_Signatures_eq_0 (Z.of_nat (List.length (c_sigs c))))
           && forallb cs_validate_basic (c_sigs c))%bool
        else true)
  /\ (forall cs n, s_empty (cs_sig cs) = Nat.eqb n 0 ->
        cs_validate_basic cs =
        if types__CommitSig_Absent__ret_cs_BlockIDFlag_eq_BlockIDFlagAbsent (Z.of_N (cs_flag cs)) then
          (negb (types__CommitSig_ValidateBasic__if_not_cs_ValidatorAddress_Equal_common_Address (N.eqb (cs_addr cs) 0))
           && negb (types__CommitSig_ValidateBasic__if_not_cs_Timestamp_IsZero (N.eqb (cs_time cs) 0))
           && negb (types__CommitSig_ValidateBasic__if_len_cs_Signature_ne_0 (Z.of_nat n)))%bool
        else if (N.eqb (cs_flag cs) FLAG_COMMIT || N.eqb (cs_flag cs) FLAG_NIL)%bool then
          negb (types__CommitSig_ValidateBasic__if_len_cs_Signature_eq_0 (Z.of_nat n))
        else false)
  /\ (forall (added : bool) (e : verr),
        (match e with ENone => if added then false else true | _ => true end)
        = types__CommitToVoteSet__if_not_added_or_err_ne_nil added (match e with ENone => false | _ => true end))
  /\ (forall b,
        negb (types__Vote_ValidateBasic__if_not_vote_BlockID_IsZero_and_not_vote_BlockID_IsComplete (bid_is_zero b) (bid_is_complete b))
        = (bid_is_zero b || bid_is_complete b)%bool)
  /\ (forall v n, s_empty (v_sig v) = Nat.eqb n 0 ->
        vote_validate_basic v =
        (negb (types__Vote_ValidateBasic__if_not_IsVoteTypeValid_vote_Type (type_valid (v_type v)))
         && negb (types__Vote_ValidateBasic__if_not_vote_BlockID_IsZero_and_not_vote_BlockID_IsComplete (bid_is_zero (v_bid v)) (bid_is_complete (v_bid v)))
         && negb (types__Vote_ValidateBasic__if_len_vote_Signature_eq_0 (Z.of_nat n)))%bool)
  /\ (forall chain addr v,
        vote_verify chain addr v =
        if types__Vote_Verify__if_not_vote_ValidatorAddress_Equal_address (N.eqb (v_addr v) addr) then VVAddr
        else if types__Vote_Verify__if_not_VerifySignature_address_crypto_Keccak256_signBytes_vote_Signature (vote_sig_valid chain addr v)
             then VVSig else VVOk)
  /\ (forall t, type_valid t = (types__IsVoteTypeValid__case_t_eq_kproto_PrevoteType (Z.of_N t)
                                || types__IsVoteTypeValid__case_t_eq_kproto_PrecommitType (Z.of_N t))%bool)
  /\ (forall cs cb,
        cs_blockid cs cb =
        if types__CommitSig_BlockID__case_cs_BlockIDFlag_eq_BlockIDFlagAbsent (Z.of_N (cs_flag cs)) then Some bid_zero
        else if types__CommitSig_BlockID__case_cs_BlockIDFlag_eq_BlockIDFlagCommit (Z.of_N (cs_flag cs)) then Some cb
        else if types__CommitSig_BlockID__case_cs_BlockIDFlag_eq_BlockIDFlagNil (Z.of_N (cs_flag cs)) then Some bid_zero
        else None)
  /\ (forall cs n, s_empty (cs_sig cs) = Nat.eqb n 0 ->
        cs_validate_basic cs =
        if negb (types__CommitSig_ValidateBasic__case_cs_BlockIDFlag_eq_BlockIDFlagAbsent (Z.of_N (cs_flag cs))
                 || types__CommitSig_ValidateBasic__case_cs_BlockIDFlag_eq_BlockIDFlagCommit (Z.of_N (cs_flag cs))
                 || types__CommitSig_ValidateBasic__case_cs_BlockIDFlag_eq_BlockIDFlagNil (Z.of_N (cs_flag cs))) then false
        else if types__CommitSig_ValidateBasic__case_cs_BlockIDFlag_eq_BlockIDFlagAbsent_2 (Z.of_N (cs_flag cs)) then
          (negb (types__CommitSig_ValidateBasic__if_not_cs_ValidatorAddress_Equal_common_Address (N.eqb (cs_addr cs) 0))
           && negb (types__CommitSig_ValidateBasic__if_not_cs_Timestamp_IsZero (N.eqb (cs_time cs) 0))
           && negb (types__CommitSig_ValidateBasic__if_len_cs_Signature_ne_0 (Z.of_nat n)))%bool
        else negb (types__CommitSig_ValidateBasic__if_len_cs_Signature_eq_0 (Z.of_nat n)))
  /\ (forall s r ty, type_valid ty = true ->
        get_vs s r ty =
        match rs_find r (h_sets s) with
        | None => None
        | Some rv =>
          if consensus_types__HeightVoteSet_getVoteSet__case_signedMsgType_eq_kproto_PrevoteType (Z.of_N ty) then Some (rv_pre rv)
          else if consensus_types__HeightVoteSet_getVoteSet__case_signedMsgType_eq_kproto_PrecommitType (Z.of_N ty) then Some (rv_com rv)
          else None
        end)
  /\ types__ValidatorSet_VerifyCommit__let_talliedVotingPower = 0
  /\ (forall n m, types__ValidatorSet_VerifyCommit__if_vs_Size_ne_len_commit_Signatures (Z.of_nat n) (Z.of_nat m) = negb (Nat.eqb n m))
  /\ (forall h h', types__ValidatorSet_VerifyCommit__if_height_ne_commit_GetHeight (Z.of_N h) (Z.of_N h') = negb (N.eqb h h'))
  (* total power, block ids *)
  /\ (forall vals, Forall (fun v => in_range I64 (val_power v)) vals ->
        total_power vals
        = types__ValidatorSet_updateTotalVotingPower__put_vs_totalVotingPower
            (fold_left (fun a v => types__ValidatorSet_updateTotalVotingPower__let_sum_2 (types__safeAddClip a (val_power v)))
                       vals types__ValidatorSet_updateTotalVotingPower__let_sum))
  /\ (forall b,
        bid_is_zero b = types__BlockID_IsZero__ret_blockID_Hash_IsZero_and_blockID_PartsHeader_IsZero (N.eqb (b_hash b) 0)
                          (types__PartSetHeader_IsZero__ret_psh_Total_eq_0_and_psh_Hash_IsZero (Z.of_N (b_total b)) (N.eqb (b_phash b) 0)))
  /\ (forall b,
        bid_is_complete b = types__BlockID_IsComplete__ret_not_blockID_Hash_IsZero_and_not_blockID_PartsHeader_IsZero (N.eqb (b_hash b) 0)
                              (types__PartSetHeader_IsZero__ret_psh_Total_eq_0_and_psh_Hash_IsZero (Z.of_N (b_total b)) (N.eqb (b_phash b) 0)))
  /\ (forall a b,
        bid_eqb a b = types__BlockID_Equal__ret_blockID_Hash_Equal_other_Hash_and_blockID_PartsHeader_Equals_d815eb38
                        (N.eqb (b_hash a) (b_hash b))
                        (types__PartSetHeader_Equals__ret_psh_Total_eq_other_Total_and_common_Hash_Equal_psh_Hash_other_Hash
                           (Z.of_N (b_total a)) (Z.of_N (b_total b)) (N.eqb (b_phash a) (b_phash b))))
  (* HeightVoteSet *)
  /\ (forall chain h vals s, hvs_new chain h vals = Some s -> Z.of_N (h_round s) = consensus_types__NewHeightVoteSet__put_hvs_round)
  /\ (forall r, Z.of_N r <= 4294967295 -> Z.of_N (pred32 r) = consensus_types__HeightVoteSet_SetRound__set_newRound (Z.of_N r))
  /\ (forall hr r nr,
        consensus_types__HeightVoteSet_SetRound__if_hvs_round_ne_1_and_round_lt_newRound (Z.of_N hr) (Z.of_N r) (Z.of_N nr)
        = (negb (N.eqb hr 1) && N.ltb r nr)%bool)
  /\ (forall nr round k,
        (k < N.to_nat (N.succ round - nr))%nat <->
        consensus_types__HeightVoteSet_SetRound__for_r_le_round
          (consensus_types__HeightVoteSet_SetRound__forinit_r (Z.of_N nr) + Z.of_nat k) (Z.of_N round) = true)
  /\ (forall r, Z.of_N r < 4294967295 -> consensus_types__HeightVoteSet_SetRound__set_r_op (Z.of_N r) = Z.of_N (N.succ r))
  /\ (forall r, consensus_types__HeightVoteSet_SetRound__put_hvs_round r = r)
  /\ (forall l : list N, consensus_types__HeightVoteSet_AddVote__if_len_rndz_lt_2 (Z.of_nat (List.length l)) = Nat.ltb (List.length l) 2)
  /\ (forall s k,
        pol_scan s k =
        if consensus_types__HeightVoteSet_POLInfo__for_r_ge_1 (Z.of_nat k) then
          match get_vs s (N.of_nat k) PREVOTE with
          | Some vs => match vs_maj23 vs with
                       | Some b => (N.of_nat k, b)
                       | None => pol_scan s (Nat.pred k)
                       end
          | None => pol_scan s (Nat.pred k)
          end
        else (0%N, bid_zero))
  /\ (forall k, Z.of_nat (S k) <= 4294967295 -> consensus_types__HeightVoteSet_POLInfo__set_r_op (Z.of_nat (S k)) = Z.of_nat k)
  /\ (forall r, consensus_types__HeightVoteSet_POLInfo__forinit_r r = r)
  (* operand names of the new arithmetic *)
  /\ (types__ValidatorSet_GetByIndex__if_index_ge_uint32_len_vs_Validators_atoms = ["index : uint32"; "len(vs.Validators) : int"]%string
      /\ types__blockVotes_addVerifiedVote__set_sum_op_atoms = ["vs.sum : int64"; "votingPower : int64"]%string
      /\ types__CommitToVoteSet__if_not_added_or_err_ne_nil_atoms = ["added : bool"; "err != nil : bool"]%string
      /\ types__ValidatorSet_updateTotalVotingPower__let_sum_2_atoms = ["safeAddClip(sum, val.VotingPower) : int64"]%string
      /\ types__ValidatorSet_updateTotalVotingPower__put_vs_totalVotingPower_atoms = ["sum : int64"]%string
      /\ consensus_types__HeightVoteSet_SetRound__if_hvs_round_ne_1_and_round_lt_newRound_atoms
         = ["hvs.round : uint32"; "round : uint32"; "newRound : uint32"]%string
      /\ consensus_types__HeightVoteSet_SetRound__set_newRound_atoms = ["hvs.round : uint32"]%string
      /\ consensus_types__HeightVoteSet_SetRound__forinit_r_atoms = ["newRound : uint32"]%string
      /\ consensus_types__HeightVoteSet_SetRound__put_hvs_round_atoms = ["round : uint32"]%string
      /\ consensus_types__HeightVoteSet_AddVote__if_len_rndz_lt_2_atoms = ["len(rndz) : int"]%string
      /\ consensus_types__HeightVoteSet_POLInfo__forinit_r_atoms = ["hvs.round : uint32"]%string).


Lemma C02_source_tie2_proof : C02_source_tie2_statement.
Proof.
  unfold C02_source_tie2_statement.
  (* the last conjunct, the operand names, comes as its equations between string lists: closed at once *)
  split_all; try (lazymatch goal with |- @eq (list string) _ _ => reflexivity end).
  - (* each generated condition is the identity or [negb], and its atom list is the one atom named:
       every leaf is an equation between equal terms ([split] closes it) *)
    repeat split.
  - (* AddVote(nil) is ErrVoteNil and changes nothing ([vote == nil] is the first test) *)
    reflexivity.
  - intros i; exact (proj1 (src_index_never_negative i)).
  - (* addVote step check: height, round and type must all match *)
    intros h h' r r' t t'.
    unfold types__VoteSet_addVote__if_vote_Height_ne_voteSet_height_or_vote_Round_ne_voteSet_round_5947c832.
    rewrite !ZofN_neqb, !negb_andb. reflexivity.
  - (* ValidatorSet.GetByIndex: [index >= uint32(len(vs.Validators))] is the model's [nth_error = None] *)
    intros vals i Hn.
    unfold types__ValidatorSet_GetByIndex__if_index_ge_uint32_len_vs_Validators, go_conv.
    rewrite wrap_id by (unfold in_range; lia). rewrite Z.geb_leb.
    destruct (nth_error vals (N.to_nat i)) eqn:E.
    + assert (N.to_nat i < List.length vals)%nat by (apply nth_error_Some; congruence).
      destruct (Z.leb_spec (Z.of_nat (List.length vals)) (Z.of_N i)); [lia|reflexivity].
    + apply nth_error_None in E.
      destruct (Z.leb_spec (Z.of_nat (List.length vals)) (Z.of_N i)); [reflexivity|lia].
  - (* the vote replaces the stored one iff a majority exists and its key is the vote's key: [maj_is] *)
    intros vs b. unfold maj_is. destruct (vs_maj23 vs); reflexivity.
  - (* blockVotes.addVerifiedVote: only a free slot is filled, and its sum is an int64 addition *)
    intros bv i v p. unfold bv_add. destruct (vote_at (bv_votes bv) i); reflexivity.
  - (* blockVotes.addVerifiedVote: vs.sum += votingPower in int64 *)
    reflexivity.
  - exact src_peer_put.
  - (* the BlockIDFlag constants, and the flags Vote.CommitSig assigns *)
    repeat split; reflexivity.
  - exact src_absent.
  - exact src_for_block.
  - (* MakeCommit: signedMsgType != PrecommitType *)
    intros t; exact (ZofN_neqb t PRECOMMIT).
  - intros vs. unfold is_commit, types__VoteSet_IsCommit__if_voteSet_signedMsgType_ne_kproto_PrecommitType.
    change 2 with (Z.of_N PRECOMMIT). rewrite ZofN_neqb, negb_involutive. reflexivity.
  - (* a for-block signature of another block id is replaced by an absent slot *)
    intros flag eqm. rewrite src_for_block. reflexivity.
  - (* NewVoteSet: height == 0 *)
    intros h; exact (ZofN_eqb h 0).
  - intros c. unfold commit_validate_basic, types__Commit_ValidateBasic__if_commit_Height_ge_1,
      types__Commit_ValidateBasic__if_commit_BlockID_IsZero, types__Commit_ValidateBasic__if_len_commit_Signatures_eq_0.
    rewrite Z.geb_leb, Zof_nat_eqb0.
    replace (1 <=? Z.of_N (c_height c)) with (N.leb 1 (c_height c))
      by (destruct (Z.leb_spec 1 (Z.of_N (c_height c))); destruct (N.leb_spec 1 (c_height c)); try reflexivity; lia).
    destruct (c_sigs c); reflexivity.
  - exact src_cs_validate_basic.
  - (* CommitToVoteSet panics unless the slot was added without error *)
    intros added e. destruct e, added; reflexivity.
  - exact src_wire_valid.
  - intros v n He. unfold vote_validate_basic, types__Vote_ValidateBasic__if_not_IsVoteTypeValid_vote_Type,
      types__Vote_ValidateBasic__if_len_vote_Signature_eq_0.
    rewrite src_wire_valid, Zof_nat_eqb0, <- He, negb_involutive. reflexivity.
  - intros chain addr v. unfold vote_verify, types__Vote_Verify__if_not_vote_ValidatorAddress_Equal_address,
      types__Vote_Verify__if_not_VerifySignature_address_crypto_Keccak256_signBytes_vote_Signature.
    destruct (negb (N.eqb (v_addr v) addr)); [reflexivity|]. destruct (vote_sig_valid chain addr v); reflexivity.
  - intros t. unfold type_valid, types__IsVoteTypeValid__case_t_eq_kproto_PrevoteType, types__IsVoteTypeValid__case_t_eq_kproto_PrecommitType.
    change 1 with (Z.of_N PREVOTE). change 2 with (Z.of_N PRECOMMIT). rewrite !ZofN_eqb. reflexivity.
  - (* CommitSig.BlockID: absent -> nil id, commit -> the commit's id, nil -> nil id, anything else panics *)
    intros cs cb. unfold cs_blockid, types__CommitSig_BlockID__case_cs_BlockIDFlag_eq_BlockIDFlagAbsent,
      types__CommitSig_BlockID__case_cs_BlockIDFlag_eq_BlockIDFlagCommit, types__CommitSig_BlockID__case_cs_BlockIDFlag_eq_BlockIDFlagNil.
    change 1 with (Z.of_N FLAG_ABSENT). change 2 with (Z.of_N FLAG_COMMIT). change 3 with (Z.of_N FLAG_NIL).
    rewrite !ZofN_eqb. reflexivity.
  - (* CommitSig.ValidateBasic: first switch = the flag is one of the three, second switch = absent or not *)
    intros cs n He. rewrite (src_cs_validate_basic cs n He), src_absent.
    unfold types__CommitSig_ValidateBasic__case_cs_BlockIDFlag_eq_BlockIDFlagAbsent,
      types__CommitSig_ValidateBasic__case_cs_BlockIDFlag_eq_BlockIDFlagCommit,
      types__CommitSig_ValidateBasic__case_cs_BlockIDFlag_eq_BlockIDFlagNil,
      types__CommitSig_ValidateBasic__case_cs_BlockIDFlag_eq_BlockIDFlagAbsent_2.
    change 1 with (Z.of_N FLAG_ABSENT). change 2 with (Z.of_N FLAG_COMMIT). change 3 with (Z.of_N FLAG_NIL).
    rewrite !ZofN_eqb.
    destruct (N.eqb (cs_flag cs) FLAG_ABSENT); [reflexivity|]. cbn [orb].
    destruct (N.eqb (cs_flag cs) FLAG_COMMIT || N.eqb (cs_flag cs) FLAG_NIL)%bool; reflexivity.
  - (* HeightVoteSet.getVoteSet: prevote -> the round's prevotes, precommit -> its precommits *)
    intros s r ty Hty. unfold get_vs, consensus_types__HeightVoteSet_getVoteSet__case_signedMsgType_eq_kproto_PrevoteType,
      consensus_types__HeightVoteSet_getVoteSet__case_signedMsgType_eq_kproto_PrecommitType.
    change 1 with (Z.of_N PREVOTE). change 2 with (Z.of_N PRECOMMIT). rewrite !ZofN_eqb.
    destruct (rs_find r (h_sets s)); [|reflexivity]. unfold type_valid in Hty.
    destruct (N.eqb ty PREVOTE); [reflexivity|]. cbn [orb] in Hty. rewrite Hty. reflexivity.
  - (* VerifyCommit: talliedVotingPower starts at 0 *)
    reflexivity.
  - intros n m. unfold types__ValidatorSet_VerifyCommit__if_vs_Size_ne_len_commit_Signatures, go_neqb. f_equal.
    destruct (Nat.eqb_spec n m); destruct (Z.eqb_spec (Z.of_nat n) (Z.of_nat m)); try reflexivity; lia.
  - (* VerifyCommit: height != commit.GetHeight() *)
    exact ZofN_neqb.
  - (* updateTotalVotingPower: the fold of safeAddClip from the constant the source assigns *)
    intros vals Hf. apply src_total_power_fold; [unfold in_range; lia|exact Hf].
  - intros b. unfold bid_is_zero, types__BlockID_IsZero__ret_blockID_Hash_IsZero_and_blockID_PartsHeader_IsZero,
      types__PartSetHeader_IsZero__ret_psh_Total_eq_0_and_psh_Hash_IsZero.
    change 0 with (Z.of_N 0) at 1. rewrite ZofN_eqb. reflexivity.
  - intros b. unfold bid_is_complete, types__BlockID_IsComplete__ret_not_blockID_Hash_IsZero_and_not_blockID_PartsHeader_IsZero,
      types__PartSetHeader_IsZero__ret_psh_Total_eq_0_and_psh_Hash_IsZero.
    change 0 with (Z.of_N 0) at 1. rewrite ZofN_eqb. reflexivity.
  - intros a b. unfold bid_eqb, types__BlockID_Equal__ret_blockID_Hash_Equal_other_Hash_and_blockID_PartsHeader_Equals_d815eb38,
      types__PartSetHeader_Equals__ret_psh_Total_eq_other_Total_and_common_Hash_Equal_psh_Hash_other_Hash.
    rewrite ZofN_eqb, andb_assoc. reflexivity.
  - (* NewHeightVoteSet starts at round 1 *)
    intros chain h vals s. unfold hvs_new.
    destruct (hvs_add_round _ 1) as [s0|]; [|discriminate]. intros E; injection E as <-. reflexivity.
  - (* SetRound: newRound is hvs.round - 1 in uint32 (0 wraps to MaxUint32) *)
    intros r Hr. unfold pred32, consensus_types__HeightVoteSet_SetRound__set_newRound, go_sub, wrap, U32MAX.
    destruct (N.eqb_spec r 0) as [->|Hne]; [reflexivity|].
    rewrite Z.mod_small by lia. lia.
  - intros hr r nr. unfold consensus_types__HeightVoteSet_SetRound__if_hvs_round_ne_1_and_round_lt_newRound.
    change 1 with (Z.of_N 1). rewrite ZofN_neqb. f_equal.
    destruct (Z.ltb_spec (Z.of_N r) (Z.of_N nr)); destruct (N.ltb_spec r nr); try reflexivity; lia.
  - (* the loop [for r := newRound; r <= round; r++] runs exactly the model's count of iterations *)
    intros nr round k.
    unfold consensus_types__HeightVoteSet_SetRound__for_r_le_round, consensus_types__HeightVoteSet_SetRound__forinit_r.
    rewrite Z.leb_le. lia.
  - intros r Hr. unfold consensus_types__HeightVoteSet_SetRound__set_r_op, go_add, wrap.
    rewrite Z.mod_small by lia. lia.
  - (* SetRound stores round in hvs.round *)
    reflexivity.
  - (* a peer may open a round through AddVote while it has opened fewer than two *)
    intros l. unfold consensus_types__HeightVoteSet_AddVote__if_len_rndz_lt_2.
    destruct (Z.ltb_spec (Z.of_nat (List.length l)) 2); destruct (Nat.ltb_spec (List.length l) 2); try reflexivity; lia.
  - (* POLInfo scans r = hvs.round, hvs.round-1, ..., 1: [pol_scan] is that loop, one unfolding per iteration *)
    intros s k. unfold consensus_types__HeightVoteSet_POLInfo__for_r_ge_1. rewrite Z.geb_leb.
    destruct k; [reflexivity|]. destruct (Z.leb_spec 1 (Z.of_nat (S k))); [reflexivity|lia].
  - intros k Hk. unfold consensus_types__HeightVoteSet_POLInfo__set_r_op, go_sub, wrap.
    rewrite Z.mod_small by lia. lia.
  - (* POLInfo: r starts at hvs.round *)
    reflexivity.
Qed.

Definition C02_source_tie_statement : Prop :=
  (forall a b, in_range I64 a -> in_range I64 b -> types__safeAddClip a b = safe_add_clip a b)
  /\ (forall a b, in_range I64 a -> in_range I64 b -> types__safeSubClip a b = safe_sub_clip a b)
  /\ types__MaxTotalVotingPower = max_total_voting_power
  /\ (forall vals, quorum vals = types__VoteSet_addVerifiedVote__set_quorum (total_power vals))
  /\ (forall orig q s, types__VoteSet_addVerifiedVote__if_origSum_lt_quorum_and_quorum_le_votesByBlock_sum orig q s = (Z.ltb orig q && Z.leb q s)%bool)
  /\ (forall s p, types__VoteSet_addVerifiedVote__set_sum_op s p = wrap64 (s + p))
  /\ (forall vs, has_two_thirds_any vs = types__VoteSet_HasTwoThirdsAny__ret_voteSet_sum_gt_voteSet_valSet_TotalVotingPower_mul_2_div_3 (vs_sum vs) (total_power (vs_vals vs)))
  /\ (forall vs, has_all vs = types__VoteSet_HasAll__ret_voteSet_sum_eq_voteSet_valSet_TotalVotingPower (vs_sum vs) (total_power (vs_vals vs)))
  /\ (forall c pm, types__VoteSet_addVerifiedVote__if_conflicting_ne_nil_and_not_votesByBlock_peerMaj23 c pm = (c && negb pm)%bool)
  /\ (forall vals, two_thirds vals = types__ValidatorSet_VerifyCommit__set_votingPowerNeeded (total_power vals))
  /\ (forall acc p, types__ValidatorSet_VerifyCommit__set_talliedVotingPower_op acc p = wrap64 (acc + p))
  /\ (forall got needed, types__ValidatorSet_VerifyCommit__if_got_le_needed got needed = Z.leb got needed)
  /\ (forall s, types__ValidatorSet_updateTotalVotingPower__if_sum_gt_MaxTotalVotingPower s = Z.ltb max_total_voting_power s)
  /\ (types__VoteSet_addVerifiedVote__set_quorum_atoms = ["voteSet.valSet.TotalVotingPower() : int64"]%string
      /\ types__VoteSet_addVerifiedVote__if_origSum_lt_quorum_and_quorum_le_votesByBlock_sum_atoms = ["origSum : int64"; "quorum : int64"; "votesByBlock.sum : int64"]%string
      /\ types__VoteSet_HasTwoThirdsAny__ret_voteSet_sum_gt_voteSet_valSet_TotalVotingPower_mul_2_div_3_atoms = ["voteSet.sum : int64"; "voteSet.valSet.TotalVotingPower() : int64"]%string
      /\ types__ValidatorSet_VerifyCommit__set_votingPowerNeeded_atoms = ["vs.TotalVotingPower() : int64"]%string
      /\ types__ValidatorSet_VerifyCommit__if_got_le_needed_atoms = ["got : int64"; "needed : int64"]%string)
  /\ C02_source_tie2_statement.


Lemma C02_source_tie_proof : C02_source_tie_statement.
Proof.
  unfold C02_source_tie_statement. split_all.
  - exact src_safeAddClip.
  - exact src_safeSubClip.
  - (* MaxTotalVotingPower *)
    reflexivity.
  - (* the model's [quorum] is the source expression *)
    reflexivity.
  - (* the quorum-crossing test *)
    reflexivity.
  - (* voteSet.sum += votingPower in int64 *)
    reflexivity.
  - intros vs. unfold has_two_thirds_any, types__VoteSet_HasTwoThirdsAny__ret_voteSet_sum_gt_voteSet_valSet_TotalVotingPower_mul_2_div_3.
    rewrite Z.gtb_ltb. reflexivity.
  - (* HasAll *)
    reflexivity.
  - (* a conflicting vote without a peer claim is dropped: [conflicting != nil && !peerMaj23] *)
    reflexivity.
  - (* VerifyCommit: votingPowerNeeded; talliedVotingPower += val.VotingPower in int64 *)
    reflexivity.
  - reflexivity.
  - (* "not enough power" is [got <= needed]: strictly more than two thirds is required *)
    reflexivity.
  - (* the cap panic of updateTotalVotingPower is [sum > MaxTotalVotingPower] *)
    intros s. unfold types__ValidatorSet_updateTotalVotingPower__if_sum_gt_MaxTotalVotingPower. rewrite Z.gtb_ltb. reflexivity.
  - (* the Go operands of the arithmetic above *)
    split_all; [exact src_quorum_atoms|exact src_crossed_atoms|exact src_two_thirds_any_atoms|exact src_needed_atoms|exact src_enough_atoms].
  - exact C02_source_tie2_proof.
Qed.
