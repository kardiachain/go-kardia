(** C02 — non-vacuity: a concrete 4-validator history (conflicting votes, a peer-claimed
    majority, a bad signature, a nil vote, a quorum) that satisfies the hypotheses of the
    soundness, completeness and round-trip theorems; everything is evaluated by the kernel. *)
From Coq Require Import List ZArith NArith Bool Lia.
From Kardia Require Import C02.Model C02.Proofs C02.ProofsLists C02.ProofsVoteSet Generated.C02Facts.
Import ListNotations.
Local Open Scope Z_scope.

Definition ex_chain : N := 7%N.
Definition ex_h : N := 5%N.
Definition ex_r : N := 1%N.

Definition ex_vals : list validator :=
  [ {| val_addr := 11; val_power := 35 |}; {| val_addr := 12; val_power := 10 |};
    {| val_addr := 13; val_power := 35 |}; {| val_addr := 14; val_power := 20 |} ].

Definition ex_B : blockid := {| b_hash := 100; b_total := 1; b_phash := 200 |}.
(** same hash and parts hash as [ex_B], different part-set total *)
Definition ex_C : blockid := {| b_hash := 100; b_total := 2; b_phash := 200 |}.

(** a precommit of validator [i] (address [addr]) for [b], signed by [signer]; [sid] is the
    identity of the signature bytes *)
Definition ex_vote (i addr signer : N) (b : blockid) (sid : N) : vote :=
  {| v_idx := i; v_addr := addr; v_height := ex_h; v_round := ex_r; v_type := PRECOMMIT; v_time := 1000 + sid;
     v_bid := b;
     v_sig := {| s_id := sid; s_empty := false; s_signer := signer; s_chain := ex_chain; s_type := PRECOMMIT;
                 s_height := ex_h; s_round := ex_r; s_bid := b; s_time := 1000 + sid |} |}.

Definition ex_ops : list op :=
  [ OpVote (ex_vote 0 11 11 ex_B 1);          (* added *)
    OpVote (ex_vote 1 12 12 ex_C 2);          (* added: validator 1 votes for C first *)
    OpVote (ex_vote 1 12 12 ex_B 3);          (* conflicting, nobody claims B: not added *)
    OpPeer 1 ex_B;                            (* a peer claims +2/3 for B *)
    OpVote (ex_vote 1 12 12 ex_B 3);          (* conflicting, now tracked in B's entry *)
    OpVote (ex_vote 2 13 12 ex_B 4);          (* signed by the wrong key *)
    OpVote (ex_vote 3 14 14 bid_zero 5);      (* nil vote *)
    OpVote (ex_vote 0 11 11 ex_B 1);          (* duplicate *)
    OpVote (ex_vote 2 13 13 ex_B 6);          (* 35 + 10 + 35 = 80 >= 67: quorum for B *)
    OpVote (ex_vote 3 14 14 ex_C 7);          (* conflicting after the quorum: not added *)
    OpMakeCommit ].

Definition ex_init : voteset := new_voteset ex_chain ex_h ex_r PRECOMMIT ex_vals.
Definition ex_final : voteset := final ex_init ex_ops.

(* The theorems spell the reached state out.  Meeting a fact about [ex_final] with the spelled-out form
   by conversion makes the kernel run the history on both sides; rewriting with this equation does not. *)
Lemma ex_final_eq : final (new_voteset ex_chain ex_h ex_r PRECOMMIT ex_vals) ex_ops = ex_final.
Proof. unfold ex_final, ex_init. reflexivity. Qed.

(** the history is run once: the reached state and the observations, in normal form *)
Definition ex_run_value : voteset * list obs := Eval vm_compute in run ex_init ex_ops.

Lemma ex_run_eq : run ex_init ex_ops = ex_run_value.
Proof. vm_compute. reflexivity. Qed.

Lemma ex_final_value : ex_final = fst ex_run_value.
Proof. unfold ex_final, final. rewrite ex_run_eq. reflexivity. Qed.

Definition ob_err (o : obs) : option (bool * verr) :=
  match o with ObVote a e _ _ _ _ => Some (a, e) | _ => None end.

(** what the history does, step by step *)
Example ex_trace :
  map ob_err (snd (run ex_init ex_ops)) =
  [ Some (true, ENone); Some (true, ENone); Some (false, EConflict); None; Some (true, EConflict);
    Some (false, EInvalidSig); Some (true, ENone); Some (false, ENone); Some (true, ENone);
    Some (false, EConflict); None ].
Proof. rewrite ex_run_eq. reflexivity. Qed.

Example ex_wf : wf_vals ex_vals.
Proof.
  split.
  - repeat constructor; cbn; lia.
  - unfold max_total_voting_power. cbn. lia.
Qed.

Example ex_maj : vs_maj23 ex_final = Some ex_B.
Proof. rewrite ex_final_value. reflexivity. Qed.

Example ex_sum : vs_sum ex_final = 100 /\ has_two_thirds_any ex_final = true /\ has_all ex_final = true.
Proof. rewrite ex_final_value. vm_compute. auto. Qed.

(** the set A = {0, 2}: 70 of 100 *)
Definition ex_A : list bool := [true; false; true; false].

Example ex_A_quorum : 2 * sum_powers ex_vals < 3 * mask_power ex_vals ex_A.
Proof. vm_compute. reflexivity. Qed.

Example ex_A_first :
  forall i, nth i ex_A false = true ->
            exists v, first_valid ex_chain ex_h ex_r PRECOMMIT ex_vals ex_ops i = Some v /\ v_bid v = ex_B.
Proof.
  intros [|[|[|[|i]]]] H; try discriminate H.
  - eexists. split; vm_compute; reflexivity.
  - eexists. split; vm_compute; reflexivity.
  - destruct i; discriminate H.
Qed.

(** boolean versions of the two "for every offered vote" hypotheses *)
Definition wire_ok_b (ops : list op) : bool :=
  forallb (fun o => match o with
                    | OpVote v => bid_is_zero (v_bid v) || bid_is_complete (v_bid v)
                    | _ => true end) ops.

Lemma wire_ok_b_spec ops :
  wire_ok_b ops = true ->
  forall v, offered ops v -> bid_is_zero (v_bid v) = true \/ bid_is_complete (v_bid v) = true.
Proof.
  unfold wire_ok_b, offered. rewrite forallb_forall. intros H v Hin. specialize (H _ Hin).
  apply orb_true_iff in H. exact H.
Qed.

Definition exclusive_b chain ht rd ty vals (A : list bool) (b : blockid) (ops : list op) : bool :=
  forallb (fun o => match o with
                    | OpVote v => if nth (N.to_nat (v_idx v)) A false && valid_vote chain ht rd ty vals v
                                  then bid_eqb (v_bid v) b else true
                    | _ => true end) ops.

Lemma exclusive_b_spec chain ht rd ty vals A b ops :
  exclusive_b chain ht rd ty vals A b ops = true ->
  forall i v, nth i A false = true -> offered ops v -> N.to_nat (v_idx v) = i ->
              valid_vote chain ht rd ty vals v = true -> v_bid v = b.
Proof.
  unfold exclusive_b, offered. rewrite forallb_forall. intros H i v Hi Hin Hidx Hval. specialize (H _ Hin).
  cbn in H. rewrite Hidx, Hi, Hval in H. cbn [andb] in H. apply bid_eqb_eq. exact H.
Qed.

Example ex_wire :
  forall v, offered ex_ops v -> bid_is_zero (v_bid v) = true \/ bid_is_complete (v_bid v) = true.
Proof. apply wire_ok_b_spec. vm_compute. reflexivity. Qed.

Example ex_A_exclusive :
  forall i v, nth i ex_A false = true -> offered ex_ops v -> N.to_nat (v_idx v) = i ->
              valid_vote ex_chain ex_h ex_r PRECOMMIT ex_vals v = true -> v_bid v = ex_B.
Proof. apply exclusive_b_spec. vm_compute. reflexivity. Qed.

(** the hypotheses of the completeness theorem hold together on this history ... *)
Example ex_complete_applies : vs_maj23 ex_final = Some ex_B.
Proof.
  exact (complete_exact ex_chain ex_h ex_r PRECOMMIT ex_vals ex_wf ex_ops ex_A ex_B
                        ex_A_quorum ex_A_first ex_A_exclusive).
Qed.

(** ... and so do those of the round-trip theorem; the commit (three COMMIT signatures, one NIL)
    is also computed and verified directly *)
Example ex_roundtrip_applies :
  exists c, make_commit ex_final = Some c /\ verify_commit ex_vals ex_chain ex_B ex_h c = COk.
Proof.
  rewrite <- ex_final_eq.
  apply (commit_roundtrip ex_chain ex_h ex_r PRECOMMIT ex_vals ex_wf ex_ops ex_B);
    [reflexivity | exact ex_wire | rewrite ex_final_eq; exact ex_maj | reflexivity].
Qed.

Example ex_roundtrip_computed :
  match make_commit ex_final with
  | Some c => map cs_flag (c_sigs c) = [FLAG_COMMIT; FLAG_COMMIT; FLAG_COMMIT; FLAG_NIL] /\
              verify_commit ex_vals ex_chain ex_B ex_h c = COk /\
              verify_commit ex_vals ex_chain ex_C ex_h c = CBlockID
  | None => False
  end.
Proof. rewrite ex_final_value. vm_compute. auto. Qed.

(** the quorum witness of [maj23_sound] on this history: B's entry holds validators 0, 1, 2 *)
Example ex_witness :
  match bb_find ex_B (vs_byblock ex_final) with
  | Some bv => map is_some (bv_votes bv) = [true; true; true; false] /\ bv_sum bv = 80
  | None => False
  end.
Proof. rewrite ex_final_value. vm_compute. auto. Qed.

(** all hypotheses of the completeness and round-trip theorems hold together on one history
    that also contains a rejected and an admitted conflicting vote *)
Lemma hypotheses_satisfiable :
  exists chain ht rd vals ops A b,
    wf_vals vals /\
    2 * sum_powers vals < 3 * mask_power vals A /\
    (forall i, nth i A false = true ->
               exists v, first_valid chain ht rd PRECOMMIT vals ops i = Some v /\ v_bid v = b) /\
    (forall i v, nth i A false = true -> offered ops v -> N.to_nat (v_idx v) = i ->
                 valid_vote chain ht rd PRECOMMIT vals v = true -> v_bid v = b) /\
    (forall v, offered ops v -> bid_is_zero (v_bid v) = true \/ bid_is_complete (v_bid v) = true) /\
    bid_is_complete b = true /\
    vs_maj23 (final (new_voteset chain ht rd PRECOMMIT vals) ops) = Some b /\
    In (Some (true, EConflict)) (map ob_err (snd (run (new_voteset chain ht rd PRECOMMIT vals) ops))) /\
    In (Some (false, EConflict)) (map ob_err (snd (run (new_voteset chain ht rd PRECOMMIT vals) ops))).
Proof.
  exists ex_chain, ex_h, ex_r, ex_vals, ex_ops, ex_A, ex_B.
  rewrite ex_final_eq. fold ex_init. rewrite ex_trace.
  split; [exact ex_wf|]. split; [exact ex_A_quorum|]. split; [exact ex_A_first|].
  split; [exact ex_A_exclusive|]. split; [exact ex_wire|]. split; [reflexivity|].
  split; [exact ex_maj|]. cbn [In]. split; tauto.
Qed.
