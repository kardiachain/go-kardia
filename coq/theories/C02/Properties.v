(** C02 — property theorems only.  Each is closed by [exact] of a lemma proved in Proofs*.v (the
    last two: in SourceTie.v and SourceManifest.v) and followed by [Print Assumptions].

    Vocabulary (definitions in Proofs.v / ProofsLists.v / ProofsVoteSet.v):
    - [final (new_voteset chain h r ty vals) ops]: the vote set reached from a fresh
      VoteSet by an arbitrary history [ops] of AddVote / SetPeerMaj23 / MakeCommit /
      VerifyCommit calls;
    - [offered ops v]: [In (OpVote v) ops];
    - [stored_ok chain h r ty vals ops i v]: [v] was offered in [ops], carries validator index
      [i], the address of validator [i] of [vals], the vote set's height, round and type, and a
      signature that is valid for that validator over exactly the vote's content
      ([valid_vote_of]);
    - [voters_power vals w]: exact (unbounded) sum of the powers of the validators whose
      position holds a vote in the position-indexed list [w]; [mask_power vals A] the same for
      a boolean mask [A].  One summand per position: a validator counts at most once;
    - [valid_vote ... v]: [v] passes the checks of addVote that do not depend on earlier votes
      (non-empty address, step, index in range, address of that index, signature);
      [first_valid ... ops i]: the first vote of [ops] with index [i] that does. *)
From Coq Require Import List ZArith NArith Bool.
From Kardia Require Import Base.Int64 C02.Model C02.ModelExt C02.Proofs C02.ProofsLists C02.ProofsVoteSet
     C02.ProofsExamples C02.ProofsExt C02.ProofsCtv Generated.C02Facts.
Local Open Scope Z_scope.

(** "+2/3" is strict: the integer quorum the code computes is reached exactly when the
    power is strictly more than two thirds of the total, for every total. *)
Theorem C02_quorum_is_strict_two_thirds :
  forall T s, 0 <= T -> (T * 2 / 3 + 1 <= s <-> 2 * T < 3 * s).
Proof. exact quorum_arith. Qed.
Print Assumptions C02_quorum_is_strict_two_thirds.

Theorem C02_any_is_strict_two_thirds :
  forall T s, 0 <= T -> (T * 2 / 3 < s <-> 2 * T < 3 * s).
Proof. exact any_arith. Qed.
Print Assumptions C02_any_is_strict_two_thirds.

(** the int64 quorum computation never wraps for validator sets below the cap that the
    code itself enforces (value regenerated from the source on every run) *)
Theorem C02_quorum_no_overflow :
  forall vals, wf_vals vals -> quorum vals = sum_powers vals * 2 / 3 + 1.
Proof. exact quorum_exact. Qed.
Print Assumptions C02_quorum_no_overflow.

Theorem C02_block_key_injective : forall a b, key a = key b -> a = b.
Proof. exact key_injective. Qed.
Print Assumptions C02_block_key_injective.

Theorem C02_verify_commit_sound :
  forall vals chain want h c,
    wf_vals vals -> (1 <= h)%N ->
    verify_commit vals chain want h c = COk ->
    length (c_sigs c) = length vals /\ c_height c = h /\ c_bid c = want /\
    2 * sum_powers vals < 3 * signed_power chain h (c_round c) want vals (c_sigs c).
Proof. exact verify_commit_sound. Qed.
Print Assumptions C02_verify_commit_sound.

(** ... and every non-absent slot of an accepted commit names the validator of its position (the
    address is outside the sign bytes but weighs the slot's timestamp in the block-time median). *)
Theorem C02_verify_commit_addresses :
  forall vals chain want h c,
    verify_commit vals chain want h c = COk ->
    forall i val cs, nth_error vals i = Some val -> nth_error (c_sigs c) i = Some cs ->
      N.eqb (cs_flag cs) FLAG_ABSENT = false -> cs_addr cs = val_addr val.
Proof. exact verify_commit_addresses. Qed.
Print Assumptions C02_verify_commit_addresses.

(** Each validator's power is counted at most once whatever it sends: in every reachable vote
    set, [sum] is the exact total of the powers of the positions that hold a vote, every
    per-block sum is the exact total of the positions of that block's entry, no int64 addition
    wrapped, and every stored vote is an offered, valid vote of that position (for the entry of
    block [b]: a vote for exactly [b]). *)
Theorem C02_counted_once :
  forall chain h r ty vals, wf_vals vals -> forall ops,
    let s := final (new_voteset chain h r ty vals) ops in
    length (vs_votes s) = length vals /\
    vs_sum s = voters_power vals (vs_votes s) /\ 0 <= vs_sum s <= sum_powers vals /\
    (forall i v, vote_at (vs_votes s) i = Some v -> stored_ok chain h r ty vals ops i v) /\
    forall b bv, bb_find b (vs_byblock s) = Some bv ->
      length (bv_votes bv) = length vals /\
      bv_sum bv = voters_power vals (bv_votes bv) /\ 0 <= bv_sum bv <= sum_powers vals /\
      forall i v, vote_at (bv_votes bv) i = Some v -> stored_ok chain h r ty vals ops i v /\ v_bid v = b.
Proof. exact counted_once. Qed.
Print Assumptions C02_counted_once.

(** HasTwoThirdsAny: distinct validators with offered, valid votes hold strictly more than 2/3 *)
Theorem C02_any_sound :
  forall chain h r ty vals, wf_vals vals -> forall ops,
    let s := final (new_voteset chain h r ty vals) ops in
    has_two_thirds_any s = true ->
    (forall i v, vote_at (vs_votes s) i = Some v -> stored_ok chain h r ty vals ops i v) /\
    2 * sum_powers vals < 3 * voters_power vals (vs_votes s).
Proof. exact any_sound. Qed.
Print Assumptions C02_any_sound.

(** HasAll: the validators with offered, valid votes hold the whole power *)
Theorem C02_hasall_sound :
  forall chain h r ty vals, wf_vals vals -> forall ops,
    let s := final (new_voteset chain h r ty vals) ops in
    has_all s = true ->
    (forall i v, vote_at (vs_votes s) i = Some v -> stored_ok chain h r ty vals ops i v) /\
    voters_power vals (vs_votes s) = sum_powers vals.
Proof. exact hasall_sound. Qed.
Print Assumptions C02_hasall_sound.

(** A vote rejected with any error other than a conflict, and a duplicate, leave the vote set
    exactly as it was (any state, reachable or not). *)
Theorem C02_rejected_unchanged :
  forall vs v vs' added e,
    add_vote vs v = (vs', added, e) -> e <> EConflict -> (e <> ENone \/ added = false) ->
    vs' = vs /\ added = false.
Proof. exact rejected_unchanged. Qed.
Print Assumptions C02_rejected_unchanged.

(** TwoThirdsMajority = b only if the stored entry of [b] holds, at distinct validator
    positions, offered votes with that index and address, this height, round and type, a valid
    signature, block id exactly [b], whose exact total power is strictly more than 2/3. *)
Theorem C02_maj23_sound :
  forall chain h r ty vals, wf_vals vals -> forall ops b,
    let s := final (new_voteset chain h r ty vals) ops in
    vs_maj23 s = Some b ->
    exists bv, bb_find b (vs_byblock s) = Some bv /\
      length (bv_votes bv) = length vals /\
      (forall i v, vote_at (bv_votes bv) i = Some v -> stored_ok chain h r ty vals ops i v /\ v_bid v = b) /\
      2 * sum_powers vals < 3 * voters_power vals (bv_votes bv).
Proof. exact maj23_sound. Qed.
Print Assumptions C02_maj23_sound.

(** For precommits, when every offered vote has a zero or complete block id (what
    Vote.ValidateBasic enforces on the wire) and the majority block id is complete, MakeCommit
    does not panic and VerifyCommit with the same validator set accepts its result (at any
    height, including 0). *)
Theorem C02_commit_roundtrip :
  forall chain h r ty vals, wf_vals vals -> forall ops b,
    let s := final (new_voteset chain h r ty vals) ops in
    ty = PRECOMMIT ->
    (forall v, offered ops v -> bid_is_zero (v_bid v) = true \/ bid_is_complete (v_bid v) = true) ->
    vs_maj23 s = Some b -> bid_is_complete b = true ->
    exists c, make_commit s = Some c /\ verify_commit vals chain b h c = COk.
Proof. exact commit_roundtrip. Qed.
Print Assumptions C02_commit_roundtrip.

(** Completeness: if the validators of a set [A] holding strictly more than 2/3 each have, as
    the first of their votes passing the stateless checks, a vote for [b], then a majority is
    reported, whatever else is in the history. *)
Theorem C02_complete :
  forall chain h r ty vals, wf_vals vals -> forall ops A b,
    let s := final (new_voteset chain h r ty vals) ops in
    2 * sum_powers vals < 3 * mask_power vals A ->
    (forall i, nth i A false = true ->
               exists v, first_valid chain h r ty vals ops i = Some v /\ v_bid v = b) ->
    vs_maj23 s <> None.
Proof. exact complete. Qed.
Print Assumptions C02_complete.

(** ... and it is [b] when the members of [A] offer no valid vote for another id (everybody
    else may equivocate and peers may claim anything) ... *)
Theorem C02_complete_exact :
  forall chain h r ty vals, wf_vals vals -> forall ops A b,
    let s := final (new_voteset chain h r ty vals) ops in
    2 * sum_powers vals < 3 * mask_power vals A ->
    (forall i, nth i A false = true ->
               exists v, first_valid chain h r ty vals ops i = Some v /\ v_bid v = b) ->
    (forall i v, nth i A false = true -> offered ops v -> N.to_nat (v_idx v) = i ->
                 valid_vote chain h r ty vals v = true -> v_bid v = b) ->
    vs_maj23 s = Some b.
Proof. exact complete_exact. Qed.
Print Assumptions C02_complete_exact.

(** ... or when no validator's first valid vote is for another id (later equivocation by
    anybody, admitted through peer claims, cannot overtake [b]). *)
Theorem C02_complete_all_first :
  forall chain h r ty vals, wf_vals vals -> forall ops A b,
    let s := final (new_voteset chain h r ty vals) ops in
    2 * sum_powers vals < 3 * mask_power vals A ->
    (forall i, nth i A false = true ->
               exists v, first_valid chain h r ty vals ops i = Some v /\ v_bid v = b) ->
    (forall i v, first_valid chain h r ty vals ops i = Some v -> v_bid v = b) ->
    vs_maj23 s = Some b.
Proof. exact complete_all_first. Qed.
Print Assumptions C02_complete_all_first.

(** Non-vacuity: one concrete 4-validator history (ProofsExamples.v) satisfies all the
    hypotheses above at once and contains a rejected and an admitted conflicting vote. *)
Theorem C02_hypotheses_satisfiable :
  exists chain h r vals ops A b,
    wf_vals vals /\
    2 * sum_powers vals < 3 * mask_power vals A /\
    (forall i, nth i A false = true ->
               exists v, first_valid chain h r PRECOMMIT vals ops i = Some v /\ v_bid v = b) /\
    (forall i v, nth i A false = true -> offered ops v -> N.to_nat (v_idx v) = i ->
                 valid_vote chain h r PRECOMMIT vals v = true -> v_bid v = b) /\
    (forall v, offered ops v -> bid_is_zero (v_bid v) = true \/ bid_is_complete (v_bid v) = true) /\
    bid_is_complete b = true /\
    vs_maj23 (final (new_voteset chain h r PRECOMMIT vals) ops) = Some b /\
    In (Some (true, EConflict)) (map ob_err (snd (run (new_voteset chain h r PRECOMMIT vals) ops))) /\
    In (Some (false, EConflict)) (map ob_err (snd (run (new_voteset chain h r PRECOMMIT vals) ops))).
Proof. exact hypotheses_satisfiable. Qed.
Print Assumptions C02_hypotheses_satisfiable.

(** The first reported majority is final: whatever is added afterwards (conflicting votes admitted through
    peer claims, a second quorum for another id), TwoThirdsMajority keeps reporting it (any state). *)
Theorem C02_maj23_stable :
  forall s ops m, vs_maj23 s = Some m -> vs_maj23 (final s ops) = Some m.
Proof. exact maj23_stable. Qed.
Print Assumptions C02_maj23_stable.

(** CommitToVoteSet is the inverse of MakeCommit: for a reachable precommit vote set (height >= 1) with
    wire-valid votes and a complete majority id, rebuilding a vote set from MakeCommit's output does not
    panic, reports the same majority, and MakeCommit of it gives the same commit back. *)
Theorem C02_commit_to_voteset_inverse :
  forall chain ht rd vals, wf_vals vals -> forall ops b,
    let s := final (new_voteset chain ht rd PRECOMMIT vals) ops in
    (forall v, offered ops v -> bid_is_zero (v_bid v) = true \/ bid_is_complete (v_bid v) = true) ->
    vs_maj23 s = Some b -> bid_is_complete b = true -> ht <> 0%N ->
    exists c s2, make_commit s = Some c /\ commit_to_voteset chain c vals = Some s2 /\
                 vs_maj23 s2 = Some b /\ make_commit s2 = Some c.
Proof. exact commit_to_voteset_inverse. Qed.
Print Assumptions C02_commit_to_voteset_inverse.

(** Vote.ValidateBasic (what the reactor enforces on receipt) gives the wire-validity hypothesis used above;
    Vote.Verify accepts exactly the votes naming the given address and carrying its valid signature. *)
Theorem C02_validate_basic_wire :
  forall v, vote_validate_basic v = true ->
    (bid_is_zero (v_bid v) = true \/ bid_is_complete (v_bid v) = true) /\ s_empty (v_sig v) = false /\
    (v_type v = PREVOTE \/ v_type v = PRECOMMIT).
Proof. exact validate_basic_wire. Qed.
Print Assumptions C02_validate_basic_wire.

Theorem C02_vote_verify_ok :
  forall chain addr v, vote_verify chain addr v = VVOk <-> v_addr v = addr /\ vote_sig_valid chain addr v = true.
Proof. exact vote_verify_ok. Qed.
Print Assumptions C02_vote_verify_ok.

(** VerifyCommit as the code has it (nil commit = error; a slot with an unknown BlockIDFlag panics in
    CommitSig.BlockID): on every commit whose slots ValidateBasic examined (height >= 1) there is no panic
    and the answer is [verify_commit]'s; and whenever it answers ok, so does [verify_commit] — hence
    C02_verify_commit_sound / _addresses hold for the extended function at every height. *)
Theorem C02_verify_commit_x_validated :
  forall vals chain want h c, (1 <= c_height c)%N ->
    verify_commit_x vals chain want h (Some c) = XErr (verify_commit vals chain want h c).
Proof. exact verify_commit_x_validated. Qed.
Print Assumptions C02_verify_commit_x_validated.

Theorem C02_verify_commit_x_ok :
  forall vals chain want h c,
    verify_commit_x vals chain want h (Some c) = XErr COk -> verify_commit vals chain want h c = COk.
Proof. exact verify_commit_x_ok. Qed.
Print Assumptions C02_verify_commit_x_ok.

(** HeightVoteSet (consensus/types/height_vote_set.go).  [hvs_run s0 hops = Some s]: [s] is reached from
    NewHeightVoteSet by the calls [hops] (SetRound / AddVote by any peer / SetPeerMaj23), none of which
    panicked; [offered_h hops v]: [v] was passed to AddVote by some peer.
    Every per-round vote set is a reachable VoteSet of that height, round and type whose history consists
    of votes offered to the HeightVoteSet, so every vote-set theorem above applies to it. *)
Theorem C02_hvs_sets_reachable :
  forall chain ht vals s0 hops s r ty vs,
    hvs_new chain ht vals = Some s0 -> hvs_run s0 hops = Some s ->
    type_valid ty = true -> get_vs s r ty = Some vs ->
    exists ops, vs = final (new_voteset chain ht r ty vals) ops /\
                forall v, In (OpVote v) ops -> offered_h hops v.
Proof. exact hvs_sets_reachable. Qed.
Print Assumptions C02_hvs_sets_reachable.

(** POLInfo is sound: the round it names lies in 1..hvs.round and distinct validators (one list position
    each) holding strictly more than 2/3 of the power sent valid prevotes of this height and exactly that
    round, offered to this HeightVoteSet, for exactly that block id. *)
Theorem C02_hvs_pol_sound :
  forall chain ht vals, wf_vals vals -> forall s0 hops s r b,
    hvs_new chain ht vals = Some s0 -> hvs_run s0 hops = Some s ->
    pol_info s = (r, b) -> r <> 0%N ->
    (1 <= r <= h_round s)%N /\
    exists w : list (option vote),
      length w = length vals /\
      (forall i v, vote_at w i = Some v ->
         offered_h hops v /\ valid_vote_of chain ht r PREVOTE vals i v /\ v_bid v = b) /\
      2 * sum_powers vals < 3 * voters_power vals w.
Proof. exact pol_sound. Qed.
Print Assumptions C02_hvs_pol_sound.

(** ... and it names the LATEST such round: no later round up to hvs.round has a prevote majority (any
    state); with no round named, the block id is the zero id. *)
Theorem C02_hvs_pol_latest :
  forall s r b, pol_info s = (r, b) ->
    forall r', (r < r' <= h_round s)%N -> forall vs, get_vs s r' PREVOTE = Some vs -> vs_maj23 vs = None.
Proof. exact pol_latest. Qed.
Print Assumptions C02_hvs_pol_latest.

Theorem C02_hvs_pol_none_zero : forall s b, pol_info s = (0%N, b) -> b = bid_zero.
Proof. exact pol_none_zero. Qed.
Print Assumptions C02_hvs_pol_none_zero.

(** Catch-up rounds are bounded: no peer's list of opened rounds exceeds two; every open round is round 1,
    at most a round the node itself passed to SetRound, or in some peer's list; all of 1..hvs.round exist. *)
Theorem C02_hvs_catchup_bounded :
  forall chain ht vals s0 hops s,
    hvs_new chain ht vals = Some s0 -> hvs_run s0 hops = Some s ->
    (forall p, (length (cu_find p (h_catchup s)) <= 2)%nat) /\
    (forall r, rs_find r (h_sets s) <> None ->
       r = 1%N \/ (exists r0, In (HSetRound r0) hops /\ (r <= r0)%N) \/ exists p, In r (cu_find p (h_catchup s))) /\
    (forall k, (1 <= k <= h_round s)%N -> rs_find k (h_sets s) <> None).
Proof. exact catchup_bounded. Qed.
Print Assumptions C02_hvs_catchup_bounded.

(** Non-vacuity of the HeightVoteSet theorems: a 3-validator history with a catch-up round, a SetRound and
    a prevote majority in round 2; POLInfo names round 2 and a third catch-up round of the same peer is
    refused. *)
Theorem C02_hvs_hypotheses_satisfiable :
  exists s0 s, hvs_new 7 5 exh_vals = Some s0 /\ hvs_run s0 exh_ops = Some s /\
               pol_info s = (2%N, exh_B) /\ wf_vals exh_vals /\
               snd (hvs_add_vote s (exh_vote 0 11 8 5) 1) = HUnwanted.
Proof. exact hvs_example. Qed.
Print Assumptions C02_hvs_hypotheses_satisfiable.

(** Tie to the Go SOURCE (translator /verif/go2coq, regenerated from /repo on every check): the model's
    quorum arithmetic, running sums, quorum-crossing test, VerifyCommit threshold test, cap test and
    safeAddClip/safeSubClip are the expressions of types/vote_set.go and types/validator_set.go
    themselves, on the operands named there; second part: every single-atom condition (atom and polarity),
    field store, constant/call assignment and loop header of addVote, getVote, addVerifiedVote,
    SetPeerMaj23, MakeCommit, the accessors, Vote.CommitSig/Verify/ValidateBasic, CommitSig.*,
    Commit.ValidateBasic, CommitToVoteSet, VerifyCommit, GetByIndex, updateTotalVotingPower, BlockID /
    PartSetHeader and consensus/types.HeightVoteSet (statement spelled out in SourceTie.v). *)
From Kardia Require Import C02.SourceTie.
Theorem C02_source_tie : C02_source_tie_statement.
Proof. exact C02_source_tie_proof. Qed.
Print Assumptions C02_source_tie.

(** The decision-critical functions of the anchored code have exactly the decisions the source tie knows about
    (go2coq manifests, regenerated from /repo on every check; statement in SourceManifest.v). *)
From Kardia Require Import C02.SourceManifest.
Theorem C02_source_manifest : C02_source_manifest_statement.
Proof. exact C02_source_manifest_proof. Qed.
Print Assumptions C02_source_manifest.
