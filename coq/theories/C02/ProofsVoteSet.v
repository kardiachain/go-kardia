(** C02 — invariants of every reachable vote set (any history of votes, peer claims,
    MakeCommit and VerifyCommit calls applied to a fresh VoteSet) and the theorems that follow
    from them: rejected votes leave the state unchanged; counted-once, HasTwoThirdsAny / HasAll /
    TwoThirdsMajority soundness; VerifyCommit accepts what MakeCommit builds; completeness (a
    set of validators with more than 2/3 whose first valid votes are for [b] makes a majority
    reported, and it is [b] under either of two no-overtaking conditions). *)
From Coq Require Import List ZArith NArith Bool Lia Arith.
From Kardia Require Import Base.Int64 Base.ListX C02.Model C02.Proofs C02.ProofsLists.
Import ListNotations.
Local Open Scope Z_scope.
Ltac Zify.zify_post_hook ::= Z.div_mod_to_equations.

Ltac prj := cbn [with_votes vs_chain vs_height vs_round vs_type vs_vals vs_votes vs_sum vs_maj23
                 vs_byblock vs_peers bv_votes bv_sum bv_peermaj] in *.

(** * The entry of a block *)

Definition fresh_bv (n : nat) : blockvotes :=
  {| bv_peermaj := false; bv_votes := repeat None n; bv_sum := 0 |}.

(** what [votesByBlock, ok := voteSet.votesByBlock[key]; if !ok { newBlockVotes(false, n) }] yields: the
    entry of [b], an empty one while [b] is not tracked.  The invariants speak of every block id through it. *)
Definition entry_of (s : voteset) (b : blockid) : blockvotes :=
  match bb_find b (vs_byblock s) with Some bv => bv | None => fresh_bv (length (vs_vals s)) end.

Lemma entry_of_find s b bv : bb_find b (vs_byblock s) = Some bv -> entry_of s b = bv.
Proof. unfold entry_of. intros ->. reflexivity. Qed.

(** an entry with a positive sum is a stored one *)
Lemma entry_of_tracked s b : 0 < bv_sum (entry_of s b) -> bb_find b (vs_byblock s) = Some (entry_of s b).
Proof. unfold entry_of. destruct (bb_find b (vs_byblock s)); [reflexivity|]. cbn. lia. Qed.

Definition upd (s : voteset) votes maj bb : voteset :=
  {| vs_chain := vs_chain s; vs_height := vs_height s; vs_round := vs_round s; vs_type := vs_type s;
     vs_vals := vs_vals s; vs_votes := votes; vs_sum := vs_sum s; vs_maj23 := maj;
     vs_byblock := bb; vs_peers := vs_peers s |}.

Lemma entry_of_upd s votes maj b bv x :
  entry_of (upd s votes maj (bb_set b bv (vs_byblock s))) x = if key_eqb b x then bv else entry_of s x.
Proof. unfold entry_of, upd. prj. rewrite bb_find_set. destruct (key_eqb b x); reflexivity. Qed.

(** * addVerifiedVote in two phases *)

(** first half: voteSet.votes / voteSet.sum *)
Definition phase1 (vs : voteset) (v : vote) (i : nat) (power : Z) : voteset :=
  match vote_at (vs_votes vs) i with
  | Some _ => if maj_is vs (v_bid v) then with_votes vs (set_nth i (Some v) (vs_votes vs)) (vs_sum vs)
              else vs
  | None => with_votes vs (set_nth i (Some v) (vs_votes vs)) (wrap64 (vs_sum vs + power))
  end.

(** second half: the per-block entry and the quorum crossing *)
Definition proceed (vs1 : voteset) (v : vote) (i : nat) (power q : Z) (bv : blockvotes) : voteset :=
  let bv' := bv_add bv i v power in
  let crossed := Z.ltb (bv_sum bv) q && Z.leb q (bv_sum bv') in
  upd vs1
      (if crossed then match vs_maj23 vs1 with
                       | None => copy_over (bv_votes bv') (vs_votes vs1)
                       | Some _ => vs_votes vs1 end
       else vs_votes vs1)
      (if crossed then match vs_maj23 vs1 with None => Some (v_bid v) | Some m => Some m end
       else vs_maj23 vs1)
      (bb_set (v_bid v) bv' (vs_byblock vs1)).

Lemma phase1_bb vs v i p : vs_byblock (phase1 vs v i p) = vs_byblock vs.
Proof. unfold phase1. destruct (vote_at _ _); [destruct (maj_is _ _)|]; reflexivity. Qed.

Lemma phase1_vals vs v i p : vs_vals (phase1 vs v i p) = vs_vals vs.
Proof. unfold phase1. destruct (vote_at _ _); [destruct (maj_is _ _)|]; reflexivity. Qed.

Lemma phase1_maj vs v i p : vs_maj23 (phase1 vs v i p) = vs_maj23 vs.
Proof. unfold phase1. destruct (vote_at _ _); [destruct (maj_is _ _)|]; reflexivity. Qed.

Lemma entry_of_phase1 vs v i p b : entry_of (phase1 vs v i p) b = entry_of vs b.
Proof. unfold entry_of. rewrite phase1_bb, phase1_vals. reflexivity. Qed.

(** A conflicting vote is dropped unless a peer claimed a majority for its block; an untracked block has no
    claim, which the empty entry's [false] says.  Otherwise the vote goes to its block's entry. *)
Lemma add_verified_eq vs v i power :
  add_verified vs v i power =
  let vs1 := phase1 vs v i power in
  let c := is_some (vote_at (vs_votes vs) i) in
  let bv := entry_of vs1 (v_bid v) in
  if c && negb (bv_peermaj bv) then (vs1, false, c)
  else (proceed vs1 v i power (quorum (vs_vals vs)) bv, true, c).
Proof.
  unfold add_verified.
  change (match vote_at (vs_votes vs) i with
          | Some _ => if maj_is vs (v_bid v) then with_votes vs (set_nth i (Some v) (vs_votes vs)) (vs_sum vs) else vs
          | None => with_votes vs (set_nth i (Some v) (vs_votes vs)) (wrap64 (vs_sum vs + power))
          end) with (phase1 vs v i power).
  cbv zeta. unfold entry_of. pose proof (phase1_vals vs v i power) as Hv. revert Hv.
  (* from here on the intermediate state and the stored vote are variables *)
  generalize (phase1 vs v i power) as vs1. intros vs1 Hv. generalize (vote_at (vs_votes vs) i) as ex. intros ex.
  change (match ex with Some _ => true | None => false end) with (is_some ex).
  destruct (bb_find (v_bid v) (vs_byblock vs1)) as [bv|]; unfold proceed, upd, fresh_bv; cbv zeta; prj.
  - destruct (is_some ex && negb (bv_peermaj bv)); [reflexivity|].
    destruct (_ && _); [destruct (vs_maj23 vs1)|]; reflexivity.
  - rewrite Hv, andb_true_r. destruct (is_some ex); [reflexivity|].
    destruct (_ && _); [destruct (vs_maj23 vs1)|]; reflexivity.
Qed.

Lemma bv_add_mono bv i v p j :
  vote_at (bv_votes bv) j <> None -> vote_at (bv_votes (bv_add bv i v p)) j <> None.
Proof.
  unfold bv_add. destruct (vote_at (bv_votes bv) i) eqn:E; [auto|]. prj.
  intros H. destruct (Nat.eq_dec i j) as [->|Hne]; [congruence|]. rewrite vote_at_set_neq; auto.
Qed.

(** the two flags: [conflicting] says that the validator had a vote already; a vote that conflicts with
    nothing is added *)
Lemma add_verified_flags vs v i p s a c :
  add_verified vs v i p = (s, a, c) -> c = is_some (vote_at (vs_votes vs) i) /\ (c = false -> a = true).
Proof.
  rewrite add_verified_eq. cbv zeta.
  destruct (is_some (vote_at (vs_votes vs) i)); cbn [andb].
  - destruct (negb _); intros H; inversion H; split; congruence.
  - intros H; inversion H; auto.
Qed.

(** the per-block vote lists only grow *)
Lemma add_verified_entries_mono s v i p s' a c :
  add_verified s v i p = (s', a, c) ->
  forall b j, vote_at (bv_votes (entry_of s b)) j <> None -> vote_at (bv_votes (entry_of s' b)) j <> None.
Proof.
  rewrite add_verified_eq. cbv zeta. intros H b j Hj. rewrite <- (entry_of_phase1 s v i p) in Hj.
  destruct (_ && _); injection H as <- _ _; [exact Hj|].
  unfold proceed. rewrite entry_of_upd. destruct (key_eqb (v_bid v) b) eqn:Ek; [|exact Hj].
  apply key_eqb_eq in Ek. subst b. apply bv_add_mono. exact Hj.
Qed.

(** the majority, once set, never changes; and the step that sets it touches only that block's entry *)
Definition maj_kept (s s' : voteset) : Prop :=
  (forall m, vs_maj23 s = Some m -> vs_maj23 s' = Some m) /\
  (vs_maj23 s = None -> forall m, vs_maj23 s' = Some m -> forall x, x <> m -> entry_of s' x = entry_of s x).

Lemma maj_kept_same s s' : vs_maj23 s' = vs_maj23 s -> maj_kept s s'.
Proof. intros E. split; rewrite E; [auto|]. intros Hn m Hm. congruence. Qed.

Lemma add_verified_maj s v i p s' a c : add_verified s v i p = (s', a, c) -> maj_kept s s'.
Proof.
  rewrite add_verified_eq. cbv zeta.
  destruct (_ && _); intros H; injection H as <- _ _; [apply maj_kept_same, phase1_maj|].
  unfold maj_kept. rewrite <- (phase1_maj s v i p).
  unfold proceed at 1 2. unfold upd. prj. destruct (_ && _); [|split; [auto|intros Hn m Hm; congruence]].
  split; [intros m ->; reflexivity|]. intros -> m E x Hx. injection E as <-.
  unfold proceed. rewrite entry_of_upd, (proj2 (key_eqb_false (v_bid v) x)) by congruence.
  apply entry_of_phase1.
Qed.

(** SetPeerMaj23 changes at most the claim flag of one entry: every entry keeps its votes and its sum *)
Lemma set_peer_entries s p b s' e :
  set_peer_maj23 s p b = (s', e) ->
  vs_chain s' = vs_chain s /\ vs_height s' = vs_height s /\ vs_round s' = vs_round s /\ vs_type s' = vs_type s /\
  vs_vals s' = vs_vals s /\ vs_votes s' = vs_votes s /\ vs_sum s' = vs_sum s /\ vs_maj23 s' = vs_maj23 s /\
  forall x, bv_votes (entry_of s' x) = bv_votes (entry_of s x) /\ bv_sum (entry_of s' x) = bv_sum (entry_of s x).
Proof.
  unfold set_peer_maj23. destruct (peer_find p (vs_peers s)); intros H; injection H as <- _; [tauto|]. prj.
  repeat (split; [reflexivity|]). intros x. unfold entry_of at 1 3. prj.
  destruct (bb_find b (vs_byblock s)) as [bv|] eqn:Ef.
  - destruct (bv_peermaj bv); [fold (entry_of s x); tauto|].
    rewrite bb_find_set. destruct (key_eqb b x) eqn:Ek; [|fold (entry_of s x); tauto].
    apply key_eqb_eq in Ek. subst x. rewrite (entry_of_find _ _ _ Ef). tauto.
  - rewrite bb_find_set. destruct (key_eqb b x) eqn:Ek; [|fold (entry_of s x); tauto].
    apply key_eqb_eq in Ek. subst x. unfold entry_of. rewrite Ef. tauto.
Qed.

(** * The outcomes of addVote *)

(** the checks of addVote that do not depend on what was received before, against the vote set's own fields *)
Definition checks_of (vs : voteset) (v : vote) : bool :=
  negb (N.eqb (v_addr v) 0) &&
  (N.eqb (v_height v) (vs_height vs) && N.eqb (v_round v) (vs_round vs) && N.eqb (v_type v) (vs_type vs)) &&
  match nth_error (vs_vals vs) (N.to_nat (v_idx v)) with
  | Some val => N.eqb (v_addr v) (val_addr val) && vote_sig_valid (vs_chain vs) (val_addr val) v
  | None => false
  end.

(** addVote either leaves the vote set as it is, with an error other than a conflict or as a duplicate (the
    vote fails a check, or the validator already has this vote), or hands a checked, new vote to
    addVerifiedVote *)
Lemma add_vote_cases vs v vs' a e :
  add_vote vs v = (vs', a, e) ->
  let i := N.to_nat (v_idx v) in
  (vs' = vs /\ a = false /\ e <> EConflict /\ (checks_of vs v = false \/ get_vote vs i (v_bid v) <> None)) \/
  (exists val c, checks_of vs v = true /\ nth_error (vs_vals vs) i = Some val /\ get_vote vs i (v_bid v) = None /\
                 add_verified vs v i (val_power val) = (vs', a, c) /\ e = if c then EConflict else ENone).
Proof.
  unfold add_vote, checks_of. cbv zeta.
  assert (Hrej : forall e0, e0 <> EConflict -> (vs, false, e0) = (vs', a, e) ->
                            vs' = vs /\ a = false /\ e <> EConflict) by (intros e0 Hne H; inversion H; subst; auto).
  destruct (N.eqb (v_addr v) 0); cbn [negb andb]; [intros H; left; apply Hrej in H; [tauto|discriminate]|].
  destruct (_ && _ && _); cbn [negb andb]; [|intros H; left; apply Hrej in H; [tauto|discriminate]].
  destruct (nth_error (vs_vals vs) (N.to_nat (v_idx v))) as [val|]; [|intros H; left; apply Hrej in H; [tauto|discriminate]].
  destruct (N.eqb (v_addr v) (val_addr val)); cbn [negb andb]; [|intros H; left; apply Hrej in H; [tauto|discriminate]].
  destruct (get_vote vs (N.to_nat (v_idx v)) (v_bid v)) as [ex|].
  { assert (Hg : Some ex <> None) by discriminate.
    destruct (N.eqb _ _); intros H; left; apply Hrej in H; try discriminate; tauto. }
  destruct (vote_sig_valid (vs_chain vs) (val_addr val) v); cbn [negb]; [|intros H; left; apply Hrej in H; [tauto|discriminate]].
  destruct (add_verified vs v (N.to_nat (v_idx v)) (val_power val)) as [[s1 a1] c1] eqn:Eav.
  intros H; injection H as <- <- <-. right. exists val, c1. auto 6.
Qed.

(** * Rejected votes leave the vote set unchanged (no reachability needed) *)

Lemma rejected_unchanged vs v vs' added e :
  add_vote vs v = (vs', added, e) -> e <> EConflict -> (e <> ENone \/ added = false) ->
  vs' = vs /\ added = false.
Proof.
  intros H Hne Hor. apply add_vote_cases in H. cbv zeta in H.
  destruct H as [[-> [-> _]]|[val [c [_ [_ [_ [Hav ->]]]]]]]; [auto|].
  destruct c; [congruence|]. apply add_verified_flags in Hav. destruct Hav as [_ Ha]. destruct Hor; [congruence|].
  rewrite (Ha eq_refl) in *. discriminate.
Qed.

(** * The first majority stays *)

Lemma step_maj s o : maj_kept s (fst (step s o)).
Proof.
  destruct o as [v|p b| |want hh c]; cbn [step]; try (apply maj_kept_same; reflexivity).
  - destruct (add_vote s v) as [[s' a] e] eqn:E. cbn [fst]. apply add_vote_cases in E. cbv zeta in E.
    destruct E as [[-> _]|[val [c [_ [_ [_ [Hav _]]]]]]]; [apply maj_kept_same; reflexivity|].
    eapply add_verified_maj; eauto.
  - destruct (set_peer_maj23 s p b) as [s' e] eqn:E. apply maj_kept_same. apply (set_peer_entries _ _ _ _ _ E).
Qed.

(** * Histories *)

Lemma final_cons s o t : final s (o :: t) = final (fst (step s o)) t.
Proof.
  unfold final. cbn [run]. destruct (step s o) as [s1 ob]. cbn [fst]. destruct (run s1 t) as [s2 obs]. reflexivity.
Qed.

Lemma final_app s a b : final s (a ++ b) = final (final s a) b.
Proof.
  revert s. induction a as [|x t IH]; intros s; [reflexivity|].
  cbn [app]. rewrite !final_cons. apply IH.
Qed.

Lemma final_snoc s ops o : final s (ops ++ [o]) = fst (step (final s ops) o).
Proof. rewrite final_app. apply final_cons. Qed.

(** a property of (history so far, state) that every call preserves holds along any history *)
Lemma final_steps (P : list op -> voteset -> Prop) :
  (forall done s o, P done s -> P (done ++ [o]) (fst (step s o))) ->
  forall ops done s, P done s -> P (done ++ ops) (final s ops).
Proof.
  intros Hstep. induction ops as [|o t IH]; intros done s H.
  - rewrite app_nil_r. exact H.
  - rewrite final_cons. replace (done ++ o :: t) with ((done ++ [o]) ++ t) by (rewrite <- app_assoc; reflexivity).
    apply IH, Hstep, H.
Qed.

(** * Reachable vote sets *)

Section VoteSet.
Variables (chain ht rd ty : N) (vals : list validator).
Hypothesis Hwf : wf_vals vals.

(** the checks of addVote that do not depend on what was received before: non-empty address,
    step, index in range, address of that index, signature *)
Definition valid_vote (v : vote) : bool :=
  negb (N.eqb (v_addr v) 0) &&
  (N.eqb (v_height v) ht && N.eqb (v_round v) rd && N.eqb (v_type v) ty) &&
  match nth_error vals (N.to_nat (v_idx v)) with
  | Some val => N.eqb (v_addr v) (val_addr val) && vote_sig_valid chain (val_addr val) v
  | None => false
  end.

Definition offered (ops : list op) (v : vote) : Prop := In (OpVote v) ops.

(** the first vote in the history that carries index [i] and passes those checks *)
Fixpoint first_valid (ops : list op) (i : nat) : option vote :=
  match ops with
  | [] => None
  | OpVote v :: t => if Nat.eqb (N.to_nat (v_idx v)) i && valid_vote v then Some v else first_valid t i
  | _ :: t => first_valid t i
  end.

(** [valid_vote] is [checks_of] at the parameters of the fresh vote set ([checks_valid]); [good] is the boolean
    side of [stored_ok] below ([good_stored]), in which the checks are spelled out as [valid_vote_of] *)
Definition good (done : list op) (i : nat) (u : vote) : Prop :=
  offered done u /\ N.to_nat (v_idx u) = i /\ valid_vote u = true.

(** an entry's list has one slot per validator, its sum is the exact power of the slots it holds, and each vote in
    it is a good vote for [b] of a validator that also has a vote in [votes] (the canonical list): so a vote that
    getVote finds in an entry belongs to a validator with a canonical vote ([get_vote_some_votes]) *)
Definition entry_ok (done : list op) (votes : list (option vote)) (b : blockid) (bv : blockvotes) : Prop :=
  length (bv_votes bv) = length vals /\
  bv_sum bv = voters_power vals (bv_votes bv) /\
  forall i u, vote_at (bv_votes bv) i = Some u ->
              good done i u /\ v_bid u = b /\ vote_at votes i <> None.

(** The invariant of a vote set reached by the history [done].  [w_maj]: the entry of a reported majority has
    reached the quorum, and every validator in it has its CANONICAL vote for that id (the copy-over at the quorum
    crossing, and [maj_is] afterwards): that is what lets MakeCommit's slots carry the quorum
    ([commit_roundtrip]). *)
Record winv (done : list op) (s : voteset) : Prop := {
  w_chain : vs_chain s = chain;
  w_height : vs_height s = ht;
  w_round : vs_round s = rd;
  w_type : vs_type s = ty;
  w_vals : vs_vals s = vals;
  w_len : length (vs_votes s) = length vals;
  w_votes : forall i u, vote_at (vs_votes s) i = Some u -> good done i u;
  w_sum : vs_sum s = voters_power vals (vs_votes s);
  w_bb : forall b, entry_ok done (vs_votes s) b (entry_of s b);
  w_maj : forall m, vs_maj23 s = Some m ->
          quorum vals <= bv_sum (entry_of s m) /\
          forall i u, vote_at (bv_votes (entry_of s m)) i = Some u ->
                      exists u', vote_at (vs_votes s) i = Some u' /\ v_bid u' = m;
  w_nomaj : vs_maj23 s = None -> forall b, bv_sum (entry_of s b) < quorum vals }.

(** a validator's first valid vote is in the entry of its block *)
Definition finv (done : list op) (s : voteset) : Prop :=
  forall i u, first_valid done i = Some u -> vote_at (bv_votes (entry_of s (v_bid u))) i <> None.

Definition inv (done : list op) (s : voteset) : Prop := winv done s /\ finv done s.


Lemma Hnonneg : Forall (fun v => 0 <= val_power v) vals.
Proof. exact (proj1 Hwf). Qed.

Lemma no_wrap x : 0 <= x <= sum_powers vals -> wrap64 x = x.
Proof.
  intros H. destruct Hwf as [_ Hc]. pose proof cap_fits as [_ Hcap]. apply wrap64_id, nonneg_in_int64. lia.
Qed.

Lemma quorum_pos : 1 <= quorum vals.
Proof.
  rewrite quorum_exact by exact Hwf. pose proof (sum_powers_nonneg _ Hnonneg). lia.
Qed.

Lemma checks_valid done s v : winv done s -> checks_of s v = valid_vote v.
Proof.
  intros Hw. unfold checks_of, valid_vote.
  rewrite (w_chain _ _ Hw), (w_height _ _ Hw), (w_round _ _ Hw), (w_type _ _ Hw), (w_vals _ _ Hw). reflexivity.
Qed.


Lemma good_mono done done' i u :
  (forall x, offered done x -> offered done' x) -> good done i u -> good done' i u.
Proof. intros H [H1 H2]. split; auto. Qed.

Lemma offered_app_l done x u : offered done u -> offered (done ++ x) u.
Proof. unfold offered. intros. apply in_or_app. auto. Qed.

Lemma good_last done v : valid_vote v = true -> good (done ++ [OpVote v]) (N.to_nat (v_idx v)) v.
Proof. intros Hv. split; [|auto]. apply in_or_app. right. left. reflexivity. Qed.

Lemma entry_ok_mono done done' votes votes' b bv :
  (forall x, offered done x -> offered done' x) ->
  (forall j, vote_at votes j <> None -> vote_at votes' j <> None) ->
  entry_ok done votes b bv -> entry_ok done' votes' b bv.
Proof.
  intros Hd Hv [H1 [H2 H3]]. split; [auto|split; [auto|]].
  intros i u Hu. destruct (H3 i u Hu) as [Hg [Hb Hn]]. split; [eapply good_mono; eauto|split; auto].
Qed.

Lemma winv_mono done x s : winv done s -> winv (done ++ x) s.
Proof.
  intros [Hc Hh Hr Ht Hv Hl Hvo Hs Hb Hm Hn]. constructor; auto.
  - intros i u Hu. eapply good_mono; [|eauto]. intros; apply offered_app_l; auto.
  - intros b. eapply entry_ok_mono; [| |apply Hb]; auto. intros; apply offered_app_l; auto.
Qed.

Lemma entry_ok_fresh done votes b : entry_ok done votes b (fresh_bv (length vals)).
Proof.
  unfold entry_ok, fresh_bv. prj. split; [apply repeat_length|split].
  - rewrite voters_power_repeat_none. reflexivity.
  - intros i u Hu. rewrite vote_at_repeat_none in Hu. discriminate.
Qed.

Lemma entry_ok_add done votes b bv i v val :
  entry_ok done votes b bv -> good done i v -> v_bid v = b -> vote_at votes i <> None ->
  nth_error vals i = Some val ->
  let bv' := bv_add bv i v (val_power val) in
  entry_ok done votes b bv' /\ bv_sum bv <= bv_sum bv' /\
  (forall j u, vote_at (bv_votes bv') j = Some u -> vote_at (bv_votes bv) j = Some u \/ (j = i /\ u = v)).
Proof.
  intros [H1 [H2 H3]] Hg Hb Hn Hval. cbv zeta. unfold bv_add.
  destruct (vote_at (bv_votes bv) i) as [ex|] eqn:Eex.
  - split; [split; auto|split; [lia|auto]].
  - prj. assert (Hlt : (i < length (bv_votes bv))%nat).
    { rewrite H1. apply nth_error_Some. congruence. }
    pose proof (voters_power_bounds vals (set_nth i (Some v) (bv_votes bv)) Hnonneg) as Hbd.
    rewrite (voters_power_set_new vals _ i v val Hval Eex Hlt) in Hbd.
    pose proof (voters_power_bounds vals (bv_votes bv) Hnonneg) as Hbd0.
    assert (Hp : 0 <= val_power val).
    { pose proof Hnonneg as Hf. rewrite Forall_forall in Hf. apply Hf. eapply nth_error_In; eauto. }
    rewrite H2. rewrite no_wrap by lia.
    assert (Hpos : forall j u, vote_at (set_nth i (Some v) (bv_votes bv)) j = Some u ->
                               vote_at (bv_votes bv) j = Some u \/ (j = i /\ u = v)).
    { intros j u Hu. destruct (Nat.eq_dec i j) as [->|Hne].
      - rewrite vote_at_set_eq in Hu by auto. right. split; congruence.
      - rewrite vote_at_set_neq in Hu by auto. auto. }
    split; [|split; [lia|exact Hpos]].
    unfold entry_ok. prj. split; [rewrite set_nth_length; auto|split].
    + rewrite (voters_power_set_new vals _ i v val Hval Eex Hlt). reflexivity.
    + intros j u Hu. destruct (Hpos j u Hu) as [Ho|[-> ->]]; auto.
Qed.


Lemma winv_set_vote done s v i val sum' :
  winv done s -> N.to_nat (v_idx v) = i -> valid_vote v = true -> nth_error vals i = Some val ->
  ((vote_at (vs_votes s) i = None /\ sum' = wrap64 (vs_sum s + val_power val)) \/
   (exists ex, vote_at (vs_votes s) i = Some ex /\ sum' = vs_sum s /\ vs_maj23 s = Some (v_bid v))) ->
  winv (done ++ [OpVote v]) (with_votes s (set_nth i (Some v) (vs_votes s)) sum').
Proof.
  intros [Hc Hh Hr Ht Hv Hl Hvo Hs Hb Hm Hn] Hi Hval Hnth Hcase.
  assert (Hlt : (i < length (vs_votes s))%nat) by (rewrite Hl; apply nth_error_Some; congruence).
  assert (Hoff : forall x, offered done x -> offered (done ++ [OpVote v]) x)
    by (intros; apply offered_app_l; auto).
  assert (Hgv : good (done ++ [OpVote v]) i v) by (subst i; apply good_last; exact Hval).
  constructor; try assumption; prj.
  - rewrite set_nth_length. auto.
  - intros j u Hu. destruct (Nat.eq_dec i j) as [->|Hne].
    + rewrite vote_at_set_eq in Hu by auto. injection Hu as <-. auto.
    + rewrite vote_at_set_neq in Hu by auto. eapply good_mono; eauto.
  - destruct Hcase as [[Hnone ->]|[ex [Hex [-> _]]]].
    + rewrite (voters_power_set_new vals _ i v val Hnth Hnone Hlt).
      pose proof (voters_power_bounds vals (set_nth i (Some v) (vs_votes s)) Hnonneg) as Hbd.
      rewrite (voters_power_set_new vals _ i v val Hnth Hnone Hlt) in Hbd.
      rewrite Hs. apply no_wrap. lia.
    + rewrite (voters_power_set_same vals _ i v ex Hex). auto.
  - intros b. eapply entry_ok_mono; [exact Hoff| |apply Hb].
    intros j. apply set_vote_mono; auto.
  - intros m Hm'. destruct (Hm m Hm') as [Hq Hpos]. split; [exact Hq|].
    intros j u Hu. destruct (Hpos j u Hu) as [u' [Hu' Hbid]].
    destruct (Nat.eq_dec i j) as [->|Hne].
    + destruct Hcase as [[Hnone _]|[ex [_ [_ Hmaj]]]]; [congruence|].
      exists v. split; [apply vote_at_set_eq; auto|congruence].
    + exists u'. rewrite vote_at_set_neq by auto. auto.
Qed.

Lemma phase1_winv done s v i val :
  winv done s -> N.to_nat (v_idx v) = i -> valid_vote v = true -> nth_error vals i = Some val ->
  let s1 := phase1 s v i (val_power val) in
  winv (done ++ [OpVote v]) s1 /\
  vote_at (vs_votes s1) i <> None /\
  (vs_maj23 s = Some (v_bid v) \/ vote_at (vs_votes s) i = None -> vote_at (vs_votes s1) i = Some v).
Proof.
  intros Hw Hi Hval Hnth. cbv zeta.
  assert (Hlt : (i < length (vs_votes s))%nat).
  { rewrite (w_len _ _ Hw). apply nth_error_Some. congruence. }
  unfold phase1. destruct (vote_at (vs_votes s) i) as [ex|] eqn:Eex.
  - destruct (maj_is s (v_bid v)) eqn:Emaj.
    + apply maj_is_true in Emaj.
      split; [apply (winv_set_vote done s v i val); auto; right; exists ex; auto|].
      prj. rewrite vote_at_set_eq by auto. split; [discriminate|auto].
    + split; [apply winv_mono; auto|]. split; [congruence|].
      intros [Hm|Hn]; [|congruence]. unfold maj_is in Emaj. rewrite Hm, key_eqb_refl in Emaj. discriminate.
  - split; [apply (winv_set_vote done s v i val); auto|].
    prj. rewrite vote_at_set_eq by auto. split; [discriminate|auto].
Qed.


Lemma winv_upd_entry done s1 b bv' :
  winv done s1 -> entry_ok done (vs_votes s1) b bv' ->
  (vs_maj23 s1 = Some b ->
   quorum vals <= bv_sum bv' /\
   forall i u, vote_at (bv_votes bv') i = Some u ->
               exists u', vote_at (vs_votes s1) i = Some u' /\ v_bid u' = b) ->
  (vs_maj23 s1 = None -> bv_sum bv' < quorum vals) ->
  winv done (upd s1 (vs_votes s1) (vs_maj23 s1) (bb_set b bv' (vs_byblock s1))).
Proof.
  intros [Hc Hh Hr Ht Hv Hl Hvo Hs Hb Hm Hn] Hok Hmajb Hnone.
  constructor; try assumption.
  - intros x. rewrite entry_of_upd. destruct (key_eqb b x) eqn:Ek; [|apply Hb].
    apply key_eqb_eq in Ek. subst x. exact Hok.
  - intros m Hm'. rewrite entry_of_upd. destruct (key_eqb b m) eqn:Ek; [|apply Hm; exact Hm'].
    apply key_eqb_eq in Ek. subst m. apply Hmajb. exact Hm'.
  - intros Hnm x. rewrite entry_of_upd. destruct (key_eqb b x); [apply Hnone|apply Hn]; exact Hnm.
Qed.

Lemma winv_cross done s1 b bv' :
  winv done s1 -> entry_ok done (vs_votes s1) b bv' ->
  vs_maj23 s1 = None -> quorum vals <= bv_sum bv' ->
  winv done (upd s1 (copy_over (bv_votes bv') (vs_votes s1)) (Some b) (bb_set b bv' (vs_byblock s1))).
Proof.
  intros [Hc Hh Hr Ht Hv Hl Hvo Hs Hb Hm Hn] Hok Hnone Hq.
  pose proof Hok as [Hk1 [Hk2 Hk3]].
  assert (Hlen : length (bv_votes bv') = length (vs_votes s1)) by congruence.
  assert (Hsup : forall j, vote_at (vs_votes s1) j <> None ->
                           vote_at (copy_over (bv_votes bv') (vs_votes s1)) j <> None).
  { intros j Hj. rewrite vote_at_copy_over by auto. destruct (vote_at (bv_votes bv') j); [discriminate|auto]. }
  constructor; try assumption.
  - unfold upd. prj. rewrite copy_over_length. auto.
  - unfold upd. prj. intros j u. rewrite vote_at_copy_over by auto.
    destruct (vote_at (bv_votes bv') j) as [w|] eqn:Ew.
    + intros E; injection E as <-. apply (Hk3 j w Ew).
    + apply Hvo.
  - unfold upd. prj. rewrite Hs. apply voters_power_ext; [exact Hnonneg|]. intros j. split; [apply Hsup|].
    rewrite vote_at_copy_over by auto.
    destruct (vote_at (bv_votes bv') j) as [w|] eqn:Ew; [|auto].
    intros _. apply (Hk3 j w Ew).
  - intros x. rewrite entry_of_upd. apply (entry_ok_mono done done (vs_votes s1)); [auto|exact Hsup|].
    destruct (key_eqb b x) eqn:Ek; [|apply Hb]. apply key_eqb_eq in Ek. subst x. exact Hok.
  - intros m E. injection E as <-. rewrite entry_of_upd, key_eqb_refl. split; [exact Hq|].
    intros j u Hu. exists u. unfold upd. prj. rewrite vote_at_copy_over by auto. rewrite Hu. split; [reflexivity|].
    apply (Hk3 j u Hu).
  - discriminate.
Qed.

Lemma proceed_winv done s1 v i val :
  winv done s1 -> good done i v -> nth_error vals i = Some val ->
  vote_at (vs_votes s1) i <> None ->
  (vs_maj23 s1 = Some (v_bid v) -> exists u, vote_at (vs_votes s1) i = Some u /\ v_bid u = v_bid v) ->
  winv done (proceed s1 v i (val_power val) (quorum vals) (entry_of s1 (v_bid v))).
Proof.
  intros Hw Hg Hnth Hni Hmi. set (bv0 := entry_of s1 (v_bid v)).
  destruct (entry_ok_add done (vs_votes s1) (v_bid v) bv0 i v val (w_bb _ _ Hw _) Hg eq_refl Hni Hnth)
    as [Hok' [Hle Hsub]].
  assert (Hmajb : vs_maj23 s1 = Some (v_bid v) ->
                  quorum vals <= bv_sum (bv_add bv0 i v (val_power val)) /\
                  forall j u, vote_at (bv_votes (bv_add bv0 i v (val_power val))) j = Some u ->
                              exists u', vote_at (vs_votes s1) j = Some u' /\ v_bid u' = v_bid v).
  { intros Hmaj. destruct (w_maj _ _ Hw _ Hmaj) as [Hq Hpos]. fold bv0 in Hq, Hpos.
    split; [lia|]. intros j u Hu. destruct (Hsub j u Hu) as [Ho|[-> ->]]; [eauto|auto]. }
  unfold proceed.
  destruct (Z.ltb (bv_sum bv0) (quorum vals) && Z.leb (quorum vals) (bv_sum (bv_add bv0 i v (val_power val))))
    eqn:Ecr.
  - apply andb_true_iff in Ecr. destruct Ecr as [Elt Ele]. apply Z.ltb_lt in Elt. apply Z.leb_le in Ele.
    destruct (vs_maj23 s1) as [m|] eqn:Emaj.
    + rewrite <- Emaj. apply winv_upd_entry; auto.
      * rewrite Emaj. exact Hmajb.
      * rewrite Emaj. discriminate.
    + apply winv_cross; auto.
  - apply winv_upd_entry; auto.
    intros Hnm. pose proof (w_nomaj _ _ Hw Hnm (v_bid v)) as Horig. fold bv0 in Horig.
    apply andb_false_iff in Ecr. destruct Ecr as [E|E]; [apply Z.ltb_ge in E|apply Z.leb_gt in E]; lia.
Qed.

Lemma add_verified_winv done s v i val s' a c :
  winv done s -> N.to_nat (v_idx v) = i -> valid_vote v = true -> nth_error vals i = Some val ->
  add_verified s v i (val_power val) = (s', a, c) ->
  winv (done ++ [OpVote v]) s'.
Proof.
  intros Hw Hi Hval Hnth. rewrite add_verified_eq. cbv zeta.
  destruct (phase1_winv done s v i val Hw Hi Hval Hnth) as [Hw1 [Hni Hset]].
  rewrite (w_vals _ _ Hw).
  destruct (_ && _); intros H; injection H as <- _ _; [exact Hw1|].
  apply proceed_winv; auto.
  - subst i. apply good_last. exact Hval.
  - rewrite phase1_maj. intros E. exists v. auto.
Qed.

(** a vote of a validator that has nothing in voteSet.votes yet lands in its block's entry *)
Lemma add_verified_first done s v i val s' a c :
  winv done s -> nth_error vals i = Some val -> vote_at (vs_votes s) i = None ->
  add_verified s v i (val_power val) = (s', a, c) ->
  vote_at (bv_votes (entry_of s' (v_bid v))) i = Some v.
Proof.
  intros Hw Hnth Hnone. rewrite add_verified_eq. cbv zeta. rewrite Hnone, entry_of_phase1. cbn [is_some andb].
  intros H; injection H as <- _ _. unfold proceed. rewrite entry_of_upd, key_eqb_refl.
  destruct (w_bb _ _ Hw (v_bid v)) as [Hl0 [_ Hpos]]. unfold bv_add.
  destruct (vote_at (bv_votes (entry_of s (v_bid v))) i) as [u|] eqn:Eu.
  - destruct (Hpos i u Eu) as [_ [_ Hc]]. congruence.
  - prj. apply vote_at_set_eq. rewrite Hl0. apply nth_error_Some. congruence.
Qed.


Lemma first_valid_app a b i :
  first_valid (a ++ b) i = match first_valid a i with Some v => Some v | None => first_valid b i end.
Proof.
  induction a as [|o t IH]; [reflexivity|]. destruct o; cbn [first_valid app]; auto.
  destruct (Nat.eqb (N.to_nat (v_idx v)) i && valid_vote v); auto.
Qed.

Lemma good_first done i u : good done i u -> first_valid done i <> None.
Proof.
  intros [Ho [Hi Hv]]. unfold offered in Ho. induction done as [|o t IH]; [contradiction|].
  destruct Ho as [->|Ho].
  - cbn [first_valid]. rewrite Hi, Nat.eqb_refl, Hv. discriminate.
  - destruct o; cbn [first_valid]; auto.
    destruct (Nat.eqb (N.to_nat (v_idx v)) i && valid_vote v); [discriminate|auto].
Qed.

Lemma first_valid_spec done i u : first_valid done i = Some u -> good done i u.
Proof.
  unfold good, offered. induction done as [|o t IH]; [discriminate|].
  destruct o; cbn [first_valid]; try (intros H; destruct (IH H) as [H1 H2]; split; [right; auto|auto]).
  destruct (Nat.eqb (N.to_nat (v_idx v)) i && valid_vote v) eqn:E.
  - intros H; injection H as <-. apply andb_true_iff in E. destruct E as [E1 E2]. apply Nat.eqb_eq in E1.
    split; [left; reflexivity|auto].
  - intros H; destruct (IH H) as [H1 H2]; split; [right; auto|auto].
Qed.

Lemma votes_none_of_first done s i : winv done s -> first_valid done i = None -> vote_at (vs_votes s) i = None.
Proof.
  intros Hw Hf. destruct (vote_at (vs_votes s) i) as [u|] eqn:E; [|reflexivity].
  exfalso. apply (good_first done i u); auto. apply (w_votes _ _ Hw); auto.
Qed.


Lemma inv_keep done s o :
  inv done s ->
  (forall v, o = OpVote v -> valid_vote v = false \/ first_valid done (N.to_nat (v_idx v)) <> None) ->
  inv (done ++ [o]) s.
Proof.
  intros [Hw Hf] Ho. split; [apply winv_mono; auto|].
  intros i u. rewrite first_valid_app. destruct (first_valid done i) as [w|] eqn:E.
  - intros E'; injection E' as <-. apply Hf; auto.
  - destruct o; cbn [first_valid]; try discriminate.
    destruct (Nat.eqb (N.to_nat (v_idx v)) i && valid_vote v) eqn:Eb; [|discriminate].
    apply andb_true_iff in Eb. destruct Eb as [E1 E2]. apply Nat.eqb_eq in E1.
    destruct (Ho v eq_refl) as [H|H]; [congruence|]. rewrite E1 in H. contradiction.
Qed.

Lemma get_vote_some_votes done s i b :
  winv done s -> get_vote s i b <> None -> vote_at (vs_votes s) i <> None.
Proof.
  intros Hw. unfold get_vote.
  destruct (vote_at (vs_votes s) i) as [e0|] eqn:E0; [discriminate|].
  destruct (bb_find b (vs_byblock s)) as [bv|] eqn:Ef; [|congruence].
  intros Hu. apply not_none_ex in Hu. destruct Hu as [ex Hu].
  rewrite <- (entry_of_find _ _ _ Ef) in Hu. destruct (w_bb _ _ Hw b) as [_ [_ Hpos]].
  destruct (Hpos i ex Hu) as [_ [_ Hc]]. congruence.
Qed.

Lemma add_vote_inv done s v s' a e :
  inv done s -> add_vote s v = (s', a, e) -> inv (done ++ [OpVote v]) s'.
Proof.
  intros Hinv H. pose proof Hinv as [Hw Hf]. apply add_vote_cases in H. cbv zeta in H.
  rewrite (checks_valid _ _ v Hw), (w_vals _ _ Hw) in H.
  destruct H as [[-> [_ [_ Hwhy]]]|[val [c [Hval [Hnth [Hg [Hav _]]]]]]].
  - apply inv_keep; auto. intros v0 E; injection E as <-. destruct Hwhy as [Hv|Hg]; [auto|right].
    intros Hfv. apply (get_vote_some_votes _ _ _ _ Hw Hg). eapply votes_none_of_first; eauto.
  - split; [eapply add_verified_winv; eauto|].
    intros i u. rewrite first_valid_app. destruct (first_valid done i) as [w|] eqn:E.
    + intros E'; injection E' as <-. eapply add_verified_entries_mono; eauto.
    + cbn [first_valid]. destruct (Nat.eqb (N.to_nat (v_idx v)) i && valid_vote v) eqn:Eb; [|discriminate].
      intros E'; injection E' as <-. apply andb_true_iff in Eb. destruct Eb as [E1 _]. apply Nat.eqb_eq in E1.
      subst i. pose proof (votes_none_of_first _ _ _ Hw E) as Hnone.
      rewrite (add_verified_first done s v _ val _ _ _ Hw Hnth Hnone Hav). discriminate.
Qed.

Lemma set_peer_inv done s p b s' e :
  inv done s -> set_peer_maj23 s p b = (s', e) -> inv (done ++ [OpPeer p b]) s'.
Proof.
  intros Hinv H. destruct (inv_keep done s (OpPeer p b) Hinv) as [[Hc Hh Hr Ht Hv Hl Hvo Hs Hb Hm Hn] Hf]; [discriminate|].
  destruct (set_peer_entries _ _ _ _ _ H) as [Ec [Eh [Er [Et [Ev [Evo [Es [Em Hent]]]]]]]].
  split.
  - constructor; rewrite ?Ec, ?Eh, ?Er, ?Et, ?Ev, ?Evo, ?Es, ?Em; try assumption.
    + intros x. destruct (Hent x) as [Ex1 Ex2]. unfold entry_ok. rewrite Ex1, Ex2. apply Hb.
    + intros m Hm'. destruct (Hent m) as [Ex1 Ex2]. rewrite Ex1, Ex2. apply Hm. exact Hm'.
    + intros Hnm x. rewrite (proj2 (Hent x)). apply Hn. exact Hnm.
  - intros i u Hu. rewrite (proj1 (Hent (v_bid u))). apply Hf. exact Hu.
Qed.

Lemma step_inv done s o : inv done s -> inv (done ++ [o]) (fst (step s o)).
Proof.
  intros Hinv. destruct o as [v|p b| |want hh c]; cbn [step].
  - destruct (add_vote s v) as [[s' a] e] eqn:E. cbn [fst]. eapply add_vote_inv; eauto.
  - destruct (set_peer_maj23 s p b) as [s' e] eqn:E. cbn [fst]. eapply set_peer_inv; eauto.
  - cbn [fst]. apply inv_keep; auto; discriminate.
  - cbn [fst]. apply inv_keep; auto; discriminate.
Qed.

Lemma run_inv ops done s : inv done s -> inv (done ++ ops) (final s ops).
Proof. apply (final_steps inv step_inv). Qed.

Lemma init_inv : inv [] (new_voteset chain ht rd ty vals).
Proof.
  split.
  - constructor; try reflexivity; unfold new_voteset; prj.
    + apply repeat_length.
    + intros i u Hu. rewrite vote_at_repeat_none in Hu. discriminate.
    + rewrite voters_power_repeat_none. reflexivity.
    + intros b. apply entry_ok_fresh.
    + discriminate.
    + intros _ b. pose proof quorum_pos. cbn. lia.
  - intros i u Hu. discriminate.
Qed.

Theorem reach_inv ops : inv ops (final (new_voteset chain ht rd ty vals) ops).
Proof. apply (run_inv ops [] _ init_inv). Qed.

(** * Readable form of "a valid vote of validator i for this step" *)

Definition valid_vote_of (i : nat) (v : vote) : Prop :=
  N.to_nat (v_idx v) = i /\ v_height v = ht /\ v_round v = rd /\ v_type v = ty /\
  exists val, nth_error vals i = Some val /\ v_addr v = val_addr val /\
              vote_sig_valid chain (val_addr val) v = true.

Lemma valid_vote_spec i v : N.to_nat (v_idx v) = i -> valid_vote v = true -> valid_vote_of i v.
Proof.
  intros Hi. unfold valid_vote, valid_vote_of. rewrite Hi. rewrite !andb_true_iff.
  intros [[_ [[H1 H2] H3]] H4]. apply N.eqb_eq in H1, H2, H3.
  destruct (nth_error vals i) as [val|]; [|discriminate]. apply andb_true_iff in H4. destruct H4 as [H4 H5].
  apply N.eqb_eq in H4. repeat split; auto. exists val. auto.
Qed.

Lemma valid_vote_of_valid i v : valid_vote_of i v -> N.to_nat (v_idx v) = i /\ valid_vote v = true.
Proof.
  intros [Hi [H1 [H2 [H3 [val [Hn [Ha Hs]]]]]]]. split; auto. unfold valid_vote.
  rewrite Hi, Hn, H1, H2, H3, Ha, !N.eqb_refl, Hs, (proj2 (sig_valid_signer _ _ _ _ _ _ _ _ Hs)). reflexivity.
Qed.

(** a stored vote: offered in the history, carrying index [i] and passing all checks *)
Definition stored_ok (ops : list op) (i : nat) (v : vote) : Prop :=
  offered ops v /\ valid_vote_of i v.

Lemma good_stored ops i v : good ops i v -> stored_ok ops i v.
Proof. intros [H1 [H2 H3]]. split; auto. apply valid_vote_spec; auto. Qed.

(** * Soundness theorems *)

Let reach (ops : list op) : voteset := final (new_voteset chain ht rd ty vals) ops.

Lemma reach_winv ops : winv ops (reach ops).
Proof. exact (proj1 (reach_inv ops)). Qed.

Lemma reach_stored ops i v : vote_at (vs_votes (reach ops)) i = Some v -> stored_ok ops i v.
Proof. intros Hv. apply good_stored. apply (w_votes _ _ (reach_winv ops)). exact Hv. Qed.

(** every validator's power is in [vs_sum], and in each per-block sum, at most once,
    whatever it sent; none of the int64 additions wrapped *)
Theorem counted_once ops :
  let s := reach ops in
  length (vs_votes s) = length vals /\
  vs_sum s = voters_power vals (vs_votes s) /\ 0 <= vs_sum s <= sum_powers vals /\
  (forall i v, vote_at (vs_votes s) i = Some v -> stored_ok ops i v) /\
  forall b bv, bb_find b (vs_byblock s) = Some bv ->
    length (bv_votes bv) = length vals /\
    bv_sum bv = voters_power vals (bv_votes bv) /\ 0 <= bv_sum bv <= sum_powers vals /\
    forall i v, vote_at (bv_votes bv) i = Some v -> stored_ok ops i v /\ v_bid v = b.
Proof.
  cbv zeta. pose proof (reach_winv ops) as Hw.
  split; [apply (w_len _ _ Hw)|]. split; [apply (w_sum _ _ Hw)|].
  split; [rewrite (w_sum _ _ Hw); apply voters_power_bounds; exact Hnonneg|].
  split; [apply reach_stored|].
  intros b bv Hx. pose proof (w_bb _ _ Hw b) as [K1 [K2 K3]]. rewrite (entry_of_find _ _ _ Hx) in K1, K2, K3.
  split; [auto|split; [auto|split]].
  - rewrite K2. apply voters_power_bounds. exact Hnonneg.
  - intros i v Hv. destruct (K3 i v Hv) as [Hg [Hb _]]. split; [apply good_stored|]; auto.
Qed.

Theorem any_sound ops :
  let s := reach ops in
  has_two_thirds_any s = true ->
  (forall i v, vote_at (vs_votes s) i = Some v -> stored_ok ops i v) /\
  2 * sum_powers vals < 3 * voters_power vals (vs_votes s).
Proof.
  cbv zeta. pose proof (reach_winv ops) as Hw.
  unfold has_two_thirds_any. rewrite (w_vals _ _ Hw), (w_sum _ _ Hw). intros H. apply Z.ltb_lt in H.
  split; [apply reach_stored|].
  rewrite two_thirds_exact in H by exact Hwf.
  pose proof (sum_powers_nonneg _ Hnonneg). lia.
Qed.

Theorem hasall_sound ops :
  let s := reach ops in
  has_all s = true ->
  (forall i v, vote_at (vs_votes s) i = Some v -> stored_ok ops i v) /\
  voters_power vals (vs_votes s) = sum_powers vals.
Proof.
  cbv zeta. pose proof (reach_winv ops) as Hw.
  unfold has_all. rewrite (w_vals _ _ Hw), (w_sum _ _ Hw). intros H. apply Z.eqb_eq in H.
  split; [apply reach_stored|].
  rewrite total_power_exact in H by exact Hwf. exact H.
Qed.

Theorem maj23_sound ops b :
  let s := reach ops in
  vs_maj23 s = Some b ->
  exists bv, bb_find b (vs_byblock s) = Some bv /\
    length (bv_votes bv) = length vals /\
    (forall i v, vote_at (bv_votes bv) i = Some v -> stored_ok ops i v /\ v_bid v = b) /\
    2 * sum_powers vals < 3 * voters_power vals (bv_votes bv).
Proof.
  cbv zeta. pose proof (reach_winv ops) as Hw. intros Hm.
  destruct (w_maj _ _ Hw _ Hm) as [Hq _]. destruct (w_bb _ _ Hw b) as [K1 [K2 K3]]. pose proof quorum_pos.
  exists (entry_of (reach ops) b). split; [apply entry_of_tracked; lia|]. split; [auto|split].
  - intros i v Hv. destruct (K3 i v Hv) as [Hg [Hb _]]. split; [apply good_stored|]; auto.
  - rewrite <- K2. rewrite quorum_exact in Hq by exact Hwf.
    pose proof (sum_powers_nonneg _ Hnonneg). lia.
Qed.

(** * MakeCommit / VerifyCommit round trip *)

Lemma good_sig done i v val :
  good done i v -> nth_error vals i = Some val ->
  v_addr v = val_addr val /\ sig_valid chain (val_addr val) ty ht rd (v_bid v) (v_time v) (v_sig v) = true.
Proof.
  intros [_ [Hi Hv]] Hn. destruct (valid_vote_spec i v Hi Hv) as [_ [H1 [H2 [H3 [val' [Hn' [Ha Hs]]]]]]].
  assert (val' = val) by congruence. subst val'.
  unfold vote_sig_valid in Hs. rewrite H1, H2, H3 in Hs. auto.
Qed.

(** Every slot of [map (commitsig_of b) votes] is absent or carries a stored vote's own address and signature, so
    the tally loop runs through ([tally_passes]) and gives the signed power ([tally_exact]); by [w_maj] every member
    of b's quorum entry sits in a COMMIT slot ([mask_le_signed]), so the tally reaches the quorum. *)
Theorem commit_roundtrip ops b :
  let s := reach ops in
  ty = PRECOMMIT ->
  (forall v, offered ops v -> bid_is_zero (v_bid v) = true \/ bid_is_complete (v_bid v) = true) ->
  vs_maj23 s = Some b -> bid_is_complete b = true ->
  exists c, make_commit s = Some c /\ verify_commit vals chain b ht c = COk.
Proof.
  cbv zeta. pose proof (reach_winv ops) as Hw. set (s := reach ops) in *.
  intros Hty Hwire Hm Hcomp.
  destruct (w_maj _ _ Hw _ Hm) as [Hq Hpos]. destruct (w_bb _ _ Hw b) as [_ [K2 _]].
  pose proof (sum_powers_nonneg _ Hnonneg) as HT.
  pose proof quorum_pos as Hq1.
  assert (Hgood : forall i v, vote_at (vs_votes s) i = Some v -> good ops i v) by (apply (w_votes _ _ Hw)).
  assert (Hzc : forall v, In (Some v) (vs_votes s) ->
                          bid_is_zero (v_bid v) = true \/ bid_is_complete (v_bid v) = true).
  { intros v Hin. destruct (vote_at_in _ _ Hin) as [i Hi]. apply Hwire. apply (Hgood i v Hi). }
  set (sigs := map (commitsig_of b) (vs_votes s)).
  exists {| c_height := vs_height s; c_round := vs_round s; c_bid := b; c_sigs := sigs |}. split.
  { apply make_commit_eq; [rewrite (w_type _ _ Hw); exact Hty|exact Hm|exact Hzc]. }
  assert (Hnz : bid_is_zero b = false) by (apply bid_complete_not_zero; auto).
  pose proof (bid_eqb_refl b) as Hbb.
  assert (Hlen : length sigs = length vals) by (unfold sigs; rewrite map_length; apply (w_len _ _ Hw)).
  (* what each slot of the commit is *)
  assert (Hslot : forall i val cs, nth_error vals i = Some val -> nth_error sigs i = Some cs ->
                    cs = cs_absent \/
                    exists v, cs = commitsig_of b (Some v) /\ vote_at (vs_votes s) i = Some v /\
                              v_addr v = val_addr val /\
                              sig_valid chain (val_addr val) PRECOMMIT ht rd (v_bid v) (v_time v) (v_sig v) = true).
  { intros i val cs Hv Hcs. unfold sigs in Hcs. rewrite nth_error_map in Hcs.
    destruct (nth_error (vs_votes s) i) as [[v|]|] eqn:Ho; [|left|discriminate]; injection Hcs as <-; [|reflexivity].
    apply vote_at_nth_error in Ho. destruct (good_sig _ _ _ _ (Hgood i v Ho) Hv) as [Ha Hs]. rewrite Hty in Hs.
    right. exists v. auto. }
  (* the validator set is not empty: a quorum is at least 1 *)
  assert (Hne : sigs <> []).
  { intros E. rewrite E in Hlen. destruct vals as [|v0 vt]; [|discriminate].
    unfold voters_power in K2. cbn [mask_power] in K2. lia. }
  assert (Hvb : commit_validate_basic {| c_height := vs_height s; c_round := vs_round s; c_bid := b; c_sigs := sigs |} = true).
  { unfold commit_validate_basic. cbn [c_height c_bid c_sigs].
    destruct (N.leb 1 (vs_height s)); [|reflexivity]. rewrite Hnz. cbn [negb andb].
    destruct sigs as [|cs0 st] eqn:Es; [congruence|]. rewrite <- Es in *. apply forallb_forall. intros cs Hin.
    apply In_nth_error in Hin. destruct Hin as [i Hi].
    assert (Hlt : (i < length vals)%nat) by (rewrite <- Hlen; apply nth_error_Some; congruence).
    destruct (nth_error vals i) as [val|] eqn:Ev; [|apply nth_error_None in Ev; lia].
    destruct (Hslot i val cs Ev Hi) as [->|[v [-> [_ [_ Hs]]]]]; [reflexivity|].
    apply sig_valid_signer in Hs. destruct Hs as [Hs _].
    cbn [commitsig_of]. destruct (bid_is_complete (v_bid v)); [destruct (bid_eqb (v_bid v) b)|];
      try reflexivity; unfold cs_validate_basic; cbn [cs_flag cs_sig]; rewrite Hs; reflexivity. }
  (* every slot passes the tally loop, which therefore gives the signed power *)
  destruct (tally_passes chain ht rd b b vals sigs 0) as [got Hgot].
  { intros i val cs Hv Hcs. destruct (Hslot i val cs Hv Hcs) as [->|[v [-> [Ho [Ha Hs]]]]]; [reflexivity|].
    unfold slot_passes. cbn [commitsig_of]. destruct (bid_is_complete (v_bid v)) eqn:Ec.
    - destruct (bid_eqb (v_bid v) b) eqn:Eb; [|reflexivity]. apply bid_eqb_eq in Eb.
      cbn [cs_flag cs_addr cs_time cs_sig]. rewrite Ha, !N.eqb_refl. cbv iota. rewrite <- Eb, Hs. reflexivity.
    - cbn [cs_flag cs_addr cs_time cs_sig]. rewrite Ha, N.eqb_refl.
      change (N.eqb FLAG_NIL FLAG_COMMIT) with false. cbv iota.
      destruct (Hwire v (proj1 (Hgood i v Ho))) as [Hz|Hc']; [|congruence].
      apply bid_is_zero_eq in Hz. rewrite <- Hz, Hs. reflexivity. }
  assert (Hex : got = 0 + signed_power chain ht rd b vals sigs).
  { apply (tally_exact chain ht rd b vals sigs 0 got Hnonneg); [lia| |exact Hnz|exact Hgot].
    destruct Hwf as [_ Hc]. pose proof cap_fits. lia. }
  (* the signatures for b weigh at least as much as the quorum entry *)
  assert (Hsp : voters_power vals (bv_votes (entry_of s b)) <= signed_power chain ht rd b vals sigs).
  { apply mask_le_signed; [exact Hnonneg| |exact Hlen].
    intros i val cs Hmk Hv Hcs. rewrite nth_mask in Hmk. apply is_some_true in Hmk.
    apply not_none_ex in Hmk. destruct Hmk as [u Hu]. destruct (Hpos i u Hu) as [u' [Hu' Hbid]].
    destruct (Hslot i val cs Hv Hcs) as [->|[v [-> [Ho [_ Hs]]]]].
    - unfold sigs in Hcs. rewrite nth_error_map in Hcs. apply vote_at_nth_error in Hu'. rewrite Hu' in Hcs.
      injection Hcs as Hcs. cbn [commitsig_of] in Hcs. rewrite Hbid, Hcomp, Hbb in Hcs. discriminate.
    - assert (v = u') by congruence. subst v. rewrite Hbid in Hs.
      cbn [commitsig_of]. rewrite Hbid, Hcomp, Hbb. unfold signs_block. cbn [cs_flag cs_time cs_sig].
      rewrite N.eqb_refl, Hs. reflexivity. }
  unfold verify_commit. rewrite Hvb. cbn [negb c_height c_round c_bid c_sigs].
  rewrite Hlen, Nat.eqb_refl, (w_height _ _ Hw), (w_round _ _ Hw), N.eqb_refl, Hbb. cbn [negb].
  rewrite Hgot.
  assert (Hlt : two_thirds vals < got).
  { rewrite two_thirds_exact by exact Hwf. rewrite quorum_exact in Hq by exact Hwf. lia. }
  apply Z.leb_gt in Hlt. rewrite Hlt. reflexivity.
Qed.

(** * Completeness *)

(** the members of [A] all sit in the entry of [b] *)
Lemma first_in_entry ops A b :
  (forall i, nth i A false = true -> exists v, first_valid ops i = Some v /\ v_bid v = b) ->
  mask_power vals A <= bv_sum (entry_of (reach ops) b).
Proof.
  intros Hfirst. destruct (reach_inv ops) as [Hw Hf]. fold (reach ops) in Hw, Hf.
  destruct (w_bb _ _ Hw b) as [_ [-> _]]. apply mask_le_voters; [exact Hnonneg|].
  intros i Hi. destruct (Hfirst i Hi) as [v [Hv <-]]. apply Hf. exact Hv.
Qed.

(** If the validators of a set [A] (a mask over positions) holding more than 2/3 of the power
    each have, as the first of their votes that pass the stateless checks, a vote for [b],
    a majority is reported. *)
Theorem complete ops A b :
  let s := reach ops in
  2 * sum_powers vals < 3 * mask_power vals A ->
  (forall i, nth i A false = true -> exists v, first_valid ops i = Some v /\ v_bid v = b) ->
  vs_maj23 s <> None.
Proof.
  cbv zeta. intros HA Hfirst Hnone. pose proof (reach_winv ops) as Hw.
  pose proof (first_in_entry ops A b Hfirst) as Hle.
  pose proof (w_nomaj _ _ Hw Hnone b) as Hlt. rewrite quorum_exact in Hlt by exact Hwf.
  pose proof (sum_powers_nonneg _ Hnonneg). lia.
Qed.

(** ... and the reported majority is [b] itself when, in addition, the members of [A] offer no
    valid vote for any other block id (they do not equivocate; everybody else may). *)
Theorem complete_exact ops A b :
  let s := reach ops in
  2 * sum_powers vals < 3 * mask_power vals A ->
  (forall i, nth i A false = true -> exists v, first_valid ops i = Some v /\ v_bid v = b) ->
  (forall i v, nth i A false = true -> offered ops v -> N.to_nat (v_idx v) = i -> valid_vote v = true ->
               v_bid v = b) ->
  vs_maj23 s = Some b.
Proof.
  cbv zeta. intros HA Hfirst Hexcl. pose proof (complete ops A b HA Hfirst) as Hsome. cbv zeta in Hsome.
  pose proof (reach_winv ops) as Hw. fold (reach ops) in Hsome. set (s := reach ops) in *.
  destruct (vs_maj23 s) as [m|] eqn:Em; [|congruence].
  destruct (bid_eqb m b) eqn:Emb; [apply bid_eqb_eq in Emb; congruence|]. exfalso.
  assert (Hne : m <> b) by (intros E; apply bid_eqb_eq in E; congruence).
  pose proof (sum_powers_nonneg _ Hnonneg) as HT.
  destruct (w_maj _ _ Hw _ Em) as [Hq _].
  destruct (w_bb _ _ Hw m) as [_ [K2 K3]].
  (* nobody of [A] is in the entry of [m] *)
  assert (Hdis : mask_power vals A + voters_power vals (bv_votes (entry_of s m)) <= sum_powers vals).
  { apply mask_voters_disjoint; [exact Hnonneg|]. intros i Hi Hn. apply not_none_ex in Hn.
    destruct Hn as [u Hu]. destruct (K3 i u Hu) as [[Ho [Hidx Hval]] [Hb _]].
    apply Hne. rewrite <- Hb. apply (Hexcl i u); auto. }
  rewrite quorum_exact in Hq by exact Hwf. lia.
Qed.

(** the state in which the majority was first reported is kept: it satisfied the invariant for the history up to
    then, and no other entry had a quorum *)
Definition first_maj_kept (done : list op) (s : voteset) : Prop :=
  forall m, vs_maj23 s = Some m ->
  exists pre suf s0, done = pre ++ suf /\ inv pre s0 /\ vs_maj23 s0 = Some m /\
    forall x, x <> m -> bv_sum (entry_of s0 x) < quorum vals.

Lemma step_first_maj done s o :
  inv done s /\ first_maj_kept done s ->
  inv (done ++ [o]) (fst (step s o)) /\ first_maj_kept (done ++ [o]) (fst (step s o)).
Proof.
  intros [Hinv Hh]. split; [apply step_inv; exact Hinv|]. intros m Hm'. destruct (step_maj s o) as [Hkeep Hset].
  destruct (vs_maj23 s) as [m0|] eqn:Em.
  - rewrite (Hkeep m0 eq_refl) in Hm'. injection Hm' as <-.
    destruct (Hh m0 Em) as [pre [suf [s0 [E [Hi0 [Hm0 Hlt]]]]]].
    exists pre, (suf ++ [o]), s0. split; [rewrite E, app_assoc; reflexivity|auto].
  - exists (done ++ [o]), [], (fst (step s o)). split; [rewrite app_nil_r; reflexivity|].
    split; [apply step_inv; auto|split; [auto|]].
    intros x Hx. rewrite (Hset eq_refl m Hm' x Hx). apply (w_nomaj _ _ (proj1 Hinv) Em).
Qed.

(** ... or when every validator's first valid vote, if it has one, is for [b] (later
    conflicting votes for other ids, admitted through peer claims, cannot overtake [b]). *)
Theorem complete_all_first ops A b :
  let s := reach ops in
  2 * sum_powers vals < 3 * mask_power vals A ->
  (forall i, nth i A false = true -> exists v, first_valid ops i = Some v /\ v_bid v = b) ->
  (forall i v, first_valid ops i = Some v -> v_bid v = b) ->
  vs_maj23 s = Some b.
Proof.
  cbv zeta. intros HA Hfirst Hall. pose proof (complete ops A b HA Hfirst) as Hsome. cbv zeta in Hsome.
  assert (Hh : first_maj_kept ops (reach ops)).
  { apply (final_steps (fun d s => inv d s /\ first_maj_kept d s) step_first_maj ops []).
    split; [exact init_inv|]. intros m Hm. discriminate. }
  destruct (vs_maj23 (reach ops)) as [m|] eqn:Em; [|congruence].
  destruct (bid_eqb m b) eqn:Emb; [apply bid_eqb_eq in Emb; congruence|]. exfalso.
  assert (Hne : b <> m) by (intros E; symmetry in E; apply bid_eqb_eq in E; congruence).
  destruct (Hh m Em) as [pre [suf [s0 [E [[Hw0 Hf0] [Hm0 Hlt]]]]]].
  destruct (w_maj _ _ Hw0 _ Hm0) as [Hq _].
  destruct (w_bb _ _ Hw0 m) as [_ [K2 K3]]. destruct (w_bb _ _ Hw0 b) as [_ [K2b _]].
  (* when [m] was first reported, every validator in m's entry was in b's entry too *)
  assert (Hle : voters_power vals (bv_votes (entry_of s0 m)) <= voters_power vals (bv_votes (entry_of s0 b))).
  { apply voters_power_mono; [exact Hnonneg|]. intros i Hn. apply not_none_ex in Hn. destruct Hn as [u Hu].
    destruct (K3 i u Hu) as [Hg _].
    pose proof (good_first _ _ _ Hg) as Hfv. apply not_none_ex in Hfv. destruct Hfv as [w Hw'].
    assert (Hops : first_valid ops i = Some w) by (rewrite E, first_valid_app, Hw'; reflexivity).
    rewrite <- (Hall i w Hops). apply Hf0; auto. }
  pose proof (Hlt b Hne). lia.
Qed.

End VoteSet.

Arguments w_chain {chain ht rd ty vals done s}.
Arguments w_height {chain ht rd ty vals done s}.
Arguments w_round {chain ht rd ty vals done s}.
Arguments w_type {chain ht rd ty vals done s}.
Arguments w_vals {chain ht rd ty vals done s}.
Arguments w_len {chain ht rd ty vals done s}.
Arguments w_votes {chain ht rd ty vals done s}.
Arguments w_sum {chain ht rd ty vals done s}.
Arguments w_bb {chain ht rd ty vals done s}.
Arguments w_maj {chain ht rd ty vals done s}.
Arguments w_nomaj {chain ht rd ty vals done s}.
Arguments first_valid_spec {chain ht rd ty vals done i u}.
Arguments votes_none_of_first {chain ht rd ty vals done s i}.
Arguments checks_valid {chain ht rd ty vals done s}.
Arguments get_vote_some_votes {chain ht rd ty vals done s i b}.
