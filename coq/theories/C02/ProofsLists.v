(** C02 — list-level facts used by the vote-set proofs: exact power of a set of positions
    (a boolean mask, or the [Some] positions of a vote list), [vote_at], [copy_over],
    the by-block association list, masks against the signed power of a commit, and the
    commit signatures MakeCommit emits ([commitsig_of], [make_sigs_map], [make_commit_eq]). *)
From Coq Require Import List ZArith NArith Bool Lia.
From Kardia Require Import Base.ListX C02.Model C02.Proofs.
Import ListNotations.
Local Open Scope Z_scope.

(** * Exact power of a set of validator positions *)

Definition is_some {A} (o : option A) : bool := match o with Some _ => true | None => false end.

(** exact (unbounded [Z]) sum of the powers of the validators whose position is [true] in
    the mask; one summand per position, so every validator counts at most once *)
Fixpoint mask_power (vals : list validator) (m : list bool) : Z :=
  match vals, m with
  | val :: vt, x :: mt => (if x then val_power val else 0) + mask_power vt mt
  | _, _ => 0
  end.

(** exact power of the validators that have a vote in the position-indexed list [w] *)
Definition voters_power (vals : list validator) (w : list (option vote)) : Z :=
  mask_power vals (map is_some w).

Lemma mask_power_nil_r vals : mask_power vals [] = 0.
Proof. destruct vals; reflexivity. Qed.

Lemma mask_power_bounds vals m :
  Forall (fun v => 0 <= val_power v) vals -> 0 <= mask_power vals m <= sum_powers vals.
Proof.
  intros Hf; revert m; induction Hf as [|v vs Hv Hvs IH]; intros m; [destruct m; simpl; lia|].
  destruct m as [|x mt].
  - rewrite mask_power_nil_r. pose proof (sum_powers_nonneg _ Hvs).
    change (sum_powers (v :: vs)) with (val_power v + sum_powers vs). lia.
  - cbn [mask_power]. change (sum_powers (v :: vs)) with (val_power v + sum_powers vs).
    specialize (IH mt). destruct x; lia.
Qed.

Lemma mask_power_mono vals m m' :
  Forall (fun v => 0 <= val_power v) vals ->
  (forall i, nth i m false = true -> nth i m' false = true) ->
  mask_power vals m <= mask_power vals m'.
Proof.
  intros Hf; revert m m'; induction Hf as [|v vs Hv Hvs IH]; intros m m' H; [destruct m, m'; simpl; lia|].
  destruct m as [|x mt].
  - rewrite mask_power_nil_r. apply (mask_power_bounds (v :: vs)). constructor; auto.
  - assert (Ht : forall i, nth i mt false = true -> nth i (tl m') false = true).
    { intros i Hi. specialize (H (S i) Hi). destruct m'; simpl in *; [discriminate|exact H]. }
    specialize (IH mt (tl m') Ht).
    destruct m' as [|y mt']; cbn [mask_power tl] in *.
    + rewrite mask_power_nil_r in IH. destruct x; [specialize (H O eq_refl); discriminate|]. lia.
    + destruct x; [rewrite (H O eq_refl : y = true)|destruct y]; lia.
Qed.

Lemma mask_power_ext vals m m' :
  Forall (fun v => 0 <= val_power v) vals ->
  (forall i, nth i m false = nth i m' false) ->
  mask_power vals m = mask_power vals m'.
Proof.
  intros Hf H. apply Z.le_antisymm; apply mask_power_mono; auto; intros i; rewrite H; auto.
Qed.

(** two disjoint sets of positions hold together at most the total *)
Lemma mask_power_disjoint vals m m' :
  Forall (fun v => 0 <= val_power v) vals ->
  (forall i, nth i m false = true -> nth i m' false = true -> False) ->
  mask_power vals m + mask_power vals m' <= sum_powers vals.
Proof.
  intros Hf; revert m m'; induction Hf as [|v vs Hv Hvs IH]; intros m m' H; [destruct m, m'; simpl; lia|].
  assert (Hvv : Forall (fun v => 0 <= val_power v) (v :: vs)) by (constructor; auto).
  destruct m as [|x mt].
  - rewrite mask_power_nil_r. pose proof (mask_power_bounds (v :: vs) m' Hvv). lia.
  - destruct m' as [|y mt'].
    + rewrite mask_power_nil_r. pose proof (mask_power_bounds (v :: vs) (x :: mt) Hvv). lia.
    + cbn [mask_power]. change (sum_powers (v :: vs)) with (val_power v + sum_powers vs).
      assert (Ht : forall i, nth i mt false = true -> nth i mt' false = true -> False)
        by (intros i; exact (H (S i))).
      specialize (IH mt mt' Ht).
      destruct x, y; try lia. exfalso. exact (H O eq_refl eq_refl).
Qed.

Lemma mask_power_set_new vals m i val :
  nth_error vals i = Some val -> nth_error m i = Some false ->
  mask_power vals (set_nth i true m) = mask_power vals m + val_power val.
Proof.
  revert m i; induction vals as [|v vs IH]; intros m i Hv Hm; [destruct i; discriminate|].
  destruct m as [|x mt]; [destruct i; discriminate|].
  destruct i as [|i]; cbn [set_nth mask_power nth_error] in *.
  - injection Hv as ->. injection Hm as ->. lia.
  - rewrite (IH mt i Hv Hm). lia.
Qed.

Lemma set_nth_same {A} i (x : A) l : nth_error l i = Some x -> set_nth i x l = l.
Proof.
  revert i; induction l as [|h t IH]; intros [|i] H; simpl in *; try discriminate.
  - injection H as ->. reflexivity.
  - f_equal. auto.
Qed.

Lemma map_set_nth {A B} (f : A -> B) i x l : map f (set_nth i x l) = set_nth i (f x) (map f l).
Proof. revert i; induction l as [|h t IH]; intros [|i]; simpl; auto. f_equal. apply IH. Qed.

(** * [vote_at] *)

Lemma vote_at_nil i : vote_at [] i = None.
Proof. unfold vote_at. destruct i; reflexivity. Qed.

Lemma vote_at_cons_S o l i : vote_at (o :: l) (S i) = vote_at l i.
Proof. reflexivity. Qed.

Lemma vote_at_Some_lt l i v : vote_at l i = Some v -> (i < length l)%nat.
Proof.
  unfold vote_at. intros H. apply nth_error_Some. destruct (nth_error l i); [discriminate|discriminate].
Qed.

Lemma vote_at_nth_error l i v : vote_at l i = Some v <-> nth_error l i = Some (Some v).
Proof.
  unfold vote_at, opt_join. destruct (nth_error l i) as [[u|]|]; split; intros H; try discriminate; congruence.
Qed.

Lemma vote_at_set_eq l i v : (i < length l)%nat -> vote_at (set_nth i (Some v) l) i = Some v.
Proof. intros H. unfold vote_at. rewrite nth_error_set_nth_eq by auto. reflexivity. Qed.

Lemma vote_at_set_neq l i j x : i <> j -> vote_at (set_nth i x l) j = vote_at l j.
Proof. intros H. unfold vote_at. rewrite nth_error_set_nth_neq by auto. reflexivity. Qed.

Lemma set_vote_mono (l : list (option vote)) i v j :
  (i < length l)%nat -> vote_at l j <> None -> vote_at (set_nth i (Some v) l) j <> None.
Proof.
  intros Hl H. destruct (Nat.eq_dec i j) as [->|Hne].
  - rewrite vote_at_set_eq by auto. discriminate.
  - rewrite vote_at_set_neq by auto. auto.
Qed.

Lemma vote_at_repeat_none n i : vote_at (repeat None n) i = None.
Proof.
  unfold vote_at. destruct (nth_error (repeat None n) i) as [o|] eqn:E; [|reflexivity].
  apply nth_error_In in E. apply repeat_spec in E. subst o. reflexivity.
Qed.

Lemma vote_at_in (l : list (option vote)) v : In (Some v) l -> exists i, vote_at l i = Some v.
Proof. intros H. apply In_nth_error in H. destruct H as [i Hi]. exists i. apply vote_at_nth_error. exact Hi. Qed.

Lemma vote_at_app_l (a b : list (option vote)) i : (i < length a)%nat -> vote_at (a ++ b) i = vote_at a i.
Proof. intros H. unfold vote_at. rewrite nth_error_app1 by exact H. reflexivity. Qed.

Lemma vote_at_app_r (a b : list (option vote)) i : vote_at (a ++ b) (length a + i) = vote_at b i.
Proof. unfold vote_at. rewrite nth_error_app2 by lia. replace (length a + i - length a)%nat with i by lia. reflexivity. Qed.

Lemma vote_at_ext (l l' : list (option vote)) :
  length l = length l' -> (forall i, vote_at l i = vote_at l' i) -> l = l'.
Proof.
  revert l'. induction l as [|o t IH]; intros [|o' t'] Hl H; try discriminate; [reflexivity|].
  f_equal.
  - specialize (H O). unfold vote_at in H. cbn in H.
    destruct o, o'; cbn in H; congruence.
  - apply IH; [cbn in Hl; lia|]. intros i. specialize (H (S i)). rewrite !vote_at_cons_S in H. exact H.
Qed.

Lemma nth_mask (w : list (option vote)) i : nth i (map is_some w) false = is_some (vote_at w i).
Proof.
  revert i; induction w as [|o t IH]; intros [|i]; simpl; auto.
  - destruct o; reflexivity.
  - rewrite IH. reflexivity.
Qed.

Lemma is_some_true {A} (o : option A) : is_some o = true <-> o <> None.
Proof. destruct o; simpl; split; intros; congruence. Qed.

Lemma not_none_ex {A} (o : option A) : o <> None -> exists x, o = Some x.
Proof. destruct o; [eauto|congruence]. Qed.

(** * [voters_power] *)

Lemma voters_power_bounds vals w :
  Forall (fun v => 0 <= val_power v) vals -> 0 <= voters_power vals w <= sum_powers vals.
Proof. apply mask_power_bounds. Qed.

Lemma voters_power_repeat_none vals n : voters_power vals (repeat None n) = 0.
Proof.
  unfold voters_power. revert n; induction vals as [|v vs IH]; intros n; [reflexivity|].
  destruct n; simpl; [reflexivity|]. rewrite IH. reflexivity.
Qed.

Lemma voters_power_set_new vals w i v val :
  nth_error vals i = Some val -> vote_at w i = None -> (i < length w)%nat ->
  voters_power vals (set_nth i (Some v) w) = voters_power vals w + val_power val.
Proof.
  intros Hv Hw Hl. unfold voters_power. rewrite map_set_nth. cbn [is_some].
  apply mask_power_set_new; auto.
  rewrite nth_error_map. unfold vote_at, opt_join in Hw.
  destruct (nth_error w i) as [[u|]|] eqn:E; try discriminate; [reflexivity|].
  apply nth_error_None in E. lia.
Qed.

Lemma voters_power_set_same vals w i v u :
  vote_at w i = Some u -> voters_power vals (set_nth i (Some v) w) = voters_power vals w.
Proof.
  intros Hw. unfold voters_power. rewrite map_set_nth. cbn [is_some].
  rewrite set_nth_same; auto. rewrite nth_error_map. apply vote_at_nth_error in Hw. rewrite Hw. reflexivity.
Qed.

Lemma voters_power_mono vals w w' :
  Forall (fun v => 0 <= val_power v) vals ->
  (forall i, vote_at w i <> None -> vote_at w' i <> None) ->
  voters_power vals w <= voters_power vals w'.
Proof.
  intros Hf H. apply mask_power_mono; auto. intros i. rewrite !nth_mask, !is_some_true. apply H.
Qed.

Lemma voters_power_ext vals w w' :
  Forall (fun v => 0 <= val_power v) vals ->
  (forall i, vote_at w i <> None <-> vote_at w' i <> None) ->
  voters_power vals w = voters_power vals w'.
Proof.
  intros Hf H. apply Z.le_antisymm; apply voters_power_mono; auto; intros i; apply H.
Qed.

(** a mask and a vote list with no common position *)
Lemma mask_voters_disjoint vals m w :
  Forall (fun v => 0 <= val_power v) vals ->
  (forall i, nth i m false = true -> vote_at w i <> None -> False) ->
  mask_power vals m + voters_power vals w <= sum_powers vals.
Proof.
  intros Hf H. apply mask_power_disjoint; auto. intros i Hm. rewrite nth_mask, is_some_true. apply H; auto.
Qed.

Lemma mask_le_voters vals m w :
  Forall (fun v => 0 <= val_power v) vals ->
  (forall i, nth i m false = true -> vote_at w i <> None) ->
  mask_power vals m <= voters_power vals w.
Proof.
  intros Hf H. apply mask_power_mono; auto. intros i Hm. rewrite nth_mask, is_some_true. auto.
Qed.

(** * [maj_is], [sig_valid] *)

Lemma maj_is_true s b : maj_is s b = true -> vs_maj23 s = Some b.
Proof.
  unfold maj_is. destruct (vs_maj23 s) as [m|]; [|discriminate]. intros H. apply key_eqb_eq in H. congruence.
Qed.

(** a valid signature is non-empty and names a signer other than the empty address *)
Lemma sig_valid_signer c a t hh r b tm sg :
  sig_valid c a t hh r b tm sg = true -> s_empty sg = false /\ N.eqb a 0 = false.
Proof.
  unfold sig_valid. destruct (s_empty sg); [discriminate|].
  destruct (N.eqb (s_signer sg) 0) eqn:E0; [discriminate|].
  destruct (N.eqb_spec (s_signer sg) a) as [<-|]; [auto|discriminate].
Qed.

(** * [copy_over] *)

Lemma copy_over_length src dst : length (copy_over src dst) = length dst.
Proof.
  revert dst; induction src as [|o s IH]; intros dst; [destruct dst; reflexivity|].
  destruct dst as [|x d]; [destruct o; reflexivity|]. destruct o; simpl; rewrite IH; reflexivity.
Qed.

Lemma vote_at_copy_over src dst i :
  length src = length dst ->
  vote_at (copy_over src dst) i = match vote_at src i with Some v => Some v | None => vote_at dst i end.
Proof.
  revert dst i; induction src as [|o s IH]; intros dst i Hl.
  - destruct dst; [|discriminate]. cbn [copy_over]. rewrite vote_at_nil. reflexivity.
  - destruct dst as [|x d]; [discriminate|]. injection Hl as Hl.
    destruct i as [|i].
    + destruct o; reflexivity.
    + destruct o; cbn [copy_over]; rewrite !vote_at_cons_S; apply IH; auto.
Qed.

(** * The by-block association list *)

Lemma bb_find_set b b' bv l :
  bb_find b (bb_set b' bv l) = if key_eqb b' b then Some bv else bb_find b l.
Proof.
  induction l as [|[k x] t IH]; cbn [bb_set bb_find].
  - reflexivity.
  - destruct (key_eqb k b') eqn:Ekb'; cbn [bb_find].
    + apply key_eqb_eq in Ekb'. subst k. destruct (key_eqb b' b); reflexivity.
    + rewrite IH. destruct (key_eqb k b) eqn:Ekb; [|reflexivity].
      apply key_eqb_eq in Ekb. subst k. apply key_eqb_false in Ekb'.
      assert (E : key_eqb b' b = false) by (apply key_eqb_false; congruence).
      rewrite E. reflexivity.
Qed.

(** * Masks against the signed power of a commit *)

Lemma mask_le_signed chain h r want vals m sigs :
  Forall (fun v => 0 <= val_power v) vals ->
  (forall i val cs, nth i m false = true -> nth_error vals i = Some val -> nth_error sigs i = Some cs ->
                    signs_block chain h r want val cs = true) ->
  length sigs = length vals ->
  mask_power vals m <= signed_power chain h r want vals sigs.
Proof.
  intros Hf; revert m sigs; induction Hf as [|v vs Hv Hvs IH]; intros m sigs H Hl; [destruct m; simpl; lia|].
  destruct sigs as [|cs st]; [discriminate|]. injection Hl as Hl.
  destruct m as [|x mt].
  - rewrite mask_power_nil_r. apply (signed_power_bounds chain h r want (v :: vs) (cs :: st)). constructor; auto.
  - cbn [mask_power signed_power].
    assert (Ht : forall i val cs0, nth i mt false = true -> nth_error vs i = Some val -> nth_error st i = Some cs0 ->
                                   signs_block chain h r want val cs0 = true)
      by (intros i val cs0; exact (H (S i) val cs0)).
    specialize (IH mt st Ht Hl).
    destruct x.
    + rewrite (H O v cs eq_refl eq_refl eq_refl). lia.
    + destruct (signs_block chain h r want v cs); lia.
Qed.

(** the commit signature MakeCommit emits for a slot of voteSet.votes, when every vote has a
    zero or complete block id *)
Definition commitsig_of (m : blockid) (o : option vote) : commitsig :=
  match o with
  | None => cs_absent
  | Some v => if bid_is_complete (v_bid v)
              then if bid_eqb (v_bid v) m
                   then {| cs_flag := FLAG_COMMIT; cs_addr := v_addr v; cs_time := v_time v; cs_sig := v_sig v |}
                   else cs_absent
              else {| cs_flag := FLAG_NIL; cs_addr := v_addr v; cs_time := v_time v; cs_sig := v_sig v |}
  end.

Lemma make_sigs_map m l :
  (forall v, In (Some v) l -> bid_is_zero (v_bid v) = true \/ bid_is_complete (v_bid v) = true) ->
  make_sigs m l = Some (map (commitsig_of m) l).
Proof.
  induction l as [|o t IH]; intros H; [reflexivity|].
  cbn [make_sigs map]. rewrite IH by (intros v Hv; apply H; right; auto).
  destruct o as [v|]; cbn [vote_commitsig commitsig_of]; [|reflexivity].
  destruct (bid_is_complete (v_bid v)) eqn:Ec.
  - cbn [cs_flag]. rewrite N.eqb_refl. cbn [andb].
    destruct (bid_eqb (v_bid v) m); reflexivity.
  - destruct (H v (or_introl eq_refl)) as [Hz|Hc]; [|congruence]. rewrite Hz. cbn [cs_flag].
    change (N.eqb FLAG_NIL FLAG_COMMIT) with false. reflexivity.
Qed.

(** MakeCommit of a precommit vote set with majority [b] whose votes have zero or complete block ids *)
Lemma make_commit_eq s b :
  vs_type s = PRECOMMIT -> vs_maj23 s = Some b ->
  (forall v, In (Some v) (vs_votes s) -> bid_is_zero (v_bid v) = true \/ bid_is_complete (v_bid v) = true) ->
  make_commit s = Some {| c_height := vs_height s; c_round := vs_round s; c_bid := b;
                          c_sigs := map (commitsig_of b) (vs_votes s) |}.
Proof. intros Ht Hm Hz. unfold make_commit. rewrite Ht, Hm, (make_sigs_map b _ Hz). reflexivity. Qed.
