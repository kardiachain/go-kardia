(** C02 — proofs about ModelExt.v and about histories from any state:
    - the first reported majority is final;
    - Vote.ValidateBasic gives the wire-validity hypothesis of the commit theorems; Vote.Verify characterised;
    - VerifyCommit with the nil commit / unknown-flag panic agrees with [verify_commit] on every
      commit that ValidateBasic examined (height >= 1), and an "ok" of the extended function is an
      "ok" of [verify_commit] (so C02_verify_commit_sound applies to it);
    - HeightVoteSet: every per-round vote set of a reachable HeightVoteSet is a reachable VoteSet
      of that round and type over votes offered to the HeightVoteSet; POLInfo is sound (the round it
      names really has +2/3 valid prevotes for that exact id) and names the LATEST such round up to
      hvs.round; a peer opens at most two catch-up rounds, every open round is 1, below a round
      given to SetRound, or one of those catch-up rounds;
    - a concrete HeightVoteSet history that meets the hypotheses of these theorems ([hvs_example]). *)
From Coq Require Import List ZArith NArith Bool Lia Arith.
From Kardia Require Import C02.Model C02.ModelExt C02.Proofs C02.ProofsLists C02.ProofsVoteSet.
Import ListNotations.
Local Open Scope Z_scope.

(** * The first majority is final *)

Theorem maj23_stable s ops m : vs_maj23 s = Some m -> vs_maj23 (final s ops) = Some m.
Proof.
  revert s. induction ops as [|o t IH]; intros s Hm; [exact Hm|].
  rewrite final_cons. apply IH. apply (proj1 (step_maj s o)). exact Hm.
Qed.

Theorem maj23_stable_prefix s ops1 ops2 m :
  vs_maj23 (final s ops1) = Some m -> vs_maj23 (final s (ops1 ++ ops2)) = Some m.
Proof. rewrite final_app. apply maj23_stable. Qed.

(** * Vote.ValidateBasic / Vote.Verify *)

(** a vote that passes Vote.ValidateBasic has a zero or complete block id: the wire-validity hypothesis
    of C02_commit_roundtrip / C02_commit_to_voteset_inverse is what the reactor enforces on receipt *)
Lemma validate_basic_wire v :
  vote_validate_basic v = true ->
  (bid_is_zero (v_bid v) = true \/ bid_is_complete (v_bid v) = true) /\ s_empty (v_sig v) = false /\
  (v_type v = PREVOTE \/ v_type v = PRECOMMIT).
Proof.
  unfold vote_validate_basic, type_valid. intros H.
  apply andb_true_iff in H. destruct H as [H Hs]. apply andb_true_iff in H. destruct H as [Ht Hb].
  split; [apply orb_true_iff; exact Hb|]. split; [apply negb_true_iff; exact Hs|].
  apply orb_true_iff in Ht. destruct Ht as [Ht|Ht]; apply N.eqb_eq in Ht; auto.
Qed.

(** Vote.Verify accepts exactly the votes naming that address with that address's valid signature *)
Lemma vote_verify_ok chain addr v :
  vote_verify chain addr v = VVOk <-> v_addr v = addr /\ vote_sig_valid chain addr v = true.
Proof.
  unfold vote_verify. destruct (N.eqb_spec (v_addr v) addr) as [E|E]; cbn [negb].
  - destruct (vote_sig_valid chain addr v); split; try discriminate; try tauto. intros [_ H]; discriminate.
  - split; [discriminate|]. intros [H _]. contradiction.
Qed.

(** * VerifyCommit with nil commit and unknown-flag panic *)

Definition tres_x (t : tres) : tresx :=
  match t with TOk z => TXOk z | TSig => TXSig | TAddr => TXAddr end.

Definition flag_known (cs : commitsig) : bool :=
  N.eqb (cs_flag cs) FLAG_ABSENT || N.eqb (cs_flag cs) FLAG_COMMIT || N.eqb (cs_flag cs) FLAG_NIL.

Lemma cs_validate_basic_known cs : cs_validate_basic cs = true -> flag_known cs = true.
Proof.
  unfold cs_validate_basic, flag_known.
  destruct (N.eqb (cs_flag cs) FLAG_ABSENT); [reflexivity|]. cbn [orb].
  destruct (N.eqb (cs_flag cs) FLAG_COMMIT || N.eqb (cs_flag cs) FLAG_NIL); [reflexivity|discriminate].
Qed.

Lemma tally_x_known chain h r cb want vals : forall sigs acc,
  forallb flag_known sigs = true ->
  tally_x chain h r cb want vals sigs acc = tres_x (tally chain h r cb want vals sigs acc).
Proof.
  induction vals as [|val vt IH]; intros sigs acc Hk; [reflexivity|].
  destruct sigs as [|cs st]; [reflexivity|].
  cbn [forallb] in Hk. apply andb_true_iff in Hk. destruct Hk as [Hc Ht].
  cbn [tally_x tally]. unfold flag_known in Hc.
  destruct (N.eqb (cs_flag cs) FLAG_ABSENT) eqn:Ea; [apply IH; exact Ht|]. cbn [orb] in Hc.
  destruct (negb (N.eqb (cs_addr cs) (val_addr val))); [reflexivity|].
  rewrite Hc. cbn [negb].
  destruct (sig_valid _ _ _ _ _ _ _ _); [apply IH; exact Ht|reflexivity].
Qed.

Lemma tally_x_ok chain h r cb want vals : forall sigs acc z,
  tally_x chain h r cb want vals sigs acc = TXOk z -> tally chain h r cb want vals sigs acc = TOk z.
Proof.
  induction vals as [|val vt IH]; intros sigs acc z; [cbn; intros H; injection H as <-; reflexivity|].
  destruct sigs as [|cs st]; [cbn; intros H; injection H as <-; reflexivity|].
  cbn [tally_x tally].
  destruct (N.eqb (cs_flag cs) FLAG_ABSENT); [apply IH|].
  destruct (negb (N.eqb (cs_addr cs) (val_addr val))); [discriminate|].
  destruct (negb (N.eqb (cs_flag cs) FLAG_COMMIT || N.eqb (cs_flag cs) FLAG_NIL)); [discriminate|].
  destruct (sig_valid _ _ _ _ _ _ _ _); [apply IH|discriminate].
Qed.

(** an "ok" of the extended function is an "ok" of [verify_commit] *)
Theorem verify_commit_x_ok vals chain want h c :
  verify_commit_x vals chain want h (Some c) = XErr COk -> verify_commit vals chain want h c = COk.
Proof.
  unfold verify_commit_x, verify_commit.
  destruct (negb (commit_validate_basic c)); [discriminate|].
  destruct (negb (Nat.eqb _ _)); [discriminate|].
  destruct (negb (N.eqb h (c_height c))); [discriminate|].
  destruct (negb (bid_eqb want (c_bid c))); [discriminate|].
  destruct (tally_x _ _ _ _ _ _ _ _) as [z| | |] eqn:E; try discriminate.
  rewrite (tally_x_ok _ _ _ _ _ _ _ _ _ E).
  destruct (Z.leb z (two_thirds vals)); [discriminate|reflexivity].
Qed.

(** no panic, and the same answer, for every commit whose slots ValidateBasic examined *)
Theorem verify_commit_x_validated vals chain want h c :
  (1 <= c_height c)%N ->
  verify_commit_x vals chain want h (Some c) = XErr (verify_commit vals chain want h c).
Proof.
  intros Hh. unfold verify_commit_x, verify_commit.
  destruct (commit_validate_basic c) eqn:Evb; cbn [negb]; [|reflexivity].
  destruct (negb (Nat.eqb _ _)); [reflexivity|].
  destruct (negb (N.eqb h (c_height c))); [reflexivity|].
  destruct (negb (bid_eqb want (c_bid c))); [reflexivity|].
  assert (Hk : forallb flag_known (c_sigs c) = true).
  { unfold commit_validate_basic in Evb. apply N.leb_le in Hh. rewrite Hh in Evb.
    apply andb_true_iff in Evb. destruct Evb as [_ Hf].
    apply forallb_forall. intros cs Hin. apply cs_validate_basic_known.
    eapply forallb_forall in Hf; eauto. }
  rewrite (tally_x_known _ _ _ _ _ _ _ _ Hk).
  destruct (tally _ _ _ _ _ _ _ _) as [z| |]; cbn [tres_x]; try reflexivity.
  destruct (Z.leb z (two_thirds vals)); reflexivity.
Qed.

Theorem verify_commit_x_nil vals chain want h : verify_commit_x vals chain want h None = XNilCommit.
Proof. reflexivity. Qed.

(** * HeightVoteSet *)

Lemma rs_find_set r r' x l :
  rs_find r' (rs_set r x l) = if N.eqb r r' then Some x else rs_find r' l.
Proof.
  induction l as [|[k y] t IH]; cbn [rs_set rs_find].
  - reflexivity.
  - destruct (N.eqb k r) eqn:E; cbn [rs_find].
    + apply N.eqb_eq in E. subst k. destruct (N.eqb r r'); reflexivity.
    + rewrite IH. destruct (N.eqb k r') eqn:E'; [|reflexivity].
      apply N.eqb_eq in E'. subst r'. rewrite N.eqb_sym, E. reflexivity.
Qed.

Lemma cu_find_set p p' x l :
  cu_find p' (cu_set p x l) = if N.eqb p p' then x else cu_find p' l.
Proof.
  induction l as [|[k y] t IH]; cbn [cu_set cu_find].
  - destruct (N.eqb p p'); reflexivity.
  - destruct (N.eqb k p) eqn:E; cbn [cu_find].
    + apply N.eqb_eq in E. subst k. destruct (N.eqb p p'); reflexivity.
    + rewrite IH. destruct (N.eqb k p') eqn:E'; [|reflexivity].
      apply N.eqb_eq in E'. subst p'. rewrite N.eqb_sym, E. reflexivity.
Qed.

Ltac hprj := cbn [with_sets h_chain h_height h_vals h_round h_sets h_catchup rv_pre rv_com] in *.

(** what the scan from round [k] down returns: nothing above the round it names has a prevote majority, and
    that round has one for the id it names; or no round 1..k has any *)
Lemma pol_scan_spec s : forall k r b,
  pol_scan s k = (r, b) ->
  (N.to_nat r <= k)%nat /\
  (forall j, (N.to_nat r < j <= k)%nat -> forall vs, get_vs s (N.of_nat j) PREVOTE = Some vs -> vs_maj23 vs = None) /\
  ((r = 0%N /\ b = bid_zero) \/ (r <> 0%N /\ exists vs, get_vs s r PREVOTE = Some vs /\ vs_maj23 vs = Some b)).
Proof.
  induction k as [|k IH]; intros r b; cbn [pol_scan].
  - intros E; injection E as <- <-. split; [reflexivity|]. split; [intros j Hj; lia|left; auto].
  - destruct (get_vs s (N.of_nat (S k)) PREVOTE) as [vs|] eqn:Eg; [destruct (vs_maj23 vs) as [m|] eqn:Em|]; intros E.
    1: { injection E as <- <-. change (N.pos (Pos.of_succ_nat k)) with (N.of_nat (S k)). rewrite Nat2N.id.
         split; [reflexivity|]. split; [intros j Hj; lia|]. right. split; [discriminate|eauto]. }
    (* nothing at round S k: the answer is that of the scan from k *)
    all: destruct (IH r b E) as [A [B C]]; split; [lia|split; [|exact C]]; intros j Hj vs' Hvs';
      destruct (Nat.eq_dec j (S k)) as [->|Hne]; [congruence|apply (B j); [lia|exact Hvs']].
Qed.

(** ... and it is the LATEST one: no later round up to hvs.round has a prevote majority; when POLInfo
    names no round, no round 1..hvs.round has one. *)
Theorem pol_latest s r b :
  pol_info s = (r, b) ->
  forall r', (r < r' <= h_round s)%N -> forall vs, get_vs s r' PREVOTE = Some vs -> vs_maj23 vs = None.
Proof.
  intros Hp r' Hr' vs Hvs. destruct (pol_scan_spec s _ _ _ Hp) as [_ [B _]].
  apply (B (N.to_nat r')); [lia|]. rewrite N2Nat.id. exact Hvs.
Qed.

Theorem pol_none_zero s b : pol_info s = (0%N, b) -> b = bid_zero.
Proof.
  intros Hp. destruct (pol_scan_spec s _ _ _ Hp) as [_ [_ [[_ B]|[A _]]]]; [exact B|congruence].
Qed.

Section HVS.
Variables (chain ht : N) (vals : list validator).

(** votes offered to the HeightVoteSet (by any peer) *)
Definition offered_h (hops : list hop) (v : vote) : Prop := exists p, In (HVote v p) hops.

(** [vs] is a reachable VoteSet of round [r] and type [ty], over votes offered to the HeightVoteSet *)
Definition set_reach (hops : list hop) (r ty : N) (vs : voteset) : Prop :=
  exists ops, vs = final (new_voteset chain ht r ty vals) ops /\
              forall v, In (OpVote v) ops -> offered_h hops v.

(** rounds the node asked for itself *)
Definition asked (hops : list hop) (r : N) : Prop := exists r0, In (HSetRound r0) hops /\ (r <= r0)%N.

Record hinv (hops : list hop) (s : hvs) : Prop := {
  hi_chain : h_chain s = chain;
  hi_height : h_height s = ht;
  hi_vals : h_vals s = vals;
  hi_sets : forall r rv, rs_find r (h_sets s) = Some rv ->
            set_reach hops r PREVOTE (rv_pre rv) /\ set_reach hops r PRECOMMIT (rv_com rv);
  hi_catchup : forall p, (length (cu_find p (h_catchup s)) <= 2)%nat;
  hi_rounds : forall k, (1 <= k <= h_round s)%N -> rs_find k (h_sets s) <> None;
  hi_open : forall r, rs_find r (h_sets s) <> None ->
            r = 1%N \/ asked hops r \/ exists p, In r (cu_find p (h_catchup s)) }.

Lemma offered_h_mono hops x v : offered_h hops v -> offered_h (hops ++ x) v.
Proof. intros [p Hp]. exists p. apply in_or_app. left. exact Hp. Qed.

Lemma set_reach_mono hops x r ty vs : set_reach hops r ty vs -> set_reach (hops ++ x) r ty vs.
Proof. intros [ops [E H]]. exists ops. split; [exact E|]. intros v Hv. apply offered_h_mono. auto. Qed.

Lemma asked_mono hops x r : asked hops r -> asked (hops ++ x) r.
Proof. intros [r0 [H1 H2]]. exists r0. split; [apply in_or_app; left; exact H1|exact H2]. Qed.

Lemma hinv_mono hops x s : hinv hops s -> hinv (hops ++ x) s.
Proof.
  intros [H1 H2 H3 H4 H5 H6 H7]. constructor; auto.
  - intros r rv Hr. destruct (H4 r rv Hr) as [A B]. split; apply set_reach_mono; assumption.
  - intros r Hr. destruct (H7 r Hr) as [E|[E|E]]; [left; exact E|right; left; apply asked_mono; exact E|right; right; exact E].
Qed.

Lemma set_reach_new hops s r ty :
  h_chain s = chain -> h_height s = ht -> h_vals s = vals ->
  set_reach hops r ty (new_voteset (h_chain s) (h_height s) r ty (h_vals s)).
Proof. intros -> -> ->. exists []. split; [reflexivity|]. intros v []. Qed.

(** what addRound does, with any catch-up table [cu] that bounds every peer's list, keeps what was accounted
    and accounts for the new round (SetRound keeps the table, AddVote charges the round to the peer first) *)
Lemma new_round_inv hops s r cu :
  hinv hops s -> rs_find r (h_sets s) = None ->
  (forall p, (length (cu_find p cu) <= 2)%nat) ->
  (forall k p, In k (cu_find p (h_catchup s)) -> exists q, In k (cu_find q cu)) ->
  (r = 1%N \/ asked hops r \/ exists p, In r (cu_find p cu)) ->
  hinv hops (with_sets s (h_round s) (rs_set r (new_round s r) (h_sets s)) cu).
Proof.
  intros [H1 H2 H3 H4 H5 H6 H7] Hnew Hcu Hkeep Hacc. constructor; hprj; auto.
  - intros k rv. rewrite rs_find_set. destruct (N.eqb_spec r k) as [<-|_]; [|apply H4].
    intros E; injection E as <-. unfold new_round. hprj. split; apply set_reach_new; assumption.
  - intros k Hk. rewrite rs_find_set. destruct (N.eqb r k); [discriminate|apply H6; exact Hk].
  - intros k. rewrite rs_find_set. destruct (N.eqb_spec r k) as [<-|_]; [intros _; exact Hacc|].
    intros Hk. destruct (H7 k Hk) as [A|[A|[p A]]]; [auto|auto|]. right; right. exact (Hkeep k p A).
Qed.

Lemma add_round_inv hops s r s' :
  hinv hops s -> hvs_add_round s r = Some s' -> asked hops r ->
  hinv hops s' /\ h_round s' = h_round s /\
  forall k, rs_find k (h_sets s') = if N.eqb r k then Some (new_round s r) else rs_find k (h_sets s).
Proof.
  intros Hi. unfold hvs_add_round.
  destruct (rs_find r (h_sets s)) eqn:Ef; [discriminate|].
  destruct (N.eqb (h_height s) 0); [discriminate|]. intros E Hacc. injection E as <-. hprj.
  split; [apply new_round_inv; eauto; apply (hi_catchup _ _ Hi)|]. split; [reflexivity|]. intros k. apply rs_find_set.
Qed.

(** the loop of SetRound *)
Lemma add_rounds_inv hops : forall cnt s r s',
  hinv hops s -> add_rounds s r cnt = Some s' ->
  (forall k, (r <= k < r + N.of_nat cnt)%N -> asked hops k) ->
  hinv hops s' /\ h_round s' = h_round s /\
  (forall k, (r <= k < r + N.of_nat cnt)%N -> rs_find k (h_sets s') <> None) /\
  (forall k, rs_find k (h_sets s) <> None -> rs_find k (h_sets s') <> None).
Proof.
  induction cnt as [|cnt IH]; intros s r s' Hi E Hask.
  - cbn [add_rounds] in E. injection E as <-. split; [exact Hi|split; [reflexivity|split; [intros k Hk; lia|auto]]].
  - cbn [add_rounds] in E.
    assert (Hask' : forall k, (N.succ r <= k < N.succ r + N.of_nat cnt)%N -> asked hops k) by (intros k Hk; apply Hask; lia).
    (* after this iteration round [r] exists, and no round has gone *)
    assert (Hstep : exists s1, add_rounds s1 (N.succ r) cnt = Some s' /\ hinv hops s1 /\ h_round s1 = h_round s /\
                               rs_find r (h_sets s1) <> None /\
                               forall k, rs_find k (h_sets s) <> None -> rs_find k (h_sets s1) <> None).
    { destruct (rs_find r (h_sets s)) eqn:Ef.
      { exists s. rewrite Ef. split; [exact E|]. split; [exact Hi|]. split; [reflexivity|]. split; [discriminate|auto]. }
      destruct (hvs_add_round s r) as [s1|] eqn:Ea; [|discriminate].
      destruct (add_round_inv hops s r s1 Hi Ea) as [A1 [B1 C1]]; [apply Hask; lia|].
      exists s1. split; [exact E|split; [exact A1|split; [exact B1|]]].
      split; [rewrite C1, N.eqb_refl; discriminate|]. intros k Hk. rewrite C1. destruct (N.eqb r k); [discriminate|exact Hk]. }
    destruct Hstep as [s1 [E1 [A1 [B1 [C1 D1]]]]].
    destruct (IH s1 (N.succ r) s' A1 E1 Hask') as [A [B [C D]]].
    split; [exact A|split; [congruence|split; [|intros k Hk; apply D, D1; exact Hk]]].
    intros k Hk. destruct (N.eq_dec k r) as [->|Hne]; [apply D; exact C1|apply C; lia].
Qed.

Lemma set_round_inv hops s round s' :
  hinv hops s -> hvs_set_round s round = Some s' -> hinv (hops ++ [HSetRound round]) s' /\ h_round s' = round.
Proof.
  intros Hi. unfold hvs_set_round.
  set (nr := pred32 (h_round s)).
  destruct (N.leb U32MAX round) eqn:Emax; [discriminate|]. apply N.leb_gt in Emax.
  destruct (negb (N.eqb (h_round s) 1) && N.ltb round nr) eqn:Eg; [discriminate|].
  destruct (add_rounds s nr (N.to_nat (N.succ round - nr))) as [s1|] eqn:Ea; [|discriminate].
  intros E; injection E as <-. hprj.
  assert (Hi' : hinv (hops ++ [HSetRound round]) s) by (apply hinv_mono; exact Hi).
  destruct (add_rounds_inv _ _ _ _ _ Hi' Ea) as [A [B [C D]]].
  { intros k Hk. exists round. split; [apply in_or_app; right; left; reflexivity|lia]. }
  split; [|reflexivity].
  pose proof A as [H1 H2 H3 H4 H5 H6 H7]. constructor; hprj; auto.
  intros k Hk.
  (* rounds 1..round: those below newRound existed before (1..h_round s), the others were just created *)
  destruct (N.ltb k nr) eqn:Ek.
  - apply N.ltb_lt in Ek. apply D. apply (hi_rounds _ _ Hi'). unfold nr, pred32 in Ek.
    destruct (N.eqb (h_round s) 0) eqn:E0.
    + (* h_round = 0: newRound = MaxUint32, the guard forces a panic unless round >= newRound *)
      apply N.eqb_eq in E0. rewrite E0 in Eg. cbn [N.eqb negb andb] in Eg.
      apply N.ltb_ge in Eg. unfold nr, pred32 in Eg. rewrite E0 in Eg. cbn [N.eqb] in Eg.
      exfalso. unfold U32MAX in *. lia.
    + apply N.eqb_neq in E0. lia.
  - apply N.ltb_ge in Ek. apply C. lia.
Qed.

Lemma type_valid_cases ty : type_valid ty = true -> ty = PREVOTE \/ ty = PRECOMMIT.
Proof. unfold type_valid. intros H. apply orb_true_iff in H. destruct H as [H|H]; apply N.eqb_eq in H; auto. Qed.

(** updating one vote set of an existing round *)
Lemma put_vs_inv hops s r ty vs' :
  hinv hops s -> type_valid ty = true ->
  rs_find r (h_sets s) <> None -> set_reach hops r ty vs' ->
  hinv hops (put_vs s r ty vs').
Proof.
  intros Hi Hty Hex Hsr. pose proof Hi as [H1 H2 H3 H4 H5 H6 H7]. unfold put_vs.
  destruct (rs_find r (h_sets s)) as [rv|] eqn:Ef; [|exact Hi].
  destruct (H4 r rv Ef) as [Hp Hc].
  constructor; hprj; auto.
  - intros k rv'. rewrite rs_find_set. destruct (N.eqb_spec r k) as [<-|_]; [|apply H4].
    intros E; injection E as <-. destruct (type_valid_cases _ Hty) as [-> | ->]; split; assumption.
  - intros k Hk. rewrite rs_find_set. destruct (N.eqb r k); [discriminate|apply H6; exact Hk].
  - intros k. rewrite rs_find_set. destruct (N.eqb_spec r k) as [<-|_]; [intros _; apply H7; congruence|apply H7].
Qed.

Lemma put_vs_round s r ty vs' : h_round (put_vs s r ty vs') = h_round s.
Proof. unfold put_vs. destruct (rs_find r (h_sets s)); reflexivity. Qed.

Lemma get_vs_reach hops s r ty vs :
  hinv hops s -> type_valid ty = true -> get_vs s r ty = Some vs -> set_reach hops r ty vs.
Proof.
  intros Hi Hty. unfold get_vs. destruct (rs_find r (h_sets s)) as [rv|] eqn:Ef; [|discriminate].
  intros E; injection E as <-. destruct (hi_sets _ _ Hi r rv Ef) as [Hp Hc].
  destruct (type_valid_cases _ Hty) as [-> | ->]; assumption.
Qed.

Lemma get_vs_round s r ty vs : get_vs s r ty = Some vs -> rs_find r (h_sets s) <> None.
Proof. unfold get_vs. destruct (rs_find r (h_sets s)); [discriminate|discriminate]. Qed.

Lemma set_reach_step hops r ty vs o :
  set_reach hops r ty vs -> (forall v, o = OpVote v -> offered_h hops v) ->
  set_reach hops r ty (fst (step vs o)).
Proof.
  intros [ops [E H]] Ho. exists (ops ++ [o]). split.
  - rewrite final_snoc, <- E. reflexivity.
  - intros v Hv. apply in_app_or in Hv. destruct Hv as [Hv|[Hv|[]]]; [auto|apply Ho; exact Hv].
Qed.

Lemma add_vote_inv_h hops s v p s' res :
  hinv hops s -> hvs_add_vote s v p = (s', res) -> res <> HPanic ->
  hinv (hops ++ [HVote v p]) s' /\ h_round s' = h_round s.
Proof.
  intros Hi. unfold hvs_add_vote.
  destruct (type_valid (v_type v)) eqn:Ety; cbn [negb];
    [|intros E _; injection E as <- _; split; [apply hinv_mono; exact Hi|reflexivity]].
  assert (Hoff : offered_h (hops ++ [HVote v p]) v) by (exists p; apply in_or_app; right; left; reflexivity).
  (* the common tail: the vote is added to the (now existing) set *)
  assert (Hgo : forall s1, hinv (hops ++ [HVote v p]) s1 -> h_round s1 = h_round s ->
            forall s2 r2,
            match get_vs s1 (v_round v) (v_type v) with
            | Some vs => let '(vs', added, e) := add_vote vs v in
                         (put_vs s1 (v_round v) (v_type v) vs', HVoted added e)
            | None => (s1, HPanic)
            end = (s2, r2) -> r2 <> HPanic ->
            hinv (hops ++ [HVote v p]) s2 /\ h_round s2 = h_round s).
  { intros s1 Hi1 Hr1 s2 r2. destruct (get_vs s1 (v_round v) (v_type v)) as [vs|] eqn:Eg;
      [|intros E Hn; injection E as _ <-; congruence].
    pose proof (get_vs_reach _ _ _ _ _ Hi1 Ety Eg) as Hsr.
    pose proof (set_reach_step _ _ _ _ (OpVote v) Hsr) as Hst. cbn [step] in Hst.
    destruct (add_vote vs v) as [[vs' added] e] eqn:Eav. cbn [fst] in Hst.
    intros E _. injection E as <- _. split; [|rewrite put_vs_round; exact Hr1].
    apply put_vs_inv; auto.
    - exact (get_vs_round _ _ _ _ Eg).
    - apply Hst. intros v0 E0. injection E0 as <-. exact Hoff. }
  pose proof (hinv_mono _ [HVote v p] _ Hi) as Hi0.
  destruct (get_vs s (v_round v) (v_type v)) as [vs0|] eqn:Eg0.
  - intros E Hn. apply (Hgo s Hi0 eq_refl s' res); [rewrite Eg0; exact E|exact Hn].
  - destruct (Nat.ltb (length (cu_find p (h_catchup s))) 2) eqn:Elt;
      [|intros E _; injection E as <- _; split; [exact Hi0|reflexivity]].
    apply Nat.ltb_lt in Elt. unfold hvs_add_round.
    destruct (rs_find (v_round v) (h_sets s)) eqn:Ef; [intros E Hn; injection E as _ <-; congruence|].
    destruct (N.eqb (h_height s) 0); [intros E Hn; injection E as _ <-; congruence|]. hprj.
    (* the round is added and charged to the peer, whose list had room for it *)
    apply Hgo; [|reflexivity].
    apply (new_round_inv _ s (v_round v) (cu_set p (cu_find p (h_catchup s) ++ [v_round v]) (h_catchup s))); auto.
    + intros q. rewrite cu_find_set. destruct (N.eqb p q); [|apply (hi_catchup _ _ Hi0)].
      rewrite app_length. cbn [length]. lia.
    + intros k q Hk. destruct (N.eqb_spec p q) as [<-|Hne].
      * exists p. rewrite cu_find_set, N.eqb_refl. apply in_or_app. left. exact Hk.
      * exists q. rewrite cu_find_set, (proj2 (N.eqb_neq p q) Hne). exact Hk.
    + right; right. exists p. rewrite cu_find_set, N.eqb_refl. apply in_or_app. right. left. reflexivity.
Qed.

Lemma set_peer_inv_h hops s r ty p b :
  hinv hops s ->
  hinv (hops ++ [HPeer r ty p b]) (fst (hvs_set_peer_maj23 s r ty p b)) /\
  h_round (fst (hvs_set_peer_maj23 s r ty p b)) = h_round s.
Proof.
  intros Hi. unfold hvs_set_peer_maj23.
  destruct (type_valid ty) eqn:Ety; cbn [negb]; [|cbn [fst]; split; [apply hinv_mono; exact Hi|reflexivity]].
  destruct (get_vs s r ty) as [vs|] eqn:Eg; [|cbn [fst]; split; [apply hinv_mono; exact Hi|reflexivity]].
  assert (Hi' : hinv (hops ++ [HPeer r ty p b]) s) by (apply hinv_mono; exact Hi).
  pose proof (get_vs_reach _ _ _ _ _ Hi' Ety Eg) as Hsr.
  pose proof (set_reach_step _ _ _ _ (OpPeer p b) Hsr) as Hst. cbn [step] in Hst.
  destruct (set_peer_maj23 vs p b) as [vs' e] eqn:Esp. cbn [fst] in *.
  split; [|apply put_vs_round]. apply put_vs_inv; auto.
  - exact (get_vs_round _ _ _ _ Eg).
  - apply Hst. intros v0 E0. discriminate E0.
Qed.

Lemma step_inv_h hops s o s' : hinv hops s -> hvs_step s o = Some s' -> hinv (hops ++ [o]) s'.
Proof.
  intros Hi. destruct o as [r|v p|r ty p b]; cbn [hvs_step].
  - intros E. apply (set_round_inv _ _ _ _ Hi E).
  - destruct (hvs_add_vote s v p) as [s1 res] eqn:E. intros E'.
    assert (Hn : res <> HPanic) by (intros ->; discriminate E').
    assert (Hs : s1 = s') by (destruct res; try discriminate E'; injection E' as E'; exact E').
    subst s1. apply (add_vote_inv_h _ _ _ _ _ _ Hi E Hn).
  - intros E; injection E as <-. apply set_peer_inv_h. exact Hi.
Qed.

Lemma run_inv_h ops : forall hops s s', hinv hops s -> hvs_run s ops = Some s' -> hinv (hops ++ ops) s'.
Proof.
  induction ops as [|o t IH]; intros hops s s' Hi; cbn [hvs_run].
  - intros E; injection E as <-. rewrite app_nil_r. exact Hi.
  - destruct (hvs_step s o) as [s1|] eqn:E; [|discriminate]. intros E'.
    replace (hops ++ o :: t) with ((hops ++ [o]) ++ t) by (rewrite <- app_assoc; reflexivity).
    eapply IH; [eapply step_inv_h; eauto|exact E'].
Qed.

Lemma new_inv s : hvs_new chain ht vals = Some s -> hinv [] s.
Proof.
  unfold hvs_new, hvs_add_round. cbn [h_sets rs_find h_height].
  destruct (N.eqb ht 0); [discriminate|]. intros E; injection E as <-. hprj. cbn [rs_set].
  constructor; hprj; auto.
  - intros r rv. cbn [rs_find]. destruct (N.eqb 1 r) eqn:E1; [|discriminate].
    apply N.eqb_eq in E1. subst r. intros E; injection E as <-. unfold new_round. hprj.
    split; (exists []; split; [reflexivity|intros v []]).
  - intros k Hk. assert (k = 1%N) by lia. subst k. cbn [rs_find N.eqb Pos.eqb]. discriminate.
  - intros r. cbn [rs_find]. destruct (N.eqb_spec 1 r) as [<-|_]; [auto|congruence].
Qed.

(** every state reached from NewHeightVoteSet by calls that did not panic *)
Theorem reach_inv_h s0 hops s :
  hvs_new chain ht vals = Some s0 -> hvs_run s0 hops = Some s -> hinv hops s.
Proof. intros H0 Hr. apply (run_inv_h hops [] s0 s (new_inv _ H0) Hr). Qed.

Hypothesis Hwf : wf_vals vals.

(** POLInfo is sound: the round it names is within 1..hvs.round, and distinct validators holding strictly
    more than 2/3 sent valid prevotes (offered to this HeightVoteSet, of this height and exactly that
    round) for exactly that block id. *)
Theorem pol_sound s0 hops s r b :
  hvs_new chain ht vals = Some s0 -> hvs_run s0 hops = Some s ->
  pol_info s = (r, b) -> r <> 0%N ->
  (1 <= r <= h_round s)%N /\
  exists w : list (option vote),
    length w = length vals /\
    (forall i v, vote_at w i = Some v ->
       offered_h hops v /\ valid_vote_of chain ht r PREVOTE vals i v /\ v_bid v = b) /\
    2 * sum_powers vals < 3 * voters_power vals w.
Proof.
  intros H0 Hr Hp Hnz. pose proof (reach_inv_h _ _ _ H0 Hr) as Hi.
  destruct (pol_scan_spec s _ _ _ Hp) as [A [_ [[E _]|[_ [vs [Eg Em]]]]]]; [congruence|].
  split; [lia|].
  assert (Hty : type_valid PREVOTE = true) by reflexivity.
  destruct (get_vs_reach _ _ _ _ _ Hi Hty Eg) as [ops [Evs Hoff]].
  rewrite Evs in Em.
  destruct (maj23_sound chain ht r PREVOTE vals Hwf ops b Em) as [bv [_ [Hl [Hv Hq]]]].
  exists (bv_votes bv). split; [exact Hl|split; [|exact Hq]].
  intros i v Hiv. destruct (Hv i v Hiv) as [[Ho Hvv] Hb]. split; [apply Hoff; exact Ho|split; assumption].
Qed.

(** Catch-up rounds are bounded: a peer's list never exceeds two rounds, and every open round is round 1,
    at most a round the node itself asked for with SetRound, or in some peer's list. *)
Theorem catchup_bounded s0 hops s :
  hvs_new chain ht vals = Some s0 -> hvs_run s0 hops = Some s ->
  (forall p, (length (cu_find p (h_catchup s)) <= 2)%nat) /\
  (forall r, rs_find r (h_sets s) <> None ->
     r = 1%N \/ (exists r0, In (HSetRound r0) hops /\ (r <= r0)%N) \/ exists p, In r (cu_find p (h_catchup s))) /\
  (forall k, (1 <= k <= h_round s)%N -> rs_find k (h_sets s) <> None).
Proof.
  intros H0 Hr. pose proof (reach_inv_h _ _ _ H0 Hr) as Hi.
  split; [apply (hi_catchup _ _ Hi)|split; [|apply (hi_rounds _ _ Hi)]].
  apply (hi_open _ _ Hi).
Qed.

(** Every per-round vote set is a reachable VoteSet of that height, round and type whose history consists
    of votes offered to the HeightVoteSet: all C02 vote-set theorems apply to it. *)
Theorem hvs_sets_reachable s0 hops s r ty vs :
  hvs_new chain ht vals = Some s0 -> hvs_run s0 hops = Some s ->
  type_valid ty = true -> get_vs s r ty = Some vs ->
  exists ops, vs = final (new_voteset chain ht r ty vals) ops /\
              forall v, In (OpVote v) ops -> offered_h hops v.
Proof.
  intros H0 Hr Hty Hg. exact (get_vs_reach _ _ _ _ _ (reach_inv_h _ _ _ H0 Hr) Hty Hg).
Qed.

End HVS.

(** Non-vacuity: a HeightVoteSet history with a SetRound, a catch-up round and a prevote majority in
    round 2, for which POLInfo names round 2. *)
Definition exh_vals : list validator :=
  [{| val_addr := 11; val_power := 1 |}; {| val_addr := 12; val_power := 1 |}; {| val_addr := 13; val_power := 1 |}].
Definition exh_B : blockid := {| b_hash := 100; b_total := 1; b_phash := 200 |}.
Definition exh_vote (i addr r : N) (sid : N) : vote :=
  {| v_idx := i; v_addr := addr; v_height := 5; v_round := r; v_type := PREVOTE; v_time := 3; v_bid := exh_B;
     v_sig := {| s_id := sid; s_empty := false; s_signer := addr; s_chain := 7; s_type := PREVOTE; s_height := 5;
                 s_round := r; s_bid := exh_B; s_time := 3 |} |}.
Definition exh_ops : list hop :=
  [HVote (exh_vote 0 11 2 1) 1; HSetRound 2; HVote (exh_vote 1 12 2 2) 0; HVote (exh_vote 2 13 2 3) 2;
   HVote (exh_vote 0 11 7 4) 1; HVote (exh_vote 0 11 8 5) 1].

Lemma hvs_example :
  exists s0 s, hvs_new 7 5 exh_vals = Some s0 /\ hvs_run s0 exh_ops = Some s /\
               pol_info s = (2%N, exh_B) /\ wf_vals exh_vals /\
               snd (hvs_add_vote s (exh_vote 0 11 8 5) 1) = HUnwanted.
Proof.
  eexists. eexists. split; [vm_compute; reflexivity|]. split; [vm_compute; reflexivity|].
  split; [vm_compute; reflexivity|]. split.
  - split; [repeat constructor; cbn; lia|]. vm_compute. discriminate.
  - vm_compute. reflexivity.
Qed.
