(** C02 — the arithmetic of "+2/3" (strictness, no int64 wrap below the cap), the equality tests of block ids,
    and VerifyCommit: the slot test of its tally loop, what the tally computes, soundness. *)
From Coq Require Import List ZArith NArith Bool Lia.
From Kardia Require Import Base.Int64 C02.Model Generated.C02Facts.
Import ListNotations.
Local Open Scope Z_scope.
Ltac Zify.zify_post_hook ::= Z.div_mod_to_equations.

(** * Arithmetic of "+2/3" *)

Definition sum_powers (vals : list validator) : Z := fold_right (fun v acc => val_power v + acc) 0 vals.

(** what NewValidatorSet / UpdateWithChangeSet guarantee (C12): non-negative powers, total below the cap *)
Definition wf_vals (vals : list validator) : Prop :=
  Forall (fun v => 0 <= val_power v) vals /\ sum_powers vals <= max_total_voting_power.

(** side condition on the generated constant: the cap is positive and 8*cap fits in int64 (2*cap + 1 is what is used) *)
Lemma cap_fits : 0 < max_total_voting_power /\ 8 * max_total_voting_power <= max_int64.
Proof. unfold max_total_voting_power, max_int64, two63. lia. Qed.

Lemma nonneg_in_int64 x : 0 <= x <= max_int64 -> in_int64 x.
Proof. unfold in_int64, min_int64, max_int64, two63. lia. Qed.

Lemma sum_powers_nonneg vals : Forall (fun v => 0 <= val_power v) vals -> 0 <= sum_powers vals.
Proof. induction 1; simpl; lia. Qed.

Lemma fold_clip_exact vals acc :
  Forall (fun v => 0 <= val_power v) vals -> 0 <= acc -> acc + sum_powers vals <= max_int64 ->
  fold_left (fun a v => safe_add_clip a (val_power v)) vals acc = acc + sum_powers vals.
Proof.
  intros Hf; revert acc; induction Hf as [|v vs Hv Hvs IH]; simpl; intros acc Ha Hb; [lia|].
  pose proof (sum_powers_nonneg _ Hvs) as Hn.
  rewrite safe_add_clip_exact by (apply nonneg_in_int64; lia).
  rewrite IH; lia.
Qed.

Lemma total_power_exact vals : wf_vals vals -> total_power vals = sum_powers vals.
Proof.
  intros [Hf Hc]. pose proof cap_fits. unfold total_power. rewrite fold_clip_exact; auto; lia.
Qed.

(** T*2/3 in int64 is the exact quotient for a total below the cap *)
Lemma div64_two_thirds T : 0 <= T <= max_total_voting_power -> div64 (wrap64 (T * 2)) 3 = T * 2 / 3.
Proof.
  intros H. pose proof cap_fits. unfold div64.
  rewrite (wrap64_id (T * 2)) by (apply nonneg_in_int64; lia).
  rewrite Z.quot_div_nonneg by lia. apply wrap64_id, nonneg_in_int64. lia.
Qed.

Lemma two_thirds_exact vals : wf_vals vals -> two_thirds vals = sum_powers vals * 2 / 3.
Proof.
  intros Hw. unfold two_thirds. rewrite total_power_exact by exact Hw.
  destruct Hw as [Hf Hc]. pose proof (sum_powers_nonneg _ Hf). apply div64_two_thirds. lia.
Qed.

Lemma quorum_two_thirds vals : quorum vals = wrap64 (two_thirds vals + 1).
Proof. unfold quorum, two_thirds. reflexivity. Qed.

Lemma quorum_exact vals : wf_vals vals -> quorum vals = sum_powers vals * 2 / 3 + 1.
Proof.
  intros Hw. rewrite quorum_two_thirds, two_thirds_exact by exact Hw.
  destruct Hw as [Hf Hc]. pose proof (sum_powers_nonneg _ Hf). pose proof cap_fits.
  apply wrap64_id, nonneg_in_int64. lia.
Qed.

(** the strict two-thirds reading of the integer quorum: for every total T >= 0,
    T*2/3 + 1 <= s  <->  2*T < 3*s   and   T*2/3 < s  <->  2*T < 3*s *)
Lemma quorum_arith T s : 0 <= T -> (T * 2 / 3 + 1 <= s <-> 2 * T < 3 * s).
Proof. intros; lia. Qed.
Lemma any_arith T s : 0 <= T -> (T * 2 / 3 < s <-> 2 * T < 3 * s).
Proof. intros; lia. Qed.

(** * Equality tests *)

Lemma bid_eqb_eq a b : bid_eqb a b = true <-> a = b.
Proof.
  unfold bid_eqb. destruct a, b; simpl. rewrite !andb_true_iff, !N.eqb_eq.
  split; [intros [[-> ->] ->]; reflexivity | intros H; inversion H; auto].
Qed.

Lemma key_eqb_bid_eqb a b : key_eqb a b = bid_eqb a b.
Proof.
  unfold key_eqb, bid_eqb, key. destruct a as [h1 t1 p1], b as [h2 t2 p2]; simpl.
  destruct (N.eqb h1 h2), (N.eqb p1 p2), (N.eqb t1 t2); reflexivity.
Qed.

(** BlockID.Key is injective: equal keys mean equal block ids (all three components) *)
Lemma key_injective a b : key a = key b -> a = b.
Proof. unfold key; destruct a, b; simpl; intros H; inversion H; reflexivity. Qed.

Lemma key_eqb_eq a b : key_eqb a b = true <-> a = b.
Proof. rewrite key_eqb_bid_eqb. apply bid_eqb_eq. Qed.

Lemma bid_eqb_refl b : bid_eqb b b = true.
Proof. apply bid_eqb_eq. reflexivity. Qed.

Lemma key_eqb_refl b : key_eqb b b = true.
Proof. apply key_eqb_eq. reflexivity. Qed.

Lemma key_eqb_false a b : key_eqb a b = false <-> a <> b.
Proof.
  split.
  - intros H E. apply key_eqb_eq in E. congruence.
  - intros H. destruct (key_eqb a b) eqn:E; [|reflexivity]. apply key_eqb_eq in E. contradiction.
Qed.

Lemma bid_eqb_zero b : bid_eqb b bid_zero = bid_is_zero b.
Proof. symmetry. apply andb_assoc. Qed.

Lemma bid_is_zero_eq b : bid_is_zero b = true -> b = bid_zero.
Proof.
  unfold bid_is_zero, bid_zero. destruct b as [hh t p]; cbn. rewrite !andb_true_iff, !N.eqb_eq.
  intros [-> [-> ->]]. reflexivity.
Qed.

Lemma bid_complete_not_zero b : bid_is_complete b = true -> bid_is_zero b = false.
Proof.
  unfold bid_is_complete, bid_is_zero. destruct (N.eqb (b_hash b) 0); simpl; [discriminate|reflexivity].
Qed.

(** * VerifyCommit soundness *)

(** commit signature [cs] is a valid precommit signature of [val] for exactly block [want]
    at (chain, h, r) *)
Definition signs_block (chain h r : N) (want : blockid) (val : validator) (cs : commitsig) : bool :=
  N.eqb (cs_flag cs) FLAG_COMMIT &&
  sig_valid chain (val_addr val) PRECOMMIT h r want (cs_time cs) (cs_sig cs).

(** exact (unbounded) power of the distinct validators — one position each — whose commit
    signature validly signs [want] *)
Fixpoint signed_power (chain h r : N) (want : blockid) (vals : list validator) (sigs : list commitsig) : Z :=
  match vals, sigs with
  | val :: vt, cs :: st =>
    (if signs_block chain h r want val cs then val_power val else 0) + signed_power chain h r want vt st
  | _, _ => 0
  end.

Lemma signed_power_bounds chain h r want vals sigs :
  Forall (fun v => 0 <= val_power v) vals ->
  0 <= signed_power chain h r want vals sigs <= sum_powers vals.
Proof.
  intros Hf; revert sigs; induction Hf as [|v vs Hv Hvs IH]; intros sigs; simpl; [destruct sigs; lia|].
  destruct sigs as [|cs st]; simpl.
  - pose proof (sum_powers_nonneg _ Hvs). lia.
  - specialize (IH st). destruct (signs_block _ _ _ _ _ _); lia.
Qed.

(** without overflow, the tally for a non-nil [want] is the power of the slots that sign [want] *)
Lemma tally_exact chain h r want vals sigs acc got :
  Forall (fun v => 0 <= val_power v) vals -> 0 <= acc -> acc + sum_powers vals <= max_int64 ->
  bid_is_zero want = false ->
  tally chain h r want want vals sigs acc = TOk got ->
  got = acc + signed_power chain h r want vals sigs.
Proof.
  intros Hf; revert sigs acc; induction Hf as [|v vs Hv Hvs IH]; intros sigs acc Ha Hb Hz Ht.
  - simpl in *. destruct sigs; inversion Ht; lia.
  - destruct sigs as [|cs st]; [simpl in *; inversion Ht; lia|].
    pose proof (sum_powers_nonneg _ Hvs) as Hn.
    cbn [tally signed_power] in *. change (sum_powers (v :: vs)) with (val_power v + sum_powers vs) in *.
    unfold signs_block.
    destruct (N.eqb (cs_flag cs) FLAG_ABSENT) eqn:Eabs.
    + apply N.eqb_eq in Eabs. rewrite Eabs. change (N.eqb FLAG_ABSENT FLAG_COMMIT) with false. cbn [andb].
      apply IH in Ht; auto; lia.
    + destruct (N.eqb (cs_addr cs) (val_addr v)); cbn [negb] in Ht; [|discriminate].
      destruct (N.eqb (cs_flag cs) FLAG_COMMIT); cbn [andb].
      * destruct (sig_valid chain (val_addr v) PRECOMMIT h r want (cs_time cs) (cs_sig cs)); [|discriminate].
        rewrite bid_eqb_refl in Ht.
        rewrite wrap64_id in Ht by (apply nonneg_in_int64; lia).
        apply IH in Ht; auto; lia.
      * destruct (sig_valid chain (val_addr v) PRECOMMIT h r bid_zero (cs_time cs) (cs_sig cs)); [|discriminate].
        rewrite bid_eqb_zero, Hz in Ht. apply IH in Ht; auto; lia.
Qed.

(** what an "ok" of VerifyCommit went through *)
Lemma verify_commit_ok vals chain want h c :
  verify_commit vals chain want h c = COk ->
  commit_validate_basic c = true /\ length vals = length (c_sigs c) /\ h = c_height c /\ want = c_bid c /\
  exists got, tally chain h (c_round c) want want vals (c_sigs c) 0 = TOk got /\ two_thirds vals < got.
Proof.
  unfold verify_commit.
  destruct (commit_validate_basic c); cbn [negb]; [|discriminate].
  destruct (Nat.eqb_spec (length vals) (length (c_sigs c))) as [Hl|]; cbn [negb]; [|discriminate].
  destruct (N.eqb_spec h (c_height c)) as [<-|]; cbn [negb]; [|discriminate].
  destruct (bid_eqb want (c_bid c)) eqn:Eb; cbn [negb]; [|discriminate]. apply bid_eqb_eq in Eb. rewrite <- Eb.
  destruct (tally chain h (c_round c) want want vals (c_sigs c) 0) as [got| |]; [|discriminate|discriminate].
  destruct (Z.leb_spec got (two_thirds vals)); [discriminate|]. eauto 7.
Qed.

(** VerifyCommit accepts only a commit of the right size, height and block id in which
    distinct validators of [vals] holding strictly more than 2/3 of the total power validly
    signed a precommit for exactly [want] at (chain, h, round of the commit). *)
Theorem verify_commit_sound vals chain want h c :
  wf_vals vals -> (1 <= h)%N ->
  verify_commit vals chain want h c = COk ->
  length (c_sigs c) = length vals /\ c_height c = h /\ c_bid c = want /\
  2 * sum_powers vals < 3 * signed_power chain h (c_round c) want vals (c_sigs c).
Proof.
  intros Hw Hh Hok. destruct (verify_commit_ok _ _ _ _ _ Hok) as [Hvb [Hl [Ehh [Eb [got [Ht Hgt]]]]]].
  pose proof Hw as [Hf Hc]. pose proof cap_fits as [_ Hcap]. pose proof (sum_powers_nonneg _ Hf) as Hn.
  (* ValidateBasic refuses the nil block id from height 1 on *)
  assert (Hnz : bid_is_zero want = false).
  { unfold commit_validate_basic in Hvb. rewrite <- Ehh, (proj2 (N.leb_le 1 h) Hh), <- Eb in Hvb.
    destruct (bid_is_zero want); [discriminate|reflexivity]. }
  apply tally_exact in Ht; auto; try lia.
  rewrite two_thirds_exact in Hgt by exact Hw. repeat split; auto. lia.
Qed.

(** the test a slot has to pass in the tally loop: it is absent, or it names the validator of its position
    (the address is not covered by the sign bytes, but MedianTime weighs the slot's timestamp by it) and carries
    that validator's valid precommit signature, for [cb] under the COMMIT flag and for nil otherwise *)
Definition slot_passes (chain h r : N) (cb : blockid) (val : validator) (cs : commitsig) : bool :=
  N.eqb (cs_flag cs) FLAG_ABSENT ||
  N.eqb (cs_addr cs) (val_addr val) &&
  sig_valid chain (val_addr val) PRECOMMIT h r (if N.eqb (cs_flag cs) FLAG_COMMIT then cb else bid_zero)
            (cs_time cs) (cs_sig cs).

(** the loop runs to its end exactly when every slot passes *)
Lemma tally_ok_passes chain h r cb want vals sigs acc got :
  tally chain h r cb want vals sigs acc = TOk got ->
  forall i val cs, nth_error vals i = Some val -> nth_error sigs i = Some cs -> slot_passes chain h r cb val cs = true.
Proof.
  revert sigs acc; induction vals as [|v vs IH]; intros sigs acc Ht i val cs Hv Hc; [destruct i; discriminate|].
  destruct sigs as [|c0 st]; [destruct i; discriminate|].
  cbn [tally] in Ht.
  assert (Hhead : slot_passes chain h r cb v c0 = true /\ exists acc', tally chain h r cb want vs st acc' = TOk got).
  { unfold slot_passes. destruct (N.eqb (cs_flag c0) FLAG_ABSENT); [eauto|].
    destruct (N.eqb (cs_addr c0) (val_addr v)); cbn [negb] in Ht; [|discriminate].
    destruct (sig_valid chain (val_addr v) PRECOMMIT h r _ (cs_time c0) (cs_sig c0)); [eauto|discriminate]. }
  destruct Hhead as [Hp [acc' Ht']]. destruct i as [|i]; cbn [nth_error] in Hv, Hc.
  - injection Hv as <-. injection Hc as <-. exact Hp.
  - exact (IH st acc' Ht' i val cs Hv Hc).
Qed.

Lemma tally_passes chain h r cb want vals sigs acc :
  (forall i val cs, nth_error vals i = Some val -> nth_error sigs i = Some cs -> slot_passes chain h r cb val cs = true) ->
  exists got, tally chain h r cb want vals sigs acc = TOk got.
Proof.
  revert sigs acc; induction vals as [|v vs IH]; intros sigs acc H; [eexists; reflexivity|].
  destruct sigs as [|c0 st]; [eexists; reflexivity|].
  pose proof (H O v c0 eq_refl eq_refl) as Hp.
  assert (Ht : forall acc', exists got, tally chain h r cb want vs st acc' = TOk got)
    by (intros acc'; apply IH; intros i; exact (H (S i))).
  cbn [tally]. unfold slot_passes in Hp.
  destruct (N.eqb (cs_flag c0) FLAG_ABSENT); [apply Ht|]. cbn [orb] in Hp.
  apply andb_true_iff in Hp. destruct Hp as [-> ->]. apply Ht.
Qed.

Theorem verify_commit_addresses vals chain want h c :
  verify_commit vals chain want h c = COk ->
  forall i val cs, nth_error vals i = Some val -> nth_error (c_sigs c) i = Some cs ->
    N.eqb (cs_flag cs) FLAG_ABSENT = false -> cs_addr cs = val_addr val.
Proof.
  intros Hok i val cs Hv Hc Hna. destruct (verify_commit_ok _ _ _ _ _ Hok) as [_ [_ [_ [_ [got [Ht _]]]]]].
  pose proof (tally_ok_passes _ _ _ _ _ _ _ _ _ Ht i val cs Hv Hc) as Hp.
  unfold slot_passes in Hp. rewrite Hna in Hp. apply andb_true_iff in Hp. apply N.eqb_eq. exact (proj1 Hp).
Qed.
