(** C16 — raw.go (Split, CountValues) against the encoder. *)
From Coq Require Import List ZArith NArith Bool Lia Arith.
From Coq Require Import Init.Byte.
From Kardia Require Import C16.Model C16.ProofsBase C16.ProofsItem.
Import ListNotations.
Local Open Scope N_scope.

Lemma raw_read_size_be size rest :
  56 <= size ->
  raw_read_size (be_bytes size ++ rest) (len (be_bytes size)) = ROk size.
Proof.
  intros Hs. unfold raw_read_size. rewrite len_app.
  destruct (N.ltb_spec (len (be_bytes size) + len rest) (len (be_bytes size))); [lia|].
  rewrite take_app_len, be_val_bytes.
  destruct (N.ltb_spec size 56); [lia|]. cbn [orb].
  pose proof (be_bytes_hd size ltac:(lia)) as Hhd.
  destruct (be_bytes size) as [|b r] eqn:E.
  - apply be_bytes_nil in E. lia.
  - cbn [app hd] in *. destruct (N.eqb_spec (bN b) 0); [contradiction|reflexivity].
Qed.

(** the header of a string/list of [size] bytes, as raw.go's readKind sees it *)
Lemma raw_read_kind_head (small large : N) (k : kind) size rest :
  head_tags small large k ->
  size <= len rest -> fits64 size ->
  (k = KString -> size = 1 -> 128 <= bN (hd x00 rest)) ->
  raw_read_kind (head small large size ++ rest) = ROk (k, len (head small large size), size).
Proof.
  intros Hsl Hs Hf Hcanon. unfold head.
  destruct (N.ltb_spec size 56) as [Hlt|Hge]; cbn [app]; unfold raw_read_kind.
  - rewrite !len_cons. change (len (@nil byte)) with 0.
    destruct Hsl as [(-> & -> & ->)|(-> & -> & ->)]; rewrite bN_Nb by lia.
    + specialize (Hcanon eq_refl). replace (128 + size - 128) with size by lia. ltb_cases; reflexivity.
    + replace (192 + size - 192) with size by lia. ltb_cases. reflexivity.
  - pose proof (be_bytes_len_le8 size Hf) as H8.
    pose proof (be_bytes_len_pos size ltac:(lia)) as H1.
    rewrite !len_cons, !len_app.
    destruct Hsl as [(-> & -> & ->)|(-> & -> & ->)]; rewrite bN_Nb by lia; ltb_cases.
    + replace (183 + len (be_bytes size) - 183) with (len (be_bytes size)) by lia.
      rewrite raw_read_size_be by assumption. ltb_cases. do 3 f_equal. lia.
    + replace (247 + len (be_bytes size) - 247) with (len (be_bytes size)) by lia.
      rewrite raw_read_size_be by assumption. ltb_cases. do 3 f_equal. lia.
Qed.

Lemma raw_read_kind_byte b rest : bN b < 128 -> raw_read_kind (b :: rest) = ROk (KByte, 0, 1).
Proof.
  intros Hb. unfold raw_read_kind. destruct (N.ltb_spec (bN b) 128); [|lia].
  rewrite len_cons. destruct (N.ltb_spec (1 + len rest - 0) 1); [lia|reflexivity].
Qed.

(** what raw.go reports for the encoding of one item *)
Definition item_kind (x : item) : kind :=
  match x with
  | Str [b] => if bN b <? 128 then KByte else KString
  | Str _ => KString
  | List _ => KList
  end.
Definition item_content (x : item) : bytes :=
  match x with Str b => b | List l => flat_map encode l end.

(** raw.go's readKind on an encoding: the kind, and tag size + content size = the whole encoding *)
Lemma raw_read_kind_encode x rest :
  fits64 (len (encode x)) ->
  exists ts, raw_read_kind (encode x ++ rest) = ROk (item_kind x, ts, len (item_content x)) /\
             ts + len (item_content x) = len (encode x) /\ drop ts (encode x) = item_content x.
Proof.
  intros Hf. destruct x as [b|l]; cbn [encode item_kind item_content] in *.
  - destruct (enc_str_cases b) as [(x & -> & Hx & E)|(Hne & E)]; rewrite E in *.
    + exists 0. cbn [app]. rewrite raw_read_kind_byte by assumption.
      destruct (N.ltb_spec (bN x) 128); [|lia]. repeat split; reflexivity.
    + exists (len (str_head (len b))). rewrite <- app_assoc.
      assert (Hfb : fits64 (len b)) by (rewrite len_app in Hf; unfold fits64 in *; lia).
      rewrite (raw_read_kind_head 128 183 KString); [| left; auto | rewrite len_app; lia | exact Hfb |].
      * split; [|split; [symmetry; apply len_app|apply drop_app_len]].
        destruct b as [|y [|z l]]; try reflexivity.
        specialize (Hne y eq_refl). destruct (N.ltb_spec (bN y) 128); [lia|reflexivity].
      * intros _ E1. destruct b as [|y [|z l]]; try (cbn in E1; rewrite ?len_cons in E1; lia).
        cbn [app hd]. apply Hne. reflexivity.
  - exists (len (list_head (len (flat_map encode l)))). unfold enc_list in *. rewrite <- app_assoc.
    assert (Hfp : fits64 (len (flat_map encode l))) by (rewrite len_app in Hf; unfold fits64 in *; lia).
    rewrite (raw_read_kind_head 192 247 KList); [| right; auto | rewrite len_app; lia | exact Hfp | discriminate].
    split; [reflexivity|]. split; [symmetry; apply len_app|apply drop_app_len].
Qed.

(** so the value after it starts where the encoding ends *)
Lemma raw_read_kind_next x rest :
  fits64 (len (encode x)) ->
  exists k ts cs, raw_read_kind (encode x ++ rest) = ROk (k, ts, cs) /\
                  take (ts + cs) (encode x ++ rest) = encode x /\ drop (ts + cs) (encode x ++ rest) = rest.
Proof.
  intros Hf. destruct (raw_read_kind_encode x rest Hf) as (ts & Hk & Hlen & _).
  eexists _, _, _. split; [exact Hk|]. rewrite Hlen. split; [apply take_app_len|apply drop_app_len].
Qed.

Lemma split_encode x rest :
  len (encode x) < two64 ->
  split (encode x ++ rest) = ROk (item_kind x, item_content x, rest).
Proof.
  intros Hf. destruct (raw_read_kind_encode x rest Hf) as (ts & Hk & Hlen & Hc).
  unfold split. rewrite Hk, Hlen, drop_app_len, drop_app_le, Hc, take_app_len by lia. reflexivity.
Qed.

Lemma encode_app_nonempty x r : encode x ++ r <> [].
Proof. intros [E _]%app_eq_nil. exact (encode_nonempty x E). Qed.
Lemma encode_length_pos x : (1 <= length (encode x))%nat.
Proof. pose proof (encode_nonempty x). destruct (encode x); [contradiction|cbn; lia]. Qed.

Lemma count_values_aux_step fuel b i : b <> [] ->
  count_values_aux (S fuel) b i =
  match raw_read_kind b with
  | RErr e => RErr e
  | ROk (_, ts, cs) => count_values_aux fuel (drop (ts + cs) b) (i + 1)
  end.
Proof. destruct b; [contradiction|reflexivity]. Qed.

Lemma count_values_aux_encode l : forall fuel i,
  (length (flat_map encode l) <= fuel)%nat -> fits64 (len (flat_map encode l)) ->
  count_values_aux fuel (flat_map encode l) i = ROk (i + len l).
Proof.
  induction l as [|x l IH]; intros fuel i Hfuel Hf.
  - cbn. destruct fuel; cbn; f_equal; lia.
  - cbn [flat_map] in *. rewrite len_app in Hf. rewrite app_length in Hfuel.
    pose proof (encode_length_pos x).
    destruct (raw_read_kind_next x (flat_map encode l)) as (k & ts & cs & Hk & _ & Hd); [unfold fits64 in *; lia|].
    destruct fuel as [|fuel]; [lia|].
    rewrite count_values_aux_step, Hk, Hd by apply encode_app_nonempty.
    rewrite IH; [f_equal; rewrite len_cons; lia|lia|unfold fits64 in *; lia].
Qed.

Lemma count_values_encode l :
  len (flat_map encode l) < two64 -> count_values (flat_map encode l) = ROk (len l).
Proof.
  intros Hf. unfold count_values. rewrite count_values_aux_encode; [f_equal; lia|apply le_n|exact Hf].
Qed.
