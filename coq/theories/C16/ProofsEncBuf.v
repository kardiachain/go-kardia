(** C16 — the encoder's buffer as the code has it (encbuffer.go: string data, deferred list
    headers, running header size, copyTo) produces the functional encoding. *)
From Coq Require Import List ZArith NArith Bool Lia.
From Coq Require Import Init.Byte.
From Kardia Require Import C16.Model C16.ProofsBase C16.ProofsItem C16.ProofsExtra.
Import ListNotations.
Local Open Scope N_scope.

(** string data (the encoding without list headers), header bytes, and the closed headers of an
    item written at string offset [off] *)
Fixpoint sdata (x : item) : bytes :=
  match x with Str s => enc_str s | List l => flat_map sdata l end.
Fixpoint lhs (x : item) : N :=
  match x with
  | Str _ => 0
  | List l => fold_right (fun y a => lhs y + a) 0 l + head_size (len (flat_map encode l))
  end.
Definition lhs_list (l : list item) : N := fold_right (fun y a => lhs y + a) 0 l.
Fixpoint heads_of (x : item) (off : N) : list (N * N) :=
  match x with
  | Str _ => []
  | List l =>
    (off, len (flat_map encode l)) ::
    (fix go (l : list item) (off : N) : list (N * N) :=
       match l with
       | [] => []
       | y :: r => heads_of y off ++ go r (off + len (sdata y))
       end) l off
  end.
Fixpoint heads_list (l : list item) (off : N) : list (N * N) :=
  match l with
  | [] => []
  | y :: r => heads_of y off ++ heads_list r (off + len (sdata y))
  end.
Lemma heads_of_list l off : heads_of (List l) off = (off, len (flat_map encode l)) :: heads_list l off.
Proof.
  reflexivity.
Qed.

Lemma len_flat_map_app {A} (f : A -> bytes) l : len (flat_map f l) = fold_right (fun y a => len (f y) + a) 0 l.
Proof. induction l as [|y r IH]; [reflexivity|]. cbn [flat_map fold_right]. rewrite len_app, IH. reflexivity. Qed.

Lemma len_encode_list_of l : Forall (fun y => len (encode y) = len (sdata y) + lhs y) l ->
  len (flat_map encode l) = len (flat_map sdata l) + lhs_list l.
Proof.
  unfold lhs_list. induction 1 as [|y r Hy _ IH]; [reflexivity|].
  cbn [flat_map fold_right]. rewrite !len_app, Hy, IH. lia.
Qed.
Lemma len_encode_split : forall x, len (encode x) = len (sdata x) + lhs x.
Proof.
  apply item_ind'.
  - intros b. cbn. lia.
  - intros l IH. cbn [encode sdata lhs]. unfold enc_list. rewrite len_app. unfold list_head. rewrite len_head.
    fold (lhs_list l). rewrite (len_encode_list_of l IH). lia.
Qed.
Lemma len_encode_list l : len (flat_map encode l) = len (flat_map sdata l) + lhs_list l.
Proof. apply len_encode_list_of, Forall_forall. intros y _. apply len_encode_split. Qed.

Lemma set_nth_app {A} (a : list A) x y r : set_nth (length a) y (a ++ x :: r) = a ++ y :: r.
Proof. induction a as [|z a IH]; [reflexivity|]. cbn [length app set_nth]. rewrite IH. reflexivity. Qed.
Lemma nth_app_here {A} (a : list A) x r d : nth (length a) (a ++ x :: r) d = x.
Proof. rewrite app_nth2 by lia. rewrite Nat.sub_diag. reflexivity. Qed.

Definition item_spec (x : item) : Prop :=
  forall b, eb_item x b =
    mkE (e_str b ++ sdata x) (e_heads b ++ heads_of x (len (e_str b))) (e_lhsize b + lhs x).

Lemma fold_items l : Forall item_spec l -> forall b,
  fold_left (fun b' y => eb_item y b') l b =
    mkE (e_str b ++ flat_map sdata l) (e_heads b ++ heads_list l (len (e_str b))) (e_lhsize b + lhs_list l).
Proof.
  unfold lhs_list. induction 1 as [|y r Hy Hr IH]; intros b.
  - cbn. rewrite !app_nil_r, N.add_0_r. destruct b; reflexivity.
  - cbn [fold_left flat_map heads_list fold_right]. rewrite (Hy b), IH. cbn [e_str e_heads e_lhsize].
    rewrite len_app, <- !app_assoc. f_equal. lia.
Qed.

Lemma eb_item_spec : forall x, item_spec x.
Proof.
  apply item_ind'.
  - intros s b. cbn [eb_item sdata heads_of lhs]. unfold eb_append. rewrite app_nil_r, N.add_0_r. reflexivity.
  - intros l IH b. cbn [eb_item]. unfold eb_list. rewrite (fold_items l IH). cbn [e_str e_heads e_lhsize].
    unfold eb_list_end. cbn [e_heads e_str e_lhsize].
    rewrite <- app_assoc. cbn [app]. rewrite nth_app_here, set_nth_app.
    unfold eb_size. cbn [e_str e_lhsize].
    assert (Esz : len (e_str b ++ flat_map sdata l) + (e_lhsize b + lhs_list l) - len (e_str b) - e_lhsize b
                  = len (flat_map encode l)).
    { rewrite len_app, len_encode_list. lia. }
    rewrite Esz. rewrite heads_of_list. cbn [sdata lhs]. fold (lhs_list l). f_equal. lia.
Qed.

Lemma drop_app_ge {A} n (a b : list A) : len a <= n -> drop n (a ++ b) = drop (n - len a) b.
Proof.
  unfold drop, len. intros H. rewrite skipn_app. rewrite skipn_all2 by lia. cbn [app]. f_equal. lia.
Qed.

Definition offs_ge (p : N) (hs : list (N * N)) : Prop := Forall (fun h => p <= fst h) hs.

(** skipping string data that no remaining header interrupts *)
Lemma copy_skip hs : forall pre mid tail, offs_ge (len pre + len mid) hs ->
  eb_copy hs (pre ++ mid ++ tail) (len pre) = mid ++ eb_copy hs (pre ++ mid ++ tail) (len pre + len mid).
Proof.
  intros pre mid tail Hge. destruct hs as [|[o sz] r]; cbn [eb_copy].
  - rewrite drop_app_len. rewrite app_assoc, <- len_app, drop_app_len. reflexivity.
  - inversion Hge as [|? ? Ho _]; subst. cbn [fst] in Ho.
    rewrite drop_app_len. rewrite take_app_ge by lia.
    rewrite (app_assoc pre mid tail), <- len_app, drop_app_len, <- app_assoc.
    replace (o - len pre - len mid) with (o - len (pre ++ mid)) by (rewrite len_app; lia). reflexivity.
Qed.

Lemma offs_ge_le p q hs : q <= p -> offs_ge p hs -> offs_ge q hs.
Proof. intros Hle H. eapply Forall_impl; [|exact H]. cbn. intros; lia. Qed.
Lemma offs_ge_app p a b : offs_ge p a -> offs_ge p b -> offs_ge p (a ++ b).
Proof. intros Ha Hb. apply Forall_app. split; assumption. Qed.

(** the headers of an item lie at or after the offset it is written at *)
Lemma heads_of_ge : forall x off, offs_ge off (heads_of x off).
Proof.
  apply (item_ind' (fun x => forall off, offs_ge off (heads_of x off))).
  - intros s off. constructor.
  - intros l IH off. rewrite heads_of_list. constructor; [cbn; lia|].
    revert off. induction IH as [|y r Hy Hr IHr]; intros off; [constructor|].
    cbn [heads_list]. apply offs_ge_app; [apply Hy|].
    eapply offs_ge_le; [|apply IHr]. lia.
Qed.
Lemma heads_list_ge l off : offs_ge off (heads_list l off).
Proof.
  revert off. induction l as [|y r IH]; intros off; [constructor|].
  cbn [heads_list]. apply offs_ge_app; [apply heads_of_ge|]. eapply offs_ge_le; [|apply IH]. lia.
Qed.

(** copyTo across one item: the string data is [pre ++ mid ++ sdata x ++ post], the copy stands at [len pre],
    and [mid] is string data written before [x] that no header interrupts, so [eb_copy] emits it together
    with what precedes [x]'s first header *)
Definition copy_spec (x : item) : Prop :=
  forall rest pre mid post,
    offs_ge (len pre + len mid + len (sdata x)) rest ->
    eb_copy (heads_of x (len pre + len mid) ++ rest) (pre ++ mid ++ sdata x ++ post) (len pre) =
    mid ++ encode x ++ eb_copy rest (pre ++ mid ++ sdata x ++ post) (len pre + len mid + len (sdata x)).

Lemma copy_list l : Forall copy_spec l -> forall rest pre post,
  offs_ge (len pre + len (flat_map sdata l)) rest ->
  eb_copy (heads_list l (len pre) ++ rest) (pre ++ flat_map sdata l ++ post) (len pre) =
  flat_map encode l ++ eb_copy rest (pre ++ flat_map sdata l ++ post) (len pre + len (flat_map sdata l)).
Proof.
  induction 1 as [|y r Hy Hr IH]; intros rest pre post Hge.
  - cbn [heads_list flat_map app]. change (len (@nil byte)) with 0. rewrite N.add_0_r. reflexivity.
  - cbn [heads_list flat_map] in *. rewrite <- !app_assoc.
    (* the first element, with no string data before it *)
    pose proof (Hy (heads_list r (len pre + len (sdata y)) ++ rest) pre [] (flat_map sdata r ++ post)) as H1.
    change (len (@nil byte)) with 0 in H1. rewrite !N.add_0_r in H1. cbn [app] in H1.
    rewrite H1.
    2:{ apply offs_ge_app; [apply heads_list_ge|]. eapply offs_ge_le; [|exact Hge]. rewrite len_app. lia. }
    (* the remaining elements *)
    specialize (IH rest (pre ++ sdata y) post).
    rewrite len_app in IH. rewrite <- (app_assoc pre (sdata y)) in IH.
    f_equal. rewrite IH.
    + rewrite len_app, N.add_assoc. reflexivity.
    + eapply offs_ge_le; [|exact Hge]. rewrite len_app. lia.
Qed.

Lemma copy_item : forall x, copy_spec x.
Proof.
  apply item_ind'.
  - intros s rest pre mid post Hge. cbn [heads_of app sdata encode].
    pose proof (copy_skip rest pre (mid ++ enc_str s) post) as H. rewrite len_app, <- !app_assoc in H.
    rewrite N.add_assoc in H. apply H. exact Hge.
  - intros l IH rest pre mid post Hge. rewrite heads_of_list. cbn [app eb_copy sdata encode].
    rewrite drop_app_len.
    replace (len pre + len mid - len pre) with (len mid) by lia. rewrite take_app_len.
    f_equal. unfold enc_list. rewrite <- app_assoc. f_equal.
    pose proof (copy_list l IH rest (pre ++ mid) post) as H. rewrite len_app, <- !app_assoc in H.
    apply H. exact Hge.
Qed.

Theorem encbuffer_refines_encode x : encode_via_buffer x = encode x.
Proof.
  unfold encode_via_buffer, eb_bytes. rewrite (eb_item_spec x eb_empty).
  pose proof (copy_item x [] [] [] []) as H. rewrite !app_nil_r in H. specialize (H ltac:(constructor)).
  change (eb_copy (heads_of x 0) (sdata x) 0 = encode x ++ eb_copy [] (sdata x) (len (sdata x))) in H.
  change (eb_copy (heads_of x 0) (sdata x) 0 = encode x).
  rewrite H. cbn [eb_copy]. unfold drop, len. rewrite Nnat.Nat2N.id, skipn_all. apply app_nil_r.
Qed.
