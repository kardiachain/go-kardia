(** C16 — basic lemmas: bytes, [len] / [take] / [drop], little- and big-endian integers. *)
From Coq Require Import List ZArith NArith Bool Lia Arith.
From Coq Require Import Init.Byte.
From Kardia Require Import C16.Model.
Import ListNotations.
Local Open Scope N_scope.
(* in this file [lia] is given the equations of / and mod; it is slower with them, so the default is restored at the end *)
Ltac Zify.zify_post_hook ::= Z.to_euclidean_division_equations.

Lemma bN_lt (b : byte) : bN b < 256.
Proof. unfold bN. pose proof (Byte.to_N_bounded b). lia. Qed.

Lemma bN_Nb (n : N) : n < 256 -> bN (Nb n) = n.
Proof.
  intros Hn. unfold bN, Nb. destruct (Byte.of_N n) eqn:E.
  - apply Byte.to_of_N. exact E.
  - apply Byte.of_N_None_iff in E. lia.
Qed.

Lemma Nb_bN (b : byte) : Nb (bN b) = b.
Proof. unfold Nb, bN. rewrite Byte.of_to_N. reflexivity. Qed.

Lemma bN_inj (a b : byte) : bN a = bN b -> a = b.
Proof. intros H. rewrite <- (Nb_bN a), <- (Nb_bN b), H. reflexivity. Qed.

Lemma len_nil {A} : len (@nil A) = 0. Proof. reflexivity. Qed.
Lemma len_cons {A} (x : A) l : len (x :: l) = 1 + len l.
Proof. unfold len. cbn [length]. lia. Qed.
Lemma len_app {A} (a b : list A) : len (a ++ b) = len a + len b.
Proof. unfold len. rewrite app_length. lia. Qed.
Lemma len_rev {A} (a : list A) : len (rev a) = len a.
Proof. unfold len. rewrite rev_length. reflexivity. Qed.
Lemma len_0 {A} (l : list A) : len l = 0 -> l = [].
Proof. destruct l; [reflexivity|]. rewrite len_cons. lia. Qed.

Lemma take_app_len {A} (a b : list A) : take (len a) (a ++ b) = a.
Proof.
  unfold take, len. rewrite Nat2N.id.
  rewrite firstn_app, Nat.sub_diag, firstn_all. cbn. apply app_nil_r.
Qed.
Lemma drop_app_len {A} (a b : list A) : drop (len a) (a ++ b) = b.
Proof.
  unfold drop, len. rewrite Nat2N.id.
  rewrite skipn_app, Nat.sub_diag, skipn_all. reflexivity.
Qed.
Lemma take_app_le {A} n (a b : list A) : n <= len a -> take n (a ++ b) = take n a.
Proof.
  unfold take, len. intros H. rewrite firstn_app.
  replace (N.to_nat n - length a)%nat with 0%nat by lia. cbn. apply app_nil_r.
Qed.
Lemma drop_app_le {A} n (a b : list A) : n <= len a -> drop n (a ++ b) = drop n a ++ b.
Proof.
  unfold drop, len. intros H. rewrite skipn_app.
  replace (N.to_nat n - length a)%nat with 0%nat by lia. reflexivity.
Qed.
Lemma take_drop {A} n (l : list A) : take n l ++ drop n l = l.
Proof. apply firstn_skipn. Qed.
Lemma len_take {A} n (l : list A) : n <= len l -> len (take n l) = n.
Proof. unfold take, len. intros H. rewrite firstn_length_le by lia. lia. Qed.
Lemma len_take_le {A} n (l : list A) : len (take n l) <= len l.
Proof. unfold take, len. rewrite firstn_length. lia. Qed.
Lemma len_drop {A} n (l : list A) : len (drop n l) = len l - n.
Proof. unfold drop, len. rewrite skipn_length. lia. Qed.
Lemma take_app_ge {A} n (a b : list A) : len a <= n -> take n (a ++ b) = a ++ take (n - len a) b.
Proof.
  unfold take, len. intros H. rewrite firstn_app. rewrite firstn_all2 by lia. f_equal. f_equal. lia.
Qed.
Lemma split_take_drop size (r : bytes) h : h ++ r = (h ++ take size r) ++ drop size r.
Proof. rewrite <- app_assoc, take_drop. reflexivity. Qed.
Lemma len_lt_length {A} (a b : list A) : len a < len b -> (length a < length b)%nat.
Proof. unfold len. lia. Qed.
Lemma in_flat_map_len {A} (f : A -> bytes) x xs : In x xs -> len (f x) <= len (flat_map f xs).
Proof.
  induction xs as [|y xs IH]; [contradiction|]. intros [->|Hin]; cbn [flat_map]; rewrite len_app.
  - lia.
  - specialize (IH Hin). lia.
Qed.

Lemma le_val_app a b : le_val (a ++ b) = le_val a + 256 ^ len a * le_val b.
Proof.
  induction a as [|x a IH].
  - cbn [app le_val]. change (len (@nil byte)) with 0. rewrite N.pow_0_r. lia.
  - cbn [app le_val]. rewrite IH, len_cons.
    replace (1 + len a) with (N.succ (len a)) by lia. rewrite N.pow_succ_r'. lia.
Qed.

Lemma le_val_bound bs : le_val bs < 256 ^ len bs.
Proof.
  induction bs as [|x a IH].
  - cbn. lia.
  - cbn [le_val]. rewrite len_cons.
    replace (1 + len a) with (N.succ (len a)) by lia. rewrite N.pow_succ_r'.
    pose proof (bN_lt x). lia.
Qed.

Lemma le_bytes_val fuel n : n < 2 ^ N.of_nat fuel -> le_val (le_bytes fuel n) = n.
Proof.
  revert n. induction fuel as [|f IH]; intros n Hn.
  - cbn in Hn. cbn. lia.
  - cbn [le_bytes]. destruct (n =? 0) eqn:E.
    + apply N.eqb_eq in E. subst. reflexivity.
    + cbn [le_val]. rewrite bN_Nb by (apply N.mod_upper_bound; lia).
      rewrite IH.
      * pose proof (N.div_mod n 256). lia.
      * rewrite Nat2N.inj_succ, N.pow_succ_r' in Hn.
        apply N.eqb_neq in E.
        assert (n / 256 <= n / 2).
        { apply N.div_le_compat_l. lia. }
        assert (n / 2 < 2 ^ N.of_nat f) by (apply N.div_lt_upper_bound; lia).
        lia.
Qed.

Lemma pos_size_nat_bound p : N.pos p < 2 ^ N.of_nat (Pos.size_nat p).
Proof.
  induction p as [p IH|p IH|]; cbn [Pos.size_nat]; rewrite ?Nat2N.inj_succ, ?N.pow_succ_r'.
  - change (N.pos p~1) with (2 * N.pos p + 1). lia.
  - change (N.pos p~0) with (2 * N.pos p). lia.
  - cbn. lia.
Qed.

Lemma size_nat_bound n : n < 2 ^ N.of_nat (N.size_nat n).
Proof. destruct n as [|p]; [cbn; lia|]. apply pos_size_nat_bound. Qed.

Lemma be_val_bytes n : be_val (be_bytes n) = n.
Proof.
  unfold be_val, be_bytes. rewrite rev_involutive. apply le_bytes_val, size_nat_bound.
Qed.

(** last element of a little-endian string is its most significant byte *)
Lemma le_bytes_le_val bs : (forall l x, bs = l ++ [x] -> bN x <> 0) ->
  forall fuel, (length bs <= fuel)%nat -> le_bytes fuel (le_val bs) = bs.
Proof.
  induction bs as [|b r IH]; intros Hlast fuel Hf.
  - destruct fuel; reflexivity.
  - destruct fuel as [|f]; [cbn in Hf; lia|].
    cbn [le_bytes le_val].
    assert (Hnz : bN b + 256 * le_val r <> 0).
    { destruct r as [|y r'].
      - specialize (Hlast [] b eq_refl). cbn. lia.
      - intro H0.
        assert (Hr : le_val (y :: r') = 0) by lia.
        (* the last byte of y :: r' is non-zero, so its value is non-zero *)
        destruct (@exists_last _ (y :: r') ltac:(discriminate)) as (l & x & El).
        rewrite El, le_val_app in Hr. cbn [le_val] in Hr.
        specialize (Hlast (b :: l) x). rewrite El in Hlast. specialize (Hlast eq_refl).
        assert (0 < 256 ^ len l) by (apply N.neq_0_lt_0, N.pow_nonzero; lia).
        nia. }
    destruct (bN b + 256 * le_val r =? 0) eqn:E; [apply N.eqb_eq in E; contradiction|].
    pose proof (bN_lt b).
    replace ((bN b + 256 * le_val r) mod 256) with (bN b)
      by lia.
    replace ((bN b + 256 * le_val r) / 256) with (le_val r)
      by lia.
    rewrite Nb_bN. f_equal.
    destruct r as [|y r'].
    + destruct f; reflexivity.
    + apply IH.
      * intros l x El. apply (Hlast (b :: l) x). rewrite El. reflexivity.
      * cbn [length] in *. lia.
Qed.

Lemma le_val_size bs : (N.size_nat (le_val bs) <= 8 * length bs)%nat.
Proof.
  pose proof (le_val_bound bs) as Hb.
  destruct (le_val bs) as [|p] eqn:E; [cbn; lia|].
  cbn [N.size_nat].
  (* p < 256^len = 2^(8 len) -> size p <= 8 len *)
  assert (H2 : N.pos p < 2 ^ (8 * len bs)).
  { rewrite N.pow_mul_r. exact Hb. }
  clear Hb E. unfold len in H2.
  replace (8 * N.of_nat (length bs)) with (N.of_nat (8 * length bs)) in H2 by lia.
  generalize dependent (8 * length bs)%nat. clear bs.
  induction p as [p IH|p IH|]; intros k Hk; cbn [Pos.size_nat].
  - destruct k as [|k]; [cbn in Hk; lia|].
    rewrite Nat2N.inj_succ, N.pow_succ_r' in Hk.
    change (N.pos p~1) with (2 * N.pos p + 1) in Hk. specialize (IH k). lia.
  - destruct k as [|k]; [cbn in Hk; lia|].
    rewrite Nat2N.inj_succ, N.pow_succ_r' in Hk.
    change (N.pos p~0) with (2 * N.pos p) in Hk. specialize (IH k). lia.
  - destruct k as [|k]; [cbn in Hk; lia|]. lia.
Qed.

Lemma le_val_lower bs l x : bs = l ++ [x] -> bN x <> 0 -> 256 ^ len l <= le_val bs.
Proof.
  intros -> Hx. rewrite le_val_app. cbn [le_val].
  assert (0 < 256 ^ len l) by (apply N.neq_0_lt_0, N.pow_nonzero; lia). nia.
Qed.

Lemma size_nat_lower n k : 2 ^ N.of_nat k <= n -> (k < N.size_nat n)%nat.
Proof.
  intros H. pose proof (size_nat_bound n) as Hb.
  destruct (Nat.lt_ge_cases k (N.size_nat n)) as [|Hge]; [assumption|exfalso].
  assert (2 ^ N.of_nat (N.size_nat n) <= 2 ^ N.of_nat k) by (apply N.pow_le_mono_r; lia).
  lia.
Qed.

Lemma be_bytes_val bs : bN (hd x00 bs) <> 0 -> be_bytes (be_val bs) = bs.
Proof.
  intros Hhd. unfold be_bytes, be_val.
  destruct bs as [|b r]; [reflexivity|].
  assert (Hlast : forall l x, rev (b :: r) = l ++ [x] -> bN x <> 0).
  { intros l x El. cbn [rev] in El. apply app_inj_tail in El. destruct El as [_ <-]. exact Hhd. }
  rewrite le_bytes_le_val.
  - apply rev_involutive.
  - exact Hlast.
  - rewrite rev_length. cbn [rev].
    pose proof (le_val_lower (rev r ++ [b]) (rev r) b eq_refl Hhd) as Hlow.
    assert (Hk : 2 ^ N.of_nat (length r) <= le_val (rev r ++ [b])).
    { etransitivity; [|exact Hlow]. rewrite len_rev. unfold len.
      change 256 with (2 ^ 8). rewrite <- N.pow_mul_r. apply N.pow_le_mono_r; lia. }
    apply size_nat_lower in Hk. cbn [length]. lia.
Qed.

Lemma be_bytes_0 : be_bytes 0 = []. Proof. reflexivity. Qed.

Lemma le_bytes_last fuel : forall m l' x,
  m < 2 ^ N.of_nat fuel -> le_bytes fuel m = l' ++ [x] -> bN x <> 0.
Proof.
  induction fuel as [|f IH]; intros m l' x Hm E.
  - cbn in E. destruct l'; discriminate.
  - cbn [le_bytes] in E. destruct (m =? 0) eqn:Em; [destruct l'; discriminate|].
    apply N.eqb_neq in Em.
    rewrite Nat2N.inj_succ, N.pow_succ_r' in Hm.
    assert (Hdiv : m / 256 < 2 ^ N.of_nat f).
    { assert (m / 256 <= m / 2) by (apply N.div_le_compat_l; lia).
      assert (m / 2 < 2 ^ N.of_nat f) by (apply N.div_lt_upper_bound; lia). lia. }
    destruct l' as [|y l''].
    + cbn [app] in E. injection E as Ex Et. subst x.
      rewrite bN_Nb by (apply N.mod_upper_bound; lia).
      assert (Hq : m / 256 = 0).
      { destruct f as [|f'].
        - cbn in Hdiv. lia.
        - cbn [le_bytes] in Et. destruct (m / 256 =? 0) eqn:Eq; [apply N.eqb_eq in Eq; exact Eq|discriminate]. }
      pose proof (N.div_mod m 256). lia.
    + cbn [app] in E. injection E as _ Et. eapply IH; [exact Hdiv|exact Et].
Qed.

Lemma be_bytes_hd n : n <> 0 -> bN (hd x00 (be_bytes n)) <> 0.
Proof.
  intros Hn. unfold be_bytes.
  remember (le_bytes (N.size_nat n) n) as l eqn:El.
  destruct l as [|b r] using rev_ind.
  - exfalso. pose proof (le_bytes_val (N.size_nat n) n (size_nat_bound n)) as Hv.
    rewrite <- El in Hv. cbn in Hv. congruence.
  - rewrite rev_app_distr. cbn [rev app hd].
    eapply le_bytes_last; [apply size_nat_bound|]. symmetry. exact El.
Qed.

Lemma be_bytes_nil n : be_bytes n = [] -> n = 0.
Proof. intros H. rewrite <- (be_val_bytes n), H. reflexivity. Qed.

Lemma be_val_bound bs : be_val bs < 256 ^ len bs.
Proof. unfold be_val. rewrite <- len_rev. apply le_val_bound. Qed.

(** value of a byte string with non-zero head is at least 256^(len-1) *)
Lemma be_val_lower b r : bN b <> 0 -> 256 ^ len r <= be_val (b :: r).
Proof.
  intros Hb. unfold be_val. cbn [rev]. rewrite <- len_rev.
  eapply le_val_lower; [reflexivity|exact Hb].
Qed.

Lemma be_val_single b : be_val [b] = bN b.
Proof. unfold be_val. cbn. lia. Qed.
Lemma be_val_cons b r : be_val (b :: r) = bN b * 256 ^ len r + be_val r.
Proof.
  unfold be_val. cbn [rev]. rewrite le_val_app, len_rev. cbn [le_val]. lia.
Qed.
Lemma be_val_snoc l b : be_val (l ++ [b]) = be_val l * 256 + bN b.
Proof. unfold be_val. rewrite rev_app_distr. cbn [rev app le_val]. lia. Qed.

(** the minimal big-endian string of a non-zero number has exactly the bytes its size needs *)
Lemma be_bytes_bounds m : m <> 0 -> 256 ^ (len (be_bytes m) - 1) <= m /\ m < 256 ^ len (be_bytes m).
Proof.
  intros Hm. split.
  - pose proof (be_bytes_hd m Hm) as Hhd. destruct (be_bytes m) as [|b r] eqn:E.
    + apply be_bytes_nil in E. contradiction.
    + pose proof (be_val_lower b r Hhd) as Hl. rewrite <- E, be_val_bytes in Hl.
      rewrite len_cons. replace (1 + len r - 1) with (len r) by lia. exact Hl.
  - pose proof (be_val_bound (be_bytes m)) as Hb. rewrite be_val_bytes in Hb. exact Hb.
Qed.
Lemma be_bytes_len_le n k : n < 256 ^ k -> len (be_bytes n) <= k.
Proof.
  intros Hn. destruct (N.eq_dec n 0) as [->|Hn0]; [cbn; lia|].
  destruct (be_bytes_bounds n Hn0) as [Hlo _].
  destruct (N.le_gt_cases (len (be_bytes n)) k) as [|Hgt]; [assumption|exfalso].
  assert (256 ^ k <= 256 ^ (len (be_bytes n) - 1)) by (apply N.pow_le_mono_r; lia). lia.
Qed.
Lemma be_bytes_len_exact n k : 1 <= k -> 256 ^ (k - 1) <= n -> n < 256 ^ k -> len (be_bytes n) = k.
Proof.
  intros Hk Hlo Hhi.
  pose proof (be_bytes_len_le n k Hhi) as Hle.
  pose proof (be_val_bound (be_bytes n)) as Hb. rewrite be_val_bytes in Hb.
  destruct (N.lt_ge_cases (len (be_bytes n)) k) as [Hlt|Hge]; [|lia].
  exfalso.
  assert (256 ^ len (be_bytes n) <= 256 ^ (k - 1)) by (apply N.pow_le_mono_r; lia).
  lia.
Qed.


Lemma be_bytes_len_pos n : n <> 0 -> 1 <= len (be_bytes n).
Proof.
  intros Hn. destruct (be_bytes n) eqn:E.
  - apply be_bytes_nil in E. contradiction.
  - rewrite len_cons. lia.
Qed.

Lemma be_bytes_single n x : be_bytes n = [x] -> n = bN x.
Proof. intros E. rewrite <- (be_val_bytes n), E. apply be_val_single. Qed.

Lemma be_bytes_small n : n <> 0 -> n < 256 -> exists x, be_bytes n = [x] /\ bN x = n.
Proof.
  intros Hn0 Hn.
  pose proof (be_bytes_len_le n 1 Hn) as Hle.
  pose proof (be_bytes_len_pos n Hn0) as Hge.
  destruct (be_bytes n) as [|x [|y l]] eqn:E.
  - cbn in Hge. lia.
  - exists x. split; [reflexivity|]. symmetry. apply be_bytes_single. exact E.
  - rewrite !len_cons in Hle. lia.
Qed.

Ltac Zify.zify_post_hook ::= idtac.
