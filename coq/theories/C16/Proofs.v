(** C16 — final lemmas in the form of the property theorems (item level). *)
From Coq Require Import List ZArith NArith Bool Lia Arith.
From Coq Require Import Init.Byte.
From Kardia Require Import C16.Model C16.ProofsBase C16.ProofsItem.
Import ListNotations.
Local Open Scope N_scope.

Lemma decode_encode x rest :
  len (encode x) < two64 -> exists a, decode (encode x ++ rest) = Ok x rest a.
Proof.
  intros Hf. unfold decode. apply dec_item_enc; [|exact Hf].
  rewrite app_length. lia.
Qed.

Lemma canonical bs x rest a : decode bs = Ok x rest a -> bs = encode x ++ rest.
Proof. unfold decode. apply dec_item_canon. Qed.

Lemma decode_bytes_exact bs x rest a :
  decode_bytes_item bs = Ok x rest a -> rest = [] /\ bs = encode x.
Proof.
  unfold decode_bytes_item. intros [-> Ed]%exactly_one_ok. split; [reflexivity|].
  apply canonical in Ed. rewrite app_nil_r in Ed. exact Ed.
Qed.

Lemma prefix_free x y r1 r2 :
  len (encode x) < two64 -> len (encode y) < two64 ->
  encode x ++ r1 = encode y ++ r2 -> x = y /\ r1 = r2.
Proof.
  intros Hx Hy E.
  destruct (decode_encode x r1 Hx) as [a Ha].
  destruct (decode_encode y r2 Hy) as [b Hb].
  rewrite E, Hb in Ha. injection Ha as -> -> _. auto.
Qed.

Lemma encode_injective x y : len (encode x) < two64 -> encode x = encode y -> x = y.
Proof.
  intros Hx E. apply (prefix_free x y [] []); [assumption|rewrite <- E; assumption|].
  rewrite E. reflexivity.
Qed.

Lemma size_checked il bs k size bv rest :
  read_kind il bs = KOk k size bv rest -> size <= len rest /\ len rest < len bs.
Proof. intros HH. apply kind_ok_len in HH. tauto. Qed.

Lemma size_bound bs :
  match decode bs with
  | Ok _ rest alloc => alloc + len rest <= len bs
  | Err _ alloc => alloc <= len bs
  end.
Proof. exact (consumes_bounded _ _ (dec_item_consumes _ false bs)). Qed.

(** the classic non-canonical shapes, by computation *)
Definition bs_of (l : list N) : bytes := map Nb l.
Lemma reject_wrapped_single_byte : decode (bs_of [129; 5]) = Err ECanonSize 1.
Proof. vm_compute. reflexivity. Qed.
Lemma reject_long_form_short_size : decode (bs_of [184; 1; 200]) = Err ECanonSize 0.
Proof. vm_compute. reflexivity. Qed.
Lemma reject_leading_zero_length :
  decode (bs_of (185 :: 0 :: 56 :: repeat 1 56)) = Err ECanonSize 0.
Proof. vm_compute. reflexivity. Qed.
Lemma reject_truncated : decode (bs_of [131; 1; 2]) = Err EValueTooLarge 0.
Proof. vm_compute. reflexivity. Qed.
Lemma reject_trailing : decode_bytes_item (bs_of [1; 2]) = Err EMoreThanOne 1.
Proof. vm_compute. reflexivity. Qed.
Lemma accept_example :
  decode (bs_of [200; 131; 99; 97; 116; 131; 100; 111; 103]) =
  Ok (List [Str (bs_of [99; 97; 116]); Str (bs_of [100; 111; 103])]) [] 6.
Proof. vm_compute. reflexivity. Qed.
