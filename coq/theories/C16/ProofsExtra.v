(** C16 — raw.go helpers (AppendUint64, IntSize, ListSize), the list iterator and sequences of
    top-level values against the encoder. *)
From Coq Require Import List ZArith NArith Bool Lia.
From Coq Require Import Init.Byte.
From Kardia Require Import C16.Model C16.ProofsBase C16.ProofsItem C16.ProofsRoundtrip C16.ProofsRaw.
Import ListNotations.
Local Open Scope N_scope.

(** AppendUint64 writes the encoder's integer encoding *)
Lemma append_uint64_enc_uint n : n < two64 -> append_uint64 n = enc_uint n.
Proof.
  intros Hn. unfold append_uint64, enc_uint.
  destruct (N.eqb_spec n 0) as [->|Hn0]; [reflexivity|].
  destruct (N.ltb_spec n 128) as [Hlt|Hge].
  - destruct (be_bytes_small n Hn0 ltac:(lia)) as (x & E & Hx). rewrite E. unfold enc_str.
    destruct (N.ltb_spec (bN x) 128); [|lia]. rewrite <- Hx, Nb_bN. reflexivity.
  - pose proof (be_bytes_len_le8 n Hn) as H8. pose proof (be_bytes_len_pos n Hn0) as H1.
    cbv zeta. unfold enc_str, str_head.
    destruct (be_bytes n) as [|x [|y r]] eqn:E.
    + cbn in H1. lia.
    + assert (bN x = n) by (apply be_bytes_single in E; symmetry; exact E).
      destruct (N.ltb_spec (bN x) 128); [lia|]. reflexivity.
    + rewrite head_small by lia. reflexivity.
Qed.

Lemma len_enc_uint n : n < two64 -> len (enc_uint n) = int_size n.
Proof.
  intros Hn. rewrite <- append_uint64_enc_uint by exact Hn. unfold append_uint64, int_size, int_size_raw.
  destruct (N.eqb_spec n 0) as [->|Hn0]; [reflexivity|].
  destruct (N.ltb_spec n 128); [reflexivity|].
  cbv zeta. rewrite len_cons. reflexivity.
Qed.

(** intsize counts base-256 digits *)
Lemma int_size_raw_step n : 256 <= n -> int_size_raw n = 1 + int_size_raw (n / 256).
Proof.
  intros Hn. unfold int_size_raw.
  assert (Hq : n / 256 <> 0) by (intros E; apply N.div_small_iff in E; lia).
  destruct (N.eqb_spec n 0); [lia|]. destruct (N.eqb_spec (n / 256) 0); [contradiction|].
  destruct (be_bytes_bounds (n / 256) Hq) as [Hlo Hhi].
  pose proof (be_bytes_len_pos (n / 256) Hq) as Hk.
  set (k := len (be_bytes (n / 256))) in *. clearbody k.
  apply be_bytes_len_exact; [lia| |].
  - replace (1 + k - 1) with (k - 1 + 1) by lia. rewrite N.pow_add_r, N.pow_1_r.
    pose proof (N.mul_div_le n 256 ltac:(lia)). nia.
  - rewrite N.add_comm, N.pow_add_r, N.pow_1_r.
    pose proof (N.mul_succ_div_gt n 256 ltac:(lia)). nia.
Qed.
Lemma int_size_raw_small n : n < 256 -> int_size_raw n = 1.
Proof.
  intros Hn. unfold int_size_raw. destruct (N.eqb_spec n 0) as [|Hn0]; [reflexivity|].
  destruct (be_bytes_small n Hn0 Hn) as (x & -> & _). reflexivity.
Qed.
Lemma int_size_raw_le8 n : n < two64 -> int_size_raw n <= 8.
Proof. intros Hn. unfold int_size_raw. destruct (n =? 0); [lia|]. apply be_bytes_len_le8, Hn. Qed.
Lemma head_size_le9 n : n < two64 -> head_size n <= 9.
Proof. intros Hn. pose proof (int_size_raw_le8 n Hn). unfold head_size. destruct (n <? 56); lia. Qed.

(** ListSize is the length of the list *)
Lemma list_size_enc_list p : len (enc_list p) < two64 -> list_size (len p) = len (enc_list p).
Proof.
  intros H. unfold list_size, enc_list in *. rewrite len_app in *. unfold list_head in *.
  rewrite len_head in *. apply N.mod_small. exact H.
Qed.

(** the iterator yields the encodings of the elements of a list, in order, without error *)
Lemma iter_values_step fuel data : data <> [] ->
  iter_values (S fuel) data =
  match raw_read_kind data with
  | RErr e => ([], Some e)
  | ROk (_, ts, cs) => let '(vs, e) := iter_values fuel (drop (ts + cs) data) in (take (ts + cs) data :: vs, e)
  end.
Proof. destruct data; [contradiction|reflexivity]. Qed.

Lemma iter_values_encode l : forall fuel,
  (length (flat_map encode l) <= fuel)%nat -> fits64 (len (flat_map encode l)) ->
  iter_values fuel (flat_map encode l) = (map encode l, None).
Proof.
  induction l as [|x l IH]; intros fuel Hfuel Hf.
  - cbn. destruct fuel; reflexivity.
  - cbn [flat_map map] in *. rewrite len_app in Hf. rewrite app_length in Hfuel.
    pose proof (encode_length_pos x).
    destruct (raw_read_kind_next x (flat_map encode l)) as (k & ts & cs & Hk & Ht & Hd); [unfold fits64 in *; lia|].
    destruct fuel as [|fuel]; [lia|].
    rewrite iter_values_step, Hk, Ht, Hd by apply encode_app_nonempty.
    rewrite IH; [reflexivity|lia|unfold fits64 in *; lia].
Qed.

Lemma list_iterator_encode l rest :
  len (encode (List l)) < two64 -> list_iterator (encode (List l) ++ rest) = ROk (map encode l, None).
Proof.
  intros Hf. unfold list_iterator.
  destruct (raw_read_kind_encode (List l) rest Hf) as (ts & Hk & Hlen & Hc).
  cbn [item_kind item_content] in *. rewrite Hk. cbv zeta.
  rewrite drop_app_le, Hc, take_app_len by lia.
  rewrite iter_values_encode; [reflexivity|apply le_n|unfold fits64 in *; lia].
Qed.

(** a concatenation of encodings of normal-form values of one type decodes, value by value,
    to exactly these values and then reports io.EOF *)
Lemma decode_seq_encode t : forall vs fuel,
  Forall (fun v => wf_val t no_tag v /\ len (enc_val t no_tag v) < two64) vs ->
  (length vs < fuel)%nat ->
  decode_seq t fuel (flat_map (enc_val t no_tag) vs) = (vs, EEOF).
Proof.
  induction vs as [|v vs IH]; intros fuel Hall Hfuel.
  - destruct fuel as [|fuel]; [cbn in Hfuel; lia|]. cbn [flat_map decode_seq].
    rewrite (dec_val_kerr t false [] EEOF eq_refl). reflexivity.
  - destruct fuel as [|fuel]; [cbn in Hfuel; lia|].
    inversion Hall as [|? ? [Hwf Hlen] Hrest]; subst.
    cbn [flat_map decode_seq].
    destruct (typed_roundtrip t v false (flat_map (enc_val t no_tag) vs) Hwf Hlen) as [a ->].
    rewrite IH; [reflexivity|exact Hrest|cbn in Hfuel; lia].
Qed.

Lemma decode_all_encode t vs :
  Forall (fun v => wf_val t no_tag v /\ len (enc_val t no_tag v) < two64) vs ->
  decode_all t (flat_map (enc_val t no_tag) vs) = (vs, EEOF).
Proof.
  intros Hall. unfold decode_all. apply decode_seq_encode; [exact Hall|].
  assert (length vs <= length (flat_map (enc_val t no_tag) vs))%nat; [|lia].
  induction Hall as [|v vs [Hwf _] _ IH]; [apply le_n|].
  cbn [flat_map length]. rewrite app_length.
  pose proof (enc_nonempty t no_tag v Hwf eq_refl) as Hne.
  destruct (enc_val t no_tag v); [contradiction|cbn [length]; lia].
Qed.
