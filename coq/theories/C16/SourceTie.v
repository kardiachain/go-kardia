(** C16 — tie of the model's size/length/canonicity decisions to the Go SOURCE of lib/rlp.
    [Generated/C16Source.v] is produced on every check by /verif/go2coq from /repo's working tree:
    every guard, integer assignment and store of the encoder's header arithmetic (headsize,
    puthead, putint, intsize, IntSize, ListSize, AppendUint64, encBuffer.writeUint64 / writeBytes /
    encodeStringHeader / writeBigInt / list / listEnd / size, the one-byte array and string
    writers, the slice / struct / pointer writers), of the Stream (Reset, Kind, readKind, readUint,
    willRead, listLimit, List, ListEnd, Bytes, ReadBytes, Raw, uint), of the typed decoders with a
    size decision (decodeBigInt, decodeByteArray, decodeListArray, decodeListSlice,
    decodeSliceElems, the nil-pointer decoder, decodeInterface, DecodeBytes) and of raw.go /
    iterator.go (readKind, readSize, SplitString, SplitList, SplitUint64, CountValues,
    NewListIterator, Next), as Gallina over [Z] with explicit machine-integer wraps (Base/GoSem.v).

    The model works over [N] and byte lists; the lemmas below say that the model's functions ARE
    these expressions on these operands: first guard by guard ([zN] embeds the model's numbers),
    then function by function (the model's definition re-assembled from the generated guards is
    the model's definition), and the [_atoms] lists are stated (what is compared, not only how).
    An edit of the Go source that flips a comparison, changes a constant or an operand, drops or
    adds a store re-opens these obligations. *)
From Coq Require Import List ZArith NArith Bool Lia String.
From Coq Require Import Init.Byte.
From Kardia Require Import Base.Int64 Base.GoSem Base.Conj.
From Kardia Require Import Generated.C16Source.
From Kardia Require Import C16.Model C16.ProofsBase C16.ProofsItem C16.ProofsRoundtrip C16.ProofsExtra.
Import ListNotations.
Local Open Scope Z_scope.

Notation zN := Z.of_N.
Definition zk (k : kind) : Z := match k with KByte => 0 | KString => 1 | KList => 2 end.
Definition zb (b : byte) : Z := zN (bN b).

Ltac n_cases :=
  repeat match goal with
         | |- context [N.ltb ?a ?b] => destruct (N.ltb_spec a b)
         | |- context [N.leb ?a ?b] => destruct (N.leb_spec a b)
         | |- context [N.eqb ?a ?b] => destruct (N.eqb_spec a b)
         end.
Ltac wraps_away :=
  repeat match goal with
         | |- context [ wrap ?t ?e ] => rewrite (wrap_id t e) by (unfold in_range; lia)
         end.
Ltac tie_close := gosem_unfold; wraps_away; n_cases; bool_cases; cbn [andb orb negb]; try reflexivity; try lia.

Lemma src_puthead_guard size : lib_rlp__puthead__if_size_lt_56 (zN size) = (size <? 56)%N.
Proof. unfold lib_rlp__puthead__if_size_lt_56. tie_close. Qed.
Lemma src_headsize_guard size : lib_rlp__headsize__if_size_lt_56 (zN size) = (size <? 56)%N.
Proof. unfold lib_rlp__headsize__if_size_lt_56. tie_close. Qed.
Lemma src_strheader_guard size : lib_rlp__encBuffer_encodeStringHeader__if_size_lt_56 (zN size) = (size <? 56)%N.
Proof. unfold lib_rlp__encBuffer_encodeStringHeader__if_size_lt_56. tie_close. Qed.
Lemma src_listEnd_guard size : lib_rlp__encBuffer_listEnd__if_lh_size_lt_56 (zN size) = (size <? 56)%N.
Proof. unfold lib_rlp__encBuffer_listEnd__if_lh_size_lt_56. tie_close. Qed.
Lemma src_header_guard_atoms :
  lib_rlp__puthead__if_size_lt_56_atoms = ["size : uint64"]%string
  /\ lib_rlp__headsize__if_size_lt_56_atoms = ["size : uint64"]%string
  /\ lib_rlp__encBuffer_encodeStringHeader__if_size_lt_56_atoms = ["size : int"]%string
  /\ lib_rlp__encBuffer_listEnd__if_lh_size_lt_56_atoms = ["lh.size : int"]%string.
Proof. split_all; reflexivity. Qed.

Lemma src_puthead_small small size : (small + size < 256)%N ->
  lib_rlp__puthead__assign (zN small) (zN size) = zN (small + size).
Proof. intros H. unfold lib_rlp__puthead__assign. gosem_unfold. wraps_away. lia. Qed.
Lemma src_puthead_large large k : (large + k < 256)%N ->
  lib_rlp__puthead__assign_2 (zN large) (lib_rlp__puthead__let_sizesize (zN k)) = zN (large + k).
Proof. intros H. unfold lib_rlp__puthead__assign_2, lib_rlp__puthead__let_sizesize. gosem_unfold. wraps_away. lia. Qed.
Lemma src_puthead_atoms :
  lib_rlp__puthead__assign_atoms = ["smalltag : byte"; "size : uint64"]%string
  /\ lib_rlp__puthead__let_sizesize_atoms = ["putint(buf[1:], size) : int"]%string
  /\ lib_rlp__puthead__assign_2_atoms = ["largetag : byte"; "sizesize : int"]%string.
Proof. split_all; reflexivity. Qed.

(** the model's header function IS puthead *)
Lemma src_head small large size : (small + 55 < 256)%N -> (large + 8 < 256)%N -> (size < two64)%N ->
  head small large size =
    if lib_rlp__puthead__if_size_lt_56 (zN size)
    then [Nb (Z.to_N (lib_rlp__puthead__assign (zN small) (zN size)))]
    else let sb := be_bytes size in
         Nb (Z.to_N (lib_rlp__puthead__assign_2 (zN large) (lib_rlp__puthead__let_sizesize (zN (len sb))))) :: sb.
Proof.
  intros Hs Hl H64. unfold head. rewrite src_puthead_guard.
  destruct (N.ltb_spec size 56) as [Hlt|Hge].
  - rewrite src_puthead_small by lia. rewrite N2Z.id. reflexivity.
  - cbv zeta. pose proof (be_bytes_len_le8 size H64) as H8.
    rewrite src_puthead_large by lia. rewrite N2Z.id. reflexivity.
Qed.

(** string header written by encodeStringHeader: the large tag *)
Lemma src_strheader_large k : (k <= 8)%N ->
  lib_rlp__encBuffer_encodeStringHeader__assign (lib_rlp__encBuffer_encodeStringHeader__let_sizesize (zN k)) = zN (183 + k).
Proof.
  intros H. unfold lib_rlp__encBuffer_encodeStringHeader__assign, lib_rlp__encBuffer_encodeStringHeader__let_sizesize.
  gosem_unfold. wraps_away. lia.
Qed.

Lemma src_strheader_small size : (size < 56)%N ->
  lib_rlp__encBuffer_encodeStringHeader__arg_0x80_plus_byte_size (zN size) = zN (128 + size).
Proof. intros H. unfold lib_rlp__encBuffer_encodeStringHeader__arg_0x80_plus_byte_size. gosem_unfold. wraps_away. lia. Qed.
(** the model's string header IS encodeStringHeader *)
Lemma src_str_head size : (size < two64)%N ->
  str_head size =
    if lib_rlp__encBuffer_encodeStringHeader__if_size_lt_56 (zN size)
    then [Nb (Z.to_N (lib_rlp__encBuffer_encodeStringHeader__arg_0x80_plus_byte_size (zN size)))]
    else let sb := be_bytes size in
         Nb (Z.to_N (lib_rlp__encBuffer_encodeStringHeader__assign
                       (lib_rlp__encBuffer_encodeStringHeader__let_sizesize (zN (len sb))))) :: sb.
Proof.
  intros H64. unfold str_head, head. rewrite src_strheader_guard.
  destruct (N.ltb_spec size 56).
  - rewrite src_strheader_small by assumption. rewrite N2Z.id. reflexivity.
  - cbv zeta. pose proof (be_bytes_len_le8 size H64). rewrite src_strheader_large by assumption. rewrite N2Z.id. reflexivity.
Qed.

(** single bytes below 0x80 are their own encoding: writeBytes / writeString / [1]byte *)
Lemma src_writeBytes_guard (b : bytes) :
  lib_rlp__encBuffer_writeBytes__if_len_b_eq_1_and_b_at_0_le_0x7F (zN (len b)) (zb (hd x00 b))
  = ((len b =? 1) && (bN (hd x00 b) <? 128))%N%bool.
Proof. unfold lib_rlp__encBuffer_writeBytes__if_len_b_eq_1_and_b_at_0_le_0x7F, zb. tie_close. Qed.
Lemma src_writeString_guard (b : bytes) :
  lib_rlp__writeString__if_len_s_eq_1_and_s_at_0_le_0x7f (zN (len b)) (zb (hd x00 b))
  = ((len b =? 1) && (bN (hd x00 b) <? 128))%N%bool.
Proof. unfold lib_rlp__writeString__if_len_s_eq_1_and_s_at_0_le_0x7f, zb. tie_close. Qed.
Lemma src_writeOneByteArray_guard (x : byte) :
  lib_rlp__writeLengthOneByteArray__if_b_le_0x7f (lib_rlp__writeLengthOneByteArray__let_b (zb x)) = (bN x <? 128)%N.
Proof.
  unfold lib_rlp__writeLengthOneByteArray__if_b_le_0x7f, lib_rlp__writeLengthOneByteArray__let_b, zb.
  pose proof (bN_lt x). tie_close.
Qed.
Lemma src_writeBytes_atoms :
  lib_rlp__encBuffer_writeBytes__if_len_b_eq_1_and_b_at_0_le_0x7F_atoms = ["len(b) : int"; "b[0] : byte"]%string
  /\ lib_rlp__writeString__if_len_s_eq_1_and_s_at_0_le_0x7f_atoms = ["len(s) : int"; "s[0] : byte"]%string.
Proof. split; reflexivity. Qed.

(** the model's string writer IS writeBytes *)
Lemma src_enc_str (b : bytes) :
  enc_str b =
    if lib_rlp__encBuffer_writeBytes__if_len_b_eq_1_and_b_at_0_le_0x7F (zN (len b)) (zb (hd x00 b))
    then b else str_head (len b) ++ b.
Proof.
  rewrite src_writeBytes_guard. unfold enc_str.
  destruct b as [|x [|y r]].
  - reflexivity.
  - cbn [hd]. change (len [x]) with 1%N. cbn [N.eqb Pos.eqb andb]. destruct (bN x <? 128)%N; reflexivity.
  - replace (len (x :: y :: r) =? 1)%N with false; [reflexivity|].
    symmetry. apply N.eqb_neq. rewrite !len_cons. lia.
Qed.

Local Open Scope N_scope.

(** the k digits of n in base 256, most significant first *)
Fixpoint be_digits (k : nat) (n : N) : bytes :=
  match k with
  | O => []
  | S k' => Nb ((n / 256 ^ N.of_nat k') mod 256) :: be_digits k' n
  end.
Lemma len_be_digits k n : len (be_digits k n) = N.of_nat k.
Proof. induction k as [|k IH]; [reflexivity|]. cbn [be_digits]. rewrite len_cons, IH. lia. Qed.
Lemma be_digits_val k n : be_val (be_digits k n) = n mod 256 ^ N.of_nat k.
Proof.
  induction k as [|k IH].
  - cbn. rewrite N.mod_1_r. reflexivity.
  - cbn [be_digits]. rewrite be_val_cons, len_be_digits, IH.
    rewrite bN_Nb by (apply N.mod_lt; lia).
    replace (N.of_nat (S k)) with (N.of_nat k + 1) by lia.
    rewrite N.pow_add_r, N.pow_1_r.
    rewrite (N.mod_mul_r n (256 ^ N.of_nat k) 256) by (try apply N.pow_nonzero; lia).
    lia.
Qed.
Lemma be_bytes_digits k n : 256 ^ N.of_nat k <= n -> n < 256 ^ N.of_nat (S k) -> be_bytes n = be_digits (S k) n.
Proof.
  intros Hlo Hhi.
  rewrite <- (be_bytes_val (be_digits (S k) n)).
  - rewrite be_digits_val, N.mod_small by exact Hhi. reflexivity.
  - cbn [be_digits hd]. rewrite bN_Nb by (apply N.mod_lt; lia).
    assert (Hp : 256 ^ N.of_nat k <> 0) by (apply N.pow_nonzero; lia).
    replace (N.of_nat (S k)) with (N.of_nat k + 1) in Hhi by lia.
    rewrite N.pow_add_r, N.pow_1_r in Hhi.
    assert (Hq : n / 256 ^ N.of_nat k < 256) by (apply N.div_lt_upper_bound; [exact Hp|lia]).
    rewrite N.mod_small by exact Hq.
    assert (1 <= n / 256 ^ N.of_nat k) by (apply N.div_le_lower_bound; [exact Hp|lia]).
    lia.
Qed.

Local Open Scope Z_scope.

(** a byte extracted by [byte(i >> 8j)] is the j-th base-256 digit *)
Lemma src_shr_byte n j c : c = 8 * Z.of_nat j -> (n < two64)%N ->
  go_conv U8 (go_shr U64 (zN n) c) = zN ((n / 256 ^ N.of_nat j) mod 256)%N.
Proof.
  intros -> Hn. unfold go_conv, go_shr.
  assert (Hpow : 2 ^ (8 * Z.of_nat j) = zN (256 ^ N.of_nat j)%N).
  { rewrite N2Z.inj_pow, nat_N_Z. change (zN 256) with (2 ^ 8). rewrite <- Z.pow_mul_r by lia. reflexivity. }
  rewrite Hpow.
  assert (Hp : (256 ^ N.of_nat j <> 0)%N) by (apply N.pow_nonzero; lia).
  rewrite <- N2Z.inj_div.
  assert ((n / 256 ^ N.of_nat j <= n)%N).
  { apply N.div_le_upper_bound; [exact Hp|]. set (p := (256 ^ N.of_nat j)%N) in *. clearbody p.
    assert (1 <= p)%N by lia. rewrite <- (N.mul_1_l n) at 1. apply N.mul_le_mono_r. exact H. }
  set (q := (n / 256 ^ N.of_nat j)%N) in *. clearbody q.
  rewrite (wrap_id U64) by (unfold in_range, two64 in *; lia).
  unfold wrap. rewrite N2Z.inj_mod. reflexivity.
Qed.
Lemma src_low_byte n : go_conv U8 (zN n) = zN ((n / 256 ^ N.of_nat 0) mod 256)%N.
Proof. unfold go_conv, wrap. cbn [N.of_nat N.pow]. rewrite N.div_1_r, N2Z.inj_mod. reflexivity. Qed.

Definition nb (z : Z) : byte := Nb (Z.to_N z).

(** putint's size ladder and the bytes it stores, case by case *)
Definition src_putint_size (i : Z) : Z :=
  if lib_rlp__putint__case_i_lt_1_shl_8 i then 1
  else if lib_rlp__putint__case_i_lt_1_shl_16 i then 2
  else if lib_rlp__putint__case_i_lt_1_shl_24 i then 3
  else if lib_rlp__putint__case_i_lt_1_shl_32 i then 4
  else if lib_rlp__putint__case_i_lt_1_shl_40 i then 5
  else if lib_rlp__putint__case_i_lt_1_shl_48 i then 6
  else if lib_rlp__putint__case_i_lt_1_shl_56 i then 7
  else 8.
Definition src_putint_bytes (i : Z) : bytes :=
  if lib_rlp__putint__case_i_lt_1_shl_8 i then [nb (lib_rlp__putint__let_assign i)]
  else if lib_rlp__putint__case_i_lt_1_shl_16 i then
    [nb (lib_rlp__putint__assign i); nb (lib_rlp__putint__let_assign_2 i)]
  else if lib_rlp__putint__case_i_lt_1_shl_24 i then
    [nb (lib_rlp__putint__assign_2 i); nb (lib_rlp__putint__assign_3 i); nb (lib_rlp__putint__let_assign_3 i)]
  else if lib_rlp__putint__case_i_lt_1_shl_32 i then
    [nb (lib_rlp__putint__assign_4 i); nb (lib_rlp__putint__assign_5 i); nb (lib_rlp__putint__assign_6 i);
     nb (lib_rlp__putint__let_assign_4 i)]
  else if lib_rlp__putint__case_i_lt_1_shl_40 i then
    [nb (lib_rlp__putint__assign_7 i); nb (lib_rlp__putint__assign_8 i); nb (lib_rlp__putint__assign_9 i);
     nb (lib_rlp__putint__assign_10 i); nb (lib_rlp__putint__let_assign_5 i)]
  else if lib_rlp__putint__case_i_lt_1_shl_48 i then
    [nb (lib_rlp__putint__assign_11 i); nb (lib_rlp__putint__assign_12 i); nb (lib_rlp__putint__assign_13 i);
     nb (lib_rlp__putint__assign_14 i); nb (lib_rlp__putint__assign_15 i); nb (lib_rlp__putint__let_assign_6 i)]
  else if lib_rlp__putint__case_i_lt_1_shl_56 i then
    [nb (lib_rlp__putint__assign_16 i); nb (lib_rlp__putint__assign_17 i); nb (lib_rlp__putint__assign_18 i);
     nb (lib_rlp__putint__assign_19 i); nb (lib_rlp__putint__assign_20 i); nb (lib_rlp__putint__assign_21 i);
     nb (lib_rlp__putint__let_assign_7 i)]
  else
    [nb (lib_rlp__putint__assign_22 i); nb (lib_rlp__putint__assign_23 i); nb (lib_rlp__putint__assign_24 i);
     nb (lib_rlp__putint__assign_25 i); nb (lib_rlp__putint__assign_26 i); nb (lib_rlp__putint__assign_27 i);
     nb (lib_rlp__putint__assign_28 i); nb (lib_rlp__putint__let_assign_8 i)].

(** the model's minimal big-endian bytes ARE what putint stores, and their number is its result *)
Lemma src_putint n : (0 < n < two64)%N ->
  be_bytes n = src_putint_bytes (zN n) /\ zN (len (be_bytes n)) = src_putint_size (zN n).
Proof.
  intros [Hpos Hn].
  unfold src_putint_bytes, src_putint_size,
    lib_rlp__putint__case_i_lt_1_shl_8, lib_rlp__putint__case_i_lt_1_shl_16, lib_rlp__putint__case_i_lt_1_shl_24,
    lib_rlp__putint__case_i_lt_1_shl_32, lib_rlp__putint__case_i_lt_1_shl_40, lib_rlp__putint__case_i_lt_1_shl_48,
    lib_rlp__putint__case_i_lt_1_shl_56.
  assert (Hd : forall k, (256 ^ N.of_nat k <= n)%N -> (n < 256 ^ N.of_nat (S k))%N ->
                be_bytes n = be_digits (S k) n /\ len (be_bytes n) = N.of_nat (S k)).
  { intros k Hlo Hhi. rewrite (be_bytes_digits k n Hlo Hhi). split; [reflexivity|apply len_be_digits]. }
  (* every store is [byte(i >> 8j)] or [byte(i)]: the j-th digit (the generated names unfold by conversion) *)
  assert (D : forall j c, c = 8 * Z.of_nat j ->
                Nb ((n / 256 ^ N.of_nat j) mod 256) = nb (go_conv U8 (go_shr U64 (zN n) c))).
  { intros j c Ec. unfold nb. rewrite (src_shr_byte n j c Ec Hn), N2Z.id. reflexivity. }
  assert (D0 : Nb ((n / 256 ^ N.of_nat 0) mod 256) = nb (go_conv U8 (zN n))).
  { unfold nb. rewrite src_low_byte, N2Z.id. reflexivity. }
  bool_cases.
  - destruct (Hd 0%nat) as [E L]; [cbn; lia|cbn; lia|]. rewrite L, E. split; [|reflexivity].
    cbn [be_digits]. repeat f_equal; first [exact D0|exact (D _ _ eq_refl)].
  - destruct (Hd 1%nat) as [E L]; [cbn; lia|cbn; lia|]. rewrite L, E. split; [|reflexivity].
    cbn [be_digits]. repeat f_equal; first [exact D0|exact (D _ _ eq_refl)].
  - destruct (Hd 2%nat) as [E L]; [cbn; lia|cbn; lia|]. rewrite L, E. split; [|reflexivity].
    cbn [be_digits]. repeat f_equal; first [exact D0|exact (D _ _ eq_refl)].
  - destruct (Hd 3%nat) as [E L]; [cbn; lia|cbn; lia|]. rewrite L, E. split; [|reflexivity].
    cbn [be_digits]. repeat f_equal; first [exact D0|exact (D _ _ eq_refl)].
  - destruct (Hd 4%nat) as [E L]; [cbn; lia|cbn; lia|]. rewrite L, E. split; [|reflexivity].
    cbn [be_digits]. repeat f_equal; first [exact D0|exact (D _ _ eq_refl)].
  - destruct (Hd 5%nat) as [E L]; [cbn; lia|cbn; lia|]. rewrite L, E. split; [|reflexivity].
    cbn [be_digits]. repeat f_equal; first [exact D0|exact (D _ _ eq_refl)].
  - destruct (Hd 6%nat) as [E L]; [cbn; lia|cbn; lia|]. rewrite L, E. split; [|reflexivity].
    cbn [be_digits]. repeat f_equal; first [exact D0|exact (D _ _ eq_refl)].
  - destruct (Hd 7%nat) as [E L]; [cbn; lia|unfold two64 in Hn; cbn; lia|]. rewrite L, E. split; [|reflexivity].
    cbn [be_digits]. repeat f_equal; first [exact D0|exact (D _ _ eq_refl)].
Qed.

(** intsize: the loop [for size = 1; ; size++ { if i >>= 8; i == 0 { return size } }] *)
Fixpoint src_intsize_loop (fuel : nat) (size i : Z) : Z :=
  match fuel with
  | O => size
  | S f =>
    let i' := lib_rlp__intsize__set_i_op i in
    if lib_rlp__intsize__if_i_eq_0 i' then size
    else src_intsize_loop f (lib_rlp__intsize__set_size_op size) i'
  end.
Definition src_intsize (i : Z) : Z := src_intsize_loop 8 lib_rlp__intsize__forinit_size i.

(* from here to [be_bytes_len_bits], [lia] is given the equations of / and mod; it is slower with them *)
Ltac Zify.zify_post_hook ::= Z.to_euclidean_division_equations.
Lemma src_intsize_loop_ok fuel : forall s n, 0 <= s /\ s + Z.of_nat fuel <= 200 -> (n < 256 ^ N.of_nat fuel)%N -> (n < two64)%N ->
  (fuel <= 8)%nat ->
  src_intsize_loop fuel s (zN n) = s + zN (int_size_raw n) - 1.
Proof.
  induction fuel as [|f IH]; intros s n Hs Hn H64 Hf.
  - cbn in Hn. assert (n = 0%N) by lia. subst. cbn. lia.
  - cbn [src_intsize_loop]. cbv zeta.
    assert (Hi : lib_rlp__intsize__set_i_op (zN n) = zN (n / 256)%N).
    { unfold lib_rlp__intsize__set_i_op, go_shr. change (2 ^ 8) with (zN 256). rewrite <- N2Z.inj_div.
      apply wrap_id. unfold in_range, two64 in *.
      assert ((n / 256 <= n)%N) by (apply N.div_le_upper_bound; lia). lia. }
    rewrite Hi. unfold lib_rlp__intsize__if_i_eq_0.
    destruct (Z.eqb_spec (zN (n / 256)%N) 0) as [E|E].
    + assert ((n < 256)%N) by (apply N.div_small_iff; lia). rewrite int_size_raw_small by assumption. lia.
    + assert ((256 <= n)%N).
      { destruct (N.lt_ge_cases n 256) as [Hlt|]; [|assumption]. apply N.div_small in Hlt. lia. }
      rewrite (int_size_raw_step n) by assumption.
      unfold lib_rlp__intsize__set_size_op, go_add. rewrite wrap_id by (unfold in_range; lia).
      rewrite IH.
      * lia.
      * lia.
      * replace (N.of_nat (S f)) with (N.of_nat f + 1)%N in Hn by lia.
        rewrite N.pow_add_r, N.pow_1_r in Hn. apply N.div_lt_upper_bound; lia.
      * assert ((n / 256 <= n)%N) by (apply N.div_le_upper_bound; lia). lia.
      * lia.
Qed.
Lemma src_intsize_ok n : (n < two64)%N -> src_intsize (zN n) = zN (int_size_raw n).
Proof.
  intros Hn. unfold src_intsize. rewrite src_intsize_loop_ok; unfold lib_rlp__intsize__forinit_size; try lia.
  exact Hn.
Qed.

(** headsize / IntSize / ListSize *)
Lemma src_head_size size : (size < two64)%N ->
  zN (head_size size) =
    if lib_rlp__headsize__if_size_lt_56 (zN size) then 1
    else lib_rlp__headsize__ret_1_plus_intsize_size (src_intsize (zN size)).
Proof.
  intros Hn. unfold head_size. rewrite src_headsize_guard, src_intsize_ok by exact Hn.
  destruct (size <? 56)%N; [reflexivity|].
  unfold lib_rlp__headsize__ret_1_plus_intsize_size, go_add.
  pose proof (int_size_raw_le8 size Hn).
  rewrite wrap_id by (unfold in_range; lia). lia.
Qed.
Lemma src_int_size n : (n < two64)%N ->
  zN (int_size n) =
    if lib_rlp__IntSize__if_x_lt_0x80 (zN n) then 1
    else lib_rlp__IntSize__ret_1_plus_intsize_x (src_intsize (zN n)).
Proof.
  intros Hn. unfold int_size. rewrite src_intsize_ok by exact Hn.
  unfold lib_rlp__IntSize__if_x_lt_0x80. n_cases; bool_cases; try lia.
  unfold lib_rlp__IntSize__ret_1_plus_intsize_x, go_add.
  pose proof (int_size_raw_le8 n Hn).
  rewrite wrap_id by (unfold in_range; lia). lia.
Qed.
Lemma src_list_size n : (n < two64)%N ->
  zN (list_size n) = lib_rlp__ListSize__ret_uint64_headsize_contentSize_plus_contentSize (zN (head_size n)) (zN n).
Proof.
  intros Hn. unfold list_size, lib_rlp__ListSize__ret_uint64_headsize_contentSize_plus_contentSize, go_add, go_conv.
  pose proof (head_size_le9 n Hn).
  rewrite (wrap_id U64 (zN (head_size n))) by (unfold in_range; lia).
  unfold wrap. rewrite N2Z.inj_mod, N2Z.inj_add. reflexivity.
Qed.
Lemma src_sizes_atoms :
  lib_rlp__headsize__ret_1_plus_intsize_size_atoms = ["intsize(size) : int"]%string
  /\ lib_rlp__IntSize__if_x_lt_0x80_atoms = ["x : uint64"]%string
  /\ lib_rlp__IntSize__ret_1_plus_intsize_x_atoms = ["intsize(x) : int"]%string
  /\ lib_rlp__ListSize__ret_uint64_headsize_contentSize_plus_contentSize_atoms = ["headsize(contentSize) : int"; "contentSize : uint64"]%string
  /\ lib_rlp__intsize__set_i_op_atoms = ["i : uint64"]%string
  /\ lib_rlp__intsize__if_i_eq_0_atoms = ["i : uint64"]%string.
Proof. split_all; reflexivity. Qed.

(** AppendUint64 / encBuffer.writeUint64: zero, single byte, else tag 0x80+k and the putint bytes *)
Definition src_appenduint_size (i : Z) : Z :=
  if lib_rlp__AppendUint64__case_i_lt_1_shl_8 i then 1
  else if lib_rlp__AppendUint64__case_i_lt_1_shl_16 i then 2
  else if lib_rlp__AppendUint64__case_i_lt_1_shl_24 i then 3
  else if lib_rlp__AppendUint64__case_i_lt_1_shl_32 i then 4
  else if lib_rlp__AppendUint64__case_i_lt_1_shl_40 i then 5
  else if lib_rlp__AppendUint64__case_i_lt_1_shl_48 i then 6
  else if lib_rlp__AppendUint64__case_i_lt_1_shl_56 i then 7
  else 8.
Lemma src_appenduint_ladder i : src_appenduint_size i = src_putint_size i.
Proof. reflexivity. Qed.

(** the bytes AppendUint64 appends are the bytes putint stores *)
Lemma src_appenduint_bytes :
  lib_rlp__AppendUint64__arg_byte_i_shr_8 = lib_rlp__putint__assign
  /\ lib_rlp__AppendUint64__arg_byte_i_shr_16 = lib_rlp__putint__assign_2 /\ lib_rlp__AppendUint64__arg_byte_i_shr_8_2 = lib_rlp__putint__assign_3
  /\ lib_rlp__AppendUint64__arg_byte_i_shr_24 = lib_rlp__putint__assign_4 /\ lib_rlp__AppendUint64__arg_byte_i_shr_16_2 = lib_rlp__putint__assign_5
  /\ lib_rlp__AppendUint64__arg_byte_i_shr_8_3 = lib_rlp__putint__assign_6
  /\ lib_rlp__AppendUint64__arg_byte_i_shr_32 = lib_rlp__putint__assign_7 /\ lib_rlp__AppendUint64__arg_byte_i_shr_24_2 = lib_rlp__putint__assign_8
  /\ lib_rlp__AppendUint64__arg_byte_i_shr_16_3 = lib_rlp__putint__assign_9 /\ lib_rlp__AppendUint64__arg_byte_i_shr_8_4 = lib_rlp__putint__assign_10
  /\ lib_rlp__AppendUint64__arg_byte_i_shr_40 = lib_rlp__putint__assign_11 /\ lib_rlp__AppendUint64__arg_byte_i_shr_32_2 = lib_rlp__putint__assign_12
  /\ lib_rlp__AppendUint64__arg_byte_i_shr_24_3 = lib_rlp__putint__assign_13 /\ lib_rlp__AppendUint64__arg_byte_i_shr_16_4 = lib_rlp__putint__assign_14
  /\ lib_rlp__AppendUint64__arg_byte_i_shr_8_5 = lib_rlp__putint__assign_15
  /\ lib_rlp__AppendUint64__arg_byte_i_shr_48 = lib_rlp__putint__assign_16 /\ lib_rlp__AppendUint64__arg_byte_i_shr_40_2 = lib_rlp__putint__assign_17
  /\ lib_rlp__AppendUint64__arg_byte_i_shr_32_3 = lib_rlp__putint__assign_18 /\ lib_rlp__AppendUint64__arg_byte_i_shr_24_4 = lib_rlp__putint__assign_19
  /\ lib_rlp__AppendUint64__arg_byte_i_shr_16_5 = lib_rlp__putint__assign_20 /\ lib_rlp__AppendUint64__arg_byte_i_shr_8_6 = lib_rlp__putint__assign_21
  /\ lib_rlp__AppendUint64__arg_byte_i_shr_56 = lib_rlp__putint__assign_22 /\ lib_rlp__AppendUint64__arg_byte_i_shr_48_2 = lib_rlp__putint__assign_23
  /\ lib_rlp__AppendUint64__arg_byte_i_shr_40_3 = lib_rlp__putint__assign_24 /\ lib_rlp__AppendUint64__arg_byte_i_shr_32_4 = lib_rlp__putint__assign_25
  /\ lib_rlp__AppendUint64__arg_byte_i_shr_24_5 = lib_rlp__putint__assign_26 /\ lib_rlp__AppendUint64__arg_byte_i_shr_16_6 = lib_rlp__putint__assign_27
  /\ lib_rlp__AppendUint64__arg_byte_i_shr_8_7 = lib_rlp__putint__assign_28.
Proof. split_all; reflexivity. Qed.

Lemma src_append_uint64 n : (n < two64)%N ->
  append_uint64 n =
    (if lib_rlp__AppendUint64__if_i_eq_0 (zN n) then [Nb 128]
     else if lib_rlp__AppendUint64__if_i_lt_128 (zN n) then [Nb n]
     else Nb (128 + Z.to_N (src_appenduint_size (zN n))) :: src_putint_bytes (zN n)).
Proof.
  intros Hn. unfold append_uint64, lib_rlp__AppendUint64__if_i_eq_0, lib_rlp__AppendUint64__if_i_lt_128.
  n_cases; bool_cases; try lia; try reflexivity.
  cbv zeta. destruct (src_putint n ltac:(lia)) as [Eb El].
  rewrite src_appenduint_ladder, <- El, <- Eb, N2Z.id. reflexivity.
Qed.

Lemma src_enc_uint n : (n < two64)%N ->
  enc_uint n =
    (if lib_rlp__encBuffer_writeUint64__if_i_eq_0 (zN n) then [Nb 128]
     else if lib_rlp__encBuffer_writeUint64__if_i_lt_128 (zN n) then [Nb n]
     else nb (lib_rlp__encBuffer_writeUint64__assign (lib_rlp__encBuffer_writeUint64__let_s (src_putint_size (zN n))))
          :: src_putint_bytes (zN n)).
Proof.
  intros Hn. rewrite <- append_uint64_enc_uint by exact Hn.
  unfold append_uint64, lib_rlp__encBuffer_writeUint64__if_i_eq_0, lib_rlp__encBuffer_writeUint64__if_i_lt_128.
  n_cases; bool_cases; try lia; try reflexivity.
  cbv zeta. destruct (src_putint n ltac:(lia)) as [Eb El].
  rewrite <- El, <- Eb. pose proof (be_bytes_len_le8 n Hn).
  unfold nb, lib_rlp__encBuffer_writeUint64__assign, lib_rlp__encBuffer_writeUint64__let_s. gosem_unfold. wraps_away.
  replace (Z.to_N (128 + zN (len (be_bytes n)))) with (128 + len (be_bytes n))%N by lia. reflexivity.
Qed.
Lemma src_uint_atoms :
  lib_rlp__AppendUint64__if_i_eq_0_atoms = ["i : uint64"]%string
  /\ lib_rlp__AppendUint64__if_i_lt_128_atoms = ["i : uint64"]%string
  /\ lib_rlp__encBuffer_writeUint64__if_i_eq_0_atoms = ["i : uint64"]%string
  /\ lib_rlp__encBuffer_writeUint64__if_i_lt_128_atoms = ["i : uint64"]%string
  /\ lib_rlp__encBuffer_writeUint64__let_s_atoms = ["putint(buf.sizebuf[1:], i) : int"]%string
  /\ lib_rlp__encBuffer_writeUint64__assign_atoms = ["s : int"]%string
  /\ lib_rlp__putint__case_i_lt_1_shl_8_atoms = ["i : uint64"]%string
  /\ lib_rlp__putint__assign_22_atoms = ["i : uint64"]%string.
Proof. split_all; reflexivity. Qed.

(** writeBigInt: the uint64 path up to 64 bits, and ((bitlen + 7) & -8) >> 3 bytes above *)
Lemma land_minus8 a : 0 <= a -> Z.land a (-8) = 8 * (a / 8).
Proof.
  intros Ha. change (-8) with (Z.lnot (Z.ones 3)). rewrite <- Z.ldiff_land, Z.ldiff_ones_r by lia.
  rewrite Z.shiftl_mul_pow2, Z.shiftr_div_pow2 by lia. change (2 ^ 3) with 8. lia.
Qed.
Lemma src_bigint_length bitlen : 0 <= bitlen < 2 ^ 32 ->
  lib_rlp__encBuffer_writeBigInt__set_length (lib_rlp__encBuffer_writeBigInt__let_bitlen bitlen) = (bitlen + 7) / 8.
Proof.
  intros H. unfold lib_rlp__encBuffer_writeBigInt__set_length, lib_rlp__encBuffer_writeBigInt__let_bitlen, go_shr, go_and, go_add.
  rewrite (wrap_id I64 (bitlen + 7)) by (unfold in_range; lia).
  rewrite land_minus8 by lia.
  assert (0 <= (bitlen + 7) / 8 <= bitlen + 7) by (split; [apply Z.div_pos; lia|apply Z.div_le_upper_bound; lia]).
  rewrite (wrap_id I64 (8 * ((bitlen + 7) / 8))) by (unfold in_range; lia).
  change (2 ^ 3) with 8. rewrite Z.mul_comm, Z.div_mul by lia.
  apply wrap_id. unfold in_range. lia.
Qed.
Lemma src_bigint_guard bitlen : lib_rlp__encBuffer_writeBigInt__if_bitlen_le_64 (zN bitlen) = (bitlen <=? 64)%N.
Proof. unfold lib_rlp__encBuffer_writeBigInt__if_bitlen_le_64. tie_close. Qed.
(** the number of bytes of a big integer of [bitlen] bits is the length of the model's [be_bytes] *)
Lemma be_bytes_len_bits n : (n <> 0)%N -> zN (len (be_bytes n)) = (zN (N.size n) + 7) / 8.
Proof.
  intros Hn.
  assert (Hs1 : (1 <= N.size n)%N) by (destruct n; [contradiction|cbn; lia]).
  assert (Hs : (2 ^ (N.size n - 1) <= n < 2 ^ N.size n)%N).
  { split; [|apply N.size_gt].
    pose proof (N.size_le n) as Hle. rewrite N.succ_double_spec in Hle.
    replace (N.size n) with (N.size n - 1 + 1)%N in Hle at 1 by lia.
    rewrite N.pow_add_r, N.pow_1_r in Hle. lia. }
  set (s := N.size n) in *.
  set (k := ((s + 7) / 8)%N).
  assert (Hk : (8 * (k - 1) < s <= 8 * k)%N) by (unfold k; lia).
  assert (len (be_bytes n) = k).
  { apply be_bytes_len_exact.
    - unfold k. lia.
    - change 256%N with (2 ^ 8)%N. rewrite <- N.pow_mul_r.
      apply N.le_trans with (2 ^ (s - 1))%N; [apply N.pow_le_mono_r; lia|lia].
    - change 256%N with (2 ^ 8)%N. rewrite <- N.pow_mul_r.
      apply N.lt_le_trans with (2 ^ s)%N; [lia|apply N.pow_le_mono_r; lia]. }
  rewrite H. unfold k. rewrite N2Z.inj_div, N2Z.inj_add. reflexivity.
Qed.
Ltac Zify.zify_post_hook ::= idtac.

(** encBuffer bookkeeping: size(), the size of a closed list, the header bytes it adds.  The bounds [2 ^ 62] here
    (like [2 ^ 61] for the slice growth and [200] in the intsize loop) are not the code's: any bound that keeps the
    [int] sums inside the range of [wrap] would do. *)
Lemma src_encbuffer_size a b : 0 <= a < 2 ^ 62 -> 0 <= b < 2 ^ 62 ->
  lib_rlp__encBuffer_size__ret_len_buf_str_plus_buf_lhsize a b = a + b.
Proof. intros. unfold lib_rlp__encBuffer_size__ret_len_buf_str_plus_buf_lhsize. gosem_unfold. wraps_away. reflexivity. Qed.
Lemma src_listEnd_size total offset before : 0 <= before -> 0 <= offset -> before + offset <= total < 2 ^ 62 ->
  lib_rlp__encBuffer_listEnd__set_size total offset before = total - offset - before.
Proof. intros. unfold lib_rlp__encBuffer_listEnd__set_size. gosem_unfold. wraps_away. reflexivity. Qed.
Lemma src_listEnd_lhsize lhsize size : 0 <= lhsize < 2 ^ 62 -> (size < two64)%N ->
  (if lib_rlp__encBuffer_listEnd__if_lh_size_lt_56 (zN size)
   then lib_rlp__encBuffer_listEnd__set_lhsize_op lhsize
   else lib_rlp__encBuffer_listEnd__set_lhsize_op_2 lhsize (src_intsize (zN size)))
  = lhsize + zN (head_size size).
Proof.
  intros Hl Hn. rewrite src_listEnd_guard, src_intsize_ok by exact Hn. unfold head_size.
  pose proof (int_size_raw_le8 size Hn).
  destruct (size <? 56)%N;
    unfold lib_rlp__encBuffer_listEnd__set_lhsize_op, lib_rlp__encBuffer_listEnd__set_lhsize_op_2; gosem_unfold; wraps_away; lia.
Qed.
Lemma src_encbuffer_atoms :
  lib_rlp__encBuffer_size__ret_len_buf_str_plus_buf_lhsize_atoms = ["len(buf.str) : int"; "buf.lhsize : int"]%string
  /\ lib_rlp__encBuffer_listEnd__set_size_atoms = ["buf.size() : int"; "lh.offset : int"; "lh.size : int"]%string
  /\ lib_rlp__encBuffer_listEnd__set_lhsize_op_2_atoms = ["buf.lhsize : int"; "intsize(uint64(lh.size)) : int"]%string
  /\ lib_rlp__encBuffer_writeBigInt__let_bitlen_atoms = ["i.BitLen() : int"]%string
  /\ lib_rlp__encBuffer_writeBigInt__if_bitlen_le_64_atoms = ["bitlen : int"]%string
  /\ lib_rlp__encBuffer_writeBigInt__set_length_atoms = ["bitlen : int"]%string.
Proof. split_all; reflexivity. Qed.

(** empty slices / arrays are 0xC0; nil pointers 0x80 or 0xC0 by kind *)
Lemma src_slice_empty (l : list val) :
  lib_rlp__makeSliceWriter__if_vlen_eq_0 (lib_rlp__makeSliceWriter__let_vlen_2 (zN (len l))) = match l with [] => true | _ => false end.
Proof.
  unfold lib_rlp__makeSliceWriter__if_vlen_eq_0, lib_rlp__makeSliceWriter__let_vlen_2.
  destruct l; [reflexivity|]. rewrite len_cons. bool_cases; [lia|reflexivity].
Qed.
Lemma src_ptr_nil_encoding e tg :
  (match nil_kind e tg with KString => [Nb 128] | _ => [Nb 192] end : bytes) =
  [nb (if lib_rlp__makePtrWriter__if_typeNilKind_typ_Elem_ts_eq_String (zk (nil_kind e tg))
       then lib_rlp__makePtrWriter__let_nilEncoding_2 else lib_rlp__makePtrWriter__let_nilEncoding)].
Proof.
  destruct (nil_kind_cases e tg) as [-> | ->]; reflexivity.
Qed.
Lemma src_writer_atoms :
  lib_rlp__makeSliceWriter__let_vlen_2_atoms = ["val.Len() : int"]%string
  /\ lib_rlp__makeSliceWriter__if_vlen_eq_0_atoms = ["vlen : int"]%string
  /\ lib_rlp__makeSliceWriter__if_ts_Tail_atoms = ["ts.Tail : bool"]%string
  /\ lib_rlp__makePtrWriter__if_typeNilKind_typ_Elem_ts_eq_String_atoms = ["typeNilKind(typ.Elem(), ts) : github.com/kardiachain/go-kardia/lib/rlp.Kind"]%string
  /\ lib_rlp__makeStructWriter__if_firstOptionalField_eq_len_fields_atoms = ["firstOptionalField : int"; "len(fields) : int"]%string
  /\ lib_rlp__makeStructWriter__for_lastField_ge_firstOptionalField_atoms = ["lastField : int"; "firstOptionalField : int"]%string
  /\ lib_rlp__makeStructWriter__if_not_val_Field_fields_at_lastField__index__IsZero_atoms = ["val.Field(fields[lastField].index).IsZero() : bool"]%string
  /\ lib_rlp__makeStructWriter__for_i_le_lastField_atoms = ["i : int"; "lastField : int"]%string.
Proof. split_all; reflexivity. Qed.

Lemma nb_zb b : nb (zb b) = b.
Proof. unfold nb, zb. rewrite N2Z.id. apply Nb_bN. Qed.

(** readKind: the four boundaries of the type tag, the short sizes, "long form for a short size" *)
Lemma src_tag_lt_0x80 b : lib_rlp__Stream_readKind__case_b_lt_0x80 (zb b) = (bN b <? 128)%N.
Proof. unfold lib_rlp__Stream_readKind__case_b_lt_0x80, zb. tie_close. Qed.
Lemma src_tag_lt_0xB8 b : lib_rlp__Stream_readKind__case_b_lt_0xB8 (zb b) = (bN b <? 184)%N.
Proof. unfold lib_rlp__Stream_readKind__case_b_lt_0xB8, zb. tie_close. Qed.
Lemma src_tag_lt_0xC0 b : lib_rlp__Stream_readKind__case_b_lt_0xC0 (zb b) = (bN b <? 192)%N.
Proof. unfold lib_rlp__Stream_readKind__case_b_lt_0xC0, zb. tie_close. Qed.
Lemma src_tag_lt_0xF8 b : lib_rlp__Stream_readKind__case_b_lt_0xF8 (zb b) = (bN b <? 248)%N.
Proof. unfold lib_rlp__Stream_readKind__case_b_lt_0xF8, zb. tie_close. Qed.
Lemma src_short_string_size b : (128 <= bN b)%N ->
  Z.to_N (lib_rlp__Stream_readKind__ret_uint64_b_minus_0x80 (zb b)) = (bN b - 128)%N.
Proof.
  intros H. pose proof (bN_lt b). unfold lib_rlp__Stream_readKind__ret_uint64_b_minus_0x80, zb.
  gosem_unfold. wraps_away. lia.
Qed.
Lemma src_short_list_size b : (192 <= bN b)%N ->
  Z.to_N (lib_rlp__Stream_readKind__ret_uint64_b_minus_0xC0 (zb b)) = (bN b - 192)%N.
Proof.
  intros H. pose proof (bN_lt b). unfold lib_rlp__Stream_readKind__ret_uint64_b_minus_0xC0, zb.
  gosem_unfold. wraps_away. lia.
Qed.
Lemma src_lenlen b :
  ((184 <= bN b)%N -> Z.to_N (lib_rlp__Stream_readKind__arg_b_minus_0xB7 (zb b)) = (bN b - 183)%N
                      /\ Z.to_N (lib_rlp__readKind__arg_b_minus_0xB7 (zb b)) = (bN b - 183)%N)
  /\ ((248 <= bN b)%N -> Z.to_N (lib_rlp__Stream_readKind__arg_b_minus_0xF7 (zb b)) = (bN b - 247)%N
                         /\ Z.to_N (lib_rlp__readKind__arg_b_minus_0xF7 (zb b)) = (bN b - 247)%N).
Proof.
  pose proof (bN_lt b).
  unfold lib_rlp__Stream_readKind__arg_b_minus_0xB7, lib_rlp__readKind__arg_b_minus_0xB7,
    lib_rlp__Stream_readKind__arg_b_minus_0xF7, lib_rlp__readKind__arg_b_minus_0xF7, zb.
  split; intros; split; gosem_unfold; wraps_away; lia.
Qed.
Lemma src_lenlen_atoms :
  lib_rlp__Stream_readKind__arg_b_minus_0xB7_atoms = ["b : byte"]%string
  /\ lib_rlp__Stream_readKind__arg_b_minus_0xF7_atoms = ["b : byte"]%string
  /\ lib_rlp__readKind__arg_b_minus_0xB7_atoms = ["b : byte"]%string
  /\ lib_rlp__readKind__arg_b_minus_0xF7_atoms = ["b : byte"]%string.
Proof. split_all; reflexivity. Qed.

Lemma src_long_size_canon size :
  lib_rlp__Stream_readKind__if_err_eq_nil_and_size_lt_56 true (zN size) = (size <? 56)%N
  /\ lib_rlp__Stream_readKind__if_err_eq_nil_and_size_lt_56_2 true (zN size) = (size <? 56)%N.
Proof.
  unfold lib_rlp__Stream_readKind__if_err_eq_nil_and_size_lt_56, lib_rlp__Stream_readKind__if_err_eq_nil_and_size_lt_56_2.
  split; tie_close.
Qed.
Lemma src_readKind_atoms :
  lib_rlp__Stream_readKind__case_b_lt_0x80_atoms = ["b : byte"]%string
  /\ lib_rlp__Stream_readKind__case_b_lt_0xB8_atoms = ["b : byte"]%string
  /\ lib_rlp__Stream_readKind__case_b_lt_0xC0_atoms = ["b : byte"]%string
  /\ lib_rlp__Stream_readKind__case_b_lt_0xF8_atoms = ["b : byte"]%string
  /\ lib_rlp__Stream_readKind__ret_uint64_b_minus_0x80_atoms = ["b : byte"]%string
  /\ lib_rlp__Stream_readKind__ret_uint64_b_minus_0xC0_atoms = ["b : byte"]%string
  /\ lib_rlp__Stream_readKind__if_err_eq_nil_and_size_lt_56_atoms = ["err == nil : untyped bool"; "size : uint64"]%string
  /\ lib_rlp__Stream_readKind__if_err_eq_nil_and_size_lt_56_2_atoms = ["err == nil : untyped bool"; "size : uint64"]%string
  /\ lib_rlp__Stream_readKind__put_s_byteval_2_atoms = ["b : byte"]%string
  /\ lib_rlp__Stream_readKind__if_len_s_stack_eq_0_atoms = ["len(s.stack) : int"]%string.
Proof. split_all; reflexivity. Qed.

(** the window decoder's [read_kind] re-assembled from the generated guards and operands *)
Definition src_read_kind (il : bool) (bs : bytes) : kres :=
  match bs with
  | [] => KErr (if il then EEOL else EEOF)
  | b :: r =>
    let t := zb b in
    if lib_rlp__Stream_readKind__case_b_lt_0x80 t then KOk KByte 0 (nb (lib_rlp__Stream_readKind__put_s_byteval_2 t)) r
    else if lib_rlp__Stream_readKind__case_b_lt_0xB8 t then
      chk_size il KString (Z.to_N (lib_rlp__Stream_readKind__ret_uint64_b_minus_0x80 t)) r
    else if lib_rlp__Stream_readKind__case_b_lt_0xC0 t then
      match read_uint il (Z.to_N (lib_rlp__Stream_readKind__arg_b_minus_0xB7 t)) r with
      | UErr e => KErr e
      | UOk size r' =>
        if lib_rlp__Stream_readKind__if_err_eq_nil_and_size_lt_56 true (zN size) then KErr ECanonSize
        else chk_size il KString size r'
      end
    else if lib_rlp__Stream_readKind__case_b_lt_0xF8 t then
      chk_size il KList (Z.to_N (lib_rlp__Stream_readKind__ret_uint64_b_minus_0xC0 t)) r
    else
      match read_uint il (Z.to_N (lib_rlp__Stream_readKind__arg_b_minus_0xF7 t)) r with
      | UErr e => KErr e
      | UOk size r' =>
        if lib_rlp__Stream_readKind__if_err_eq_nil_and_size_lt_56_2 true (zN size) then KErr ECanonSize
        else chk_size il KList size r'
      end
  end.
Lemma src_read_kind_ok il bs : read_kind il bs = src_read_kind il bs.
Proof.
  destruct bs as [|b r]; [reflexivity|]. unfold read_kind, src_read_kind. cbv zeta.
  rewrite src_tag_lt_0x80, src_tag_lt_0xB8, src_tag_lt_0xC0, src_tag_lt_0xF8.
  destruct (N.ltb_spec (bN b) 128).
  { unfold lib_rlp__Stream_readKind__put_s_byteval_2. rewrite nb_zb. reflexivity. }
  destruct (N.ltb_spec (bN b) 184). { rewrite src_short_string_size by assumption. reflexivity. }
  destruct (N.ltb_spec (bN b) 192).
  { rewrite (proj1 (proj1 (src_lenlen b) ltac:(assumption))).
    destruct (read_uint il (bN b - 183) r); [|reflexivity]. rewrite (proj1 (src_long_size_canon v)). reflexivity. }
  destruct (N.ltb_spec (bN b) 248). { rewrite src_short_list_size by assumption. reflexivity. }
  rewrite (proj1 (proj2 (src_lenlen b) ltac:(assumption))).
  destruct (read_uint il (bN b - 247) r); [|reflexivity]. rewrite (proj2 (src_long_size_canon v)). reflexivity.
Qed.

(** the same for the literal Stream machine *)
Definition src_s_read_kind (s : stream) : sres (kind * N * byte) :=
  match s_read_full 1 s with
  | SErr e =>
    if lib_rlp__Stream_readKind__if_len_s_stack_eq_0 (zN (len (s_stack s)))
    then match e with EValueTooLarge => SErr EEOF | _ => SErr e end
    else SErr e
  | SOk b1 s1 =>
    let b := hd x00 b1 in
    let t := zb b in
    if lib_rlp__Stream_readKind__case_b_lt_0x80 t then SOk (KByte, 0%N, nb (lib_rlp__Stream_readKind__put_s_byteval_2 t)) s1
    else if lib_rlp__Stream_readKind__case_b_lt_0xB8 t then
      SOk (KString, Z.to_N (lib_rlp__Stream_readKind__ret_uint64_b_minus_0x80 t), nb lib_rlp__Stream_readKind__put_s_byteval) s1
    else if lib_rlp__Stream_readKind__case_b_lt_0xC0 t then
      sbind (s_read_uint (Z.to_N (lib_rlp__Stream_readKind__arg_b_minus_0xB7 t)) s1) (fun size s2 =>
      if lib_rlp__Stream_readKind__if_err_eq_nil_and_size_lt_56 true (zN size) then SErr ECanonSize
      else SOk (KString, size, nb lib_rlp__Stream_readKind__put_s_byteval) s2)
    else if lib_rlp__Stream_readKind__case_b_lt_0xF8 t then
      SOk (KList, Z.to_N (lib_rlp__Stream_readKind__ret_uint64_b_minus_0xC0 t), nb lib_rlp__Stream_readKind__put_s_byteval) s1
    else
      sbind (s_read_uint (Z.to_N (lib_rlp__Stream_readKind__arg_b_minus_0xF7 t)) s1) (fun size s2 =>
      if lib_rlp__Stream_readKind__if_err_eq_nil_and_size_lt_56_2 true (zN size) then SErr ECanonSize
      else SOk (KList, size, nb lib_rlp__Stream_readKind__put_s_byteval) s2)
  end.
Lemma src_s_read_kind_ok s : s_read_kind s = src_s_read_kind s.
Proof.
  unfold s_read_kind, src_s_read_kind.
  destruct (s_read_full 1 s) as [b1 s1|e].
  - cbv zeta. rewrite src_tag_lt_0x80, src_tag_lt_0xB8, src_tag_lt_0xC0, src_tag_lt_0xF8.
    change (nb lib_rlp__Stream_readKind__put_s_byteval) with x00.
    destruct (N.ltb_spec (bN (hd x00 b1)) 128).
    { unfold lib_rlp__Stream_readKind__put_s_byteval_2. rewrite nb_zb. reflexivity. }
    destruct (N.ltb_spec (bN (hd x00 b1)) 184). { rewrite src_short_string_size by assumption. reflexivity. }
    destruct (N.ltb_spec (bN (hd x00 b1)) 192).
    { rewrite (proj1 (proj1 (src_lenlen (hd x00 b1)) ltac:(assumption))).
      unfold sbind. destruct (s_read_uint _ s1); [|reflexivity]. rewrite (proj1 (src_long_size_canon v)). reflexivity. }
    destruct (N.ltb_spec (bN (hd x00 b1)) 248). { rewrite src_short_list_size by assumption. reflexivity. }
    rewrite (proj1 (proj2 (src_lenlen (hd x00 b1)) ltac:(assumption))).
    unfold sbind. destruct (s_read_uint _ s1); [|reflexivity]. rewrite (proj2 (src_long_size_canon v)). reflexivity.
  - unfold lib_rlp__Stream_readKind__if_len_s_stack_eq_0.
    destruct (s_stack s) as [|l st]; [reflexivity|].
    rewrite len_cons. bool_cases; [lia|]. destruct e; reflexivity.
Qed.

(** Kind: end of list, the size of the value ahead against the list limit and the input limit *)
Lemma src_kind_eol (inList : bool) l :
  lib_rlp__Stream_Kind__if_inList_and_listLimit_eq_0 inList (zN l) = (inList && (l =? 0)%N)%bool.
Proof. unfold lib_rlp__Stream_Kind__if_inList_and_listLimit_eq_0. destruct inList; tie_close. Qed.
Lemma src_kind_elem_too_large (inList : bool) size l :
  lib_rlp__Stream_Kind__if_inList_and_s_size_gt_listLimit inList (zN size) (zN l) = (inList && (l <? size)%N)%bool.
Proof. unfold lib_rlp__Stream_Kind__if_inList_and_s_size_gt_listLimit. destruct inList; tie_close. Qed.
Lemma src_kind_value_too_large (limited : bool) size rem :
  lib_rlp__Stream_Kind__if_s_limited_and_s_size_gt_s_remaining limited (zN size) (zN rem) = (limited && (rem <? size)%N)%bool.
Proof. unfold lib_rlp__Stream_Kind__if_s_limited_and_s_size_gt_s_remaining. destruct limited; tie_close. Qed.
Lemma src_kind_atoms :
  lib_rlp__Stream_Kind__if_s_kind_ge_0_atoms = ["s.kind : github.com/kardiachain/go-kardia/lib/rlp.Kind"]%string
  /\ lib_rlp__Stream_Kind__if_inList_and_listLimit_eq_0_atoms = ["inList : bool"; "listLimit : uint64"]%string
  /\ lib_rlp__Stream_Kind__if_inList_and_s_size_gt_listLimit_atoms = ["inList : bool"; "s.size : uint64"; "listLimit : uint64"]%string
  /\ lib_rlp__Stream_Kind__if_s_limited_and_s_size_gt_s_remaining_atoms = ["s.limited : bool"; "s.size : uint64"; "s.remaining : uint64"]%string
  /\ lib_rlp__Stream_Kind__if_s_kinderr_eq_nil_atoms = ["s.kinderr == nil : untyped bool"]%string.
Proof. split_all; reflexivity. Qed.

(** the window decoder's size check is Kind's: against the list limit inside a list, against the
    remaining input at top level (where DecodeBytes has set [limited]) *)
Lemma src_chk_size il k size rest :
  chk_size il k size rest =
    if (if il then lib_rlp__Stream_Kind__if_inList_and_s_size_gt_listLimit true (zN size) (zN (len rest))
        else lib_rlp__Stream_Kind__if_s_limited_and_s_size_gt_s_remaining true (zN size) (zN (len rest)))
    then KErr (too_large il) else KOk k size x00 rest.
Proof.
  unfold chk_size. rewrite src_kind_elem_too_large, src_kind_value_too_large. destruct il; reflexivity.
Qed.

(** the cached kind: [s.kind >= 0] is "a kind is cached"; every re-arm stores -1 *)
Definition cache_kind (c : option (kind * N * byte)) : Z :=
  match c with Some (k, _, _) => zk k | None => lib_rlp__Stream_willRead__put_s_kind end.
Lemma src_kind_cached c : lib_rlp__Stream_Kind__if_s_kind_ge_0 (cache_kind c) = match c with Some _ => true | None => false end.
Proof. destruct c as [[[[| |] ?] ?]|]; reflexivity. Qed.
Lemma src_rearm_stores :
  lib_rlp__Stream_willRead__put_s_kind = -1 /\ lib_rlp__Stream_Reset__put_s_kind = -1
  /\ lib_rlp__Stream_readUint__put_s_kind = -1 /\ lib_rlp__Stream_List__put_s_kind = -1
  /\ lib_rlp__Stream_ListEnd__put_s_kind = -1 /\ lib_rlp__Stream_Bytes__put_s_kind = -1
  /\ lib_rlp__Stream_ReadBytes__put_s_kind = -1 /\ lib_rlp__Stream_Raw__put_s_kind = -1
  /\ lib_rlp__Stream_uint__put_s_kind = -1 /\ lib_rlp__decodeBigInt__put_s_kind = -1
  /\ lib_rlp__decodeBigInt__put_s_kind_2 = -1 /\ lib_rlp__decodeByteArray__put_s_kind = -1
  /\ lib_rlp__makeNilPtrDecoder__put_s_kind = -1.
Proof. split_all; reflexivity. Qed.

Definition src_s_kind (s : stream) : sres (kind * N * byte) :=
  if lib_rlp__Stream_Kind__if_s_kind_ge_0 (cache_kind (s_cache s)) then
    match s_cache s with Some c => SOk c s | None => SErr EFuel end
  else
    let inList := match s_stack s with [] => false | _ => true end in
    let l := hd 0%N (s_stack s) in
    if lib_rlp__Stream_Kind__if_inList_and_listLimit_eq_0 inList (zN l) then SErr EEOL
    else
      sbind (s_read_kind s) (fun c s' =>
      let '(k, size, bv) := c in
      if lib_rlp__Stream_Kind__if_inList_and_s_size_gt_listLimit inList (zN size) (zN l) then SErr EElemTooLarge
      else if lib_rlp__Stream_Kind__if_s_limited_and_s_size_gt_s_remaining true (zN size) (zN (len (s_in s'))) then SErr EValueTooLarge
      else SOk c (mkS (s_in s') (s_stack s') (Some c))).
Lemma src_s_kind_ok s : s_kind s = src_s_kind s.
Proof.
  unfold s_kind, src_s_kind. rewrite src_kind_cached.
  destruct (s_cache s) as [c|]; [reflexivity|]. cbv zeta.
  rewrite src_kind_eol.
  destruct (s_stack s) as [|l st]; cbn [hd andb].
  - unfold sbind. destruct (s_read_kind s) as [[[k size] bv] s'|e]; [|reflexivity].
    rewrite src_kind_elem_too_large, src_kind_value_too_large. reflexivity.
  - destruct (l =? 0)%N; [reflexivity|].
    unfold sbind. destruct (s_read_kind s) as [[[k size] bv] s'|e]; [|reflexivity].
    rewrite src_kind_elem_too_large, src_kind_value_too_large. reflexivity.
Qed.

(** willRead: the two limits and their updates *)
Lemma src_willRead_list n limit : lib_rlp__Stream_willRead__if_n_gt_limit (zN n) (zN limit) = (limit <? n)%N.
Proof. unfold lib_rlp__Stream_willRead__if_n_gt_limit. tie_close. Qed.
Lemma src_willRead_input n rem : lib_rlp__Stream_willRead__if_n_gt_s_remaining (zN n) (zN rem) = (rem <? n)%N.
Proof. unfold lib_rlp__Stream_willRead__if_n_gt_s_remaining. tie_close. Qed.
Lemma src_willRead_sub_list limit n : (n <= limit)%N -> (limit < two64)%N ->
  lib_rlp__Stream_willRead__assign (zN limit) (zN n) = zN (limit - n).
Proof. intros. unfold lib_rlp__Stream_willRead__assign, two64 in *. gosem_unfold. wraps_away. lia. Qed.
Lemma src_willRead_sub_input rem n : (n <= rem)%N -> (rem < two64)%N ->
  lib_rlp__Stream_willRead__set_remaining_op (zN rem) (zN n) = zN (rem - n).
Proof. intros. unfold lib_rlp__Stream_willRead__set_remaining_op, two64 in *. gosem_unfold. wraps_away. lia. Qed.
Lemma src_willRead_atoms :
  lib_rlp__Stream_willRead__if_n_gt_limit_atoms = ["n : uint64"; "limit : uint64"]%string
  /\ lib_rlp__Stream_willRead__assign_atoms = ["limit : uint64"; "n : uint64"]%string
  /\ lib_rlp__Stream_willRead__if_n_gt_s_remaining_atoms = ["n : uint64"; "s.remaining : uint64"]%string
  /\ lib_rlp__Stream_willRead__set_remaining_op_atoms = ["s.remaining : uint64"; "n : uint64"]%string
  /\ lib_rlp__Stream_willRead__if_inList_atoms = ["inList : bool"]%string
  /\ lib_rlp__Stream_willRead__if_s_limited_atoms = ["s.limited : bool"]%string.
Proof. split_all; reflexivity. Qed.

Definition src_s_read_full (n : N) (s : stream) : sres bytes :=
  match s_stack s with
  | l :: r =>
    if lib_rlp__Stream_willRead__if_n_gt_limit (zN n) (zN l) then SErr EElemTooLarge
    else if lib_rlp__Stream_willRead__if_n_gt_s_remaining (zN n) (zN (len (s_in s))) then SErr EValueTooLarge
    else SOk (take n (s_in s)) (mkS (drop n (s_in s)) (Z.to_N (lib_rlp__Stream_willRead__assign (zN l) (zN n)) :: r) None)
  | [] =>
    if lib_rlp__Stream_willRead__if_n_gt_s_remaining (zN n) (zN (len (s_in s))) then SErr EValueTooLarge
    else SOk (take n (s_in s)) (mkS (drop n (s_in s)) [] None)
  end.
Lemma src_s_read_full_ok n s : Forall (fun l => (l < two64)%N) (s_stack s) -> s_read_full n s = src_s_read_full n s.
Proof.
  intros Hst. unfold s_read_full, src_s_read_full.
  destruct (s_stack s) as [|l r]; rewrite ?src_willRead_list, ?src_willRead_input; [reflexivity|].
  destruct (N.ltb_spec l n); [reflexivity|]. destruct (len (s_in s) <? n)%N; [reflexivity|].
  inversion Hst; subst. rewrite src_willRead_sub_list by assumption. rewrite N2Z.id. reflexivity.
Qed.

(** readUint: a multi-byte size or integer must not start with a zero byte *)
Lemma src_readUint_leading_zero (b : bytes) :
  lib_rlp__Stream_readUint__if_buffer_at_start_eq_0 (zb (hd x00 b)) = (bN (hd x00 b) =? 0)%N.
Proof. unfold lib_rlp__Stream_readUint__if_buffer_at_start_eq_0, zb. tie_close. Qed.
Lemma src_readUint_start size : (2 <= size <= 8)%N -> lib_rlp__Stream_readUint__set_start (zN size) = 8 - zN size.
Proof. intros. unfold lib_rlp__Stream_readUint__set_start. gosem_unfold. wraps_away. reflexivity. Qed.
Lemma src_read_uint il size bs :
  read_uint il size bs =
    if (size =? 0)%N then UOk 0%N bs
    else if (len bs <? size)%N then UErr (too_large il)
    else let b := take size bs in
         if (size =? 1)%N then UOk (be_val b) (drop size bs)
         else if lib_rlp__Stream_readUint__if_buffer_at_start_eq_0 (zb (hd x00 b)) then UErr ECanonSize
         else UOk (be_val b) (drop size bs).
Proof. unfold read_uint. cbv zeta. rewrite src_readUint_leading_zero. reflexivity. Qed.
Lemma src_readUint_atoms :
  lib_rlp__Stream_readUint__if_buffer_at_start_eq_0_atoms = ["buffer[start] : byte"]%string
  /\ lib_rlp__Stream_readUint__set_start_atoms = ["size : byte"]%string.
Proof. split; reflexivity. Qed.

Lemma src_list_kind k : lib_rlp__Stream_List__if_kind_ne_List (zk k) = negb (kind_eqb k KList).
Proof. destruct k; reflexivity. Qed.
Lemma src_list_limit limit size : (limit < two64)%N -> (size < two64)%N ->
  Z.to_N (lib_rlp__Stream_List__assign (zN limit) (zN size)) = ((limit + two64 - size) mod two64)%N.
Proof.
  intros Hl Hs. unfold lib_rlp__Stream_List__assign, go_sub, wrap, two64 in *.
  apply N2Z.inj. rewrite Z2N.id by (apply Z.mod_pos_bound; lia).
  rewrite N2Z.inj_mod. change (zN 18446744073709551616) with 18446744073709551616.
  replace (zN (limit + 18446744073709551616 - size)) with (zN limit - zN size + 1 * 18446744073709551616) by lia.
  rewrite Z.mod_add by lia. reflexivity.
Qed.
Lemma src_listEnd_not_at_eol l : lib_rlp__Stream_ListEnd__if_listLimit_gt_0 (zN l) = (0 <? l)%N.
Proof. unfold lib_rlp__Stream_ListEnd__if_listLimit_gt_0. tie_close. Qed.
Lemma src_list_atoms :
  lib_rlp__Stream_List__if_kind_ne_List_atoms = ["kind : github.com/kardiachain/go-kardia/lib/rlp.Kind"]%string
  /\ lib_rlp__Stream_List__assign_atoms = ["limit : uint64"; "size : uint64"]%string
  /\ lib_rlp__Stream_List__if_inList_atoms = ["inList : bool"]%string
  /\ lib_rlp__Stream_ListEnd__if_not_inList_atoms = ["inList : bool"]%string
  /\ lib_rlp__Stream_ListEnd__if_listLimit_gt_0_atoms = ["listLimit : uint64"]%string.
Proof. split_all; reflexivity. Qed.

Definition src_s_list (s : stream) : sres N :=
  sbind (s_kind s) (fun c s' =>
  let '(k, size, _) := c in
  if lib_rlp__Stream_List__if_kind_ne_List (zk k) then SErr EExpectedList
  else
    let st := match s_stack s' with
              | l :: r => Z.to_N (lib_rlp__Stream_List__assign (zN l) (zN size)) :: r
              | [] => []
              end in
    SOk size (mkS (s_in s') (size :: st) None)).
Lemma src_s_list_ok s :
  (forall c s', s_kind s = SOk c s' -> (snd (fst c) < two64)%N /\ Forall (fun l => (l < two64)%N) (s_stack s')) ->
  s_list s = src_s_list s.
Proof.
  intros Hb. unfold s_list, src_s_list, sbind.
  destruct (s_kind s) as [[[k size] bv] s'|e] eqn:E; [|reflexivity].
  destruct (Hb _ _ eq_refl) as [Hs Hst]. cbn [fst snd] in Hs.
  rewrite src_list_kind. destruct k; cbn [kind_eqb negb]; try reflexivity.
  destruct (s_stack s') as [|l r]; [reflexivity|].
  inversion Hst; subst. rewrite src_list_limit by assumption. reflexivity.
Qed.

Definition src_s_list_end (s : stream) : sres unit :=
  if lib_rlp__Stream_ListEnd__if_not_inList (match s_stack s with [] => false | _ => true end) then SErr ENotInList
  else if lib_rlp__Stream_ListEnd__if_listLimit_gt_0 (zN (hd 0%N (s_stack s))) then SErr ENotAtEOL
  else SOk tt (mkS (s_in s) (tl (s_stack s)) None).
Lemma src_s_list_end_ok s : s_list_end s = src_s_list_end s.
Proof.
  unfold s_list_end, src_s_list_end. destruct (s_stack s) as [|l r]; [reflexivity|].
  cbn [hd tl]. rewrite src_listEnd_not_at_eol. reflexivity.
Qed.

(** "single byte wrapped as a string" (Stream.Bytes, ReadBytes, decodeBigInt, decodeByteArray) *)
Lemma src_wrapped_single_byte size (b : bytes) :
  lib_rlp__Stream_Bytes__if_size_eq_1_and_b_at_0_lt_128 (zN size) (zb (hd x00 b)) = ((size =? 1) && (bN (hd x00 b) <? 128))%N%bool
  /\ lib_rlp__Stream_ReadBytes__if_size_eq_1_and_b_at_0_lt_128 (zN size) (zb (hd x00 b)) = ((size =? 1) && (bN (hd x00 b) <? 128))%N%bool
  /\ lib_rlp__decodeBigInt__if_size_eq_1_and_buffer_at_0_lt_128 (zN size) (zb (hd x00 b)) = ((size =? 1) && (bN (hd x00 b) <? 128))%N%bool
  /\ lib_rlp__decodeByteArray__if_size_eq_1_and_slice_at_0_lt_128 (zN size) (zb (hd x00 b)) = ((size =? 1) && (bN (hd x00 b) <? 128))%N%bool.
Proof.
  unfold lib_rlp__Stream_Bytes__if_size_eq_1_and_b_at_0_lt_128, lib_rlp__Stream_ReadBytes__if_size_eq_1_and_b_at_0_lt_128,
    lib_rlp__decodeBigInt__if_size_eq_1_and_buffer_at_0_lt_128, lib_rlp__decodeByteArray__if_size_eq_1_and_slice_at_0_lt_128, zb.
  split_all; tie_close.
Qed.
Lemma src_wrapped_atoms :
  lib_rlp__Stream_Bytes__if_size_eq_1_and_b_at_0_lt_128_atoms = ["size : uint64"; "b[0] : byte"]%string
  /\ lib_rlp__Stream_ReadBytes__if_size_eq_1_and_b_at_0_lt_128_atoms = ["size : uint64"; "b[0] : byte"]%string
  /\ lib_rlp__decodeBigInt__if_size_eq_1_and_buffer_at_0_lt_128_atoms = ["size : uint64"; "buffer[0] : byte"]%string
  /\ lib_rlp__decodeByteArray__if_size_eq_1_and_slice_at_0_lt_128_atoms = ["size : uint64"; "slice[0] : byte"]%string.
Proof. split_all; reflexivity. Qed.

Lemma src_dec_bytes il bs :
  dec_bytes il bs =
    match read_kind il bs with
    | KErr e => Err e 0%N
    | KOk KByte _ bv rest => Ok [bv] rest 1%N
    | KOk KString size _ rest =>
      let b := take size rest in
      if lib_rlp__Stream_Bytes__if_size_eq_1_and_b_at_0_lt_128 (zN size) (zb (hd x00 b)) then Err ECanonSize size
      else Ok b (drop size rest) size
    | KOk KList _ _ _ => Err EExpectedString 0%N
    end.
Proof.
  unfold dec_bytes. destruct (read_kind il bs) as [[| |] size bv rest|e]; try reflexivity.
  cbv zeta. rewrite (proj1 (src_wrapped_single_byte size (take size rest))). reflexivity.
Qed.

(** ReadBytes: the buffer must have exactly the announced size *)
Lemma src_readbytes_guards n size :
  lib_rlp__Stream_ReadBytes__if_len_b_ne_1 (zN n) = negb (n =? 1)%N
  /\ ((n < two64)%N -> lib_rlp__Stream_ReadBytes__if_uint64_len_b_ne_size (zN n) (zN size) = negb (n =? size)%N).
Proof.
  unfold lib_rlp__Stream_ReadBytes__if_len_b_ne_1, lib_rlp__Stream_ReadBytes__if_uint64_len_b_ne_size, go_neqb, two64.
  split; [|intros Hn; gosem_unfold; wraps_away]; n_cases; bool_cases; cbn [negb]; try reflexivity; lia.
Qed.
Lemma src_s_read_bytes n s : (n < two64)%N ->
  s_read_bytes n s =
    sbind (s_kind s) (fun c s' =>
    match c with
    | (KByte, _, bv) => if lib_rlp__Stream_ReadBytes__if_len_b_ne_1 (zN n) then SErr EWrongSize else SOk [bv] (rearm s')
    | (KString, size, _) =>
      if lib_rlp__Stream_ReadBytes__if_uint64_len_b_ne_size (zN n) (zN size) then SErr EWrongSize
      else sbind (s_read_full size s') (fun b s'' =>
           if lib_rlp__Stream_ReadBytes__if_size_eq_1_and_b_at_0_lt_128 (zN size) (zb (hd x00 b)) then SErr ECanonSize else SOk b s'')
    | (KList, _, _) => SErr EExpectedString
    end).
Proof.
  intros Hn. unfold s_read_bytes, sbind. destruct (s_kind s) as [[[[| |] size] bv] s'|e]; try reflexivity.
  - rewrite (proj1 (src_readbytes_guards n 0%N)). destruct (n =? 1)%N; reflexivity.
  - rewrite (proj2 (src_readbytes_guards n size) Hn). destruct (n =? size)%N; cbn [negb]; [|reflexivity].
    destruct (s_read_full size s'); [|reflexivity].
    rewrite (proj1 (proj2 (src_wrapped_single_byte size v))). reflexivity.
Qed.

(** Raw: which header is re-created *)
Lemma src_raw_kinds k :
  lib_rlp__Stream_Raw__if_kind_eq_Byte (zk k) = kind_eqb k KByte
  /\ lib_rlp__Stream_Raw__if_kind_eq_String (zk k) = kind_eqb k KString.
Proof. destruct k; split; reflexivity. Qed.
Lemma src_dec_raw il bs :
  dec_raw il bs =
    match read_kind il bs with
    | KErr e => Err e 0%N
    | KOk k size bv rest =>
      if lib_rlp__Stream_Raw__if_kind_eq_Byte (zk k) then Ok [bv] rest 1%N
      else
        let h := if lib_rlp__Stream_Raw__if_kind_eq_String (zk k) then str_head size else list_head size in
        Ok (h ++ take size rest) (drop size rest) (len h + size)%N
    end.
Proof. unfold dec_raw. destruct (read_kind il bs) as [[| |] size bv rest|e]; reflexivity. Qed.

(** Raw: the buffer it allocates has the size of the re-created header plus the content *)
Lemma src_raw_alloc size : (size < two64 - 9)%N ->
  lib_rlp__Stream_Raw__arg_uint64_start_plus_size (lib_rlp__Stream_Raw__let_start (zN (head_size size))) (zN size)
  = zN (head_size size + size).
Proof.
  intros H. unfold lib_rlp__Stream_Raw__arg_uint64_start_plus_size, lib_rlp__Stream_Raw__let_start, two64 in *.
  pose proof (head_size_le9 size ltac:(unfold two64; lia)).
  gosem_unfold. wraps_away. lia.
Qed.

(** uint: zero byte, width of the target, single byte wrapped as a string *)
Lemma src_uint_guards bv size maxbits v : (maxbits < 2 ^ 32)%N ->
  lib_rlp__Stream_uint__if_s_byteval_eq_0 (zb bv) = (bN bv =? 0)%N
  /\ lib_rlp__Stream_uint__if_size_gt_uint64_maxbits_div_8 (zN size) (zN maxbits) = (maxbits / 8 <? size)%N
  /\ lib_rlp__Stream_uint__case_size_gt_0_and_v_lt_128 (zN size) (zN v) = ((0 <? size) && (v <? 128))%N%bool.
Proof.
  intros Hm.
  unfold lib_rlp__Stream_uint__if_s_byteval_eq_0, lib_rlp__Stream_uint__if_size_gt_uint64_maxbits_div_8,
    lib_rlp__Stream_uint__case_size_gt_0_and_v_lt_128, zb.
  split; [tie_close|]. split; [|tie_close].
  unfold go_conv, go_quot. rewrite Z.quot_div_nonneg by lia.
  assert (0 <= zN maxbits / 8 <= zN maxbits) by (split; [apply Z.div_pos; lia|apply Z.div_le_upper_bound; lia]).
  change (2 ^ 32)%N with 4294967296%N in Hm.
  wraps_away.
  change 8 with (zN 8). rewrite <- N2Z.inj_div. tie_close.
Qed.
Lemma src_stream_uint_atoms :
  lib_rlp__Stream_uint__if_s_byteval_eq_0_atoms = ["s.byteval : byte"]%string
  /\ lib_rlp__Stream_uint__if_size_gt_uint64_maxbits_div_8_atoms = ["size : uint64"; "maxbits : int"]%string
  /\ lib_rlp__Stream_uint__case_size_gt_0_and_v_lt_128_atoms = ["size : uint64"; "v : uint64"]%string.
Proof. split_all; reflexivity. Qed.
Lemma src_dec_uint maxbits il bs : (maxbits < 2 ^ 32)%N ->
  dec_uint maxbits il bs =
    match read_kind il bs with
    | KErr e => Err e 0%N
    | KOk KByte _ bv rest => if lib_rlp__Stream_uint__if_s_byteval_eq_0 (zb bv) then Err ECanonInt 0%N else Ok (bN bv) rest 0%N
    | KOk KString size _ rest =>
      if lib_rlp__Stream_uint__if_size_gt_uint64_maxbits_div_8 (zN size) (zN maxbits) then Err EUintOverflow 0%N
      else match read_uint il size rest with
           | UErr ECanonSize => Err ECanonInt 0%N
           | UErr e => Err e 0%N
           | UOk v r => if lib_rlp__Stream_uint__case_size_gt_0_and_v_lt_128 (zN size) (zN v) then Err ECanonSize 0%N else Ok v r 0%N
           end
    | KOk KList _ _ _ => Err EExpectedString 0%N
    end.
Proof.
  intros Hm. unfold dec_uint. destruct (read_kind il bs) as [[| |] size bv rest|e]; try reflexivity.
  - rewrite (proj1 (src_uint_guards bv 0%N maxbits 0%N Hm)). reflexivity.
  - rewrite (proj1 (proj2 (src_uint_guards bv size maxbits 0%N Hm))).
    destruct (maxbits / 8 <? size)%N; [reflexivity|].
    destruct (read_uint il size rest) as [v r|e]; [|reflexivity].
    rewrite (proj2 (proj2 (src_uint_guards bv size maxbits v Hm))). reflexivity.
Qed.

(** decodeBigInt: kinds, the empty string, the 32-byte scratch buffer, leading zero *)
Lemma src_bigint_guards k size (b : bytes) :
  lib_rlp__decodeBigInt__case_kind_eq_List (zk k) = kind_eqb k KList
  /\ lib_rlp__decodeBigInt__case_kind_eq_Byte (zk k) = kind_eqb k KByte
  /\ lib_rlp__decodeBigInt__case_size_eq_0 (zN size) = (size =? 0)%N
  /\ lib_rlp__decodeBigInt__case_size_le_uint64_len_s_uintbuf (zN size) = (size <=? 32)%N
  /\ (b <> [] -> lib_rlp__decodeBigInt__if_len_buffer_gt_0_and_buffer_at_0_eq_0 (zN (len b)) (zb (hd x00 b)) = (bN (hd x00 b) =? 0)%N).
Proof.
  unfold lib_rlp__decodeBigInt__case_kind_eq_List, lib_rlp__decodeBigInt__case_kind_eq_Byte, lib_rlp__decodeBigInt__case_size_eq_0,
    lib_rlp__decodeBigInt__case_size_le_uint64_len_s_uintbuf, lib_rlp__decodeBigInt__if_len_buffer_gt_0_and_buffer_at_0_eq_0, zb.
  split; [destruct k; reflexivity|]. split; [destruct k; reflexivity|]. split; [tie_close|]. split; [tie_close|].
  intros Hb. destruct b as [|x r]; [contradiction|]. rewrite len_cons. tie_close.
Qed.
Lemma src_bigint_atoms :
  lib_rlp__decodeBigInt__case_size_eq_0_atoms = ["size : uint64"]%string
  /\ lib_rlp__decodeBigInt__case_size_le_uint64_len_s_uintbuf_atoms = ["size : uint64"]%string
  /\ lib_rlp__decodeBigInt__if_len_buffer_gt_0_and_buffer_at_0_eq_0_atoms = ["len(buffer) : int"; "buffer[0] : byte"]%string.
Proof. split_all; reflexivity. Qed.
Lemma src_dec_big il bs :
  dec_big il bs =
    match read_kind il bs with
    | KErr e => Err e 0%N
    | KOk k size bv rest =>
      if lib_rlp__decodeBigInt__case_kind_eq_List (zk k) then Err EExpectedString 0%N
      else if lib_rlp__decodeBigInt__case_kind_eq_Byte (zk k) then
        (if lib_rlp__decodeBigInt__if_len_buffer_gt_0_and_buffer_at_0_eq_0 1 (zb bv) then Err ECanonInt 0%N else Ok (bN bv) rest 0%N)
      else if lib_rlp__decodeBigInt__case_size_eq_0 (zN size) then Ok 0%N rest 0%N
      else
        let b := take size rest in
        let small := lib_rlp__decodeBigInt__case_size_le_uint64_len_s_uintbuf (zN size) in
        let a := if small then 0%N else size in
        if small && lib_rlp__decodeBigInt__if_size_eq_1_and_buffer_at_0_lt_128 (zN size) (zb (hd x00 b)) then Err ECanonSize a
        else if lib_rlp__decodeBigInt__if_len_buffer_gt_0_and_buffer_at_0_eq_0 (zN size) (zb (hd x00 b)) then Err ECanonInt a
        else Ok (be_val b) (drop size rest) a
    end.
Proof.
  unfold dec_big. destruct (read_kind il bs) as [k size bv rest|e]; [|reflexivity].
  destruct (src_bigint_guards k size [bv]) as (-> & -> & -> & -> & Hz).
  destruct k; cbn [kind_eqb]; try reflexivity.
  - specialize (Hz ltac:(discriminate)). change (zN (len [bv])) with 1 in Hz. cbn [hd] in Hz. rewrite Hz. reflexivity.
  - destruct (N.eqb_spec size 0); [reflexivity|]. cbv zeta.
    rewrite (proj1 (proj2 (proj2 (src_wrapped_single_byte size (take size rest))))).
    unfold lib_rlp__decodeBigInt__if_len_buffer_gt_0_and_buffer_at_0_eq_0, zb.
    destruct (N.leb_spec size 32); cbn [andb].
    + destruct ((size =? 1)%N && (bN (hd x00 (take size rest)) <? 128)%N); [reflexivity|]. tie_close.
    + replace ((size =? 1)%N && (bN (hd x00 (take size rest)) <? 128)%N) with false
        by (destruct (N.eqb_spec size 1); [lia|reflexivity]).
      tie_close.
Qed.

(** decodeByteArray: the input string has exactly the array's length *)
Lemma src_array_guards n size :
  lib_rlp__decodeByteArray__if_len_slice_eq_0 (zN n) = (n =? 0)%N
  /\ lib_rlp__decodeByteArray__if_len_slice_gt_1 (zN n) = (1 <? n)%N
  /\ ((n < two64)%N -> lib_rlp__decodeByteArray__if_uint64_len_slice_lt_size (zN n) (zN size) = (n <? size)%N
                      /\ lib_rlp__decodeByteArray__if_uint64_len_slice_gt_size (zN n) (zN size) = (size <? n)%N).
Proof.
  unfold lib_rlp__decodeByteArray__if_len_slice_eq_0, lib_rlp__decodeByteArray__if_len_slice_gt_1,
    lib_rlp__decodeByteArray__if_uint64_len_slice_lt_size, lib_rlp__decodeByteArray__if_uint64_len_slice_gt_size, two64.
  split; [tie_close|]. split; [tie_close|]. intros Hn. split; tie_close.
Qed.
Lemma src_array_atoms :
  lib_rlp__decodeByteArray__if_len_slice_eq_0_atoms = ["len(slice) : int"]%string
  /\ lib_rlp__decodeByteArray__if_len_slice_gt_1_atoms = ["len(slice) : int"]%string
  /\ lib_rlp__decodeByteArray__if_uint64_len_slice_lt_size_atoms = ["len(slice) : int"; "size : uint64"]%string
  /\ lib_rlp__decodeByteArray__if_uint64_len_slice_gt_size_atoms = ["len(slice) : int"; "size : uint64"]%string.
Proof. split_all; reflexivity. Qed.
Lemma src_dec_array n il bs : (n < two64)%N ->
  dec_array n il bs =
    match read_kind il bs with
    | KErr e => Err e 0%N
    | KOk KByte _ bv rest =>
      if lib_rlp__decodeByteArray__if_len_slice_eq_0 (zN n) then Err EStrTooLong 0%N
      else if lib_rlp__decodeByteArray__if_len_slice_gt_1 (zN n) then Err EStrTooShort 0%N else Ok [bv] rest 0%N
    | KOk KString size _ rest =>
      if lib_rlp__decodeByteArray__if_uint64_len_slice_lt_size (zN n) (zN size) then Err EStrTooLong 0%N
      else if lib_rlp__decodeByteArray__if_uint64_len_slice_gt_size (zN n) (zN size) then Err EStrTooShort 0%N
      else
        let b := take size rest in
        if lib_rlp__decodeByteArray__if_size_eq_1_and_slice_at_0_lt_128 (zN size) (zb (hd x00 b)) then Err ECanonSize 0%N
        else Ok b (drop size rest) 0%N
    | KOk KList _ _ _ => Err EExpectedString 0%N
    end.
Proof.
  intros Hn. unfold dec_array. destruct (read_kind il bs) as [[| |] size bv rest|e]; try reflexivity.
  - destruct (src_array_guards n 0%N) as (-> & -> & _). reflexivity.
  - destruct (src_array_guards n size) as (_ & _ & H). destruct (H Hn) as [-> ->].
    cbv zeta. rewrite (proj2 (proj2 (proj2 (src_wrapped_single_byte size (take size rest))))). reflexivity.
Qed.

(** nil-tagged pointers: an empty string / list is the nil pointer if it has the right kind *)
Lemma src_nilptr_guards k size nk :
  lib_rlp__makeNilPtrDecoder__if_kind_ne_Byte_and_size_eq_0 (zk k) (zN size) = (negb (kind_eqb k KByte) && (size =? 0)%N)%bool
  /\ lib_rlp__makeNilPtrDecoder__if_kind_ne_nilKind (zk k) (lib_rlp__makeNilPtrDecoder__let_nilKind (zk nk)) = negb (kind_eqb k nk).
Proof.
  unfold lib_rlp__makeNilPtrDecoder__if_kind_ne_Byte_and_size_eq_0, lib_rlp__makeNilPtrDecoder__if_kind_ne_nilKind,
    lib_rlp__makeNilPtrDecoder__let_nilKind.
  split; [destruct k; cbn [zk kind_eqb negb andb go_neqb Z.eqb]; try reflexivity; tie_close|destruct k, nk; reflexivity].
Qed.
Lemma src_nilptr_atoms :
  lib_rlp__makeNilPtrDecoder__if_kind_ne_Byte_and_size_eq_0_atoms = ["kind : github.com/kardiachain/go-kardia/lib/rlp.Kind"; "size : uint64"]%string
  /\ lib_rlp__makeNilPtrDecoder__if_kind_ne_nilKind_atoms = ["kind : github.com/kardiachain/go-kardia/lib/rlp.Kind"; "nilKind : github.com/kardiachain/go-kardia/lib/rlp.Kind"]%string
  /\ lib_rlp__makeNilPtrDecoder__let_nilKind_atoms = ["typeNilKind(etype, ts) : github.com/kardiachain/go-kardia/lib/rlp.Kind"]%string.
Proof. split_all; reflexivity. Qed.
(** the model's nil-pointer decision, on the window decoder (the Stream version has the same shape) *)
Lemma src_dec_ptr_nil e tg il bs : t_nil tg <> NoNil ->
  dec_val (TPtr e) tg il bs =
    match read_kind il bs with
    | KErr er => Err er 0%N
    | KOk k size _ rest =>
      if lib_rlp__makeNilPtrDecoder__if_kind_ne_Byte_and_size_eq_0 (zk k) (zN size) then
        if lib_rlp__makeNilPtrDecoder__if_kind_ne_nilKind (zk k) (lib_rlp__makeNilPtrDecoder__let_nilKind (zk (nil_kind e tg)))
        then Err EWrongEmpty 0%N else Ok VNil rest 0%N
      else rmap VPtr (dec_val e no_tag il bs)
    end.
Proof.
  intros Hn. cbn [dec_val]. destruct (t_nil tg) eqn:E; [contradiction| | |];
    (destruct (read_kind il bs) as [k size bv rest|er]; [|reflexivity];
     destruct (src_nilptr_guards k size (nil_kind e tg)) as [-> ->];
     destruct (negb (kind_eqb k KByte) && (size =? 0)%N)%bool; [|reflexivity];
     destruct (kind_eqb k (nil_kind e tg)); reflexivity).
Qed.

(** lists: the empty list, interface{} dispatch, DecodeBytes' trailing input, [n]T, slice growth *)
Lemma src_list_guards size k n :
  lib_rlp__decodeListSlice__if_size_eq_0 (zN size) = (size =? 0)%N
  /\ lib_rlp__decodeInterface__if_kind_eq_List (zk k) = kind_eqb k KList
  /\ lib_rlp__DecodeBytes__if_r_Len_gt_0 (zN n) = (0 <? n)%N.
Proof.
  unfold lib_rlp__decodeListSlice__if_size_eq_0, lib_rlp__decodeInterface__if_kind_eq_List, lib_rlp__DecodeBytes__if_r_Len_gt_0.
  split; [tie_close|]. split; [destruct k; reflexivity|tie_close].
Qed.
Lemma src_exactly_one {A} (r : res A) :
  exactly_one r =
    match r with
    | Ok v rest a => if lib_rlp__DecodeBytes__if_r_Len_gt_0 (zN (len rest)) then Err EMoreThanOne a else r
    | _ => r
    end.
Proof.
  destruct r as [v rest a|e a]; [|reflexivity].
  rewrite (proj2 (proj2 (src_list_guards 0%N KByte (len rest)))). destruct rest; [reflexivity|].
  rewrite len_cons. cbn [exactly_one]. destruct (N.ltb_spec 0 (1 + len rest)); [reflexivity|lia].
Qed.
Lemma src_newcap c : 0 <= c < 2 ^ 61 -> lib_rlp__decodeSliceElems__set_newcap c = c + c / 2.
Proof.
  intros Hc. unfold lib_rlp__decodeSliceElems__set_newcap, go_add, go_quot. rewrite Z.quot_div_nonneg by lia.
  assert (0 <= c / 2 <= c) by (split; [apply Z.div_pos; lia|apply Z.div_le_upper_bound; lia]).
  assert (c < 2305843009213693952) by (change (2 ^ 61) with 2305843009213693952 in Hc; lia).
  wraps_away. reflexivity.
Qed.
Lemma src_decode_list_atoms :
  lib_rlp__decodeListSlice__if_size_eq_0_atoms = ["size : uint64"]%string
  /\ lib_rlp__decodeInterface__if_kind_eq_List_atoms = ["kind : github.com/kardiachain/go-kardia/lib/rlp.Kind"]%string
  /\ lib_rlp__DecodeBytes__if_r_Len_gt_0_atoms = ["r.Len() : int"]%string
  /\ lib_rlp__decodeListArray__for_i_lt_vlen_atoms = ["i : int"; "vlen : int"]%string
  /\ lib_rlp__decodeListArray__if_i_lt_vlen_atoms = ["i : int"; "vlen : int"]%string
  /\ lib_rlp__decodeListArray__let_vlen_atoms = ["val.Len() : int"]%string
  /\ lib_rlp__decodeListArray__if_err_eq_EOL_atoms = ["err == EOL : untyped bool"]%string
  /\ lib_rlp__decodeSliceElems__if_err_eq_EOL_atoms = ["err == EOL : untyped bool"]%string
  /\ lib_rlp__decodeSliceElems__set_newcap_atoms = ["val.Cap() : int"]%string
  /\ lib_rlp__decodeSliceElems__if_newcap_lt_4_atoms = ["newcap : int"]%string
  /\ lib_rlp__Stream_Reset__if_inputLimit_gt_0_atoms = ["inputLimit : uint64"]%string
  /\ lib_rlp__Stream_Reset__put_s_remaining_2_atoms = ["br.Len() : int"]%string.
Proof. split_all; reflexivity. Qed.
(** [n]T: the element loop runs while [i < vlen] and "too few elements" is [i < vlen] after it *)
Lemma src_listarray_guards i vlen :
  lib_rlp__decodeListArray__for_i_lt_vlen (zN i) (lib_rlp__decodeListArray__let_vlen (zN vlen)) = (i <? vlen)%N
  /\ lib_rlp__decodeListArray__if_i_lt_vlen (zN i) (lib_rlp__decodeListArray__let_vlen (zN vlen)) = (i <? vlen)%N
  /\ lib_rlp__decodeListArray__let_i = 0 /\ lib_rlp__decodeListArray__set_i_op (zN i) = wrap I64 (zN i + 1).
Proof.
  unfold lib_rlp__decodeListArray__for_i_lt_vlen, lib_rlp__decodeListArray__if_i_lt_vlen, lib_rlp__decodeListArray__let_vlen,
    lib_rlp__decodeListArray__let_i, lib_rlp__decodeListArray__set_i_op.
  split; [tie_close|]. split; [tie_close|]. split; reflexivity.
Qed.
(** Reset (DecodeBytes): the input limit is the reader's length and the limit is in effect *)
Lemma src_reset n : (n < two64)%N ->
  lib_rlp__Stream_Reset__put_s_remaining_2 (zN n) = zN n /\ lib_rlp__Stream_Reset__put_s_limited_2 = true
  /\ lib_rlp__Stream_Reset__if_inputLimit_gt_0 (zN n) = (0 <? n)%N /\ lib_rlp__Stream_Reset__put_s_remaining (zN n) = zN n
  /\ lib_rlp__Stream_Reset__put_s_limited = true.
Proof.
  intros Hn. unfold lib_rlp__Stream_Reset__put_s_remaining_2, lib_rlp__Stream_Reset__if_inputLimit_gt_0, two64 in *.
  split; [gosem_unfold; wraps_away; reflexivity|]. split; [reflexivity|]. split; [tie_close|]. split; reflexivity.
Qed.

Lemma lor_disjoint a b k m : m = 2 ^ k -> 0 <= k -> 0 <= a -> a mod m = 0 -> 0 <= b < m -> Z.lor a b = a + b.
Proof.
  intros -> Hk Ha Hmod Hb.
  assert (Hland : Z.land a b = 0).
  { apply Z.bits_inj'. intros n Hn. rewrite Z.land_spec, Z.bits_0.
    destruct (Z.lt_ge_cases n k) as [Hlt|Hge].
    - assert (E : a = (a / 2 ^ k) * 2 ^ k).
      { pose proof (Z.div_mod a (2 ^ k) ltac:(apply Z.pow_nonzero; lia)). lia. }
      rewrite E, Z.mul_pow2_bits_low by lia. reflexivity.
    - destruct (Z.eq_dec b 0) as [->|Hb0]; [rewrite Z.bits_0; apply andb_false_r|].
      rewrite (Z.bits_above_log2 b n), andb_false_r; [reflexivity|lia|].
      apply Z.lt_le_trans with k; [apply Z.log2_lt_pow2; lia|lia]. }
  rewrite <- Z.lxor_lor by exact Hland. symmetry. apply Z.add_nocarry_lxor. exact Hland.
Qed.

(** readSize assembles [uint64(b[0])<<8(k-1) | ... | uint64(b[k-2])<<8 | uint64(b[k-1])] from the left: once the
    bytes [l] are in, the accumulator is [be_val l] shifted to its place, and OR-ing the next byte in below it
    appends that byte. *)
Lemma src_shl_byte b c : 0 <= c <= 56 -> go_shl U64 (go_conv U64 (zb b)) c = zN (be_val [b]) * 2 ^ c.
Proof.
  intros Hc. pose proof (bN_lt b) as Hb. rewrite be_val_single.
  assert (0 < 2 ^ c <= 2 ^ 56) by (split; [apply Z.pow_pos_nonneg; lia|apply Z.pow_le_mono_r; lia]).
  unfold go_shl, go_conv, zb. rewrite (wrap_id U64 (zN (bN b))) by (unfold in_range; lia).
  apply wrap_id. unfold in_range. nia.
Qed.
(* [c'] is a parameter so that [rewrite] finds both shift amounts in the goal *)
Lemma src_or_byte l b c' c : c' = c + 8 -> 0 <= c -> 8 * zN (len l) + c' <= 64 ->
  go_or U64 (zN (be_val l) * 2 ^ c') (go_shl U64 (go_conv U64 (zb b)) c) = zN (be_val (l ++ [b])) * 2 ^ c.
Proof.
  intros -> Hc Hl. rewrite src_shl_byte, be_val_single, be_val_snoc, N2Z.inj_add, N2Z.inj_mul by lia.
  assert (E : 2 ^ (c + 8) = 2 ^ c * 256) by (apply Z.pow_add_r; lia).
  assert (Hm : zN (256 ^ len l) * (2 ^ c * 256) <= 2 ^ 64).
  { rewrite N2Z.inj_pow, <- E. change (zN 256) with (2 ^ 8). rewrite <- Z.pow_mul_r, <- Z.pow_add_r by lia.
    apply Z.pow_le_mono_r; lia. }
  pose proof (bN_lt b) as Hb. pose proof (be_val_bound l) as Hv.
  assert (Hp : 0 < 2 ^ c) by (apply Z.pow_pos_nonneg; lia).
  rewrite E. set (p := 2 ^ c) in *. clearbody p.
  unfold go_or. rewrite (lor_disjoint _ _ (c + 8) (p * 256)).
  - replace (zN (be_val l) * (p * 256) + zN (bN b) * p) with ((zN (be_val l) * zN 256 + zN (bN b)) * p) by lia.
    apply wrap_id. unfold in_range. nia.
  - symmetry. exact E.
  - lia.
  - nia.
  - apply Z.mod_mul. lia.
  - nia.
Qed.
Lemma src_or_low_byte l b : (len l <= 7)%N ->
  go_or U64 (zN (be_val l) * 2 ^ 8) (go_conv U64 (zb b)) = zN (be_val (l ++ [b])).
Proof.
  intros Hl. pose proof (src_or_byte l b 8 0 eq_refl (Z.le_refl 0) ltac:(lia)) as H.
  unfold go_shl in H. rewrite !Z.mul_1_r, (wrap_id U64 (go_conv U64 (zb b))) in H by apply wrap_range. exact H.
Qed.

Lemma src_readSize_value_1 b0 : lib_rlp__readSize__let_s (zb b0) = zN (be_val [b0]).
Proof. rewrite be_val_single. apply wrap_id. pose proof (bN_lt b0). unfold in_range, zb. lia. Qed.
Lemma src_readSize_value_2 b0 b1 : lib_rlp__readSize__set_s (zb b0) (zb b1) = zN (be_val [b0; b1]).
Proof. unfold lib_rlp__readSize__set_s. rewrite src_shl_byte, src_or_low_byte by (cbn; lia). reflexivity. Qed.
Lemma src_readSize_value_3 b0 b1 b2 : lib_rlp__readSize__set_s_2 (zb b0) (zb b1) (zb b2) = zN (be_val [b0; b1; b2]).
Proof. unfold lib_rlp__readSize__set_s_2. rewrite src_shl_byte, !src_or_byte, src_or_low_byte by (cbn; lia). reflexivity. Qed.
Lemma src_readSize_value_4 b0 b1 b2 b3 : lib_rlp__readSize__set_s_3 (zb b0) (zb b1) (zb b2) (zb b3) = zN (be_val [b0; b1; b2; b3]).
Proof. unfold lib_rlp__readSize__set_s_3. rewrite src_shl_byte, !src_or_byte, src_or_low_byte by (cbn; lia). reflexivity. Qed.
Lemma src_readSize_value_5 b0 b1 b2 b3 b4 :
  lib_rlp__readSize__set_s_4 (zb b0) (zb b1) (zb b2) (zb b3) (zb b4) = zN (be_val [b0; b1; b2; b3; b4]).
Proof. unfold lib_rlp__readSize__set_s_4. rewrite src_shl_byte, !src_or_byte, src_or_low_byte by (cbn; lia). reflexivity. Qed.
Lemma src_readSize_value_6 b0 b1 b2 b3 b4 b5 :
  lib_rlp__readSize__set_s_5 (zb b0) (zb b1) (zb b2) (zb b3) (zb b4) (zb b5) = zN (be_val [b0; b1; b2; b3; b4; b5]).
Proof. unfold lib_rlp__readSize__set_s_5. rewrite src_shl_byte, !src_or_byte, src_or_low_byte by (cbn; lia). reflexivity. Qed.
Lemma src_readSize_value_7 b0 b1 b2 b3 b4 b5 b6 :
  lib_rlp__readSize__set_s_6 (zb b0) (zb b1) (zb b2) (zb b3) (zb b4) (zb b5) (zb b6) = zN (be_val [b0; b1; b2; b3; b4; b5; b6]).
Proof. unfold lib_rlp__readSize__set_s_6. rewrite src_shl_byte, !src_or_byte, src_or_low_byte by (cbn; lia). reflexivity. Qed.
Lemma src_readSize_value_8 b0 b1 b2 b3 b4 b5 b6 b7 :
  lib_rlp__readSize__set_s_7 (zb b0) (zb b1) (zb b2) (zb b3) (zb b4) (zb b5) (zb b6) (zb b7)
  = zN (be_val [b0; b1; b2; b3; b4; b5; b6; b7]).
Proof. unfold lib_rlp__readSize__set_s_7. rewrite src_shl_byte, !src_or_byte, src_or_low_byte by (cbn; lia). reflexivity. Qed.

Lemma src_readSize_guards (b : bytes) slen s : (slen < 256)%N ->
  lib_rlp__readSize__if_int_slen_gt_len_b (zN slen) (zN (len b)) = (len b <? slen)%N
  /\ lib_rlp__readSize__if_s_lt_56_or_b_at_0_eq_0 (zN s) (zb (hd x00 b)) = ((s <? 56) || (bN (hd x00 b) =? 0))%N%bool.
Proof.
  intros Hs. unfold lib_rlp__readSize__if_int_slen_gt_len_b, lib_rlp__readSize__if_s_lt_56_or_b_at_0_eq_0, zb.
  split; tie_close.
Qed.
Lemma src_readSize_atoms :
  lib_rlp__readSize__if_int_slen_gt_len_b_atoms = ["slen : byte"; "len(b) : int"]%string
  /\ lib_rlp__readSize__if_s_lt_56_or_b_at_0_eq_0_atoms = ["s : uint64"; "b[0] : byte"]%string
  /\ lib_rlp__readSize__set_s_atoms = ["b[0] : byte"; "b[1] : byte"]%string
  /\ lib_rlp__readSize__set_s_7_atoms = ["b[0] : byte"; "b[1] : byte"; "b[2] : byte"; "b[3] : byte"; "b[4] : byte"; "b[5] : byte"; "b[6] : byte"; "b[7] : byte"]%string.
Proof. split_all; reflexivity. Qed.
Lemma src_raw_read_size b slen : (slen < 256)%N ->
  raw_read_size b slen =
    if lib_rlp__readSize__if_int_slen_gt_len_b (zN slen) (zN (len b)) then RErr RUnexpectedEOF
    else let s := be_val (take slen b) in
         if lib_rlp__readSize__if_s_lt_56_or_b_at_0_eq_0 (zN s) (zb (hd x00 b)) then RErr RCanonSize else ROk s.
Proof.
  intros Hs. unfold raw_read_size. cbv zeta.
  destruct (src_readSize_guards b slen (be_val (take slen b)) Hs) as [-> ->]. reflexivity.
Qed.

(** raw.go readKind: tag boundaries, tag and content sizes, the single-byte rule, the length check *)
Lemma src_raw_tags b :
  lib_rlp__readKind__case_b_lt_0x80 (zb b) = (bN b <? 128)%N /\ lib_rlp__readKind__case_b_lt_0xB8 (zb b) = (bN b <? 184)%N
  /\ lib_rlp__readKind__case_b_lt_0xC0 (zb b) = (bN b <? 192)%N /\ lib_rlp__readKind__case_b_lt_0xF8 (zb b) = (bN b <? 248)%N.
Proof.
  unfold lib_rlp__readKind__case_b_lt_0x80, lib_rlp__readKind__case_b_lt_0xB8, lib_rlp__readKind__case_b_lt_0xC0,
    lib_rlp__readKind__case_b_lt_0xF8, zb. split_all; tie_close.
Qed.
Lemma src_raw_sizes b :
  ((128 <= bN b)%N -> Z.to_N (lib_rlp__readKind__set_contentsize (zb b)) = (bN b - 128)%N)
  /\ ((184 <= bN b)%N -> Z.to_N (lib_rlp__readKind__set_tagsize (zb b)) = (bN b - 183 + 1)%N)
  /\ ((192 <= bN b)%N -> Z.to_N (lib_rlp__readKind__set_contentsize_2 (zb b)) = (bN b - 192)%N)
  /\ ((248 <= bN b)%N -> Z.to_N (lib_rlp__readKind__set_tagsize_2 (zb b)) = (bN b - 247 + 1)%N)
  /\ lib_rlp__readKind__let_tagsize = 0 /\ lib_rlp__readKind__let_contentsize = 1
  /\ lib_rlp__readKind__let_tagsize_2 = 1 /\ lib_rlp__readKind__let_tagsize_3 = 1
  /\ lib_rlp__readKind__let_k = zk KByte /\ lib_rlp__readKind__let_k_2 = zk KString /\ lib_rlp__readKind__let_k_3 = zk KString
  /\ lib_rlp__readKind__let_k_4 = zk KList /\ lib_rlp__readKind__let_k_5 = zk KList.
Proof.
  pose proof (bN_lt b).
  unfold lib_rlp__readKind__set_contentsize, lib_rlp__readKind__set_tagsize, lib_rlp__readKind__set_contentsize_2,
    lib_rlp__readKind__set_tagsize_2, zb.
  split_all; try reflexivity; intros; gosem_unfold; wraps_away; lia.
Qed.
Lemma src_raw_single_byte cs n (x : byte) :
  lib_rlp__readKind__if_contentsize_eq_1_and_len_buf_gt_1_and_buf_at_1_lt_128 (zN cs) (zN n) (zb x)
  = ((cs =? 1) && (1 <? n) && (bN x <? 128))%N%bool.
Proof. unfold lib_rlp__readKind__if_contentsize_eq_1_and_len_buf_gt_1_and_buf_at_1_lt_128, zb. tie_close. Qed.
Lemma src_raw_too_large cs (buf : bytes) ts : (ts <= len buf)%N -> (len buf < two64)%N ->
  lib_rlp__readKind__if_contentsize_gt_uint64_len_buf_minus_tagsize (zN cs) (zN (len buf)) (zN ts) = (len buf - ts <? cs)%N.
Proof.
  intros H1 H2. unfold lib_rlp__readKind__if_contentsize_gt_uint64_len_buf_minus_tagsize, two64 in *. tie_close.
Qed.
Lemma src_raw_atoms :
  lib_rlp__readKind__if_len_buf_eq_0_atoms = ["len(buf) : int"]%string
  /\ lib_rlp__readKind__case_b_lt_0x80_atoms = ["b : byte"]%string
  /\ lib_rlp__readKind__if_contentsize_eq_1_and_len_buf_gt_1_and_buf_at_1_lt_128_atoms = ["contentsize : uint64"; "len(buf) : int"; "buf[1] : byte"]%string
  /\ lib_rlp__readKind__set_tagsize_atoms = ["b : byte"]%string
  /\ lib_rlp__readKind__if_contentsize_gt_uint64_len_buf_minus_tagsize_atoms = ["contentsize : uint64"; "len(buf) : int"; "tagsize : uint64"]%string.
Proof. split_all; reflexivity. Qed.

Definition src_raw_read_kind (buf : bytes) : rres (kind * N * N) :=
  if lib_rlp__readKind__if_len_buf_eq_0 (zN (len buf)) then RErr RUnexpectedEOF
  else
    let b := hd x00 buf in
    let r := tl buf in
    let t := zb b in
    let fin (k : kind) (tagsize contentsize : N) :=
      if lib_rlp__readKind__if_contentsize_gt_uint64_len_buf_minus_tagsize (zN contentsize) (zN (len buf)) (zN tagsize)
      then RErr RValueTooLarge else ROk (k, tagsize, contentsize) in
    if lib_rlp__readKind__case_b_lt_0x80 t then fin KByte (Z.to_N lib_rlp__readKind__let_tagsize) (Z.to_N lib_rlp__readKind__let_contentsize)
    else if lib_rlp__readKind__case_b_lt_0xB8 t then
      let cs := Z.to_N (lib_rlp__readKind__set_contentsize t) in
      if lib_rlp__readKind__if_contentsize_eq_1_and_len_buf_gt_1_and_buf_at_1_lt_128 (zN cs) (zN (len buf)) (zb (hd x00 r))
      then RErr RCanonSize else fin KString (Z.to_N lib_rlp__readKind__let_tagsize_2) cs
    else if lib_rlp__readKind__case_b_lt_0xC0 t then
      match raw_read_size r (Z.to_N (lib_rlp__readKind__arg_b_minus_0xB7 t)) with
      | RErr e => RErr e
      | ROk cs => fin KString (Z.to_N (lib_rlp__readKind__set_tagsize t)) cs
      end
    else if lib_rlp__readKind__case_b_lt_0xF8 t then
      fin KList (Z.to_N lib_rlp__readKind__let_tagsize_3) (Z.to_N (lib_rlp__readKind__set_contentsize_2 t))
    else
      match raw_read_size r (Z.to_N (lib_rlp__readKind__arg_b_minus_0xF7 t)) with
      | RErr e => RErr e
      | ROk cs => fin KList (Z.to_N (lib_rlp__readKind__set_tagsize_2 t)) cs
      end.

Lemma raw_read_size_len r slen cs : raw_read_size r slen = ROk cs -> (slen <= len r)%N.
Proof. unfold raw_read_size. destruct (N.ltb_spec (len r) slen); [discriminate|intros _; assumption]. Qed.

Lemma src_raw_read_kind_ok buf : (len buf < two64)%N -> raw_read_kind buf = src_raw_read_kind buf.
Proof.
  intros H64. unfold raw_read_kind, src_raw_read_kind, lib_rlp__readKind__if_len_buf_eq_0.
  destruct buf as [|b r]; [reflexivity|].
  rewrite len_cons in *. destruct (Z.eqb_spec (zN (1 + len r)) 0); [lia|].
  cbn [hd tl]. cbv zeta.
  destruct (src_raw_tags b) as (-> & -> & -> & ->).
  destruct (src_raw_sizes b) as (Hcs & Hts & Hcs2 & Hts2 & -> & -> & -> & -> & _).
  change (Z.to_N 0) with 0%N. change (Z.to_N 1) with 1%N.
  assert (Hl : len (b :: r) = (1 + len r)%N) by apply len_cons.
  destruct (N.ltb_spec (bN b) 128).
  { rewrite <- Hl, src_raw_too_large by (rewrite ?Hl; lia). rewrite Hl. reflexivity. }
  destruct (N.ltb_spec (bN b) 184).
  { rewrite Hcs by assumption. rewrite src_raw_single_byte.
    rewrite <- Hl, src_raw_too_large by (rewrite ?Hl; lia). rewrite Hl. reflexivity. }
  destruct (N.ltb_spec (bN b) 192).
  { rewrite (proj2 (proj1 (src_lenlen b) ltac:(assumption))).
    destruct (raw_read_size r (bN b - 183)) as [cs|e] eqn:E; [|reflexivity].
    apply raw_read_size_len in E. rewrite Hts by assumption.
    rewrite <- Hl, src_raw_too_large by (rewrite ?Hl; lia). rewrite Hl. reflexivity. }
  destruct (N.ltb_spec (bN b) 248).
  { rewrite Hcs2 by assumption. rewrite <- Hl, src_raw_too_large by (rewrite ?Hl; lia). rewrite Hl. reflexivity. }
  rewrite (proj2 (proj2 (src_lenlen b) ltac:(assumption))).
  destruct (raw_read_size r (bN b - 247)) as [cs|e] eqn:E; [|reflexivity].
  apply raw_read_size_len in E. rewrite Hts2 by assumption.
  rewrite <- Hl, src_raw_too_large by (rewrite ?Hl; lia). rewrite Hl. reflexivity.
Qed.

(** SplitString / SplitList / SplitUint64 / CountValues / the iterator *)
Lemma src_split_guards k (c : bytes) n :
  lib_rlp__SplitString__if_k_eq_List (zk k) = kind_eqb k KList
  /\ lib_rlp__SplitList__if_k_ne_List (zk k) = negb (kind_eqb k KList)
  /\ lib_rlp__NewListIterator__if_k_ne_List (zk k) = negb (kind_eqb k KList)
  /\ lib_rlp__SplitUint64__case_len_content_eq_0 (zN (len c)) = (len c =? 0)%N
  /\ lib_rlp__SplitUint64__case_len_content_eq_1 (zN (len c)) = (len c =? 1)%N
  /\ lib_rlp__SplitUint64__if_content_at_0_eq_0 (zb (hd x00 c)) = (bN (hd x00 c) =? 0)%N
  /\ lib_rlp__SplitUint64__case_len_content_gt_8 (zN (len c)) = (8 <? len c)%N
  /\ lib_rlp__CountValues__for_len_b_gt_0 (zN n) = (0 <? n)%N
  /\ lib_rlp__listIterator_Next__if_len_it_data_eq_0 (zN n) = (n =? 0)%N.
Proof.
  unfold lib_rlp__SplitString__if_k_eq_List, lib_rlp__SplitList__if_k_ne_List, lib_rlp__NewListIterator__if_k_ne_List,
    lib_rlp__SplitUint64__case_len_content_eq_0, lib_rlp__SplitUint64__case_len_content_eq_1, lib_rlp__SplitUint64__if_content_at_0_eq_0,
    lib_rlp__SplitUint64__case_len_content_gt_8, lib_rlp__CountValues__for_len_b_gt_0, lib_rlp__listIterator_Next__if_len_it_data_eq_0, zb.
  split; [destruct k; reflexivity|]. split; [destruct k; reflexivity|]. split; [destruct k; reflexivity|].
  split_all; tie_close.
Qed.
Lemma src_split_atoms :
  lib_rlp__SplitString__if_k_eq_List_atoms = ["k : github.com/kardiachain/go-kardia/lib/rlp.Kind"]%string
  /\ lib_rlp__SplitList__if_k_ne_List_atoms = ["k : github.com/kardiachain/go-kardia/lib/rlp.Kind"]%string
  /\ lib_rlp__SplitUint64__case_len_content_eq_0_atoms = ["len(content) : int"]%string
  /\ lib_rlp__SplitUint64__case_len_content_eq_1_atoms = ["len(content) : int"]%string
  /\ lib_rlp__SplitUint64__if_content_at_0_eq_0_atoms = ["content[0] : byte"]%string
  /\ lib_rlp__SplitUint64__case_len_content_gt_8_atoms = ["len(content) : int"]%string
  /\ lib_rlp__CountValues__for_len_b_gt_0_atoms = ["len(b) : int"]%string
  /\ lib_rlp__NewListIterator__if_k_ne_List_atoms = ["k : github.com/kardiachain/go-kardia/lib/rlp.Kind"]%string
  /\ lib_rlp__listIterator_Next__if_len_it_data_eq_0_atoms = ["len(it.data) : int"]%string.
Proof. split_all; reflexivity. Qed.

Lemma src_split_uint64 b :
  split_uint64 b =
    match split_string b with
    | RErr e => RErr e
    | ROk (c, r) =>
      if lib_rlp__SplitUint64__case_len_content_eq_0 (zN (len c)) then ROk (0%N, r)
      else if lib_rlp__SplitUint64__case_len_content_eq_1 (zN (len c)) then
        (if lib_rlp__SplitUint64__if_content_at_0_eq_0 (zb (hd x00 c)) then RErr RCanonInt else ROk (bN (hd x00 c), r))
      else if lib_rlp__SplitUint64__case_len_content_gt_8 (zN (len c)) then RErr RUintOverflow
      else match raw_read_size c (len c) with
           | RErr _ => RErr RCanonInt
           | ROk x => ROk (x, r)
           end
    end.
Proof.
  unfold split_uint64. destruct (split_string b) as [[c r]|e]; [|reflexivity].
  destruct (src_split_guards KByte c 0%N) as (_ & _ & _ & -> & -> & -> & -> & _).
  destruct c as [|x [|y c']]; try reflexivity.
  rewrite !len_cons. destruct (N.eqb_spec (1 + (1 + len c')) 0); [lia|]. destruct (N.eqb_spec (1 + (1 + len c')) 1); [lia|].
  reflexivity.
Qed.

(** The whole tie as one statement (quoted by Properties.v).
    Built from the statements of the lemmas above, in this order: encoder headers and strings,
    integers (putint bytes and sizes, intsize, headsize, IntSize, ListSize, AppendUint64,
    writeUint64, writeBigInt), encBuffer bookkeeping, empty slices and nil pointers; Stream
    (readKind on both transcriptions, Kind, the window decoder's size check, re-arm stores,
    willRead, readUint, List, ListEnd); typed decoders (Bytes, ReadBytes, Raw, uint, big integers,
    byte arrays, nil pointers, lists, DecodeBytes, [n]T, slice growth, Reset); raw.go (readSize
    values and guards, readKind, Split*, CountValues, iterator); the operands ([_atoms]). *)
Ltac tie_lemmas k :=
  k constr:((src_head, src_enc_str, src_str_head, src_strheader_large, src_writeString_guard, src_writeOneByteArray_guard,
                   src_putint, src_intsize_ok, src_head_size, src_int_size, src_list_size, src_append_uint64, src_appenduint_bytes, src_enc_uint,
                   src_bigint_length, src_bigint_guard, be_bytes_len_bits,
                   src_encbuffer_size, src_listEnd_size, src_listEnd_lhsize, src_slice_empty, src_ptr_nil_encoding,
                   src_read_kind_ok, src_s_read_kind_ok, src_s_kind_ok, src_chk_size, src_rearm_stores,
                   src_s_read_full_ok, src_willRead_sub_input, src_read_uint, src_readUint_start,
                   src_s_list_ok, src_s_list_end_ok,
                   src_dec_bytes, src_s_read_bytes, src_dec_raw, src_raw_alloc, src_dec_uint, src_dec_big, src_dec_array, src_dec_ptr_nil,
                   src_list_guards, @src_exactly_one, src_listarray_guards, src_newcap, src_reset,
                   src_readSize_value_1, src_readSize_value_2, src_readSize_value_3, src_readSize_value_4, src_readSize_value_5,
                   src_readSize_value_6, src_readSize_value_7, src_readSize_value_8,
                   src_raw_read_size, src_raw_read_kind_ok, src_split_guards, src_split_uint64,
                   src_header_guard_atoms, src_puthead_atoms, src_writeBytes_atoms, src_sizes_atoms, src_uint_atoms,
                   src_encbuffer_atoms, src_writer_atoms, src_readKind_atoms, src_lenlen_atoms, src_kind_atoms, src_willRead_atoms,
                   src_readUint_atoms, src_list_atoms, src_wrapped_atoms, src_stream_uint_atoms, src_bigint_atoms, src_array_atoms,
                   src_nilptr_atoms, src_decode_list_atoms, src_readSize_atoms, src_raw_atoms, src_split_atoms)).

Definition C16_source_tie_statement : Prop :=
  ltac:(tie_lemmas ltac:(fun l =>
        let rec go t :=
          lazymatch t with
          | (?a, ?b) => let ta := go a in let tb := type of b in constr:(ta /\ tb)
          | ?b => let tb := type of b in constr:(tb)
          end in
        let r := go l in exact r)).

(** [conj] carries both conjuncts' statements: a chain of [conj]s over a left-nested conjunction repeats the
    ever longer left part at every link.  Eight links at a time repeat it once. *)
Lemma conj8 {A B C D E F G H I : Prop} :
  A -> B -> C -> D -> E -> F -> G -> H -> I -> (((((((A /\ B) /\ C) /\ D) /\ E) /\ F) /\ G) /\ H) /\ I.
Proof. tauto. Qed.

Lemma C16_source_tie_proof : C16_source_tie_statement.
Proof.
  unfold C16_source_tie_statement.
  tie_lemmas ltac:(fun l =>
    let rec go t :=
      lazymatch t with
      | (?a, ?b, ?c, ?d, ?e, ?f, ?g, ?h, ?i) => let pa := go a in constr:(conj8 pa b c d e f g h i)
      | (?a, ?b) => let pa := go a in constr:(conj pa b)
      | ?b => constr:(b)
      end in
    let r := go l in exact r).
Qed.
