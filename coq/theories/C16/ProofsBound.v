(** C16 — allocation bound for the typed decoder: on every input the input-controlled
    allocation is bounded by the bytes consumed. *)
From Coq Require Import List ZArith NArith Bool Lia Arith.
From Coq Require Import Init.Byte.
From Kardia Require Import C16.Model C16.ProofsBase C16.ProofsItem C16.ProofsCanon.
Import ListNotations.
Local Open Scope N_scope.

Lemma read_uint_rest il size r v r' : read_uint il size r = UOk v r' -> len r' <= len r.
Proof.
  unfold read_uint. destruct (size =? 0); [intros HH; injection HH as _ <-; lia|].
  destruct (len r <? size); [discriminate|].
  destruct (size =? 1); [intros HH; injection HH as _ <-; rewrite len_drop; lia|].
  destruct (bN (hd x00 (take size r)) =? 0); [discriminate|].
  intros HH; injection HH as _ <-; rewrite len_drop; lia.
Qed.

(** case analysis on the header the goal's decoder reads; the failing case is closed, the other keeps what the
    header says about lengths *)
Ltac on_read_kind k size bv r Ek Hl Hs :=
  match goal with
  | |- context [read_kind ?il ?bs] =>
    let e := fresh "e" in
    destruct (read_kind il bs) as [k size bv r|e] eqn:Ek; [|cbn; lia];
    pose proof (kind_ok_len _ _ _ _ _ _ Ek) as [Hl Hs]
  end.

Lemma dec_uint_consumes bits il bs : consumes (dec_uint bits il bs) bs.
Proof.
  unfold dec_uint. on_read_kind k size bv r Ek Hl Hs. destruct k; cbn [consumes]; try lia.
  - destruct (bN bv =? 0); cbn [consumes]; lia.
  - destruct (bits / 8 <? size); cbn [consumes]; [lia|].
    destruct (read_uint il size r) as [v r'|e] eqn:Eu.
    + apply read_uint_rest in Eu. destruct ((0 <? size) && (v <? 128)); cbn [consumes]; lia.
    + destruct e; cbn [consumes]; lia.
Qed.

Lemma dec_bool_consumes il bs : consumes (dec_bool il bs) bs.
Proof.
  unfold dec_bool. pose proof (dec_uint_consumes 8 il bs) as Hb.
  destruct (dec_uint 8 il bs) as [v r a|e a]; cbn [consumes] in *; [|exact Hb].
  destruct (v =? 0); [exact Hb|]. destruct (v =? 1); cbn [consumes]; [exact Hb|lia].
Qed.

Lemma dec_big_consumes il bs : consumes (dec_big il bs) bs.
Proof.
  unfold dec_big. on_read_kind k size bv r Ek Hl Hs. destruct k; cbn [consumes]; try lia.
  - destruct (bN bv =? 0); cbn [consumes]; lia.
  - destruct (size =? 0); cbn [consumes]; [lia|].
    destruct (N.leb_spec size 32);
      destruct ((size =? 1) && (bN (hd x00 (take size r)) <? 128)); cbn [consumes]; try lia;
      destruct (bN (hd x00 (take size r)) =? 0); cbn [consumes]; rewrite ?len_drop; lia.
Qed.

Lemma dec_array_consumes n il bs : consumes (dec_array n il bs) bs.
Proof.
  unfold dec_array. on_read_kind k size bv r Ek Hl Hs. destruct k; cbn [consumes]; try lia.
  - destruct (n =? 0); cbn [consumes]; [lia|]. destruct (1 <? n); cbn [consumes]; lia.
  - destruct (n <? size); cbn [consumes]; [lia|]. destruct (size <? n); cbn [consumes]; [lia|].
    destruct ((size =? 1) && (bN (hd x00 (take size r)) <? 128)); cbn [consumes]; rewrite ?len_drop; lia.
Qed.

Lemma dec_raw_consumes il bs : consumes (dec_raw il bs) bs.
Proof.
  unfold dec_raw. destruct (read_kind il bs) as [k size bv r|e] eqn:Ek; [|cbn; lia].
  apply read_kind_canon in Ek. pose proof (kind_spec_len _ _ _ _ _ Ek) as [Hl _].
  destruct Ek as [b r -> Hb|sz r -> Hs|sz r -> Hs]; cbn [consumes];
    rewrite ?len_cons, ?len_app, ?len_drop in *; lia.
Qed.

Lemma ptr_nil_consumes e tg il bs :
  consumes (dec_val e no_tag il bs) bs -> t_nil tg <> NoNil -> consumes (dec_val (TPtr e) tg il bs) bs.
Proof.
  intros IH Hn. rewrite dec_val_ptr_nil by exact Hn. on_read_kind k size bv r Ek Hl Hs.
  destruct (negb (kind_eqb k KByte) && (size =? 0)); [|apply consumes_rmap, IH].
  destruct (kind_eqb k (nil_kind e tg)); cbn [consumes]; lia.
Qed.

(** every typed decoder is bounded; all but a tail slice (which reads no header) consume *)
Definition bounded_at (t : ty) : Prop :=
  forall tg il bs, bounded (dec_val t tg il bs) bs /\ (t_tail tg = false -> consumes (dec_val t tg il bs) bs).
Definition bounded_fields_at (fs : fields) : Prop := forall p, bounded (dec_fields fs p) p.

Lemma consumes_both {A} (r : res A) bs (P : Prop) : consumes r bs -> bounded r bs /\ (P -> consumes r bs).
Proof. intros H. split; [apply consumes_bounded, H|intros _; exact H]. Qed.

Lemma typed_bounded_mut : (forall t, bounded_at t) /\ (forall fs, bounded_fields_at fs).
Proof.
  apply ty_fields_ind; unfold bounded_at, bounded_fields_at.
  - intros bits tg il bs. cbn [dec_val]. apply consumes_both, consumes_rmap, dec_uint_consumes.
  - intros tg il bs. cbn [dec_val]. apply consumes_both, consumes_rmap, dec_big_consumes.
  - intros tg il bs. cbn [dec_val]. apply consumes_both, consumes_rmap, dec_bool_consumes.
  - intros tg il bs. cbn [dec_val]. apply consumes_both, consumes_rmap, dec_bytes_consumes.
  - intros n tg il bs. cbn [dec_val]. apply consumes_both, consumes_rmap, dec_array_consumes.
  - intros tg il bs. cbn [dec_val]. apply consumes_both, consumes_rmap, dec_bytes_consumes.
  - intros e IH tg il bs. cbn [dec_val]. destruct (t_tail tg).
    + split; [|discriminate]. apply bounded_rmap, slice_elems_bounded. intros p. apply IH.
    + apply consumes_both, consumes_rmap, dec_list_consumes. intros p. apply IH.
  - intros fs IH tg il bs. cbn [dec_val]. apply consumes_both.
    on_read_kind k size bv r Ek Hl Hs. destruct k; cbn [consumes]; try lia.
    pose proof (IH (take size r)) as Hb.
    destruct (dec_fields fs (take size r)) as [vs r' a|e a]; cbn [bounded] in Hb;
      rewrite len_take in Hb by assumption.
    + destruct r'; cbn [consumes]; [rewrite len_drop; cbn in Hb; lia|lia].
    + cbn [consumes]. lia.
  - intros e0 IH tg il bs. apply consumes_both. destruct (t_nil tg) eqn:En.
    2-4: apply ptr_nil_consumes; [apply IH; reflexivity|rewrite En; discriminate].
    cbn [dec_val]. rewrite En. apply consumes_rmap, IH. reflexivity.
  - intros tg il bs. cbn [dec_val]. apply consumes_both, consumes_rmap, dec_raw_consumes.
  - intros tg il bs. cbn [dec_val]. apply consumes_both, consumes_rmap, dec_item_consumes.
  - intros p. cbn. lia.
  - intros t IHt tg r IHr p. cbn [dec_fields].
    destruct (t_ignored tg); [apply bounded_rmap, IHr|].
    assert (Hseq : bounded (bind (dec_val t tg true p) (fun v rest => rmap (cons v) (dec_fields r rest))) p).
    { apply bounded_bind; [apply IHt|]. intros v rest. apply bounded_rmap, IHr. }
    destruct (t_tail tg); [exact Hseq|].
    destruct p as [|b p']; [|exact Hseq].
    destruct (t_optional tg); cbn; lia.
Qed.

Lemma typed_size_bound t tg il bs :
  match dec_val t tg il bs with
  | Ok _ rest alloc => alloc + len rest <= len bs
  | Err _ alloc => alloc <= len bs
  end.
Proof. exact (proj1 (proj1 typed_bounded_mut t tg il bs)). Qed.

(** a decoder without a tail tag consumes at least the header *)
Lemma prog_val t il p v p' a : dec_val t no_tag il p = Ok v p' a -> len p' < len p.
Proof. apply consumes_ok, (proj1 typed_bounded_mut t no_tag il p). reflexivity. Qed.
Lemma prog_item f il p v p' a : dec_item f il p = Ok v p' a -> len p' < len p.
Proof. apply consumes_ok, dec_item_consumes. Qed.
