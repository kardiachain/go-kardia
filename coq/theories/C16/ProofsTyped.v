(** C16 — typed layer: the refutation of canonicity under rlp:"optional", and the core type universe (uints,
    byte slices, strings, interface{} items, lists and tag-free structs of these, nested) as a sub-universe of
    the optional-free one. *)
From Coq Require Import List NArith Bool.
From Kardia Require Import C16.Model C16.Proofs C16.ProofsCanon.
Import ListNotations.
Local Open Scope N_scope.

(** the core universe: no struct tags at all *)
Fixpoint core (t : ty) : Prop :=
  match t with
  | TUint _ | TBytes | TString | TIface => True
  | TList e => core e
  | TStruct fs => core_fields fs
  | _ => False
  end
with core_fields (fs : fields) : Prop :=
  match fs with
  | FNil => True
  | FCons t tg r => tg = no_tag /\ core t /\ core_fields r
  end.

Lemma core_optional_free :
  (forall t, core t -> optional_free t) /\ (forall fs, core_fields fs -> optional_free_fields fs).
Proof.
  apply ty_fields_ind; cbn [core core_fields optional_free optional_free_fields]; try tauto.
  intros t IHt tg r IHr (-> & Ht & Hr). auto.
Qed.

Lemma typed_decode_bytes_exact_core t bs v rest a :
  core t -> decode_bytes t bs = Ok v rest a -> rest = [] /\ bs = encode_to_bytes t v.
Proof. intros Hc. apply typed_decode_bytes_exact, core_optional_free, Hc. Qed.

(** ** rlp:"optional" breaks canonicity: struct{A uint64; B uint64 `rlp:"optional"`} *)
Definition opt_tag : tag := mkTag true false false NoNil.
Definition ty_SO : ty := TStruct (FCons (TUint 64) no_tag (FCons (TUint 64) opt_tag FNil)).

Lemma optional_refuted :
  exists bs v,
    decode_bytes ty_SO bs = Ok v [] 0 /\ encode_to_bytes ty_SO v <> bs /\
    decode_bytes ty_SO (encode_to_bytes ty_SO v) = Ok v [] 0.
Proof.
  exists (bs_of [194; 5; 128]), (VStruct [VUint 5; VUint 0]).
  split; [vm_compute; reflexivity|]. split; [vm_compute; discriminate|vm_compute; reflexivity].
Qed.
