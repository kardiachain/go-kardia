(** C16 — the literal Stream machine (decode.go: input, stack of list limits, cached kind)
    against the window decoder the theorems are about.

    The machine differs from the window decoder in two places (Kind's size test uses the limit read
    before the header; List subtracts from the enclosing limit without a check), and both only matter
    on inputs the window decoder rejects.  The argument: the gap (sum of the list limits minus the
    remaining input) never decreases along a successful operation, so a state in which it is positive
    ("doomed": the limits promise more bytes than the input has) never leads to an accepted input,
    because acceptance ends with an empty stack.  As long as the window decoder succeeds the machine
    stands at the corresponding position ([at_pos]); where the window decoder fails the machine
    fails or is doomed ([simres]). *)
From Coq Require Import List ZArith NArith Bool Lia.
From Coq Require Import Init.Byte.
From Kardia Require Import C16.Model C16.ProofsBase C16.ProofsItem C16.ProofsCanon C16.ProofsRoundtrip C16.ProofsBound.
Import ListNotations.
Local Open Scope N_scope.

Lemma len_drop_le {A} n (a : list A) : n <= len a -> len (drop n a) + n = len a.
Proof. intros H. rewrite len_drop. lia. Qed.
Lemma take_all {A} n (a : list A) : len a <= n -> take n a = a.
Proof. unfold take, len. intros H. apply firstn_all2. lia. Qed.

Definition ssum (st : list N) : N := fold_right N.add 0 st.

Definition inv (s : stream) : Prop :=
  len (s_in s) < two64 /\ Forall (fun l => l < two64) (s_stack s) /\
  match s_cache s with Some (_, size, _) => size <= len (s_in s) | None => True end.

(** the stack keeps its depth and everything below its top *)
Definition shape (s s' : stream) : Prop :=
  match s_stack s, s_stack s' with
  | [], [] => True
  | _ :: r, _ :: r' => r = r'
  | _, _ => False
  end.
(** the gap of [s] is at most that of [s'], without subtraction *)
Definition dle (s s' : stream) : Prop :=
  len (s_in s') + ssum (s_stack s) <= len (s_in s) + ssum (s_stack s').
Definition doomed (s : stream) : Prop := len (s_in s) < ssum (s_stack s).

Definition mono {A} (s : stream) (r : sres A) : Prop :=
  match r with SErr _ => True | SOk _ s' => inv s' /\ shape s s' /\ dle s s' end.

Lemma shape_refl s : shape s s.
Proof. unfold shape. destruct (s_stack s); auto. Qed.
Lemma shape_trans a b c : shape a b -> shape b c -> shape a c.
Proof.
  unfold shape. destruct (s_stack a), (s_stack b), (s_stack c); try tauto. intros -> ->. reflexivity.
Qed.
Lemma dle_refl s : dle s s.
Proof. unfold dle. lia. Qed.
Lemma dle_trans a b c : dle a b -> dle b c -> dle a c.
Proof. unfold dle. lia. Qed.
Lemma doomed_dle s s' : doomed s -> dle s s' -> doomed s'.
Proof. unfold doomed, dle. lia. Qed.

Lemma mono_ok {A} s (v : A) s' : inv s' -> shape s s' -> dle s s' -> mono s (SOk v s').
Proof. intros; cbn; auto. Qed.
Lemma mono_here {A} s (v : A) : inv s -> mono s (SOk v s).
Proof. intros H. apply mono_ok; [exact H|apply shape_refl|apply dle_refl]. Qed.
Lemma mono_trans {A} s s' (r : sres A) : shape s s' -> dle s s' -> mono s' r -> mono s r.
Proof.
  intros Hs Hd Hm. destruct r as [v s''|]; [|exact I]. destruct Hm as (Ha & Hb & Hc).
  split; [exact Ha|]. split; [eapply shape_trans; eassumption|eapply dle_trans; eassumption].
Qed.
Lemma mono_bind {A B} s (r : sres A) (f : A -> stream -> sres B) :
  mono s r -> (forall v s', inv s' -> mono s' (f v s')) -> mono s (sbind r f).
Proof.
  intros Hr Hf. destruct r as [v s'|e]; [|exact I]. cbn [sbind]. destruct Hr as (Hi & Hs & Hd).
  eapply mono_trans; [exact Hs|exact Hd|apply Hf, Hi].
Qed.
Lemma mono_smap {A B} s (g : A -> B) (r : sres A) : mono s r -> mono s (smap g r).
Proof. destruct r; exact (fun H => H). Qed.

Lemma inv_rearm s : inv s -> inv (rearm s).
Proof. intros (H1 & H2 & _). split; [exact H1|]. split; [exact H2|exact I]. Qed.
Lemma mono_rearm {A} s (v : A) : inv s -> mono s (SOk v (rearm s)).
Proof. intros H. apply mono_ok; [apply inv_rearm; exact H|exact (shape_refl s)|exact (dle_refl s)]. Qed.

Lemma mono_read_full n s : inv s -> mono s (s_read_full n s).
Proof.
  intros (Hl & Hst & _). unfold s_read_full. destruct (s_stack s) as [|l r] eqn:E.
  - destruct (N.ltb_spec (len (s_in s)) n); [exact I|].
    apply mono_ok.
    + split; cbn [s_in s_stack s_cache]; [rewrite len_drop; lia|]. split; [constructor|exact I].
    + unfold shape. rewrite E. exact I.
    + unfold dle. cbn [s_in s_stack]. rewrite E, len_drop. cbn. lia.
  - destruct (N.ltb_spec l n); [exact I|]. destruct (N.ltb_spec (len (s_in s)) n); [exact I|].
    inversion Hst; subst.
    apply mono_ok.
    + split; cbn [s_in s_stack s_cache]; [rewrite len_drop; lia|]. split; [constructor; [lia|assumption]|exact I].
    + unfold shape. rewrite E. reflexivity.
    + unfold dle. cbn [s_in s_stack]. rewrite E, len_drop. cbn [ssum fold_right]. lia.
Qed.

Lemma mono_read_uint size s : inv s -> mono s (s_read_uint size s).
Proof.
  intros Hi. unfold s_read_uint. destruct (size =? 0); [apply mono_rearm; exact Hi|].
  apply mono_bind; [apply mono_read_full; exact Hi|].
  intros b s' Hi'. destruct (size =? 1); [apply mono_here, Hi'|].
  destruct (bN (hd x00 b) =? 0); [exact I|apply mono_here, Hi'].
Qed.

Lemma mono_read_kind s : inv s -> mono s (s_read_kind s).
Proof.
  intros Hi. unfold s_read_kind. pose proof (mono_read_full 1 s Hi) as H1.
  destruct (s_read_full 1 s) as [b1 s1|e]; [|destruct (s_stack s), e; exact I].
  destruct H1 as (Hi1 & Hs1 & Hd1).
  assert (Hk : forall (c : kind * N * byte), mono s (SOk c s1)) by (intros c; apply mono_ok; assumption).
  assert (Hu : forall n (k : kind), mono s (sbind (s_read_uint n s1) (fun size s2 =>
                 if size <? 56 then SErr ECanonSize else SOk (k, size, x00) s2))).
  { intros n k. apply mono_bind.
    - eapply mono_trans; [exact Hs1|exact Hd1|apply mono_read_uint, Hi1].
    - intros v s' Hi'. destruct (v <? 56); [exact I|apply mono_here; exact Hi']. }
  destruct (bN (hd x00 b1) <? 128); [apply Hk|].
  destruct (bN (hd x00 b1) <? 184); [apply Hk|].
  destruct (bN (hd x00 b1) <? 192); [apply Hu|].
  destruct (bN (hd x00 b1) <? 248); [apply Hk|apply Hu].
Qed.

Lemma mono_kind s : inv s -> mono s (s_kind s).
Proof.
  intros Hi. unfold s_kind. destruct (s_cache s) as [c|] eqn:Ec; [apply mono_here; exact Hi|].
  assert (Hc : forall (chk : N -> bool), mono s (sbind (s_read_kind s) (fun c s' =>
            let '(k, size, bv) := c in
            if chk size then SErr EElemTooLarge
            else if len (s_in s') <? size then SErr EValueTooLarge
            else SOk c (mkS (s_in s') (s_stack s') (Some c))))).
  { intros chk. apply mono_bind; [apply mono_read_kind; exact Hi|].
    intros [[k size] bv] s' (H1 & H2 & _). destruct (chk size); [exact I|].
    destruct (N.ltb_spec (len (s_in s')) size); [exact I|].
    apply mono_ok; [|unfold shape; cbn [s_stack]; apply shape_refl|unfold dle; cbn [s_in s_stack]; lia].
    split; [exact H1|]. split; [exact H2|exact H]. }
  destruct (s_stack s) as [|l r] eqn:Es.
  - exact (Hc (fun _ => false)).
  - destruct (l =? 0); [exact I|]. exact (Hc (fun size => l <? size)).
Qed.

Ltac mono_tac :=
  repeat first
    [ exact I
    | apply mono_here; assumption
    | apply mono_rearm; assumption
    | apply mono_read_full; assumption
    | apply mono_read_uint; assumption
    | apply mono_kind; assumption
    | apply mono_smap
    | match goal with |- mono _ (if ?c then _ else _) => destruct c end
    | match goal with |- mono _ (match ?c with (_, _) => _ end) => destruct c end
    | match goal with |- mono _ (match ?k with KByte => _ | KString => _ | KList => _ end) => destruct k end
    | apply mono_bind; [|intros ? ? ?] ].

Lemma mono_bytes s : inv s -> mono s (s_bytes s).
Proof. intros Hi. unfold s_bytes. mono_tac. Qed.
Lemma mono_uint bits s : inv s -> mono s (s_uint bits s).
Proof.
  intros Hi. unfold s_uint. apply mono_bind; [apply mono_kind; exact Hi|]. intros [[k size] bv] s' Hi'.
  destruct k; mono_tac.
  pose proof (mono_read_uint size s' Hi') as Hm.
  destruct (s_read_uint size s') as [v s''|e]; [|destruct e; exact I].
  destruct ((0 <? size) && (v <? 128)); [exact I|exact Hm].
Qed.
Lemma mono_bool s : inv s -> mono s (s_bool s).
Proof. intros Hi. unfold s_bool. apply mono_bind; [apply mono_uint; exact Hi|]. intros v s' Hi'. mono_tac. Qed.
Lemma mono_big s : inv s -> mono s (s_big s).
Proof. intros Hi. unfold s_big. mono_tac. Qed.
Lemma mono_array n s : inv s -> mono s (s_array n s).
Proof. intros Hi. unfold s_array. mono_tac. Qed.
Lemma mono_raw s : inv s -> mono s (s_raw s).
Proof. intros Hi. unfold s_raw. mono_tac. Qed.
Lemma mono_read_bytes n s : inv s -> mono s (s_read_bytes n s).
Proof. intros Hi. unfold s_read_bytes. mono_tac. Qed.

(** List pushes a limit, ListEnd pops one *)
Definition shape_push (s s' : stream) : Prop :=
  match s_stack s, s_stack s' with
  | [], [_] => True
  | _ :: r, _ :: _ :: r' => r = r'
  | _, _ => False
  end.
Definition shape_pop (s s' : stream) : Prop :=
  match s_stack s with
  | [] => False
  | _ :: r => s_stack s' = r
  end.
Lemma shape_push_pop a b c d : shape_push a b -> shape b c -> shape_pop c d -> shape a d.
Proof.
  unfold shape_push, shape, shape_pop.
  destruct (s_stack a) as [|x xa], (s_stack b) as [|y [|y' yb]], (s_stack c) as [|z zc]; try tauto.
  - intros _ <- ->. exact I.
  - intros -> <- ->. reflexivity.
Qed.
Lemma shape_l_push a b c : shape a b -> shape_push b c -> shape_push a c.
Proof.
  unfold shape, shape_push. destruct (s_stack a), (s_stack b), (s_stack c) as [|? [|? ?]]; try tauto.
  intros -> ->. reflexivity.
Qed.

Lemma s_kind_cached s c s' : s_kind s = SOk c s' -> s_cache s' = Some c.
Proof.
  unfold s_kind. destruct (s_cache s) eqn:Ec; [intros H; injection H as <- <-; exact Ec|].
  destruct (s_stack s) as [|l r].
  - destruct (s_read_kind s) as [[[k size] bv] s1|]; cbn [sbind]; [|discriminate].
    destruct (len (s_in s1) <? size); [discriminate|]. intros H. injection H as <- <-. reflexivity.
  - destruct (l =? 0); [discriminate|].
    destruct (s_read_kind s) as [[[k size] bv] s1|]; cbn [sbind]; [|discriminate].
    destruct (l <? size); [discriminate|]. destruct (len (s_in s1) <? size); [discriminate|].
    intros H. injection H as <- <-. reflexivity.
Qed.

Lemma list_ok s size s' : inv s -> s_list s = SOk size s' -> inv s' /\ shape_push s s' /\ dle s s'.
Proof.
  intros Hi. unfold s_list.
  pose proof (mono_kind s Hi) as Hk. destruct (s_kind s) as [[[k sz] bv] s1|e] eqn:Ek; [|discriminate].
  cbn [sbind]. destruct k; try discriminate. intros HH. injection HH as <- <-.
  destruct Hk as ((Hl & Hst & Hc) & Hs & Hd).
  rewrite (s_kind_cached _ _ _ Ek) in Hc. rename Hc into Hsz.
  unfold shape in Hs. unfold dle in Hd. unfold shape_push, dle, inv. cbn [s_in s_stack s_cache].
  destruct (s_stack s) as [|l0 r0], (s_stack s1) as [|l r]; try tauto.
  - split; [split; [exact Hl|split; [constructor; [lia|constructor]|exact I]]|]. split; [exact I|].
    cbn [ssum fold_right] in *. lia.
  - subst r0. inversion Hst; subst.
    assert (Hm : (l + two64 - sz) mod two64 < two64) by (apply N.mod_lt; unfold two64; lia).
    split; [split; [exact Hl|split; [constructor; [lia|constructor; assumption]|exact I]]|]. split; [reflexivity|].
    cbn [ssum fold_right] in *.
    assert (l <= sz + (l + two64 - sz) mod two64).
    { destruct (N.le_gt_cases sz l).
      - replace (l + two64 - sz) with (l - sz + 1 * two64) by lia. rewrite N.mod_add by (unfold two64; lia).
        rewrite N.mod_small by lia. lia.
      - rewrite N.mod_small by lia. lia. }
    lia.
Qed.

Lemma list_end_ok s s' : inv s -> s_list_end s = SOk tt s' -> inv s' /\ shape_pop s s' /\ dle s s'.
Proof.
  intros (Hl & Hst & _). unfold s_list_end, shape_pop, dle, inv.
  destruct (s_stack s) as [|l r]; [discriminate|]. destruct (N.ltb_spec 0 l); [discriminate|].
  intros HH. injection HH as <-. cbn [s_in s_stack s_cache]. inversion Hst; subst.
  split; [split; [exact Hl|split; [assumption|exact I]]|]. split; [reflexivity|].
  unfold ssum. cbn [fold_right]. lia.
Qed.

Lemma mono_slice_elems {A} (elem : stream -> sres A) :
  (forall s, inv s -> mono s (elem s)) -> forall n s, inv s -> mono s (s_slice_elems elem n s).
Proof.
  intros He. induction n as [|n IH]; intros s Hi; cbn [s_slice_elems]; specialize (He s Hi);
    destruct (elem s) as [x s'|e].
  - exact I.
  - destruct e; try exact I. apply mono_here; exact Hi.
  - destruct He as (Hi' & Hs & Hd). apply mono_smap. eapply mono_trans; [exact Hs|exact Hd|apply IH, Hi'].
  - destruct e; try exact I. apply mono_here; exact Hi.
Qed.

(** ListEnd closes what List opened: the stack is back to its shape before the list *)
Lemma mono_list_end {B} s s1 s2 (xs : B) :
  shape_push s s1 -> dle s s1 -> inv s2 -> shape s1 s2 -> dle s1 s2 -> mono s (smap (fun _ => xs) (s_list_end s2)).
Proof.
  intros Hp1 Hd1 Hi2 Hs2 Hd2. destruct (s_list_end s2) as [[] s3|e] eqn:Ee; [|exact I]. cbn [smap].
  destruct (list_end_ok s2 s3 Hi2 Ee) as (Hi3 & Hp3 & Hd3).
  split; [exact Hi3|]. split; [eapply shape_push_pop; eassumption|].
  eapply dle_trans; [exact Hd1|]. eapply dle_trans; eassumption.
Qed.

Lemma mono_list_slice {A} (elem : stream -> sres A) :
  (forall s, inv s -> mono s (elem s)) -> forall s, inv s -> mono s (s_list_slice elem s).
Proof.
  intros He s Hi. unfold s_list_slice.
  destruct (s_list s) as [size s1|e] eqn:El; [|exact I]. cbn [sbind].
  destruct (list_ok s size s1 Hi El) as (Hi1 & Hp1 & Hd1).
  destruct (size =? 0); [eapply mono_list_end; [eassumption..|apply shape_refl|apply dle_refl]|].
  pose proof (mono_slice_elems elem He (length (s_in s1)) s1 Hi1) as Hm.
  destruct (s_slice_elems elem (length (s_in s1)) s1) as [xs s2|e]; [|exact I]. cbn [sbind].
  destruct Hm as (Hi2 & Hs2 & Hd2). eapply mono_list_end; eassumption.
Qed.

Lemma mono_item fuel : forall s, inv s -> mono s (s_item fuel s).
Proof.
  induction fuel as [|f IH]; intros s Hi; [exact I|]. cbn [s_item].
  pose proof (mono_kind s Hi) as Hk. destruct (s_kind s) as [[[k size] bv] s'|e]; [|exact I]. cbn [sbind].
  destruct Hk as (Hi' & Hs & Hd).
  destruct k; apply (mono_trans s s' _ Hs Hd), mono_smap.
  - apply mono_bytes; exact Hi'.
  - apply mono_bytes; exact Hi'.
  - apply mono_list_slice; [exact IH|exact Hi'].
Qed.

Lemma mono_val_mut :
  (forall t tg s, inv s -> mono s (s_val t tg s)) /\ (forall fs s, inv s -> mono s (s_fields fs s)).
Proof.
  apply ty_fields_ind.
  - intros bits tg s Hi. cbn [s_val]. apply mono_smap, mono_uint, Hi.
  - intros tg s Hi. cbn [s_val]. apply mono_smap, mono_big, Hi.
  - intros tg s Hi. cbn [s_val]. apply mono_smap, mono_bool, Hi.
  - intros tg s Hi. cbn [s_val]. apply mono_smap, mono_bytes, Hi.
  - intros n tg s Hi. cbn [s_val]. apply mono_smap, mono_array, Hi.
  - intros tg s Hi. cbn [s_val]. apply mono_smap, mono_bytes, Hi.
  - intros e IH tg s Hi. cbn [s_val]. destruct (t_tail tg); apply mono_smap.
    + apply mono_slice_elems; [intros; apply IH; assumption|exact Hi].
    + apply mono_list_slice; [intros; apply IH; assumption|exact Hi].
  - intros fs IH tg s Hi. cbn [s_val].
    destruct (s_list s) as [size s1|e] eqn:El; [|exact I]. cbn [sbind].
    destruct (list_ok s size s1 Hi El) as (Hi1 & Hp1 & Hd1).
    specialize (IH s1 Hi1). destruct (s_fields fs s1) as [vs s2|e]; [|exact I]. cbn [sbind].
    destruct IH as (Hi2 & Hs2 & Hd2). eapply mono_list_end; eassumption.
  - intros e IH tg s Hi. cbn [s_val]. destruct (t_nil tg); try (apply mono_smap, IH, Hi);
      (apply mono_bind; [apply mono_kind; exact Hi|]; intros [[k size] bv] s' Hi';
       destruct (negb (kind_eqb k KByte) && (size =? 0));
       [destruct (kind_eqb k (nil_kind e tg)); [apply mono_rearm; exact Hi'|exact I]|apply mono_smap, IH, Hi']).
  - intros tg s Hi. cbn [s_val]. apply mono_smap, mono_raw, Hi.
  - intros tg s Hi. cbn [s_val]. apply mono_smap, mono_item, Hi.
  - intros s Hi. cbn [s_fields]. apply mono_here, Hi.
  - intros t IHt tg r IHr s Hi. cbn [s_fields].
    destruct (t_ignored tg); [apply mono_smap, IHr, Hi|].
    specialize (IHt tg s Hi). destruct (s_val t tg s) as [v s'|e].
    + destruct IHt as (Hi' & Hs & Hd). apply mono_smap. eapply mono_trans; [exact Hs|exact Hd|apply IHr, Hi'].
    + destruct e; try exact I. destruct (t_optional tg); [apply mono_here, Hi|exact I].
Qed.

(** The window decoder at window [w] (inside a list: [il = true], the
    remaining payload of the innermost list) corresponds to the machine whose input is [w]
    followed by what comes after the list ([o]), whose innermost limit is [len w] and whose
    outer limits [st] have already been reduced by the sizes of the lists entered. *)
Definition stk (il : bool) (w : bytes) (st : list N) : list N := if il then len w :: st else [].
Definition pos (il : bool) (w o : bytes) (st : list N) : stream := mkS (w ++ o) (stk il w st) None.
Definition kpos (il : bool) (c : kind * N * byte) (w o : bytes) (st : list N) : stream :=
  mkS (w ++ o) (stk il w st) (Some c).
Definition sound (il : bool) (w o : bytes) (st : list N) : Prop :=
  len (w ++ o) < two64 /\ ssum st <= len o /\ Forall (fun l => l < two64) st /\ (il = false -> o = [] /\ st = []).

(** the machine is at [w]: before the header, or after it with the kind cached, or after it with
    a cached kind whose size passed Kind's test (against the limit BEFORE the header) but does
    not fit what is left of the list: the window decoder has already failed there *)
Inductive at_pos (il : bool) (w o : bytes) (st : list N) : stream -> Prop :=
| AtFresh : at_pos il w o st (pos il w o st)
| AtKind k size bv rest :
    read_kind il w = KOk k size bv rest -> at_pos il w o st (kpos il (k, size, bv) rest o st)
| AtQuirk e k size bv rest :
    read_kind il w = KErr e -> il = true -> k <> KByte ->
    len rest < size -> size <= len (rest ++ o) -> len rest < len w ->
    at_pos il w o st (kpos true (k, size, bv) rest o st).

Definition bad {A} (r : sres A) : Prop :=
  match r with SErr _ => True | SOk _ s' => inv s' /\ doomed s' end.
Definition simres {A} (il : bool) (o : bytes) (st : list N) (r : res A) (sr : sres A) : Prop :=
  match r with
  | Ok v w' _ => sr = SOk v (pos il w' o st)
  | Err _ _ => bad sr
  end.

Lemma sound_len il w o st : sound il w o st -> len w < two64.
Proof. intros (H & _). rewrite len_app in H. lia. Qed.
Lemma inv_pos il w o st : sound il w o st -> inv (pos il w o st).
Proof.
  intros (H1 & H2 & H3 & H4). split; [exact H1|]. split; [|exact I].
  cbn [pos s_stack]. unfold stk. destruct il; [|constructor]. constructor; [rewrite len_app in H1; lia|exact H3].
Qed.
Lemma sound_shrink il w w' o st : sound il w o st -> len w' <= len w -> sound il w' o st.
Proof. intros (H1 & H2 & H3 & H4) Hl. split; [rewrite len_app in *; lia|auto]. Qed.

Lemma bad_mono {A} s (r : sres A) : inv s -> doomed s -> mono s r -> bad r.
Proof.
  intros Hi Hd Hm. destruct r as [v s'|]; [|exact I]. destruct Hm as (Hi' & _ & Hle).
  split; [exact Hi'|eapply doomed_dle; eassumption].
Qed.
Lemma bad_smap {A B} (g : A -> B) (r : sres A) : bad r -> bad (smap g r).
Proof. destruct r; exact (fun H => H). Qed.

Lemma read_full_eq il r o st c n : (il = false -> o = []) ->
  s_read_full n (mkS (r ++ o) (stk il r st) c) =
  if len r <? n then SErr (too_large il) else SOk (take n r) (pos il (drop n r) o st).
Proof.
  intros Ho. unfold s_read_full, pos. cbn [s_in s_stack]. destruct il; cbn [stk too_large].
  - destruct (N.ltb_spec (len r) n); [reflexivity|].
    destruct (N.ltb_spec (len (r ++ o)) n) as [Hlt|_]; [rewrite len_app in Hlt; lia|].
    rewrite take_app_le, drop_app_le by assumption. rewrite len_drop. reflexivity.
  - rewrite (Ho eq_refl), !app_nil_r. destruct (len r <? n); reflexivity.
Qed.

Lemma read_uint_eq il size r o st c : (il = false -> o = []) ->
  s_read_uint size (mkS (r ++ o) (stk il r st) c) =
  match read_uint il size r with
  | UOk v r' => SOk v (pos il r' o st)
  | UErr e => SErr e
  end.
Proof.
  intros Ho. unfold s_read_uint, read_uint. destruct (size =? 0); [reflexivity|].
  rewrite read_full_eq by exact Ho. cbn [sbind].
  destruct (len r <? size); [reflexivity|]. cbn [sbind].
  destruct (size =? 1); [reflexivity|]. destruct (bN (hd x00 (take size r)) =? 0); reflexivity.
Qed.

(** readKind without Kind's size test *)
Definition pre_kind (il : bool) (bs : bytes) : kres :=
  match bs with
  | [] => KErr (if il then EElemTooLarge else EEOF)
  | b :: r =>
    let t := bN b in
    if t <? 128 then KOk KByte 0 b r
    else if t <? 184 then KOk KString (t - 128) x00 r
    else if t <? 192 then
      match read_uint il (t - 183) r with
      | UErr e => KErr e
      | UOk size r' => if size <? 56 then KErr ECanonSize else KOk KString size x00 r'
      end
    else if t <? 248 then KOk KList (t - 192) x00 r
    else
      match read_uint il (t - 247) r with
      | UErr e => KErr e
      | UOk size r' => if size <? 56 then KErr ECanonSize else KOk KList size x00 r'
      end
  end.

Lemma read_kind_pre il b r :
  read_kind il (b :: r) =
  match pre_kind il (b :: r) with
  | KOk KByte size bv r' => KOk KByte size bv r'
  | KOk k size bv r' => chk_size il k size r'
  | KErr e => KErr e
  end.
Proof.
  unfold read_kind, pre_kind. cbv zeta.
  destruct (bN b <? 128); [reflexivity|]. destruct (bN b <? 184); [reflexivity|].
  destruct (bN b <? 192).
  { destruct (read_uint il (bN b - 183) r); [|reflexivity]. destruct (v <? 56); reflexivity. }
  destruct (bN b <? 248); [reflexivity|].
  destruct (read_uint il (bN b - 247) r); [|reflexivity]. destruct (v <? 56); reflexivity.
Qed.

Lemma pre_kind_props il bs k size bv r' :
  pre_kind il bs = KOk k size bv r' -> len r' < len bs /\ (k = KByte -> size = 0) /\ (k <> KByte -> bv = x00).
Proof.
  destruct bs as [|b r]; [discriminate|]. unfold pre_kind. cbv zeta. rewrite len_cons.
  destruct (bN b <? 128). { intros E. injection E as <- <- <- <-. split; [lia|]. split; [reflexivity|congruence]. }
  destruct (bN b <? 184). { intros E. injection E as <- <- <- <-. split; [lia|]. split; [discriminate|reflexivity]. }
  destruct (bN b <? 192).
  { destruct (read_uint il (bN b - 183) r) as [v r''|] eqn:E'; [|discriminate]. destruct (v <? 56); [discriminate|].
    intros E. injection E as <- <- <- <-. apply read_uint_rest in E'. split; [lia|]. split; [discriminate|reflexivity]. }
  destruct (bN b <? 248). { intros E. injection E as <- <- <- <-. split; [lia|]. split; [discriminate|reflexivity]. }
  destruct (read_uint il (bN b - 247) r) as [v r''|] eqn:E'; [|discriminate]. destruct (v <? 56); [discriminate|].
  intros E. injection E as <- <- <- <-. apply read_uint_rest in E'. split; [lia|]. split; [discriminate|reflexivity].
Qed.

Lemma s_read_kind_eq il b r o st : (il = false -> o = []) ->
  s_read_kind (pos il (b :: r) o st) =
  match pre_kind il (b :: r) with
  | KOk k size bv r' => SOk (k, size, bv) (pos il r' o st)
  | KErr e => SErr e
  end.
Proof.
  intros Ho. unfold s_read_kind, pos. rewrite read_full_eq by exact Ho.
  rewrite len_cons. destruct (N.ltb_spec (1 + len r) 1); [lia|].
  change (take 1 (b :: r)) with [b]. change (drop 1 (b :: r)) with r. cbn [hd]. cbv zeta.
  unfold pre_kind. cbv zeta. unfold pos.
  destruct (bN b <? 128); [reflexivity|]. destruct (bN b <? 184); [reflexivity|].
  destruct (bN b <? 192).
  { rewrite read_uint_eq by exact Ho. destruct (read_uint il (bN b - 183) r); [|reflexivity]. cbn [sbind].
    destruct (v <? 56); reflexivity. }
  destruct (bN b <? 248); [reflexivity|].
  rewrite read_uint_eq by exact Ho. destruct (read_uint il (bN b - 247) r); [|reflexivity]. cbn [sbind].
  destruct (v <? 56); reflexivity.
Qed.

(** Kind at a position before a non-empty window, as one equation *)
Lemma s_kind_eq il b r o st : (il = false -> o = []) ->
  s_kind (pos il (b :: r) o st) =
  match pre_kind il (b :: r) with
  | KErr e => SErr e
  | KOk k size bv r' =>
    if (if il then len (b :: r) <? size else false) then SErr EElemTooLarge
    else if len (r' ++ o) <? size then SErr EValueTooLarge
    else SOk (k, size, bv) (kpos il (k, size, bv) r' o st)
  end.
Proof.
  intros Ho. pose proof (s_read_kind_eq il b r o st Ho) as Hrk.
  unfold s_kind. unfold pos in *. cbn [s_cache s_stack]. destruct il; cbn [stk] in *.
  - destruct (N.eqb_spec (len (b :: r)) 0) as [E|_]; [rewrite len_cons in E; lia|].
    rewrite Hrk. destruct (pre_kind true (b :: r)) as [k size bv r'|e]; reflexivity.
  - rewrite Hrk. destruct (pre_kind false (b :: r)) as [k size bv r'|e]; reflexivity.
Qed.

(** the three outcomes of Kind at a position *)
Inductive kind_case (il : bool) (w o : bytes) (st : list N) (s : stream) : Prop :=
| KGood k size bv rest :
    read_kind il w = KOk k size bv rest -> s_kind s = SOk (k, size, bv) (kpos il (k, size, bv) rest o st) ->
    size <= len rest -> len rest < len w -> kind_case il w o st s
| KFail e e' : read_kind il w = KErr e -> s_kind s = SErr e' -> kind_case il w o st s
| KQuirk e k size bv rest :
    read_kind il w = KErr e -> il = true -> k <> KByte ->
    s_kind s = SOk (k, size, bv) (kpos true (k, size, bv) rest o st) ->
    len rest < size -> size <= len (rest ++ o) -> len rest < len w -> kind_case il w o st s.

Lemma kind_cases il w o st s : sound il w o st -> at_pos il w o st s -> kind_case il w o st s.
Proof.
  intros Hs [|k size bv rest Ek|e k size bv rest Ek Hil Hk H1 H2 H3].
  - (* before the header *)
    destruct Hs as (Hl & Hsum & Hst & Htop).
    assert (Ho : il = false -> o = []) by (intros E; apply Htop; exact E).
    destruct w as [|b r].
    + destruct il.
      * eapply KFail; reflexivity.
      * destruct (Htop eq_refl) as [-> ->]. eapply KFail; reflexivity.
    + pose proof (s_kind_eq il b r o st Ho) as Hsk. pose proof (read_kind_pre il b r) as Hrk.
      destruct (pre_kind il (b :: r)) as [k size bv r'|e] eqn:Ep.
      2:{ eapply KFail; [exact Hrk|exact Hsk]. }
      destruct (pre_kind_props _ _ _ _ _ _ Ep) as (Hlr & Hkb & Hbv).
      assert (Hcases : k = KByte \/ k <> KByte) by (destruct k; [left; reflexivity|right; discriminate|right; discriminate]).
      destruct Hcases as [->|Hnb].
      * rewrite (Hkb eq_refl) in *.
        eapply KGood; [exact Hrk| |lia|exact Hlr].
        rewrite Hsk. destruct il.
        -- destruct (N.ltb_spec (len (b :: r)) 0); [lia|]. destruct (N.ltb_spec (len (r' ++ o)) 0); [lia|reflexivity].
        -- destruct (N.ltb_spec (len (r' ++ o)) 0); [lia|reflexivity].
      * assert (Hrk' : read_kind il (b :: r) = chk_size il k size r')
          by (rewrite Hrk; destruct k; [contradiction|reflexivity|reflexivity]).
        rewrite (Hbv Hnb) in *. unfold chk_size in Hrk'.
        destruct (N.ltb_spec (len r') size) as [Hlt|Hge].
        -- destruct il.
           ++ destruct (N.ltb_spec (len (b :: r)) size) as [Hb|Hb].
              { eapply KFail; [exact Hrk'|exact Hsk]. }
              destruct (N.ltb_spec (len (r' ++ o)) size) as [Hc|Hc].
              { eapply KFail; [exact Hrk'|exact Hsk]. }
              eapply KQuirk; [exact Hrk'|reflexivity|exact Hnb|exact Hsk|exact Hlt|exact Hc|exact Hlr].
           ++ pose proof (Ho eq_refl) as Eo. subst o. rewrite app_nil_r in Hsk.
              destruct (N.ltb_spec (len r') size); [|lia].
              eapply KFail; [exact Hrk'|exact Hsk].
        -- eapply KGood; [exact Hrk'| |exact Hge|exact Hlr].
           rewrite Hsk. destruct il.
           ++ destruct (N.ltb_spec (len (b :: r)) size); [lia|].
              destruct (N.ltb_spec (len (r' ++ o)) size) as [Hc|]; [rewrite len_app in Hc; lia|reflexivity].
           ++ destruct (N.ltb_spec (len (r' ++ o)) size) as [Hc|]; [rewrite len_app in Hc; lia|reflexivity].
  - pose proof Ek as Ek'. apply read_kind_canon, kind_spec_len in Ek'. destruct Ek' as [Hl Hsz].
    eapply KGood; [exact Ek|reflexivity|exact Hsz|exact Hl].
  - subst il. eapply KQuirk; [exact Ek|reflexivity|exact Hk|reflexivity|exact H1|exact H2|exact H3].
Qed.

Lemma kpos_read_full il c rest o st n : (il = false -> o = []) ->
  s_read_full n (kpos il c rest o st) =
  if len rest <? n then SErr (too_large il) else SOk (take n rest) (pos il (drop n rest) o st).
Proof. intros Ho. unfold kpos. apply read_full_eq. exact Ho. Qed.
Lemma kpos_read_uint il c rest o st n : (il = false -> o = []) ->
  s_read_uint n (kpos il c rest o st) =
  match read_uint il n rest with UOk v r' => SOk v (pos il r' o st) | UErr e => SErr e end.
Proof. intros Ho. unfold kpos. apply read_uint_eq. exact Ho. Qed.
Lemma kpos_rearm il c rest o st : rearm (kpos il c rest o st) = pos il rest o st.
Proof. reflexivity. Qed.
Lemma sound_o il w o st : sound il w o st -> il = false -> o = [].
Proof. intros (_ & _ & _ & H) E. apply H. exact E. Qed.

(** the simulation across Kind: an operation that starts with Kind simulates a window decoder that starts
    with [read_kind] if the two continue alike from a header both accept, and if the machine's continuation fails
    or is doomed from the one state the machine accepts and the window decoder does not *)
Lemma kind_sim {A} il w o st s (wbody : kind -> N -> byte -> bytes -> res A)
    (sbody : kind * N * byte -> stream -> sres A) :
  sound il w o st -> at_pos il w o st s ->
  (forall k size bv rest, read_kind il w = KOk k size bv rest -> size <= len rest -> len rest < len w ->
     simres il o st (wbody k size bv rest) (sbody (k, size, bv) (kpos il (k, size, bv) rest o st))) ->
  (forall e k size bv rest, read_kind il w = KErr e -> il = true -> k <> KByte ->
     len rest < size -> size <= len (rest ++ o) -> len rest < len w ->
     bad (sbody (k, size, bv) (kpos true (k, size, bv) rest o st))) ->
  simres il o st (match read_kind il w with KOk k size bv rest => wbody k size bv rest | KErr e => Err e 0 end)
    (sbind (s_kind s) sbody).
Proof.
  intros Hs Hp Hgood Hquirk.
  destruct (kind_cases il w o st s Hs Hp) as [k size bv rest Ek Esk Hsz Hl|e e' Ek Esk|e k size bv rest Ek Hil Hk Esk H1 H2 H3];
    rewrite Ek, Esk; cbn [sbind simres]; [apply Hgood; assumption|exact I|eapply Hquirk; eassumption].
Qed.

(** reading the announced string: all of it is there after a header both accept, not after the other *)
Lemma read_full_fits il c rest o st size : (il = false -> o = []) -> size <= len rest ->
  s_read_full size (kpos il c rest o st) = SOk (take size rest) (pos il (drop size rest) o st).
Proof. intros Ho Hsz. rewrite kpos_read_full by exact Ho. destruct (N.ltb_spec (len rest) size); [lia|reflexivity]. Qed.
Lemma read_full_short c rest o st size : len rest < size ->
  s_read_full size (kpos true c rest o st) = SErr EElemTooLarge.
Proof. intros H. rewrite kpos_read_full by discriminate. destruct (N.ltb_spec (len rest) size); [reflexivity|lia]. Qed.

Lemma bytes_sim il w o st s : sound il w o st -> at_pos il w o st s ->
  simres il o st (dec_bytes il w) (s_bytes s).
Proof.
  intros Hs Hp. pose proof (sound_o _ _ _ _ Hs) as Ho. unfold dec_bytes, s_bytes.
  apply kind_sim; [exact Hs|exact Hp| |].
  - intros k size bv rest _ Hsz _. destruct k; cbn [simres]; [reflexivity| |exact I].
    rewrite read_full_fits by assumption. cbn [sbind].
    destruct ((size =? 1) && (bN (hd x00 (take size rest)) <? 128)); cbn [simres bad]; [exact I|reflexivity].
  - intros _ k size bv rest _ _ Hk H1 _ _. destruct k; [contradiction| |exact I].
    rewrite read_full_short by exact H1. exact I.
Qed.

Lemma uint_sim bits il w o st s : sound il w o st -> at_pos il w o st s ->
  simres il o st (dec_uint bits il w) (s_uint bits s).
Proof.
  intros Hs Hp. pose proof (sound_o _ _ _ _ Hs) as Ho. unfold dec_uint, s_uint.
  apply kind_sim; [exact Hs|exact Hp| |].
  - intros k size bv rest _ _ _. destruct k; cbn [simres]; [| |exact I].
    + destruct (bN bv =? 0); cbn [simres bad]; [exact I|reflexivity].
    + destruct (bits / 8 <? size); cbn [simres bad]; [exact I|].
      rewrite kpos_read_uint by exact Ho. destruct (read_uint il size rest) as [v r'|e0]; [|destruct e0; exact I].
      destruct ((0 <? size) && (v <? 128)); cbn [simres bad]; [exact I|reflexivity].
  - intros _ k size bv rest _ _ Hk H1 _ _. destruct k; [contradiction| |exact I].
    destruct (bits / 8 <? size); [exact I|].
    rewrite kpos_read_uint by discriminate. unfold read_uint.
    destruct (N.eqb_spec size 0); [lia|]. destruct (N.ltb_spec (len rest) size); [exact I|lia].
Qed.

Lemma bool_sim il w o st s : sound il w o st -> at_pos il w o st s ->
  simres il o st (dec_bool il w) (s_bool s).
Proof.
  intros Hs Hp. pose proof (uint_sim 8 il w o st s Hs Hp) as Hu. unfold dec_bool, s_bool.
  destruct (dec_uint 8 il w) as [v w' a|e a]; cbn [simres] in *.
  - rewrite Hu. cbn [sbind]. destruct (v =? 0); [reflexivity|]. destruct (v =? 1); [reflexivity|exact I].
  - destruct (s_uint 8 s) as [v s'|]; [|exact I]. cbn [sbind]. destruct Hu as [Hi Hd].
    destruct (v =? 0); [split; assumption|]. destruct (v =? 1); [split; assumption|exact I].
Qed.

Lemma big_sim il w o st s : sound il w o st -> at_pos il w o st s ->
  simres il o st (dec_big il w) (s_big s).
Proof.
  intros Hs Hp. pose proof (sound_o _ _ _ _ Hs) as Ho. unfold dec_big, s_big.
  apply kind_sim; [exact Hs|exact Hp| |].
  - intros k size bv rest _ Hsz _. destruct k; cbn [simres]; [| |exact I].
    + destruct (bN bv =? 0); cbn [simres bad]; [exact I|reflexivity].
    + destruct (N.eqb_spec size 0); cbn [simres]; [reflexivity|].
      rewrite read_full_fits by assumption. cbn [sbind].
      (* the machine's canonical-size test is guarded by the 32-byte scratch buffer; above it size is not 1 *)
      replace ((size <=? 32) && (size =? 1)) with (size =? 1)
        by (destruct (N.eqb_spec size 1) as [->|]; [reflexivity|symmetry; apply andb_false_r]).
      destruct ((size =? 1) && (bN (hd x00 (take size rest)) <? 128)); cbn [simres bad]; [exact I|].
      destruct (bN (hd x00 (take size rest)) =? 0); cbn [simres bad]; [exact I|reflexivity].
  - intros _ k size bv rest _ _ Hk H1 _ _. destruct k; [contradiction| |exact I].
    destruct (N.eqb_spec size 0); [lia|]. rewrite read_full_short by exact H1. exact I.
Qed.

Lemma array_sim n il w o st s : sound il w o st -> at_pos il w o st s ->
  simres il o st (dec_array n il w) (s_array n s).
Proof.
  intros Hs Hp. pose proof (sound_o _ _ _ _ Hs) as Ho. unfold dec_array, s_array.
  apply kind_sim; [exact Hs|exact Hp| |].
  - intros k size bv rest _ Hsz _. destruct k; cbn [simres]; [| |exact I].
    + destruct (n =? 0); cbn [simres bad]; [exact I|]. destruct (1 <? n); cbn [simres bad]; [exact I|reflexivity].
    + destruct (n <? size); cbn [simres bad]; [exact I|]. destruct (size <? n); cbn [simres bad]; [exact I|].
      rewrite read_full_fits by assumption. cbn [sbind].
      destruct ((size =? 1) && (bN (hd x00 (take size rest)) <? 128)); cbn [simres bad]; [exact I|reflexivity].
  - intros _ k size bv rest _ _ Hk H1 _ _. destruct k; [contradiction| |exact I].
    destruct (n <? size); [exact I|]. destruct (size <? n); [exact I|].
    rewrite read_full_short by exact H1. exact I.
Qed.

Lemma raw_sim il w o st s : sound il w o st -> at_pos il w o st s ->
  simres il o st (dec_raw il w) (s_raw s).
Proof.
  intros Hs Hp. pose proof (sound_o _ _ _ _ Hs) as Ho. unfold dec_raw, s_raw.
  apply kind_sim; [exact Hs|exact Hp| |].
  - intros k size bv rest _ Hsz _.
    destruct k; cbn [simres]; [reflexivity| |]; rewrite read_full_fits by assumption; reflexivity.
  - intros _ k size bv rest _ _ Hk H1 _ _.
    destruct k; [contradiction| |]; rewrite read_full_short by exact H1; exact I.
Qed.

(** EOL is only ever produced by Kind, at a fresh position whose
    innermost limit is zero; the loops and the struct decoder rely on exactly that. *)
Definition noeol {A} (r : sres A) : Prop := r <> SErr EEOL.

(** where an EOL that comes out of [smap] / [sbind] comes from *)
Lemma smap_eol_inv {A B} (g : A -> B) (r : sres A) : smap g r = SErr EEOL -> r = SErr EEOL.
Proof. destruct r; cbn [smap]; [discriminate|]. intros H. injection H as ->. reflexivity. Qed.
Lemma sbind_eol_inv {A B} (r : sres A) (f : A -> stream -> sres B) :
  sbind r f = SErr EEOL -> r = SErr EEOL \/ exists v s', r = SOk v s' /\ f v s' = SErr EEOL.
Proof. destruct r as [v s'|e]; cbn [sbind]; intros H; [right; eauto|left; injection H as ->; reflexivity]. Qed.
Lemma noeol_smap {A B} (g : A -> B) (r : sres A) : noeol r -> noeol (smap g r).
Proof. intros Hn E. exact (Hn (smap_eol_inv g r E)). Qed.
Lemma noeol_sbind {A B} (r : sres A) (f : A -> stream -> sres B) :
  noeol r -> (forall v s', noeol (f v s')) -> noeol (sbind r f).
Proof. intros Hr Hf E. destruct (sbind_eol_inv r f E) as [E'|(v & s' & _ & E')]; [exact (Hr E')|exact (Hf v s' E')]. Qed.

Lemma noeol_read_full n s : noeol (s_read_full n s).
Proof.
  unfold noeol, s_read_full. destruct (s_stack s); repeat match goal with |- context [if ?c then _ else _] => destruct c end; discriminate.
Qed.
Lemma noeol_read_uint n s : noeol (s_read_uint n s).
Proof.
  unfold s_read_uint. destruct (n =? 0); [discriminate|].
  apply noeol_sbind; [apply noeol_read_full|]. intros b s'.
  destruct (n =? 1); [discriminate|]. destruct (bN (hd x00 b) =? 0); discriminate.
Qed.
Lemma noeol_read_kind s : noeol (s_read_kind s).
Proof.
  unfold noeol, s_read_kind. pose proof (noeol_read_full 1 s) as H.
  destruct (s_read_full 1 s) as [b1 s1|e].
  - assert (Hu : forall n (k : kind), sbind (s_read_uint n s1) (fun size s2 =>
                 if size <? 56 then SErr ECanonSize else SOk (k, size, x00) s2) <> SErr EEOL).
    { intros n k. apply noeol_sbind; [apply noeol_read_uint|]. intros v s2. destruct (v <? 56); discriminate. }
    destruct (bN (hd x00 b1) <? 128); [discriminate|]. destruct (bN (hd x00 b1) <? 184); [discriminate|].
    destruct (bN (hd x00 b1) <? 192); [apply Hu|]. destruct (bN (hd x00 b1) <? 248); [discriminate|apply Hu].
  - assert (He : e <> EEOL) by (intros ->; exact (H eq_refl)). destruct (s_stack s), e; congruence.
Qed.

Lemma s_kind_eol_inv s : s_kind s = SErr EEOL -> s_cache s = None /\ exists r, s_stack s = 0 :: r.
Proof.
  unfold s_kind. destruct (s_cache s); [discriminate|]. intros H. split; [reflexivity|].
  pose proof (noeol_read_kind s) as Hn.
  destruct (s_stack s) as [|l r].
  - exfalso. destruct (s_read_kind s) as [[[k size] bv] s'|e]; cbn [sbind] in H; [|exact (Hn H)].
    destruct (len (s_in s') <? size); discriminate.
  - destruct (N.eqb_spec l 0) as [->|_]; [exists r; reflexivity|].
    exfalso. destruct (s_read_kind s) as [[[k size] bv] s'|e]; cbn [sbind] in H; [|exact (Hn H)].
    destruct (l <? size); [discriminate|]. destruct (len (s_in s') <? size); discriminate.
Qed.
Lemma s_kind_eol s r : s_cache s = None -> s_stack s = 0 :: r -> s_kind s = SErr EEOL.
Proof. intros Hc Hs. unfold s_kind. rewrite Hc, Hs. reflexivity. Qed.
(** an operation that starts with Kind and never produces EOL afterwards *)
Definition eol_from_kind {A} (P : stream -> sres A) : Prop := forall s, P s = SErr EEOL -> s_kind s = SErr EEOL.
Lemma eol_bind_kind {A} (body : kind * N * byte -> stream -> sres A) :
  (forall s c s', s_kind s = SOk c s' -> noeol (body c s')) -> eol_from_kind (fun s => sbind (s_kind s) body).
Proof.
  intros Hb s H. destruct (s_kind s) as [c s'|e] eqn:Ek; cbn [sbind] in H.
  - exfalso. exact (Hb s c s' Ek H).
  - injection H as ->. reflexivity.
Qed.
Lemma eol_smap {A B} (g : A -> B) (P : stream -> sres A) : eol_from_kind P -> eol_from_kind (fun s => smap g (P s)).
Proof. intros HP s H. exact (HP s (smap_eol_inv g _ H)). Qed.

Ltac noeol_tac :=
  unfold noeol;
  repeat first
    [ discriminate
    | match goal with |- (if ?c then _ else _) <> _ => destruct c end
    | match goal with |- (match ?c with (_, _) => _ end) <> _ => destruct c end
    | match goal with |- (match ?k with KByte => _ | KString => _ | KList => _ end) <> _ => destruct k end
    | match goal with
      | |- sbind (s_read_full ?n ?s) _ <> _ =>
          apply noeol_sbind; [apply noeol_read_full|intros ? ?]; unfold noeol
      | |- smap _ (s_read_full ?n ?s) <> _ =>
          let E := fresh in intros E; exact (noeol_read_full n s (smap_eol_inv _ _ E))
      end ].

Lemma eol_bytes : eol_from_kind s_bytes.
Proof. apply eol_bind_kind. intros s [[k size] bv] s' _. noeol_tac. Qed.
Lemma eol_uint bits : eol_from_kind (s_uint bits).
Proof.
  apply eol_bind_kind. intros s [[k size] bv] s' _. unfold noeol. destruct k.
  { destruct (bN bv =? 0); discriminate. }
  2:{ discriminate. }
  destruct (bits / 8 <? size); [discriminate|].
  pose proof (noeol_read_uint size s') as H. destruct (s_read_uint size s') as [v s''|e].
  - destruct ((0 <? size) && (v <? 128)); discriminate.
  - destruct e; try discriminate. exfalso. apply H. reflexivity.
Qed.
Lemma eol_bool : eol_from_kind s_bool.
Proof.
  intros s H. apply (eol_uint 8). destruct (sbind_eol_inv _ _ H) as [E|(v & s' & _ & E)]; [exact E|].
  destruct (v =? 0); [discriminate|]. destruct (v =? 1); discriminate.
Qed.
Lemma eol_big : eol_from_kind s_big.
Proof. apply eol_bind_kind. intros s [[k size] bv] s' _. noeol_tac. Qed.
Lemma eol_array n : eol_from_kind (s_array n).
Proof. apply eol_bind_kind. intros s [[k size] bv] s' _. noeol_tac. Qed.
Lemma eol_raw : eol_from_kind s_raw.
Proof. apply eol_bind_kind. intros s [[k size] bv] s' _. noeol_tac. Qed.
Lemma eol_list : eol_from_kind s_list.
Proof. apply eol_bind_kind. intros s [[k size] bv] s' _. noeol_tac. Qed.

Lemma noeol_list_end s : noeol (s_list_end s).
Proof. unfold noeol, s_list_end. destruct (s_stack s); [discriminate|]. destruct (0 <? n); discriminate. Qed.
Lemma noeol_slice_elems {A} (elem : stream -> sres A) n : forall s, noeol (s_slice_elems elem n s).
Proof.
  unfold noeol. induction n as [|n IH]; intros s; cbn [s_slice_elems]; destruct (elem s) as [x s'|e].
  - discriminate.
  - destruct e; discriminate.
  - intros E. exact (IH s' (smap_eol_inv _ _ E)).
  - destruct e; discriminate.
Qed.
Lemma eol_list_slice {A} (elem : stream -> sres A) : eol_from_kind (s_list_slice elem).
Proof.
  intros s H. apply eol_list. destruct (sbind_eol_inv _ _ H) as [E|(size & s' & _ & E)]; [exact E|exfalso].
  destruct (size =? 0); [exact (noeol_list_end _ (smap_eol_inv _ _ E))|].
  destruct (sbind_eol_inv _ _ E) as [E'|(xs & s'' & _ & E')].
  - exact (noeol_slice_elems _ _ _ E').
  - exact (noeol_list_end _ (smap_eol_inv _ _ E')).
Qed.
Lemma eol_item fuel : eol_from_kind (s_item fuel).
Proof.
  destruct fuel as [|f]; [intros s H; discriminate|]. cbn [s_item]. apply eol_bind_kind.
  intros s [[k size] bv] s' Ek. pose proof (s_kind_cached _ _ _ Ek) as Hc.
  assert (Hb : noeol (smap Str (s_bytes s'))).
  { apply noeol_smap. intros H. apply eol_bytes in H. unfold s_kind in H. rewrite Hc in H. discriminate. }
  destruct k; [exact Hb|exact Hb|].
  apply noeol_smap. intros H. apply eol_list_slice in H. unfold s_kind in H. rewrite Hc in H. discriminate.
Qed.

Lemma eol_val_mut :
  (forall t tg, eol_from_kind (s_val t tg)) /\ (forall fs s, noeol (s_fields fs s)).
Proof.
  apply ty_fields_ind.
  - intros bits tg. cbn [s_val]. apply eol_smap, eol_uint.
  - intros tg. cbn [s_val]. apply eol_smap, eol_big.
  - intros tg. cbn [s_val]. apply eol_smap, eol_bool.
  - intros tg. cbn [s_val]. apply eol_smap, eol_bytes.
  - intros n tg. cbn [s_val]. apply eol_smap, eol_array.
  - intros tg. cbn [s_val]. apply eol_smap, eol_bytes.
  - intros e IH tg. cbn [s_val]. destruct (t_tail tg).
    + intros s H. exfalso. exact (noeol_slice_elems _ _ _ (smap_eol_inv _ _ H)).
    + apply eol_smap, eol_list_slice.
  - intros fs IH tg s H. apply eol_list. cbn [s_val] in H.
    destruct (sbind_eol_inv _ _ H) as [E|(size & s1 & _ & E)]; [exact E|exfalso].
    destruct (sbind_eol_inv _ _ E) as [E'|(vs & s2 & _ & E')]; [exact (IH s1 E')|].
    exact (noeol_list_end _ (smap_eol_inv _ _ E')).
  - intros e IH tg. cbn [s_val]. destruct (t_nil tg); try (apply eol_smap, IH);
      (apply eol_bind_kind; intros s [[k size] bv] s' Ek; pose proof (s_kind_cached _ _ _ Ek) as Hc;
       destruct (negb (kind_eqb k KByte) && (size =? 0));
       [destruct (kind_eqb k (nil_kind e tg)); discriminate|];
       apply noeol_smap; intros H; apply IH in H; unfold s_kind in H; rewrite Hc in H; discriminate).
  - intros tg. cbn [s_val]. apply eol_smap, eol_raw.
  - intros tg s. cbn [s_val]. apply eol_smap, eol_item.
  - intros s. discriminate.
  - intros t IHt tg r IHr s. cbn [s_fields]. destruct (t_ignored tg); [apply noeol_smap, IHr|].
    destruct (s_val t tg s) as [v s'|e].
    + apply noeol_smap, IHr.
    + destruct e; try discriminate. destruct (t_optional tg); discriminate.
Qed.

(** ... hence not before a non-empty window *)
Lemma no_eol_at_nonempty {A} (P : stream -> sres A) b p o st :
  eol_from_kind P -> P (pos true (b :: p) o st) <> SErr EEOL.
Proof.
  intros HP E. apply HP, s_kind_eol_inv in E. destruct E as [_ [r Er]].
  unfold pos in Er. cbn [s_stack stk] in Er. rewrite len_cons in Er.
  assert (E0 : 1 + len p = 0) by congruence. lia.
Qed.

(** at a fresh position whose limit is zero every decoder without a tail tag answers EOL *)
Lemma eol_at_zero_bind {A} (body : kind * N * byte -> stream -> sres A) s r :
  s_cache s = None -> s_stack s = 0 :: r -> sbind (s_kind s) body = SErr EEOL.
Proof. intros Hc Hs. rewrite (s_kind_eol s r Hc Hs). reflexivity. Qed.
Lemma list_at_zero s r : s_cache s = None -> s_stack s = 0 :: r -> s_list s = SErr EEOL.
Proof. intros Hc Hs. unfold s_list. apply (eol_at_zero_bind _ s r Hc Hs). Qed.
Lemma val_at_zero : forall t tg s r, t_tail tg = false -> s_cache s = None -> s_stack s = 0 :: r -> s_val t tg s = SErr EEOL.
Proof.
  induction t as [bits| | | |n| |e IH|fs|e IH| |]; intros tg s r Ht Hc Hs; cbn [s_val].
  - unfold s_uint. rewrite (eol_at_zero_bind _ s r Hc Hs). reflexivity.
  - unfold s_big. rewrite (eol_at_zero_bind _ s r Hc Hs). reflexivity.
  - unfold s_bool, s_uint. rewrite (eol_at_zero_bind _ s r Hc Hs). reflexivity.
  - unfold s_bytes. rewrite (eol_at_zero_bind _ s r Hc Hs). reflexivity.
  - unfold s_array. rewrite (eol_at_zero_bind _ s r Hc Hs). reflexivity.
  - unfold s_bytes. rewrite (eol_at_zero_bind _ s r Hc Hs). reflexivity.
  - rewrite Ht. unfold s_list_slice. rewrite (list_at_zero s r Hc Hs). reflexivity.
  - rewrite (list_at_zero s r Hc Hs). reflexivity.
  - destruct (t_nil tg); try (rewrite (IH no_tag s r eq_refl Hc Hs); reflexivity);
      rewrite (eol_at_zero_bind _ s r Hc Hs); reflexivity.
  - unfold s_raw. rewrite (eol_at_zero_bind _ s r Hc Hs). reflexivity.
  - cbn [s_item]. rewrite (eol_at_zero_bind _ s r Hc Hs). reflexivity.
Qed.
Lemma item_at_zero f s r : s_cache s = None -> s_stack s = 0 :: r -> s_item (S f) s = SErr EEOL.
Proof. intros Hc Hs. cbn [s_item]. rewrite (eol_at_zero_bind _ s r Hc Hs). reflexivity. Qed.

(** List after Kind *)
Definition list_body (c : kind * N * byte) (s' : stream) : sres N :=
  match c with
  | (KList, size, _) =>
    let st := match s_stack s' with
              | l :: r => ((l + two64 - size) mod two64) :: r
              | [] => []
              end in
    SOk size (mkS (s_in s') (size :: st) None)
  | _ => SErr EExpectedList
  end.
Lemma s_list_eq s : s_list s = sbind (s_kind s) list_body.
Proof. reflexivity. Qed.
Lemma sbind_assoc {A B C} (r : sres A) (f : A -> stream -> sres B) (g : B -> stream -> sres C) :
  sbind (sbind r f) g = sbind r (fun x s => sbind (f x s) g).
Proof. destruct r; reflexivity. Qed.

Lemma list_good il rest o st size bv : size <= len rest -> len rest < two64 ->
  list_body (KList, size, bv) (kpos il (KList, size, bv) rest o st) =
  SOk size (pos true (take size rest) (drop size rest ++ o) (stk il (drop size rest) st)).
Proof.
  intros Hsz Hl. unfold list_body, kpos, pos. cbn [s_stack s_in].
  assert (Ht : len (take size rest) = size) by (apply len_take; exact Hsz).
  assert (Ea : rest ++ o = take size rest ++ drop size rest ++ o) by (rewrite app_assoc, take_drop; reflexivity).
  destruct il; cbn [stk].
  - rewrite Ht, <- Ea. f_equal. f_equal. f_equal. f_equal.
    rewrite len_drop. replace (len rest + two64 - size) with (len rest - size + 1 * two64) by lia.
    rewrite N.mod_add by (unfold two64; lia). apply N.mod_small. lia.
  - rewrite Ht, <- Ea. reflexivity.
Qed.

Lemma list_quirk w rest o st size bv :
  sound true w o st -> len rest < size -> size <= len (rest ++ o) -> len rest < len w ->
  exists s1, list_body (KList, size, bv) (kpos true (KList, size, bv) rest o st) = SOk size s1 /\ inv s1 /\ doomed s1.
Proof.
  intros (Hlen & _ & Hst & _) H1 H2 H3. unfold list_body, kpos. cbn [s_stack s_in stk].
  eexists. split; [reflexivity|]. rewrite !len_app in *.
  assert (Hm : (len rest + two64 - size) mod two64 = len rest + two64 - size) by (apply N.mod_small; lia).
  split.
  - split; cbn [s_in s_stack s_cache]; [rewrite len_app; lia|]. split; [|exact I].
    constructor; [lia|]. constructor; [rewrite Hm; lia|exact Hst].
  - unfold doomed. cbn [s_in s_stack ssum fold_right]. rewrite Hm, len_app. lia.
Qed.

Lemma list_end_zero o' st' : s_list_end (pos true [] o' st') = SOk tt (mkS o' st' None).
Proof. reflexivity. Qed.
Lemma list_end_nonzero b p o' st' : s_list_end (pos true (b :: p) o' st') = SErr ENotAtEOL.
Proof.
  unfold s_list_end, pos. cbn [s_stack stk]. rewrite len_cons. destruct (N.ltb_spec 0 (1 + len p)); [reflexivity|lia].
Qed.

Lemma sound_inner il w o st rest size :
  sound il w o st -> len rest < len w -> size <= len rest ->
  sound true (take size rest) (drop size rest ++ o) (stk il (drop size rest) st).
Proof.
  intros (H1 & H2 & H3 & H4) Hl Hsz.
  assert (Hlen : len (take size rest ++ drop size rest ++ o) = len rest + len o).
  { rewrite app_assoc, take_drop, len_app. reflexivity. }
  split; [rewrite Hlen; rewrite len_app in H1; lia|].
  split; [|split; [|discriminate]].
  - unfold ssum in *. destruct il; cbn [stk fold_right]; rewrite len_app; lia.
  - destruct il; cbn [stk]; [|constructor]. constructor; [rewrite len_drop; rewrite len_app in H1; lia|exact H3].
Qed.

(** what the loops need from an element decoder ([L] bounds the windows it is trusted on).  [e_zero] is
    guarded by [1 <= L] because an item decoder out of fuel answers EFuel, not EOL: for items [L] is the
    smaller of the two fuels (see [item_sim]), so [1 <= L] means there is fuel. *)
Record elem_ok {A} (L : nat) (welem : bytes -> res A) (selem : stream -> sres A) : Prop := {
  e_sim : forall p o st s, (length p <= L)%nat -> sound true p o st -> at_pos true p o st s ->
                           simres true o st (welem p) (selem s);
  e_prog : forall p v p' a, welem p = Ok v p' a -> len p' < len p;
  e_mono : forall s, inv s -> mono s (selem s);
  e_eol : eol_from_kind selem;
  e_zero : (1 <= L)%nat -> forall s r, s_cache s = None -> s_stack s = 0 :: r -> selem s = SErr EEOL }.

(* [n] is the fuel of the window loop, [m] that of the machine's loop (the length of its whole input, [p ++ o]) *)
Lemma slice_elems_sim {A} L (welem : bytes -> res A) (selem : stream -> sres A) :
  elem_ok L welem selem -> (1 <= L)%nat ->
  forall n m p o st, sound true p o st -> (length p <= n)%nat -> (length p <= m)%nat -> (length p <= L)%nat ->
    match slice_elems welem n p with
    | Ok xs _ _ => s_slice_elems selem m (pos true p o st) = SOk xs (pos true [] o st)
    | Err _ _ => bad (s_slice_elems selem m (pos true p o st))
    end.
Proof.
  intros [Hsim Hprog Hmono Heol Hzero'] HL1. pose proof (Hzero' HL1) as Hzero.
  (* at the end of the window both loops stop, whatever fuel is left *)
  assert (Hnil : forall m o st, s_slice_elems selem m (pos true [] o st) = SOk [] (pos true [] o st)).
  { intros m o st. assert (E : selem (pos true [] o st) = SErr EEOL) by (eapply Hzero; reflexivity).
    destruct m; cbn [s_slice_elems]; rewrite E; reflexivity. }
  induction n as [|n IH]; intros m p o st Hs Hn Hm HL.
  - destruct p; [|cbn in Hn; lia]. apply Hnil.
  - destruct p as [|b p']; [apply Hnil|].
    cbn [slice_elems]. set (p := b :: p') in *.
    pose proof (Hsim p o st _ HL Hs (AtFresh _ _ _ _)) as He.
    destruct m as [|m]; [cbn in Hm; lia|]. cbn [s_slice_elems].
    destruct (welem p) as [x p1 a|e a] eqn:Ew; cbn [bind simres] in *.
    + rewrite He. apply Hprog in Ew.
      assert (Hs1 : sound true p1 o st) by (eapply sound_shrink; [exact Hs|lia]).
      apply len_lt_length in Ew.
      specialize (IH m p1 o st Hs1 ltac:(lia) ltac:(lia) ltac:(lia)).
      destruct (slice_elems welem n p1) as [xs r a'|e a']; cbn [rmap].
      * rewrite IH. reflexivity.
      * apply bad_smap. exact IH.
    + destruct (selem (pos true p o st)) as [x s'|e'] eqn:Es.
      * destruct He as [Hi Hd]. apply bad_smap. eapply bad_mono; [exact Hi|exact Hd|].
        apply mono_slice_elems; [exact Hmono|exact Hi].
      * destruct e'; try exact I.
        exfalso. exact (no_eol_at_nonempty selem b p' o st Heol Es).
Qed.

(** the part of decodeListSlice after List() *)
Definition lsr {A} (elem : stream -> sres A) (size : N) (s' : stream) : sres (list A) :=
  if size =? 0 then smap (fun _ => []) (s_list_end s')
  else sbind (s_slice_elems elem (length (s_in s')) s') (fun xs s'' => smap (fun _ => xs) (s_list_end s'')).
Lemma list_slice_lsr {A} (elem : stream -> sres A) s : s_list_slice elem s = sbind (s_list s) (lsr elem).
Proof. reflexivity. Qed.

Lemma bad_list_end {B} (xs : B) s : inv s -> doomed s -> bad (smap (fun _ => xs) (s_list_end s)).
Proof.
  intros Hi Hd. destruct (s_list_end s) as [[] s'|] eqn:E; [|exact I]. cbn [smap].
  destruct (list_end_ok s s' Hi E) as (Hi' & _ & Hle). split; [exact Hi'|eapply doomed_dle; eassumption].
Qed.
(** what fails or is doomed inside a list stays so across its ListEnd *)
Lemma bad_then_list_end {A B} (r : sres A) (f : A -> B) :
  bad r -> bad (sbind r (fun xs s' => smap (fun _ => f xs) (s_list_end s'))).
Proof. destruct r as [xs s|]; [|exact (fun H => H)]. intros [Hi Hd]. apply bad_list_end; assumption. Qed.
Lemma bad_lsr {A} (elem : stream -> sres A) size s1 :
  (forall s, inv s -> mono s (elem s)) -> inv s1 -> doomed s1 -> bad (lsr elem size s1).
Proof.
  intros Hm Hi Hd. unfold lsr. destruct (size =? 0); [apply bad_list_end; assumption|].
  apply (bad_then_list_end _ (fun xs => xs)). eapply bad_mono; [exact Hi|exact Hd|apply mono_slice_elems; assumption].
Qed.

Lemma dec_list_sim {A} L (welem : bytes -> res A) (selem : stream -> sres A) il w o st s :
  elem_ok L welem selem -> (forall k size bv rest, read_kind il w = KOk k size bv rest -> (length rest <= L)%nat) ->
  sound il w o st -> at_pos il w o st s ->
  simres il o st (dec_list welem il w) (s_list_slice selem s).
Proof.
  intros Hel HL Hs Hp. rewrite list_slice_lsr, s_list_eq, sbind_assoc. unfold dec_list.
  apply kind_sim; [exact Hs|exact Hp| |].
  - intros k size bv rest Ek Hsz Hl. destruct k; [exact I|exact I|].
    (* a list: enter it *)
    rewrite list_good by (pose proof (sound_len _ _ _ _ Hs); lia). cbn [sbind]. unfold lsr.
    pose proof (sound_inner il w o st rest size Hs Hl Hsz) as Hin.
    destruct (N.eqb_spec size 0) as [->|Hnz].
    + change (take 0 rest) with (@nil byte). rewrite list_end_zero. cbn [smap simres]. reflexivity.
    + set (p := take size rest) in *.
      assert (Hpl : (length p <= L)%nat).
      { pose proof (HL _ _ _ _ Ek) as HLr. assert (len p <= len rest) by (unfold p; rewrite len_take by exact Hsz; lia). unfold len in *. lia. }
      assert (HL1 : (1 <= L)%nat).
      { assert (len p = size) by (unfold p; apply len_take; exact Hsz). unfold len in *. lia. }
      assert (Hfuel : (length p <= length (s_in (pos true p (drop size rest ++ o) (stk il (drop size rest) st))))%nat).
      { unfold pos. cbn [s_in]. rewrite app_length. lia. }
      pose proof (slice_elems_sim L welem selem Hel HL1 (length p) _ p _ _ Hin (le_n _) Hfuel Hpl) as Hse.
      destruct (slice_elems welem (length p) p) as [xs r a|e a]; cbn [simres].
      * rewrite Hse. cbn [sbind]. rewrite list_end_zero. reflexivity.
      * apply (bad_then_list_end _ (fun xs => xs)), Hse.
  - intros e k size bv rest Ek -> Hk H1 H2 H3. destruct k; [contradiction|exact I|].
    destruct (list_quirk w rest o st size bv Hs H1 H2 H3) as (s1 & -> & Hi & Hd).
    cbn [sbind]. apply bad_lsr; [apply (e_mono _ _ _ Hel)|exact Hi|exact Hd].
Qed.

Lemma simres_rmap {A B} (g : A -> B) il o st (r : res A) (sr : sres A) :
  simres il o st r sr -> simres il o st (rmap g r) (smap g sr).
Proof.
  destruct r as [v w' a|e a]; cbn [rmap simres].
  - intros ->. reflexivity.
  - apply bad_smap.
Qed.

(* [fw], [fs]: the fuels of the two item decoders; the machine takes its fuel after Kind has consumed the header,
   hence the premise about [rest] *)
Lemma item_sim : forall fw fs il w o st s, (length w < fw)%nat ->
  (forall k size bv rest, read_kind il w = KOk k size bv rest -> (length rest < fs)%nat) ->
  sound il w o st -> at_pos il w o st s -> simres il o st (dec_item fw il w) (s_item fs s).
Proof.
  induction fw as [|fw IH]; intros fs il w o st s Hfw Hfs Hs Hp; [lia|].
  cbn [dec_item].
  assert (Hel : forall fs', (1 <= length w)%nat -> elem_ok (Nat.min fs' (length w - 1)) (dec_item fw true) (s_item fs')).
  { intros fs' Hw1. constructor.
    - intros p o' st' s' HL Hs' Hp''.
      apply IH; [lia| |exact Hs'|exact Hp''].
      intros k size bv rest Ek. apply kind_ok_len in Ek. destruct Ek as [Hl _]. apply len_lt_length in Hl. lia.
    - intros p v p' a. apply prog_item.
    - intros s'. apply mono_item.
    - apply eol_item.
    - intros H1 s' r Hc Hst. destruct fs'; [lia|]. apply item_at_zero with r; assumption. }
  destruct fs as [|fs'].
  { destruct (read_kind il w) as [k size bv rest|e] eqn:Ek; [pose proof (Hfs _ _ _ _ eq_refl); lia|exact I]. }
  cbn [s_item]. apply kind_sim; [exact Hs|exact Hp| |].
  - intros k size bv rest Ek Hsz Hl.
    pose proof (AtKind il w o st k size bv rest Ek) as Hp'.
    assert (Hw1 : (1 <= length w)%nat) by (apply len_lt_length in Hl; lia).
    destruct k; [apply simres_rmap, bytes_sim; assumption..|].
    apply simres_rmap. eapply dec_list_sim; [exact (Hel fs' Hw1)| |exact Hs|exact Hp'].
    intros k' size' bv' rest' Ek'. rewrite Ek in Ek'. injection Ek' as _ _ _ <-.
    apply len_lt_length in Hl. pose proof (Hfs _ _ _ _ Ek). lia.
  - intros e k size bv rest Ek -> Hk H1 H2 H3.
    pose proof (AtQuirk true w o st e k size bv rest Ek eq_refl Hk H1 H2 H3) as Hq.
    assert (Hw1 : (1 <= length w)%nat) by (apply len_lt_length in H3; lia).
    destruct k; [contradiction| |]; apply bad_smap.
    + pose proof (bytes_sim true w o st _ Hs Hq) as Hb. unfold dec_bytes in Hb. rewrite Ek in Hb. exact Hb.
    + assert (Hb : simres true o st (dec_list (dec_item fw true) true w) (s_list_slice (s_item fs') (kpos true (KList, size, bv) rest o st))).
      { eapply dec_list_sim; [exact (Hel fs' Hw1)| |exact Hs|exact Hq]. intros ? ? ? ? Ek'. rewrite Ek in Ek'. discriminate. }
      unfold dec_list in Hb. rewrite Ek in Hb. exact Hb.
Qed.

(** [tail_ok]: the tail tag only sits on slices, as
    rlpstruct.ProcessFields enforces (the struct decoder hands a tail field the rest of the
    list without looking at it, which only a slice decoder can take). *)
Fixpoint tail_ok (t : ty) : Prop :=
  match t with
  | TList e | TPtr e => tail_ok e
  | TStruct fs => tail_ok_fields fs
  | _ => True
  end
with tail_ok_fields (fs : fields) : Prop :=
  match fs with
  | FNil => True
  | FCons t tg r => tail_ok t /\ (t_tail tg = true -> exists e, t = TList e) /\ tail_ok_fields r
  end.

Lemma typed_size_bound_len t tg il p v p' a : dec_val t tg il p = Ok v p' a -> len p' <= len p.
Proof. intros E. pose proof (typed_size_bound t tg il p) as H. rewrite E in H. lia. Qed.

Definition sim_at (t : ty) : Prop :=
  tail_ok t -> forall tg il w o st s, sound il w o st -> at_pos il w o st s ->
    (t_tail tg = true -> il = true /\ s = pos true w o st) ->
    simres il o st (dec_val t tg il w) (s_val t tg s).
Definition sim_fields_at (fs : fields) : Prop :=
  tail_ok_fields fs -> forall p o st, sound true p o st ->
    simres true o st (dec_fields fs p) (s_fields fs (pos true p o st)).

Lemma typed_elem_ok L e : sim_at e -> tail_ok e -> elem_ok L (dec_val e no_tag true) (s_val e no_tag).
Proof.
  intros IH Ht. constructor.
  - intros p o st s _ Hs Hp. apply IH; [exact Ht|exact Hs|exact Hp|discriminate].
  - intros p v p' a. apply prog_val.
  - intros s. apply (proj1 mono_val_mut).
  - apply (proj1 eol_val_mut).
  - intros _ s r. apply val_at_zero. reflexivity.
Qed.

(** one struct field followed by the others, given the simulation for the field and for the others; the
    field's decoder does not answer EOL here (the window is not empty, or it is a tail slice) *)
Lemma field_sim t tg r p o st :
  (forall p', len p' <= len p -> simres true o st (dec_fields r p') (s_fields r (pos true p' o st))) ->
  s_val t tg (pos true p o st) <> SErr EEOL ->
  simres true o st (dec_val t tg true p) (s_val t tg (pos true p o st)) ->
  simres true o st (bind (dec_val t tg true p) (fun v rest => rmap (cons v) (dec_fields r rest)))
    (match s_val t tg (pos true p o st) with
     | SErr EEOL => if t_optional tg then SOk (zero_fields (FCons t tg r)) (pos true p o st) else SErr ETooFew
     | SErr e => SErr e
     | SOk v s' => smap (cons v) (s_fields r s')
     end).
Proof.
  intros IHr Hne Hsim. destruct (dec_val t tg true p) as [v p' a|e a] eqn:Ed; cbn [simres bind] in *.
  - rewrite Hsim. specialize (IHr p' (typed_size_bound_len t tg true p v p' a Ed)).
    destruct (dec_fields r p') as [vs p'' a'|e' a']; cbn [rmap simres] in *; [rewrite IHr; reflexivity|].
    apply bad_smap, IHr.
  - destruct (s_val t tg (pos true p o st)) as [v s'|e0].
    + destruct Hsim as [Hi Hd]. apply bad_smap. eapply bad_mono; [exact Hi|exact Hd|apply (proj2 mono_val_mut), Hi].
    + destruct e0; try exact I. contradiction.
Qed.

(** the machine's decoder of a pointer under a nil tag *)
Lemma s_val_ptr_nil e tg s : t_nil tg <> NoNil ->
  s_val (TPtr e) tg s =
  sbind (s_kind s) (fun c s' =>
    let '(k, size, _) := c in
    if negb (kind_eqb k KByte) && (size =? 0) then
      if kind_eqb k (nil_kind e tg) then SOk VNil (rearm s') else SErr EWrongEmpty
    else smap VPtr (s_val e no_tag s')).
Proof. intros Hn. cbn [s_val]. destruct (t_nil tg); [contradiction|reflexivity..]. Qed.

(** ... and its simulation, given the simulation for what it points to *)
Lemma ptr_nil_sim e tg il w o st s :
  (forall s', at_pos il w o st s' ->
     simres il o st (rmap VPtr (dec_val e no_tag il w)) (smap VPtr (s_val e no_tag s'))) ->
  t_nil tg <> NoNil -> sound il w o st -> at_pos il w o st s ->
  simres il o st (dec_val (TPtr e) tg il w) (s_val (TPtr e) tg s).
Proof.
  intros Hrec Hn Hs Hp. rewrite dec_val_ptr_nil, s_val_ptr_nil by exact Hn. apply kind_sim; [exact Hs|exact Hp| |].
  - intros k size bv rest Ek _ _. destruct (negb (kind_eqb k KByte) && (size =? 0)); [|apply Hrec, AtKind, Ek].
    destruct (kind_eqb k (nil_kind e tg)); cbn [simres]; [reflexivity|exact I].
  - intros e0 k size bv rest Ek -> Hk H1 H2 H3.
    replace (negb (kind_eqb k KByte) && (size =? 0)) with false
      by (destruct (N.eqb_spec size 0); [lia|rewrite andb_false_r; reflexivity]).
    specialize (Hrec _ (AtQuirk true w o st e0 k size bv rest Ek eq_refl Hk H1 H2 H3)).
    rewrite (dec_val_kerr e _ _ _ Ek) in Hrec. exact Hrec.
Qed.

Lemma sim_mut : (forall t, sim_at t) /\ (forall fs, sim_fields_at fs).
Proof.
  apply ty_fields_ind; unfold sim_at, sim_fields_at.
  - intros bits _ tg il w o st s Hs Hp _. cbn [dec_val s_val]. apply simres_rmap, uint_sim; assumption.
  - intros _ tg il w o st s Hs Hp _. cbn [dec_val s_val]. apply simres_rmap, big_sim; assumption.
  - intros _ tg il w o st s Hs Hp _. cbn [dec_val s_val]. apply simres_rmap, bool_sim; assumption.
  - intros _ tg il w o st s Hs Hp _. cbn [dec_val s_val]. apply simres_rmap, bytes_sim; assumption.
  - intros n _ tg il w o st s Hs Hp _. cbn [dec_val s_val]. apply simres_rmap, array_sim; assumption.
  - intros _ tg il w o st s Hs Hp _. cbn [dec_val s_val]. apply simres_rmap, bytes_sim; assumption.
  - (* lists *)
    intros e IH Ht tg il w o st s Hs Hp Htail. cbn [dec_val s_val tail_ok] in *.
    destruct (t_tail tg).
    + destruct (Htail eq_refl) as [-> ->].
      pose proof (typed_elem_ok (S (length w)) e IH Ht) as Hel.
      assert (Hfuel : (length w <= length (s_in (pos true w o st)))%nat) by (unfold pos; cbn [s_in]; rewrite app_length; lia).
      pose proof (slice_elems_sim _ _ _ Hel ltac:(lia) (length w) _ w o st Hs (le_n _) Hfuel ltac:(lia)) as Hse.
      destruct (slice_elems (dec_val e no_tag true) (length w) w) as [xs r a|e0 a] eqn:Ese; cbn [rmap simres].
      * apply slice_elems_rest_nil in Ese. subst r. rewrite Hse. reflexivity.
      * apply bad_smap. exact Hse.
    + apply simres_rmap. eapply dec_list_sim; [apply (typed_elem_ok (length w) e IH Ht)| |exact Hs|exact Hp].
      intros k size bv rest Ek. apply kind_ok_len in Ek. destruct Ek as [Hl _]. apply len_lt_length in Hl. lia.
  - (* structs *)
    intros fs IH Ht tg il w o st s Hs Hp _. cbn [dec_val s_val tail_ok] in *.
    rewrite s_list_eq, sbind_assoc. apply kind_sim; [exact Hs|exact Hp| |].
    + intros k size bv rest _ Hsz Hl. destruct k; [exact I|exact I|].
      rewrite list_good by (pose proof (sound_len _ _ _ _ Hs); lia). cbn [sbind].
      pose proof (sound_inner il w o st rest size Hs Hl Hsz) as Hin.
      specialize (IH Ht (take size rest) _ _ Hin).
      destruct (dec_fields fs (take size rest)) as [vs p' a|e a]; cbn [simres] in IH.
      * rewrite IH. cbn [sbind]. destruct p' as [|b p'].
        -- rewrite list_end_zero. reflexivity.
        -- rewrite list_end_nonzero. exact I.
      * apply (bad_then_list_end _ VStruct), IH.
    + intros e k size bv rest _ -> Hk H1 H2 H3. destruct k; [contradiction|exact I|].
      destruct (list_quirk w rest o st size bv Hs H1 H2 H3) as (s1 & -> & Hi & Hd). cbn [sbind].
      apply (bad_then_list_end _ VStruct). eapply bad_mono; [exact Hi|exact Hd|apply (proj2 mono_val_mut), Hi].
  - (* pointers *)
    intros e IH Ht tg il w o st s Hs Hp _. cbn [tail_ok] in Ht.
    assert (Hrec : forall s', at_pos il w o st s' -> simres il o st (rmap VPtr (dec_val e no_tag il w)) (smap VPtr (s_val e no_tag s'))).
    { intros s' Hp'. apply simres_rmap, IH; [exact Ht|exact Hs|exact Hp'|discriminate]. }
    destruct (t_nil tg) eqn:En.
    2-4: apply ptr_nil_sim; [exact Hrec|rewrite En; discriminate|exact Hs|exact Hp].
    cbn [dec_val s_val]. rewrite En. apply Hrec, Hp.
  - intros _ tg il w o st s Hs Hp _. cbn [dec_val s_val]. apply simres_rmap, raw_sim; assumption.
  - (* interface{} *)
    intros _ tg il w o st s Hs Hp _. cbn [dec_val s_val]. apply simres_rmap, item_sim; [lia| |exact Hs|exact Hp].
    intros k size bv rest Ek.
    destruct Hp as [|k' size' bv' rest' Ek'|e k' size' bv' rest' Ek'].
    + apply kind_ok_len in Ek. destruct Ek as [Hl _]. apply len_lt_length in Hl.
      unfold pos. cbn [s_in]. rewrite app_length. lia.
    + rewrite Ek in Ek'. injection Ek' as _ _ _ <-. unfold kpos. cbn [s_in]. rewrite app_length. lia.
    + rewrite Ek in Ek'. discriminate.
  - (* no fields *)
    intros _ p o st Hs. cbn [dec_fields s_fields simres]. reflexivity.
  - (* a field *)
    intros t IHt tg r IHr [Ht [Htl Hr]] p o st Hs. cbn [dec_fields s_fields].
    destruct (t_ignored tg).
    { apply simres_rmap. apply IHr; assumption. }
    assert (IHr' : forall p', len p' <= len p -> simres true o st (dec_fields r p') (s_fields r (pos true p' o st))).
    { intros p' Hle. apply IHr; [exact Hr|eapply sound_shrink; eassumption]. }
    destruct (t_tail tg) eqn:Etl.
    + destruct (Htl eq_refl) as [e ->].
      apply field_sim; [exact IHr'| |apply IHt; [exact Ht|exact Hs|apply AtFresh|intros _; split; reflexivity]].
      cbn [s_val]. rewrite Etl. apply noeol_smap, noeol_slice_elems.
    + destruct p as [|b p1].
      * rewrite (val_at_zero t tg (pos true [] o st) st Etl eq_refl eq_refl).
        destruct (t_optional tg); cbn [simres]; [reflexivity|exact I].
      * apply field_sim; [exact IHr'| |apply IHt; [exact Ht|exact Hs|apply AtFresh|congruence]].
        apply no_eol_at_nonempty, (proj1 eol_val_mut).
Qed.

(** The refinement at top level: on an input shorter than 2^64 bytes the machine started on the whole input
    returns what the window decoder returns and stands on the window decoder's rest; where the window decoder
    fails the machine fails too, because it would have to stop with an empty stack while doomed *)
Lemma top_sim t w : tail_ok t -> len w < two64 ->
  match dec_val t no_tag false w with
  | Ok v w' _ => s_val t no_tag (mkS w [] None) = SOk v (mkS w' [] None)
  | Err _ _ => exists e, s_val t no_tag (mkS w [] None) = SErr e
  end.
Proof.
  intros Ht Hl.
  assert (E0 : forall b, pos false b [] [] = mkS b [] None) by (intros b; unfold pos; cbn [stk]; rewrite app_nil_r; reflexivity).
  assert (Hs : sound false w [] []).
  { split; [rewrite app_nil_r; exact Hl|]. split; [cbn; lia|]. split; [constructor|auto]. }
  pose proof (proj1 sim_mut t Ht no_tag false w [] [] _ Hs (AtFresh _ _ _ _) ltac:(discriminate)) as Hsim.
  pose proof (proj1 mono_val_mut t no_tag _ (inv_pos _ _ _ _ Hs)) as Hm.
  rewrite E0 in *.
  destruct (dec_val t no_tag false w) as [v w' a|e a]; cbn [simres] in Hsim; [rewrite E0 in Hsim; exact Hsim|].
  destruct (s_val t no_tag (mkS w [] None)) as [v1 s1|e1]; [exfalso|eauto].
  destruct Hsim as [_ Hd]. destruct Hm as (_ & Hsh & _).
  unfold shape in Hsh. cbn [s_stack] in Hsh. unfold doomed in Hd.
  destruct (s_stack s1); [cbn in Hd; lia|contradiction].
Qed.

(** DecodeBytes through the literal Stream accepts exactly what the window decoder accepts, with the
    same value (input shorter than 2^64 bytes, tail tags on slices) *)
Theorem stream_refines_window t bs v :
  tail_ok t -> len bs < two64 ->
  ((exists s, stream_decode_bytes t bs = SOk v s) <-> (exists a, decode_bytes t bs = Ok v [] a)).
Proof.
  intros Ht Hl. unfold stream_decode_bytes, decode_bytes.
  pose proof (top_sim t bs Ht Hl) as Hsim.
  destruct (dec_val t no_tag false bs) as [v' w' a|e a]; cbn [exactly_one].
  - rewrite Hsim. cbn [s_in]. destruct w' as [|b w'].
    + split; [intros [s H]; injection H as <- _|intros [a' H]; injection H as <- _]; eauto.
    + split; intros [? H]; discriminate H.
  - destruct Hsim as [e' ->]. split; intros [? H]; discriminate H.
Qed.

(** without [tail_ok] the two transcriptions differ: a tail tag on a non-slice field (which
    rlpstruct.ProcessFields rejects before any decoder exists) *)
Definition ty_bad_tail : ty := TStruct (FCons (TUint 8) (mkTag true true false NoNil) FNil).
Lemma stream_window_differ_on_illformed :
  (exists s, stream_decode_bytes ty_bad_tail [Nb 192] = SOk (VStruct [VUint 0]) s) /\
  decode_bytes ty_bad_tail [Nb 192] = Err EEOL 0.
Proof. split; [eexists; vm_compute; reflexivity|vm_compute; reflexivity]. Qed.

(** several values in a row: both transcriptions deliver the same values before they stop *)
Lemma stream_seq_values t : tail_ok t -> forall fuel w, len w < two64 ->
  fst (stream_decode_seq t fuel (mkS w [] None)) = fst (decode_seq t fuel w).
Proof.
  intros Ht. induction fuel as [|f IH]; intros w Hl; [reflexivity|]. cbn [stream_decode_seq decode_seq].
  pose proof (top_sim t w Ht Hl) as Hsim.
  destruct (dec_val t no_tag false w) as [v w' a|e a] eqn:Ed.
  - rewrite Hsim. apply typed_size_bound_len in Ed.
    specialize (IH w' ltac:(lia)).
    destruct (stream_decode_seq t f (mkS w' [] None)), (decode_seq t f w'). cbn [fst] in *. congruence.
  - destruct Hsim as [e' ->]. reflexivity.
Qed.
Lemma stream_decode_all_values t bs : tail_ok t -> len bs < two64 ->
  fst (stream_decode_all t bs) = fst (decode_all t bs).
Proof. intros Ht Hl. apply stream_seq_values; assumption. Qed.
