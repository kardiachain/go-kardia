(** C16 — typed round trip: dec_val t (enc_val t v ++ rest) = v for values in normal form
    ([wf_val]), over the whole type universe, tags included. *)
From Coq Require Import List ZArith NArith Bool Lia Arith.
From Coq Require Import Init.Byte.
From Kardia Require Import C16.Model C16.ProofsBase C16.ProofsItem C16.ProofsCanon.
Import ListNotations.
Local Open Scope N_scope.

(** a RawValue holding exactly one item header + payload (content not inspected) *)
Definition raw_shape (b : bytes) : Prop :=
  (exists x, b = [x] /\ bN x < 128) \/
  (exists p, fits64 (len p) /\ (b = str_head (len p) ++ p \/ b = list_head (len p) ++ p)).

(** the encoding does not start with an empty-string / empty-list header *)
Definition not_empty_enc (b : bytes) : Prop :=
  forall x r, b = x :: r -> bN x <> 128 /\ bN x <> 192.

Fixpoint all_ignored_zero (fs : fields) (vs : list val) : Prop :=
  match fs with
  | FNil => vs = []
  | FCons t tg r => exists vs', vs = zero_val t :: vs' /\ t_ignored tg = true /\ all_ignored_zero r vs'
  end.

(** [wf_val t tg v]: v is a value the decoder of (t, tg) can return and re-create:
    uints fit their width; no nil slices / big ints / interfaces; a nil pointer only under a
    nil tag, and then a non-nil pointer does not point to something with an empty encoding;
    ignored fields are zero.  [wf_fields] also carries the validity of the struct type
    (rlpstruct.ProcessFields): after the first optional field every field is optional or the
    tail; the tail is a slice, is not optional, and only ignored fields follow it. *)
Fixpoint wf_val (t : ty) (tg : tag) (v : val) {struct t} : Prop :=
  match t with
  | TUint bits => exists n, v = VUint n /\ n < 256 ^ (bits / 8)
  | TBig => exists n, v = VUint n
  | TBool => exists b, v = VBool b
  | TBytes | TString => exists b, v = VBytes b
  | TArray n => exists b, v = VBytes b /\ len b = n
  | TRaw => exists b, v = VBytes b /\ raw_shape b
  | TIface => exists x, v = VItem x
  | TList e => exists l, v = VList l /\ Forall (wf_val e no_tag) l
  | TPtr e =>
    (v = VNil /\ t_nil tg <> NoNil) \/
    (exists w, v = VPtr w /\ wf_val e no_tag w /\
               (t_nil tg <> NoNil -> not_empty_enc (enc_val e no_tag w)))
  | TStruct fs => exists vs, v = VStruct vs /\ wf_fields fs false vs
  end
with wf_fields (fs : fields) (io : bool) (vs : list val) {struct fs} : Prop :=
  match fs with
  | FNil => vs = []
  | FCons t tg r =>
    exists v vs', vs = v :: vs' /\
    if t_ignored tg then v = zero_val t /\ wf_fields r io vs'
    else if t_tail tg then
      t_optional tg = false /\ (exists e, t = TList e) /\ wf_val t tg v /\ all_ignored_zero r vs'
    else
      (io = true -> t_optional tg = true) /\ wf_val t tg v /\ wf_fields r (io || t_optional tg) vs'
  end.

Lemma fits64_le a b : a <= b -> fits64 b -> fits64 a.
Proof. unfold fits64. lia. Qed.

Lemma dec_uint_enc bits il n rest :
  n < 256 ^ (bits / 8) -> fits64 (len (enc_uint n)) ->
  dec_uint bits il (enc_uint n ++ rest) = Ok n rest 0.
Proof.
  intros Hn Hf. unfold enc_uint in *.
  assert (Hfb : fits64 (len (be_bytes n))) by (eapply fits64_le; [apply len_enc_str_ge|exact Hf]).
  pose proof (be_bytes_len_le n _ Hn) as Hle.
  destruct (enc_str_cases (be_bytes n)) as [(x & E & Hx & ->)|(Hne & ->)].
  - cbn [app]. unfold dec_uint. rewrite read_kind_byte by assumption.
    pose proof (be_bytes_single _ _ E) as En. subst n.
    destruct (N.eqb_spec (bN x) 0) as [Hz|]; [|reflexivity].
    exfalso. rewrite Hz in E. discriminate E.
  - rewrite <- app_assoc. unfold dec_uint.
    rewrite read_kind_str_head by (rewrite ?len_app; unfold fits64 in *; lia).
    destruct (N.ltb_spec (bits / 8) (len (be_bytes n))); [lia|].
    rewrite read_uint_be.
    destruct (N.ltb_spec 0 (len (be_bytes n))) as [Hpos|]; cbn [andb]; [|reflexivity].
    destruct (N.ltb_spec n 128) as [Hsmall|]; [|reflexivity].
    exfalso.
    assert (Hn0 : n <> 0) by (intro; subst; cbn in Hpos; lia).
    destruct (be_bytes_small n Hn0 ltac:(lia)) as (x & E & Hx).
    specialize (Hne x E). lia.
Qed.

Lemma dec_big_enc il n rest :
  fits64 (len (enc_uint n)) -> exists a, dec_big il (enc_uint n ++ rest) = Ok n rest a.
Proof.
  intros Hf. unfold enc_uint in *.
  assert (Hfb : fits64 (len (be_bytes n))) by (eapply fits64_le; [apply len_enc_str_ge|exact Hf]).
  destruct (enc_str_cases (be_bytes n)) as [(x & E & Hx & ->)|(Hne & ->)].
  - cbn [app]. unfold dec_big. rewrite read_kind_byte by assumption.
    pose proof (be_bytes_single _ _ E) as En. subst n.
    destruct (N.eqb_spec (bN x) 0) as [Hz|]; [|eauto].
    exfalso. rewrite Hz in E. discriminate E.
  - rewrite <- app_assoc. unfold dec_big.
    rewrite read_kind_str_head by (rewrite ?len_app; unfold fits64 in *; lia).
    destruct (N.eqb_spec (len (be_bytes n)) 0) as [E0|Hnz].
    + apply len_0 in E0. rewrite E0. apply be_bytes_nil in E0. subst. cbn [app]. eauto.
    + rewrite take_app_len, drop_app_len, be_val_bytes.
      assert (Hn0 : n <> 0) by (intro; subst; apply Hnz; reflexivity).
      pose proof (be_bytes_hd n Hn0) as Hhd.
      destruct (N.eqb_spec (bN (hd x00 (be_bytes n))) 0); [contradiction|].
      rewrite not_wrapped_byte by exact Hne. eauto.
Qed.

Lemma dec_bool_enc il (b : bool) rest :
  dec_bool il ((if b then [Nb 1] else [Nb 128]) ++ rest) = Ok b rest 0.
Proof.
  unfold dec_bool. destruct b.
  - change [Nb 1] with (enc_uint 1). rewrite (dec_uint_enc 8 il 1 rest); [reflexivity|cbn; lia|vm_compute; reflexivity].
  - change [Nb 128] with (enc_uint 0). rewrite (dec_uint_enc 8 il 0 rest); [reflexivity|cbn; lia|vm_compute; reflexivity].
Qed.

Lemma dec_array_enc il b rest :
  fits64 (len b) -> dec_array (len b) il (enc_str b ++ rest) = Ok b rest 0.
Proof.
  intros Hf. destruct (enc_str_cases b) as [(x & -> & Hx & ->)|(Hne & ->)].
  - cbn [app]. unfold dec_array. rewrite read_kind_byte by assumption. reflexivity.
  - rewrite <- app_assoc. unfold dec_array.
    rewrite read_kind_str_head by (rewrite ?len_app; unfold fits64 in *; lia).
    rewrite N.ltb_irrefl, take_app_len, drop_app_len, not_wrapped_byte by exact Hne. reflexivity.
Qed.

Lemma dec_raw_enc il b rest : raw_shape b -> exists a, dec_raw il (b ++ rest) = Ok b rest a.
Proof.
  intros [(x & -> & Hx)|(p & Hf & [->| ->])]; unfold dec_raw.
  - cbn [app]. rewrite read_kind_byte by assumption. eauto.
  - rewrite <- app_assoc. rewrite read_kind_str_head by (rewrite ?len_app; unfold fits64 in *; lia).
    rewrite take_app_len, drop_app_len. eauto.
  - rewrite <- app_assoc. rewrite read_kind_list_head by (rewrite ?len_app; unfold fits64 in *; lia).
    rewrite take_app_len, drop_app_len. eauto.
Qed.

Lemma nil_kind_cases e tg : nil_kind e tg = KString \/ nil_kind e tg = KList.
Proof. unfold nil_kind, default_nil. destruct (t_nil tg), e; auto. Qed.

Lemma read_kind_not_empty il x r k size bv rest :
  read_kind il (x :: r) = KOk k size bv rest -> bN x <> 128 -> bN x <> 192 ->
  negb (kind_eqb k KByte) && (size =? 0) = false.
Proof.
  intros Ek H1 H2. apply read_kind_canon in Ek.
  destruct (N.eqb_spec size 0) as [->|]; [|rewrite andb_false_r; reflexivity].
  inversion Ek; subst; [reflexivity| |];
    match goal with E : _ :: _ = _ |- _ => cbn in E; injection E as -> _ end;
    exfalso; [apply H1|apply H2]; first [reflexivity | apply bN_Nb; lia].
Qed.

(** every typed decoder (without a tail tag) starts by reading a header: where that fails, it fails alike *)
Lemma dec_val_kerr : forall t il bs e, read_kind il bs = KErr e -> dec_val t no_tag il bs = Err e 0.
Proof.
  induction t; intros il bs e E; cbn [dec_val no_tag t_tail t_nil dec_item];
    unfold dec_bool, dec_uint, dec_big, dec_bytes, dec_array, dec_raw, dec_list; rewrite ?E; try reflexivity.
  rewrite (IHt _ _ _ E). reflexivity.
Qed.

Lemma forallb_zero_repeat b : forallb is_zero_byte b = true -> b = repeat x00 (length b).
Proof.
  induction b as [|x b IH]; [reflexivity|]. cbn [forallb]. intros HH.
  apply andb_prop in HH. destruct HH as [Hx Hb]. cbn [length repeat]. f_equal; [|apply IH; exact Hb].
  unfold is_zero_byte in Hx. apply N.eqb_eq in Hx. apply bN_inj. exact Hx.
Qed.

Definition zero_at (t : ty) : Prop :=
  forall tg v, wf_val t tg v -> is_zero t v = true -> v = zero_val t.
Definition zero_fields_at (fs : fields) : Prop :=
  forall io vs, wf_fields fs io vs -> is_zero_fields fs vs = true -> vs = zero_fields fs.

Lemma zero_mut : (forall t, zero_at t) /\ (forall fs, zero_fields_at fs).
Proof.
  apply ty_fields_ind; unfold zero_at, zero_fields_at.
  - intros bits tg v (n & -> & _) HH. cbn in HH. apply N.eqb_eq in HH. subst. reflexivity.
  - intros tg v (n & ->) HH. discriminate HH.
  - intros tg v (b & ->) HH. destruct b; [discriminate HH|reflexivity].
  - intros tg v (b & ->) HH. discriminate HH.
  - intros n tg v (b & -> & Hl) HH. cbn in HH. apply forallb_zero_repeat in HH.
    cbn [zero_val]. rewrite <- Hl. unfold len. rewrite Nat2N.id. f_equal. exact HH.
  - intros tg v (b & ->) HH. destruct b; [reflexivity|discriminate HH].
  - intros e _ tg v (l & -> & _) HH. discriminate HH.
  - intros fs IH tg v (vs & -> & Hw) HH. cbn in HH. cbn [zero_val]. f_equal. eapply IH; eassumption.
  - intros e _ tg v [(-> & _)|(w & -> & _)] HH; [reflexivity|discriminate HH].
  - intros tg v (b & -> & _) HH. discriminate HH.
  - intros tg v (x & ->) HH. discriminate HH.
  - intros io vs Hw _. cbn in Hw. subst. reflexivity.
  - intros t IHt tg r IHr io vs Hw HH. cbn [wf_fields] in Hw.
    destruct Hw as (v & vs' & -> & Hw). cbn [is_zero_fields] in HH.
    apply andb_prop in HH. destruct HH as [Hz Hzr]. cbn [zero_fields].
    destruct (t_ignored tg).
    + destruct Hw as [-> Hw]. f_equal. eapply IHr; eassumption.
    + destruct (t_tail tg).
      * destruct Hw as (_ & (e & ->) & (l & -> & _) & _). discriminate Hz.
      * destruct Hw as (_ & Hwv & Hwr). f_equal; [eapply IHt|eapply IHr]; eassumption.
Qed.

Lemma enc_nonempty : forall t tg v, wf_val t tg v -> t_tail tg = false -> enc_val t tg v <> [].
Proof.
  induction t; intros tg v Hw Ht; cbn [wf_val] in Hw; cbn [enc_val].
  - destruct Hw as (n & -> & _). apply enc_str_nonempty.
  - destruct Hw as (n & ->). apply enc_str_nonempty.
  - destruct Hw as (b & ->). destruct b; discriminate.
  - destruct Hw as (b & ->). apply enc_str_nonempty.
  - destruct Hw as (b & -> & _). apply enc_str_nonempty.
  - destruct Hw as (b & ->). apply enc_str_nonempty.
  - destruct Hw as (l & -> & _). rewrite Ht. destruct l; [discriminate|apply head_app_nonempty].
  - destruct Hw as (vs & -> & _). apply head_app_nonempty.
  - destruct Hw as [(-> & _)|(w & -> & Hw & _)].
    + destruct (nil_kind t tg); discriminate.
    + apply IHt; [exact Hw|reflexivity].
  - destruct Hw as (b & -> & [(x & -> & _)|(p & _ & [->| ->])]); [discriminate|apply head_app_nonempty..].
  - destruct Hw as (x & ->). apply encode_nonempty.
Qed.

(** fields that are all ignored *)
Lemma all_ignored_enc r : forall io vs, all_ignored_zero r vs -> enc_fields r io vs = [].
Proof.
  induction r as [|t tg r IH]; intros io vs Hw; cbn in Hw.
  - subst. reflexivity.
  - destruct Hw as (vs' & -> & Hi & Hw). cbn [enc_fields]. rewrite Hi. apply IH. exact Hw.
Qed.

Lemma all_ignored_dec r : forall vs p, all_ignored_zero r vs -> dec_fields r p = Ok vs p 0.
Proof.
  induction r as [|t tg r IH]; intros vs p Hw; cbn in Hw.
  - subst. reflexivity.
  - destruct Hw as (vs' & -> & Hi & Hw). cbn [dec_fields]. rewrite Hi. rewrite (IH vs' p Hw). reflexivity.
Qed.

(** when every remaining field has been dropped by the encoder, the decoder re-creates them as
    zero values at the end of the list *)
Lemma all_dropped r : forall io vs,
  wf_fields r io vs -> trim_tail (enc_fields r io vs) = [] ->
  vs = zero_fields r /\ dec_fields r [] = Ok (zero_fields r) [] 0.
Proof.
  induction r as [|t tg r IH]; intros io vs Hw HT; cbn [wf_fields] in Hw.
  - subst. split; reflexivity.
  - destruct Hw as (v & vs' & -> & Hw). cbn [enc_fields dec_fields zero_fields] in *.
    destruct (t_ignored tg).
    + destruct Hw as [-> Hw]. destruct (IH io vs' Hw HT) as [-> Hd]. rewrite Hd. split; reflexivity.
    + destruct (t_tail tg) eqn:Et.
      * exfalso. destruct Hw as (_ & (e & ->) & (l & -> & _) & _).
        cbn [is_zero] in HT. rewrite andb_false_r in HT. cbn [trim_tail] in HT.
        destruct (trim_tail _); discriminate HT.
      * destruct Hw as (Hio & Hwv & Hwr). cbn [trim_tail] in HT.
        destruct (trim_tail (enc_fields r (io || t_optional tg) vs')) eqn:ER; [|discriminate HT].
        destruct ((io || t_optional tg) && is_zero t v) eqn:Ez; [|discriminate HT].
        apply andb_prop in Ez. destruct Ez as [Hio' Hz].
        assert (Hopt : t_optional tg = true).
        { destruct io; [apply Hio; reflexivity|exact Hio']. }
        rewrite Hopt. destruct (IH _ vs' Hwr ER) as [-> _].
        rewrite (proj1 zero_mut t tg v Hwv Hz). split; reflexivity.
Qed.

(* a tail slice takes its whole window, so it round-trips only with nothing after it *)
Definition rt_at (t : ty) : Prop :=
  forall tg v il rest, wf_val t tg v -> fits64 (len (enc_val t tg v)) ->
    (t_tail tg = false \/ rest = []) ->
    exists a, dec_val t tg il (enc_val t tg v ++ rest) = Ok v rest a.
Definition rt_fields_at (fs : fields) : Prop :=
  forall io vs, wf_fields fs io vs ->
    fits64 (len (concat (trim_tail (enc_fields fs io vs)))) ->
    exists a, dec_fields fs (concat (trim_tail (enc_fields fs io vs))) = Ok vs [] a.

Lemma rmap_ex {A B} (g : A -> B) (r : res A) v rest :
  (exists a, r = Ok v rest a) -> exists a, rmap g r = Ok (g v) rest a.
Proof. intros [a ->]. cbn. eauto. Qed.

Lemma ptr_nil_enc e tg v il rest
  (IH : forall w, v = VPtr w -> wf_val e no_tag w ->
        exists a, dec_val e no_tag il (enc_val e no_tag w ++ rest) = Ok w rest a) :
  wf_val (TPtr e) tg v -> t_nil tg <> NoNil ->
  exists a, dec_val (TPtr e) tg il (enc_val (TPtr e) tg v ++ rest) = Ok v rest a.
Proof.
  intros Hw Hn. rewrite dec_val_ptr_nil by exact Hn. cbn [wf_val] in Hw. destruct Hw as [(-> & _)|(w & -> & Hw & Hne)].
  - cbn [enc_val]. destruct (nil_kind_cases e tg) as [Ek|Ek]; rewrite Ek.
    + change [Nb 128] with (str_head 0).
      rewrite read_kind_str_head by (unfold fits64, two64; lia). cbn. eauto.
    + change [Nb 192] with (list_head 0).
      rewrite read_kind_list_head by (unfold fits64, two64; lia). cbn. eauto.
  - cbn [enc_val]. destruct (IH w eq_refl Hw) as [a Hd].
    destruct (read_kind il (enc_val e no_tag w ++ rest)) as [k size bv r|er] eqn:Ek;
      [|rewrite (dec_val_kerr _ _ _ _ Ek) in Hd; discriminate Hd].
    pose proof (enc_nonempty e no_tag w Hw eq_refl) as Hnn.
    destruct (enc_val e no_tag w) as [|x r0] eqn:Ee; [contradiction|].
    destruct (Hne Hn x r0 eq_refl) as [H1 H2].
    cbn [app] in Ek. rewrite (read_kind_not_empty _ _ _ _ _ _ _ Ek H1 H2).
    rewrite Hd. cbn. eauto.
Qed.

Lemma typed_rt_mut : (forall t, rt_at t) /\ (forall fs, rt_fields_at fs).
Proof.
  apply ty_fields_ind; unfold rt_at, rt_fields_at.
  - (* TUint *) intros bits tg v il rest (n & -> & Hn) Hf _. cbn [enc_val dec_val] in *.
    rewrite dec_uint_enc by assumption. cbn. eauto.
  - (* TBig *) intros tg v il rest (n & ->) Hf _. cbn [enc_val dec_val] in *.
    apply rmap_ex. apply dec_big_enc. exact Hf.
  - (* TBool *) intros tg v il rest (b & ->) Hf _. cbn [dec_val].
    replace (enc_val TBool tg (VBool b)) with (if b then [Nb 1] else [Nb 128]) by (destruct b; reflexivity).
    rewrite dec_bool_enc. cbn. eauto.
  - (* TBytes *) intros tg v il rest (b & ->) Hf _. cbn [enc_val dec_val] in *.
    apply rmap_ex. apply dec_bytes_enc. eapply fits64_le; [apply len_enc_str_ge|exact Hf].
  - (* TArray *) intros n tg v il rest (b & -> & <-) Hf _. cbn [enc_val dec_val] in *.
    rewrite dec_array_enc by (eapply fits64_le; [apply len_enc_str_ge|exact Hf]). cbn. eauto.
  - (* TString *) intros tg v il rest (b & ->) Hf _. cbn [enc_val dec_val] in *.
    apply rmap_ex. apply dec_bytes_enc. eapply fits64_le; [apply len_enc_str_ge|exact Hf].
  - (* TList *) intros e IH tg v il rest (l & -> & Hall) Hf Hrest. cbn [enc_val dec_val] in *.
    assert (Helem : forall p : bytes, fits64 (len p) -> len (flat_map (enc_val e no_tag) l) <= len p ->
              forall x, In x l -> enc_val e no_tag x <> [] /\
                forall rest0, exists a, dec_val e no_tag true (enc_val e no_tag x ++ rest0) = Ok x rest0 a).
    { intros p Hfp Hle x Hx. rewrite Forall_forall in Hall. split.
      - apply enc_nonempty; [apply Hall; exact Hx|reflexivity].
      - intros rest0. apply IH; [apply Hall; exact Hx| |left; reflexivity].
        pose proof (in_flat_map_len (enc_val e no_tag) x l Hx). unfold fits64 in *. lia. }
    destruct (t_tail tg) eqn:Et.
    + destruct Hrest as [Hc| ->]; [discriminate Hc|]. rewrite app_nil_r. apply rmap_ex.
      apply slice_elems_enc; [|apply le_n]. apply (Helem _ Hf). lia.
    + apply rmap_ex.
      assert (Hfp : fits64 (len (flat_map (enc_val e no_tag) l))).
      { destruct l as [|x l']; [unfold fits64, two64; cbn; lia|].
        pose proof (len_enc_list_gt (flat_map (enc_val e no_tag) (x :: l'))). unfold fits64 in *. lia. }
      assert (Hgoal : exists a, dec_list (dec_val e no_tag true) il
                        (enc_list (flat_map (enc_val e no_tag) l) ++ rest) = Ok l rest a).
      { apply dec_list_enc; [|exact Hfp]. apply (Helem _ Hfp). lia. }
      destruct l; exact Hgoal.
  - (* TStruct *) intros fs IH tg v il rest (vs & -> & Hw) Hf _. cbn [enc_val dec_val] in *.
    set (P := concat (trim_tail (enc_fields fs false vs))) in *.
    pose proof (len_enc_list_gt P) as Hgt.
    assert (HfP : fits64 (len P)) by (unfold fits64 in *; lia).
    unfold enc_list. rewrite <- app_assoc.
    rewrite read_kind_list_head by (rewrite ?len_app; unfold fits64 in *; lia).
    rewrite take_app_len, drop_app_len.
    destruct (IH false vs Hw HfP) as [a Hd]. fold P in Hd. rewrite Hd. eauto.
  - (* TPtr *) intros e IH tg v il rest Hw Hf _.
    assert (IHw : forall w, v = VPtr w -> wf_val e no_tag w ->
              exists a, dec_val e no_tag il (enc_val e no_tag w ++ rest) = Ok w rest a).
    { intros w -> Hww. apply IH; [exact Hww| |left; reflexivity]. exact Hf. }
    destruct (t_nil tg) eqn:En.
    2-4: apply ptr_nil_enc; [exact IHw|exact Hw|rewrite En; discriminate].
    cbn [dec_val]. rewrite En. cbn [wf_val] in Hw. destruct Hw as [(_ & Hc)|(w & -> & Hww & _)]; [rewrite En in Hc; contradiction|].
    cbn [enc_val]. apply rmap_ex. apply IHw; [reflexivity|exact Hww].
  - (* TRaw *) intros tg v il rest (b & -> & Hs) Hf _. cbn [enc_val dec_val] in *.
    apply rmap_ex. apply dec_raw_enc. exact Hs.
  - (* TIface *) intros tg v il rest (x & ->) Hf _. cbn [enc_val dec_val] in *.
    apply rmap_ex. apply dec_item_enc; [rewrite app_length; lia|exact Hf].
  - (* FNil *) intros io vs Hw _. cbn in Hw. subst. cbn. eauto.
  - (* FCons *) intros t IHt tg r IHr io vs Hw Hf. cbn [wf_fields] in Hw.
    destruct Hw as (v & vs' & -> & Hw). cbn [enc_fields dec_fields] in *.
    destruct (t_ignored tg).
    + destruct Hw as [-> Hw]. apply rmap_ex. apply IHr; assumption.
    + destruct (t_tail tg) eqn:Et.
      * destruct Hw as (Hopt & (e & ->) & Hwv & Hign).
        rewrite (all_ignored_enc r _ vs' Hign) in *.
        destruct Hwv as (l & -> & Hall). cbn [is_zero] in *. rewrite andb_false_r in *.
        cbn [trim_tail concat] in *. rewrite app_nil_r in *.
        destruct (IHt tg (VList l) true [] (ex_intro _ l (conj eq_refl Hall)) Hf (or_intror eq_refl)) as [a Hd].
        rewrite app_nil_r in Hd. rewrite Hd. cbn [bind].
        rewrite (all_ignored_dec r vs' [] Hign). cbn. eauto.
      * destruct Hw as (Hio & Hwv & Hwr).
        pose proof (enc_nonempty t tg v Hwv Et) as Hne.
        cbn [trim_tail] in *.
        destruct (trim_tail (enc_fields r (io || t_optional tg) vs')) as [|e1 R] eqn:ER.
        { destruct ((io || t_optional tg) && is_zero t v) eqn:Ez.
          - (* everything from here on was dropped *)
            cbn [concat]. apply andb_prop in Ez. destruct Ez as [Hio' Hz].
            assert (Hopt : t_optional tg = true).
            { destruct io; [apply Hio; reflexivity|exact Hio']. }
            rewrite Hopt. destruct (all_dropped r _ vs' Hwr ER) as [-> _].
            rewrite (proj1 zero_mut t tg v Hwv Hz). cbn [zero_fields]. eauto.
          - (* this is the last encoded field *)
            cbn [concat] in *. rewrite app_nil_r in *.
            destruct (enc_val t tg v) as [|x0 e0] eqn:Ee; [contradiction|]. rewrite <- Ee in *.
            destruct (IHt tg v true [] Hwv Hf (or_introl Et)) as [a Hd].
            rewrite app_nil_r in Hd.
            destruct (all_dropped r _ vs' Hwr ER) as [Hvs Hdr].
            rewrite Ee in *. rewrite Hd. cbn [bind]. rewrite Hdr, <- Hvs. cbn. eauto. }
        { (* more fields follow *)
          cbn [concat] in *.
          assert (HfR : fits64 (len (concat (e1 :: R)))) by (rewrite len_app in Hf; unfold fits64 in *; cbn [concat] in *; lia).
          assert (Hfe : fits64 (len (enc_val t tg v))) by (rewrite len_app in Hf; unfold fits64 in *; lia).
          destruct (IHt tg v true (concat (e1 :: R)) Hwv Hfe (or_introl Et)) as [a Hd].
          destruct (IHr _ vs' Hwr) as [a' Hdr]; [rewrite ER; exact HfR|]. rewrite ER in Hdr.
          cbn [concat] in *.
          destruct (enc_val t tg v ++ e1 ++ concat R) as [|x0 p0] eqn:Ep.
          { apply app_eq_nil in Ep. destruct Ep. contradiction. }
          rewrite Hd. cbn [bind]. rewrite Hdr. cbn. eauto. }
Qed.

Lemma typed_roundtrip t v il rest :
  wf_val t no_tag v -> len (enc_val t no_tag v) < two64 ->
  exists a, dec_val t no_tag il (enc_val t no_tag v ++ rest) = Ok v rest a.
Proof. intros Hw Hf. apply (proj1 typed_rt_mut t); [exact Hw|exact Hf|left; reflexivity]. Qed.

Lemma typed_decode_bytes_roundtrip t v :
  wf_val t no_tag v -> len (encode_to_bytes t v) < two64 ->
  exists a, decode_bytes t (encode_to_bytes t v) = Ok v [] a.
Proof.
  intros Hw Hf. unfold decode_bytes, encode_to_bytes in *.
  destruct (typed_roundtrip t v false [] Hw Hf) as [a Hd]. rewrite app_nil_r in Hd.
  rewrite Hd. cbn. eauto.
Qed.

(** a struct using every tag: {A uint64; P *uint64 `nil`; I [2]byte `-`; O uint8 `optional`;
    T []uint16 `tail`} with O = 0 kept because the tail follows *)
Definition ty_all : ty :=
  TStruct (FCons (TUint 64) no_tag
          (FCons (TPtr (TUint 64)) (mkTag false false false NilAuto)
          (FCons (TArray 2) (mkTag false false true NoNil)
          (FCons (TUint 8) (mkTag true false false NoNil)
          (FCons (TList (TUint 16)) (mkTag false true false NoNil) FNil))))).
Definition val_all : val :=
  VStruct [VUint 1024; VNil; VBytes [x00; x00]; VUint 0; VList [VUint 7; VUint 300]].

Lemma typed_example :
  wf_val ty_all no_tag val_all /\
  decode_bytes ty_all (encode_to_bytes ty_all val_all) = Ok val_all [] 0.
Proof.
  split; [|vm_compute; reflexivity].
  cbn. eexists. split; [reflexivity|].
  eexists _, _. split; [reflexivity|]. cbn. split; [discriminate|]. split; [exists 1024; split; [reflexivity|lia]|].
  eexists _, _. split; [reflexivity|]. cbn. split; [discriminate|]. split; [left; split; [reflexivity|discriminate]|].
  eexists _, _. split; [reflexivity|]. cbn. split; [reflexivity|].
  eexists _, _. split; [reflexivity|]. cbn. split; [reflexivity|]. split; [exists 0; split; [reflexivity|lia]|].
  eexists _, _. split; [reflexivity|]. cbn. split; [reflexivity|]. split; [eauto|].
  split; [|reflexivity].
  eexists. split; [reflexivity|]. repeat constructor; eexists; (split; [reflexivity|cbn; lia]).
Qed.
