(** C16 — property theorems only.  Each is closed by [exact] of a lemma proved in Proofs*.v
    and followed by [Print Assumptions].

    [decode] is the decoder of one RLP item on a byte string (decodeInterface through the
    window decoder, fuel = input length + 1); a result [Ok x rest alloc] carries the
    undecoded rest and the allocation measure. *)
From Coq Require Import List ZArith NArith Bool.
From Coq Require Import Init.Byte.
From Kardia Require Import C16.Model C16.ProofsBase C16.ProofsItem C16.Proofs C16.ProofsTyped
  C16.ProofsCanon C16.ProofsRoundtrip C16.ProofsRaw C16.ProofsBound C16.ProofsExtra C16.ProofsStream C16.ProofsEncBuf C16.SourceTie.
Import ListNotations.
Local Open Scope N_scope.

(** decoding the encoding of any item (followed by anything) returns the item and the
    untouched rest; the only hypothesis is that the encoding is shorter than 2^64 bytes
    (sizes are uint64 in the implementation) *)
Theorem C16_decode_encode :
  forall x rest, len (encode x) < two64 -> exists a, decode (encode x ++ rest) = Ok x rest a.
Proof. exact decode_encode. Qed.
Print Assumptions C16_decode_encode.

(** an accepted byte string IS the encoding of the value it decodes to, followed by the rest:
    leading zeros in lengths, long-form headers for short payloads, single bytes wrapped as
    strings, missing bytes are all rejected by this one statement (no hypothesis on the input) *)
Theorem C16_canonical :
  forall bs x rest a, decode bs = Ok x rest a -> bs = encode x ++ rest.
Proof. exact canonical. Qed.
Print Assumptions C16_canonical.

(** DecodeBytes: exactly one value, no trailing bytes *)
Theorem C16_decode_bytes_exact :
  forall bs x rest a, decode_bytes_item bs = Ok x rest a -> rest = [] /\ bs = encode x.
Proof. exact decode_bytes_exact. Qed.
Print Assumptions C16_decode_bytes_exact.

Theorem C16_prefix_free :
  forall x y r1 r2, len (encode x) < two64 -> len (encode y) < two64 ->
    encode x ++ r1 = encode y ++ r2 -> x = y /\ r1 = r2.
Proof. exact prefix_free. Qed.
Print Assumptions C16_prefix_free.

Theorem C16_encode_injective :
  forall x y, len (encode x) < two64 -> encode x = encode y -> x = y.
Proof. exact encode_injective. Qed.
Print Assumptions C16_encode_injective.

(** every size declared by a header is compared with the remaining window before anything
    uses it (Stream.Kind) *)
Theorem C16_size_checked :
  forall il bs k size bv rest,
    read_kind il bs = KOk k size bv rest -> size <= len rest /\ len rest < len bs.
Proof. exact size_checked. Qed.
Print Assumptions C16_size_checked.

(** on EVERY input (accepted or not) the input-controlled allocation is bounded by the number
    of bytes consumed, hence by the input length *)
Theorem C16_size_bound :
  forall bs, match decode bs with
             | Ok _ rest alloc => alloc + len rest <= len bs
             | Err _ alloc => alloc <= len bs
             end.
Proof. exact size_bound. Qed.
Print Assumptions C16_size_bound.

(** the hypotheses are satisfiable, and the classic non-canonical shapes are rejected *)
Theorem C16_examples :
  decode (bs_of [200; 131; 99; 97; 116; 131; 100; 111; 103]) =
    Ok (List [Str (bs_of [99; 97; 116]); Str (bs_of [100; 111; 103])]) [] 6 /\
  decode (bs_of [129; 5]) = Err ECanonSize 1 /\
  decode (bs_of [184; 1; 200]) = Err ECanonSize 0 /\
  decode (bs_of (185 :: 0 :: 56 :: repeat 1 56)) = Err ECanonSize 0 /\
  decode (bs_of [131; 1; 2]) = Err EValueTooLarge 0 /\
  decode_bytes_item (bs_of [1; 2]) = Err EMoreThanOne 1.
Proof.
  exact (conj accept_example (conj reject_wrapped_single_byte (conj reject_long_form_short_size
        (conj reject_leading_zero_length (conj reject_truncated reject_trailing))))).
Qed.
Print Assumptions C16_examples.

(** typed layer: canonicity of the typed decoder for EVERY type without rlp:"optional"
    ([optional_free]): uints, *big.Int, bool, []byte, [n]byte, string, RawValue, interface{},
    lists, pointers, structs, with the nil / nilString / nilList, tail and "-" tags, nested.
    For a tail-tagged slice [enc_val] is the bare concatenation of the elements. *)
Theorem C16_typed_canonical :
  forall t tg il bs v rest a, optional_free t ->
    dec_val t tg il bs = Ok v rest a -> bs = enc_val t tg v ++ rest.
Proof. exact typed_canonical. Qed.
Print Assumptions C16_typed_canonical.

Theorem C16_typed_decode_bytes_exact :
  forall t bs v rest a, optional_free t ->
    decode_bytes t bs = Ok v rest a -> rest = [] /\ bs = encode_to_bytes t v.
Proof. exact typed_decode_bytes_exact. Qed.
Print Assumptions C16_typed_decode_bytes_exact.

(** typed round trip over the WHOLE universe (optional, tail, "-", nil tags included) for values
    in normal form [wf_val]: uints fit their width, no nil slices / big ints / interfaces, nil
    pointers only under a nil tag (and then non-nil pointers do not point to an empty
    encoding), ignored fields zero, RawValues hold one item; [wf_fields] also carries the
    validity conditions of rlpstruct.ProcessFields.  Trailing zero-valued optional fields are
    dropped by the encoder and re-created by the decoder. *)
Theorem C16_typed_roundtrip :
  forall t v il rest, wf_val t no_tag v -> len (enc_val t no_tag v) < two64 ->
    exists a, dec_val t no_tag il (enc_val t no_tag v ++ rest) = Ok v rest a.
Proof. exact typed_roundtrip. Qed.
Print Assumptions C16_typed_roundtrip.

Theorem C16_typed_decode_bytes_roundtrip :
  forall t v, wf_val t no_tag v -> len (encode_to_bytes t v) < two64 ->
    exists a, decode_bytes t (encode_to_bytes t v) = Ok v [] a.
Proof. exact typed_decode_bytes_roundtrip. Qed.
Print Assumptions C16_typed_decode_bytes_roundtrip.

(** the normal-form hypothesis is satisfiable on a struct using every tag *)
Theorem C16_typed_example :
  wf_val ty_all no_tag val_all /\
  decode_bytes ty_all (encode_to_bytes ty_all val_all) = Ok val_all [] 0.
Proof. exact typed_example. Qed.
Print Assumptions C16_typed_example.

(** REFUTED for rlp:"optional": for struct{A uint64; B uint64 `rlp:"optional"`} the string
    c2 05 80 is accepted, decodes to {5,0}, and {5,0} encodes to c1 05 (which decodes to the
    same value): two accepted encodings of one value (known finding) *)
Theorem C16_typed_canonical_optional_refuted :
  exists bs v,
    decode_bytes ty_SO bs = Ok v [] 0 /\ encode_to_bytes ty_SO v <> bs /\
    decode_bytes ty_SO (encode_to_bytes ty_SO v) = Ok v [] 0.
Proof. exact optional_refuted. Qed.
Print Assumptions C16_typed_canonical_optional_refuted.

(** raw.go agrees with the encoder: Split returns kind, content and the untouched rest of the
    encoding of any item ([item_kind]: Byte for a single byte below 0x80, else String / List;
    [item_content]: the string, or the concatenated encodings of the list elements) *)
Theorem C16_split_encode :
  forall x rest, len (encode x) < two64 ->
    split (encode x ++ rest) = ROk (item_kind x, item_content x, rest).
Proof. exact split_encode. Qed.
Print Assumptions C16_split_encode.

(** CountValues counts the items of a list payload *)
Theorem C16_count_values :
  forall l, len (flat_map encode l) < two64 -> count_values (flat_map encode l) = ROk (len l).
Proof. exact count_values_encode. Qed.
Print Assumptions C16_count_values.

(** the allocation bound of C16_size_bound for the typed decoder: every type, every tag,
    every input (accepted or not) *)
Theorem C16_typed_size_bound :
  forall t tg il bs,
    match dec_val t tg il bs with
    | Ok _ rest alloc => alloc + len rest <= len bs
    | Err _ alloc => alloc <= len bs
    end.
Proof. exact typed_size_bound. Qed.
Print Assumptions C16_typed_size_bound.

(** raw.go helpers against the encoder: AppendUint64 writes the integer encoding, IntSize is its
    length, ListSize is the length of a list with that payload (below 2^64) *)
Theorem C16_append_uint64 :
  forall n, n < two64 -> append_uint64 n = enc_uint n /\ len (enc_uint n) = int_size n.
Proof. exact (fun n H => conj (append_uint64_enc_uint n H) (len_enc_uint n H)). Qed.
Print Assumptions C16_append_uint64.

Theorem C16_list_size :
  forall p, len (enc_list p) < two64 -> list_size (len p) = len (enc_list p).
Proof. exact list_size_enc_list. Qed.
Print Assumptions C16_list_size.

(** the list iterator yields exactly the encodings of the elements, in order, without error *)
Theorem C16_list_iterator :
  forall l rest, len (encode (List l)) < two64 ->
    list_iterator (encode (List l) ++ rest) = ROk (map encode l, None).
Proof. exact list_iterator_encode. Qed.
Print Assumptions C16_list_iterator.

(** several values in a row (journals): a concatenation of encodings of normal-form values of
    one type decodes value by value to these values and then reports io.EOF *)
Theorem C16_decode_sequence :
  forall t vs, Forall (fun v => wf_val t no_tag v /\ len (enc_val t no_tag v) < two64) vs ->
    decode_all t (flat_map (enc_val t no_tag) vs) = (vs, EEOF).
Proof. exact decode_all_encode. Qed.
Print Assumptions C16_decode_sequence.

(** the model's size / length / canonicity decisions ARE the expressions of the Go source
    (Generated/C16Source.v, regenerated from /repo on every check) *)
Theorem C16_source_tie : C16_source_tie_statement.
Proof. exact C16_source_tie_proof. Qed.
Print Assumptions C16_source_tie.

(** the literal Stream machine (decode.go: input, stack of list limits reduced by unchecked
    uint64 subtraction, cached kind, Kind's size test against the limit read before the header)
    accepts through DecodeBytes exactly the inputs the window decoder accepts, with the same
    value: so every theorem above about [decode_bytes] (canonicity, exactness, round trip) holds
    for the machine as the code has it.  [tail_ok]: tail tags only on slices, which
    rlpstruct.ProcessFields enforces before a decoder exists; inputs are shorter than 2^64 bytes *)
Theorem C16_stream_refines_window :
  forall t bs v, tail_ok t -> len bs < two64 ->
    ((exists s, stream_decode_bytes t bs = SOk v s) <-> (exists a, decode_bytes t bs = Ok v [] a)).
Proof. exact stream_refines_window. Qed.
Print Assumptions C16_stream_refines_window.

(** several values in a row on one Stream (journals): both transcriptions deliver the same values *)
Theorem C16_stream_sequence_values :
  forall t bs, tail_ok t -> len bs < two64 -> fst (stream_decode_all t bs) = fst (decode_all t bs).
Proof. exact stream_decode_all_values. Qed.
Print Assumptions C16_stream_sequence_values.

(** REFUTED without [tail_ok]: for struct{A uint8 `rlp:"optional,tail"`} (a descriptor Go refuses)
    the machine accepts c0 and the window decoder does not *)
Theorem C16_stream_refines_window_illformed_refuted :
  (exists s, stream_decode_bytes ty_bad_tail [Nb 192] = SOk (VStruct [VUint 0]) s) /\
  decode_bytes ty_bad_tail [Nb 192] = Err EEOL 0.
Proof. exact stream_window_differ_on_illformed. Qed.
Print Assumptions C16_stream_refines_window_illformed_refuted.

(** the encoder's buffer as the code has it (encbuffer.go: string data without list headers, the
    headers apart with their offsets, listEnd computing a list's size from the running totals,
    copyTo interleaving them) produces exactly the functional encoding the theorems above are
    about, for every item *)
Theorem C16_encbuffer_refines_encode : forall x, encode_via_buffer x = encode x.
Proof. exact encbuffer_refines_encode. Qed.
Print Assumptions C16_encbuffer_refines_encode.

(** The decision-critical functions of the anchored code have exactly the decisions the source tie knows about
    (go2coq manifests, regenerated from /repo on every check; statement in SourceManifest.v). *)
From Kardia Require Import C16.SourceManifest.
Theorem C16_source_manifest : C16_source_manifest_statement.
Proof. exact C16_source_manifest_proof. Qed.
Print Assumptions C16_source_manifest.
