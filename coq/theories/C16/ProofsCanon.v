(** C16 — typed canonicity for the whole optional-free universe: every scalar kind, lists,
    structs with tail / "-" / nil tags, pointers, RawValue, interface{}. *)
From Coq Require Import List ZArith NArith Bool Lia Arith.
From Coq Require Import Init.Byte.
From Kardia Require Import C16.Model C16.ProofsBase C16.ProofsItem.
Import ListNotations.
Local Open Scope N_scope.

Scheme ty_mut := Induction for ty Sort Prop
  with fields_mut := Induction for fields Sort Prop.
Combined Scheme ty_fields_ind from ty_mut, fields_mut.

(** types without rlp:"optional" anywhere *)
Fixpoint optional_free (t : ty) : Prop :=
  match t with
  | TList e | TPtr e => optional_free e
  | TStruct fs => optional_free_fields fs
  | _ => True
  end
with optional_free_fields (fs : fields) : Prop :=
  match fs with
  | FNil => True
  | FCons t tg r => t_optional tg = false /\ optional_free t /\ optional_free_fields r
  end.

Lemma read_uint_spec il size r v r' :
  read_uint il size r = UOk v r' -> size <= len r ->
  r = take size r ++ r' /\ v = be_val (take size r) /\
  (size <= 1 \/ bN (hd x00 (take size r)) <> 0).
Proof.
  unfold read_uint. intros HH Hs.
  destruct (N.eqb_spec size 0) as [->|Hnz].
  - injection HH as <- <-. unfold take. cbn [N.to_nat firstn app].
    split; [reflexivity|]. split; [reflexivity|left; lia].
  - destruct (N.ltb_spec (len r) size); [lia|].
    destruct (N.eqb_spec size 1) as [->|].
    + injection HH as <- <-. rewrite take_drop. split; [reflexivity|]. split; [reflexivity|left; lia].
    + destruct (N.eqb_spec (bN (hd x00 (take size r))) 0); [discriminate|].
      injection HH as <- <-. rewrite take_drop. auto.
Qed.

Lemma enc_uint_byte bv : bN bv <> 0 -> bN bv < 128 -> enc_uint (bN bv) = [bv].
Proof.
  intros Hnz Hlt. unfold enc_uint. rewrite <- be_val_single, be_bytes_val by exact Hnz.
  unfold enc_str. destruct (N.ltb_spec (bN bv) 128); [reflexivity|lia].
Qed.

Lemma dec_uint_canon bits il bs n rest a :
  dec_uint bits il bs = Ok n rest a -> bs = enc_uint n ++ rest.
Proof.
  unfold dec_uint.
  destruct (read_kind il bs) as [k size bv r|e] eqn:Ek; [|discriminate].
  apply read_kind_canon in Ek.
  destruct Ek as [bv r -> Hb|size r -> Hs|size r -> Hs]; [| |discriminate].
  - destruct (N.eqb_spec (bN bv) 0); [discriminate|].
    intros HH. injection HH as <- <- _. rewrite enc_uint_byte by assumption. reflexivity.
  - destruct (bits / 8 <? size); [discriminate|].
    destruct (read_uint il size r) as [v r'|e] eqn:Eu; [|destruct e; discriminate].
    destruct ((0 <? size) && (v <? 128)) eqn:Ec; [discriminate|].
    intros HH. injection HH as <- <- _.
    apply read_uint_spec in Eu; [|assumption]. destruct Eu as (Er & -> & Hhd).
    assert (Hl : len (take size r) = size) by (apply len_take; assumption).
    rewrite Er at 1. rewrite app_assoc. f_equal.
    unfold enc_uint.
    destruct (take size r) as [|x [|y l]] eqn:Et.
    + cbn in Hl. subst size. reflexivity.
    + rewrite len_cons in Hl. cbn in Hl. subst size. cbn [N.ltb N.compare Pos.compare andb] in Ec.
      change (0 <? 1) with true in Ec. cbn [andb] in Ec.
      rewrite be_val_single in *. apply N.ltb_ge in Ec.
      rewrite <- be_val_single, be_bytes_val by (cbn [hd]; lia).
      unfold enc_str. destruct (N.ltb_spec (bN x) 128); [lia|reflexivity].
    + destruct Hhd as [Hle|Hhd]; [rewrite <- Hl, !len_cons in Hle; lia|].
      rewrite be_bytes_val by exact Hhd. unfold enc_str. rewrite Hl. reflexivity.
Qed.

Lemma dec_big_canon il bs n rest a : dec_big il bs = Ok n rest a -> bs = enc_uint n ++ rest.
Proof.
  unfold dec_big.
  destruct (read_kind il bs) as [k size bv r|e] eqn:Ek; [|discriminate].
  apply read_kind_canon in Ek.
  destruct Ek as [bv r -> Hb|size r -> Hs|size r -> Hs]; [| |discriminate].
  - destruct (N.eqb_spec (bN bv) 0); [discriminate|].
    intros HH. injection HH as <- <- _. rewrite enc_uint_byte by assumption. reflexivity.
  - destruct (N.eqb_spec size 0) as [->|Hnz].
    { intros HH. injection HH as <- <- _. reflexivity. }
    destruct ((size =? 1) && (bN (hd x00 (take size r)) <? 128)) eqn:Ec; [discriminate|].
    destruct (N.eqb_spec (bN (hd x00 (take size r))) 0) as [|Hhd]; [discriminate|].
    intros HH. injection HH as <- <- _.
    unfold enc_uint. rewrite be_bytes_val by exact Hhd.
    rewrite enc_str_take by assumption. apply split_take_drop.
Qed.

Lemma enc_uint_0 : enc_uint 0 = [Nb 128]. Proof. reflexivity. Qed.
Lemma enc_uint_1 : enc_uint 1 = [Nb 1]. Proof. vm_compute. reflexivity. Qed.

Lemma dec_bool_canon il bs b rest a :
  dec_bool il bs = Ok b rest a -> bs = (if b then [Nb 1] else [Nb 128]) ++ rest.
Proof.
  unfold dec_bool. destruct (dec_uint 8 il bs) as [v r a'|] eqn:Ed; [|discriminate].
  apply dec_uint_canon in Ed.
  destruct (N.eqb_spec v 0) as [->|].
  - intros HH. injection HH as <- <- _. exact Ed.
  - destruct (N.eqb_spec v 1) as [->|]; [|discriminate].
    intros HH. injection HH as <- <- _. rewrite enc_uint_1 in Ed. exact Ed.
Qed.

Lemma dec_array_canon n il bs b rest a :
  dec_array n il bs = Ok b rest a -> bs = enc_str b ++ rest /\ len b = n.
Proof.
  unfold dec_array.
  destruct (read_kind il bs) as [k size bv r|e] eqn:Ek; [|discriminate].
  apply read_kind_canon in Ek.
  destruct Ek as [bv r -> Hb|size r -> Hs|size r -> Hs]; [| |discriminate].
  - destruct (N.eqb_spec n 0); [discriminate|]. destruct (N.ltb_spec 1 n); [discriminate|].
    intros HH. injection HH as <- <- _. split; [|cbn; lia].
    unfold enc_str. destruct (N.ltb_spec (bN bv) 128); [reflexivity|lia].
  - destruct (N.ltb_spec n size); [discriminate|]. destruct (N.ltb_spec size n); [discriminate|].
    destruct ((size =? 1) && (bN (hd x00 (take size r)) <? 128)) eqn:Ec; [discriminate|].
    intros HH. injection HH as <- <- _. split.
    + rewrite enc_str_take by assumption. apply split_take_drop.
    + rewrite len_take by assumption. lia.
Qed.

Lemma dec_raw_canon il bs b rest a : dec_raw il bs = Ok b rest a -> bs = b ++ rest.
Proof.
  unfold dec_raw.
  destruct (read_kind il bs) as [k size bv r|e] eqn:Ek; [|discriminate].
  apply read_kind_canon in Ek.
  destruct Ek as [bv r -> Hb|size r -> Hs|size r -> Hs];
    intros HH; injection HH as <- <- _; [reflexivity| |]; apply split_take_drop.
Qed.

(** ** structs without optional fields: the payload is the concatenation of the encodings of
    the fields that are not ignored *)
Fixpoint kept_fields (fs : fields) (vs : list val) : list bytes :=
  match fs, vs with
  | FCons t tg r, v :: vs' =>
    if t_ignored tg then kept_fields r vs' else enc_val t tg v :: kept_fields r vs'
  | _, _ => []
  end.

Lemma trim_tail_all_kept l : trim_tail (map (fun e => (false, e)) l) = l.
Proof.
  induction l as [|e l IH]; [reflexivity|]. cbn [map trim_tail]. rewrite IH.
  destruct l; reflexivity.
Qed.

Lemma enc_fields_optional_free fs : optional_free_fields fs -> forall vs,
  enc_fields fs false vs = map (fun e => (false, e)) (kept_fields fs vs).
Proof.
  induction fs as [|t tg r IH]; intros Hc vs; [destruct vs; reflexivity|].
  destruct Hc as (Ho & _ & Hr). destruct vs as [|v vs']; [reflexivity|].
  cbn [enc_fields kept_fields]. destruct (t_ignored tg); [apply IH; assumption|].
  rewrite Ho. cbn [orb andb map]. rewrite IH by assumption. reflexivity.
Qed.

Lemma enc_struct_optional_free fs tg vs : optional_free_fields fs ->
  enc_val (TStruct fs) tg (VStruct vs) = enc_list (concat (kept_fields fs vs)).
Proof.
  intros Hc. cbn [enc_val]. rewrite enc_fields_optional_free by assumption.
  rewrite trim_tail_all_kept. reflexivity.
Qed.

Lemma rmap_ok {A B} (g : A -> B) (r : res A) w rest a :
  rmap g r = Ok w rest a -> exists v, r = Ok v rest a /\ w = g v.
Proof. destruct r; cbn [rmap]; [|discriminate]. intros HH. injection HH as <- <- <-. eauto. Qed.

Definition canon_at (t : ty) : Prop :=
  optional_free t -> forall tg il bs v rest a,
    dec_val t tg il bs = Ok v rest a -> bs = enc_val t tg v ++ rest.
Definition canon_fields_at (fs : fields) : Prop :=
  optional_free_fields fs -> forall p vs rest a,
    dec_fields fs p = Ok vs rest a -> p = concat (kept_fields fs vs) ++ rest.

Lemma head_0_str : str_head 0 = [Nb 128]. Proof. reflexivity. Qed.
Lemma head_0_list : list_head 0 = [Nb 192]. Proof. reflexivity. Qed.

Lemma kind_eqb_eq a b : kind_eqb a b = true -> a = b.
Proof. destruct a, b; cbn; congruence. Qed.

(** the decoder of a pointer under a nil tag (makeNilPtrDecoder) *)
Lemma dec_val_ptr_nil e tg il bs : t_nil tg <> NoNil ->
  dec_val (TPtr e) tg il bs =
  match read_kind il bs with
  | KErr er => Err er 0
  | KOk k size _ rest =>
    if negb (kind_eqb k KByte) && (size =? 0) then
      if kind_eqb k (nil_kind e tg) then Ok VNil rest 0 else Err EWrongEmpty 0
    else rmap VPtr (dec_val e no_tag il bs)
  end.
Proof. intros Hn. cbn [dec_val]. destruct (t_nil tg); [contradiction|reflexivity..]. Qed.

Lemma ptr_nil_canon e tg il bs v rest a
  (IH : forall tg il bs v rest a, dec_val e tg il bs = Ok v rest a -> bs = enc_val e tg v ++ rest) :
  t_nil tg <> NoNil -> dec_val (TPtr e) tg il bs = Ok v rest a -> bs = enc_val (TPtr e) tg v ++ rest.
Proof.
  intros Hn. rewrite dec_val_ptr_nil by exact Hn.
  destruct (read_kind il bs) as [k size bv r|er] eqn:Ek; [|discriminate].
  destruct (negb (kind_eqb k KByte) && (size =? 0)) eqn:Ec.
  - destruct (kind_eqb k (nil_kind e tg)) eqn:Enk; [|discriminate].
    intros HH. injection HH as <- <- _.
    apply kind_eqb_eq in Enk. cbn [enc_val]. rewrite <- Enk.
    apply andb_prop in Ec. destruct Ec as [Hk Hz]. apply N.eqb_eq in Hz. subst size.
    apply read_kind_canon in Ek. clear Enk.
    destruct k; [cbn in Hk; discriminate Hk| |]; inversion Ek; subst; reflexivity.
  - intros HH. apply rmap_ok in HH. destruct HH as (w & Hd & ->).
    cbn [enc_val]. eapply IH. exact Hd.
Qed.

Lemma typed_canon_mut : (forall t, canon_at t) /\ (forall fs, canon_fields_at fs).
Proof.
  apply ty_fields_ind; unfold canon_at, canon_fields_at.
  - (* TUint *) intros bits _ tg il bs v rest a HH. cbn [dec_val] in HH.
    apply rmap_ok in HH. destruct HH as (n & Hd & ->). cbn [enc_val].
    eapply dec_uint_canon. exact Hd.
  - (* TBig *) intros _ tg il bs v rest a HH. cbn [dec_val] in HH.
    apply rmap_ok in HH. destruct HH as (n & Hd & ->). cbn [enc_val].
    eapply dec_big_canon. exact Hd.
  - (* TBool *) intros _ tg il bs v rest a HH. cbn [dec_val] in HH.
    apply rmap_ok in HH. destruct HH as (b & Hd & ->). cbn [enc_val].
    apply dec_bool_canon in Hd. destruct b; exact Hd.
  - (* TBytes *) intros _ tg il bs v rest a HH. cbn [dec_val] in HH.
    apply rmap_ok in HH. destruct HH as (b & Hd & ->). cbn [enc_val].
    eapply dec_bytes_canon. exact Hd.
  - (* TArray *) intros n _ tg il bs v rest a HH. cbn [dec_val] in HH.
    apply rmap_ok in HH. destruct HH as (b & Hd & ->). cbn [enc_val].
    eapply dec_array_canon. exact Hd.
  - (* TString *) intros _ tg il bs v rest a HH. cbn [dec_val] in HH.
    apply rmap_ok in HH. destruct HH as (b & Hd & ->). cbn [enc_val].
    eapply dec_bytes_canon. exact Hd.
  - (* TList *) intros e IH Hc tg il bs v rest a HH. cbn [optional_free] in Hc.
    cbn [dec_val] in HH. cbn [enc_val].
    destruct (t_tail tg).
    + apply rmap_ok in HH. destruct HH as (l & Hd & ->).
      apply (slice_elems_canon (enc_val e no_tag)) in Hd.
      * destruct Hd as [-> ->]. rewrite app_nil_r. reflexivity.
      * intros p x r a0 Hp. eapply IH; [exact Hc|exact Hp].
    + apply rmap_ok in HH. destruct HH as (l & Hd & ->).
      apply (dec_list_canon (enc_val e no_tag)) in Hd.
      * rewrite Hd. destruct l as [|x l']; reflexivity.
      * intros p x r a0 Hp. eapply IH; [exact Hc|exact Hp].
  - (* TStruct *) intros fs IH Hc tg il bs v rest a HH. cbn [optional_free] in Hc.
    cbn [dec_val] in HH.
    destruct (read_kind il bs) as [k size bv r|e] eqn:Ek; [|discriminate].
    apply read_kind_canon in Ek.
    destruct Ek as [bv r -> Hb|size r -> Hs|size r -> Hs]; try discriminate.
    destruct (dec_fields fs (take size r)) as [vs r' a'|] eqn:Ed; [|discriminate].
    destruct r' as [|b r'']; [|discriminate].
    injection HH as <- <- _.
    apply IH in Ed; [|exact Hc]. rewrite app_nil_r in Ed.
    rewrite enc_struct_optional_free by exact Hc. unfold enc_list.
    rewrite <- Ed, len_take by assumption. rewrite <- app_assoc, take_drop. reflexivity.
  - (* TPtr *) intros e IH Hc tg il bs v rest a HH. cbn [optional_free] in Hc.
    destruct (t_nil tg) eqn:En.
    2-4: eapply ptr_nil_canon; [intros; eapply IH; eassumption|rewrite En; discriminate|exact HH].
    cbn [dec_val] in HH. rewrite En in HH. apply rmap_ok in HH. destruct HH as (w & Hd & ->). cbn [enc_val].
    eapply IH; [exact Hc|exact Hd].
  - (* TRaw *) intros _ tg il bs v rest a HH. cbn [dec_val] in HH.
    apply rmap_ok in HH. destruct HH as (b & Hd & ->). cbn [enc_val].
    eapply dec_raw_canon. exact Hd.
  - (* TIface *) intros _ tg il bs v rest a HH. cbn [dec_val] in HH.
    apply rmap_ok in HH. destruct HH as (x & Hd & ->). cbn [enc_val].
    eapply dec_item_canon. exact Hd.
  - (* FNil *) intros _ p vs rest a HH. cbn [dec_fields] in HH. injection HH as <- <- _. reflexivity.
  - (* FCons *) intros t IHt tg r IHr (Ho & Hct & Hcr) p vs rest a HH.
    cbn [dec_fields] in HH.
    assert (Hseq : bind (dec_val t tg true p) (fun v rest => rmap (cons v) (dec_fields r rest)) = Ok vs rest a ->
                   t_ignored tg = false -> p = concat (kept_fields (FCons t tg r) vs) ++ rest).
    { intros HB Hi. unfold bind in HB.
      destruct (dec_val t tg true p) as [v r1 a1|] eqn:Ev; [|discriminate].
      destruct (dec_fields r r1) as [vs' r2 a2|] eqn:Ef; cbn [rmap] in HB; [|discriminate].
      injection HB as <- <- _.
      apply IHt in Ev; [|exact Hct]. apply IHr in Ef; [|exact Hcr].
      cbn [kept_fields]. rewrite Hi. cbn [concat]. rewrite Ev, Ef, app_assoc. reflexivity. }
    destruct (t_ignored tg) eqn:Ei.
    + apply rmap_ok in HH. destruct HH as (vs' & Hd & ->).
      apply IHr in Hd; [|exact Hcr]. cbn [kept_fields]. rewrite Ei. exact Hd.
    + destruct (t_tail tg); [apply Hseq; [exact HH|reflexivity]|].
      destruct p as [|b p']; [rewrite Ho in HH; discriminate|].
      apply Hseq; [exact HH|reflexivity].
Qed.

Lemma typed_canonical t tg il bs v rest a :
  optional_free t -> dec_val t tg il bs = Ok v rest a -> bs = enc_val t tg v ++ rest.
Proof. intros Hc. apply (proj1 typed_canon_mut t Hc). Qed.

Lemma typed_decode_bytes_exact t bs v rest a :
  optional_free t -> decode_bytes t bs = Ok v rest a -> rest = [] /\ bs = encode_to_bytes t v.
Proof.
  intros Hc. unfold decode_bytes, encode_to_bytes. intros [-> Ed]%exactly_one_ok. split; [reflexivity|].
  apply typed_canonical in Ed; [|exact Hc]. rewrite app_nil_r in Ed. exact Ed.
Qed.
