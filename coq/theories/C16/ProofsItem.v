(** C16 — headers and [read_kind] (what an accepted header says, reading back a written one); strings; the
    allocation measure ([bounded], [consumes]); lists of encoded values, generic in the element codec
    ([slice_elems], [dec_list]: round trip and canonicity), on which the typed layer builds; and the item-level
    round trip and canonicity. *)
From Coq Require Import List ZArith NArith Bool Lia Arith.
From Coq Require Import Init.Byte.
From Kardia Require Import C16.Model C16.ProofsBase.
Import ListNotations.
Local Open Scope N_scope.

Ltac ltb_cases :=
  repeat match goal with
  | |- context [?a <? ?b] => destruct (N.ltb_spec a b); try lia
  | |- context [?a =? ?b] => destruct (N.eqb_spec a b); try lia
  | |- context [?a <=? ?b] => destruct (N.leb_spec a b); try lia
  end.

Definition fits64 (n : N) : Prop := n < two64.

Lemma be_bytes_len_le8 n : fits64 n -> len (be_bytes n) <= 8.
Proof. exact (be_bytes_len_le n 8). Qed.

Lemma read_uint_be il n rest :
  read_uint il (len (be_bytes n)) (be_bytes n ++ rest) = UOk n rest.
Proof.
  unfold read_uint.
  destruct (N.eqb_spec (len (be_bytes n)) 0) as [E0|Hnz].
  - apply len_0 in E0. rewrite E0. apply be_bytes_nil in E0. subst. reflexivity.
  - rewrite len_app. destruct (N.ltb_spec (len (be_bytes n) + len rest) (len (be_bytes n))); [lia|].
    rewrite take_app_len, drop_app_len, be_val_bytes.
    destruct (N.eqb_spec (len (be_bytes n)) 1); [reflexivity|].
    destruct (N.eqb_spec (bN (hd x00 (be_bytes n))) 0) as [Hz|]; [|reflexivity].
    exfalso. revert Hz. apply be_bytes_hd. intro; subst. apply Hnz. reflexivity.
Qed.

Lemma read_uint_canon il size bs v rest :
  read_uint il size bs = UOk v rest -> size <> 0 -> 56 <= v ->
  bs = be_bytes v ++ rest /\ len (be_bytes v) = size /\ size <= len bs.
Proof.
  unfold read_uint. intros HH Hs Hv.
  destruct (N.eqb_spec size 0); [contradiction|].
  destruct (N.ltb_spec (len bs) size); [discriminate|].
  assert (Hhd : bN (hd x00 (take size bs)) <> 0 -> v = be_val (take size bs) -> rest = drop size bs ->
                bs = be_bytes v ++ rest /\ len (be_bytes v) = size /\ size <= len bs).
  { intros Hnz -> ->. rewrite be_bytes_val by exact Hnz. rewrite take_drop.
    split; [reflexivity|]. split; [apply len_take; lia|lia]. }
  destruct (N.eqb_spec size 1) as [->|].
  - injection HH as Hv' Hr. apply Hhd; auto.
    destruct (take 1 bs) as [|x [|y l]] eqn:Et.
    + pose proof (len_take 1 bs ltac:(lia)) as Hl. rewrite Et in Hl. cbn in Hl. lia.
    + cbn [hd]. rewrite be_val_single in Hv'. lia.
    + pose proof (len_take 1 bs ltac:(lia)) as Hl. rewrite Et, !len_cons in Hl. lia.
  - destruct (N.eqb_spec (bN (hd x00 (take size bs))) 0); [discriminate|].
    injection HH as Hv' Hr. apply Hhd; auto.
Qed.

Lemma head_small small large size : size < 56 -> head small large size = [Nb (small + size)].
Proof. intros HH. unfold head. destruct (N.ltb_spec size 56); [reflexivity|lia]. Qed.
Lemma head_large small large size :
  56 <= size -> head small large size = Nb (large + len (be_bytes size)) :: be_bytes size.
Proof. intros HH. unfold head. destruct (N.ltb_spec size 56); [lia|reflexivity]. Qed.

(** headsize is the length of the header the encoder writes; it is never empty *)
Lemma len_head small large size : len (head small large size) = head_size size.
Proof.
  unfold head, head_size, int_size_raw. destruct (N.ltb_spec size 56); [reflexivity|].
  destruct (N.eqb_spec size 0); [lia|]. rewrite len_cons. reflexivity.
Qed.
Lemma len_head_pos small large size : 1 <= len (head small large size).
Proof. unfold head. destruct (size <? 56); rewrite len_cons; lia. Qed.
Lemma head_app_nonempty small large size (r : bytes) : head small large size ++ r <> [].
Proof. unfold head. destruct (size <? 56); discriminate. Qed.
Lemma len_enc_list_gt p : len p < len (enc_list p).
Proof. unfold enc_list, list_head. rewrite len_app. pose proof (len_head_pos 192 247 (len p)). lia. Qed.

(** what a successful [read_kind] says about the input: the header is the canonical one and
    the declared size is within the remaining window *)
Inductive kind_spec (bs : bytes) : kind -> N -> byte -> bytes -> Prop :=
| KSByte b rest : bs = b :: rest -> bN b < 128 -> kind_spec bs KByte 0 b rest
| KSString size rest : bs = str_head size ++ rest -> size <= len rest ->
                       kind_spec bs KString size x00 rest
| KSList size rest : bs = list_head size ++ rest -> size <= len rest ->
                     kind_spec bs KList size x00 rest.

Lemma chk_size_spec il k size rest k' size' bv rest' :
  chk_size il k size rest = KOk k' size' bv rest' ->
  k' = k /\ size' = size /\ bv = x00 /\ rest' = rest /\ size <= len rest.
Proof.
  unfold chk_size. destruct (N.ltb_spec (len rest) size); [discriminate|].
  intros HH. injection HH as <- <- <- <-. auto.
Qed.

Lemma read_kind_canon il bs k size bv rest :
  read_kind il bs = KOk k size bv rest -> kind_spec bs k size bv rest.
Proof.
  unfold read_kind. destruct bs as [|b r]; [discriminate|].
  pose proof (bN_lt b) as Hb.
  destruct (N.ltb_spec (bN b) 128).
  { intros HH. injection HH as <- <- <- <-. constructor; auto. }
  destruct (N.ltb_spec (bN b) 184).
  { intros HH. apply chk_size_spec in HH. destruct HH as (-> & -> & -> & -> & Hs).
    apply KSString; [|exact Hs].
    rewrite (head_small 128 183) by lia. cbn [app]. f_equal.
    replace (128 + (bN b - 128)) with (bN b) by lia. symmetry. apply Nb_bN. }
  destruct (N.ltb_spec (bN b) 192).
  { destruct (read_uint il (bN b - 183) r) as [v r'|e] eqn:Eu; [|discriminate].
    destruct (N.ltb_spec v 56); [discriminate|].
    intros HH. apply chk_size_spec in HH. destruct HH as (-> & -> & -> & -> & Hs).
    apply read_uint_canon in Eu; [|lia|lia]. destruct Eu as (-> & Hl & Hle).
    apply KSString; [|exact Hs].
    unfold str_head. rewrite head_large by lia. cbn [app]. f_equal.
    rewrite Hl. replace (183 + (bN b - 183)) with (bN b) by lia. symmetry. apply Nb_bN. }
  destruct (N.ltb_spec (bN b) 248).
  { intros HH. apply chk_size_spec in HH. destruct HH as (-> & -> & -> & -> & Hs).
    apply KSList; [|exact Hs].
    rewrite (head_small 192 247) by lia. cbn [app]. f_equal.
    replace (192 + (bN b - 192)) with (bN b) by lia. symmetry. apply Nb_bN. }
  { destruct (read_uint il (bN b - 247) r) as [v r'|e] eqn:Eu; [|discriminate].
    destruct (N.ltb_spec v 56); [discriminate|].
    intros HH. apply chk_size_spec in HH. destruct HH as (-> & -> & -> & -> & Hs).
    apply read_uint_canon in Eu; [|lia|lia]. destruct Eu as (-> & Hl & Hle).
    apply KSList; [|exact Hs].
    unfold list_head. rewrite head_large by lia. cbn [app]. f_equal.
    rewrite Hl. replace (247 + (bN b - 247)) with (bN b) by lia. symmetry. apply Nb_bN. }
Qed.

(** reading back the canonical headers *)
Lemma read_kind_byte il b rest : bN b < 128 -> read_kind il (b :: rest) = KOk KByte 0 b rest.
Proof. intros HH. unfold read_kind. destruct (N.ltb_spec (bN b) 128); [reflexivity|lia]. Qed.

Lemma chk_size_ok il k size rest : size <= len rest -> chk_size il k size rest = KOk k size x00 rest.
Proof. intros Hs. unfold chk_size. destruct (N.ltb_spec (len rest) size); [lia|reflexivity]. Qed.

(** the two header families: strings (0x80.., 0xB7..) and lists (0xC0.., 0xF7..) *)
Definition head_tags (small large : N) (k : kind) : Prop :=
  (small = 128 /\ large = 183 /\ k = KString) \/ (small = 192 /\ large = 247 /\ k = KList).

Lemma read_kind_head il small large k size rest :
  head_tags small large k -> size <= len rest -> fits64 size ->
  read_kind il (head small large size ++ rest) = KOk k size x00 rest.
Proof.
  intros Hk Hs Hf. unfold head.
  destruct (N.ltb_spec size 56).
  - cbn [app]. unfold read_kind.
    destruct Hk as [(-> & -> & ->)|(-> & -> & ->)]; rewrite bN_Nb by lia; ltb_cases.
    + replace (128 + size - 128) with size by lia. apply chk_size_ok, Hs.
    + replace (192 + size - 192) with size by lia. apply chk_size_ok, Hs.
  - cbn [app]. unfold read_kind.
    pose proof (be_bytes_len_le8 size Hf) as H8.
    pose proof (be_bytes_len_pos size ltac:(lia)) as H1.
    destruct Hk as [(-> & -> & ->)|(-> & -> & ->)]; rewrite bN_Nb by lia; ltb_cases.
    + replace (183 + len (be_bytes size) - 183) with (len (be_bytes size)) by lia.
      rewrite read_uint_be. ltb_cases. apply chk_size_ok, Hs.
    + replace (247 + len (be_bytes size) - 247) with (len (be_bytes size)) by lia.
      rewrite read_uint_be. ltb_cases. apply chk_size_ok, Hs.
Qed.

Lemma read_kind_str_head il size rest :
  size <= len rest -> fits64 size ->
  read_kind il (str_head size ++ rest) = KOk KString size x00 rest.
Proof. apply read_kind_head. left. auto. Qed.

Lemma read_kind_list_head il size rest :
  size <= len rest -> fits64 size ->
  read_kind il (list_head size ++ rest) = KOk KList size x00 rest.
Proof. apply read_kind_head. right. auto. Qed.

Lemma enc_str_cases b :
  (exists x, b = [x] /\ bN x < 128 /\ enc_str b = [x]) \/
  ((forall x, b = [x] -> 128 <= bN x) /\ enc_str b = str_head (len b) ++ b).
Proof.
  destruct b as [|x [|y l]].
  - right. split; [discriminate|reflexivity].
  - unfold enc_str. destruct (N.ltb_spec (bN x) 128).
    + left. eauto.
    + right. split; [|reflexivity]. intros x' E. injection E as <-. assumption.
  - right. split; [discriminate|reflexivity].
Qed.

(** the decoders' test for "a single byte below 0x80 wrapped as a string" *)
Lemma not_wrapped_byte b :
  (forall x, b = [x] -> 128 <= bN x) -> (len b =? 1) && (bN (hd x00 b) <? 128) = false.
Proof.
  intros Hne. destruct b as [|x [|y l]]; [reflexivity| |rewrite !len_cons; destruct (N.eqb_spec (1 + (1 + len l)) 1); [lia|reflexivity]].
  specialize (Hne x eq_refl). cbn [hd]. destruct (N.ltb_spec (bN x) 128); [lia|apply andb_false_r].
Qed.

Lemma dec_bytes_enc il b rest :
  fits64 (len b) -> exists a, dec_bytes il (enc_str b ++ rest) = Ok b rest a.
Proof.
  intros Hf. destruct (enc_str_cases b) as [(x & -> & Hx & ->)|(Hne & ->)].
  - cbn [app]. unfold dec_bytes. rewrite read_kind_byte by assumption. eauto.
  - rewrite <- app_assoc. unfold dec_bytes.
    rewrite read_kind_str_head by (rewrite ?len_app; unfold fits64 in *; lia).
    rewrite take_app_len, drop_app_len, not_wrapped_byte by exact Hne. eauto.
Qed.

(** a string read with an explicit header *)
Lemma enc_str_take size r :
  size <= len r -> (size =? 1) && (bN (hd x00 (take size r)) <? 128) = false ->
  enc_str (take size r) = str_head size ++ take size r.
Proof.
  intros Hs Ec.
  assert (Hl : len (take size r) = size) by (apply len_take; assumption).
  destruct (take size r) as [|x [|y l]] eqn:Et.
  - cbn in Hl. subst size. reflexivity.
  - rewrite len_cons in Hl. cbn in Hl. subst size. cbn [hd] in Ec.
    unfold enc_str. cbn [N.eqb Pos.eqb andb] in Ec. rewrite Ec. reflexivity.
  - unfold enc_str. rewrite Hl. reflexivity.
Qed.


Lemma dec_bytes_canon il bs b rest a :
  dec_bytes il bs = Ok b rest a -> bs = enc_str b ++ rest.
Proof.
  unfold dec_bytes.
  destruct (read_kind il bs) as [k size bv r|e] eqn:Ek; [|discriminate].
  apply read_kind_canon in Ek.
  destruct Ek as [bv r -> Hb|size r -> Hs|size r -> Hs].
  - intros HH. injection HH as <- <- _. unfold enc_str.
    destruct (N.ltb_spec (bN bv) 128); [reflexivity|lia].
  - destruct ((size =? 1) && (bN (hd x00 (take size r)) <? 128)) eqn:Ec; [discriminate|].
    intros HH. injection HH as <- <- _. rewrite enc_str_take by assumption. apply split_take_drop.
  - discriminate.
Qed.

Definition bounded {A} (r : res A) (bs : bytes) : Prop :=
  match r with Ok _ rest a => a + len rest <= len bs | Err _ a => a <= len bs end.

(** a decoder that starts by reading a header also hands back less than it was given *)
Definition consumes {A} (r : res A) (bs : bytes) : Prop :=
  match r with Ok _ rest a => a + len rest <= len bs /\ len rest < len bs | Err _ a => a <= len bs end.

Lemma consumes_bounded {A} (r : res A) bs : consumes r bs -> bounded r bs.
Proof. destruct r; cbn; tauto. Qed.
Lemma consumes_ok {A} (r : res A) bs v rest a : consumes r bs -> r = Ok v rest a -> len rest < len bs.
Proof. intros H ->. apply H. Qed.
Lemma consumes_rmap {A B} (g : A -> B) (r : res A) bs : consumes r bs -> consumes (rmap g r) bs.
Proof. destruct r; exact (fun H => H). Qed.

Lemma kind_spec_len bs k size bv rest :
  kind_spec bs k size bv rest -> len rest < len bs /\ size <= len rest.
Proof.
  intros [b r -> Hb|sz r -> Hs|sz r -> Hs].
  - rewrite len_cons. lia.
  - rewrite len_app. pose proof (len_head_pos 128 183 sz). unfold str_head. lia.
  - rewrite len_app. pose proof (len_head_pos 192 247 sz). unfold list_head. lia.
Qed.

Lemma kind_ok_len il p k size bv r : read_kind il p = KOk k size bv r -> len r < len p /\ size <= len r.
Proof. intros E. apply read_kind_canon, kind_spec_len in E. exact E. Qed.

Lemma dec_bytes_consumes il bs : consumes (dec_bytes il bs) bs.
Proof.
  unfold dec_bytes. destruct (read_kind il bs) as [k size bv r|e] eqn:Ek; [|cbn; lia].
  apply kind_ok_len in Ek. destruct Ek as [Hl Hs].
  destruct k; cbn [consumes]; try lia.
  destruct ((size =? 1) && (bN (hd x00 (take size r)) <? 128)); cbn [consumes]; rewrite ?len_drop; lia.
Qed.

Lemma bounded_bind {A B} (r : res A) (f : A -> bytes -> res B) bs :
  bounded r bs -> (forall v rest, bounded (f v rest) rest) -> bounded (bind r f) bs.
Proof.
  intros Hr Hf. destruct r as [v rest a|e a]; cbn [bind bounded] in *; [|assumption].
  specialize (Hf v rest). destruct (f v rest); cbn [bounded] in *; lia.
Qed.

Lemma bounded_rmap {A B} (g : A -> B) (r : res A) bs : bounded r bs -> bounded (rmap g r) bs.
Proof. destruct r; exact (fun H => H). Qed.

Lemma slice_elems_bounded {A} (elem : bytes -> res A) :
  (forall p, bounded (elem p) p) -> forall n p, bounded (slice_elems elem n p) p.
Proof.
  intros He. induction n as [|n IH]; intros p; destruct p as [|b p']; cbn [slice_elems bounded]; try lia.
  apply bounded_bind; [apply He|]. intros v rest. apply bounded_rmap, IH.
Qed.

Lemma slice_elems_rest_nil {A} (elem : bytes -> res A) n p xs r a :
  slice_elems elem n p = Ok xs r a -> r = [].
Proof.
  revert p xs r a. induction n as [|n IH]; intros p xs r a; destruct p as [|b p']; cbn [slice_elems].
  - intros HH. injection HH as _ <- _. reflexivity.
  - discriminate.
  - intros HH. injection HH as _ <- _. reflexivity.
  - unfold bind. destruct (elem (b :: p')) as [x rest a0|]; [|discriminate].
    destruct (slice_elems elem n rest) as [ys r' a1|] eqn:Es; cbn [rmap]; [|discriminate].
    intros HH. injection HH as _ <- _. eapply IH. exact Es.
Qed.

Lemma dec_list_consumes {A} (elem : bytes -> res A) il bs :
  (forall p, bounded (elem p) p) -> consumes (dec_list elem il bs) bs.
Proof.
  intros He. unfold dec_list.
  destruct (read_kind il bs) as [k size bv r|e] eqn:Ek; [|cbn; lia].
  apply kind_ok_len in Ek. destruct Ek as [Hl Hs].
  destruct k; cbn [consumes]; try lia.
  destruct (size =? 0); cbn [consumes]; [lia|].
  pose proof (slice_elems_bounded elem He (length (take size r)) (take size r)) as Hb.
  destruct (slice_elems elem (length (take size r)) (take size r)) as [xs r' a|e a];
    cbn [bounded consumes] in *; rewrite len_take in Hb by assumption; rewrite ?len_drop; lia.
Qed.

Lemma dec_item_consumes fuel : forall il bs, consumes (dec_item fuel il bs) bs.
Proof.
  induction fuel as [|f IH]; intros il bs; cbn [dec_item]; [cbn; lia|].
  destruct (read_kind il bs) as [k size bv r|e]; [|cbn; lia].
  destruct k; apply consumes_rmap; try apply dec_bytes_consumes.
  apply dec_list_consumes. intros p. apply consumes_bounded, IH.
Qed.

Section Elems.
  Context {A : Type} (enc : A -> bytes) (elem : bytes -> res A).

  Lemma slice_elems_enc xs :
    (forall x, In x xs -> enc x <> [] /\ forall rest, exists a, elem (enc x ++ rest) = Ok x rest a) ->
    forall n, (length (flat_map enc xs) <= n)%nat ->
    exists a, slice_elems elem n (flat_map enc xs) = Ok xs [] a.
  Proof.
    induction xs as [|x xs IH]; intros Hx n Hn.
    - destruct n; cbn; eauto.
    - cbn [flat_map] in *.
      destruct (Hx x (or_introl eq_refl)) as [Hne Hrt].
      destruct (enc x ++ flat_map enc xs) as [|b p'] eqn:E.
      { apply app_eq_nil in E. destruct E. contradiction. }
      destruct n as [|n]; [cbn in Hn; lia|].
      cbn [slice_elems]. rewrite <- E.
      destruct (Hrt (flat_map enc xs)) as [a0 ->]. cbn [bind].
      destruct (IH (fun y Hy => Hx y (or_intror Hy)) n) as [a1 ->].
      + assert (length (enc x) <> 0)%nat by (destruct (enc x); [contradiction|discriminate]).
        rewrite <- E, app_length in Hn. cbn [length] in Hn. lia.
      + cbn [rmap]. eauto.
  Qed.

  Lemma slice_elems_canon :
    (forall p x r a, elem p = Ok x r a -> p = enc x ++ r) ->
    forall n p xs r a, slice_elems elem n p = Ok xs r a -> p = flat_map enc xs /\ r = [].
  Proof.
    intros He. induction n as [|n IH]; intros p xs r a; destruct p as [|b p']; cbn [slice_elems].
    - intros HH. injection HH as <- <- _. auto.
    - discriminate.
    - intros HH. injection HH as <- <- _. auto.
    - unfold bind. destruct (elem (b :: p')) as [x rest a0|] eqn:Ee; [|discriminate].
      destruct (slice_elems elem n rest) as [ys r' a1|] eqn:Es; cbn [rmap]; [|discriminate].
      intros HH. injection HH as <- <- _.
      apply He in Ee. apply IH in Es. destruct Es as [-> ->].
      cbn [flat_map]. auto.
  Qed.

  Lemma dec_list_canon il bs xs rest a :
    (forall p x r a, elem p = Ok x r a -> p = enc x ++ r) ->
    dec_list elem il bs = Ok xs rest a -> bs = enc_list (flat_map enc xs) ++ rest.
  Proof.
    intros He. unfold dec_list.
    destruct (read_kind il bs) as [k size bv r|e] eqn:Ek; [|discriminate].
    apply read_kind_canon in Ek.
    destruct Ek as [bv r -> Hb|size r -> Hs|size r -> Hs]; try discriminate.
    destruct (N.eqb_spec size 0) as [->|Hnz].
    - intros HH. injection HH as <- <- _. reflexivity.
    - destruct (slice_elems elem (length (take size r)) (take size r)) as [ys r' a'|] eqn:Es; [|discriminate].
      intros HH. injection HH as <- <- _.
      apply slice_elems_canon in Es; [|exact He]. destruct Es as [Et _].
      unfold enc_list. rewrite <- Et, len_take by assumption.
      rewrite <- app_assoc, take_drop. reflexivity.
  Qed.

  Lemma dec_list_enc il xs rest :
    (forall x, In x xs -> enc x <> [] /\ forall rest, exists a, elem (enc x ++ rest) = Ok x rest a) ->
    fits64 (len (flat_map enc xs)) ->
    exists a, dec_list elem il (enc_list (flat_map enc xs) ++ rest) = Ok xs rest a.
  Proof.
    intros Hx Hf. unfold dec_list, enc_list. rewrite <- app_assoc.
    rewrite read_kind_list_head by (rewrite ?len_app; unfold fits64 in *; lia).
    destruct (N.eqb_spec (len (flat_map enc xs)) 0) as [E0|Hnz].
    - apply len_0 in E0.
      destruct xs as [|x xs'].
      + rewrite E0. cbn [app]. eauto.
      + exfalso. cbn [flat_map] in E0. apply app_eq_nil in E0.
        destruct (Hx x (or_introl eq_refl)) as [Hne _]. tauto.
    - rewrite take_app_len, drop_app_len.
      destruct (slice_elems_enc xs Hx (length (flat_map enc xs)) (le_n _)) as [a ->]. eauto.
  Qed.
End Elems.

Fixpoint item_ind' (P : item -> Prop) (HS : forall b, P (Str b))
  (HL : forall l, Forall P l -> P (List l)) (x : item) : P x :=
  match x with
  | Str b => HS b
  | List l => HL l ((fix go (l : list item) : Forall P l :=
                       match l with
                       | [] => Forall_nil P
                       | y :: t => Forall_cons y (item_ind' P HS HL y) (go t)
                       end) l)
  end.

Lemma enc_str_nonempty b : enc_str b <> [].
Proof.
  destruct (enc_str_cases b) as [(x & -> & _ & ->)|(_ & ->)]; [discriminate|].
  apply head_app_nonempty.
Qed.

Lemma encode_nonempty x : encode x <> [].
Proof.
  destruct x; cbn [encode]; [apply enc_str_nonempty|].
  apply head_app_nonempty.
Qed.

Lemma len_enc_str_ge b : len b <= len (enc_str b).
Proof.
  destruct (enc_str_cases b) as [(x & -> & _ & ->)|(_ & ->)]; [lia|]. rewrite len_app. lia.
Qed.


Lemma dec_item_enc x : forall fuel il rest,
  (length (encode x) < fuel)%nat -> fits64 (len (encode x)) ->
  exists a, dec_item fuel il (encode x ++ rest) = Ok x rest a.
Proof.
  induction x as [b|l IH] using item_ind'; intros fuel il rest Hfuel Hf.
  - destruct fuel as [|f]; [lia|]. cbn [dec_item encode].
    assert (Hfb : fits64 (len b)).
    { cbn [encode] in Hf. pose proof (len_enc_str_ge b). unfold fits64 in *. lia. }
    destruct (dec_bytes_enc il b rest Hfb) as [a Hd].
    destruct (enc_str_cases b) as [(x & -> & Hx & E)|(Hne & E)].
    + rewrite E in *. cbn [app] in *. rewrite read_kind_byte by assumption. rewrite Hd. cbn. eauto.
    + rewrite E in *. rewrite <- app_assoc in *.
      rewrite read_kind_str_head by (rewrite ?len_app; unfold fits64 in *; lia).
      rewrite Hd. cbn. eauto.
  - destruct fuel as [|f]; [lia|]. cbn [dec_item encode] in *.
    pose proof (len_enc_list_gt (flat_map encode l)) as Hlp.
    assert (Hfp : fits64 (len (flat_map encode l))) by (unfold fits64 in *; lia).
    assert (Hk : read_kind il (enc_list (flat_map encode l) ++ rest)
                 = KOk KList (len (flat_map encode l)) x00 (flat_map encode l ++ rest)).
    { unfold enc_list. rewrite <- app_assoc. apply read_kind_list_head; [rewrite len_app; lia|assumption]. }
    rewrite Hk.
    destruct (dec_list_enc encode (dec_item f true) il l rest) as [a ->]; [|assumption|cbn; eauto].
    intros y Hy. split; [apply encode_nonempty|]. intros rest'.
    rewrite Forall_forall in IH. apply IH; [exact Hy| |].
    + pose proof (in_flat_map_len encode y l Hy) as Hle. unfold len in *. lia.
    + pose proof (in_flat_map_len encode y l Hy). unfold fits64 in *. lia.
Qed.

(** DecodeBytes' "exactly one value" *)
Lemma exactly_one_ok {A} (r : res A) v rest a : exactly_one r = Ok v rest a -> rest = [] /\ r = Ok v [] a.
Proof. destruct r as [w [|b p] a'|]; cbn [exactly_one]; intros H; [injection H as <- <- <-; auto|discriminate..]. Qed.

Lemma dec_item_canon fuel : forall il bs x rest a,
  dec_item fuel il bs = Ok x rest a -> bs = encode x ++ rest.
Proof.
  induction fuel as [|f IH]; intros il bs x rest a; cbn [dec_item]; [discriminate|].
  destruct (read_kind il bs) as [k size bv r|e] eqn:Ek; [|discriminate].
  assert (Hstr : rmap Str (dec_bytes il bs) = Ok x rest a -> bs = encode x ++ rest).
  { destruct (dec_bytes il bs) as [b r' a'|] eqn:Ed; cbn [rmap]; [|discriminate].
    intros HH. injection HH as <- <- _. cbn [encode]. eapply dec_bytes_canon. exact Ed. }
  destruct k; try exact Hstr.
  destruct (dec_list (dec_item f true) il bs) as [l r' a'|] eqn:Ed; cbn [rmap]; [|discriminate].
  intros HH. injection HH as <- <- _. cbn [encode].
  eapply (dec_list_canon encode); [|exact Ed].
  intros p y r0 a0. apply IH.
Qed.
