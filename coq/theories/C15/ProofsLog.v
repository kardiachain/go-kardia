(** C15 — whole-log lemmas: round trip, truncation, single-byte damage, repair. *)
From Coq Require Import List ZArith NArith Bool Lia Arith.
From Kardia Require Import Base.ListX C15.Crc32c C15.ProofsCrc C15.Model C15.ProofsFrame Generated.C15Facts.
Import ListNotations.
Set Default Proof Using "Type".

Lemma app_inv_len {A} (a b c d : list A) : a ++ b = c ++ d -> length a = length c -> a = c /\ b = d.
Proof.
  revert c. induction a as [|x a IH]; intros [|y c] E L; try discriminate L; cbn in *; auto.
  injection E as -> E. destruct (IH c E) as [-> ->]; auto.
Qed.

Lemma bytes_eq_dec (a b : bytes) : {a = b} + {a <> b}.
Proof. apply list_eq_dec. apply N.eq_dec. Qed.

Lemma Forall2_weaken {A B} (R S : A -> B -> Prop) l1 l2 :
  (forall a b, R a b -> S a b) -> Forall2 R l1 l2 -> Forall2 S l1 l2.
Proof. intros H F. induction F; constructor; auto. Qed.

Lemma Forall2_firstn {A B} (R : A -> B -> Prop) n l1 l2 :
  Forall2 R l1 l2 -> Forall2 R (firstn n l1) (firstn n l2).
Proof. intro F. revert n. induction F; intros [|n]; cbn; auto. Qed.

(** two streams that agree beyond [j] bytes, one of them up to padding, begin alike *)
Lemma common_prefix {A} j (t s zs f' r : list A) :
  t ++ zs = f' ++ r -> j <= length t -> j <= length f' -> firstn j (t ++ s) = firstn j f'.
Proof.
  intros E Lt Lf. rewrite firstn_app_le by exact Lt.
  rewrite <- (firstn_app_le j t zs) by exact Lt. rewrite E. apply firstn_app_le. exact Lf.
Qed.

Lemma set_nth_app_l {A} i (x : A) a b : i < length a -> set_nth i x (a ++ b) = set_nth i x a ++ b.
Proof. revert i. induction a as [|h a IH]; intros [|i] L; cbn in *; try lia; auto. rewrite IH by lia. reflexivity. Qed.
Lemma set_nth_app_r {A} i (x : A) a b : length a <= i -> set_nth i x (a ++ b) = a ++ set_nth (i - length a) x b.
Proof. revert i. induction a as [|h a IH]; intros i L; cbn in *. { rewrite Nat.sub_0_r. reflexivity. }
  destruct i as [|i]; [lia|]. cbn. rewrite IH by lia. reflexivity. Qed.
Lemma set_nth_split {A} i (x d : A) l : i < length l ->
  exists pre suf, l = pre ++ nth i l d :: suf /\ set_nth i x l = pre ++ x :: suf /\ length pre = i.
Proof.
  revert i. induction l as [|h l IH]; intros [|i] L; cbn in *; try lia.
  - exists [], l. auto.
  - destruct (IH i) as [pre [suf [E1 [E2 E3]]]]; [lia|]. exists (h :: pre), suf. cbn. rewrite <- E1, E2, E3. auto.
Qed.

Section FramesBasic.
  Variable crc : bytes -> N.
  Notation frame := (frame crc).
  Notation frames := (frames crc).
  Lemma frames_cons p ps : frames (p :: ps) = frame p ++ frames ps.
  Proof. reflexivity. Qed.

  Lemma frames_app a b : frames (a ++ b) = frames a ++ frames b.
  Proof. unfold Model.frames. rewrite map_app, concat_app. reflexivity. Qed.

  Lemma frames_length_ge ps : length ps <= length (frames ps).
  Proof.
    induction ps as [|p ps IH]; [cbn; lia|]. rewrite frames_cons, app_length, frame_length. cbn [length]. lia.
  Qed.
End FramesBasic.

Section Log.
  Variable crc : bytes -> N.
  Hypothesis crc_range : forall x, wf_bytes x -> (crc x < 4294967296)%N.
  Variable msg : Type.
  Variable ser : msg -> bytes.
  Variable deser : bytes -> option msg.

  Notation frame := (frame crc).
  Notation frames := (frames crc).
  Notation decode := (decode crc msg deser).
  Notation decode_all := (decode_all crc msg deser).
  Notation read_log := (read_log crc msg deser).

  (** a payload as the WAL writes them: it unmarshals to [m], is non-empty and within the limit *)
  Definition good (p : bytes) (m : msg) : Prop :=
    deser p = Some m /\ wf_bytes p /\ p <> [] /\ (lenN p <= max_msg_size_bytes)%N.

  (** a CRC collision on a payload that also unmarshals: the only way a damaged log can yield a
      message that was not written *)
  Definition collision (p : bytes) : Prop :=
    exists p', p' <> p /\ crc p' = crc p /\ deser p' <> None.

  Lemma decode_frame' k p m rest : good p m -> decode k (frame p ++ rest) = OMsg m rest.
  Proof using crc_range.
    intros [D [W [NE L]]]. unfold Model.decode. rewrite (decode_frame crc msg deser k p m rest); auto.
  Qed.

  Lemma decode_all_nil cont f k : decode_all cont (S f) k [] = [ObEof].
  Proof. cbn [Model.decode_all]. rewrite decode_nil. reflexivity. Qed.

  (** reading whole frames: the messages come back in order, then whatever follows *)
  Lemma decode_all_frames cont k : forall ps ms, Forall2 good ps ms -> forall f tail,
    decode_all cont (length ps + f) k (frames ps ++ tail) = map ObMsg ms ++ decode_all cont f k tail.
  Proof using crc_range.
    induction 1 as [|p m ps ms G _ IH]; intros f tail; [reflexivity|].
    cbn [length Nat.add Model.decode_all]. rewrite frames_cons, <- app_assoc, (decode_frame' k p m _ G).
    cbn [map app]. rewrite IH. reflexivity.
  Qed.

  (** enough fuel is enough: every Decode call that is not end-of-log consumes input *)
  Lemma decode_all_fuel cont k : forall f1 f2 bs, length bs < f1 -> length bs < f2 ->
    decode_all cont f1 k bs = decode_all cont f2 k bs.
  Proof.
    induction f1 as [|f1 IH]; intros f2 bs L1 L2; [lia|]. destruct f2 as [|f2]; [lia|].
    cbn [Model.decode_all]. pose proof (decode_consumes crc msg deser k bs) as C.
    destruct (decode k bs) as [m rest| |c rest]; auto.
    - f_equal. apply IH; lia.
    - f_equal. destruct cont; auto. apply IH; lia.
  Qed.

  (** whatever follows the written records — garbage, a damaged record, nothing — the written
      messages come back first, in order; then the reader goes on with what follows *)
  Lemma read_log_frames_app cont k ps ms tail :
    Forall2 good ps ms -> read_log cont k (frames ps ++ tail) = map ObMsg ms ++ read_log cont k tail.
  Proof using crc_range.
    intro G. unfold Model.read_log. pose proof (frames_length_ge crc ps) as L.
    replace (S (length (frames ps ++ tail))) with (length ps + (S (length (frames ps ++ tail)) - length ps))
      by (rewrite app_length; lia).
    rewrite (decode_all_frames cont k ps ms G). f_equal. apply decode_all_fuel; rewrite ?app_length; lia.
  Qed.

  Lemma roundtrip cont k ps ms :
    Forall2 good ps ms -> read_log cont k (frames ps) = map ObMsg ms ++ [ObEof].
  Proof using crc_range.
    intro G. rewrite <- (app_nil_r (frames ps)), (read_log_frames_app cont k ps ms [] G). f_equal. apply decode_all_nil.
  Qed.

  (** a record that Decode reports as corrupt and steps over (its rest is [tail]): in stop mode the log
      ends there, in ignore mode reading goes on behind it *)
  Lemma read_log_corrupt cont k bad c tail :
    decode k (bad ++ tail) = OCorrupt c tail ->
    read_log cont k (bad ++ tail) = ObCorrupt c :: (if cont then read_log cont k tail else []).
  Proof.
    intro D. unfold Model.read_log. remember (S (length tail)) as ft eqn:Hft.
    cbn [Model.decode_all]. rewrite D. f_equal. destruct cont; auto.
    pose proof (decode_consumes crc msg deser k (bad ++ tail)) as C. rewrite D in C.
    apply decode_all_fuel; lia.
  Qed.

  (** in stop mode, reading ends at the first Decode that returns no message *)
  Lemma read_log_stops k tail :
    (forall m r, decode k tail <> OMsg m r) ->
    read_log false k tail = [ObEof] \/ exists c, read_log false k tail = [ObCorrupt c].
  Proof.
    intro T. unfold Model.read_log. cbn [Model.decode_all].
    destruct (decode k tail) as [m r| |c r]; [destruct (T m r eq_refl)|auto|eauto].
  Qed.

  Lemma firstn8_frame p : firstn 8 (frame p) = be32 (crc p) ++ be32 (lenN p).
  Proof. reflexivity. Qed.
  Lemma firstn4_frame p : firstn 4 (frame p) = be32 (crc p).
  Proof. reflexivity. Qed.

  Lemma decode_file_short t m r : length t < 4 -> decode RFile t <> OMsg m r.
  Proof.
    intro L. destruct t as [|x0 [|x1 [|x2 [|x3 t]]]]; cbn in L; try lia;
      unfold Model.decode, Model.decode_full; cbn [rd pad_to firstn skipn length app repeat Nat.sub fst]; discriminate.
  Qed.

  (** the decoder on a proper prefix [t] of one frame.  If it returns a message, [decode_sound] gives
      [t ++ 0^z = frame p' ++ r]; the first 4 bytes give [crc p' = crc p]; with [z = 0] the first 8 bytes
      would give [lenN p' = lenN p] and [frame p'] would be longer than [t]: so it is the os.File
      zero-fill, with [r = []]; then [p' = p] (the written message) or [p'] is a collision *)
  Lemma decode_cut k p m n :
    good p m -> n < length (frame p) ->
    let t := firstn n (frame p) in
    decode k t = OEof \/ (exists c r, decode k t = OCorrupt c r) \/
    (k = RFile /\ 0 < n /\ decode k t = OMsg m []) \/ (k = RFile /\ collision p).
  Proof using crc_range.
    intros [D [W [NE L]]] Hn t.
    destruct (decode k t) as [m' r| |c r] eqn:E; eauto.
    right. right.
    assert (Wt : wf_bytes t) by (apply wf_firstn, frame_wf; auto).
    assert (Lt : length t = n) by (apply firstn_length_le; lia).
    assert (Split : t ++ skipn n (frame p) = frame p) by apply firstn_skipn.
    pose proof (decode_full_split crc msg deser k t) as E'. rewrite E in E'.
    destruct (decode_sound crc msg deser k t m' r _ Wt E') as [p' [z [D' [L' [_ [W' [A Z]]]]]]].
    destruct (le_lt_dec 4 n) as [N4|N4].
    2:{ exfalso. destruct Z as [->|[-> _]].
        - cbn [repeat] in A. rewrite app_nil_r in A. assert (length t = length (frame p' ++ r)) by (rewrite A; reflexivity).
          rewrite app_length, frame_length in H. lia.
        - eapply decode_file_short; [|exact E]. lia. }
    assert (C : crc p = crc p').
    { pose proof (common_prefix 4 t (skipn n (frame p)) _ _ _ A) as P. rewrite Split, !firstn4_frame in P.
      apply be32_inj; auto. apply P; [lia|rewrite frame_length; lia]. }
    assert (Z' : k = RFile /\ r = []).
    { destruct Z as [->|[? [? _]]]; auto. exfalso. cbn [repeat] in A. rewrite app_nil_r in A.
      assert (Len : length t = length (frame p' ++ r)) by (rewrite A; reflexivity).
      rewrite app_length, frame_length in Len.
      destruct (le_lt_dec 8 n) as [N8|N8]; [|lia].
      assert (A0 : t ++ [] = frame p' ++ r) by (rewrite app_nil_r; exact A).
      pose proof (common_prefix 8 t (skipn n (frame p)) _ _ _ A0) as P. rewrite Split, !firstn8_frame in P.
      assert (Q : be32 (crc p) ++ be32 (lenN p) = be32 (crc p') ++ be32 (lenN p')) by (apply P; [lia|rewrite frame_length; lia]).
      apply app_inv_len in Q; [|reflexivity]. destruct Q as [_ Q].
      apply be32_inj in Q; [|pose proof max_fits; lia|pose proof max_fits; lia].
      unfold lenN in Q. apply Nat2N.inj in Q. rewrite frame_length in Hn. lia. }
    destruct Z' as [-> ->].
    destruct (bytes_eq_dec p' p) as [->|Hne].
    - left. repeat split; auto; try lia. rewrite D in D'. congruence.
    - right. split; auto. exists p'. repeat split; auto. congruence.
  Qed.

  (** Every proper prefix of a valid log decodes to a prefix of the written messages, then
      end-of-log or a corruption error — or (os.File reader only, which zero-fills a short read)
      exhibits a CRC collision on a payload that unmarshals. *)
  Lemma truncation k : forall ps ms, Forall2 good ps ms -> forall n fuel,
    n < length (frames ps) -> n < fuel ->
    (exists j tail, decode_all false fuel k (firstn n (frames ps)) = map ObMsg (firstn j ms) ++ tail /\
                    (tail = [ObEof] \/ exists c, tail = [ObCorrupt c])) \/
    (k = RFile /\ exists p, In p ps /\ collision p).
  Proof using crc_range ser. (* C15_truncation quantifies over the marshaller as well *)
    induction 1 as [|p m ps ms G GS IH]; intros n fuel Hn Hf; [cbn in Hn; lia|].
    rewrite frames_cons in *. rewrite app_length, frame_length in Hn.
    destruct fuel as [|f]; [lia|].
    destruct (le_lt_dec (length (frame p)) n) as [Ge|Lt].
    - (* the cut is after this frame *)
      rewrite firstn_app_ge by exact Ge. cbn [Model.decode_all]. rewrite (decode_frame' k p m _ G).
      rewrite frame_length in *.
      destruct (IH (n - (8 + length p)) f) as [[j [tail [E T]]]|[-> [q [I C]]]]; try lia.
      + left. exists (S j), tail. cbn [firstn map app]. rewrite E. auto.
      + right. split; auto. exists q. split; auto. right. exact I.
    - (* the cut is inside this frame *)
      rewrite firstn_app_le by lia. cbn [Model.decode_all].
      destruct (decode_cut k p m n G Lt) as [E|[[c [r E]]|[[-> [Pos E]]|[-> C]]]].
      + left. exists 0, [ObEof]. rewrite E. cbn. auto.
      + left. exists 0, [ObCorrupt c]. rewrite E. cbn. eauto.
      + left. exists 1, [ObEof]. rewrite E. destruct f as [|f]; [lia|]. rewrite decode_all_nil.
        destruct ms; cbn; auto.
      + right. split; auto. exists p. split; auto. left. reflexivity.
  Qed.

  Lemma read_log_truncated k ps ms n :
    Forall2 good ps ms -> n < length (frames ps) ->
    (exists j tail, read_log false k (firstn n (frames ps)) = map ObMsg (firstn j ms) ++ tail /\
                    (tail = [ObEof] \/ exists c, tail = [ObCorrupt c])) \/
    (k = RFile /\ exists p, In p ps /\ collision p).
  Proof using crc_range ser.
    intros G Hn. unfold Model.read_log. rewrite firstn_length_le by lia. apply truncation; auto.
  Qed.

  Lemma decode_crc_mismatch k c' p rest :
    length c' = 4 -> (lenN p <= max_msg_size_bytes)%N -> p <> [] -> of_be32 c' <> crc p ->
    decode k (c' ++ be32 (lenN p) ++ p ++ rest) = OCorrupt CCrc rest.
  Proof.
    intros Lc L NE H. pose proof (lenN_le_max_lt p L) as L'.
    unfold Model.decode. rewrite decode_record; rewrite ?of_be32_be32 by exact L'; auto using be32_length, lenN_length.
    destruct (N.eqb_spec (crc p) (of_be32 c')); [congruence|reflexivity].
  Qed.

  (** a damaged length field: either an error, or an explicit CRC collision between payloads of
      different lengths (the bound on [lenN p] is not used: C15_lenflip_residual states it) *)
  Lemma lenflip_residual k l' p rest m' r' :
    length l' = 4 -> wf_bytes l' -> wf_bytes p -> wf_bytes rest -> (lenN p < 4294967296)%N ->
    l' <> be32 (lenN p) ->
    decode k (be32 (crc p) ++ l' ++ p ++ rest) = OMsg m' r' ->
    exists p', deser p' = Some m' /\ crc p' = crc p /\ lenN p' <> lenN p /\ l' = be32 (lenN p').
  Proof using crc_range.
    intros Ll Wl Wp Wr Lp Hne E.
    pose proof (decode_full_split crc msg deser k (be32 (crc p) ++ l' ++ p ++ rest)) as E'. rewrite E in E'.
    apply decode_sound in E'.
    2:{ apply wf_app; split; [apply be32_wf|]. apply wf_app; split; auto. apply wf_app; auto. }
    destruct E' as [p' [z [D' [L' [_ [W' [A _]]]]]]]. exists p'.
    assert (P : firstn 8 ((be32 (crc p) ++ l' ++ p ++ rest) ++ repeat 0%N z) = firstn 8 (frame p' ++ r')) by (rewrite A; reflexivity).
    destruct l' as [|x0 [|x1 [|x2 [|x3 [|x4 t]]]]]; try discriminate Ll.
    rewrite (firstn_app_le 8 (frame p')) in P by (rewrite frame_length; lia). rewrite firstn8_frame in P.
    change (firstn 8 ((be32 (crc p) ++ [x0; x1; x2; x3] ++ p ++ rest) ++ repeat 0%N z))
      with (be32 (crc p) ++ [x0; x1; x2; x3]) in P.
    apply app_inv_len in P; [|reflexivity]. destruct P as [P1 P2].
    apply be32_inj in P1; auto. repeat split; auto.
    intro Q. apply Hne. rewrite P2, Q. reflexivity.
  Qed.

  Notation repair_loop := (repair_loop crc msg ser deser).
  Notation repair := (repair crc msg ser deser).

  Lemma encode_good p m : good p m -> encode crc p = Some (frame p).
  Proof.
    intros [_ [_ [_ L]]]. unfold Model.encode. rewrite N.mod_small by (pose proof max_fits; lia).
    assert (M : (max_msg_size_bytes <? lenN p)%N = false) by (apply N.ltb_ge; exact L). rewrite M. reflexivity.
  Qed.

  (** [canon p m]: re-marshalling the decoded message gives the payload back (true of everything
      the encoder wrote; checked by the harness on every written message) *)
  Definition canon (p : bytes) (m : msg) : Prop := good p m /\ ser m = p.

  Lemma canon_good ps ms : Forall2 canon ps ms -> Forall2 good ps ms.
  Proof. apply Forall2_weaken. intros p m [G _]. exact G. Qed.

  (** repairWalFile writes back what a reader in stop mode returns from the same file: if that is the
      messages of the canonical payloads [ps] and then end-of-log or an error, the result is their frames *)
  Lemma repair_loop_reads : forall fuel bs acc ps ms tail,
    decode_all false fuel RFile bs = map ObMsg ms ++ tail -> (tail = [ObEof] \/ exists c, tail = [ObCorrupt c]) ->
    Forall2 canon ps ms -> repair_loop fuel bs acc = (acc ++ frames ps, true).
  Proof.
    induction fuel as [|f IH]; intros bs acc ps ms tail E T C; cbn [Model.decode_all Model.repair_loop] in *.
    - destruct C; [cbn in E; subst tail; destruct T as [T|[c T]]|]; discriminate.
    - destruct (decode RFile bs) as [m rest| |c rest]; destruct C as [|p m' ps ms [G S] C]; cbn [map app] in E.
      + subst tail. destruct T as [T|[c T]]; discriminate.
      + injection E as <- E. rewrite S, (encode_good p m G), (IH _ _ _ _ _ E T C), frames_cons, app_assoc. reflexivity.
      + rewrite app_nil_r. reflexivity.
      + discriminate.
      + rewrite app_nil_r. reflexivity.
      + discriminate.
  Qed.

  Lemma repair_reads bs ps ms tail :
    read_log false RFile bs = map ObMsg ms ++ tail -> (tail = [ObEof] \/ exists c, tail = [ObCorrupt c]) ->
    Forall2 canon ps ms -> repair bs = (frames ps, true).
  Proof. apply repair_loop_reads. Qed. (* [repair bs] and [read_log _ _ bs] run on the same fuel, [S (length bs)] *)

  Lemma repair_prefix ps ms tail :
    Forall2 canon ps ms -> (forall m r, decode RFile tail <> OMsg m r) ->
    repair (frames ps ++ tail) = (frames ps, true).
  Proof using crc_range.
    intros C T. apply (repair_reads _ ps ms (read_log false RFile tail)); auto using read_log_stops.
    apply read_log_frames_app, canon_good, C.
  Qed.

  (** repairing a TRUNCATED log: the result is the frames of a prefix of the written records (the
      record cut by the truncation is dropped — or, os.File zero-fill, completed to exactly what it
      was); the only escape is an explicit CRC collision on a payload that unmarshals *)
  Lemma repair_truncated ps ms n :
    Forall2 canon ps ms -> n < length (frames ps) ->
    (exists j, repair (firstn n (frames ps)) = (frames (firstn j ps), true)) \/
    (exists p, In p ps /\ collision p).
  Proof using crc_range.
    intros C Hn. destruct (read_log_truncated RFile ps ms n (canon_good ps ms C) Hn) as [[j [tail [E T]]]|[_ R]]; [left|right; exact R].
    exists j. apply (repair_reads _ _ (firstn j ms) tail E T), Forall2_firstn, C.
  Qed.
End Log.

(** ** single-byte damage, with the real CRC-32C *)
Section Flip.
  Variable msg : Type.
  Variable deser : bytes -> option msg.
  Notation frame := (frame crc32c).
  Notation decode := (decode crc32c msg deser).

  Lemma wf_set_nth i b l : wf_bytes l -> (b < 256)%N -> wf_bytes (set_nth i b l).
  Proof.
    unfold wf_bytes. revert i. induction l as [|h l IH]; intros [|i] W B; cbn; auto; inversion W; subst; constructor; auto.
  Qed.

  (** changing any one byte of the CRC field or of the payload of a frame (in particular flipping
      any one bit there) is always reported as a checksum error — never a message *)
  Lemma bitflip_detected k p rest i b' :
    wf_bytes p -> p <> [] -> (lenN p <= max_msg_size_bytes)%N ->
    i < length (frame p) -> ~ (4 <= i < 8) -> (b' < 256)%N -> nth i (frame p) 0%N <> b' ->
    decode k (set_nth i b' (frame p) ++ rest) = OCorrupt CCrc rest.
  Proof.
    intros W NE L Hi Hout Hb Hne. rewrite frame_length in Hi.
    assert (CR : forall x, wf_bytes x -> (crc32c x < 4294967296)%N) by (apply crc32c_lt).
    destruct (le_lt_dec 4 i) as [I4|I4].
    - (* in the payload *)
      assert (I8 : 8 <= i) by lia. unfold Model.frame in *.
      rewrite set_nth_app_r in * by (rewrite be32_length; lia). rewrite be32_length in *.
      rewrite app_nth2 in Hne by (rewrite be32_length; lia). rewrite be32_length in Hne.
      rewrite set_nth_app_r in * by (rewrite be32_length; lia). rewrite be32_length in *.
      rewrite app_nth2 in Hne by (rewrite be32_length; lia). rewrite be32_length in Hne.
      replace (i - 4 - 4) with (i - 8) in * by lia.
      destruct (set_nth_split (i - 8) b' 0%N p) as [pre [suf [E1 [E2 E3]]]]; [lia|].
      remember (nth (i - 8) p 0%N) as b eqn:Hbdef.
      assert (Wp : wf_bytes (pre ++ b :: suf)) by (rewrite <- E1; exact W).
      apply wf_app in Wp. destruct Wp as [Wpre Wsuf].
      pose proof (Forall_inv Wsuf) as Hbb. pose proof (Forall_inv_tail Wsuf) as Wsuf'. cbv beta in Hbb.
      assert (LN : lenN p = lenN (set_nth (i - 8) b' p)) by (unfold lenN; rewrite set_nth_length; reflexivity).
      rewrite LN, <- !app_assoc.
      apply (decode_crc_mismatch crc32c msg deser k (be32 (crc32c p))).
      + reflexivity.
      + rewrite <- LN. exact L.
      + rewrite E2. destruct pre; discriminate.
      + rewrite of_be32_be32 by (apply CR; exact W). rewrite E2. rewrite E1 at 1.
        apply crc32c_one_byte; auto.
    - (* in the CRC field *)
      unfold Model.frame in *. rewrite set_nth_app_l in * by (rewrite be32_length; lia).
      rewrite app_nth1 in Hne by (rewrite be32_length; lia). rewrite <- !app_assoc.
      apply (decode_crc_mismatch crc32c msg deser k); auto.
      + rewrite set_nth_length. reflexivity.
      + intro Q. apply Hne.
        assert (E : be32 (of_be32 (set_nth i b' (be32 (crc32c p)))) = set_nth i b' (be32 (crc32c p))).
        { apply be32_of_be32; [rewrite set_nth_length; reflexivity|]. apply wf_set_nth; auto. apply be32_wf. }
        rewrite Q in E. rewrite E.
        assert (N : nth_error (set_nth i b' (be32 (crc32c p))) i = Some b') by (apply nth_error_set_nth_eq; rewrite be32_length; lia).
        apply nth_error_nth. exact N.
  Qed.

  (** the whole log with ONE record damaged in its CRC field or payload: every record before it reads
      back, the damaged one is reported as a checksum error — and nothing else: in stop mode
      (catchupReplay, repairWalFile) the log ends there, in ignore mode (SearchForEndHeight) every
      record behind it reads back too, then end-of-log.  Never a different message. *)
  Lemma bitflip_log cont k pre p post pre_ms post_ms i b' :
    Forall2 (good msg deser) pre pre_ms -> Forall2 (good msg deser) post post_ms ->
    wf_bytes p -> p <> [] -> (lenN p <= max_msg_size_bytes)%N ->
    i < length (frame p) -> ~ (4 <= i < 8) -> (b' < 256)%N -> nth i (frame p) 0%N <> b' ->
    read_log crc32c msg deser cont k (frames crc32c pre ++ set_nth i b' (frame p) ++ frames crc32c post) =
      map ObMsg pre_ms ++ ObCorrupt CCrc :: (if cont then map ObMsg post_ms ++ [ObEof] else []).
  Proof.
    intros Gpre Gpost W NE L Hi Hout Hb Hne.
    rewrite (read_log_frames_app crc32c crc32c_lt msg deser cont k pre pre_ms _ Gpre). f_equal.
    rewrite (read_log_corrupt crc32c msg deser cont k _ CCrc (frames crc32c post))
      by (apply bitflip_detected; auto).
    f_equal. destruct cont; auto. apply (roundtrip crc32c crc32c_lt msg deser true k post post_ms Gpost).
  Qed.
End Flip.
