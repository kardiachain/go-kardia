(** C15 — SearchForEndHeight on a log in which any number of records are damaged in a way the decoder
    steps over (a checksum error: the length field is intact, so the decoder stays in step).  The log is
    a list of items: good records and damaged ones. *)
From Coq Require Import List ZArith Bool Lia Sorted.
From Kardia Require Import C15.ProofsCrc C15.Model C15.ProofsFrame C15.ProofsLog C15.ProofsGroup.
Import ListNotations.

Lemma sorted_split {A} (R : A -> A -> Prop) a x b :
  StronglySorted R (a ++ x :: b) -> (forall y, In y a -> R y x) /\ (forall y, In y b -> R x y).
Proof.
  induction a as [|h a IH]; cbn; intro S.
  - apply StronglySorted_inv in S. destruct S as [_ F]. split; [tauto|]. intros y Hy. eapply Forall_forall in F; eauto.
  - apply StronglySorted_inv in S. destruct S as [S F]. destruct (IH S) as [I1 I2]. split; auto.
    intros y [->|Hy]; auto. eapply Forall_forall in F; [exact F|]. apply in_or_app. right. left. reflexivity.
Qed.

Lemma concat_split {A} (chunks : list (list A)) : forall pre x post,
  concat chunks = pre ++ x :: post ->
  exists cs1 c0a c0b cs2, chunks = cs1 ++ (c0a ++ x :: c0b) :: cs2 /\ pre = concat cs1 ++ c0a /\ post = c0b ++ concat cs2.
Proof.
  induction chunks as [|c cs IH]; intros pre x post E; cbn in E.
  - destruct pre; discriminate.
  - apply app_eq_app in E. destruct E as [l [[E1 E2]|[E1 E2]]].
    + destruct l as [|y l].
      * cbn in E2. rewrite app_nil_r in E1. subst c. symmetry in E2.
        destruct (IH [] x post E2) as [cs1 [c0a [c0b [cs2 [Q1 [Q2 Q3]]]]]].
        exists (pre :: cs1), c0a, c0b, cs2. subst cs. cbn [app concat]. repeat split; auto.
        rewrite <- app_assoc, <- Q2, app_nil_r. reflexivity.
      * cbn in E2. injection E2 as -> ->. exists [], pre, l, cs. subst c. cbn. auto.
    + destruct (IH l x post E2) as [cs1 [c0a [c0b [cs2 [Q1 [Q2 Q3]]]]]].
      exists (c :: cs1), c0a, c0b, cs2. subst cs pre l. cbn [app concat]. repeat split; auto.
      rewrite app_assoc. reflexivity.
Qed.

Lemma Forall_concat_skipn {A} (P : A -> Prop) k (chunks : list (list A)) :
  Forall P (concat chunks) -> Forall P (concat (skipn k chunks)).
Proof.
  intro F. rewrite <- (concat_firstn_skipn k chunks) in F. apply Forall_app in F. tauto.
Qed.

Inductive item := IGood (p : bytes) | IBad (b : bytes) (c : cclass).

Section Items.
  Variable crc : bytes -> N.
  Hypothesis crc_range : forall x, wf_bytes x -> (crc x < 4294967296)%N.
  Variable msg : Type.
  Variable deser : bytes -> option msg.
  Variable end_height : msg -> option Z.

  Notation frame := (frame crc).
  Notation decode := (decode crc msg deser).
  Notation scan := (scan crc msg deser end_height).
  Notation search_loop := (search_loop crc msg deser end_height).
  Notation search := (search crc msg deser end_height).
  Notation mark := (mark msg deser end_height).
  Notation goodp := (goodp msg deser).
  Notation marks := (marks msg deser end_height).
  Notation pos_marks := (pos_marks msg deser end_height).

  Definition ibytes (it : item) : bytes := match it with IGood p => frame p | IBad b _ => b end.
  Definition istream (its : list item) : bytes := concat (map ibytes its).
  Definition imark (it : item) : option Z := match it with IGood p => mark p | IBad _ _ => None end.
  Definition imarks (its : list item) : list Z :=
    flat_map (fun it => match imark it with Some x => [x] | None => [] end) its.
  Definition ipos_marks (its : list item) : list Z := filter (fun x => (0 <? x)%Z) (imarks its).

  (** a good record is a valid frame; a damaged one is reported as corruption class [c] by the group
      reader and stepped over, whatever follows it *)
  Definition iok (it : item) : Prop :=
    match it with
    | IGood p => goodp p
    | IBad b c => forall rest, decode RGroup (b ++ rest) = OCorrupt c rest
    end.

  Lemma istream_cons it its : istream (it :: its) = ibytes it ++ istream its.
  Proof. reflexivity. Qed.

  Lemma istream_app a b : istream (a ++ b) = istream a ++ istream b.
  Proof. unfold istream. rewrite map_app, concat_app. reflexivity. Qed.

  Lemma concat_map_istream chunks : concat (map istream chunks) = istream (concat chunks).
  Proof. apply concat_map_concat. Qed.

  Lemma ibytes_nonempty it : iok it -> 1 <= length (ibytes it).
  Proof.
    destruct it as [p|b c]; cbn [iok ibytes]; intro H.
    - rewrite frame_length. lia.
    - pose proof (decode_consumes crc msg deser RGroup (b ++ [])) as C. rewrite (H []) in C.
      rewrite app_length in C. cbn in C. lia.
  Qed.

  Lemma istream_length_ge its : Forall iok its -> length its <= length (istream its).
  Proof.
    induction 1 as [|it its H _ IH]; [cbn; lia|]. rewrite istream_cons, app_length.
    pose proof (ibytes_nonempty it H). cbn [length]. lia.
  Qed.

  (** [scan] and [search_loop] read off the items instead of their bytes *)
  Fixpoint scan_abs (h : Z) (ign : bool) (its : list item) (last : Z) : scan_res :=
    match its with
    | [] => if ((0 <? last) && (last <? h))%Z then ScStop else ScNext last
    | IGood p :: r =>
      match mark p with
      | Some x => if (x =? h)%Z then ScFound (istream r) else scan_abs h ign r x
      | None => scan_abs h ign r last
      end
    | IBad _ c :: r => if ign then scan_abs h ign r last else ScErr c
    end.

  Lemma scan_items h ign : forall its, Forall iok its -> forall f last,
    scan (length its + S f) h ign (istream its) last = scan_abs h ign its last.
  Proof.
    induction 1 as [|it its H _ IH]; intros f last.
    - cbn [length Nat.add Model.scan]. change (istream []) with (@nil N). rewrite decode_nil. reflexivity.
    - cbn [length Nat.add Model.scan]. rewrite istream_cons. destruct it as [p|b c]; cbn [iok ibytes scan_abs] in *.
      + destruct H as [m G]. rewrite (decode_frame' crc crc_range msg deser RGroup p m _ G).
        unfold ProofsGroup.mark. destruct G as [D _]. rewrite D. destruct (end_height m) as [x|]; [|apply IH].
        destruct (x =? h)%Z; [reflexivity|apply IH].
      + rewrite H. destruct ign; [apply IH|reflexivity].
  Qed.

  Fixpoint search_abs (k : nat) (chunks : list (list item)) (h : Z) (ign : bool) (last : Z) : sres :=
    match k with
    | O => SNotFound
    | S k' =>
      match scan_abs h ign (concat (skipn k' chunks)) last with
      | ScFound rest => SFound rest
      | ScStop => SNotFound
      | ScErr c => SErr c
      | ScFuel => SFuel
      | ScNext l => search_abs k' chunks h ign l
      end
    end.

  Lemma search_loop_items h ign chunks : Forall iok (concat chunks) -> forall k last,
    search_loop k (map istream chunks) h ign last = search_abs k chunks h ign last.
  Proof.
    intros G. induction k as [|k IH]; intro last; [reflexivity|].
    cbn [Model.search_loop search_abs]. rewrite skipn_map, concat_map_istream.
    set (sfx := concat (skipn k chunks)).
    assert (Gs : Forall iok sfx) by (apply Forall_concat_skipn; exact G).
    pose proof (istream_length_ge sfx Gs) as L.
    replace (S (length (istream sfx))) with (length sfx + S (length (istream sfx) - length sfx)) by lia.
    rewrite scan_items by exact Gs.
    destruct (scan_abs h ign sfx last); auto.
  Qed.

  Lemma imarks_app a b : imarks (a ++ b) = imarks a ++ imarks b.
  Proof. unfold imarks. apply flat_map_app. Qed.

  Lemma imarks_skipn k chunks x : In x (imarks (concat (skipn k chunks))) -> In x (imarks (concat chunks)).
  Proof. intro I. rewrite <- (concat_firstn_skipn k chunks), imarks_app. apply in_or_app. auto. Qed.

  Lemma imarks_cons it its : imarks (it :: its) = match imark it with Some x => [x] | None => [] end ++ imarks its.
  Proof. reflexivity. Qed.

  (** with IgnoreDataCorruptionErrors a damaged record is passed like a record without a marker *)
  Lemma scan_abs_cons h it r last :
    scan_abs h true (it :: r) last =
    match imark it with
    | Some x => if (x =? h)%Z then ScFound (istream r) else scan_abs h true r x
    | None => scan_abs h true r last
    end.
  Proof. destruct it; reflexivity. Qed.

  Lemma early_exit_false l h : (l <= 0 \/ h <= l)%Z -> ((0 <? l) && (l <? h))%Z = false.
  Proof. intro H. destruct (Z.ltb_spec 0 l), (Z.ltb_spec l h); try reflexivity. lia. Qed.

  (** a file without the marker is scanned to its end; the early-exit test is then made on the last
      marker seen *)
  Lemma scan_abs_absent h : forall its last, ~ In h (imarks its) ->
    exists l, In l (last :: imarks its) /\
              scan_abs h true its last = if ((0 <? l) && (l <? h))%Z then ScStop else ScNext l.
  Proof.
    induction its as [|it its IH]; intros last N.
    - exists last. split; [left|]; reflexivity.
    - rewrite scan_abs_cons, imarks_cons in *. destruct (imark it) as [x|]; [|apply IH, N].
      cbn in N. destruct (Z.eqb_spec x h); [tauto|].
      destruct (IH x) as [l [I E]]; [tauto|]. exists l. split; [right; exact I|exact E].
  Qed.

  Lemma search_abs_absent h chunks : ~ In h (imarks (concat chunks)) -> forall k last,
    search_abs k chunks h true last = SNotFound.
  Proof.
    intros N. induction k as [|k IH]; intro last; [reflexivity|]. cbn [search_abs].
    assert (N' : ~ In h (imarks (concat (skipn k chunks)))).
    { intro I. apply N, (imarks_skipn k), I. }
    destruct (scan_abs_absent h _ last N') as [l [_ E]]. rewrite E. destruct (_ && _)%Z; auto.
  Qed.

  Lemma scan_abs_found h : forall pre p0 post last, ~ In h (imarks pre) -> mark p0 = Some h ->
    scan_abs h true (pre ++ IGood p0 :: post) last = ScFound (istream post).
  Proof.
    induction pre as [|it pre IH]; intros p0 post last N M; cbn [app]; rewrite scan_abs_cons.
    - cbn [imark]. rewrite M, Z.eqb_refl. reflexivity.
    - rewrite imarks_cons in N. destruct (imark it) as [x|]; [|apply IH; auto].
      cbn in N. destruct (Z.eqb_spec x h); [tauto|]. apply IH; tauto.
  Qed.

  (** files younger than the one holding the marker: every positive marker there is larger
      (non-positive ones — the restart marker 0 — never stop the scan), so the scan moves on *)
  Lemma scan_abs_later h its last : (0 < h)%Z ->
    (forall x, In x (last :: imarks its) -> (x <= 0 \/ h < x)%Z) ->
    exists l, scan_abs h true its last = ScNext l /\ (l <= 0 \/ h < l)%Z.
  Proof.
    intros Hh A. destruct (scan_abs_absent h its last) as [l [I E]].
    - intro I. destruct (A h (or_intror I)); lia.
    - exists l. specialize (A l I). rewrite E, early_exit_false by lia. auto.
  Qed.

  Lemma search_abs_found h cs1 c0a p0 c0b cs2 :
    let chunks := cs1 ++ (c0a ++ IGood p0 :: c0b) :: cs2 in
    (0 < h)%Z -> StronglySorted Z.lt (ipos_marks (concat chunks)) -> mark p0 = Some h ->
    search_abs (length chunks) chunks h true (-1) = SFound (istream (c0b ++ concat cs2)).
  Proof.
    intros chunks Hh S M.
    assert (E : concat chunks = (concat cs1 ++ c0a) ++ IGood p0 :: (c0b ++ concat cs2)).
    { unfold chunks. rewrite concat_app. cbn. rewrite <- !app_assoc. reflexivity. }
    unfold ipos_marks in S. rewrite E, imarks_app, imarks_cons in S. cbn [imark] in S.
    rewrite M in S. cbn [app] in S.
    rewrite filter_app in S. cbn [filter] in S.
    assert (P : (0 <? h)%Z = true) by (apply Z.ltb_lt; exact Hh). rewrite P in S.
    apply sorted_split in S. destruct S as [S1 S2].
    assert (T1 : ~ In h (imarks (concat cs1 ++ c0a))).
    { intro Hin. assert (In h (filter (fun x => (0 <? x)%Z) (imarks (concat cs1 ++ c0a)))) by (apply filter_In; auto).
      apply S1 in H. lia. }
    assert (T2 : forall x, In x (imarks (c0b ++ concat cs2)) -> (x <= 0 \/ h < x)%Z).
    { intros x Hx. destruct (Z.ltb_spec 0 x) as [Px|Px]; [|left; lia]. right. apply S2. apply filter_In. split; auto.
      apply Z.ltb_lt. exact Px. }
    (* files are tried from the newest; [j] counts the files of [cs2] still to be passed; each ends in
       [ScNext l] with [l <= 0 \/ h < l] ([scan_abs_later]), so the early exit does not fire before the
       file holding [p0] is reached *)
    assert (G : forall j last, j <= length cs2 -> (last <= 0 \/ h < last)%Z ->
                search_abs (length cs1 + 1 + j) chunks h true last = SFound (istream (c0b ++ concat cs2))).
    { induction j as [|j IH]; intros last Lj I.
      - replace (length cs1 + 1 + 0) with (S (length cs1)) by lia. cbn [search_abs].
        unfold chunks. rewrite skipn_app, Nat.sub_diag, skipn_all. cbn [app skipn concat].
        rewrite <- app_assoc. cbn [app]. rewrite scan_abs_found; auto.
        intro Hin. apply T1. rewrite imarks_app. apply in_or_app. auto.
      - replace (length cs1 + 1 + S j) with (S (length cs1 + 1 + j)) by lia. cbn [search_abs].
        assert (Sk : skipn (length cs1 + 1 + j) chunks = skipn j cs2).
        { unfold chunks. rewrite skipn_app. rewrite skipn_all2 by lia. cbn [app].
          replace (length cs1 + 1 + j - length cs1) with (S j) by lia. reflexivity. }
        rewrite Sk.
        destruct (scan_abs_later h (concat (skipn j cs2)) last Hh) as [l [El Il]].
        { intros x [<-|Hx]; [exact I|]. apply T2. rewrite imarks_app. apply in_or_app. right.
          apply (imarks_skipn j), Hx. }
        rewrite El. apply IH; auto. lia. }
    replace (length chunks) with (length cs1 + 1 + length cs2).
    - apply G; auto. left. lia.
    - unfold chunks. rewrite app_length. cbn. lia.
  Qed.

  Lemma scan_abs_present h : forall its last, In h (imarks its) -> exists rest, scan_abs h true its last = ScFound rest.
  Proof.
    induction its as [|it its IH]; intros last I; [destruct I|].
    rewrite scan_abs_cons. rewrite imarks_cons in I. destruct (imark it) as [x|]; [|apply IH, I].
    destruct (Z.eqb_spec x h); [eauto|]. apply IH. destruct I; [congruence|auto].
  Qed.

  (** non-positive heights (the restart marker 0, possibly repeated): the early exit never fires *)
  Lemma search_abs_nonpos h chunks : (h <= 0)%Z -> In h (imarks (concat chunks)) ->
    forall k last, 1 <= k -> exists rest, search_abs k chunks h true last = SFound rest.
  Proof.
    intros Hh I. induction k as [|k IH]; intros last K; [lia|]. cbn [search_abs].
    destruct (in_dec Z.eq_dec h (imarks (concat (skipn k chunks)))) as [P|A].
    - destruct (scan_abs_present h _ last P) as [rest E]. rewrite E. eauto.
    - destruct (scan_abs_absent h _ last A) as [l [_ E]]. rewrite E, early_exit_false by lia.
      destruct k as [|k]; [exfalso; apply A; exact I|]. apply IH. lia.
  Qed.

  (** without IgnoreDataCorruptionErrors: the same answer, or the error of a damaged record that lies on the way *)
  Definition bad_class (its : list item) (c : cclass) : Prop := exists b, In (IBad b c) its.

  Lemma scan_abs_strict h : forall its last,
    scan_abs h false its last = scan_abs h true its last \/
    exists c, bad_class its c /\ scan_abs h false its last = ScErr c.
  Proof.
    induction its as [|it its IH]; intros last; cbn [scan_abs]; [left; reflexivity|].
    assert (W : forall l, scan_abs h false its l = scan_abs h true its l \/
                          exists c, bad_class (it :: its) c /\ scan_abs h false its l = ScErr c).
    { intro l. destruct (IH l) as [E|[c [[b B] E]]]; [left; exact E|]. right. exists c. split; [exists b; right; exact B|exact E]. }
    destruct it as [p|b c].
    - destruct (mark p) as [x|]; [destruct (x =? h)%Z; [left; reflexivity|apply W]|apply W].
    - right. exists c. split; [exists b; left; reflexivity|reflexivity].
  Qed.

  Lemma search_abs_strict h chunks : forall k last,
    search_abs k chunks h false last = search_abs k chunks h true last \/
    exists c, bad_class (concat chunks) c /\ search_abs k chunks h false last = SErr c.
  Proof.
    induction k as [|k IH]; intro last; [left; reflexivity|]. cbn [search_abs].
    destruct (scan_abs_strict h (concat (skipn k chunks)) last) as [E|[c [[b B] E]]].
    - rewrite E. destruct (scan_abs h true (concat (skipn k chunks)) last); auto.
    - right. exists c. split.
      + exists b. rewrite <- (concat_firstn_skipn k chunks). apply in_or_app. right. exact B.
      + rewrite E. reflexivity.
  Qed.

  (** A group whose files are whole items (rotation happens between records; damage does not move the
      boundaries), every damaged record being one the decoder steps over, the POSITIVE markers of the
      intact records strictly increasing.  With IgnoreDataCorruptionErrors a positive height is found
      iff its marker record is intact, and the reader is positioned exactly after it (the rest of the
      log, damaged records included); non-positive heights are found iff present.  Without it the
      answer is the same, or the error class of a damaged record. *)
  Lemma search_damaged g chunks h :
    disk_files g = map istream chunks -> Forall iok (concat chunks) ->
    StronglySorted Z.lt (ipos_marks (concat chunks)) ->
    (forall pre p0 post, (0 < h)%Z -> concat chunks = pre ++ IGood p0 :: post -> mark p0 = Some h ->
       search g h true = SFound (istream post)) /\
    ((h <= 0)%Z -> In h (imarks (concat chunks)) -> exists rest, search g h true = SFound rest) /\
    (~ In h (imarks (concat chunks)) -> search g h true = SNotFound) /\
    (search g h false = search g h true \/ exists c, bad_class (concat chunks) c /\ search g h false = SErr c).
  Proof.
    intros D G S. unfold Model.search. rewrite D, map_length. rewrite !search_loop_items by exact G. repeat split.
    - intros pre p0 post Hh E M.
      destruct (concat_split chunks pre (IGood p0) post E) as [cs1 [c0a [c0b [cs2 [Q1 [Q2 Q3]]]]]].
      subst chunks post. apply search_abs_found; auto.
    - intros Hh I. apply search_abs_nonpos; auto. destruct chunks; [destruct I|cbn; lia].
    - intro N. apply search_abs_absent. exact N.
    - apply search_abs_strict.
  Qed.

  (** ** an undamaged log is the case where every item is good *)

  Lemma istream_good ps : istream (map IGood ps) = frames crc ps.
  Proof. unfold istream. rewrite map_map. reflexivity. Qed.

  Lemma imarks_good ps : imarks (map IGood ps) = marks ps.
  Proof. unfold imarks, ProofsGroup.marks. rewrite flat_map_concat_map, map_map, <- flat_map_concat_map. reflexivity. Qed.

  Lemma iok_good ps : Forall goodp ps -> Forall iok (map IGood ps).
  Proof. intro G. apply Forall_map. exact G. Qed.

  Lemma bad_class_good ps c : ~ bad_class (map IGood ps) c.
  Proof. intros [b I]. apply in_map_iff in I. destruct I as [p [E _]]. discriminate E. Qed.

  (** what SearchForEndHeight answers on a group holding the valid records [ps]: a positive height is
      found iff its marker is among them, and the reader returned is positioned exactly after the
      marker's frame; a non-positive height is found iff its marker is among them *)
  Definition search_spec (g : group) (ps : list bytes) (h : Z) (ign : bool) : Prop :=
    (forall pre p0 post, (0 < h)%Z -> ps = pre ++ p0 :: post -> mark p0 = Some h ->
       search g h ign = SFound (frames crc post)) /\
    ((h <= 0)%Z -> In h (marks ps) -> exists rest, search g h ign = SFound rest) /\
    (~ In h (marks ps) -> search g h ign = SNotFound).

  (** It holds for a flushed group whose files are whole-frame chunks of a valid log in which the POSITIVE
      end-height markers increase strictly (markers <= 0 — the [EndHeightMessage{0}] OnStart writes on
      every empty head, so also after a rotation followed by a restart — may occur anywhere, any
      number of times). *)
  Lemma search_iff g chunks h ign :
    disk_files g = map (frames crc) chunks -> Forall goodp (concat chunks) ->
    StronglySorted Z.lt (pos_marks (concat chunks)) -> search_spec g (concat chunks) h ign.
  Proof.
    intros D G S.
    assert (E : concat (map (map IGood) chunks) = map IGood (concat chunks)) by (symmetry; apply concat_map).
    destruct (search_damaged g (map (map IGood) chunks) h) as [F [Z [N T]]].
    - rewrite D, map_map. apply map_ext. intro ps. symmetry. apply istream_good.
    - rewrite E. apply iok_good, G.
    - unfold ipos_marks. rewrite E, imarks_good. exact S.
    - rewrite E, imarks_good in *.
      assert (I : search g h ign = search g h true).
      { destruct ign; [reflexivity|]. destruct T as [T|[c [B _]]]; [exact T|]. destruct (bad_class_good _ _ B). }
      unfold search_spec. rewrite I. repeat split; auto.
      intros pre p0 post Hh C M. rewrite <- istream_good. apply (F (map IGood pre) p0); auto.
      rewrite C, map_app. reflexivity.
  Qed.
End Items.
