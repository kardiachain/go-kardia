(** C15 — the file group.  Writing: the invariant [inv] (the rotated files and head + buffer are whole-frame
    chunks of what was accepted, minus the pruned oldest records) along any run of operations; what a
    GroupReader then sees ([group_roundtrip]); the OnStart repair inside a group ([repair_head_spec]).  The
    end-height markers of a log of payloads ([mark], [marks], [goodp], [pos_marks]), in which the search
    theorems of ProofsSearch.v are stated.  After the section: checkTotalSizeLimit on any group
    ([prune_loop_spec], [prune_sound]). *)
From Coq Require Import List ZArith NArith Bool Lia Arith.
From Kardia Require Import C15.ProofsCrc C15.Model C15.ProofsLog Generated.C15Facts.
Import ListNotations.

Lemma concat_map_concat {A B} (f : A -> list B) (chunks : list (list A)) :
  concat (map (fun c => concat (map f c)) chunks) = concat (map f (concat chunks)).
Proof. induction chunks as [|c cs IH]; [reflexivity|]. cbn [map concat]. rewrite IH, map_app, concat_app. reflexivity. Qed.

Lemma concat_firstn_skipn {A} k (l : list (list A)) : concat (firstn k l) ++ concat (skipn k l) = concat l.
Proof. rewrite <- concat_app, firstn_skipn. reflexivity. Qed.

Section Group.
  Variable crc : bytes -> N.
  Hypothesis crc_range : forall x, wf_bytes x -> (crc x < 4294967296)%N.
  Variable msg : Type.
  Variable ser : msg -> bytes.
  Variable deser : bytes -> option msg.
  Variable end_height : msg -> option Z.

  Notation frame := (frame crc).
  Notation frames := (frames crc).
  Notation decode := (decode crc msg deser).
  Notation good := (good msg deser).
  Notation wal_step := (wal_step crc).
  Notation wal_run := (wal_run crc).

  (** ** writing: the group always holds exactly the accepted frames, rotated files hold whole frames.
      For [WStart], OnStart looks at the size of the head file after Stop has flushed it and OpenGroup has
      re-opened the group: that head is [g_head g ++ g_buf g] ([reopen_flush_head]). *)
  Definition accepted (g : group) (o : wal_op) : list bytes :=
    match o with
    | WWrite p | WWriteSync p => match encode crc p with Some _ => [p] | None => [] end
    | WStart p0 =>
      match g_head g ++ g_buf g with
      | [] => match encode crc p0 with Some _ => [p0] | None => [] end
      | _ => []
      end
    | _ => []
    end.

  (** the payloads accepted along a run (the restart marker is written only on an empty head) *)
  Fixpoint run_written (g : group) (ops : list wal_op) : list bytes :=
    match ops with
    | [] => []
    | o :: r => accepted g o ++ run_written (fst (wal_step g o)) r
    end.

  (** bytes removed from the disk by checkTotalSizeLimit along a run *)
  Definition step_pruned (g : group) (o : wal_op) : nat :=
    match o with
    | WPrune tl => length (concat (firstn (pruned_count tl g) (g_files g)))
    | _ => 0
    end.

  Fixpoint run_pruned (g : group) (ops : list wal_op) : nat :=
    match ops with
    | [] => 0
    | o :: r => step_pruned g o + run_pruned (fst (wal_step g o)) r
    end.

  (** [ps]: everything accepted so far; [dropped]: the oldest records, whose files were pruned ([n] bytes) *)
  Definition inv (g : group) (ps : list bytes) (n : nat) : Prop :=
    exists dropped chunks cur, g_files g = map frames chunks /\ g_head g ++ g_buf g = frames cur /\
      dropped ++ concat chunks ++ cur = ps /\ length (frames dropped) = n.

  Lemma bufio_write_concat cap disk buf p :
    fst (bufio_write cap disk buf p) ++ snd (bufio_write cap disk buf p) = disk ++ buf ++ p.
  Proof.
    unfold bufio_write. destruct (Nat.leb (length p) (cap - length buf)); cbn [fst snd]; [reflexivity|].
    destruct buf as [|b buf]; cbn [fst snd]; [rewrite app_nil_r; reflexivity|].
    destruct (Nat.leb (length (skipn (cap - length (b :: buf)) p)) cap); cbn [fst snd].
    - rewrite <- !app_assoc. rewrite firstn_skipn. reflexivity.
    - rewrite app_nil_r, <- !app_assoc. rewrite firstn_skipn. reflexivity.
  Qed.

  Lemma concat_map_frames chunks : concat (map frames chunks) = frames (concat chunks).
  Proof. apply concat_map_concat. Qed.

  Lemma encode_some p fr : encode crc p = Some fr -> fr = frame p.
  Proof. unfold encode. destruct (_ <? _)%N; congruence. Qed.

  Lemma group_write_inv g ps n p : inv g ps n -> inv (group_write g (frame p)) (ps ++ [p]) n.
  Proof.
    intros [dr [chunks [cur [F [H [C L]]]]]]. unfold group_write.
    pose proof (bufio_write_concat (N.to_nat head_buf_size) (g_head g) (g_buf g) (frame p)) as B.
    destruct (bufio_write (N.to_nat head_buf_size) (g_head g) (g_buf g) (frame p)) as [d b]. cbn [fst snd] in B.
    exists dr, chunks, (cur ++ [p]). cbn [g_files g_head g_buf]. repeat split; auto.
    - rewrite B, app_assoc, H, (frames_app crc). cbn. rewrite app_nil_r. reflexivity.
    - rewrite <- C, <- !app_assoc. reflexivity.
  Qed.

  Lemma group_flush_inv g ps n : inv g ps n -> inv (group_flush g) ps n.
  Proof.
    intros [dr [chunks [cur [F [H [C L]]]]]]. exists dr, chunks, cur. cbn. rewrite app_nil_r. auto.
  Qed.

  Lemma group_rotate_inv g ps n : inv g ps n -> inv (group_rotate g) ps n.
  Proof.
    intros [dr [chunks [cur [F [H [C L]]]]]]. exists dr, (chunks ++ [cur]), []. cbn. repeat split; auto.
    - rewrite map_app, F, H. reflexivity.
    - rewrite concat_app. cbn. rewrite !app_nil_r. exact C.
  Qed.

  (** OpenGroup re-reads the indices from the directory; the contents are what they were *)
  Lemma reopen_inv g ps n : inv g ps n -> inv (reopen g) ps n.
  Proof.
    intros I. unfold reopen. destruct (g_files g) as [|f fs] eqn:E; [|exact I].
    destruct I as [dr [chunks [cur [F [H [C L]]]]]]. exists dr, chunks, cur. cbn [g_files g_head g_buf].
    rewrite E in F. auto.
  Qed.

  (** checkTotalSizeLimit removes whole files from the old end: whole records *)
  Lemma prune_inv tl g ps n : inv g ps n -> inv (check_total_size_limit tl g) ps (n + step_pruned g (WPrune tl)).
  Proof.
    intros [dr [chunks [cur [F [H [C L]]]]]]. cbn [step_pruned]. unfold check_total_size_limit.
    set (k := pruned_count tl g).
    exists (dr ++ concat (firstn k chunks)), (skipn k chunks), cur. cbn [g_files g_head g_buf]. repeat split.
    - rewrite F. apply skipn_map.
    - exact H.
    - rewrite <- C, <- !app_assoc. f_equal. rewrite !app_assoc. f_equal.
      apply concat_firstn_skipn.
    - rewrite (frames_app crc), app_length, L. f_equal. rewrite F, firstn_map, concat_map_frames. reflexivity.
  Qed.

  Lemma wal_write_inv g ps n p :
    inv g ps n -> inv (fst (wal_write crc g p)) (ps ++ match encode crc p with Some _ => [p] | None => [] end) n.
  Proof.
    intro I. unfold wal_write. destruct (encode crc p) as [fr|] eqn:E; cbn [fst]; [|rewrite app_nil_r; exact I].
    apply encode_some in E. subst fr. apply group_write_inv, I.
  Qed.

  Lemma wal_write_sync_inv g ps n p :
    inv g ps n -> inv (fst (wal_write_sync crc g p)) (ps ++ match encode crc p with Some _ => [p] | None => [] end) n.
  Proof.
    intro I. unfold wal_write_sync. destruct (encode crc p) as [fr|] eqn:E; cbn [fst]; [|rewrite app_nil_r; exact I].
    apply encode_some in E. subst fr. apply group_flush_inv, group_write_inv, I.
  Qed.

  (** the head file OnStart looks at: flushed by Stop, re-opened by OpenGroup *)
  Lemma reopen_flush_head g : g_head (reopen (group_flush g)) = g_head g ++ g_buf g.
  Proof. unfold reopen. cbn [group_flush g_files g_head]. destruct (g_files g); reflexivity. Qed.

  Lemma wal_step_inv g ps n o : inv g ps n -> inv (fst (wal_step g o)) (ps ++ accepted g o) (n + step_pruned g o).
  Proof.
    intro I. destruct o as [p|p| | | |p0|tl]; cbn [Model.wal_step accepted]; try (cbn [step_pruned]; rewrite Nat.add_0_r).
    - apply wal_write_inv, I.
    - apply wal_write_sync_inv, I.
    - cbn [fst]. rewrite app_nil_r. unfold check_head_size_limit.
      destruct (g_limit g =? 0)%Z; auto. destruct (g_limit g <=? _)%Z; auto using group_rotate_inv.
    - cbn [fst]. rewrite app_nil_r. apply group_flush_inv, I.
    - cbn [fst]. rewrite app_nil_r. apply group_rotate_inv, I.
    - apply group_flush_inv, reopen_inv in I. unfold Model.wal_start. rewrite reopen_flush_head.
      destruct (g_head g ++ g_buf g); [apply wal_write_sync_inv, I|cbn [fst]; rewrite app_nil_r; exact I].
    - cbn [fst]. rewrite app_nil_r. apply prune_inv, I.
  Qed.

  Lemma wal_run_inv ops : forall g ps n, inv g ps n -> inv (wal_run g ops) (ps ++ run_written g ops) (n + run_pruned g ops).
  Proof.
    induction ops as [|o ops IH]; intros g ps n I; cbn [Model.wal_run fold_left run_written run_pruned].
    - rewrite app_nil_r, Nat.add_0_r. exact I.
    - rewrite app_assoc, Nat.add_assoc. apply IH. apply wal_step_inv. exact I.
  Qed.

  Definition empty_group (min : nat) (limit : Z) : group := mkGroup min [] [] [] limit.

  Lemma inv_empty min limit : inv (empty_group min limit) [] 0.
  Proof. exists [], [], []. cbn. auto. Qed.

  (** after a flush, the files on disk are whole-frame chunks of exactly what was accepted, minus
      the pruned oldest records *)
  Lemma flushed_files g ps n :
    inv g ps n -> exists dropped chunks, disk_files (group_flush g) = map frames chunks /\ dropped ++ concat chunks = ps /\
      length (frames dropped) = n.
  Proof.
    intros [dr [chunks [cur [F [H [C L]]]]]]. exists dr, (chunks ++ [cur]). unfold disk_files. cbn [group_flush g_files g_head].
    rewrite map_app, F, H, concat_app. cbn. rewrite app_nil_r. auto.
  Qed.

  Lemma run_pruned_none ops : (forall tl, ~ In (WPrune tl) ops) -> forall g, run_pruned g ops = 0.
  Proof.
    induction ops as [|o ops IH]; intros N g; [reflexivity|]. cbn [run_pruned].
    rewrite IH by (intros tl I; apply (N tl); right; exact I).
    destruct o; try reflexivity. exfalso. apply (N total_limit). left. reflexivity.
  Qed.

  (** ** the repair steps of OnStart inside a group: the head is rewritten to its longest valid prefix *)
  Lemma repair_head_spec g cur tail ms :
    g_head g = frames cur ++ tail -> Forall2 (canon msg ser deser) cur ms ->
    (forall m r, decode RFile tail <> OMsg m r) ->
    repair_head crc msg ser deser g = (mkGroup (g_min g) (g_files g) (frames cur) [] (g_limit g), true).
  Proof.
    intros H C T. unfold repair_head, repair_onstart. rewrite H, (repair_prefix crc crc_range msg ser deser cur ms tail C T).
    reflexivity.
  Qed.

  Lemma group_stream_min g : group_stream g (g_min g) = concat (disk_files g).
  Proof. unfold group_stream. rewrite Nat.sub_diag. reflexivity. Qed.

  (** file boundaries are invisible to a GroupReader opened at the first file *)
  Lemma group_roundtrip g chunks ms cont :
    disk_files g = map frames chunks -> Forall2 good (concat chunks) ms ->
    read_log crc msg deser cont RGroup (group_stream g (g_min g)) = map ObMsg ms ++ [ObEof].
  Proof.
    intros D G. rewrite group_stream_min, D, concat_map_frames. apply (roundtrip crc crc_range), G.
  Qed.

  (** ** SearchForEndHeight: the end-height markers of a log of valid payloads *)
  Definition mark (p : bytes) : option Z :=
    match deser p with Some m => end_height m | None => None end.
  Definition marks (ps : list bytes) : list Z :=
    flat_map (fun p => match mark p with Some x => [x] | None => [] end) ps.
  Definition goodp (p : bytes) : Prop := exists m, good p m.

  Lemma good_goodp ps ms : Forall2 good ps ms -> Forall goodp ps.
  Proof. induction 1 as [|p m ps ms G _ IH]; constructor; [exists m; exact G|exact IH]. Qed.

  Lemma marks_app a b : marks (a ++ b) = marks a ++ marks b.
  Proof. unfold marks. apply flat_map_app. Qed.

  Definition pos_marks (ps : list bytes) : list Z := filter (fun x => (0 <? x)%Z) (marks ps).

End Group.

(** ** checkTotalSizeLimit itself, on any group *)
Lemma prune_loop_spec : forall i fs total limit,
  let k := fst (prune_loop i fs total limit) in
  k <= i /\ k <= length fs /\
  (forall j, j < k -> (limit <= total - Z.of_nat (length (concat (firstn j fs))))%Z) /\
  (k < i -> k < length fs -> (total - Z.of_nat (length (concat (firstn k fs))) < limit)%Z).
Proof.
  induction i as [|i IH]; intros fs total limit; cbn [prune_loop].
  - cbn [fst]. repeat split; try lia.
  - destruct (Z.ltb_spec total limit) as [Lt|Ge].
    + cbn [fst]. repeat split; try lia.
    + destruct fs as [|f r]; [cbn [fst length]; repeat split; lia|].
      specialize (IH r (total - Z.of_nat (length f))%Z limit).
      destruct (prune_loop i r (total - Z.of_nat (length f)) limit) as [k fs'] eqn:E. cbn [fst] in *.
      destruct IH as [A [B [C D]]]. cbn [length]. repeat split; try lia.
      * intros [|j] Hj; [cbn; lia|]. cbn [firstn concat]. rewrite app_length. specialize (C j). lia.
      * intros K1 K2. cbn [firstn concat]. rewrite app_length. assert (k < i) by lia. assert (k < length r) by lia. lia.
Qed.

(** checkTotalSizeLimit on ANY group: only rotated files go, oldest first, at most maxFilesToRemove,
    the head and the write buffer are untouched; every removal happened with the (remaining) total
    at or above the limit, and it stops as soon as the total is below the limit *)
Lemma prune_sound tl g :
  let k := pruned_count tl g in
  let g' := check_total_size_limit tl g in
  g_files g' = skipn k (g_files g) /\ g_head g' = g_head g /\ g_buf g' = g_buf g /\ g_min g' = g_min g + k /\
  k <= N.to_nat max_files_to_remove /\ k <= length (g_files g) /\
  (forall j, j < k -> tl <> 0%Z /\ (tl <= total_size g - Z.of_nat (length (concat (firstn j (g_files g)))))%Z) /\
  (tl <> 0%Z -> k < N.to_nat max_files_to_remove -> k < length (g_files g) -> (total_size g' < tl)%Z).
Proof.
  intros k g'. unfold g', check_total_size_limit. fold k. cbn [g_files g_head g_buf g_min].
  repeat (split; [reflexivity|]).
  unfold k, pruned_count. destruct (Z.eqb_spec tl 0) as [E|NE].
  - repeat split; lia.
  - cbv iota.
    pose proof (prune_loop_spec (N.to_nat max_files_to_remove) (g_files g) (total_size g) tl) as P.
    cbv zeta in P. set (kk := fst (prune_loop (N.to_nat max_files_to_remove) (g_files g) (total_size g) tl)) in P |- *.
    destruct P as [A [B [C D]]]. repeat split; auto.
    intros _ K1 K2. specialize (D K1 K2). unfold total_size in D |- *. cbn [g_files g_head].
    rewrite <- (concat_firstn_skipn kk (g_files g)), app_length in D. clearbody kk. clear k g'. unfold bytes in D |- *. lia.
Qed.
