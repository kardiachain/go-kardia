(** C15 — tie of the model's size-limit tests, CRC/length comparisons, search tests, prune tests and
    index arithmetic to the Go SOURCE.
    [Generated/C15Source.v] is produced on every check by /verif/go2coq from /repo's working tree: the
    package constants maxMsgSizeBytes / maxFilesToRemove and every guard / integer expression of
    WALEncoder.Encode, WALDecoder.Decode, BaseWAL.SearchForEndHeight, BaseWAL.OnStart (consensus/wal.go),
    Group.checkHeadSizeLimit, Group.checkTotalSizeLimit, Group.readGroupInfo, filePathForIndex,
    GroupReader.Read and GroupReader.openFile (lib/autofile/group.go), as Gallina over [Z] with explicit
    machine-integer wraps (Base/GoSem.v).  The lemmas below say that C15/Model.v decides with exactly
    those expressions on exactly those operands (the [_atoms] lists name the Go operands and their
    types).  An edit of the Go source that changes a comparison, a constant or an operand changes the
    generated file and re-opens these obligations. *)
From Coq Require Import String List ZArith NArith Bool Lia Arith.
From Kardia Require Import Base.Int64 Base.GoSem Base.Conj.
From Kardia Require Import Generated.C15Source.
From Kardia Require Import Generated.C15Facts C15.Model C15.ProofsFrame.
Import ListNotations.
Local Open Scope Z_scope.

(** two tests that decide the same question give the same answer *)
Lemma same_decision P Q b c : reflect P b -> reflect Q c -> (P <-> Q) -> b = c.
Proof. intros [HP|HP] [HQ|HQ] E; try reflexivity; tauto. Qed.

Lemma skipn_nil_leb {A} i (l : list A) : match skipn i l with [] => true | _ :: _ => false end = Nat.leb (List.length l) i.
Proof. revert l. induction i as [|i IH]; intros [|x l]; cbn; auto. Qed.

(** [if length > maxMsgSizeBytes], in WALEncoder.Encode and again in WALDecoder.Decode, on a [uint32] held as [N] *)
Lemma src_enc_too_big (x : N) :
  (max_msg_size_bytes <? x)%N = consensus__WALEncoder_Encode__if_length_gt_maxMsgSizeBytes (Z.of_N x).
Proof.
  unfold consensus__WALEncoder_Encode__if_length_gt_maxMsgSizeBytes.
  change 1048600 with (Z.of_N max_msg_size_bytes). symmetry. apply ZofN_gtb.
Qed.

Lemma src_dec_too_big (x : N) :
  (max_msg_size_bytes <? x)%N = consensus__WALDecoder_Decode__if_length_gt_maxMsgSizeBytes (Z.of_N x).
Proof. exact (src_enc_too_big x). Qed.

Lemma src_encode_atoms :
  consensus__WALEncoder_Encode__if_length_gt_maxMsgSizeBytes_atoms = ["length : uint32"]%string /\
  consensus__WALEncoder_Encode__set_totalLength_atoms = ["length : uint32"]%string.
Proof. split; reflexivity. Qed.

Lemma src_decode_atoms :
  consensus__WALDecoder_Decode__if_length_gt_maxMsgSizeBytes_atoms = ["length : uint32"]%string /\
  consensus__WALDecoder_Decode__if_actualCRC_ne_crc_atoms = ["actualCRC : uint32"; "crc : uint32"]%string.
Proof. split; reflexivity. Qed.

Lemma src_search_atoms :
  consensus__BaseWAL_SearchForEndHeight__if_lastHeightFound_gt_0_and_lastHeightFound_lt_height_atoms
    = ["lastHeightFound : int64"; "height : int64"]%string /\
  consensus__BaseWAL_SearchForEndHeight__if_m_Height_eq_height_atoms = ["m.Height : int64"; "height : int64"]%string /\
  consensus__BaseWAL_SearchForEndHeight__for_index_ge_min_atoms = ["index : int"; "min : int"]%string /\
  consensus__BaseWAL_SearchForEndHeight__if_options_IgnoreDataCorruptionErrors_and_IsDataCorruptionError_err_atoms
    = ["options.IgnoreDataCorruptionErrors : bool"; "IsDataCorruptionError(err) : bool"]%string.
Proof. split_all; reflexivity. Qed.

Lemma src_onstart_atoms : consensus__BaseWAL_OnStart__if_size_eq_0_atoms = ["size : int64"]%string.
Proof. reflexivity. Qed.

Lemma src_check_head_atoms :
  lib_autofile__Group_checkHeadSizeLimit__if_limit_eq_0_atoms = ["limit : int64"]%string /\
  lib_autofile__Group_checkHeadSizeLimit__if_size_ge_limit_atoms = ["size : int64"; "limit : int64"]%string.
Proof. split; reflexivity. Qed.

Lemma src_prune_atoms :
  lib_autofile__Group_checkTotalSizeLimit__if_limit_eq_0_atoms = ["limit : int64"]%string /\
  lib_autofile__Group_checkTotalSizeLimit__for_i_lt_maxFilesToRemove_atoms = ["i : int"]%string /\
  lib_autofile__Group_checkTotalSizeLimit__set_index_atoms = ["gInfo.MinIndex : int"; "i : int"]%string /\
  lib_autofile__Group_checkTotalSizeLimit__if_totalSize_lt_limit_atoms = ["totalSize : int64"; "limit : int64"]%string /\
  lib_autofile__Group_checkTotalSizeLimit__if_index_eq_gInfo_MaxIndex_atoms = ["index : int"; "gInfo.MaxIndex : int"]%string /\
  lib_autofile__Group_checkTotalSizeLimit__set_totalSize_op_atoms = ["totalSize : int64"; "fInfo.Size() : int64"]%string.
Proof. split_all; reflexivity. Qed.

(** ** Group.readGroupInfo (OpenGroup): the running minimum / maximum over the numbered files, with
    the sentinel -1, whatever order the directory lists them in; [minIndex == -1]: no numbered file *)
Definition min_step (m f : Z) : Z :=
  if lib_autofile__Group_readGroupInfo__if_minIndex_eq_minus_1_or_fileIndex_lt_minIndex m f then f else m.
Definition max_step (m f : Z) : Z :=
  if lib_autofile__Group_readGroupInfo__if_maxIndex_lt_fileIndex m f then f else m.

Lemma src_min_fold : forall (l : list Z) (m0 : Z),
  (forall x, In x l -> 0 <= x) -> (m0 = -1 \/ 0 <= m0) ->
  let m := fold_left min_step l m0 in
  (m = -1 <-> (l = [] /\ m0 = -1)) /\
  (m <> -1 -> (In m l \/ m = m0) /\ (forall x, In x l -> m <= x) /\ (m0 <> -1 -> m <= m0)).
Proof.
  induction l as [|f l IH]; intros m0 P H0; cbn [fold_left].
  - split; [tauto|]. intro N. split; [right; reflexivity|]. split; [intros x []|intros; lia].
  - assert (Pf : 0 <= f) by (apply P; left; reflexivity).
    assert (Pl : forall x, In x l -> 0 <= x) by (intros x I; apply P; right; exact I).
    assert (S : min_step m0 f = f /\ (m0 = -1 \/ f < m0) \/ min_step m0 f = m0 /\ m0 <> -1 /\ m0 <= f).
    { unfold min_step, lib_autofile__Group_readGroupInfo__if_minIndex_eq_minus_1_or_fileIndex_lt_minIndex.
      destruct (Z.eqb_spec m0 (-1)); cbn [orb]; [left; auto|]. destruct (Z.ltb_spec f m0); [left; auto|right; auto]. }
    destruct S as [[E C]|[E [C1 C2]]]; rewrite E.
    + destruct (IH f Pl (or_intror Pf)) as [I1 I2]. cbv zeta in *. split.
      * split; [intro Q; apply I1 in Q; lia|intros [Q _]; discriminate Q].
      * intro N. destruct (I2 N) as [A [B C']]. repeat split.
        { destruct A as [A|A]; [left; right; exact A|left; left; symmetry; exact A]. }
        { intros x [<-|I]; [apply C'; lia|apply B; exact I]. }
        { intro M. assert (fold_left min_step l f <= f) by (apply C'; lia). lia. }
    + destruct (IH m0 Pl H0) as [I1 I2]. cbv zeta in *. split.
      * split; [intro Q; apply I1 in Q; lia|intros [Q _]; discriminate Q].
      * intro N. destruct (I2 N) as [A [B C']]. repeat split.
        { destruct A as [A|A]; [left; right; exact A|right; exact A]. }
        { intros x [<-|I]; [specialize (C' C1); lia|apply B; exact I]. }
        { intro M. apply C'. exact M. }
Qed.

Lemma src_max_fold : forall (l : list Z) (m0 : Z),
  let m := fold_left max_step l m0 in
  (In m l \/ m = m0) /\ (forall x, In x l -> x <= m) /\ m0 <= m.
Proof.
  induction l as [|f l IH]; intros m0; cbn [fold_left].
  - repeat split; auto; try lia. intros x [].
  - assert (S : max_step m0 f = f /\ m0 < f \/ max_step m0 f = m0 /\ f <= m0).
    { unfold max_step, lib_autofile__Group_readGroupInfo__if_maxIndex_lt_fileIndex. destruct (Z.ltb_spec m0 f); auto. }
    destruct S as [[E C]|[E C]]; rewrite E.
    + destruct (IH f) as [A [B D]]. cbv zeta in *. repeat split.
      * destruct A as [A|A]; [left; right; exact A|left; left; symmetry; exact A].
      * intros x [<-|I]; [exact D|apply B; exact I].
      * lia.
    + destruct (IH m0) as [A [B D]]. cbv zeta in *. repeat split.
      * destruct A as [A|A]; [left; right; exact A|right; exact A].
      * intros x [<-|I]; [lia|apply B; exact I].
      * exact D.
Qed.

Lemma src_read_group_info_atoms :
  lib_autofile__Group_readGroupInfo__if_minIndex_eq_minus_1_or_fileIndex_lt_minIndex_atoms = ["minIndex : int"; "fileIndex : int"]%string /\
  lib_autofile__Group_readGroupInfo__if_maxIndex_lt_fileIndex_atoms = ["maxIndex : int"; "fileIndex : int"]%string /\
  lib_autofile__Group_readGroupInfo__if_minIndex_eq_minus_1_atoms = ["minIndex : int"]%string /\
  lib_autofile__Group_readGroupInfo__set_totalSize_op_atoms = ["totalSize : int64"; "fileSize : int64"]%string /\
  lib_autofile__Group_readGroupInfo__set_totalSize_op_2_atoms = ["totalSize : int64"; "fileSize : int64"]%string.
Proof. split_all; reflexivity. Qed.

(** TotalSize is the int64 sum of the sizes of the head and of the other files *)
Lemma src_total_add t s :
  lib_autofile__Group_readGroupInfo__set_totalSize_op t s = wrap64 (t + s) /\
  lib_autofile__Group_readGroupInfo__set_totalSize_op_2 t s = wrap64 (t + s).
Proof. split; reflexivity. Qed.

Lemma src_reader_atoms :
  lib_autofile__filePathForIndex__if_index_eq_maxIndex_atoms = ["index : int"; "maxIndex : int"]%string /\
  lib_autofile__GroupReader_openFile__if_index_gt_gr_Group_maxIndex_atoms = ["index : int"; "gr.Group.maxIndex : int"]%string /\
  lib_autofile__GroupReader_Read__if_lenP_eq_0_atoms = ["lenP : int"]%string /\
  lib_autofile__GroupReader_Read__if_n_ge_lenP_atoms = ["n : int"; "lenP : int"]%string /\
  lib_autofile__GroupReader_Read__set_n_op_atoms = ["n : int"; "nn : int"]%string.
Proof. split_all; reflexivity. Qed.

(** the read loop fills the buffer: it returns once [n >= lenP], [n] growing by [n += nn] *)
Lemma src_read_full n nn lenP :
  lib_autofile__GroupReader_Read__if_n_ge_lenP n lenP = (lenP <=? n) /\
  lib_autofile__GroupReader_Read__set_n_op n nn = wrap64 (n + nn).
Proof. split; [apply Z.geb_leb|reflexivity]. Qed.

(** ** the tie that Properties.v quotes, as one statement (the [_atoms] lemmas, [src_total_add] and
    [src_read_full] above also speak of expressions that are in none of its conjuncts) *)
Definition C15_source_tie_statement : Prop :=
  (consensus__maxMsgSizeBytes = Z.of_N max_msg_size_bytes /\ lib_autofile__maxFilesToRemove = Z.of_N max_files_to_remove)
  (* Encode *)
  /\ (forall crc p, encode crc p = if consensus__WALEncoder_Encode__if_length_gt_maxMsgSizeBytes (Z.of_N (lenN p mod 4294967296))
                                   then None else Some (frame crc p))
  /\ (forall crc p, Z.of_nat (List.length p) <= 4294967295 ->
        consensus__WALEncoder_Encode__set_totalLength (Z.of_nat (List.length p)) = Z.of_nat (List.length (frame crc p)))
  (* Decode *)
  /\ (forall crc msg deser k c l rest, List.length c = 4%nat -> List.length l = 4%nat ->
        consensus__WALDecoder_Decode__if_length_gt_maxMsgSizeBytes (Z.of_N (of_be32 l)) = true ->
        decode_full crc msg deser k (c ++ l ++ rest) = (OCorrupt CTooBig rest, 0%N))
  /\ (forall crc msg deser k c l p rest,
        List.length c = 4%nat -> List.length l = 4%nat -> p <> [] -> N.to_nat (of_be32 l) = List.length p ->
        consensus__WALDecoder_Decode__if_length_gt_maxMsgSizeBytes (Z.of_N (of_be32 l)) = false ->
        decode_full crc msg deser k (c ++ l ++ p ++ rest) =
          if consensus__WALDecoder_Decode__if_actualCRC_ne_crc (Z.of_N (crc p)) (Z.of_N (of_be32 c))
          then (OCorrupt CCrc rest, of_be32 l)
          else match deser p with Some m => (OMsg m rest, of_be32 l) | None => (OCorrupt CDecode rest, of_be32 l) end)
  (* SearchForEndHeight *)
  /\ (forall crc msg deser eh f h ign last,
        scan crc msg deser eh (S f) h ign [] last =
        if consensus__BaseWAL_SearchForEndHeight__if_lastHeightFound_gt_0_and_lastHeightFound_lt_height last h
        then ScStop else ScNext last)
  /\ (forall x h, (x =? h) = consensus__BaseWAL_SearchForEndHeight__if_m_Height_eq_height x h)
  /\ (forall ign, consensus__BaseWAL_SearchForEndHeight__if_options_IgnoreDataCorruptionErrors_and_IsDataCorruptionError_err ign true = ign)
  /\ (forall g j, consensus__BaseWAL_SearchForEndHeight__for_index_ge_min (Z.of_nat (max_index g) - Z.of_nat j) (Z.of_nat (g_min g))
                  = Nat.ltb j (List.length (disk_files g)))
  (* OnStart *)
  /\ (forall crc g p0, let g1 := reopen (group_flush g) in
        wal_start crc g p0 = if consensus__BaseWAL_OnStart__if_size_eq_0 (Z.of_nat (List.length (g_head g1)))
                             then wal_write_sync crc g1 p0 else (g1, WOk))
  (* checkHeadSizeLimit *)
  /\ (forall g, check_head_size_limit g =
        if lib_autofile__Group_checkHeadSizeLimit__if_limit_eq_0 (g_limit g) then g
        else if lib_autofile__Group_checkHeadSizeLimit__if_size_ge_limit (Z.of_nat (List.length (g_head g))) (g_limit g)
             then group_rotate g else g)
  (* checkTotalSizeLimit *)
  /\ (forall tl g, pruned_count tl g =
        if lib_autofile__Group_checkTotalSizeLimit__if_limit_eq_0 tl then O
        else fst (prune_loop (N.to_nat max_files_to_remove) (g_files g) (total_size g) tl))
  /\ (forall i : nat, lib_autofile__Group_checkTotalSizeLimit__for_i_lt_maxFilesToRemove (Z.of_nat i)
                      = Nat.ltb i (N.to_nat max_files_to_remove))
  /\ (forall i fs total limit,
        in_range I64 total -> (forall f, In f fs -> Z.of_nat (List.length f) <= total) -> 0 <= total ->
        prune_loop (S i) fs total limit =
        if lib_autofile__Group_checkTotalSizeLimit__if_totalSize_lt_limit total limit then (O, fs)
        else match fs with
             | [] => (O, [])
             | f :: r =>
               let '(k, fs') := prune_loop i r (lib_autofile__Group_checkTotalSizeLimit__set_totalSize_op total (Z.of_nat (List.length f))) limit in
               (S k, fs')
             end)
  /\ (forall g (i : nat), Z.of_nat (max_index g) <= 9223372036854775807 -> (i <= List.length (g_files g))%nat ->
        lib_autofile__Group_checkTotalSizeLimit__if_index_eq_gInfo_MaxIndex
          (lib_autofile__Group_checkTotalSizeLimit__set_index (Z.of_nat (g_min g)) (Z.of_nat i)) (Z.of_nat (max_index g))
        = match skipn i (g_files g) with [] => true | _ => false end)
  (* readGroupInfo *)
  /\ (forall g (names : list Z),
        (forall x, In x names <-> exists j, (j < List.length (g_files g))%nat /\ x = Z.of_nat (g_min g + j)) ->
        let mn := fold_left min_step names (-1) in
        let mx := fold_left max_step names (-1) in
        (lib_autofile__Group_readGroupInfo__if_minIndex_eq_minus_1 mn = true <-> g_files g = []) /\
        (g_files g <> [] -> mn = Z.of_nat (g_min g) /\ mx + 1 = Z.of_nat (max_index g)))
  (* readers *)
  /\ (forall g (i : nat), (g_min g <= i)%nat ->
        lib_autofile__filePathForIndex__if_index_eq_maxIndex (Z.of_nat i) (Z.of_nat (max_index g))
        = Nat.eqb (S (i - g_min g)) (List.length (disk_files g)))
  /\ (forall g (i : nat), (g_min g <= i)%nat ->
        lib_autofile__GroupReader_openFile__if_index_gt_gr_Group_maxIndex (Z.of_nat i) (Z.of_nat (max_index g))
        = match skipn (i - g_min g) (disk_files g) with [] => true | _ => false end)
  /\ (forall (n : nat) bs, lib_autofile__GroupReader_Read__if_lenP_eq_0 (Z.of_nat n) = true <-> snd (rd RGroup n bs) = RErrEmpty)
  /\ (forall n lenP, lib_autofile__GroupReader_Read__if_n_ge_lenP n lenP = (lenP <=? n))
  (* what is compared, not only how *)
  /\ (consensus__WALEncoder_Encode__if_length_gt_maxMsgSizeBytes_atoms = ["length : uint32"]%string
      /\ consensus__WALDecoder_Decode__if_length_gt_maxMsgSizeBytes_atoms = ["length : uint32"]%string
      /\ consensus__WALDecoder_Decode__if_actualCRC_ne_crc_atoms = ["actualCRC : uint32"; "crc : uint32"]%string
      /\ consensus__BaseWAL_SearchForEndHeight__if_lastHeightFound_gt_0_and_lastHeightFound_lt_height_atoms
           = ["lastHeightFound : int64"; "height : int64"]%string
      /\ consensus__BaseWAL_SearchForEndHeight__if_m_Height_eq_height_atoms = ["m.Height : int64"; "height : int64"]%string
      /\ consensus__BaseWAL_SearchForEndHeight__for_index_ge_min_atoms = ["index : int"; "min : int"]%string
      /\ consensus__BaseWAL_OnStart__if_size_eq_0_atoms = ["size : int64"]%string
      /\ lib_autofile__Group_checkHeadSizeLimit__if_size_ge_limit_atoms = ["size : int64"; "limit : int64"]%string
      /\ lib_autofile__Group_checkTotalSizeLimit__if_totalSize_lt_limit_atoms = ["totalSize : int64"; "limit : int64"]%string
      /\ lib_autofile__Group_checkTotalSizeLimit__set_index_atoms = ["gInfo.MinIndex : int"; "i : int"]%string
      /\ lib_autofile__Group_checkTotalSizeLimit__if_index_eq_gInfo_MaxIndex_atoms = ["index : int"; "gInfo.MaxIndex : int"]%string
      /\ lib_autofile__Group_checkTotalSizeLimit__set_totalSize_op_atoms = ["totalSize : int64"; "fInfo.Size() : int64"]%string
      /\ lib_autofile__Group_readGroupInfo__if_minIndex_eq_minus_1_or_fileIndex_lt_minIndex_atoms = ["minIndex : int"; "fileIndex : int"]%string
      /\ lib_autofile__Group_readGroupInfo__if_maxIndex_lt_fileIndex_atoms = ["maxIndex : int"; "fileIndex : int"]%string
      /\ lib_autofile__GroupReader_openFile__if_index_gt_gr_Group_maxIndex_atoms = ["index : int"; "gr.Group.maxIndex : int"]%string
      /\ lib_autofile__GroupReader_Read__if_lenP_eq_0_atoms = ["lenP : int"]%string).

Lemma C15_source_tie_proof : C15_source_tie_statement.
Proof.
  unfold C15_source_tie_statement. split_all.
  (* the last sixteen conjuncts: what is compared, not only how *)
  21-36: reflexivity.
  (* constants: what the facts translator prints is what the type checker evaluates *)
  - split; reflexivity.
  (* WALEncoder.Encode: [length := uint32(len(data)); if length > maxMsgSizeBytes] *)
  - intros crc p. unfold encode. rewrite src_enc_too_big. reflexivity.
  (* [totalLength := 8 + int(length)]: the size of the record the model writes *)
  - intros crc p H. unfold consensus__WALEncoder_Encode__set_totalLength, go_add, go_conv.
    rewrite (wrap_id I64 (Z.of_nat (List.length p))) by (unfold in_range; lia).
    rewrite wrap_id by (unfold in_range; lia). rewrite frame_length. lia.
  (* WALDecoder.Decode: [if length > maxMsgSizeBytes] before the allocation ... *)
  - intros crc msg deser k c l rest Lc Ll H. apply decode_too_big; auto.
    apply N.ltb_lt. rewrite src_dec_too_big. exact H.
  (* ... then [if actualCRC != crc], on (checksum of the data read, checksum field) *)
  - intros crc msg deser k c l p rest Lc Ll NE Lp H. rewrite <- src_dec_too_big in H. apply N.ltb_ge in H.
    rewrite (decode_record crc msg deser k c l p rest Lc Ll NE Lp H).
    unfold consensus__WALDecoder_Decode__if_actualCRC_ne_crc, go_neqb. rewrite ZofN_eqb.
    destruct (crc p =? of_be32 c)%N; reflexivity.
  (* SearchForEndHeight, the early exit at the end of a file: [lastHeightFound > 0 && lastHeightFound < height] *)
  - intros crc msg deser eh f h ign last.
    unfold consensus__BaseWAL_SearchForEndHeight__if_lastHeightFound_gt_0_and_lastHeightFound_lt_height.
    rewrite Z.gtb_ltb. reflexivity.
  (* found: [m.Height == height] *)
  - reflexivity.
  (* a corrupted entry is skipped iff [options.IgnoreDataCorruptionErrors && IsDataCorruptionError(err)];
     every corruption outcome of the model's decoder is a DataCorruptionError *)
  - intro ign. apply andb_true_r.
  (* [for index := max; index >= min; index--]: iteration j (from 0) runs iff there is a j-th file from
     the head backwards — the model's [search_loop] runs [length (disk_files g)] times *)
  - intros g j. unfold consensus__BaseWAL_SearchForEndHeight__for_index_ge_min, max_index, disk_files.
    rewrite Z.geb_leb, app_length. apply (same_decision _ _ _ _ (Z.leb_spec0 _ _) (Nat.ltb_spec0 _ _)).
    cbn [List.length]. lia.
  (* BaseWAL.OnStart: the height-0 marker is written iff [size == 0] (size of the head file) *)
  - intros crc g p0. unfold wal_start, consensus__BaseWAL_OnStart__if_size_eq_0.
    destruct (g_head (reopen (group_flush g))); reflexivity.
  (* Group.checkHeadSizeLimit: [limit == 0] switches it off, rotation iff [size >= limit] *)
  - intro g. unfold check_head_size_limit, lib_autofile__Group_checkHeadSizeLimit__if_limit_eq_0,
      lib_autofile__Group_checkHeadSizeLimit__if_size_ge_limit.
    rewrite Z.geb_leb. reflexivity.
  (* Group.checkTotalSizeLimit: [limit == 0] switches it off; the loop runs [i < maxFilesToRemove] times *)
  - reflexivity.
  - intro i. unfold lib_autofile__Group_checkTotalSizeLimit__for_i_lt_maxFilesToRemove.
    change 4 with (Z.of_nat (N.to_nat max_files_to_remove)).
    apply (same_decision _ _ _ _ (Z.ltb_spec0 _ _) (Nat.ltb_spec0 _ _)). lia.
  (* one turn of the loop: stop when [totalSize < limit]; stop when [index == gInfo.MaxIndex] (only the
     head is left: no rotated file remains); otherwise the oldest file goes and
     [totalSize -= fInfo.Size()] — the model's [prune_loop] step by step *)
  - intros i fs total limit R B P. cbn [prune_loop]. unfold lib_autofile__Group_checkTotalSizeLimit__if_totalSize_lt_limit.
    destruct (total <? limit); [reflexivity|]. destruct fs as [|f r]; [reflexivity|].
    unfold lib_autofile__Group_checkTotalSizeLimit__set_totalSize_op, go_sub.
    rewrite wrap_id; [reflexivity|]. specialize (B f (or_introl eq_refl)). unfold in_range in *. lia.
  (* [index := gInfo.MinIndex + i; index == gInfo.MaxIndex]: after [i] removals the next candidate is the
     head exactly when no rotated file is left *)
  - intros g i R Hi. unfold lib_autofile__Group_checkTotalSizeLimit__if_index_eq_gInfo_MaxIndex,
      lib_autofile__Group_checkTotalSizeLimit__set_index, go_add, max_index in *.
    rewrite wrap_id by (unfold in_range; lia). rewrite skipn_nil_leb.
    apply (same_decision _ _ _ _ (Z.eqb_spec _ _) (Nat.leb_spec0 _ _)). lia.
  (* readGroupInfo on the numbered files of the model's group (indices g_min .. g_min + #files - 1, in any
     order): it finds [g_min] and, after its [maxIndex++] for the head, [max_index]; with no numbered
     file both stay -1 and the head becomes index 0 ([reopen]) *)
  - intros g names N. set (mn := fold_left min_step names (-1)). set (mx := fold_left max_step names (-1)).
    assert (P : forall x, In x names -> 0 <= x) by (intros x I; apply N in I; destruct I as [j [_ ->]]; lia).
    destruct (src_min_fold names (-1) P (or_introl eq_refl)) as [M1 M2]. fold mn in M1, M2.
    assert (E0 : names = [] <-> g_files g = []).
    { split; intro E.
      - destruct (g_files g) as [|f fs] eqn:F; [reflexivity|]. exfalso.
        assert (I : In (Z.of_nat (g_min g + 0)) names) by (apply N; exists O; split; [cbn; lia|reflexivity]).
        rewrite E in I. exact I.
      - destruct names as [|x t]; [reflexivity|]. exfalso.
        assert (I : In x (x :: t)) by (left; reflexivity). apply N in I. destruct I as [j [Lj _]]. rewrite E in Lj. cbn in Lj. lia. }
    split.
    + unfold lib_autofile__Group_readGroupInfo__if_minIndex_eq_minus_1. rewrite Z.eqb_eq. rewrite M1. tauto.
    + intro NE. assert (NN : names <> []) by (intro Q; apply NE, E0, Q).
      assert (Mn : mn <> -1) by (intro Q; apply M1 in Q; tauto).
      destruct (M2 Mn) as [A [B _]].
      assert (L : (0 < List.length (g_files g))%nat) by (destruct (g_files g); [congruence|cbn; lia]).
      split.
      * destruct A as [A|A]; [|congruence]. apply N in A. destruct A as [j [Lj Ej]].
        assert (I0 : In (Z.of_nat (g_min g + 0)) names) by (apply N; exists O; split; [exact L|reflexivity]).
        apply B in I0. lia.
      * destruct (src_max_fold names (-1)) as [A' [B' _]]. fold mx in A', B'. unfold max_index.
        assert (Il : In (Z.of_nat (g_min g + (List.length (g_files g) - 1))) names)
          by (apply N; exists (List.length (g_files g) - 1)%nat; split; [lia|reflexivity]).
        apply B' in Il. destruct A' as [A'|A']; [|lia]. apply N in A'. destruct A' as [j [Lj Ej]]. lia.
  (* filePathForIndex / GroupReader: index == maxIndex names the head (the last of [disk_files]);
     an index above it is end-of-log; a zero-length buffer is an error *)
  - intros g i H. unfold lib_autofile__filePathForIndex__if_index_eq_maxIndex, max_index, disk_files.
    rewrite app_length. apply (same_decision _ _ _ _ (Z.eqb_spec _ _) (Nat.eqb_spec _ _)). cbn [List.length]. lia.
  - intros g i H. unfold lib_autofile__GroupReader_openFile__if_index_gt_gr_Group_maxIndex, max_index, disk_files.
    rewrite Z.gtb_ltb, skipn_nil_leb, app_length.
    apply (same_decision _ _ _ _ (Z.ltb_spec0 _ _) (Nat.leb_spec0 _ _)). cbn [List.length]. lia.
  - intros n bs. unfold lib_autofile__GroupReader_Read__if_lenP_eq_0. destruct n as [|n].
    + cbn. tauto.
    + cbn [rd]. split; [rewrite Z.eqb_eq; lia|]. destruct (shorter bs (S n)); discriminate.
  - intros n lenP. apply Z.geb_leb.
Qed.
