(** C15 — runs of operations on an empty group, at the real CRC-32C: the vocabulary of those property
    statements ([drop_bytes], [written], [final_group], [pruned_bytes], [kept]), their proofs and those of
    the repair properties ([top_*]), then toy codecs with computed examples. *)
From Coq Require Import List ZArith NArith Bool Lia Arith Sorted.
From Kardia Require Import Base.ListX C15.Crc32c C15.ProofsCrc C15.Model C15.ProofsFrame C15.ProofsLog C15.ProofsGroup
  C15.ProofsSearch Generated.C15Facts.
Import ListNotations.

(** [drop_bytes n ps] drops records from the old end as long as removed bytes remain.  The count is in
    BYTES because checkTotalSizeLimit removes files by size ([run_pruned] adds up file lengths);
    [8 + length p] is the length of [p]'s frame; a count ending inside a record would drop that record
    whole, which [drop_bytes_app] shows never happens: files hold whole frames *)
Fixpoint drop_bytes (n : nat) (ps : list bytes) : list bytes :=
  match ps with
  | [] => []
  | p :: r => match n with O => ps | _ => drop_bytes (n - (8 + length p)) r end
  end.

Lemma drop_bytes_0 ps : drop_bytes 0 ps = ps.
Proof. destruct ps; reflexivity. Qed.

Lemma drop_bytes_app dropped rest : drop_bytes (length (frames crc32c dropped)) (dropped ++ rest) = rest.
Proof.
  induction dropped as [|p d IH]; [apply drop_bytes_0|].
  rewrite (frames_cons crc32c), app_length, frame_length. cbn [app drop_bytes].
  destruct (8 + length p + length (frames crc32c d)) as [|x] eqn:E; [lia|]. rewrite <- E.
  replace (8 + length p + length (frames crc32c d) - (8 + length p)) with (length (frames crc32c d)) by lia. exact IH.
Qed.

Section Top.
  Variable msg : Type.
  Variable ser : msg -> bytes.
  Variable deser : bytes -> option msg.
  Variable end_height : msg -> option Z.

  Notation crc := crc32c.
  Notation good := (good msg deser).
  Notation frames := (frames crc).
  Notation frame := (frame crc).

  (** what was accepted by Write/WriteSync, and every marker OnStart wrote ([WStart]), in order *)
  Definition written (min : nat) (limit : Z) (ops : list wal_op) : list bytes :=
    run_written crc (empty_group min limit) ops.

  (** the group after the operations and a final FlushAndSync *)
  Definition final_group (min : nat) (limit : Z) (ops : list wal_op) : group :=
    group_flush (wal_run crc (empty_group min limit) ops).

  (** bytes removed by checkTotalSizeLimit ([WPrune]) along the run, and the records that are left *)
  Definition pruned_bytes (min : nat) (limit : Z) (ops : list wal_op) : nat :=
    run_pruned crc (empty_group min limit) ops.

  Definition kept (min : nat) (limit : Z) (ops : list wal_op) : list bytes :=
    drop_bytes (pruned_bytes min limit ops) (written min limit ops).

  Lemma final_files min limit ops :
    exists dropped chunks, disk_files (final_group min limit ops) = map frames chunks /\
                           concat chunks = kept min limit ops /\
                           written min limit ops = dropped ++ kept min limit ops /\
                           length (frames dropped) = pruned_bytes min limit ops.
  Proof.
    destruct (flushed_files crc (wal_run crc (empty_group min limit) ops) (written min limit ops) (pruned_bytes min limit ops))
      as [dr [chunks [D [C L]]]].
    { change (written min limit ops) with ([] ++ run_written crc (empty_group min limit) ops).
      change (pruned_bytes min limit ops) with (0 + run_pruned crc (empty_group min limit) ops).
      apply wal_run_inv. apply inv_empty. }
    assert (K : kept min limit ops = concat chunks).
    { unfold kept. rewrite <- C, <- L. apply drop_bytes_app. }
    exists dr, chunks. rewrite K. auto.
  Qed.

  (** pruning removes whole records from the old end only, exactly [pruned_bytes] bytes of them *)
  Lemma top_kept_suffix min limit ops :
    exists dropped, written min limit ops = dropped ++ kept min limit ops /\
                    length (frames dropped) = pruned_bytes min limit ops.
  Proof. destruct (final_files min limit ops) as [dr [chunks [_ [_ [W L]]]]]. eauto. Qed.

  Lemma top_no_prune min limit ops :
    (forall tl, ~ In (WPrune tl) ops) -> pruned_bytes min limit ops = 0 /\ kept min limit ops = written min limit ops.
  Proof.
    intro N. assert (P : pruned_bytes min limit ops = 0) by (apply run_pruned_none; exact N).
    split; [exact P|]. unfold kept. rewrite P. apply drop_bytes_0.
  Qed.

  Lemma top_roundtrip min limit ops ms cont :
    Forall2 good (kept min limit ops) ms ->
    let g := final_group min limit ops in
    read_log crc msg deser cont RGroup (group_stream g (g_min g)) = map ObMsg ms ++ [ObEof].
  Proof.
    intros G g. destruct (final_files min limit ops) as [dr [chunks [D [C _]]]]. rewrite <- C in G.
    apply (group_roundtrip crc crc32c_lt msg deser _ chunks ms cont D G).
  Qed.

  Lemma top_rotation min limit ops :
    exists chunks, disk_files (final_group min limit ops) = map frames chunks /\ concat chunks = kept min limit ops.
  Proof. destruct (final_files min limit ops) as [dr [chunks [D [C _]]]]. eauto. Qed.

  Lemma top_decode_sound k bs m rest :
    wf_bytes bs -> decode crc msg deser k bs = OMsg m rest ->
    exists p z, deser p = Some m /\ (lenN p <= max_msg_size_bytes)%N /\ wf_bytes p /\
                bs ++ repeat 0%N z = frame p ++ rest /\
                (z = 0 \/ (k = RFile /\ rest = [] /\ z < length (frame p))).
  Proof.
    intros W E. pose proof (decode_full_split crc msg deser k bs) as E'. rewrite E in E'.
    destruct (decode_sound crc msg deser k bs m rest _ W E') as [p [z [D [L [_ [Wp [A Z]]]]]]].
    exists p, z. auto.
  Qed.

  Notation pos_marks := (pos_marks msg deser end_height).

  Lemma top_search min limit ops h ign :
    Forall (goodp msg deser) (kept min limit ops) -> StronglySorted Z.lt (pos_marks (kept min limit ops)) ->
    let g := final_group min limit ops in search_spec crc msg deser end_height g (kept min limit ops) h ign.
  Proof.
    intros G S g. destruct (final_files min limit ops) as [dr [chunks [D [C _]]]]. subst g. rewrite <- C in *.
    apply (search_iff crc crc32c_lt msg deser end_height _ chunks h ign D G S).
  Qed.

  (** a record with one byte of its CRC field or payload changed is one of the damaged records
      [search_damaged] speaks of *)
  Lemma top_flipped_steps_over p i b' :
    wf_bytes p -> p <> [] -> (lenN p <= max_msg_size_bytes)%N ->
    i < length (frame p) -> ~ (4 <= i < 8) -> (b' < 256)%N -> nth i (frame p) 0%N <> b' ->
    iok crc msg deser (IBad (set_nth i b' (frame p)) CCrc).
  Proof. intros W NE L Hi Ho Hb Hn rest. apply bitflip_detected; auto. Qed.

  (** one record damaged in CRC field or payload: the repair keeps exactly the records before it *)
  Lemma top_repair_bitflip pre pre_ms p post i b' :
    Forall2 (canon msg ser deser) pre pre_ms ->
    wf_bytes p -> p <> [] -> (lenN p <= max_msg_size_bytes)%N ->
    i < length (frame p) -> ~ (4 <= i < 8) -> (b' < 256)%N -> nth i (frame p) 0%N <> b' ->
    repair crc msg ser deser (frames pre ++ set_nth i b' (frame p) ++ post) = (frames pre, true).
  Proof.
    intros C W NE L Hi Ho Hb Hn. apply (repair_prefix crc crc32c_lt msg ser deser pre pre_ms _ C).
    intros m r E. rewrite (bitflip_detected msg deser RFile p post i b') in E by auto. discriminate.
  Qed.

  (** the OnStart steps: backup by copy (the corrupted file stays in place), repair in place *)
  Lemma top_repair_onstart ps ms tail :
    Forall2 (canon msg ser deser) ps ms -> (forall m r, decode crc msg deser RFile tail <> OMsg m r) ->
    repair_onstart crc msg ser deser (frames ps ++ tail) = (frames ps ++ tail, frames ps, true).
  Proof.
    intros C T. unfold repair_onstart. rewrite (repair_prefix crc crc32c_lt msg ser deser ps ms tail C T). reflexivity.
  Qed.

  (** why the truncation in os.Create matters: written over the corrupted file WITHOUT truncating it,
      the repaired prefix changes nothing — the file stays the corrupted one *)
  Lemma top_repair_needs_truncate ps ms tail :
    Forall2 (canon msg ser deser) ps ms -> (forall m r, decode crc msg deser RFile tail <> OMsg m r) -> tail <> [] ->
    let wal := frames ps ++ tail in
    file_overwrite wal (fst (repair crc msg ser deser wal)) = wal /\ wal <> frames ps.
  Proof.
    intros C T NE wal. unfold wal. rewrite (repair_prefix crc crc32c_lt msg ser deser ps ms tail C T). cbn [fst].
    unfold file_overwrite. split.
    - rewrite skipn_app, skipn_all, Nat.sub_diag. reflexivity.
    - intro E. apply NE. rewrite <- (app_nil_r (frames ps)) in E at 2. apply app_inv_head in E. exact E.
  Qed.

  (** a group whose rotated files are intact and whose head is damaged after [cur]: after the OnStart
      repair steps the whole group reads back as every message of the rotated files and the head's
      longest valid prefix, then a clean end-of-log — the second catchupReplay does not hit the damage *)
  Lemma top_repair_group g chunks cur tail ms cont :
    g_files g = map frames chunks -> g_head g = frames cur ++ tail ->
    Forall2 (canon msg ser deser) (concat chunks ++ cur) ms ->
    (forall m r, decode crc msg deser RFile tail <> OMsg m r) ->
    let g' := fst (repair_head crc msg ser deser g) in
    snd (repair_head crc msg ser deser g) = true /\
    disk_files g' = map frames (chunks ++ [cur]) /\
    read_log crc msg deser cont RGroup (group_stream g' (g_min g')) = map ObMsg ms ++ [ObEof].
  Proof.
    intros F H C T g'.
    destruct (Forall2_app_inv_l _ _ C) as [ms1 [ms2 [C1 [C2 E]]]].
    assert (R := repair_head_spec crc crc32c_lt msg ser deser g cur tail ms2 H C2 T).
    unfold g'. rewrite R. cbn [fst snd]. split; [reflexivity|].
    assert (D : disk_files (mkGroup (g_min g) (g_files g) (frames cur) [] (g_limit g)) = map frames (chunks ++ [cur])).
    { unfold disk_files. cbn [g_files g_head]. rewrite F, map_app. reflexivity. }
    split; [exact D|].
    apply (group_roundtrip crc crc32c_lt msg deser _ _ ms cont D).
    rewrite concat_app. cbn [concat]. rewrite app_nil_r. apply (canon_good msg ser deser), C.
  Qed.

  (** and SearchForEndHeight on the repaired group behaves as on an undamaged one holding those records *)
  Lemma top_repair_group_search g chunks cur tail ms h ign :
    g_files g = map frames chunks -> g_head g = frames cur ++ tail ->
    Forall2 (canon msg ser deser) (concat chunks ++ cur) ms ->
    (forall m r, decode crc msg deser RFile tail <> OMsg m r) ->
    StronglySorted Z.lt (pos_marks (concat chunks ++ cur)) ->
    let g' := fst (repair_head crc msg ser deser g) in
    search_spec crc msg deser end_height g' (concat chunks ++ cur) h ign.
  Proof.
    intros F H C T S g'.
    destruct (top_repair_group g chunks cur tail ms true F H C T) as [_ [D _]]. fold g' in D.
    assert (E : concat (chunks ++ [cur]) = concat chunks ++ cur) by (rewrite concat_app; cbn; rewrite app_nil_r; reflexivity).
    rewrite <- E in *.
    apply (search_iff crc crc32c_lt msg deser end_height g' (chunks ++ [cur]) h ign D); auto.
    apply (good_goodp msg deser _ ms), (canon_good msg ser deser), C.
  Qed.
End Top.

(** ** the hypotheses are satisfiable, and the model runs: a toy codec whose payload is one
    non-zero byte (the height of an end-height marker) *)
Definition toy_deser (p : bytes) : option Z :=
  match p with [b] => if (b =? 0)%N then None else Some (Z.of_N b) | _ => None end.
Definition toy_ser (m : Z) : bytes := [Z.to_N m].
Definition toy_eh (m : Z) : option Z := Some m.

Example toy_good : Forall2 (good Z toy_deser) [[3%N]; [7%N]] [3%Z; 7%Z].
Proof.
  repeat constructor; try discriminate; try (cbv; discriminate).
Qed.

Example toy_roundtrip :
  read_log crc32c Z toy_deser false RGroup (frames crc32c [[3%N]; [7%N]]) = [ObMsg 3%Z; ObMsg 7%Z; ObEof].
Proof. vm_compute. reflexivity. Qed.

Example toy_search :
  search crc32c Z toy_deser toy_eh
    (final_group 0 10 [WWrite [3%N]; WTick; WWriteSync [7%N]; WTick; WWrite [9%N]]) 7 true
  = SFound (frame crc32c [9%N]).
Proof. vm_compute. reflexivity. Qed.

(** the restart scenario: the head was rotated away, the node restarts and OnStart writes its marker
    (payload [[1]] here plays EndHeightMessage{0}) into the empty head; heights in older files are still found *)
Definition toy0_deser (p : bytes) : option Z :=
  match p with [b] => if (b =? 0)%N then None else Some (Z.of_N b - 1)%Z | _ => None end.
Example toy_search_after_restart :
  let ops := [WStart [1%N]; WWriteSync [4%N]; WWriteSync [5%N]; WTick; WStart [1%N]] in
  written 0 10 ops = [[1%N]; [4%N]; [5%N]; [1%N]] /\
  search crc32c Z toy0_deser toy_eh (final_group 0 10 ops) 3 true = SFound (frames crc32c [[5%N]; [1%N]]) /\
  search crc32c Z toy0_deser toy_eh (final_group 0 10 ops) 4 true = SFound (frame crc32c [1%N]).
Proof. vm_compute. repeat split; reflexivity. Qed.

(** pruning: three one-record files of 9 bytes each, total-size limit 20: the oldest file goes (27 >= 20,
    then 18 < 20), its record is no longer found, the younger ones are *)
Example toy_prune :
  let ops := [WWriteSync [3%N]; WRotate; WWriteSync [4%N]; WRotate; WWriteSync [5%N]; WPrune 20] in
  written 0 0 ops = [[3%N]; [4%N]; [5%N]] /\ pruned_bytes 0 0 ops = 9 /\ kept 0 0 ops = [[4%N]; [5%N]] /\
  g_min (final_group 0 0 ops) = 1 /\
  search crc32c Z toy_deser toy_eh (final_group 0 0 ops) 3 true = SNotFound /\
  search crc32c Z toy_deser toy_eh (final_group 0 0 ops) 4 true = SFound (frame crc32c [5%N]).
Proof. vm_compute. repeat split; reflexivity. Qed.

(** the OnStart repair inside a group: one intact rotated file, a head with one good record and garbage *)
Example toy_repair_group :
  let g := mkGroup 0 [frame crc32c [3%N]] (frame crc32c [7%N] ++ [1%N; 2%N; 3%N]) [] 0 in
  repair_head crc32c Z toy_ser toy_deser g = (mkGroup 0 [frame crc32c [3%N]] (frame crc32c [7%N]) [] 0, true).
Proof. vm_compute. reflexivity. Qed.

(** a damaged record between two markers: with IgnoreDataCorruptionErrors both markers are still found,
    without it the older one (the damage lies behind it in the same file) is, the younger is not *)
Example toy_search_damaged :
  let bad := set_nth 8 9%N (frame crc32c [5%N]) in
  let g := mkGroup 0 [] (frame crc32c [3%N] ++ bad ++ frame crc32c [7%N]) [] 0 in
  search crc32c Z toy_deser toy_eh g 7 true = SFound [] /\
  search crc32c Z toy_deser toy_eh g 3 true = SFound (bad ++ frame crc32c [7%N]) /\
  search crc32c Z toy_deser toy_eh g 5 true = SNotFound /\
  search crc32c Z toy_deser toy_eh g 3 false = SFound (bad ++ frame crc32c [7%N]) /\
  search crc32c Z toy_deser toy_eh g 7 false = SErr CCrc.
Proof. vm_compute. repeat split; reflexivity. Qed.

(** the zero-fill behaviour of the os.File reader is real: a frame whose payload ends in a zero
    byte, cut one byte short, is completed and decoded (to the message that was written) *)
Definition toy2_deser (p : bytes) : option Z :=
  match p with [b; c] => Some (Z.of_N b) | _ => None end.
Example zero_fill_quirk :
  let fr := frame crc32c [5%N; 0%N] in
  decode crc32c Z toy2_deser RFile (firstn 9 fr) = OMsg 5%Z [] /\
  (exists c r, decode crc32c Z toy2_deser RGroup (firstn 9 fr) = OCorrupt c r).
Proof. split; [vm_compute; reflexivity|]. eexists _, _. vm_compute. reflexivity. Qed.
