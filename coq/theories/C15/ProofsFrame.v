(** C15 — framing and decoder lemmas (any checksum function with 32-bit values). *)
From Coq Require Import List ZArith NArith Bool Lia Arith.
From Kardia Require Import C15.ProofsCrc C15.Model Generated.C15Facts.
Import ListNotations.
Set Default Proof Using "Type".

(** side condition on the constant regenerated from the source on every run *)
Lemma max_fits : (max_msg_size_bytes < 4294967296)%N.
Proof. reflexivity. Qed.

Lemma firstn_length_app {A} (p r : list A) : firstn (length p) (p ++ r) = p.
Proof. induction p; cbn; congruence. Qed.
Lemma skipn_length_app {A} (p r : list A) : skipn (length p) (p ++ r) = r.
Proof. induction p; cbn; congruence. Qed.
Lemma firstn_app_le {A} n (a b : list A) : n <= length a -> firstn n (a ++ b) = firstn n a.
Proof. intro H. rewrite firstn_app. replace (n - length a) with 0 by lia. cbn. apply app_nil_r. Qed.
Lemma firstn_app_ge {A} n (a b : list A) : length a <= n -> firstn n (a ++ b) = a ++ firstn (n - length a) b.
Proof. intro H. rewrite firstn_app. rewrite firstn_all2 by lia. reflexivity. Qed.
Lemma repeat_app_nil {A} (x : A) : repeat x 0 = []. Proof. reflexivity. Qed.

Lemma wf_app a b : wf_bytes (a ++ b) <-> wf_bytes a /\ wf_bytes b.
Proof. unfold wf_bytes. apply Forall_app. Qed.
Lemma wf_firstn n a : wf_bytes a -> wf_bytes (firstn n a).
Proof. unfold wf_bytes. intro H. rewrite <- (firstn_skipn n a) in H. apply Forall_app in H. tauto. Qed.
Lemma wf_skipn n a : wf_bytes a -> wf_bytes (skipn n a).
Proof. unfold wf_bytes. intro H. rewrite <- (firstn_skipn n a) in H. apply Forall_app in H. tauto. Qed.
Lemma wf_repeat0 n : wf_bytes (repeat 0%N n).
Proof. unfold wf_bytes. apply Forall_forall. intros x Hx. apply repeat_spec in Hx. subst. reflexivity. Qed.

Lemma be32_length x : length (be32 x) = 4. Proof. reflexivity. Qed.

Lemma be32_wf x : wf_bytes (be32 x).
Proof. unfold be32, wf_bytes. repeat constructor; apply N.mod_lt; discriminate. Qed.

Lemma of_be32_be32 x : (x < 4294967296)%N -> of_be32 (be32 x) = x.
Proof.
  intro H. unfold of_be32, be32. change 16777216%N with (256 * 256 * 256)%N. change 65536%N with (256 * 256)%N.
  rewrite <- !N.div_div by discriminate.
  rewrite (N.mod_small (x / 256 / 256 / 256)) by (repeat apply N.div_lt_upper_bound; try discriminate; exact H).
  rewrite !(N.mul_comm _ 256), <- !N.div_mod'. reflexivity.
Qed.

Lemma digit_div q r : (r < 256)%N -> ((q * 256 + r) / 256 = q)%N.
Proof. intro H. symmetry. apply (N.div_unique _ 256 q r); auto. ring. Qed.
Lemma digit_mod q r : (r < 256)%N -> ((q * 256 + r) mod 256 = r)%N.
Proof. intro H. symmetry. apply (N.mod_unique _ 256 q r); auto. ring. Qed.

Lemma bytes4 b : length b = 4 -> wf_bytes b ->
  exists a0 a1 a2 a3, b = [a0; a1; a2; a3] /\ (a0 < 256 /\ a1 < 256 /\ a2 < 256 /\ a3 < 256)%N.
Proof.
  intros L W. destruct b as [|a0 [|a1 [|a2 [|a3 [|e t]]]]]; try discriminate L.
  exists a0, a1, a2, a3. repeat apply Forall_cons_iff in W as [? W]. auto.
Qed.

Lemma be32_of_be32 b : length b = 4 -> wf_bytes b -> be32 (of_be32 b) = b.
Proof.
  intros L W. destruct (bytes4 b L W) as (a0 & a1 & a2 & a3 & -> & H0 & H1 & H2 & H3).
  unfold of_be32, be32. change 16777216%N with (256 * 256 * 256)%N. change 65536%N with (256 * 256)%N.
  rewrite <- !N.div_div by discriminate.
  rewrite !digit_div, !digit_mod, (N.mod_small a0) by assumption. reflexivity.
Qed.

Lemma of_be32_lt b : length b = 4 -> wf_bytes b -> (of_be32 b < 4294967296)%N.
Proof.
  intros L W. destruct (bytes4 b L W) as (a0 & a1 & a2 & a3 & -> & H0 & H1 & H2 & H3).
  unfold of_be32. lia.
Qed.

Lemma be32_inj x y : (x < 4294967296)%N -> (y < 4294967296)%N -> be32 x = be32 y -> x = y.
Proof. intros Hx Hy E. rewrite <- (of_be32_be32 x Hx), <- (of_be32_be32 y Hy), E. reflexivity. Qed.

Lemma lenN_length (p : bytes) : N.to_nat (lenN p) = length p.
Proof. unfold lenN. apply Nat2N.id. Qed.

Lemma shorter_spec bs n : shorter bs n = Nat.ltb (length bs) n.
Proof.
  revert bs. induction n as [|n IH]; intros [|b bs]; cbn [shorter length]; auto.
  rewrite IH. reflexivity.
Qed.

(** ** the reads of Decode: [rd] by whether the stream holds the [n] bytes asked for *)
Lemma rd_0 k bs : rd k 0 bs = ([], bs, match k with RFile => ROk | RGroup => RErrEmpty end).
Proof. destruct k; reflexivity. Qed.

Lemma rd_S k n bs :
  rd k (S n) bs =
  if Nat.ltb (length bs) (S n)
  then match k, bs with
       | RFile, _ :: _ => (bs ++ repeat 0%N (S n - length bs), [], ROk)
       | _, _ => ([], [], REof)
       end
  else (firstn (S n) bs, skipn (S n) bs, ROk).
Proof.
  destruct k; cbn [rd].
  - destruct bs as [|b bs]; [reflexivity|]. set (l := b :: bs). unfold pad_to.
    destruct (Nat.ltb_spec (length l) (S n)) as [H|H].
    + rewrite firstn_all2, skipn_all2 by lia. reflexivity.
    + rewrite firstn_length_le, Nat.sub_diag, app_nil_r by exact H. reflexivity.
  - rewrite shorter_spec. destruct (Nat.ltb (length bs) (S n)); reflexivity.
Qed.

(* [injection] on a result of [rd] would also simplify the [firstn] and [skipn] in it *)
Lemma triple_eq {A B C} (a a' : A) (b b' : B) (c c' : C) : (a, b, c) = (a', b', c') -> a = a' /\ b = b' /\ c = c'.
Proof. intros [= -> -> ->]. auto. Qed.

(** a successful read returns [n] bytes: those of the stream, or (os.File at the end of a non-empty
    file) what is left of it, zero-filled *)
Lemma rd_ok k n bs d r :
  rd k n bs = (d, r, ROk) ->
  length d = n /\ exists z, bs ++ repeat 0%N z = d ++ r /\ (z = 0 \/ (k = RFile /\ r = [] /\ bs <> [])).
Proof.
  destruct n as [|n]; [rewrite rd_0|rewrite rd_S; destruct (Nat.ltb_spec (length bs) (S n)) as [H|H]].
  - intro E. apply triple_eq in E as (<- & <- & _). split; [reflexivity|]. exists 0. rewrite app_nil_r. auto.
  - destruct k; [|discriminate]. destruct bs as [|b t] eqn:B; [discriminate|]. rewrite <- B in *.
    intro E. apply triple_eq in E as (<- & <- & _). split; [rewrite app_length, repeat_length; lia|].
    exists (S n - length bs). rewrite app_nil_r. split; [reflexivity|]. right. repeat split. rewrite B. discriminate.
  - intro E. apply triple_eq in E as (<- & <- & _). split; [apply firstn_length_le, H|].
    exists 0. rewrite app_nil_r, firstn_skipn. auto.
Qed.

Lemma rd_full k p r : p <> [] -> rd k (length p) (p ++ r) = (p, r, ROk).
Proof.
  intro Hp. destruct (length p) as [|n] eqn:L; [destruct p; [congruence|discriminate L]|]. rewrite rd_S.
  destruct (Nat.ltb_spec (length (p ++ r)) (S n)) as [H|_]; [rewrite app_length in H; lia|].
  rewrite <- L, firstn_length_app, skipn_length_app. reflexivity.
Qed.

Lemma rd_field k c r : length c = 4 -> rd k 4 (c ++ r) = (c, r, ROk).
Proof. intro L. rewrite <- L. apply rd_full. intros ->. discriminate L. Qed.

Lemma rd_rest_le k n bs b r s : rd k n bs = (b, r, s) -> length r <= length bs.
Proof.
  destruct n as [|n]; [rewrite rd_0|rewrite rd_S; destruct (Nat.ltb (length bs) (S n))].
  - intro E. apply triple_eq in E as (_ & <- & _). reflexivity.
  - destruct k, bs; intro E; apply triple_eq in E as (_ & <- & _); cbn; lia.
  - intro E. apply triple_eq in E as (_ & <- & _). rewrite skipn_length. lia.
Qed.

Lemma rd_rest_lt k n bs b r : rd k (S n) bs = (b, r, ROk) -> length r < length bs.
Proof.
  rewrite rd_S. destruct (Nat.ltb_spec (length bs) (S n)) as [H|H].
  - destruct k, bs; try discriminate. intro E. apply triple_eq in E as (_ & <- & _). cbn. lia.
  - intro E. apply triple_eq in E as (_ & <- & _). rewrite skipn_length. lia.
Qed.

Lemma lenN_le_max_lt p : (lenN p <= max_msg_size_bytes)%N -> (lenN p < 4294967296)%N.
Proof. pose proof max_fits. lia. Qed.

Section FrameBasic.
  Variable crc : bytes -> N.
  Notation frame := (frame crc).
  Lemma frame_length p : length (frame p) = 8 + length p.
  Proof. unfold Model.frame. rewrite !app_length, !be32_length. lia. Qed.

  Lemma frame_wf p : wf_bytes p -> wf_bytes (frame p).
  Proof. intro H. unfold Model.frame. apply wf_app. split; [apply be32_wf|]. apply wf_app. split; [apply be32_wf|auto]. Qed.
End FrameBasic.

Section Decode.
  Variable crc : bytes -> N.
  Variable msg : Type.
  Variable deser : bytes -> option msg.

  Notation frame := (frame crc).
  Notation decode := (decode crc msg deser).
  Notation decode_alloc := (decode_alloc crc msg deser).
  Notation decode_full := (decode_full crc msg deser).

  Lemma decode_full_split k bs : decode_full k bs = (decode k bs, decode_alloc k bs).
  Proof. apply surjective_pairing. Qed.

  (** ** Decode on a stream that begins with two whole four-byte fields [c] and [l] *)

  (** a declared length above the limit is always refused, before any allocation *)
  Lemma decode_too_big k c l rest :
    length c = 4 -> length l = 4 -> (max_msg_size_bytes < of_be32 l)%N ->
    decode_full k (c ++ l ++ rest) = (OCorrupt CTooBig rest, 0%N).
  Proof.
    intros Lc Ll H. unfold Model.decode_full.
    rewrite (rd_field k c) by exact Lc. cbv beta iota. rewrite (rd_field k l) by exact Ll. cbv beta iota.
    apply N.ltb_lt in H. rewrite H. reflexivity.
  Qed.

  (** a declared length within the limit, followed by that many bytes [p]: the checksum test decides,
      then the unmarshaller *)
  Lemma decode_record k c l p rest :
    length c = 4 -> length l = 4 -> p <> [] -> N.to_nat (of_be32 l) = length p ->
    (of_be32 l <= max_msg_size_bytes)%N ->
    decode_full k (c ++ l ++ p ++ rest) =
      if (crc p =? of_be32 c)%N
      then match deser p with Some m => (OMsg m rest, of_be32 l) | None => (OCorrupt CDecode rest, of_be32 l) end
      else (OCorrupt CCrc rest, of_be32 l).
  Proof.
    intros Lc Ll NE Lp H. unfold Model.decode_full.
    rewrite (rd_field k c) by exact Lc. cbv beta iota. rewrite (rd_field k l) by exact Ll. cbv beta iota.
    apply N.ltb_ge in H. rewrite H, Lp, (rd_full k p rest NE). reflexivity.
  Qed.

  (** completeness: a frame at the head of the stream is decoded, by both readers *)
  Lemma decode_frame k p m rest :
    (crc p < 4294967296)%N -> (lenN p <= max_msg_size_bytes)%N -> p <> [] -> deser p = Some m ->
    decode_full k (frame p ++ rest) = (OMsg m rest, lenN p).
  Proof.
    intros Hc Hl Hne Hd. pose proof (lenN_le_max_lt p Hl) as Hl'.
    unfold Model.frame. rewrite <- !app_assoc, decode_record; rewrite ?of_be32_be32 by auto;
      auto using be32_length, lenN_length.
    rewrite N.eqb_refl, Hd. reflexivity.
  Qed.

  Lemma decode_nil k : decode k [] = OEof.
  Proof. destruct k; reflexivity. Qed.

  (** soundness, for any bytes: a message is returned only for a CRC-consistent frame at the head
      of the stream whose length field is within the limit; the os.File reader may have completed
      the last read with zero bytes ([z] of them), only at the very end of the file. *)
  Lemma decode_sound k bs m rest a :
    wf_bytes bs -> decode_full k bs = (OMsg m rest, a) ->
    exists p z, deser p = Some m /\ (lenN p <= max_msg_size_bytes)%N /\ a = lenN p /\ wf_bytes p /\
                bs ++ repeat 0%N z = frame p ++ rest /\
                (z = 0 \/ (k = RFile /\ rest = [] /\ z < length (frame p))).
  Proof.
    intros W. unfold Model.decode_full.
    destruct (rd k 4 bs) as [[b1 r1] s1] eqn:E1. destruct s1; try discriminate.
    destruct (rd k 4 r1) as [[b2 r2] s2] eqn:E2. destruct s2; try discriminate.
    destruct (max_msg_size_bytes <? of_be32 b2)%N eqn:M; try discriminate.
    destruct (rd k (N.to_nat (of_be32 b2)) r2) as [[d r3] s3] eqn:E3. destruct s3; try discriminate.
    destruct (crc d =? of_be32 b1)%N eqn:C; try discriminate.
    destruct (deser d) as [m'|] eqn:D; try discriminate.
    intros [= -> -> <-].
    apply N.ltb_ge in M. apply N.eqb_eq in C.
    apply rd_ok in E1 as [L1 [z1 [A1 Z1]]]. apply rd_ok in E2 as [L2 [z2 [A2 Z2]]]. apply rd_ok in E3 as [L3 [z3 [A3 Z3]]].
    (* with the zero bytes of all three reads appended, the stream is the three buffers and the rest *)
    assert (A : bs ++ repeat 0%N (z1 + (z2 + z3)) = b1 ++ b2 ++ d ++ rest).
    { rewrite !repeat_app, !app_assoc, A1, <- (app_assoc b1), A2, <- !app_assoc, A3. reflexivity. }
    assert (Wa : wf_bytes (b1 ++ b2 ++ d ++ rest)) by (rewrite <- A; apply wf_app; auto using wf_repeat0).
    apply wf_app in Wa as [Wb1 Wa]. apply wf_app in Wa as [Wb2 Wa]. apply wf_app in Wa as [Wd _].
    assert (Ld : lenN d = of_be32 b2) by (unfold lenN; rewrite L3; apply N2Nat.id).
    assert (F : frame d = b1 ++ b2 ++ d) by (unfold Model.frame; rewrite C, Ld, !be32_of_be32; auto).
    exists d, (z1 + (z2 + z3)). rewrite frame_length.
    repeat split; auto; try lia; [rewrite F, <- !app_assoc; exact A|].
    (* a short read leaves nothing, and the next read, from nothing, returns nothing: only the last
       non-empty read can have been short *)
    apply (f_equal (@length N)) in A1, A2, A3. rewrite !app_length, repeat_length in A1, A2, A3.
    destruct Z1 as [->|(_ & -> & _)]; [|exfalso; destruct Z2 as [->|(_ & _ & N2)]; [cbn [length] in A2; lia|congruence]].
    destruct Z2 as [->|(K & -> & N2)], Z3 as [->|(K' & -> & N3)]; try congruence.
    - left. reflexivity.
    - right. repeat split; auto. destruct r2; [congruence|cbn [length] in A3; lia].
    - right. destruct rest; [|cbn [length] in A3; lia]. repeat split; auto.
      destruct r1; [congruence|cbn [length] in A2; lia].
  Qed.

  (** the declared length is compared with the limit before the buffer is made *)
  Lemma decode_alloc_bound k bs : (decode_alloc k bs <= max_msg_size_bytes)%N.
  Proof.
    unfold Model.decode_alloc, Model.decode_full.
    destruct (rd k 4 bs) as [[b1 r1] s1]. destruct s1; cbn; try lia.
    destruct (rd k 4 r1) as [[b2 r2] s2]. destruct s2; cbn; try lia.
    destruct (max_msg_size_bytes <? of_be32 b2)%N eqn:M; cbn; try lia.
    apply N.ltb_ge in M.
    destruct (rd k (N.to_nat (of_be32 b2)) r2) as [[d r3] s3]. destruct s3; cbn; try lia.
    destruct (crc d =? of_be32 b1)%N; cbn; try lia. destruct (deser d); cbn; lia.
  Qed.

  (** every Decode call that is not end-of-file consumes input *)
  Lemma decode_consumes k bs :
    match decode k bs with
    | OMsg _ rest | OCorrupt _ rest => length rest < length bs
    | OEof => True
    end.
  Proof.
    unfold Model.decode, Model.decode_full.
    destruct (rd k 4 bs) as [[b1 r1] s1] eqn:E1.
    pose proof (rd_rest_le _ _ _ _ _ _ E1) as Q1.
    destruct s1; cbn [fst]; auto.
    - pose proof (rd_rest_lt _ _ _ _ _ E1) as R.
      destruct (rd k 4 r1) as [[b2 r2] s2] eqn:E2. pose proof (rd_rest_le _ _ _ _ _ _ E2) as Q2.
      destruct s2; cbn [fst]; try lia.
      destruct (max_msg_size_bytes <? of_be32 b2)%N; cbn [fst]; try lia.
      destruct (rd k (N.to_nat (of_be32 b2)) r2) as [[d r3] s3] eqn:E3. pose proof (rd_rest_le _ _ _ _ _ _ E3) as Q3.
      destruct s3; cbn [fst]; try lia.
      destruct (crc d =? of_be32 b1)%N; cbn [fst]; try lia. destruct (deser d); cbn [fst]; lia.
    - exfalso. destruct k; cbn [rd] in E1.
      + destruct bs; discriminate.
      + destruct (shorter bs 4); discriminate.
  Qed.

End Decode.
