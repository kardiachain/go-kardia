(** CRC-32C facts used by C15: the per-bit update is GF(2)-linear and injective on 32-bit states,
    hence two byte strings that differ in exactly one byte have different checksums. *)
From Coq Require Import List ZArith NArith Bool Lia.
From Kardia Require Import C15.Crc32c.
Import ListNotations.
Local Open Scope N_scope.

Definition b32 (x : N) : Prop := N.shiftr x 32 = 0.
Definition wf_bytes (l : list N) : Prop := Forall (fun b => b < 256) l.

Lemma b32_lt x : b32 x <-> x < 4294967296.
Proof.
  unfold b32. rewrite N.shiftr_div_pow2. change (2 ^ 32) with 4294967296. split; intro H.
  - destruct (N.ltb_spec x 4294967296) as [L|L]; auto.
    assert (1 <= x / 4294967296) by (apply N.div_le_lower_bound; lia). lia.
  - apply N.div_small; auto.
Qed.

Lemma b32_byte b : b < 256 -> b32 b.
Proof. intro H. apply b32_lt. lia. Qed.

Lemma b32_lxor a b : b32 a -> b32 b -> b32 (N.lxor a b).
Proof. unfold b32. intros Ha Hb. rewrite N.shiftr_lxor, Ha, Hb. reflexivity. Qed.

Lemma b32_poly : b32 poly. Proof. reflexivity. Qed.
Lemma b32_mask : b32 mask32. Proof. reflexivity. Qed.

Lemma b32_shiftr1 a : b32 a -> b32 (N.shiftr a 1).
Proof.
  unfold b32. intro H. rewrite N.shiftr_shiftr. replace (1 + 32) with (32 + 1) by lia.
  rewrite <- N.shiftr_shiftr, H. reflexivity.
Qed.

Lemma b32_crc_bit c : b32 c -> b32 (crc_bit c).
Proof.
  intro H. unfold crc_bit. destruct (N.odd c).
  - apply b32_lxor; [apply b32_shiftr1; auto | apply b32_poly].
  - apply b32_shiftr1; auto.
Qed.

Lemma crc_bit_linear a b : crc_bit (N.lxor a b) = N.lxor (crc_bit a) (crc_bit b).
Proof.
  unfold crc_bit. rewrite Ndigits.Nxor_bit0. generalize poly as k. intro k.
  apply N.bits_inj. intro n.
  destruct (N.odd a), (N.odd b); cbn [xorb];
    repeat (rewrite ?N.lxor_spec, ?N.shiftr_spec'; try apply N.le_0_l);
    destruct (N.testbit a (n + 1)), (N.testbit b (n + 1)), (N.testbit k n); reflexivity.
Qed.

Lemma lxor_cancel_r a b k : N.lxor a k = N.lxor b k -> a = b.
Proof.
  intro H. apply (f_equal (fun x => N.lxor x k)) in H.
  rewrite !N.lxor_assoc, N.lxor_nilpotent, !N.lxor_0_r in H. exact H.
Qed.

Lemma testbit31_crc_bit c : b32 c -> N.testbit (crc_bit c) 31 = N.odd c.
Proof.
  intro H. unfold crc_bit.
  assert (T : N.testbit (N.shiftr c 1) 31 = false).
  { rewrite N.shiftr_spec' . change (31 + 1) with (0 + 32). rewrite <- N.shiftr_spec'. rewrite H. reflexivity. }
  destruct (N.odd c).
  - rewrite N.lxor_spec, T. reflexivity.
  - exact T.
Qed.

Lemma shiftr1_odd_inj a b : N.shiftr a 1 = N.shiftr b 1 -> N.odd a = N.odd b -> a = b.
Proof.
  intros H1 H2. rewrite (N.div2_odd a), (N.div2_odd b), !N.div2_spec, H1, H2. reflexivity.
Qed.

(** one shift is injective on 32-bit states (the top bit of the result tells the bit shifted out) *)
Lemma crc_bit_inj a b : b32 a -> b32 b -> crc_bit a = crc_bit b -> a = b.
Proof.
  intros Ha Hb E.
  assert (O : N.odd a = N.odd b).
  { rewrite <- (testbit31_crc_bit a Ha), <- (testbit31_crc_bit b Hb), E. reflexivity. }
  apply shiftr1_odd_inj; auto.
  unfold crc_bit in E. rewrite <- O in E. destruct (N.odd a).
  - eapply lxor_cancel_r; eauto.
  - exact E.
Qed.

Lemma b32_step8 c : b32 c -> b32 (crc_step8 c).
Proof. intro H. unfold crc_step8. do 8 apply b32_crc_bit. exact H. Qed.

Lemma crc_step8_linear a b : crc_step8 (N.lxor a b) = N.lxor (crc_step8 a) (crc_step8 b).
Proof. unfold crc_step8. rewrite !crc_bit_linear. reflexivity. Qed.

(* [crc_step8] and [crc_byte] are unfolded in the goal, before the equation is introduced: converting a
   hypothesis about eight nested [crc_bit] is slow to check *)
Lemma crc_step8_inj a b : b32 a -> b32 b -> crc_step8 a = crc_step8 b -> a = b.
Proof.
  intros Ha Hb. unfold crc_step8. intro E.
  do 8 (apply crc_bit_inj; [exact Ha|exact Hb|]; apply b32_crc_bit in Ha; apply b32_crc_bit in Hb).
  exact E.
Qed.

Lemma b32_crc_byte c b : b32 c -> b < 256 -> b32 (crc_byte c b).
Proof. intros Hc Hb. unfold crc_byte. apply b32_step8, b32_lxor; [exact Hc|apply b32_byte, Hb]. Qed.

Lemma crc_byte_inj_state c1 c2 b : b32 c1 -> b32 c2 -> b < 256 -> crc_byte c1 b = crc_byte c2 b -> c1 = c2.
Proof.
  intros H1 H2 Hb. apply b32_byte in Hb. unfold crc_byte. intro E.
  apply (lxor_cancel_r c1 c2 b), crc_step8_inj; [apply b32_lxor; assumption..|exact E].
Qed.

Lemma crc_byte_inj_byte c b1 b2 : b32 c -> b1 < 256 -> b2 < 256 -> crc_byte c b1 = crc_byte c b2 -> b1 = b2.
Proof.
  intros Hc H1 H2. apply b32_byte in H1, H2. unfold crc_byte. rewrite (N.lxor_comm c b1), (N.lxor_comm c b2). intro E.
  apply (lxor_cancel_r b1 b2 c), crc_step8_inj; [apply b32_lxor; assumption..|exact E].
Qed.

Lemma crc_update_cons c b l : crc_update c (b :: l) = crc_update (crc_byte c b) l.
Proof. reflexivity. Qed.

Lemma crc_update_app c l1 l2 : crc_update c (l1 ++ l2) = crc_update (crc_update c l1) l2.
Proof. unfold crc_update. apply fold_left_app. Qed.

Lemma b32_crc_update l : forall c, b32 c -> wf_bytes l -> b32 (crc_update c l).
Proof.
  induction l as [|b l IH]; intros c Hc Hl; [exact Hc|].
  rewrite crc_update_cons. apply IH; [apply b32_crc_byte; [exact Hc|]|]; inversion Hl; assumption.
Qed.

Lemma crc_update_inj_state l : forall c1 c2, b32 c1 -> b32 c2 -> wf_bytes l ->
  crc_update c1 l = crc_update c2 l -> c1 = c2.
Proof.
  induction l as [|b l IH]; intros c1 c2 H1 H2 Hl; [intro E; exact E|].
  rewrite !crc_update_cons. intro E. inversion Hl; subst.
  apply IH in E; [|apply b32_crc_byte; assumption..|assumption].
  apply (crc_byte_inj_state c1 c2 b); assumption.
Qed.

Lemma crc32c_lt l : wf_bytes l -> crc32c l < 4294967296.
Proof.
  intro H. apply b32_lt. unfold crc32c. apply b32_lxor; [ | apply b32_mask ].
  apply b32_crc_update; auto. apply b32_mask.
Qed.

(** a change of exactly one byte (so in particular any single bit flip) changes the CRC *)
Lemma crc32c_one_byte pre b b' suf :
  wf_bytes pre -> wf_bytes suf -> b < 256 -> b' < 256 -> b <> b' ->
  crc32c (pre ++ b :: suf) <> crc32c (pre ++ b' :: suf).
Proof.
  intros Hp Hs Hb Hb' Hne. unfold crc32c. rewrite !crc_update_app, !crc_update_cons. intro E.
  assert (Hc : b32 (crc_update mask32 pre)) by (apply b32_crc_update; [apply b32_mask|exact Hp]).
  apply lxor_cancel_r, crc_update_inj_state in E; [|apply b32_crc_byte; assumption..|exact Hs].
  apply crc_byte_inj_byte in E; auto.
Qed.
