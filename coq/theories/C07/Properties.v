(** C07 — the property theorems, each followed by [Print Assumptions]; a theorem is closed by a lemma
    of the Proofs*.v files, or by a few lines that instantiate one for a history started from the
    empty trie.  In order: key encodings (hex, compact); get / insert / delete on resolved tries refine
    a finite map and keep the unique canonical form; the root depends on the content only, also with
    Hash() calls in between; node codec round trip; get through hash-node resolution; commit and
    reopen; Merkle proofs (sound, complete); [build] as the order-free definition of the trie; the
    stack trie equals the trie; the root after an intermediate commit; the leaf iterator; range proofs
    (whole-trie form proved, elements outside the edges refuted); the source tie and its manifest; a
    computed example.  Open.v says what is carried by the harness only. *)
From Coq Require Import List NArith Arith Bool.
From Kardia Require Import C07.Model C07.ProofsBase C07.ProofsMap C07.ProofsCanon C07.ProofsEnc C07.ProofsCache C07.ProofsRlp C07.ProofsCodec C07.ProofsCommit C07.ProofsReopen C07.ProofsProof C07.ProofsBuild C07.ProofsStack C07.ProofsStackIns C07.Open.
From Kardia Require Import C07.ModelRange C07.ProofsIter C07.ProofsRange C07.ProofsView C07.SourceTie.
Import ListNotations.

(** keybytesToHex is injective on byte strings and yields well-formed keys *)
Theorem C07_keybytes_hex_injective :
  forall a b, is_bytes a -> is_bytes b -> keybytes_to_hex a = keybytes_to_hex b -> a = b.
Proof. exact keybytes_to_hex_inj. Qed.
Print Assumptions C07_keybytes_hex_injective.

Theorem C07_keybytes_hex_wellformed : forall bs, is_bytes bs -> wfk (keybytes_to_hex bs).
Proof. exact keybytes_to_hex_wfk. Qed.
Print Assumptions C07_keybytes_hex_wellformed.

(** hexToCompact / compactToHex round-trip on every key a trie node can carry (nibbles, with or
    without the terminator); hence the compact encoding is injective *)
Theorem C07_compact_roundtrip :
  forall k, (nibs k \/ wfk k) -> compact_to_hex (hex_to_compact k) = k.
Proof. exact compact_roundtrip. Qed.
Print Assumptions C07_compact_roundtrip.

Theorem C07_compact_injective :
  forall a b, (nibs a \/ wfk a) -> (nibs b \/ wfk b) -> hex_to_compact a = hex_to_compact b -> a = b.
Proof. exact compact_injective. Qed.
Print Assumptions C07_compact_injective.

(** Trie.get on a canonical trie returns the node unchanged and the value the content relation
    assigns to the key (empty = absent); the fuel computed from the key always suffices *)
Theorem C07_get_refines :
  forall d fuel n k, canon n -> wfk k -> length k < fuel ->
  exists v, get fuel d n k = Ok (v, n) /\
            ((v = [] /\ forall w, ~ has n k w) \/ (v <> [] /\ has n k v)).
Proof. exact get_spec. Qed.
Print Assumptions C07_get_refines.

(** Trie.insert of a non-empty value: never fails, stays canonical, content becomes m[k := v] *)
Theorem C07_insert_refines :
  forall d v, v <> [] ->
  forall fuel n k, canon n -> wfk k -> length k < fuel ->
  exists b n', insert fuel d n k (Value v) = Ok (b, n') /\ canon n' /\ n' <> Empty /\
               (b = false -> n' = n) /\
               (forall cs g, n = Full cs g -> exists cs' g', n' = Full cs' g') /\
               (forall k' w, has n' k' w <-> (k' = k /\ w = v) \/ (k' <> k /\ has n k' w)).
Proof. exact insert_spec. Qed.
Print Assumptions C07_insert_refines.

(** Trie.delete: never fails, stays canonical (branches with one child left are collapsed,
    short nodes merged), content becomes m \ {k} *)
Theorem C07_delete_refines :
  forall d fuel n k, canon n -> wfk k -> length k < fuel ->
  exists b n', delete fuel d n k = Ok (b, n') /\ canon n' /\
               (b = false -> n' = n) /\
               (forall cs g, n = Full cs g -> n' <> Empty) /\
               (forall k' w, has n' k' w <-> (k' <> k /\ has n k' w)).
Proof. exact delete_spec. Qed.
Print Assumptions C07_delete_refines.

(** the canonical form is unique: same content => same trie, up to the hash caches *)
Theorem C07_canonical_unique :
  forall a b, canon a -> canon b -> (forall k w, has a k w <-> has b k w) -> erase a = erase b.
Proof. intros a b Ha Hb. exact (canon_unique a Ha b Hb). Qed.
Print Assumptions C07_canonical_unique.

(** authenticated *map*: after any sequence of Update/Delete (Update with an empty value
    deletes) starting from the empty trie, no operation fails and Get returns for every key
    exactly the last value written (empty if deleted or never written) *)
Theorem C07_history_refines_map :
  forall d ops, Forall (fun o => is_bytes (mop_key o)) ops ->
  exists n, run d Empty ops = Ok n /\ canon n /\
            forall kb, is_bytes kb -> trie_get d n kb = Ok (content (fun _ => []) ops kb, n).
Proof.
  intros d ops Hk. destruct (run_represents d ops _ _ represents_empty Hk) as (n & Hr & Hrep).
  exists n. split; auto. split; [apply Hrep|]. intros kb Hb. apply represents_get; auto.
Qed.
Print Assumptions C07_history_refines_map.

(** canonical root: two histories that end with the same content end with the same trie (up to
    caches) and hence the same root hash — independent of the order of insertion and of
    deleted intermediate entries.  [H] is arbitrary: nothing about Keccak is assumed. *)
Theorem C07_root_content_only :
  forall (H : bytes -> bytes) d ops1 ops2 n1 n2,
  Forall (fun o => is_bytes (mop_key o)) ops1 -> Forall (fun o => is_bytes (mop_key o)) ops2 ->
  (forall kb, is_bytes kb -> content (fun _ => []) ops1 kb = content (fun _ => []) ops2 kb) ->
  run d Empty ops1 = Ok n1 -> run d Empty ops2 = Ok n2 ->
  erase n1 = erase n2 /\
  fst (trie_hash H (erase n1)) = fst (trie_hash H (erase n2)).
Proof.
  intros H d ops1 ops2 n1 n2 H1 H2 Hc R1 R2.
  assert (E : erase n1 = erase n2)
    by (eapply represents_unique; [apply (run_empty d ops1)|apply (run_empty d ops2)|]; eauto).
  split; auto. rewrite E. reflexivity.
Qed.
Print Assumptions C07_root_content_only.

(** hasher.hash with caches = hashing from scratch: whenever every cached hash in a trie is the
    from-scratch hash of its node (which holds initially and is preserved, see below), the hasher
    returns the from-scratch result, does not change the content, and leaves correct caches *)
Theorem C07_hash_cache_correct :
  forall (H : bytes -> bytes) n root, caches_ok H root n ->
  fst (hash_node H n root) = fst (hash_node H (erase n) root) /\
  erase (snd (hash_node H n root)) = erase n /\
  caches_ok H root (snd (hash_node H n root)).
Proof. exact hash_node_ok. Qed.
Print Assumptions C07_hash_cache_correct.

(** canonical root, with intermediate hashing: for histories of Update / Delete / Hash() (Hash
    replaces the root by its cached copy, as Trie.Hash does), the root hash that Trie.Hash
    reports at the end — computed WITH all caches accumulated on the way — depends on the final
    content alone: not on the order of operations and not on where Hash() was called *)
Theorem C07_root_independent_of_hashing :
  forall (H : bytes -> bytes) d ops1 ops2 n1 n2,
  Forall (fun o => is_bytes (hop_key o)) ops1 -> Forall (fun o => is_bytes (hop_key o)) ops2 ->
  (forall kb, is_bytes kb ->
     content (fun _ => []) (flat_map hop_mop ops1) kb = content (fun _ => []) (flat_map hop_mop ops2) kb) ->
  hrun H d Empty ops1 = Ok n1 -> hrun H d Empty ops2 = Ok n2 ->
  fst (trie_hash H n1) = fst (trie_hash H n2) /\
  (forall kb, is_bytes kb -> trie_get d n1 kb = Ok (content (fun _ => []) (flat_map hop_mop ops1) kb, n1)).
Proof.
  intros H d ops1 ops2 n1 n2 H1 H2 Hc R1 R2.
  destruct (hrun_empty H d ops1 _ H1 R1) as [P1 C1]. destruct (hrun_empty H d ops2 _ H2 R2) as [P2 C2].
  assert (E : erase n1 = erase n2) by (eapply represents_unique; eauto).
  destruct (trie_hash_ok H n1 C1) as (T1 & _). destruct (trie_hash_ok H n2 C2) as (T2 & _).
  split; [rewrite T1, T2, E; reflexivity|]. intros kb Hb. apply represents_get; auto.
Qed.
Print Assumptions C07_root_independent_of_hashing.

(** node codec round trip: decodeNode applied to the encoding that hasher / committer / Prove
    write for a canonical node (followed by arbitrary bytes, as for embedded nodes) returns the
    node with every child collapsed exactly as it was encoded: hash node, embedded node,
    value, nil.  [H] is arbitrary except that its outputs are 32 bytes long; keys and values
    in the trie are shorter than 2^32 ([sized]). *)
Theorem C07_node_codec_roundtrip :
  forall (H : bytes -> bytes), (forall x, length (H x) = 32) ->
  forall n, canon n -> sized n -> n <> Empty ->
  forall fuel h rest, length (cenc H n) <= fuel ->
  decode_node fuel h (cenc H n ++ rest) = Some (shallow H h n).
Proof. exact decode_cenc. Qed.
Print Assumptions C07_node_codec_roundtrip.

(** Trie.get on a partially resolved trie (hash nodes resolved through the database and
    decodeNode) returns what the fully resolved canonical trie holds, and the replacement
    root it returns is again a view of the same trie *)
Theorem C07_get_through_resolution :
  forall (H : bytes -> bytes), (forall x, length (H x) = 32) ->
  forall d fuel n' n k, rel H d n' n -> canon n -> sized n -> wfk k ->
  2 * length k + ref_cost n' < fuel ->
  exists v n'', get fuel d n' k = Ok (v, n'') /\
                ((v = [] /\ forall w, ~ has n k w) \/ (v <> [] /\ has n k v)) /\ rel H d n'' n.
Proof. exact get_rel. Qed.
Print Assumptions C07_get_through_resolution.

(** commit, then reopen: after any history of Update / Delete / Hash(), Trie.Commit(false)
    followed by Database.Update and trie.New(root) yields a trie with the committed root
    hash whose Get returns the map value for every key; so does the committed trie itself
    (its root is now a hash node).  Alternatives: an explicit Keccak collision, or the
    root hash is the all-zero hash, which trie.New treats as "empty trie". *)
Theorem C07_reopen :
  forall (H : bytes -> bytes), (forall x, length (H x) = 32) ->
  forall d0 d ops n,
  Forall (fun o => is_bytes (hop_key o)) ops ->
  hrun H d0 Empty ops = Ok n -> n <> Empty ->
  let m := content (fun _ => []) (flat_map hop_mop ops) in
  bounded m ->
  let '(h, root', set) := trie_commit H n in
  let d' := set ++ d in
  collision H \/ h = repeat 0%N 32 \/
  (h = fst (trie_hash H n) /\ root' = Ref h /\
   exists r, trie_open H d' h = Ok r /\ fst (trie_hash H r) = h /\
             forall kb, is_bytes kb ->
               (exists r', trie_get d' r kb = Ok (m kb, r')) /\
               (exists r', trie_get d' root' kb = Ok (m kb, r'))).
Proof.
  intros H Hlen d0 d ops n Hk Hr Hne m Hb.
  destruct (hrun_empty H d0 ops _ Hk Hr) as [P1 C1].
  exact (commit_reopen H Hlen d m n P1 C1 Hb Hne).
Qed.
Print Assumptions C07_reopen.

(** proofs, soundness: for ANY list of blobs (the verifier keys them by their own hash, as
    [db_of] does), VerifyProof against the root of the trie reached by a history returns a
    value only if it is exactly the stored one and "absent" only if the key is absent — or an
    explicit Keccak collision exists.  Hence no tampered proof verifies to a different answer. *)
Theorem C07_proof_sound :
  forall (H : bytes -> bytes), (forall x, length (H x) = 32) ->
  forall d0 ops n kb blobs,
  Forall (fun o => is_bytes (hop_key o)) ops ->
  hrun H d0 Empty ops = Ok n -> n <> Empty -> is_bytes kb ->
  let m := content (fun _ => []) (flat_map hop_mop ops) in
  bounded m ->
  match verify_proof H (fst (trie_hash H n)) kb blobs with
  | VValue v => (v = m kb /\ v <> []) \/ collision H
  | VAbsent => m kb = [] \/ collision H
  | _ => True
  end.
Proof.
  intros H Hlen d0 ops n kb blobs Hk Hr Hne Hkb m Hb.
  destruct (hrun_empty H d0 ops _ Hk Hr) as [P1 C1].
  exact (proof_sound H Hlen m n kb blobs P1 C1 Hb Hne Hkb).
Qed.
Print Assumptions C07_proof_sound.

(** proofs, completeness: Trie.Prove succeeds and the proof it builds verifies against the root
    to exactly the stored value, or to "absent" for an absent key (or a collision exists) *)
Theorem C07_proof_complete :
  forall (H : bytes -> bytes), (forall x, length (H x) = 32) ->
  forall d0 d ops n kb,
  Forall (fun o => is_bytes (hop_key o)) ops ->
  hrun H d0 Empty ops = Ok n -> n <> Empty -> is_bytes kb ->
  let m := content (fun _ => []) (flat_map hop_mop ops) in
  bounded m ->
  exists blobs, prove H d n kb = Ok blobs /\
    (verify_proof H (fst (trie_hash H n)) kb blobs =
       match m kb with [] => VAbsent | _ => VValue (m kb) end \/ collision H).
Proof.
  intros H Hlen d0 d ops n kb Hk Hr Hne Hkb m Hb.
  destruct (hrun_empty H d0 ops _ Hk Hr) as [P1 C1].
  exact (proof_complete H Hlen d m n kb P1 C1 Hb Hne Hkb).
Qed.
Print Assumptions C07_proof_complete.

(** the canonical constructor agrees with the operational trie: whatever history of updates and
    deletes produced the trie [n], it equals (up to hash caches) [build] applied to any
    duplicate-free list of its entries — so [build] is an order-free definition of "the trie of
    this content", and the root is [build_root] of the content *)
Theorem C07_build_canonical :
  forall d ops n, Forall (fun o => is_bytes (mop_key o)) ops -> run d Empty ops = Ok n ->
  forall m : list (key * bytes),
    NoDup (map fst m) ->
    (forall k w, has n k w <-> In (k, w) m) ->
    erase n = erase (build (build_fuel m) m).
Proof.
  intros d ops n Hk Hr m Hn Hh.
  apply build_canonical; auto. apply (run_empty d ops n Hk Hr).
Qed.
Print Assumptions C07_build_canonical.

(** stack trie, hashing half: whenever the stack trie's state [s] is a view ([strel]) of a trie
    node [n] — finished subtrees replaced by their collapsed value (encoding if < 32 bytes,
    else hash) — StackTrie.Hash returns the root hash of [n] *)
Theorem C07_stack_hash :
  forall (H : bytes -> bytes), (forall x, length (H x) = 32) ->
  forall s n, strel H s n -> is_node' n -> st_root H s = H (cenc H n).
Proof. exact st_root_rel. Qed.
Print Assumptions C07_stack_hash.

(** streaming (stack) trie = trie: for keys fed in strictly increasing byte order with no key a
    prefix of another ([sorted_bytes]: any earlier key differs from any later key first at a
    position where both have a byte, the earlier one the smaller) and non-empty values,
    StackTrie.Update never panics and StackTrie.Hash equals the root of the canonical trie
    [build] of the same content (which by C07_build_canonical / C07_root_content_only is the
    root Trie.Hash reports for that content).  types.DeriveSha feeds exactly such a sequence
    (rlp(1..127), rlp(0), rlp(128..)). *)
Theorem C07_stack_equals :
  forall (H : bytes -> bytes), (forall x, length (H x) = 32) ->
  forall kvs : list (bytes * bytes),
  Forall (fun kv => is_bytes (fst kv) /\ snd kv <> []) kvs -> sorted_bytes kvs ->
  stack_root H kvs = Some (build_root H kvs).
Proof.
  intros H Hlen kvs Hok Hs. apply (stack_equals H Hlen); auto. apply sorted_bytes_pf; auto.
Qed.
Print Assumptions C07_stack_equals.

(** canonical root, with an intermediate COMMIT: after any history of Update / Delete / Hash(), a
    Commit (Trie.Commit(false) + Database.Update: the root becomes a hash node, every node is
    resolved from the database on demand) and any further history of Update / Delete / Hash() —
    now running THROUGH hash nodes — no operation fails, Get returns the last value written, and
    the root Trie.Hash reports equals the root of ANY history without the commit that ends with
    the same content.  Or an explicit Keccak collision exists.  [small_op]: keys and values of the
    second history are shorter than 2^30 bytes (as [bounded] says for the first). *)
Theorem C07_root_independent_of_commit :
  forall (H : bytes -> bytes), (forall x, length (H x) = 32) ->
  forall d0 d ops1 n1 ops2,
  Forall (fun o => is_bytes (hop_key o)) ops1 ->
  hrun H d0 Empty ops1 = Ok n1 -> n1 <> Empty ->
  let m1 := content (fun _ => []) (flat_map hop_mop ops1) in
  bounded m1 ->
  Forall (fun o => is_bytes (hop_key o) /\ small_op o) ops2 ->
  let m2 := content m1 (flat_map hop_mop ops2) in
  let '(h, root', set) := trie_commit H n1 in
  let d' := set ++ d in
  collision H \/
  (h = fst (trie_hash H n1) /\
   exists n2', hrun H d' root' ops2 = Ok n2' /\
     (forall kb, is_bytes kb -> exists r, trie_get d' n2' kb = Ok (m2 kb, r)) /\
     (forall d3 ops3 nf,
        Forall (fun o => is_bytes (hop_key o)) ops3 -> hrun H d3 Empty ops3 = Ok nf ->
        (forall kb, is_bytes kb -> content (fun _ => []) (flat_map hop_mop ops3) kb = m2 kb) ->
        fst (trie_hash H n2') = fst (trie_hash H nf))).
Proof.
  intros H Hlen d0 d ops1 n1 ops2 Hk1 Hr1 Hne m1 Hb1 Hk2 m2.
  destruct (hrun_empty H d0 ops1 _ Hk1 Hr1) as [P1 C1].
  pose proof (commit_view H d m1 n1 P1 C1 Hb1 Hne) as Hcv.
  destruct (trie_commit H n1) as [[h root'] set]. destruct Hcv as [Col|(Eh & Er & Hvs)]; [left; exact Col|].
  right. split; [exact Eh|].
  destruct (vrun H Hlen (set ++ d) ops2 m1 root' Hvs Hk2) as (n2' & Hrun & Hvs2).
  exists n2'. split; [exact Hrun|]. split.
  - intros kb Hkb. apply (vstate_get H Hlen (set ++ d) m2 n2' kb Hvs2 Hkb).
  - intros d3 ops3 nf Hk3 Hr3 Hm.
    destruct (hrun_empty H d3 ops3 _ Hk3 Hr3) as [P3 C3].
    destruct (trie_hash_ok H nf C3) as (T & _). rewrite T.
    apply (vstate_root H (set ++ d) m2 n2' _ nf Hvs2 P3). intros kb Hkb. symmetry. apply Hm; auto.
Qed.
Print Assumptions C07_root_independent_of_commit.

(** leaf iterator (NewIterator(t.NodeIterator(start)), which hashes the trie first): after any
    history of Update / Delete / Hash() the iterator yields exactly the entries of the content whose
    path (nibbles, terminator) is not below the start prefix — every such key once, with the last
    value written, in strictly increasing path order.  Keys shorter than 199 bytes: the trie is then
    shallower than the traversal fuel of the model (400 levels; the Go code has no such bound). *)
Theorem C07_iterator_enumerates :
  forall (H : bytes -> bytes) d0 d ops n start,
  Forall (fun o => is_bytes (hop_key o)) ops ->
  hrun H d0 Empty ops = Ok n ->
  let m := content (fun _ => []) (flat_map hop_mop ops) in
  let n' := snd (trie_hash H n) in
  (forall kb, m kb <> [] -> length kb < 199) ->
  exists l, iter_from d n' start = Ok l /\
    ksorted (map (fun kv => keybytes_to_hex (fst kv)) l) /\
    forall kb v, is_bytes kb ->
      (In (kb, v) l <->
       v = m kb /\ v <> [] /\ kcmp (keybytes_to_hex kb) (removelast (keybytes_to_hex start)) <> Lt).
Proof.
  intros H d0 d ops n start Hk Hr m n' Hd.
  destruct (hrun_empty H d0 ops _ Hk Hr) as [P1 C1].
  destruct (trie_hash_ok H n C1) as (_ & E2 & _).
  assert (Hrep' : represents m n').
  { destruct P1 as [Hc Hrr]. split.
    - eapply canon_same_erase; [symmetry; exact E2|auto].
    - intros k w. unfold m. rewrite <- Hrr. apply has_same_erase; auto. }
  apply iter_from_represents; auto. eapply represents_depth; eauto.
Qed.
Print Assumptions C07_iterator_enumerates.

(** the walk itself, on any canonical trie: the leaves in visiting order are the content relation,
    sorted strictly by path *)
Theorem C07_walk_is_content :
  forall d n fuel, canon n -> depth n < fuel ->
  walk fuel d n [] = Ok (leaves n) /\
  ksorted (map fst (leaves n)) /\
  forall k v, In (k, v) (leaves n) <-> has n k v.
Proof.
  intros d n fuel Hc Hd. split; [|split].
  - rewrite (walk_leaves d n Hc fuel [] Hd). f_equal. apply pf_nil.
  - apply leaves_sorted; auto.
  - apply leaves_has; auto.
Qed.
Print Assumptions C07_walk_is_content.

(** range proofs, the proof-less form (VerifyRangeProof with proof == nil: "the whole leaf set"):
    acceptance means the claimed root IS the canonical root of exactly the given leaves, and a
    sorted leaf set is accepted against its root.  PARTIAL: for the two-edge form only the
    transcription, the correspondence run and the direct oracles exist (and see the refutation below
    for elements outside the edges); [sorted_bytes]: strictly increasing, no key a prefix of another
    (the verifier refuses non-increasing keys itself; prefix-related keys make the stack trie panic) *)
Theorem C07_range_whole_partial :
  forall (H : bytes -> bytes), (forall x, length (H x) = 32) ->
  forall root first last (keys vals : list bytes) more,
  let kvs := combine keys vals in
  Forall (fun kv => is_bytes (fst kv) /\ snd kv <> []) kvs -> sorted_bytes kvs ->
  verify_range H root first last keys vals None = RAccept more ->
  more = false /\ length keys = length vals /\ root = build_root H kvs.
Proof. exact range_whole_sound. Qed.
Print Assumptions C07_range_whole_partial.

Theorem C07_range_whole_complete :
  forall (H : bytes -> bytes), (forall x, length (H x) = 32) ->
  forall first last (keys vals : list bytes),
  let kvs := combine keys vals in
  length keys = length vals ->
  Forall (fun kv => is_bytes (fst kv) /\ snd kv <> []) kvs -> sorted_bytes kvs ->
  increasing keys = true ->
  verify_range H (build_root H kvs) first last keys vals None = RAccept false.
Proof. exact range_whole_complete. Qed.
Print Assumptions C07_range_whole_complete.

(** REFUTED (known finding range-outside-element): "an accepted range lists only entries of the
    trie" fails for keys outside [firstKey, lastKey].  Witness, computed on the model (which
    transcribes the code: the error of Trie.Update is dropped while the leaves are re-inserted and
    there is no bound check): trie {10,20,30,40 -> 33 x key byte}, edge proofs for 20 and 30; the
    stream (10 -> v), 20, 30 is accepted for v = ee AND for v = dd while the trie holds 10 -> 10..10
    (and the honest stream 20, 30 is accepted).  [h0] is a 32-byte function that computes in Coq. *)
Theorem C07_range_outside_refuted :
  (forall x, length (h0 x) = 32) /\
  match w_trie with
  | Ok n =>
    let root := fst (trie_hash h0 n) in
    match prove h0 [] n [32%N], prove h0 [] n [48%N], trie_get [] n [16%N] with
    | Ok p1, Ok p2, Ok (stored, _) =>
      let blobs := p1 ++ p2 in
      let accepts v := match verify_range h0 root [32%N] [48%N] w_keys (v :: w_rest) (Some blobs) with
                       | RAccept _ => true | _ => false end in
      accepts [238%N] && accepts [221%N] && beq stored (w_val 16) &&
      match verify_range h0 root [32%N] [48%N] [[32]; [48]]%N w_rest (Some blobs) with
      | RAccept _ => true | _ => false end
    | _, _, _ => false
    end
  | _ => false
  end = true.
Proof. exact (conj h0_len range_outside_witness). Qed.
Print Assumptions C07_range_outside_refuted.

(** source tie: the arithmetic, loop bounds and decisions of the model (hex / compact key codecs,
    the [len(enc) < 32 && !force] embedding rule of hasher and stack trie, decodeRef's size rules,
    the guards of Trie.get / insert / delete / Commit / New, Prove, VerifyRangeProof / unsetInternal /
    unset / hasRightElement, StackTrie.insert / hashRec / Hash and the three loops of DeriveSha) are
    the expressions go2coq extracted from the Go source on this run, on the same operands
    (statement and atoms in C07/SourceTie.v; Generated/C07Source.v is rewritten by every check) *)
Theorem C07_source_tie : C07_source_tie_statement.
Proof. exact C07_source_tie_proof. Qed.
Print Assumptions C07_source_tie.

(** the hypotheses are satisfiable and the functions compute: three keys with a shared prefix
    inserted in two different orders (one history also inserts and deletes a fourth key, the
    other calls Hash() in between); with the identity as "hash" the root is the whole encoding,
    so equal roots mean equal structure *)
Example C07_example_two_orders :
  let a := HUpdate [1; 35]%N [170]%N in
  let b := HUpdate [1; 36]%N [187; 187]%N in
  let c := HUpdate [1]%N [204]%N in
  let x := HUpdate [1; 35; 69]%N [221]%N in
  let id := fun z : bytes => z in
  match hrun id [] Empty [a; HHashOp; b; c], hrun id [] Empty [x; c; b; HDelete [1; 35; 69]%N; a] with
  | Ok n1, Ok n2 =>
    beq (fst (trie_hash id n1)) (fst (trie_hash id n2)) &&
    match trie_get [] n2 [1; 36]%N with Ok (v, _) => beq v [187; 187]%N | _ => false end &&
    match trie_get [] n1 [1; 35; 69]%N with Ok (v, _) => beq v [] | _ => false end
  | _, _ => false
  end = true.
Proof. vm_compute. reflexivity. Qed.

(** The decision-critical functions of the anchored code have exactly the decisions the source tie knows about
    (go2coq manifests, regenerated from /repo on every check; statement in SourceManifest.v). *)
From Kardia Require Import C07.SourceManifest.
Theorem C07_source_manifest : C07_source_manifest_statement.
Proof. exact C07_source_manifest_proof. Qed.
Print Assumptions C07_source_manifest.
