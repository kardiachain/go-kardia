(** C07 — the RLP item decoder (readKind / Split / CountValues as transcribed in
    Model.v) inverts the item encoder (rlp_string / rlp_list) for sizes below 2^64. *)
From Coq Require Import List ZArith NArith Arith Bool Lia.
From Kardia Require Import C07.Model C07.ProofsBase.
Import ListNotations.

Lemma nlen_length {A} (l : list A) : nlen l = N.of_nat (length l).
Proof. induction l as [|a l IH]; cbn [nlen length]; [reflexivity|]. rewrite IH. lia. Qed.

Lemma nlen_app {A} (a b : list A) : nlen (a ++ b) = (nlen a + nlen b)%N.
Proof. rewrite !nlen_length, app_length. lia. Qed.

Lemma to_nat_nlen {A} (l : list A) : N.to_nat (nlen l) = length l.
Proof. rewrite nlen_length. apply Nat2N.id. Qed.

Lemma be_to_N_snoc l x acc : be_to_N (l ++ [x]) acc = (be_to_N l acc * 256 + x)%N.
Proof. revert acc; induction l as [|a l IH]; intros acc; cbn; auto. Qed.

Lemma be_aux_spec : forall f n acc, (n < 256 ^ N.of_nat f)%N ->
  exists pre, be_bytes_aux f n acc = pre ++ acc /\ length pre <= f /\
              be_to_N pre 0 = n /\
              ((0 < n)%N -> pre <> [] /\ hd 0%N pre <> 0%N) /\ (n = 0%N -> pre = []).
Proof.
  induction f as [|f IH]; intros n acc Hn.
  - cbn in Hn. assert (n = 0%N) by lia. subst. exists []. cbn. repeat split; auto; lia.
  - cbn [be_bytes_aux]. destruct (N.eqb_spec n 0) as [->|Hnz].
    + exists []. cbn. repeat split; auto; lia.
    + rewrite Nat2N.inj_succ, N.pow_succ_r' in Hn.
      assert (Hd : (n / 256 < 256 ^ N.of_nat f)%N) by (apply N.div_lt_upper_bound; lia).
      destruct (IH (n / 256)%N ((n mod 256)%N :: acc) Hd) as (pre & E & Hl & Hv & Hpos & Hz).
      exists (pre ++ [(n mod 256)%N]). rewrite E, <- app_assoc. split; [reflexivity|].
      split; [rewrite app_length; cbn; lia|].
      split; [rewrite be_to_N_snoc, Hv; pose proof (N.div_mod n 256); lia|].
      split; [|lia]. intros _. split; [destruct pre; discriminate|].
      destruct (N.eqb_spec (n / 256) 0) as [Hq|Hq].
      * rewrite (Hz Hq). cbn. pose proof (N.div_mod n 256). lia.
      * destruct Hpos as [Hne Hh]; [lia|]. destruct pre; [congruence|]. exact Hh.
Qed.

Definition two64 : N := 18446744073709551616%N.

Lemma be_bytes_spec n : (0 < n < two64)%N ->
  let l := be_bytes n in
  l <> [] /\ (1 <= nlen l <= 8)%N /\ hd 0%N l <> 0%N /\ be_to_N l 0 = n.
Proof.
  intros Hn. unfold be_bytes.
  destruct (be_aux_spec 8 n []) as (pre & E & Hl & Hv & Hpos & _).
  { change (256 ^ N.of_nat 8)%N with two64. lia. }
  rewrite E, app_nil_r. destruct Hpos as [Hne Hh]; [lia|].
  cbv zeta. repeat split; auto; rewrite nlen_length; destruct pre; try congruence; cbn in *; lia.
Qed.

(** readSize on what the encoder wrote *)
Lemma read_size_enc n rest : (56 <= n < two64)%N ->
  read_size (be_bytes n ++ rest) (nlen (be_bytes n)) = Some n.
Proof.
  intros Hn. destruct (be_bytes_spec n) as (Hne & Hl & Hh & Hv); [lia|].
  unfold read_size. rewrite nlen_app.
  destruct (N.ltb_spec (nlen (be_bytes n) + nlen rest) (nlen (be_bytes n))); [lia|].
  rewrite to_nat_nlen, firstn_app_len, Hv.
  destruct (N.ltb_spec n 56); [lia|]. cbn [orb].
  destruct (be_bytes n) as [|b t]; [congruence|]. cbn [app hd] in *.
  destruct (N.eqb_spec b 0); [congruence|]. reflexivity.
Qed.

(** [item k c it]: [it] is header ++ content and readKind sees exactly that, whatever follows *)
Definition item (k : kind) (c it : bytes) : Prop :=
  exists hdr, it = hdr ++ c /\ it <> [] /\
              forall rest, read_kind (hdr ++ c ++ rest) = Some (k, nlen hdr, nlen c).

(** the long form, for strings (tag base 183) and lists (247) alike: tag, big-endian size, content *)
Lemma read_kind_long base k c rest : (56 <= nlen c < two64)%N ->
  (base = 183%N /\ k = KString) \/ (base = 247%N /\ k = KList) ->
  let hdr := ((base + nlen (be_bytes (nlen c)))%N :: be_bytes (nlen c)) in
  read_kind (hdr ++ c ++ rest) = Some (k, nlen hdr, nlen c).
Proof.
  intros Hc Hb hdr. unfold hdr. set (n := nlen c) in *.
  destruct (be_bytes_spec n) as (Hne & Hl & Hh & Hv); [lia|]. set (L := nlen (be_bytes n)) in *.
  unfold read_kind. cbn [app]. destruct Hb as [[-> ->]|[-> ->]].
  1: destruct (N.ltb_spec (183 + L) 128); [lia|]; destruct (N.ltb_spec (183 + L) 184); [lia|];
     destruct (N.ltb_spec (183 + L) 192); [|lia]; replace (183 + L - 183)%N with L by lia.
  2: destruct (N.ltb_spec (247 + L) 128); [lia|]; destruct (N.ltb_spec (247 + L) 184); [lia|];
     destruct (N.ltb_spec (247 + L) 192); [lia|]; destruct (N.ltb_spec (247 + L) 248); [lia|];
     replace (247 + L - 247)%N with L by lia.
  (* from here on the tag plays no part *)
  all: unfold L; rewrite read_size_enc by lia; fold L; cbn [nlen]; rewrite !nlen_app; fold n; fold L.
  all: destruct (N.ltb_spec (N.succ (L + (n + nlen rest)) - (L + 1)) n); [lia|]; f_equal; f_equal; f_equal; lia.
Qed.

Lemma item_string s : (nlen s < two64)%N ->
  exists k, k <> KList /\ (length s <> 1 -> k = KString) /\ item k s (rlp_string s).
Proof.
  intros Hs. unfold rlp_string.
  destruct s as [|b [|b2 t]].
  - exists KString. split; [discriminate|]. split; auto. exists [128%N]. cbn. repeat split; try discriminate.
    intros rest. destruct (N.ltb_spec (N.succ (nlen rest) - 1) 0); [lia|reflexivity].
  - (* one byte *)
    destruct (N.ltb_spec b 128) as [Hb|Hb].
    + exists KByte. split; [discriminate|]. split; [cbn; congruence|]. exists []. cbn [app].
      split; auto. split; [discriminate|]. intros rest. unfold read_kind.
      destruct (N.ltb_spec b 128); [|lia]. cbn [nlen]. rewrite N.sub_0_r.
      destruct (N.ltb_spec (N.succ (nlen rest)) 1); [lia|]. reflexivity.
    + exists KString. split; [discriminate|]. split; [cbn; congruence|].
      cbn [nlen]. change (N.succ 0) with 1%N. cbn [N.ltb N.compare].
      exists [(128 + 1)%N]. split; auto. split; [discriminate|]. intros rest. unfold read_kind. cbn [app].
      destruct (N.ltb_spec (128 + 1) 128); [lia|]. destruct (N.ltb_spec (128 + 1) 184); [|lia].
      replace (128 + 1 - 128)%N with 1%N by lia. cbn [N.eqb Pos.eqb andb].
      destruct (N.ltb_spec b 128); [lia|]. cbn [nlen].
      destruct (N.ltb_spec (N.succ (N.succ (nlen rest)) - 1) 1); [lia|]. reflexivity.
  - (* two or more bytes *)
    set (s := b :: b2 :: t) in *. set (n := nlen s) in *.
    assert (Hn2 : (2 <= n)%N) by (unfold n, s; cbn [nlen]; lia).
    exists KString. split; [discriminate|]. split; auto.
    destruct (N.ltb_spec n 56) as [Hlt|Hge].
    + exists [(128 + n)%N]. split; auto. split; [discriminate|]. intros rest. unfold read_kind. cbn [app].
      destruct (N.ltb_spec (128 + n) 128); [lia|]. destruct (N.ltb_spec (128 + n) 184); [|lia].
      replace (128 + n - 128)%N with n by lia.
      destruct (N.eqb_spec n 1); [lia|]. cbn [andb].
      change (nlen ((128 + n)%N :: s ++ rest)) with (N.succ (nlen (s ++ rest))). rewrite nlen_app. fold n.
      destruct (N.ltb_spec (N.succ (n + nlen rest) - 1) n); [lia|]. reflexivity.
    + exists ((183 + nlen (be_bytes n))%N :: be_bytes n). split; [reflexivity|]. split; [discriminate|].
      intros rest. apply (read_kind_long 183 KString s rest); [fold n; lia|auto].
Qed.

(** the empty string, 0x80: what nil children and absent values are written as *)
Lemma item_empty : item KString [] [128%N].
Proof.
  destruct (item_string []) as (k & _ & Hk & Hi); [cbn; unfold two64; lia|].
  rewrite Hk in Hi by (cbn; lia). exact Hi.
Qed.

Lemma item_list p : (nlen p < two64)%N -> item KList p (rlp_list p).
Proof.
  intros Hp. unfold rlp_list. set (n := nlen p) in *.
  destruct (N.ltb_spec n 56) as [Hlt|Hge].
  - exists [(192 + n)%N]. split; auto. split; [discriminate|]. intros rest. unfold read_kind. cbn [app].
    destruct (N.ltb_spec (192 + n) 128); [lia|]. destruct (N.ltb_spec (192 + n) 184); [lia|].
    destruct (N.ltb_spec (192 + n) 192); [lia|]. destruct (N.ltb_spec (192 + n) 248); [|lia].
    replace (192 + n - 192)%N with n by lia.
    change (nlen ((192 + n)%N :: p ++ rest)) with (N.succ (nlen (p ++ rest))). rewrite nlen_app. fold n.
    destruct (N.ltb_spec (N.succ (n + nlen rest) - 1) n); [lia|]. reflexivity.
  - exists ((247 + nlen (be_bytes n))%N :: be_bytes n). split; [reflexivity|]. split; [discriminate|].
    intros rest. apply (read_kind_long 247 KList p rest); [fold n; lia|auto].
Qed.

Lemma split_item k c it rest : item k c it -> split (it ++ rest) = Some (k, c, rest).
Proof.
  intros (hdr & -> & _ & Hr). unfold split. rewrite <- app_assoc, Hr.
  rewrite !to_nat_nlen, skipn_app_len, firstn_app_len.
  replace (N.to_nat (nlen hdr + nlen c)) with (length (hdr ++ c))
    by (rewrite app_length, <- !to_nat_nlen; lia).
  rewrite app_assoc, skipn_app_len. reflexivity.
Qed.

Lemma split_string_item k c it rest : item k c it -> k <> KList ->
  split_string (it ++ rest) = Some (c, rest).
Proof. intros Hi Hk. unfold split_string. rewrite (split_item _ _ _ _ Hi). destruct k; try reflexivity. congruence. Qed.

Lemma split_list_item c it rest : item KList c it -> split_list (it ++ rest) = Some (c, rest).
Proof. intros Hi. unfold split_list. rewrite (split_item _ _ _ _ Hi). reflexivity. Qed.

Lemma count_values_items items : forall f,
  Forall (fun it => exists k c, item k c it) items -> length items <= f ->
  count_values f (concat items) = Some (length items).
Proof.
  induction items as [|it t IH]; intros f Hf Hl.
  - destruct f; reflexivity.
  - inversion Hf as [|? ? (k & c & hdr & E & Hne & Hr) Ht]; subst.
    destruct f as [|f]; [cbn in Hl; lia|].
    cbn [concat]. destruct ((hdr ++ c) ++ concat t) as [|x xs] eqn:Eb.
    { apply app_eq_nil in Eb. tauto. }
    rewrite <- Eb. cbn [count_values]. rewrite Eb. rewrite <- Eb.
    rewrite <- app_assoc, Hr.
    replace (N.to_nat (nlen hdr + nlen c)) with (length (hdr ++ c))
      by (rewrite app_length, <- !to_nat_nlen; lia).
    rewrite app_assoc, skipn_app_len. rewrite IH; auto. cbn in Hl. lia.
Qed.

(** encoded items are never longer than content + 9 *)
Lemma rlp_string_len s : (nlen s < two64)%N -> (nlen (rlp_string s) <= nlen s + 9)%N.
Proof.
  intros Hs. unfold rlp_string. destruct s as [|b [|b2 t]].
  - cbn. lia.
  - destruct (N.ltb b 128); cbn; lia.
  - set (s := b :: b2 :: t) in *.
    assert (Hn2 : (2 <= nlen s)%N) by (unfold s; cbn [nlen]; lia).
    destruct (N.ltb_spec (nlen s) 56).
    + cbn [nlen]. lia.
    + destruct (be_bytes_spec (nlen s)) as (_ & Hl & _); [lia|].
      cbn [nlen]. rewrite nlen_app. lia.
Qed.

Lemma rlp_list_len p : (nlen p < two64)%N -> (nlen p < nlen (rlp_list p) <= nlen p + 9)%N.
Proof.
  intros Hp. unfold rlp_list. destruct (N.ltb_spec (nlen p) 56).
  - cbn [nlen]. lia.
  - destruct (be_bytes_spec (nlen p)) as (_ & Hl & _); [lia|].
    cbn [nlen]. rewrite nlen_app. lia.
Qed.
