(** C07 — StackTrie.insert maintains the view relation along the rightmost path of the trie; hence,
    for keys fed in increasing prefix-free order, the stack trie's hash is the root of the canonical
    trie of the same content.  At the end: the order on byte keys ([blt], [sorted_bytes]) under which
    DeriveSha-like input satisfies the nibble-level hypothesis. *)
From Coq Require Import List ZArith NArith Arith Bool Lia.
From Kardia Require Import C07.Model C07.ProofsBase C07.ProofsMap C07.ProofsCanon C07.ProofsEnc
     C07.ProofsCache C07.ProofsCodec C07.ProofsStack C07.ProofsCommit C07.ProofsReopen
     C07.ProofsProof C07.ProofsBuild.
Import ListNotations.

Lemma set_nth_repeat {A} (d a : A) n i : i < n ->
  set_nth i a (repeat d n) = repeat d i ++ a :: repeat d (n - i - 1).
Proof.
  revert i. induction n as [|n IH]; intros [|i] Hi; try lia; cbn [repeat set_nth app].
  - replace (S n - 0 - 1) with n by lia. reflexivity.
  - rewrite IH by lia. replace (S n - S i - 1) with (n - i - 1) by lia. reflexivity.
Qed.

Lemma set_nth_app_r {A} (l1 l2 : list A) i a :
  set_nth (length l1 + i) a (l1 ++ l2) = l1 ++ set_nth i a l2.
Proof. induction l1 as [|x l1 IH]; cbn; auto. rewrite IH. reflexivity. Qed.

Lemma set_nth_app_l {A} (l1 l2 : list A) i a : i < length l1 ->
  set_nth i a (l1 ++ l2) = set_nth i a l1 ++ l2.
Proof.
  revert i. induction l1 as [|x l1 IH]; intros [|i] Hi; cbn in *; try lia; auto. rewrite IH by lia. reflexivity.
Qed.

Lemma set_nth_mid {A} (l1 l2 : list A) x a : set_nth (length l1) a (l1 ++ x :: l2) = l1 ++ a :: l2.
Proof. induction l1 as [|y l1 IH]; cbn; auto. rewrite IH. reflexivity. Qed.

(** a row [l1 ++ x :: d .. d ++ t]: writing, and reading, [q] places right of [x] *)
Lemma set_nth_right {A} (l1 t : list A) x d a q m : q < m ->
  set_nth (length l1 + S q) a (l1 ++ x :: repeat d m ++ t) =
  (l1 ++ x :: repeat d q) ++ a :: repeat d (m - q - 1) ++ t.
Proof.
  intros Hq. rewrite set_nth_app_r. cbn [set_nth]. rewrite set_nth_app_l by (rewrite repeat_length; lia).
  rewrite set_nth_repeat by lia. rewrite <- !app_assoc. reflexivity.
Qed.

Lemma nth_error_right {A} (l1 t : list A) x d q m : q < m ->
  nth_error (l1 ++ x :: repeat d m ++ t) (length l1 + S q) = Some d.
Proof.
  intros Hq. rewrite nth_error_app2 by lia. replace (length l1 + S q - length l1) with (S q) by lia. cbn [nth_error].
  rewrite nth_error_app1 by (rewrite repeat_length; lia). apply nth_error_repeat. lia.
Qed.

Lemma nth_app_mid {A} (l1 l2 : list A) x d : nth (length l1) (l1 ++ x :: l2) d = x.
Proof. induction l1; cbn; auto. Qed.

(** two children in an otherwise empty row: the lower one first *)
Lemma two_in_row {A} (d a b : A) n x y : x < y -> y < n ->
  set_nth y b (set_nth x a (repeat d n)) =
  (repeat d x ++ a :: repeat d (y - x - 1)) ++ b :: repeat d (n - y - 1).
Proof.
  intros Hxy Hy. rewrite set_nth_repeat by lia.
  replace y with (length (repeat d x) + (y - x)) at 1 by (rewrite repeat_length; lia).
  rewrite set_nth_app_r. replace (y - x) with (S (y - x - 1)) at 1 by lia. cbn [set_nth].
  rewrite set_nth_repeat by lia. rewrite <- app_assoc. cbn [app].
  replace (n - x - 1 - (y - x - 1) - 1) with (n - y - 1) by lia. reflexivity.
Qed.

(** [lt_pf a b]: the (terminated) keys diverge at a position where both carry a nibble, and
    a's nibble is the smaller one: a sorts before b and neither is a prefix of the other *)
Definition lt_pf (a b : key) : Prop :=
  exists pre x y ra rb, a = pre ++ x :: ra /\ b = pre ++ y :: rb /\ x < y /\ y < 16.

Lemma lt_pf_cons_inv x a y b : lt_pf (x :: a) (y :: b) -> (x < y /\ y < 16) \/ (x = y /\ lt_pf a b).
Proof.
  intros (pre & x0 & y0 & ra & rb & E1 & E2 & Hlt & Hy). destruct pre as [|p pre]; cbn in E1, E2.
  - inversion E1; inversion E2; subst. auto.
  - inversion E1; inversion E2; subst. right. split; auto. exists pre, x0, y0, ra, rb. auto.
Qed.

Lemma lt_pf_app_inv p a b : lt_pf (p ++ a) (p ++ b) -> lt_pf a b.
Proof.
  induction p as [|x p IH]; cbn; auto. intros Hl. apply lt_pf_cons_inv in Hl as [[X _]|[_ Hl]]; [lia|auto].
Qed.

Lemma lt_pf_nil_l b : ~ lt_pf [] b.
Proof. intros (pre & x & y & ra & rb & E & _). destruct pre; discriminate. Qed.

Lemma lt_pf_nil_r a : ~ lt_pf a [].
Proof. intros (pre & x & y & ra & rb & _ & E & _). destruct pre; discriminate. Qed.

(** diff_index on keys that diverge *)
Lemma diff_index_diverge pre x y a b : x <> y ->
  diff_index (pre ++ x :: a) (pre ++ y :: b) = Some (length pre).
Proof.
  intros Hne. induction pre as [|z pre IH]; cbn [app diff_index length].
  - destruct (Nat.eqb_spec x y); [congruence|reflexivity].
  - rewrite Nat.eqb_refl, IH. reflexivity.
Qed.

Lemma diff_index_prefix sk r : diff_index sk (sk ++ r) = Some (length sk).
Proof. induction sk as [|z sk IH]; cbn [app diff_index length]; auto. rewrite Nat.eqb_refl, IH. reflexivity. Qed.

(** comparing a nibble string [sk] with the new key *)
Lemma lt_pf_compare sk r k :
  nibs sk -> nibs k -> lt_pf (sk ++ r) (k ++ [16]) ->
  (exists k2, k = sk ++ k2 /\ lt_pf r (k2 ++ [16])) \/
  (exists pre x y ra rb, sk = pre ++ x :: ra /\ k = pre ++ y :: rb /\ x < y /\ y < 16).
Proof.
  revert k. induction sk as [|z sk IH]; intros k Hs Hk Hl; cbn [app] in *.
  - left. exists k. auto.
  - inversion Hs as [|? ? Hz Hs']; subst. destruct k as [|w k]; cbn [app] in Hl.
    + apply lt_pf_cons_inv in Hl as [[_ X]|[-> _]]; lia.
    + inversion Hk as [|? ? Hw Hk']; subst. apply lt_pf_cons_inv in Hl as [[X _]|[-> Hl]].
      * right. exists [], z, w, sk, k. auto.
      * destruct (IH k Hs' Hk' Hl) as [(k2 & -> & Hl2)|(pre & x & y & ra & rb & -> & -> & Hxy & Hy)].
        -- left. exists k2. auto.
        -- right. exists (w :: pre), x, y, ra, rb. auto.
Qed.

Section Ins.
Variable H : bytes -> bytes.
Hypothesis Hlen : forall x, length (H x) = 32.
Variable d : db.

Definition hashed_rel (c : stn) (n : node) : Prop :=
  (c = StNil /\ n = Empty) \/ (is_node' n /\ c = StHashed (sval H n)).

(** the stack trie's state along the rightmost path of the trie *)
Inductive srel : stn -> node -> Prop :=
| SLeaf k v f : srel (StLeaf k v) (Short (k ++ [16]) (Value v) f)
| SExt k c cs g f : srel c (Full cs g) -> srel (StExt k c) (Short k (Full cs g) f)
| SBranch hp live nh nlive f :
    Forall2 hashed_rel hp nh -> srel live nlive -> length hp < 16 ->
    srel (StBranch (hp ++ live :: repeat StNil (15 - length hp)))
         (Full (nh ++ nlive :: repeat Empty (15 - length hp) ++ [Empty]) f).

Lemma hashed_nils q : Forall2 hashed_rel (repeat StNil q) (repeat Empty q).
Proof. induction q; cbn; constructor; auto. left; auto. Qed.

Lemma srel_node s n : srel s n -> is_node' n.
Proof. destruct 1; exact I. Qed.

Lemma srel_live s n : srel s n ->
  match s with StLeaf _ _ | StExt _ _ | StBranch _ => True | _ => False end.
Proof. destruct 1; exact I. Qed.

Lemma all_rel_nils m : all_rel H (repeat StNil m) (repeat Empty m).
Proof. induction m; cbn; auto. Qed.

Lemma all_rel_app hp nh t1 t2 : Forall2 hashed_rel hp nh -> all_rel H t1 t2 -> all_rel H (hp ++ t1) (nh ++ t2).
Proof.
  induction 1 as [|c x hp nh Hcx Hf IH]; intros Ht; cbn [app all_rel]; auto.
  split; auto. destruct Hcx as [[-> ->]|[Hn ->]]; [reflexivity|]. cbn. auto.
Qed.

Lemma srel_strel s n : srel s n -> strel H s n.
Proof.
  induction 1 as [k v f|k c cs g f Hc IH|hp live nh nlive f Hf Hl IH Hlen'].
  - cbn. eauto.
  - cbn [strel]. exists (Full cs g), f. repeat split; auto.
  - apply strel_branch. exists (nh ++ nlive :: repeat Empty (15 - length hp)), f. split.
    + rewrite <- app_assoc. reflexivity.
    + apply all_rel_app; auto. cbn [all_rel]. split; [|apply all_rel_nils].
      pose proof (srel_live _ _ Hl) as Hlive. pose proof (srel_node _ _ Hl) as Hn.
      destruct live; try tauto; auto.
Qed.

Lemma st_hash_srel s n : srel s n -> st_hash H s = sval H n.
Proof. intros Hs. apply (st_hash_rel H Hlen); [apply srel_strel; auto|eapply srel_node; eauto]. Qed.

Lemma leafn_value rest v : leafn (rest ++ [16]) (Value v) = Short (rest ++ [16]) (Value v) newflag.
Proof. unfold leafn. destruct (rest ++ [16]) eqn:E; [destruct rest; discriminate|reflexivity]. Qed.

(** a freshly split node: below the common prefix [pre] a branch with the old part at [x] and the
    new part at [y] *)
Definition st_split (pre : key) (x y : nat) (old new : stn) : stn :=
  let br := StBranch (set_nth y new (set_nth x old st_nil_children)) in
  if Nat.eqb (length pre) 0 then br else StExt pre br.

Lemma split_srel pre x y Y liveS X :
  x < y -> y < 16 -> is_node' Y -> srel liveS X ->
  srel (st_split pre x y (StHashed (sval H Y)) liveS) (opt_short pre (branch2 x y Y X)).
Proof.
  intros Hxy Hy HY HX.
  assert (Hb : srel (StBranch (set_nth y liveS (set_nth x (StHashed (sval H Y)) st_nil_children)))
                    (branch2 x y Y X)).
  { unfold branch2, st_nil_children, empty_children.
    rewrite (two_in_row StNil (StHashed (sval H Y)) liveS 16 x y) by lia.
    rewrite (two_in_row Empty Y X 17 x y) by lia.
    replace (17 - y - 1) with (S (15 - y)) by lia. cbn [repeat]. rewrite repeat_cons.
    set (hp := repeat StNil x ++ StHashed (sval H Y) :: repeat StNil (y - x - 1)).
    assert (Ehp : length hp = y) by (unfold hp; rewrite app_length; cbn; rewrite !repeat_length; lia).
    replace (16 - y - 1) with (15 - length hp) by lia. replace (15 - y) with (15 - length hp) by lia.
    apply SBranch; auto; [|lia].
    unfold hp. apply Forall2_app; [|constructor].
    - apply hashed_nils.
    - right. auto.
    - apply hashed_nils. }
  unfold st_split, opt_short, branch2 in *. destruct (Nat.eqb (length pre) 0); auto. constructor. exact Hb.
Qed.

(** StackTrie.insert where the key leaves a leaf's or an extension's key after [pre]: the old
    part is hashed and a branch is put in *)
Lemma st_insert_leaf_diverge f pre x ra sv y rb v : x <> y ->
  st_insert H (S f) (StLeaf (pre ++ x :: ra) sv) (pre ++ y :: rb) v =
  Some (st_split pre x y (StHashed (st_hash H (StLeaf ra sv))) (StLeaf rb v)).
Proof.
  intros Hne. cbn [st_insert]. rewrite (diff_index_diverge pre x y ra rb) by exact Hne.
  replace (Nat.leb (length (pre ++ x :: ra)) (length pre)) with false
    by (symmetry; apply Nat.leb_gt; rewrite app_length; cbn; lia).
  rewrite !nth_error_app_mid, !skipn_app_mid, firstn_app_len.
  unfold st_split. destruct (Nat.eqb (length pre) 0); reflexivity.
Qed.

Lemma st_insert_ext_diverge f pre x ra c y rb v : x <> y ->
  st_insert H (S f) (StExt (pre ++ x :: ra) c) (pre ++ y :: rb) v =
  Some (st_split pre x y (StHashed (st_hash H (match ra with [] => c | _ => StExt ra c end))) (StLeaf rb v)).
Proof.
  intros Hne. cbn [st_insert]. rewrite (diff_index_diverge pre x y ra rb) by exact Hne.
  replace (Nat.eqb (length pre) (length (pre ++ x :: ra))) with false
    by (symmetry; apply Nat.eqb_neq; rewrite app_length; cbn; lia).
  rewrite !nth_error_app_mid, !skipn_app_mid, firstn_app_len, app_length. cbn [length].
  replace (Nat.ltb (length pre) (length pre + S (length ra) - 1)) with (negb (Nat.eqb (length ra) 0)).
  2:{ destruct ra; cbn [length Nat.eqb negb]; symmetry; [apply Nat.ltb_ge|apply Nat.ltb_lt]; lia. }
  unfold st_split. destruct ra, (Nat.eqb (length pre) 0); reflexivity.
Qed.

(** the two sides of such a split: the trie gets the branch of [insert_short_diverge], and the
    stack trie's state is a view of it *)
Lemma diverge_srel pre x y rn rb c fl v :
  x < y -> y < 16 -> is_node' (leafn rn c) ->
  let n' := opt_short pre (branch2 x y (leafn rn c) (Short (rb ++ [16]) (Value v) newflag)) in
  (forall fT, length ((pre ++ y :: rb) ++ [16]) < fT ->
     insert fT d (Short (pre ++ x :: rn) c fl) ((pre ++ y :: rb) ++ [16]) (Value v) = Ok (true, n')) /\
  srel (st_split pre x y (StHashed (sval H (leafn rn c))) (StLeaf rb v)) n'.
Proof.
  intros Hxy Hy HY n'. split; [|apply split_srel; auto; constructor].
  intros fT HfT. destruct fT as [|fT]; [lia|].
  rewrite <- app_assoc. cbn [app]. rewrite insert_short_diverge by lia. rewrite leafn_value. reflexivity.
Qed.

Lemma forall2_length {A B} (R : A -> B -> Prop) l l' : Forall2 R l l' -> length l = length l'.
Proof. induction 1; cbn; auto. Qed.

Definition ord (n : node) (k : key) : Prop := forall k' w, has n k' w -> lt_pf k' (k ++ [16]).

Lemma lt_pf_term_l k2 : nibs k2 -> ~ lt_pf [16] (k2 ++ [16]).
Proof.
  intros Hk Hl. destruct k2 as [|w k2]; cbn [app] in Hl; apply lt_pf_cons_inv in Hl as [[X Y]|[E Hl]]; try lia.
  - eapply lt_pf_nil_l; eauto.
  - inversion Hk; subst. lia.
Qed.

Lemma hash_prev_hp hp rest : Forall (fun c => c = StNil \/ exists v, c = StHashed v) hp ->
  forall i, i <= length hp -> hash_prev H (hp ++ rest) i = hp ++ rest.
Proof.
  intros Hf. induction i as [|i IH]; intros Hi; cbn [hash_prev]; auto.
  assert (Hn : nth i (hp ++ rest) StNil = nth i hp StNil) by (apply app_nth1; lia).
  rewrite Hn. rewrite Forall_forall in Hf.
  destruct (Hf (nth i hp StNil)) as [E|(v & E)]; [apply nth_In; lia| |]; rewrite E; auto. apply IH. lia.
Qed.

Lemma hash_prev_live hp live m :
  match live with StLeaf _ _ | StExt _ _ | StBranch _ => True | _ => False end ->
  forall i, length hp < i -> i <= length hp + m + 1 ->
  hash_prev H (hp ++ live :: repeat StNil m) i = hp ++ StHashed (st_hash H live) :: repeat StNil m.
Proof.
  intros Hlive. induction i as [|i IH]; intros H1 H2; [lia|]. cbn [hash_prev].
  destruct (Nat.eq_dec i (length hp)) as [->|Hne].
  - rewrite nth_app_mid. destruct live; try tauto; apply set_nth_mid.
  - assert (Hn : nth i (hp ++ live :: repeat StNil m) StNil = StNil).
    { rewrite app_nth2 by lia. destruct (i - length hp) as [|q] eqn:E; [lia|]. cbn [nth]. apply nth_repeat. }
    rewrite Hn. apply IH; lia.
Qed.

Lemma hashed_forall hp nh : Forall2 hashed_rel hp nh ->
  Forall (fun c => c = StNil \/ exists v, c = StHashed v) hp.
Proof. induction 1 as [|c x hp nh Hcx Hf IH]; constructor; auto. destruct Hcx as [[-> _]|[_ ->]]; eauto. Qed.

(** the trie side is stated for every sufficient fuel: the stack trie counts nibbles without the
    terminator, [trie_update] uses [fuel_of] *)
Lemma st_insert_srel (v : bytes) : v <> [] ->
  forall fuel s n k, srel s n -> canon n -> nibs k -> ord n k -> length k < fuel ->
  exists s' n', st_insert H fuel s k v = Some s' /\
    (forall fT, length (k ++ [16]) < fT -> insert fT d n (k ++ [16]) (Value v) = Ok (true, n')) /\
    srel s' n'.
Proof.
  intros Hv. induction fuel as [|f IH]; intros s n k Hs Hc Hk Ho Hf; [lia|].
  destruct Hs as [sk sv fl|sk c cs g fl Hsc|hp live nh nlive fl Hhp Hlive Hlen'].
  - assert (Hnsk : nibs sk).
    { inversion Hc as [|p ? ? Hp _ E| |]; subst. apply app_inj_tail in E as [-> _]. auto. }
    assert (Hl : lt_pf (sk ++ [16]) (k ++ [16])).
    { rewrite <- (app_nil_r (sk ++ [16])). apply (Ho ((sk ++ [16]) ++ []) sv). constructor. constructor. }
    destruct (lt_pf_compare sk [16] k Hnsk Hk Hl) as [(k2 & -> & Hl2)|(pre & x & y & ra & rb & -> & -> & Hxy & Hy)].
    { exfalso. apply (lt_pf_term_l k2); auto. apply nibs_app in Hk. tauto. }
    rewrite st_insert_leaf_diverge by lia. rewrite (st_hash_srel _ _ (SLeaf ra sv newflag)), <- leafn_value.
    destruct (diverge_srel pre x y (ra ++ [16]) rb (Value sv) fl v Hxy Hy) as [Hins Hsp];
      [rewrite leafn_value; exact I|].
    rewrite <- !app_assoc in *. eexists _, _. split; [reflexivity|]. split; eauto.
  - inversion Hc as [| |? ? ? ? Hne Hnsk Hcf|]; subst.
    destruct (canon_has_key _ Hcf) as (r0 & w0 & Hh0); [discriminate|].
    assert (Hl : lt_pf (sk ++ r0) (k ++ [16])) by (apply (Ho _ w0); constructor; auto).
    destruct (lt_pf_compare sk r0 k Hnsk Hk Hl) as [(k2 & -> & Hl2)|(pre & x & y & ra & rb & -> & -> & Hxy & Hy)].
    + (* descend *)
      apply nibs_app in Hk as [_ Hk2].
      destruct (IH c (Full cs g) k2 Hsc Hcf Hk2) as (s2 & n2 & E1 & E2 & Hr2).
      { intros r w Hh. apply (lt_pf_app_inv sk). rewrite app_assoc. apply (Ho _ w). constructor; auto. }
      { rewrite app_length in Hf. destruct sk; [congruence|cbn in Hf; lia]. }
      cbn [st_insert]. rewrite diff_index_prefix, Nat.eqb_refl, skipn_app_len, E1.
      (* the child stays a branch *)
      destruct (insert_spec d v Hv (S (length (k2 ++ [16]))) (Full cs g) (k2 ++ [16]) Hcf
                  (wfk_snoc _ Hk2) (Nat.lt_succ_diag_r _)) as (b & n3 & E3 & _ & _ & _ & Hfull & _).
      rewrite (E2 _ (Nat.lt_succ_diag_r _)) in E3. inversion E3; subst b n3.
      destruct (Hfull _ _ eq_refl) as (cs' & g' & ->).
      eexists _, _. split; [reflexivity|]. split; [|constructor; exact Hr2].
      intros fT HfT. destruct fT as [|fT]; [lia|]. rewrite <- app_assoc.
      rewrite insert_short_match by auto. rewrite E2; [reflexivity|].
      rewrite !app_length in HfT. rewrite app_length. destruct sk; [congruence|cbn in *; lia].
    + (* split the extension *)
      assert (HY : is_node' (leafn ra (Full cs g))) by (destruct ra; exact I).
      rewrite st_insert_ext_diverge by lia.
      assert (Hold : st_hash H (match ra with [] => c | _ => StExt ra c end) = sval H (leafn ra (Full cs g))).
      { destruct ra as [|a ra]; cbn [leafn]; apply st_hash_srel; auto. constructor; auto. }
      rewrite Hold. destruct (diverge_srel pre x y ra rb (Full cs g) fl v Hxy Hy HY) as [Hins Hsp].
      eexists _, _. split; [reflexivity|]. split; eauto.
  - set (j := length hp) in *.
    assert (Hnh : length nh = j) by (symmetry; eapply forall2_length; eauto).
    set (ncs := nh ++ nlive :: repeat Empty (15 - j) ++ [Empty]) in *.
    inversion Hc as [| | |? ? Hl17 Hch H16 Hcnt]; subst.
    assert (Hnj : nth_error ncs j = Some nlive) by (unfold ncs; rewrite <- Hnh; apply nth_error_app_mid).
    assert (Hcl : canon nlive) by (apply (Hch j); auto).
    pose proof (srel_node _ _ Hlive) as Hnl.
    destruct (canon_has_key _ Hcl) as (r0 & w0 & Hh0); [destruct nlive; cbn in Hnl; try tauto; discriminate|].
    assert (Hl : lt_pf (j :: r0) (k ++ [16])) by (apply (Ho _ w0); econstructor; eauto).
    destruct k as [|idx kt].
    { exfalso. cbn in Hl. apply lt_pf_cons_inv in Hl as [[_ X]|[X _]]; lia. }
    inversion Hk as [|? ? Hidx Hkt]; subst. cbn [app] in Hl.
    cbn [st_insert]. destruct (Nat.leb_spec 16 idx) as [X|_]; [lia|].
    apply lt_pf_cons_inv in Hl as [[Hji _]|[<- Hl2]].
    + (* a new child to the right: the live child is hashed *)
      rewrite (hash_prev_live hp live (15 - j) (srel_live _ _ Hlive) idx) by (fold j; lia).
      set (q := idx - j - 1).
      set (Hd := StHashed (st_hash H live)).
      assert (Enth : nth idx (hp ++ Hd :: repeat StNil (15 - j)) StNil = StNil).
      { rewrite app_nth2 by (fold j; lia). fold j. replace (idx - j) with (S q) by (unfold q; lia).
        cbn [nth]. apply nth_repeat. }
      rewrite Enth.
      assert (Ecs : set_nth idx (StLeaf kt v) (hp ++ Hd :: repeat StNil (15 - j)) =
                    (hp ++ Hd :: repeat StNil q) ++ StLeaf kt v :: repeat StNil (15 - idx)).
      { replace idx with (length hp + S q) at 1 by (fold j; unfold q; lia).
        rewrite <- (app_nil_r (repeat StNil (15 - j))), set_nth_right, !app_nil_r by (unfold q; lia).
        replace (15 - j - q - 1) with (15 - idx) by (unfold q; lia). reflexivity. }
      set (X := Short (kt ++ [16]) (Value v) newflag).
      assert (Encs : set_nth idx X ncs = (nh ++ nlive :: repeat Empty q) ++ X :: repeat Empty (15 - idx) ++ [Empty]).
      { unfold ncs. replace idx with (length nh + S q) at 1 by (unfold q; lia).
        rewrite set_nth_right by (unfold q; lia).
        replace (15 - j - q - 1) with (15 - idx) by (unfold q; lia). reflexivity. }
      eexists _, _. split; [reflexivity|]. split.
      * intros fT HfT. destruct fT as [|fT]; [lia|]. cbn [app]. rewrite insert_full_eq.
        assert (Hni : nth_error ncs idx = Some Empty).
        { unfold ncs. replace idx with (length nh + S q) by (unfold q; lia). apply nth_error_right. unfold q; lia. }
        rewrite Hni. destruct fT as [|fT]; [cbn in HfT; lia|].
        rewrite insert_empty by (destruct kt; discriminate). cbn [rbind fst snd]. fold X. rewrite Encs. reflexivity.
      * rewrite Ecs.
        assert (Ehp' : length (hp ++ Hd :: repeat StNil q) = idx).
        { rewrite app_length. cbn [length]. rewrite repeat_length. fold j. unfold q. lia. }
        replace (15 - idx) with (15 - length (hp ++ Hd :: repeat StNil q)) by (rewrite Ehp'; reflexivity).
        apply SBranch; [|constructor|lia].
        apply Forall2_app; auto. constructor.
        -- right. split; auto. unfold Hd. f_equal. apply st_hash_srel; auto.
        -- apply hashed_nils.
    + (* descend into the live child *)
      rewrite (hash_prev_hp hp _ (hashed_forall _ _ Hhp) j (le_n _)).
      unfold j at 1. rewrite nth_app_mid.
      destruct (IH live nlive kt Hlive Hcl Hkt) as (s2 & n2 & E1 & E2 & Hr2).
      { intros r w Hh. assert (Hx : lt_pf (j :: r) (j :: kt ++ [16])) by (apply (Ho _ w); econstructor; eauto).
        apply lt_pf_cons_inv in Hx as [[X _]|[_ Hx]]; [lia|auto]. }
      { cbn in Hf. lia. }
      exists (StBranch (hp ++ s2 :: repeat StNil (15 - j))),
             (Full (nh ++ n2 :: repeat Empty (15 - j) ++ [Empty]) newflag).
      split.
      { pose proof (srel_live _ _ Hlive) as Hlv.
        destruct live; try tauto; rewrite E1; unfold j; rewrite set_nth_mid; reflexivity. }
      split.
      * intros fT HfT. destruct fT as [|fT]; [lia|]. cbn [app]. rewrite insert_full_eq, Hnj.
        rewrite E2 by (cbn in HfT; lia). cbn [rbind fst snd]. unfold ncs. rewrite <- Hnh, set_nth_mid. reflexivity.
      * apply SBranch; auto.
Qed.


Definition hexkv (kv : bytes * bytes) : key * bytes := (keybytes_to_hex (fst kv), snd kv).

Fixpoint sorted_pf (l : list (bytes * bytes)) : Prop :=
  match l with
  | [] => True
  | a :: t => Forall (fun b => lt_pf (keybytes_to_hex (fst a)) (keybytes_to_hex (fst b))) t /\ sorted_pf t
  end.

Definition state_rel (s : stn) (n : node) : Prop := (s = StEmpty /\ n = Empty) \/ srel s n.

Lemma hex_split kb : is_bytes kb -> exists k, keybytes_to_hex kb = k ++ [16] /\ nibs k.
Proof. intros Hb. apply wfk_split. apply keybytes_to_hex_wfk; auto. Qed.

Lemma lt_pf_irrefl a : ~ lt_pf a a.
Proof.
  intros (pre & x & y & ra & rb & E1 & E2 & Hxy & _). rewrite E1 in E2. apply app_inv_head in E2.
  inversion E2. lia.
Qed.

Lemma st_update_srel s n kb v :
  state_rel s n -> canon n -> is_bytes kb -> v <> [] ->
  (forall k' w, has n k' w -> lt_pf k' (keybytes_to_hex kb)) ->
  exists s' n', st_update H s kb v = Some s' /\ trie_update d n kb v = Ok n' /\
                srel s' n' /\ canon n' /\ ins_spec n n' (keybytes_to_hex kb) v.
Proof.
  intros Hst Hc Hb Hv Hord. destruct (hex_split kb Hb) as (k & Ek & Hk).
  unfold st_update, trie_update. destruct v as [|v0 vt]; [congruence|].
  set (v := v0 :: vt) in *. rewrite Ek, removelast_last.
  destruct (insert_spec d v Hv (fuel_of (k ++ [16])) n (k ++ [16]) Hc (wfk_snoc _ Hk) (fuel_of_gt _))
    as (b & n1 & Ei & Hc1 & _ & _ & _ & Hs1).
  destruct Hst as [[-> ->]|Hs].
  - exists (StLeaf k v), (Short (k ++ [16]) (Value v) newflag).
    assert (Ei2 : insert (fuel_of (k ++ [16])) d Empty (k ++ [16]) (Value v) =
                  Ok (true, Short (k ++ [16]) (Value v) newflag)).
    { unfold fuel_of. rewrite Nat.add_succ_r. apply insert_empty. destruct k; discriminate. }
    rewrite Ei2 in Ei. inversion Ei; subst b n1.
    split; [replace (length k + 2) with (S (length k + 1)) by lia; reflexivity|].
    split; [rewrite Ei2; reflexivity|]. split; [constructor|]. split; auto.
  - destruct (st_insert_srel v Hv (length k + 2) s n k Hs Hc Hk) as (s' & n' & E1 & E2 & Hr).
    { intros k' w Hh. rewrite <- Ek. eapply Hord; eauto. }
    { lia. }
    rewrite (E2 _ (fuel_of_gt _)) in Ei. inversion Ei; subst b n1.
    exists s', n'. split; auto. split; [rewrite (E2 _ (fuel_of_gt _)); reflexivity|]. auto.
Qed.

Lemma in_hexkv k' w l : In (k', w) (map hexkv l) <-> exists kb', In (kb', w) l /\ k' = keybytes_to_hex kb'.
Proof.
  rewrite in_map_iff. split.
  - intros ([kb' v'] & E & Hin). unfold hexkv in E. cbn in E. inversion E; subst. eauto.
  - intros (kb' & Hin & ->). exists (kb', w). auto.
Qed.

Lemma st_updates_srel : forall rest done s n,
  state_rel s n -> canon n ->
  (forall k' w, has n k' w <-> In (k', w) (map hexkv done)) ->
  Forall (fun kv => is_bytes (fst kv) /\ snd kv <> []) rest ->
  (forall a b, In a done -> In b rest -> lt_pf (keybytes_to_hex (fst a)) (keybytes_to_hex (fst b))) ->
  sorted_pf rest ->
  exists s' n', st_updates H s rest = Some s' /\ trie_updates d n rest = Ok n' /\
                state_rel s' n' /\ canon n' /\
                (forall k' w, has n' k' w <-> In (k', w) (map hexkv (done ++ rest))).
Proof.
  induction rest as [|[kb v] rest IH]; intros done s n Hst Hc Hh Hok Hlt Hs.
  - exists s, n. rewrite app_nil_r. cbn. auto.
  - inversion Hok as [|? ? [Hb Hv] Hok']; subst. cbn [fst snd] in *. destruct Hs as [Hs1 Hs2].
    destruct (st_update_srel s n kb v Hst Hc Hb Hv) as (s1 & n1 & E1 & E2 & Hr1 & Hc1 & Hi1).
    { intros k' w Hk'. apply Hh in Hk'. apply in_hexkv in Hk' as (kb' & Hin & ->).
      apply (Hlt (kb', w) (kb, v)); [auto|left; auto]. }
    destruct (IH (done ++ [(kb, v)]) s1 n1 (or_intror Hr1) Hc1) as (s' & n' & F1 & F2 & F3 & F4 & F5); auto.
    + intros k' w. rewrite (Hi1 k' w), map_app, in_app_iff, Hh. cbn [map hexkv fst snd In]. split.
      * intros [[-> ->]|[_ Hin]]; auto.
      * intros [Hin|[E|[]]]; [|inversion E; subst; auto].
        right. split; auto. intros Ek'. apply in_hexkv in Hin as (kb' & Hin & ->).
        apply (lt_pf_irrefl (keybytes_to_hex kb)). rewrite <- Ek' at 1.
        apply (Hlt (kb', w) (kb, v)); [auto|left; auto].
    + intros a b Ha Hb'. apply in_app_iff in Ha as [Ha|[<-|[]]].
      * apply Hlt; [auto|right; auto].
      * rewrite Forall_forall in Hs1. apply Hs1; auto.
    + exists s', n'. cbn [st_updates trie_updates]. rewrite E1, E2. cbn [rbind]. split; auto. split; auto.
      split; auto. split; auto. intros k' w. rewrite F5, <- app_assoc. reflexivity.
Qed.

End Ins.

Section Top.
Variable H : bytes -> bytes.
Hypothesis Hlen : forall x, length (H x) = 32.

Lemma build_caches : forall fuel m root, caches_ok H root (build fuel m).
Proof.
  induction fuel as [|f IH]; intros m root; [exact I|].
  destruct m as [|[k v] [|e2 t]].
  - exact I.
  - cbn [build]. destruct k; [exact I|]. apply caches_ok_fresh_short. exact I.
  - rewrite build_two. cbv zeta. destruct (common_prefix_all _).
    + apply caches_ok_fresh_full. apply all_ok_forall, Forall_forall. intros c Hin.
      apply in_map_iff in Hin as (i & <- & _). apply IH.
    + apply caches_ok_fresh_short. apply IH.
Qed.

Lemma sorted_nodup l : sorted_pf l -> NoDup (map fst (map hexkv l)).
Proof.
  induction l as [|a l IH]; cbn [sorted_pf map fst]; [constructor|]. intros [Hf Hs].
  constructor; auto. intros Hin. apply in_map_iff in Hin as ([k w] & E & Hin). cbn in E. subst k.
  apply in_hexkv in Hin as (kb' & Hin & E). rewrite Forall_forall in Hf.
  specialize (Hf _ Hin). cbn [fst] in Hf. unfold hexkv in E. cbn [fst] in E. rewrite E in Hf.
  eapply lt_pf_irrefl; eauto.
Qed.

(** streaming trie = trie: for keys fed in strictly increasing order, none a prefix of another
    ([sorted_pf]: consecutive and non-consecutive keys diverge at a proper nibble, the earlier
    key carrying the smaller one), and non-empty values, StackTrie does not panic and its
    Hash is the root of the canonical trie of the same content *)
Theorem stack_equals kvs :
  Forall (fun kv => is_bytes (fst kv) /\ snd kv <> []) kvs -> sorted_pf kvs ->
  stack_root H kvs = Some (build_root H kvs).
Proof.
  intros Hok Hs.
  destruct (st_updates_srel H Hlen [] kvs [] StEmpty Empty) as (s' & n' & F1 & F2 & F3 & F4 & F5); auto.
  { left; auto. } { constructor. } { intros k' w. cbn. rewrite has_empty. tauto. } { intros a b []. }
  cbn [app] in F5. unfold stack_root. rewrite F1. f_equal.
  destruct F3 as [[-> ->]|Hr].
  - assert (kvs = []) as ->.
    { destruct kvs as [|[kb v] t]; auto. exfalso.
      assert (Hx : has Empty (keybytes_to_hex kb) v) by (apply F5; left; reflexivity). inversion Hx. }
    unfold st_root. cbn [st_hash]. unfold empty_root. rewrite (nlen_H H Hlen). reflexivity.
  - rewrite (st_root_rel H Hlen s' n' (srel_strel H _ _ Hr) (srel_node H _ _ Hr)).
    unfold build_root. change (map (fun kv => (keybytes_to_hex (fst kv), snd kv)) kvs) with (map hexkv kvs).
    set (m' := map hexkv kvs) in *. set (B := build (build_fuel m') m').
    assert (Ee : erase n' = erase B) by (apply build_canonical; auto; apply sorted_nodup; auto).
    assert (Hcb : canon B) by (apply (canon_same_erase n' B); auto).
    assert (HneB : B <> Empty).
    { intros X. rewrite X in Ee. cbn in Ee. apply erase_empty in Ee. pose proof (srel_node H _ _ Hr) as Hn.
      rewrite Ee in Hn. exact Hn. }
    rewrite (root_hash_eq H B Hcb HneB (build_caches _ _ true)).
    rewrite (cenc_erase H n' B Ee). reflexivity.
Qed.

End Top.

(** [blt a b]: at the first position where the byte strings differ, both have a byte and a's is
    smaller — a sorts strictly before b (bytes.Compare) and neither is a prefix of the other *)
Definition blt (a b : bytes) : Prop :=
  exists pre x y ra rb, a = pre ++ x :: ra /\ b = pre ++ y :: rb /\ (x < y)%N.

Fixpoint sorted_bytes (l : list (bytes * bytes)) : Prop :=
  match l with
  | [] => True
  | a :: t => Forall (fun b => blt (fst a) (fst b)) t /\ sorted_bytes t
  end.

Lemma hex_nonempty t : keybytes_to_hex t <> [].
Proof. destruct t; discriminate. Qed.

Lemma hex_app pre t :
  keybytes_to_hex (pre ++ t) = removelast (keybytes_to_hex pre) ++ keybytes_to_hex t.
Proof.
  induction pre as [|a pre IH]; [reflexivity|]. cbn [app keybytes_to_hex]. rewrite IH.
  pose proof (hex_nonempty pre) as Hne. destruct (keybytes_to_hex pre) eqn:E; [congruence|]. reflexivity.
Qed.

Lemma blt_lt_pf a b : is_bytes a -> is_bytes b -> blt a b ->
  lt_pf (keybytes_to_hex a) (keybytes_to_hex b).
Proof.
  intros Ha Hb (pre & x & y & ra & rb & -> & -> & Hxy).
  apply Forall_app in Ha as [_ Ha]. apply Forall_app in Hb as [_ Hb].
  inversion Ha as [|? ? Hx _]; inversion Hb as [|? ? Hy _]; subst.
  rewrite !hex_app. cbn [keybytes_to_hex]. set (P := removelast (keybytes_to_hex pre)).
  assert (By : (y / 16 < 16)%N) by (apply N.div_lt_upper_bound; lia).
  assert (Bm : (y mod 16 < 16)%N) by (apply N.mod_lt; lia).
  assert (Hle : (x / 16 <= y / 16)%N) by (apply N.div_le_mono; lia).
  destruct (N.lt_ge_cases (x / 16) (y / 16)) as [Hd|Hd].
  - exists P, (N.to_nat (x / 16)), (N.to_nat (y / 16)), (N.to_nat (x mod 16) :: keybytes_to_hex ra),
           (N.to_nat (y mod 16) :: keybytes_to_hex rb). repeat split; auto; lia.
  - assert (Heq : (x / 16 = y / 16)%N) by lia.
    exists (P ++ [N.to_nat (x / 16)]), (N.to_nat (x mod 16)), (N.to_nat (y mod 16)),
           (keybytes_to_hex ra), (keybytes_to_hex rb).
    assert (Hm : (x mod 16 < y mod 16)%N).
    { pose proof (N.div_mod x 16). pose proof (N.div_mod y 16). lia. }
    rewrite <- !app_assoc. cbn [app]. rewrite Heq. repeat split; auto; lia.
Qed.

Lemma sorted_bytes_pf l : Forall (fun kv => is_bytes (fst kv) /\ snd kv <> []) l ->
  sorted_bytes l -> sorted_pf l.
Proof.
  induction l as [|a l IH]; cbn [sorted_bytes sorted_pf]; auto. intros Hok [Hf Hs].
  inversion Hok as [|? ? [Ha _] Hok']; subst. split; auto.
  rewrite Forall_forall in *. intros b Hin. apply blt_lt_pf; auto. apply (Hok' b Hin).
Qed.
