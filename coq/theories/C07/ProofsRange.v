(** C07 — range proofs (trie/proof.go VerifyRangeProof, transcribed in ModelRange.v).
    - the proof-less form (the whole leaf set): acceptance means the given root IS the canonical
      root of exactly the given leaves (through stack trie = trie);
    - the two-edge form is NOT sound for elements outside [firstKey, lastKey]: a computed witness
      (the model transcribes the code as it is: the error of Trie.Update is dropped while the leaf
      stream is re-inserted, and no bound check exists) — known finding range-outside-element. *)
From Coq Require Import List NArith Arith Bool Lia.
From Kardia Require Import C07.Model C07.ModelRange C07.ProofsBase C07.ProofsStackIns.
Import ListNotations.

Section Whole.
Variable H : bytes -> bytes.
Hypothesis Hlen : forall x, length (H x) = 32.

Lemma range_whole_sound root first last (keys vals : list bytes) more :
  let kvs := combine keys vals in
  Forall (fun kv => is_bytes (fst kv) /\ snd kv <> []) kvs -> sorted_bytes kvs ->
  verify_range H root first last keys vals None = RAccept more ->
  more = false /\ length keys = length vals /\ root = build_root H kvs.
Proof.
  intros kvs Hok Hs. unfold verify_range.
  destruct (Nat.eqb (length keys) (length vals)) eqn:El; cbn [negb]; [|intros X; discriminate X].
  destruct (increasing keys); cbn [negb]; [|intros X; discriminate X].
  destruct (existsb (fun v => Nat.eqb (length v) 0) vals); [intros X; discriminate X|].
  fold kvs. rewrite (stack_equals H Hlen kvs Hok (sorted_bytes_pf kvs Hok Hs)).
  destruct (beq (build_root H kvs) root) eqn:Eb; [|intros X; discriminate X].
  intros Hv. inversion Hv; subst. apply beq_eq in Eb. apply Nat.eqb_eq in El. auto.
Qed.

(** completeness of the same form: the sorted leaf set of a trie is accepted against its root *)
Lemma range_whole_complete first last (keys vals : list bytes) :
  let kvs := combine keys vals in
  length keys = length vals ->
  Forall (fun kv => is_bytes (fst kv) /\ snd kv <> []) kvs -> sorted_bytes kvs ->
  increasing keys = true ->
  verify_range H (build_root H kvs) first last keys vals None = RAccept false.
Proof.
  intros kvs El Hok Hs Hinc. unfold verify_range. rewrite El, Nat.eqb_refl, Hinc. cbn [negb].
  assert (Hne : existsb (fun v => Nat.eqb (length v) 0) vals = false).
  { apply not_true_is_false. intros Hex. apply existsb_exists in Hex as (v & Hin & Hz).
    apply Nat.eqb_eq in Hz. destruct v; [|discriminate].
    assert (Hc : exists k, In (k, []) kvs).
    { unfold kvs. clear -El Hin. revert keys El. induction vals as [|w vals IH]; intros keys El; [destruct Hin|].
      destruct keys as [|k keys]; [discriminate|]. cbn in El. destruct Hin as [->|Hin].
      - exists k. left. reflexivity.
      - destruct (IH Hin keys) as (k' & Hk'); [lia|]. exists k'. right. exact Hk'. }
    destruct Hc as (k & Hk). rewrite Forall_forall in Hok. destruct (Hok _ Hk) as [_ Hv]. apply Hv. reflexivity. }
  rewrite Hne. fold kvs. rewrite (stack_equals H Hlen kvs Hok (sorted_bytes_pf kvs Hok Hs)), beq_refl. reflexivity.
Qed.

End Whole.

(** a 32-byte "hash" that computes inside Coq (nothing about it matters except its length) *)
Definition h0 (x : bytes) : bytes :=
  let s := fold_left (fun a b => (a * 257 + b + 1) mod 18446744073709551557)%N x 7%N in
  map (fun i => (s / (N.of_nat i * 251 + 1) + N.of_nat i * 37) mod 256)%N (seq 0 32).

Lemma h0_len x : length (h0 x) = 32.
Proof. unfold h0. rewrite map_length, seq_length. reflexivity. Qed.

Definition w_val (k : N) : bytes := repeat k 33.
Definition w_trie : res node :=
  trie_updates [] Empty [([16], w_val 16); ([32], w_val 32); ([48], w_val 48); ([64], w_val 64)]%N.
Definition w_keys : list bytes := [[16]; [32]; [48]]%N.
Definition w_rest : list bytes := [w_val 32; w_val 48].

(** trie {10, 20, 30, 40 -> 33 x the key byte}; edge proofs for 20 and 30.  The leaf stream
    (10 -> v), 20, 30 is accepted for EVERY non-empty v, although the trie holds 10 -> 10..10: the
    re-insertion of 10 meets the hash node left of the first edge, Update fails with a missing-node
    error, and the error is dropped.  The value stays a variable: one evaluation, which never looks
    at it, covers all forged values.  Root and proof nodes are bound once for the forged and the
    honest stream, since [h0] is evaluated anew for every copy of a term that mentions it. *)
Lemma range_outside_any_value :
  match w_trie with
  | Ok n =>
    let root := fst (trie_hash h0 n) in
    match prove h0 [] n [32%N], prove h0 [] n [48%N], trie_get [] n [16%N] with
    | Ok p1, Ok p2, Ok (stored, _) =>
      let blobs := p1 ++ p2 in
      (forall b v, match verify_range h0 root [32%N] [48%N] w_keys ((b :: v) :: w_rest) (Some blobs) with
                   | RAccept _ => true | _ => false end = true) /\
      beq stored (w_val 16) = true /\
      match verify_range h0 root [32%N] [48%N] [[32]; [48]]%N w_rest (Some blobs) with
      | RAccept _ => true | _ => false end = true
    | _, _, _ => False
    end
  | _ => False
  end.
Proof. vm_compute. split; [reflexivity|split; reflexivity]. Qed.

(** the instances v = ee and v = dd, in the form of a single test *)
Lemma range_outside_witness :
  match w_trie with
  | Ok n =>
    let root := fst (trie_hash h0 n) in
    match prove h0 [] n [32%N], prove h0 [] n [48%N], trie_get [] n [16%N] with
    | Ok p1, Ok p2, Ok (stored, _) =>
      let blobs := p1 ++ p2 in
      let accepts v := match verify_range h0 root [32%N] [48%N] w_keys (v :: w_rest) (Some blobs) with
                       | RAccept _ => true | _ => false end in
      accepts [238%N] && accepts [221%N] && beq stored (w_val 16) &&
      match verify_range h0 root [32%N] [48%N] [[32]; [48]]%N w_rest (Some blobs) with
      | RAccept _ => true | _ => false end
    | _, _, _ => false
    end
  | _ => false
  end = true.
Proof.
  pose proof range_outside_any_value as W. destruct w_trie as [n| | |]; try contradiction. cbv zeta in *.
  destruct (prove h0 [] n [32%N]) as [p1| | |]; try contradiction.
  destruct (prove h0 [] n [48%N]) as [p2| | |]; try contradiction.
  destruct (trie_get [] n [16%N]) as [[stored r]| | |]; try contradiction.
  destruct W as (Wforged & Wstored & Whonest). rewrite !Wforged, Wstored, Whonest. reflexivity.
Qed.
