(** C07 — tie of the model's arithmetic and decisions to the Go SOURCE.
    [Generated/C07Source.v] is produced on every check by /verif/go2coq from /repo's working tree:
    every guard / loop bound / integer expression of trie/encoding.go (hexToCompact, compactToHex,
    keybytesToHex, hexToKeybytes, decodeNibbles, prefixLen, hasTerm), trie/hasher.go
    (shortnodeToHash / fullnodeToHash: the [len(enc) < 32 && !force] embedding rule),
    trie/node.go (decodeRef, decodeNodeUnsafe, decodeFull), trie/proof.go (Prove, VerifyRangeProof,
    unsetInternal, unset, hasRightElement, get, proofToPath), trie/stacktrie.go (Update, insert,
    getDiffIndex, hashRec, Hash), trie/trie.go (get, insert, delete, update, Commit, New),
    trie/committer.go (commit, commitChildren) and types/hashing.go (DeriveSha).
    The lemmas say that the definitions of C07/Model.v and C07/ModelRange.v compute exactly these
    expressions on exactly these operands; where the model embeds a guard in a large recursive
    function the lemma equates the source guard with the expression the model uses at that place. *)
From Coq Require Import List ZArith NArith Arith Bool Lia String.
From Kardia Require Import Base.GoSem Base.Conj.
From Kardia Require Import Generated.C07Source.
From Kardia Require Import C07.Model C07.ModelRange.
Import ListNotations.
Local Open Scope Z_scope.
Notation length := List.length (only parsing).
Ltac Zify.zify_post_hook ::= Z.div_mod_to_equations.

(** bytes.Compare as the Go int it returns *)
Definition cmp_int (c : comparison) : Z := match c with Lt => -1 | Eq => 0 | Gt => 1 end.


Lemma nlen_length {A} (l : list A) : nlen l = N.of_nat (length l).
Proof. induction l as [|x l IH]; [reflexivity|]. cbn [nlen length]. rewrite IH. lia. Qed.

Lemma odd_mod2 n : Z.of_nat n mod 2 = if Nat.odd n then 1 else 0.
Proof.
  assert (Hn : forall k, (Z.of_nat k mod 2 = if Nat.odd k then 1 else 0) /\
                         (Z.of_nat (S k) mod 2 = if Nat.odd (S k) then 1 else 0)).
  { intros k. induction k as [|m [IH1 IH2]]; [split; reflexivity|]. split; [exact IH2|].
    change (Nat.odd (S (S m))) with (Nat.odd m). rewrite !Nat2Z.inj_succ in *.
    destruct (Nat.odd m); lia. }
  exact (proj1 (Hn n)).
Qed.

Lemma land_1 z : 0 <= z -> Z.land z 1 = z mod 2.
Proof. intros Hz. change 1 with (Z.ones 1). rewrite Z.land_ones by lia. reflexivity. Qed.

(** [hi << k | lo] adds when [lo] fits below bit [k] *)
Lemma lor_low a b k : 0 <= k -> 0 <= b < 2 ^ k -> Z.lor (a * 2 ^ k) b = a * 2 ^ k + b.
Proof.
  intros Hk Hb. assert (Hd : Z.land (a * 2 ^ k) b = 0).
  { rewrite <- Z.shiftl_mul_pow2 by exact Hk. apply Z.bits_inj'. intros n Hn.
    rewrite Z.land_spec, Z.bits_0. destruct (Z.lt_ge_cases n k) as [Hlt|Hge].
    - rewrite Z.shiftl_spec_low by exact Hlt. reflexivity.
    - rewrite <- (Z.mod_small b (2 ^ k)) by exact Hb. rewrite Z.mod_pow2_bits_high by lia. apply andb_false_r. }
  rewrite <- (Z.lxor_lor _ _ Hd). symmetry. apply Z.add_nocarry_lxor. exact Hd.
Qed.

(* ------------------------------------------------------------------ encoding.go *)

(** keybytesToHex: the two nibbles of a byte are [b / 16] and [b % 16]; the result has
    [len(str)*2 + 1] elements, the last one the terminator 16 *)
Lemma src_hex_nibbles b t : (b < 256)%N ->
  map Z.of_nat (firstn 2 (keybytes_to_hex (b :: t))) =
  [trie__keybytesToHex__assign (Z.of_N b); trie__keybytesToHex__assign_2 (Z.of_N b)].
Proof.
  intros Hb. cbn [keybytes_to_hex firstn map].
  unfold trie__keybytesToHex__assign, trie__keybytesToHex__assign_2, go_quot, go_rem.
  rewrite !N_nat_Z, N2Z.inj_div, N2Z.inj_mod. change (Z.of_N 16) with 16.
  rewrite Z.quot_div_nonneg, Z.rem_mod_nonneg by lia.
  rewrite !wrap_id by (unfold in_range; lia). reflexivity.
Qed.

Lemma keybytes_to_hex_length bs : length (keybytes_to_hex bs) = (2 * length bs + 1)%nat.
Proof. induction bs as [|b bs IH]; [reflexivity|]. cbn [keybytes_to_hex length]. rewrite IH. lia. Qed.

Lemma src_hex_length bs : Z.of_nat (length bs) < 2 ^ 61 ->
  Z.of_nat (length (keybytes_to_hex bs)) = trie__keybytesToHex__set_l (Z.of_nat (length bs)).
Proof.
  intros Hl. rewrite keybytes_to_hex_length. unfold trie__keybytesToHex__set_l, go_add, go_mul.
  rewrite !wrap_id by (unfold in_range; try rewrite wrap_id by (unfold in_range; lia); lia). lia.
Qed.

Lemma src_hex_terminator bs : Z.of_nat (last (keybytes_to_hex bs) 0%nat) = trie__keybytesToHex__let_assign.
Proof.
  induction bs as [|b bs IH]; [reflexivity|].
  cbn [keybytes_to_hex]. destruct (keybytes_to_hex bs) as [|x l] eqn:E.
  - pose proof (keybytes_to_hex_length bs) as Hl. rewrite E in Hl. cbn in Hl. lia.
  - exact IH.
Qed.

(** hasTerm *)
Lemma src_has_term k :
  has_term k = trie__hasTerm__ret_len_s_gt_0_and_s_at_len_s_minus_1_eq_16 (Z.of_nat (length k)) (Z.of_nat (last k 0%nat)).
Proof.
  unfold has_term, trie__hasTerm__ret_len_s_gt_0_and_s_at_len_s_minus_1_eq_16.
  destruct k as [|x k] using rev_ind; [reflexivity|].
  rewrite rev_unit, last_last, app_length. cbn [length].
  change 16 with (Z.of_nat 16). rewrite Zofnat_eqb.
  replace (Z.of_nat (length k + 1) >? 0) with true by (symmetry; apply Z.gtb_lt; lia). reflexivity.
Qed.

(** hexToCompact: the flag byte is [terminator << 5], or'ed with [1 << 4] and the first nibble
    when the number of nibbles is odd *)
Lemma src_compact_flag tb h : (tb = 0 \/ tb = 1) -> 0 <= h < 16 ->
  trie__hexToCompact__assign tb = 32 * tb /\
  trie__hexToCompact__assign_op_2 (trie__hexToCompact__assign_op (trie__hexToCompact__assign tb)) h = 32 * tb + 16 + h.
Proof.
  intros Htb Hh.
  unfold trie__hexToCompact__assign, trie__hexToCompact__assign_op, trie__hexToCompact__assign_op_2, go_or, go_shl.
  assert (E : forall a, 0 <= a < 16 -> wrap U8 (Z.lor (a * 2 ^ 4) h) = a * 16 + h).
  { intros a Ha. rewrite lor_low by lia. apply wrap_id. unfold in_range. lia. }
  (* the flag bits computed so far are 16 (a = 1) or 48 (a = 3) *)
  destruct Htb as [-> | ->]; (split; [reflexivity|]); [exact (E 1 ltac:(lia))|exact (E 3 ltac:(lia))].
Qed.

Lemma src_compact_odd n : Z.of_nat n < 2 ^ 62 ->
  trie__hexToCompact__if_len_hex_band_1_eq_1 (Z.of_nat n) = Nat.odd n.
Proof.
  intros Hn. unfold trie__hexToCompact__if_len_hex_band_1_eq_1, go_and.
  rewrite land_1 by lia. pose proof (odd_mod2 n) as Ho.
  rewrite wrap_id by (unfold in_range; lia). rewrite Ho. destruct (Nat.odd n); reflexivity.
Qed.

(** the first byte [hex_to_compact] emits is the source expression on the model's operands *)
Lemma src_compact_first_byte hex :
  let term := has_term hex in
  let hex1 := if term then removelast hex else hex in
  let tb := if trie__hexToCompact__if_hasTerm_hex term then trie__hexToCompact__let_terminator_2
            else trie__hexToCompact__let_terminator in
  (hd 0 hex1 < 16)%nat -> Z.of_nat (length hex1) < 2 ^ 62 ->
  Z.of_N (hd 0%N (hex_to_compact hex)) =
  if trie__hexToCompact__if_len_hex_band_1_eq_1 (Z.of_nat (length hex1))
  then trie__hexToCompact__assign_op_2 (trie__hexToCompact__assign_op (trie__hexToCompact__assign tb)) (Z.of_nat (hd 0%nat hex1))
  else trie__hexToCompact__assign tb.
Proof.
  intros term hex1 tb Hh Hl. rewrite src_compact_odd by exact Hl.
  unfold hex_to_compact. fold term. fold hex1.
  assert (Htb : tb = 0 \/ tb = 1) by (unfold tb, trie__hexToCompact__if_hasTerm_hex; destruct term; auto).
  destruct (src_compact_flag tb (Z.of_nat (hd 0%nat hex1)) Htb ltac:(lia)) as [Ha Hb].
  assert (Ht : Z.of_nat (if term then 32 else 0) = 32 * tb)
    by (unfold tb, trie__hexToCompact__if_hasTerm_hex; destruct term; reflexivity).
  destruct (Nat.odd (length hex1)); cbn [hd].
  - rewrite Hb. lia.
  - rewrite Ha. lia.
Qed.

(** decodeNibbles: one output byte is [nibbles[ni]<<4 | nibbles[ni+1]]; the loop advances by two
    input nibbles and one output byte, starting at 0 *)
Lemma src_decode_nibbles_byte a b t : (a < 16)%nat -> (b < 16)%nat ->
  Z.of_N (hd 0%N (decode_nibbles (a :: b :: t))) = trie__decodeNibbles__assign (Z.of_nat a) (Z.of_nat b).
Proof.
  intros Ha Hb. cbn [decode_nibbles hd]. rewrite nat_N_Z.
  unfold trie__decodeNibbles__assign, go_or, go_shl.
  rewrite (wrap_id U8 (_ * _)) by (unfold in_range; lia).
  rewrite (lor_low _ _ 4) by lia. rewrite wrap_id by (unfold in_range; lia). lia.
Qed.

Lemma src_decode_nibbles_loop ni bi : 0 <= ni < 2 ^ 62 -> 0 <= bi < 2 ^ 62 ->
  trie__decodeNibbles__forinit_ni = 0 /\ trie__decodeNibbles__forinit_bi = 0 /\
  trie__decodeNibbles__set_ni ni = ni + 2 /\ trie__decodeNibbles__set_bi bi = bi + 1.
Proof.
  intros Hn Hb. repeat split;
    unfold trie__decodeNibbles__set_ni, trie__decodeNibbles__set_bi, go_add; apply wrap_id; unfold in_range; lia.
Qed.

(** compactToHex: the terminator is dropped iff [base[0] < 2], [2 - base[0]&1] nibbles are chopped *)
Lemma src_compact_to_hex_guards b0 : (b0 < 16)%nat ->
  trie__compactToHex__if_base_at_0_lt_2 (Z.of_nat b0) = Nat.ltb b0 2 /\
  Z.to_nat (trie__compactToHex__set_chop (Z.of_nat b0)) = (2 - Nat.modulo b0 2)%nat.
Proof.
  intros Hb. split.
  - unfold trie__compactToHex__if_base_at_0_lt_2. change 2 with (Z.of_nat 2). apply Zofnat_ltb.
  - do 16 (destruct b0 as [|b0]; [reflexivity|]). lia.
Qed.

Lemma src_compact_to_hex c : c <> [] ->
  let base := keybytes_to_hex c in
  (hd 0 base < 16)%nat ->
  compact_to_hex c =
  skipn (Z.to_nat (trie__compactToHex__set_chop (Z.of_nat (hd 0%nat base))))
        (if trie__compactToHex__if_base_at_0_lt_2 (Z.of_nat (hd 0%nat base)) then removelast base else base).
Proof.
  intros Hc base Hb. destruct (src_compact_to_hex_guards _ Hb) as [-> ->].
  unfold compact_to_hex. destruct c; [congruence|]. reflexivity.
Qed.

(** prefixLen: the scan stops at the shorter length and at the first differing element *)
Lemma src_prefix_len_guards la lb i x y :
  trie__prefixLen__if_len_b_lt_length (Z.of_nat lb) (Z.of_nat la) = Nat.ltb lb la /\
  trie__prefixLen__let_length (Z.of_nat lb) = Z.of_nat lb /\
  trie__prefixLen__for_i_lt_length (Z.of_nat i) (Z.of_nat la) = Nat.ltb i la /\
  trie__prefixLen__if_a_at_i_ne_b_at_i (Z.of_nat x) (Z.of_nat y) = negb (Nat.eqb x y).
Proof.
  repeat split; try apply Zofnat_ltb.
  unfold trie__prefixLen__if_a_at_i_ne_b_at_i, go_neqb. rewrite Zofnat_eqb. reflexivity.
Qed.

Lemma src_prefix_len_step x y a b :
  prefix_len (x :: a) (y :: b) =
  if trie__prefixLen__if_a_at_i_ne_b_at_i (Z.of_nat x) (Z.of_nat y) then 0%nat else S (prefix_len a b).
Proof.
  cbn [prefix_len]. unfold trie__prefixLen__if_a_at_i_ne_b_at_i, go_neqb. rewrite Zofnat_eqb.
  destruct (Nat.eqb x y); reflexivity.
Qed.

(* ------------------------------------------------------------------ hasher.go *)

(** the embedding rule: a collapsed node is stored inline iff [len(enc) < 32 && !force] *)
Lemma src_finish (H : bytes -> bytes) enc force :
  finish H enc force =
  (if trie__hasher_shortnodeToHash__if_len_enc_lt_32_and_not_force (Z.of_N (nlen enc)) force
   then HEmb enc else HHash (H enc)) /\
  finish H enc force =
  (if trie__hasher_fullnodeToHash__if_len_enc_lt_32_and_not_force (Z.of_N (nlen enc)) force
   then HEmb enc else HHash (H enc)).
Proof.
  unfold finish, trie__hasher_shortnodeToHash__if_len_enc_lt_32_and_not_force,
    trie__hasher_fullnodeToHash__if_len_enc_lt_32_and_not_force.
  change 32 with (Z.of_N 32). rewrite ZofN_ltb. split; reflexivity.
Qed.

(* ------------------------------------------------------------------ node.go *)

(** rlp.Kind as the Go constant *)
Definition kind_code (k : kind) : Z := match k with KByte => 0 | KString => 1 | KList => 2 end.

(** decodeRef: a list item is an embedded node and refused when its size exceeds hashLen;
    a string item must be empty or 32 bytes long *)
Lemma src_decode_ref_guards k b r v : (r <= b)%N -> Z.of_N b < 2 ^ 62 ->
  trie__decodeRef__case_kind_eq_rlp_List (kind_code k) = match k with KList => true | _ => false end /\
  trie__decodeRef__if_size_gt_hashLen (trie__decodeRef__set_size (Z.of_N b) (Z.of_N r)) = N.ltb 32 (b - r) /\
  trie__decodeRef__case_kind_eq_rlp_String_and_len_val_eq_0 (kind_code k) (Z.of_N v) =
    (match k with KString => true | _ => false end && N.eqb v 0) /\
  trie__decodeRef__case_kind_eq_rlp_String_and_len_val_eq_32 (kind_code k) (Z.of_N v) =
    (match k with KString => true | _ => false end && N.eqb v 32) /\
  trie__hashLen = 32.
Proof.
  intros Hr Hb. repeat split.
  - destruct k; reflexivity.
  - unfold trie__decodeRef__if_size_gt_hashLen, trie__decodeRef__set_size, go_sub.
    rewrite wrap_id by (unfold in_range; lia). rewrite Z.gtb_ltb.
    replace (Z.of_N b - Z.of_N r) with (Z.of_N (b - r)) by lia.
    change 32 with (Z.of_N 32). apply ZofN_ltb.
  - unfold trie__decodeRef__case_kind_eq_rlp_String_and_len_val_eq_0.
    change 0 with (Z.of_N 0). rewrite ZofN_eqb. destruct k; reflexivity.
  - unfold trie__decodeRef__case_kind_eq_rlp_String_and_len_val_eq_32.
    change 32 with (Z.of_N 32). rewrite ZofN_eqb. destruct k; reflexivity.
Qed.

(** the model's decode_ref takes exactly these decisions *)
Lemma src_decode_ref dec buf k c rest : split buf = Some (k, c, rest) ->
  (nlen rest <= nlen buf)%N -> Z.of_N (nlen buf) < 2 ^ 62 ->
  decode_ref dec buf =
  if trie__decodeRef__case_kind_eq_rlp_List (kind_code k) then
    if trie__decodeRef__if_size_gt_hashLen (trie__decodeRef__set_size (Z.of_N (nlen buf)) (Z.of_N (nlen rest)))
    then None else match dec buf with Some n => Some (n, rest) | None => None end
  else if trie__decodeRef__case_kind_eq_rlp_String_and_len_val_eq_0 (kind_code k) (Z.of_N (nlen c))
  then Some (Empty, rest)
  else if trie__decodeRef__case_kind_eq_rlp_String_and_len_val_eq_32 (kind_code k) (Z.of_N (nlen c))
  then Some (Ref c, rest) else None.
Proof.
  intros Hs Hr Hb. destruct (src_decode_ref_guards k _ _ (nlen c) Hr Hb) as (-> & -> & -> & -> & _).
  unfold decode_ref. rewrite Hs. destruct k; cbn [andb]; reflexivity.
Qed.

(** decodeNodeUnsafe / decodeFull: empty input is refused; 16 child references (i = 0; i < 16),
    then a value that is present iff it is non-empty *)
Lemma src_decode_full_guards n i :
  trie__decodeNodeUnsafe__if_len_buf_eq_0 (Z.of_nat n) = Nat.eqb n 0 /\
  trie__decodeFull__if_len_val_gt_0 (Z.of_N (N.of_nat n)) = N.ltb 0 (N.of_nat n) /\
  (In i (seq 0 16) <-> (trie__decodeFull__forinit_i <= Z.of_nat i /\ trie__decodeFull__for_i_lt_16 (Z.of_nat i) = true)).
Proof.
  split; [|split].
  - unfold trie__decodeNodeUnsafe__if_len_buf_eq_0. change 0 with (Z.of_nat 0). apply Zofnat_eqb.
  - unfold trie__decodeFull__if_len_val_gt_0. rewrite Z.gtb_ltb. change 0 with (Z.of_N 0). apply ZofN_ltb.
  - unfold trie__decodeFull__forinit_i, trie__decodeFull__for_i_lt_16. rewrite in_seq, Z.ltb_lt. lia.
Qed.

(* ------------------------------------------------------------------ trie.go, committer.go *)

(** the "key does not run through this short node" test of Trie.get, Trie.Prove, proof.go get,
    unset and hasRightElement is the expression the model uses in get / prove_walk / pget / pget1 /
    unset / has_right ([k] = key[pos:]) *)
Lemma src_short_mismatch total pos lnk e : (pos <= total)%nat -> Z.of_nat total < 2 ^ 62 ->
  let guard := (Nat.ltb (total - pos) lnk || negb e)%bool in
  trie__Trie_get__if_len_key_minus_pos_lt_len_n_Key_or_not_bytes_Equal_n_Key_key__2400f3c9
    (Z.of_nat total) (Z.of_nat pos) (Z.of_nat lnk) e = guard /\
  trie__hasRightElement__if_len_key_minus_pos_lt_len_rn_Key_or_not_bytes_Equal_rn_Key_ke_85d22569
    (Z.of_nat total) (Z.of_nat pos) (Z.of_nat lnk) e = guard /\
  trie__Trie_Prove__if_len_key_lt_len_n_Key_or_not_bytes_Equal_n_Key_key_at_len_n_Key
    (Z.of_nat (total - pos)) (Z.of_nat lnk) e = guard /\
  trie__get__if_len_key_lt_len_n_Key_or_not_bytes_Equal_n_Key_key_at_len_n_Key
    (Z.of_nat (total - pos)) (Z.of_nat lnk) e = guard /\
  trie__unset__if_len_key_at_pos_lt_len_cld_Key_or_not_bytes_Equal_cld_Key_key_2924addb
    (Z.of_nat (total - pos)) (Z.of_nat lnk) e = guard.
Proof.
  intros Hp Ht guard. unfold guard.
  unfold trie__Trie_get__if_len_key_minus_pos_lt_len_n_Key_or_not_bytes_Equal_n_Key_key__2400f3c9,
    trie__hasRightElement__if_len_key_minus_pos_lt_len_rn_Key_or_not_bytes_Equal_rn_Key_ke_85d22569,
    trie__Trie_Prove__if_len_key_lt_len_n_Key_or_not_bytes_Equal_n_Key_key_at_len_n_Key,
    trie__get__if_len_key_lt_len_n_Key_or_not_bytes_Equal_n_Key_key_at_len_n_Key,
    trie__unset__if_len_key_at_pos_lt_len_cld_Key_or_not_bytes_Equal_cld_Key_key_2924addb, go_sub.
  rewrite wrap_id by (unfold in_range; lia).
  replace (Z.of_nat total - Z.of_nat pos) with (Z.of_nat (total - pos)) by lia.
  rewrite !Zofnat_ltb. repeat split; reflexivity.
Qed.

(** Trie.get as the model transcribes it, on its own definitions *)
Lemma src_get_short fuel d nk c fl k : Z.of_nat (length k) < 2 ^ 62 ->
  get (S fuel) d (Short nk c fl) k =
  if trie__Trie_get__if_len_key_minus_pos_lt_len_n_Key_or_not_bytes_Equal_n_Key_key__2400f3c9
       (Z.of_nat (length k)) 0 (Z.of_nat (length nk)) (keq nk (firstn (length nk) k))
  then Ok ([], Short nk c fl)
  else rbind (get fuel d c (skipn (length nk) k)) (fun r => Ok (fst r, Short nk (snd r) fl)).
Proof.
  intros Hk. destruct (src_short_mismatch (length k) 0 (length nk) (keq nk (firstn (length nk) k)) ltac:(lia) Hk) as (Hg & _).
  change (Z.of_nat 0) with 0 in Hg. rewrite Hg, Nat.sub_0_r. reflexivity.
Qed.

(** Trie.insert / Trie.delete / Trie.update decisions *)
Lemma src_insert_delete_guards ml lnk lk (v w : bytes) d :
  trie__Trie_insert__if_len_key_eq_0 (Z.of_nat lk) = Nat.eqb lk 0 /\
  trie__Trie_insert__ret_not_bytes_Equal_v_value__valueNode (beq v w) = negb (beq v w) /\
  trie__Trie_insert__let_matchlen (Z.of_nat ml) = Z.of_nat ml /\
  trie__Trie_insert__if_matchlen_eq_len_n_Key (Z.of_nat ml) (Z.of_nat lnk) = Nat.eqb ml lnk /\
  trie__Trie_insert__if_matchlen_eq_0 (Z.of_nat ml) = Nat.eqb ml 0 /\
  trie__Trie_insert__if_not_dirty_or_err_ne_nil d false = negb d /\
  trie__Trie_insert__if_not_dirty_or_err_ne_nil_2 d false = negb d /\
  trie__Trie_insert__if_not_dirty_or_err_ne_nil_3 d false = negb d /\
  trie__Trie_delete__let_matchlen (Z.of_nat ml) = Z.of_nat ml /\
  trie__Trie_delete__if_matchlen_lt_len_n_Key (Z.of_nat ml) (Z.of_nat lnk) = Nat.ltb ml lnk /\
  trie__Trie_delete__if_matchlen_eq_len_key (Z.of_nat ml) (Z.of_nat lk) = Nat.eqb ml lk /\
  trie__Trie_delete__if_not_dirty_or_err_ne_nil d false = negb d /\
  trie__Trie_delete__if_not_dirty_or_err_ne_nil_2 d false = negb d /\
  trie__Trie_delete__if_not_dirty_or_err_ne_nil_3 d false = negb d /\
  trie__Trie_update__if_len_value_ne_0 (Z.of_nat (length v)) = match v with [] => false | _ => true end.
Proof.
  repeat split; try (destruct d; reflexivity);
    try (unfold trie__Trie_insert__if_len_key_eq_0, trie__Trie_insert__if_matchlen_eq_0;
         change 0 with (Z.of_nat 0); apply Zofnat_eqb);
    try apply Zofnat_eqb; try apply Zofnat_ltb.
  destruct v; reflexivity.
Qed.

(** the insert step on a short node: whole key matches -> descend, else branch out, at the root of
    the short node when the common prefix is empty *)
Lemma src_insert_short fuel d nk c fl k0 kt value :
  let k := k0 :: kt in
  let ml := prefix_len k nk in
  insert (S fuel) d (Short nk c fl) k value =
  if trie__Trie_insert__if_matchlen_eq_len_n_Key (Z.of_nat ml) (Z.of_nat (length nk)) then
    rbind (insert fuel d c (skipn ml k) value) (fun r =>
      if trie__Trie_insert__if_not_dirty_or_err_ne_nil (fst r) false then Ok (false, Short nk c fl)
      else Ok (true, Short nk (snd r) newflag))
  else
    match nth_error nk ml, nth_error k ml with
    | Some oi, Some ni =>
      let leaf rest x := match rest with [] => x | _ => Short rest x newflag end in
      let branch := Full (set_nth ni (leaf (skipn (S ml) k) value)
                            (set_nth oi (leaf (skipn (S ml) nk) c) empty_children)) newflag in
      if trie__Trie_insert__if_matchlen_eq_0 (Z.of_nat ml) then Ok (true, branch)
      else Ok (true, Short (firstn ml k) branch newflag)
    | _, _ => Crash
    end.
Proof.
  intros k ml.
  unfold trie__Trie_insert__if_matchlen_eq_len_n_Key, trie__Trie_insert__if_matchlen_eq_0,
    trie__Trie_insert__if_not_dirty_or_err_ne_nil.
  rewrite Zofnat_eqb. change 0 with (Z.of_nat 0). rewrite Zofnat_eqb.
  cbn [insert]. fold k. fold ml.
  destruct (Nat.eqb ml (length nk)).
  - destruct (insert fuel d c (skipn ml k) value) as [[b n]| | |]; cbn [rbind fst snd]; try reflexivity.
    destruct b; reflexivity.
  - reflexivity.
Qed.

(** the position the reduction loop of delete computes: -1 none, -2 two or more, else the index *)
Definition pos_code (o : option (nat + unit)) : Z :=
  match o with None => -1 | Some (inl p) => Z.of_nat p | Some (inr _) => -2 end.

Lemma src_delete_pos o p :
  trie__Trie_delete__if_pos_eq_minus_1 (pos_code o) = match o with None => true | _ => false end /\
  trie__Trie_delete__if_pos_ge_0 (pos_code o) = match o with Some (inl _) => true | _ => false end /\
  trie__Trie_delete__if_pos_ne_16 (Z.of_nat p) = negb (Nat.eqb p 16).
Proof.
  repeat split.
  - destruct o as [[q|u]|]; cbn [pos_code]; unfold trie__Trie_delete__if_pos_eq_minus_1; try reflexivity.
    apply Z.eqb_neq. lia.
  - destruct o as [[q|u]|]; cbn [pos_code]; unfold trie__Trie_delete__if_pos_ge_0; try reflexivity.
    apply Z.geb_le. lia.
  - unfold trie__Trie_delete__if_pos_ne_16, go_neqb. change 16 with (Z.of_nat 16). rewrite Zofnat_eqb. reflexivity.
Qed.

(** Trie.Commit / trie.New / committer.commit *)
Lemma src_commit_guards (H : bytes -> bytes) fl root :
  trie__Trie_Commit__if_not_dirty (fdirty fl) = negb (fdirty fl) /\
  clean_hash fl =
    (if trie__committer_commit__if_hash_ne_nil_and_not_dirty (match fhash fl with Some _ => true | None => false end) (fdirty fl)
     then fhash fl else None) /\
  trie_open H [] root =
    (if trie__New__if_id_Root_ne_common_Hash_and_id_Root_ne_types_EmptyRootHash
          (negb (beq root (repeat 0%N 32))) (negb (beq root (empty_root H)))
     then resolve_hash [] root else Ok Empty).
Proof.
  repeat split.
  - unfold clean_hash, trie__committer_commit__if_hash_ne_nil_and_not_dirty.
    destruct (fhash fl), (fdirty fl); reflexivity.
  - unfold trie_open, trie__New__if_id_Root_ne_common_Hash_and_id_Root_ne_types_EmptyRootHash.
    destruct (beq root (repeat 0%N 32)), (beq root (empty_root H)); reflexivity.
Qed.

Lemma src_children_loop i :
  In i (seq 0 16) <-> (trie__committer_commitChildren__forinit_i <= Z.of_nat i /\
                        trie__committer_commitChildren__for_i_lt_16 (Z.of_nat i) = true).
Proof.
  unfold trie__committer_commitChildren__forinit_i, trie__committer_commitChildren__for_i_lt_16.
  rewrite in_seq, Z.ltb_lt. lia.
Qed.

(* ------------------------------------------------------------------ proof.go: Prove / VerifyProof *)

(** Prove walks while [len(key) > 0 && tn != nil]; a node becomes a proof element iff it is hashed
    ([ok]: its collapsed encoding is NOT shorter than 32 bytes) or it is the first one *)
Lemma src_prove_guards (k : key) tn (enc : bytes) i :
  trie__Trie_Prove__for_len_key_gt_0_and_tn_ne_nil (Z.of_nat (length k)) (negb (is_empty tn)) =
    match k with [] => false | _ => negb (is_empty tn) end /\
  (Nat.eqb i 0 || negb (N.ltb (nlen enc) 32))%bool =
    trie__Trie_Prove__if_ok_or_i_eq_0
      (negb (trie__hasher_shortnodeToHash__if_len_enc_lt_32_and_not_force (Z.of_N (nlen enc)) false)) (Z.of_nat i).
Proof.
  split.
  - unfold trie__Trie_Prove__for_len_key_gt_0_and_tn_ne_nil. destruct k; [reflexivity|].
    replace (Z.of_nat (length (n :: k)) >? 0) with true; [reflexivity|].
    symmetry. apply Z.gtb_lt. cbn [length]. lia.
  - unfold trie__Trie_Prove__if_ok_or_i_eq_0, trie__hasher_shortnodeToHash__if_len_enc_lt_32_and_not_force.
    change 32 with (Z.of_N 32). rewrite ZofN_ltb. change 0 with (Z.of_nat 0). rewrite Zofnat_eqb.
    cbn [negb andb]. rewrite andb_true_r. apply orb_comm.
Qed.

Lemma src_proof_blobs (H : bytes -> bytes) n t :
  proof_blobs H false (n :: t) =
  if trie__Trie_Prove__if_ok_or_i_eq_0
       (negb (trie__hasher_shortnodeToHash__if_len_enc_lt_32_and_not_force (Z.of_N (nlen (proof_enc H n))) false)) 1
  then proof_enc H n :: proof_blobs H false t else proof_blobs H false t.
Proof.
  destruct (src_prove_guards [] Empty (proof_enc H n) 1) as [_ Hg]. change (Z.of_nat 1) with 1 in Hg.
  rewrite <- Hg. reflexivity.
Qed.

(* ------------------------------------------------------------------ proof.go: range proofs *)

Lemma src_cmp_guards c :
  trie__VerifyRangeProof__if_bytes_Compare_keys_at_i_keys_at_i_plus_1_ge_0 (cmp_int c) = negb (is_lt c) /\
  trie__VerifyRangeProof__if_bytes_Compare_firstKey_lastKey_ge_0 (cmp_int c) = negb (is_lt c) /\
  trie__unset__if_bytes_Compare_cld_Key_key_at_pos_lt_0 (cmp_int c) = is_lt c /\
  trie__unset__if_bytes_Compare_cld_Key_key_at_pos_gt_0 (cmp_int c) = is_gt c /\
  trie__hasRightElement__ret_bytes_Compare_rn_Key_key_at_pos_gt_0 (cmp_int c) = is_gt c /\
  trie__unsetInternal__let_shortForkLeft (cmp_int c) = cmp_int c /\
  trie__unsetInternal__let_shortForkRight (cmp_int c) = cmp_int c.
Proof. destruct c; repeat split; reflexivity. Qed.

(** the monotonicity scan of VerifyRangeProof is [increasing]: every adjacent pair (i from 0 while
    i < len(keys)-1) must not compare >= 0 *)
Lemma src_increasing a b t :
  increasing (a :: b :: t) =
  (negb (trie__VerifyRangeProof__if_bytes_Compare_keys_at_i_keys_at_i_plus_1_ge_0 (cmp_int (bcmp a b))) && increasing (b :: t))%bool.
Proof.
  destruct (src_cmp_guards (bcmp a b)) as (-> & _). rewrite negb_involutive. reflexivity.
Qed.

Lemma src_range_scan n i : (0 < n)%nat -> Z.of_nat n < 2 ^ 62 ->
  trie__VerifyRangeProof__forinit_i = 0 /\
  trie__VerifyRangeProof__for_i_lt_len_keys_minus_1 (Z.of_nat i) (Z.of_nat n) = Nat.ltb i (n - 1).
Proof.
  intros Hn Hl. split; [reflexivity|].
  unfold trie__VerifyRangeProof__for_i_lt_len_keys_minus_1, go_sub. rewrite wrap_id by (unfold in_range; lia).
  replace (Z.of_nat n - 1) with (Z.of_nat (n - 1)) by lia. apply Zofnat_ltb.
Qed.

Lemma src_range_guards (keys vals : list bytes) (v first last : bytes) x y :
  trie__VerifyRangeProof__if_len_keys_ne_len_values (Z.of_nat (length keys)) (Z.of_nat (length vals)) =
    negb (Nat.eqb (length keys) (length vals)) /\
  trie__VerifyRangeProof__if_len_value_eq_0 (Z.of_nat (length v)) = Nat.eqb (length v) 0 /\
  trie__VerifyRangeProof__if_len_keys_eq_0 (Z.of_nat (length keys)) = match keys with [] => true | _ => false end /\
  trie__VerifyRangeProof__if_len_keys_eq_1_and_bytes_Equal_firstKey_lastKey (Z.of_nat (length keys)) (beq first last) =
    match keys with [_] => beq first last | _ => false end /\
  trie__VerifyRangeProof__if_len_firstKey_ne_len_lastKey (Z.of_nat (length first)) (Z.of_nat (length last)) =
    negb (Nat.eqb (length first) (length last)) /\
  trie__VerifyRangeProof__if_val_ne_nil_or_hasRightElement_root_firstKey x y = (x || y)%bool /\
  trie__VerifyRangeProof__if_not_bytes_Equal_firstKey_keys_at_0 x = negb x /\
  trie__VerifyRangeProof__if_not_bytes_Equal_val_values_at_0 x = negb x /\
  trie__proofToPath__if_len_valnode_gt_0 (Z.of_nat (length v)) = match v with [] => false | _ => true end.
Proof.
  repeat split; try reflexivity.
  - unfold trie__VerifyRangeProof__if_len_keys_ne_len_values, go_neqb. rewrite Zofnat_eqb. reflexivity.
  - unfold trie__VerifyRangeProof__if_len_value_eq_0. change 0 with (Z.of_nat 0). apply Zofnat_eqb.
  - destruct keys; reflexivity.
  - destruct keys as [|k1 [|k2 t]]; try reflexivity.
    unfold trie__VerifyRangeProof__if_len_keys_eq_1_and_bytes_Equal_firstKey_lastKey.
    replace (Z.of_nat (length (k1 :: k2 :: t)) =? 1) with false; [reflexivity|].
    symmetry. apply Z.eqb_neq. cbn [length]. lia.
  - unfold trie__VerifyRangeProof__if_len_firstKey_ne_len_lastKey, go_neqb. rewrite Zofnat_eqb. reflexivity.
  - destruct v; reflexivity.
Qed.

(** unsetInternal at a short node: the two fork indicators are bytes.Compare of the (clipped) edge
    keys with the node key; the five scenarios are decided on them exactly as in [unset_internal] *)
Lemma src_fork_guards fl fr :
  trie__unsetInternal__if_shortForkLeft_ne_0_or_shortForkRight_ne_0 (cmp_int fl) (cmp_int fr) = negb (is_eq fl && is_eq fr) /\
  trie__unsetInternal__if_shortForkLeft_eq_minus_1_and_shortForkRight_eq_minus_1 (cmp_int fl) (cmp_int fr) = (is_lt fl && is_lt fr)%bool /\
  trie__unsetInternal__if_shortForkLeft_eq_1_and_shortForkRight_eq_1 (cmp_int fl) (cmp_int fr) = (is_gt fl && is_gt fr)%bool /\
  trie__unsetInternal__if_shortForkLeft_ne_0_and_shortForkRight_ne_0 (cmp_int fl) (cmp_int fr) = (negb (is_eq fl) && negb (is_eq fr))%bool /\
  trie__unsetInternal__if_shortForkRight_ne_0 (cmp_int fr) = negb (is_eq fr) /\
  trie__unsetInternal__if_shortForkLeft_ne_0 (cmp_int fl) = negb (is_eq fl).
Proof. destruct fl, fr; repeat split; reflexivity. Qed.

Lemma src_fork_clip total pos lnk (l : key) : (pos <= total)%nat -> Z.of_nat total < 2 ^ 62 ->
  trie__unsetInternal__if_len_left_minus_pos_lt_len_rn_Key (Z.of_nat total) (Z.of_nat pos) (Z.of_nat lnk) = Nat.ltb (total - pos) lnk /\
  trie__unsetInternal__if_len_right_minus_pos_lt_len_rn_Key (Z.of_nat total) (Z.of_nat pos) (Z.of_nat lnk) = Nat.ltb (total - pos) lnk /\
  (length l = (total - pos)%nat ->
   firstn lnk l = if Nat.ltb (total - pos) lnk then l else firstn lnk l).
Proof.
  intros Hp Ht.
  unfold trie__unsetInternal__if_len_left_minus_pos_lt_len_rn_Key, trie__unsetInternal__if_len_right_minus_pos_lt_len_rn_Key, go_sub.
  rewrite wrap_id by (unfold in_range; lia).
  replace (Z.of_nat total - Z.of_nat pos) with (Z.of_nat (total - pos)) by lia. rewrite Zofnat_ltb.
  repeat split. intros Hl. destruct (Nat.ltb_spec (total - pos) lnk); [|reflexivity].
  apply firstn_all2. lia.
Qed.

(** [clear_range lo hi] is "for i := lo; i < hi; i++ { Children[i] = nil }" *)
Lemma nth_error_combine_seq {A} (cs : list A) : forall s i c,
  nth_error cs i = Some c -> nth_error (combine (seq s (length cs)) cs) i = Some ((s + i)%nat, c).
Proof.
  induction cs as [|x cs IH]; intros s i c Hn; [destruct i; discriminate|].
  destruct i; cbn [length seq combine nth_error] in *.
  - inversion Hn; subst. rewrite Nat.add_0_r. reflexivity.
  - rewrite (IH (S s) i c Hn). f_equal. f_equal. lia.
Qed.

Lemma clear_range_nth lo hi cs i c : nth_error cs i = Some c ->
  nth_error (clear_range lo hi cs) i = Some (if (Nat.leb lo i && Nat.ltb i hi)%bool then Empty else c).
Proof.
  intros Hn. unfold clear_range. rewrite nth_error_map, (nth_error_combine_seq cs 0 i c Hn). reflexivity.
Qed.

(** the loop bounds of unsetInternal (left[pos]+1 .. right[pos]), unset (0 .. key[pos] and
    key[pos]+1 .. 16) and hasRightElement (key[pos]+1 .. 16), as the model's [clear_range] /
    [firstn (16 - S k0) (skipn (S k0) cs)] bounds *)
Lemma src_child_loops k0 r0 i : (k0 <= 16)%nat -> (r0 <= 16)%nat -> (i <= 17)%nat ->
  trie__unsetInternal__set_i (Z.of_nat k0) = Z.of_nat (S k0) /\
  trie__unsetInternal__for_i_lt_right_at_pos (Z.of_nat i) (Z.of_nat r0) = Nat.ltb i r0 /\
  trie__unset__forinit_i = 0 /\
  trie__unset__for_i_lt_int_key_at_pos (Z.of_nat i) (Z.of_nat k0) = Nat.ltb i k0 /\
  trie__unset__set_i (Z.of_nat k0) = Z.of_nat (S k0) /\
  trie__unset__for_i_lt_16 (Z.of_nat i) = Nat.ltb i 16 /\
  trie__hasRightElement__set_i (Z.of_nat k0) = Z.of_nat (S k0) /\
  trie__hasRightElement__for_i_lt_16 (Z.of_nat i) = Nat.ltb i 16 /\
  trie__unsetInternal__set_i_op (Z.of_nat i) = Z.of_nat (S i) /\
  trie__unset__set_i_op (Z.of_nat i) = Z.of_nat (S i) /\
  trie__unset__set_i_op_2 (Z.of_nat i) = Z.of_nat (S i) /\
  trie__hasRightElement__set_i_op (Z.of_nat i) = Z.of_nat (S i).
Proof.
  intros Hk Hr Hi.
  unfold trie__unsetInternal__set_i, trie__unset__set_i, trie__hasRightElement__set_i,
    trie__unsetInternal__set_i_op, trie__unset__set_i_op, trie__unset__set_i_op_2, trie__hasRightElement__set_i_op,
    trie__unset__for_i_lt_int_key_at_pos, trie__unset__for_i_lt_16, trie__hasRightElement__for_i_lt_16,
    trie__unsetInternal__for_i_lt_right_at_pos, go_add, go_conv.
  rewrite !wrap_id by (unfold in_range; lia).
  change 16 with (Z.of_nat 16). rewrite !Zofnat_ltb.
  repeat split; try reflexivity; lia.
Qed.

Lemma nth_error_firstn_lt {A} (l : list A) : forall n i, (i < n)%nat -> nth_error (firstn n l) i = nth_error l i.
Proof.
  induction l as [|x l IH]; intros n i Hi; [destruct n, i; reflexivity|].
  destruct n; [lia|]. destruct i; [reflexivity|]. cbn [firstn nth_error]. apply IH. lia.
Qed.
Lemma nth_error_skipn_add {A} (l : list A) : forall n i, nth_error (skipn n l) i = nth_error l (n + i).
Proof.
  induction l as [|x l IH]; intros n i; [destruct n, i; reflexivity|].
  destruct n; [reflexivity|]. cbn [skipn Nat.add nth_error]. apply IH.
Qed.

(** the children right of index k0 that hasRightElement inspects are exactly those at k0 < i < 16 *)
Lemma src_has_right_window (cs : list node) k0 c :
  In c (firstn (16 - S k0) (skipn (S k0) cs)) <-> exists i, (S k0 <= i < 16)%nat /\ nth_error cs i = Some c.
Proof.
  split.
  - intros Hin. apply In_nth_error in Hin as (j & Hj).
    assert (Hlt : (j < 16 - S k0)%nat).
    { pose proof (nth_error_Some (firstn (16 - S k0) (skipn (S k0) cs)) j) as Hs.
      rewrite Hj in Hs. assert (Hne : Some c <> None) by discriminate. apply Hs in Hne.
      rewrite firstn_length in Hne. lia. }
    rewrite nth_error_firstn_lt in Hj by exact Hlt. rewrite nth_error_skipn_add in Hj.
    exists (S k0 + j)%nat. split; [lia|exact Hj].
  - intros (i & Hi & Hn). apply (nth_error_In _ (i - S k0)).
    rewrite nth_error_firstn_lt by lia. rewrite nth_error_skipn_add.
    replace (S k0 + (i - S k0))%nat with i by lia. exact Hn.
Qed.

(* ------------------------------------------------------------------ stacktrie.go *)

Definition st_code (s : stn) : Z :=
  match s with
  | StNil | StEmpty => trie__emptyNode
  | StBranch _ => trie__branchNode
  | StExt _ _ => trie__extNode
  | StLeaf _ _ => trie__leafNode
  | StHashed _ => trie__hashedNode
  end.

Lemma src_stack_consts :
  trie__emptyNode = 0 /\ trie__branchNode = 1 /\ trie__extNode = 2 /\ trie__leafNode = 3 /\ trie__hashedNode = 4 /\
  trie__StackTrie_insert__put_st_nodeType = trie__branchNode /\
  trie__StackTrie_insert__put_st_children_at_0__nodeType = trie__branchNode /\
  trie__StackTrie_insert__put_st_nodeType_2 = trie__branchNode /\
  trie__StackTrie_insert__put_st_nodeType_3 = trie__extNode /\
  trie__StackTrie_insert__put_st_children_at_0__nodeType_2 = trie__branchNode /\
  trie__StackTrie_insert__put_st_nodeType_4 = trie__leafNode /\
  trie__StackTrie_hashRec__put_st_nodeType = trie__hashedNode /\
  trie__StackTrie_hashRec__put_st_nodeType_2 = trie__hashedNode.
Proof. repeat split; reflexivity. Qed.

(** the embedding rule of the stack trie: children and the node itself are kept inline iff shorter
    than 32 bytes; Hash() returns the value iff it is 32 bytes long *)
Lemma src_stack_lengths (H : bytes -> bytes) v :
  st_ref v = (if trie__StackTrie_hashRec__if_len_child_val_lt_32 (Z.of_N (nlen v)) then v else rlp_string v) /\
  st_ref v = (if trie__StackTrie_hashRec__if_len_st_children_at_0__val_lt_32 (Z.of_N (nlen v)) then v else rlp_string v) /\
  st_finish H v = (if trie__StackTrie_hashRec__if_len_encodedNode_lt_32 (Z.of_N (nlen v)) then v else H v) /\
  (let r := st_hash H (StHashed v) in
   st_root H (StHashed v) = if trie__StackTrie_Hash__if_len_st_val_eq_32 (Z.of_N (nlen r)) then r else H r).
Proof.
  unfold st_ref, st_finish, st_root, trie__StackTrie_hashRec__if_len_child_val_lt_32,
    trie__StackTrie_hashRec__if_len_st_children_at_0__val_lt_32, trie__StackTrie_hashRec__if_len_encodedNode_lt_32,
    trie__StackTrie_Hash__if_len_st_val_eq_32.
  change 32 with (Z.of_N 32). rewrite !ZofN_ltb, ZofN_eqb. repeat split; reflexivity.
Qed.

Lemma src_stack_insert_guards di lsk idx (v : bytes) c :
  trie__StackTrie_Update__if_len_value_eq_0 (Z.of_nat (length v)) = match v with [] => true | _ => false end /\
  ((idx <= 16)%nat -> trie__StackTrie_insert__let_idx (Z.of_nat idx) = Z.of_nat idx) /\
  trie__StackTrie_insert__if_diffidx_eq_len_st_key (Z.of_nat di) (Z.of_nat lsk) = Nat.eqb di lsk /\
  (Z.of_nat lsk < 2 ^ 62 ->
   trie__StackTrie_insert__if_diffidx_lt_len_st_key_minus_1 (Z.of_nat di) (Z.of_nat lsk) = Nat.ltb di (lsk - 1)) /\
  trie__StackTrie_insert__if_diffidx_eq_0 (Z.of_nat di) = Nat.eqb di 0 /\
  trie__StackTrie_insert__if_diffidx_eq_0_2 (Z.of_nat di) = Nat.eqb di 0 /\
  trie__StackTrie_insert__if_diffidx_ge_len_st_key (Z.of_nat di) (Z.of_nat lsk) = Nat.leb lsk di /\
  trie__StackTrie_insert__if_st_children_at_i__nodeType_ne_hashedNode (st_code c) =
    match c with StHashed _ => false | _ => true end /\
  ((0 < idx)%nat -> Z.of_nat idx < 2 ^ 62 -> trie__StackTrie_insert__set_i (Z.of_nat idx) = Z.of_nat (idx - 1)) /\
  trie__StackTrie_insert__for_i_ge_0 (Z.of_nat idx) = true.
Proof.
  repeat apply conj.
  - destruct v; reflexivity.
  - intros Hi. unfold trie__StackTrie_insert__let_idx, go_conv. apply wrap_id. unfold in_range. lia.
  - apply Zofnat_eqb.
  - intros Hl. unfold trie__StackTrie_insert__if_diffidx_lt_len_st_key_minus_1, go_sub.
    rewrite wrap_id by (unfold in_range; lia).
    destruct lsk as [|m].
    + cbn [Nat.sub]. destruct (Z.ltb_spec (Z.of_nat di) (Z.of_nat 0 - 1)), (Nat.ltb_spec di 0); auto; lia.
    + replace (Z.of_nat (S m) - 1) with (Z.of_nat (S m - 1)) by lia. apply Zofnat_ltb.
  - unfold trie__StackTrie_insert__if_diffidx_eq_0. change 0 with (Z.of_nat 0). apply Zofnat_eqb.
  - unfold trie__StackTrie_insert__if_diffidx_eq_0_2. change 0 with (Z.of_nat 0). apply Zofnat_eqb.
  - unfold trie__StackTrie_insert__if_diffidx_ge_len_st_key. rewrite Z.geb_leb. apply Zofnat_leb.
  - destruct c; reflexivity.
  - intros Hi Hl. unfold trie__StackTrie_insert__set_i, go_sub. rewrite wrap_id by (unfold in_range; lia). lia.
  - unfold trie__StackTrie_insert__for_i_ge_0. apply Z.geb_le. lia.
Qed.

(** getDiffIndex: the scan stops at the first differing nibble *)
Lemma src_diff_index x sk y k :
  diff_index (x :: sk) (y :: k) =
  if trie__StackTrie_getDiffIndex__if_nibble_ne_key_at_idx (Z.of_nat x) (Z.of_nat y) then Some 0%nat
  else match diff_index sk k with Some i => Some (S i) | None => None end.
Proof.
  cbn [diff_index]. unfold trie__StackTrie_getDiffIndex__if_nibble_ne_key_at_idx, go_neqb.
  rewrite Zofnat_eqb. destruct (Nat.eqb x y); reflexivity.
Qed.

(* ------------------------------------------------------------------ types/hashing.go *)

(** DeriveSha feeds the indices 1 .. min(n-1, 127), then 0 (if any), then 128 .. n-1 *)
Lemma src_derive_loops n i : Z.of_nat n < 2 ^ 62 ->
  (In i (seq 1 (Nat.min n 128 - 1)) <->
     (types__DeriveSha__forinit_i <= Z.of_nat i /\
      types__DeriveSha__for_i_lt_list_Len_and_i_le_0x7f (Z.of_nat i) (Z.of_nat n) = true)) /\
  Nat.ltb 0 n = types__DeriveSha__if_list_Len_gt_0 (Z.of_nat n) /\
  (In i (seq 128 (n - 128)) <->
     (types__DeriveSha__forinit_i_2 <= Z.of_nat i /\
      types__DeriveSha__for_i_lt_list_Len (Z.of_nat i) (Z.of_nat n) = true)) /\
  ((i <= n)%nat -> types__DeriveSha__set_i_op (Z.of_nat i) = Z.of_nat (S i)) /\
  ((i <= n)%nat -> types__DeriveSha__set_i_op_2 (Z.of_nat i) = Z.of_nat (S i)).
Proof.
  intros Hn.
  unfold types__DeriveSha__forinit_i, types__DeriveSha__forinit_i_2,
    types__DeriveSha__for_i_lt_list_Len_and_i_le_0x7f, types__DeriveSha__for_i_lt_list_Len,
    types__DeriveSha__if_list_Len_gt_0, types__DeriveSha__set_i_op, types__DeriveSha__set_i_op_2.
  split; [|split; [|split; [|split]]].
  - rewrite in_seq, andb_true_iff, Z.ltb_lt, Z.leb_le. lia.
  - rewrite Z.gtb_ltb. change 0 with (Z.of_nat 0). symmetry. apply Zofnat_ltb.
  - rewrite in_seq, Z.ltb_lt. lia.
  - intros Hi. unfold go_add. rewrite wrap_id by (unfold in_range; lia). lia.
  - intros Hi. unfold go_add. rewrite wrap_id by (unfold in_range; lia). lia.
Qed.

(* ------------------------------------------------------------------ iterator.go, Trie.hashRoot *)

(** seek (and the sibling skipping of nextChildAt) stop at the first node whose path compares >= the
    start prefix: the model's [iter_from] keeps exactly the leaves with that property; findChild
    scans all 17 child slots (the walk of the model visits the whole child list of a branch);
    Trie.hashRoot switches to the parallel hasher at 100 unhashed changes (the model has one
    hasher: the same function either way — exercised by the harness's bulk family) *)
Lemma src_iter_guards c i :
  trie__nodeIterator_seek__if_bytes_Compare_path_key_ge_0 (cmp_int c) = negb (is_lt c) /\
  trie__nodeIterator_nextChildAt__if_bytes_Compare_path_key_ge_0 (cmp_int c) = negb (is_lt c) /\
  trie__findChild__for_index_lt_len_n_Children (Z.of_nat i) = Nat.ltb i 17 /\
  (forall x, trie__Trie_hashRoot__arg_t_unhashed_ge_100 x = Z.geb x 100) /\
  trie__nodeIterator_seek__if_bytes_Compare_path_key_ge_0_atoms = ["bytes.Compare(path, key) : int"]%string /\
  trie__Trie_hashRoot__arg_t_unhashed_ge_100_atoms = ["t.unhashed : int"]%string.
Proof.
  split; [destruct c; reflexivity|]. split; [destruct c; reflexivity|]. split.
  - unfold trie__findChild__for_index_lt_len_n_Children. change 17 with (Z.of_nat 17). apply Zofnat_ltb.
  - split; [reflexivity|]. split; reflexivity.
Qed.

Lemma src_iter_from d root start :
  iter_from d root start =
  rbind (walk walk_fuel d root []) (fun l =>
    Ok (map (fun kv => (hex_to_keybytes (fst kv), snd kv))
            (filter (fun kv => trie__nodeIterator_seek__if_bytes_Compare_path_key_ge_0
                                 (cmp_int (kcmp (fst kv) (removelast (keybytes_to_hex start))))) l))).
Proof.
  unfold iter_from. destruct (walk walk_fuel d root []); cbn [rbind]; try reflexivity.
  f_equal. f_equal. apply filter_ext. intros kv.
  destruct (src_iter_guards (kcmp (fst kv) (removelast (keybytes_to_hex start))) 0) as (-> & _). reflexivity.
Qed.

(* ------------------------------------------------------------------ operands (what is compared) *)

Lemma src_atoms :
  trie__keybytesToHex__assign_atoms = ["b : byte"]%string /\
  trie__keybytesToHex__assign_2_atoms = ["b : byte"]%string /\
  trie__keybytesToHex__set_l_atoms = ["len(str) : int"]%string /\
  trie__hexToCompact__assign_atoms = ["terminator : byte"]%string /\
  trie__hexToCompact__if_hasTerm_hex_atoms = ["hasTerm(hex) : bool"]%string /\
  trie__hexToCompact__if_len_hex_band_1_eq_1_atoms = ["len(hex) : int"]%string /\
  trie__hexToCompact__assign_op_2_atoms = ["buf[0] : byte"; "hex[0] : byte"]%string /\
  trie__compactToHex__if_base_at_0_lt_2_atoms = ["base[0] : byte"]%string /\
  trie__compactToHex__set_chop_atoms = ["base[0] : byte"]%string /\
  trie__decodeNibbles__assign_atoms = ["nibbles[ni] : byte"; "nibbles[ni+1] : byte"]%string /\
  trie__hasTerm__ret_len_s_gt_0_and_s_at_len_s_minus_1_eq_16_atoms = ["len(s) : int"; "s[len(s)-1] : byte"]%string /\
  trie__hasher_shortnodeToHash__if_len_enc_lt_32_and_not_force_atoms = ["len(enc) : int"; "force : bool"]%string /\
  trie__hasher_fullnodeToHash__if_len_enc_lt_32_and_not_force_atoms = ["len(enc) : int"; "force : bool"]%string /\
  trie__decodeRef__set_size_atoms = ["len(buf) : int"; "len(rest) : int"]%string /\
  trie__decodeRef__if_size_gt_hashLen_atoms = ["size : int"]%string /\
  trie__decodeRef__case_kind_eq_rlp_String_and_len_val_eq_32_atoms =
    ["kind : github.com/kardiachain/go-kardia/lib/rlp.Kind"; "len(val) : int"]%string /\
  trie__decodeFull__if_len_val_gt_0_atoms = ["len(val) : int"]%string /\
  trie__Trie_Prove__if_ok_or_i_eq_0_atoms = ["ok : bool"; "i : int"]%string /\
  trie__Trie_Prove__for_len_key_gt_0_and_tn_ne_nil_atoms = ["len(key) : int"; "tn != nil : untyped bool"]%string /\
  trie__Trie_get__if_len_key_minus_pos_lt_len_n_Key_or_not_bytes_Equal_n_Key_key__2400f3c9_atoms =
    ["len(key) : int"; "pos : int"; "len(n.Key) : int"; "bytes.Equal(n.Key, key[pos:pos+len(n.Key)]) : bool"]%string /\
  trie__Trie_insert__let_matchlen_atoms = ["prefixLen(key, n.Key) : int"]%string /\
  trie__Trie_insert__if_matchlen_eq_len_n_Key_atoms = ["matchlen : int"; "len(n.Key) : int"]%string /\
  trie__Trie_delete__if_matchlen_eq_len_key_atoms = ["matchlen : int"; "len(key) : int"]%string /\
  trie__Trie_delete__if_pos_ne_16_atoms = ["pos : int"]%string /\
  trie__Trie_update__if_len_value_ne_0_atoms = ["len(value) : int"]%string /\
  trie__committer_commit__if_hash_ne_nil_and_not_dirty_atoms = ["hash != nil : bool"; "dirty : bool"]%string /\
  trie__New__if_id_Root_ne_common_Hash_and_id_Root_ne_types_EmptyRootHash_atoms =
    ["id.Root != (common.Hash{}) : untyped bool"; "id.Root != types.EmptyRootHash : untyped bool"]%string /\
  trie__VerifyRangeProof__if_len_keys_ne_len_values_atoms = ["len(keys) : int"; "len(values) : int"]%string /\
  trie__VerifyRangeProof__if_bytes_Compare_keys_at_i_keys_at_i_plus_1_ge_0_atoms = ["bytes.Compare(keys[i], keys[i+1]) : int"]%string /\
  trie__VerifyRangeProof__if_len_value_eq_0_atoms = ["len(value) : int"]%string /\
  trie__VerifyRangeProof__if_len_keys_eq_1_and_bytes_Equal_firstKey_lastKey_atoms = ["len(keys) : int"; "bytes.Equal(firstKey, lastKey) : bool"]%string /\
  trie__VerifyRangeProof__if_bytes_Compare_firstKey_lastKey_ge_0_atoms = ["bytes.Compare(firstKey, lastKey) : int"]%string /\
  trie__VerifyRangeProof__if_len_firstKey_ne_len_lastKey_atoms = ["len(firstKey) : int"; "len(lastKey) : int"]%string /\
  trie__VerifyRangeProof__if_val_ne_nil_or_hasRightElement_root_firstKey_atoms = ["val != nil : bool"; "hasRightElement(root, firstKey) : bool"]%string /\
  trie__VerifyRangeProof__if_tr_Hash_ne_rootHash_atoms = ["tr.Hash() != rootHash : untyped bool"]%string /\
  trie__unsetInternal__let_shortForkLeft_atoms = ["bytes.Compare(left[pos:], rn.Key) : int"]%string /\
  trie__unsetInternal__let_shortForkRight_atoms = ["bytes.Compare(right[pos:], rn.Key) : int"]%string /\
  trie__unsetInternal__set_i_atoms = ["left[pos] : byte"]%string /\
  trie__unsetInternal__for_i_lt_right_at_pos_atoms = ["i : byte"; "right[pos] : byte"]%string /\
  trie__unset__for_i_lt_int_key_at_pos_atoms = ["i : int"; "key[pos] : byte"]%string /\
  trie__unset__set_i_atoms = ["key[pos] : byte"]%string /\
  trie__unset__if_bytes_Compare_cld_Key_key_at_pos_lt_0_atoms = ["bytes.Compare(cld.Key, key[pos:]) : int"]%string /\
  trie__unset__if_bytes_Compare_cld_Key_key_at_pos_gt_0_atoms = ["bytes.Compare(cld.Key, key[pos:]) : int"]%string /\
  trie__hasRightElement__set_i_atoms = ["key[pos] : byte"]%string /\
  trie__hasRightElement__ret_bytes_Compare_rn_Key_key_at_pos_gt_0_atoms = ["bytes.Compare(rn.Key, key[pos:]) : int"]%string /\
  trie__proofToPath__if_len_valnode_gt_0_atoms = ["len(valnode) : int"]%string /\
  trie__StackTrie_Update__if_len_value_eq_0_atoms = ["len(value) : int"]%string /\
  trie__StackTrie_insert__if_diffidx_eq_len_st_key_atoms = ["diffidx : int"; "len(st.key) : int"]%string /\
  trie__StackTrie_insert__if_diffidx_lt_len_st_key_minus_1_atoms = ["diffidx : int"; "len(st.key) : int"]%string /\
  trie__StackTrie_insert__if_diffidx_ge_len_st_key_atoms = ["diffidx : int"; "len(st.key) : int"]%string /\
  trie__StackTrie_insert__if_st_children_at_i__nodeType_ne_hashedNode_atoms = ["st.children[i].nodeType : uint8"]%string /\
  trie__StackTrie_hashRec__if_len_child_val_lt_32_atoms = ["len(child.val) : int"]%string /\
  trie__StackTrie_hashRec__if_len_st_children_at_0__val_lt_32_atoms = ["len(st.children[0].val) : int"]%string /\
  trie__StackTrie_hashRec__if_len_encodedNode_lt_32_atoms = ["len(encodedNode) : int"]%string /\
  trie__StackTrie_Hash__if_len_st_val_eq_32_atoms = ["len(st.val) : int"]%string /\
  types__DeriveSha__for_i_lt_list_Len_and_i_le_0x7f_atoms = ["i : int"; "list.Len() : int"]%string /\
  types__DeriveSha__if_list_Len_gt_0_atoms = ["list.Len() : int"]%string /\
  types__DeriveSha__for_i_lt_list_Len_atoms = ["i : int"; "list.Len() : int"]%string.
Proof. split_all; reflexivity. Qed.


(** the conjunction of the statements above (each is stated next to its proof; [type of] quotes it) *)
Definition C07_source_tie_statement : Prop :=
  ltac:(let t := type of src_hex_nibbles in exact t) /\
  ltac:(let t := type of src_hex_length in exact t) /\
  ltac:(let t := type of src_hex_terminator in exact t) /\
  ltac:(let t := type of src_has_term in exact t) /\
  ltac:(let t := type of src_compact_flag in exact t) /\
  ltac:(let t := type of src_compact_odd in exact t) /\
  ltac:(let t := type of src_compact_first_byte in exact t) /\
  ltac:(let t := type of src_decode_nibbles_byte in exact t) /\
  ltac:(let t := type of src_decode_nibbles_loop in exact t) /\
  ltac:(let t := type of src_compact_to_hex in exact t) /\
  ltac:(let t := type of src_prefix_len_guards in exact t) /\
  ltac:(let t := type of src_prefix_len_step in exact t) /\
  ltac:(let t := type of src_finish in exact t) /\
  ltac:(let t := type of src_decode_ref in exact t) /\
  ltac:(let t := type of src_decode_ref_guards in exact t) /\
  ltac:(let t := type of src_decode_full_guards in exact t) /\
  ltac:(let t := type of src_short_mismatch in exact t) /\
  ltac:(let t := type of src_get_short in exact t) /\
  ltac:(let t := type of src_insert_delete_guards in exact t) /\
  ltac:(let t := type of src_insert_short in exact t) /\
  ltac:(let t := type of src_delete_pos in exact t) /\
  ltac:(let t := type of src_commit_guards in exact t) /\
  ltac:(let t := type of src_children_loop in exact t) /\
  ltac:(let t := type of src_prove_guards in exact t) /\
  ltac:(let t := type of src_proof_blobs in exact t) /\
  ltac:(let t := type of src_cmp_guards in exact t) /\
  ltac:(let t := type of src_increasing in exact t) /\
  ltac:(let t := type of src_range_scan in exact t) /\
  ltac:(let t := type of src_range_guards in exact t) /\
  ltac:(let t := type of src_fork_guards in exact t) /\
  ltac:(let t := type of src_fork_clip in exact t) /\
  ltac:(let t := type of clear_range_nth in exact t) /\
  ltac:(let t := type of src_child_loops in exact t) /\
  ltac:(let t := type of src_has_right_window in exact t) /\
  ltac:(let t := type of src_stack_consts in exact t) /\
  ltac:(let t := type of src_stack_lengths in exact t) /\
  ltac:(let t := type of src_stack_insert_guards in exact t) /\
  ltac:(let t := type of src_diff_index in exact t) /\
  ltac:(let t := type of src_derive_loops in exact t) /\
  ltac:(let t := type of src_iter_guards in exact t) /\
  ltac:(let t := type of src_iter_from in exact t) /\
  ltac:(let t := type of src_atoms in exact t).

Lemma C07_source_tie_proof : C07_source_tie_statement.
Proof.
  unfold C07_source_tie_statement.
  (* the operand table, the last conjunct, is itself a conjunction: its equations come out as
     goals of their own, after the 41 ties *)
  split_all;
  [ exact src_hex_nibbles
  | exact src_hex_length
  | exact src_hex_terminator
  | exact src_has_term
  | exact src_compact_flag
  | exact src_compact_odd
  | exact src_compact_first_byte
  | exact src_decode_nibbles_byte
  | exact src_decode_nibbles_loop
  | exact src_compact_to_hex
  | exact src_prefix_len_guards
  | exact src_prefix_len_step
  | exact src_finish
  | exact src_decode_ref
  | exact src_decode_ref_guards
  | exact src_decode_full_guards
  | exact src_short_mismatch
  | exact src_get_short
  | exact src_insert_delete_guards
  | exact src_insert_short
  | exact src_delete_pos
  | exact src_commit_guards
  | exact src_children_loop
  | exact src_prove_guards
  | exact src_proof_blobs
  | exact src_cmp_guards
  | exact src_increasing
  | exact src_range_scan
  | exact src_range_guards
  | exact src_fork_guards
  | exact src_fork_clip
  | exact (@clear_range_nth)
  | exact src_child_loops
  | exact src_has_right_window
  | exact src_stack_consts
  | exact src_stack_lengths
  | exact src_stack_insert_guards
  | exact src_diff_index
  | exact src_derive_loops
  | exact src_iter_guards
  | exact src_iter_from
  | reflexivity .. ].
Qed.
