(** C07 — the canonical form is unique (two canonical tries with the same content
    are equal up to their hash caches), and histories of updates/deletes refine a finite map. *)
From Coq Require Import List NArith Arith Bool Lia.
From Kardia Require Import C07.Model C07.ProofsBase C07.ProofsMap.
Import ListNotations.

(** forget the caches *)
Fixpoint erase (n : node) : node :=
  match n with
  | Short k c _ => Short k (erase c) newflag
  | Full cs _ => Full (map erase cs) newflag
  | _ => n
  end.

Lemma canon_has_key n : canon n -> n <> Empty -> exists k w, has n k w.
Proof.
  induction 1 as [|p v f Hp Hv|k cs g f Hk Hn Hc IH|cs f Hl Hch IH H16 Hcnt]; intros Hne.
  - congruence.
  - exists ((p ++ [16]) ++ []), v. constructor. constructor.
  - destruct IH as (k' & w & Hh); [discriminate|]. exists (k ++ k'), w. constructor; auto.
  - destruct (count_ne_pos cs) as (i & c & Hi & Hc); [lia|].
    destruct (branch_slot _ _ _ Hl Hi) as [->|Hlt].
    + destruct (H16 _ Hi) as [->|(v & Hv & ->)]; [congruence|].
      exists [16], v. econstructor; eauto. constructor.
    + destruct (IH i c Hi) as (k' & w & Hh); [lia|auto|].
      exists (i :: k'), w. econstructor; eauto.
Qed.

Lemma canon_no_keys n : canon n -> (forall k w, ~ has n k w) -> n = Empty.
Proof.
  intros Hc Hno. destruct n; auto; exfalso;
    (destruct (canon_has_key _ Hc) as (k' & w & Hh); [discriminate|eapply Hno; eauto]).
Qed.

(** a canonical branch has two keys that start with different nibbles *)
Lemma full_two_keys cs f : canon (Full cs f) ->
  exists i j ki kj wi wj, i <> j /\ has (Full cs f) (i :: ki) wi /\ has (Full cs f) (j :: kj) wj.
Proof.
  intros Hc. inversion Hc as [| | |cs0 f0 Hl Hch H16 Hcnt]; subst.
  destruct (count_ne_two cs Hcnt) as (i & j & ci & cj & Hij & Hi & Hj & Hci & Hcj).
  assert (Hkey : forall i c, nth_error cs i = Some c -> c <> Empty -> exists k w, has c k w).
  { intros i0 c Hn Hne. destruct (branch_slot _ _ _ Hl Hn) as [->|Hlt].
    - destruct (H16 _ Hn) as [->|(v & Hv & ->)]; [congruence|]. exists [], v. constructor.
    - apply canon_has_key; auto. apply (Hch i0); auto. }
  destruct (Hkey _ _ Hi Hci) as (ki & wi & Hhi). destruct (Hkey _ _ Hj Hcj) as (kj & wj & Hhj).
  exists i, j, ki, kj, wi, wj. repeat split; auto; econstructor; eauto.
Qed.

Lemma leaf_keys p v f k w : has (Short (p ++ [16]) (Value v) f) k w -> k = p ++ [16] /\ w = v.
Proof.
  intros Hh. apply has_short in Hh as (r & -> & Hr). apply has_value in Hr as [-> ->].
  rewrite app_nil_r. auto.
Qed.

Lemma shared_prefix_split (k' : key) : forall k i ki j kj r1 r2,
  k ++ i :: ki = k' ++ r1 -> k ++ j :: kj = k' ++ r2 -> i <> j -> exists t, k = k' ++ t.
Proof.
  induction k' as [|x k' IH]; intros k i ki j kj r1 r2 H1 H2 Hij; [exists k; auto|].
  destruct k as [|y k]; cbn in H1, H2.
  - inversion H1; inversion H2; congruence.
  - injection H1 as Ex E1. injection H2 as Ey E2. subst.
    destruct (IH _ _ _ _ _ _ _ E1 E2 Hij) as (t & ->). exists t. auto.
Qed.

Lemma map_ext_nth {A B} (f : A -> B) (l l' : list A) :
  length l = length l' ->
  (forall i x y, nth_error l i = Some x -> nth_error l' i = Some y -> f x = f y) ->
  map f l = map f l'.
Proof.
  revert l'; induction l as [|a l IH]; destruct l' as [|a' l']; cbn; intros Hl Hp; try discriminate; auto.
  f_equal.
  - apply (Hp 0); auto.
  - apply IH; [lia|]. intros i x y Hx Hy. apply (Hp (S i)); auto.
Qed.

Definition same_content (a b : node) : Prop := forall k w, has a k w <-> has b k w.

(** the shape of the root is determined by the content *)
Lemma ext_not_full k cs g f cs' f' :
  k <> [] -> canon (Full cs' f') -> same_content (Short k (Full cs g) f) (Full cs' f') -> False.
Proof.
  intros Hk Hc Hs. destruct (full_two_keys _ _ Hc) as (i & j & ki & kj & wi & wj & Hij & Hi & Hj).
  apply Hs in Hi, Hj. apply has_short in Hi as (r1 & E1 & _). apply has_short in Hj as (r2 & E2 & _).
  destruct k as [|x k]; [congruence|]. cbn in E1, E2. inversion E1; inversion E2; congruence.
Qed.

Lemma leaf_not_two p v f b k1 k2 w1 w2 :
  same_content (Short (p ++ [16]) (Value v) f) b -> has b k1 w1 -> has b k2 w2 -> k1 = k2.
Proof.
  intros Hs H1 H2. apply Hs in H1, H2. apply leaf_keys in H1 as [-> _]. apply leaf_keys in H2 as [-> _]. auto.
Qed.

Lemma canon_unique a : canon a -> forall b, canon b -> same_content a b -> erase a = erase b.
Proof.
  induction 1 as [|p v f Hp Hv|k cs g f Hk Hn Hc IH|cs f Hl Hch IH H16 Hcnt]; intros b Hb Hs.
  - assert (b = Empty) as ->; auto. apply canon_no_keys; auto. intros k w Hh. apply Hs in Hh. inversion Hh.
  - assert (Ha : has (Short (p ++ [16]) (Value v) f) ((p ++ [16]) ++ []) v) by (constructor; constructor).
    apply Hs in Ha. rewrite app_nil_r in Ha.
    destruct Hb as [|p' v' f' Hp' Hv'|k' cs' g' f' Hk' Hn' Hc'|cs' f' Hl' Hch' H16' Hcnt'].
    + inversion Ha.
    + apply leaf_keys in Ha as [E ->]. apply app_inj_tail in E as [-> _]. reflexivity.
    + exfalso. destruct (full_two_keys _ _ Hc') as (i & j & ki & kj & wi & wj & Hij & Hi & Hj).
      assert (k' ++ i :: ki = k' ++ j :: kj).
      { eapply (leaf_not_two p v f); eauto; constructor; eauto. }
      apply app_inv_head in H. inversion H; congruence.
    + exfalso. assert (Hcf : canon (Full cs' f')) by (constructor; auto).
      destruct (full_two_keys _ _ Hcf) as (i & j & ki & kj & wi & wj & Hij & Hi & Hj).
      assert (i :: ki = j :: kj) by (eapply (leaf_not_two p v f); eauto).
      inversion H; congruence.
  - destruct (full_two_keys _ _ Hc) as (i & j & ki & kj & wi & wj & Hij & Hi & Hj).
    assert (Hai : has (Short k (Full cs g) f) (k ++ i :: ki) wi) by (constructor; auto).
    assert (Haj : has (Short k (Full cs g) f) (k ++ j :: kj) wj) by (constructor; auto).
    destruct Hb as [|p' v' f' Hp' Hv'|k' cs' g' f' Hk' Hn' Hc'|cs' f' Hl' Hch' H16' Hcnt'].
    + apply Hs in Hai. inversion Hai.
    + exfalso. assert (Hs' : same_content (Short (p' ++ [16]) (Value v') f') (Short k (Full cs g) f))
        by (intros k0 w0; symmetry; apply Hs).
      assert (k ++ i :: ki = k ++ j :: kj) by (eapply (leaf_not_two p' v' f'); eauto).
      apply app_inv_head in H. inversion H; congruence.
    + (* same extension key *)
      pose proof Hai as Hbi. pose proof Haj as Hbj. apply Hs in Hbi, Hbj.
      apply has_short in Hbi as (r1 & E1 & _). apply has_short in Hbj as (r2 & E2 & _).
      destruct (shared_prefix_split k' k i ki j kj r1 r2 E1 E2 Hij) as (t & Et).
      destruct (full_two_keys _ _ Hc') as (i' & j' & ki' & kj' & wi' & wj' & Hij' & Hi' & Hj').
      assert (Hbi' : has (Short k' (Full cs' g') f') (k' ++ i' :: ki') wi') by (constructor; auto).
      assert (Hbj' : has (Short k' (Full cs' g') f') (k' ++ j' :: kj') wj') by (constructor; auto).
      apply Hs in Hbi', Hbj'.
      apply has_short in Hbi' as (r1' & E1' & _). apply has_short in Hbj' as (r2' & E2' & _).
      destruct (shared_prefix_split k k' i' ki' j' kj' r1' r2' E1' E2' Hij') as (t' & Et').
      assert (t = []) as ->.
      { rewrite Et' in Et. rewrite <- app_assoc in Et. rewrite <- (app_nil_r k) in Et at 1.
        apply app_inv_head in Et. symmetry in Et. apply app_eq_nil in Et. tauto. }
      rewrite app_nil_r in Et. subst k'.
      assert (Hsub : same_content (Full cs g) (Full cs' g')).
      { intros r w. rewrite <- (has_short_app k (Full cs g) f), <- (has_short_app k (Full cs' g') f'). apply Hs. }
      cbn [erase]. f_equal. apply (IH _ Hc' Hsub).
    + exfalso. eapply (ext_not_full k cs g f cs' f'); eauto. constructor; auto.
  - assert (Hca : canon (Full cs f)) by (constructor; auto).
    destruct (full_two_keys _ _ Hca) as (i & j & ki & kj & wi & wj & Hij & Hi & Hj).
    destruct Hb as [|p' v' f' Hp' Hv'|k' cs' g' f' Hk' Hn' Hc'|cs' f' Hl' Hch' H16' Hcnt'].
    + apply Hs in Hi. inversion Hi.
    + exfalso. assert (Hs' : same_content (Short (p' ++ [16]) (Value v') f') (Full cs f))
        by (intros k0 w0; symmetry; apply Hs).
      assert (i :: ki = j :: kj) by (eapply (leaf_not_two p' v' f'); eauto).
      inversion H; congruence.
    + exfalso. eapply (ext_not_full k' cs' g' f' cs f); eauto. intros k0 w0; symmetry; apply Hs.
    + cbn [erase]. f_equal. apply map_ext_nth; [congruence|].
      intros i0 c c' Hn0 Hn0'. pose proof (nth_error_some_lt _ _ _ Hn0) as Hlt. rewrite Hl in Hlt.
      assert (Hsub : same_content c c').
      { intros r w. rewrite <- (has_full_at cs f i0 c r w Hn0), <- (has_full_at cs' f' i0 c' r w Hn0'). apply Hs. }
      destruct (Nat.eq_dec i0 16) as [->|Hd].
      * destruct (H16 _ Hn0) as [->|(v & Hv & ->)], (H16' _ Hn0') as [->|(v' & Hv' & ->)]; auto.
        -- exfalso. assert (Hx : has (Value v') [] v') by constructor. apply Hsub in Hx. inversion Hx.
        -- exfalso. assert (Hx : has (Value v) [] v) by constructor. apply Hsub in Hx. inversion Hx.
        -- assert (Hx : has (Value v) [] v) by constructor. apply Hsub in Hx.
           apply has_value in Hx as [_ ->]. reflexivity.
      * apply (IH i0 c Hn0); [lia| |auto]. apply (Hch' i0); auto. lia.
Qed.

Lemma nibble_pair_inj a b :
  (a < 256)%N -> (b < 256)%N -> (a / 16 = b / 16)%N -> (a mod 16 = b mod 16)%N -> a = b.
Proof.
  intros Ha Hb Hd Hm. rewrite (N.div_mod a 16), (N.div_mod b 16) by lia. rewrite Hd, Hm. reflexivity.
Qed.

Lemma keybytes_to_hex_inj a : forall b, is_bytes a -> is_bytes b ->
  keybytes_to_hex a = keybytes_to_hex b -> a = b.
Proof.
  induction a as [|x a IH]; intros [|y b] Ha Hb E; cbn in E; auto.
  - inversion E.
  - inversion E.
  - inversion Ha; inversion Hb; subst. injection E as E1 E2 E3.
    apply N2Nat.inj in E1, E2. f_equal; auto. apply nibble_pair_inj; auto.
Qed.

(** map operations; an update with the empty value is a deletion *)
Inductive mop := MUpdate (k v : bytes) | MDelete (k : bytes).

Definition mop_key (o : mop) : bytes := match o with MUpdate k _ => k | MDelete k => k end.

Definition mupd (m : bytes -> bytes) (o : mop) : bytes -> bytes :=
  match o with
  | MUpdate k v => fun k' => if beq k' k then v else m k'
  | MDelete k => fun k' => if beq k' k then [] else m k'
  end.

Fixpoint content (m : bytes -> bytes) (ops : list mop) : bytes -> bytes :=
  match ops with [] => m | o :: t => content (mupd m o) t end.

Section WithDb.
Variable d : db.

Definition apply_op (n : node) (o : mop) : res node :=
  match o with
  | MUpdate k v => trie_update d n k v
  | MDelete k => trie_delete d n k
  end.

Fixpoint run (n : node) (ops : list mop) : res node :=
  match ops with [] => Ok n | o :: t => rbind (apply_op n o) (fun n' => run n' t) end.

(** the trie holds exactly the non-empty entries of the map [m] *)
Definition represents (m : bytes -> bytes) (n : node) : Prop :=
  canon n /\
  forall k w, has n k w <->
              exists kb, is_bytes kb /\ k = keybytes_to_hex kb /\ w = m kb /\ w <> [].

Lemma fuel_of_gt k : length k < fuel_of k.
Proof. unfold fuel_of. lia. Qed.

Lemma represents_delete m n kb : represents m n -> is_bytes kb ->
  exists n', trie_delete d n kb = Ok n' /\ represents (mupd m (MDelete kb)) n'.
Proof.
  intros [Hc Hr] Hkb. unfold trie_delete.
  destruct (delete_spec d _ n (keybytes_to_hex kb) Hc (keybytes_to_hex_wfk _ Hkb) (fuel_of_gt _))
    as (b & n' & Hd & Hc' & _ & _ & Hs).
  rewrite Hd. cbn. exists n'. split; auto. split; auto.
  intros k w. rewrite (Hs k w), Hr. cbn [mupd]. split.
  - intros [Hne (kb' & Hb' & -> & -> & Hw)]. exists kb'. repeat split; auto.
    destruct (beq kb' kb) eqn:E; auto. apply beq_eq in E. congruence.
  - intros (kb' & Hb' & -> & -> & Hw). destruct (beq kb' kb) eqn:E; [congruence|].
    split; [|eauto]. intros Heq. apply keybytes_to_hex_inj in Heq; auto. subst.
    rewrite beq_refl in E. discriminate.
Qed.

Lemma represents_update m n kb v : represents m n -> is_bytes kb ->
  exists n', trie_update d n kb v = Ok n' /\ represents (mupd m (MUpdate kb v)) n'.
Proof.
  intros Hrep Hkb. destruct v as [|v0 vt].
  - (* empty value deletes *)
    destruct (represents_delete m n kb Hrep Hkb) as (n' & Hd & Hr'). exists n'. split; auto.
  - destruct Hrep as [Hc Hr]. unfold trie_update.
    assert (Hv : v0 :: vt <> []) by discriminate.
    destruct (insert_spec d (v0 :: vt) Hv _ n (keybytes_to_hex kb) Hc (keybytes_to_hex_wfk _ Hkb) (fuel_of_gt _))
      as (b & n' & Hi & Hc' & _ & _ & _ & Hs).
    rewrite Hi. cbn [rbind snd]. exists n'. split; auto. split; auto.
    intros k w. rewrite (Hs k w), Hr. cbn [mupd]. split.
    + intros [[-> ->]|[Hne (kb' & Hb' & -> & -> & Hw)]].
      * exists kb. rewrite beq_refl. repeat split; auto.
      * exists kb'. repeat split; auto. destruct (beq kb' kb) eqn:E; auto. apply beq_eq in E. congruence.
    + intros (kb' & Hb' & -> & -> & Hw). destruct (beq kb' kb) eqn:E.
      * apply beq_eq in E. subst. auto.
      * right. split; [|eauto]. intros Heq. apply keybytes_to_hex_inj in Heq; auto. subst.
        rewrite beq_refl in E. discriminate.
Qed.

Lemma run_represents ops : forall m n,
  represents m n -> Forall (fun o => is_bytes (mop_key o)) ops ->
  exists n', run n ops = Ok n' /\ represents (content m ops) n'.
Proof.
  induction ops as [|o t IH]; intros m n Hrep Hk; cbn [run content]; eauto.
  inversion Hk as [|? ? Ho Ht]; subst.
  assert (Hstep : exists n1, apply_op n o = Ok n1 /\ represents (mupd m o) n1).
  { destruct o as [k v|k]; cbn [apply_op]; cbn in Ho.
    - apply represents_update; auto.
    - apply represents_delete; auto. }
  destruct Hstep as (n1 & Ha & Hr1). rewrite Ha. cbn [rbind]. apply IH; auto.
Qed.

Lemma represents_empty : represents (fun _ => []) Empty.
Proof.
  split; [constructor|]. intros k w. split; [inversion 1|]. intros (kb & _ & _ & -> & Hw). congruence.
Qed.

Lemma run_empty ops n : Forall (fun o => is_bytes (mop_key o)) ops -> run Empty ops = Ok n ->
  represents (content (fun _ => []) ops) n.
Proof.
  intros Hk Hr. destruct (run_represents ops _ _ represents_empty Hk) as (n1 & E & P).
  rewrite Hr in E. inversion E; subst. exact P.
Qed.

(** reading the map off the content relation *)
Lemma has_represents m n kb v : represents m n -> is_bytes kb ->
  has n (keybytes_to_hex kb) v -> v = m kb /\ v <> [].
Proof.
  intros [Hc Hr] Hkb Hh. apply Hr in Hh as (kb' & Hb' & Heq & -> & Hne).
  apply keybytes_to_hex_inj in Heq; auto. subst. auto.
Qed.

Lemma absent_represents m n kb : represents m n -> is_bytes kb ->
  (forall w, ~ has n (keybytes_to_hex kb) w) -> m kb = [].
Proof.
  intros [Hc Hr] Hkb Hno. destruct (m kb) eqn:E; auto. exfalso. apply (Hno (m kb)). apply Hr.
  exists kb. repeat split; auto. rewrite E. discriminate.
Qed.

Lemma get_ok_represents m n kb v : represents m n -> is_bytes kb ->
  get_ok n (keybytes_to_hex kb) v -> v = m kb.
Proof.
  intros Hrep Hkb [[-> Hno]|[Hv Hh]].
  - symmetry. eapply absent_represents; eauto.
  - eapply has_represents; eauto.
Qed.

Lemma represents_get m n kb : represents m n -> is_bytes kb -> trie_get d n kb = Ok (m kb, n).
Proof.
  intros Hrep Hkb. unfold trie_get.
  destruct (get_spec d _ n (keybytes_to_hex kb) (proj1 Hrep) (keybytes_to_hex_wfk _ Hkb) (fuel_of_gt _))
    as (v & Hg & Hok).
  rewrite Hg, (get_ok_represents m n kb v Hrep Hkb Hok). reflexivity.
Qed.

Lemma represents_unique m1 m2 n1 n2 :
  represents m1 n1 -> represents m2 n2 ->
  (forall kb, is_bytes kb -> m1 kb = m2 kb) -> erase n1 = erase n2.
Proof.
  intros [Hc1 Hr1] [Hc2 Hr2] Hm. apply canon_unique; auto.
  intros k w. rewrite Hr1, Hr2. split; intros (kb & Hb & -> & -> & Hw); exists kb;
    (split; [auto|split; [auto|split]]); rewrite ?Hm in *; auto; rewrite <- ?Hm; auto.
Qed.

End WithDb.
