(** C07 — the leaf iterator.  On a canonical (fully resolved) trie the
    walk of ModelRange.v — the order in which nodeIterator visits the leaves — yields every entry
    of the content exactly once, in strictly increasing path order (nibbles, terminator last), and
    [iter_from] yields exactly the entries whose path is not below the start prefix. *)
From Coq Require Import List NArith Arith Bool Lia.
From Kardia Require Import C07.Model C07.ModelRange C07.ProofsBase C07.ProofsCanon.
Import ListNotations.

Definition pf (p : key) (kv : key * bytes) : key * bytes := (p ++ fst kv, snd kv).

Fixpoint tag (i : nat) (ls : list (list (key * bytes))) : list (key * bytes) :=
  match ls with
  | [] => []
  | l :: t => map (pf [i]) l ++ tag (S i) t
  end.

Fixpoint leaves (n : node) : list (key * bytes) :=
  match n with
  | Empty => []
  | Value v => [([], v)]
  | Short k c _ => map (pf k) (leaves c)
  | Full cs _ => tag 0 (map leaves cs)
  | Ref _ => []
  end.

Fixpoint depth (n : node) : nat :=
  match n with
  | Short _ c _ => S (depth c)
  | Full cs _ => S (fold_right (fun c a => Nat.max (depth c) a) 0 cs)
  | _ => 0
  end.

Lemma depth_child cs i c : nth_error cs i = Some c ->
  depth c <= fold_right (fun c a => Nat.max (depth c) a) 0 cs.
Proof.
  revert i; induction cs as [|x cs IH]; intros [|i] Hn; cbn in *; try discriminate.
  - inversion Hn; subst. lia.
  - specialize (IH _ Hn). lia.
Qed.

Lemma pf_pf p q l : map (pf p) (map (pf q) l) = map (pf (p ++ q)) l.
Proof. rewrite map_map. apply map_ext. intros [k v]. unfold pf. cbn. rewrite app_assoc. reflexivity. Qed.

Lemma pf_nil l : map (pf []) l = l.
Proof. rewrite <- (map_id l) at 2. apply map_ext. intros [k v]. reflexivity. Qed.

Lemma In_tag ls : forall i k v,
  In (k, v) (tag i ls) <-> exists j l r, nth_error ls j = Some l /\ k = (i + j) :: r /\ In (r, v) l.
Proof.
  induction ls as [|l ls IH]; intros i k v; cbn [tag].
  - split; [intros []|]. intros (j & l & r & Hn & _). destruct j; discriminate.
  - rewrite in_app_iff, IH, in_map_iff. split.
    + intros [([r w] & E & Hin)|(j & l' & r & Hn & -> & Hin)].
      * unfold pf in E. cbn in E. inversion E; subst. exists 0, l, r. rewrite Nat.add_0_r. auto.
      * exists (S j), l', r. cbn. split; auto. split; auto. f_equal. lia.
    + intros ([|j] & l' & r & Hn & -> & Hin); cbn in Hn.
      * inversion Hn; subst. left. exists (r, v). rewrite Nat.add_0_r. auto.
      * right. exists j, l', r. split; auto. split; auto. f_equal. lia.
Qed.

Lemma walk_leaves d n : canon n -> forall fuel pre, depth n < fuel ->
  walk fuel d n pre = Ok (map (pf pre) (leaves n)).
Proof.
  induction 1 as [|p v f Hp Hv|k cs g f Hk Hn Hc IH|cs f Hl Hch IH H16 Hcnt]; intros fuel pre Hd.
  - destruct fuel; [cbn in Hd; lia|]. reflexivity.
  - destruct fuel as [|[|fuel]]; cbn in Hd; try lia. cbn [walk leaves map]. unfold pf. cbn.
    rewrite app_nil_r. reflexivity.
  - destruct fuel; [lia|]. cbn [walk leaves]. rewrite pf_pf. apply IH. cbn [depth] in Hd. cbn [depth]. lia.
  - destruct fuel; [lia|]. cbn [walk leaves depth] in *.
    assert (Hgo : forall l i,
      (forall j c, nth_error l j = Some c ->
                   walk fuel d c (pre ++ [i + j]) = Ok (map (pf (pre ++ [i + j])) (leaves c))) ->
      (fix go (l : list node) (i : nat) {struct l} : res (list (key * bytes)) :=
         match l with
         | [] => Ok []
         | c :: t => rbind (walk fuel d c (pre ++ [i])) (fun a => rbind (go t (S i)) (fun b => Ok (a ++ b)))
         end) l i = Ok (map (pf pre) (tag i (map leaves l)))).
    { induction l as [|c l IHl]; intros i Hw; [reflexivity|].
      pose proof (Hw 0 c eq_refl) as H0. rewrite Nat.add_0_r in H0. rewrite H0. cbn [rbind].
      rewrite IHl.
      - cbn [rbind map tag]. rewrite map_app, pf_pf. reflexivity.
      - intros j c' Hj. replace (S i + j) with (i + S j) by lia. apply (Hw (S j)). exact Hj. }
    apply Hgo. intros j c Hj. cbn [Nat.add].
    pose proof (nth_error_some_lt _ _ _ Hj) as Hlt. rewrite Hl in Hlt.
    pose proof (depth_child _ _ _ Hj) as Hdc.
    destruct (Nat.eq_dec j 16) as [->|Hne].
    + destruct (H16 _ Hj) as [->|(v & Hv & ->)].
      * destruct fuel; [lia|]. reflexivity.
      * destruct fuel; [lia|]. cbn [walk leaves map]. unfold pf. cbn [fst snd]. rewrite app_nil_r. reflexivity.
    + apply IH with (i := j); auto; lia.
Qed.

Lemma leaves_has n : canon n -> forall k v, In (k, v) (leaves n) <-> has n k v.
Proof.
  induction 1 as [|p v f Hp Hv|k cs g f Hk Hn Hc IH|cs f Hl Hch IH H16 Hcnt]; intros k' w.
  - cbn. rewrite has_empty. tauto.
  - cbn [leaves map In]. unfold pf. cbn. rewrite app_nil_r, has_short. split.
    + intros [E|[]]. inversion E; subst. exists []. rewrite app_nil_r. split; auto. constructor.
    + intros (r & -> & Hr). apply has_value in Hr as [-> ->]. rewrite app_nil_r. auto.
  - cbn [leaves]. rewrite in_map_iff, has_short. split.
    + intros ([r x] & E & Hin). unfold pf in E. cbn in E. inversion E; subst. exists r. split; auto. apply IH; auto.
    + intros (r & -> & Hr). exists (r, w). split; auto. apply IH; auto.
  - cbn [leaves]. rewrite In_tag, has_full. split.
    + intros (j & l & r & Hj & -> & Hin). rewrite nth_error_map in Hj.
      destruct (nth_error cs j) as [c|] eqn:Ec; [|discriminate]. inversion Hj; subst l.
      exists j, r, c. split; auto. split; auto.
      destruct (branch_slot _ _ _ Hl Ec) as [->|Hlt].
      * destruct (H16 _ Ec) as [->|(v & Hv & ->)]; cbn in Hin; [tauto|].
        destruct Hin as [E|[]]. inversion E; subst. constructor.
      * apply IH with (i := j); auto.
    + intros (j & r & c & -> & Ec & Hr). exists j, (leaves c), r. rewrite nth_error_map, Ec. split; auto. split; auto.
      destruct (branch_slot _ _ _ Hl Ec) as [->|Hlt].
      * destruct (H16 _ Ec) as [->|(v & Hv & ->)]; [apply has_empty in Hr; tauto|].
        apply has_value in Hr as [-> ->]. cbn. auto.
      * apply IH with (i := j); auto.
Qed.

Fixpoint ksorted (l : list key) : Prop :=
  match l with
  | [] => True
  | a :: t => Forall (fun b => kcmp a b = Lt) t /\ ksorted t
  end.

Lemma kcmp_app p a b : kcmp (p ++ a) (p ++ b) = kcmp a b.
Proof. induction p as [|x p IH]; cbn; auto. rewrite Nat.compare_refl. auto. Qed.

Lemma ksorted_app l1 l2 : ksorted l1 -> ksorted l2 ->
  (forall a b, In a l1 -> In b l2 -> kcmp a b = Lt) -> ksorted (l1 ++ l2).
Proof.
  induction l1 as [|x l1 IH]; cbn; auto. intros [Hf Hs] H2 Hlt. split.
  - apply Forall_app. split; auto. apply Forall_forall. intros b Hb. apply Hlt; auto.
  - apply IH; auto.
Qed.

Lemma ksorted_map_pf p l : ksorted (map fst l) -> ksorted (map fst (map (pf p) l)).
Proof.
  induction l as [|[k v] l IH]; cbn; auto. intros [Hf Hs]. split; auto.
  rewrite Forall_forall in *. intros b Hb. rewrite map_map in Hb. apply in_map_iff in Hb as ([k2 v2] & <- & Hin).
  cbn. rewrite kcmp_app. apply Hf. apply in_map_iff. exists (k2, v2). auto.
Qed.

Lemma tag_sorted ls : Forall (fun l => ksorted (map fst l)) ls -> forall i, ksorted (map fst (tag i ls)).
Proof.
  induction 1 as [|l ls Hl Hls IH]; intros i; [cbn; auto|]. cbn [tag].
  rewrite map_app. apply ksorted_app.
  - apply ksorted_map_pf; auto.
  - apply IH.
  - intros a b Ha Hb. apply in_map_iff in Ha as ([ka va] & <- & Ha). apply in_map_iff in Ha as ([r w] & E & _).
    apply in_map_iff in Hb as ([kb vb] & <- & Hb). apply In_tag in Hb as (j & l' & r' & _ & -> & _).
    unfold pf in E. cbn in E. inversion E; subst. cbn.
    match goal with |- context [Nat.compare ?a ?b] =>
      replace (Nat.compare a b) with Lt by (symmetry; apply Nat.compare_lt_iff; lia) end. reflexivity.
Qed.

Lemma leaves_sorted n : canon n -> ksorted (map fst (leaves n)).
Proof.
  induction 1 as [|p v f Hp Hv|k cs g f Hk Hn Hc IH|cs f Hl Hch IH H16 Hcnt].
  - cbn. auto.
  - cbn. split; auto.
  - cbn [leaves]. apply ksorted_map_pf; auto.
  - cbn [leaves]. apply tag_sorted. apply Forall_forall. intros l Hin.
    apply in_map_iff in Hin as (c & <- & Hc). apply In_nth_error in Hc as (j & Hj).
    destruct (branch_slot _ _ _ Hl Hj) as [->|Hlt].
    + destruct (H16 _ Hj) as [->|(v & Hv & ->)]; cbn; auto.
    + apply IH with (i := j); auto.
Qed.

Lemma fold_max_witness (cs : list node) :
  fold_right (fun c a => Nat.max (depth c) a) 0 cs = 0 \/
  exists i c, nth_error cs i = Some c /\ depth c = fold_right (fun c a => Nat.max (depth c) a) 0 cs /\ 0 < depth c.
Proof.
  induction cs as [|x cs IH]; cbn [fold_right]; [left; reflexivity|].
  destruct IH as [E|(i & c & Hi & Hd & Hp)].
  - rewrite E, Nat.max_0_r. destruct (depth x) eqn:Ex; [left; reflexivity|].
    right. exists 0, x. cbn. split; auto. split; lia.
  - destruct (Nat.max_spec (depth x) (fold_right (fun c a => Nat.max (depth c) a) 0 cs)) as [[Hlt ->]|[Hle ->]].
    + right. exists (S i), c. cbn. auto.
    + right. exists 0, x. cbn. split; auto. split; lia.
Qed.

(** a canonical trie is no deeper than its longest key *)
Lemma depth_key n : canon n -> n <> Empty -> exists k v, has n k v /\ depth n <= length k.
Proof.
  induction 1 as [|p v f Hp Hv|k cs g f Hk Hn Hc IH|cs f Hl Hch IH H16 Hcnt]; intros Hne.
  - congruence.
  - exists (p ++ [16]), v. split.
    + apply has_short. exists []. split; [rewrite app_nil_r; reflexivity|constructor].
    + cbn [depth]. rewrite app_length. cbn. lia.
  - destruct IH as (k' & v & Hh & Hd); [discriminate|]. exists (k ++ k'), v. split; [constructor; auto|].
    cbn [depth] in *. rewrite app_length. destruct k; [congruence|]. cbn [length]. lia.
  - cbn [depth]. destruct (fold_max_witness cs) as [E|(i & c & Hi & Hd & Hp)].
    + rewrite E. destruct (count_ne_pos cs) as (j & c & Hj & Hcne); [lia|].
      destruct (branch_slot _ _ _ Hl Hj) as [->|Hlt].
      * destruct (H16 _ Hj) as [->|(v & Hv & ->)]; [congruence|].
        exists [16], v. split; [econstructor; eauto; constructor|cbn; lia].
      * destruct (IH j c Hj ltac:(lia) Hcne) as (k' & v & Hh & _).
        exists (j :: k'), v. split; [econstructor; eauto|cbn; lia].
    + rewrite <- Hd. pose proof (nth_error_some_lt _ _ _ Hi) as Hlt. rewrite Hl in Hlt.
      assert (Hcne : c <> Empty) by (intros ->; cbn in Hp; lia).
      destruct (Nat.eq_dec i 16) as [->|Hne16].
      * destruct (H16 _ Hi) as [->|(v & Hv & ->)]; [congruence|]. cbn in Hp. lia.
      * destruct (IH i c Hi ltac:(lia) Hcne) as (k' & v & Hh & Hdk).
        exists (i :: k'), v. split; [econstructor; eauto|cbn [length]; lia].
Qed.

(** hence the trie of a map whose keys are shorter than 199 bytes is shallower than the walk fuel *)
Lemma represents_depth m n : represents m n ->
  (forall kb, m kb <> [] -> length kb < 199) -> depth n < walk_fuel.
Proof.
  intros [Hc Hr] Hb. destruct (is_empty n) eqn:E.
  - apply is_empty_true in E. subst. cbn. unfold walk_fuel. lia.
  - apply is_empty_false in E. destruct (depth_key n Hc E) as (k & v & Hh & Hd).
    apply Hr in Hh as (kb & Hkb & -> & -> & Hne). specialize (Hb kb Hne).
    pose proof (keybytes_to_hex_length kb) as Hl.
    unfold walk_fuel. lia.
Qed.

Lemma has_term_hex kb : has_term (keybytes_to_hex kb) = true.
Proof.
  unfold has_term. induction kb as [|b kb IH]; [reflexivity|].
  cbn [keybytes_to_hex rev]. destruct (rev (keybytes_to_hex kb)) as [|x l] eqn:E; [discriminate|].
  cbn. destruct l; cbn; exact IH.
Qed.

Lemma removelast_hex b kb :
  removelast (keybytes_to_hex (b :: kb)) =
  N.to_nat (b / 16)%N :: N.to_nat (b mod 16)%N :: removelast (keybytes_to_hex kb).
Proof.
  cbn [keybytes_to_hex]. destruct (keybytes_to_hex kb) as [|x l] eqn:E; [destruct kb; discriminate|].
  reflexivity.
Qed.

Lemma hex_to_keybytes_hex kb : is_bytes kb -> hex_to_keybytes (keybytes_to_hex kb) = kb.
Proof.
  intros Hb. unfold hex_to_keybytes. rewrite has_term_hex.
  induction Hb as [|b kb Hlt Hb IH]; [reflexivity|].
  rewrite removelast_hex. cbn [decode_nibbles]. rewrite IH. f_equal.
  rewrite Nat2N.inj_add, Nat2N.inj_mul, !N2Nat.id. change (N.of_nat 16) with 16%N.
  rewrite N.mul_comm. symmetry. rewrite N.mul_comm. apply N.div_mod. lia.
Qed.

Section WithDb.
Variable d : db.

(** the iterator, started at [start], yields the content entries whose path is not below the start
    prefix — each once, in strictly increasing path order *)
Lemma iter_from_represents m n start : represents m n -> depth n < walk_fuel ->
  exists l, iter_from d n start = Ok l /\
    ksorted (map (fun kv => keybytes_to_hex (fst kv)) l) /\
    forall kb v, is_bytes kb ->
      (In (kb, v) l <->
       v = m kb /\ v <> [] /\ kcmp (keybytes_to_hex kb) (removelast (keybytes_to_hex start)) <> Lt).
Proof.
  intros [Hc Hr] Hd. unfold iter_from. rewrite (walk_leaves d n Hc walk_fuel [] Hd), pf_nil. cbn [rbind].
  set (sk := removelast (keybytes_to_hex start)).
  set (keep := fun kv : key * bytes => negb (is_lt (kcmp (fst kv) sk))).
  eexists. split; [reflexivity|].
  assert (Hkeys : forall k v, In (k, v) (leaves n) -> exists kb, is_bytes kb /\ k = keybytes_to_hex kb /\ v = m kb /\ v <> []).
  { intros k v Hin. apply (leaves_has n Hc) in Hin. apply Hr in Hin. exact Hin. }
  split.
  - pose proof (leaves_sorted n Hc) as Hs.
    assert (Hsub : forall l, (forall k v, In (k, v) l -> exists kb, is_bytes kb /\ k = keybytes_to_hex kb /\ v = m kb /\ v <> []) ->
                   ksorted (map fst l) ->
                   ksorted (map (fun kv => keybytes_to_hex (fst kv))
                                (map (fun kv => (hex_to_keybytes (fst kv), snd kv)) (filter keep l)))).
    { induction l as [|[k v] l IHl]; intros Hk Hso; [cbn; auto|].
      cbn [map ksorted] in Hso. destruct Hso as [Hf Hso].
      assert (IH' := IHl (fun k0 v0 Hin => Hk k0 v0 (or_intror Hin)) Hso).
      cbn [filter]. destruct (keep (k, v)); [|exact IH'].
      cbn [map ksorted]. split; [|exact IH'].
      destruct (Hk k v (or_introl eq_refl)) as (kb & Hb & -> & _).
      cbn [fst]. rewrite hex_to_keybytes_hex by auto.
      apply Forall_forall. intros x Hx. rewrite map_map in Hx. apply in_map_iff in Hx as ([k2 v2] & <- & Hin2).
      apply filter_In in Hin2 as [Hin2 _]. cbn [fst].
      destruct (Hk k2 v2 (or_intror Hin2)) as (kb2 & Hb2 & -> & _).
      rewrite hex_to_keybytes_hex by auto.
      rewrite Forall_forall in Hf. apply Hf. apply in_map_iff. exists (keybytes_to_hex kb2, v2). auto. }
    apply Hsub; auto.
  - intros kb v Hb. rewrite in_map_iff. split.
    + intros ([k w] & E & Hin). cbn in E. inversion E; subst. apply filter_In in Hin as [Hin Hkeep].
      destruct (Hkeys _ _ Hin) as (kb' & Hb' & -> & -> & Hne).
      rewrite hex_to_keybytes_hex by auto. split; auto. split; auto.
      unfold keep in Hkeep. cbn [fst] in Hkeep. fold sk.
      destruct (kcmp (keybytes_to_hex kb') sk); cbn in Hkeep; congruence.
    + intros (-> & Hne & Hge). exists (keybytes_to_hex kb, m kb). cbn [fst snd].
      rewrite hex_to_keybytes_hex by auto. split; auto. apply filter_In. split.
      * apply (leaves_has n Hc). apply Hr. exists kb. auto.
      * unfold keep. cbn [fst]. fold sk in Hge. destruct (kcmp (keybytes_to_hex kb) sk); cbn; congruence.
Qed.

End WithDb.
