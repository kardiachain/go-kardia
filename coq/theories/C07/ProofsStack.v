(** C07 — the hashing half of the stack trie.  Whenever the stack trie's state is a view of a trie
    node (finished subtrees replaced by their collapsed value), StackTrie.Hash returns that node's
    root hash.  (That StackTrie.insert maintains such a view is ProofsStackIns.v.) *)
From Coq Require Import List ZArith NArith Arith Bool Lia.
From Kardia Require Import C07.Model C07.ProofsMap C07.ProofsCanon
     C07.ProofsCache C07.ProofsCodec.
Import ListNotations.

Section StnInd.
  Variable P : stn -> Prop.
  Hypothesis HN : P StNil.
  Hypothesis HE : P StEmpty.
  Hypothesis HL : forall k v, P (StLeaf k v).
  Hypothesis HX : forall k c, P c -> P (StExt k c).
  Hypothesis HB : forall cs, Forall P cs -> P (StBranch cs).
  Hypothesis HH : forall v, P (StHashed v).
  Fixpoint stn_ind' (s : stn) : P s :=
    match s with
    | StNil => HN
    | StEmpty => HE
    | StLeaf k v => HL k v
    | StExt k c => HX k c (stn_ind' c)
    | StBranch cs =>
      HB cs ((fix go (l : list stn) : Forall P l :=
                match l with
                | [] => Forall_nil P
                | c :: t => Forall_cons c (stn_ind' c) (go t)
                end) cs)
    | StHashed v => HH v
    end.
End StnInd.

Section Stack.
Variable H : bytes -> bytes.
Hypothesis Hlen : forall x, length (H x) = 32.

Definition is_node' (c : node) : Prop := match c with Short _ _ _ | Full _ _ => True | _ => False end.

(** the value a finished stack-trie node is replaced by: its encoding if shorter than 32 bytes,
    else the hash of the encoding *)
Definition sval (n : node) : bytes :=
  let e := cenc H n in if N.ltb (nlen e) 32 then e else H e.

(** [strel s n]: the stack-trie state [s] is a view of the trie node [n] *)
Fixpoint strel (s : stn) (n : node) {struct s} : Prop :=
  match s with
  | StNil => False
  | StEmpty => n = Empty
  | StLeaf k v => exists f, n = Short (k ++ [16]) (Value v) f
  | StExt k c => exists nf f, n = Short k nf f /\ is_node' nf /\ strel c nf
  | StBranch cs =>
    exists ncs f, n = Full (ncs ++ [Empty]) f /\
      (fix all (l : list stn) (nl : list node) {struct l} : Prop :=
         match l, nl with
         | [], [] => True
         | c :: t, x :: nt =>
           (match c with StNil => x = Empty | _ => is_node' x /\ strel c x end) /\ all t nt
         | _, _ => False
         end) cs ncs
  | StHashed val => is_node' n /\ val = sval n
  end.

Fixpoint all_rel (l : list stn) (nl : list node) : Prop :=
  match l, nl with
  | [], [] => True
  | c :: t, x :: nt =>
    (match c with StNil => x = Empty | _ => is_node' x /\ strel c x end) /\ all_rel t nt
  | _, _ => False
  end.

Lemma strel_branch cs n :
  strel (StBranch cs) n <-> exists ncs f, n = Full (ncs ++ [Empty]) f /\ all_rel cs ncs.
Proof.
  cbn [strel]. split; intros (ncs & f & E & Ha); exists ncs, f; split; auto; clear E;
    revert ncs Ha; induction cs as [|c t IH]; intros [|x nt]; cbn; auto; intros [A B]; split; auto.
Qed.

Lemma st_finish_sval n : st_finish H (cenc H n) = sval n.
Proof. reflexivity. Qed.

Lemma st_ref_sval n : is_node' n -> st_ref (sval n) = enc_href (hspec H n false).
Proof.
  intros Hn. assert (Hn2 : match n with Short _ _ _ | Full _ _ => True | _ => False end) by exact Hn.
  rewrite (hspec_cenc H n false Hn2). unfold sval, st_ref, finish.
  destruct (N.ltb (nlen (cenc H n)) 32) eqn:E; cbn [andb negb enc_href].
  - rewrite E. reflexivity.
  - rewrite (nlen_H H Hlen). reflexivity.
Qed.

(** hashRec computes the collapsed value of the node the state is a view of *)
Lemma st_hash_rel s : forall n, strel s n -> is_node' n -> st_hash H s = sval n.
Proof.
  induction s using stn_ind'; intros n Hr Hn.
  - destruct Hr.
  - cbn in Hr. subst n. destruct Hn.
  - destruct Hr as (f & ->). cbn [st_hash]. rewrite <- st_finish_sval. unfold cenc, short_enc.
    change (hspec H (Value v) false) with (HVal v). reflexivity.
  - destruct Hr as (nf & f & -> & Hnf & Hc). cbn [st_hash].
    rewrite (IHs nf Hc Hnf), (st_ref_sval nf Hnf), <- st_finish_sval. reflexivity.
  - apply strel_branch in Hr as (ncs & f & -> & Ha). cbn [st_hash].
    rewrite <- st_finish_sval. f_equal. rewrite cenc_full. f_equal. unfold full_payload.
    rewrite map_app, concat_app. cbn [map concat]. rewrite app_nil_r.
    change (enc_href (hspec H Empty false)) with [128%N]. f_equal.
    clear Hn. revert ncs Ha. induction cs as [|c t IHt]; intros [|x nt] Ha; cbn in Ha; try tauto; try reflexivity.
    destruct Ha as [Hc Ht]. inversion H0 as [|? ? Hpc Hpt]; subst. cbn [map concat]. f_equal; [|apply IHt; auto].
    destruct c; try (destruct Hc as [Hx Hcx]; rewrite (Hpc x Hcx Hx); apply st_ref_sval; exact Hx).
    subst x. reflexivity.
  - destruct Hr as [_ ->]. reflexivity.
Qed.

(** StackTrie.Hash on a view of [n] is the root hash of [n] *)
Theorem st_root_rel s n : strel s n -> is_node' n -> st_root H s = H (cenc H n).
Proof.
  intros Hr Hn. unfold st_root. rewrite (st_hash_rel s n Hr Hn). unfold sval.
  destruct (N.ltb_spec (nlen (cenc H n)) 32) as [Hl|Hl].
  - destruct (N.eqb_spec (nlen (cenc H n)) 32); [lia|reflexivity].
  - rewrite (nlen_H H Hlen). reflexivity.
Qed.

End Stack.
