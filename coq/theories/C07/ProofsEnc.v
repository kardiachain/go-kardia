(** C07 — the compact (hex-prefix) key encoding round-trips, hence is injective. *)
From Coq Require Import List ZArith NArith Arith Bool Lia.
From Kardia Require Import C07.Model C07.ProofsBase.
Import ListNotations.
Ltac Zify.zify_post_hook ::= Z.div_mod_to_equations.

Lemma nib_div a b : a < 16 -> b < 16 -> N.to_nat (N.of_nat (16 * a + b) / 16) = a.
Proof. intros Ha Hb. lia. Qed.

Lemma nib_mod a b : a < 16 -> b < 16 -> N.to_nat (N.of_nat (16 * a + b) mod 16) = b.
Proof.
  intros Ha Hb. replace (N.of_nat (16 * a + b)) with (N.of_nat b + N.of_nat a * 16)%N by lia.
  rewrite N.mod_add by lia. rewrite N.mod_small by lia. apply Nat2N.id.
Qed.

Lemma hex_decode_even : forall n q, length q = 2 * n -> nibs q ->
  keybytes_to_hex (decode_nibbles q) = q ++ [16].
Proof.
  induction n as [|n IH]; intros q Hl Hq.
  - destruct q; [reflexivity|discriminate].
  - destruct q as [|a [|b q]]; try (cbn in Hl; lia).
    inversion Hq as [|? ? Ha Hq1]; subst. inversion Hq1 as [|? ? Hb Hq2]; subst.
    cbn [decode_nibbles keybytes_to_hex]. rewrite nib_div, nib_mod by auto.
    rewrite IH; auto. cbn in Hl. lia.
Qed.

Lemma has_term_nibs k : nibs k -> has_term k = false.
Proof.
  intros Hk. unfold has_term. destruct (rev k) as [|x r] eqn:E; auto.
  assert (In x k) by (apply in_rev; rewrite E; left; auto).
  apply Nat.eqb_neq. unfold nibs in Hk. rewrite Forall_forall in Hk. specialize (Hk _ H). lia.
Qed.

Lemma has_term_snoc p : has_term (p ++ [16]) = true.
Proof. unfold has_term. rewrite rev_app_distr. reflexivity. Qed.

Lemma parity (q : key) : (exists n, length q = 2 * n /\ Nat.odd (length q) = false) \/
                         (exists n, length q = 2 * n + 1 /\ Nat.odd (length q) = true).
Proof.
  destruct (Nat.odd (length q)) eqn:E.
  - right. apply Nat.odd_spec in E. destruct E as (n & Hn). exists n. auto.
  - left. assert (Ev : Nat.even (length q) = true) by (rewrite <- Nat.negb_odd, E; reflexivity).
    apply Nat.even_spec in Ev. destruct Ev as (n & Hn). exists n. auto.
Qed.

(** core: flag [t] (0 = extension, 32 = leaf) and nibble list [p] *)
Definition compact_of (t : nat) (p : key) : bytes :=
  if Nat.odd (length p) then N.of_nat (t + 16 + hd 0 p) :: decode_nibbles (tl p)
  else N.of_nat t :: decode_nibbles p.

Lemma compact_of_nonempty t p : compact_of t p <> [].
Proof. unfold compact_of. destruct (Nat.odd (length p)); discriminate. Qed.

Lemma hex_compact_of t fl p : t = 16 * fl -> fl < 15 -> nibs p ->
  keybytes_to_hex (compact_of t p) =
  if Nat.odd (length p) then (fl + 1) :: p ++ [16] else fl :: 0 :: p ++ [16].
Proof.
  intros Ht Hfl Hp. unfold compact_of.
  destruct (parity p) as [(n & Hl & Ho)|(n & Hl & Ho)]; rewrite Ho.
  - cbn [keybytes_to_hex]. rewrite (hex_decode_even n) by auto.
    replace t with (16 * fl + 0) by lia. rewrite nib_div, nib_mod by lia. reflexivity.
  - destruct p as [|x q]; [cbn in Hl; lia|]. inversion Hp as [|? ? Hx Hq]; subst.
    cbn [hd tl keybytes_to_hex]. rewrite (hex_decode_even n) by (auto; cbn in Hl; lia).
    replace (16 * fl + 16 + x) with (16 * (fl + 1) + x) by lia.
    rewrite nib_div, nib_mod by lia. reflexivity.
Qed.

Lemma c2h_from_hex c f rest : c <> [] -> keybytes_to_hex c = f :: rest ->
  compact_to_hex c =
  skipn (2 - Nat.modulo f 2) (if Nat.ltb f 2 then removelast (f :: rest) else f :: rest).
Proof.
  intros Hc E. destruct c; [congruence|]. unfold compact_to_hex. rewrite E. reflexivity.
Qed.

Lemma compact_roundtrip k : (nibs k \/ wfk k) -> compact_to_hex (hex_to_compact k) = k.
Proof.
  intros [Hk|Hk].
  - unfold hex_to_compact. rewrite (has_term_nibs _ Hk).
    change (compact_to_hex (compact_of 0 k) = k).
    pose proof (hex_compact_of 0 0 k eq_refl ltac:(lia) Hk) as E.
    destruct (Nat.odd (length k)); cbn [Nat.add] in E.
    + rewrite (c2h_from_hex _ _ _ (compact_of_nonempty 0 k) E).
      replace (removelast (1 :: k ++ [16])) with (1 :: k)
        by (rewrite app_comm_cons, removelast_last; reflexivity).
      reflexivity.
    + rewrite (c2h_from_hex _ _ _ (compact_of_nonempty 0 k) E).
      replace (removelast (0 :: 0 :: k ++ [16])) with (0 :: 0 :: k)
        by (rewrite !app_comm_cons, removelast_last; reflexivity).
      reflexivity.
  - destruct (wfk_split _ Hk) as (p & -> & Hp).
    unfold hex_to_compact. rewrite has_term_snoc, removelast_last.
    change (compact_to_hex (compact_of 32 p) = p ++ [16]).
    pose proof (hex_compact_of 32 2 p eq_refl ltac:(lia) Hp) as E.
    destruct (Nat.odd (length p)); cbn [Nat.add] in E;
      rewrite (c2h_from_hex _ _ _ (compact_of_nonempty 32 p) E); reflexivity.
Qed.

Lemma compact_injective a b :
  (nibs a \/ wfk a) -> (nibs b \/ wfk b) -> hex_to_compact a = hex_to_compact b -> a = b.
Proof.
  intros Ha Hb E. rewrite <- (compact_roundtrip a Ha), <- (compact_roundtrip b Hb), E. reflexivity.
Qed.
