(** C07 — Merkle proofs.  VerifyProof against the root hash of a canonical trie,
    with the proof presented as a list of blobs that the verifier keys by their own hash,
    can only return what the trie holds — or a Keccak collision is exhibited. *)
From Coq Require Import List ZArith NArith Arith Bool Lia.
From Kardia Require Import C07.Model C07.ProofsBase C07.ProofsMap C07.ProofsCanon C07.ProofsEnc
     C07.ProofsCache C07.ProofsCodec C07.ProofsCommit C07.ProofsReopen.
Import ListNotations.

Lemma pget_short_eq nk c fl k :
  pget (Short nk c fl) k = if short_cond nk k then Ok ([], Empty) else pget c (skipn (length nk) k).
Proof. reflexivity. Qed.

Lemma pget_full_eq cs fl i kt :
  pget (Full cs fl) (i :: kt) = match nth_error cs i with Some c => pget c kt | None => Crash end.
Proof.
  cbn [pget]. revert i. induction cs as [|c cs IH]; intros [|i]; cbn [nth_error]; auto.
Qed.

(** [desc c k c' rest]: following key [k] from node [c] passes through node [c'] with [rest]
    of the key still to go *)
Inductive desc : node -> key -> node -> key -> Prop :=
| DRefl c k : desc c k c k
| DShort nk c f r c' rest : desc c r c' rest -> desc (Short nk c f) (nk ++ r) c' rest
| DFull cs f i kt c c' rest :
    nth_error cs i = Some c -> desc c kt c' rest -> desc (Full cs f) (i :: kt) c' rest.

Lemma desc_trans a ka b kb c kc : desc a ka b kb -> desc b kb c kc -> desc a ka c kc.
Proof. induction 1; intros Hd; auto; econstructor; eauto. Qed.

Section Proofs.
Variable H : bytes -> bytes.
Hypothesis Hlen : forall x, length (H x) = 32.

Lemma db_of_get blobs h b : db_get (db_of H blobs) h = Some b -> H b = h /\ In b blobs.
Proof.
  induction blobs as [|a blobs IH]; cbn [db_of map db_get]; [discriminate|].
  destruct (beq (H a) h) eqn:E.
  - intros X. inversion X; subst. apply beq_eq in E. split; [exact E|left; reflexivity].
  - intros X. destruct (IH X). split; [auto|right; auto].
Qed.

(** what proof.go's get (skipResolved) returns on a decoded node, in terms of the canonical
    node [c] it was decoded from; [lim] bounds the length of the remaining key *)
(** [lim] makes the remaining key shrink (termination of the complete verifier); the last conjunct
    says the node reached is hashed, hence among the blobs Prove emits *)
Definition pget_spec (c : node) (k : key) (lim : nat) (r : res (key * node)) : Prop :=
  match r with
  | Ok (rest, Empty) => forall w, ~ has c k w
  | Ok (rest, Value v) => has c k v
  | Ok (rest, Ref x) =>
    exists c', canon c' /\ is_node c' /\ sized c' /\ x = H (cenc H c') /\ wfk rest /\
               length rest < lim /\ (forall w, has c k w <-> has c' rest w) /\
               desc c k c' rest /\ (32 <= nlen (cenc H c'))%N
  | _ => False
  end.

Lemma pget_spec_transfer c k child r lim lim' res :
  (forall w, has c k w <-> has child r w) -> lim <= lim' ->
  (forall c' rest, desc child r c' rest -> desc c k c' rest) ->
  pget_spec child r lim res -> pget_spec c k lim' res.
Proof.
  intros Hiff Hl Hdesc. unfold pget_spec. destruct res as [[rest [|v|? ? ?|? ?|x]]| | |]; auto.
  - intros Hno w Hw. apply Hiff in Hw. eapply Hno; eauto.
  - intros Hh. apply Hiff; auto.
  - intros (c' & A1 & A2 & A3 & A4 & A5 & A6 & A7 & A8 & A9). exists c'.
    split; auto. split; auto. split; auto. split; auto. split; auto. split; [lia|].
    split; [|split; auto]. intros w. split.
    + intros Hw. apply A7, Hiff; auto.
    + intros Hw. apply Hiff, A7; auto.
Qed.

Lemma finish_hash_big e x : finish H e false = HHash x -> (32 <= nlen e)%N.
Proof.
  unfold finish. destruct (N.ltb_spec (nlen e) 32); cbn [andb negb]; [discriminate|auto].
Qed.

(** a child position: what the parent stores, walked with the remaining key [r] *)
Lemma pget_cref child r :
  wfk r \/ r = [] ->
  (child = Empty \/ (exists v, child = Value v /\ r = []) \/
   (canon child /\ child <> Empty /\ sized child /\ wfk r /\
    pget_spec child r (S (length r)) (pget (shallow H None child) r))) ->
  pget_spec child r (S (length r)) (pget (cref H child) r).
Proof.
  intros Hr [->|[(v & -> & ->)|(Hc & Hne & Hs & Hw & IH)]].
  - cbn. intros w Hw. inversion Hw.
  - cbn. constructor.
  - unfold cref. destruct (hspec_canon_cases H child Hc Hne) as [E|E]; rewrite E; [exact IH|].
    cbn [pget pget_spec]. exists child.
    split; auto. split; [apply canon_is_node; auto|]. split; auto. split; auto. split; auto.
    split; [lia|]. split; [tauto|]. split; [constructor|].
    rewrite (hspec_node H child Hc Hne) in E. eapply finish_hash_big; eauto.
Qed.

Lemma pget_shallow c : canon c -> sized c -> forall h k, wfk k ->
  pget_spec c k (length k) (pget (shallow H h c) k).
Proof.
  induction 1 as [|p v f Hp Hv|k0 cs g f Hk0 Hn Hc IH|cs f Hl Hch IH H16 Hcnt]; intros Hs h k Hk.
  - cbn. intros w Hw. inversion Hw.
  - rewrite shallow_short, pget_short_eq. destruct (short_cond (p ++ [16]) k) eqn:E.
    + cbn. apply short_cond_absent; auto.
    + apply short_cond_false in E as (r & ->).
      assert (r = []) as -> by (apply (wfk_prefix_eq (p ++ [16]) r); [apply wfk_snoc; auto | auto]).
      rewrite skipn_app_len. cbn. constructor. constructor.
  - inversion Hs as [| |? ? ? Hkl Hsc|]; subst.
    rewrite shallow_short, pget_short_eq. destruct (short_cond k0 k) eqn:E.
    + cbn. apply short_cond_absent; auto.
    + apply short_cond_false in E as (r & ->). rewrite skipn_app_len.
      assert (Hwr : wfk r) by (apply (wfk_app_inv k0); auto).
      apply (pget_spec_transfer _ _ (Full cs g) r (S (length r))).
      * intros w. apply has_short_app.
      * rewrite app_length. destruct k0; [congruence|cbn; lia].
      * intros c' rest Hd. constructor; auto.
      * apply pget_cref; auto. right. right. repeat split; auto; try discriminate.
        eapply (pget_spec_transfer _ _ (Full cs g) r (length r)); [tauto|lia|auto|]. apply IH; auto.
  - inversion Hs as [| | |? ? Hsc]; subst.
    destruct k as [|i kt]; [cbn in Hk; tauto|].
    rewrite shallow_full, pget_full_eq.
    assert (Hi17 : i <= 16) by (cbn in Hk; lia).
    destruct (nth_error_lt_some cs i) as (c & Hn); [lia|].
    rewrite (map_nth_error (cref H) _ _ Hn).
    assert (Hiff : forall w, has (Full cs f) (i :: kt) w <-> has c kt w) by (intros w; apply has_full_at; auto).
    apply (pget_spec_transfer _ _ c kt (S (length kt)) _ _ Hiff); [cbn; lia|intros c' rest Hd; econstructor; eauto|].
    cbn in Hk. destruct Hk as [[-> ->]|[Hi Hkt]].
    + apply pget_cref; auto. destruct (H16 _ Hn) as [->|(v & _ & ->)]; eauto.
    + apply pget_cref; auto. destruct (is_empty c) eqn:E.
      * apply is_empty_true in E. auto.
      * apply is_empty_false in E. right. right.
        assert (Hcc : canon c) by (eapply Hch; eauto).
        assert (Hsc' : sized c) by (apply Hsc; eapply nth_error_In; eauto).
        repeat split; auto.
        eapply (pget_spec_transfer _ _ c kt (length kt)); [tauto|lia|auto|]. apply (IH i c Hn Hi); auto.
Qed.

(** what VerifyProof may answer about key [k] below node [c]; [E]: what an error answer means *)
Definition vgood (E : Prop) (c : node) (k : key) (r : vres) : Prop :=
  match r with
  | VValue v => has c k v \/ collision H
  | VAbsent => (forall w, ~ has c k w) \/ collision H
  | _ => E
  end.

(** one round of the loop once the database has answered: the blob is the encoding of [c] (or a
    collision is at hand), decodes to its shallow copy, and the walk ends there or at a hashed
    descendant, where [rec] speaks for the remaining rounds *)
Lemma verify_found blobs f c k buf (E : Prop) :
  (collision H -> E) -> canon c -> is_node c -> sized c -> wfk k ->
  db_get (db_of H blobs) (H (cenc H c)) = Some buf ->
  (forall c' rest, canon c' -> is_node c' -> sized c' -> wfk rest -> length rest < length k ->
     desc c k c' rest -> (32 <= nlen (cenc H c'))%N ->
     vgood E c' rest (verify_loop f (db_of H blobs) (H (cenc H c')) rest)) ->
  vgood E c k (verify_loop (S f) (db_of H blobs) (H (cenc H c)) k).
Proof.
  intros HE Hc Hn Hs Hk Eg rec. cbn [verify_loop]. rewrite Eg. destruct (db_of_get _ _ _ Eg) as [Hh _].
  destruct (list_eq_dec N.eq_dec buf (cenc H c)) as [->|Hneq].
  - pose proof (cenc_nonempty H Hlen c Hc Hs Hn) as Hnn.
    destruct (cenc H c) as [|b0 bt] eqn:Eb; [congruence|]. rewrite <- Eb in *. clear Eb.
    rewrite (decode_cenc_exact H Hlen c _ Hc Hs Hn).
    pose proof (pget_shallow c Hc Hs (Some (H (cenc H c))) k Hk) as Hp.
    destruct (pget (shallow H (Some (H (cenc H c))) c) k) as [[rest [|v|? ? ?|? ?|x]]| | |]; cbn in Hp; try tauto;
      try (left; exact Hp).
    destruct Hp as (c' & A1 & A2 & A3 & -> & A5 & A6 & A7 & A8 & A9).
    specialize (rec c' rest A1 A2 A3 A5 A6 A8 A9).
    destruct (verify_loop f (db_of H blobs) (H (cenc H c')) rest); cbn [vgood] in *; auto.
    + destruct rec as [IH|C]; [left; apply A7; exact IH|right; exact C].
    + destruct rec as [IH|C]; [left; intros w Hw; apply A7 in Hw; eapply IH; eauto|right; exact C].
  - assert (Col : collision H) by (exists buf, (cenc H c); auto).
    destruct buf as [|b0 bt]; [exact (HE Col)|].
    destruct (match decode_node (length (b0 :: bt)) (Some (H (cenc H c))) (b0 :: bt) with
              | Some n => _ | None => _ end); cbn [vgood]; auto.
Qed.

(** soundness of VerifyProof: whatever the blobs *)
Lemma verify_sound blobs : forall fuel c k,
  canon c -> is_node c -> sized c -> wfk k ->
  vgood True c k (verify_loop fuel (db_of H blobs) (H (cenc H c)) k).
Proof.
  induction fuel as [|f IH]; intros c k Hc Hn Hs Hk; [exact I|].
  destruct (db_get (db_of H blobs) (H (cenc H c))) as [buf|] eqn:Eg.
  - eapply verify_found; eauto.
  - cbn [verify_loop]. rewrite Eg. exact I.
Qed.

Lemma db_of_in blobs e : In e blobs -> exists b, db_get (db_of H blobs) (H e) = Some b /\ H b = H e.
Proof.
  induction blobs as [|a blobs IH]; intros Hin; [destruct Hin|].
  cbn [db_of map db_get]. destruct (beq (H a) (H e)) eqn:E.
  - exists a. split; auto. apply beq_eq; auto.
  - destruct Hin as [->|Hin]; [rewrite beq_refl in E; discriminate|]. apply IH; auto.
Qed.

(** completeness: when the blobs hold the root and every hashed node on the path of [k0], an error
    answer means a collision *)
Lemma verify_complete blobs n0 k0 :
  (forall c' rest, desc n0 k0 c' rest -> is_node c' -> wfk rest ->
                   (c' = n0 \/ (32 <= nlen (cenc H c'))%N) -> In (cenc H c') blobs) ->
  forall fuel c k, desc n0 k0 c k -> (c = n0 \/ (32 <= nlen (cenc H c))%N) ->
  canon c -> is_node c -> sized c -> wfk k -> length k < fuel ->
  vgood (collision H) c k (verify_loop fuel (db_of H blobs) (H (cenc H c)) k).
Proof.
  intros Hcov. induction fuel as [|f IH]; intros c k Hd Hbig Hc Hn Hs Hk Hf; [lia|].
  destruct (db_of_in blobs (cenc H c) (Hcov c k Hd Hn Hk Hbig)) as (buf & Eg & _).
  eapply verify_found; eauto. intros c' rest A1 A2 A3 A5 A6 A8 A9.
  apply IH; auto; [eapply desc_trans; eauto|lia].
Qed.

(** the nodes Trie.Prove collects *)
Lemma prove_walk_nil f d c acc : prove_walk (S f) d c [] acc = Ok (rev acc).
Proof. reflexivity. Qed.

Lemma prove_walk_short f d nk c fl k0 kt acc :
  prove_walk (S f) d (Short nk c fl) (k0 :: kt) acc =
  if short_cond nk (k0 :: kt) then Ok (rev (Short nk c fl :: acc))
  else prove_walk f d c (skipn (length nk) (k0 :: kt)) (Short nk c fl :: acc).
Proof. reflexivity. Qed.

Lemma prove_walk_full f d cs fl k0 kt acc :
  prove_walk (S f) d (Full cs fl) (k0 :: kt) acc =
  match nth_error cs k0 with
  | None => Crash
  | Some c => prove_walk f d c kt (Full cs fl :: acc)
  end.
Proof. reflexivity. Qed.

Lemma desc_nil c c' rest : desc c [] c' rest -> rest = [].
Proof.
  intros Hd. remember [] as k eqn:Ek. induction Hd as [| nk c f r c' rest Hd IH | ]; auto.
  - apply app_eq_nil in Ek as [E1 E2]. subst. auto.
  - discriminate.
Qed.

Lemma prove_walk_spec d : forall fuel c k acc,
  (k = [] \/ (canon c /\ wfk k)) -> length k < fuel ->
  exists t, prove_walk fuel d c k acc = Ok (rev acc ++ t) /\
            (forall c' rest, desc c k c' rest -> is_node c' -> rest <> [] -> In c' t) /\
            (is_node c -> k <> [] -> exists t', t = c :: t').
Proof.
  induction fuel as [|f IH]; intros c k acc Hpre Hf; [lia|].
  destruct k as [|k0 kt].
  - exists []. rewrite prove_walk_nil, app_nil_r. split; auto. split; [|congruence].
    intros c' rest Hd _ Hne. apply desc_nil in Hd. congruence.
  - destruct Hpre as [X|[Hc Hk]]; [discriminate|].
    destruct c as [|v|nk c0 fl|cs fl|h]; try (inversion Hc; fail).
    + exists []. cbn. rewrite app_nil_r. split; auto. split; [|cbn; tauto].
      intros c' rest Hd Hn _. inversion Hd; subst. destruct Hn.
    + rewrite prove_walk_short. destruct (short_cond nk (k0 :: kt)) eqn:E.
      * exists [Short nk c0 fl]. split; [reflexivity|]. split; [|eauto].
        intros c' rest Hd Hn _. inversion Hd; subst; [left; auto|].
        match goal with X : _ = k0 :: kt |- _ => rewrite <- X in E end.
        rewrite (proj2 (short_cond_false nk (nk ++ r))) in E by eauto. discriminate.
      * apply short_cond_false in E as (r & Er). rewrite Er, skipn_app_len. rewrite Er in Hk, Hf.
        destruct (canon_short_child nk c0 fl r Hc Hk) as [Hnk Hchild].
        destruct (IH c0 r (Short nk c0 fl :: acc)) as (t & Ew & Hd & _); [destruct Hchild as [[-> _]|Hx]; auto| |].
        { rewrite app_length in Hf. destruct nk; [congruence|cbn in Hf; lia]. }
        rewrite Ew. cbn [rev]. rewrite <- app_assoc. exists (Short nk c0 fl :: t).
        split; [reflexivity|]. split; [|eauto].
        intros c' rest Hdd Hn Hne. inversion Hdd; subst; [left; auto|].
        right. match goal with X : _ ++ _ = _ ++ _ |- _ => apply app_inv_head in X; subst end. eapply Hd; eauto.
    + inversion Hc as [| | |? ? Hl Hch H16 Hcnt]; subst. rewrite prove_walk_full.
      assert (Hk0 : k0 <= 16) by (cbn in Hk; lia).
      destruct (nth_error_lt_some cs k0) as (c & Hnc); [lia|]. rewrite Hnc.
      destruct (IH c kt (Full cs fl :: acc)) as (t & Ew & Hd & _).
      { cbn in Hk. destruct Hk as [[-> ->]|[Hi Hkt]]; [left; auto|right; split; auto; eapply Hch; eauto]. }
      { cbn in Hf. lia. }
      rewrite Ew. cbn [rev]. rewrite <- app_assoc. exists (Full cs fl :: t).
      split; [reflexivity|]. split; [|eauto].
      intros c' rest Hdd Hn' Hne. inversion Hdd; subst; [left; auto|].
      right. match goal with X : nth_error cs k0 = Some _ |- _ => rewrite Hnc in X; inversion X; subst end.
      eapply Hd; eauto.
Qed.

Lemma proof_blobs_in t : forall first x, In x t -> (32 <= nlen (proof_enc H x))%N ->
  In (proof_enc H x) (proof_blobs H first t).
Proof.
  induction t as [|y t IH]; intros first x Hin Hbig; [destruct Hin|].
  cbn [proof_blobs]. destruct Hin as [->|Hin].
  - destruct (N.ltb_spec (nlen (proof_enc H x)) 32); [lia|]. rewrite orb_true_r. left; reflexivity.
  - destruct (first || negb (N.ltb (nlen (proof_enc H y)) 32)); [right|]; apply IH; auto.
Qed.

Lemma proof_enc_cenc root x : caches_ok H root x -> proof_enc H x = cenc H x.
Proof.
  intros Hok. destruct x as [| |k c f|cs f|]; try reflexivity.
  - apply caches_ok_short in Hok as (_ & _ & Hc). cbn [proof_enc cenc].
    destruct (hash_node_ok H c false Hc) as (E & _). rewrite E. reflexivity.
  - apply caches_ok_full in Hok as (_ & _ & Hc). cbn [proof_enc cenc]. f_equal.
    apply all_ok_forall in Hc. rewrite Forall_forall in Hc. apply map_ext_in. intros c Hin.
    destruct (hash_node_ok H c false (Hc c Hin)) as (E & _). exact E.
Qed.

Lemma desc_caches c k c' rest : desc c k c' rest -> forall root, caches_ok H root c ->
  exists root', caches_ok H root' c'.
Proof.
  induction 1 as [c k|nk c f r c' rest Hd IH|cs f i kt c c' rest Hn Hd IH]; intros root Hok; eauto.
  - apply caches_ok_short in Hok as (_ & _ & Hc). eauto.
  - apply caches_ok_full in Hok as (_ & _ & Hc). eapply IH. eapply all_ok_nth; eauto.
Qed.

End Proofs.

Section ProofTop.
Variable H : bytes -> bytes.
Hypothesis Hlen : forall x, length (H x) = 32.

Lemma root_hash_eq n : canon n -> n <> Empty -> caches_ok H true n ->
  fst (trie_hash H n) = H (cenc H n).
Proof.
  intros Hc Hne Hok. rewrite (trie_hash_eq H n Hne). cbn [fst].
  destruct (hash_node_ok H n true Hok) as (A & _). rewrite A.
  rewrite (hspec_cenc H n true (canon_is_node n Hc Hne)), finish_forced. reflexivity.
Qed.

(** soundness: whatever list of blobs is presented, VerifyProof against the root of the trie
    returns a value only if it is the stored one, and "absent" only if the key is absent —
    or a collision is exhibited *)
Theorem proof_sound m n kb blobs :
  represents m n -> caches_ok H true n -> bounded m -> n <> Empty -> is_bytes kb ->
  match verify_proof H (fst (trie_hash H n)) kb blobs with
  | VValue v => (v = m kb /\ v <> []) \/ collision H
  | VAbsent => m kb = [] \/ collision H
  | _ => True
  end.
Proof.
  intros Hrep Hok Hb Hne Hkb. pose proof Hrep as [Hc _].
  rewrite (root_hash_eq n Hc Hne Hok). unfold verify_proof.
  pose proof (verify_sound H Hlen blobs (length blobs + length (keybytes_to_hex kb) + 2) n
                (keybytes_to_hex kb) Hc (canon_is_node n Hc Hne) (represents_sized H Hlen m n Hrep Hb)
                (keybytes_to_hex_wfk _ Hkb)) as Hv.
  destruct (verify_loop _ _ _ _); auto.
  - destruct Hv as [Hv|C]; [left; eapply has_represents; eauto|right; exact C].
  - destruct Hv as [Hv|C]; [left; eapply absent_represents; eauto|right; exact C].
Qed.

(** completeness: the proof Trie.Prove builds verifies to exactly the stored value / absence *)
Theorem proof_complete d m n kb :
  represents m n -> caches_ok H true n -> bounded m -> n <> Empty -> is_bytes kb ->
  exists blobs, prove H d n kb = Ok blobs /\
    (verify_proof H (fst (trie_hash H n)) kb blobs =
       match m kb with [] => VAbsent | _ => VValue (m kb) end \/ collision H).
Proof.
  intros Hrep Hok Hb Hne Hkb. pose proof Hrep as [Hc _].
  pose proof (keybytes_to_hex_wfk _ Hkb) as Hw.
  pose proof (canon_is_node n Hc Hne) as Hn.
  pose proof (represents_sized H Hlen m n Hrep Hb) as Hs.
  destruct (prove_walk_spec d (fuel_of (keybytes_to_hex kb)) n (keybytes_to_hex kb) [])
    as (t & Ew & Hdesc & Hhead); [right; auto|apply fuel_of_gt|].
  destruct Hhead as (t' & ->); [auto|destruct (keybytes_to_hex kb); [cbn in Hw; tauto|discriminate]|].
  exists (proof_blobs H true (n :: t')). split.
  { unfold prove. rewrite Ew. reflexivity. }
  rewrite (root_hash_eq n Hc Hne Hok). unfold verify_proof.
  set (blobs := proof_blobs H true (n :: t')).
  assert (Hcov : forall c' rest, desc n (keybytes_to_hex kb) c' rest -> is_node c' -> wfk rest ->
                   (c' = n \/ (32 <= nlen (cenc H c'))%N) -> In (cenc H c') blobs).
  { intros c' rest Hd Hn' Hwr Hbig.
    destruct (desc_caches H _ _ _ _ Hd true Hok) as (root' & Hok').
    rewrite <- (proof_enc_cenc H root' c' Hok') in *.
    destruct Hbig as [->|Hbig].
    - unfold blobs. cbn [proof_blobs orb]. left; reflexivity.
    - apply proof_blobs_in; auto. apply (Hdesc c' rest); auto. destruct rest; [cbn in Hwr; tauto|discriminate]. }
  pose proof (verify_complete H Hlen blobs n (keybytes_to_hex kb) Hcov
                (length blobs + length (keybytes_to_hex kb) + 2) n (keybytes_to_hex kb)
                (DRefl _ _) (or_introl eq_refl) Hc Hn Hs Hw ltac:(lia)) as Hv.
  destruct (verify_loop _ _ _ _); try (right; exact Hv).
  - destruct Hv as [Hv|C]; [|right; exact C]. left.
    destruct (has_represents m n kb v Hrep Hkb Hv) as [-> Hne']. destruct (m kb); [congruence|reflexivity].
  - destruct Hv as [Hv|C]; [|right; exact C]. left.
    rewrite (absent_represents m n kb Hrep Hkb Hv). reflexivity.
Qed.

End ProofTop.
