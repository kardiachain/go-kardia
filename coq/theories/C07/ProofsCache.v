(** C07 — the hash caches ([nodeFlag.hash]) written by hasher.hash and kept by insert / delete are
    always the hashes the hasher would compute from scratch; therefore intermediate Hash() calls never
    change a later root.  Also here: [erase] respects the content relation and the canonical form, and
    the histories with Hash() in between ([hop], [hrun]) with their invariant. *)
From Coq Require Import List NArith Arith Bool Lia.
From Kardia Require Import C07.Model C07.ProofsBase C07.ProofsMap C07.ProofsCanon.
Import ListNotations.

(** nested induction principle for [node] *)
Section NodeInd.
  Variable P : node -> Prop.
  Hypothesis HE : P Empty.
  Hypothesis HV : forall v, P (Value v).
  Hypothesis HS : forall k c f, P c -> P (Short k c f).
  Hypothesis HF : forall cs f, Forall P cs -> P (Full cs f).
  Hypothesis HR : forall h, P (Ref h).
  Fixpoint node_ind' (n : node) : P n :=
    match n with
    | Empty => HE
    | Value v => HV v
    | Short k c f => HS k c f (node_ind' c)
    | Full cs f =>
      HF cs f ((fix go (l : list node) : Forall P l :=
                  match l with
                  | [] => Forall_nil P
                  | c :: t => Forall_cons c (node_ind' c) (go t)
                  end) cs)
    | Ref h => HR h
    end.
End NodeInd.

Section WithHash.
Variable H : bytes -> bytes.

(** the hash computed from scratch *)
Definition hspec (n : node) (force : bool) : href := fst (hash_node H (erase n) force).

Definition href_opt (r : href) : option bytes := match r with HHash h => Some h | _ => None end.

(** [exact root n]: the whole subtree is flagged exactly as a complete hashing pass leaves it
    (a node carries its hash iff its encoding is hashed, i.e. not embedded) *)
Fixpoint exact (root : bool) (n : node) {struct n} : Prop :=
  match n with
  | Short k c f => fhash f = href_opt (hspec n root) /\ exact false c
  | Full cs f =>
    fhash f = href_opt (hspec n root) /\
    (fix all (l : list node) : Prop :=
       match l with [] => True | c :: t => exact false c /\ all t end) cs
  | _ => True
  end.

Fixpoint all_exact (l : list node) : Prop :=
  match l with [] => True | c :: t => exact false c /\ all_exact t end.

Lemma exact_full root cs f :
  exact root (Full cs f) <-> fhash f = href_opt (hspec (Full cs f) root) /\ all_exact cs.
Proof.
  cbn [exact]. split; intros [H1 H2]; split; auto; clear H1;
    induction cs as [|c t IH]; cbn in *; auto; destruct H2; split; auto.
Qed.

Lemma exact_short root k c f :
  exact root (Short k c f) <-> fhash f = href_opt (hspec (Short k c f) root) /\ exact false c.
Proof. reflexivity. Qed.

(** the cache invariant: every node is dirty (nothing below has been written to the database
    yet); every cached hash below (and at) [n] is the from-scratch hash of its node and the
    subtree under a node that carries a hash is completely flagged; [root] tells whether [n]
    itself sits at the root (hashed with force) or inside a parent *)
Fixpoint caches_ok (root : bool) (n : node) {struct n} : Prop :=
  match n with
  | Short k c f =>
    fdirty f = true /\
    (forall h, fhash f = Some h -> HHash h = hspec n root /\ exact false c) /\ caches_ok false c
  | Full cs f =>
    fdirty f = true /\
    (forall h, fhash f = Some h -> HHash h = hspec n root /\ all_exact cs) /\
    (fix all (l : list node) : Prop :=
       match l with [] => True | c :: t => caches_ok false c /\ all t end) cs
  | _ => True
  end.

Fixpoint all_ok (l : list node) : Prop :=
  match l with [] => True | c :: t => caches_ok false c /\ all_ok t end.

Lemma caches_ok_full root cs f :
  caches_ok root (Full cs f) <->
  fdirty f = true /\
  (forall h, fhash f = Some h -> HHash h = hspec (Full cs f) root /\ all_exact cs) /\ all_ok cs.
Proof.
  cbn [caches_ok]. split; intros (H0 & H1 & H2); (split; [auto|split; [auto|]]); clear H0 H1;
    induction cs as [|c t IH]; cbn in *; auto; destruct H2; split; auto.
Qed.

Lemma caches_ok_short root k c f :
  caches_ok root (Short k c f) <->
  fdirty f = true /\
  (forall h, fhash f = Some h -> HHash h = hspec (Short k c f) root /\ exact false c) /\
  caches_ok false c.
Proof. reflexivity. Qed.

Lemma all_ok_forall l : all_ok l <-> Forall (caches_ok false) l.
Proof.
  induction l as [|c t IH]; cbn; split; auto.
  - intros [H1 H2]. constructor; auto. apply IH; auto.
  - intros Hf. inversion Hf; subst. split; auto. apply IH; auto.
Qed.

Lemma all_exact_forall l : all_exact l <-> Forall (exact false) l.
Proof.
  induction l as [|c t IH]; cbn; split; auto.
  - intros [H1 H2]. constructor; auto. apply IH; auto.
  - intros Hf. inversion Hf; subst. split; auto. apply IH; auto.
Qed.

(** a freshly built node (Trie.newFlag) is fine in any position if its children are *)
Lemma caches_ok_fresh_short root k c : caches_ok false c -> caches_ok root (Short k c newflag).
Proof. intros Hc. apply caches_ok_short. split; [reflexivity|]. split; auto. cbn. discriminate. Qed.

Lemma caches_ok_fresh_full root cs : all_ok cs -> caches_ok root (Full cs newflag).
Proof. intros Hc. apply caches_ok_full. split; [reflexivity|]. split; auto. cbn. discriminate. Qed.

Lemma caches_ok_leaf root n : (match n with Short _ _ _ | Full _ _ => False | _ => True end) -> caches_ok root n.
Proof. destruct n; cbn; tauto. Qed.

Lemma erase_idem n : erase (erase n) = erase n.
Proof.
  induction n using node_ind'; cbn [erase]; auto.
  - rewrite IHn. reflexivity.
  - f_equal. rewrite map_map. apply map_ext_in. intros c Hc.
    rewrite Forall_forall in H0. auto.
Qed.

Lemma hspec_erase n force : hspec (erase n) force = hspec n force.
Proof. unfold hspec. rewrite erase_idem. reflexivity. Qed.

Lemma hspec_short k c f force :
  hspec (Short k c f) force = finish H (short_enc k (hspec c false)) force.
Proof. reflexivity. Qed.

Lemma hspec_full cs f force :
  hspec (Full cs f) force = finish H (full_enc (map (fun c => hspec c false) cs)) force.
Proof.
  unfold hspec. cbn [erase hash_node fhash newflag fst]. rewrite !map_map. reflexivity.
Qed.

Lemma flag_after_some r fl h : fhash (flag_after r fl) = Some h -> r = HHash h.
Proof. destruct r; cbn; intros E; inversion E; auto. Qed.

Lemma flag_after_hash r fl : fhash (flag_after r fl) = href_opt r.
Proof. destruct r; reflexivity. Qed.

Lemma flag_after_dirty r fl : fdirty (flag_after r fl) = fdirty fl.
Proof. destruct r; reflexivity. Qed.

(** hashing computes the from-scratch hash, keeps the content, leaves correct caches, and
    flags the whole subtree *)
Lemma hash_node_ok4 n : forall root, caches_ok root n ->
  fst (hash_node H n root) = hspec n root /\
  erase (snd (hash_node H n root)) = erase n /\
  caches_ok root (snd (hash_node H n root)) /\
  exact root (snd (hash_node H n root)).
Proof.
  induction n using node_ind'; intros root Hok.
  - cbn. auto.
  - cbn. auto.
  - apply caches_ok_short in Hok as (Hd & Hown & Hc). cbn [hash_node].
    destruct (fhash f) as [h|] eqn:Ef.
    + cbn [fst snd]. destruct (Hown h eq_refl) as [E1 E2].
      split; [exact E1|]. split; auto.
      split; [apply caches_ok_short; rewrite Ef; auto|].
      apply exact_short. rewrite Ef, <- E1. auto.
    + destruct (IHn false Hc) as (E1 & E2 & E3 & E4). cbn [fst snd].
      rewrite E1.
      assert (Eh : hspec (Short k (snd (hash_node H n false))
                            (flag_after (finish H (short_enc k (hspec n false)) root) f)) root
                   = finish H (short_enc k (hspec n false)) root).
      { rewrite hspec_short.
        replace (hspec (snd (hash_node H n false)) false) with (hspec n false)
          by (unfold hspec; rewrite E2; reflexivity).
        reflexivity. }
      split; [symmetry; apply hspec_short|]. split; [cbn [erase]; rewrite E2; reflexivity|].
      split.
      * apply caches_ok_short. split; [rewrite flag_after_dirty; auto|]. split; auto.
        intros h Hh. apply flag_after_some in Hh. rewrite Eh, Hh. auto.
      * apply exact_short. rewrite Eh, flag_after_hash. auto.
  - apply caches_ok_full in Hok as (Hd & Hown & Hc). cbn [hash_node].
    destruct (fhash f) as [h|] eqn:Ef.
    + cbn [fst snd]. destruct (Hown h eq_refl) as [E1 E2].
      split; [exact E1|]. split; auto.
      split; [apply caches_ok_full; rewrite Ef; auto|].
      apply exact_full. rewrite Ef, <- E1. auto.
    + cbn [fst snd]. rewrite !map_map.
      apply all_ok_forall in Hc. rewrite Forall_forall in H0, Hc.
      assert (Hch : forall c, In c cs -> _) by (intros c Hin; exact (H0 c Hin false (Hc c Hin))).
      assert (E1 : map (fun c => fst (hash_node H c false)) cs = map (fun c => hspec c false) cs).
      { apply map_ext_in. intros c Hin. destruct (Hch c Hin) as (E & _). auto. }
      assert (E2 : map (fun c => hspec (snd (hash_node H c false)) false) cs = map (fun c => hspec c false) cs).
      { apply map_ext_in. intros c Hin. destruct (Hch c Hin) as (_ & E & _).
        unfold hspec. rewrite E. reflexivity. }
      rewrite E1.
      assert (Eh : hspec (Full (map (fun c => snd (hash_node H c false)) cs)
                            (flag_after (finish H (full_enc (map (fun c => hspec c false) cs)) root) f)) root
                   = finish H (full_enc (map (fun c => hspec c false) cs)) root).
      { rewrite hspec_full, map_map, E2. reflexivity. }
      split; [symmetry; apply hspec_full|].
      split.
      { cbn [erase]. f_equal. rewrite !map_map. apply map_ext_in. intros c Hin.
        destruct (Hch c Hin) as (_ & E & _). auto. }
      split.
      * apply caches_ok_full. split; [rewrite flag_after_dirty; auto|]. split.
        -- intros h Hh. apply flag_after_some in Hh. rewrite Eh, Hh. split; auto.
           apply all_exact_forall, Forall_forall. intros c' Hin. apply in_map_iff in Hin as (c & <- & Hin).
           destruct (Hch c Hin) as (_ & _ & _ & E). auto.
        -- apply all_ok_forall, Forall_forall. intros c' Hin. apply in_map_iff in Hin as (c & <- & Hin).
           destruct (Hch c Hin) as (_ & _ & E & _). auto.
      * apply exact_full. rewrite Eh, flag_after_hash. split; auto.
        apply all_exact_forall, Forall_forall. intros c' Hin. apply in_map_iff in Hin as (c & <- & Hin).
        destruct (Hch c Hin) as (_ & _ & _ & E). auto.
  - cbn. auto.
Qed.

Lemma hash_node_ok n root : caches_ok root n ->
  fst (hash_node H n root) = hspec n root /\
  erase (snd (hash_node H n root)) = erase n /\
  caches_ok root (snd (hash_node H n root)).
Proof. intros Hok. destruct (hash_node_ok4 n root Hok) as (A & B & C & _). auto. Qed.

Lemma all_ok_set_nth cs i c : all_ok cs -> caches_ok false c -> all_ok (set_nth i c cs).
Proof.
  revert i; induction cs as [|h t IH]; intros [|i] Ha Hc; cbn in *; auto; destruct Ha; split; auto.
Qed.

Lemma all_ok_nth cs i c : all_ok cs -> nth_error cs i = Some c -> caches_ok false c.
Proof.
  revert i; induction cs as [|h t IH]; intros [|i] Ha Hn; cbn in *; try discriminate; destruct Ha.
  - inversion Hn; subst; auto.
  - eauto.
Qed.

Lemma all_ok_empty : all_ok empty_children.
Proof. cbn. tauto. Qed.

Lemma caches_ok_leafn rest x : caches_ok false x -> caches_ok false (leafn rest x).
Proof. intros Hx. destruct rest; cbn [leafn]; auto. apply (caches_ok_fresh_short false); auto. Qed.

Lemma caches_ok_any_of_fresh n : caches_ok false n ->
  (match n with Short _ _ f | Full _ f => fhash f = None | _ => True end) ->
  forall root, caches_ok root n.
Proof.
  intros Hn Hf root. destruct n; auto.
  - apply caches_ok_short in Hn as (Hd & _ & Hc). apply caches_ok_short. split; auto. split; auto.
    rewrite Hf. discriminate.
  - apply caches_ok_full in Hn as (Hd & _ & Hc). apply caches_ok_full. split; auto. split; auto.
    rewrite Hf. discriminate.
Qed.

(** no hash node anywhere: nothing is resolved from the database (whose nodes come back clean) *)
Inductive resolved : node -> Prop :=
| ResE : resolved Empty
| ResV v : resolved (Value v)
| ResS k c f : resolved c -> resolved (Short k c f)
| ResF cs f : Forall resolved cs -> resolved (Full cs f).

Lemma canon_resolved n : canon n -> resolved n.
Proof.
  induction 1 as [|p v f Hp Hv|k cs g f Hk Hn Hc IH|cs f Hl Hch IH H16 Hcnt];
    [constructor|repeat constructor|constructor; exact IH|constructor].
  apply Forall_forall. intros c Hin. destruct (In_nth_error _ _ Hin) as (i & Hi).
  destruct (branch_slot _ _ _ Hl Hi) as [->|Hlt]; [|eauto].
  destruct (H16 _ Hi) as [->|(v & _ & ->)]; constructor.
Qed.

Lemma Forall_nth_error {A} (P : A -> Prop) l i x : Forall P l -> nth_error l i = Some x -> P x.
Proof. intros Hf Hn. rewrite Forall_forall in Hf. eauto using nth_error_In. Qed.

Section WithDb.
Variable d : db.

(** the result of an insert/delete is either the old node or a node with a fresh flag; the flags
    alone decide this, whatever the key *)
Definition fresh_or_same (b : bool) (n n' : node) : Prop :=
  (b = false /\ n' = n) \/
  (b = true /\ caches_ok false n' /\
   match n' with Short _ _ f | Full _ f => fhash f = None | _ => True end).

Lemma fresh_or_same_ok b n n' root : fresh_or_same b n n' -> caches_ok root n -> caches_ok root n'.
Proof.
  intros [[_ ->]|(_ & Hc & Hf)] Hn; auto. apply caches_ok_any_of_fresh; auto.
Qed.

Lemma fresh_short n k c : caches_ok false c -> fresh_or_same true n (Short k c newflag).
Proof. intros Hc. right. split; auto. split; [apply caches_ok_fresh_short; auto|reflexivity]. Qed.

Lemma fresh_full n cs : all_ok cs -> fresh_or_same true n (Full cs newflag).
Proof. intros Hc. right. split; auto. split; [apply caches_ok_fresh_full; auto|reflexivity]. Qed.

Lemma insert_caches (v : bytes) : forall fuel n k b n' root, resolved n ->
  insert fuel d n k (Value v) = Ok (b, n') -> caches_ok root n -> fresh_or_same b n n'.
Proof.
  induction fuel as [|f IH]; intros n k b n' root Hres Hi Hok; [discriminate|].
  (* what a recursive call returns can be put under a fresh node *)
  assert (IHc : forall c k1 b1 n1, resolved c -> caches_ok false c ->
                  insert f d c k1 (Value v) = Ok (b1, n1) -> caches_ok false n1)
    by (intros c k1 b1 n1 Hr0 Hc0 E0; exact (fresh_or_same_ok _ _ _ false (IH _ _ _ _ false Hr0 E0 Hc0) Hc0)).
  destruct k as [|k0 kt].
  { (* the key ends here *)
    rewrite insert_nil_eq in Hi.
    destruct n as [|v0| | |]; inversion Hi; subst; try (right; cbn; auto; fail).
    destruct (beq v0 v) eqn:E; [left; apply beq_eq in E; subst; auto|right; cbn; auto]. }
  destruct Hres as [|v0|nk c fl Hc|cs fl Hcs].
  - cbn in Hi. inversion Hi; subst. apply fresh_short. exact I.
  - discriminate.
  - apply caches_ok_short in Hok as (_ & _ & Hokc). rewrite insert_short_eq in Hi. cbv zeta in Hi.
    destruct (Nat.eqb _ (length nk)).
    + apply rbind_ok in Hi as ([b1 n1] & E1 & Hi). cbn [fst snd] in Hi.
      pose proof (IHc _ _ _ _ Hc Hokc E1) as Hn1.
      destruct b1; inversion Hi; subst; [apply fresh_short; auto|left; auto].
    + destruct (nth_error nk _) as [oi|]; [|discriminate].
      destruct (nth_error (k0 :: kt) _) as [ni|]; [|discriminate].
      assert (Hb : forall x, fresh_or_same true x
                (Full (set_nth ni (leafn (skipn (S (prefix_len (k0 :: kt) nk)) (k0 :: kt)) (Value v))
                         (set_nth oi (leafn (skipn (S (prefix_len (k0 :: kt) nk)) nk) c) empty_children)) newflag)).
      { intros x. apply fresh_full. apply all_ok_set_nth; [apply all_ok_set_nth|]; auto using all_ok_empty, caches_ok_leafn.
        apply caches_ok_leafn. exact I. }
      destruct (Nat.eqb _ 0); inversion Hi; subst; [apply Hb|].
      apply fresh_short. destruct (Hb Empty) as [[X _]|(_ & Hx & _)]; [discriminate|exact Hx].
  - apply caches_ok_full in Hok as (_ & _ & Hokc). rewrite insert_full_eq in Hi.
    destruct (nth_error cs k0) as [c|] eqn:Hnc; [|discriminate].
    pose proof (all_ok_nth _ _ _ Hokc Hnc) as Hcc.
    apply rbind_ok in Hi as ([b1 n1] & E1 & Hi). cbn [fst snd] in Hi.
    pose proof (IHc _ _ _ _ (Forall_nth_error _ _ _ _ Hcs Hnc) Hcc E1) as Hn1.
    destruct b1; inversion Hi; subst; [apply fresh_full, all_ok_set_nth; auto|left; auto].
Qed.

(** the reduction of a branch that lost a child leaves a fresh node *)
Lemma collapse_caches cs k0 nn b n' :
  all_ok (set_nth k0 nn cs) -> Forall resolved cs -> collapse d (set_nth k0 nn cs) nn = Ok (b, n') ->
  fresh_or_same true (Full cs newflag) n' /\ b = true.
Proof.
  intros Ha Hcs Hco. unfold collapse in Hco. set (cs' := set_nth k0 nn cs) in *.
  destruct (is_empty nn) eqn:En; cbn [negb] in Hco;
    [|inversion Hco; subst; split; auto; apply fresh_full; auto].
  apply is_empty_true in En. subst nn.
  destruct (single_child cs' 0 None) as [[pos|u]|] eqn:Esc;
    try (inversion Hco; subst; split; auto; apply fresh_full; auto; fail).
  pose proof (single_child_none cs' 0) as Hsc. rewrite Esc in Hsc.
  destruct Hsc as (_ & _ & only & Hp & Hne). rewrite Nat.sub_0_r in Hp.
  rewrite (nth_error_nth _ _ Empty Hp) in Hco. pose proof (all_ok_nth _ _ _ Ha Hp) as Hok.
  (* the remaining child is one of the old ones: no hash node *)
  assert (Hro : resolved only).
  { unfold cs' in Hp. destruct (Nat.eq_dec pos k0) as [->|Hd].
    - destruct (nth_error_lt_some cs k0) as (c0 & Hc0); [apply nth_error_some_lt in Hp; rewrite set_nth_length in Hp; exact Hp|].
      rewrite nth_error_set_nth_eq in Hp by (eapply nth_error_some_lt; eauto). inversion Hp; subst. congruence.
    - rewrite nth_error_set_nth_neq in Hp by auto. eapply Forall_nth_error; eauto. }
  destruct (negb (Nat.eqb pos 16)); [|inversion Hco; subst; split; auto; apply fresh_short; auto].
  destruct Hro as [|v|ck cv fo Hcv|cs1 fo Hcs1]; cbn [rbind] in Hco; inversion Hco; subst; split; auto;
    apply fresh_short; auto.
  apply caches_ok_short in Hok as (_ & _ & Hcv'). exact Hcv'.
Qed.

Lemma delete_caches :
  forall fuel n k b n' root, resolved n ->
  delete fuel d n k = Ok (b, n') -> caches_ok root n -> fresh_or_same b n n'.
Proof.
  induction fuel as [|f IH]; intros n k b n' root Hres Hi Hok; [discriminate|].
  assert (IHc : forall c k1 b1 n1, resolved c -> caches_ok false c ->
                  delete f d c k1 = Ok (b1, n1) -> caches_ok false n1)
    by (intros c k1 b1 n1 Hr0 Hc0 E0; exact (fresh_or_same_ok _ _ _ false (IH _ _ _ _ false Hr0 E0 Hc0) Hc0)).
  destruct Hres as [|v0|nk c fl Hc|cs fl Hcs].
  - cbn in Hi. inversion Hi; subst. left; auto.
  - cbn in Hi. inversion Hi; subst. right. cbn. auto.
  - apply caches_ok_short in Hok as (_ & _ & Hokc). rewrite delete_short_eq in Hi. cbv zeta in Hi.
    destruct (Nat.ltb _ (length nk)); [inversion Hi; subst; left; auto|].
    destruct (Nat.eqb _ (length k)); [inversion Hi; subst; right; cbn; auto|].
    apply rbind_ok in Hi as ([b1 n1] & E1 & Hi). cbn [fst snd] in Hi.
    pose proof (IHc _ _ _ _ Hc Hokc E1) as Hn1.
    destruct b1; [|inversion Hi; subst; left; auto].
    destruct n1 as [|v1|ck cc fc|cs1 f1|h1]; inversion Hi; subst; apply fresh_short; auto.
    apply caches_ok_short in Hn1 as (_ & _ & Hcc). exact Hcc.
  - apply caches_ok_full in Hok as (_ & _ & Hokc).
    destruct k as [|k0 kt]; [discriminate|]. rewrite delete_full_eq in Hi.
    destruct (nth_error cs k0) as [c|] eqn:Hnc; [|discriminate].
    pose proof (all_ok_nth _ _ _ Hokc Hnc) as Hcc.
    apply rbind_ok in Hi as ([b1 n1] & E1 & Hi). cbn [fst snd] in Hi.
    pose proof (IHc _ _ _ _ (Forall_nth_error _ _ _ _ Hcs Hnc) Hcc E1) as Hn1.
    destruct b1; [|inversion Hi; subst; left; auto].
    destruct (collapse_caches cs k0 n1 b n') as [[[X _]|Hfr] ->]; auto; [apply all_ok_set_nth; auto|discriminate|].
    right. exact Hfr.
Qed.

End WithDb.

Lemma nth_error_map_inv {A B} (f : A -> B) l i y :
  nth_error (map f l) i = Some y -> exists x, nth_error l i = Some x /\ f x = y.
Proof.
  rewrite nth_error_map. destruct (nth_error l i); cbn; intros E; inversion E; eauto.
Qed.

Lemma has_erase n : forall k w, has n k w <-> has (erase n) k w.
Proof.
  induction n using node_ind'; intros k0 w; cbn [erase]; try tauto.
  - rewrite !has_short. split; intros (r & -> & Hr); exists r; split; auto; apply IHn; auto.
  - rewrite !has_full. rewrite Forall_forall in H0. split.
    + intros (i & r & c & -> & Hn & Hr). exists i, r, (erase c). split; auto.
      split; [apply map_nth_error; auto|].
      apply (proj1 (H0 c (nth_error_In _ _ Hn) r w)); auto.
    + intros (i & r & c' & -> & Hn & Hr). apply nth_error_map_inv in Hn as (c & Hn & <-).
      exists i, r, c. split; auto. split; auto.
      apply (proj2 (H0 c (nth_error_In _ _ Hn) r w)); auto.
Qed.

Lemma is_empty_erase c : is_empty (erase c) = is_empty c.
Proof. destruct c; reflexivity. Qed.

Lemma count_ne_erase cs : count_ne (map erase cs) = count_ne cs.
Proof.
  induction cs as [|c t IH]; auto. cbn [map]. rewrite !count_ne_cons, is_empty_erase, IH. reflexivity.
Qed.

Lemma erase_value c v : erase c = Value v -> c = Value v.
Proof. destruct c; cbn; intros E; inversion E; auto. Qed.

Lemma erase_empty c : erase c = Empty -> c = Empty.
Proof. destruct c; cbn; intros E; inversion E; auto. Qed.

Lemma canon_of_erase n : canon (erase n) -> canon n.
Proof.
  induction n using node_ind'; cbn [erase]; intros Hc; auto.
  - remember (Short k (erase n) newflag) as x eqn:Ex.
    destruct Hc as [|p v f0 Hp Hv|k0 cs g f0 Hk Hn Hcf|cs0 f0 Hl Hch H16 Hcnt]; try discriminate.
    + injection Ex as E1 E2 E3. subst k. symmetry in E2. apply erase_value in E2. subst n.
      constructor; auto.
    + injection Ex as E1 E2 E3. subst k0.
      destruct n as [| | |cs1 g1|]; cbn in E2; try discriminate.
      constructor; auto. apply IHn. cbn [erase]. injection E2 as E4 E5. subst. exact Hcf.
  - remember (Full (map erase cs) newflag) as x eqn:Ex.
    destruct Hc as [|p v f0 Hp Hv|k0 cs1 g f0 Hk Hn Hcf|cs0 f0 Hl Hch H16 Hcnt]; try discriminate.
    injection Ex as E1 E2. subst cs0. rewrite Forall_forall in H0.
    rewrite map_length in Hl. constructor; auto.
    + intros i c Hn Hi. apply H0; [eapply nth_error_In; eauto|].
      apply (Hch i); auto. apply map_nth_error; auto.
    + intros c Hn. pose proof (map_nth_error erase _ _ Hn) as Hn'.
      destruct (H16 _ Hn') as [E|(v & Hv & E)].
      * left. apply erase_empty; auto.
      * right. exists v. split; auto. apply erase_value; auto.
    + rewrite count_ne_erase in Hcnt. auto.
Qed.

Lemma canon_erase n : canon n -> canon (erase n).
Proof.
  induction 1 as [|p v f Hp Hv|k cs g f Hk Hn Hc IH|cs f Hl Hch IH H16 Hcnt]; cbn [erase].
  - constructor.
  - constructor; auto.
  - constructor; auto.
  - constructor.
    + rewrite map_length; auto.
    + intros i c' Hn Hi. apply nth_error_map_inv in Hn as (c & Hn & <-). eauto.
    + intros c' Hn. apply nth_error_map_inv in Hn as (c & Hn & <-).
      destruct (H16 _ Hn) as [->|(v & Hv & ->)]; cbn; eauto.
    + rewrite count_ne_erase; auto.
Qed.

Lemma canon_same_erase a b : erase a = erase b -> canon a -> canon b.
Proof. intros E Ha. apply canon_of_erase. rewrite <- E. apply canon_erase; auto. Qed.

Lemma has_same_erase a b : erase a = erase b -> forall k w, has a k w <-> has b k w.
Proof. intros E k w. rewrite (has_erase a), (has_erase b), E. tauto. Qed.

Inductive hop := HUpdate (k v : bytes) | HDelete (k : bytes) | HHashOp.

Definition hop_key (o : hop) : bytes :=
  match o with HUpdate k _ => k | HDelete k => k | HHashOp => [] end.

Definition hop_mop (o : hop) : list mop :=
  match o with HUpdate k v => [MUpdate k v] | HDelete k => [MDelete k] | HHashOp => [] end.

Section WithDb2.
Variable d : db.

Definition apply_hop (n : node) (o : hop) : res node :=
  match o with
  | HUpdate k v => trie_update d n k v
  | HDelete k => trie_delete d n k
  | HHashOp => Ok (snd (trie_hash H n))          (* Trie.Hash(): t.root = cached *)
  end.

Fixpoint hrun (n : node) (ops : list hop) : res node :=
  match ops with [] => Ok n | o :: t => rbind (apply_hop n o) (fun n' => hrun n' t) end.

Lemma trie_hash_eq n : n <> Empty ->
  trie_hash H n = (href_hash H (fst (hash_node H n true)), snd (hash_node H n true)).
Proof. destruct n; [congruence| | | |]; reflexivity. Qed.

Lemma trie_hash_ok n : caches_ok true n ->
  fst (trie_hash H n) = fst (trie_hash H (erase n)) /\
  erase (snd (trie_hash H n)) = erase n /\ caches_ok true (snd (trie_hash H n)).
Proof.
  intros Hok. destruct (is_empty n) eqn:E.
  - apply is_empty_true in E. subst. cbn. auto.
  - apply is_empty_false in E.
    assert (E' : erase n <> Empty) by (intros X; apply erase_empty in X; auto).
    rewrite (trie_hash_eq n E), (trie_hash_eq (erase n) E'). cbn [fst snd].
    destruct (hash_node_ok n true Hok) as (E1 & E2 & E3).
    split; [rewrite E1; reflexivity|]. auto.
Qed.

Lemma trie_update_caches n kb v n' :
  resolved n -> trie_update d n kb v = Ok n' -> caches_ok true n -> caches_ok true n'.
Proof.
  intros Hr Hu Hok. unfold trie_update in Hu.
  assert (Hfs : exists b, fresh_or_same b n n').
  { destruct v as [|v0 vt]; apply rbind_ok in Hu as ([b n1] & E & Hu); inversion Hu; subst; exists b.
    - eapply (delete_caches d); eauto.
    - eapply (insert_caches d); eauto. }
  destruct Hfs as (b & Hfs). eapply fresh_or_same_ok; eauto.
Qed.

Lemma trie_delete_caches n kb n' :
  resolved n -> trie_delete d n kb = Ok n' -> caches_ok true n -> caches_ok true n'.
Proof. apply (trie_update_caches n kb []). Qed.

(** main invariant: the trie represents the map and all its caches are correct *)
Lemma hrun_represents ops : forall m n,
  represents m n -> caches_ok true n -> Forall (fun o => is_bytes (hop_key o)) ops ->
  exists n', hrun n ops = Ok n' /\
             represents (content m (flat_map hop_mop ops)) n' /\ caches_ok true n'.
Proof.
  induction ops as [|o t IH]; intros m n Hrep Hok Hk; cbn [hrun flat_map]; eauto.
  inversion Hk as [|? ? Ho Ht]; subst.
  destruct o as [k v|k|]; cbn [apply_hop hop_mop app content]; cbn in Ho.
  - destruct (represents_update d m n k v Hrep Ho) as (n1 & Hu & Hr1). rewrite Hu. cbn [rbind].
    apply IH; auto. eapply trie_update_caches; eauto. apply canon_resolved, Hrep.
  - destruct (represents_delete d m n k Hrep Ho) as (n1 & Hu & Hr1). rewrite Hu. cbn [rbind].
    apply IH; auto. eapply trie_delete_caches; eauto. apply canon_resolved, Hrep.
  - cbn [rbind]. destruct (trie_hash_ok n Hok) as (_ & E2 & E3).
    apply IH; auto. destruct Hrep as [Hc Hr]. split.
    + eapply canon_same_erase; [symmetry; exact E2|auto].
    + intros k w. rewrite <- Hr. apply has_same_erase; auto.
Qed.

(** a history from the empty trie *)
Lemma hrun_empty ops n : Forall (fun o => is_bytes (hop_key o)) ops -> hrun Empty ops = Ok n ->
  represents (content (fun _ => []) (flat_map hop_mop ops)) n /\ caches_ok true n.
Proof.
  intros Hk Hr. destruct (hrun_represents ops _ Empty represents_empty I Hk) as (n1 & E & P & C).
  rewrite Hr in E. inversion E; subst. auto.
Qed.

End WithDb2.
End WithHash.
