(** C07 — the node codec round trip.  decodeNode applied to the encoding the
    hasher / committer produce for a canonical node returns that node with its children
    collapsed exactly as they were encoded (hash reference, embedded node, value, nil). *)
From Coq Require Import List ZArith NArith Arith Bool Lia.
From Kardia Require Import C07.Model C07.ProofsBase C07.ProofsMap C07.ProofsCanon C07.ProofsEnc
     C07.ProofsCache C07.ProofsRlp.
Import ListNotations.

Definition B32 : N := 4294967296%N.

(** every key fragment and value in the trie is shorter than 2^32 (so that all RLP sizes stay
    far below the 2^64 the length encoding can carry) *)
Inductive sized : node -> Prop :=
| SzE : sized Empty
| SzV v : (nlen v < B32)%N -> sized (Value v)
| SzS k c f : (nlen k < B32)%N -> sized c -> sized (Short k c f)
| SzF cs f : (forall c, In c cs -> sized c) -> sized (Full cs f).

Lemma dn_len : forall n k, length k <= n -> length (decode_nibbles k) <= length k.
Proof.
  induction n as [|n IH]; intros k Hk.
  - destruct k; cbn in *; lia.
  - destruct k as [|a [|b t]]; cbn [decode_nibbles length] in *; try lia.
    assert (length t <= n) by lia. specialize (IH t). lia.
Qed.

Lemma compact_len k : (nlen (hex_to_compact k) <= nlen k + 1)%N.
Proof.
  rewrite !nlen_length. unfold hex_to_compact.
  set (k1 := if has_term k then removelast k else k).
  assert (Hk1 : length k1 <= length k).
  { unfold k1. destruct (has_term k); auto. destruct k as [|x k]; auto.
    rewrite (app_removelast_last (l := x :: k) 0) at 2 by discriminate. rewrite app_length. cbn. lia. }
  destruct (Nat.odd (length k1)); cbn [length].
  - pose proof (dn_len _ (tl k1) (le_n _)). destruct k1; cbn in *; lia.
  - pose proof (dn_len _ k1 (le_n _)). lia.
Qed.

Lemma nlen_concat_bound (l : list bytes) M :
  Forall (fun x => (nlen x <= M)%N) l -> (nlen (concat l) <= N.of_nat (length l) * M)%N.
Proof.
  induction 1 as [|x l Hx Hl IH]; cbn [concat length]; [cbn; lia|]. rewrite nlen_app. lia.
Qed.

Lemma length_concat_ge (l : list bytes) : Forall (fun x => x <> []) l -> length l <= length (concat l).
Proof.
  induction 1 as [|x l Hx Hl IH]; cbn [concat length]; auto. rewrite app_length.
  destruct x; [congruence|]. cbn. lia.
Qed.

Section Codec.
Variable H : bytes -> bytes.
Hypothesis Hlen : forall x, length (H x) = 32.

(** the collapsed encoding of a node, from scratch (what hasher / committer / Prove write) *)
Definition cenc (n : node) : bytes :=
  match n with
  | Short k c _ => short_enc k (hspec H c false)
  | Full cs _ => full_enc (map (fun c => hspec H c false) cs)
  | _ => []
  end.

Lemma hspec_cenc n force : (match n with Short _ _ _ | Full _ _ => True | _ => False end) ->
  hspec H n force = finish H (cenc n) force.
Proof. destruct n; intros Hx; try (destruct Hx; fail); [apply hspec_short | apply hspec_full]. Qed.

(** the node as decodeNode returns it: children replaced by what their parent stores *)
Fixpoint shallow (h : option bytes) (n : node) {struct n} : node :=
  let cref := fun c => match hspec H c false with
                       | HNil => Empty
                       | HVal v => Value v
                       | HHash x => Ref x
                       | HEmb _ => shallow None c
                       end in
  match n with
  | Short k c _ => Short k (cref c) (mkFlag h false)
  | Full cs _ => Full (map cref cs) (mkFlag h false)
  | _ => n
  end.

Definition cref (c : node) : node :=
  match hspec H c false with
  | HNil => Empty
  | HVal v => Value v
  | HHash x => Ref x
  | HEmb _ => shallow None c
  end.

Lemma shallow_short h k c f : shallow h (Short k c f) = Short k (cref c) (mkFlag h false).
Proof. reflexivity. Qed.
Lemma shallow_full h cs f : shallow h (Full cs f) = Full (map cref cs) (mkFlag h false).
Proof. reflexivity. Qed.

Lemma nlen_H x : nlen (H x) = 32%N.
Proof. rewrite nlen_length, Hlen. reflexivity. Qed.

Lemma enc_href_finish_len e : (nlen (enc_href (finish H e false)) <= 41)%N.
Proof.
  unfold finish. destruct (N.ltb_spec (nlen e) 32); cbn [andb negb enc_href].
  - lia.
  - pose proof (rlp_string_len (H e)) as X. rewrite nlen_H in X. unfold two64 in X. lia.
Qed.

Lemma href_len c : sized c -> (nlen (enc_href (hspec H c false)) <= B32 + 9)%N.
Proof.
  intros Hs. destruct Hs as [|v Hv|k c f Hk Hc|cs f Hc].
  - cbn. unfold B32. lia.
  - change (hspec H (Value v) false) with (HVal v). cbn [enc_href].
    pose proof (rlp_string_len v). unfold two64, B32 in *. lia.
  - rewrite hspec_short. pose proof (enc_href_finish_len (short_enc k (hspec H c false))). unfold B32. lia.
  - rewrite hspec_full. pose proof (enc_href_finish_len (full_enc (map (fun c => hspec H c false) cs))). unfold B32. lia.
Qed.

Definition short_payload (k : key) (c : node) : bytes :=
  rlp_string (hex_to_compact k) ++ enc_href (hspec H c false).
Definition full_payload (cs : list node) : bytes :=
  concat (map (fun c => enc_href (hspec H c false)) cs).

Lemma cenc_short k c f : cenc (Short k c f) = rlp_list (short_payload k c).
Proof. reflexivity. Qed.
Lemma cenc_full cs f : cenc (Full cs f) = rlp_list (full_payload cs).
Proof. unfold cenc, full_enc, full_payload. rewrite map_map. reflexivity. Qed.

Lemma short_payload_len k c : (nlen k < B32)%N -> sized c -> (nlen (short_payload k c) < two64)%N.
Proof.
  intros Hk Hc. unfold short_payload. rewrite nlen_app.
  pose proof (compact_len k). pose proof (href_len c Hc).
  pose proof (rlp_string_len (hex_to_compact k)). unfold two64, B32 in *. lia.
Qed.

Lemma full_payload_len cs : length cs = 17 -> (forall c, In c cs -> sized c) ->
  (nlen (full_payload cs) < two64)%N.
Proof.
  intros Hl Hc. unfold full_payload.
  assert (Hb : (nlen (concat (map (fun c => enc_href (hspec H c false)) cs)) <=
                N.of_nat (length (map (fun c => enc_href (hspec H c false)) cs)) * (B32 + 9))%N).
  { apply nlen_concat_bound. apply Forall_forall. intros x Hx. apply in_map_iff in Hx as (c & <- & Hin).
    apply href_len; auto. }
  rewrite map_length, Hl in Hb. unfold two64, B32 in *. lia.
Qed.

(** a child position that decodeRef reads back *)
Definition child_item (c : node) : Prop :=
  exists k x, item k x (enc_href (hspec H c false)).

Lemma item_finish e : (exists P, item KList P e) -> exists k x, item k x (enc_href (finish H e false)).
Proof.
  intros (P & Hi). unfold finish. destruct (N.ltb (nlen e) 32); cbn [andb negb enc_href]; eauto.
  destruct (item_string (H e)) as (k & _ & _ & Hk); [rewrite nlen_H; unfold two64; lia|]. eauto.
Qed.

Lemma cenc_item n : canon n -> sized n -> n <> Empty -> exists P, item KList P (cenc n).
Proof.
  intros Hc Hs Hne. destruct Hc as [|p v f Hp Hv|k cs g f Hk Hn Hc|cs f Hl Hch H16 Hcnt]; [congruence| | |].
  - inversion Hs; subst. rewrite cenc_short. eexists. apply item_list. apply short_payload_len; auto.
  - inversion Hs; subst. rewrite cenc_short. eexists. apply item_list. apply short_payload_len; auto.
  - inversion Hs; subst. rewrite cenc_full. eexists. apply item_list. apply full_payload_len; auto.
Qed.

Lemma hspec_node n : canon n -> n <> Empty -> hspec H n false = finish H (cenc n) false.
Proof. intros Hc Hne. apply hspec_cenc. destruct Hc; auto. Qed.

Lemma child_item_canon c : canon c -> sized c -> child_item c.
Proof.
  intros Hc Hs. destruct (is_empty c) eqn:E.
  - apply is_empty_true in E. subst. exists KString, []. change (enc_href (hspec H Empty false)) with [128%N].
    exact item_empty.
  - apply is_empty_false in E. unfold child_item. rewrite (hspec_node c Hc E).
    apply item_finish. apply cenc_item; auto.
Qed.

Lemma child_item_value v : (nlen v < B32)%N -> child_item (Value v).
Proof.
  intros Hv. unfold child_item. change (hspec H (Value v) false) with (HVal v). cbn [enc_href].
  destruct (item_string v) as (k & _ & _ & Hi); [unfold two64, B32 in *; lia|]. eauto.
Qed.

Lemma decode_ref_empty dec rest : decode_ref dec ([128%N] ++ rest) = Some (Empty, rest).
Proof.
  unfold decode_ref. rewrite (split_item _ _ _ rest item_empty). reflexivity.
Qed.

Lemma decode_ref_hash dec e rest : decode_ref dec (rlp_string (H e) ++ rest) = Some (Ref (H e), rest).
Proof.
  destruct (item_string (H e)) as (k & _ & Hk & Hi); [rewrite nlen_H; unfold two64; lia|].
  rewrite Hk in Hi by (rewrite Hlen; lia).
  unfold decode_ref. rewrite (split_item _ _ _ rest Hi). rewrite nlen_H. reflexivity.
Qed.

Lemma decode_ref_emb dec e P rest n :
  item KList P e -> (nlen e < 32)%N -> dec (e ++ rest) = Some n ->
  decode_ref dec (e ++ rest) = Some (n, rest).
Proof.
  intros Hi Hl Hd. unfold decode_ref. rewrite (split_item _ _ _ rest Hi).
  rewrite nlen_app. replace (nlen e + nlen rest - nlen rest)%N with (nlen e) by lia.
  destruct (N.ltb_spec 32 (nlen e)); [lia|]. rewrite Hd. reflexivity.
Qed.

(** a non-empty canonical child: reference by hash, or embedded (then [dec] must decode it) *)
Lemma decode_ref_child dec c rest :
  canon c -> sized c -> c <> Empty ->
  ((nlen (cenc c) < 32)%N -> dec (cenc c ++ rest) = Some (shallow None c)) ->
  decode_ref dec (enc_href (hspec H c false) ++ rest) = Some (cref c, rest).
Proof.
  intros Hc Hs Hne Hdec. unfold cref. rewrite (hspec_node c Hc Hne). unfold finish.
  destruct (N.ltb_spec (nlen (cenc c)) 32) as [Hlt|Hge]; cbn [andb negb enc_href].
  - destruct (cenc_item c Hc Hs Hne) as (P & Hi). eapply decode_ref_emb; eauto.
  - apply decode_ref_hash.
Qed.

Lemma emb_enc c : canon c -> c <> Empty -> (nlen (cenc c) < 32)%N ->
  enc_href (hspec H c false) = cenc c.
Proof.
  intros Hc Hne Hl. rewrite (hspec_node c Hc Hne). unfold finish.
  destruct (N.ltb_spec (nlen (cenc c)) 32); [reflexivity|lia].
Qed.

Lemma decode_children_spec dec (l : list node) : forall rest,
  (forall c, In c l -> forall rest', decode_ref dec (enc_href (hspec H c false) ++ rest') = Some (cref c, rest')) ->
  decode_children dec (length l) (full_payload l ++ rest) = Some (map cref l, rest).
Proof.
  induction l as [|c l IH]; intros rest Hd; [reflexivity|].
  unfold full_payload. cbn [map concat length decode_children]. rewrite <- app_assoc.
  rewrite (Hd c (or_introl eq_refl)). fold (full_payload l). rewrite IH; auto.
  intros c' Hin. apply Hd. right; auto.
Qed.

Lemma decode_node_step f h buf P rest0 :
  buf <> [] -> split_list buf = Some (P, rest0) ->
  decode_node (S f) h buf =
  let dec := decode_node f None in
  match count_values (length P) P with
  | Some 2 =>
    match split_string P with
    | None => None
    | Some (kbuf, rest) =>
      let k := compact_to_hex kbuf in
      if has_term k then
        match split_string rest with
        | None => None
        | Some (val, _) => Some (Short k (Value val) (mkFlag h false))
        end
      else
        match decode_ref dec rest with
        | None => None
        | Some (r, _) => Some (Short k r (mkFlag h false))
        end
    end
  | Some 17 =>
    match decode_children dec 16 P with
    | None => None
    | Some (cs, rest) =>
      match split_string rest with
      | None => None
      | Some (val, _) =>
        let c16 := if N.ltb 0 (nlen val) then Value val else Empty in
        Some (Full (cs ++ [c16]) (mkFlag h false))
      end
    end
  | _ => None
  end.
Proof.
  intros Hne Hs. destruct buf as [|b buf]; [congruence|]. cbn [decode_node]. rewrite Hs. reflexivity.
Qed.

Lemma rlp_list_nonempty p : rlp_list p <> [].
Proof. unfold rlp_list. destruct (N.ltb (nlen p) 56); discriminate. Qed.

Lemma rlp_list_length_pos p : 0 < length (rlp_list p).
Proof. pose proof (rlp_list_nonempty p). destruct (rlp_list p); [congruence|cbn; lia]. Qed.

Lemma app_rlp_list_nonempty p rest : rlp_list p ++ rest <> [].
Proof. intros X. apply app_eq_nil in X. destruct X as [X _]. eapply rlp_list_nonempty; eauto. Qed.

Lemma count_two a b : (exists k x, item k x a) -> (exists k x, item k x b) ->
  count_values (length (a ++ b)) (a ++ b) = Some 2.
Proof.
  intros Ha Hb. replace (a ++ b) with (concat [a; b]) by (cbn; rewrite app_nil_r; reflexivity).
  apply (count_values_items [a; b]); [repeat constructor; auto|].
  apply (length_concat_ge [a; b]). repeat constructor.
  - destruct Ha as (k & x & hdr & _ & Hne & _); auto.
  - destruct Hb as (k & x & hdr & _ & Hne & _); auto.
Qed.

Theorem decode_cenc n : canon n -> sized n -> n <> Empty ->
  forall fuel h rest, length (cenc n) <= fuel ->
  decode_node fuel h (cenc n ++ rest) = Some (shallow h n).
Proof.
  induction 1 as [|p v f Hp Hv|k cs g f Hk Hn Hc IH|cs f Hl Hch IH H16 Hcnt]; intros Hs Hne fuel h rest Hf.
  - congruence.
  - inversion Hs as [| |? ? ? Hkl Hsc|]; subst. inversion Hsc as [|? Hvl| |]; subst.
    rewrite cenc_short in *.
    destruct fuel as [|fuel]; [pose proof (rlp_list_length_pos (short_payload (p ++ [16]) (Value v))); lia|].
    pose proof (item_list _ (short_payload_len _ _ Hkl Hsc)) as Hil.
    rewrite (decode_node_step fuel h _ _ rest (app_rlp_list_nonempty _ rest) (split_list_item _ _ rest Hil)).
    cbv zeta. unfold short_payload. change (hspec H (Value v) false) with (HVal v). cbn [enc_href].
    destruct (item_string (hex_to_compact (p ++ [16]))) as (k1 & Hk1 & _ & Hi1).
    { pose proof (compact_len (p ++ [16])). unfold two64, B32 in *. lia. }
    destruct (item_string v) as (k2 & Hk2 & _ & Hi2); [unfold two64, B32 in *; lia|].
    rewrite count_two by eauto.
    rewrite (split_string_item _ _ _ _ Hi1 Hk1).
    rewrite compact_roundtrip by (right; apply wfk_snoc; auto).
    rewrite has_term_snoc.
    rewrite <- (app_nil_r (rlp_string v)). rewrite (split_string_item _ _ _ _ Hi2 Hk2).
    reflexivity.
  - inversion Hs as [| |? ? ? Hkl Hsc|]; subst.
    rewrite cenc_short in *.
    pose proof (item_list _ (short_payload_len _ _ Hkl Hsc)) as Hil.
    pose proof (rlp_list_len _ (short_payload_len _ _ Hkl Hsc)) as Hll.
    destruct fuel as [|fuel]; [pose proof (rlp_list_length_pos (short_payload k (Full cs g))); lia|].
    assert (Hfuel : (nlen (cenc (Full cs g)) < 32)%N -> length (cenc (Full cs g)) <= fuel).
    { intros Hsmall.
      assert (Hle : (nlen (cenc (Full cs g)) <= nlen (short_payload k (Full cs g)))%N).
      { unfold short_payload. rewrite nlen_app, (emb_enc _ Hc) by (auto; discriminate). lia. }
      rewrite !nlen_length in Hle, Hll. lia. }
    rewrite (decode_node_step fuel h _ _ rest (app_rlp_list_nonempty _ rest) (split_list_item _ _ rest Hil)).
    cbv zeta. unfold short_payload in *.
    destruct (item_string (hex_to_compact k)) as (k1 & Hk1 & _ & Hi1).
    { pose proof (compact_len k). unfold two64, B32 in *. lia. }
    assert (Hcne : Full cs g <> Empty) by discriminate.
    rewrite count_two; [|eauto|apply child_item_canon; auto].
    rewrite (split_string_item _ _ _ _ Hi1 Hk1).
    rewrite compact_roundtrip by (left; auto).
    rewrite (has_term_nibs _ Hn).
    rewrite <- (app_nil_r (enc_href _)).
    rewrite (decode_ref_child (decode_node fuel None) (Full cs g) [] Hc Hsc Hcne).
    + reflexivity.
    + intros Hsmall. apply IH; auto.
  - inversion Hs as [| | |? ? Hsc]; subst.
    rewrite cenc_full in *.
    pose proof (item_list _ (full_payload_len _ Hl Hsc)) as Hil.
    pose proof (rlp_list_len _ (full_payload_len _ Hl Hsc)) as Hll.
    destruct fuel as [|fuel]; [pose proof (rlp_list_length_pos (full_payload cs)); lia|].
    rewrite (decode_node_step fuel h _ _ rest (app_rlp_list_nonempty _ rest) (split_list_item _ _ rest Hil)).
    cbv zeta.
    (* seventeen items *)
    assert (Hitems : Forall (fun it => exists k x, item k x it) (map (fun c => enc_href (hspec H c false)) cs)).
    { apply Forall_forall. intros it Hin. apply in_map_iff in Hin as (c & <- & Hin).
      destruct (In_nth_error _ _ Hin) as (i & Hi). pose proof (nth_error_some_lt _ _ _ Hi) as Hlt.
      destruct (Nat.eq_dec i 16) as [->|Hd].
      - destruct (H16 _ Hi) as [->|(v & Hv & ->)].
        + apply child_item_canon; [constructor|constructor].
        + apply child_item_value. specialize (Hsc _ Hin). inversion Hsc; auto.
      - apply child_item_canon; auto. apply (Hch i); auto. lia. }
    assert (Hcount : count_values (length (full_payload cs)) (full_payload cs) = Some 17).
    { unfold full_payload. rewrite count_values_items; auto.
      - rewrite map_length, Hl. reflexivity.
      - apply length_concat_ge. eapply Forall_impl; [|exact Hitems].
        intros it (k & x & hdr & _ & Hne' & _). auto. }
    rewrite Hcount.
    (* split the children into the first sixteen and the value slot *)
    destruct (nth_error_lt_some cs 16) as (c16 & Hn16); [lia|].
    assert (Ecs : cs = firstn 16 cs ++ [c16]).
    { rewrite <- (firstn_skipn 16 cs) at 1. f_equal.
      pose proof (nth_error_split cs 16 Hn16) as (l1 & l2 & E & Hl1). rewrite E.
      rewrite <- Hl1, skipn_app_len. rewrite E, app_length in Hl. cbn in Hl.
      destruct l2; [reflexivity|cbn in Hl; lia]. }
    remember (firstn 16 cs) as l16 eqn:El16.
    assert (Hl16 : length l16 = 16) by (rewrite El16, firstn_length; lia).
    assert (Epay : full_payload cs = full_payload l16 ++ enc_href (hspec H c16 false)).
    { rewrite Ecs at 1. unfold full_payload. rewrite map_app, concat_app. cbn. rewrite app_nil_r. reflexivity. }
    rewrite Epay. rewrite <- Hl16.
    rewrite (decode_children_spec (decode_node fuel None) l16 (enc_href (hspec H c16 false))).
    + (* the value slot *)
      assert (Hval : exists val, split_string (enc_href (hspec H c16 false)) = Some (val, []) /\
                                 (if N.ltb 0 (nlen val) then Value val else Empty) = cref c16).
      { destruct (H16 _ Hn16) as [->|(v & Hv & ->)].
        - exists []. change (enc_href (hspec H Empty false)) with ([128%N] ++ []).
          rewrite (split_string_item _ _ _ _ item_empty ltac:(discriminate)). auto.
        - exists v. change (hspec H (Value v) false) with (HVal v). cbn [enc_href].
          assert (Hsv : sized (Value v)) by (apply Hsc; eapply nth_error_In; eauto). inversion Hsv; subst.
          destruct (item_string v) as (k & Hk & _ & Hi); [unfold two64, B32 in *; lia|].
          rewrite <- (app_nil_r (rlp_string v)). rewrite (split_string_item _ _ _ _ Hi Hk). split; auto.
          destruct (N.ltb_spec 0 (nlen v)) as [_|X]; [reflexivity|]. destruct v; [congruence|cbn [nlen] in X; lia]. }
      destruct Hval as (val & Hsv & Hcv). rewrite Hsv, Hcv. rewrite shallow_full.
      replace (map cref cs) with (map cref l16 ++ [cref c16]); [reflexivity|].
      rewrite Ecs at 1. rewrite map_app. reflexivity.
    + (* each of the sixteen children *)
      intros c Hin rest'. assert (Hinc : In c cs) by (rewrite Ecs; apply in_or_app; auto).
      destruct (In_nth_error _ _ Hin) as (i & Hi).
      assert (Hi16 : i < 16) by (rewrite <- Hl16; eapply nth_error_some_lt; eauto).
      assert (Hics : nth_error cs i = Some c).
      { rewrite Ecs. rewrite nth_error_app1 by lia. auto. }
      pose proof (Hch _ _ Hics Hi16) as Hcc.
      destruct (is_empty c) eqn:E.
      * apply is_empty_true in E. subst c. change (enc_href (hspec H Empty false)) with [128%N].
        rewrite decode_ref_empty. reflexivity.
      * apply is_empty_false in E. apply decode_ref_child; auto.
        intros Hsmall. apply (IH i c Hics Hi16); auto.
        assert (Hle : (nlen (cenc c) <= nlen (full_payload cs))%N).
        { unfold full_payload. destruct (in_split _ _ Hinc) as (l1 & l2 & ->).
          rewrite map_app, concat_app. cbn [map concat]. rewrite !nlen_app.
          rewrite (emb_enc _ Hcc E Hsmall). lia. }
        rewrite !nlen_length in Hle, Hll. lia.
Qed.

(** the whole blob of a short or full node, as the database returns it *)
Lemma is_node_ne c : (match c with Short _ _ _ | Full _ _ => True | _ => False end) -> c <> Empty.
Proof. destruct c; try tauto; discriminate. Qed.

Lemma cenc_nonempty c : canon c -> sized c -> (match c with Short _ _ _ | Full _ _ => True | _ => False end) ->
  cenc c <> [].
Proof.
  intros Hc Hs Hn. destruct (cenc_item c Hc Hs (is_node_ne c Hn)) as (P & hdr & _ & Hnn & _). exact Hnn.
Qed.

Lemma decode_cenc_exact c h : canon c -> sized c -> (match c with Short _ _ _ | Full _ _ => True | _ => False end) ->
  decode_node (length (cenc c)) h (cenc c) = Some (shallow h c).
Proof.
  intros Hc Hs Hn. rewrite <- (app_nil_r (cenc c)) at 2. apply decode_cenc; auto. apply is_node_ne; auto.
Qed.

End Codec.
