(** C07 — get / insert / delete on canonical tries refine a finite map
    (stated through the content relation [has]) and preserve the canonical form. *)
From Coq Require Import List NArith Arith Bool Lia.
From Kardia Require Import C07.Model C07.ProofsBase.
Import ListNotations.

Lemma wfk_mid_nibs a x t : wfk (a ++ x :: t) -> nibs a.
Proof.
  induction a as [|y a IH]; cbn; [constructor|].
  intros [[_ Hnil]|[Hy Hw]].
  - destruct a; discriminate.
  - constructor; auto. apply IH; auto.
Qed.

Definition short_cond (nk k : key) : bool :=
  Nat.ltb (length k) (length nk) || negb (keq nk (firstn (length nk) k)).

Lemma short_cond_false nk k : short_cond nk k = false <-> exists r, k = nk ++ r.
Proof.
  unfold short_cond. split.
  - intros Hc. apply orb_false_iff in Hc as [Hl Hk].
    apply Nat.ltb_ge in Hl. apply negb_false_iff in Hk. apply keq_eq in Hk.
    exists (skipn (length nk) k). rewrite Hk at 1. symmetry. apply firstn_skipn.
  - intros (r & ->). rewrite firstn_app_len, keq_refl. cbn.
    rewrite app_length. rewrite orb_false_r. apply Nat.ltb_ge. lia.
Qed.

Lemma short_cond_absent nk c f k : short_cond nk k = true -> forall w, ~ has (Short nk c f) k w.
Proof.
  intros E w Hw. apply has_short in Hw as (r & -> & _).
  rewrite (proj2 (short_cond_false nk (nk ++ r))) in E by eauto. discriminate.
Qed.

Section WithDb.
Variable d : db.

Lemma get_short_eq f nk c fl k :
  get (S f) d (Short nk c fl) k =
  if short_cond nk k then Ok ([], Short nk c fl)
  else rbind (get f d c (skipn (length nk) k)) (fun r => Ok (fst r, Short nk (snd r) fl)).
Proof. reflexivity. Qed.

Lemma get_full_eq f cs fl i kt :
  get (S f) d (Full cs fl) (i :: kt) =
  match nth_error cs i with
  | None => Crash
  | Some c => rbind (get f d c kt) (fun r => Ok (fst r, Full (set_nth i (snd r) cs) fl))
  end.
Proof. reflexivity. Qed.

Definition get_ok (n : node) (k : key) (v : bytes) : Prop :=
  (v = [] /\ forall w, ~ has n k w) \/ (v <> [] /\ has n k v).

Lemma get_ok_short nk c f r v : get_ok c r v -> get_ok (Short nk c f) (nk ++ r) v.
Proof.
  intros [[-> Hno]|[Hv Hh]]; [left|right; split; auto; constructor; auto].
  split; auto. intros w Hw. apply has_short_app in Hw. eapply Hno; eauto.
Qed.

Lemma get_ok_full cs f i c r v : nth_error cs i = Some c -> get_ok c r v -> get_ok (Full cs f) (i :: r) v.
Proof.
  intros Hn [[-> Hno]|[Hv Hh]]; [left|right; split; auto; econstructor; eauto].
  split; auto. intros w Hw. apply (has_full_at _ _ _ _ _ _ Hn) in Hw. eapply Hno; eauto.
Qed.

(** what the value slot of a branch, or the end of a leaf, answers *)
Lemma get_end f c : c = Empty \/ (exists v, v <> [] /\ c = Value v) ->
  exists v, get (S f) d c [] = Ok (v, c) /\ get_ok c [] v.
Proof.
  intros [->|(v & Hv & ->)].
  - exists []. split; auto. left. split; auto. intros w Hw. inversion Hw.
  - exists v. split; auto. right. split; auto. constructor.
Qed.

(** below a canonical short node the walk ends at the leaf's value, or goes on with a key that is
    again well-formed *)
Lemma canon_short_child nk c fl r : canon (Short nk c fl) -> wfk (nk ++ r) ->
  nk <> [] /\ ((r = [] /\ exists v, v <> [] /\ c = Value v) \/ (canon c /\ wfk r)).
Proof.
  inversion 1; subst; intros Hw.
  - split; [destruct p; discriminate|]. left. split; [|eauto].
    apply (wfk_prefix_eq (p ++ [16]) r); auto. apply wfk_snoc; auto.
  - split; auto. right. split; auto. apply (wfk_app_inv nk); auto.
Qed.

Lemma get_spec : forall fuel n k, canon n -> wfk k -> length k < fuel ->
  exists v, get fuel d n k = Ok (v, n) /\ get_ok n k v.
Proof.
  induction fuel as [|f IH]; intros n k Hc Hk Hf; [lia|].
  destruct n as [|v|nk c fl|cs fl|h]; try (inversion Hc; fail).
  - exists []. split; [reflexivity|]. left. split; auto. intros w Hw. inversion Hw.
  - rewrite get_short_eq. destruct (short_cond nk k) eqn:E.
    + exists []. split; auto. left. split; auto. apply short_cond_absent; auto.
    + apply short_cond_false in E as (r & ->). rewrite skipn_app_len.
      destruct (canon_short_child nk c fl r Hc Hk) as [Hnk Hchild].
      assert (Hlen : length r < f) by (rewrite app_length in Hf; destruct nk; [congruence|cbn in Hf; lia]).
      assert (Hg : exists v, get f d c r = Ok (v, c) /\ get_ok c r v).
      { destruct Hchild as [[-> Hv]|[Hcc Hr]]; [|auto]. destruct f; [lia|]. apply get_end; auto. }
      destruct Hg as (v & Hg & Hok). rewrite Hg. exists v. split; auto. apply get_ok_short; auto.
  - inversion Hc as [| | |? ? Hl Hch H16 Hcnt]; subst.
    destruct k as [|i kt]; [cbn in Hk; tauto|]. rewrite get_full_eq.
    assert (Hi : i <= 16) by (cbn in Hk; lia).
    destruct (nth_error_lt_some cs i) as (c & Hn); [lia|]. rewrite Hn.
    assert (Hg : exists v, get f d c kt = Ok (v, c) /\ get_ok c kt v).
    { cbn in Hk. destruct Hk as [[-> ->]|[Hi' Hkt]].
      - destruct f; [cbn in Hf; lia|]. apply get_end; auto.
      - apply IH; auto; [eapply Hch; eauto|cbn in Hf; lia]. }
    destruct Hg as (v & Hg & Hok). rewrite Hg. cbn [rbind fst snd]. rewrite (set_nth_same _ _ _ Hn).
    exists v. split; auto. eapply get_ok_full; eauto.
Qed.

(** [n'] holds what [n] holds, except under key [k], where it holds exactly the values [here] admits *)
Definition upd_spec (here : bytes -> Prop) (n n' : node) (k : key) : Prop :=
  forall k' w, has n' k' w <-> (k' = k /\ here w) \/ (k' <> k /\ has n k' w).

Definition ins_spec (n n' : node) (k : key) (v : bytes) : Prop := upd_spec (fun w => w = v) n n' k.

Definition del_spec (n n' : node) (k : key) : Prop :=
  forall k' w, has n' k' w <-> (k' <> k /\ has n k' w).

Lemma upd_del n n' k : upd_spec (fun _ => False) n n' k <-> del_spec n n' k.
Proof. split; intros Hs k' w; rewrite (Hs k' w); tauto. Qed.

Lemma ins_spec_same n k v : has n k v -> ins_spec n n k v.
Proof.
  intros Hh k' w. split.
  - intros Hw. destruct (list_eq_dec Nat.eq_dec k' k) as [->|Hne]; auto.
    left. split; auto. eapply has_det; eauto.
  - intros [[-> ->]|[_ Hw]]; auto.
Qed.

Lemma del_spec_absent n k : (forall w, ~ has n k w) -> del_spec n n k.
Proof.
  intros Hno k' w. split; [|tauto]. intros Hh. split; auto. intros ->. eapply Hno; eauto.
Qed.

(** an update below a short node, and below one slot of a branch *)
Lemma short_upd_spec here nk c nn fl fl' r :
  upd_spec here c nn r -> upd_spec here (Short nk c fl) (Short nk nn fl') (nk ++ r).
Proof.
  intros Hs k' w. rewrite !has_short. split.
  - intros (r' & -> & Hh). apply Hs in Hh as [[-> Hw]|[Hne Hh]]; [left; auto|].
    right. split; [|eauto]. intros E. apply app_inv_head in E. congruence.
  - intros [[-> Hw]|[Hne (r' & -> & Hh)]].
    + exists r. split; auto. apply Hs. auto.
    + exists r'. split; auto. apply Hs. right. split; auto. congruence.
Qed.

Lemma full_upd_spec here cs fl fl' k0 kt c nn :
  nth_error cs k0 = Some c -> upd_spec here c nn kt ->
  upd_spec here (Full cs fl) (Full (set_nth k0 nn cs) fl') (k0 :: kt).
Proof.
  intros Hn Hs k' w. pose proof (nth_error_some_lt _ _ _ Hn) as Hlt. rewrite !has_full. split.
  - intros (i & r & c' & -> & Hc' & Hr). destruct (Nat.eq_dec i k0) as [->|Hd].
    + rewrite nth_error_set_nth_eq in Hc' by auto. inversion Hc'; subst.
      apply Hs in Hr as [[-> Hw]|[Hne Hr]]; [left; auto|right; split; [congruence|eauto 6]].
    + rewrite nth_error_set_nth_neq in Hc' by auto. right. split; [congruence|eauto 6].
  - intros [[-> Hw]|[Hne (i & r & c' & -> & Hc' & Hr)]].
    + exists k0, kt, nn. rewrite nth_error_set_nth_eq by auto. repeat split; auto. apply Hs. auto.
    + destruct (Nat.eq_dec i k0) as [->|Hd].
      * rewrite Hn in Hc'. inversion Hc'; subst. exists k0, r, nn.
        rewrite nth_error_set_nth_eq by auto. repeat split; auto. apply Hs. right. split; auto. congruence.
      * exists i, r, c'. rewrite nth_error_set_nth_neq by auto. auto.
Qed.

(** the same when the slot keeps its child *)
Lemma full_upd_spec_same here cs fl k0 kt c :
  nth_error cs k0 = Some c -> upd_spec here c c kt -> upd_spec here (Full cs fl) (Full cs fl) (k0 :: kt).
Proof.
  intros Hn Hs. pose proof (full_upd_spec here cs fl fl k0 kt c c Hn Hs) as Hx.
  rewrite (set_nth_same _ _ _ Hn) in Hx. exact Hx.
Qed.

(** what slot [i] of a canonical branch may hold *)
Definition slot_ok (i : nat) (c : node) : Prop :=
  (i < 16 -> canon c) /\ (i = 16 -> c = Empty \/ exists v, v <> [] /\ c = Value v).

Lemma canon_slot_ok cs f i c : canon (Full cs f) -> nth_error cs i = Some c -> slot_ok i c.
Proof. intros Hc Hn. inversion Hc; subst. split; [eauto|intros ->; auto]. Qed.

Lemma slot_ok_value v : v <> [] -> slot_ok 16 (Value v).
Proof. intros Hv. split; [lia|eauto]. Qed.

Lemma set_slot_ok cs fl k0 nn i c : canon (Full cs fl) -> slot_ok k0 nn ->
  nth_error (set_nth k0 nn cs) i = Some c -> slot_ok i c.
Proof.
  intros Hc Hs Hn. destruct (Nat.eq_dec i k0) as [->|Hd].
  - pose proof (nth_error_some_lt _ _ _ Hn) as Hlt. rewrite set_nth_length in Hlt.
    rewrite nth_error_set_nth_eq in Hn by exact Hlt. inversion Hn; subst; auto.
  - rewrite nth_error_set_nth_neq in Hn by auto. eapply canon_slot_ok; eauto.
Qed.

(** a canonical branch stays canonical when one slot is replaced and two children remain *)
Lemma canon_set_slot cs fl fl' k0 nn :
  canon (Full cs fl) -> slot_ok k0 nn -> 2 <= count_ne (set_nth k0 nn cs) ->
  canon (Full (set_nth k0 nn cs) fl').
Proof.
  intros Hc Hs Hcnt. pose proof (set_slot_ok cs fl k0 nn) as Hslot. inversion Hc; subst.
  constructor; auto.
  - rewrite set_nth_length; auto.
  - intros i c' Hc' Hi. apply (Hslot i c'); auto.
  - intros c' Hc'. apply (Hslot 16 c'); auto.
Qed.

Lemma count_ne_set_nth_ge cs i c x : nth_error cs i = Some c -> x <> Empty ->
  count_ne cs <= count_ne (set_nth i x cs).
Proof.
  intros Hn Hx. pose proof (count_ne_set_nth cs i c x Hn) as C.
  apply is_empty_false in Hx. rewrite Hx in C. destruct (is_empty c); lia.
Qed.

Definition leafn (rest : key) (x : node) : node :=
  match rest with [] => x | _ => Short rest x newflag end.

Lemma has_leafn rest x r w : has (leafn rest x) r w <-> exists r2, r = rest ++ r2 /\ has x r2 w.
Proof.
  destruct rest as [|a rest]; cbn [leafn].
  - split; [intros Hh; exists r; auto | intros (r2 & -> & Hh); auto].
  - apply has_short.
Qed.

Lemma insert_nil_eq f n value :
  insert (S f) d n [] value =
  match n, value with
  | Value v, Value w => Ok (negb (beq v w), value)
  | Value v, _ => Crash
  | _, _ => Ok (true, value)
  end.
Proof. reflexivity. Qed.

Lemma insert_empty f k value : k <> [] -> insert (S f) d Empty k value = Ok (true, Short k value newflag).
Proof. destruct k; [congruence|reflexivity]. Qed.

Lemma insert_short_eq f nk c fl k0 kt value :
  insert (S f) d (Short nk c fl) (k0 :: kt) value =
  let k := k0 :: kt in
  let ml := prefix_len k nk in
  if Nat.eqb ml (length nk) then
    rbind (insert f d c (skipn ml k) value) (fun r =>
      if fst r then Ok (true, Short nk (snd r) newflag) else Ok (false, Short nk c fl))
  else
    match nth_error nk ml, nth_error k ml with
    | Some oi, Some ni =>
      let b2 := set_nth ni (leafn (skipn (S ml) k) value)
                  (set_nth oi (leafn (skipn (S ml) nk) c) empty_children) in
      if Nat.eqb ml 0 then Ok (true, Full b2 newflag)
      else Ok (true, Short (firstn ml k) (Full b2 newflag) newflag)
    | _, _ => Crash
    end.
Proof. reflexivity. Qed.

Lemma insert_full_eq f cs fl k0 kt value :
  insert (S f) d (Full cs fl) (k0 :: kt) value =
  match nth_error cs k0 with
  | None => Crash
  | Some c =>
    rbind (insert f d c kt value) (fun r =>
      if fst r then Ok (true, Full (set_nth k0 (snd r) cs) newflag) else Ok (false, Full cs fl))
  end.
Proof. reflexivity. Qed.

(** a child slot of a fresh branch: not empty *)
Definition child_ok (i : nat) (c : node) : Prop := c <> Empty /\ slot_ok i c.

Lemma child_ok_leaf i rest v : wfk (i :: rest) -> v <> [] -> child_ok i (leafn rest (Value v)).
Proof.
  cbn [wfk]. intros [[-> ->]|[Hi Hw]] Hv; unfold child_ok, leafn.
  - split; [discriminate|apply slot_ok_value; auto].
  - destruct (wfk_split _ Hw) as (p & -> & Hp).
    destruct (p ++ [16]) as [|a t] eqn:E; [destruct p; discriminate|]. rewrite <- E.
    split; [discriminate|]. split; [|intros; lia]. intros _. constructor; auto.
Qed.

Lemma child_ok_ext i rest cs g : nibs (i :: rest) -> canon (Full cs g) -> child_ok i (leafn rest (Full cs g)).
Proof.
  intros Hn Hc. inversion Hn as [|? ? Hi Hr]; subst. unfold child_ok, leafn.
  destruct rest as [|a t]; (split; [discriminate|]; split; [|intros; lia]); intros _; auto.
  constructor; auto. discriminate.
Qed.

Lemma branch_nth oi ni X Y i :
  oi <> ni -> oi < 17 -> ni < 17 ->
  nth_error (set_nth ni X (set_nth oi Y empty_children)) i =
  if Nat.eqb i ni then Some X else if Nat.eqb i oi then Some Y
  else if Nat.ltb i 17 then Some Empty else None.
Proof.
  intros Hne Ho Hn.
  destruct (Nat.eqb_spec i ni) as [->|H1].
  - apply nth_error_set_nth_eq. rewrite set_nth_length. unfold empty_children. rewrite repeat_length. auto.
  - rewrite nth_error_set_nth_neq by auto.
    destruct (Nat.eqb_spec i oi) as [->|H2].
    + apply nth_error_set_nth_eq. unfold empty_children. rewrite repeat_length. auto.
    + rewrite nth_error_set_nth_neq by auto. unfold empty_children.
      destruct (Nat.ltb_spec i 17) as [H3|H3].
      * apply nth_error_repeat; auto.
      * apply nth_error_None. rewrite repeat_length. auto.
Qed.

Lemma branch_canon oi ni X Y f :
  oi <> ni -> oi <= 16 -> ni <= 16 -> child_ok oi Y -> child_ok ni X ->
  canon (Full (set_nth ni X (set_nth oi Y empty_children)) f).
Proof.
  intros Hne Ho Hn (Y0 & Y1 & Y2) (X0 & X1 & X2).
  constructor.
  - rewrite !set_nth_length. reflexivity.
  - intros i c Hc Hi. rewrite branch_nth in Hc by lia.
    destruct (Nat.eqb_spec i ni) as [->|H1]; [inversion Hc; subst; auto|].
    destruct (Nat.eqb_spec i oi) as [->|H2]; [inversion Hc; subst; auto|].
    destruct (Nat.ltb i 17); inversion Hc. constructor.
  - intros c Hc. rewrite branch_nth in Hc by lia.
    destruct (Nat.eqb_spec 16 ni) as [<-|H1]; [inversion Hc; subst; auto|].
    destruct (Nat.eqb_spec 16 oi) as [<-|H2]; [inversion Hc; subst; auto|].
    cbn in Hc. inversion Hc. auto.
  - assert (H1 : nth_error empty_children oi = Some Empty) by (apply nth_error_repeat; lia).
    pose proof (count_ne_set_nth _ _ _ Y H1) as C1.
    unfold empty_children in C1 at 2. rewrite count_ne_repeat in C1. cbn [is_empty] in C1.
    assert (H2 : nth_error (set_nth oi Y empty_children) ni = Some Empty).
    { rewrite nth_error_set_nth_neq by auto. apply nth_error_repeat; lia. }
    pose proof (count_ne_set_nth _ _ _ X H2) as C2. cbn [is_empty] in C2.
    apply is_empty_false in Y0, X0. rewrite Y0 in C1. rewrite X0 in C2. lia.
Qed.

Lemma branch_has oi ni X Y f k' w :
  oi <> ni -> oi <= 16 -> ni <= 16 ->
  has (Full (set_nth ni X (set_nth oi Y empty_children)) f) k' w <->
  (exists r, k' = ni :: r /\ has X r w) \/ (exists r, k' = oi :: r /\ has Y r w).
Proof.
  intros Hne Ho Hn. rewrite has_full. split.
  - intros (i & r & c & -> & Hc & Hr). rewrite branch_nth in Hc by lia.
    destruct (Nat.eqb_spec i ni) as [->|H1]; [inversion Hc; subst; eauto|].
    destruct (Nat.eqb_spec i oi) as [->|H2]; [inversion Hc; subst; eauto|].
    destruct (Nat.ltb i 17); inversion Hc; subst. inversion Hr.
  - intros [(r & -> & Hr)|(r & -> & Hr)].
    + exists ni, r, X. repeat split; auto. rewrite branch_nth by lia. rewrite Nat.eqb_refl. auto.
    + exists oi, r, Y. repeat split; auto. rewrite branch_nth by lia.
      destruct (Nat.eqb_spec oi ni); [congruence|]. rewrite Nat.eqb_refl. auto.
Qed.

Lemma prefix_len_diverge pre x y a b :
  x <> y -> prefix_len (pre ++ x :: a) (pre ++ y :: b) = length pre.
Proof.
  intros Hne. induction pre as [|z pre IH]; cbn.
  - destruct (Nat.eqb_spec x y); congruence.
  - rewrite Nat.eqb_refl. auto.
Qed.

(** how a well-formed key [k] meets the key [nk] of a canonical short node: it runs through it, or
    the two part ways after a common prefix [pre], at a position where both go on *)
Lemma short_key_cases nk k : wfk k -> wfk nk \/ nibs nk ->
  (exists r, k = nk ++ r) \/
  (exists pre oi rn ni rk, nk = pre ++ oi :: rn /\ k = pre ++ ni :: rk /\ oi <> ni /\ oi <= 16 /\
                           nibs pre /\ wfk (ni :: rk)).
Proof.
  intros Hk Hnk. destruct (prefix_len_split k nk) as (pre & rk & rn & -> & -> & _ & Hdiv).
  destruct rn as [|oi rn]; [left; exists rk; rewrite app_nil_r; reflexivity|].
  destruct rk as [|ni rk].
  { exfalso. rewrite app_nil_r in Hk. destruct Hnk as [Hw|Hn].
    - discriminate (wfk_prefix_eq pre (oi :: rn) Hk Hw).
    - exact (nibs_not_wfk_prefix pre (oi :: rn) Hn Hk). }
  right. exists pre, oi, rn, ni, rk.
  assert (Hpre : nibs pre) by (apply (wfk_mid_nibs pre ni rk); auto).
  assert (Hoi : oi <= 16).
  { destruct Hnk as [Hw|Hn].
    - apply (wfk_app_inv pre) in Hw; auto. cbn in Hw. lia.
    - apply nibs_app in Hn as [_ Hn]. inversion Hn; subst. lia. }
  repeat split; auto. apply (wfk_app_inv pre); auto.
Qed.

(** insert below a short node whose whole key matches *)
Lemma insert_short_match f nk c fl r value :
  nk <> [] ->
  insert (S f) d (Short nk c fl) (nk ++ r) value =
  rbind (insert f d c r value) (fun x =>
    if fst x then Ok (true, Short nk (snd x) newflag) else Ok (false, Short nk c fl)).
Proof.
  intros Hne. destruct (nk ++ r) as [|k0 kt] eqn:E; [destruct nk; [congruence|discriminate]|].
  rewrite insert_short_eq. cbv zeta. rewrite <- E.
  rewrite prefix_len_app, Nat.eqb_refl, skipn_app_len. reflexivity.
Qed.

Definition branch2 (oi ni : nat) (Y X : node) : node :=
  Full (set_nth ni X (set_nth oi Y empty_children)) newflag.

Definition opt_short (pre : key) (B : node) : node :=
  if Nat.eqb (length pre) 0 then B else Short pre B newflag.

(** insert where the key leaves the short node's key after [pre] *)
Lemma insert_short_diverge f pre oi rn' ni rk' c fl value :
  oi <> ni ->
  insert (S f) d (Short (pre ++ oi :: rn') c fl) (pre ++ ni :: rk') value =
  Ok (true, opt_short pre (branch2 oi ni (leafn rn' c) (leafn rk' value))).
Proof.
  intros Hne. destruct (pre ++ ni :: rk') as [|k0 kt] eqn:E; [destruct pre; discriminate|].
  rewrite insert_short_eq. cbv zeta. rewrite <- E.
  rewrite prefix_len_diverge by auto.
  assert (Hl : Nat.eqb (length pre) (length (pre ++ oi :: rn')) = false).
  { apply Nat.eqb_neq. rewrite app_length. cbn. lia. }
  rewrite Hl, !nth_error_app_mid, !skipn_app_mid, firstn_app_len.
  unfold opt_short, branch2. destruct (Nat.eqb (length pre) 0); reflexivity.
Qed.

Lemma has_opt_short (pre : key) B k' w :
  has (opt_short pre B) k' w <-> exists r, k' = pre ++ r /\ has B r w.
Proof.
  unfold opt_short. destruct pre as [|a pre]; cbn [length Nat.eqb].
  - split; [intros Hh; exists k'; auto | intros (r & -> & Hh); auto].
  - apply has_short.
Qed.

Lemma canon_opt_short (pre : key) cs g :
  nibs pre -> canon (Full cs g) -> canon (opt_short pre (Full cs g)).
Proof.
  intros Hp Hc. unfold opt_short. destruct pre as [|a pre]; cbn [length Nat.eqb]; auto.
  constructor; auto. discriminate.
Qed.

Lemma opt_short_ne pre cs g : opt_short pre (Full cs g) <> Empty.
Proof. unfold opt_short. destruct (Nat.eqb (length pre) 0); discriminate. Qed.

Lemma opt_short_not_full_eq pre cs g cs0 g0 :
  Short pre cs0 g0 = opt_short pre (Full cs g) -> False \/ True.
Proof. auto. Qed.

Lemma diverge_has pre oi rn' ni rk' c v k' w :
  oi <> ni -> oi <= 16 -> ni <= 16 ->
  has (opt_short pre (branch2 oi ni (leafn rn' c) (leafn rk' (Value v)))) k' w <->
  (k' = pre ++ ni :: rk' /\ w = v) \/ (exists r3, k' = (pre ++ oi :: rn') ++ r3 /\ has c r3 w).
Proof.
  intros Hne Ho Hn. rewrite has_opt_short. unfold branch2. split.
  - intros (r & -> & Hh). apply branch_has in Hh; auto.
    destruct Hh as [(r2 & -> & Hh)|(r2 & -> & Hh)]; apply has_leafn in Hh as (r3 & -> & Hh).
    + apply has_value in Hh as [-> ->]. left. rewrite app_nil_r. auto.
    + right. exists r3. split; auto. rewrite <- !app_assoc. reflexivity.
  - intros [[-> ->]|(r3 & -> & Hh)].
    + exists (ni :: rk'). split; auto. apply branch_has; auto. left. exists rk'. split; auto.
      apply has_leafn. exists []. rewrite app_nil_r. split; auto. constructor.
    + exists (oi :: rn' ++ r3). split; [rewrite <- !app_assoc; reflexivity|].
      apply branch_has; auto. right. exists (rn' ++ r3). split; auto. apply has_leafn. eauto.
Qed.

(** the whole of that case: the short node splits into a branch with the old rest and the new leaf *)
Lemma insert_diverge_spec f pre oi rn ni rk c fl v :
  v <> [] -> oi <> ni -> oi <= 16 -> nibs pre -> wfk (ni :: rk) -> child_ok oi (leafn rn c) ->
  let n' := opt_short pre (branch2 oi ni (leafn rn c) (leafn rk (Value v))) in
  insert (S f) d (Short (pre ++ oi :: rn) c fl) (pre ++ ni :: rk) (Value v) = Ok (true, n') /\
  canon n' /\ n' <> Empty /\ ins_spec (Short (pre ++ oi :: rn) c fl) n' (pre ++ ni :: rk) v.
Proof.
  intros Hv Hd Hoi Hpre Hwr HY n'. assert (Hni : ni <= 16) by (cbn in Hwr; lia).
  split; [apply insert_short_diverge; auto|].
  split; [apply canon_opt_short; auto; apply branch_canon; auto; apply child_ok_leaf; auto|].
  split; [apply opt_short_ne|].
  intros k' w. unfold n'. rewrite diverge_has by auto. rewrite has_short. split.
  - intros [[-> ->]|(r3 & -> & Hh)]; auto. right. split; eauto.
    rewrite <- app_assoc. intros Heq. apply app_inv_head in Heq. inversion Heq. congruence.
  - intros [[-> ->]|[_ Hh]]; auto.
Qed.

(** insert where the key ends: at a value, or at the empty value slot of a branch *)
Lemma insert_end_spec f c v : c = Empty \/ (exists v0, c = Value v0) ->
  exists b, insert (S f) d c [] (Value v) = Ok (b, Value v) /\ (b = false -> Value v = c) /\
            ins_spec c (Value v) [] v.
Proof.
  intros [->|(v0 & ->)]; rewrite insert_nil_eq.
  - exists true. split; auto. split; [discriminate|].
    intros k' w. rewrite has_value, has_empty. split; [tauto|]. intros [H|[_ []]]. exact H.
  - exists (negb (beq v0 v)). split; auto.
    assert (Hs : ins_spec (Value v0) (Value v) [] v).
    { intros k' w. rewrite !has_value. split; [tauto|]. intros [H|[Hne [E _]]]; [exact H|congruence]. }
    split; auto. intros Hb. apply negb_false_iff, beq_eq in Hb. congruence.
Qed.

(** the conjunct about [Full]: the child of an extension must stay a branch for the extension to
    stay canonical, and the stack-trie proof needs the same *)
Lemma insert_spec (v : bytes) : v <> [] ->
  forall fuel n k, canon n -> wfk k -> length k < fuel ->
  exists b n', insert fuel d n k (Value v) = Ok (b, n') /\ canon n' /\ n' <> Empty /\
               (b = false -> n' = n) /\
               (forall cs g, n = Full cs g -> exists cs' g', n' = Full cs' g') /\
               ins_spec n n' k v.
Proof.
  intros Hv. induction fuel as [|f IH]; intros n k Hc Hk Hf; [lia|].
  destruct k as [|k0 kt]; [cbn in Hk; tauto|].
  destruct Hc as [|p v0 fl Hp Hv0|nk cs g fl Hnk Hn Hc|cs fl Hl Hch H16 Hcnt].
  - exists true, (Short (k0 :: kt) (Value v) newflag). split; [reflexivity|].
    destruct (wfk_split _ Hk) as (p & Hp & Hnp). rewrite Hp.
    split; [constructor; auto|]. split; [discriminate|]. split; [discriminate|].
    split; [discriminate|].
    intros k' w. rewrite has_short, has_empty. split.
    + intros (r & -> & Hr). apply has_value in Hr as [-> ->]. rewrite app_nil_r. auto.
    + intros [[-> ->]|[_ []]]. exists []. rewrite app_nil_r. split; auto. constructor.
  - assert (Hwnk : wfk (p ++ [16])) by (apply wfk_snoc; auto).
    destruct (short_key_cases (p ++ [16]) (k0 :: kt) Hk (or_introl Hwnk))
      as [(r & Ek)|(pre & oi & rn & ni & rk & Enk & Ek & Hd & Hoi & Hpre & Hwr)].
    + (* the same key *)
      rewrite Ek in Hk, Hf |- *. assert (r = []) as -> by (apply (wfk_prefix_eq (p ++ [16]) r); auto).
      rewrite insert_short_match by (destruct p; discriminate).
      destruct f as [|f]; [rewrite !app_length in Hf; cbn in Hf; lia|].
      destruct (insert_end_spec f (Value v0) v) as (b & -> & Hb & Hs); [eauto|]. cbn [rbind fst snd].
      pose proof (short_upd_spec _ (p ++ [16]) _ _ fl newflag [] Hs) as Hs'.
      destruct b.
      * exists true, (Short (p ++ [16]) (Value v) newflag). split; auto. split; [constructor; auto|].
        repeat (split; [discriminate|]). exact Hs'.
      * specialize (Hb eq_refl). inversion Hb; subst v0.
        exists false, (Short (p ++ [16]) (Value v) fl). split; auto. split; [constructor; auto|].
        split; [discriminate|]. split; auto. split; [discriminate|].
        apply ins_spec_same. constructor. constructor.
    + (* diverge inside the leaf's key *)
      rewrite Enk in Hwnk |- *. rewrite Ek.
      destruct (insert_diverge_spec f pre oi rn ni rk (Value v0) fl v) as (E & Hcn & Hne & Hs); auto.
      { apply child_ok_leaf; auto. apply (wfk_app_inv pre); auto. }
      eexists true, _. split; [exact E|]. split; auto. split; auto. repeat (split; [discriminate|]). exact Hs.
  - destruct (short_key_cases nk (k0 :: kt) Hk (or_intror Hn))
      as [(r & Ek)|(pre & oi & rn & ni & rk & Enk & Ek & Hd & Hoi & Hpre & Hwr)].
    + rewrite Ek in Hk, Hf |- *. rewrite insert_short_match by auto.
      assert (Hr : wfk r) by (apply (wfk_app_inv nk); auto).
      destruct (IH (Full cs g) r Hc Hr) as (b & nn & Hi & Hcn & Hne & Hb & Hfull & Hs).
      { rewrite app_length in Hf. destruct nk; [congruence|]. cbn in Hf. lia. }
      rewrite Hi. cbn [rbind fst snd]. destruct (Hfull _ _ eq_refl) as (cs' & g' & ->).
      destruct b.
      * exists true, (Short nk (Full cs' g') newflag). split; auto. split; [constructor; auto|].
        repeat (split; [discriminate|]). apply short_upd_spec; auto.
      * rewrite (Hb eq_refl) in Hs. exists false, (Short nk (Full cs g) fl). split; auto.
        split; [constructor; auto|]. split; [discriminate|]. split; auto. split; [discriminate|].
        apply short_upd_spec; auto.
    + rewrite Enk in Hn |- *. rewrite Ek. apply nibs_app in Hn as [_ Hno].
      destruct (insert_diverge_spec f pre oi rn ni rk (Full cs g) fl v) as (E & Hcn & Hne & Hs); auto.
      { apply child_ok_ext; auto. }
      eexists true, _. split; [exact E|]. split; auto. split; auto. repeat (split; [discriminate|]). exact Hs.
  - rewrite insert_full_eq. assert (Hcf : canon (Full cs fl)) by (constructor; auto).
    assert (Hk0 : k0 <= 16) by (cbn in Hk; lia).
    destruct (nth_error_lt_some cs k0) as (c & Hn); [lia|]. rewrite Hn.
    (* the child's answer *)
    assert (Hchild : exists b nn, insert f d c kt (Value v) = Ok (b, nn) /\ slot_ok k0 nn /\ nn <> Empty /\
                                  (b = false -> nn = c) /\ ins_spec c nn kt v).
    { cbn in Hk. destruct Hk as [[-> ->]|[Hi Hkt]].
      - destruct f as [|f]; [cbn in Hf; lia|].
        destruct (insert_end_spec f c v) as (b & E & Hb & Hs); [destruct (H16 _ Hn) as [->|(v0 & _ & ->)]; eauto|].
        exists b, (Value v). split; auto. split; [apply slot_ok_value; auto|]. split; [discriminate|auto].
      - destruct (IH c kt (Hch _ _ Hn Hi) Hkt) as (b & nn & E & Hcn & Hne & Hb & _ & Hs); [cbn in Hf; lia|].
        exists b, nn. split; auto. split; [split; [auto|intros; lia]|]. auto. }
    destruct Hchild as (b & nn & E & Hslot & Hne & Hb & Hs). rewrite E. cbn [rbind fst snd].
    destruct b.
    + exists true, (Full (set_nth k0 nn cs) newflag). split; auto.
      split; [apply (canon_set_slot cs fl); auto; pose proof (count_ne_set_nth_ge cs k0 c nn Hn Hne); lia|].
      split; [discriminate|]. split; [discriminate|]. split; eauto. apply (full_upd_spec _ cs fl newflag k0 kt c nn); auto.
    + rewrite (Hb eq_refl) in Hs. exists false, (Full cs fl). split; auto. split; auto.
      split; [discriminate|]. split; auto. split; eauto. apply (full_upd_spec_same _ cs fl k0 kt c); auto.
Qed.


Definition collapse (cs' : list node) (nn : node) : res (bool * node) :=
  let n' := Full cs' newflag in
  if negb (is_empty nn) then Ok (true, n')
  else
    match single_child cs' 0 None with
    | Some (inl pos) =>
      let only := nth pos cs' Empty in
      if negb (Nat.eqb pos 16) then
        rbind (match only with Ref h => resolve_hash d h | _ => Ok only end) (fun cnode =>
          match cnode with
          | Short ck cv _ => Ok (true, Short (pos :: ck) cv newflag)
          | _ => Ok (true, Short [pos] only newflag)
          end)
      else Ok (true, Short [pos] only newflag)
    | _ => Ok (true, n')
    end.

Lemma delete_full_eq f cs fl k0 kt :
  delete (S f) d (Full cs fl) (k0 :: kt) =
  match nth_error cs k0 with
  | None => Crash
  | Some c =>
    rbind (delete f d c kt) (fun r =>
      if fst r then collapse (set_nth k0 (snd r) cs) (snd r) else Ok (false, Full cs fl))
  end.
Proof. reflexivity. Qed.

Lemma delete_short_eq f nk c fl k :
  delete (S f) d (Short nk c fl) k =
  let ml := prefix_len k nk in
  if Nat.ltb ml (length nk) then Ok (false, Short nk c fl)
  else if Nat.eqb ml (length k) then Ok (true, Empty)
  else
    rbind (delete f d c (skipn (length nk) k)) (fun r =>
      if fst r then
        match snd r with
        | Short ck cc _ => Ok (true, Short (nk ++ ck) cc newflag)
        | child => Ok (true, Short nk child newflag)
        end
      else Ok (false, Short nk c fl)).
Proof. reflexivity. Qed.

(** delete below a short node whose whole key matches *)
Lemma delete_short_match f nk c fl r :
  delete (S f) d (Short nk c fl) (nk ++ r) =
  match r with
  | [] => Ok (true, Empty)
  | _ => rbind (delete f d c r) (fun x =>
           if fst x then
             match snd x with
             | Short ck cc _ => Ok (true, Short (nk ++ ck) cc newflag)
             | child => Ok (true, Short nk child newflag)
             end
           else Ok (false, Short nk c fl))
  end.
Proof.
  rewrite delete_short_eq. cbv zeta. rewrite prefix_len_app, Nat.ltb_irrefl, skipn_app_len, app_length.
  destruct r as [|x r]; cbn [length].
  - rewrite Nat.add_0_r, Nat.eqb_refl. reflexivity.
  - replace (Nat.eqb (length nk) (length nk + S (length r))) with false; [reflexivity|].
    symmetry. apply Nat.eqb_neq. lia.
Qed.

(** delete where the key leaves the short node's key: nothing to do *)
Lemma delete_short_diverge f pre oi rn ni rk c fl :
  oi <> ni ->
  delete (S f) d (Short (pre ++ oi :: rn) c fl) (pre ++ ni :: rk) = Ok (false, Short (pre ++ oi :: rn) c fl).
Proof.
  intros Hne. rewrite delete_short_eq. cbv zeta. rewrite prefix_len_diverge by auto.
  replace (Nat.ltb (length pre) (length (pre ++ oi :: rn))) with true; [reflexivity|].
  symmetry. apply Nat.ltb_lt. rewrite app_length. cbn. lia.
Qed.

Lemma diverge_absent pre oi rn ni rk c fl w : oi <> ni -> ~ has (Short (pre ++ oi :: rn) c fl) (pre ++ ni :: rk) w.
Proof.
  intros Hne Hw. apply has_short in Hw as (r & E & _). rewrite <- app_assoc in E.
  apply app_inv_head in E. inversion E. congruence.
Qed.

(** the whole of that case: nothing under that key, nothing changes *)
Lemma delete_diverge_spec f pre oi rn ni rk c fl (n := Short (pre ++ oi :: rn) c fl) : oi <> ni -> canon n ->
  exists b n', delete (S f) d n (pre ++ ni :: rk) = Ok (b, n') /\ canon n' /\ (b = false -> n' = n) /\
               (forall cs g, n = Full cs g -> n' <> Empty) /\ del_spec n n' (pre ++ ni :: rk).
Proof.
  intros Hne Hc. exists false, n. split; [apply delete_short_diverge; auto|].
  split; auto. split; auto. split; [discriminate|].
  apply del_spec_absent. intros w. apply diverge_absent; auto.
Qed.

Lemma short_del_spec nk c nn fl fl' r :
  del_spec c nn r -> del_spec (Short nk c fl) (Short nk nn fl') (nk ++ r).
Proof. intros Hs. apply upd_del, short_upd_spec, upd_del, Hs. Qed.

Lemma full_del_spec cs fl fl' k0 kt c nn :
  nth_error cs k0 = Some c -> del_spec c nn kt ->
  del_spec (Full cs fl) (Full (set_nth k0 nn cs) fl') (k0 :: kt).
Proof. intros Hn Hs. apply upd_del, (full_upd_spec _ cs fl fl' k0 kt c nn Hn), upd_del, Hs. Qed.

Lemma count_one_others cs : forall p c,
  count_ne cs = 1 -> nth_error cs p = Some c -> c <> Empty ->
  forall i c', i <> p -> nth_error cs i = Some c' -> c' = Empty.
Proof.
  induction cs as [|h t IH]; intros p c Hc Hp Hne i c' Hi Hn; [destruct p; discriminate|].
  rewrite count_ne_cons in Hc.
  destruct (is_empty c') eqn:E; [apply is_empty_true; auto|]. apply is_empty_false in E. exfalso.
  destruct p as [|p], i as [|i]; cbn in Hp, Hn; try congruence.
  - inversion Hp; subst h. apply is_empty_false in Hne. rewrite Hne in Hc.
    pose proof (nth_error_count_pos _ _ _ Hn E). lia.
  - inversion Hn; subst h. apply is_empty_false in E. rewrite E in Hc.
    pose proof (nth_error_count_pos _ _ _ Hp Hne). lia.
  - destruct (is_empty h) eqn:Eh.
    + apply E. apply (IH p c) with (i := i); auto.
    + pose proof (nth_error_count_pos _ _ _ Hp Hne). lia.
Qed.

Lemma has_single cs fl p only k' w :
  count_ne cs = 1 -> nth_error cs p = Some only -> only <> Empty ->
  (has (Full cs fl) k' w <-> exists r, k' = p :: r /\ has only r w).
Proof.
  intros Hc Hp Hne. rewrite has_full. split.
  - intros (i & r & c & -> & Hn & Hr). destruct (Nat.eq_dec i p) as [->|Hd].
    + rewrite Hp in Hn. inversion Hn; subst. eauto.
    + rewrite (count_one_others cs p only Hc Hp Hne i c Hd Hn) in Hr. inversion Hr.
  - intros (r & -> & Hr). eauto 6.
Qed.

(** a canonical non-empty subtrie is a short or a full node *)
Lemma canon_shape n : canon n -> n <> Empty ->
  (exists p v f, n = Short (p ++ [16]) (Value v) f /\ nibs p /\ v <> []) \/
  (exists k cs g f, n = Short k (Full cs g) f /\ k <> [] /\ nibs k /\ canon (Full cs g)) \/
  (exists cs f, n = Full cs f).
Proof.
  intros Hc Hne. destruct Hc; [congruence| | |]; eauto 12.
Qed.

Lemma has_short_cons pos ck cv f1 f2 k' w :
  (exists r, k' = pos :: r /\ has (Short ck cv f2) r w) <-> has (Short (pos :: ck) cv f1) k' w.
Proof.
  rewrite has_short. split.
  - intros (r & -> & Hr). apply has_short in Hr as (r2 & -> & Hr2). exists r2. cbn. auto.
  - intros (r & -> & Hr). exists (ck ++ r). cbn. split; auto. apply has_short. eauto.
Qed.

Lemma collapse_spec cs fl k0 c nn :
  canon (Full cs fl) -> nth_error cs k0 = Some c -> slot_ok k0 nn ->
  exists n', collapse (set_nth k0 nn cs) nn = Ok (true, n') /\ canon n' /\ n' <> Empty /\
             (forall k' w, has n' k' w <-> has (Full (set_nth k0 nn cs) newflag) k' w).
Proof.
  intros Hc Hn Hs. pose proof (set_slot_ok cs fl k0 nn) as Hslot.
  pose proof (canon_set_slot cs fl newflag k0 nn Hc Hs) as Hcan.
  assert (Hcnt : 2 <= count_ne cs) by (inversion Hc; auto).
  pose proof (count_ne_set_nth cs k0 c nn Hn) as C. set (cs' := set_nth k0 nn cs) in *.
  unfold collapse. fold cs'. destruct (is_empty nn) eqn:En; cbn [negb].
  2:{ exists (Full cs' newflag). split; auto. split; [|split; [discriminate|tauto]].
      apply Hcan. destruct (is_empty c); lia. }
  assert (C1 : 1 <= count_ne cs') by (destruct (is_empty c); lia).
  pose proof (single_child_none cs' 0) as Hsc.
  destruct (single_child cs' 0 None) as [[pos|u]|].
  - destruct Hsc as (Hone & _ & only & Hp & Hne). rewrite Nat.sub_0_r in Hp.
    rewrite (nth_error_nth _ _ Empty Hp). destruct (Hslot pos only Hc Hs Hp) as [Hlo Hhi].
    assert (Hpos : pos < 17) by (apply nth_error_some_lt in Hp; unfold cs' in Hp; rewrite set_nth_length in Hp;
                                  inversion Hc; subst; lia).
    destruct (Nat.eqb_spec pos 16) as [->|Hp16]; cbn [negb].
    + destruct (Hhi eq_refl) as [->|(v & Hv & ->)]; [congruence|].
      exists (Short [16] (Value v) newflag). split; auto.
      split; [apply (CLeaf [] v); auto; constructor|]. split; [discriminate|].
      intros k' w. rewrite (has_single cs' newflag 16 (Value v)) by auto.
      rewrite has_short. cbn [app]. tauto.
    + assert (Hlt : pos < 16) by lia. pose proof (Hlo Hlt) as Hco.
      destruct (canon_shape _ Hco Hne) as [(p & v & f & -> & Hnp & Hv)|[(k & cs1 & g & f & -> & Hk & Hnk & Hcf)|(cs1 & f & ->)]];
        cbn [rbind].
      * exists (Short (pos :: p ++ [16]) (Value v) newflag). split; auto.
        split; [apply (CLeaf (pos :: p)); auto; constructor; auto|]. split; [discriminate|].
        intros k' w. rewrite (has_single cs' newflag pos _ k' w Hone Hp Hne).
        symmetry. apply has_short_cons.
      * exists (Short (pos :: k) (Full cs1 g) newflag). split; auto.
        split; [constructor; auto; [discriminate|constructor; auto]|]. split; [discriminate|].
        intros k' w. rewrite (has_single cs' newflag pos _ k' w Hone Hp Hne).
        symmetry. apply has_short_cons.
      * exists (Short [pos] (Full cs1 f) newflag). split; auto.
        split; [constructor; auto; [discriminate|constructor; auto; constructor]|]. split; [discriminate|].
        intros k' w. rewrite (has_single cs' newflag pos _ k' w Hone Hp Hne).
        rewrite has_short. cbn [app]. tauto.
  - exists (Full cs' newflag). split; auto. split; [|split; [discriminate|tauto]]. apply Hcan. exact Hsc.
  - lia.
Qed.

Lemma merge_short nk ck cc f1 f2 f3 k' w :
  has (Short (nk ++ ck) cc f1) k' w <-> has (Short nk (Short ck cc f2) f3) k' w.
Proof.
  rewrite !has_short. split.
  - intros (r & -> & Hr). exists (ck ++ r). rewrite app_assoc. split; auto. apply has_short. eauto.
  - intros (r & -> & Hr). apply has_short in Hr as (r2 & -> & Hr2). exists r2. rewrite app_assoc. auto.
Qed.

(** the conjunct about [Full]: below an extension the result is not empty, so [canon_shape] tells
    whether it merges into the extension *)
Lemma delete_spec :
  forall fuel n k, canon n -> wfk k -> length k < fuel ->
  exists b n', delete fuel d n k = Ok (b, n') /\ canon n' /\
               (b = false -> n' = n) /\
               (forall cs g, n = Full cs g -> n' <> Empty) /\
               del_spec n n' k.
Proof.
  induction fuel as [|f IH]; intros n k Hc Hk Hf; [lia|].
  pose proof Hc as Hcn.
  destruct Hc as [|p v0 fl Hp Hv0|nk cs g fl Hnk Hn Hc|cs fl Hl Hch H16 Hcnt].
  - exists false, Empty. split; [reflexivity|]. split; [constructor|]. split; auto.
    split; [discriminate|]. apply del_spec_absent. intros w Hw. inversion Hw.
  - assert (Hwnk : wfk (p ++ [16])) by (apply wfk_snoc; auto).
    destruct (short_key_cases (p ++ [16]) k Hk (or_introl Hwnk))
      as [(r & ->)|(pre & oi & rn & ni & rk & Enk & -> & Hd & _)].
    + assert (r = []) as -> by (apply (wfk_prefix_eq (p ++ [16]) r); auto).
      rewrite delete_short_match. exists true, Empty. split; auto. split; [constructor|].
      split; [discriminate|]. split; [discriminate|].
      intros k' w. rewrite has_empty, has_short. split; [tauto|].
      intros [Hne (r & -> & Hr)]. apply has_value in Hr as [-> ->]. congruence.
    + rewrite Enk in *. apply delete_diverge_spec; auto.
  - destruct (short_key_cases nk k Hk (or_intror Hn))
      as [(r & ->)|(pre & oi & rn & ni & rk & Enk & -> & Hd & _)].
    + assert (Hr : wfk r) by (apply (wfk_app_inv nk); auto).
      rewrite delete_short_match. destruct r as [|r0 rt] eqn:Er; [cbn in Hr; tauto|]. rewrite <- Er in *.
      destruct (IH (Full cs g) r Hc Hr) as (b & child & Hd & Hcc & Hb & Hne & Hs).
      { rewrite app_length in Hf. destruct nk; [congruence|]. cbn in Hf. lia. }
      rewrite Hd. cbn [rbind fst snd]. specialize (Hne _ _ eq_refl).
      pose proof (short_del_spec nk _ _ fl newflag r Hs) as Hs'.
      destruct b.
      * destruct (canon_shape _ Hcc Hne) as [(p & v & f0 & -> & Hnp & Hv)|[(k1 & cs1 & g1 & f0 & -> & Hk1 & Hnk1 & Hcf)|(cs1 & f0 & ->)]].
        -- exists true, (Short (nk ++ p ++ [16]) (Value v) newflag). split; auto.
           split; [rewrite app_assoc; constructor; auto; apply nibs_app; auto|].
           split; [discriminate|]. split; [discriminate|].
           intros k' w. rewrite merge_short. apply Hs'.
        -- exists true, (Short (nk ++ k1) (Full cs1 g1) newflag). split; auto.
           split; [constructor; auto; [destruct nk; [congruence|discriminate]|apply nibs_app; auto]|].
           split; [discriminate|]. split; [discriminate|].
           intros k' w. rewrite merge_short. apply Hs'.
        -- exists true, (Short nk (Full cs1 f0) newflag). split; auto.
           split; [constructor; auto|]. split; [discriminate|]. split; [discriminate|]. exact Hs'.
      * rewrite (Hb eq_refl) in Hs. exists false, (Short nk (Full cs g) fl). split; auto. split; auto.
        split; auto. split; [discriminate|]. apply short_del_spec; auto.
    + rewrite Enk in *. apply delete_diverge_spec; auto.
  - destruct k as [|k0 kt]; [cbn in Hk; tauto|]. rewrite delete_full_eq.
    assert (Hk0 : k0 <= 16) by (cbn in Hk; lia).
    destruct (nth_error_lt_some cs k0) as (c & Hn); [lia|]. rewrite Hn.
    (* the child's answer *)
    assert (Hchild : exists b nn, delete f d c kt = Ok (b, nn) /\ slot_ok k0 nn /\
                                  (b = false -> nn = c) /\ del_spec c nn kt).
    { cbn in Hk. destruct Hk as [[-> ->]|[Hi Hkt]].
      - destruct f as [|f]; [cbn in Hf; lia|].
        destruct (H16 _ Hn) as [->|(v & Hv & ->)].
        + exists false, Empty. split; [reflexivity|]. split; [split; [intros; lia|auto]|].
          split; auto. apply del_spec_absent. intros w Hw. inversion Hw.
        + exists true, Empty. split; [reflexivity|]. split; [split; [intros; lia|auto]|].
          split; [discriminate|]. intros k' w. rewrite has_empty, has_value. split; [tauto|].
          intros [Hne [-> _]]. congruence.
      - destruct (IH c kt (Hch _ _ Hn Hi) Hkt) as (b & nn & Hd & Hcc & Hb & _ & Hs); [cbn in Hf; lia|].
        exists b, nn. split; auto. split; [split; [auto|intros; lia]|]. auto. }
    destruct Hchild as (b & nn & Hd & Hslot & Hb & Hs). rewrite Hd. cbn [rbind fst snd].
    destruct b.
    + destruct (collapse_spec cs fl k0 c nn Hcn Hn Hslot) as (n' & Hco & Hcan & Hne & Hh).
      rewrite Hco. exists true, n'. split; auto. split; auto. split; [discriminate|]. split; auto.
      intros k' w. rewrite Hh. apply (full_del_spec cs fl newflag k0 kt c nn Hn Hs).
    + rewrite (Hb eq_refl) in Hs. exists false, (Full cs fl). split; auto. split; auto.
      split; auto. split; [discriminate|].
      apply upd_del, (full_upd_spec_same _ cs fl k0 kt c Hn), upd_del, Hs.
Qed.

End WithDb.
