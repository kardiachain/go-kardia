(** C07 — well-formed keys, the content relation [has], the canonical-form
    predicate [canon], and list helpers. *)
From Coq Require Import List NArith Arith Bool Lia.
From Kardia Require Import C07.Model.
Import ListNotations.

Lemma keq_refl k : keq k k = true.
Proof. induction k as [|x k IH]; cbn; auto. rewrite Nat.eqb_refl; auto. Qed.

Lemma keq_eq a b : keq a b = true <-> a = b.
Proof.
  split; [|intros ->; apply keq_refl].
  revert b; induction a as [|x a IH]; destruct b as [|y b]; cbn; intros Hk; try discriminate; auto.
  apply andb_true_iff in Hk as [Hx Hk]. apply Nat.eqb_eq in Hx. f_equal; auto.
Qed.

Lemma beq_refl k : beq k k = true.
Proof. induction k as [|x k IH]; cbn; auto. rewrite N.eqb_refl; auto. Qed.

Lemma beq_eq a b : beq a b = true <-> a = b.
Proof.
  split; [|intros ->; apply beq_refl].
  revert b; induction a as [|x a IH]; destruct b as [|y b]; cbn; intros Hk; try discriminate; auto.
  apply andb_true_iff in Hk as [Hx Hk]. apply N.eqb_eq in Hx. f_equal; auto.
Qed.

Lemma rbind_ok {A B} (x : res A) (g : A -> res B) r :
  rbind x g = Ok r -> exists a, x = Ok a /\ g a = Ok r.
Proof. destruct x; cbn; intros E; try discriminate. eauto. Qed.

Lemma set_nth_length {A} n (x : A) l : length (set_nth n x l) = length l.
Proof. revert n; induction l as [|h t IH]; destruct n; cbn; auto. Qed.

Lemma nth_error_set_nth_eq {A} n (x : A) l :
  n < length l -> nth_error (set_nth n x l) n = Some x.
Proof. revert n; induction l as [|h t IH]; destruct n; cbn; intros; try lia; auto. apply IH; lia. Qed.

Lemma nth_error_set_nth_neq {A} n m (x : A) l :
  n <> m -> nth_error (set_nth n x l) m = nth_error l m.
Proof. revert n m; induction l as [|h t IH]; destruct n, m; cbn; intros; auto; try congruence. Qed.

Lemma nth_error_some_lt {A} (l : list A) i c : nth_error l i = Some c -> i < length l.
Proof. intros Hn. apply nth_error_Some. congruence. Qed.

(** a branch has the child slots 0..15 and the value slot 16 *)
Lemma branch_slot {A} (cs : list A) i c : length cs = 17 -> nth_error cs i = Some c -> i = 16 \/ i < 16.
Proof. intros Hl Hn. apply nth_error_some_lt in Hn. lia. Qed.

Lemma nth_error_lt_some {A} (l : list A) i : i < length l -> exists c, nth_error l i = Some c.
Proof. intros Hi. destruct (nth_error l i) eqn:E; eauto. apply nth_error_None in E. lia. Qed.

Lemma set_nth_same {A} n (x : A) l : nth_error l n = Some x -> set_nth n x l = l.
Proof.
  revert n; induction l as [|h t IH]; destruct n; cbn; intros Hn; try discriminate; auto.
  - congruence.
  - f_equal; auto.
Qed.

Lemma nth_error_app_mid {A} (pre : list A) x t : nth_error (pre ++ x :: t) (length pre) = Some x.
Proof. induction pre; cbn; auto. Qed.

Lemma skipn_app_mid {A} (pre : list A) x t : skipn (S (length pre)) (pre ++ x :: t) = t.
Proof. induction pre; cbn; auto. Qed.

Lemma firstn_app_len {A} (pre t : list A) : firstn (length pre) (pre ++ t) = pre.
Proof. induction pre; cbn; [destruct t|]; auto. f_equal; auto. Qed.

Lemma skipn_app_len {A} (pre t : list A) : skipn (length pre) (pre ++ t) = t.
Proof. induction pre; cbn; auto. Qed.

Definition nibs (k : key) : Prop := Forall (fun x => x < 16) k.

(** a key as keybytesToHex produces it (or a suffix of one): nibbles below 16, then 16 *)
Fixpoint wfk (k : key) : Prop :=
  match k with
  | [] => False
  | x :: t => (x = 16 /\ t = []) \/ (x < 16 /\ wfk t)
  end.

Lemma wfk_app a b : nibs a -> wfk b -> wfk (a ++ b).
Proof. induction 1 as [|x a Hx Ha IH]; cbn; auto. Qed.

Lemma wfk_app_inv a b : nibs a -> wfk (a ++ b) -> wfk b.
Proof.
  induction 1 as [|x a Hx Ha IH]; cbn; auto.
  intros [[H16 _]|[_ Hw]]; [lia | auto].
Qed.

Lemma wfk_snoc p : nibs p -> wfk (p ++ [16]).
Proof. intros Hp. apply wfk_app; cbn; auto. Qed.

Lemma wfk_split k : wfk k -> exists p, k = p ++ [16] /\ nibs p.
Proof.
  induction k as [|x k IH]; cbn; [tauto|].
  intros [[-> ->]|[Hx Hw]].
  - exists []. split; auto. constructor.
  - destruct (IH Hw) as (p & -> & Hp). exists (x :: p). split; auto. constructor; auto.
Qed.

Lemma nibs_app a b : nibs (a ++ b) <-> nibs a /\ nibs b.
Proof. apply Forall_app. Qed.

Lemma nibs_not_wfk_prefix a r : nibs (a ++ r) -> wfk a -> False.
Proof.
  induction a as [|x a IH]; cbn; [tauto|].
  intros Hn [[-> ->]|[Hx Hw]].
  - inversion Hn; subst. lia.
  - inversion Hn; subst. auto.
Qed.

(** two well-formed keys are never proper prefixes of each other *)
Lemma wfk_prefix_eq a r : wfk a -> wfk (a ++ r) -> r = [].
Proof.
  induction a as [|x a IH]; cbn; [tauto|].
  intros [[-> ->]|[Hx Hw]] [[H1 H2]|[H1 H2]]; auto; try lia.
Qed.

(** bytes are 0..255 *)
Definition is_bytes (bs : bytes) : Prop := Forall (fun b => (b < 256)%N) bs.

Lemma keybytes_to_hex_wfk bs : is_bytes bs -> wfk (keybytes_to_hex bs).
Proof.
  induction 1 as [|b bs Hb Hbs IH]; cbn [keybytes_to_hex wfk]; auto.
  right. split.
  - assert (b / 16 < 16)%N by (apply N.div_lt_upper_bound; lia). lia.
  - right. split; auto.
    assert (b mod 16 < 16)%N by (apply N.mod_lt; lia). lia.
Qed.

Lemma keybytes_to_hex_length kb : length (keybytes_to_hex kb) = 2 * length kb + 1.
Proof. induction kb as [|b kb IH]; cbn [keybytes_to_hex length]; lia. Qed.

Lemma prefix_len_split k nk :
  exists pre rk rn, k = pre ++ rk /\ nk = pre ++ rn /\ length pre = prefix_len k nk /\
                    match rk, rn with x :: _, y :: _ => x <> y | _, _ => True end.
Proof.
  revert nk; induction k as [|x k IH]; intros nk.
  - exists [], [], nk. cbn. auto.
  - destruct nk as [|y nk].
    + exists [], (x :: k), []. cbn. auto.
    + cbn [prefix_len]. destruct (Nat.eqb_spec x y) as [->|Hne].
      * destruct (IH nk) as (pre & rk & rn & -> & -> & Hl & Hd).
        exists (y :: pre), rk, rn. cbn. auto.
      * exists [], (x :: k), (y :: nk). cbn. auto.
Qed.

Lemma prefix_len_app nk r : prefix_len (nk ++ r) nk = length nk.
Proof. induction nk as [|x nk IH]; cbn; [destruct r; auto|]. rewrite Nat.eqb_refl. auto. Qed.

Lemma prefix_len_le k nk : prefix_len k nk <= length nk /\ prefix_len k nk <= length k.
Proof.
  revert nk; induction k as [|x k IH]; destruct nk as [|y nk]; cbn; try lia.
  destruct (Nat.eqb x y); cbn; [|lia]. specialize (IH nk). lia.
Qed.

(** [has n k v]: following key [k] from node [n] (no hash nodes) ends in value [v] *)
Inductive has : node -> key -> bytes -> Prop :=
| HasV v : has (Value v) [] v
| HasS nk c f k v : has c k v -> has (Short nk c f) (nk ++ k) v
| HasF cs f i c k v : nth_error cs i = Some c -> has c k v -> has (Full cs f) (i :: k) v.

Lemma has_empty k v : has Empty k v <-> False.
Proof. split; [inversion 1 | tauto]. Qed.

Lemma has_ref h k v : has (Ref h) k v <-> False.
Proof. split; [inversion 1 | tauto]. Qed.

Lemma has_value x k v : has (Value x) k v <-> k = [] /\ v = x.
Proof. split; [inversion 1; auto | intros [-> ->]; constructor]. Qed.

Lemma has_short nk c f k v : has (Short nk c f) k v <-> exists r, k = nk ++ r /\ has c r v.
Proof.
  split.
  - inversion 1; subst. eauto.
  - intros (r & -> & Hr). constructor; auto.
Qed.

Lemma has_full cs f k v :
  has (Full cs f) k v <-> exists i r c, k = i :: r /\ nth_error cs i = Some c /\ has c r v.
Proof.
  split.
  - inversion 1; subst. eauto 6.
  - intros (i & r & c & -> & Hn & Hr). econstructor; eauto.
Qed.

Lemma has_short_app nk c f r w : has (Short nk c f) (nk ++ r) w <-> has c r w.
Proof.
  rewrite has_short. split; [|eauto]. intros (r' & E & Hh). apply app_inv_head in E. subst. exact Hh.
Qed.

Lemma has_full_at cs f i c r w : nth_error cs i = Some c -> (has (Full cs f) (i :: r) w <-> has c r w).
Proof.
  intros Hn. rewrite has_full. split; [|eauto 6].
  intros (j & r' & c' & E & Hn' & Hh). inversion E; subst. rewrite Hn in Hn'. inversion Hn'; subst. exact Hh.
Qed.

Lemma has_det n : forall k v w, has n k v -> has n k w -> v = w.
Proof.
  intros k v w Hv. revert w. induction Hv as [v|nk c f k v Hc IH|cs f i c k v Hn Hc IH]; intros w Hw.
  - apply has_value in Hw. destruct Hw as [_ ->]; auto.
  - apply has_short_app in Hw. auto.
  - apply (has_full_at _ _ _ _ _ _ Hn) in Hw. auto.
Qed.

Definition count_ne (cs : list node) : nat := length (filter (fun c => negb (is_empty c)) cs).

(** [canon n]: [n] is a (possibly empty) subtrie in the unique minimal form: no hash nodes,
    no empty values, no short node under a short node, no branch with fewer than two
    children, value nodes only at the end of a terminated key *)
Inductive canon : node -> Prop :=
| CEmpty : canon Empty
| CLeaf p v f : nibs p -> v <> [] -> canon (Short (p ++ [16]) (Value v) f)
| CExt k cs g f : k <> [] -> nibs k -> canon (Full cs g) -> canon (Short k (Full cs g) f)
| CFull cs f :
    length cs = 17 ->
    (forall i c, nth_error cs i = Some c -> i < 16 -> canon c) ->
    (forall c, nth_error cs 16 = Some c -> c = Empty \/ exists v, v <> [] /\ c = Value v) ->
    2 <= count_ne cs ->
    canon (Full cs f).

Lemma canon_has_wfk n : canon n -> forall k v, has n k v -> wfk k /\ v <> [].
Proof.
  induction 1 as [|p v f Hp Hv|k cs g f Hk Hn Hc IH|cs f Hl Hch IH H16 Hcnt]; intros k' w Hh.
  - apply has_empty in Hh. tauto.
  - apply has_short in Hh as (r & -> & Hr). apply has_value in Hr as [-> ->].
    rewrite app_nil_r. split; auto. apply wfk_snoc; auto.
  - apply has_short in Hh as (r & -> & Hr). destruct (IH _ _ Hr) as [Hw Hne].
    split; auto. apply wfk_app; auto.
  - apply has_full in Hh as (i & r & c & -> & Hn & Hr).
    destruct (branch_slot _ _ _ Hl Hn) as [->|Hi].
    + destruct (H16 _ Hn) as [->|(v & Hv & ->)].
      * apply has_empty in Hr. tauto.
      * apply has_value in Hr as [-> ->]. cbn. auto.
    + assert (Hlt : i < 16) by lia. destruct (IH _ _ Hn Hlt _ _ Hr) as [Hw Hv].
      split; auto. cbn. auto.
Qed.

Lemma count_ne_cons c cs : count_ne (c :: cs) = (if is_empty c then 0 else 1) + count_ne cs.
Proof. unfold count_ne. cbn. destruct (is_empty c); cbn; auto. Qed.

Lemma count_ne_set_nth cs i c x :
  nth_error cs i = Some c ->
  count_ne (set_nth i x cs) + (if is_empty c then 0 else 1) = count_ne cs + (if is_empty x then 0 else 1).
Proof.
  revert i; induction cs as [|h t IH]; destruct i; cbn [nth_error set_nth]; intros Hn; try discriminate.
  - inversion Hn; subst. rewrite !count_ne_cons. lia.
  - rewrite !count_ne_cons. specialize (IH _ Hn). lia.
Qed.

Lemma count_ne_repeat n : count_ne (repeat Empty n) = 0.
Proof. induction n; cbn; auto. Qed.

Lemma count_ne_pos cs : 0 < count_ne cs -> exists i c, nth_error cs i = Some c /\ c <> Empty.
Proof.
  induction cs as [|h t IH]; [cbn; lia|]. rewrite count_ne_cons.
  destruct h; cbn [is_empty]; intros Hc.
  - destruct IH as (i & c & Hn & Hne); [lia|]. exists (S i), c. auto.
  - exists 0, (Value v). cbn. split; auto. discriminate.
  - exists 0, (Short k h f). cbn. split; auto. discriminate.
  - exists 0, (Full cs f). cbn. split; auto. discriminate.
  - exists 0, (Ref h). cbn. split; auto. discriminate.
Qed.

Lemma is_empty_true c : is_empty c = true <-> c = Empty.
Proof. destruct c; cbn; split; intros; congruence. Qed.

Lemma is_empty_false c : is_empty c = false <-> c <> Empty.
Proof. destruct c; cbn; split; intros; congruence. Qed.

Lemma count_ne_two cs : 2 <= count_ne cs ->
  exists i j ci cj, i <> j /\ nth_error cs i = Some ci /\ nth_error cs j = Some cj /\
                    ci <> Empty /\ cj <> Empty.
Proof.
  induction cs as [|h t IH]; [cbn; lia|]. rewrite count_ne_cons.
  destruct (is_empty h) eqn:E; intros Hc.
  - destruct IH as (i & j & ci & cj & Hij & Hi & Hj & H1 & H2); [lia|].
    exists (S i), (S j), ci, cj. cbn. repeat split; auto.
  - destruct (count_ne_pos t) as (j & cj & Hj & H2); [lia|].
    exists 0, (S j), h, cj. cbn. repeat split; auto. apply is_empty_false; auto.
Qed.

Lemma nth_error_count_pos t : forall p c, nth_error t p = Some c -> c <> Empty -> 0 < count_ne t.
Proof.
  induction t as [|a t IH]; intros [|p] c Hp Hne; cbn in Hp; try discriminate; rewrite count_ne_cons.
  - inversion Hp; subst. apply is_empty_false in Hne. rewrite Hne. lia.
  - specialize (IH _ _ Hp Hne). lia.
Qed.

Lemma count_ne_ge_two cs i j ci cj :
  i <> j -> nth_error cs i = Some ci -> nth_error cs j = Some cj -> ci <> Empty -> cj <> Empty ->
  2 <= count_ne cs.
Proof.
  revert i j. induction cs as [|h t IH]; intros i j Hij Hi Hj Hci Hcj; [destruct i; discriminate|].
  rewrite count_ne_cons. destruct i as [|i], j as [|j]; cbn in Hi, Hj; try congruence.
  - inversion Hi; subst h. apply is_empty_false in Hci. rewrite Hci.
    pose proof (nth_error_count_pos _ _ _ Hj Hcj). lia.
  - inversion Hj; subst h. apply is_empty_false in Hcj. rewrite Hcj.
    pose proof (nth_error_count_pos _ _ _ Hi Hci). lia.
  - assert (2 <= count_ne t) by (eapply (IH i j); eauto). lia.
Qed.

(** what the loop in delete computes *)
Lemma single_child_some cs : forall i a,
  single_child cs i (Some a) = if Nat.eqb (count_ne cs) 0 then Some (inl a) else Some (inr tt).
Proof.
  induction cs as [|h t IH]; intros i a; cbn [single_child]; auto.
  rewrite count_ne_cons. destruct (is_empty h); cbn; auto.
Qed.

Lemma single_child_none cs : forall i,
  match single_child cs i None with
  | None => count_ne cs = 0
  | Some (inl p) => count_ne cs = 1 /\ i <= p /\ exists c, nth_error cs (p - i) = Some c /\ c <> Empty
  | Some (inr _) => 2 <= count_ne cs
  end.
Proof.
  induction cs as [|h t IH]; intros i; cbn [single_child]; auto.
  rewrite count_ne_cons. destruct (is_empty h) eqn:E.
  - specialize (IH (S i)). destruct (single_child t (S i) None) as [[p|u]|]; cbn; auto.
    destruct IH as (Hc & Hp & c & Hn & Hne). repeat split; auto; try lia.
    exists c. split; auto. replace (p - i) with (S (p - S i)) by lia. auto.
  - rewrite single_child_some. destruct (Nat.eqb_spec (count_ne t) 0) as [Hz|Hz].
    + repeat split; try lia. exists h. rewrite Nat.sub_diag. cbn. split; auto.
      apply is_empty_false; auto.
    + lia.
Qed.
