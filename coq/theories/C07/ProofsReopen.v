(** C07 — partially resolved tries: the relation [rel] between a run-time trie with hash nodes and
    the canonical trie it stands for, resolving one hash node, the size bounds under which the codec
    round trip applies, and two facts about the root of a hashed trie ([cenc_erase], [finish_forced]). *)
From Coq Require Import List ZArith NArith Arith Bool Lia.
From Kardia Require Import C07.Model C07.ProofsBase C07.ProofsMap C07.ProofsCanon C07.ProofsEnc
     C07.ProofsCache C07.ProofsRlp C07.ProofsCodec C07.ProofsCommit.
Import ListNotations.

Lemma Forall2_nth_error_r {A B} (R : A -> B -> Prop) l l' i y :
  Forall2 R l l' -> nth_error l' i = Some y -> exists x, nth_error l i = Some x /\ R x y.
Proof.
  intros Hf. revert i. induction Hf as [|a b l l' Hab Hl IH]; intros [|i] Hn; cbn in *; try discriminate.
  - inversion Hn; subst. eauto.
  - eauto.
Qed.

Lemma Forall2_set_nth_l {A B} (R : A -> B -> Prop) l l' i x y :
  Forall2 R l l' -> nth_error l' i = Some y -> R x y -> Forall2 R (set_nth i x l) l'.
Proof.
  intros Hf. revert i. induction Hf as [|a b l l' Hab Hl IH]; intros [|i] Hn Hr; cbn in *; try discriminate.
  - inversion Hn; subst. constructor; auto.
  - constructor; eauto.
Qed.

Lemma Forall2_map_l {A B} (R : B -> A -> Prop) (f : A -> B) l :
  (forall c, In c l -> R (f c) c) -> Forall2 R (map f l) l.
Proof. induction l as [|a l IH]; intros Hh; cbn; constructor; [apply Hh; left; auto|apply IH; intros; apply Hh; right; auto]. Qed.

Lemma rlp_list_not_128 p : rlp_list p <> [128%N].
Proof.
  unfold rlp_list. destruct (N.ltb (nlen p) 56); intros E; apply (f_equal (hd 0%N)) in E; cbn [hd] in E; lia.
Qed.

Section Reopen.
Variable H : bytes -> bytes.
Hypothesis Hlen : forall x, length (H x) = 32.
Variable d : db.

Definition is_node (c : node) : Prop := match c with Short _ _ _ | Full _ _ => True | _ => False end.

(** everything strictly below [c] that is referenced by hash can be read from the database *)
Definition below (c : node) : Prop :=
  match c with
  | Short _ ch _ => covered_db H d false ch
  | Full cs _ => forall ch, In ch cs -> covered_db H d false ch
  | _ => True
  end.

Lemma covered_below root c : covered_db H d root c -> below c.
Proof. intros Hc. inversion Hc; subst; cbn; auto. Qed.

(** [rel n' n]: the run-time node [n'] (with hash nodes) is a partially resolved view of the
    canonical node [n] whose missing parts are all in the database *)
Inductive rel : node -> node -> Prop :=
| RelE : rel Empty Empty
| RelV v : rel (Value v) (Value v)
| RelS k c' c f' f : rel c' c -> rel (Short k c' f') (Short k c f)
| RelF cs' cs f' f : Forall2 rel cs' cs -> rel (Full cs' f') (Full cs f)
| RelR c : is_node c -> db_get d (H (cenc H c)) = Some (cenc H c) -> below c ->
           rel (Ref (H (cenc H c))) c.

Lemma hspec_canon_cases c : canon c -> c <> Empty ->
  hspec H c false = HEmb (cenc H c) \/ hspec H c false = HHash (H (cenc H c)).
Proof. intros Hc Hne. rewrite (hspec_node H c Hc Hne). apply finish_cases. Qed.

Lemma canon_is_node c : canon c -> c <> Empty -> is_node c.
Proof. intros Hc Hne. destruct Hc; cbn; auto. Qed.

Lemma resolve_ok c : canon c -> sized c -> is_node c ->
  db_get d (H (cenc H c)) = Some (cenc H c) ->
  resolve_hash d (H (cenc H c)) = Ok (shallow H (Some (H (cenc H c))) c).
Proof.
  intros Hc Hs Hn Hg. unfold resolve_hash. rewrite Hg.
  rewrite (decode_cenc_exact H Hlen c _ Hc Hs Hn).
  pose proof (cenc_nonempty H Hlen c Hc Hs Hn). destruct (cenc H c); [congruence|reflexivity].
Qed.

Definition ref_cost (n : node) : nat := match n with Ref _ => 1 | _ => 0 end.

Lemma sized_of_content n : canon n ->
  (forall k w, has n k w -> (nlen k < B32)%N /\ (nlen w < B32)%N) -> sized n.
Proof.
  induction 1 as [|p v f Hp Hv|k cs g f Hk Hn Hc IH|cs f Hl Hch IH H16 Hcnt]; intros Hb.
  - constructor.
  - assert (Hh : has (Short (p ++ [16]) (Value v) f) ((p ++ [16]) ++ []) v) by (constructor; constructor).
    destruct (Hb _ _ Hh) as [B1 B2]. rewrite app_nil_r in B1. constructor; auto. constructor; auto.
  - destruct (canon_has_key _ Hc) as (k' & w & Hh); [discriminate|].
    assert (Hh2 : has (Short k (Full cs g) f) (k ++ k') w) by (constructor; auto).
    destruct (Hb _ _ Hh2) as [B1 _]. rewrite nlen_app in B1. constructor; [lia|].
    apply IH. intros k2 w2 Hk2. assert (Hh3 : has (Short k (Full cs g) f) (k ++ k2) w2) by (constructor; auto).
    destruct (Hb _ _ Hh3) as [C1 C2]. rewrite nlen_app in C1. split; auto. lia.
  - constructor. intros c Hin. destruct (In_nth_error _ _ Hin) as (i & Hi).
    destruct (branch_slot _ _ _ Hl Hi) as [->|Hlt].
    + destruct (H16 _ Hi) as [->|(v & _ & ->)]; [constructor|].
      assert (Hh : has (Full cs f) [16] v) by (econstructor; eauto; constructor).
      destruct (Hb _ _ Hh). constructor; auto.
    + apply (IH i c Hi); [lia|]. intros k2 w2 Hk2.
      assert (Hh : has (Full cs f) (i :: k2) w2) by (econstructor; eauto).
      destruct (Hb _ _ Hh) as [C1 C2]. cbn [nlen] in C1. split; auto. lia.
Qed.

(** the content is bounded: keys and values shorter than 2^30 bytes (2 * 2^30 + 1 nibbles, below
    the 2^32 of [sized]) *)
Definition bounded (m : bytes -> bytes) : Prop :=
  forall kb, m kb <> [] -> (nlen kb < 1073741824)%N /\ (nlen (m kb) < 1073741824)%N.

Lemma represents_sized m n : represents m n -> bounded m -> sized n.
Proof.
  intros [Hc Hr] Hb. apply sized_of_content; auto. intros k w Hh.
  apply Hr in Hh as (kb & _ & -> & -> & Hw). destruct (Hb kb Hw) as [B1 B2].
  rewrite !nlen_length in *. rewrite keybytes_to_hex_length. unfold B32. lia.
Qed.

Lemma cenc_erase a b : erase a = erase b -> cenc H a = cenc H b.
Proof.
  intros E. destruct a, b; cbn in E; try discriminate; try reflexivity.
  - injection E as E1 E2. subst. unfold cenc. f_equal. unfold hspec. rewrite E2. reflexivity.
  - injection E as E1. unfold cenc. f_equal.
    assert (X : map (fun c => hspec H c false) cs = map (fun c => hspec H (erase c) false) cs).
    { apply map_ext. intros c. symmetry. apply hspec_erase. }
    assert (Y : map (fun c => hspec H c false) cs0 = map (fun c => hspec H (erase c) false) cs0).
    { apply map_ext. intros c. symmetry. apply hspec_erase. }
    rewrite X, Y. rewrite <- !(map_map erase (fun c => hspec H c false)). rewrite E1. reflexivity.
Qed.

End Reopen.

Section Final.
Variable H : bytes -> bytes.
Hypothesis Hlen : forall x, length (H x) = 32.

Lemma finish_forced e : finish H e true = HHash (H e).
Proof. unfold finish. rewrite andb_false_r. reflexivity. Qed.

Lemma top_dirty root c : is_node c -> caches_ok H root c ->
  match c with Short _ _ fl | Full _ fl => fdirty fl = true | _ => True end.
Proof.
  destruct c; cbn [is_node]; try tauto; intros _ Hok.
  - apply caches_ok_short in Hok. destruct Hok as (X & _). exact X.
  - apply caches_ok_full in Hok. destruct Hok as (X & _). exact X.
Qed.

End Final.
