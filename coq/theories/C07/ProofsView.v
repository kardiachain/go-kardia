(** C07 — Get / Update / Delete / Hash THROUGH hash nodes.
    A run-time trie whose root was committed (hash nodes resolved from the database on demand,
    decoded nodes carrying their hash) is a [view] of a canonical trie; Trie.get, Trie.insert and
    Trie.delete on the view run in lockstep with the same operation on the canonical trie and yield a
    view of its result; hasher.hash on a view returns the canonical hash.  Hence operations after a
    commit / reopen keep refining the map and the root stays the canonical root of the content. *)
From Coq Require Import List ZArith NArith Arith Bool Lia.
From Kardia Require Import C07.Model C07.ProofsBase C07.ProofsMap C07.ProofsCanon C07.ProofsEnc
     C07.ProofsCache C07.ProofsRlp C07.ProofsCodec C07.ProofsCommit C07.ProofsReopen.
Import ListNotations.

Section Mono.
Variable d : db.

Lemma insert_ref_eq f h k0 kt value :
  insert (S f) d (Ref h) (k0 :: kt) value =
  rbind (resolve_hash d h) (fun rn =>
    rbind (insert f d rn (k0 :: kt) value) (fun r =>
      if fst r then Ok (true, snd r) else Ok (false, rn))).
Proof. reflexivity. Qed.

Lemma delete_ref_eq f h k :
  delete (S f) d (Ref h) k =
  rbind (resolve_hash d h) (fun rn =>
    rbind (delete f d rn k) (fun r =>
      if fst r then Ok (true, snd r) else Ok (false, rn))).
Proof. reflexivity. Qed.

Lemma insert_mono : forall f n k v r, insert f d n k v = Ok r -> insert (S f) d n k v = Ok r.
Proof.
  induction f as [|f IH]; intros n k v r Hi; [discriminate|].
  destruct k as [|k0 kt]; [exact Hi|].
  destruct n as [|v0|nk c fl|cs fl|h]; try exact Hi.
  - rewrite insert_short_eq in *. cbv zeta in *.
    destruct (Nat.eqb (prefix_len (k0 :: kt) nk) (length nk)); [|exact Hi].
    apply rbind_ok in Hi as (a & Ha & Hg). rewrite (IH _ _ _ _ Ha). exact Hg.
  - rewrite insert_full_eq in *. destruct (nth_error cs k0); [|exact Hi].
    apply rbind_ok in Hi as (a & Ha & Hg). rewrite (IH _ _ _ _ Ha). exact Hg.
  - rewrite insert_ref_eq in *. apply rbind_ok in Hi as (rn & Hr & Hi). rewrite Hr. cbn [rbind].
    apply rbind_ok in Hi as (a & Ha & Hg). rewrite (IH _ _ _ _ Ha). exact Hg.
Qed.

Lemma delete_mono : forall f n k r, delete f d n k = Ok r -> delete (S f) d n k = Ok r.
Proof.
  induction f as [|f IH]; intros n k r Hi; [discriminate|].
  destruct n as [|v0|nk c fl|cs fl|h]; try exact Hi.
  - rewrite delete_short_eq in *. cbv zeta in *.
    destruct (Nat.ltb (prefix_len k nk) (length nk)); [exact Hi|].
    destruct (Nat.eqb (prefix_len k nk) (length k)); [exact Hi|].
    apply rbind_ok in Hi as (a & Ha & Hg). rewrite (IH _ _ _ Ha). exact Hg.
  - destruct k as [|k0 kt]; [exact Hi|]. rewrite delete_full_eq in *.
    destruct (nth_error cs k0); [|exact Hi].
    apply rbind_ok in Hi as (a & Ha & Hg). rewrite (IH _ _ _ Ha). exact Hg.
  - rewrite delete_ref_eq in *. apply rbind_ok in Hi as (rn & Hr & Hi). rewrite Hr. cbn [rbind].
    apply rbind_ok in Hi as (a & Ha & Hg). rewrite (IH _ _ _ Ha). exact Hg.
Qed.

End Mono.

Section View.
Variable H : bytes -> bytes.
Hypothesis Hlen : forall x, length (H x) = 32.
Variable d : db.

(** a cached hash is the hash of the canonical node at that position *)
Definition hash_ok (root : bool) (n : node) (f' : flag) : Prop :=
  forall h, fhash f' = Some h -> hspec H n root = HHash h.

Lemma hash_ok_new root n : hash_ok root n newflag.
Proof. intros h X. discriminate. Qed.

(** [view root n' n]: the run-time node [n'] is a partially resolved view of the canonical node
    [n] ([rel]) whose cached hashes are right; [root]: the node sits at the root (forced hashing) *)
Inductive view : bool -> node -> node -> Prop :=
| VwE root : view root Empty Empty
| VwV root v : view root (Value v) (Value v)
| VwS root k c' c f' f : view false c' c -> hash_ok root (Short k c f) f' ->
                         view root (Short k c' f') (Short k c f)
| VwF root cs' cs f' f : Forall2 (view false) cs' cs -> hash_ok root (Full cs f) f' ->
                         view root (Full cs' f') (Full cs f)
| VwR root c : is_node c -> db_get d (H (cenc H c)) = Some (cenc H c) -> below H d c ->
               hspec H c root = HHash (H (cenc H c)) ->
               view root (Ref (H (cenc H c))) c.

(** a node with a new flag over viewed children is a view *)
Lemma view_new_short root k c' c f : view false c' c -> view root (Short k c' newflag) (Short k c f).
Proof. intros Hc. constructor; auto. apply hash_ok_new. Qed.

Lemma view_new_full root cs' cs f : Forall2 (view false) cs' cs -> view root (Full cs' newflag) (Full cs f).
Proof. intros Hc. constructor; auto. apply hash_ok_new. Qed.

Lemma view_rel : forall root n' n, view root n' n -> rel H d n' n.
Proof.
  fix IH 4. intros root n' n Hv. destruct Hv as [r|r v|r k c' c f' f Hc Hh|r cs' cs f' f Hcs Hh|r c Hn Hg Hb Hs].
  - constructor.
  - constructor.
  - constructor. exact (IH _ _ _ Hc).
  - constructor. clear Hh. revert cs' cs Hcs. fix IHl 3. intros cs' cs Hcs. destruct Hcs as [|a b l l' Hab Hl].
    + constructor.
    + constructor; [exact (IH _ _ _ Hab)|exact (IHl _ _ Hl)].
  - constructor; auto.
Qed.

Lemma view_empty_l root c : view root Empty c -> c = Empty.
Proof. intros Hv. inversion Hv; auto. Qed.
Lemma view_empty_r root c' : view root c' Empty -> c' = Empty.
Proof. intros Hv. inversion Hv; subst; auto. match goal with X : is_node Empty |- _ => destruct X end. Qed.

Lemma view_is_empty root c' c : view root c' c -> is_empty c' = is_empty c.
Proof. intros Hv. destruct Hv; try reflexivity. destruct c; cbn in *; tauto. Qed.

Lemma view_value_r root c' v : view root c' (Value v) -> c' = Value v.
Proof. intros Hv. inversion Hv; subst; auto. match goal with X : is_node (Value _) |- _ => destruct X end. Qed.

(** canonical and sized all the way down (what resolving a hash node below needs) *)
Inductive okn : node -> Prop :=
| OkE : okn Empty
| OkV v : okn (Value v)
| OkS k c f : canon (Short k c f) -> sized (Short k c f) -> okn c -> okn (Short k c f)
| OkF cs f : canon (Full cs f) -> sized (Full cs f) -> (forall c, In c cs -> okn c) -> okn (Full cs f).

Lemma canon_okn n : canon n -> sized n -> okn n.
Proof.
  induction 1 as [|p v f Hp Hv|k cs g f Hk Hn Hc IH|cs f Hl Hch IH H16 Hcnt]; intros Hs.
  - constructor.
  - constructor; [constructor; auto|exact Hs|constructor].
  - inversion Hs; subst. constructor; [constructor; auto|exact Hs|auto].
  - inversion Hs as [| | |? ? Hsc]; subst. constructor; [constructor; auto|exact Hs|].
    intros c Hin. destruct (In_nth_error _ _ Hin) as (i & Hi).
    destruct (branch_slot _ _ _ Hl Hi) as [->|Hlt].
    + destruct (H16 _ Hi) as [->|(v & _ & ->)]; constructor.
    + apply (IH i c Hi); [lia|]. apply Hsc; auto.
Qed.

Lemma okn_node c : okn c -> is_node c -> canon c /\ sized c.
Proof. intros Ho Hn. destruct Ho; cbn in Hn; try tauto; auto. Qed.

(** what the parent stores for a child is a view of that child *)
Lemma cref_view c : covered_db H d false c ->
  (c = Empty \/ (exists v, c = Value v) \/
   (canon c /\ c <> Empty /\ (below H d c -> view false (shallow H None c) c))) ->
  view false (cref H c) c.
Proof.
  intros Hcov [->|[(v & ->)|(Hc & Hne & IH)]].
  - cbn. constructor.
  - cbn. constructor.
  - unfold cref. destruct (hspec_canon_cases H c Hc Hne) as [E|E]; rewrite E.
    + apply IH. eapply covered_below; eauto.
    + apply VwR; [apply canon_is_node; auto| |eapply covered_below; eauto|exact E].
      inversion Hcov as [| |? k0 c0 f0 Ho _|? cs0 f0 Ho _]; subst; try (inversion Hc; fail); try congruence;
        apply Ho; exact E.
Qed.

Lemma shallow_view c : canon c -> forall h root, below H d c ->
  hash_ok root c (mkFlag h false) -> view root (shallow H h c) c.
Proof.
  induction 1 as [|p v f Hp Hv|k cs g f Hk Hn Hc IH|cs f Hl Hch IH H16 Hcnt]; intros h root Hb Hh.
  - constructor.
  - rewrite shallow_short. constructor; [cbn; constructor|exact Hh].
  - rewrite shallow_short. constructor; [|exact Hh]. apply cref_view; [exact Hb|].
    right. right. split; auto. split; [discriminate|]. intros Hb'. apply IH; auto.
    intros x X. discriminate.
  - rewrite shallow_full. constructor; [|exact Hh]. apply Forall2_map_l. intros c Hin.
    apply cref_view; [apply Hb; auto|].
    destruct (In_nth_error _ _ Hin) as (i & Hi). destruct (branch_slot _ _ _ Hl Hi) as [->|Hlt].
    + destruct (H16 _ Hi) as [->|(v & _ & ->)]; eauto.
    + destruct (is_empty c) eqn:E.
      * apply is_empty_true in E. auto.
      * apply is_empty_false in E. right. right. split; [eapply Hch; eauto|]. split; auto.
        intros Hb'. apply (IH i c Hi Hlt); auto. intros x X. discriminate.
Qed.

(** resolving the hash node of a view gives a view of the same canonical node *)
Lemma resolve_view root c : okn c -> view root (Ref (H (cenc H c))) c ->
  exists rn, resolve_hash d (H (cenc H c)) = Ok rn /\ view root rn c /\ ref_cost rn = 0.
Proof.
  intros Ho Hv.
  assert (Hx : is_node c /\ db_get d (H (cenc H c)) = Some (cenc H c) /\ below H d c /\
               hspec H c root = HHash (H (cenc H c))).
  { inversion Hv; subst; auto. }
  destruct Hx as (Hn & Hg & Hb & Hs). destruct (okn_node c Ho Hn) as [Hc Hsz].
  exists (shallow H (Some (H (cenc H c))) c). split; [apply resolve_ok; auto|]. split.
  - apply shallow_view; auto. intros h X. cbn in X. inversion X; subst. exact Hs.
  - destruct c; cbn in Hn; try tauto; reflexivity.
Qed.

Lemma get_ref_eq f h k :
  get (S f) d (Ref h) k = rbind (resolve_hash d h) (fun child => get f d child k).
Proof. reflexivity. Qed.

(** values and empty slots are never behind a hash node *)
Lemma rel_end c' c : rel H d c' c -> c = Empty \/ (exists v, v <> [] /\ c = Value v) -> c' = c.
Proof.
  intros Hr [->|(v & _ & ->)]; inversion Hr; subst; auto; match goal with X : is_node _ |- _ => destruct X end.
Qed.

(** Trie.get on a partially resolved view *)
Lemma get_rel : forall fuel n' n k, rel H d n' n -> canon n -> sized n -> wfk k ->
  2 * length k + ref_cost n' < fuel ->
  exists v n'', get fuel d n' k = Ok (v, n'') /\ get_ok n k v /\ rel H d n'' n.
Proof.
  induction fuel as [|f IH]; intros n' n k Hr Hc Hs Hk Hf; [lia|].
  (* where the key ends the child is a value or an empty slot, the same on both sides *)
  assert (Hend : forall c' c, rel H d c' c -> c = Empty \/ (exists v, v <> [] /\ c = Value v) -> 0 < f ->
            exists v n2, get f d c' [] = Ok (v, n2) /\ get_ok c [] v /\ rel H d n2 c).
  { intros c' c Hrc Hv Hpos. pose proof Hrc as Hrc'. rewrite (rel_end _ _ Hrc Hv) in Hrc' |- *.
    destruct f; [lia|]. destruct (get_end d f c Hv) as (v & E & Hok). eauto. }
  destruct Hr as [|v|k0 c' c f' fl Hrc|cs' cs f' fl Hrc|c Hn Hg Hb].
  - exists [], Empty. split; [reflexivity|]. split; [|constructor].
    left. split; auto. intros w Hw. inversion Hw.
  - inversion Hc.
  - rewrite get_short_eq. inversion Hs as [| |? ? ? Hkl Hsc|]; subst.
    destruct (short_cond k0 k) eqn:E.
    + exists [], (Short k0 c' f'). split; auto. split; [|constructor; auto].
      left. split; auto. apply short_cond_absent; auto.
    + apply short_cond_false in E as (r & ->). rewrite skipn_app_len.
      destruct (canon_short_child k0 c fl r Hc Hk) as [Hnk Hchild].
      assert (Hlr : length r < length (k0 ++ r)) by (rewrite app_length; destruct k0; [congruence|cbn; lia]).
      assert (Hch : exists v n2, get f d c' r = Ok (v, n2) /\ get_ok c r v /\ rel H d n2 c).
      { destruct Hchild as [[-> Hv]|[Hcc Hr]]; [apply Hend; auto; lia|].
        apply IH; auto. destruct c'; cbn [ref_cost] in *; lia. }
      destruct Hch as (v & n2 & Hg & Hok & Hr2). rewrite Hg. cbn [rbind fst snd].
      exists v, (Short k0 n2 f'). split; auto. split; [apply get_ok_short; auto|constructor; auto].
  - inversion Hs as [| | |? ? Hsc]; subst.
    inversion Hc as [| | |? ? Hl Hch H16 Hcnt]; subst.
    destruct k as [|i kt]; [cbn in Hk; tauto|]. rewrite get_full_eq.
    assert (Hi17 : i <= 16) by (cbn in Hk; lia).
    destruct (nth_error_lt_some cs i) as (c & Hn); [lia|].
    destruct (Forall2_nth_error_r _ _ _ _ _ Hrc Hn) as (c' & Hn' & Hrc').
    rewrite Hn'.
    assert (Hchild : exists v n2, get f d c' kt = Ok (v, n2) /\ get_ok c kt v /\ rel H d n2 c).
    { cbn in Hk. destruct Hk as [[-> ->]|[Hi Hkt]]; [apply Hend; auto; cbn in Hf; lia|].
      apply IH; auto; [eapply Hch; eauto|apply Hsc; eapply nth_error_In; eauto|].
      cbn in Hf. destruct c'; cbn [ref_cost] in *; lia. }
    destruct Hchild as (v & n2 & Hg & Hok & Hr2). rewrite Hg. cbn [rbind fst snd].
    exists v, (Full (set_nth i n2 cs') f'). split; auto.
    split; [eapply get_ok_full; eauto|constructor; eapply Forall2_set_nth_l; eauto].
  - (* hash node: resolve, then continue on the decoded node *)
    rewrite get_ref_eq. rewrite (resolve_ok H Hlen d c Hc Hs Hn Hg). cbn [rbind].
    apply IH; auto.
    + apply (view_rel true), shallow_view; auto. intros h E. inversion E; subst.
      rewrite (hspec_cenc H c true Hn), finish_forced. reflexivity.
    + cbn [ref_cost] in Hf. destruct c; cbn in Hn; try tauto; cbn; lia.
Qed.

(** every Ref view names the hash of the canonical node *)
Lemma view_ref_inv root h c : view root (Ref h) c -> h = H (cenc H c).
Proof. intros Hv. inversion Hv; subst; reflexivity. Qed.

Lemma Forall2_set_nth_both {A B} (R : A -> B -> Prop) l l' i x y :
  Forall2 R l l' -> R x y -> Forall2 R (set_nth i x l) (set_nth i y l').
Proof.
  intros Hf. revert i. induction Hf as [|a b l l' Hab Hl IH]; intros [|i] Hr; cbn; constructor; auto.
Qed.

Lemma Forall2_repeat {A B} (R : A -> B -> Prop) x y n : R x y -> Forall2 R (repeat x n) (repeat y n).
Proof. intros Hr. induction n; cbn; constructor; auto. Qed.

Lemma Forall2_nth {A B} (R : A -> B -> Prop) l l' i x y :
  Forall2 R l l' -> R x y -> R (nth i l x) (nth i l' y).
Proof.
  intros Hf. revert i. induction Hf as [|a b l l' Hab Hl IH]; intros [|i] Hr; cbn; auto.
Qed.

Lemma Forall2_length_eq {A B} (R : A -> B -> Prop) l l' : Forall2 R l l' -> length l = length l'.
Proof. induction 1; cbn; auto. Qed.

Lemma In_set_nth {A} (l : list A) : forall i x y, In x (set_nth i y l) -> x = y \/ In x l.
Proof.
  induction l as [|a l IH]; intros [|i] x y Hin; cbn in *; auto.
  - destruct Hin; auto.
  - destruct Hin as [->|Hin]; auto. destruct (IH _ _ _ Hin); auto.
Qed.

Lemma single_child_view cs' cs : Forall2 (view false) cs' cs ->
  forall i acc, single_child cs' i acc = single_child cs i acc.
Proof.
  induction 1 as [|c' c l' l Hc Hl IH]; intros i acc; cbn [single_child]; auto.
  rewrite (view_is_empty _ _ _ Hc). destruct (is_empty c); auto. destruct acc; auto.
Qed.

Definition not_ref (n : node) : Prop := match n with Ref _ => False | _ => True end.

Lemma view_leafn r x' x : view false x' x -> view false (leafn r x') (leafn r x).
Proof.
  intros Hv. destruct r as [|a r]; cbn [leafn]; auto. apply view_new_short; auto.
Qed.

Lemma okn_short_key k c f : okn (Short k c f) -> 1 <= length k.
Proof.
  intros Ho. inversion Ho as [| |? ? ? Hc _ _|]; subst.
  inversion Hc; subst.
  - rewrite app_length. cbn. lia.
  - destruct k; [congruence|cbn; lia].
Qed.

Lemma okn_short_child k c f : okn (Short k c f) -> okn c.
Proof. intros Ho. inversion Ho; subst; auto. Qed.

Lemma okn_full_child cs f i c : okn (Full cs f) -> nth_error cs i = Some c -> okn c.
Proof. intros Ho Hn. inversion Ho as [| | |? ? _ _ Hch]; subst. apply Hch. eapply nth_error_In; eauto. Qed.

Lemma skipn_length_le {A} n (l : list A) : n <= length l -> length (skipn n l) = length l - n.
Proof. intros _. apply skipn_length. Qed.

(** the result of the operation on the canonical trie, independent of the (sufficient) fuel:
    the view spends fuel on resolving hash nodes (one extra step per nibble at most, [ref_cost] pays
    for the one at the current node), so the two runs never share a fuel *)
Definition ins_res (n : node) (k : key) (value : node) (b : bool) (m : node) : Prop :=
  exists F, forall f0, F <= f0 -> insert f0 d n k value = Ok (b, m).

Lemma mono_le_insert f f' n k v r : insert f d n k v = Ok r -> f <= f' -> insert f' d n k v = Ok r.
Proof. intros Hi Hle. induction Hle; auto. apply insert_mono; auto. Qed.

Lemma mono_le_delete f f' n k r : delete f d n k = Ok r -> f <= f' -> delete f' d n k = Ok r.
Proof. intros Hi Hle. induction Hle; auto. apply delete_mono; auto. Qed.

(** from a stable result of a step that recurses into a child: the child's result is stable too *)
Lemma stable_child {A} (step : nat -> res A) (sub : nat -> res (bool * node)) (cont : bool * node -> res A) F r :
  (forall f0, F <= f0 -> step (S f0) = rbind (sub f0) cont) ->
  (forall f0, S F <= f0 -> step f0 = Ok r) ->
  (forall f f' x, sub f = Ok x -> f <= f' -> sub f' = Ok x) ->
  exists rc, (forall f0, F <= f0 -> sub f0 = Ok rc) /\ cont rc = Ok r.
Proof.
  intros Hstep Hres Hmono.
  pose proof (Hres (S F) (le_n _)) as H0. rewrite (Hstep F (le_n _)) in H0.
  apply rbind_ok in H0 as (rc & Hs & Hc). exists rc. split; auto.
  intros f0 Hle. eapply Hmono; eauto.
Qed.

Lemma view_insert w : forall fuel root n' n k b m,
  view root n' n -> okn n -> ins_res n k (Value w) b m ->
  2 * length k + ref_cost n' < fuel ->
  exists m', insert fuel d n' k (Value w) = Ok (b, m') /\ view root m' m /\ (b = false -> m = n).
Proof.
  induction fuel as [|f IH]; intros root n' n k b m Hv Ho [F Hres] Hf; [lia|].
  destruct k as [|k0 kt].
  - (* the key ends here *)
    pose proof (Hres (S F) (Nat.le_succ_diag_r _)) as H0. rewrite insert_nil_eq in H0.
    rewrite insert_nil_eq.
    destruct n as [|v| | |].
    + inversion H0; subst. apply view_empty_r in Hv. subst. eexists. split; [reflexivity|]. split; [constructor|discriminate].
    + apply view_value_r in Hv. subst. inversion H0; subst. eexists. split; [reflexivity|]. split; [constructor|].
      intros Hb. apply negb_false_iff in Hb. apply beq_eq in Hb. subst. reflexivity.
    + inversion H0; subst. exists (Value w). split; [|split; [constructor|discriminate]].
      inversion Hv; subst; reflexivity.
    + inversion H0; subst. exists (Value w). split; [|split; [constructor|discriminate]].
      inversion Hv; subst; reflexivity.
    + inversion Ho.
  - destruct Hv as [r|r v|r nk c' c f' fl Hc Hh|r cs' cs f' fl Hcs Hh|r c Hn Hg Hb Hs].
    + pose proof (Hres (S F) (Nat.le_succ_diag_r _)) as H0. cbn in H0. inversion H0; subst.
      eexists. split; [reflexivity|]. split; [|discriminate]. apply view_new_short. constructor.
    + pose proof (Hres (S F) (Nat.le_succ_diag_r _)) as H0. cbn in H0. discriminate.
    + rewrite insert_short_eq. cbv zeta. set (k := k0 :: kt) in *. set (ml := prefix_len k nk).
      pose proof (okn_short_key _ _ _ Ho) as Hnk. pose proof (prefix_len_le k nk) as [Hml1 Hml2]. fold ml in Hml1, Hml2.
      destruct (Nat.eqb ml (length nk)) eqn:Eml.
      * apply Nat.eqb_eq in Eml.
        destruct (stable_child (fun f0 => insert f0 d (Short nk c fl) k (Value w))
                    (fun f0 => insert f0 d c (skipn ml k) (Value w))
                    (fun r => if fst r then Ok (true, Short nk (snd r) newflag) else Ok (false, Short nk c fl))
                    F (b, m)) as ([bc mc] & Hsub & Hcont).
        { intros f0 _. unfold k. rewrite insert_short_eq. cbv zeta. fold k. fold ml.
          rewrite (proj2 (Nat.eqb_eq _ _) Eml). reflexivity. }
        { intros f0 Hle. apply Hres. lia. }
        { intros; eapply mono_le_insert; eauto. }
        destruct (IH false c' c (skipn ml k) bc mc Hc (okn_short_child _ _ _ Ho)) as (mc' & Hi & Hvc & Hsame).
        { exists F. exact Hsub. }
        { rewrite skipn_length. unfold k in *. cbn [length ref_cost] in *. destruct c'; cbn [ref_cost]; lia. }
        rewrite Hi. cbn [rbind fst snd] in *. destruct bc.
        -- inversion Hcont; subst. eexists. split; [reflexivity|]. split; [|discriminate].
           apply view_new_short; auto.
        -- inversion Hcont; subst. eexists. split; [reflexivity|]. split; [|reflexivity].
           constructor; auto.
      * pose proof (Hres (S F) (Nat.le_succ_diag_r _)) as H0. unfold k in H0. rewrite insert_short_eq in H0.
        cbv zeta in H0. fold k in H0. fold ml in H0. rewrite Eml in H0.
        destruct (nth_error nk ml) as [oi|]; [|discriminate]. destruct (nth_error k ml) as [ni|]; [|discriminate].
        assert (Hb2 : Forall2 (view false)
                        (set_nth ni (leafn (skipn (S ml) k) (Value w)) (set_nth oi (leafn (skipn (S ml) nk) c') empty_children))
                        (set_nth ni (leafn (skipn (S ml) k) (Value w)) (set_nth oi (leafn (skipn (S ml) nk) c) empty_children))).
        { apply Forall2_set_nth_both; [|apply view_leafn; constructor].
          apply Forall2_set_nth_both; [|apply view_leafn; auto].
          apply Forall2_repeat. constructor. }
        destruct (Nat.eqb ml 0); inversion H0; subst; (eexists; split; [reflexivity|]; split; [|discriminate]).
        -- apply view_new_full; auto.
        -- apply view_new_short, view_new_full; auto.
    + rewrite insert_full_eq.
      assert (Hcn : exists c, nth_error cs k0 = Some c).
      { pose proof (Hres (S F) (Nat.le_succ_diag_r _)) as H0. rewrite insert_full_eq in H0.
        destruct (nth_error cs k0); [eauto|discriminate]. }
      destruct Hcn as (c & Hn).
      destruct (Forall2_nth_error_r _ _ _ _ _ Hcs Hn) as (c' & Hn' & Hc). rewrite Hn'.
      destruct (stable_child (fun f0 => insert f0 d (Full cs fl) (k0 :: kt) (Value w))
                  (fun f0 => insert f0 d c kt (Value w))
                  (fun r => if fst r then Ok (true, Full (set_nth k0 (snd r) cs) newflag) else Ok (false, Full cs fl))
                  F (b, m)) as ([bc mc] & Hsub & Hcont).
      { intros f0 _. rewrite insert_full_eq, Hn. reflexivity. }
      { intros f0 Hle. apply Hres. lia. }
      { intros; eapply mono_le_insert; eauto. }
      destruct (IH false c' c kt bc mc Hc (okn_full_child _ _ _ _ Ho Hn)) as (mc' & Hi & Hvc & Hsame).
      { exists F. exact Hsub. }
      { cbn [length ref_cost] in *. destruct c'; cbn [ref_cost]; lia. }
      rewrite Hi. cbn [rbind fst snd] in *. destruct bc.
      * inversion Hcont; subst. eexists. split; [reflexivity|]. split; [|discriminate].
        apply view_new_full. apply Forall2_set_nth_both; auto.
      * inversion Hcont; subst. eexists. split; [reflexivity|]. split; [|reflexivity]. constructor; auto.
    + rewrite insert_ref_eq.
      destruct (resolve_view r c Ho (VwR r c Hn Hg Hb Hs)) as (rn & Hr & Hvr & Hrc). rewrite Hr. cbn [rbind].
      destruct (IH r rn c (k0 :: kt) b m Hvr Ho) as (m' & Hi & Hvm & Hsame).
      { exists F. exact Hres. }
      { rewrite Hrc. cbn [ref_cost] in Hf. lia. }
      rewrite Hi. cbn [rbind fst snd]. destruct b.
      * exists m'. split; [reflexivity|]. split; auto.
      * exists rn. split; [reflexivity|]. rewrite (Hsame eq_refl). split; auto.
Qed.

Definition del_res (n : node) (k : key) (b : bool) (m : node) : Prop :=
  exists F, forall f0, F <= f0 -> delete f0 d n k = Ok (b, m).

(** the shapes of a view that is not itself a hash node are the shapes of the canonical node *)
Lemma view_short_l root nk cc' f1 m : view root (Short nk cc' f1) m ->
  exists cc f2, m = Short nk cc f2 /\ view false cc' cc.
Proof. intros Hv. inversion Hv; subst. eauto. Qed.

Lemma view_value_l root v m : view root (Value v) m -> m = Value v.
Proof. intros Hv. inversion Hv; subst. reflexivity. Qed.

Lemma view_full_l root cs0 f1 m : view root (Full cs0 f1) m ->
  exists cs f2, m = Full cs f2 /\ Forall2 (view false) cs0 cs.
Proof. intros Hv. inversion Hv; subst. eauto. Qed.

Lemma view_not_short root m' m : view root m' m -> not_ref m' ->
  (forall k c f, m' <> Short k c f) -> (forall k c f, m <> Short k c f).
Proof.
  intros Hv Hnr Hns k c f E. subst m. inversion Hv; subst.
  - eapply Hns; eauto.
  - cbn in Hnr. exact Hnr.
Qed.

(** the reduction of a branch whose child at k0 became [nn] (Trie.delete, fullNode case) *)
Lemma view_collapse root cs1' cs1 nn' nn b m :
  Forall2 (view false) cs1' cs1 -> view false nn' nn ->
  (is_empty nn = true -> forall c, In c cs1 -> okn c) ->
  collapse d cs1 nn = Ok (b, m) ->
  exists m', collapse d cs1' nn' = Ok (b, m') /\ view root m' m /\ not_ref m' /\ b = true.
Proof.
  intros Hcs Hnn Hok0 Hc. unfold collapse in *. rewrite (view_is_empty _ _ _ Hnn).
  destruct (is_empty nn) eqn:Enn; cbn [negb] in *; [|
    inversion Hc; subst; eexists; (split; [reflexivity|]); (split; [|split; [exact I|reflexivity]]);
    apply view_new_full; auto].
  pose proof (Hok0 eq_refl) as Hok. clear Hok0.
  - rewrite (single_child_view _ _ Hcs). destruct (single_child cs1 0 None) as [[pos|u]|].
    + pose proof (Forall2_nth _ _ _ pos Empty Empty Hcs (VwE false)) as Hon.
      set (only' := nth pos cs1' Empty) in *. set (only := nth pos cs1 Empty) in *.
      assert (Hoo : okn only).
      { unfold only. destruct (nth_in_or_default pos cs1 Empty) as [Hin| ->]; [apply Hok; auto|constructor]. }
      destruct (negb (Nat.eqb pos 16)).
      * (* the remaining child is looked at (resolved if it is a hash node) *)
        assert (Hcanon : (match only with Ref h => resolve_hash d h | _ => Ok only end) = Ok only).
        { destruct only; try reflexivity. inversion Hoo. }
        rewrite Hcanon in Hc. cbn [rbind] in Hc.
        assert (Hres : exists cn', (match only' with Ref h => resolve_hash d h | _ => Ok only' end) = Ok cn' /\
                                   view false cn' only /\ not_ref cn').
        { destruct only' as [|v|k0 c0 f0|cs0 f0|h] eqn:Eo.
          - exists Empty. split; auto. split; auto. exact I.
          - eexists. split; [reflexivity|]. split; auto. exact I.
          - eexists. split; [reflexivity|]. split; auto. exact I.
          - eexists. split; [reflexivity|]. split; auto. exact I.
          - pose proof (view_ref_inv _ _ _ Hon) as ->.
            destruct (resolve_view false only Hoo Hon) as (rn & Hr & Hvr & Hrc).
            exists rn. split; auto. split; auto. destruct rn; cbn in *; auto. discriminate. }
        destruct Hres as (cn' & Hr' & Hvc & Hnr). rewrite Hr'. cbn [rbind].
        destruct cn' as [|v|ck cv' f1|cs0 f1|h].
        -- apply view_empty_l in Hvc. rewrite Hvc in Hc. inversion Hc; subst.
           eexists. split; [reflexivity|]. split; [|split; [exact I|reflexivity]].
           apply view_new_short. rewrite <- Hvc. exact Hon.
        -- pose proof (view_value_l _ _ _ Hvc) as Eo. rewrite Eo in Hc. inversion Hc; subst.
           eexists. split; [reflexivity|]. split; [|split; [exact I|reflexivity]].
           apply view_new_short. rewrite <- Eo. exact Hon.
        -- destruct (view_short_l _ _ _ _ _ Hvc) as (cv & f2 & E & Hcv). rewrite E in Hc. inversion Hc; subst.
           eexists. split; [reflexivity|]. split; [|split; [exact I|reflexivity]].
           apply view_new_short; auto.
        -- destruct (view_full_l _ _ _ _ Hvc) as (cs2 & f2 & Eo & _). rewrite Eo in Hc. inversion Hc; subst.
           eexists. split; [reflexivity|]. split; [|split; [exact I|reflexivity]].
           apply view_new_short. rewrite <- Eo. exact Hon.
        -- cbn in Hnr. tauto.
      * inversion Hc; subst. eexists. split; [reflexivity|]. split; [|split; [exact I|reflexivity]].
        apply view_new_short; auto.
    + inversion Hc; subst. eexists. split; [reflexivity|]. split; [|split; [exact I|reflexivity]].
      apply view_new_full; auto.
    + inversion Hc; subst. eexists. split; [reflexivity|]. split; [|split; [exact I|reflexivity]].
      apply view_new_full; auto.
Qed.

Lemma view_delete : forall fuel root n' n k b m,
  view root n' n -> okn n -> del_res n k b m ->
  2 * length k + ref_cost n' < fuel ->
  exists m', delete fuel d n' k = Ok (b, m') /\ view root m' m /\ (b = false -> m = n) /\ (b = true -> not_ref m').
Proof.
  induction fuel as [|f IH]; intros root n' n k b m Hv Ho [F Hres] Hf; [lia|].
  destruct Hv as [r|r v|r nk c' c f' fl Hc Hh|r cs' cs f' fl Hcs Hh|r c Hn Hg Hb Hs].
  - pose proof (Hres (S F) (Nat.le_succ_diag_r _)) as H0. cbn in H0. inversion H0; subst.
    exists Empty. split; [reflexivity|]. split; [constructor|]. split; [reflexivity|discriminate].
  - pose proof (Hres (S F) (Nat.le_succ_diag_r _)) as H0. cbn in H0. inversion H0; subst.
    exists Empty. split; [reflexivity|]. split; [constructor|]. split; [discriminate|intros _; exact I].
  - rewrite delete_short_eq. cbv zeta. set (ml := prefix_len k nk).
    pose proof (okn_short_key _ _ _ Ho) as Hnk. pose proof (prefix_len_le k nk) as [Hml1 Hml2]. fold ml in Hml1, Hml2.
    pose proof (Hres (S F) (Nat.le_succ_diag_r _)) as H0. rewrite delete_short_eq in H0. cbv zeta in H0. fold ml in H0.
    destruct (Nat.ltb ml (length nk)) eqn:Elt.
    + inversion H0; subst. eexists. split; [reflexivity|]. split; [constructor; auto|]. split; [reflexivity|discriminate].
    + destruct (Nat.eqb ml (length k)) eqn:Eeq.
      * inversion H0; subst. exists Empty. split; [reflexivity|]. split; [constructor|]. split; [discriminate|intros _; exact I].
      * clear H0. apply Nat.ltb_ge in Elt.
        destruct (stable_child (fun f0 => delete f0 d (Short nk c fl) k)
                    (fun f0 => delete f0 d c (skipn (length nk) k))
                    (fun r => if fst r then
                                match snd r with
                                | Short ck cc _ => Ok (true, Short (nk ++ ck) cc newflag)
                                | child => Ok (true, Short nk child newflag)
                                end
                              else Ok (false, Short nk c fl))
                    F (b, m)) as ([bc mc] & Hsub & Hcont).
        { intros f0 _. rewrite delete_short_eq. cbv zeta. fold ml.
          rewrite (proj2 (Nat.ltb_ge _ _) Elt), Eeq. reflexivity. }
        { intros f0 Hle. apply Hres. lia. }
        { intros; eapply mono_le_delete; eauto. }
        destruct (IH false c' c (skipn (length nk) k) bc mc Hc (okn_short_child _ _ _ Ho)) as (mc' & Hi & Hvc & Hsame & Hnr).
        { exists F. exact Hsub. }
        { rewrite skipn_length. cbn [ref_cost] in *. destruct c'; cbn [ref_cost]; lia. }
        rewrite Hi. cbn [rbind fst snd] in *. destruct bc.
        -- specialize (Hnr eq_refl).
           destruct mc' as [|v|ck cc' f1|cs0 f1|h].
           ++ apply view_empty_l in Hvc. subst mc. inversion Hcont; subst.
              eexists. split; [reflexivity|]. split; [|split; [discriminate|intros _; exact I]].
              apply view_new_short. constructor.
           ++ pose proof (view_value_l _ _ _ Hvc) as Eo. subst mc. inversion Hcont; subst.
              eexists. split; [reflexivity|]. split; [|split; [discriminate|intros _; exact I]].
              apply view_new_short. constructor.
           ++ destruct (view_short_l _ _ _ _ _ Hvc) as (cc & f2 & E & Hcc). subst mc. inversion Hcont; subst.
              eexists. split; [reflexivity|]. split; [|split; [discriminate|intros _; exact I]].
              apply view_new_short; auto.
           ++ destruct (view_full_l _ _ _ _ Hvc) as (cs2 & f2 & Eo & _). subst mc. inversion Hcont; subst.
              eexists. split; [reflexivity|]. split; [|split; [discriminate|intros _; exact I]].
              apply view_new_short; exact Hvc.
           ++ cbn in Hnr. tauto.
        -- inversion Hcont; subst. eexists. split; [reflexivity|]. split; [constructor; auto|]. split; [reflexivity|discriminate].
  - destruct k as [|k0 kt].
    { pose proof (Hres (S F) (Nat.le_succ_diag_r _)) as H0. cbn in H0. discriminate. }
    rewrite delete_full_eq.
    assert (Hcn : exists c, nth_error cs k0 = Some c).
    { pose proof (Hres (S F) (Nat.le_succ_diag_r _)) as H0. rewrite delete_full_eq in H0.
      destruct (nth_error cs k0); [eauto|discriminate]. }
    destruct Hcn as (c & Hn).
    destruct (Forall2_nth_error_r _ _ _ _ _ Hcs Hn) as (c' & Hn' & Hc). rewrite Hn'.
    destruct (stable_child (fun f0 => delete f0 d (Full cs fl) (k0 :: kt))
                (fun f0 => delete f0 d c kt)
                (fun r => if fst r then collapse d (set_nth k0 (snd r) cs) (snd r) else Ok (false, Full cs fl))
                F (b, m)) as ([bc mc] & Hsub & Hcont).
    { intros f0 _. rewrite delete_full_eq, Hn. reflexivity. }
    { intros f0 Hle. apply Hres. lia. }
    { intros; eapply mono_le_delete; eauto. }
    destruct (IH false c' c kt bc mc Hc (okn_full_child _ _ _ _ Ho Hn)) as (mc' & Hi & Hvc & Hsame & Hnr).
    { exists F. exact Hsub. }
    { cbn [length ref_cost] in *. destruct c'; cbn [ref_cost]; lia. }
    rewrite Hi. cbn [rbind fst snd] in *. destruct bc.
    + destruct (view_collapse r (set_nth k0 mc' cs') (set_nth k0 mc cs) mc' mc b m) as (m' & Hcl & Hvm & Hnm & Hbt); auto.
      { apply Forall2_set_nth_both; auto. }
      { intros Hem x Hin. apply is_empty_true in Hem. subst mc.
        apply In_set_nth in Hin as [->|Hin]; [constructor|].
        inversion Ho as [| | |? ? _ _ Hch]; subst. auto. }
      exists m'. split; [exact Hcl|]. split; auto. split; [intros X; congruence|auto].
    + inversion Hcont; subst. eexists. split; [reflexivity|]. split; [constructor; auto|]. split; [reflexivity|discriminate].
  - rewrite delete_ref_eq.
    destruct (resolve_view r c Ho (VwR r c Hn Hg Hb Hs)) as (rn & Hr & Hvr & Hrc). rewrite Hr. cbn [rbind].
    destruct (IH r rn c k b m Hvr Ho) as (m' & Hi & Hvm & Hsame & Hnr).
    { exists F. exact Hres. }
    { rewrite Hrc. cbn [ref_cost] in Hf. lia. }
    rewrite Hi. cbn [rbind fst snd]. destruct b.
    + exists m'. split; [reflexivity|]. split; auto.
    + exists rn. split; [reflexivity|]. rewrite (Hsame eq_refl). split; auto. split; auto. discriminate.
Qed.

Lemma hspec_leafs root : hspec H Empty root = HNil /\ (forall v, hspec H (Value v) root = HVal v).
Proof. split; reflexivity. Qed.

Lemma view_hash : forall n' root n, view root n' n ->
  fst (hash_node H n' root) = hspec H n root /\ view root (snd (hash_node H n' root)) n.
Proof.
  induction n' as [|v|k c' f' IHc|cs' f' IHcs|h] using node_ind'; intros root n Hv.
  - apply view_empty_l in Hv. subst. split; [reflexivity|constructor].
  - apply view_value_l in Hv. subst. split; [reflexivity|constructor].
  - destruct (view_short_l _ _ _ _ _ Hv) as (c & f & -> & Hc).
    assert (Hh : hash_ok root (Short k c f) f') by (inversion Hv; subst; auto).
    cbn [hash_node]. destruct (fhash f') as [h|] eqn:Ef.
    + cbn [fst snd]. split; [symmetry; apply Hh; auto|exact Hv].
    + destruct (IHc false c Hc) as [E1 E2]. cbn [fst snd]. rewrite E1.
      split; [rewrite hspec_short; reflexivity|].
      constructor; auto. intros h Eh. apply flag_after_some in Eh. rewrite hspec_short. exact Eh.
  - destruct (view_full_l _ _ _ _ Hv) as (cs & f & -> & Hcs).
    assert (Hh : hash_ok root (Full cs f) f') by (inversion Hv; subst; auto).
    cbn [hash_node]. destruct (fhash f') as [h|] eqn:Ef.
    + cbn [fst snd]. split; [symmetry; apply Hh; auto|exact Hv].
    + assert (Hall : map fst (map (fun c => hash_node H c false) cs') = map (fun c => hspec H c false) cs /\
                     Forall2 (view false) (map snd (map (fun c => hash_node H c false) cs')) cs).
      { clear Hv Hh Ef. induction Hcs as [|a b l l' Hab Hl IHl]; [split; [reflexivity|constructor]|].
        inversion IHcs as [|? ? Pa Pl]; subst. destruct (Pa false b Hab) as [E1 E2]. destruct (IHl Pl) as [F1 F2].
        cbn [map]. rewrite E1, F1. split; [reflexivity|constructor; auto]. }
      destruct Hall as [F1 F2]. cbn [fst snd]. rewrite F1.
      split; [rewrite hspec_full; reflexivity|].
      constructor; auto. intros h Eh. apply flag_after_some in Eh. rewrite hspec_full. exact Eh.
  - assert (Hs : hspec H n root = HHash h) by (inversion Hv; subst; auto).
    cbn [hash_node fst snd]. split; [symmetry; exact Hs|exact Hv].
Qed.

Lemma view_trie_hash n' n : view true n' n ->
  fst (trie_hash H n') = fst (trie_hash H (erase n)) /\ view true (snd (trie_hash H n')) n.
Proof.
  intros Hv. destruct (is_empty n') eqn:E.
  - apply is_empty_true in E. subst. apply view_empty_l in Hv. subst. split; [reflexivity|constructor].
  - assert (En : is_empty n = false) by (rewrite <- (view_is_empty _ _ _ Hv); exact E).
    apply is_empty_false in E, En.
    assert (Ee : erase n <> Empty) by (intros X; apply erase_empty in X; auto).
    rewrite (trie_hash_eq H n' E), (trie_hash_eq H (erase n) Ee). cbn [fst snd].
    destruct (view_hash n' true n Hv) as [E1 E2]. rewrite E1. split; auto.
Qed.

(** the run-time trie [n'] is a view of the canonical trie of the map [m] *)
Definition vstate (m : bytes -> bytes) (n' : node) : Prop :=
  exists n, represents m n /\ bounded m /\ view true n' n.

Definition small_op (o : hop) : Prop :=
  match o with
  | HUpdate k v => (nlen k < 1073741824)%N /\ (nlen v < 1073741824)%N
  | _ => True
  end.

Lemma bounded_mupd m o : bounded m -> small_op o -> Forall (fun x => bounded (mupd m x)) (hop_mop o).
Proof.
  intros Hb Hs. destruct o as [k v|k|]; cbn [hop_mop]; [constructor; [|constructor]|constructor; [|constructor]|constructor].
  - unfold bounded. intros x. cbn [mupd]. destruct (beq x k) eqn:E; [|apply Hb].
    apply beq_eq in E. subst. intros _. exact Hs.
  - unfold bounded. intros x. cbn [mupd]. destruct (beq x k); [congruence|apply Hb].
Qed.

Lemma vstate_okn m n : represents m n -> bounded m -> okn n.
Proof. intros Hr Hb. apply canon_okn; [apply Hr|]. eapply represents_sized; eauto. Qed.

Lemma fuel_view k n' : 2 * length k + ref_cost n' < fuel_of k.
Proof. unfold fuel_of. destruct n'; cbn [ref_cost]; lia. Qed.

Lemma vstep_delete m n' kb : vstate m n' -> is_bytes kb ->
  exists n1', trie_delete d n' kb = Ok n1' /\ vstate (mupd m (MDelete kb)) n1'.
Proof.
  intros (n & Hrep & Hb & Hv) Hkb.
  destruct (represents_delete d m n kb Hrep Hkb) as (n1 & Hd & Hr1).
  unfold trie_delete in *. apply rbind_ok in Hd as ([b x] & Hd & E). cbn in E. inversion E; subst x.
  destruct (view_delete (fuel_of (keybytes_to_hex kb)) true n' n (keybytes_to_hex kb) b n1 Hv
              (vstate_okn m n Hrep Hb)) as (m' & Hd' & Hvm & _).
  { exists (fuel_of (keybytes_to_hex kb)). intros f0 Hle. eapply mono_le_delete; eauto. }
  { apply fuel_view. }
  rewrite Hd'. cbn [rbind snd]. exists m'. split; auto. exists n1. split; auto. split; auto.
  intros k. cbn [mupd]. destruct (beq k kb); [congruence|apply Hb].
Qed.

Lemma vstep_update m n' kb v : vstate m n' -> is_bytes kb -> bounded (mupd m (MUpdate kb v)) ->
  exists n1', trie_update d n' kb v = Ok n1' /\ vstate (mupd m (MUpdate kb v)) n1'.
Proof.
  intros Hvs Hkb Hb1. destruct v as [|v0 vt].
  - destruct (vstep_delete m n' kb Hvs Hkb) as (n1' & Hd & (n1 & Hr1 & _ & Hv1)).
    exists n1'. split; [exact Hd|]. exists n1. split; auto.
  - destruct Hvs as (n & Hrep & Hb & Hv).
    destruct (represents_update d m n kb (v0 :: vt) Hrep Hkb) as (n1 & Hd & Hr1).
    unfold trie_update in *. apply rbind_ok in Hd as ([b x] & Hd & E). cbn in E. inversion E; subst x.
    destruct (view_insert (v0 :: vt) (fuel_of (keybytes_to_hex kb)) true n' n (keybytes_to_hex kb) b n1 Hv
                (vstate_okn m n Hrep Hb)) as (m' & Hd' & Hvm & _).
    { exists (fuel_of (keybytes_to_hex kb)). intros f0 Hle. eapply mono_le_insert; eauto. }
    { apply fuel_view. }
    rewrite Hd'. cbn [rbind snd]. exists m'. split; auto. exists n1. auto.
Qed.

Lemma vrun ops : forall m n', vstate m n' ->
  Forall (fun o => is_bytes (hop_key o) /\ small_op o) ops ->
  exists n2', hrun H d n' ops = Ok n2' /\ vstate (content m (flat_map hop_mop ops)) n2'.
Proof.
  induction ops as [|o t IH]; intros m n' Hvs Hk; cbn [hrun flat_map]; eauto.
  inversion Hk as [|? ? [Ho Hs] Ht]; subst.
  assert (Hbm : bounded m) by (destruct Hvs as (n & _ & Hb & _); exact Hb).
  pose proof (bounded_mupd m o Hbm Hs) as Hbo.
  destruct o as [k v|k|]; cbn [apply_hop hop_mop app content] in *; cbn in Ho.
  - inversion Hbo; subst. destruct (vstep_update m n' k v Hvs Ho) as (n1' & Hu & Hv1); auto.
    rewrite Hu. cbn [rbind]. apply IH; auto.
  - destruct (vstep_delete m n' k Hvs Ho) as (n1' & Hu & Hv1). rewrite Hu. cbn [rbind]. apply IH; auto.
  - cbn [rbind]. apply IH; auto. destruct Hvs as (n & Hrep & Hb & Hv).
    exists n. split; auto. split; auto. apply view_trie_hash; auto.
Qed.

Lemma vstate_get m n' kb : vstate m n' -> is_bytes kb -> exists r', trie_get d n' kb = Ok (m kb, r').
Proof.
  intros (n & Hrep & Hb & Hv) Hkb. pose proof (keybytes_to_hex_wfk _ Hkb) as Hw.
  destruct (get_rel (fuel_of (keybytes_to_hex kb)) n' n (keybytes_to_hex kb)) as (v & r' & Hg & Hok & _); auto.
  - eapply view_rel; eauto.
  - apply Hrep.
  - eapply represents_sized; eauto.
  - apply fuel_view.
  - exists r'. unfold trie_get. rewrite Hg. rewrite (get_ok_represents m n kb v Hrep Hkb Hok). reflexivity.
Qed.

Lemma vstate_root m n' mf nf : vstate m n' -> represents mf nf ->
  (forall kb, is_bytes kb -> m kb = mf kb) ->
  fst (trie_hash H n') = fst (trie_hash H (erase nf)).
Proof.
  intros (n & Hrep & _ & Hv) Hrf Hm. destruct (view_trie_hash n' n Hv) as [E _]. rewrite E.
  rewrite (represents_unique m mf n nf Hrep Hrf Hm). reflexivity.
Qed.

End View.

Section AfterCommit.
Variable H : bytes -> bytes.
Hypothesis Hlen : forall x, length (H x) = 32.

(** Trie.Commit(false) + Database.Update leave a trie (root = hash node) that is a view of the
    canonical trie of the same map over the enlarged database — or a collision is exhibited *)
Theorem commit_view d m n : represents m n -> caches_ok H true n -> bounded m -> n <> Empty ->
  let '(h, root', set) := trie_commit H n in
  collision H \/ (h = fst (trie_hash H n) /\ root' = Ref h /\ vstate H (set ++ d) m root').
Proof.
  intros Hrep Hok Hb Hne.
  destruct (hash_node_ok4 H n true Hok) as (A & B & C & D).
  set (n2 := snd (hash_node H n true)) in *.
  assert (Hc2 : canon n2) by (apply (canon_same_erase n n2); [symmetry; exact B|apply Hrep]).
  assert (Hne2 : n2 <> Empty).
  { intros X. rewrite X in B. cbn in B. symmetry in B. apply erase_empty in B. congruence. }
  assert (Hrep2 : represents m n2).
  { split; auto. intros k w. rewrite (has_same_erase H n2 n B). apply Hrep. }
  pose proof (canon_is_node n2 Hc2 Hne2) as Hn2.
  assert (Ecenc : cenc H n = cenc H n2) by (apply cenc_erase; symmetry; exact B).
  assert (Hnn : is_node n) by (apply canon_is_node; [apply Hrep|auto]).
  assert (Ah : fst (hash_node H n true) = HHash (H (cenc H n2))).
  { rewrite A, (hspec_cenc H n true Hnn), finish_forced, Ecenc. reflexivity. }
  assert (Ah2 : hspec H n2 true = HHash (H (cenc H n2))).
  { rewrite (hspec_cenc H n2 true Hn2), finish_forced. reflexivity. }
  destruct (commit_ok H n2 Hc2 true C D) as (K1 & K2 & K3).
  assert (Ecommit : trie_commit H n = (H (cenc H n2), Ref (H (cenc H n2)), snd (commit_node n2))).
  { unfold trie_commit. rewrite (trie_hash_eq H n Hne). cbn [fst snd]. fold n2. rewrite Ah.
    pose proof (top_dirty H true n2 Hn2 C) as Hd.
    destruct n as [| | | |]; cbn [is_node] in Hnn; try tauto;
      (destruct n2 as [| |k2 c2 fl2|cs2 fl2|]; cbn [is_node] in Hn2; try tauto;
       rewrite Hd; rewrite K1, Ah2; reflexivity). }
  rewrite Ecommit. clear Ecommit. clearbody n2.
  set (h := H (cenc H n2)). set (S := snd (commit_node n2)).
  destruct (covered_in_db H S d true n2 K3 K2) as [Hcov|Col]; [|left; exact Col].
  assert (Hget : db_get (S ++ d) h = Some (cenc H n2)).
  { destruct n2 as [| |k2 c2 fl2|cs2 fl2|]; cbn [is_node] in Hn2; try tauto;
      inversion Hcov as [| |? ? ? ? Ho _|? ? ? Ho _]; subst; apply Ho; exact Ah2. }
  pose proof (covered_below H (S ++ d) true n2 Hcov) as Hbelow.
  right. split; [rewrite (trie_hash_eq H n Hne); cbn [fst]; rewrite Ah; reflexivity|].
  split; [reflexivity|]. exists n2. split; auto. split; auto. apply VwR; auto.
Qed.

(** then trie.New(root): the reopened trie, and the committed trie itself (its root now a hash
    node), have the committed root hash and return the map value for every key — unless the root
    hash is the all-zero hash, which trie.New treats as the empty trie *)
Theorem commit_reopen d m n : represents m n -> caches_ok H true n -> bounded m -> n <> Empty ->
  let '(h, root', set) := trie_commit H n in
  let d' := set ++ d in
  collision H \/ h = repeat 0%N 32 \/
  (h = fst (trie_hash H n) /\ root' = Ref h /\
   exists r, trie_open H d' h = Ok r /\ fst (trie_hash H r) = h /\
             forall kb, is_bytes kb ->
               (exists r', trie_get d' r kb = Ok (m kb, r')) /\
               (exists r', trie_get d' root' kb = Ok (m kb, r'))).
Proof.
  intros Hrep Hok Hb Hne. pose proof (commit_view d m n Hrep Hok Hb Hne) as Hcv.
  destruct (trie_commit H n) as [[h root'] set]. cbv zeta.
  destruct Hcv as [Col|(Eh & -> & n2 & Hrep2 & _ & Hv)]; [left; exact Col|].
  destruct (beq h (repeat 0%N 32)) eqn:Ez; [right; left; apply beq_eq; exact Ez|].
  pose proof (view_ref_inv _ _ _ _ _ Hv) as Eh2.
  assert (Hn2 : is_node n2) by (inversion Hv; auto).
  destruct (beq h (empty_root H)) eqn:Ee.
  { (* the root encoding is a list item, the empty root hashes the empty string *)
    left. apply beq_eq in Ee. exists (cenc H n2), [128%N]. split; [|unfold empty_root in Ee; congruence].
    destruct n2; cbn [is_node] in Hn2; try tauto; [rewrite cenc_short|rewrite cenc_full]; apply rlp_list_not_128. }
  right. right. split; [exact Eh|]. split; [reflexivity|].
  pose proof Hv as Hv0. rewrite Eh2 in Hv.
  destruct (resolve_view H Hlen (set ++ d) true n2 (vstate_okn H Hlen m n2 Hrep2 Hb) Hv) as (rn & Hr & Hvr & _).
  exists rn. split; [unfold trie_open; rewrite Ez, Ee, Eh2; exact Hr|].
  split.
  - destruct (view_trie_hash H (set ++ d) rn n2 Hvr) as [E1 _].
    destruct (view_trie_hash H (set ++ d) (Ref h) n2 Hv0) as [E2 _]. rewrite E1, <- E2. reflexivity.
  - intros kb Hkb. split; apply (vstate_get H Hlen (set ++ d) m); auto; exists n2; auto.
Qed.

End AfterCommit.
