(** C07 — committer.commit on a hashed trie returns the from-scratch reference and
    writes the encoding of every hashed node; looking those hashes up in the database returns
    the encodings again — or exhibits a Keccak collision. *)
From Coq Require Import List ZArith NArith Arith Bool Lia.
From Kardia Require Import C07.Model C07.ProofsBase C07.ProofsMap C07.ProofsCanon C07.ProofsEnc
     C07.ProofsCache C07.ProofsCodec.
Import ListNotations.

Section Commit.
Variable H : bytes -> bytes.

Definition collision : Prop := exists x y : bytes, x <> y /\ H x = H y.

Definition entries_ok (S : list (bytes * bytes)) : Prop := forall h b, In (h, b) S -> h = H b.

(** every hashed node of the subtree has its (hash, encoding) pair in [S] *)
Inductive covered_in (S : list (bytes * bytes)) : bool -> node -> Prop :=
| CovE root : covered_in S root Empty
| CovV root v : covered_in S root (Value v)
| CovS root k c f :
    (forall h, hspec H (Short k c f) root = HHash h -> In (h, cenc H (Short k c f)) S) ->
    covered_in S false c -> covered_in S root (Short k c f)
| CovF root cs f :
    (forall h, hspec H (Full cs f) root = HHash h -> In (h, cenc H (Full cs f)) S) ->
    (forall c, In c cs -> covered_in S false c) -> covered_in S root (Full cs f).

Lemma covered_in_incl S S' root n : incl S S' -> covered_in S root n -> covered_in S' root n.
Proof.
  intros Hi Hc. induction Hc as [| |root k c f Ho Hc IH|root cs f Ho Hc IH]; constructor; auto.
Qed.

Lemma clean_hash_dirty fl : fdirty fl = true -> clean_hash fl = None.
Proof. unfold clean_hash. intros ->. destruct (fhash fl); reflexivity. Qed.

Lemma finish_cases e root :
  (finish H e root = HEmb e) \/ (finish H e root = HHash (H e)).
Proof. unfold finish. destruct (N.ltb (nlen e) 32 && negb root); auto. Qed.

(** own part of the commit of a node whose children have been committed to [st] *)
Lemma commit_own n root enc st (fl : flag) :
  (match n with Short _ _ _ | Full _ _ => True | _ => False end) ->
  enc = cenc H n -> fhash fl = href_opt (hspec H n root) ->
  let r := match fhash fl with None => (HEmb enc, st) | Some h => (HHash h, st ++ [(h, enc)]) end in
  fst r = hspec H n root /\
  (forall h, hspec H n root = HHash h -> In (h, cenc H n) (snd r)) /\
  incl st (snd r) /\
  (entries_ok st -> entries_ok (snd r)).
Proof.
  intros Hn -> Hf. rewrite Hf. rewrite (hspec_cenc H n root Hn).
  destruct (finish_cases (cenc H n) root) as [E|E]; rewrite E; cbn [href_opt fst snd].
  - split; auto. split; [discriminate|]. split; [apply incl_refl|auto].
  - split; auto. split.
    + intros h Eh. inversion Eh; subst. apply in_or_app. right. left. reflexivity.
    + split; [apply incl_appl, incl_refl|].
      intros Hs h b Hin. apply in_app_or in Hin as [Hin|[Hin|[]]]; [auto|]. inversion Hin; subst. reflexivity.
Qed.

Lemma commit_ok n : canon n -> forall root, caches_ok H root n -> exact H root n ->
  fst (commit_node n) = hspec H n root /\
  covered_in (snd (commit_node n)) root n /\
  entries_ok (snd (commit_node n)).
Proof.
  induction 1 as [|p v f Hp Hv|k cs g f Hk Hn Hc IH|cs f Hl Hch IH H16 Hcnt]; intros root Hok Hex.
  - cbn. split; auto. split; [constructor|]. intros h b [].
  - apply caches_ok_short in Hok as (Hd & _ & _). apply exact_short in Hex as (Hf & _).
    cbn [commit_node]. rewrite (clean_hash_dirty _ Hd). cbn [fst snd].
    destruct (commit_own (Short (p ++ [16]) (Value v) f) root
                (short_enc (p ++ [16]) (HVal v)) [] f I eq_refl Hf) as (A & B & _ & D).
    cbv zeta in *. split; [exact A|]. split; [apply CovS; [exact B|constructor]|].
    apply D. intros h b [].
  - apply caches_ok_short in Hok as (Hd & _ & Hokc). apply exact_short in Hex as (Hf & Hexc).
    destruct (IH false Hokc Hexc) as (I1 & I2 & I3).
    cbn [commit_node]. rewrite (clean_hash_dirty _ Hd).
    destruct (commit_own (Short k (Full cs g) f) root
                (short_enc k (fst (commit_node (Full cs g)))) (snd (commit_node (Full cs g))) f I
                ltac:(rewrite I1; reflexivity) Hf) as (A & B & C & D).
    cbv zeta in *. split; [exact A|]. split; [|apply D; exact I3].
    apply CovS; [exact B|]. eapply covered_in_incl; [exact C|exact I2].
  - apply caches_ok_full in Hok as (Hd & _ & Hokc). apply exact_full in Hex as (Hf & Hexc).
    apply all_ok_forall in Hokc. apply all_exact_forall in Hexc. rewrite Forall_forall in Hokc, Hexc.
    assert (Hchild : forall c, In c cs ->
              fst (commit_node c) = hspec H c false /\ covered_in (snd (commit_node c)) false c /\
              entries_ok (snd (commit_node c))).
    { intros c Hin. destruct (In_nth_error _ _ Hin) as (i & Hi).
      destruct (branch_slot _ _ _ Hl Hi) as [->|Hlt].
      - destruct (H16 _ Hi) as [->|(v & _ & ->)]; cbn; (split; [reflexivity|]; split; [constructor|]; intros h b []).
      - apply (IH i c Hi); auto. }
    cbn [commit_node]. rewrite (clean_hash_dirty _ Hd).
    assert (Eenc : full_enc (map fst (map commit_node cs)) = cenc H (Full cs f)).
    { unfold cenc. f_equal. rewrite map_map. apply map_ext_in. intros c Hin. apply Hchild; auto. }
    destruct (commit_own (Full cs f) root (full_enc (map fst (map commit_node cs)))
                (concat (map snd (map commit_node cs))) f I Eenc Hf) as (A & B & C & D).
    assert (Hsub : forall c, In c cs -> incl (snd (commit_node c)) (concat (map snd (map commit_node cs)))).
    { intros c Hin x Hx. apply in_concat. exists (snd (commit_node c)). split; auto.
      rewrite map_map. apply in_map_iff. eauto. }
    assert (Hent : entries_ok (concat (map snd (map commit_node cs)))).
    { intros h b Hin. apply in_concat in Hin as (l & Hl1 & Hl2). rewrite map_map in Hl1.
      apply in_map_iff in Hl1 as (c & <- & Hin). destruct (Hchild c Hin) as (_ & _ & E). eapply E; eauto. }
    cbv zeta in *. split; [exact A|]. split; [|apply D; exact Hent].
    apply CovF; [exact B|]. intros c Hin. eapply covered_in_incl; [|apply Hchild; exact Hin].
    eapply incl_tran; [apply Hsub; exact Hin|exact C].
Qed.

Lemma db_get_in S d e : entries_ok S -> In (H e, e) S ->
  db_get (S ++ d) (H e) = Some e \/ collision.
Proof.
  induction S as [|[k b] S IH]; intros Hs Hin; [destruct Hin|].
  cbn [app db_get]. destruct (beq k (H e)) eqn:Eb.
  - apply beq_eq in Eb. assert (Hk : k = H b) by (apply Hs; left; reflexivity).
    destruct (list_eq_dec N.eq_dec b e) as [->|Hne]; [left; reflexivity|].
    right. exists b, e. split; auto. congruence.
  - destruct Hin as [Hin|Hin].
    + inversion Hin; subst. rewrite beq_refl in Eb. discriminate.
    + apply IH; auto. intros h b' Hb'. apply Hs. right; auto.
Qed.

(** every hashed node of the subtree can be read back from the database *)
Inductive covered_db (d : db) : bool -> node -> Prop :=
| CdbE root : covered_db d root Empty
| CdbV root v : covered_db d root (Value v)
| CdbS root k c f :
    (forall h, hspec H (Short k c f) root = HHash h -> db_get d h = Some (cenc H (Short k c f))) ->
    covered_db d false c -> covered_db d root (Short k c f)
| CdbF root cs f :
    (forall h, hspec H (Full cs f) root = HHash h -> db_get d h = Some (cenc H (Full cs f))) ->
    (forall c, In c cs -> covered_db d false c) -> covered_db d root (Full cs f).

Lemma forall_or {A} (l : list A) (P : A -> Prop) (Q : Prop) :
  (forall c, In c l -> P c \/ Q) -> (forall c, In c l -> P c) \/ Q.
Proof.
  induction l as [|a l IH]; intros Hh; [left; intros c []|].
  destruct (Hh a (or_introl eq_refl)) as [Ha|HQ]; [|right; exact HQ].
  destruct IH as [Hl|HQ]; [intros c Hc; apply Hh; right; exact Hc| |right; exact HQ].
  left. intros c [<-|Hc]; auto.
Qed.

Lemma own_in_db S d n root :
  (match n with Short _ _ _ | Full _ _ => True | _ => False end) ->
  entries_ok S ->
  (forall h, hspec H n root = HHash h -> In (h, cenc H n) S) ->
  (forall h, hspec H n root = HHash h -> db_get (S ++ d) h = Some (cenc H n)) \/ collision.
Proof.
  intros Hn Hs Hin. destruct (hspec H n root) as [| |h0|] eqn:E;
    try (left; intros h X; discriminate).
  specialize (Hin h0 eq_refl). pose proof (Hs _ _ Hin) as Hh. subst h0.
  destruct (db_get_in S d _ Hs Hin) as [Hg|Hc]; [|right; exact Hc].
  left. intros h X. inversion X; subst. exact Hg.
Qed.

Lemma covered_in_db S d root n : entries_ok S -> covered_in S root n ->
  covered_db (S ++ d) root n \/ collision.
Proof.
  intros Hs Hc. induction Hc as [root|root v|root k c f Ho Hc IH|root cs f Ho Hc IH].
  - left; constructor.
  - left; constructor.
  - destruct IH as [IH|C]; [|right; exact C].
    destruct (own_in_db S d (Short k c f) root I Hs Ho) as [Hg|C]; [|right; exact C].
    left. constructor; auto.
  - destruct (forall_or cs (covered_db (S ++ d) false) collision IH) as [Hall|C]; [|right; exact C].
    destruct (own_in_db S d (Full cs f) root I Hs Ho) as [Hg|C]; [|right; exact C].
    left. constructor; auto.
Qed.

End Commit.
