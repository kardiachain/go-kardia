(** C01 — every run of the lock automaton (Lock.v), interleaved with arbitrary signing events of
    the other validators, satisfies the obligations of Agreement.obeys: the lock discipline of
    consensus/state.go (lock / RE-LOCK with the lock round set to the current round, release only by
    a polka for another value in a round in (LockedRound, Round], prevote the locked block) is
    sufficient for the agreement theorem.  At the end: the re-lock schedule, run by the automaton. *)
From Coq Require Import List ZArith Arith Bool Lia.
(* C01.Monitor only for [msg_round], the round of a message, which the invariant speaks of *)
From Kardia Require Import C01.Power C01.Agreement C01.Checker C01.Lock C01.Monitor.
Import ListNotations.
Local Open Scope Z_scope.

Section LockProofs.
Variable powers : list Z.
Hypothesis powers_nonneg : Forall (fun p => 0 <= p) powers.
Variable B : Type.
Variable B_eq_dec : forall x y : B, {x = y} + {x <> y}.
Variable i : nat.

Notation trace := (trace B).
Notation opt_eqb := (opt_eqb B B_eq_dec).
Notation polka_b := (polka_b powers B B_eq_dec).
Notation signed := (signed B B_eq_dec).
Notation check_event := (check_event powers B B_eq_dec).
Notation check_trace := (check_trace powers B B_eq_dec).
Notation release := (release powers B B_eq_dec).
Notation lstep := (lstep powers B B_eq_dec i).
Notation lrun := (lrun powers B B_eq_dec i).
Notation lstate := (lstate B).

Lemma polka_b_mono tr t r x : polka_b tr r x = true -> polka_b (tr ++ t) r x = true.
Proof.
  unfold Checker.polka_b. rewrite !Z.ltb_lt. intros H.
  assert (pw powers (signed tr (Prevote B r x)) <= pw powers (signed (tr ++ t) (Prevote B r x))).
  { apply pw_mono; [exact powers_nonneg|]. intros j _. apply signed_app. }
  lia.
Qed.

Lemma polka_witness tr r y : polka_b tr r y = true -> exists j, In (j, Prevote B r y) tr.
Proof.
  unfold Checker.polka_b. rewrite Z.ltb_lt. intros H.
  assert (Ht : 0 <= total powers) by (apply pw_nonneg; exact powers_nonneg).
  assert (Hp : 0 < pw powers (signed tr (Prevote B r y))) by lia.
  apply pw_pos_witness in Hp. destruct Hp as [j [_ Hs]]. exists j. apply signed_In in Hs. exact Hs.
Qed.

(* [release] and the inner test of [check_event]'s lock rule are two copies of one term: this is
   where they are tied, by conversion *)
Lemma release_spec tr r r' b :
  release tr r r' b = true <->
  exists j r'' y, In (j, Prevote B r'' y) tr /\ (r < r'' <= r')%nat /\ y <> Some b /\ polka_b tr r'' y = true.
Proof. apply lock_release_spec. Qed.

Lemma release_mono tr t r0 r r1 r2 b :
  release tr r r1 b = true -> (r0 <= r)%nat -> (r1 <= r2)%nat -> release (tr ++ t) r0 r2 b = true.
Proof.
  intros H H0 H12. apply release_spec in H. destruct H as [j [r'' [y [Hin [Hr [Hy Hp]]]]]].
  apply release_spec. exists j, r'', y.
  split; [apply in_or_app; left; exact Hin|]. split; [lia|]. split; [exact Hy|apply polka_b_mono; exact Hp].
Qed.

Lemma release_same tr r0 r r1 r2 b :
  release tr r r1 b = true -> (r0 <= r)%nat -> (r1 <= r2)%nat -> release tr r0 r2 b = true.
Proof. intros H H0 H1. rewrite <- (app_nil_r tr). exact (release_mono tr [] r0 r r1 r2 b H H0 H1). Qed.

Lemma release_of_polka tr r r'' r' y b :
  polka_b tr r'' y = true -> (r < r'')%nat -> (r'' <= r')%nat -> y <> Some b -> release tr r r' b = true.
Proof.
  intros Hp H1 H2 Hy. destruct (polka_witness _ _ _ Hp) as [j Hin].
  apply release_spec. exists j, r'', y. auto.
Qed.

(** what a successful step of the automaton is: its guard, the new state, the new trace *)
Lemma lstep_some st tr a st' tr' :
  lstep st tr a = Some (st', tr') ->
  match a with
  | ANewRound _ r => (l_round B st < r)%nat /\ st' = mkL B r false (l_locked B st) /\ tr' = tr
  | APrevote _ x =>
    (forall b lr, l_locked B st = Some (b, lr) -> x = Some b) /\
    st' = st /\ tr' = tr ++ [(i, Prevote B (l_round B st) x)]
  | APrecommit _ x =>
    l_precommitted B st = false /\
    (forall b, x = Some b -> polka_b tr (l_round B st) (Some b) = true) /\
    st' = mkL B (l_round B st) true
              match x with
              | Some b => Some (b, l_round B st)
              | None => if polka_b tr (l_round B st) None then None else l_locked B st
              end /\
    tr' = tr ++ [(i, Precommit B (l_round B st) x)]
  | AUnlock _ =>
    exists b lr, l_locked B st = Some (b, lr) /\ release tr lr (l_round B st) b = true /\
                 st' = mkL B (l_round B st) (l_precommitted B st) None /\ tr' = tr
  | AOther _ e => fst e <> i /\ st' = st /\ tr' = tr ++ [e]
  end.
Proof.
  destruct a as [r|x|x| |e]; cbn [Lock.lstep]; intros H.
  - destruct (Nat.ltb_spec (l_round B st) r); [|discriminate]. injection H as <- <-. auto.
  - destruct (l_locked B st) as [[b lr]|].
    + destruct (opt_eqb x (Some b)) eqn:E; [|discriminate]. apply opt_eqb_eq in E.
      injection H as <- <-. repeat split. intros b0 lr0 [= <- _]. exact E.
    + injection H as <- <-. repeat split. discriminate.
  - destruct (l_precommitted B st); [discriminate|]. destruct x as [b|].
    + destruct (polka_b tr (l_round B st) (Some b)) eqn:Ep; [|discriminate].
      injection H as <- <-. repeat split. intros b0 [= <-]. exact Ep.
    + injection H as <- <-. repeat split. discriminate.
  - destruct (l_locked B st) as [[b lr]|]; [|discriminate].
    destruct (release tr lr (l_round B st) b) eqn:Er; [|discriminate]. injection H as <- <-. exists b, lr. auto.
  - destruct (Nat.eqb_spec (fst e) i); [discriminate|]. injection H as <- <-. auto.
Qed.

(** The invariant: the trace passes the checker; no own event is of a later round than the state's;
    no precommit of the current round was signed unless the state says so; every own precommit for
    a block is covered by the lock held (same block, lock round not below it) or released by a
    polka up to the current round; a lock of the current round was precommitted in it. *)
Record linv (st : lstate) (tr : trace) : Prop := {
  k_checked : check_trace i [] tr = true;
  k_rounds : forall m, In (i, m) tr -> (msg_round B m <= l_round B st)%nat;
  k_fresh : l_precommitted B st = false -> forall x, ~ In (i, Precommit B (l_round B st) x) tr;
  k_history : forall b r, In (i, Precommit B r (Some b)) tr ->
      (exists lr, l_locked B st = Some (b, lr) /\ (r <= lr)%nat) \/ release tr r (l_round B st) b = true;
  k_lock : forall b lr, l_locked B st = Some (b, lr) ->
      (lr <= l_round B st)%nat /\ (lr = l_round B st -> l_precommitted B st = true)
}.

Lemma linv_init : linv (l_init B) [].
Proof.
  constructor; cbn [l_init l_round l_precommitted l_locked].
  - reflexivity.
  - intros m [].
  - intros _ x [].
  - intros b r [].
  - intros b lr H; discriminate.
Qed.

(** the trace grows by an event, the state stays: fine if the event is another validator's, or
    passes the check, is of a round the state has reached and, if it is a precommit, is recorded
    by the state *)
Lemma linv_snoc st tr j m :
  linv st tr ->
  (j = i ->
   check_event i tr m = true /\ (msg_round B m <= l_round B st)%nat /\
   forall r x, m = Precommit B r x ->
     l_precommitted B st = true /\
     forall b, x = Some b -> exists lr, l_locked B st = Some (b, lr) /\ (r <= lr)%nat) ->
  linv st (tr ++ [(j, m)]).
Proof.
  intros Hinv Hown.
  assert (Hin : forall m', In (i, m') (tr ++ [(j, m)]) -> In (i, m') tr \/ j = i /\ m' = m).
  { intros m' H. apply in_app_or in H. destruct H as [H|[[= -> ->]|[]]]; auto. }
  constructor.
  - rewrite check_trace_snoc, (k_checked st tr Hinv). cbn [fst snd andb].
    destruct (Nat.eqb_spec j i) as [E|]; [exact (proj1 (Hown E))|reflexivity].
  - intros m' H. destruct (Hin m' H) as [H'|[E ->]]; [exact (k_rounds st tr Hinv m' H')|].
    exact (proj1 (proj2 (Hown E))).
  - intros Hf x H. destruct (Hin _ H) as [H'|[E <-]]; [exact (k_fresh st tr Hinv Hf x H')|].
    destruct (Hown E) as [_ [_ Hp]]. destruct (Hp _ _ eq_refl) as [Ht _]. congruence.
  - intros b r H. destruct (Hin _ H) as [H'|[E <-]].
    + destruct (k_history st tr Hinv b r H') as [Hl|Hrel]; [left; exact Hl|right].
      apply (release_mono tr _ r r _ _ b Hrel); apply le_n.
    + left. destruct (Hown E) as [_ [_ Hp]]. exact (proj2 (Hp _ _ eq_refl) b eq_refl).
  - exact (k_lock st tr Hinv).
Qed.

Lemma precommit_checks st tr x :
  linv st tr -> l_precommitted B st = false ->
  (forall b, x = Some b -> polka_b tr (l_round B st) (Some b) = true) ->
  check_event i tr (Precommit B (l_round B st) x) = true.
Proof.
  intros Hinv Hf Hp. apply check_precommit. split; [|split; [exact Hp|]].
  - intros y Hin. destruct (k_fresh st tr Hinv Hf y Hin).
  - intros r' y Hin. exact (k_rounds st tr Hinv _ Hin).
Qed.

Lemma prevote_checks st tr x :
  linv st tr ->
  (forall b lr, l_locked B st = Some (b, lr) -> x = Some b) ->
  check_event i tr (Prevote B (l_round B st) x) = true.
Proof.
  intros Hinv Hl. apply check_prevote. intros r b Hin _ Hx. apply release_spec.
  destruct (k_history st tr Hinv b r Hin) as [[lr [Hlk _]]|Hrel]; [|exact Hrel].
  destruct (Hx (Hl b lr Hlk)).
Qed.

(** before the precommit of a round, a polka of that round for another value releases the lock held *)
Lemma polka_releases st tr b lr r y :
  linv st tr -> l_precommitted B st = false -> l_locked B st = Some (b, lr) -> (r <= lr)%nat ->
  polka_b tr (l_round B st) y = true -> y <> Some b -> release tr r (l_round B st) b = true.
Proof.
  intros Hinv Hf Hl Hle Hp Hy. destruct (k_lock st tr Hinv b lr Hl) as [Hlr Heq].
  assert (lr <> l_round B st) by (intros E; specialize (Heq E); congruence).
  apply (release_of_polka tr r (l_round B st) (l_round B st) y b Hp); [lia|apply le_n|exact Hy].
Qed.

Lemma lstep_inv st tr a st' tr' : linv st tr -> lstep st tr a = Some (st', tr') -> linv st' tr'.
Proof.
  intros Hinv Hs. apply lstep_some in Hs. destruct a as [r|x|x| |e].
  - (* new round *)
    destruct Hs as [Hr [-> ->]]. constructor; cbn [l_round l_precommitted l_locked].
    + exact (k_checked st tr Hinv).
    + intros m Hin. pose proof (k_rounds st tr Hinv m Hin). lia.
    + intros _ x Hin. pose proof (k_rounds st tr Hinv _ Hin) as H. cbn in H. lia.
    + intros b r0 Hin. destruct (k_history st tr Hinv b r0 Hin) as [H|H]; [left; exact H|right].
      apply (release_same tr r0 r0 (l_round B st) r b H); lia.
    + intros b lr Hl. destruct (k_lock st tr Hinv b lr Hl) as [H1 _]. split; [lia|intros ->; lia].
  - (* prevote *)
    destruct Hs as [Hg [-> ->]]. apply linv_snoc; [exact Hinv|]. intros _.
    split; [apply prevote_checks; assumption|]. split; [apply le_n|discriminate].
  - (* precommit: the state records it, then the trace grows *)
    destruct Hs as [Hf [Hp [-> ->]]]. apply linv_snoc.
    + constructor; cbn [l_round l_precommitted l_locked].
      * exact (k_checked st tr Hinv).
      * exact (k_rounds st tr Hinv).
      * discriminate.
      * intros b1 r1 Hin. destruct (k_history st tr Hinv b1 r1 Hin) as [[lr [Hl Hle]]|H1]; [|right; exact H1].
        pose proof (polka_releases st tr b1 lr r1) as Hrel. destruct x as [b|].
        -- destruct (B_eq_dec b1 b) as [->|Hne].
           ++ left. exists (l_round B st). split; [reflexivity|]. destruct (k_lock st tr Hinv b lr Hl). lia.
           ++ right. apply (Hrel (Some b)); auto. congruence.
        -- destruct (polka_b tr (l_round B st) None) eqn:Ep.
           ++ right. apply (Hrel None); auto. discriminate.
           ++ left. exists lr. auto.
      * intros b1 lr Hl. split; [|reflexivity]. destruct x as [b|].
        -- injection Hl as _ <-. apply le_n.
        -- destruct (polka_b tr (l_round B st) None); [discriminate|]. exact (proj1 (k_lock st tr Hinv b1 lr Hl)).
    + intros _. split; [apply precommit_checks; assumption|]. split; [apply le_n|].
      intros r0 x0 [= <- <-]. split; [reflexivity|]. intros b ->. exists (l_round B st). split; [reflexivity|apply le_n].
  - (* unlock *)
    destruct Hs as [b [lr [El [Er [-> ->]]]]]. constructor; cbn [l_round l_precommitted l_locked].
    + exact (k_checked st tr Hinv).
    + exact (k_rounds st tr Hinv).
    + exact (k_fresh st tr Hinv).
    + intros b1 r1 Hin. right. destruct (k_history st tr Hinv b1 r1 Hin) as [[lr1 [Hl Hle]]|H1]; [|exact H1].
      rewrite El in Hl. injection Hl as <- <-. apply (release_same tr r1 lr _ _ b Er); [exact Hle|apply le_n].
    + discriminate.
  - (* another validator signs *)
    destruct Hs as [Hne [-> ->]]. destruct e as [j m]. apply linv_snoc; [exact Hinv|]. intros E. destruct (Hne E).
Qed.

Lemma lrun_inv acts : forall st tr st' tr', linv st tr -> lrun st tr acts = Some (st', tr') -> linv st' tr'.
Proof.
  induction acts as [|a acts IH]; intros st tr st' tr' Hinv Hr; cbn [Lock.lrun] in Hr.
  - inversion Hr; subst. exact Hinv.
  - destruct (lstep st tr a) as [[st1 tr1]|] eqn:E; [|discriminate].
    apply (IH st1 tr1 st' tr'); [|exact Hr]. eapply lstep_inv; eauto.
Qed.

Lemma linv_obeys st tr : linv st tr -> obeys powers B B_eq_dec tr i.
Proof. intros Hinv. apply obeys_b_sound. exact (k_checked st tr Hinv). Qed.

(** THE LOCK DISCIPLINE SUFFICES: whatever the other validators sign and whenever, the trace of any
    run of the automaton satisfies this validator's four obligations *)
Theorem lock_discipline_obeys acts st tr :
  lrun (l_init B) [] acts = Some (st, tr) -> obeys powers B B_eq_dec tr i.
Proof.
  intros Hr. exact (linv_obeys st tr (lrun_inv acts _ _ _ _ linv_init Hr)).
Qed.

(** ... and no precommit for a block outlives the lock (what the harness's lock-state oracle
    checks on the real nodes): while a lock (b, lr) is held, every own precommit for a block is of
    a round not above lr, or is released by a polka up to the current round *)
Theorem lock_is_last_precommit acts st tr b lr :
  lrun (l_init B) [] acts = Some (st, tr) -> l_locked B st = Some (b, lr) ->
  forall b' r, In (i, Precommit B r (Some b')) tr -> (r <= lr)%nat \/ release tr r (l_round B st) b' = true.
Proof.
  intros Hr Hl b' r Hin. pose proof (lrun_inv acts _ _ _ _ linv_init Hr) as Hinv.
  destruct (k_history st tr Hinv b' r Hin) as [[lr' [Hl' Hle]]|H]; [left|right; exact H].
  rewrite Hl in Hl'. inversion Hl'; subst. exact Hle.
Qed.

End LockProofs.

(** Non-vacuity and the re-lock schedule: validator 0 of four locks 7 in round 1, a polka for 8
    in round 2 stays incomplete, it re-locks 7 in round 3, the polka of round 2 completes late.  The
    automaton runs (so the theorem's hypothesis is satisfiable), its lock is (7, 3), and the late
    polka does NOT release it; with the lock round left at 1 (what a re-lock that does not advance
    LockedRound leaves behind) the same polka would release it. *)
Definition ex_relock_actions : list (action nat) :=
  [ ANewRound nat 1;
    AOther nat (1%nat, Prevote nat 1 (Some 7%nat)); AOther nat (2%nat, Prevote nat 1 (Some 7%nat));
    APrevote nat (Some 7%nat); APrecommit nat (Some 7%nat);
    ANewRound nat 2; APrevote nat (Some 7%nat);
    AOther nat (1%nat, Prevote nat 2 (Some 8%nat)); AOther nat (2%nat, Prevote nat 2 (Some 8%nat));
    APrecommit nat None;
    ANewRound nat 3;
    AOther nat (1%nat, Prevote nat 3 (Some 7%nat)); AOther nat (2%nat, Prevote nat 3 (Some 7%nat));
    APrevote nat (Some 7%nat); APrecommit nat (Some 7%nat);
    AOther nat (3%nat, Prevote nat 2 (Some 8%nat)) ].

Definition ex_relock_run := lrun [1; 1; 1; 1] nat Nat.eq_dec 0 (l_init nat) [] ex_relock_actions.

Example ex_relock_runs :
  option_map (fun p => l_locked nat (fst p)) ex_relock_run = Some (Some (7%nat, 3%nat)).
Proof. vm_compute. reflexivity. Qed.

Example ex_relock_late_polka_does_not_release :
  match ex_relock_run with
  | Some (st, tr) => lstep [1; 1; 1; 1] nat Nat.eq_dec 0 st tr (AUnlock nat) = None /\
                     lstep [1; 1; 1; 1] nat Nat.eq_dec 0 st tr (APrevote nat (Some 8%nat)) = None /\
                     (* the stale lock round of the first lock would let the round-2 polka through *)
                     release [1; 1; 1; 1] nat Nat.eq_dec tr 1 3 7%nat = true
  | None => False
  end.
Proof. vm_compute. repeat split; reflexivity. Qed.
