(** C01 — tie of the models' guards to the Go SOURCE.
    [Generated/C01Source.v] is produced on every check by /verif/go2coq from /repo's working tree:
    every guard / integer expression of ValidatorSet.VerifyCommit, Commit.ValidateBasic,
    CommitSig.ValidateBasic / Absent / ForBlock (types), pcState.handle / synced (blockchain) and
    ConsensusState.enterPrecommit / addVote / doPrevote / enterNewRound / enterPrevote (consensus), as
    Gallina over [Z] with their operands named ([_atoms]).  The lemmas below and the conjuncts of
    [C01_source_tie_statement] say that
      - [verify_commit] / [vc_loop] / [commit_basic] / [slot_basic] of C01/Sync.v are built from exactly
        these tests, in this order, on these operands (whole-function restatements: the first two
        conjuncts);
      - [p_handle]'s height test and [EvFinished]'s queue test are the source's;
      - the release test of C01/Lock.v ([release], used by [AUnlock] and by the checker's lock rule) IS
        addVote's `LockedBlock != nil && LockedRound < vote.Round && vote.Round <= cs.Round &&
        !LockedBlock.HashesTo(..)` on (lock round, polka round, current round), and [ANewRound] is
        accepted exactly when enterNewRound, past the NewHeight step (step <> 1), is not refused;
      - two conjuncts evaluate Go guards only, with no term of the model in them: doPrevote's scan bound
        is `>` on (r, LockedRound), the lower bound of [release]; enterPrecommit at the node's own
        height and round is refused exactly when step >= 6 (Precommit), which the model reads as
        [l_precommitted], by convention and not by a lemma.
    The two arithmetic conjuncts (votingPowerNeeded, the tally) hold below MaxTotalVotingPower; that
    bound is not established here: the cap of updateTotalVotingPower is tied in C02/SourceTie.v.
    The lemmas that stand outside [C01_source_tie_statement] ([src_flag_decoding], [src_slot_counts],
    [src_commit_basic], [src_slot_basic], [src_scan_test], [src_no_polka] and the [_atoms] lemmas) are
    not quoted by Properties.v; like the conjuncts, they stop the build when the Go source moves.
    An edit of the Go source that changes one of these comparisons, constants, operands or their order
    changes the generated file and re-opens these obligations. *)
From Coq Require Import List ZArith Arith Bool Lia String.
From Kardia Require Import Base.GoSem Base.Conj.
From Kardia Require Import Generated.C01Source.
From Kardia Require Import C01.Power C01.Agreement C01.Checker C01.Sync C01.Lock C01.Run.
Import ListNotations.
Local Open Scope Z_scope.

(** nat comparisons of the models vs. Z comparisons of the translation: [Zofnat_eqb], [Zofnat_ltb],
    [Zofnat_leb], [Zofnat_gtb] of Base/GoSem *)
Lemma existsb_ext {A} (f g : A -> bool) l : (forall x, f x = g x) -> existsb f l = existsb g l.
Proof. intros H. induction l as [|x l IH]; cbn [existsb]; [reflexivity|]. rewrite H, IH. reflexivity. Qed.

(** ** VerifyCommit (types/validator_set.go) *)

(** the BlockIDFlag byte of a slot *)
Definition flag_byte (f : flag) : Z := match f with FAbsent => 1 | FCommit => 2 | FNil => 3 | FUnknown => 0 end.

Lemma src_absent f :
  types__CommitSig_Absent__ret_cs_BlockIDFlag_eq_BlockIDFlagAbsent (flag_byte f) = match f with FAbsent => true | _ => false end.
Proof. destruct f; reflexivity. Qed.
Lemma src_for_block f :
  types__CommitSig_ForBlock__ret_cs_BlockIDFlag_eq_BlockIDFlagCommit (flag_byte f) = match f with FCommit => true | _ => false end.
Proof. destruct f; reflexivity. Qed.
(** the driver's decoding of the flag token is the same byte *)
Lemma src_flag_decoding f a ad t e sg :
  (f <= 3)%nat -> flag_byte (s_flag (mk_slot f a ad t e sg)) = Z.of_nat f.
Proof. intros H. destruct f as [|[|[|[|f]]]]; cbn; try reflexivity; lia. Qed.

Lemma src_needed_atoms :
  types__ValidatorSet_VerifyCommit__set_votingPowerNeeded_atoms = ["vs.TotalVotingPower() : int64"]%string.
Proof. reflexivity. Qed.

Lemma src_tally_add_atoms :
  types__ValidatorSet_VerifyCommit__set_talliedVotingPower_op_atoms = ["talliedVotingPower : int64"; "val.VotingPower : int64"]%string.
Proof. reflexivity. Qed.

Section Tie.
Variable B : Type.
Variable B_eq_dec : forall x y : B, {x = y} + {x <> y}.

(** for a wanted block, a slot counts when it is for the commit's block (ForBlock) *)
Lemma src_slot_counts b s :
  slot_counts B (Some b) s = types__CommitSig_ForBlock__ret_cs_BlockIDFlag_eq_BlockIDFlagCommit (flag_byte (s_flag s)).
Proof. unfold slot_counts. rewrite src_for_block. destruct (s_flag s); reflexivity. Qed.

(** Commit.ValidateBasic / CommitSig.ValidateBasic *)
Lemma src_commit_basic (c : commit B) :
  commit_basic B c =
  if types__Commit_ValidateBasic__if_commit_Height_ge_1 (Z.of_nat (c_height B c))
  then match c_block B c with
       | None => false
       | Some _ => negb (types__Commit_ValidateBasic__if_len_commit_Signatures_eq_0 (Z.of_nat (List.length (c_slots B c))))
                   && forallb slot_basic (c_slots B c)
       end
  else true.
Proof.
  unfold commit_basic, types__Commit_ValidateBasic__if_commit_Height_ge_1, types__Commit_ValidateBasic__if_len_commit_Signatures_eq_0.
  change 0 with (Z.of_nat 0). rewrite Zofnat_eqb.
  destruct (c_height B c) as [|h]; [reflexivity|].
  replace (Z.of_nat (S h) >=? 1) with true by (symmetry; apply Z.geb_le; lia). reflexivity.
Qed.

Lemma src_slot_basic s :
  slot_basic s =
  match s_flag s with
  | FUnknown => false
  | FAbsent =>
    negb (types__CommitSig_ValidateBasic__if_not_cs_ValidatorAddress_Equal_common_Address (s_addr_zero s))
    && negb (types__CommitSig_ValidateBasic__if_not_cs_Timestamp_IsZero (s_time_zero s))
    && negb (types__CommitSig_ValidateBasic__if_len_cs_Signature_ne_0 (if s_sig_empty s then 0 else 1))
  | _ => negb (types__CommitSig_ValidateBasic__if_len_cs_Signature_eq_0 (if s_sig_empty s then 0 else 1))
  end.
Proof.
  unfold slot_basic, types__CommitSig_ValidateBasic__if_not_cs_ValidatorAddress_Equal_common_Address,
    types__CommitSig_ValidateBasic__if_not_cs_Timestamp_IsZero, types__CommitSig_ValidateBasic__if_len_cs_Signature_ne_0,
    types__CommitSig_ValidateBasic__if_len_cs_Signature_eq_0, go_neqb.
  destruct (s_flag s), (s_addr_zero s), (s_time_zero s), (s_sig_empty s); reflexivity.
Qed.

(** ** the lock bookkeeping (consensus/state.go) *)

(** doPrevote's scan releases on a polka (`ok`) for another block *)
Lemma src_scan_test ok same :
  consensus__ConsensusState_doPrevote__if_ok_and_not_cs_LockedBlock_HashesTo_bid_Hash ok same = (ok && negb same)%bool.
Proof. reflexivity. Qed.

(** without a polka (`!ok`) the precommit is for nil: [APrecommit (Some b)] needs [polka_b] *)
Lemma src_no_polka ok : consensus__ConsensusState_enterPrecommit__if_not_ok ok = negb ok.
Proof. reflexivity. Qed.

End Tie.

(** ** what is compared (the operands of the guards) *)
Lemma src_atoms :
  types__ValidatorSet_VerifyCommit__if_vs_Size_ne_len_commit_Signatures_atoms = ["vs.Size() : int"; "len(commit.Signatures) : int"]%string
  /\ types__ValidatorSet_VerifyCommit__if_height_ne_commit_GetHeight_atoms = ["height : uint64"; "commit.GetHeight() : uint64"]%string
  /\ types__ValidatorSet_VerifyCommit__if_not_blockID_Equal_commit_BlockID_atoms = ["blockID.Equal(commit.BlockID) : bool"]%string
  /\ types__ValidatorSet_VerifyCommit__if_not_commitSig_ValidatorAddress_Equal_val_Address_atoms = ["commitSig.ValidatorAddress.Equal(val.Address) : bool"]%string
  /\ types__ValidatorSet_VerifyCommit__if_not_VerifySignature_val_Address_crypto_Keccak256_signBytes_c_6727322a_atoms
      = ["VerifySignature(val.Address, crypto.Keccak256(signBytes), commitSig.Signature) : bool"]%string
  /\ types__ValidatorSet_VerifyCommit__if_got_le_needed_atoms = ["got : int64"; "needed : int64"]%string
  /\ types__Commit_ValidateBasic__if_commit_Height_ge_1_atoms = ["commit.Height : uint64"]%string
  /\ types__Commit_ValidateBasic__if_len_commit_Signatures_eq_0_atoms = ["len(commit.Signatures) : int"]%string
  /\ blockchain__pcState_handle__if_event_block_Height_gt_state_height_atoms = ["event.block.Height() : uint64"; "state.height() : uint64"]%string
  /\ blockchain__pcState_synced__ret_len_state_queue_le_1_atoms = ["len(state.queue) : int"]%string
  /\ consensus__ConsensusState_addVote__if_cs_LockedBlock_ne_nil_and_cs_LockedRound_lt_vote_Round_and_v_a39f474f_atoms
      = ["cs.LockedBlock != nil : bool"; "cs.LockedRound : uint32"; "vote.Round : uint32"; "cs.Round : uint32"; "cs.LockedBlock.HashesTo(blockID.Hash) : bool"]%string
  /\ consensus__ConsensusState_doPrevote__for_r_gt_cs_LockedRound_atoms = ["r : uint32"; "cs.LockedRound : uint32"]%string
  /\ consensus__ConsensusState_doPrevote__if_ok_and_not_cs_LockedBlock_HashesTo_bid_Hash_atoms = ["ok : bool"; "cs.LockedBlock.HashesTo(bid.Hash) : bool"]%string
  /\ consensus__ConsensusState_enterPrecommit__if_not_ok_atoms = ["ok : bool"]%string.
Proof. split_all; reflexivity. Qed.

(** ** the whole tie, as one statement (quoted by Properties.v) *)
Definition C01_source_tie_statement : Prop :=
  (forall (B : Type) (B_eq_dec : forall x y : B, {x = y} + {x <> y}) powers hw want (c : commit B),
      verify_commit B B_eq_dec powers hw want (Some c) =
      if negb (commit_basic B c) then VBasic
      else if types__ValidatorSet_VerifyCommit__if_vs_Size_ne_len_commit_Signatures
                (Z.of_nat (List.length powers)) (Z.of_nat (List.length (c_slots B c))) then VSize
      else if types__ValidatorSet_VerifyCommit__if_height_ne_commit_GetHeight (Z.of_nat hw) (Z.of_nat (c_height B c)) then VHeight
      else if types__ValidatorSet_VerifyCommit__if_not_blockID_Equal_commit_BlockID (bid_eqb B B_eq_dec want (c_block B c)) then VBlock
      else match vc_loop B powers want (c_slots B c) (List.length (c_slots B c)) with
           | inr (EAddr i) => VAddr i
           | inr (ESig i) => VSig i
           | inl got =>
             if types__ValidatorSet_VerifyCommit__if_got_le_needed got (total powers * 2 / 3)
             then VPower got (total powers * 2 / 3) else VOk
           end)
  /\ (forall (B : Type) powers want slots k,
      vc_loop B powers want slots (S k) =
      match vc_loop B powers want slots k with
      | inr e => inr e
      | inl acc =>
        let s := nth k slots absent_slot in
        if types__CommitSig_Absent__ret_cs_BlockIDFlag_eq_BlockIDFlagAbsent (flag_byte (s_flag s)) then inl acc
        else if types__ValidatorSet_VerifyCommit__if_not_commitSig_ValidatorAddress_Equal_val_Address (is_idx (s_addr s) k) then inr (EAddr k)
        else if types__ValidatorSet_VerifyCommit__if_not_VerifySignature_val_Address_crypto_Keccak256_signBytes_c_6727322a (is_idx (s_signer s) k) then inr (ESig k)
        else inl (if slot_counts B want s then acc + power powers k else acc)
      end)
  /\ (forall t, 0 <= t <= types__MaxTotalVotingPower -> t * 2 / 3 = types__ValidatorSet_VerifyCommit__set_votingPowerNeeded t)
  /\ (forall acc p, 0 <= acc -> 0 <= p -> acc + p <= types__MaxTotalVotingPower ->
                    acc + p = types__ValidatorSet_VerifyCommit__set_talliedVotingPower_op acc p)
  /\ (forall (B : Type) (B_eq_dec : forall x y : B, {x = y} + {x <> y}) powers_of apply_ok (st : pstate B) peer b,
      p_handle B B_eq_dec powers_of apply_ok st (EvBlock B peer b) =
      if blockchain__pcState_handle__if_event_block_Height_gt_state_height (Z.of_nat (b_height B b)) (Z.of_nat (List.length (p_chain B st)))
      then match q_get B (p_queue B st) (b_height B b) with
           | Some _ => (st, ODupPanic)
           | None => (mkP B (p_chain B st) ((b_height B b, (peer, b)) :: p_queue B st) (p_draining B st) (p_synced B st), ONoop)
           end
      else (st, ONoop))
  /\ (forall (B : Type) (B_eq_dec : forall x y : B, {x = y} + {x <> y}) powers_of apply_ok (st : pstate B),
      p_handle B B_eq_dec powers_of apply_ok st (EvFinished B) =
      if blockchain__pcState_synced__ret_len_state_queue_le_1 (Z.of_nat (List.length (p_queue B st))) then (st, OFinished)
      else (mkP B (p_chain B st) (p_queue B st) true (p_synced B st), ONoop))
  /\ (forall (B : Type) (B_eq_dec : forall x y : B, {x = y} + {x <> y}) powers (tr : trace B) lr r b,
      release powers B B_eq_dec tr lr r b =
      existsb (fun e' => match e' with
                         | (_, Prevote _ r'' y) =>
                           consensus__ConsensusState_addVote__if_cs_LockedBlock_ne_nil_and_cs_LockedRound_lt_vote_Round_and_v_a39f474f
                             true (Z.of_nat lr) (Z.of_nat r'') (Z.of_nat r) (opt_eqb B B_eq_dec y (Some b))
                           && polka_b powers B B_eq_dec tr r'' y
                         | _ => false end) tr)
  /\ (forall lr r'', Nat.ltb lr r'' = consensus__ConsensusState_doPrevote__for_r_gt_cs_LockedRound (Z.of_nat r'') (Z.of_nat lr))
  /\ (forall (B : Type) (B_eq_dec : forall x y : B, {x = y} + {x <> y}) powers i (st : lstate B) (tr : trace B) r h step,
      step <> 1 ->
      (match lstep powers B B_eq_dec i st tr (ANewRound B r) with Some _ => true | None => false end) =
      negb (consensus__ConsensusState_enterNewRound__if_cs_Height_ne_height_or_round_lt_cs_Round_or_cs_Round_eq_roun_2354a6d9
              h h (Z.of_nat r) (Z.of_nat (l_round B st)) step))
  /\ (forall h r step,
      consensus__ConsensusState_enterPrecommit__if_cs_Height_ne_height_or_round_lt_cs_Round_or_cs_Round_eq_roun_175a6e72 h h r r step
      = Z.leb 6 step)
  /\ consensus__ConsensusState_addVote__if_cs_LockedBlock_ne_nil_and_cs_LockedRound_lt_vote_Round_and_v_a39f474f_atoms
      = ["cs.LockedBlock != nil : bool"; "cs.LockedRound : uint32"; "vote.Round : uint32"; "cs.Round : uint32"; "cs.LockedBlock.HashesTo(blockID.Hash) : bool"]%string
  /\ types__ValidatorSet_VerifyCommit__if_not_commitSig_ValidatorAddress_Equal_val_Address_atoms = ["commitSig.ValidatorAddress.Equal(val.Address) : bool"]%string
  /\ types__ValidatorSet_VerifyCommit__if_got_le_needed_atoms = ["got : int64"; "needed : int64"]%string.

Lemma C01_source_tie_proof : C01_source_tie_statement.
Proof.
  unfold C01_source_tie_statement. split_all.
  - (* the whole of [verify_commit], with the source's tests in the source's order *)
    intros B B_eq_dec powers hw want c.
    unfold verify_commit, types__ValidatorSet_VerifyCommit__if_vs_Size_ne_len_commit_Signatures,
      types__ValidatorSet_VerifyCommit__if_height_ne_commit_GetHeight,
      types__ValidatorSet_VerifyCommit__if_not_blockID_Equal_commit_BlockID,
      types__ValidatorSet_VerifyCommit__if_got_le_needed, go_neqb.
    rewrite !Zofnat_eqb. reflexivity.
  - (* one iteration of the loop over the slots: absent -> next; address; signature; tally *)
    intros B powers want slots k.
    cbn [vc_loop]. destruct (vc_loop B powers want slots k) as [acc|e]; [|reflexivity].
    cbv zeta. rewrite src_absent.
    unfold types__ValidatorSet_VerifyCommit__if_not_commitSig_ValidatorAddress_Equal_val_Address,
      types__ValidatorSet_VerifyCommit__if_not_VerifySignature_val_Address_crypto_Keccak256_signBytes_c_6727322a.
    destruct (s_flag (nth k slots absent_slot)); reflexivity.
  - (* votingPowerNeeded := vs.TotalVotingPower() * 2 / 3 does not wrap below MaxTotalVotingPower *)
    intros t H. unfold types__ValidatorSet_VerifyCommit__set_votingPowerNeeded, types__MaxTotalVotingPower in *.
    gosem_unfold. rewrite (wrap_id I64 (t * 2)) by (unfold in_range; lia).
    rewrite Z.quot_div_nonneg by lia.
    assert (0 <= t * 2 / 3 <= t * 2) by (split; [apply Z.div_pos; lia|apply Z.div_le_upper_bound; lia]).
    rewrite wrap_id; [reflexivity|unfold in_range; lia].
  - (* talliedVotingPower += val.VotingPower, likewise *)
    intros acc p Ha Hp H. unfold types__ValidatorSet_VerifyCommit__set_talliedVotingPower_op, types__MaxTotalVotingPower in *.
    gosem_unfold. rewrite wrap_id; [reflexivity|unfold in_range; lia].
  - (* [p_handle] on a received block: the height test of pcState.handle *)
    intros B B_eq_dec powers_of apply_ok st peer b. cbn [p_handle].
    unfold blockchain__pcState_handle__if_event_block_Height_gt_state_height.
    rewrite Zofnat_gtb. reflexivity.
  - (* [p_handle] on scFinishedEv: pcState.synced *)
    intros B B_eq_dec powers_of apply_ok st. cbn [p_handle].
    rewrite <- (Zofnat_leb _ 1). reflexivity.
  - (* [release] (the guard of [AUnlock], and the checker's lock rule) IS addVote's release test on
       (a lock is held, LockedRound, the polka's round, the node's round, the polka is for the
       locked block), applied to the polkas of the trace *)
    intros B B_eq_dec powers tr lr r b. unfold release. apply existsb_ext.
    intros [j [r'' y|r'' y]]; [|reflexivity].
    unfold consensus__ConsensusState_addVote__if_cs_LockedBlock_ne_nil_and_cs_LockedRound_lt_vote_Round_and_v_a39f474f.
    cbn [andb]. rewrite Zofnat_ltb, Zofnat_leb. reflexivity.
  - (* doPrevote's scan `for r := cs.Round; r > cs.LockedRound; r--` has the same lower bound *)
    intros lr r''. unfold consensus__ConsensusState_doPrevote__for_r_gt_cs_LockedRound.
    symmetry. apply Zofnat_gtb.
  - (* [ANewRound r] is accepted exactly when enterNewRound(height, r) is not refused (same height,
       the node is past the NewHeight step = 1) *)
    intros B B_eq_dec powers i st tr r h step Hs. cbn [lstep].
    unfold consensus__ConsensusState_enterNewRound__if_cs_Height_ne_height_or_round_lt_cs_Round_or_cs_Round_eq_roun_2354a6d9, go_neqb.
    rewrite Z.eqb_refl. cbn [negb orb].
    replace (step =? 1) with false by (symmetry; apply Z.eqb_neq; exact Hs). cbn [negb]. rewrite andb_true_r.
    destruct (Nat.ltb_spec (l_round B st) r); destruct (Z.ltb_spec (Z.of_nat r) (Z.of_nat (l_round B st)));
      destruct (Z.eqb_spec (Z.of_nat (l_round B st)) (Z.of_nat r)); cbn; try reflexivity; lia.
  - (* a precommit in the node's own round is refused exactly when the step is already Precommit
       (= 6) or later: the model's [l_precommitted] *)
    intros h r step.
    unfold consensus__ConsensusState_enterPrecommit__if_cs_Height_ne_height_or_round_lt_cs_Round_or_cs_Round_eq_roun_175a6e72, go_neqb.
    rewrite !Z.eqb_refl, Z.ltb_irrefl. reflexivity.
  - reflexivity.
  - reflexivity.
  - reflexivity.
Qed.
