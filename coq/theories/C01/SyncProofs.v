(** C01 — proofs about the model of VerifyCommit and of the block-sync processor (C01/Sync.v):
    a commit that VerifyCommit accepts carries, for the wanted height and block, precommits of
    DISTINCT validators (slot i is validator i's or the commit is refused) holding more than two
    thirds of the power; hence, with ideal signatures, the chain the processor adopts — whatever
    blocks, in whatever order, from whatever peers it is offered — is a [justified] chain
    (Chain.v), and by [no_fork] it is a prefix of / extends every chain committed by consensus.
    Four definitions of this file occur in the statements of Properties.v: [counted] (the slots that
    enter the tally) and the ideal-signature assumptions [commit_ideal], [blk_ideal], [ev_ideal].
    At the end: the counterexample to attributing slots by address, and a concrete offer sequence
    that meets the assumptions and is adopted. *)
From Coq Require Import List ZArith Arith Bool Lia.
From Kardia Require Import C01.Power C01.Agreement C01.Chain C01.Sync.
Import ListNotations.
Local Open Scope Z_scope.

Section SyncProofs.
Variable B : Type.
Variable B_eq_dec : forall x y : B, {x = y} + {x <> y}.

Notation commit := (commit B).
Notation blk := (blk B).
Notation pstate := (pstate B).
Notation pevent := (pevent B).

(** slot i counts for the tally: present, carrying validator i's address, signed by validator i,
    for the wanted block *)
Definition counted (want : option B) (slots : list slot) (i : nat) : bool :=
  let s := nth i slots absent_slot in
  match s_flag s with
  | FAbsent => false
  | _ => is_idx (s_addr s) i && is_idx (s_signer s) i && slot_counts B want s
  end.

Lemma is_idx_eq o k : is_idx o k = true <-> o = Some k.
Proof.
  destruct o as [v|]; cbn [is_idx]; [|split; discriminate].
  rewrite Nat.eqb_eq. split; [intros ->; reflexivity|intros H; inversion H; reflexivity].
Qed.

(** one iteration of the loop that goes on: the tally grows by the power of a slot that counts, and
    a present slot carries the address and the signature of the validator of its index *)
Lemma vc_loop_step powers want slots k got :
  vc_loop B powers want slots (S k) = inl got ->
  exists acc, vc_loop B powers want slots k = inl acc /\
    got = (if counted want slots k then power powers k else 0) + acc /\
    (s_flag (nth k slots absent_slot) <> FAbsent ->
     s_addr (nth k slots absent_slot) = Some k /\ s_signer (nth k slots absent_slot) = Some k).
Proof.
  cbn [vc_loop]. destruct (vc_loop B powers want slots k) as [acc|e]; [|discriminate].
  intros H. exists acc. split; [reflexivity|]. unfold counted. cbv zeta in *.
  destruct (s_flag (nth k slots absent_slot)); [injection H as <-; split; [lia|congruence]|..].
  all: destruct (is_idx (s_addr (nth k slots absent_slot)) k) eqn:Ea; [|discriminate].
  all: destruct (is_idx (s_signer (nth k slots absent_slot)) k) eqn:Es; [|discriminate].
  all: apply is_idx_eq in Ea; apply is_idx_eq in Es; cbn [negb andb] in *; injection H as <-.
  all: split; [destruct (slot_counts B want (nth k slots absent_slot)); lia|auto].
Qed.

(** the loop that ends with a tally: the power of the slots that count, all present slots attributed *)
Lemma vc_loop_spec powers want slots k : forall got,
  vc_loop B powers want slots k = inl got ->
  got = pw_upto powers k (counted want slots) /\
  forall i, (i < k)%nat -> s_flag (nth i slots absent_slot) <> FAbsent ->
            s_addr (nth i slots absent_slot) = Some i /\ s_signer (nth i slots absent_slot) = Some i.
Proof.
  induction k as [|k IH]; intros got H.
  - injection H as <-. split; [reflexivity|]. intros i Hi. inversion Hi.
  - destruct (vc_loop_step _ _ _ _ _ H) as [acc [E [-> Hk]]]. destruct (IH acc E) as [-> Hlt].
    split; [reflexivity|]. intros i Hi. destruct (Nat.eq_dec i k) as [->|]; [exact Hk|apply Hlt; lia].
Qed.

(* [bid_eqb] has the body of [Agreement.opt_eqb] *)
Lemma bid_eqb_eq x y : bid_eqb B B_eq_dec x y = true <-> x = y.
Proof. exact (opt_eqb_eq B B_eq_dec x y). Qed.

(** what an accepted commit is *)
Theorem verify_commit_sound powers hw want oc :
  verify_commit B B_eq_dec powers hw want oc = VOk ->
  exists c, oc = Some c /\ c_height B c = hw /\ c_block B c = want /\
            length (c_slots B c) = length powers /\
            (forall i, (i < length powers)%nat -> s_flag (nth i (c_slots B c) absent_slot) <> FAbsent ->
                       s_addr (nth i (c_slots B c) absent_slot) = Some i /\
                       s_signer (nth i (c_slots B c) absent_slot) = Some i) /\
            2 * total powers < 3 * pw powers (counted want (c_slots B c)).
Proof.
  unfold verify_commit. destruct oc as [c|]; [|discriminate].
  destruct (commit_basic B c); cbn [negb]; [|discriminate].
  destruct (Nat.eqb (length powers) (length (c_slots B c))) eqn:El; cbn [negb]; [|discriminate].
  destruct (Nat.eqb hw (c_height B c)) eqn:Eh; cbn [negb]; [|discriminate].
  destruct (bid_eqb B B_eq_dec want (c_block B c)) eqn:Eb; cbn [negb]; [|discriminate].
  apply Nat.eqb_eq in El. apply Nat.eqb_eq in Eh. apply bid_eqb_eq in Eb.
  destruct (vc_loop B powers want (c_slots B c) (length (c_slots B c))) as [got|[e|e]] eqn:Ev; try discriminate.
  destruct (Z.leb got (total powers * 2 / 3)) eqn:Eg; [discriminate|]. intros _. apply vc_loop_spec in Ev.
  exists c. split; [reflexivity|]. split; [auto|]. split; [auto|]. split; [auto|]. split.
  - intros i Hi. apply (proj2 Ev). lia.
  - apply Z.leb_gt in Eg. unfold pw, Power.n. rewrite El, <- (proj1 Ev). Z.div_mod_to_equations. lia.
Qed.

(** ideal signatures: a slot of commit c whose signature is validator v's, for the block, was
    signed by v — v's precommit for (height, round, block) is an event of the global signing
    history of that height (the history on top of the prefix ch).  [commit_ideal] asks this of
    EVERY prefix ch of the commit's height, not only of the chain the processor holds: sign bytes carry
    chain id, type, height, round, block id and time, nothing else of the prefix.  It is an assumption, strong when
    [trace_of] really depends on the prefix. *)
Variable trace_of : list B -> trace B.

Definition commit_ideal (c : commit) : Prop :=
  forall ch b i v,
    c_height B c = S (length ch) -> c_block B c = Some b -> (i < length (c_slots B c))%nat ->
    s_flag (nth i (c_slots B c) absent_slot) = FCommit ->
    s_signer (nth i (c_slots B c) absent_slot) = Some v ->
    In (v, Precommit B (c_round B c) (Some b)) (trace_of ch).

Lemma counted_commit want slots i :
  counted want slots i = true -> (i < length slots)%nat /\
  s_signer (nth i slots absent_slot) = Some i /\
  (forall b, want = Some b -> s_flag (nth i slots absent_slot) = FCommit).
Proof.
  unfold counted. intros H.
  assert (Hi : (i < length slots)%nat).
  { destruct (lt_dec i (length slots)) as [L|L]; [exact L|].
    rewrite nth_overflow in H by lia. cbn in H. discriminate. }
  split; [exact Hi|].
  destruct (s_flag (nth i slots absent_slot)) eqn:Ef; [discriminate|..].
  all: apply andb_true_iff in H; destruct H as [H Hc]; apply andb_true_iff in H; destruct H as [_ Hv].
  all: apply is_idx_eq in Hv; split; [exact Hv|]; intros b ->.
  all: unfold slot_counts in Hc; rewrite Ef in Hc.
  1: reflexivity.
  all: discriminate Hc.
Qed.

(** an accepted commit for block b at the height after prefix ch is a +2/3 precommit quorum of
    that height's history: the block is [decided] on top of ch *)
Theorem verify_commit_decides powers ch b oc :
  Forall (fun p => 0 <= p) powers ->
  (forall c, oc = Some c -> commit_ideal c) ->
  verify_commit B B_eq_dec powers (S (length ch)) (Some b) oc = VOk ->
  exists r, commit_quorum powers B B_eq_dec (trace_of ch) r b.
Proof.
  intros Hp Hid H. apply verify_commit_sound in H.
  destruct H as [c [-> [Hh [Hb [Hl [_ Hq]]]]]].
  exists (c_round B c). unfold commit_quorum.
  assert (Hm : pw powers (counted (Some b) (c_slots B c)) <=
               pw powers (signed B B_eq_dec (trace_of ch) (Precommit B (c_round B c) (Some b)))).
  { apply pw_mono; [exact Hp|]. intros i _ Hc. apply counted_commit in Hc. destruct Hc as [Hi [Hs Hf]].
    apply signed_In. apply (Hid c eq_refl ch b i i Hh Hb Hi (Hf b eq_refl) Hs). }
  lia.
Qed.

Variable powers_of : list B -> list Z.
Variable apply_ok : list B -> blk -> bool.
Hypothesis powers_nonneg : forall c, Forall (fun p => 0 <= p) (powers_of c).

Notation justified := (justified B B_eq_dec powers_of trace_of).
Notation p_handle := (p_handle B B_eq_dec powers_of apply_ok).
Notation p_run := (p_run B B_eq_dec powers_of apply_ok).

Definition blk_ideal (b : blk) : Prop := forall c, b_last_commit B b = Some c -> commit_ideal c.
Definition ev_ideal (e : pevent) : Prop := match e with EvBlock _ _ b => blk_ideal b | _ => True end.

Definition queue_ok (q : list (nat * (nat * blk))) : Prop :=
  forall k p b, In (k, (p, b)) q -> b_height B b = k /\ blk_ideal b.

Definition inv (st : pstate) : Prop := justified (p_chain B st) /\ queue_ok (p_queue B st).

Lemma q_get_In q h p b : q_get B q h = Some (p, b) -> In (h, (p, b)) q.
Proof.
  induction q as [|[h' x] q IH]; cbn [q_get]; [discriminate|].
  destruct (Nat.eqb h h') eqn:E.
  - apply Nat.eqb_eq in E. subst. intros H. inversion H. left. reflexivity.
  - intros H. right. apply IH. exact H.
Qed.

Lemma queue_ok_filter f q : queue_ok q -> queue_ok (filter f q).
Proof. intros H k p b Hin. apply filter_In in Hin. destruct Hin as [Hin _]. exact (H k p b Hin). Qed.

Lemma handle_inv st ev : ev_ideal ev -> inv st -> inv (fst (p_handle st ev)).
Proof.
  intros Hev [Hj Hq]. destruct ev as [peer b| |peer|]; cbn [Sync.p_handle].
  - (* a block is received *)
    destruct (Nat.ltb (length (p_chain B st)) (b_height B b)); [|split; assumption].
    destruct (q_get B (p_queue B st) (b_height B b)); cbn [fst]; [split; assumption|].
    split; [exact Hj|]. cbn [p_queue]. intros k p b' [Hin|Hin].
    + inversion Hin; subst. split; [reflexivity|exact Hev].
    + apply Hq with (p := p). exact Hin.
  - (* process *)
    destruct (q_get B (p_queue B st) (S (length (p_chain B st)))) as [[p1 first]|] eqn:E1;
      [|destruct (p_draining B st); split; assumption].
    destruct (q_get B (p_queue B st) (S (S (length (p_chain B st))))) as [[p2 second]|] eqn:E2;
      [|destruct (p_draining B st); split; assumption].
    apply q_get_In in E1. apply q_get_In in E2.
    destruct (Hq _ _ _ E1) as [Hh1 _]. destruct (Hq _ _ _ E2) as [_ Hi2].
    assert (Hrefused : inv (mkP B (p_chain B st) (q_purge B (q_purge B (p_queue B st) p1) p2) (p_draining B st) (p_synced B st))).
    { split; [exact Hj|]. apply queue_ok_filter, queue_ok_filter, Hq. }
    destruct (verify_commit B B_eq_dec (powers_of (p_chain B st)) (b_height B first) (Some (b_id B first)) (b_last_commit B second)) eqn:Ev;
      try exact Hrefused.
    destruct (apply_ok (p_chain B st) first); cbn [fst]; [|split; assumption].
    cbn [p_chain p_queue]. split.
    + apply j_snoc; [exact Hj|]. rewrite Hh1 in Ev.
      apply (verify_commit_decides _ _ _ _ (powers_nonneg _) Hi2 Ev).
    + apply queue_ok_filter. exact Hq.
  - (* a peer is reported *)
    cbn [fst p_chain p_queue]. split; [exact Hj|]. apply queue_ok_filter. exact Hq.
  - (* the scheduler has finished *)
    destruct (Nat.leb (length (p_queue B st)) 1); cbn [fst]; split; assumption.
Qed.

Lemma run_inv evs : forall st, Forall ev_ideal evs -> inv st -> inv (p_run st evs).
Proof.
  induction evs as [|e evs IH]; intros st Hall Hinv; cbn [Sync.p_run]; [exact Hinv|].
  inversion Hall; subst. apply IH; [assumption|]. apply handle_inv; assumption.
Qed.

(** BLOCK SYNC ADOPTS ONLY DECIDED BLOCKS: for every sequence of events (blocks from any peers in
    any order, forged commits, peer errors), the chain the processor has adopted is justified *)
Theorem blocksync_justified evs :
  Forall ev_ideal evs -> justified (p_chain B (p_run (p_init B) evs)).
Proof.
  intros Hall. apply (run_inv evs (p_init B) Hall). split; [constructor|].
  intros k p b Hin. inversion Hin.
Qed.

(** hence it never forks from a chain committed by consensus *)
Variable faulty_of : list B -> nat -> bool.
Hypothesis few_faulty : forall c, 3 * pw (powers_of c) (faulty_of c) < total (powers_of c).
Hypothesis correct_obey : forall c, all_correct_obey (powers_of c) B B_eq_dec (faulty_of c) (trace_of c).

Theorem blocksync_no_fork evs c2 :
  Forall ev_ideal evs -> justified c2 ->
  let c1 := p_chain B (p_run (p_init B) evs) in
  c1 = firstn (length c1) c2 \/ c2 = firstn (length c2) c1.
Proof.
  intros Hall H2 c1.
  apply (no_fork B B_eq_dec powers_of faulty_of trace_of powers_nonneg few_faulty correct_obey); [|exact H2].
  apply blocksync_justified. exact Hall.
Qed.

Corollary blocksync_same_block evs c2 h b1 b2 :
  Forall ev_ideal evs -> justified c2 ->
  nth_error (p_chain B (p_run (p_init B) evs)) h = Some b1 -> nth_error c2 h = Some b2 -> b1 = b2.
Proof.
  intros Hall H2 E1 E2.
  apply (same_height_same_block B B_eq_dec powers_of faulty_of trace_of powers_nonneg few_faulty correct_obey
           (p_chain B (p_run (p_init B) evs)) c2 h b1 b2); auto.
  apply blocksync_justified. exact Hall.
Qed.

End SyncProofs.

(** Why the slot must be the validator: attributing a slot to the validator its ADDRESS names
    (and not checking that the named validators are pairwise different) is unsound.  [by_addr_tally]
    is the tally such a rule would compute from the validators the slots name; the witness is one validator of power 10 out of 40 whose precommit fills
    three slots. *)
Definition by_addr_tally (powers : list Z) (named : list (option nat)) : Z :=
  fold_right (fun o acc => match o with Some v => acc + power powers v | None => acc end) 0 named.

Example by_addr_refuted :
  let powers := [10; 10; 10; 10] in
  (* slots 0..2 carry validator 3's precommit and name validator 3; slot 3 is absent *)
  let named := [Some 3%nat; Some 3%nat; Some 3%nat; None] in
  Z.leb (by_addr_tally powers named) (total powers * 2 / 3) = false /\
  (* while the real rule refuses it at slot 0: neither the address nor the signature is validator 0's *)
  verify_commit nat Nat.eq_dec powers 1 (Some 7%nat)
    (Some (mkCommit nat 1 1 (Some 7%nat)
             [mkSlot FCommit false (Some 3%nat) false false (Some 3%nat); mkSlot FCommit false (Some 3%nat) false false (Some 3%nat);
              mkSlot FCommit false (Some 3%nat) false false (Some 3%nat); absent_slot])) = VAddr 0.
Proof. vm_compute. split; reflexivity. Qed.

(** non-vacuity: a concrete offer sequence whose commits are ideal w.r.t. a concrete history and
    which the processor adopts *)
Definition ex_sync_trace : trace nat :=
  [ (0%nat, Precommit nat 1 (Some 7%nat)); (1%nat, Precommit nat 1 (Some 7%nat)); (2%nat, Precommit nat 1 (Some 7%nat)) ].
Definition ex_sync_commit : commit nat :=
  mkCommit nat 1 1 (Some 7%nat)
    [mkSlot FCommit false (Some 0%nat) false false (Some 0%nat); mkSlot FCommit false (Some 1%nat) false false (Some 1%nat);
     mkSlot FCommit false (Some 2%nat) false false (Some 2%nat); absent_slot].
Definition ex_sync_events : list (pevent nat) :=
  [ EvBlock nat 1 (mkBlk nat 1 7%nat (Some (mkCommit nat 0 0 None [])));
    EvBlock nat 1 (mkBlk nat 2 8%nat (Some ex_sync_commit));
    EvProcess nat ].

Example ex_sync_ideal : Forall (ev_ideal nat (fun _ => ex_sync_trace)) ex_sync_events.
Proof.
  unfold ex_sync_events. constructor; [|constructor; [|constructor; [exact I|constructor]]];
    cbn [ev_ideal]; intros c Hc; inversion Hc; subst; intros ch b i v Hh Hb Hi Hf Hs.
  - cbn in Hi. lia.
  - cbn in Hb. inversion Hb; subst. cbn in Hi.
    destruct i as [|[|[|[|]]]]; cbn in Hf, Hs; try discriminate; try lia; inversion Hs; subst; cbn; tauto.
Qed.

Example ex_sync_adopts :
  p_chain nat (p_run nat Nat.eq_dec (fun _ => [1; 1; 1; 1]) (fun _ _ => true) (p_init nat) ex_sync_events) = [7%nat].
Proof. vm_compute. reflexivity. Qed.
