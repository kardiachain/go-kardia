(** C01 — non-vacuity: one concrete history; it satisfies the hypotheses of the agreement theorem,
    and its faulty validator, an equivocator, is caught by the checker. *)
From Coq Require Import List ZArith.
From Kardia Require Import C01.Power C01.Agreement C01.Checker.
Import ListNotations.
Local Open Scope Z_scope.

Definition ex_powers : list Z := [1; 1; 1; 1].
Definition ex_faulty (i : nat) : bool := Nat.eqb i 3.

(** round 1: validators 0,1,2 prevote and precommit block 7; the faulty validator 3 equivocates
    (prevotes 7 and 8, precommits 8); round 2: 0 prevotes 7 again (locked), 3 prevotes 9 *)
Definition ex_trace : trace nat :=
  [ (0%nat, Prevote nat 1 (Some 7%nat)); (1%nat, Prevote nat 1 (Some 7%nat)); (3%nat, Prevote nat 1 (Some 8%nat));
    (2%nat, Prevote nat 1 (Some 7%nat)); (3%nat, Prevote nat 1 (Some 7%nat));
    (0%nat, Precommit nat 1 (Some 7%nat)); (3%nat, Precommit nat 1 (Some 8%nat));
    (1%nat, Precommit nat 1 (Some 7%nat)); (2%nat, Precommit nat 1 (Some 7%nat));
    (0%nat, Prevote nat 2 (Some 7%nat)); (3%nat, Prevote nat 2 (Some 9%nat)) ].

Example ex_few_faulty : 3 * pw ex_powers ex_faulty < total ex_powers.
Proof. vm_compute. reflexivity. Qed.

Example ex_all_obey : all_correct_obey ex_powers nat Nat.eq_dec ex_faulty ex_trace.
Proof. apply all_obey_b_sound. vm_compute. reflexivity. Qed.

Example ex_commit : commit_quorum ex_powers nat Nat.eq_dec ex_trace 1 7%nat.
Proof. apply commit_quorum_b_spec. vm_compute. reflexivity. Qed.

(** the checker is not trivially true: the equivocator fails it, and so does validator 1 once it
    prevotes another block in round 2 without a polka *)
Example ex_faulty_caught : obeys_b ex_powers nat Nat.eq_dec ex_trace 3 = false.
Proof. vm_compute. reflexivity. Qed.
Example ex_amnesia_caught :
  obeys_b ex_powers nat Nat.eq_dec (ex_trace ++ [(1%nat, Prevote nat 2 (Some 9%nat))]) 1 = false.
Proof. vm_compute. reflexivity. Qed.
