(** C01 — an executable checker for the per-validator obligations of Agreement.v, proved
    sound.  It serves two purposes: (1) non-vacuity — concrete traces satisfy the hypotheses
    of the agreement theorem ([Example]s by [vm_compute]); (2) the correspondence check runs
    the extracted checker on the signature logs of REAL consensus nodes in a simulated
    network, so the hypotheses of the theorem are checked on the implementation's histories. *)
From Coq Require Import List ZArith Arith Bool Lia.
From Kardia Require Import C01.Power C01.Agreement.
Import ListNotations.
Local Open Scope Z_scope.

Section Checker.
Variable powers : list Z.
Variable B : Type.
Variable B_eq_dec : forall x y : B, {x = y} + {x <> y}.

Notation msg := (msg B).
Notation event := (event B).
Notation trace := (trace B).
Notation signed := (signed B B_eq_dec).
Notation opt_eqb := (opt_eqb B B_eq_dec).

Definition polka_b (p : trace) (r : nat) (x : option B) : bool :=
  Z.ltb (2 * total powers) (3 * pw powers (signed p (Prevote B r x))).

Lemma polka_b_spec p r x : polka_b p r x = true <-> polka powers B B_eq_dec p r x.
Proof. unfold polka_b, polka. apply Z.ltb_lt. Qed.

(** the check for event (i, m) given the prefix p of everything signed before it *)
Definition check_event (i : nat) (p : trace) (m : msg) : bool :=
  match m with
  | Precommit _ r x =>
    (* at most one precommit per round *)
    forallb (fun e => match e with
                      | (j, Precommit _ r0 y) => negb (Nat.eqb j i && Nat.eqb r0 r) || opt_eqb y x
                      | _ => true end) p
    (* a precommit for a block needs a polka for it in that round among the messages signed so far *)
    && (match x with Some b => polka_b p r (Some b) | None => true end)
    (* rounds do not go backwards: no own prevote of a later round before it *)
    && forallb (fun e => match e with
                         | (j, Prevote _ r' _) => negb (Nat.eqb j i) || Nat.leb r' r
                         | _ => true end) p
  | Prevote _ r' x =>
    (* lock rule: for each earlier own precommit for a block b <> x in an earlier round there is
       a polka for some y <> b in a round in (r, r'] among the messages signed so far *)
    forallb (fun e => match e with
                      | (j, Precommit _ r (Some b)) =>
                        negb (Nat.eqb j i) || negb (Nat.ltb r r') || opt_eqb x (Some b) ||
                        existsb (fun e' => match e' with
                                           | (_, Prevote _ r'' y) =>
                                             Nat.ltb r r'' && Nat.leb r'' r' && negb (opt_eqb y (Some b))
                                             && polka_b p r'' y
                                           | _ => false end) p
                      | _ => true end) p
  end.

(** walk the trace in order; [p] is the prefix already seen *)
Fixpoint check_trace (i : nat) (p : trace) (todo : trace) : bool :=
  match todo with
  | [] => true
  | (j, m) :: rest =>
    (if Nat.eqb j i then check_event i p m else true) && check_trace i (p ++ [(j, m)]) rest
  end.

Definition obeys_b (tr : trace) (i : nat) : bool := check_trace i [] tr.

Lemma lock_release_test r r'' r' y b polka :
  Nat.ltb r r'' && Nat.leb r'' r' && negb (opt_eqb y (Some b)) && polka = true <->
  (r < r'' <= r')%nat /\ y <> Some b /\ polka = true.
Proof. rewrite !andb_true_iff, Nat.ltb_lt, Nat.leb_le, negb_true_iff, opt_eqb_neq. tauto. Qed.

(** the inner test of [check_event]'s lock rule (word for word the guard [Lock.release] of the
    automaton): the trace holds a prevote of a polka for a value other than b in a round in (r, r'] *)
Lemma lock_release_spec p r r' b :
  existsb (fun e' => match e' with
                     | (_, Prevote _ r'' y) =>
                       Nat.ltb r r'' && Nat.leb r'' r' && negb (opt_eqb y (Some b)) && polka_b p r'' y
                     | _ => false end) p = true <->
  exists j r'' y, In (j, Prevote B r'' y) p /\ (r < r'' <= r')%nat /\ y <> Some b /\ polka_b p r'' y = true.
Proof.
  rewrite existsb_exists. split.
  - intros [[j [r'' y|]] [Hin H]]; [|discriminate]. apply lock_release_test in H. eauto.
  - intros [j [r'' [y [Hin H]]]]. apply lock_release_test in H. exists (j, Prevote B r'' y). auto.
Qed.

Lemma check_precommit i p r x :
  check_event i p (Precommit B r x) = true <->
  (forall y, In (i, Precommit B r y) p -> y = x) /\
  (forall b, x = Some b -> polka_b p r (Some b) = true) /\
  (forall r' y, In (i, Prevote B r' y) p -> (r' <= r)%nat).
Proof.
  cbn [check_event]. split.
  - intros H. apply andb_true_iff in H. destruct H as [H H3]. apply andb_true_iff in H. destruct H as [H1 H2].
    split; [|split].
    + intros y Hin. apply (proj1 (forallb_forall _ _) H1) in Hin. rewrite !Nat.eqb_refl in Hin.
      apply opt_eqb_eq in Hin. exact Hin.
    + intros b ->. exact H2.
    + intros r' y Hin. apply (proj1 (forallb_forall _ _) H3) in Hin. rewrite Nat.eqb_refl in Hin.
      apply Nat.leb_le. exact Hin.
  - intros [H1 [H2 H3]]. apply andb_true_iff. split; [apply andb_true_iff; split|].
    + apply forallb_forall. intros [j [|r0 y]] Hin; [reflexivity|].
      destruct (Nat.eqb_spec j i) as [->|]; [|reflexivity].
      destruct (Nat.eqb_spec r0 r) as [->|]; [|reflexivity].
      apply opt_eqb_eq. exact (H1 y Hin).
    + destruct x as [b|]; [exact (H2 b eq_refl)|reflexivity].
    + apply forallb_forall. intros [j [r' y|]] Hin; [|reflexivity].
      destruct (Nat.eqb_spec j i) as [->|]; [|reflexivity].
      apply Nat.leb_le. exact (H3 r' y Hin).
Qed.

Lemma check_prevote i p r' x :
  check_event i p (Prevote B r' x) = true <->
  forall r b, In (i, Precommit B r (Some b)) p -> (r < r')%nat -> x <> Some b ->
    exists j r'' y, In (j, Prevote B r'' y) p /\ (r < r'' <= r')%nat /\ y <> Some b /\ polka_b p r'' y = true.
Proof.
  cbn [check_event]. rewrite forallb_forall. split.
  - intros H r b Hin Hr Hx. specialize (H _ Hin). cbn beta iota in H.
    apply Nat.ltb_lt in Hr. rewrite Nat.eqb_refl, Hr in H. cbn [negb orb] in H.
    apply orb_true_iff in H. destruct H as [H|H]; [apply opt_eqb_eq in H; contradiction|].
    apply lock_release_spec. exact H.
  - intros H [j [|r [b|]]] Hin; try reflexivity.
    destruct (Nat.eqb_spec j i) as [->|]; [|reflexivity].
    destruct (Nat.ltb_spec r r') as [Hr|]; [|reflexivity].
    destruct (opt_eqb x (Some b)) eqn:E; [reflexivity|].
    apply opt_eqb_neq in E. apply lock_release_spec. exact (H r b Hin Hr E).
Qed.

Lemma check_trace_app i t1 : forall p t2,
  check_trace i p (t1 ++ t2) = check_trace i p t1 && check_trace i (p ++ t1) t2.
Proof.
  induction t1 as [|[j m] t1 IH]; intros p t2; cbn [app check_trace].
  - rewrite app_nil_r. reflexivity.
  - rewrite IH, <- app_assoc, andb_assoc. reflexivity.
Qed.

Lemma check_trace_snoc i tr e :
  check_trace i [] (tr ++ [e]) =
  check_trace i [] tr && (if Nat.eqb (fst e) i then check_event i tr (snd e) else true).
Proof.
  rewrite check_trace_app. destruct e as [j m]. cbn [app check_trace fst snd].
  rewrite andb_true_r. reflexivity.
Qed.

Lemma check_trace_spec i p q m rest :
  check_trace i p (q ++ (i, m) :: rest) = true -> check_event i (p ++ q) m = true.
Proof.
  rewrite check_trace_app. cbn [check_trace]. rewrite Nat.eqb_refl. intros H.
  apply andb_true_iff in H. destruct H as [_ H]. apply andb_true_iff in H. exact (proj1 H).
Qed.

Lemma in_split_two {A} (a b : A) l : In a l -> In b l ->
  a = b \/ (exists q rest, l = q ++ b :: rest /\ In a q) \/ (exists q rest, l = q ++ a :: rest /\ In b q).
Proof.
  intros Ha Hb. apply in_split in Hb. destruct Hb as [q [rest ->]].
  apply in_app_or in Ha. destruct Ha as [Ha|[Ha|Ha]]; [right; left; eauto|left; auto|right; right].
  apply in_split in Ha. destruct Ha as [q' [rest' ->]].
  exists (q ++ b :: q'), rest'. rewrite <- app_assoc. split; [reflexivity|apply in_elt].
Qed.

Theorem obeys_b_sound tr i : obeys_b tr i = true -> obeys powers B B_eq_dec tr i.
Proof.
  intros H.
  assert (Hev : forall q m rest, tr = q ++ (i, m) :: rest -> check_event i q m = true).
  { intros q m rest ->. exact (check_trace_spec i [] q m rest H). }
  constructor.
  - intros r x y Hx Hy.
    destruct (in_split_two _ _ _ Hx Hy) as [E|[[q [rest [E Hin]]]|[q [rest [E Hin]]]]].
    + inversion E. reflexivity.
    + apply Hev, check_precommit in E. exact (proj1 E x Hin).
    + apply Hev, check_precommit in E. symmetry. exact (proj1 E y Hin).
  - intros p rest r b E. apply Hev, check_precommit in E.
    apply polka_b_spec. exact (proj1 (proj2 E) b eq_refl).
  - intros p1 p2 rest r r' b x E Hr Hx. rewrite app_comm_cons, app_assoc in E.
    apply Hev in E. destruct (proj1 (check_prevote _ _ _ _) E r b (in_elt _ _ _) Hr Hx) as [_ [r'' [y [_ [Hr'' [Hy Hp]]]]]].
    exists r'', y. split; [exact Hr''|]. split; [exact Hy|]. apply polka_b_spec. exact Hp.
  - intros p rest r r' x y E Hin. apply in_split in Hin. destruct Hin as [q [rest' ->]].
    rewrite app_comm_cons, app_assoc in E. apply Hev, check_precommit in E.
    exact (proj2 (proj2 E) r' x (in_elt _ _ _)).
Qed.

(** all non-faulty members pass the check *)
Definition all_obey_b (faulty : nat -> bool) (tr : trace) : bool :=
  forallb (fun i => faulty i || obeys_b tr i) (seq 0 (length powers)).

Theorem all_obey_b_sound faulty tr :
  all_obey_b faulty tr = true -> all_correct_obey powers B B_eq_dec faulty tr.
Proof.
  unfold all_obey_b, all_correct_obey. rewrite forallb_forall. intros H i Hi Hf.
  apply obeys_b_sound. specialize (H i). rewrite Hf in H. simpl in H. apply H.
  apply in_seq. unfold Power.n in Hi. lia.
Qed.

Definition commit_quorum_b (tr : trace) (r : nat) (b : B) : bool :=
  Z.ltb (2 * total powers) (3 * pw powers (signed tr (Precommit B r (Some b)))).
Lemma commit_quorum_b_spec tr r b : commit_quorum_b tr r b = true <-> commit_quorum powers B B_eq_dec tr r b.
Proof. unfold commit_quorum_b, commit_quorum. apply Z.ltb_lt. Qed.

End Checker.
