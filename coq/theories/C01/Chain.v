(** C01 — from single-height agreement to the whole chain, with validator sets (and the
    faulty sets, and the message history of each height) determined by the committed prefix. *)
From Coq Require Import List ZArith Arith Bool Lia.
From Kardia Require Import C01.Power C01.Agreement.
Import ListNotations.
Local Open Scope Z_scope.

Section Chain.
Variable B : Type.
Variable B_eq_dec : forall x y : B, {x = y} + {x <> y}.

(** everything about height |c|+1 is a function of the committed prefix c: the voting powers
    (validator-set changes are decided by the application from the chain), which validators
    are faulty at that height, and the global signing history of that height *)
Variable powers_of : list B -> list Z.
Variable faulty_of : list B -> nat -> bool.
Variable trace_of : list B -> trace B.

Hypothesis powers_nonneg : forall c, Forall (fun p => 0 <= p) (powers_of c).
Hypothesis few_faulty : forall c, 3 * pw (powers_of c) (faulty_of c) < total (powers_of c).
Hypothesis correct_obey : forall c, all_correct_obey (powers_of c) B B_eq_dec (faulty_of c) (trace_of c).

(** block b gathered +2/3 precommits of the set entitled to sign the height after prefix c *)
Definition decided (c : list B) (b : B) : Prop :=
  exists r, commit_quorum (powers_of c) B B_eq_dec (trace_of c) r b.

(** a chain every block of which was decided on top of its prefix: what a correct node's
    committed chain is (C03_commit_needs_quorum), and also what block sync adopts
    (VerifyCommit with the current set, C02_verify_commit_sound) *)
Inductive justified : list B -> Prop :=
| j_nil : justified []
| j_snoc c b : justified c -> decided c b -> justified (c ++ [b]).

Lemma decided_unique c b b' : decided c b -> decided c b' -> b = b'.
Proof.
  intros [r H] [r' H'].
  eapply (agreement (powers_of c) (powers_nonneg c) B B_eq_dec (faulty_of c) (few_faulty c)); eauto.
Qed.

Lemma justified_length_eq c1 : justified c1 -> forall c2, justified c2 -> length c1 = length c2 -> c1 = c2.
Proof.
  induction 1 as [|c b _ IH Hd]; intros c2 [|c' b' Hc' Hd'] Hlen;
    rewrite ?app_length in Hlen; cbn [length] in Hlen; try lia.
  - reflexivity.
  - assert (E : c = c') by (apply IH; [exact Hc'|lia]). subst c'.
    rewrite (decided_unique c b b' Hd Hd'). reflexivity.
Qed.

Lemma justified_firstn k c : justified c -> justified (firstn k c).
Proof.
  induction 1 as [|c b Hc IH Hd]; [rewrite firstn_nil; constructor|].
  destruct (le_lt_dec k (length c)) as [Hk|Hk].
  - rewrite firstn_app. replace (k - length c)%nat with 0%nat by lia.
    rewrite firstn_O, app_nil_r. exact IH.
  - rewrite firstn_all2 by (rewrite app_length; cbn [length]; lia). constructor; assumption.
Qed.

Lemma justified_prefix c1 c2 : justified c1 -> justified c2 ->
  (length c1 <= length c2)%nat -> c1 = firstn (length c1) c2.
Proof.
  intros H1 H2 Hlen. apply justified_length_eq; [exact H1|apply justified_firstn; exact H2|].
  symmetry. apply firstn_length_le. exact Hlen.
Qed.

(** no two justified chains fork: one is a prefix of the other *)
Theorem no_fork c1 c2 : justified c1 -> justified c2 ->
  c1 = firstn (length c1) c2 \/ c2 = firstn (length c2) c1.
Proof.
  intros H1 H2. destruct (le_ge_dec (length c1) (length c2)).
  - left. apply justified_prefix; assumption.
  - right. apply justified_prefix; assumption.
Qed.

Lemma nth_error_prefix {A} (l1 l2 : list A) h x :
  l1 = firstn (length l1) l2 -> nth_error l1 h = Some x -> nth_error l2 h = Some x.
Proof.
  intros E H. rewrite <- (firstn_skipn (length l1) l2), <- E.
  rewrite nth_error_app1; [exact H|]. apply nth_error_Some. congruence.
Qed.

(** in particular the blocks at any common height are equal *)
Corollary same_height_same_block c1 c2 h b1 b2 :
  justified c1 -> justified c2 -> nth_error c1 h = Some b1 -> nth_error c2 h = Some b2 -> b1 = b2.
Proof.
  intros H1 H2 E1 E2. destruct (no_fork c1 c2 H1 H2) as [E|E].
  - apply (nth_error_prefix _ _ _ _ E) in E1. congruence.
  - apply (nth_error_prefix _ _ _ _ E) in E2. congruence.
Qed.

End Chain.
