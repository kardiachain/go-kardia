(** C01 — the monitor (Monitor.v) only composes steps of the lock automaton and reproduces the
    trace it reads: a trace it accepts satisfies the validator's obligations. *)
From Coq Require Import List ZArith Arith.
From Kardia Require Import C01.Agreement C01.Checker C01.Lock C01.LockProofs C01.Monitor.
Import ListNotations.
Local Open Scope Z_scope.

Section MonitorProofs.
Variable powers : list Z.
Hypothesis powers_nonneg : Forall (fun p => 0 <= p) powers.
Variable B : Type.
Variable B_eq_dec : forall x y : B, {x = y} + {x <> y}.
Variable i : nat.

Notation lstep := (lstep powers B B_eq_dec i).
Notation linv := (linv powers B B_eq_dec i).
Notation lstep_inv := (lstep_inv powers powers_nonneg B B_eq_dec i).
Notation lstep_some := (lstep_some powers B B_eq_dec i).
Notation monitor_step := (monitor_step powers B B_eq_dec i).
Notation monitor_from := (monitor_from powers B B_eq_dec i).

(** entering the round of an own event: the subterm [entered] of [monitor_own] *)
Lemma enter_round_ok st tr r st1 tr1 :
  linv st tr ->
  (if Nat.ltb (l_round B st) r then lstep st tr (ANewRound B r)
   else if Nat.eqb r (l_round B st) then Some (st, tr) else None) = Some (st1, tr1) ->
  linv st1 tr1 /\ tr1 = tr /\ l_round B st1 = r.
Proof.
  intros Hinv H. destruct (Nat.ltb (l_round B st) r).
  - split; [exact (lstep_inv _ _ _ _ _ Hinv H)|].
    apply lstep_some in H. destruct H as [_ [-> ->]]. auto.
  - destruct (Nat.eqb_spec r (l_round B st)) as [->|]; [|discriminate]. injection H as <- <-. auto.
Qed.

(** an own prevote, after the release action when the automaton refuses it as the state stands:
    the [Prevote] branch of [monitor_own] *)
Lemma prevote_ok st tr x st' tr' :
  linv st tr ->
  match lstep st tr (APrevote B x) with
  | Some y => Some y
  | None => match lstep st tr (AUnlock B) with
            | Some (st2, tr2) => lstep st2 tr2 (APrevote B x)
            | None => None
            end
  end = Some (st', tr') ->
  linv st' tr' /\ tr' = tr ++ [(i, Prevote B (l_round B st) x)].
Proof.
  intros Hinv H. destruct (lstep st tr (APrevote B x)) as [[st2 tr2]|] eqn:E.
  - injection H as <- <-. split; [exact (lstep_inv _ _ _ _ _ Hinv E)|].
    apply lstep_some in E. exact (proj2 (proj2 E)).
  - destruct (lstep st tr (AUnlock B)) as [[st2 tr2]|] eqn:Eu; [|discriminate].
    pose proof (lstep_inv _ _ _ _ _ Hinv Eu) as Hinv2.
    split; [exact (lstep_inv _ _ _ _ _ Hinv2 H)|].
    apply lstep_some in Eu. destruct Eu as [b [lr [_ [_ [-> ->]]]]].
    apply lstep_some in H. exact (proj2 (proj2 H)).
Qed.

Lemma monitor_step_ok st tr e st' tr' :
  linv st tr -> monitor_step st tr e = Some (st', tr') -> linv st' tr' /\ tr' = tr ++ [e].
Proof.
  intros Hinv H. unfold Monitor.monitor_step in H. destruct e as [j m]. cbn [fst snd] in H.
  destruct (Nat.eqb_spec j i) as [->|_].
  - unfold Monitor.monitor_own in H. cbv zeta in H.
    destruct (if Nat.ltb (l_round B st) (msg_round B m) then _ else _) as [[st1 tr1]|] eqn:Ee; [|discriminate].
    destruct (enter_round_ok _ _ _ _ _ Hinv Ee) as [Hinv1 [-> Hr]].
    destruct m as [r x|r x]; cbn [Monitor.msg_round] in Hr; rewrite <- Hr.
    + exact (prevote_ok _ _ _ _ _ Hinv1 H).
    + split; [exact (lstep_inv _ _ _ _ _ Hinv1 H)|].
      apply lstep_some in H. exact (proj2 (proj2 (proj2 H))).
  - split; [exact (lstep_inv _ _ _ _ _ Hinv H)|]. apply lstep_some in H. exact (proj2 (proj2 H)).
Qed.

Lemma monitor_from_ok todo : forall st tr st' tr',
  linv st tr -> monitor_from st tr todo = Some (st', tr') -> linv st' tr' /\ tr' = tr ++ todo.
Proof.
  induction todo as [|e rest IH]; intros st tr st' tr' Hinv H; cbn [Monitor.monitor_from] in H.
  - inversion H; subst. rewrite app_nil_r. split; [exact Hinv|reflexivity].
  - destruct (monitor_step st tr e) as [[st1 tr1]|] eqn:E; [|discriminate].
    destruct (monitor_step_ok _ _ _ _ _ Hinv E) as [Hinv1 ->].
    destruct (IH _ _ _ _ Hinv1 H) as [Hinv' ->]. split; [exact Hinv'|].
    rewrite <- app_assoc. reflexivity.
Qed.

(** a trace the monitor accepts satisfies the validator's obligations *)
Theorem monitor_sound tr st tr' :
  monitor powers B B_eq_dec i tr = Some (st, tr') -> tr' = tr /\ obeys powers B B_eq_dec tr i.
Proof.
  intros H. unfold Monitor.monitor in H.
  destruct (monitor_from_ok tr _ _ _ _ (linv_init powers B B_eq_dec i) H) as [Hinv ->].
  cbn [app]. split; [reflexivity|]. exact (linv_obeys powers B B_eq_dec i _ _ Hinv).
Qed.

End MonitorProofs.
