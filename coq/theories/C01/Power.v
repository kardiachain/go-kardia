(** Weighted sets of validators and quorum intersection. Validators are the
    indices [0..n) of a list of voting powers; a set is a boolean predicate on indices. *)
From Coq Require Import List ZArith Arith Bool Lia.
Import ListNotations.
Local Open Scope Z_scope.

Section Power.
Variable powers : list Z.
Hypothesis powers_nonneg : Forall (fun p => 0 <= p) powers.

Definition n : nat := length powers.
Definition power (i : nat) : Z := nth i powers 0.

Lemma power_nonneg i : 0 <= power i.
Proof.
  unfold power. destruct (lt_dec i (length powers)) as [H|H].
  - rewrite Forall_forall in powers_nonneg. apply powers_nonneg. apply nth_In; assumption.
  - rewrite nth_overflow by lia. lia.
Qed.

(** power of the validators below [k] that satisfy [X] *)
Fixpoint pw_upto (k : nat) (X : nat -> bool) : Z :=
  match k with
  | O => 0
  | S k' => (if X k' then power k' else 0) + pw_upto k' X
  end.

Definition pw (X : nat -> bool) : Z := pw_upto n X.
Definition total : Z := pw (fun _ => true).

Lemma pw_upto_nonneg k X : 0 <= pw_upto k X.
Proof. induction k; simpl; [lia|]. pose proof (power_nonneg k). destruct (X k); lia. Qed.

Lemma pw_upto_mono k (A B : nat -> bool) :
  (forall i, (i < k)%nat -> A i = true -> B i = true) -> pw_upto k A <= pw_upto k B.
Proof.
  induction k; simpl; intros H; [lia|].
  pose proof (power_nonneg k). assert (IH := IHk (fun i Hi => H i (Nat.lt_lt_succ_r _ _ Hi))).
  destruct (A k) eqn:Ea.
  - rewrite (H k (Nat.lt_succ_diag_r k) Ea). lia.
  - destruct (B k); lia.
Qed.

Lemma pw_upto_ext k (A B : nat -> bool) :
  (forall i, (i < k)%nat -> A i = B i) -> pw_upto k A = pw_upto k B.
Proof.
  induction k; simpl; intros H; [reflexivity|].
  rewrite (H k (Nat.lt_succ_diag_r k)). rewrite IHk; auto.
Qed.

(** inclusion-exclusion *)
Lemma pw_upto_union k (A B : nat -> bool) :
  pw_upto k A + pw_upto k B = pw_upto k (fun i => A i || B i) + pw_upto k (fun i => A i && B i).
Proof. induction k; cbn [pw_upto]; [lia|]. destruct (A k), (B k); cbn [orb andb]; lia. Qed.

Lemma pw_upto_minus k A F : pw_upto k A - pw_upto k F <= pw_upto k (fun i => A i && negb (F i)).
Proof.
  induction k; cbn [pw_upto]; [lia|].
  pose proof (power_nonneg k). destruct (A k), (F k); cbn [andb negb]; lia.
Qed.

Lemma pw_upto_pos_witness k X : 0 < pw_upto k X -> exists i, (i < k)%nat /\ X i = true.
Proof.
  induction k; cbn [pw_upto]; [lia|].
  destruct (X k) eqn:E; [exists k; auto|].
  intros H. destruct IHk as [i [Hi Hs]]; [lia|]. exists i. auto.
Qed.

Lemma pw_mono A B : (forall i, (i < n)%nat -> A i = true -> B i = true) -> pw A <= pw B.
Proof. apply pw_upto_mono. Qed.
Lemma pw_ext A B : (forall i, (i < n)%nat -> A i = B i) -> pw A = pw B.
Proof. apply pw_upto_ext. Qed.
Lemma pw_nonneg X : 0 <= pw X.
Proof. apply pw_upto_nonneg. Qed.
Lemma pw_le_total X : pw X <= total.
Proof. apply pw_mono; auto. Qed.

Lemma pw_meet A B : total < pw A + pw B -> 0 < pw (fun i => A i && B i).
Proof.
  intros H. pose proof (pw_upto_union n A B). pose proof (pw_le_total (fun i => A i || B i)).
  unfold pw in *. lia.
Qed.

Lemma pw_pos_witness X : 0 < pw X -> exists i, (i < n)%nat /\ X i = true.
Proof. apply pw_upto_pos_witness. Qed.

Lemma pw_minus A F : pw A - pw F <= pw (fun i => A i && negb (F i)).
Proof. apply pw_upto_minus. Qed.

Lemma correct_part_third A F :
  2 * total < 3 * pw A -> 3 * pw F < total -> total < 3 * pw (fun i => A i && negb (F i)).
Proof. intros HA HF. pose proof (pw_minus A F). lia. Qed.

Lemma two_thirds_meets_third P C :
  2 * total < 3 * pw P -> total < 3 * pw C -> exists i, (i < n)%nat /\ P i = true /\ C i = true.
Proof.
  intros HP HC. destruct (pw_pos_witness _ (pw_meet P C ltac:(lia))) as [i [Hi Hs]].
  exists i. rewrite andb_true_iff in Hs. tauto.
Qed.

(** Quorum intersection: two sets above two thirds meet in a member outside any set below one third. *)
Theorem quorum_intersection A B F :
  2 * total < 3 * pw A -> 2 * total < 3 * pw B -> 3 * pw F < total ->
  exists i, (i < n)%nat /\ A i = true /\ B i = true /\ F i = false.
Proof.
  intros HA HB HF.
  destruct (two_thirds_meets_third A _ HA (correct_part_third B F HB HF)) as [i [Hi [Ha Hb]]].
  exists i. rewrite andb_true_iff, negb_true_iff in Hb. tauto.
Qed.

End Power.
