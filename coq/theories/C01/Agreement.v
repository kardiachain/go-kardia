(** C01 — agreement at one height from the per-validator obligations (C03) and quorum
    intersection.

    The global history of a height is the chronological list of "validator i signed
    message m" events of ALL validators, faulty ones included (a message that reaches a
    correct node with a valid signature was signed before it was delivered: signatures are
    ideal, C11 proves the content binding).  Arbitrary delay, loss, duplication and
    reordering of deliveries, arbitrary timeouts and arbitrary behaviour of the faulty
    validators (equivocation, withholding, amnesia) are all covered, because nothing is
    assumed about the trace except that each NON-faulty validator's own signing events
    satisfy the obligations that C03 proves for the single-node model and checks on the
    real ConsensusState. *)
From Coq Require Import List ZArith Arith Bool Lia.
From Kardia Require Import C01.Power.
Import ListNotations.
Local Open Scope Z_scope.

Section Agreement.
Variable powers : list Z.
Hypothesis powers_nonneg : Forall (fun p => 0 <= p) powers.
Variable B : Type.                         (* block ids *)
Variable B_eq_dec : forall x y : B, {x = y} + {x <> y}.
Variable faulty : nat -> bool.

Notation n := (Power.n powers).
Notation total := (Power.total powers).
Notation pw := (Power.pw powers).

Hypothesis few_faulty : 3 * pw faulty < total.

Inductive msg :=
| Prevote (r : nat) (x : option B)
| Precommit (r : nat) (x : option B).

Definition event : Type := nat * msg.       (* validator index, message it signed *)
Definition trace : Type := list event.      (* chronological, earliest first *)

Definition opt_eqb (x y : option B) : bool :=
  match x, y with
  | None, None => true
  | Some a, Some b => if B_eq_dec a b then true else false
  | _, _ => false
  end.
Definition msg_eqb (a b : msg) : bool :=
  match a, b with
  | Prevote r x, Prevote r' y => Nat.eqb r r' && opt_eqb x y
  | Precommit r x, Precommit r' y => Nat.eqb r r' && opt_eqb x y
  | _, _ => false
  end.

Lemma opt_eqb_eq x y : opt_eqb x y = true <-> x = y.
Proof.
  destruct x as [a|], y as [b|]; simpl; try (split; [discriminate|discriminate]); try tauto.
  - destruct (B_eq_dec a b) as [->|Hne]; split; auto; try discriminate. intros H; inversion H; contradiction.
Qed.
Lemma opt_eqb_neq x y : opt_eqb x y = false <-> x <> y.
Proof. rewrite <- opt_eqb_eq. symmetry. apply not_true_iff_false. Qed.
Lemma msg_eqb_eq a b : msg_eqb a b = true <-> a = b.
Proof.
  destruct a as [r x|r x], b as [r' y|r' y]; simpl; try (split; discriminate);
    rewrite andb_true_iff, Nat.eqb_eq, opt_eqb_eq; split;
      try (intros [-> ->]; reflexivity); intros H; inversion H; auto.
Qed.

(** validator i signed m somewhere in tr *)
Definition signed (tr : trace) (m : msg) (i : nat) : bool :=
  existsb (fun e => Nat.eqb (fst e) i && msg_eqb (snd e) m) tr.

Lemma signed_In tr m i : signed tr m i = true <-> In (i, m) tr.
Proof.
  unfold signed. rewrite existsb_exists. split.
  - intros [[j m'] [Hin H]]. simpl in H. rewrite andb_true_iff, Nat.eqb_eq, msg_eqb_eq in H.
    destruct H as [-> ->]. assumption.
  - intros H. exists (i, m). split; [assumption|]. simpl.
    rewrite Nat.eqb_refl. simpl. apply msg_eqb_eq. reflexivity.
Qed.

Lemma signed_app tr tr' m i : signed tr m i = true -> signed (tr ++ tr') m i = true.
Proof. rewrite !signed_In, in_app_iff. auto. Qed.

(** +2/3 of the voting power (distinct validators) signed a prevote for x in round r *)
Definition polka (tr : trace) (r : nat) (x : option B) : Prop :=
  2 * total < 3 * pw (signed tr (Prevote r x)).
(** +2/3 signed a precommit for block b in the single round r: what a correct node requires
    before it commits b (C03_commit_needs_quorum) *)
Definition commit_quorum (tr : trace) (r : nat) (b : B) : Prop :=
  2 * total < 3 * pw (signed tr (Precommit r (Some b))).

(** The obligations of a non-faulty validator i, stated on its own signing events within
    the global trace.  They are the C03 theorems read on the signature log. *)
Record obeys (tr : trace) (i : nat) : Prop := {
  ob_one_precommit : forall r x y,
      In (i, Precommit r x) tr -> In (i, Precommit r y) tr -> x = y;
  ob_precommit_polka : forall p rest r b,
      tr = p ++ (i, Precommit r (Some b)) :: rest -> polka p r (Some b);
  ob_lock : forall p1 p2 rest r r' b x,
      tr = p1 ++ (i, Precommit r (Some b)) :: p2 ++ (i, Prevote r' x) :: rest ->
      (r < r')%nat -> x <> Some b ->
      exists r'' y, (r < r'' <= r')%nat /\ y <> Some b /\
                    polka (p1 ++ (i, Precommit r (Some b)) :: p2) r'' y;
  ob_monotone : forall p rest r r' x y,
      tr = p ++ (i, Prevote r' x) :: rest -> In (i, Precommit r y) rest -> (r' <= r)%nat
}.

Definition all_correct_obey (tr : trace) : Prop :=
  forall i, (i < n)%nat -> faulty i = false -> obeys tr i.

Section Locked.
Variable tr : trace.
Hypothesis Hobey : all_correct_obey tr.
Variables (r : nat) (b : B).
Hypothesis Hcommit : commit_quorum tr r b.

(** the correct validators (members of the set) that precommitted b in round r *)
Definition lockers (i : nat) : bool :=
  Nat.ltb i n && (signed tr (Precommit r (Some b)) i && negb (faulty i)).

Lemma lockers_third : total < 3 * pw lockers.
Proof.
  rewrite (pw_ext powers lockers (fun i => signed tr (Precommit r (Some b)) i && negb (faulty i))).
  - apply correct_part_third; assumption.
  - intros i Hi. unfold lockers. apply Nat.ltb_lt in Hi. rewrite Hi. reflexivity.
Qed.

(** a polka contains the prevote of one of them *)
Lemma polka_locker p r' y : polka p r' y -> exists j, lockers j = true /\ In (j, Prevote r' y) p.
Proof.
  intros Hpolka.
  destruct (two_thirds_meets_third powers powers_nonneg _ _ Hpolka lockers_third) as [j [_ [HjP HjC]]].
  exists j. split; [exact HjC|]. apply signed_In. exact HjP.
Qed.

(** Decision locks: no member of [lockers] ever signs a prevote for another value in a later
    round.  By induction over the prefixes of the trace, that is, on the earliest offender: when the
    last event of a prefix is such a prevote, the lock rule names a polka for another value in a
    later round among the events before it; that polka contains the prevote of a locker, which the
    shorter prefix forbids. *)
Lemma decision_locks_prefix p : forall rest, tr = p ++ rest ->
  forall i r' x, In (i, Prevote r' x) p -> lockers i = true -> (r < r')%nat -> x = Some b.
Proof.
  induction p as [|e p IH] using rev_ind; intros rest Htr i r' x Hin HC Hr; [destruct Hin|].
  rewrite <- app_assoc in Htr. cbn [app] in Htr.
  apply in_app_or in Hin. destruct Hin as [Hin|[->|[]]]; [exact (IH _ Htr i r' x Hin HC Hr)|].
  destruct (opt_eqb x (Some b)) eqn:Hx; [apply opt_eqb_eq; exact Hx|exfalso]. apply opt_eqb_neq in Hx.
  unfold lockers in HC. rewrite !andb_true_iff, negb_true_iff, Nat.ltb_lt in HC.
  destruct HC as [Hi [Hs Hf]].
  pose proof (Hobey i Hi Hf) as Hob.
  (* where is i's precommit for b at r: before or after this prevote? *)
  apply signed_In in Hs. rewrite Htr in Hs. apply in_app_or in Hs. destruct Hs as [Hs|[Hs|Hs]].
  - apply in_split in Hs. destruct Hs as [p1 [p2 ->]].
    pose proof Htr as Htr'. rewrite <- app_assoc in Htr'. cbn [app] in Htr'.
    destruct (ob_lock tr i Hob p1 p2 rest r r' b x Htr' Hr Hx) as [r'' [y [Hr'' [Hy Hpolka]]]].
    destruct (polka_locker _ _ _ Hpolka) as [j [HjC HjP]].
    apply Hy. apply (IH _ Htr j r'' y HjP HjC). lia.
  - discriminate Hs.
  - (* after: contradicts round monotonicity *)
    pose proof (ob_monotone tr i Hob p rest r r' x (Some b) Htr Hs). lia.
Qed.

Lemma decision_locks i r' x :
  In (i, Prevote r' x) tr -> lockers i = true -> (r < r')%nat -> x = Some b.
Proof. apply (decision_locks_prefix tr []). symmetry. apply app_nil_r. Qed.

Lemma no_later_polka r' y p rest : tr = p ++ rest -> (r < r')%nat -> polka p r' y -> y = Some b.
Proof.
  intros Htr Hr Hpolka. destruct (polka_locker _ _ _ Hpolka) as [j [HjC HjP]].
  exact (decision_locks_prefix p rest Htr j r' y HjP HjC Hr).
Qed.

End Locked.

(** two quorums of one round: they share a correct validator, which precommits once per round *)
Lemma agreement_same_round tr r b b' :
  all_correct_obey tr -> commit_quorum tr r b -> commit_quorum tr r b' -> b = b'.
Proof.
  intros Hobey Hc Hc'.
  destruct (quorum_intersection powers powers_nonneg _ _ faulty Hc Hc' few_faulty) as [i [Hi [H1 [H2 Hf]]]].
  apply signed_In in H1. apply signed_In in H2.
  pose proof (ob_one_precommit tr i (Hobey i Hi Hf) r (Some b) (Some b') H1 H2) as E.
  inversion E. reflexivity.
Qed.

(** a quorum of a later round: one of its correct members needed a polka for b' in round r' *)
Lemma agreement_later_round tr r r' b b' :
  all_correct_obey tr -> (r < r')%nat -> commit_quorum tr r b -> commit_quorum tr r' b' -> b = b'.
Proof.
  intros Hobey Hr Hc Hc'.
  (* the quorum met with itself: a correct member j of it *)
  destruct (quorum_intersection powers powers_nonneg _ _ faulty Hc' Hc' few_faulty) as [j [Hj [Hs [_ Hf]]]].
  apply signed_In in Hs. apply in_split in Hs. destruct Hs as [p [rest Htr]].
  pose proof (ob_precommit_polka tr j (Hobey j Hj Hf) p rest r' b' Htr) as Hpolka.
  pose proof (no_later_polka tr Hobey r b Hc r' (Some b') p _ Htr Hr Hpolka) as E.
  inversion E. reflexivity.
Qed.

(** AGREEMENT: if less than one third of the voting power is faulty and every non-faulty
    validator obeys its obligations, any two blocks that gathered +2/3 precommits (in any
    rounds of the height) — the only way a correct node commits — are the same block. *)
Theorem agreement tr r r' b b' :
  all_correct_obey tr -> commit_quorum tr r b -> commit_quorum tr r' b' -> b = b'.
Proof.
  intros Hobey Hc Hc'. destruct (Nat.lt_trichotomy r r') as [H|[<-|H]].
  - exact (agreement_later_round tr r r' b b' Hobey H Hc Hc').
  - exact (agreement_same_round tr r b b' Hobey Hc Hc').
  - symmetry. exact (agreement_later_round tr r' r b' b Hobey H Hc' Hc).
Qed.

End Agreement.
