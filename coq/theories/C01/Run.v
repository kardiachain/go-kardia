(** C01 — closed instances for extraction of the executable obligations checker, of VerifyCommit
    and the block-sync processor, and of the monitor: block ids are natural numbers (the harness
    interns the real block ids of a height to 1, 2, ...), the faulty set is given as a list of flags
    by validator index.  The correspondence check runs these on the signature logs of real
    ConsensusStates (harness/overlay/consensus/verif_net_test.go).  [run_agreement] says what
    positive answers of the checker's instances mean together. *)
From Coq Require Import List ZArith Arith Bool.
From Kardia Require Import C01.Power C01.Agreement C01.Checker C01.Sync C01.Lock C01.Monitor.
Import ListNotations.
Local Open Scope Z_scope.

Definition faulty_of (flags : list bool) (i : nat) : bool := nth i flags false.

(** one signing event: validator index, kind (false = prevote, true = precommit), round, block *)
Definition mk_event (i : nat) (precommit : bool) (r : nat) (x : option nat) : event nat :=
  (i, if precommit then Precommit nat r x else Prevote nat r x).

Definition run_all_obey (powers : list Z) (flags : list bool) (tr : trace nat) : bool :=
  all_obey_b powers nat Nat.eq_dec (faulty_of flags) tr.

Definition run_obeys (powers : list Z) (tr : trace nat) (i : nat) : bool :=
  obeys_b powers nat Nat.eq_dec tr i.

Definition run_commit_quorum (powers : list Z) (tr : trace nat) (r b : nat) : bool :=
  commit_quorum_b powers nat Nat.eq_dec tr r b.

(** what a positive answer of the extracted functions means *)
Lemma run_all_obey_sound powers flags tr :
  run_all_obey powers flags tr = true ->
  all_correct_obey powers nat Nat.eq_dec (faulty_of flags) tr.
Proof. apply all_obey_b_sound. Qed.

Lemma run_commit_quorum_sound powers tr r b :
  run_commit_quorum powers tr r b = true -> commit_quorum powers nat Nat.eq_dec tr r b.
Proof. apply commit_quorum_b_spec. Qed.

(** two commits accepted by the checker on a trace that passes it are for the same block *)
Theorem run_agreement powers flags tr r r' b b' :
  Forall (fun p => 0 <= p) powers ->
  3 * pw powers (faulty_of flags) < total powers ->
  run_all_obey powers flags tr = true ->
  run_commit_quorum powers tr r b = true -> run_commit_quorum powers tr r' b' = true -> b = b'.
Proof.
  intros Hp Hf Ho Hc Hc'.
  eapply (agreement powers Hp nat Nat.eq_dec (faulty_of flags) Hf tr r r' b b').
  - apply run_all_obey_sound; exact Ho.
  - apply run_commit_quorum_sound; exact Hc.
  - apply run_commit_quorum_sound; exact Hc'.
Qed.

(** VerifyCommit and the block-sync processor (C01/Sync.v) at block ids = nat, 0 = the zero id *)

Definition bid_of (b : nat) : option nat := match b with O => None | S _ => Some b end.

Definition mk_slot (f : nat) (addr_zero : bool) (addr : option nat) (time_zero sig_empty : bool) (signer : option nat) : slot :=
  mkSlot (match f with
          | 1%nat => FAbsent | 2%nat => FCommit | 3%nat => FNil | _ => FUnknown end)
         addr_zero addr time_zero sig_empty signer.

Definition mk_commit (h r b : nat) (sl : list slot) : commit nat := mkCommit nat h r (bid_of b) sl.

Definition run_verify_commit (powers : list Z) (hw bw : nat) (oc : option (commit nat)) : vresult :=
  verify_commit nat Nat.eq_dec powers hw (bid_of bw) oc.

(** the powers entitled to sign height k+1 are the k-th entry of the table the harness supplies *)
Definition run_powers_of (pv : list (list Z)) (c : list nat) : list Z := nth (length c) pv [].

Definition mk_blk (h id : nat) (lc : option (commit nat)) : blk nat := mkBlk nat h id lc.

Definition run_p_init : pstate nat := p_init nat.

Definition run_p_handle (pv : list (list Z)) (st : pstate nat) (ev : pevent nat) : pstate nat * pout :=
  p_handle nat Nat.eq_dec (run_powers_of pv) (fun _ _ => true) st ev.

Definition ev_block (peer : nat) (b : blk nat) : pevent nat := EvBlock nat peer b.
Definition ev_process : pevent nat := EvProcess nat.
Definition ev_peer_error (peer : nat) : pevent nat := EvPeerError nat peer.
Definition ev_finished : pevent nat := EvFinished nat.

(** the lock automaton as a monitor of validator i on a recorded trace (C01/Monitor.v) *)

(** [None]: an own event violates a guard of the automaton; [Some l]: accepted, l = the lock held at
    the end of the trace (block, lock round) *)
Definition run_monitor_lock (powers : list Z) (tr : trace nat) (i : nat) : option (option (nat * nat)) :=
  option_map (fun p => l_locked nat (fst p)) (monitor powers nat Nat.eq_dec i tr).

(** all non-faulty validators are accepted *)
Definition run_monitor_all (powers : list Z) (flags : list bool) (tr : trace nat) : bool :=
  forallb (fun i => faulty_of flags i || match run_monitor_lock powers tr i with Some _ => true | None => false end)
          (seq 0 (length powers)).
