(** C12 — theorems about the specification itself (exact arithmetic): window and centring
    after the renormalisation, constant sum of priorities, share accounting, bounds that
    give proportionality and no starvation inside a run of rounds. *)
From Coq Require Import List ZArith NArith Bool Lia Permutation.
From Kardia Require Import C12.Model C12.Spec.
Import ListNotations.
Local Open Scope Z_scope.

Lemma total_power_cons h t : total_power (h :: t) = v_power h + total_power t.
Proof. reflexivity. Qed.
Lemma sum_priorities_cons h t : sum_priorities (h :: t) = v_prio h + sum_priorities t.
Proof. reflexivity. Qed.

Lemma total_power_nonneg l : (forall v, In v l -> 0 < v_power v) -> 0 <= total_power l.
Proof.
  induction l as [|h t IH]; intros H; [cbn; lia|]. rewrite total_power_cons.
  specialize (IH (fun v Hv => H v (or_intror Hv))). specialize (H h (or_introl eq_refl)). lia.
Qed.

Lemma total_power_pos l : l <> [] -> (forall v, In v l -> 0 < v_power v) -> 0 < total_power l.
Proof.
  intros NE H. destruct l as [|h t]; [congruence|]. rewrite total_power_cons.
  pose proof (total_power_nonneg t (fun v Hv => H v (or_intror Hv))).
  specialize (H h (or_introl eq_refl)). lia.
Qed.

Lemma power_le_total l v : (forall w, In w l -> 0 < v_power w) -> In v l -> v_power v <= total_power l.
Proof.
  induction l as [|h t IH]; intros H Hv; [destruct Hv|]. rewrite total_power_cons.
  pose proof (total_power_nonneg t (fun w Hw => H w (or_intror Hw))).
  destruct Hv as [->|Hv]; [lia|].
  specialize (IH (fun w Hw => H w (or_intror Hw)) Hv). specialize (H h (or_introl eq_refl)). lia.
Qed.

Lemma total_power_perm l l' : Permutation l l' -> total_power l = total_power l'.
Proof. intros P. induction P; rewrite ?total_power_cons; lia. Qed.

Lemma sum_priorities_perm l l' : Permutation l l' -> sum_priorities l = sum_priorities l'.
Proof. intros P. induction P; rewrite ?sum_priorities_cons; lia. Qed.

Lemma nodup_addr_eq l a b : NoDup (map v_addr l) -> In a l -> In b l -> v_addr a = v_addr b -> a = b.
Proof.
  induction l as [|h t IH]; intros N Ha Hb E; [destruct Ha|].
  cbn [map] in N. inversion N as [|? ? Nh Nt]; subst.
  destruct Ha as [->|Ha], Hb as [->|Hb]; try reflexivity.
  - exfalso. apply Nh. rewrite E. now apply in_map.
  - exfalso. apply Nh. rewrite <- E. now apply in_map.
  - now apply IH.
Qed.

(** [l'] has the validators of [l] in the same order, possibly with other priorities: what
    every step of a call does to the set *)
Definition same_members (l l' : list validator) : Prop :=
  map v_addr l' = map v_addr l /\ map v_power l' = map v_power l.

Lemma same_members_refl l : same_members l l.
Proof. split; reflexivity. Qed.

Lemma same_members_sym l l' : same_members l l' -> same_members l' l.
Proof. intros [A P]. split; congruence. Qed.

Lemma same_members_trans l1 l2 l3 : same_members l1 l2 -> same_members l2 l3 -> same_members l1 l3.
Proof. intros [A P] [A' P']. split; congruence. Qed.

Lemma same_members_set_prio (f : validator -> Z) l : same_members l (map (fun v => set_prio v (f v)) l).
Proof. split; rewrite map_map; reflexivity. Qed.

Lemma same_members_length l l' : same_members l l' -> length l' = length l.
Proof. intros [A _]. rewrite <- (map_length v_addr l'), A. apply map_length. Qed.

Lemma same_members_nil l l' : same_members l l' -> l <> [] -> l' <> [].
Proof. intros [A _] NE ->. destruct l; [congruence|discriminate]. Qed.

Lemma same_members_in l : forall l' v, same_members l l' -> In v l ->
  exists v', In v' l' /\ v_addr v' = v_addr v /\ v_power v' = v_power v.
Proof.
  induction l as [|h t IH]; intros [|h' t'] v [A P] Hv; try discriminate; [destruct Hv|].
  injection A as Ah At. injection P as Ph Pt.
  destruct Hv as [->|Hv]; [exists h'; split; [now left|auto]|].
  destruct (IH t' v (conj At Pt) Hv) as (v' & Hv' & ?). exists v'. split; [now right|assumption].
Qed.

Lemma same_members_total l l' : same_members l l' -> total_power l' = total_power l.
Proof.
  revert l'; induction l as [|h t IH]; intros [|h' t'] [A P]; try discriminate; [reflexivity|].
  injection A as _ At. injection P as Ph Pt. rewrite !total_power_cons, (IH t' (conj At Pt)). lia.
Qed.

Lemma same_members_pos l l' :
  same_members l l' -> (forall v, In v l -> 0 < v_power v) -> forall v, In v l' -> 0 < v_power v.
Proof.
  intros M Pp v Hv. destruct (same_members_in _ _ v (same_members_sym _ _ M) Hv) as (u & Hu & _ & <-).
  now apply Pp.
Qed.

Lemma ceil_div_bounds d W : 0 < W -> W < d ->
  2 <= (d + W - 1) / W /\ d <= W * ((d + W - 1) / W).
Proof.
  intros HW Hd.
  pose proof (Z.div_mod (d + W - 1) W ltac:(lia)) as E.
  pose proof (Z.mod_pos_bound (d + W - 1) W HW) as B.
  set (r := (d + W - 1) / W) in *. split; [|lia].
  assert (W * 1 < W * r) by lia.
  assert (W * 2 <= W * r + (d + W - 1) mod W - 0) by lia.
  destruct (Z.le_gt_cases 2 r) as [|L]; [assumption|].
  assert (r <= 1) as R1 by lia.
  assert (W * r <= W * 1) by (apply Z.mul_le_mono_nonneg_l; lia). lia.
Qed.

Lemma quot_diff_bound p q r W :
  2 <= r -> 0 <= W -> p - q <= W * r -> Z.quot p r - Z.quot q r <= W.
Proof.
  intros Hr HW Hd.
  destruct (Z.le_gt_cases p q) as [Lpq|Lpq].
  { pose proof (Z.quot_le_mono p q r ltac:(lia) Lpq). lia. }
  pose proof (Z.quot_rem' p r) as Ep. pose proof (Z.quot_rem' q r) as Eq.
  set (a := Z.quot p r) in *. set (b := Z.quot q r) in *.
  assert (r * (a - b) < r * (W + 1)) as K.
  { destruct (Z.le_gt_cases 0 q) as [Q0|Q0].
    - pose proof (Z.rem_bound_pos p r ltac:(lia) ltac:(lia)).
      pose proof (Z.rem_bound_pos q r Q0 ltac:(lia)). lia.
    - destruct (Z.le_gt_cases p 0) as [P0|P0].
      + pose proof (Z.rem_bound_pos_neg p r ltac:(lia) P0).
        pose proof (Z.rem_bound_pos_neg q r ltac:(lia) ltac:(lia)). lia.
      + pose proof (Z.rem_bound_pos p r ltac:(lia) ltac:(lia)).
        pose proof (Z.rem_bound_pos_neg q r ltac:(lia) ltac:(lia)). lia. }
  apply Z.mul_lt_mono_pos_l in K; lia.
Qed.

Lemma in_map_set_prio (f : validator -> Z) l v' :
  In v' (map (fun v => set_prio v (f v)) l) -> exists v, In v l /\ v' = set_prio v (f v).
Proof. rewrite in_map_iff. intros (v & <- & H). eauto. Qed.

Lemma spec_rescale_members T l l1 : spec_rescale T l l1 -> same_members l l1.
Proof.
  intros (mx & mn & _ & _ & H). cbn zeta in H.
  destruct (2 * T <? mx - mn); subst l1; [apply same_members_set_prio|apply same_members_refl].
Qed.

Theorem spec_rescale_window T l l' :
  0 < T -> spec_rescale T l l' -> within_window (2 * T) l'.
Proof.
  intros HT (mx & mn & [_ Hmx] & [_ Hmn] & H). cbn zeta in H.
  destruct (Z.ltb_spec (2 * T) (mx - mn)) as [L|L]; subst l'.
  - intros v' w' Hv Hw.
    apply in_map_set_prio in Hv. destruct Hv as (v & Hv & ->).
    apply in_map_set_prio in Hw. destruct Hw as (w & Hw & ->). cbn [set_prio v_prio].
    destruct (ceil_div_bounds (mx - mn) (2 * T) ltac:(lia) L) as [R2 RW].
    apply quot_diff_bound; [exact R2|lia|].
    specialize (Hmx v Hv). specialize (Hmn w Hw). lia.
  - intros v w Hv Hw. specialize (Hmx v Hv). specialize (Hmn w Hw). lia.
Qed.

Lemma spec_centre_members l l1 : spec_centre l l1 -> same_members l l1.
Proof. intros ->. apply same_members_set_prio. Qed.

Lemma spec_renormalise_members T l l1 l2 : spec_rescale T l l1 -> spec_centre l1 l2 -> same_members l l2.
Proof.
  intros R C. exact (same_members_trans _ _ _ (spec_rescale_members _ _ _ R) (spec_centre_members _ _ C)).
Qed.

Lemma sum_priorities_shift c l :
  sum_priorities (map (fun v => set_prio v (v_prio v - c)) l) = sum_priorities l - Z.of_nat (length l) * c.
Proof.
  induction l as [|h t IH]; [cbn; lia|].
  cbn [map length]. rewrite !sum_priorities_cons, IH. cbn [set_prio v_prio]. lia.
Qed.

Theorem spec_centre_sum l l' :
  l <> [] -> spec_centre l l' -> 0 <= sum_priorities l' < Z.of_nat (length l').
Proof.
  intros NE ->. rewrite map_length, sum_priorities_shift.
  assert (0 < Z.of_nat (length l)) as Hn by (destruct l; [congruence|cbn [length]; lia]).
  pose proof (Z.div_mod (sum_priorities l) (Z.of_nat (length l)) ltac:(lia)).
  pose proof (Z.mod_pos_bound (sum_priorities l) (Z.of_nat (length l)) Hn). lia.
Qed.

Lemma spec_centre_window W l l' : spec_centre l l' -> within_window W l -> within_window W l'.
Proof.
  intros -> H v' w' Hv Hw.
  apply in_map_set_prio in Hv. destruct Hv as (v & Hv & ->).
  apply in_map_set_prio in Hw. destruct Hw as (w & Hw & ->). cbn [set_prio v_prio].
  specialize (H v w Hv Hw). lia.
Qed.

Lemma sum_le_max l m : (forall v, In v l -> v_prio v <= m) -> sum_priorities l <= Z.of_nat (length l) * m.
Proof.
  induction l as [|h t IH]; intros H; [cbn; lia|]. cbn [length]. rewrite sum_priorities_cons.
  specialize (IH (fun v Hv => H v (or_intror Hv))). specialize (H h (or_introl eq_refl)). lia.
Qed.

Lemma sum_ge_min l m : (forall v, In v l -> m <= v_prio v) -> Z.of_nat (length l) * m <= sum_priorities l.
Proof.
  induction l as [|h t IH]; intros H; [cbn; lia|]. cbn [length]. rewrite sum_priorities_cons.
  specialize (IH (fun v Hv => H v (or_intror Hv))). specialize (H h (or_introl eq_refl)). lia.
Qed.

Lemma centred_window_bound W l :
  0 <= W -> within_window W l -> 0 <= sum_priorities l < Z.of_nat (length l) ->
  forall v, In v l -> - W <= v_prio v <= W.
Proof.
  intros HW Hwin [S0 S1] v Hv.
  assert (0 < Z.of_nat (length l)) as Hn by lia.
  split.
  - (* if v < -W then everybody is < 0, so the sum is negative *)
    destruct (Z.le_gt_cases (- W) (v_prio v)) as [|L]; [assumption|exfalso].
    assert (sum_priorities l <= Z.of_nat (length l) * (-1)).
    { apply sum_le_max. intros w Hw. specialize (Hwin w v Hw Hv). lia. }
    lia.
  - destruct (Z.le_gt_cases (v_prio v) W) as [|L]; [assumption|exfalso].
    assert (Z.of_nat (length l) * 1 <= sum_priorities l).
    { apply sum_ge_min. intros w Hw. specialize (Hwin v w Hv Hw). lia. }
    lia.
Qed.

Theorem spec_renormalise T l l1 l2 :
  0 < T -> l <> [] -> spec_rescale T l l1 -> spec_centre l1 l2 ->
  within_window (2 * T) l2 /\ 0 <= sum_priorities l2 < Z.of_nat (length l2) /\
  (forall v, In v l2 -> - (2 * T) <= v_prio v <= 2 * T).
Proof.
  intros HT NE R C.
  pose proof (same_members_nil _ _ (spec_rescale_members _ _ _ R) NE) as NE1.
  pose proof (spec_centre_window _ _ _ C (spec_rescale_window _ _ _ HT R)) as W.
  pose proof (spec_centre_sum _ _ NE1 C) as S.
  split; [exact W|]. split; [exact S|].
  apply centred_window_bound; [lia|exact W|exact S].
Qed.

Lemma advance_members l : same_members l (advance l).
Proof. apply same_members_set_prio. Qed.

Lemma pay_members T a l : same_members l (pay T a l).
Proof.
  unfold pay. split; rewrite map_map; apply map_ext; intros v; destruct (N.eqb (v_addr v) a); reflexivity.
Qed.

Lemma spec_round_members l l' a : spec_round l l' a -> same_members l l' /\ In a (map v_addr l).
Proof.
  intros (p & [Hp _] & -> & ->). split.
  - exact (same_members_trans _ _ _ (advance_members l) (pay_members _ _ _)).
  - rewrite <- (proj1 (advance_members l)). now apply in_map.
Qed.

Lemma spec_rounds_members k l l' props : spec_rounds k l l' props -> same_members l l'.
Proof.
  induction 1 as [|k l l1 l2 a props R1 _ IH]; [apply same_members_refl|].
  exact (same_members_trans _ _ _ (proj1 (spec_round_members _ _ _ R1)) IH).
Qed.

Lemma sum_advance l : sum_priorities (advance l) = sum_priorities l + total_power l.
Proof.
  induction l as [|h t IH]; [reflexivity|].
  cbn [advance map]. fold (advance t). rewrite !sum_priorities_cons, total_power_cons, IH.
  cbn [set_prio v_prio]. lia.
Qed.

Lemma pay_not_in T a l : ~ In a (map v_addr l) -> pay T a l = l.
Proof.
  induction l as [|h t IH]; intros H; [reflexivity|].
  cbn [pay map]. cbn [map In] in H.
  destruct (N.eqb_spec (v_addr h) a) as [E|E]; [tauto|]. f_equal. apply IH. tauto.
Qed.

Lemma sum_pay T a l : NoDup (map v_addr l) -> In a (map v_addr l) ->
  sum_priorities (pay T a l) = sum_priorities l - T.
Proof.
  induction l as [|h t IH]; intros N H; [destruct H|].
  cbn [map] in N, H. inversion N as [|? ? Nh Nt]; subst.
  cbn [pay map]. fold (pay T a t). rewrite !sum_priorities_cons.
  destruct (N.eqb_spec (v_addr h) a) as [E|E].
  - subst a. rewrite (pay_not_in _ _ _ Nh). cbn [set_prio v_prio]. lia.
  - destruct H as [H|H]; [congruence|]. rewrite (IH Nt H). lia.
Qed.

Theorem spec_round_sum l l' a :
  NoDup (map v_addr l) -> spec_round l l' a -> sum_priorities l' = sum_priorities l.
Proof.
  intros N R. destruct (spec_round_members _ _ _ R) as (_ & Ha).
  destruct R as (p & _ & -> & ->).
  destruct (advance_members l) as [A' _].
  rewrite sum_pay; [|rewrite A'; exact N|rewrite A'; exact Ha].
  rewrite sum_advance. lia.
Qed.

Theorem spec_rounds_sum k l l' props :
  NoDup (map v_addr l) -> spec_rounds k l l' props -> sum_priorities l' = sum_priorities l.
Proof.
  intros N R. induction R as [|k l l1 l2 a props R1 R IH]; [reflexivity|].
  destruct (spec_round_members _ _ _ R1) as ([A _] & _).
  rewrite IH; [|rewrite A; exact N]. now apply spec_round_sum in R1.
Qed.

Definition count (a : N) (props : list N) : Z := Z.of_nat (count_occ N.eq_dec props a).

Definition accounted (T : Z) (k : nat) (props : list N) (v v' : validator) : Prop :=
  v_addr v' = v_addr v /\ v_power v' = v_power v /\
  v_prio v' = v_prio v + Z.of_nat k * v_power v - T * count (v_addr v) props.

Lemma round_accounted_gen T a l :
  Forall2 (accounted T 1 [a]) l (pay T a (advance l)).
Proof.
  unfold pay, advance. rewrite map_map.
  induction l as [|h t IH]; cbn [map]; constructor; [|exact IH].
  unfold accounted, count. cbn [count_occ set_prio v_addr].
  destruct (N.eqb_spec (v_addr h) a) as [E|E]; cbn [v_addr v_power v_prio set_prio];
    destruct (N.eq_dec a (v_addr h)) as [E'|E']; try congruence;
    cbn [count_occ]; repeat split; lia.
Qed.

Lemma spec_round_accounted l l' a :
  spec_round l l' a -> Forall2 (accounted (total_power l) 1 [a]) l l'.
Proof. intros (p & _ & -> & ->). apply round_accounted_gen. Qed.

Lemma Forall2_accounted_trans T k1 k2 p1 p2 l l1 l2 :
  Forall2 (accounted T k1 p1) l l1 -> Forall2 (accounted T k2 p2) l1 l2 ->
  Forall2 (accounted T (k1 + k2) (p1 ++ p2)) l l2.
Proof.
  intros H. revert l2. induction H as [|v v1 t t1 Hv Ht IH]; intros l2 H2; inversion H2; subst; constructor.
  - destruct Hv as (A1 & P1 & Q1).
    match goal with H : accounted _ _ _ v1 _ |- _ => destruct H as (A2 & P2 & Q2) end.
    unfold accounted, count in *. rewrite count_occ_app, !Nat2Z.inj_add.
    split; [congruence|]. split; [congruence|].
    rewrite Q2, A1, P1, Q1. lia.
  - apply IH. assumption.
Qed.

Theorem spec_rounds_accounted k l l' props :
  spec_rounds k l l' props -> Forall2 (accounted (total_power l) k props) l l' /\ length props = k.
Proof.
  intros R. induction R as [l|k l l1 l2 a props R1 R [IH IHl]].
  - split; [|reflexivity]. generalize (total_power l). intros T.
    induction l as [|h t IHt]; constructor; [|exact IHt].
    unfold accounted, count. cbn [count_occ]. repeat split; lia.
  - split; [|cbn; now rewrite IHl].
    rewrite (same_members_total _ _ (proj1 (spec_round_members _ _ _ R1))) in IH.
    change (S k) with (1 + k)%nat. change (a :: props) with ([a] ++ props).
    eapply Forall2_accounted_trans; [apply spec_round_accounted, R1|exact IH].
Qed.

Lemma proposer_max l p : NoDup (map v_addr l) -> is_proposer l p -> forall u, In u l -> v_prio u <= v_prio p.
Proof.
  intros N [Hp Hbest] u Hu. destruct (N.eq_dec (v_addr u) (v_addr p)) as [E|E].
  - rewrite (nodup_addr_eq l u p N Hu Hp E). lia.
  - destruct (Hbest u Hu E) as [L|[L _]]; lia.
Qed.

(** lower bound: the proposer's advanced priority is at least the average (S + T) / n > 0, so
    after paying T it is above -T; nobody else goes down *)
Lemma spec_round_lower B l l' a :
  NoDup (map v_addr l) -> l <> [] -> (forall v, In v l -> 0 < v_power v) ->
  0 <= sum_priorities l -> total_power l <= B ->
  (forall v, In v l -> - B <= v_prio v) ->
  spec_round l l' a -> forall v, In v l' -> - B <= v_prio v.
Proof.
  intros N NE Pp S0 TB LB (p & HP & -> & ->) v' Hv'.
  unfold pay in Hv'. apply in_map_iff in Hv'. destruct Hv' as (w & <- & Hw).
  assert (- B <= v_prio w) as Lw.
  { unfold advance in Hw. apply in_map_iff in Hw. destruct Hw as (u & <- & Hu). cbn [set_prio v_prio].
    specialize (LB u Hu). specialize (Pp u Hu). lia. }
  destruct (N.eqb_spec (v_addr w) (v_addr p)) as [E|E]; [|exact Lw]. cbn [set_prio v_prio].
  assert (NoDup (map v_addr (advance l))) as N' by (rewrite (proj1 (advance_members l)); exact N).
  rewrite (nodup_addr_eq _ w p N' Hw (proj1 HP) E).
  pose proof (sum_le_max (advance l) (v_prio p) (proposer_max _ _ N' HP)) as SM.
  rewrite sum_advance, (same_members_length _ _ (advance_members l)) in SM.
  pose proof (total_power_pos l NE Pp) as Tpos.
  assert (0 <= v_prio p); [|lia].
  destruct (Z.le_gt_cases 0 (v_prio p)) as [|L]; [assumption|].
  assert (Z.of_nat (length l) * v_prio p <= 0) by (apply Z.mul_nonneg_nonpos; lia). lia.
Qed.

(** upper bound from the constant sum and the lower bound *)
Lemma upper_from_sum B l v :
  (forall w, In w l -> - B <= v_prio w) -> In v l ->
  v_prio v <= sum_priorities l + (Z.of_nat (length l) - 1) * B.
Proof.
  induction l as [|h t IH]; intros LB Hv; [destruct Hv|].
  cbn [length]. rewrite sum_priorities_cons.
  pose proof (sum_ge_min t (- B) (fun w Hw => LB w (or_intror Hw))) as SM.
  destruct Hv as [->|Hv].
  - lia.
  - specialize (IH (fun w Hw => LB w (or_intror Hw)) Hv).
    specialize (LB h (or_introl eq_refl)). lia.
Qed.

Theorem spec_rounds_bounds B k l l' props :
  NoDup (map v_addr l) -> l <> [] -> (forall v, In v l -> 0 < v_power v) ->
  0 <= sum_priorities l -> total_power l <= B ->
  (forall v, In v l -> - B <= v_prio v) ->
  spec_rounds k l l' props ->
  forall v, In v l' -> - B <= v_prio v <= sum_priorities l + (Z.of_nat (length l) - 1) * B.
Proof.
  intros N NE Pp S0 TB LB R.
  assert (forall v, In v l' -> - B <= v_prio v) as LB'.
  { clear - N NE Pp S0 TB LB R.
    induction R as [|k l l1 l2 a props R1 R IH]; [exact LB|].
    destruct (spec_round_members _ _ _ R1) as (M & _).
    apply IH.
    - rewrite (proj1 M); exact N.
    - exact (same_members_nil _ _ M NE).
    - exact (same_members_pos _ _ M Pp).
    - rewrite (spec_round_sum _ _ _ N R1). exact S0.
    - rewrite (same_members_total _ _ M). exact TB.
    - eapply spec_round_lower; eassumption. }
  intros v Hv. split; [now apply LB'|].
  rewrite <- (spec_rounds_sum _ _ _ _ N R), <- (same_members_length _ _ (spec_rounds_members _ _ _ _ R)).
  now apply upper_from_sum.
Qed.
