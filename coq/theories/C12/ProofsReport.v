(** C12 — (a) the running totals of verifyUpdates stay within the cap; (b) the cstate path
    (calculateValidatorSetUpdates + updateState) on a good set: an invalid validator report is
    rejected as a whole, any other outcome is the derived change set applied and one round run. *)
From Coq Require Import List ZArith NArith Bool Lia Permutation.
From Kardia Require Import Base.Int64 C12.Model C12.Spec C12.ProofsSort C12.ProofsSpec C12.ProofsRefine
     C12.ProofsUpdate2 C12.ProofsUpdate3 Generated.C12Facts.
Import ListNotations.
Local Open Scope Z_scope.

(** every value the running total takes while the deltas are added (in the order given) *)
Fixpoint running (vals us : list validator) (acc : Z) : list Z :=
  match us with
  | [] => []
  | u :: t => (acc + (v_power u - look vals u)) :: running vals t (acc + (v_power u - look vals u))
  end.

Lemma add_deltas_running vals us : forall acc r,
  (forall v, In v vals -> 0 < v_power v <= max_total_voting_power) ->
  (forall u, In u us -> 0 <= v_power u <= max_total_voting_power) ->
  lsum vals us <= acc <= max_total_voting_power ->
  add_deltas vals us acc = Some r ->
  Forall (fun x => 0 <= x <= max_total_voting_power) (running vals us acc).
Proof.
  induction us as [|u t IH]; intros acc r Pp Pu Hacc H; cbn [running]; [constructor|].
  rewrite lsum_cons in Hacc.
  pose proof (look_nonneg vals u (fun v Hv => proj1 (Pp v Hv))) as L0.
  pose proof (lsum_nonneg vals t (fun v Hv => proj1 (Pp v Hv))) as L1.
  pose proof (Pu u (or_introl eq_refl)) as Pu0.
  rewrite add_deltas_step in H by (try assumption; lia).
  destruct (Z.ltb_spec max_total_voting_power (acc + (v_power u - look vals u))) as [L|L]; [discriminate|].
  constructor; [lia|].
  apply (IH _ r Pp (fun x Hx => Pu x (or_intror Hx))); [lia|exact H].
Qed.

Lemma has_dup_false l : has_dup l = false <-> NoDup (map v_addr l).
Proof.
  induction l as [|h t IH]; cbn [has_dup map]; [split; [constructor|reflexivity]|].
  rewrite orb_false_iff, IH. split.
  - intros [H N]. constructor; [|exact N]. intros Hin. apply has_addr_in in Hin. congruence.
  - intros N. inversion N as [|? ? Nh Nt]; subst. split; [|exact Nt].
    destruct (has_addr (v_addr h) t) eqn:E; [|reflexivity]. apply has_addr_in in E. contradiction.
Qed.

Definition report_invalid (last report : list validator) : Prop :=
  ~ NoDup (map v_addr report) \/
  exists c, In c report /\
            (v_power c < 0 \/ max_total_voting_power < v_power c \/
             (v_power c = 0 /\ get_by_addr (v_addr c) last = None)).

(** On a good set the cstate path either rejects the derived change set and leaves the set as
    it was, or applies it (when there is one) and runs one round, both without panic. *)
Lemma report_cases s report :
  good s ->
  let cs := calculate_updates (vs_vals s) report in
  (exists e, e <> UOk /\ apply_report s report = Some (s, e)) \/
  exists mid s' props p,
    ((cs = [] /\ mid = s) \/ (cs <> [] /\ update_with_change_set s cs true = Some (mid, UOk))) /\
    good mid /\ apply_report s report = Some (s', UOk) /\ good s' /\
    spec_increment (vs_vals mid) 1 (vs_vals s') props /\ vs_proposer s' = Some (last props 0%N, p).
Proof.
  intros G cs. unfold apply_report. fold cs.
  destruct cs as [|c0 ct] eqn:E.
  - destruct (increment_one_good s G) as (s' & props & p & -> & R). right. exists s, s', props, p. tauto.
  - destruct (update_with_change_set s (c0 :: ct) true) as [[s1 e]|] eqn:U; [|now apply update_no_panic in U].
    pose proof (hop_preserves_good s (HUpd (c0 :: ct)) G I s1 e U) as P.
    destruct e; try (subst s1; left; eexists; split; [|reflexivity]; discriminate).
    destruct (increment_one_good s1 (proj1 P)) as (s' & props & p & -> & R). right. exists s1, s', props, p.
    split; [right; split; [discriminate|reflexivity]|]. split; [apply P|]. tauto.
Qed.

Theorem report_invalid_rejected s report :
  good s -> report_invalid (vs_vals s) report ->
  exists e, e <> UOk /\ apply_report s report = Some (s, e).
Proof.
  intros G Inv. pose proof G as [[(NEv & Nv & Ppv & Cv) ET] HB].
  destruct (report_cases s report G) as [R|(mid & s' & props & p & C & _)]; [exact R|exfalso].
  (* the derived change set holds an entry that updateWithChangeSet refuses *)
  assert (exists c, In c (calculate_updates (vs_vals s) report) /\
            (~ valid_changes (calculate_updates (vs_vals s) report) \/
             v_power c < 0 \/ max_total_voting_power < v_power c \/
             (v_power c = 0 /\ get_by_addr (v_addr c) (vs_vals s) = None))) as (c & Hc & Bad).
  { unfold calculate_updates. destruct Inv as [ND|(c & Hc & Bad)].
    - destruct report as [|r0 rt]; [exfalso; apply ND; constructor|].
      destruct (has_dup (r0 :: rt)) eqn:HD; [|now apply has_dup_false in HD].
      exists r0. split; [now left|]. left. now intros [N _].
    - destruct report as [|r0 rt]; [destruct Hc|].
      destruct (has_dup (r0 :: rt)) eqn:HD.
      + exists c. split; [exact Hc|]. left. intros [N _]. apply has_dup_false in N. congruence.
      + exists c. split; [|now right].
        apply in_or_app. left. apply filter_In. split; [exact Hc|].
        rewrite <- (get_perm _ _ (v_addr c) Nv (Permutation_rev (vs_vals s))).
        destruct (get_by_addr (v_addr c) (vs_vals s)) as [o|] eqn:Go; [|reflexivity].
        apply get_by_addr_in in Go. destruct Go as [Ho _].
        pose proof (Ppv o Ho). pose proof (power_le_total _ _ Ppv Ho).
        destruct (Z.eqb_spec (v_power o) (v_power c)) as [Eq|]; [|reflexivity].
        destruct Bad as [B|[B|[B G']]]; try lia. }
  (* so the update cannot have succeeded *)
  destruct C as [[E0 _]|[NE U]]; [rewrite E0 in Hc; destruct Hc|].
  destruct (update_ok_cases s _ true mid (good_updatable s G) NE U) as (ups & dels & Sp & DelIn & _).
  pose proof (split_valid _ _ _ Sp) as V. pose proof V as [_ F]. rewrite Forall_forall in F.
  destruct Bad as [NV|[B|[B|[B Gn]]]]; [exact (NV V)|destruct (F c Hc); lia..|].
  apply get_none_iff in Gn. apply Gn, DelIn. now apply (split_in_dels _ ups dels c Sp).
Qed.

Theorem report_ok_good s report s' :
  good s -> apply_report s report = Some (s', UOk) -> good s'.
Proof.
  intros G H. destruct (report_cases s report G) as [(e & Ne & E)|(mid & s1 & props & p & _ & _ & E & G1 & _)];
    congruence.
Qed.
