(** C12 — non-vacuity: the hypotheses of the theorems are satisfiable and the model computes
    what the implementation printed on the same inputs. *)
From Coq Require Import List ZArith NArith Bool Lia.
From Kardia Require Import C12.Model C12.ProofsUpdate2 C12.ProofsUpdate3 Generated.C12Facts.
Import ListNotations.
Local Open Scope Z_scope.

Definition mkv (a : N) (p : Z) : validator := {| v_addr := a; v_power := p; v_prio := 0 |}.
Definition ex_vals : list validator := [mkv 1 10; mkv 2 5; mkv 3 1].
Definition ex_set : vset :=
  {| vs_vals := [ {| v_addr := 1; v_power := 10; v_prio := -6 |};
                  {| v_addr := 2; v_power := 5; v_prio := 5 |};
                  {| v_addr := 3; v_power := 1; v_prio := 1 |} ];
     vs_proposer := Some (1%N, 10); vs_total := 16 |}.

(** NewValidatorSet on three validators: the state the Go code prints *)
Example ex_new : new_validator_set ex_vals = Some ex_set.
Proof. vm_compute. reflexivity. Qed.

Example ex_good : good ex_set.
Proof.
  destruct (new_validator_set_good ex_vals ex_set ltac:(discriminate) ex_new) as (W & B & _).
  split; assumption.
Qed.

(** the side condition of the no-overflow theorem holds for 2^16 rounds on this set *)
Example ex_hop_ok : hop_ok ex_set (HInc 65536).
Proof. vm_compute. discriminate. Qed.

(** the witness of the defect repaired by eb47a62: {A:1000, B:1}, then A := 1.  With the
    repaired computeMaxMinPriorityDiff the update rescales: spread 2 <= 2*T = 4 *)
Definition ex_skew : list validator := [mkv 1 1000; mkv 2 1].
Example ex_collapse :
  exists s s', new_validator_set ex_skew = Some s /\
    update_with_change_set s [mkv 1 1] true = Some (s', UOk) /\
    map v_prio (vs_vals s') = [-1; 1] /\ vs_total s' = 2.
Proof. eexists. eexists. split; [vm_compute; reflexivity|]. vm_compute. repeat split. Qed.

(** rejections, each leaving the set as it was *)
Example ex_reject_dup : update_with_change_set ex_set [mkv 4 3; mkv 4 5] true = Some (ex_set, UDup).
Proof. vm_compute. reflexivity. Qed.
Example ex_reject_neg : update_with_change_set ex_set [mkv 4 (-3)] true = Some (ex_set, UNegative).
Proof. vm_compute. reflexivity. Qed.
Example ex_reject_unknown : update_with_change_set ex_set [mkv 9 0] true = Some (ex_set, UUnknown).
Proof. vm_compute. reflexivity. Qed.
Example ex_reject_empty : update_with_change_set ex_set [mkv 1 0; mkv 2 0; mkv 3 0] true = Some (ex_set, UEmpty).
Proof. vm_compute. reflexivity. Qed.
Example ex_reject_cap :
  update_with_change_set ex_set [mkv 4 (max_total_voting_power - 15)] true = Some (ex_set, UOverflow).
Proof. vm_compute. reflexivity. Qed.
Example ex_accept_cap_exact :
  exists s', update_with_change_set ex_set [mkv 4 (max_total_voting_power - 16)] true = Some (s', UOk) /\
             vs_total s' = max_total_voting_power.
Proof. eexists. vm_compute. split; reflexivity. Qed.

(** order independence on a mixed change set (removal, power change, two newcomers) *)
Example ex_perm :
  update_with_change_set ex_set [mkv 3 0; mkv 2 7; mkv 5 4; mkv 4 2] true =
  update_with_change_set ex_set [mkv 4 2; mkv 5 4; mkv 2 7; mkv 3 0] true /\
  exists s', update_with_change_set ex_set [mkv 3 0; mkv 2 7; mkv 5 4; mkv 4 2] true = Some (s', UOk).
Proof. split; [vm_compute; reflexivity|]. eexists. vm_compute. reflexivity. Qed.

(** the zero address is reported as a duplicate (quirk of processChanges: prevAddr starts as
    the zero address) *)
Example ex_zero_address : update_with_change_set ex_set [mkv 0 3] true = Some (ex_set, UDup).
Proof. vm_compute. reflexivity. Qed.

(** after an update GetProposer still answers with the previous proposer, even if that
    validator has just been removed (vs.Proposer is only refreshed by the next increment) *)
Example ex_stale_proposer :
  exists s', update_with_change_set ex_set [mkv 1 0] true = Some (s', UOk) /\
             map v_addr (vs_vals s') = [2%N; 3%N] /\
             get_proposer s' = Some (s', Some (1%N, 10)).
Proof. eexists. vm_compute. repeat split. Qed.
