(** C12 — proportional share and no starvation inside the rounds of one call, for the
    specification (exact arithmetic); they reach the model through the [spec_increment] that
    ProofsRefine.increment_refines establishes for a call. *)
From Coq Require Import List ZArith NArith Bool Lia.
From Kardia Require Import C12.Model C12.Spec C12.ProofsSpec.
Import ListNotations.
Local Open Scope Z_scope.

Lemma Forall2_in_l {A B} (R : A -> B -> Prop) l l' x :
  Forall2 R l l' -> In x l -> exists y, In y l' /\ R x y.
Proof.
  intros F. induction F as [|a b t t' Hab F IH]; intros Hx; [destruct Hx|].
  destruct Hx as [->|Hx]; [exists b; split; [now left|exact Hab]|].
  destruct (IH Hx) as (y & Hy & Ry). exists y. split; [now right|exact Ry].
Qed.

(** share accounting with explicit bounds: in the k rounds of one call, the number of times a
    validator proposes differs from its fair share k * p / T by at most 2(n+1) + n/T.
    By [accounted], T * count - k * p = prio v2 - prio v' for the renormalised v2 and the final v';
    |prio v2| <= 2T, and -2T <= prio v' <= n + (n-1) * 2T by [spec_rounds_bounds]. *)
Theorem spec_share l k l' props :
  l <> [] -> NoDup (map v_addr l) -> (forall v, In v l -> 0 < v_power v) ->
  spec_increment l k l' props ->
  forall v, In v l ->
    Z.abs (total_power l * count (v_addr v) props - Z.of_nat k * v_power v)
    <= 2 * (Z.of_nat (length l) + 1) * total_power l + Z.of_nat (length l).
Proof.
  intros NE N Pp (l1 & l2 & SR & SC & R) v Hv.
  pose proof (total_power_pos l NE Pp) as Tpos.
  set (T := total_power l) in *.
  destruct (spec_renormalise T _ _ _ Tpos NE SR SC) as (Win & Sum & Bnd).
  pose proof (spec_renormalise_members _ _ _ _ SR SC) as M.
  pose proof (same_members_total _ _ M) as ET. fold T in ET.
  pose proof (spec_rounds_bounds (2 * T) k l2 l' props ltac:(rewrite (proj1 M); exact N)
                (same_members_nil _ _ M NE) (same_members_pos _ _ M Pp)
                ltac:(lia) ltac:(lia) (fun u Hu => proj1 (Bnd u Hu)) R) as BB.
  destruct (spec_rounds_accounted _ _ _ _ R) as [F _]. rewrite ET in F.
  destruct (same_members_in l l2 v M Hv) as (v2 & Hv2 & Av & Pv).
  destruct (Forall2_in_l _ _ _ _ F Hv2) as (v' & Hv' & (Aa & Pa & Qa)).
  specialize (BB v' Hv'). specialize (Bnd v2 Hv2). rewrite (same_members_length _ _ M) in *.
  rewrite Av, Pv in Qa.
  assert (0 < Z.of_nat (length l)) by (destruct l; [congruence|cbn [length]; lia]).
  nia.
Qed.

(** no starvation inside a call: a validator proposes at least once in any run of more than
    (2(n+1)T + n) / p rounds *)
Theorem spec_no_starvation l k l' props :
  l <> [] -> NoDup (map v_addr l) -> (forall v, In v l -> 0 < v_power v) ->
  spec_increment l k l' props ->
  forall v, In v l ->
    2 * (Z.of_nat (length l) + 1) * total_power l + Z.of_nat (length l) < Z.of_nat k * v_power v ->
    In (v_addr v) props.
Proof.
  intros NE N Pp SI v Hv Hk.
  pose proof (spec_share l k l' props NE N Pp SI v Hv) as S.
  destruct (in_dec N.eq_dec (v_addr v) props) as [|NI]; [assumption|exfalso].
  unfold count in S. rewrite (proj1 (count_occ_not_In N.eq_dec props (v_addr v)) NI) in S.
  cbn [Z.of_nat] in S. rewrite Z.mul_0_r in S.
  specialize (Pp v Hv). lia.
Qed.

(** what exactly holds right after a round: from a state within a window W, one round leaves
    the priorities within max (W + pmax - pmin, T) (so within 2T + pmax - pmin < 3T right after
    the renormalisation; the window 2T itself is only re-established by the next call) *)
Theorem spec_round_window W pmin pmax l l' a :
  NoDup (map v_addr l) -> (forall v, In v l -> pmin <= v_power v <= pmax) ->
  0 <= total_power l -> within_window W l -> spec_round l l' a ->
  within_window (Z.max (W + pmax - pmin) (total_power l)) l'.
Proof.
  intros N Pw T0 Win (p & [Hp Hbest] & -> & ->) v' w' Hv' Hw'.
  set (T := total_power l) in *.
  unfold pay in Hv', Hw'. apply in_map_iff in Hv', Hw'.
  destruct Hv' as (v1 & <- & Hv1). destruct Hw' as (w1 & <- & Hw1).
  assert (forall x1, In x1 (advance l) -> exists x, In x l /\ v_prio x1 = v_prio x + v_power x) as Adv.
  { intros x1 Hx1. unfold advance in Hx1. apply in_map_iff in Hx1. destruct Hx1 as (x & <- & Hx). exists x. auto. }
  destruct (Adv v1 Hv1) as (v & Hv & Ev). destruct (Adv w1 Hw1) as (w & Hw & Ew).
  pose proof (Win v w Hv Hw) as Dvw. pose proof (Pw v Hv) as Pv. pose proof (Pw w Hw) as Pww.
  assert (NoDup (map v_addr (advance l))) as N' by (rewrite (proj1 (advance_members l)); exact N).
  assert (forall x1, In x1 (advance l) -> v_addr x1 = v_addr p -> x1 = p) as Same
      by (intros x1 Hx1 E; now apply (nodup_addr_eq (advance l))).
  pose proof (proposer_max _ _ N' (conj Hp Hbest) v1 Hv1) as Mv.
  pose proof (proposer_max _ _ N' (conj Hp Hbest) w1 Hw1) as Mw.
  destruct (N.eqb_spec (v_addr v1) (v_addr p)) as [E1|E1];
    destruct (N.eqb_spec (v_addr w1) (v_addr p)) as [E2|E2]; cbn [set_prio v_prio];
    try (rewrite (Same v1 Hv1 E1) in * ); try (rewrite (Same w1 Hw1 E2) in * ); lia.
Qed.
