(** C12 — the insertion sort of the model, lists ordered by address, and processChanges: which
    change sets it accepts and how it splits them into updates and removals. *)
From Coq Require Import List ZArith NArith Bool Lia Permutation Sorted.
From Kardia Require Import C12.Model C12.Spec Generated.C12Facts.
Import ListNotations.
Local Open Scope Z_scope.

Lemma insert_by_perm {A} (lt : A -> A -> bool) x l : Permutation (insert_by lt x l) (x :: l).
Proof.
  induction l as [|h t IH]; cbn [insert_by]; [reflexivity|].
  destruct (lt h x); [|reflexivity].
  rewrite IH. apply perm_swap.
Qed.

Lemma sort_by_perm {A} (lt : A -> A -> bool) l : Permutation (sort_by lt l) l.
Proof.
  induction l as [|h t IH]; cbn [sort_by fold_right]; [reflexivity|].
  fold (sort_by lt t). rewrite insert_by_perm. now constructor.
Qed.

(** The result is sorted for every transitive relation [le] that holds where [lt] does and holds
    the other way round where [lt] does not. *)
Section Sorted.
  Context {A : Type} (lt : A -> A -> bool) (le : A -> A -> Prop).
  Hypothesis lt_le : forall a b, lt a b = true -> le a b.
  Hypothesis nlt_le : forall a b, lt a b = false -> le b a.
  Hypothesis le_trans : forall a b c, le a b -> le b c -> le a c.

  Lemma insert_by_sorted x l : StronglySorted le l -> StronglySorted le (insert_by lt x l).
  Proof.
    induction 1 as [|h t St IH Fh]; cbn [insert_by]; [repeat constructor|].
    destruct (lt h x) eqn:L.
    - constructor; [exact IH|].
      apply (Permutation_Forall (Permutation_sym (insert_by_perm lt x t))).
      constructor; [now apply lt_le|exact Fh].
    - apply nlt_le in L. constructor; [now constructor|]. constructor; [exact L|].
      eapply Forall_impl; [|exact Fh]. intros y. now apply le_trans.
  Qed.

  Lemma sort_by_sorted l : StronglySorted le (sort_by lt l).
  Proof.
    induction l as [|h t IH]; cbn [sort_by fold_right]; [constructor|]. now apply insert_by_sorted.
  Qed.
End Sorted.

Lemma filter_sorted {A} (R : A -> A -> Prop) f l : StronglySorted R l -> StronglySorted R (filter f l).
Proof.
  induction 1 as [|h t St IH Fh]; cbn [filter]; [constructor|].
  destruct (f h); [|exact IH]. constructor; [exact IH|].
  rewrite Forall_forall in *. intros x Hx. apply filter_In in Hx. now apply Fh.
Qed.

Lemma nodup_app {A} (l1 l2 : list A) :
  NoDup (l1 ++ l2) -> NoDup l1 /\ NoDup l2 /\ forall a, In a l1 -> ~ In a l2.
Proof.
  induction l1 as [|h t IH]; cbn [app]; intros N; [repeat split; [constructor|exact N|intros a []]|].
  inversion N as [|? ? Nh Nt]; subst. destruct (IH Nt) as (N1 & N2 & D). rewrite in_app_iff in Nh.
  repeat split; [constructor; tauto|exact N2|]. intros a [<-|Ha]; [tauto|now apply D].
Qed.

(** ValidatorsByVotingPower.Less is the order of the specification *)
Lemma power_lt_iff a b : power_lt a b = true <-> by_power_then_address a b.
Proof.
  unfold power_lt, by_power_then_address.
  destruct (Z.eqb_spec (v_power a) (v_power b)); rewrite ?N.ltb_lt, ?Z.ltb_lt; lia.
Qed.

Lemma power_lt_false a b : power_lt a b = false <-> ~ by_power_then_address a b.
Proof. rewrite <- power_lt_iff. now destruct (power_lt a b). Qed.

Lemma sort_power_sorted l : StronglySorted (fun a b => power_lt b a = false) (sort_by power_lt l).
Proof.
  apply sort_by_sorted; [intros a b|trivial|intros a b c];
    rewrite ?power_lt_iff, ?power_lt_false; unfold by_power_then_address; lia.
Qed.

Definition addr_le (a b : validator) : Prop := (v_addr a <= v_addr b)%N.
Definition addr_slt (a b : validator) : Prop := (v_addr a < v_addr b)%N.

Lemma nodup_addr_perm l l' : Permutation l l' -> NoDup (map v_addr l) -> NoDup (map v_addr l').
Proof. intros P. apply Permutation_NoDup, Permutation_map, P. Qed.

Lemma strict_sorted_nodup l : StronglySorted addr_slt l -> NoDup (map v_addr l).
Proof.
  induction 1 as [|h t St IH Fh]; cbn [map]; constructor; [|exact IH].
  rewrite in_map_iff. intros (y & E & Hy). rewrite Forall_forall in Fh.
  specialize (Fh y Hy). unfold addr_slt in Fh. lia.
Qed.

Lemma sorted_nodup_strict l :
  StronglySorted addr_le l -> NoDup (map v_addr l) -> StronglySorted addr_slt l.
Proof.
  induction 1 as [|h t St IH Fh]; cbn [map]; intros N; [constructor|].
  inversion N as [|? ? Nh Nt]; subst. constructor; [now apply IH|].
  rewrite Forall_forall in *. intros y Hy. specialize (Fh y Hy).
  assert (v_addr h <> v_addr y) by (intros E; apply Nh; rewrite E; now apply in_map).
  unfold addr_le, addr_slt in *. lia.
Qed.

Lemma sort_addr_sorted l : StronglySorted addr_le (sort_by addr_lt l).
Proof. apply sort_by_sorted; unfold addr_lt, addr_le; intros a b; rewrite ?N.ltb_lt, ?N.ltb_ge; lia. Qed.

Lemma sort_addr_strict l : NoDup (map v_addr l) -> StronglySorted addr_slt (sort_by addr_lt l).
Proof.
  intros N. apply sorted_nodup_strict; [apply sort_addr_sorted|].
  exact (nodup_addr_perm _ _ (Permutation_sym (sort_by_perm _ l)) N).
Qed.

Lemma strict_sorted_perm_eq l1 : forall l2,
  StronglySorted addr_slt l1 -> StronglySorted addr_slt l2 -> Permutation l1 l2 -> l1 = l2.
Proof.
  induction l1 as [|a t1 IH]; intros l2 S1 S2 P.
  - apply Permutation_nil in P. now subst.
  - destruct l2 as [|b t2]; [apply Permutation_sym, Permutation_nil in P; discriminate|].
    inversion S1 as [|? ? St1 F1]; subst. inversion S2 as [|? ? St2 F2]; subst.
    rewrite Forall_forall in F1, F2.
    assert (a = b) as ->.
    { assert (In a (b :: t2)) as Ha by (eapply Permutation_in; [exact P|now left]).
      assert (In b (a :: t1)) as Hb by (eapply Permutation_in; [apply Permutation_sym; exact P|now left]).
      destruct Ha as [Ha|Ha]; [now subst|].
      destruct Hb as [Hb|Hb]; [now subst|].
      specialize (F1 b Hb). specialize (F2 a Ha). unfold addr_slt in *. lia. }
    f_equal. apply IH; try assumption. now apply Permutation_cons_inv in P.
Qed.

Lemma sort_addr_perm_eq l1 l2 :
  Permutation l1 l2 -> NoDup (map v_addr l1) -> sort_by addr_lt l1 = sort_by addr_lt l2.
Proof.
  intros P N. apply strict_sorted_perm_eq.
  - now apply sort_addr_strict.
  - apply sort_addr_strict. exact (nodup_addr_perm _ _ P N).
  - rewrite !sort_by_perm. exact P.
Qed.

(** address 0 is excluded because the scan starts with prevAddr = the zero address and so reports a
    change at address 0 as a duplicate *)
Definition valid_change (c : validator) : Prop :=
  v_addr c <> 0%N /\ 0 <= v_power c <= max_total_voting_power.
Definition valid_changes (cs : list validator) : Prop :=
  NoDup (map v_addr cs) /\ Forall valid_change cs.

Lemma valid_changes_perm cs cs' : Permutation cs cs' -> valid_changes cs -> valid_changes cs'.
Proof.
  intros P [N F]. split.
  - eapply Permutation_NoDup; [apply Permutation_map, P|exact N].
  - eapply Permutation_Forall; eassumption.
Qed.

Lemma scan_err_not_ok l : forall prev, process_scan prev l <> ScanErr UOk.
Proof.
  induction l as [|c t IH]; intros prev; cbn [process_scan]; [discriminate|].
  destruct (N.eqb (v_addr c) prev); [discriminate|].
  destruct (v_power c <? 0); [discriminate|].
  destruct (max_total_voting_power <? v_power c); [discriminate|].
  specialize (IH (v_addr c)). destruct (process_scan (v_addr c) t); [congruence|].
  destruct (v_power c =? 0); discriminate.
Qed.

Lemma scan_ok_strict l : forall prev ups rems,
  StronglySorted addr_le l -> (forall x, In x l -> (prev <= v_addr x)%N) ->
  process_scan prev l = ScanOk ups rems ->
  StronglySorted addr_slt l /\ (forall x, In x l -> (prev < v_addr x)%N) /\
  Forall (fun c => 0 <= v_power c <= max_total_voting_power) l /\
  ups = filter (fun c => negb (v_power c =? 0)) l /\ rems = filter (fun c => v_power c =? 0) l.
Proof.
  induction l as [|c t IH]; intros prev ups rems S Hp H; cbn [process_scan] in H.
  - inversion H; subst. repeat split; try constructor. intros x [].
  - inversion S as [|? ? St Fc]; subst.
    destruct (N.eqb_spec (v_addr c) prev) as [E|NE]; [discriminate|].
    destruct (Z.ltb_spec (v_power c) 0) as [L0|L0]; [discriminate|].
    destruct (Z.ltb_spec max_total_voting_power (v_power c)) as [L1|L1]; [discriminate|].
    destruct (process_scan (v_addr c) t) as [e|ups' rems'] eqn:R; [discriminate|].
    rewrite Forall_forall in Fc.
    destruct (IH (v_addr c) ups' rems' St) as (S' & Hlt & Fp & Eu & Er); [exact Fc|exact R|].
    assert ((prev < v_addr c)%N) as Lc.
    { specialize (Hp c (or_introl eq_refl)). lia. }
    split; [|split; [|split]].
    + constructor; [exact S'|]. rewrite Forall_forall. intros y Hy. apply Hlt, Hy.
    + intros x [<-|Hx]; [exact Lc|]. specialize (Hlt x Hx). lia.
    + constructor; [lia|exact Fp].
    + cbn [filter]. destruct (Z.eqb_spec (v_power c) 0) as [Z0|Z0]; cbn [negb];
        inversion H; subst; split; reflexivity.
Qed.

Lemma scan_valid_ok l : forall prev,
  StronglySorted addr_slt l -> (forall x, In x l -> (prev < v_addr x)%N) ->
  Forall (fun c => 0 <= v_power c <= max_total_voting_power) l ->
  exists ups rems, process_scan prev l = ScanOk ups rems.
Proof.
  induction l as [|c t IH]; intros prev S Hp F; cbn [process_scan]; [eauto|].
  inversion S as [|? ? St Fc]; subst. inversion F as [|? ? Fc0 Ft]; subst.
  rewrite Forall_forall in Fc.
  destruct (N.eqb_spec (v_addr c) prev) as [E|NE].
  { specialize (Hp c (or_introl eq_refl)). lia. }
  destruct (Z.ltb_spec (v_power c) 0) as [L0|L0]; [lia|].
  destruct (Z.ltb_spec max_total_voting_power (v_power c)) as [L1|L1]; [lia|].
  destruct (IH (v_addr c) St Fc Ft) as (u & r & ->).
  destruct (v_power c =? 0); eauto.
Qed.

Lemma process_valid_ok cs : valid_changes cs -> exists ups rems, process_changes cs = ScanOk ups rems.
Proof.
  intros [N F]. pose proof (sort_by_perm addr_lt cs) as P.
  apply scan_valid_ok; [now apply sort_addr_strict| |].
  - intros x Hx. apply (Permutation_in _ P) in Hx. rewrite Forall_forall in F.
    destruct (F x Hx) as [NZ _]. lia.
  - apply (Permutation_Forall (Permutation_sym P)). eapply Forall_impl; [|exact F]. now intros c [_ Hc].
Qed.

Lemma permutation_filter {A} (f : A -> bool) l l' : Permutation l l' -> Permutation (filter f l) (filter f l').
Proof.
  intros P. induction P as [|x l l' P IH|x y l|l l' l'' P1 IH1 P2 IH2]; cbn [filter].
  - constructor.
  - destruct (f x); [now constructor|exact IH].
  - destruct (f x), (f y); try reflexivity. apply perm_swap.
  - now transitivity (filter f l').
Qed.

Lemma filter_split_perm {A} (f : A -> bool) l :
  Permutation (filter (fun x => negb (f x)) l ++ filter f l) l.
Proof.
  induction l as [|h t IH]; [reflexivity|]. cbn [filter].
  destruct (f h); cbn [negb app].
  - apply Permutation_sym. apply Permutation_cons_app. now apply Permutation_sym.
  - now constructor.
Qed.

(** An accepted change set is well formed, and is returned split into its updates (positive
    power) and its removals (power 0), each in address order. *)
Record change_split (cs ups dels : list validator) : Prop := {
  split_valid : valid_changes cs;
  split_ups_sorted : StronglySorted addr_slt ups;
  split_dels_sorted : StronglySorted addr_slt dels;
  split_ups : Permutation ups (filter (fun c => 0 <? v_power c) cs);
  split_dels : Permutation dels (filter (fun c => v_power c =? 0) cs);
  split_all : Permutation (ups ++ dels) cs }.

Lemma process_ok_split cs ups dels : process_changes cs = ScanOk ups dels -> change_split cs ups dels.
Proof.
  unfold process_changes. intros H. pose proof (sort_by_perm addr_lt cs) as P.
  destruct (scan_ok_strict _ 0%N ups dels (sort_addr_sorted cs)) as (S & Hlt & Fp & -> & ->);
    [intros; lia|exact H|].
  rewrite Forall_forall in Fp.
  split; try (now apply filter_sorted); try (now apply permutation_filter).
  - split; [exact (nodup_addr_perm _ _ P (strict_sorted_nodup _ S))|].
    apply Forall_forall. intros c Hc. apply (Permutation_in _ (Permutation_sym P)) in Hc.
    specialize (Hlt c Hc). specialize (Fp c Hc). split; lia.
  - etransitivity; [|apply permutation_filter, P]. erewrite filter_ext_in; [reflexivity|].
    intros c Hc. specialize (Fp c Hc). cbn beta. destruct (Z.eqb_spec (v_power c) 0); lia.
  - now rewrite filter_split_perm.
Qed.

Lemma split_in_ups cs ups dels c : change_split cs ups dels -> In c ups <-> In c cs /\ 0 < v_power c.
Proof.
  intros S. rewrite <- Z.ltb_lt, <- (filter_In (fun c => 0 <? v_power c)).
  split; apply Permutation_in; [|apply Permutation_sym]; apply S.
Qed.

Lemma split_in_dels cs ups dels c : change_split cs ups dels -> In c dels <-> In c cs /\ v_power c = 0.
Proof.
  intros S. rewrite <- Z.eqb_eq, <- (filter_In (fun c => v_power c =? 0)).
  split; apply Permutation_in; [|apply Permutation_sym]; apply S.
Qed.

Lemma split_nodup cs ups dels : change_split cs ups dels -> NoDup (map v_addr (ups ++ dels)).
Proof. intros S. exact (nodup_addr_perm _ _ (Permutation_sym (split_all _ _ _ S)) (proj1 (split_valid _ _ _ S))). Qed.

Lemma split_dels_nodup cs ups dels : change_split cs ups dels -> NoDup (map v_addr dels).
Proof. intros S. pose proof (split_nodup _ _ _ S) as N. rewrite map_app in N. apply (nodup_app _ _ N). Qed.

Lemma split_disjoint cs ups dels a :
  change_split cs ups dels -> In a (map v_addr ups) -> ~ In a (map v_addr dels).
Proof. intros S. pose proof (split_nodup _ _ _ S) as N. rewrite map_app in N. apply (nodup_app _ _ N). Qed.

Lemma process_perm cs cs' ups rems :
  Permutation cs cs' -> process_changes cs = ScanOk ups rems -> process_changes cs' = ScanOk ups rems.
Proof.
  intros P H. destruct (split_valid _ _ _ (process_ok_split _ _ _ H)) as [N _].
  unfold process_changes in *. rewrite <- (sort_addr_perm_eq cs cs' P N). exact H.
Qed.
