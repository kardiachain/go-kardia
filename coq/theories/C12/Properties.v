(** C12 — property theorems only.  Each is closed by [exact] of a lemma proved in Proofs*.v or Source*.v
    and followed by [Print Assumptions]. *)
From Coq Require Import List ZArith NArith Bool Permutation Sorted.
From Kardia Require Import Base.Int64 C12.Model C12.Spec C12.ProofsSort C12.ProofsUpdate C12.ProofsSpec
     C12.ProofsFair C12.ProofsRefine C12.ProofsUpdate2 C12.ProofsUpdate3 C12.ProofsUpdate4 C12.ProofsReport C12.ProofsAnyTimes C12.ProofsChain C12.SourceTie C12.ProofsExamples C12.Open Generated.C12Facts.
Import ListNotations.
Local Open Scope Z_scope.

(** the constants of the source (regenerated on every run) are the ones the proofs use *)
Theorem C12_source_constants :
  max_total_voting_power = Z.quot max_int64 8 /\ priority_window_size_factor = 2 /\
  go_max_int64 = max_int64 /\ go_min_int64 = min_int64 /\ B0 = 3 * 2 ^ 60 /\
  2 * B0 + 2 * max_total_voting_power <= max_int64.
Proof. exact facts_fit. Qed.
Print Assumptions C12_source_constants.

(** UpdateWithChangeSet is all-or-nothing: whenever it returns an error, the set is the one
    that was passed in (at most the zero cache of TotalVotingPower() has been filled) *)
Theorem C12_update_atomic :
  forall s cs allow s' e,
    update_with_change_set s cs allow = Some (s', e) -> e <> UOk ->
    s' = s \/ (vs_total s = 0 /\ update_total s = Some s').
Proof. exact update_atomic. Qed.
Print Assumptions C12_update_atomic.

Theorem C12_update_atomic_observable :
  forall s cs allow s' e,
    update_with_change_set s cs allow = Some (s', e) -> e <> UOk ->
    vs_vals s' = vs_vals s /\ vs_proposer s' = vs_proposer s.
Proof. exact update_atomic_fields. Qed.
Print Assumptions C12_update_atomic_observable.

(** the result does not depend on the order of the change set: permuted change sets give the
    same outcome (same set, same error class, same panic), or both are rejected and leave the
    set as it was (the error class of a set with several defects may differ) *)
Theorem C12_update_order_independent :
  forall s cs cs' allow,
    Permutation cs cs' ->
    update_with_change_set s cs allow = update_with_change_set s cs' allow \/
    (exists e e', update_with_change_set s cs allow = Some (s, e) /\
                  update_with_change_set s cs' allow = Some (s, e') /\ e <> UOk /\ e' <> UOk).
Proof. exact update_perm. Qed.
Print Assumptions C12_update_order_independent.

(** duplicates, the zero address, negative powers and powers above the cap are rejected and
    the set is untouched *)
Theorem C12_update_rejects_malformed :
  forall s cs allow,
    cs <> [] ->
    ~ (NoDup (map v_addr cs) /\
       Forall (fun c => v_addr c <> 0%N /\ 0 <= v_power c <= max_total_voting_power) cs) ->
    exists e, update_with_change_set s cs allow = Some (s, e) /\ e <> UOk.
Proof. exact update_rejects_invalid. Qed.
Print Assumptions C12_update_rejects_malformed.

(** removal of a validator that is not in the set is rejected *)
Theorem C12_update_rejects_unknown_removal :
  forall s cs c,
    valid_changes cs -> In c cs -> v_power c = 0 -> get_by_addr (v_addr c) (vs_vals s) = None ->
    update_with_change_set s cs true = Some (s, UUnknown).
Proof. exact update_rejects_unknown. Qed.
Print Assumptions C12_update_rejects_unknown_removal.

(** a successful update never leaves the set empty *)
Theorem C12_update_never_empties :
  forall s cs allow s',
    cs <> [] -> update_with_change_set s cs allow = Some (s', UOk) -> vs_vals s' <> [].
Proof. exact update_ok_nonempty. Qed.
Print Assumptions C12_update_never_empties.

(** specification level (unbounded integers): after the renormalisation of a call the
    priorities are within a window of 2T, their sum is in [0, n), each is within [-2T, 2T] *)
Theorem C12_window_and_centring_spec :
  forall T l l1 l2,
    0 < T -> l <> [] -> spec_rescale T l l1 -> spec_centre l1 l2 ->
    within_window (2 * T) l2 /\ 0 <= sum_priorities l2 < Z.of_nat (length l2) /\
    (forall v, In v l2 -> - (2 * T) <= v_prio v <= 2 * T).
Proof. exact spec_renormalise. Qed.
Print Assumptions C12_window_and_centring_spec.

(** the int64 code (RescalePriorities as repaired, shiftByAvgProposerPriority) achieves it:
    no panic, no wrap, no clipping, for every set below the cap with priorities within
    3 * 2^60 *)
Theorem C12_window_and_centring :
  forall l T,
    l <> [] -> 0 < T <= max_total_voting_power -> bounded B0 l ->
    exists l1 l2,
      rescale l (wrap64 (priority_window_size_factor * T)) = Some l1 /\ shift_by_avg l1 = Some l2 /\
      spec_rescale T l l1 /\ spec_centre l1 l2 /\
      within_window (2 * T) l2 /\ 0 <= sum_prio l2 < Z.of_nat (length l2) /\ bounded (2 * T) l2 /\
      map v_addr l2 = map v_addr l /\ map v_power l2 = map v_power l.
Proof. exact model_renormalise. Qed.
Print Assumptions C12_window_and_centring.

(** one round of the inner loop keeps the sum of the priorities *)
Theorem C12_round_keeps_sum :
  forall s B s' m,
    wf_set s -> bounded B (vs_vals s) -> 0 <= B -> B + total_power (vs_vals s) <= max_int64 ->
    increment_once s = Some (s', m) -> sum_prio (vs_vals s') = sum_prio (vs_vals s).
Proof. exact increment_once_sum. Qed.
Print Assumptions C12_round_keeps_sum.

(** refinement and absence of overflow for IncrementProposerPriority(times): on a well-formed
    set (non-empty, distinct addresses, positive powers, total <= cap, cache consistent) with
    priorities within B0 = 3 * 2^60 and (times + 2) * T <= B0 (always true for times = 1), the
    int64 code does not panic and computes exactly the specified weighted round-robin over
    unbounded integers; the proposer it records is the proposer of the last round and a member
    of the set; the result is again well-formed and within the bound *)
Theorem C12_increment_refines_spec_no_overflow :
  forall s (times : positive),
    wf_set s -> bounded B0 (vs_vals s) ->
    (Z.pos times + 2) * total_power (vs_vals s) <= B0 ->
    exists s' props a p,
      increment s (Z.pos times) = Some s' /\
      spec_increment (vs_vals s) (Pos.to_nat times) (vs_vals s') props /\
      last props 0%N = a /\ vs_proposer s' = Some (a, p) /\
      (exists m0, In m0 (vs_vals s') /\ v_addr m0 = a /\ v_power m0 = p) /\
      wf_set s' /\ vs_total s' = vs_total s /\
      bounded ((Z.pos times + 2) * total_power (vs_vals s)) (vs_vals s').
Proof. exact increment_refines. Qed.
Print Assumptions C12_increment_refines_spec_no_overflow.

(** the rounds of a call keep the sum of priorities (specification) *)
Theorem C12_rounds_keep_sum_spec :
  forall k l l' props,
    NoDup (map v_addr l) -> spec_rounds k l l' props -> sum_priorities l' = sum_priorities l.
Proof. exact spec_rounds_sum. Qed.
Print Assumptions C12_rounds_keep_sum_spec.

(** share accounting: after k rounds, priority = old priority + k * power - T * (times proposed) *)
Theorem C12_share_accounting :
  forall k l l' props,
    spec_rounds k l l' props ->
    Forall2 (accounted (total_power l) k props) l l' /\ length props = k.
Proof. exact spec_rounds_accounted. Qed.
Print Assumptions C12_share_accounting.

(** proportionality inside a call: |T * count_i - k * p_i| <= 2(n+1)T + n *)
Theorem C12_share_within_call :
  forall l k l' props,
    l <> [] -> NoDup (map v_addr l) -> (forall v, In v l -> 0 < v_power v) ->
    spec_increment l k l' props ->
    forall v, In v l ->
      Z.abs (total_power l * count (v_addr v) props - Z.of_nat k * v_power v)
      <= 2 * (Z.of_nat (length l) + 1) * total_power l + Z.of_nat (length l).
Proof. exact spec_share. Qed.
Print Assumptions C12_share_within_call.

(** no starvation inside a call *)
Theorem C12_no_starvation_within_call :
  forall l k l' props,
    l <> [] -> NoDup (map v_addr l) -> (forall v, In v l -> 0 < v_power v) ->
    spec_increment l k l' props ->
    forall v, In v l ->
      2 * (Z.of_nat (length l) + 1) * total_power l + Z.of_nat (length l) < Z.of_nat k * v_power v ->
      In (v_addr v) props.
Proof. exact spec_no_starvation. Qed.
Print Assumptions C12_no_starvation_within_call.

(** a successful UpdateWithChangeSet on a well-formed set with priorities within B0: no int64
    operation wraps or clips on the way, the result is well-formed again (non-empty, distinct
    addresses, positive powers, total <= cap, cache consistent), keeps the recorded proposer,
    is within the window 2T' of its new total, centred (sum in [0, n)), every priority within
    [-2T', 2T'], and ordered by (power descending, address ascending) *)
Theorem C12_update_preserves_wellformed :
  forall s cs allow s',
    wf_set s -> bounded B0 (vs_vals s) -> cs <> [] ->
    update_with_change_set s cs allow = Some (s', UOk) ->
    wf_set s' /\ vs_proposer s' = vs_proposer s /\
    within_window (2 * total_power (vs_vals s')) (vs_vals s') /\
    0 <= sum_prio (vs_vals s') < Z.of_nat (length (vs_vals s')) /\
    bounded (2 * total_power (vs_vals s')) (vs_vals s') /\
    StronglySorted (fun a b => power_lt b a = false) (vs_vals s').
Proof. exact update_preserves. Qed.
Print Assumptions C12_update_preserves_wellformed.

(** NewValidatorSet (when it does not panic) yields a well-formed set within the bounds whose
    proposer is a member *)
Theorem C12_new_validator_set_wellformed :
  forall vals s,
    vals <> [] -> new_validator_set vals = Some s ->
    wf_set s /\ bounded B0 (vs_vals s) /\
    exists a p, vs_proposer s = Some (a, p) /\
                exists m, In m (vs_vals s) /\ v_addr m = a /\ v_power m = p.
Proof. exact new_validator_set_good. Qed.
Print Assumptions C12_new_validator_set_wellformed.

(** invariant of every history NewValidatorSet / IncrementProposerPriority(times) /
    UpdateWithChangeSet: from a good state (well-formed, priorities within 3 * 2^60) an
    increment with (times + 2) * T <= 3 * 2^60 (always true for times = 1, the only value the
    chain uses per block) does not panic, computes exactly the specified round-robin over
    unbounded integers and ends in a good state; an update that returns an error leaves the
    state untouched, one that succeeds ends in a good, centred state within the window.
    Hence no int64 overflow anywhere in such histories. *)
Theorem C12_no_overflow_history_step :
  forall s o,
    good s -> hop_ok s o ->
    match o with
    | HInc times =>
      exists s' props, increment s (Z.pos times) = Some s' /\ good s' /\
        spec_increment (vs_vals s) (Pos.to_nat times) (vs_vals s') props /\
        exists p, vs_proposer s' = Some (last props 0%N, p)
    | HUpd cs =>
      forall s' e, update_with_change_set s cs true = Some (s', e) ->
        match e with
        | UOk => good s' /\
            (cs <> [] -> within_window (2 * total_power (vs_vals s')) (vs_vals s') /\
                         0 <= sum_prio (vs_vals s') < Z.of_nat (length (vs_vals s')))
        | _ => s' = s
        end
    end.
Proof. exact hop_preserves_good. Qed.
Print Assumptions C12_no_overflow_history_step.

(** UpdateWithChangeSet never panics on a good state (in particular: the total predicted by
    verifyUpdates is the total recomputed after the merge, so updateTotalVotingPower cannot
    find the set above the cap; applyRemovals finds every validator it has to delete; the
    emptiness test is exact) *)
Theorem C12_update_never_panics :
  forall s cs allow, good s -> update_with_change_set s cs allow <> None.
Proof. exact update_no_panic. Qed.
Print Assumptions C12_update_never_panics.

(** whole histories: from a good state (e.g. any NewValidatorSet result, by
    C12_new_validator_set_wellformed), any sequence of UpdateWithChangeSet calls (valid or not)
    and IncrementProposerPriority(times) calls with (times + 2) * cap <= 3 * 2^60 — that is
    times = 1, one call per block as the chain does — runs without panic and without any
    int64 wrap or clip, and ends in a good state *)
Theorem C12_no_overflow_no_panic_histories :
  forall s ops, good s -> Forall times_ok ops -> exists s', run_hops s ops = Some s' /\ good s'.
Proof. exact histories_good. Qed.
Print Assumptions C12_no_overflow_no_panic_histories.

Theorem C12_times_one_ok : times_ok (HInc 1).
Proof. exact times_ok_one. Qed.
Print Assumptions C12_times_one_ok.

(** refinement of the change-set step: a successful UpdateWithChangeSet on a good state yields
    exactly what the declarative specification prescribes — the change set is valid (distinct
    addresses, powers in 0..cap, removals only of members); the membership is the old members
    not mentioned plus every entry with positive power, old members keep their priority,
    newcomers start at -(T' + T'/8) with T' the total after the updates and before the
    removals; result non-empty, total <= cap; then window and centring for the new total;
    kept in (power descending, address ascending) order *)
Theorem C12_update_refines_spec :
  forall s cs allow s',
    good s -> cs <> [] -> update_with_change_set s cs allow = Some (s', UOk) ->
    spec_update max_total_voting_power (vs_vals s) cs (vs_vals s').
Proof. exact update_refines_spec. Qed.
Print Assumptions C12_update_refines_spec.

(** completeness of the validation: a change set with distinct non-zero addresses, powers in
    0..cap, removals only of members, whose resulting total (updates applied, removals
    subtracted) is at most the cap and whose result is not empty (a newcomer, or a member that
    is not removed) is accepted.  Together with the rejection theorems: the rejected change sets
    are exactly the ones outside this description (the zero-address rule of processChanges is part of it;
    Spec.spec_valid_changes does not know that rule). *)
Theorem C12_update_accepts_valid :
  forall s cs,
    good s -> cs <> [] -> valid_changes cs ->
    (forall c, In c cs -> v_power c = 0 -> get_by_addr (v_addr c) (vs_vals s) <> None) ->
    total_after_updates (vs_vals s) cs - lsum (vs_vals s) (filter (fun c => v_power c =? 0) cs)
      <= max_total_voting_power ->
    ((exists c, In c cs /\ 0 < v_power c /\ get_by_addr (v_addr c) (vs_vals s) = None) \/
     (exists v, In v (vs_vals s) /\ ~ In (v_addr v) (map v_addr (filter (fun c => v_power c =? 0) cs)))) ->
    exists s', update_with_change_set s cs true = Some (s', UOk).
Proof. exact update_accepts_valid. Qed.
Print Assumptions C12_update_accepts_valid.

(** what holds right after a round (the window 2T is a property of the renormalisation point,
    not of every intermediate state): from a window W the next state is within
    max (W + pmax - pmin, T) *)
Theorem C12_window_after_round_spec :
  forall W pmin pmax l l' a,
    NoDup (map v_addr l) -> (forall v, In v l -> pmin <= v_power v <= pmax) ->
    0 <= total_power l -> within_window W l -> spec_round l l' a ->
    within_window (Z.max (W + pmax - pmin) (total_power l)) l'.
Proof. exact spec_round_window. Qed.
Print Assumptions C12_window_after_round_spec.

(** verifyUpdates: the verdict depends only on the final total (updates applied, removals
    subtracted) — accepted iff it is at most the cap, whatever the order of the change set —
    and the value returned is the exact total before removals *)
Theorem C12_verify_updates_decides :
  forall vals ups dels,
    NoDup (map v_addr (ups ++ dels)) ->
    (forall v, In v vals -> 0 < v_power v) -> total_power vals <= max_total_voting_power ->
    (forall u, In u ups -> 0 < v_power u <= max_total_voting_power) ->
    let T := total_power vals in
    let removed := lsum vals dels in
    verify_updates ups vals T removed =
      (if T - removed + dsum vals ups <=? max_total_voting_power then Some (T + dsum vals ups) else None).
Proof. exact verify_updates_decides. Qed.
Print Assumptions C12_verify_updates_decides.

(** ... and no intermediate wrap: because the deltas are added in ascending order and checked
    after every step, each running total of an accepted change set lies in [0, cap] (it can
    never pass 2^63 and come back into range, however many near-cap entries there are) *)
Theorem C12_verify_updates_running_totals :
  forall vals us acc r,
    (forall v, In v vals -> 0 < v_power v <= max_total_voting_power) ->
    (forall u, In u us -> 0 <= v_power u <= max_total_voting_power) ->
    lsum vals us <= acc <= max_total_voting_power ->
    add_deltas vals us acc = Some r ->
    Forall (fun x => 0 <= x <= max_total_voting_power) (running vals us acc).
Proof. exact add_deltas_running. Qed.
Print Assumptions C12_verify_updates_running_totals.

(** the path from the application's validator report to the set (calculateValidatorSetUpdates
    + updateState): a report with an address twice, a negative power, a power above the cap, or
    power 0 for an address that is not a member is rejected as a whole — error, state unchanged *)
Theorem C12_report_invalid_rejected :
  forall s report,
    good s -> report_invalid (vs_vals s) report ->
    exists e, e <> UOk /\ apply_report s report = Some (s, e).
Proof. exact report_invalid_rejected. Qed.
Print Assumptions C12_report_invalid_rejected.

Theorem C12_report_accepted_keeps_good :
  forall s report s', good s -> apply_report s report = Some (s', UOk) -> good s'.
Proof. exact report_ok_good. Qed.
Print Assumptions C12_report_accepted_keeps_good.

(** the change set that calculateValidatorSetUpdates derives from a report (no repeated address)
    over a set with distinct addresses is exactly: the report's entries that are not members or
    whose power differs from the member's (power 0 included), plus a removal for every member the
    report leaves out — nothing the report says about a non-member is dropped on the way *)
Theorem C12_report_change_set_exact :
  forall last report c,
    report <> [] -> NoDup (map v_addr report) -> NoDup (map v_addr last) ->
    (In c (calculate_updates last report) <->
     (In c report /\ forall o, get_by_addr (v_addr c) last = Some o -> v_power o <> v_power c) \/
     (exists o, In o last /\ ~ In (v_addr o) (map v_addr report) /\ c = removal_of o)).
Proof. exact calculate_updates_exact. Qed.
Print Assumptions C12_report_change_set_exact.

Theorem C12_report_keeps_unknown_removal :
  forall last report c,
    NoDup (map v_addr report) -> NoDup (map v_addr last) ->
    In c report -> v_power c = 0 -> get_by_addr (v_addr c) last = None ->
    In c (calculate_updates last report).
Proof. exact calculate_updates_keeps_unknown_removal. Qed.
Print Assumptions C12_report_keeps_unknown_removal.

(** the cstate path never panics on a good set, and an accepted report refines the
    specification: the new NextValidators is the specified update by the derived change set (or
    the set itself when nothing changed) followed by one round of the specified round-robin,
    whose proposer is the one recorded *)
Theorem C12_report_refines_spec :
  (forall s report, good s -> apply_report s report <> None) /\
  forall s report s',
    good s -> apply_report s report = Some (s', UOk) ->
    let cs := calculate_updates (vs_vals s) report in
    exists mid props p,
      ((cs = [] /\ mid = vs_vals s) \/ (cs <> [] /\ spec_update max_total_voting_power (vs_vals s) cs mid)) /\
      spec_increment mid 1 (vs_vals s') props /\
      vs_proposer s' = Some (last props 0%N, p).
Proof. exact (conj report_no_panic report_refines_spec). Qed.
Print Assumptions C12_report_refines_spec.

(** updateState on the whole LatestBlockState is all-or-nothing: an error returns the state
    that was passed in (all three validator sets, both heights) *)
Theorem C12_block_atomic :
  forall st report st' e,
    apply_block st report = Some (st', e) -> e <> UOk -> st' = st.
Proof. exact block_atomic. Qed.
Print Assumptions C12_block_atomic.

(** the pipeline of validator sets: after an accepted block the set in force (Validators) is the
    previous NextValidators, LastValidators is the previous Validators, NextValidators is the
    report applied to the previous NextValidators; the height advances by one and
    LastHeightValidatorsChanged becomes height + 2 exactly when the report changed something *)
Theorem C12_block_pipeline :
  forall st report st',
    apply_block st report = Some (st', UOk) ->
    ch_cur st' = ch_next st /\ ch_last st' = ch_cur st /\
    apply_report (ch_next st) report = Some (ch_next st', UOk) /\
    ch_height st' = wrapu64 (ch_height st + 1) /\
    ch_changed st' = match calculate_updates (vs_vals (ch_next st)) report with
                     | [] => ch_changed st
                     | _ => wrapu64 (ch_height st' + 2)
                     end.
Proof. exact block_pipeline. Qed.
Print Assumptions C12_block_pipeline.

Theorem C12_block_pipeline_lag :
  forall st r1 r2 st1 st2,
    apply_block st r1 = Some (st1, UOk) -> apply_block st1 r2 = Some (st2, UOk) ->
    ch_cur st1 = ch_next st /\ ch_cur st2 = ch_next st1 /\ ch_last st2 = ch_next st.
Proof. exact pipeline_lag. Qed.
Print Assumptions C12_block_pipeline_lag.

(** histories of blocks: the genesis arrangement over a good set exists and is a good state;
    from a good state a block, and hence any sequence of validator reports, valid or not, runs
    without panic — so without any int64 wrap or clip — and every state on the way has good
    Validators and NextValidators *)
Theorem C12_block_histories_good :
  (forall s, good s -> exists c, chain_genesis s = Some c /\ chain_good c) /\
  (forall st report,
    chain_good st -> exists st' e, apply_block st report = Some (st', e) /\ chain_good st') /\
  (forall st reports,
    chain_good st -> exists st', run_blocks st reports = Some st' /\ chain_good st').
Proof. exact (conj genesis_exists_good (conj block_good blocks_good)). Qed.
Print Assumptions C12_block_histories_good.

(** the proposer of round k of a height, CopyIncrementProposerPriority(k).GetProposer() on the
    height's set, is the proposer of the k-th round of the specified round-robin from that set,
    and a member of it (side condition of the overflow proof; always true for k = 1) *)
Theorem C12_round_proposer_refines_spec :
  forall s (k : positive),
    good s -> (Z.pos k + 2) * total_power (vs_vals s) <= B0 ->
    exists l' props,
      spec_increment (vs_vals s) (Pos.to_nat k) l' props /\
      proposer_at s (Z.pos k) = Some (last props 0%N) /\
      In (last props 0%N) (map v_addr (vs_vals s)).
Proof. exact proposer_at_refines_spec. Qed.
Print Assumptions C12_round_proposer_refines_spec.

(** IncrementProposerPriority(times) for ANY number of rounds (partial answer to
    Open.C12_no_overflow_any_times_statement: the side condition does not mention [times], it
    bounds the number of validators times the total power, n + (2n + 1) T <= 3 * 2^60, e.g. 100
    validators with a total up to 2^53): no panic, no int64 wrap or clip, exactly the specified
    round-robin, and the priorities stay within n + 2nT however many rounds are run.
    Missing for the full statement: a bound on the priorities that does not grow with n. *)
Theorem C12_increment_any_times_partial :
  forall s (times : positive),
    wf_set s -> bounded B0 (vs_vals s) ->
    round_bound (vs_vals s) + total_power (vs_vals s) <= B0 ->
    exists s' props a p,
      increment s (Z.pos times) = Some s' /\
      spec_increment (vs_vals s) (Pos.to_nat times) (vs_vals s') props /\
      last props 0%N = a /\ vs_proposer s' = Some (a, p) /\
      (exists m0, In m0 (vs_vals s') /\ v_addr m0 = a /\ v_power m0 = p) /\
      wf_set s' /\ vs_total s' = vs_total s /\
      bounded (round_bound (vs_vals s)) (vs_vals s') /\ bounded B0 (vs_vals s').
Proof. exact increment_refines_any_times. Qed.
Print Assumptions C12_increment_any_times_partial.

(** source tie: the model's safe arithmetic, cap tests, window test, newcomer priority, delta and
    running-total arithmetic, per-entry power checks, comparison orders, the report's
    "!found || oldPower != val.VotingPower" test and updateState's bookkeeping ARE the expressions
    that /verif/go2coq regenerates from the Go sources into Generated/C12Source.v on every check
    (statement in C12/SourceTie.v) *)
Theorem C12_source_tie : C12_source_tie_statement.
Proof. exact C12_source_tie_proof. Qed.
Print Assumptions C12_source_tie.

(** The decision-critical functions of the anchored code have exactly the decisions the source tie knows about
    (go2coq manifests, regenerated from /repo on every check; statement in SourceManifest.v). *)
From Kardia Require Import C12.SourceManifest.
Theorem C12_source_manifest : C12_source_manifest_statement.
Proof. exact C12_source_manifest_proof. Qed.
Print Assumptions C12_source_manifest.
