(** C12 — updateWithChangeSet: atomicity on error, order independence, rejections,
    shape of the successful path. *)
From Coq Require Import List ZArith NArith Bool Lia Permutation.
From Kardia Require Import Base.Int64 C12.Model C12.ProofsSort C12.ProofsSpec Generated.C12Facts.
Import ListNotations.
Local Open Scope Z_scope.

(** case analysis on the scrutinee of a [match] in [H] *)
Ltac break_in H :=
  match type of H with
  | context [match ?x with _ => _ end] => destruct x eqn:?
  end.

Lemma total_voting_power_cases s s0 t :
  total_voting_power s = Some (s0, t) ->
  (s0 = s /\ t = vs_total s /\ vs_total s <> 0) \/
  (vs_total s = 0 /\ update_total s = Some s0 /\ t = vs_total s0).
Proof.
  unfold total_voting_power. destruct (Z.eqb_spec (vs_total s) 0) as [E|E].
  - destruct (update_total s) as [s1|] eqn:U; [|discriminate].
    intros H; inversion H; subst. right. auto.
  - intros H; inversion H; subst. left. auto.
Qed.

Lemma update_total_fields s s' : update_total s = Some s' ->
  vs_vals s' = vs_vals s /\ vs_proposer s' = vs_proposer s /\ sum_clip (vs_vals s) 0 = Some (vs_total s').
Proof.
  unfold update_total. destruct (sum_clip (vs_vals s) 0) eqn:E; [|discriminate].
  intros H; inversion H; subst. cbn. auto.
Qed.

Lemma total_voting_power_fields s s0 t :
  total_voting_power s = Some (s0, t) -> vs_vals s0 = vs_vals s /\ vs_proposer s0 = vs_proposer s /\ t = vs_total s0.
Proof.
  intros H. destruct (total_voting_power_cases _ _ _ H) as [(-> & -> & _)|(_ & U & ->)]; [auto|].
  destruct (update_total_fields _ _ U) as (A & B & _). auto.
Qed.

(** On every error return the set is the one the caller passed, except that
    [TotalVotingPower()] may have filled a zero cache (which no accessor can tell apart). *)
Lemma update_atomic s cs b s' e :
  update_with_change_set s cs b = Some (s', e) -> e <> UOk ->
  s' = s \/ (vs_total s = 0 /\ update_total s = Some s').
Proof.
  unfold update_with_change_set. intros H NE.
  destruct cs as [|c0 cs0]; [inversion H; subst; congruence|].
  (* every early return hands back [s], or the [s0] that TotalVotingPower() returned for [s] *)
  repeat (break_in H; try discriminate);
    try (inversion H; subst; auto; fail);
    try (inversion H; subst;
         match goal with Ht : total_voting_power s = Some _ |- _ =>
           destruct (total_voting_power_cases _ _ _ Ht) as [(-> & _)|(Z0 & U & _)]; auto end; fail).
  all: inversion H; subst; congruence.
Qed.

Lemma update_atomic_fields s cs b s' e :
  update_with_change_set s cs b = Some (s', e) -> e <> UOk ->
  vs_vals s' = vs_vals s /\ vs_proposer s' = vs_proposer s.
Proof.
  intros H NE. destruct (update_atomic _ _ _ _ _ H NE) as [->|(_ & U)]; [auto|].
  destruct (update_total_fields _ _ U) as (A & B & _). auto.
Qed.

Lemma update_scan_err s cs b e :
  cs <> [] -> process_changes cs = ScanErr e -> update_with_change_set s cs b = Some (s, e) /\ e <> UOk.
Proof.
  intros NE E. unfold update_with_change_set. destruct cs; [congruence|]. rewrite E.
  split; [reflexivity|]. intros ->. now apply scan_err_not_ok in E.
Qed.

(** the second case: with a defective change set (say a repeated address) the sort may bring another
    defect first, so only the fact of rejection is independent of the order, not the error class *)
Lemma update_perm s cs cs' b :
  Permutation cs cs' ->
  update_with_change_set s cs b = update_with_change_set s cs' b \/
  (exists e e', update_with_change_set s cs b = Some (s, e) /\
                update_with_change_set s cs' b = Some (s, e') /\ e <> UOk /\ e' <> UOk).
Proof.
  intros P.
  destruct cs as [|c t].
  { apply Permutation_nil in P. subst. now left. }
  destruct cs' as [|c' t'].
  { apply Permutation_sym, Permutation_nil in P. discriminate. }
  destruct (process_changes (c :: t)) as [e|ups rems] eqn:E.
  - destruct (process_changes (c' :: t')) as [e'|ups' rems'] eqn:E'.
    + right. exists e, e'.
      destruct (update_scan_err s (c :: t) b e ltac:(discriminate) E), (update_scan_err s (c' :: t') b e' ltac:(discriminate) E').
      auto.
    + apply (process_perm _ _ _ _ (Permutation_sym P)) in E'. congruence.
  - left. unfold update_with_change_set. now rewrite E, (process_perm _ _ _ _ P E).
Qed.

Lemma update_rejects_invalid s cs b :
  cs <> [] -> ~ valid_changes cs ->
  exists e, update_with_change_set s cs b = Some (s, e) /\ e <> UOk.
Proof.
  intros NE NV. destruct (process_changes cs) as [e|ups rems] eqn:E.
  - exists e. now apply update_scan_err.
  - exfalso. apply NV. exact (split_valid _ _ _ (process_ok_split _ _ _ E)).
Qed.

Lemma removed_power_unknown dels vals : forall acc d,
  In d dels -> get_by_addr (v_addr d) vals = None -> snd (removed_power dels vals acc) = false.
Proof.
  induction dels as [|x t IH]; intros acc d Hd Hn; [destruct Hd|].
  cbn [removed_power]. destruct (get_by_addr (v_addr x) vals) eqn:G; [|reflexivity].
  destruct Hd as [->|Hd]; [congruence|]. eapply IH; eassumption.
Qed.

Lemma update_rejects_unknown s cs c :
  valid_changes cs -> In c cs -> v_power c = 0 -> get_by_addr (v_addr c) (vs_vals s) = None ->
  update_with_change_set s cs true = Some (s, UUnknown).
Proof.
  intros V Hc P0 G.
  destruct (process_valid_ok cs V) as (ups & rems & E).
  assert (In c rems) as Hr by (apply (split_in_dels cs ups); [now apply process_ok_split|now split]).
  unfold update_with_change_set. destruct cs as [|c0 t]; [destruct Hc|].
  rewrite E. cbn [negb andb].
  unfold verify_removals.
  pose proof (removed_power_unknown rems (vs_vals s) 0 c Hr G) as F.
  destruct (removed_power rems (vs_vals s) 0) as [p ok]. cbn in F. subst ok. reflexivity.
Qed.

(** The raw trace of a successful call on an ARBITRARY set (what [update_ok_nonempty] needs, which has
    no hypothesis on [s]); on updatable sets ProofsUpdate3.update_ok_cases says what the values are. *)
Inductive update_path (s : vset) (cs : list validator) (s' : vset) : Prop :=
| UpdatePath (ups dels : list validator) (removed : Z) (s0 : vset) (total tvp : Z)
    (l2 : list validator) (s1 s2 : vset) (t2 : Z) (l3 l4 : list validator)
    (Hprocess : process_changes cs = ScanOk ups dels)
    (Hverify_rem : verify_removals dels (vs_vals s) = Some (removed, true))
    (Htot : total_voting_power s = Some (s0, total))
    (Hverify_upd : verify_updates ups (vs_vals s0) total removed = Some tvp)
    (Hnonempty : (Nat.eqb (num_new ups (vs_vals s0)) 0 && Nat.eqb (length (vs_vals s0)) (length dels)) = false)
    (Happly : apply_removals (apply_updates (vs_vals s0) (new_priorities ups (vs_vals s0) tvp)) dels = Some l2)
    (Hl2_ne : l2 <> [])
    (Hupd_total : update_total (with_vals s0 l2) = Some s1)
    (Htot2 : total_voting_power s1 = Some (s2, t2))
    (Hrescale : rescale (vs_vals s2) (wrap64 (priority_window_size_factor * t2)) = Some l3)
    (Hshift : shift_by_avg l3 = Some l4)
    (Hresult : s' = with_vals s2 (sort_by power_lt l4)).

Ltac destruct_path P :=
  destruct P as [ups dels removed s0 total tvp l2 s1 s2 t2 l3 l4 Hprocess Hverify_rem Htot
                 Hverify_upd Hnonempty Happly Hl2_ne Hupd_total Htot2 Hrescale Hshift Hresult].

Lemma update_ok_path s cs b s' :
  cs <> [] -> update_with_change_set s cs b = Some (s', UOk) -> update_path s cs s'.
Proof.
  intros NE H. unfold update_with_change_set in H.
  destruct cs as [|c0 cs0]; [congruence|].
  repeat (break_in H; try discriminate); try (inversion H; fail).
  all: inversion H; subst; clear H.
  all: try (exfalso; unfold process_changes in *; eapply scan_err_not_ok; eassumption).
  all: econstructor; try eassumption; try reflexivity; try discriminate.
Qed.

Lemma rescale_members l d l' : rescale l d = Some l' -> same_members l l'.
Proof.
  unfold rescale. intros H. repeat (break_in H; try discriminate); inversion H; subst.
  all: first [apply same_members_refl|apply same_members_set_prio].
Qed.

Lemma shift_members l l' : shift_by_avg l = Some l' -> same_members l l'.
Proof.
  unfold shift_by_avg. intros H. break_in H; [|discriminate]. inversion H; subst.
  apply same_members_set_prio.
Qed.

Lemma update_ok_nonempty s cs b s' :
  cs <> [] -> update_with_change_set s cs b = Some (s', UOk) -> vs_vals s' <> [].
Proof.
  intros NE H. pose proof (update_ok_path _ _ _ _ NE H) as P. destruct_path P.
  subst s'. cbn [with_vals vs_vals]. intros E.
  pose proof (sort_by_perm power_lt l4) as P4. rewrite E in P4. apply Permutation_nil in P4. subst l4.
  destruct (total_voting_power_fields _ _ _ Htot2) as (V2 & _).
  destruct (update_total_fields _ _ Hupd_total) as (V1 & _).
  rewrite V2, V1 in Hrescale. cbn [with_vals vs_vals] in Hrescale.
  pose proof (same_members_trans _ _ _ (rescale_members _ _ _ Hrescale) (shift_members _ _ Hshift)) as M.
  exact (same_members_nil _ _ M Hl2_ne eq_refl).
Qed.
