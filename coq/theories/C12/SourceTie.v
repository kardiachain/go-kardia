(** C12 — tie of the model's arithmetic and guards to the Go SOURCE.
    [Generated/C12Source.v] is produced on every check by /verif/go2coq from /repo's working tree:
    the bodies of safeAdd/safeSub/safeAddClip/safeSubClip, the constants MaxTotalVotingPower and
    PriorityWindowSizeFactor, and every guard / integer expression (in the translator's subset) of
    ValidatorSet.IncrementProposerPriority, RescalePriorities, incrementProposerPriority,
    computeMaxMinPriorityDiff, updateTotalVotingPower, TotalVotingPower, processChanges,
    verifyUpdates, verifyRemovals, computeNewPriorities, numNewValidators, updateWithChangeSet,
    applyUpdates, Validator.CompareProposerPriority, ValidatorsByVotingPower.Less,
    ValidatorsByAddress.Less (types) and calculateValidatorSetUpdates / updateState (cstate), as
    Gallina over [Z] with explicit int64/uint64 wraps (Base/GoSem.v).

    The lemmas below state that the hand-written model of C12/Model.v computes exactly those
    expressions on exactly those operands: wherever possible as an equality between a definition of
    the model and the same function written with the SOURCE expressions ([.._src] below), otherwise
    guard by guard; the [_atoms] lists (the Go operands) are recorded by [reflexivity].  An edit of
    the Go source that changes a comparison, a constant, an operand or the text of one of these
    guards changes the generated file and re-opens these obligations. *)
From Coq Require Import List ZArith NArith Bool Lia String.
From Kardia Require Import Base.Int64 Base.ListX Base.GoSem Base.Conj.
From Kardia Require Import Generated.C12Source.
From Kardia Require Import Generated.C12Facts C12.Model.
Import ListNotations.
Local Open Scope Z_scope.

(** ** safe arithmetic: the model's literal transcriptions ARE the source functions (all operands) *)

Lemma src_safe_add a b : types__safeAdd a b = safe_add a b.
Proof. unfold types__safeAdd, safe_add, go_add, go_sub. rewrite !Z.gtb_ltb. reflexivity. Qed.
Lemma src_safe_sub a b : types__safeSub a b = safe_sub a b.
Proof. unfold types__safeSub, safe_sub, go_add, go_sub. rewrite !Z.gtb_ltb. reflexivity. Qed.
Lemma src_safe_add_clip a b : types__safeAddClip a b = safe_add_clip' a b.
Proof. unfold types__safeAddClip, safe_add_clip'. rewrite src_safe_add. reflexivity. Qed.
Lemma src_safe_sub_clip a b : types__safeSubClip a b = safe_sub_clip' a b.
Proof. unfold types__safeSubClip, safe_sub_clip'. rewrite src_safe_sub, Z.gtb_ltb. reflexivity. Qed.

(** the constants the facts translator prints are the ones the type checker evaluates *)
Lemma src_consts :
  types__MaxTotalVotingPower = max_total_voting_power /\ types__PriorityWindowSizeFactor = priority_window_size_factor.
Proof. split; reflexivity. Qed.

(** ** updateTotalVotingPower / TotalVotingPower *)

Fixpoint sum_clip_src (l : list validator) (sum : Z) : option Z :=
  match l with
  | [] => Some sum
  | v :: t =>
    let sum' := types__safeAddClip sum (v_power v) in
    if types__ValidatorSet_updateTotalVotingPower__if_sum_gt_MaxTotalVotingPower sum' then None else sum_clip_src t sum'
  end.
Lemma src_sum_clip_atoms :
  types__ValidatorSet_updateTotalVotingPower__if_sum_gt_MaxTotalVotingPower_atoms = ["sum : int64"]%string.
Proof. reflexivity. Qed.

(** the cache is recomputed exactly when it is 0 *)
Lemma src_total_cache s :
  total_voting_power s =
  if types__ValidatorSet_TotalVotingPower__if_vs_totalVotingPower_eq_0 (vs_total s)
  then match update_total s with None => None | Some s' => Some (s', vs_total s') end
  else Some (s, vs_total s).
Proof. reflexivity. Qed.
Lemma src_total_cache_atoms :
  types__ValidatorSet_TotalVotingPower__if_vs_totalVotingPower_eq_0_atoms = ["vs.totalVotingPower : int64"]%string.
Proof. reflexivity. Qed.

(** ** IncrementProposerPriority, RescalePriorities, computeMaxMinPriorityDiff, incrementProposerPriority *)

Lemma src_times_guard_atoms :
  types__ValidatorSet_IncrementProposerPriority__if_times_le_0_atoms = ["times : int64"]%string.
Proof. reflexivity. Qed.

Lemma src_diff_max_atoms :
  types__ValidatorSet_IncrementProposerPriority__set_diffMax_atoms = ["vs.TotalVotingPower() : int64"]%string.
Proof. reflexivity. Qed.

Lemma src_rescale_atoms :
  types__ValidatorSet_RescalePriorities__if_diffMax_le_0_atoms = ["diffMax : int64"]%string /\
  types__ValidatorSet_RescalePriorities__if_diff_gt_diffMax_atoms = ["diff : int64"; "diffMax : int64"]%string.
Proof. split; reflexivity. Qed.

(** computeMaxMinPriorityDiff: the two running comparisons, the int64 difference, its sign test
    and the negation "-1 * diff" *)
Fixpoint max_min_src (l : list validator) (mx mn : Z) : Z * Z :=
  match l with
  | [] => (mx, mn)
  | v :: t =>
    let mn' := if types__computeMaxMinPriorityDiff__if_v_ProposerPriority_lt_min (v_prio v) mn then v_prio v else mn in
    let mx' := if types__computeMaxMinPriorityDiff__if_v_ProposerPriority_gt_max (v_prio v) mx then v_prio v else mx in
    max_min_src t mx' mn'
  end.
Lemma src_max_min_atoms :
  types__computeMaxMinPriorityDiff__if_v_ProposerPriority_lt_min_atoms = ["v.ProposerPriority : int64"; "min : int64"]%string /\
  types__computeMaxMinPriorityDiff__if_v_ProposerPriority_gt_max_atoms = ["v.ProposerPriority : int64"; "max : int64"]%string /\
  types__computeMaxMinPriorityDiff__set_diff_atoms = ["max : int64"; "min : int64"]%string /\
  types__computeMaxMinPriorityDiff__if_diff_lt_0_atoms = ["diff : int64"]%string /\
  types__computeMaxMinPriorityDiff__ret_minus_1_mul_diff_atoms = ["diff : int64"]%string.
Proof. repeat split; reflexivity. Qed.

(** one round: every priority advances by the validator's power (unchecked int64 addition), the
    winner pays the total through safeSubClip *)
Lemma src_increment_once s :
  increment_once s =
  let l1 := map (fun v => set_prio v (types__ValidatorSet_incrementProposerPriority__set_newPriority (v_prio v) (v_power v))) (vs_vals s) in
  match most_priority l1 with
  | None => None
  | Some (i, m) =>
    match total_voting_power (with_vals s l1) with
    | None => None
    | Some (s1, t) =>
      let m' := set_prio m (types__safeSubClip (v_prio m) t) in
      Some (with_vals s1 (set_nth i m' l1), m')
    end
  end.
Proof.
  unfold increment_once. cbn zeta.
  change (fun v => set_prio v (types__ValidatorSet_incrementProposerPriority__set_newPriority (v_prio v) (v_power v)))
    with (fun v => set_prio v (wrap64 (v_prio v + v_power v))).
  destruct (most_priority _) as [[i m]|]; [|reflexivity].
  destruct (total_voting_power _) as [[s1 t]|]; [|reflexivity].
  rewrite src_safe_sub_clip. reflexivity.
Qed.
Lemma src_increment_once_atoms :
  types__ValidatorSet_incrementProposerPriority__set_newPriority_atoms = ["val.ProposerPriority : int64"; "val.VotingPower : int64"]%string.
Proof. reflexivity. Qed.

(** ** Validator.CompareProposerPriority and the two sort orders *)

(** bytes.Compare on the 20-byte big-endian addresses, as the model reads them *)
Definition bytes_compare (a b : N) : Z :=
  match N.compare a b with Lt => -1 | Eq => 0 | Gt => 1 end.
Lemma bytes_compare_lt a b : (bytes_compare a b <? 0) = N.ltb a b.
Proof. unfold bytes_compare, N.ltb. destruct (N.compare a b); reflexivity. Qed.
Lemma bytes_compare_gt a b : (bytes_compare a b >? 0) = N.ltb b a.
Proof. unfold bytes_compare, N.ltb. rewrite (N.compare_antisym a b). destruct (N.compare a b); reflexivity. Qed.
Lemma bytes_compare_m1 a b : (bytes_compare a b =? -1) = N.ltb a b.
Proof. unfold bytes_compare, N.ltb. destruct (N.compare a b); reflexivity. Qed.

Lemma src_compare_prio_atoms :
  types__Validator_CompareProposerPriority__case_v_ProposerPriority_gt_other_ProposerPriority_atoms = ["v.ProposerPriority : int64"; "other.ProposerPriority : int64"]%string /\
  types__Validator_CompareProposerPriority__case_v_ProposerPriority_lt_other_ProposerPriority_atoms = ["v.ProposerPriority : int64"; "other.ProposerPriority : int64"]%string /\
  types__Validator_CompareProposerPriority__case_result_lt_0_atoms = ["result : int"]%string /\
  types__Validator_CompareProposerPriority__case_result_gt_0_atoms = ["result : int"]%string.
Proof. repeat split; reflexivity. Qed.

Lemma src_power_lt_atoms :
  types__ValidatorsByVotingPower_Less__if_valz_at_i__VotingPower_eq_valz_at_j__VotingPower_atoms = ["valz[i].VotingPower : int64"; "valz[j].VotingPower : int64"]%string /\
  types__ValidatorsByVotingPower_Less__ret_valz_at_i__VotingPower_gt_valz_at_j__VotingPower_atoms = ["valz[i].VotingPower : int64"; "valz[j].VotingPower : int64"]%string.
Proof. split; reflexivity. Qed.

(** ValidatorsByAddress.Less *)
Lemma src_addr_lt a b :
  addr_lt a b = types__ValidatorsByAddress_Less__ret_bytes_Compare_vals_at_i__Address_Bytes_vals_at_j__Address_By_71373ed1 (bytes_compare (v_addr a) (v_addr b)).
Proof.
  unfold addr_lt, types__ValidatorsByAddress_Less__ret_bytes_Compare_vals_at_i__Address_Bytes_vals_at_j__Address_By_71373ed1.
  now rewrite bytes_compare_m1.
Qed.

(** applyUpdates: "existing[0] < updates[0]" keeps the existing validator *)
Lemma src_merge_guard e u :
  N.ltb (v_addr e) (v_addr u) =
  types__ValidatorSet_applyUpdates__if_bytes_Compare_existing_at_0__Address_Bytes_updates_at_0__Add_01f06aa7 (bytes_compare (v_addr e) (v_addr u)).
Proof.
  unfold types__ValidatorSet_applyUpdates__if_bytes_Compare_existing_at_0__Address_Bytes_updates_at_0__Add_01f06aa7.
  now rewrite bytes_compare_lt.
Qed.

(** ** processChanges: the per-entry checks, in the order of the source's switch *)

Fixpoint process_scan_src (prev : N) (chs : list validator) : scan_res :=
  match chs with
  | [] => ScanOk [] []
  | c :: t =>
    if N.eqb (v_addr c) prev then ScanErr UDup
    else if types__processChanges__case_valUpdate_VotingPower_lt_0 (v_power c) then ScanErr UNegative
    else if types__processChanges__case_valUpdate_VotingPower_gt_MaxTotalVotingPower (v_power c) then ScanErr UTooBig
    else match process_scan_src (v_addr c) t with
         | ScanErr e => ScanErr e
         | ScanOk ups rems =>
           if types__processChanges__case_valUpdate_VotingPower_eq_0 (v_power c) then ScanOk ups (c :: rems) else ScanOk (c :: ups) rems
         end
  end.
Lemma src_process_atoms :
  types__processChanges__case_valUpdate_VotingPower_lt_0_atoms = ["valUpdate.VotingPower : int64"]%string /\
  types__processChanges__case_valUpdate_VotingPower_gt_MaxTotalVotingPower_atoms = ["valUpdate.VotingPower : int64"]%string /\
  types__processChanges__case_valUpdate_VotingPower_eq_0_atoms = ["valUpdate.VotingPower : int64"]%string.
Proof. repeat split; reflexivity. Qed.

(** ** verifyRemovals *)

Fixpoint removed_power_src (dels vals : list validator) (acc : Z) : Z * bool :=
  match dels with
  | [] => (acc, true)
  | d :: t =>
    match get_by_addr (v_addr d) vals with
    | None => (acc, false)
    | Some v => removed_power_src t vals (types__verifyRemovals__set_removedVotingPower_op acc (v_power v))
    end
  end.
Lemma src_more_deletes (vals dels : list validator) :
  Nat.ltb (List.length vals) (List.length dels) =
  types__verifyRemovals__if_len_deletes_gt_len_vs_Validators (Z.of_nat (List.length dels)) (Z.of_nat (List.length vals)).
Proof.
  unfold types__verifyRemovals__if_len_deletes_gt_len_vs_Validators. rewrite Z.gtb_ltb.
  destruct (Nat.ltb_spec (List.length vals) (List.length dels)); destruct (Z.ltb_spec (Z.of_nat (List.length vals)) (Z.of_nat (List.length dels))); try reflexivity; lia.
Qed.
Lemma src_removals_atoms :
  types__verifyRemovals__set_removedVotingPower_op_atoms = ["removedVotingPower : int64"; "val.VotingPower : int64"]%string /\
  types__verifyRemovals__if_len_deletes_gt_len_vs_Validators_atoms = ["len(deletes) : int"; "len(vs.Validators) : int"]%string.
Proof. split; reflexivity. Qed.

(** ** verifyUpdates: delta, the order of the additions, the running total and the cap test after
       every addition *)

Definition delta_src (vals : list validator) (u : validator) : Z :=
  match get_by_addr (v_addr u) vals with
  | Some v => types__verifyUpdates__ret_int64_update_VotingPower_minus_int64_val_VotingPower (v_power u) (v_power v)
  | None => v_power u
  end.
Fixpoint add_deltas_src (vals ups : list validator) (tvp : Z) : option Z :=
  match ups with
  | [] => Some tvp
  | u :: t =>
    let tvp' := types__verifyUpdates__set_tvpAfterRemovals_op tvp (delta vals u) in
    if types__verifyUpdates__if_tvpAfterRemovals_gt_MaxTotalVotingPower tvp' then None else add_deltas_src vals t tvp'
  end.
Lemma src_add_deltas vals ups : forall tvp, add_deltas vals ups tvp = add_deltas_src vals ups tvp.
Proof.
  induction ups as [|u t IH]; intros tvp; [reflexivity|]. cbn [add_deltas add_deltas_src].
  unfold types__verifyUpdates__if_tvpAfterRemovals_gt_MaxTotalVotingPower. rewrite Z.gtb_ltb.
  change 1152921504606846975 with max_total_voting_power.
  change (types__verifyUpdates__set_tvpAfterRemovals_op tvp (delta vals u)) with (wrap64 (tvp + delta vals u)).
  rewrite IH. reflexivity.
Qed.
Lemma src_verify_updates_atoms :
  types__verifyUpdates__ret_int64_update_VotingPower_minus_int64_val_VotingPower_atoms = ["update.VotingPower : int64"; "val.VotingPower : int64"]%string /\
  types__verifyUpdates__ret_delta_updatesCopy_at_i_vals_lt_delta_updatesCopy_at_j_vals_atoms = ["delta(updatesCopy[i], vals) : int64"; "delta(updatesCopy[j], vals) : int64"]%string /\
  types__verifyUpdates__set_tvpAfterRemovals_atoms = ["vals.TotalVotingPower() : int64"; "removedPower : int64"]%string /\
  types__verifyUpdates__set_tvpAfterRemovals_op_atoms = ["tvpAfterRemovals : int64"; "delta(upd, vals) : int64"]%string /\
  types__verifyUpdates__if_tvpAfterRemovals_gt_MaxTotalVotingPower_atoms = ["tvpAfterRemovals : int64"]%string /\
  types__verifyUpdates__ret_tvpAfterRemovals_plus_removedPower_atoms = ["tvpAfterRemovals : int64"; "removedPower : int64"]%string.
Proof. repeat split; reflexivity. Qed.

(** ** computeNewPriorities: newcomers start at -(T + T>>3) *)

Lemma src_newcomer_priority tvp :
  in_range I64 tvp ->
  wrap64 (- wrap64 (tvp + Z.shiftr tvp 3)) = types__computeNewPriorities__set_proposerPriority tvp.
Proof.
  intros H. unfold types__computeNewPriorities__set_proposerPriority, go_neg, go_add, go_shr.
  rewrite Z.shiftr_div_pow2 by lia.
  rewrite (wrap_id I64 (tvp / 2 ^ 3)); [reflexivity|].
  unfold in_range in *. change (2 ^ 3) with 8.
  pose proof (Z.div_mod tvp 8 ltac:(lia)). pose proof (Z.mod_pos_bound tvp 8 ltac:(lia)). lia.
Qed.
Lemma src_new_priorities ups vals tvp :
  in_range I64 tvp ->
  new_priorities ups vals tvp =
  map (fun u => match get_by_addr (v_addr u) vals with
                | None => set_prio u (types__computeNewPriorities__set_proposerPriority tvp)
                | Some v => set_prio u (v_prio v)
                end) ups.
Proof. intros H. unfold new_priorities. rewrite (src_newcomer_priority tvp H). reflexivity. Qed.
Lemma src_newcomer_atoms :
  types__computeNewPriorities__set_proposerPriority_atoms = ["updatedTotalVotingPower : int64"]%string.
Proof. reflexivity. Qed.

(** ** numNewValidators and the guards of updateWithChangeSet *)

Lemma src_num_new ups vals :
  num_new ups vals = List.length (filter (fun u => types__numNewValidators__if_not_vals_HasAddress_valUpdate_Address (has_addr (v_addr u) vals)) ups).
Proof. reflexivity. Qed.
Lemma src_num_new_atoms :
  types__numNewValidators__if_not_vals_HasAddress_valUpdate_Address_atoms = ["vals.HasAddress(valUpdate.Address) : bool"]%string.
Proof. reflexivity. Qed.

Lemma src_no_changes (changes : list validator) :
  types__ValidatorSet_updateWithChangeSet__if_len_changes_eq_0 (Z.of_nat (List.length changes)) =
  match changes with [] => true | _ => false end.
Proof. destruct changes; reflexivity. Qed.
Lemma src_update_atoms :
  types__ValidatorSet_updateWithChangeSet__if_len_changes_eq_0_atoms = ["len(changes) : int"]%string /\
  types__ValidatorSet_updateWithChangeSet__if_not_allowDeletes_and_len_deletes_ne_0_atoms = ["allowDeletes : bool"; "len(deletes) : int"]%string /\
  types__ValidatorSet_updateWithChangeSet__if_numNewValidators_updates_vs_eq_0_and_len_vs_Validators_eq_len_deletes_atoms
    = ["numNewValidators(updates, vs) : int"; "len(vs.Validators) : int"; "len(deletes) : int"]%string.
Proof. repeat split; reflexivity. Qed.

(** ** kai/state/cstate/execution.go *)

(** calculateValidatorSetUpdates: an entry of the report goes into the change set iff
    "!found || oldPower != val.VotingPower", where (oldPower, found) is the two-valued map read
    last[val.Address] (0, false for a missing key) *)
Definition last_read (a : N) (last_vals : list validator) : Z * bool :=
  match get_by_addr a (rev last_vals) with Some o => (v_power o, true) | None => (0, false) end.
Lemma src_calculate_updates_atoms :
  kai_state_cstate__calculateValidatorSetUpdates__if_len_vals_eq_0_atoms = ["len(vals) : int"]%string /\
  kai_state_cstate__calculateValidatorSetUpdates__if_not_found_or_oldPower_ne_val_VotingPower_atoms
    = ["found : bool"; "oldPower : int64"; "val.VotingPower : int64"]%string.
Proof. split; reflexivity. Qed.

(** updateState: the change set is applied iff it is non-empty, and then the change is recorded
    for header.Height + 2 (uint64) *)
Lemma src_update_state_guard (ups : list validator) :
  kai_state_cstate__updateState__if_len_validatorUpdates_gt_0 (Z.of_nat (List.length ups)) =
  match ups with [] => false | _ => true end.
Proof. destruct ups; reflexivity. Qed.
Lemma src_update_state st height ups :
  update_state st height ups =
  match (if kai_state_cstate__updateState__if_len_validatorUpdates_gt_0 (Z.of_nat (List.length ups))
         then update_with_change_set (ch_next st) ups true
         else Some (ch_next st, UOk)) with
  | None => None
  | Some (n1, UOk) =>
    match increment n1 1 with
    | None => None
    | Some n2 =>
      Some ({| ch_last := ch_cur st; ch_cur := ch_next st; ch_next := n2; ch_height := height;
               ch_changed := if kai_state_cstate__updateState__if_len_validatorUpdates_gt_0 (Z.of_nat (List.length ups))
                             then kai_state_cstate__updateState__set_lastHeightValsChanged height
                             else ch_changed st |}, UOk)
    end
  | Some (_, e) => Some (st, e)
  end.
Proof. unfold update_state. rewrite src_update_state_guard. destruct ups; reflexivity. Qed.
Lemma src_update_state_atoms :
  kai_state_cstate__updateState__if_len_validatorUpdates_gt_0_atoms = ["len(validatorUpdates) : int"]%string /\
  kai_state_cstate__updateState__set_lastHeightValsChanged_atoms = ["header.Height : uint64"]%string.
Proof. split; reflexivity. Qed.

(** ** the ties that Properties.v quotes, as one statement; the other [src_] lemmas above stand on their own *)

Definition C12_source_tie_statement : Prop :=
  (forall a b, types__safeAdd a b = safe_add a b) /\ (forall a b, types__safeSub a b = safe_sub a b) /\
  (forall a b, types__safeAddClip a b = safe_add_clip' a b) /\ (forall a b, types__safeSubClip a b = safe_sub_clip' a b) /\
  types__MaxTotalVotingPower = max_total_voting_power /\ types__PriorityWindowSizeFactor = priority_window_size_factor /\
  (forall l s, sum_clip l s = sum_clip_src l s) /\
  (forall t, types__ValidatorSet_IncrementProposerPriority__if_times_le_0 t = match t with Zpos _ => false | _ => true end) /\
  (forall t, wrap64 (priority_window_size_factor * t) = types__ValidatorSet_IncrementProposerPriority__set_diffMax t) /\
  (forall l dm, rescale l dm =
     if types__ValidatorSet_RescalePriorities__if_diffMax_le_0 dm then Some l
     else let diff := max_min_diff l in
          let ratio := div64 (wrap64 (wrap64 (diff + dm) - 1)) dm in
          if types__ValidatorSet_RescalePriorities__if_diff_gt_diffMax diff dm then
            if ratio =? 0 then None else Some (map (fun v => set_prio v (div64 (v_prio v) ratio)) l)
          else Some l) /\
  (forall l, max_min_diff l =
     let '(mx, mn) := max_min_src l min_int64 max_int64 in
     let diff := types__computeMaxMinPriorityDiff__set_diff mx mn in
     if types__computeMaxMinPriorityDiff__if_diff_lt_0 diff then types__computeMaxMinPriorityDiff__ret_minus_1_mul_diff diff else diff) /\
  (forall v, wrap64 (v_prio v + v_power v) = types__ValidatorSet_incrementProposerPriority__set_newPriority (v_prio v) (v_power v)) /\
  (forall v o, compare_prio v o =
     if types__Validator_CompareProposerPriority__case_v_ProposerPriority_gt_other_ProposerPriority (v_prio v) (v_prio o) then Some true
     else if types__Validator_CompareProposerPriority__case_v_ProposerPriority_lt_other_ProposerPriority (v_prio v) (v_prio o) then Some false
     else if types__Validator_CompareProposerPriority__case_result_lt_0 (bytes_compare (v_addr v) (v_addr o)) then Some true
     else if types__Validator_CompareProposerPriority__case_result_gt_0 (bytes_compare (v_addr v) (v_addr o)) then Some false
     else None) /\
  (forall a b, power_lt a b =
     if types__ValidatorsByVotingPower_Less__if_valz_at_i__VotingPower_eq_valz_at_j__VotingPower (v_power a) (v_power b)
     then types__ValidatorsByVotingPower_Less__ret_bytes_Compare_valz_at_i__Address_Bytes_valz_at_j__Address_By_6fabe8cb (bytes_compare (v_addr a) (v_addr b))
     else types__ValidatorsByVotingPower_Less__ret_valz_at_i__VotingPower_gt_valz_at_j__VotingPower (v_power a) (v_power b)) /\
  (forall chs prev, process_scan prev chs = process_scan_src prev chs) /\
  (forall dels vals acc, removed_power dels vals acc = removed_power_src dels vals acc) /\
  (forall vals u, in_range I64 (v_power u) -> (forall v, In v vals -> in_range I64 (v_power v)) -> delta vals u = delta_src vals u) /\
  (forall vals ups tvp, add_deltas vals ups tvp = add_deltas_src vals ups tvp) /\
  (forall ups vals total removed, verify_updates ups vals total removed =
     let sorted := sort_by (fun a b => types__verifyUpdates__ret_delta_updatesCopy_at_i_vals_lt_delta_updatesCopy_at_j_vals (delta vals a) (delta vals b)) ups in
     match add_deltas_src vals sorted (types__verifyUpdates__set_tvpAfterRemovals total removed) with
     | None => None
     | Some tvp => Some (types__verifyUpdates__ret_tvpAfterRemovals_plus_removedPower tvp removed)
     end) /\
  (forall tvp, in_range I64 tvp -> wrap64 (- wrap64 (tvp + Z.shiftr tvp 3)) = types__computeNewPriorities__set_proposerPriority tvp) /\
  (forall allow (dels : list validator), (negb allow && negb (Nat.eqb (List.length dels) 0))%bool =
     types__ValidatorSet_updateWithChangeSet__if_not_allowDeletes_and_len_deletes_ne_0 allow (Z.of_nat (List.length dels))) /\
  (forall nn (vals dels : list validator), (Nat.eqb nn 0 && Nat.eqb (List.length vals) (List.length dels))%bool =
     types__ValidatorSet_updateWithChangeSet__if_numNewValidators_updates_vs_eq_0_and_len_vs_Validators_eq_len_deletes
       (Z.of_nat nn) (Z.of_nat (List.length vals)) (Z.of_nat (List.length dels))) /\
  (forall last_vals report, calculate_updates last_vals report =
     if kai_state_cstate__calculateValidatorSetUpdates__if_len_vals_eq_0 (Z.of_nat (List.length report)) then []
     else if has_dup report then report
     else filter (fun v => let '(oldPower, found) := last_read (v_addr v) last_vals in
                           kai_state_cstate__calculateValidatorSetUpdates__if_not_found_or_oldPower_ne_val_VotingPower found oldPower (v_power v)) report
          ++ map (fun a => {| v_addr := a; v_power := 0; v_prio := 0 |})
                 (nodup N.eq_dec (filter (fun a => negb (has_addr a report)) (map v_addr last_vals)))) /\
  (forall height, wrapu64 (height + 2) = kai_state_cstate__updateState__set_lastHeightValsChanged height) /\
  (forall (ups : list validator), kai_state_cstate__updateState__if_len_validatorUpdates_gt_0 (Z.of_nat (List.length ups)) =
     match ups with [] => false | _ => true end) /\
  (types__ValidatorSet_RescalePriorities__if_diff_gt_diffMax_atoms = ["diff : int64"; "diffMax : int64"]%string /\
   types__ValidatorSet_updateTotalVotingPower__if_sum_gt_MaxTotalVotingPower_atoms = ["sum : int64"]%string /\
   types__processChanges__case_valUpdate_VotingPower_gt_MaxTotalVotingPower_atoms = ["valUpdate.VotingPower : int64"]%string /\
   types__verifyUpdates__if_tvpAfterRemovals_gt_MaxTotalVotingPower_atoms = ["tvpAfterRemovals : int64"]%string /\
   types__verifyUpdates__set_tvpAfterRemovals_op_atoms = ["tvpAfterRemovals : int64"; "delta(upd, vals) : int64"]%string /\
   types__computeNewPriorities__set_proposerPriority_atoms = ["updatedTotalVotingPower : int64"]%string /\
   kai_state_cstate__calculateValidatorSetUpdates__if_not_found_or_oldPower_ne_val_VotingPower_atoms
     = ["found : bool"; "oldPower : int64"; "val.VotingPower : int64"]%string /\
   kai_state_cstate__updateState__set_lastHeightValsChanged_atoms = ["header.Height : uint64"]%string).

Lemma C12_source_tie_proof : C12_source_tie_statement.
Proof.
  unfold C12_source_tie_statement. split_all.
  - exact src_safe_add.
  - exact src_safe_sub.
  - exact src_safe_add_clip.
  - exact src_safe_sub_clip.
  - reflexivity.
  - reflexivity.
  - (* updateTotalVotingPower: safeAddClip, then the cap test on the running sum *)
    induction l as [|v t IH]; intros s; [reflexivity|]. cbn [sum_clip sum_clip_src].
    rewrite src_safe_add_clip. unfold types__ValidatorSet_updateTotalVotingPower__if_sum_gt_MaxTotalVotingPower.
    rewrite Z.gtb_ltb. change 1152921504606846975 with max_total_voting_power. rewrite IH. reflexivity.
  - (* "times <= 0" panics: the model runs rounds exactly for a positive [times] *)
    intros t. destruct t; reflexivity.
  - (* diffMax = PriorityWindowSizeFactor * TotalVotingPower(), an int64 product *)
    reflexivity.
  - (* RescalePriorities: the early return "diffMax <= 0" and the window test "diff > diffMax" *)
    intros l dm.
    unfold rescale, types__ValidatorSet_RescalePriorities__if_diffMax_le_0, types__ValidatorSet_RescalePriorities__if_diff_gt_diffMax.
    rewrite Z.gtb_ltb. reflexivity.
  - (* computeMaxMinPriorityDiff *)
    intros l. unfold max_min_diff.
    replace (max_min_src l min_int64 max_int64) with (max_min l min_int64 max_int64); [reflexivity|].
    generalize min_int64, max_int64. induction l as [|v t IH]; intros mx mn; [reflexivity|]. cbn [max_min max_min_src].
    unfold types__computeMaxMinPriorityDiff__if_v_ProposerPriority_lt_min, types__computeMaxMinPriorityDiff__if_v_ProposerPriority_gt_max.
    rewrite Z.gtb_ltb. apply IH.
  - (* incrementProposerPriority: the unchecked int64 addition of the power *)
    reflexivity.
  - (* Validator.CompareProposerPriority *)
    intros v o.
    unfold compare_prio, types__Validator_CompareProposerPriority__case_v_ProposerPriority_gt_other_ProposerPriority,
      types__Validator_CompareProposerPriority__case_v_ProposerPriority_lt_other_ProposerPriority,
      types__Validator_CompareProposerPriority__case_result_lt_0, types__Validator_CompareProposerPriority__case_result_gt_0.
    rewrite bytes_compare_lt, bytes_compare_gt, Z.gtb_ltb. reflexivity.
  - (* ValidatorsByVotingPower.Less: power descending, address ascending on equal power *)
    intros a b.
    unfold power_lt, types__ValidatorsByVotingPower_Less__if_valz_at_i__VotingPower_eq_valz_at_j__VotingPower,
      types__ValidatorsByVotingPower_Less__ret_bytes_Compare_valz_at_i__Address_Bytes_valz_at_j__Address_By_6fabe8cb,
      types__ValidatorsByVotingPower_Less__ret_valz_at_i__VotingPower_gt_valz_at_j__VotingPower.
    rewrite bytes_compare_m1, Z.gtb_ltb. reflexivity.
  - (* processChanges *)
    induction chs as [|c t IH]; intros prev; [reflexivity|]. cbn [process_scan process_scan_src].
    unfold types__processChanges__case_valUpdate_VotingPower_lt_0, types__processChanges__case_valUpdate_VotingPower_gt_MaxTotalVotingPower,
      types__processChanges__case_valUpdate_VotingPower_eq_0.
    rewrite Z.gtb_ltb. change 1152921504606846975 with max_total_voting_power. rewrite IH. reflexivity.
  - (* verifyRemovals: the unchecked int64 sum of the removed powers *)
    intros dels vals. induction dels as [|d t IH]; intros acc; [reflexivity|]. cbn [removed_power removed_power_src].
    destruct (get_by_addr (v_addr d) vals); [|reflexivity]. apply IH.
  - (* delta: int64(x) - int64(y) on values that are int64 already (every power is) *)
    intros vals u Hu Hv. unfold delta, delta_src. destruct (get_by_addr (v_addr u) vals) as [v|] eqn:G; [|reflexivity].
    assert (In v vals) as Hin.
    { clear - G. induction vals as [|h t IH]; [discriminate|]. cbn [get_by_addr] in G.
      destruct (N.eqb (v_addr u) (v_addr h)); [inversion G; now left|right; now apply IH]. }
    unfold types__verifyUpdates__ret_int64_update_VotingPower_minus_int64_val_VotingPower, go_sub, go_conv.
    rewrite (wrap_id I64 _ Hu), (wrap_id I64 _ (Hv v Hin)). reflexivity.
  - exact src_add_deltas.
  - (* verifyUpdates: sorted by delta, the total less the removed power as the start, the removed power added back *)
    intros ups vals total removed. unfold verify_updates. rewrite src_add_deltas. reflexivity.
  - exact src_newcomer_priority.
  - (* updateWithChangeSet: "!allowDeletes && len(deletes) != 0" *)
    intros allow dels.
    unfold types__ValidatorSet_updateWithChangeSet__if_not_allowDeletes_and_len_deletes_ne_0, go_neqb.
    rewrite <- (Zofnat_eqb (List.length dels) 0). reflexivity.
  - (* updateWithChangeSet: "numNewValidators(updates, vs) == 0 && len(vs.Validators) == len(deletes)" *)
    intros nn vals dels.
    unfold types__ValidatorSet_updateWithChangeSet__if_numNewValidators_updates_vs_eq_0_and_len_vs_Validators_eq_len_deletes.
    rewrite <- (Zofnat_eqb nn 0), <- (Zofnat_eqb (List.length vals) (List.length dels)). reflexivity.
  - (* calculateValidatorSetUpdates *)
    intros last_vals report. unfold calculate_updates. destruct report as [|r0 rt]; [reflexivity|].
    change (kai_state_cstate__calculateValidatorSetUpdates__if_len_vals_eq_0 (Z.of_nat (List.length (r0 :: rt)))) with false.
    cbv iota. destruct (has_dup (r0 :: rt)); [reflexivity|]. f_equal.
    apply filter_ext. intros v. unfold last_read.
    destruct (get_by_addr (v_addr v) (rev last_vals)); reflexivity.
  - (* updateState: the change is recorded for header.Height + 2 (uint64) *)
    reflexivity.
  - exact src_update_state_guard.
  - apply src_rescale_atoms.
  - exact src_sum_clip_atoms.
  - apply src_process_atoms.
  - apply src_verify_updates_atoms.
  - apply src_verify_updates_atoms.
  - exact src_newcomer_atoms.
  - apply src_calculate_updates_atoms.
  - apply src_update_state_atoms.
Qed.
