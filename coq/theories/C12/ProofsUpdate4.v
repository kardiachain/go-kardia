(** C12 — UpdateWithChangeSet against the declarative specification [spec_update]: on a good
    state a successful call produces exactly the specified set, and every change set with
    distinct NON-ZERO addresses that the specification admits is accepted ([spec_valid_changes]
    does not know the zero-address rule of processChanges; [valid_changes] does). *)
From Coq Require Import List ZArith NArith Bool Lia Permutation Sorted.
From Kardia Require Import C12.Model C12.Spec C12.ProofsSort C12.ProofsRefine C12.ProofsUpdate2
     C12.ProofsUpdate3 Generated.C12Facts.
Import ListNotations.
Local Open Scope Z_scope.

Lemma lookup_get a l : lookup a l = get_by_addr a l.
Proof.
  unfold lookup. induction l as [|h t IH]; [reflexivity|]. cbn [find get_by_addr].
  rewrite (N.eqb_sym (v_addr h) a). destruct (N.eqb a (v_addr h)); [reflexivity|exact IH].
Qed.

Lemma total_after_updates_dsum l cs :
  total_after_updates l cs = total_power l + dsum l (filter (fun c => 0 <? v_power c) cs).
Proof.
  unfold total_after_updates. f_equal. induction cs as [|c t IH]; [reflexivity|].
  cbn [fold_right filter]. rewrite IH. destruct (0 <? v_power c); [|lia].
  rewrite dsum_cons. unfold old_power, look. rewrite lookup_get. lia.
Qed.

Lemma validator_eq a b : v_addr a = v_addr b -> v_power a = v_power b -> v_prio a = v_prio b -> a = b.
Proof. destruct a, b; cbn; intros; subst; reflexivity. Qed.

(** with distinct addresses the final order is strict *)
Lemma sort_power_strict l :
  NoDup (map v_addr l) -> StronglySorted by_power_then_address (sort_by power_lt l).
Proof.
  intros N. apply (nodup_addr_perm _ _ (Permutation_sym (sort_by_perm power_lt l))) in N.
  pose proof (sort_power_sorted l) as SS.
  induction SS as [|a r Sr IH Fa]; [constructor|].
  cbn [map] in N. inversion N as [|? ? Na Nr]; subst. constructor; [now apply IH|].
  rewrite Forall_forall in *. intros b Hb. specialize (Fa b Hb).
  assert (v_addr a <> v_addr b) as D by (intros E; apply Na; rewrite E; now apply in_map).
  apply power_lt_false in Fa. unfold by_power_then_address in *. lia.
Qed.

Theorem update_refines_spec s cs allow s' :
  good s -> cs <> [] -> update_with_change_set s cs allow = Some (s', UOk) ->
  spec_update max_total_voting_power (vs_vals s) cs (vs_vals s').
Proof.
  intros G NE H. pose proof G as [[(_ & _ & Ppv & Cv) _] _].
  destruct (update_ok_cases s cs allow s' (good_updatable s G) NE H) as
      (ups & dels & Sp & DelIn & l2 & l3 & l4 & Nl2 & Mem & Tot & Wl2 & (SR & SC & _ & _ & _ & M) & ->).
  cbn [vs_vals]. set (vals := vs_vals s) in *.
  destruct (split_valid _ _ _ Sp) as [Ncs Fcs]. rewrite Forall_forall in Fcs.
  (* T' of the specification is the total that verifyUpdates returned *)
  assert (total_after_updates vals cs = total_power vals + dsum vals ups) as ETau.
  { rewrite total_after_updates_dsum. f_equal. apply dsum_perm, Permutation_sym, Sp. }
  set (tvp := total_power vals + dsum vals ups) in *.
  assert (0 <= tvp <= 2 * max_total_voting_power) as Btvp.
  { pose proof (lsum_nonneg vals dels Ppv). pose proof (lsum_le_total vals dels (split_dels_nodup _ _ _ Sp) Ppv).
    pose proof (wf_total_pos _ Wl2). destruct Wl2 as (_ & _ & _ & C2). lia. }
  split.
  - (* the change set is valid *)
    split; [exact Ncs|]. split; [intros c Hc; apply Fcs, Hc|].
    intros c Hc P0. rewrite lookup_get, get_none_iff. intros Gn. apply Gn, DelIn.
    now apply (split_in_dels cs ups).
  - exists l2, l3, l4.
    split; [|split; [apply Wl2|split; [apply Wl2|split; [exact SR|split; [exact SC|split]]]]].
    + (* membership: the old members that are not mentioned, and the updates with their start priorities *)
      split; [exact Nl2|]. intros v. cbv zeta. rewrite ETau, Mem.
      assert (lookup (v_addr v) cs = None <->
              ~ In (v_addr v) (map v_addr ups) /\ ~ In (v_addr v) (map v_addr dels)) as ->.
      { rewrite lookup_get, get_none_iff.
        assert (In (v_addr v) (map v_addr cs) <-> In (v_addr v) (map v_addr ups) \/ In (v_addr v) (map v_addr dels)) as ->; [|tauto].
        rewrite <- in_app_iff, <- map_app.
        split; apply Permutation_in, Permutation_map; [apply Permutation_sym|]; apply Sp. }
      apply or_iff_compat_l. unfold new_priorities. rewrite in_map_iff.
      split; [intros (c & <- & Hc)|intros (c & Hc & Hp & Ea & Epw & Epr)];
        exists c; rewrite (split_in_ups _ _ _ _ Sp), lookup_get in *.
      * destruct Hc as [Hc Hp]. destruct (get_by_addr (v_addr c) vals);
          cbn [set_prio v_addr v_power v_prio]; rewrite ?(newcomer_priority tvp Btvp); auto.
      * split; [|now split]. symmetry.
        destruct (get_by_addr (v_addr c) vals); apply validator_eq;
          cbn [set_prio v_addr v_power v_prio]; rewrite ?(newcomer_priority tvp Btvp); assumption.
    + apply Permutation_sym, sort_by_perm.
    + apply sort_power_strict. rewrite (proj1 M). exact Nl2.
Qed.

Theorem update_accepts_valid s cs :
  good s -> cs <> [] -> valid_changes cs ->
  (forall c, In c cs -> v_power c = 0 -> get_by_addr (v_addr c) (vs_vals s) <> None) ->
  total_after_updates (vs_vals s) cs - lsum (vs_vals s) (filter (fun c => v_power c =? 0) cs)
    <= max_total_voting_power ->
  ((exists c, In c cs /\ 0 < v_power c /\ get_by_addr (v_addr c) (vs_vals s) = None) \/
   (exists v, In v (vs_vals s) /\ ~ In (v_addr v) (map v_addr (filter (fun c => v_power c =? 0) cs)))) ->
  exists s', update_with_change_set s cs true = Some (s', UOk).
Proof.
  intros G NEcs Hvalid Hfound Hcap Hnonempty. pose proof G as [[(_ & Nv & _) _] _].
  destruct (process_valid_ok _ Hvalid) as (ups & dels & Hp).
  pose proof (process_ok_split _ _ _ Hp) as Sp.
  pose proof (update_cases s cs true ups dels (good_updatable s G) NEcs Hp) as R.
  unfold update_result in R. set (vals := vs_vals s) in *. cbn [negb andb] in R.
  (* every removal names a member *)
  assert (forall d, In d dels -> In (v_addr d) (map v_addr vals)) as DelIn.
  { intros d Hd. apply (split_in_dels _ _ _ _ Sp) in Hd. destruct Hd as [Hd P0].
    specialize (Hfound d Hd P0). rewrite get_none_iff in Hfound.
    destruct (in_dec N.eq_dec (v_addr d) (map v_addr vals)); tauto. }
  rewrite (proj2 (forallb_has_addr vals dels) DelIn) in R. cbn [negb] in R.
  (* the final total is within the cap *)
  rewrite total_after_updates_dsum in Hcap.
  rewrite <- (dsum_perm vals _ _ (split_ups _ _ _ Sp)), <- (lsum_perm vals _ _ (split_dels _ _ _ Sp)) in Hcap.
  destruct (Z.leb_spec (total_power vals - lsum vals dels + dsum vals ups) max_total_voting_power) as [_|Gt]; [|lia].
  cbn [negb] in R.
  (* somebody is left *)
  rewrite (proj2 (empty_test_false vals ups dels Nv (split_dels_nodup _ _ _ Sp) DelIn)) in R; [destruct R as (s' & _ & R); eauto|].
  destruct Hnonempty as [(c & Hc & Hp0 & Gc)|(v & Hv & NIv)]; [left; exists c|right; exists v].
  - split; [now apply (split_in_ups cs ups dels)|now apply get_none_iff].
  - split; [exact Hv|]. intros Hin. apply NIv. revert Hin. apply Permutation_in, Permutation_map, Sp.
Qed.
