(** C12 — IncrementProposerPriority(times) for ANY [times]: refinement of the specification
    and absence of overflow under a side condition that does not mention [times] (it bounds
    the number of validators times the total power instead).  The bound on the priorities
    during the rounds is the one of ProofsSpec.spec_rounds_bounds (constant sum + lower bound
    -2T), which does not grow with the number of rounds. *)
From Coq Require Import List ZArith NArith Lia.
From Kardia Require Import Base.Int64 C12.Model C12.Spec C12.ProofsSpec C12.ProofsRefine Generated.C12Facts.
Import ListNotations.
Local Open Scope Z_scope.

(** the bound that holds after any number of rounds from a renormalised set *)
Definition round_bound (l : list validator) : Z :=
  Z.of_nat (length l) + 2 * Z.of_nat (length l) * total_power l.

Lemma spec_rounds_length k l l' props : spec_rounds k l l' props -> length l' = length l.
Proof. intros R. exact (same_members_length _ _ (spec_rounds_members _ _ _ _ R)). Qed.

Lemma bounds_after_rounds k l l' props :
  wf_vals l -> bounded (2 * total_power l) l ->
  0 <= sum_priorities l < Z.of_nat (length l) ->
  spec_rounds k l l' props -> bounded (round_bound l) l'.
Proof.
  intros (NE & N & Pp & C) HB [S0 S1] R.
  pose proof (total_power_pos l NE Pp) as Tpos.
  assert (forall v, In v l' -> - (2 * total_power l) <= v_prio v <=
                                sum_priorities l + (Z.of_nat (length l) - 1) * (2 * total_power l)) as Bd.
  { apply (spec_rounds_bounds (2 * total_power l) k l l' props N NE Pp S0); [lia| |exact R].
    intros v Hv. specialize (HB v Hv). lia. }
  intros v Hv. specialize (Bd v Hv). unfold round_bound. nia.
Qed.

Theorem increment_refines_any_times s (times : positive) :
  wf_set s -> bounded B0 (vs_vals s) ->
  round_bound (vs_vals s) + total_power (vs_vals s) <= B0 ->
  exists s' props a p,
    increment s (Z.pos times) = Some s' /\
    spec_increment (vs_vals s) (Pos.to_nat times) (vs_vals s') props /\
    last props 0%N = a /\ vs_proposer s' = Some (a, p) /\
    (exists m0, In m0 (vs_vals s') /\ v_addr m0 = a /\ v_power m0 = p) /\
    wf_set s' /\ vs_total s' = vs_total s /\
    bounded (round_bound (vs_vals s)) (vs_vals s') /\ bounded B0 (vs_vals s').
Proof.
  intros W HB HK. pose proof W as [Wv _]. pose proof Wv as (NE & _ & _ & _).
  pose proof (wf_total_pos _ Wv) as Tpos.
  assert (0 <= round_bound (vs_vals s)) as RB0 by (unfold round_bound; nia).
  destruct (increment_refines_bounded s times (round_bound (vs_vals s)) W HB RB0) as
      (s' & props & a & p & E & SI & L & Pr & Hm & W' & T' & HB'); [i64| |].
  - intros l1 l2 j l' props SR SC _ R.
    destruct (spec_renormalise _ _ _ _ Tpos NE SR SC) as (_ & Sum & Bnd).
    pose proof (spec_renormalise_members _ _ _ _ SR SC) as M.
    replace (round_bound (vs_vals s)) with (round_bound l2)
      by (unfold round_bound; now rewrite (same_members_length _ _ M), (same_members_total _ _ M)).
    apply (bounds_after_rounds j l2 l' props (wf_vals_members _ _ M Wv)); [|exact Sum|exact R].
    now rewrite (same_members_total _ _ M).
  - exists s', props, a, p. repeat (split; [assumption|]).
    apply (bounded_mono (round_bound (vs_vals s))); [lia|exact HB'].
Qed.
