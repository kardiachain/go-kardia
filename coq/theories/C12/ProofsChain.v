(** C12 — the validator part of ApplyBlock as a whole (calculateValidatorSetUpdates +
    updateState on the LatestBlockState carried from block to block): the change set derived
    from a report, the pipeline LastValidators <- Validators <- NextValidators, all-or-nothing
    for the whole state, absence of panics over histories of blocks, refinement of the
    specification by an accepted report, and the proposer of round k of a height.  At the end,
    examples over a chain ([ex_genesis], [ex_chain], [ex_chain_reject]) and the side condition of
    the any-times theorem on the example set ([ex_any_times_ok]). *)
From Coq Require Import List ZArith NArith Bool Lia Permutation.
From Kardia Require Import Base.Int64 C12.Model C12.Spec C12.ProofsSpec C12.ProofsRefine
     C12.ProofsUpdate2 C12.ProofsUpdate3 C12.ProofsUpdate4 C12.ProofsReport C12.ProofsAnyTimes
     C12.ProofsExamples Generated.C12Facts.
Import ListNotations.
Local Open Scope Z_scope.

Definition removal_of (o : validator) : validator := {| v_addr := v_addr o; v_power := 0; v_prio := 0 |}.

Theorem calculate_updates_exact last report c :
  report <> [] -> NoDup (map v_addr report) -> NoDup (map v_addr last) ->
  (In c (calculate_updates last report) <->
   (In c report /\ forall o, get_by_addr (v_addr c) last = Some o -> v_power o <> v_power c) \/
   (exists o, In o last /\ ~ In (v_addr o) (map v_addr report) /\ c = removal_of o)).
Proof.
  intros NE Nr Nl. unfold calculate_updates.
  destruct report as [|r0 rt]; [congruence|].
  assert (has_dup (r0 :: rt) = false) as -> by (now apply has_dup_false).
  set (rep := r0 :: rt) in *.
  rewrite in_app_iff, filter_In, in_map_iff.
  assert (forall a, get_by_addr a (rev last) = get_by_addr a last) as GR
      by (intros a; symmetry; apply get_perm; [exact Nl|apply Permutation_rev]).
  split.
  - intros [[Hc F]|(a & <- & Ha)].
    + left. split; [exact Hc|]. intros o Go. rewrite GR, Go in F.
      destruct (Z.eqb_spec (v_power o) (v_power c)); [discriminate|assumption].
    + right. apply nodup_In in Ha. apply filter_In in Ha. destruct Ha as [Ha Hn].
      apply in_map_iff in Ha. destruct Ha as (o & <- & Ho).
      exists o. split; [exact Ho|]. split; [|reflexivity].
      intros Hin. apply has_addr_in in Hin. rewrite Hin in Hn. discriminate.
  - intros [[Hc F]|(o & Ho & Hn & ->)].
    + left. split; [exact Hc|]. rewrite GR.
      destruct (get_by_addr (v_addr c) last) as [o|] eqn:Go; [|reflexivity].
      specialize (F o eq_refl). destruct (Z.eqb_spec (v_power o) (v_power c)); [contradiction|reflexivity].
    + right. exists (v_addr o). split; [reflexivity|].
      apply nodup_In. apply filter_In. split; [now apply in_map|].
      destruct (has_addr (v_addr o) rep) eqn:E; [|reflexivity].
      apply has_addr_in in E. contradiction.
Qed.

Corollary calculate_updates_keeps_unknown_removal last report c :
  NoDup (map v_addr report) -> NoDup (map v_addr last) ->
  In c report -> v_power c = 0 -> get_by_addr (v_addr c) last = None ->
  In c (calculate_updates last report).
Proof.
  intros Nr Nl Hc P0 G.
  apply calculate_updates_exact; [intros ->; destruct Hc|exact Nr|exact Nl|].
  left. split; [exact Hc|]. intros o Go. congruence.
Qed.

Theorem report_refines_spec s report s' :
  good s -> apply_report s report = Some (s', UOk) ->
  let cs := calculate_updates (vs_vals s) report in
  exists mid props p,
    ((cs = [] /\ mid = vs_vals s) \/ (cs <> [] /\ spec_update max_total_voting_power (vs_vals s) cs mid)) /\
    spec_increment mid 1 (vs_vals s') props /\
    vs_proposer s' = Some (last props 0%N, p).
Proof.
  intros G H cs.
  destruct (report_cases s report G) as [(e & Ne & E)|(mid & s1 & props & p & C & _ & E & _ & SI & Pr)]; [congruence|].
  assert (s1 = s') as -> by congruence.
  exists (vs_vals mid), props, p. split; [|now split].
  destruct C as [[E0 ->]|[NE U]]; [now left|right]. split; [exact NE|].
  exact (update_refines_spec s _ true mid G NE U).
Qed.

Theorem report_no_panic s report : good s -> apply_report s report <> None.
Proof.
  intros G. destruct (report_cases s report G) as [(e & _ & ->)|(mid & s1 & props & p & _ & _ & -> & _)]; discriminate.
Qed.

Lemma report_error_unchanged s report s' e :
  apply_report s report = Some (s', e) -> e <> UOk -> s' = s.
Proof.
  unfold apply_report. intros H Ne.
  destruct (calculate_updates (vs_vals s) report) as [|c0 ct].
  - destruct (increment s 1); inversion H; subst; congruence.
  - destruct (update_with_change_set s (c0 :: ct) true) as [[s1 e1]|]; [|discriminate].
    destruct e1; try (inversion H; subst; reflexivity).
    destruct (increment s1 1); inversion H; subst; congruence.
Qed.

(** apply_block is apply_report on NextValidators, plus the bookkeeping *)
Lemma block_as_report st report :
  apply_block st report =
  match apply_report (ch_next st) report with
  | None => None
  | Some (n2, UOk) =>
    Some ({| ch_last := ch_cur st; ch_cur := ch_next st; ch_next := n2;
             ch_height := wrapu64 (ch_height st + 1);
             ch_changed := match calculate_updates (vs_vals (ch_next st)) report with
                           | [] => ch_changed st
                           | _ => wrapu64 (wrapu64 (ch_height st + 1) + 2)
                           end |}, UOk)
  | Some (_, e) => Some (st, e)
  end.
Proof.
  unfold apply_block, update_state, apply_report.
  destruct (calculate_updates (vs_vals (ch_next st)) report) as [|c0 ct].
  - destruct (increment (ch_next st) 1); reflexivity.
  - destruct (update_with_change_set (ch_next st) (c0 :: ct) true) as [[n1 e]|]; [|reflexivity].
    destruct e; try reflexivity. destruct (increment n1 1); reflexivity.
Qed.

Theorem block_atomic st report st' e :
  apply_block st report = Some (st', e) -> e <> UOk -> st' = st.
Proof.
  rewrite block_as_report. intros H Ne.
  destruct (apply_report (ch_next st) report) as [[n2 e2]|]; [|discriminate].
  destruct e2; inversion H; subst; try reflexivity. congruence.
Qed.

Theorem block_pipeline st report st' :
  apply_block st report = Some (st', UOk) ->
  ch_cur st' = ch_next st /\ ch_last st' = ch_cur st /\
  apply_report (ch_next st) report = Some (ch_next st', UOk) /\
  ch_height st' = wrapu64 (ch_height st + 1) /\
  ch_changed st' = match calculate_updates (vs_vals (ch_next st)) report with
                   | [] => ch_changed st
                   | _ => wrapu64 (ch_height st' + 2)
                   end.
Proof.
  rewrite block_as_report. intros H.
  destruct (apply_report (ch_next st) report) as [[n2 e2]|]; [|discriminate].
  destruct e2; try (inversion H; fail). inversion H; subst st'. cbn. repeat split; reflexivity.
Qed.

Corollary pipeline_lag st r1 r2 st1 st2 :
  apply_block st r1 = Some (st1, UOk) -> apply_block st1 r2 = Some (st2, UOk) ->
  ch_cur st1 = ch_next st /\ ch_cur st2 = ch_next st1 /\ ch_last st2 = ch_next st.
Proof.
  intros H1 H2. apply block_pipeline in H1. apply block_pipeline in H2.
  destruct H1 as (C1 & L1 & _). destruct H2 as (C2 & L2 & _). repeat split; congruence.
Qed.

(** a state is good when Validators and NextValidators are good sets and LastValidators is
    good or still the nil set of genesis *)
Definition chain_good (st : chain) : Prop :=
  (ch_last st = empty_vset \/ good (ch_last st)) /\ good (ch_cur st) /\ good (ch_next st).

Theorem block_good st report :
  chain_good st -> exists st' e, apply_block st report = Some (st', e) /\ chain_good st'.
Proof.
  intros (GL & GC & GN). rewrite block_as_report.
  destruct (apply_report (ch_next st) report) as [[n2 e2]|] eqn:R.
  - destruct e2; try (eexists; eexists; split; [reflexivity|]; exact (conj GL (conj GC GN))).
    eexists; eexists. split; [reflexivity|]. unfold chain_good; cbn.
    split; [right; exact GC|]. split; [exact GN|]. eapply report_ok_good; eassumption.
  - exfalso. revert R. now apply report_no_panic.
Qed.

Fixpoint run_blocks (st : chain) (reports : list (list validator)) : option chain :=
  match reports with
  | [] => Some st
  | r :: t => match apply_block st r with Some (st', _) => run_blocks st' t | None => None end
  end.

Theorem blocks_good st reports :
  chain_good st -> exists st', run_blocks st reports = Some st' /\ chain_good st'.
Proof.
  revert st. induction reports as [|r t IH]; intros st G; [exists st; split; [reflexivity|exact G]|].
  cbn [run_blocks]. destruct (block_good st r G) as (st1 & e & -> & G1). now apply IH.
Qed.

Theorem genesis_exists_good s : good s -> exists c, chain_genesis s = Some c /\ chain_good c.
Proof.
  intros G. unfold chain_genesis. destruct (increment_one_good s G) as (s1 & props & p & -> & G1 & _).
  eexists. split; [reflexivity|]. unfold chain_good; cbn. split; [now left|]. now split.
Qed.

Corollary genesis_good s c : good s -> chain_genesis s = Some c -> chain_good c.
Proof. intros G H. destruct (genesis_exists_good s G) as (c' & E & Gc). congruence. Qed.

Theorem proposer_at_refines_spec s (k : positive) :
  good s -> (Z.pos k + 2) * total_power (vs_vals s) <= B0 ->
  exists l' props,
    spec_increment (vs_vals s) (Pos.to_nat k) l' props /\
    proposer_at s (Z.pos k) = Some (last props 0%N) /\
    In (last props 0%N) (map v_addr (vs_vals s)).
Proof.
  intros [W HB] Side.
  destruct (increment_refines s k W HB Side) as (s' & props & a & p & I1 & SI & La & Pr & (m0 & Hm & Ha & _) & _).
  exists (vs_vals s'), props. split; [exact SI|].
  unfold proposer_at. rewrite I1, Pr, La. split; [reflexivity|].
  (* the members of the set do not change during a call *)
  destruct SI as (l1 & l2 & R1 & C1 & RS).
  destruct (same_members_trans _ _ _ (spec_renormalise_members _ _ _ _ R1 C1) (spec_rounds_members _ _ _ _ RS)) as [A _].
  rewrite <- A, <- Ha. now apply in_map.
Qed.

(** the genesis arrangement over the example set is a good state; a block whose report raises
    validator 2, leaves out validator 3 and adds validator 4 is accepted: the set in force is the
    previous NextValidators, the change is recorded for height 3, and the three sets differ *)
Definition ex_genesis : chain :=
  match chain_genesis ex_set with Some c => c | None => init_chain end.

Lemma ex_genesis_eq : chain_genesis ex_set = Some ex_genesis.
Proof. vm_compute. reflexivity. Qed.

Example ex_chain :
  exists c',
    chain_good ex_genesis /\
    apply_block ex_genesis [mkv 1 10; mkv 2 7; mkv 4 2] = Some (c', UOk) /\
    ch_cur c' = ch_next ex_genesis /\ ch_last c' = ex_set /\ ch_height c' = 1 /\ ch_changed c' = 3 /\
    map v_addr (vs_vals (ch_next c')) = [1%N; 2%N; 4%N] /\
    co_rounds (snd (chain_observe c' true false UOk)) = [Some 1%N; Some 1%N; Some 2%N].
Proof.
  eexists. split; [exact (genesis_good _ _ ex_good ex_genesis_eq)|].
  split; [vm_compute; reflexivity|]. vm_compute. repeat split.
Qed.

(** a report naming an unknown validator for removal next to a real change is rejected as a
    whole and the state is the one passed in *)
Example ex_chain_reject :
  apply_block ex_genesis [mkv 1 10; mkv 2 7; mkv 3 1; mkv 9 0] = Some (ex_genesis, UUnknown).
Proof. vm_compute. reflexivity. Qed.

(** the side condition of the any-times theorem holds for the example set (3 validators, T = 16) *)
Example ex_any_times_ok : round_bound (vs_vals ex_set) + total_power (vs_vals ex_set) <= B0.
Proof. vm_compute. discriminate. Qed.
