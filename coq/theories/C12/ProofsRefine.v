(** C12 — the int64 model of IncrementProposerPriority computes exactly what the
    specification (unbounded integers) prescribes, as long as the priorities the specification
    passes through during the call leave room for one more total below 2^63
    ([increment_refines_bounded]).  With priorities within B0 = 3 * 2^60 at the start of the
    call that is so when (times + 2) * T <= B0, and the result is again within that bound.
    Hence no wrapped operation differs from the exact one.
    The vocabulary of the later files is defined here: [B0], [bounded], [wf_vals], [wf_set], the tactic [i64],
    exactness of the safe arithmetic and of the cached total, [renormalised] / [model_renormalise]. *)
From Coq Require Import List ZArith NArith Bool Lia Permutation PeanoNat.
From Kardia Require Import Base.Int64 Base.ListX C12.Model C12.Spec C12.ProofsSort C12.ProofsSpec
     Generated.C12Facts.
Import ListNotations.
Local Open Scope Z_scope.

(** The largest bound on the priorities for which RescalePriorities stays within int64: it forms
    spread + window - 1 with spread <= 2 * B0 and window = 2T <= 2 * cap (last clause of [facts_fit]). *)
Definition B0 : Z := 3458764513820540928.   (* 3 * 2^60 *)

Lemma facts_fit :
  max_total_voting_power = Z.quot max_int64 8 /\ priority_window_size_factor = 2 /\
  go_max_int64 = max_int64 /\ go_min_int64 = min_int64 /\ B0 = 3 * 2 ^ 60 /\
  2 * B0 + 2 * max_total_voting_power <= max_int64.
Proof. vm_compute. repeat split; congruence. Qed.

Definition bounded (B : Z) (l : list validator) : Prop := forall v, In v l -> - B <= v_prio v <= B.

Lemma bounded_mono B B' l : B <= B' -> bounded B l -> bounded B' l.
Proof. intros L H v Hv. specialize (H v Hv). lia. Qed.

Definition wf_vals (l : list validator) : Prop :=
  l <> [] /\ NoDup (map v_addr l) /\ (forall v, In v l -> 0 < v_power v) /\
  total_power l <= max_total_voting_power.
Definition wf_set (s : vset) : Prop := wf_vals (vs_vals s) /\ vs_total s = total_power (vs_vals s).

Ltac i64 := unfold in_int64, min_int64, max_int64, two63, B0, max_total_voting_power in *; lia.

Lemma safe_add_clip'_exact a b :
  in_int64 a -> in_int64 b -> in_int64 (a + b) -> safe_add_clip' a b = a + b.
Proof.
  intros Ha Hb Hc. unfold safe_add_clip', safe_add.
  destruct (Z.ltb_spec 0 b) as [B1|B1]; cbn [andb].
  - rewrite (wrap64_id (max_int64 - b)) by i64.
    destruct (Z.ltb_spec (max_int64 - b) a) as [L|L]; [i64|].
    destruct (Z.ltb_spec b 0) as [B2|B2]; [lia|]. cbn [andb]. apply wrap64_id, Hc.
  - destruct (Z.ltb_spec b 0) as [B2|B2]; cbn [andb].
    + rewrite (wrap64_id (min_int64 - b)) by i64.
      destruct (Z.ltb_spec a (min_int64 - b)) as [L|L]; [i64|]. apply wrap64_id, Hc.
    + apply wrap64_id, Hc.
Qed.

(** in general: the clip of the exact result (the definition in Base/Int64.v) *)
Lemma safe_sub_clip'_clip a b : in_int64 a -> in_int64 b -> safe_sub_clip' a b = safe_sub_clip a b.
Proof.
  intros Ha Hb. unfold safe_sub_clip', safe_sub, safe_sub_clip.
  destruct (Z.ltb_spec 0 b) as [B1|B1]; cbn [andb].
  - rewrite (wrap64_id (min_int64 + b)) by i64.
    destruct (Z.ltb_spec a (min_int64 + b)) as [L|L].
    + destruct (Z.ltb_spec max_int64 (a - b)); [i64|]. destruct (Z.ltb_spec (a - b) min_int64); [reflexivity|i64].
    + destruct (Z.ltb_spec b 0) as [B2|B2]; [lia|]. cbn [andb].
      destruct (Z.ltb_spec max_int64 (a - b)); [i64|]. destruct (Z.ltb_spec (a - b) min_int64); [i64|].
      apply wrap64_id. i64.
  - destruct (Z.ltb_spec b 0) as [B2|B2]; cbn [andb].
    + rewrite (wrap64_id (max_int64 + b)) by i64.
      destruct (Z.ltb_spec (max_int64 + b) a) as [L|L].
      * destruct (Z.ltb_spec 0 b); [lia|]. destruct (Z.ltb_spec max_int64 (a - b)); [reflexivity|i64].
      * destruct (Z.ltb_spec max_int64 (a - b)); [i64|]. destruct (Z.ltb_spec (a - b) min_int64); [i64|].
        apply wrap64_id. i64.
    + assert (b = 0) by lia. subst b.
      destruct (Z.ltb_spec max_int64 (a - 0)); [i64|]. destruct (Z.ltb_spec (a - 0) min_int64); [i64|].
      apply wrap64_id. i64.
Qed.

Lemma safe_sub_clip'_exact a b :
  in_int64 a -> in_int64 b -> in_int64 (a - b) -> safe_sub_clip' a b = a - b.
Proof.
  intros Ha Hb Hc. rewrite safe_sub_clip'_clip by assumption. unfold safe_sub_clip.
  destruct (Z.ltb_spec max_int64 (a - b)); [i64|]. destruct (Z.ltb_spec (a - b) min_int64); [i64|reflexivity].
Qed.

Lemma sum_clip_exact l : forall acc,
  (forall v, In v l -> 0 < v_power v) -> 0 <= acc -> acc + total_power l <= max_total_voting_power ->
  sum_clip l acc = Some (acc + total_power l).
Proof.
  induction l as [|h t IH]; intros acc Pp A0 Hc; cbn [sum_clip].
  - f_equal. cbn. lia.
  - rewrite total_power_cons in *.
    pose proof (Pp h (or_introl eq_refl)) as Ph.
    pose proof (total_power_nonneg t (fun v Hv => Pp v (or_intror Hv))) as T0.
    rewrite safe_add_clip'_exact by i64.
    destruct (Z.ltb_spec max_total_voting_power (acc + v_power h)) as [L|L]; [lia|].
    rewrite IH; [f_equal; lia|intros; apply Pp; now right|lia|lia].
Qed.

Lemma wf_total_pos l : wf_vals l -> 0 < total_power l.
Proof. intros (NE & _ & Pp & _). now apply total_power_pos. Qed.

Lemma wf_total_voting_power s : wf_set s -> total_voting_power s = Some (s, total_power (vs_vals s)).
Proof.
  intros [W E]. pose proof (wf_total_pos _ W). unfold total_voting_power.
  destruct (Z.eqb_spec (vs_total s) 0); [lia|]. now rewrite E.
Qed.

Lemma max_min_spec l : forall mx0 mn0 mx mn, max_min l mx0 mn0 = (mx, mn) ->
  (mx0 <= mx /\ (forall v, In v l -> v_prio v <= mx) /\ (mx = mx0 \/ exists v, In v l /\ v_prio v = mx)) /\
  (mn <= mn0 /\ (forall v, In v l -> mn <= v_prio v) /\ (mn = mn0 \/ exists v, In v l /\ v_prio v = mn)).
Proof.
  induction l as [|h t IH]; intros mx0 mn0 mx mn H; cbn [max_min] in H.
  - inversion H; subst. repeat split; try lia; try (intros v []); now left.
  - replace (if v_prio h <? mn0 then v_prio h else mn0) with (Z.min mn0 (v_prio h)) in H
      by (destruct (Z.ltb_spec (v_prio h) mn0); lia).
    replace (if mx0 <? v_prio h then v_prio h else mx0) with (Z.max mx0 (v_prio h)) in H
      by (destruct (Z.ltb_spec mx0 (v_prio h)); lia).
    apply IH in H. destruct H as ((A1 & A2 & A3) & (B1 & B2 & B3)).
    split; (split; [lia|split; [intros v [<-|Hv]; [lia|auto]|]]).
    + destruct A3 as [->|(v & Hv & E)]; [|right; exists v; split; [now right|exact E]].
      destruct (Z.max_spec mx0 (v_prio h)) as [[_ ->]|[_ ->]]; [right; exists h; split; [now left|reflexivity]|now left].
    + destruct B3 as [->|(v & Hv & E)]; [|right; exists v; split; [now right|exact E]].
      destruct (Z.min_spec mn0 (v_prio h)) as [[_ ->]|[_ ->]]; [now left|right; exists h; split; [now left|reflexivity]].
Qed.

Lemma max_min_is l mx mn :
  l <> [] -> (forall v, In v l -> in_int64 (v_prio v)) ->
  max_min l min_int64 max_int64 = (mx, mn) -> is_max l mx /\ is_min l mn.
Proof.
  intros NE R H. apply max_min_spec in H. destruct H as ((A1 & A2 & A3) & (B1 & B2 & B3)).
  destruct l as [|h t]; [congruence|].
  pose proof (R h (or_introl eq_refl)) as Rh.
  split; split; try assumption.
  - destruct A3 as [->|?]; [|assumption]. exists h. split; [now left|].
    specialize (A2 h (or_introl eq_refl)). i64.
  - destruct B3 as [->|?]; [|assumption]. exists h. split; [now left|].
    specialize (B2 h (or_introl eq_refl)). i64.
Qed.

Lemma is_max_min_bounded B l mx mn : bounded B l -> is_max l mx -> is_min l mn ->
  - B <= mx <= B /\ - B <= mn <= B /\ mn <= mx.
Proof.
  intros HB [(v & Hv & <-) Mx] [(w & Hw & <-) Mn].
  pose proof (HB v Hv). pose proof (HB w Hw). specialize (Mx w Hw). lia.
Qed.

Lemma quot_abs_le p r : 1 <= r -> - Z.abs p <= Z.quot p r <= Z.abs p.
Proof.
  intros Hr. pose proof (Z.quot_rem' p r) as E.
  destruct (Z.le_gt_cases 0 p) as [P|P].
  - pose proof (Z.quot_pos p r P ltac:(lia)). pose proof (Z.rem_bound_pos p r P ltac:(lia)).
    assert (r * Z.quot p r >= 1 * Z.quot p r) by (apply Z.le_ge, Z.mul_le_mono_nonneg_r; lia). lia.
  - pose proof (Z.rem_bound_pos_neg p r ltac:(lia) ltac:(lia)).
    assert (Z.quot p r <= 0).
    { destruct (Z.le_gt_cases (Z.quot p r) 0); [assumption|].
      assert (r * 1 <= r * Z.quot p r) by (apply Z.mul_le_mono_nonneg_l; lia). lia. }
    assert (r * Z.quot p r <= 1 * Z.quot p r) by (apply Z.mul_le_mono_nonpos_r; lia). lia.
Qed.

Lemma rescale_refines l T :
  l <> [] -> 0 < T <= max_total_voting_power -> bounded B0 l ->
  exists l1, rescale l (wrap64 (priority_window_size_factor * T)) = Some l1 /\
             spec_rescale T l l1 /\ bounded B0 l1.
Proof.
  intros NE HT HB. unfold priority_window_size_factor.
  rewrite (wrap64_id (2 * T)) by i64.
  unfold rescale. destruct (Z.leb_spec (2 * T) 0) as [L0|L0]; [lia|].
  unfold max_min_diff. destruct (max_min l min_int64 max_int64) as [mx mn] eqn:MM.
  destruct (max_min_is l mx mn NE) as [IMx IMn]; [intros v Hv; specialize (HB v Hv); i64|exact MM|].
  destruct (is_max_min_bounded _ _ _ _ HB IMx IMn) as (Bx & Bn & Lnx).
  rewrite (wrap64_id (mx - mn)) by i64.
  destruct (Z.ltb_spec (mx - mn) 0) as [Ld|Ld]; [lia|].
  rewrite (wrap64_id (mx - mn + 2 * T)) by i64.
  rewrite (wrap64_id (mx - mn + 2 * T - 1)) by i64.
  unfold div64. rewrite Z.quot_div_nonneg by lia.
  set (r := (mx - mn + 2 * T - 1) / (2 * T)).
  destruct (Z.ltb_spec (2 * T) (mx - mn)) as [Lw|Lw].
  - destruct (ceil_div_bounds (mx - mn) (2 * T) ltac:(lia) Lw) as [R2 RW]. fold r in R2, RW.
    assert (r <= mx - mn + 2 * T - 1) as Rle.
    { unfold r. apply Z.div_le_upper_bound; [lia|].
      assert (1 * (mx - mn + 2 * T - 1) <= 2 * T * (mx - mn + 2 * T - 1)) by (apply Z.mul_le_mono_nonneg_r; lia). lia. }
    rewrite (wrap64_id r) by i64.
    destruct (Z.eqb_spec r 0) as [|_]; [lia|].
    eexists. split; [reflexivity|]. split.
    + exists mx, mn. split; [exact IMx|]. split; [exact IMn|]. cbn zeta.
      destruct (Z.ltb_spec (2 * T) (mx - mn)); [|lia]. fold r.
      apply map_ext_in. intros v Hv. f_equal. apply wrap64_id.
      pose proof (quot_abs_le (v_prio v) r ltac:(lia)). specialize (HB v Hv). i64.
    + intros v' Hv'. apply in_map_iff in Hv'. destruct Hv' as (v & <- & Hv). cbn [set_prio v_prio].
      pose proof (quot_abs_le (v_prio v) r ltac:(lia)). specialize (HB v Hv).
      rewrite wrap64_id by i64. lia.
  - eexists. split; [reflexivity|]. split; [|exact HB].
    exists mx, mn. split; [exact IMx|]. split; [exact IMn|]. cbn zeta.
    destruct (Z.ltb_spec (2 * T) (mx - mn)); [lia|reflexivity].
Qed.

(** the model's sum and the specification's are the same fold *)
Lemma sum_prio_eq l : sum_prio l = sum_priorities l.
Proof. reflexivity. Qed.

Lemma shift_refines l :
  l <> [] -> bounded B0 l ->
  exists l2, shift_by_avg l = Some l2 /\ spec_centre l l2.
Proof.
  intros NE HB. unfold shift_by_avg, avg_prio. rewrite sum_prio_eq.
  assert (0 < Z.of_nat (length l)) as Hn by (destruct l; [congruence|cbn [length]; lia]).
  pose proof (sum_le_max l B0 (fun v Hv => proj2 (HB v Hv))) as U.
  pose proof (sum_ge_min l (- B0) (fun v Hv => proj1 (HB v Hv))) as L.
  set (n := Z.of_nat (length l)) in *. set (S := sum_priorities l) in *.
  assert (- B0 <= S / n <= B0) as A.
  { split.
    - apply Z.div_le_lower_bound; lia.
    - apply Z.div_le_upper_bound; lia. }
  destruct (Z.leb_spec min_int64 (S / n)) as [A1|A1]; [|i64].
  destruct (Z.leb_spec (S / n) max_int64) as [A2|A2]; [|i64]. cbn [andb].
  eexists. split; [reflexivity|]. unfold spec_centre. fold n S.
  apply map_ext_in. intros v Hv. f_equal. specialize (HB v Hv).
  apply safe_sub_clip'_exact; i64.
Qed.

Lemma beats_trans a b c : beats a b -> beats b c -> beats a c.
Proof. unfold beats. intros [H1|[H1 H1']] [H2|[H2 H2']]; [left; lia|left; lia|left; lia|right; split; lia]. Qed.

(** Validator.CompareProposerPriority decides [beats] between validators of different address *)
Lemma compare_prio_spec a b : v_addr a <> v_addr b ->
  (compare_prio a b = Some true /\ beats a b) \/ (compare_prio a b = Some false /\ beats b a).
Proof.
  intros D. unfold compare_prio, beats.
  destruct (Z.ltb_spec (v_prio b) (v_prio a)); [left; auto|].
  destruct (Z.ltb_spec (v_prio a) (v_prio b)); [right; auto|].
  destruct (N.ltb_spec (v_addr a) (v_addr b)); [left; split; [reflexivity|right; split; lia]|].
  destruct (N.ltb_spec (v_addr b) (v_addr a)); [right; split; [reflexivity|right; split; lia]|lia].
Qed.

(** the scan of getValWithMostPriority: [res] is the best of the prefix [pre] already seen *)
Lemma most_from_spec l : forall pre res,
  NoDup (map v_addr (pre ++ l)) ->
  nth_error (pre ++ l) (fst res) = Some (snd res) -> In (snd res) pre ->
  (forall w, In w pre -> v_addr w <> v_addr (snd res) -> beats (snd res) w) ->
  exists r, most_from res (length pre) l = Some r /\
            nth_error (pre ++ l) (fst r) = Some (snd r) /\
            (forall w, In w (pre ++ l) -> v_addr w <> v_addr (snd r) -> beats (snd r) w).
Proof.
  induction l as [|v t IH]; intros pre res N Hn Hin Hb; cbn [most_from].
  - exists res. rewrite app_nil_r in *. auto.
  - assert (v_addr (snd res) <> v_addr v) as D.
    { intros E. rewrite map_app in N. cbn [map] in N. apply NoDup_remove_2 in N.
      apply N. rewrite in_app_iff. left. rewrite <- E. now apply in_map. }
    replace (pre ++ v :: t) with ((pre ++ [v]) ++ t) in * by (rewrite <- app_assoc; reflexivity).
    replace (S (length pre)) with (length (pre ++ [v])) by (rewrite app_length; cbn; lia).
    destruct (compare_prio_spec (snd res) v D) as [[-> C]|[-> C]]; apply IH; cbn [fst snd]; try assumption.
    + rewrite in_app_iff. now left.
    + intros w Hw Dw. rewrite in_app_iff in Hw. destruct Hw as [Hw|[<-|[]]]; [now apply Hb|exact C].
    + rewrite nth_error_app1 by (rewrite app_length; cbn; lia).
      rewrite nth_error_app2 by lia. now rewrite Nat.sub_diag.
    + rewrite in_app_iff. right. now left.
    + intros w Hw Dw. rewrite in_app_iff in Hw. destruct Hw as [Hw|[<-|[]]]; [|congruence].
      destruct (N.eq_dec (v_addr w) (v_addr (snd res))) as [E|E].
      * assert (w = snd res) as ->; [|exact C].
        apply (nodup_addr_eq ((pre ++ [v]) ++ t)); try assumption; rewrite !in_app_iff; now left; left.
      * eapply beats_trans; [exact C|now apply Hb].
Qed.

Lemma most_priority_spec l :
  l <> [] -> NoDup (map v_addr l) ->
  exists i m, most_priority l = Some (i, m) /\ nth_error l i = Some m /\ is_proposer l m.
Proof.
  intros NE N. destruct l as [|h t]; [congruence|]. cbn [most_priority].
  destruct (most_from_spec t [h] (O, h) N eq_refl (or_introl eq_refl)) as ([i m] & H & Hn & Hb).
  { intros w [<-|[]] D. cbn [snd] in D. congruence. }
  cbn [length] in H. exists i, m. split; [exact H|]. split; [exact Hn|].
  split; [eapply nth_error_In; exact Hn|exact Hb].
Qed.

Lemma set_nth_pay T l : forall i m,
  NoDup (map v_addr l) -> nth_error l i = Some m ->
  set_nth i (set_prio m (v_prio m - T)) l = pay T (v_addr m) l.
Proof.
  induction l as [|h t IH]; intros i m N Hn; [destruct i; discriminate|].
  cbn [map] in N. inversion N as [|? ? Nh Nt]; subst.
  destruct i as [|i]; cbn [nth_error] in Hn; cbn [set_nth pay map].
  - inversion Hn; subst. rewrite N.eqb_refl. f_equal. symmetry. now apply pay_not_in.
  - fold (pay T (v_addr m) t). rewrite (IH i m Nt Hn).
    destruct (N.eqb_spec (v_addr h) (v_addr m)) as [E|E]; [|reflexivity].
    exfalso. apply Nh. rewrite E. apply in_map. eapply nth_error_In; exact Hn.
Qed.

Lemma wf_vals_members l l' : same_members l l' -> wf_vals l -> wf_vals l'.
Proof.
  intros M (NE & N & Pp & C). repeat split.
  - exact (same_members_nil _ _ M NE).
  - rewrite (proj1 M). exact N.
  - exact (same_members_pos _ _ M Pp).
  - rewrite (same_members_total _ _ M). exact C.
Qed.

Lemma wf_vals_perm l l' : Permutation l l' -> wf_vals l -> wf_vals l'.
Proof.
  intros P (NE & N & Pp & C). repeat split.
  - intros ->. apply Permutation_sym, Permutation_nil in P. congruence.
  - exact (nodup_addr_perm _ _ P N).
  - intros v Hv. apply Pp. eapply Permutation_in; [apply Permutation_sym, P|exact Hv].
  - rewrite <- (total_power_perm _ _ P). exact C.
Qed.

Lemma wf_set_members s l' : same_members (vs_vals s) l' -> wf_set s -> wf_set (with_vals s l').
Proof.
  intros M [W E]. split; cbn [with_vals vs_vals vs_total]; [exact (wf_vals_members _ _ M W)|].
  now rewrite (same_members_total _ _ M).
Qed.

Lemma increment_once_refines s B :
  wf_set s -> bounded B (vs_vals s) -> 0 <= B -> B + total_power (vs_vals s) <= max_int64 ->
  exists s' m, increment_once s = Some (s', m) /\
    spec_round (vs_vals s) (vs_vals s') (v_addr m) /\ In m (vs_vals s') /\
    wf_set s' /\ vs_total s' = vs_total s /\ vs_proposer s' = vs_proposer s.
Proof.
  intros W HB B0' BM. pose proof W as [(NE & N & Pp & C) ET].
  unfold increment_once.
  assert (map (fun v => set_prio v (wrap64 (v_prio v + v_power v))) (vs_vals s) = advance (vs_vals s)) as ->.
  { unfold advance. apply map_ext_in. intros v Hv. f_equal. apply wrap64_id.
    specialize (HB v Hv). pose proof (power_le_total _ _ Pp Hv). specialize (Pp v Hv). i64. }
  pose proof (advance_members (vs_vals s)) as MA.
  pose proof (wf_set_members s _ MA W) as WS. pose proof WS as [(_ & NA & _) _]. cbn [with_vals vs_vals] in NA.
  destruct (most_priority_spec (advance (vs_vals s))) as (i & m & -> & Hn & HP);
    [exact (same_members_nil _ _ MA NE)|exact NA|].
  rewrite (wf_total_voting_power _ WS). cbn [with_vals vs_vals].
  rewrite (same_members_total _ _ MA).
  pose proof (total_power_pos _ NE Pp) as Tpos.
  set (T := total_power (vs_vals s)) in *.
  assert (- B <= v_prio m <= B + T) as Bm.
  { destruct HP as [Hm _]. unfold advance in Hm. apply in_map_iff in Hm. destruct Hm as (u & <- & Hu).
    cbn [set_prio v_prio].
    specialize (HB u Hu). pose proof (power_le_total _ _ Pp Hu). specialize (Pp u Hu). lia. }
  rewrite safe_sub_clip'_exact by i64.
  rewrite (set_nth_pay T _ i m NA Hn).
  eexists. eexists. split; [reflexivity|]. cbn [with_vals vs_vals vs_total vs_proposer set_prio v_addr].
  split; [exists m; auto|]. split.
  { unfold pay. apply in_map_iff. exists m. rewrite N.eqb_refl. split; [reflexivity|apply HP]. }
  split; [|auto].
  exact (wf_set_members s _ (same_members_trans _ _ _ MA (pay_members _ _ _)) W).
Qed.

(** a round moves every priority by at most the total *)
Lemma spec_round_bounded B l l' a :
  (forall v, In v l -> 0 < v_power v) -> bounded B l -> spec_round l l' a -> bounded (B + total_power l) l'.
Proof.
  intros Pp HB (p & _ & _ & ->) v' Hv'.
  unfold pay, advance in Hv'. rewrite map_map in Hv'. apply in_map_iff in Hv'. destruct Hv' as (u & <- & Hu).
  specialize (HB u Hu). pose proof (power_le_total _ _ Pp Hu). specialize (Pp u Hu).
  destruct (N.eqb _ _); cbn [set_prio v_prio]; lia.
Qed.

Lemma spec_rounds_bounded B k l l' props :
  (forall v, In v l -> 0 < v_power v) -> bounded B l -> spec_rounds k l l' props ->
  bounded (B + Z.of_nat k * total_power l) l'.
Proof.
  intros Pp HB R. revert B HB. induction R as [l|k l l1 l2 a props R1 _ IH]; intros B HB.
  - intros v Hv. specialize (HB v Hv). lia.
  - destruct (spec_round_members _ _ _ R1) as [M _].
    specialize (IH (same_members_pos _ _ M Pp) _ (spec_round_bounded _ _ _ _ Pp HB R1)).
    rewrite (same_members_total _ _ M) in IH.
    intros v Hv. specialize (IH v Hv). lia.
Qed.

Lemma spec_rounds_snoc k l l1 l2 props a :
  spec_rounds k l l1 props -> spec_round l1 l2 a -> spec_rounds (S k) l l2 (props ++ [a]).
Proof.
  intros R. revert l2 a. induction R as [l|k l l1' l2' a' props R1 R IH]; intros l3 a R3.
  - cbn. econstructor; [exact R3|constructor].
  - cbn [app]. econstructor; [exact R1|]. now apply IH.
Qed.

(** The inner loop follows the specification round by round as long as every state the
    specification passes through is within a bound [B] that leaves room for one more total. *)
Lemma rounds_refine (k : nat) s B :
  wf_set s -> 0 <= B -> B + total_power (vs_vals s) <= max_int64 ->
  (forall j l' props, (j <= k)%nat -> spec_rounds j (vs_vals s) l' props -> bounded B l') ->
  exists s' m props,
    nat_rect (fun _ => iter_state) (Some (s, None)) (fun _ => iter_step) (S k) = Some (s', Some m) /\
    spec_rounds (S k) (vs_vals s) (vs_vals s') props /\ last props 0%N = v_addr m /\ In m (vs_vals s') /\
    wf_set s' /\ vs_total s' = vs_total s /\ vs_proposer s' = vs_proposer s.
Proof.
  intros W B0' BM. induction k as [|k IH]; intros Inv.
  - cbn [nat_rect iter_step].
    destruct (increment_once_refines s B W) as (s' & m & -> & R & Hm & W' & T' & P'); [|assumption..|].
    { apply (Inv O _ []); [lia|constructor]. }
    exists s', m, [v_addr m]. split; [reflexivity|]. split; [econstructor; [exact R|constructor]|].
    split; [reflexivity|auto].
  - destruct IH as (s1 & m1 & props & E & R & _ & _ & W1 & T1 & P1); [intros j l' pr Hj; apply Inv; lia|].
    change (nat_rect (fun _ => iter_state) (Some (s, None)) (fun _ => iter_step) (S (S k)))
      with (iter_step (nat_rect (fun _ => iter_state) (Some (s, None)) (fun _ => iter_step) (S k))).
    rewrite E. cbn [iter_step].
    assert (total_power (vs_vals s1) = total_power (vs_vals s)) as ET.
    { destruct W as [_ E0], W1 as [_ E1]. lia. }
    destruct (increment_once_refines s1 B W1) as (s' & m & -> & R' & Hm & W' & T' & P');
      [apply (Inv (S k) _ props); [lia|exact R]|exact B0'|rewrite ET; exact BM|].
    exists s', m, (props ++ [v_addr m]).
    split; [reflexivity|]. split; [eapply spec_rounds_snoc; eassumption|]. split; [now rewrite last_last|].
    split; [exact Hm|]. split; [exact W'|]. split; congruence.
Qed.

(** The int64 code computes the specified rounds whenever the priorities the SPECIFICATION
    produces during the call stay within some [B] with [B + T <= max_int64]; the two theorems
    about calls differ only in the bound they supply. *)
Theorem increment_refines_bounded s (times : positive) B :
  wf_set s -> bounded B0 (vs_vals s) -> 0 <= B -> B + total_power (vs_vals s) <= max_int64 ->
  (forall l1 l2 j l' props,
     spec_rescale (total_power (vs_vals s)) (vs_vals s) l1 -> spec_centre l1 l2 ->
     (j <= Pos.to_nat times)%nat -> spec_rounds j l2 l' props -> bounded B l') ->
  exists s' props a p,
    increment s (Z.pos times) = Some s' /\
    spec_increment (vs_vals s) (Pos.to_nat times) (vs_vals s') props /\
    last props 0%N = a /\ vs_proposer s' = Some (a, p) /\
    (exists m0, In m0 (vs_vals s') /\ v_addr m0 = a /\ v_power m0 = p) /\
    wf_set s' /\ vs_total s' = vs_total s /\ bounded B (vs_vals s').
Proof.
  intros W HB B0' BM Inv. pose proof W as [Wv ET]. pose proof Wv as (NE & N & Pp & C).
  pose proof (wf_total_pos _ Wv) as Tpos.
  unfold increment. destruct (vs_vals s) as [|v0 vt] eqn:EV; [congruence|]. rewrite <- EV in *.
  rewrite (wf_total_voting_power _ W).
  set (T := total_power (vs_vals s)) in *.
  destruct (rescale_refines (vs_vals s) T NE ltac:(lia) HB) as (l1 & -> & SR & HB1).
  pose proof (spec_rescale_members _ _ _ SR) as M1.
  destruct (shift_refines l1 (same_members_nil _ _ M1 NE) HB1) as (l2 & -> & SC).
  pose proof (spec_renormalise_members _ _ _ _ SR SC) as M2.
  destruct (Pos2Nat.is_succ times) as (k & EK).
  rewrite Pos2Nat.inj_iter, EK in *.
  destruct (rounds_refine k (with_vals s l2) B (wf_set_members s l2 M2 W) B0') as
      (s' & m & props & -> & R & L & Hm & W' & T' & P'); cbn [with_vals vs_vals] in *.
  { rewrite (same_members_total _ _ M2). exact BM. }
  { intros j l' pr Hj. apply (Inv l1 l2); [exact SR|exact SC|lia]. }
  exists (with_proposer s' (Some (v_addr m, v_power m))), props, (v_addr m), (v_power m).
  cbn [with_proposer vs_vals vs_total vs_proposer].
  split; [reflexivity|]. split; [exists l1, l2; auto|]. split; [exact L|]. split; [reflexivity|].
  split; [exists m; auto|]. split; [exact W'|]. split; [exact T'|].
  apply (Inv l1 l2 (S k) _ props SR SC); [lia|exact R].
Qed.

(** with the bound that grows by T per round: (times + 2) * T *)
Theorem increment_refines s (times : positive) :
  wf_set s -> bounded B0 (vs_vals s) ->
  (Z.pos times + 2) * total_power (vs_vals s) <= B0 ->
  exists s' props a p,
    increment s (Z.pos times) = Some s' /\
    spec_increment (vs_vals s) (Pos.to_nat times) (vs_vals s') props /\
    last props 0%N = a /\ vs_proposer s' = Some (a, p) /\
    (exists m0, In m0 (vs_vals s') /\ v_addr m0 = a /\ v_power m0 = p) /\
    wf_set s' /\ vs_total s' = vs_total s /\
    bounded ((Z.pos times + 2) * total_power (vs_vals s)) (vs_vals s').
Proof.
  intros W HB HK. pose proof W as [Wv _]. pose proof Wv as (NE & _ & Pp & C).
  pose proof (wf_total_pos _ Wv) as Tpos.
  apply increment_refines_bounded; [exact W|exact HB|lia|i64|].
  intros l1 l2 j l' props SR SC Hj R.
  destruct (spec_renormalise _ _ _ _ Tpos NE SR SC) as (_ & _ & Bnd).
  pose proof (spec_renormalise_members _ _ _ _ SR SC) as M.
  pose proof (spec_rounds_bounded _ _ _ _ _ (same_members_pos _ _ M Pp) Bnd R) as HB'.
  rewrite (same_members_total _ _ M) in HB'.
  (* within 2T after the renormalisation, plus T per round, j <= times rounds *)
  intros v Hv. specialize (HB' v Hv). nia.
Qed.

(** the renormalisation at the start of every call (and at the end of every update): what it
    establishes about the set [l2] it produces from [l] *)
Definition renormalised (T : Z) (l l1 l2 : list validator) : Prop :=
  spec_rescale T l l1 /\ spec_centre l1 l2 /\
  within_window (2 * T) l2 /\ 0 <= sum_priorities l2 < Z.of_nat (length l2) /\ bounded (2 * T) l2 /\
  same_members l l2.

Theorem model_renormalise l T :
  l <> [] -> 0 < T <= max_total_voting_power -> bounded B0 l ->
  exists l1 l2,
    rescale l (wrap64 (priority_window_size_factor * T)) = Some l1 /\ shift_by_avg l1 = Some l2 /\
    renormalised T l l1 l2.
Proof.
  intros NE HT HB.
  destruct (rescale_refines l T NE HT HB) as (l1 & R & SR & HB1).
  pose proof (spec_rescale_members _ _ _ SR) as M1.
  destruct (shift_refines l1 (same_members_nil _ _ M1 NE) HB1) as (l2 & S & SC).
  destruct (spec_renormalise T _ _ _ (proj1 HT) NE SR SC) as (Win & Sum & Bnd).
  exists l1, l2. repeat (split; [assumption|]).
  exact (spec_renormalise_members _ _ _ _ SR SC).
Qed.

Theorem increment_once_sum s B s' m :
  wf_set s -> bounded B (vs_vals s) -> 0 <= B -> B + total_power (vs_vals s) <= max_int64 ->
  increment_once s = Some (s', m) -> sum_prio (vs_vals s') = sum_prio (vs_vals s).
Proof.
  intros W HB B0' BM H.
  destruct (increment_once_refines s B W HB B0' BM) as (s1 & m1 & E & R & _).
  rewrite E in H. inversion H; subst. rewrite !sum_prio_eq.
  eapply spec_round_sum; [apply W|exact R].
Qed.
