(** C12 — the parts of updateWithChangeSet, each on lists with distinct addresses: lookups, the
    power that verifyRemovals adds up, the start priorities, the merge of applyUpdates and the
    scan of applyRemovals; then the sets the calls are made on ([updatable], [good]) and the
    operations of a history.  ProofsUpdate3 puts the parts together. *)
From Coq Require Import List ZArith NArith Bool Lia Permutation Sorted.
From Kardia Require Import Base.Int64 C12.Model C12.Spec C12.ProofsSort C12.ProofsUpdate C12.ProofsSpec
     C12.ProofsRefine Generated.C12Facts.
Import ListNotations.
Local Open Scope Z_scope.

Lemma get_by_addr_in a l v : get_by_addr a l = Some v -> In v l /\ v_addr v = a.
Proof.
  induction l as [|h t IH]; [discriminate|]. cbn [get_by_addr].
  destruct (N.eqb_spec a (v_addr h)) as [E|E].
  - intros H; inversion H; subst. split; [now left|reflexivity].
  - intros H. destruct (IH H). split; [now right|assumption].
Qed.

Lemma get_some_iff l a v : NoDup (map v_addr l) ->
  (get_by_addr a l = Some v <-> In v l /\ v_addr v = a).
Proof.
  intros N. split; [apply get_by_addr_in|]. intros [Hv <-].
  induction l as [|h t IH]; [destruct Hv|]. cbn [map] in N. inversion N as [|? ? Nh Nt]; subst.
  cbn [get_by_addr]. destruct Hv as [->|Hv]; [now rewrite N.eqb_refl|].
  destruct (N.eqb_spec (v_addr v) (v_addr h)) as [E|E]; [|now apply IH].
  exfalso. apply Nh. rewrite <- E. now apply in_map.
Qed.

Lemma get_none_iff l a : get_by_addr a l = None <-> ~ In a (map v_addr l).
Proof.
  induction l as [|h t IH]; cbn [get_by_addr map In]; [tauto|].
  destruct (N.eqb_spec a (v_addr h)) as [E|E]; [split; [discriminate|intros H; exfalso; apply H; now left]|].
  rewrite IH. split; [intros H [H'|H']; [congruence|tauto]|tauto].
Qed.

Lemma has_addr_in a l : has_addr a l = true <-> In a (map v_addr l).
Proof.
  unfold has_addr. destruct (get_by_addr a l) eqn:G.
  - split; [intros _|reflexivity]. apply get_by_addr_in in G. destruct G as [Hv <-]. now apply in_map.
  - split; [discriminate|]. intros H. apply get_none_iff in G. contradiction.
Qed.

Lemma forallb_has_addr l xs :
  forallb (fun x => has_addr (v_addr x) l) xs = true <-> forall x, In x xs -> In (v_addr x) (map v_addr l).
Proof. rewrite forallb_forall. split; intros H x Hx; apply has_addr_in, H, Hx. Qed.

(** pigeonhole on addresses *)
Lemma addr_incl_length (a b : list validator) :
  NoDup (map v_addr a) -> (forall x, In x a -> In (v_addr x) (map v_addr b)) -> (length a <= length b)%nat.
Proof.
  intros N H. rewrite <- (map_length v_addr a), <- (map_length v_addr b). apply NoDup_incl_length; [exact N|].
  intros x Hx. apply in_map_iff in Hx. destruct Hx as (y & <- & Hy). now apply H.
Qed.

Lemma get_perm l l' a : NoDup (map v_addr l) -> Permutation l l' -> get_by_addr a l = get_by_addr a l'.
Proof.
  intros N P. pose proof (nodup_addr_perm _ _ P N) as N'.
  destruct (get_by_addr a l) as [v|] eqn:G; symmetry.
  - apply (get_some_iff _ _ _ N'). apply (get_some_iff _ _ _ N) in G. destruct G as [Hv E].
    split; [eapply Permutation_in; eassumption|exact E].
  - apply get_none_iff. apply get_none_iff in G. intros H. apply G.
    eapply Permutation_in; [apply Permutation_map, Permutation_sym, P|exact H].
Qed.

Definition look (vals : list validator) (x : validator) : Z :=
  match get_by_addr (v_addr x) vals with Some v => v_power v | None => 0 end.
Definition lsum (vals xs : list validator) : Z := fold_right (fun x a => look vals x + a) 0 xs.

Lemma lsum_cons vals x t : lsum vals (x :: t) = look vals x + lsum vals t.
Proof. reflexivity. Qed.

Lemma look_perm l l' x : NoDup (map v_addr l) -> Permutation l l' -> look l x = look l' x.
Proof. intros N P. unfold look. now rewrite (get_perm l l' _ N P). Qed.

Lemma look_cons_ne e ex x : v_addr x <> v_addr e -> look (e :: ex) x = look ex x.
Proof. intros D. unfold look. cbn [get_by_addr]. destruct (N.eqb_spec (v_addr x) (v_addr e)); [congruence|reflexivity]. Qed.

Lemma look_cons_eq e ex x : v_addr x = v_addr e -> look (e :: ex) x = v_power e.
Proof. intros D. unfold look. cbn [get_by_addr]. rewrite D, N.eqb_refl. reflexivity. Qed.

Lemma look_nonneg vals x : (forall v, In v vals -> 0 < v_power v) -> 0 <= look vals x.
Proof.
  intros Pp. unfold look. destruct (get_by_addr (v_addr x) vals) as [v|] eqn:G; [|lia].
  apply get_by_addr_in in G. specialize (Pp v (proj1 G)). lia.
Qed.

Lemma lsum_nonneg vals xs : (forall v, In v vals -> 0 < v_power v) -> 0 <= lsum vals xs.
Proof.
  intros Pp. induction xs as [|x t IH]; [cbn; lia|].
  rewrite lsum_cons. pose proof (look_nonneg vals x Pp). lia.
Qed.

Lemma lsum_app vals xs ys : lsum vals (xs ++ ys) = lsum vals xs + lsum vals ys.
Proof. induction xs as [|x t IH]; cbn [app]; rewrite ?lsum_cons; [reflexivity|lia]. Qed.

Lemma lsum_perm vals xs ys : Permutation xs ys -> lsum vals xs = lsum vals ys.
Proof. intros P. induction P; rewrite ?lsum_cons; lia. Qed.

Lemma lsum_ext vals vals' xs : (forall x, In x xs -> look vals x = look vals' x) -> lsum vals xs = lsum vals' xs.
Proof.
  induction xs as [|x t IH]; intros H; [reflexivity|]. rewrite !lsum_cons, (H x (or_introl eq_refl)).
  rewrite IH; [reflexivity|]. intros; apply H; now right.
Qed.

Lemma lsum_cons_not_in h t xs :
  ~ In (v_addr h) (map v_addr xs) -> lsum (h :: t) xs = lsum t xs.
Proof.
  intros NI. apply lsum_ext. intros x Hx. apply look_cons_ne. intros E. apply NI. rewrite <- E. now apply in_map.
Qed.

Lemma lsum_cons_le h t xs :
  NoDup (map v_addr xs) -> (forall v, In v (h :: t) -> 0 < v_power v) ->
  lsum (h :: t) xs <= v_power h + lsum t xs.
Proof.
  intros N Pp. induction xs as [|x r IH]; [specialize (Pp h (or_introl eq_refl)); cbn; lia|].
  rewrite !lsum_cons. cbn [map] in N. inversion N as [|? ? Nx Nr]; subst.
  pose proof (look_nonneg t x (fun v Hv => Pp v (or_intror Hv))) as L.
  destruct (N.eq_dec (v_addr x) (v_addr h)) as [E|E].
  - rewrite (look_cons_eq h t x E), lsum_cons_not_in; [lia|]. rewrite <- E. exact Nx.
  - rewrite look_cons_ne by exact E. specialize (IH Nr). lia.
Qed.

Lemma lsum_le_total vals xs :
  NoDup (map v_addr xs) -> (forall v, In v vals -> 0 < v_power v) -> lsum vals xs <= total_power vals.
Proof.
  intros N. induction vals as [|h t IH]; intros Pp.
  - clear. induction xs as [|x r IHx]; [cbn; lia|]. rewrite lsum_cons. cbn in *. lia.
  - rewrite total_power_cons.
    pose proof (lsum_cons_le h t xs N Pp). specialize (IH (fun v Hv => Pp v (or_intror Hv))). lia.
Qed.

Lemma removed_power_found vals dels : forall acc,
  (forall v, In v vals -> 0 < v_power v) -> 0 <= acc -> acc + lsum vals dels <= max_int64 ->
  (forall d, In d dels -> In (v_addr d) (map v_addr vals)) ->
  removed_power dels vals acc = (acc + lsum vals dels, true).
Proof.
  induction dels as [|d t IH]; intros acc Pp A0 Hb Hin; cbn [removed_power].
  - f_equal. cbn. lia.
  - rewrite lsum_cons in *.
    pose proof (look_nonneg vals d Pp) as L0. pose proof (lsum_nonneg vals t Pp) as L1.
    pose proof (Hin d (or_introl eq_refl)) as Hd. unfold look in *.
    destruct (get_by_addr (v_addr d) vals) as [v|] eqn:G; [|apply get_none_iff in G; contradiction].
    rewrite wrap64_id by i64.
    rewrite IH; [f_equal; lia|exact Pp|lia|lia|]. intros; apply Hin; now right.
Qed.

Lemma verify_removals_spec vals dels :
  (forall v, In v vals -> 0 < v_power v) -> total_power vals <= max_total_voting_power ->
  NoDup (map v_addr dels) ->
  if forallb (fun d => has_addr (v_addr d) vals) dels
  then verify_removals dels vals = Some (lsum vals dels, true)
  else exists p, verify_removals dels vals = Some (p, false).
Proof.
  intros Pp C Nd. unfold verify_removals.
  destruct (forallb _ dels) eqn:F.
  - pose proof (proj1 (forallb_has_addr vals dels) F) as Hin.
    pose proof (lsum_le_total vals dels Nd Pp).
    rewrite (removed_power_found vals dels 0 Pp) by (try assumption; i64). cbn [negb].
    pose proof (addr_incl_length dels vals Nd Hin) as LL.
    destruct (Nat.ltb_spec (length vals) (length dels)); [lia|reflexivity].
  - assert (exists d, In d dels /\ get_by_addr (v_addr d) vals = None) as (d & Hd & G).
    { clear - F. induction dels as [|d t IH]; [discriminate|]. cbn [forallb] in F. unfold has_addr in F at 1.
      destruct (get_by_addr (v_addr d) vals) eqn:G; [|exists d; split; [now left|exact G]].
      destruct (IH F) as (x & Hx & Gx). exists x. split; [now right|exact Gx]. }
    pose proof (removed_power_unknown dels vals 0 d Hd G) as U.
    destruct (removed_power dels vals 0) as [p ok]. cbn in U. subst ok. exists p. reflexivity.
Qed.

Lemma new_priorities_members ups vals tvp : same_members ups (new_priorities ups vals tvp).
Proof.
  unfold new_priorities. split; rewrite map_map; apply map_ext; intros u;
    destruct (get_by_addr (v_addr u) vals); reflexivity.
Qed.

(** the start priority of a newcomer, -(T + T>>3) in int64, is exact for every total that can occur *)
Lemma newcomer_priority tvp : 0 <= tvp <= 2 * max_total_voting_power ->
  wrap64 (- wrap64 (tvp + Z.shiftr tvp 3)) = - (tvp + tvp / 8).
Proof.
  intros H. rewrite Z.shiftr_div_pow2 by lia. change (2 ^ 3) with 8.
  pose proof (Z.div_mod tvp 8 ltac:(lia)). pose proof (Z.mod_pos_bound tvp 8 ltac:(lia)).
  rewrite (wrap64_id (tvp + tvp / 8)) by i64. apply wrap64_id. i64.
Qed.

Lemma new_priorities_bounded ups vals tvp :
  bounded B0 vals -> 0 <= tvp <= 2 * max_total_voting_power -> bounded B0 (new_priorities ups vals tvp).
Proof.
  intros HB Ht u' Hu'. unfold new_priorities in Hu'. apply in_map_iff in Hu'. destruct Hu' as (u & <- & Hu).
  destruct (get_by_addr (v_addr u) vals) as [v|] eqn:G; cbn [set_prio v_prio].
  - apply HB. now apply get_by_addr_in in G.
  - rewrite (newcomer_priority tvp Ht).
    pose proof (Z.div_mod tvp 8 ltac:(lia)). pose proof (Z.mod_pos_bound tvp 8 ltac:(lia)). i64.
Qed.

Lemma strict_sorted_members l l' : same_members l l' -> StronglySorted addr_slt l -> StronglySorted addr_slt l'.
Proof.
  intros [A _] S. revert l' A. induction S as [|u t St IH Fu]; intros [|u' t'] A; try discriminate; [constructor|].
  injection A as A1 A2. constructor; [now apply IH|].
  rewrite Forall_forall in *. intros x Hx.
  assert (In (v_addr x) (map v_addr t)) as Hin by (rewrite <- A2; now apply in_map).
  apply in_map_iff in Hin. destruct Hin as (y & Ey & Hy). specialize (Fu y Hy). unfold addr_slt in *. lia.
Qed.

Lemma merge_cons_cons e ex' u ups' :
  merge_updates (e :: ex') (u :: ups') =
  if N.ltb (v_addr e) (v_addr u) then e :: merge_updates ex' (u :: ups')
  else if N.eqb (v_addr e) (v_addr u) then u :: merge_updates ex' ups'
       else u :: merge_updates (e :: ex') ups'.
Proof. reflexivity. Qed.

Lemma merge_nil_l ups : merge_updates [] ups = ups.
Proof. destruct ups; reflexivity. Qed.
Lemma merge_nil_r ex : merge_updates ex [] = ex.
Proof. destruct ex; reflexivity. Qed.

Lemma sorted_head_lt e t x : StronglySorted addr_slt (e :: t) -> In x t -> (v_addr e < v_addr x)%N.
Proof. intros S Hx. apply StronglySorted_inv in S. destruct S as [_ F]. rewrite Forall_forall in F. now apply F. Qed.

Lemma sorted_head_not_in e t x : StronglySorted addr_slt (e :: t) -> (v_addr x <= v_addr e)%N -> ~ In (v_addr x) (map v_addr t).
Proof.
  intros S L Hin. apply in_map_iff in Hin. destruct Hin as (y & Ey & Hy).
  pose proof (sorted_head_lt e t y S Hy). lia.
Qed.

Lemma merge_in_iff ex : forall ups x,
  StronglySorted addr_slt ex -> StronglySorted addr_slt ups ->
  (In x (merge_updates ex ups) <-> (In x ex /\ ~ In (v_addr x) (map v_addr ups)) \/ In x ups).
Proof.
  induction ex as [|e ex' IHe]; intros ups x Se Su; [rewrite merge_nil_l; cbn; tauto|].
  induction ups as [|u ups' IHu]; [rewrite merge_nil_r; cbn; tauto|].
  pose proof (proj1 (StronglySorted_inv Se)) as Se'. pose proof (proj1 (StronglySorted_inv Su)) as Su'.
  rewrite merge_cons_cons. cbn [map In].
  destruct (N.ltb_spec (v_addr e) (v_addr u)) as [L|L]; [|destruct (N.eqb_spec (v_addr e) (v_addr u)) as [E|E]];
    cbn [In]; [rewrite (IHe _ x Se' Su)|rewrite (IHe _ x Se' Su')|rewrite (IHu Su')]; cbn [map In]; clear IHe IHu.
  - (* e goes first: its address is below every update *)
    pose proof (sorted_head_not_in u ups' e Su ltac:(lia)) as NIe. split; [intros [<-|H]|]; try tauto.
    left. split; [now left|]. intros [E|]; [lia|tauto].
  - (* u replaces e; nothing else has that address *)
    symmetry in E. split; [intros [<-|[[H N]|H]]|intros [[[<-|H] N]|[<-|H]]]; try tauto.
    left. split; [now right|]. intros [E'|]; [|tauto].
    pose proof (sorted_head_lt e ex' x Se H). lia.
  - (* u goes first: its address is below every existing one *)
    split; [intros [<-|[[H N]|H]]|intros [[H N]|[<-|H]]]; try tauto.
    left. split; [exact H|]. intros [E'|]; [|tauto].
    destruct H as [<-|H]; [lia|]. pose proof (sorted_head_lt e ex' x Se H). lia.
Qed.

Lemma merge_sorted ex : forall ups,
  StronglySorted addr_slt ex -> StronglySorted addr_slt ups -> StronglySorted addr_slt (merge_updates ex ups).
Proof.
  induction ex as [|e ex' IHe]; intros ups Se Su; [now rewrite merge_nil_l|].
  induction ups as [|u ups' IHu]; [now rewrite merge_nil_r|].
  pose proof (proj1 (StronglySorted_inv Se)) as Se'. pose proof (proj1 (StronglySorted_inv Su)) as Su'.
  rewrite merge_cons_cons.
  destruct (N.ltb_spec (v_addr e) (v_addr u)) as [L|L]; [|destruct (N.eqb_spec (v_addr e) (v_addr u)) as [E|E]].
  all: constructor; [auto|]; apply Forall_forall; intros x Hx.
  all: apply merge_in_iff in Hx; [|assumption..]; unfold addr_slt.
  - destruct Hx as [[Hx _]|[<-|Hx]]; [now apply (sorted_head_lt e ex')|exact L|].
    pose proof (sorted_head_lt u ups' x Su Hx). lia.
  - destruct Hx as [[Hx _]|Hx]; [|now apply (sorted_head_lt u ups')].
    pose proof (sorted_head_lt e ex' x Se Hx). lia.
  - destruct Hx as [[[<-|Hx] _]|Hx]; [lia| |now apply (sorted_head_lt u ups')].
    pose proof (sorted_head_lt e ex' x Se Hx). lia.
Qed.

Lemma removal_spec ex : forall dels,
  StronglySorted addr_slt ex -> StronglySorted addr_slt dels ->
  (forall d, In d dels -> In (v_addr d) (map v_addr ex)) ->
  exists r, apply_removals ex dels = Some r /\ StronglySorted addr_slt r /\
    (forall x, In x r <-> In x ex /\ ~ In (v_addr x) (map v_addr dels)) /\
    total_power r = total_power ex - lsum ex dels.
Proof.
  induction ex as [|e et IH]; intros dels Se Sd Hin.
  - destruct dels as [|d dt]; [|destruct (Hin d (or_introl eq_refl))].
    exists []. split; [reflexivity|]. split; [constructor|]. cbn. split; [tauto|lia].
  - destruct dels as [|d dt]; [exists (e :: et); split; [reflexivity|]; split; [exact Se|]; cbn; split; [tauto|lia]|].
    pose proof (proj1 (StronglySorted_inv Se)) as Se'. pose proof (proj1 (StronglySorted_inv Sd)) as Sd'.
    cbn [apply_removals]. rewrite total_power_cons, lsum_cons.
    destruct (N.eqb_spec (v_addr e) (v_addr d)) as [E|E].
    + (* e is deleted; the other deletions are further on *)
      symmetry in E. destruct (IH dt Se' Sd') as (r & -> & Sr & Mem & Tot).
      { intros d' Hd'. pose proof (sorted_head_lt d dt d' Sd Hd') as Ld.
        destruct (Hin d' (or_intror Hd')) as [E'|H]; [lia|exact H]. }
      exists r. split; [reflexivity|]. split; [exact Sr|]. split.
      * intros x. rewrite Mem. cbn [map In]. split; [intros [Hx N]|intros [[<-|Hx] N]]; try tauto.
        split; [now right|]. intros [E'|]; [|tauto]. pose proof (sorted_head_lt e et x Se Hx). lia.
      * rewrite Tot, look_cons_eq, lsum_cons_not_in by (try apply (sorted_head_not_in d dt e Sd); lia). lia.
    + (* e stays: it is below d, hence below every deletion *)
      assert ((v_addr e < v_addr d)%N) as Led.
      { destruct (Hin d (or_introl eq_refl)) as [H0|H0]; [congruence|].
        apply in_map_iff in H0. destruct H0 as (y & Ey & Hy). pose proof (sorted_head_lt e et y Se Hy). lia. }
      assert (~ In (v_addr e) (map v_addr (d :: dt))) as Ne.
      { cbn [map In]. pose proof (sorted_head_not_in d dt e Sd ltac:(lia)). intros [E'|]; [lia|tauto]. }
      destruct (IH (d :: dt) Se' Sd) as (r & -> & Sr & Mem & Tot).
      { intros d' Hd'. destruct (Hin d' Hd') as [E'|H]; [|exact H]. exfalso. apply Ne. rewrite E'. now apply in_map. }
      exists (e :: r). split; [reflexivity|]. split; [|split].
      * constructor; [exact Sr|]. apply Forall_forall. intros x Hx. apply Mem in Hx.
        exact (sorted_head_lt e et x Se (proj1 Hx)).
      * intros x. cbn [In]. rewrite Mem. split; [intros [<-|[Hx N]]|intros [[<-|Hx] N]]; tauto.
      * rewrite total_power_cons, Tot, <- lsum_cons, (lsum_cons_not_in e et _ Ne). lia.
Qed.

Definition good (s : vset) : Prop := wf_set s /\ bounded B0 (vs_vals s).

(** a good set without the requirement of being non-empty: NewValidatorSet starts from the
    empty set *)
Definition updatable (s : vset) : Prop :=
  NoDup (map v_addr (vs_vals s)) /\ (forall v, In v (vs_vals s) -> 0 < v_power v) /\
  total_power (vs_vals s) <= max_total_voting_power /\
  total_voting_power s = Some (s, total_power (vs_vals s)) /\ bounded B0 (vs_vals s).

Inductive hop := HInc (times : positive) | HUpd (changes : list validator).

(** the side condition under which absence of overflow is proved for a call *)
Definition hop_ok (s : vset) (o : hop) : Prop :=
  match o with
  | HInc times => (Z.pos times + 2) * total_power (vs_vals s) <= B0
  | HUpd _ => True
  end.

Lemma good_updatable s : good s -> updatable s.
Proof.
  intros [W HB]. pose proof W as [(_ & N & Pp & C) _].
  exact (conj N (conj Pp (conj C (conj (wf_total_voting_power _ W) HB)))).
Qed.

Lemma empty_updatable : updatable empty_vset.
Proof.
  split; [constructor|]. split; [intros v []|]. split; [unfold max_total_voting_power; cbn; lia|].
  split; [reflexivity|intros v []].
Qed.

Lemma two_T_le_B0 l : wf_vals l -> 2 * total_power l <= B0.
Proof. intros (_ & _ & _ & C). i64. Qed.
