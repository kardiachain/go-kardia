(** C12 — updateWithChangeSet on a good set (or on the empty set NewValidatorSet starts from),
    phase by phase: what each check decides, what merge and removal leave, and hence the outcome
    of the whole call ([update_cases]).  No panic, well-formedness of the result and the
    invariant of histories ([times_ok], [run_hops], [histories_good]) follow. *)
From Coq Require Import List ZArith NArith Bool Lia Permutation Sorted.
From Kardia Require Import Base.Int64 C12.Model C12.Spec C12.ProofsSort C12.ProofsUpdate C12.ProofsSpec
     C12.ProofsRefine C12.ProofsUpdate2 Generated.C12Facts.
Import ListNotations.
Local Open Scope Z_scope.

Definition dsum (ex ups : list validator) : Z := fold_right (fun u a => (v_power u - look ex u) + a) 0 ups.

Lemma dsum_cons ex u t : dsum ex (u :: t) = v_power u - look ex u + dsum ex t.
Proof. reflexivity. Qed.

Lemma dsum_perm ex a b : Permutation a b -> dsum ex a = dsum ex b.
Proof. intros P. induction P; rewrite ?dsum_cons; lia. Qed.

Lemma dsum_ext ex ex' ups : (forall u, In u ups -> look ex u = look ex' u) -> dsum ex ups = dsum ex' ups.
Proof.
  induction ups as [|u t IH]; intros H; [reflexivity|]. rewrite !dsum_cons, (H u (or_introl eq_refl)).
  rewrite IH; [reflexivity|]. intros; apply H; now right.
Qed.

Lemma dsum_members ex a : forall b, same_members a b -> dsum ex b = dsum ex a.
Proof.
  induction a as [|x t IH]; intros [|y r] [A P]; try discriminate; [reflexivity|].
  injection A as A1 A2. injection P as P1 P2.
  rewrite !dsum_cons, (IH r (conj A2 P2)). unfold look. now rewrite A1, P1.
Qed.

Lemma dsum_lsum ex ups : dsum ex ups = total_power ups - lsum ex ups.
Proof. induction ups as [|u t IH]; [reflexivity|]. rewrite dsum_cons, total_power_cons, lsum_cons. lia. Qed.

Lemma delta_exact vals u :
  (forall v, In v vals -> 0 < v_power v <= max_total_voting_power) ->
  0 <= v_power u <= max_total_voting_power ->
  delta vals u = v_power u - look vals u.
Proof.
  intros Pp Pu. unfold delta, look. destruct (get_by_addr (v_addr u) vals) as [v|] eqn:G; [|lia].
  apply get_by_addr_in in G. specialize (Pp v (proj1 G)). apply wrap64_id. i64.
Qed.

Lemma dsum_nonneg vals us d :
  (forall v, In v vals -> 0 < v_power v <= max_total_voting_power) ->
  (forall u, In u us -> 0 <= v_power u <= max_total_voting_power) ->
  0 <= d -> (forall u, In u us -> d <= delta vals u) -> 0 <= dsum vals us.
Proof.
  intros Pp Pu Hd Fu. induction us as [|x r IH]; [cbn; lia|]. rewrite dsum_cons.
  pose proof (Fu x (or_introl eq_refl)) as Lx. rewrite (delta_exact vals x Pp (Pu x (or_introl eq_refl))) in Lx.
  assert (0 <= dsum vals r); [|lia].
  apply IH; intros; [apply Pu|apply Fu]; now right.
Qed.

(** one step of the loop of verifyUpdates: no wrap *)
Lemma add_deltas_step vals u t acc :
  (forall v, In v vals -> 0 < v_power v <= max_total_voting_power) ->
  0 <= v_power u <= max_total_voting_power -> look vals u <= acc <= max_total_voting_power ->
  add_deltas vals (u :: t) acc =
  if max_total_voting_power <? acc + (v_power u - look vals u) then None
  else add_deltas vals t (acc + (v_power u - look vals u)).
Proof.
  intros Pp Pu Hacc. cbn [add_deltas]. rewrite (delta_exact vals u Pp Pu).
  pose proof (look_nonneg vals u (fun v Hv => proj1 (Pp v Hv))). now rewrite wrap64_id by i64.
Qed.

(** Adding the deltas in ascending order, with the cap tested after every step, decides whether
    the FINAL total is within the cap: once a (positive) delta has taken the running total
    above it, the later ones cannot bring it back.  No running total wraps. *)
Lemma add_deltas_sorted vals us : forall acc,
  (forall v, In v vals -> 0 < v_power v <= max_total_voting_power) ->
  (forall u, In u us -> 0 <= v_power u <= max_total_voting_power) ->
  lsum vals us <= acc <= max_total_voting_power ->
  StronglySorted (fun a b => delta vals a <= delta vals b) us ->
  add_deltas vals us acc =
    if acc + dsum vals us <=? max_total_voting_power then Some (acc + dsum vals us) else None.
Proof.
  induction us as [|u t IH]; intros acc Pp Pu Hacc S.
  - cbn. rewrite Z.add_0_r. destruct (Z.leb_spec acc max_total_voting_power); [reflexivity|lia].
  - rewrite lsum_cons in Hacc. rewrite dsum_cons.
    apply StronglySorted_inv in S. destruct S as [St Fu]. rewrite Forall_forall in Fu.
    pose proof (Pu u (or_introl eq_refl)) as Pu0.
    pose proof (lsum_nonneg vals t (fun v Hv => proj1 (Pp v Hv))) as L1.
    rewrite add_deltas_step by (try assumption; lia). rewrite (delta_exact vals u Pp Pu0) in Fu.
    destruct (Z.ltb_spec max_total_voting_power (acc + (v_power u - look vals u))) as [L|L].
    + pose proof (dsum_nonneg vals t (v_power u - look vals u) Pp (fun x Hx => Pu x (or_intror Hx)) ltac:(lia) Fu).
      destruct (Z.leb_spec (acc + (v_power u - look vals u + dsum vals t)) max_total_voting_power); [lia|reflexivity].
    + rewrite IH; [|exact Pp|intros; apply Pu; now right|lia|exact St].
      now rewrite <- Z.add_assoc.
Qed.

Theorem verify_updates_decides vals ups dels :
  NoDup (map v_addr (ups ++ dels)) ->
  (forall v, In v vals -> 0 < v_power v) -> total_power vals <= max_total_voting_power ->
  (forall u, In u ups -> 0 < v_power u <= max_total_voting_power) ->
  let T := total_power vals in
  let removed := lsum vals dels in
  verify_updates ups vals T removed =
    (if T - removed + dsum vals ups <=? max_total_voting_power then Some (T + dsum vals ups) else None).
Proof.
  intros Nud Ppv Cv Pups T removed.
  assert (forall v, In v vals -> 0 < v_power v <= max_total_voting_power) as Pvals.
  { intros v Hv. split; [now apply Ppv|]. pose proof (power_le_total _ _ Ppv Hv). fold T in H. lia. }
  pose proof (lsum_le_total vals (ups ++ dels) Nud Ppv) as L. rewrite lsum_app in L. fold T removed in L.
  pose proof (lsum_nonneg vals dels Ppv) as Lrem0. fold removed in Lrem0.
  pose proof (lsum_nonneg vals ups Ppv) as Lups0.
  unfold verify_updates.
  set (sups := sort_by (fun a b => delta vals a <? delta vals b) ups).
  assert (Permutation sups ups) as Psups by apply sort_by_perm.
  rewrite (wrap64_id (T - removed)) by i64.
  rewrite add_deltas_sorted, (dsum_perm vals _ _ Psups); try assumption.
  - destruct (Z.leb_spec (T - removed + dsum vals ups) max_total_voting_power) as [Le|_]; [|reflexivity].
    pose proof (total_power_nonneg ups (fun u Hu => proj1 (Pups u Hu))). rewrite dsum_lsum in *.
    rewrite wrap64_id by i64. f_equal. lia.
  - intros u Hu. apply (Permutation_in _ Psups) in Hu. specialize (Pups u Hu). lia.
  - rewrite (lsum_perm vals _ _ Psups). lia.
  - apply sort_by_sorted; intros a b; rewrite ?Z.ltb_lt, ?Z.ltb_ge; lia.
Qed.

Lemma look_lt e ex x : StronglySorted addr_slt (e :: ex) -> (v_addr x < v_addr e)%N -> look (e :: ex) x = 0.
Proof.
  intros S L. unfold look. replace (get_by_addr (v_addr x) (e :: ex)) with (@None validator); [reflexivity|].
  symmetry. apply get_none_iff. cbn [map In]. pose proof (sorted_head_not_in e ex x S ltac:(lia)).
  intros [E|]; [lia|tauto].
Qed.

Lemma merge_total ex : forall ups,
  StronglySorted addr_slt ex -> StronglySorted addr_slt ups ->
  total_power (merge_updates ex ups) = total_power ex + dsum ex ups.
Proof.
  induction ex as [|e ex' IHe]; intros ups Se Su.
  - rewrite merge_nil_l, dsum_lsum. replace (lsum [] ups) with 0; [cbn; lia|].
    clear. induction ups; [reflexivity|]. rewrite lsum_cons, <- IHups. reflexivity.
  - induction ups as [|u ups' IHu]; [rewrite merge_nil_r; cbn; lia|].
    pose proof (proj1 (StronglySorted_inv Se)) as Se'. pose proof (proj1 (StronglySorted_inv Su)) as Su'.
    rewrite merge_cons_cons, dsum_cons.
    destruct (N.ltb_spec (v_addr e) (v_addr u)) as [L|L]; [|destruct (N.eqb_spec (v_addr e) (v_addr u)) as [E|E]];
      rewrite !total_power_cons.
    + rewrite (IHe (u :: ups') Se' Su), dsum_cons, look_cons_ne by lia.
      rewrite (dsum_ext (e :: ex') ex' ups'); [lia|].
      intros x Hx. apply look_cons_ne. pose proof (sorted_head_lt u ups' x Su Hx). lia.
    + rewrite (IHe ups' Se' Su'), look_cons_eq by congruence.
      rewrite (dsum_ext (e :: ex') ex' ups'); [lia|].
      intros x Hx. apply look_cons_ne. pose proof (sorted_head_lt u ups' x Su Hx). lia.
    + rewrite (IHu Su'), total_power_cons, look_lt by (try assumption; lia). lia.
Qed.

(** applyUpdates followed by applyRemovals, for removals that are members and not updated *)
Lemma apply_changes vals ups dels :
  NoDup (map v_addr vals) -> StronglySorted addr_slt ups -> StronglySorted addr_slt dels ->
  (forall d, In d dels -> In (v_addr d) (map v_addr vals) /\ ~ In (v_addr d) (map v_addr ups)) ->
  exists l2, apply_removals (apply_updates vals ups) dels = Some l2 /\ NoDup (map v_addr l2) /\
    (forall x, In x l2 <->
       (In x vals /\ ~ In (v_addr x) (map v_addr ups) /\ ~ In (v_addr x) (map v_addr dels)) \/ In x ups) /\
    total_power l2 = total_power vals + dsum vals ups - lsum vals dels.
Proof.
  intros Nv Su Sd Hd. unfold apply_updates.
  pose proof (sort_by_perm addr_lt vals) as Psv. pose proof (sort_addr_strict vals Nv) as Ssv.
  set (svals := sort_by addr_lt vals) in *.
  pose proof (merge_sorted svals ups Ssv Su) as Sm.
  assert (forall x, In x (merge_updates svals ups) <-> (In x vals /\ ~ In (v_addr x) (map v_addr ups)) \/ In x ups) as Min.
  { intros x. rewrite (merge_in_iff svals ups x Ssv Su).
    assert (In x svals <-> In x vals) as -> by (split; apply Permutation_in; [|apply Permutation_sym]; exact Psv).
    reflexivity. }
  assert (forall d, In d dels -> exists v, In v vals /\ In v (merge_updates svals ups) /\ v_addr v = v_addr d) as Kept.
  { intros d Hdd. destruct (Hd d Hdd) as [Hv Nu]. apply in_map_iff in Hv. destruct Hv as (v & E & Hv).
    exists v. split; [exact Hv|]. split; [|exact E]. apply Min. left. split; [exact Hv|now rewrite E]. }
  destruct (removal_spec (merge_updates svals ups) dels Sm Sd) as (l2 & -> & S2 & Mem & Tot).
  { intros d Hdd. destruct (Kept d Hdd) as (v & _ & Hm & <-). now apply in_map. }
  exists l2. split; [reflexivity|]. split; [exact (strict_sorted_nodup _ S2)|]. split.
  - intros x. rewrite Mem, Min. split; [tauto|]. intros [H|Hx]; [tauto|].
    split; [now right|]. intros Hin. apply in_map_iff in Hin. destruct Hin as (d & E & Hdd).
    apply (proj2 (Hd d Hdd)). rewrite E. now apply in_map.
  - rewrite Tot, (merge_total svals ups Ssv Su), (total_power_perm _ _ Psv).
    rewrite (dsum_ext svals vals ups) by (intros; apply look_perm; [exact (nodup_addr_perm _ _ (Permutation_sym Psv) Nv)|exact Psv]).
    rewrite (lsum_ext _ vals dels); [lia|].
    intros d Hdd. destruct (Kept d Hdd) as (v & Hv & Hm & E). unfold look.
    rewrite (proj2 (get_some_iff _ (v_addr d) v (strict_sorted_nodup _ Sm)) (conj Hm E)).
    now rewrite (proj2 (get_some_iff _ (v_addr d) v Nv) (conj Hv E)).
Qed.

Lemma exists_not_in (vals dels : list validator) :
  NoDup (map v_addr vals) -> (length dels < length vals)%nat ->
  exists v, In v vals /\ ~ In (v_addr v) (map v_addr dels).
Proof.
  intros N L.
  destruct (Forall_Exists_dec (fun v => In (v_addr v) (map v_addr dels)) (fun v => in_dec N.eq_dec _ _) vals) as [F|E];
    [exfalso|now apply Exists_exists in E].
  rewrite Forall_forall in F. pose proof (addr_incl_length vals dels N F). lia.
Qed.

(** "no newcomer and as many removals as members" is exact: it fails iff somebody will be left *)
Lemma empty_test_false vals ups dels :
  NoDup (map v_addr vals) -> NoDup (map v_addr dels) ->
  (forall d, In d dels -> In (v_addr d) (map v_addr vals)) ->
  (Nat.eqb (num_new ups vals) 0 && Nat.eqb (length vals) (length dels) = false <->
   (exists u, In u ups /\ ~ In (v_addr u) (map v_addr vals)) \/
   (exists v, In v vals /\ ~ In (v_addr v) (map v_addr dels))).
Proof.
  intros Nv Nd Hd.
  pose proof (addr_incl_length dels vals Nd Hd) as LenD.
  assert ((exists u, In u ups /\ ~ In (v_addr u) (map v_addr vals)) <-> num_new ups vals <> O) as ->.
  { unfold num_new. split.
    - intros (u & Hu & Nu) E. apply length_zero_iff_nil in E.
      assert (In u (filter (fun u => negb (has_addr (v_addr u) vals)) ups)) as Hf; [|rewrite E in Hf; destruct Hf].
      apply filter_In. split; [exact Hu|]. apply negb_true_iff. destruct (has_addr _ vals) eqn:H; [|reflexivity].
      apply has_addr_in in H. contradiction.
    - destruct (filter _ ups) as [|u t] eqn:F; [intros H; now destruct H|intros _].
      assert (In u (u :: t)) as Hu by now left. rewrite <- F in Hu. apply filter_In in Hu. destruct Hu as [Hu H].
      exists u. split; [exact Hu|]. rewrite <- has_addr_in. now destruct (has_addr _ vals). }
  rewrite andb_false_iff, !Nat.eqb_neq. split; (intros [H|H]; [now left|right]).
  - apply exists_not_in; [exact Nv|lia].
  - destruct H as (v & Hv & NIv).
    pose proof (addr_incl_length (v :: dels) vals (NoDup_cons _ NIv Nd)) as LL. cbn [length] in LL.
    assert (S (length dels) <= length vals)%nat; [|lia].
    apply LL. intros x [<-|Hx]; [now apply in_map|now apply Hd].
Qed.

(** the set a successful update ends in; [l2] is the membership after merge and removal, with
    T' = total before the removals *)
Definition update_ok (s : vset) (ups dels : list validator) (s' : vset) : Prop :=
  let vals := vs_vals s in
  let T' := total_power vals + dsum vals ups in
  exists l2 l3 l4,
    NoDup (map v_addr l2) /\
    (forall x, In x l2 <->
       (In x vals /\ ~ In (v_addr x) (map v_addr ups) /\ ~ In (v_addr x) (map v_addr dels)) \/
       In x (new_priorities ups vals T')) /\
    total_power l2 = T' - lsum vals dels /\ wf_vals l2 /\
    renormalised (total_power l2) l2 l3 l4 /\
    s' = {| vs_vals := sort_by power_lt l4; vs_proposer := vs_proposer s; vs_total := total_power l2 |}.

(** the checks in the order of the code, each with the error it raises (the set is returned
    as it was), and the successful end *)
Definition update_result (s : vset) (allow : bool) (ups dels : list validator) (r : option (vset * uerr)) : Prop :=
  let vals := vs_vals s in
  if negb allow && negb (Nat.eqb (length dels) 0) then r = Some (s, UZeroPower)
  else if negb (forallb (fun d => has_addr (v_addr d) vals) dels) then r = Some (s, UUnknown)
  else if negb (total_power vals - lsum vals dels + dsum vals ups <=? max_total_voting_power) then r = Some (s, UOverflow)
  else if Nat.eqb (num_new ups vals) 0 && Nat.eqb (length vals) (length dels) then r = Some (s, UEmpty)
  else exists s', update_ok s ups dels s' /\ r = Some (s', UOk).

Theorem update_cases s cs allow ups dels :
  updatable s -> cs <> [] -> process_changes cs = ScanOk ups dels ->
  update_result s allow ups dels (update_with_change_set s cs allow).
Proof.
  intros (Nv & Ppv & Cv & Htv & HB) NE Hp. pose proof (process_ok_split _ _ _ Hp) as Sp.
  unfold update_result, update_with_change_set. destruct cs as [|c0 ct]; [congruence|]. rewrite Hp.
  set (vals := vs_vals s) in *. set (T := total_power vals) in *.
  destruct (negb allow && _); [reflexivity|].
  pose proof (split_ups_sorted _ _ _ Sp) as Sups. pose proof (split_dels_sorted _ _ _ Sp) as Sdels.
  pose proof (split_nodup _ _ _ Sp) as Nud. pose proof (split_dels_nodup _ _ _ Sp) as Nd.
  assert (forall u, In u ups -> 0 < v_power u <= max_total_voting_power) as Pups.
  { intros u Hu. apply (split_in_ups _ _ _ _ Sp) in Hu. destruct Hu as [Hu Hp0].
    destruct (split_valid _ _ _ Sp) as [_ F]. rewrite Forall_forall in F. destruct (F u Hu) as [_ R]. lia. }
  (* verifyRemovals finds every removal among the members, or the call ends with UUnknown *)
  pose proof (verify_removals_spec vals dels Ppv Cv Nd) as VR.
  destruct (forallb _ dels) eqn:Found; cbn [negb]; [|destruct VR as (p & ->); reflexivity].
  rewrite VR, Htv. fold vals.
  pose proof (proj1 (forallb_has_addr vals dels) Found) as DelIn.
  (* verifyUpdates decides by the final total alone *)
  pose proof (verify_updates_decides vals ups dels Nud Ppv Cv Pups) as VU. cbv zeta in VU. fold T in VU. rewrite VU.
  destruct (Z.leb_spec (T - lsum vals dels + dsum vals ups) max_total_voting_power) as [Cap|_]; cbn [negb]; [|reflexivity].
  destruct (_ && _) eqn:Hne; [reflexivity|].
  (* merge and removal leave the members that are not mentioned, and the updates *)
  set (tvp := T + dsum vals ups) in *.
  pose proof (new_priorities_members ups vals tvp) as Mup. set (ups' := new_priorities ups vals tvp) in *.
  destruct (apply_changes vals ups' dels Nv (strict_sorted_members _ _ Mup Sups) Sdels) as (l2 & -> & Nl2 & Mem & Tot).
  { intros d Hd. split; [now apply DelIn|]. rewrite (proj1 Mup). intros Hu.
    apply (split_disjoint _ _ _ _ Sp Hu). now apply in_map. }
  rewrite (dsum_members vals ups ups' Mup), (proj1 Mup) in *.
  (* the total recomputed from the merged list is the predicted one; nobody has power 0 *)
  pose proof (lsum_nonneg vals dels Ppv) as Lrem0.
  pose proof (lsum_le_total vals dels Nd Ppv) as Ldel. fold T in Ldel.
  assert (forall v, In v l2 -> 0 < v_power v) as Pl2.
  { intros v Hv. apply Mem in Hv. destruct Hv as [(Hv & _)|Hv]; [now apply Ppv|].
    revert v Hv. exact (same_members_pos _ _ Mup (fun u Hu => proj1 (Pups u Hu))). }
  assert (total_power l2 <= max_total_voting_power /\ 0 <= tvp <= 2 * max_total_voting_power) as [Cl2 Btvp]
      by (pose proof (total_power_nonneg l2 Pl2); subst tvp T; lia).
  unfold update_total. cbn [with_vals vs_vals].
  rewrite (sum_clip_exact l2 0 Pl2) by lia. rewrite Z.add_0_l.
  (* somebody is left *)
  assert (l2 <> []) as NE2.
  { intros ->. apply (empty_test_false vals ups dels Nv Nd DelIn) in Hne.
    assert (ups' = []) as E by (destruct ups' as [|u t]; [reflexivity|destruct (proj2 (Mem u) (or_intror (or_introl eq_refl)))]).
    assert (ups = []) as -> by (destruct Mup as [A _]; rewrite E in A; destruct ups; [reflexivity|discriminate]).
    destruct Hne as [(u & [] & _)|(v & Hv & NIv)]. apply (proj2 (Mem v)). left. cbn. tauto. }
  destruct l2 as [|h2 t2] eqn:EL2; [congruence|]. rewrite <- EL2 in *. clear EL2 h2 t2.
  assert (wf_vals l2) as Wl2 by (repeat split; assumption).
  set (s1 := with_total (with_vals s l2) (total_power l2)).
  assert (wf_set s1) as Ws1 by (split; [exact Wl2|reflexivity]).
  rewrite (wf_total_voting_power _ Ws1). cbn [s1 with_total with_vals vs_vals].
  assert (bounded B0 l2) as Bl2.
  { intros v Hv. apply Mem in Hv. destruct Hv as [(Hv & _)|Hv]; [now apply HB|].
    revert v Hv. now apply new_priorities_bounded. }
  pose proof (wf_total_pos _ Wl2) as T2pos.
  destruct (model_renormalise l2 (total_power l2) NE2 ltac:(lia) Bl2) as (l3 & l4 & -> & -> & RN).
  eexists. split; [|reflexivity]. exists l2, l3, l4. fold vals T tvp ups'.
  repeat (split; [assumption|]). reflexivity.
Qed.

Lemma update_result_some s allow ups dels r : update_result s allow ups dels r -> r <> None.
Proof.
  unfold update_result.
  destruct (negb allow && _); [now intros ->|]. destruct (negb (forallb _ _)); [now intros ->|].
  destruct (negb (_ <=? _)); [now intros ->|]. destruct (_ && _); [now intros ->|]. now intros (s' & _ & ->).
Qed.

Lemma update_result_ok s allow ups dels s' :
  update_result s allow ups dels (Some (s', UOk)) ->
  (forall d, In d dels -> In (v_addr d) (map v_addr (vs_vals s))) /\ update_ok s ups dels s'.
Proof.
  unfold update_result. destruct (negb allow && _); [intros [=]|].
  destruct (forallb _ dels) eqn:Found; [|intros [=]].
  destruct (negb (_ <=? _)); [intros [=]|]. destruct (_ && _); [intros [=]|].
  intros (s1 & U & [= <-]). split; [now apply forallb_has_addr|exact U].
Qed.

Theorem update_no_panic s cs allow :
  good s -> update_with_change_set s cs allow <> None.
Proof.
  intros G. destruct cs as [|c ct]; [discriminate|].
  destruct (process_changes (c :: ct)) as [e|ups dels] eqn:Hp.
  - destruct (update_scan_err s (c :: ct) allow e ltac:(discriminate) Hp) as [-> _]. discriminate.
  - exact (update_result_some _ _ _ _ _ (update_cases s (c :: ct) allow ups dels (good_updatable s G) ltac:(discriminate) Hp)).
Qed.

(** a successful update on an updatable set went through every check *)
Lemma update_ok_cases s cs allow s' :
  updatable s -> cs <> [] -> update_with_change_set s cs allow = Some (s', UOk) ->
  exists ups dels, change_split cs ups dels /\
    (forall d, In d dels -> In (v_addr d) (map v_addr (vs_vals s))) /\ update_ok s ups dels s'.
Proof.
  intros Us NE H. destruct (process_changes cs) as [e|ups dels] eqn:Hp.
  { destruct (update_scan_err s cs allow e NE Hp) as [E Ne]. congruence. }
  pose proof (update_cases s cs allow ups dels Us NE Hp) as R. rewrite H in R.
  exists ups, dels. split; [now apply process_ok_split|now apply update_result_ok with allow].
Qed.

Lemma update_preserves_gen s cs allow s' :
  updatable s -> cs <> [] ->
  update_with_change_set s cs allow = Some (s', UOk) ->
  wf_set s' /\ vs_proposer s' = vs_proposer s /\
  within_window (2 * total_power (vs_vals s')) (vs_vals s') /\
  0 <= sum_prio (vs_vals s') < Z.of_nat (length (vs_vals s')) /\
  bounded (2 * total_power (vs_vals s')) (vs_vals s') /\
  StronglySorted (fun a b => power_lt b a = false) (vs_vals s').
Proof.
  intros Us NE H.
  destruct (update_ok_cases s cs allow s' Us NE H) as
      (ups & dels & _ & _ & l2 & l3 & l4 & _ & _ & _ & Wl2 & (_ & _ & Win & Sum & Bnd & M) & ->).
  cbn [vs_vals vs_proposer].
  (* the final sort permutes the renormalised list *)
  pose proof (sort_by_perm power_lt l4) as Ps4.
  assert (total_power (sort_by power_lt l4) = total_power l2) as ET4
      by (rewrite (total_power_perm _ _ Ps4); exact (same_members_total _ _ M)).
  rewrite ET4. split; [|split; [reflexivity|split; [|split; [|split]]]].
  - split; [|exact (eq_sym ET4)].
    exact (wf_vals_perm _ _ (Permutation_sym Ps4) (wf_vals_members _ _ M Wl2)).
  - intros v w Hv Hw. apply Win; eapply Permutation_in; try exact Ps4; assumption.
  - rewrite (Permutation_length Ps4). change sum_prio with sum_priorities. rewrite (sum_priorities_perm _ _ Ps4). exact Sum.
  - intros v Hv. apply Bnd. eapply Permutation_in; [exact Ps4|exact Hv].
  - apply sort_power_sorted.
Qed.

Theorem update_preserves s cs allow s' :
  wf_set s -> bounded B0 (vs_vals s) -> cs <> [] ->
  update_with_change_set s cs allow = Some (s', UOk) ->
  wf_set s' /\ vs_proposer s' = vs_proposer s /\
  within_window (2 * total_power (vs_vals s')) (vs_vals s') /\
  0 <= sum_prio (vs_vals s') < Z.of_nat (length (vs_vals s')) /\
  bounded (2 * total_power (vs_vals s')) (vs_vals s') /\
  StronglySorted (fun a b => power_lt b a = false) (vs_vals s').
Proof. intros W HB. exact (update_preserves_gen s cs allow s' (good_updatable s (conj W HB))). Qed.

(** a state-independent sufficient condition for [hop_ok]: it holds for times = 1, the one
    round the chain runs after every block *)
Definition times_ok (o : hop) : Prop :=
  match o with HInc k => (Z.pos k + 2) * max_total_voting_power <= B0 | HUpd _ => True end.

Lemma times_ok_one : times_ok (HInc 1).
Proof. vm_compute. discriminate. Qed.

Lemma times_ok_hop_ok s o : times_ok o -> wf_vals (vs_vals s) -> hop_ok s o.
Proof.
  destruct o as [k|cs]; [|exact (fun _ _ => I)]. cbn [hop_ok times_ok]. intros H (_ & _ & _ & C).
  assert ((Z.pos k + 2) * total_power (vs_vals s) <= (Z.pos k + 2) * max_total_voting_power)
    by (apply Z.mul_le_mono_nonneg_l; lia). lia.
Qed.

Theorem new_validator_set_good vals s :
  vals <> [] -> new_validator_set vals = Some s ->
  wf_set s /\ bounded B0 (vs_vals s) /\
  exists a p, vs_proposer s = Some (a, p) /\ exists m, In m (vs_vals s) /\ v_addr m = a /\ v_power m = p.
Proof.
  intros NE H. unfold new_validator_set in H.
  destruct (update_with_change_set empty_vset vals false) as [[s1 e]|] eqn:U; [|discriminate].
  destruct e; try discriminate. destruct vals as [|v0 vt]; [congruence|].
  destruct (update_preserves_gen _ _ _ _ empty_updatable NE U) as (W1 & _ & _ & _ & B1 & _).
  pose proof (bounded_mono _ _ _ (two_T_le_B0 _ (proj1 W1)) B1) as B1'.
  pose proof (times_ok_hop_ok s1 (HInc 1) times_ok_one (proj1 W1)) as T1.
  destruct (increment_refines s1 1%positive W1 B1' T1) as (s' & props & a & p & E & _ & _ & Pr & Mem & W' & _ & B').
  change 1 with (Z.pos 1) in H. rewrite E in H. inversion H; subst s'.
  split; [exact W'|]. split; [exact (bounded_mono _ _ _ T1 B')|exists a, p; auto].
Qed.

Theorem hop_preserves_good s o :
  good s -> hop_ok s o ->
  match o with
  | HInc times =>
    exists s' props, increment s (Z.pos times) = Some s' /\ good s' /\
      spec_increment (vs_vals s) (Pos.to_nat times) (vs_vals s') props /\
      exists p, vs_proposer s' = Some (last props 0%N, p)
  | HUpd cs =>
    forall s' e, update_with_change_set s cs true = Some (s', e) ->
      match e with
      | UOk => good s' /\
          (cs <> [] -> within_window (2 * total_power (vs_vals s')) (vs_vals s') /\
                       0 <= sum_prio (vs_vals s') < Z.of_nat (length (vs_vals s')))
      | _ => s' = s
      end
  end.
Proof.
  intros [W HB] OK. destruct o as [times|cs].
  - cbn [hop_ok] in OK.
    destruct (increment_refines s times W HB OK) as (s' & props & a & p & E & SI & L & Pr & _ & W' & _ & B').
    exists s', props. split; [exact E|]. split; [|split; [exact SI|]].
    + exact (conj W' (bounded_mono _ _ _ OK B')).
    + exists p. now rewrite L.
  - intros s' e U.
    assert (e <> UOk -> s' = s) as AT.
    { intros NEe. destruct (update_atomic _ _ _ _ _ U NEe) as [->|[Z0 _]]; [reflexivity|].
      exfalso. destruct W as [Wv E]. pose proof (wf_total_pos _ Wv). lia. }
    destruct e; try (apply AT; discriminate).
    destruct cs as [|c0 ct].
    { cbn in U. inversion U; subst. split; [split; assumption|congruence]. }
    destruct (update_preserves s (c0 :: ct) true s' W HB ltac:(discriminate) U) as (W' & _ & Win & Sum & B' & _).
    split; [exact (conj W' (bounded_mono _ _ _ (two_T_le_B0 _ (proj1 W')) B'))|]. intros _. split; assumption.
Qed.

(** one round on a good set, as the chain runs it after every block *)
Lemma increment_one_good s :
  good s ->
  exists s' props p, increment s 1 = Some s' /\ good s' /\
    spec_increment (vs_vals s) 1 (vs_vals s') props /\ vs_proposer s' = Some (last props 0%N, p).
Proof.
  intros G. destruct (hop_preserves_good s (HInc 1) G (times_ok_hop_ok s _ times_ok_one (proj1 (proj1 G)))) as (s' & props & I1 & G' & SI & p & Pr).
  exists s', props, p. auto.
Qed.

Fixpoint run_hops (s : vset) (ops : list hop) : option vset :=
  match ops with
  | [] => Some s
  | HInc k :: r => match increment s (Z.pos k) with Some s' => run_hops s' r | None => None end
  | HUpd cs :: r => match update_with_change_set s cs true with Some (s', _) => run_hops s' r | None => None end
  end.

Theorem histories_good s ops :
  good s -> Forall times_ok ops -> exists s', run_hops s ops = Some s' /\ good s'.
Proof.
  revert s. induction ops as [|o r IH]; intros s G F; [exists s; split; [reflexivity|exact G]|].
  inversion F as [|? ? Fo Fr]; subst.
  pose proof (hop_preserves_good s o G (times_ok_hop_ok s o Fo (proj1 (proj1 G)))) as H. destruct o as [k|cs]; cbn [run_hops].
  - destruct H as (s' & props & -> & G' & _). now apply IH.
  - destruct (update_with_change_set s cs true) as [[s' e]|] eqn:U.
    + specialize (H s' e eq_refl). apply IH; [|exact Fr].
      destruct e; try (subst s'; exact G). apply H.
    + exfalso. revert U. now apply update_no_panic.
Qed.
